(** * WM.ViewLemmas : guarantees of the view machine of WM/View.v

    The numbered sections prove the ten guarantees the exploration and the program proofs rely on
    ("item N" in a comment refers to this list; the sections stand in dependency order, not in
    numerical order):
      1 well-formedness is an invariant          6 message passing through fences
      2 views and memory only grow               7 release sequences
      3 read-read coherence                      8 no store buffering across seq_cst fences
      4 write-read coherence                     9 every SC interleaving is a weak execution
      5 message passing (release / acquire)     10 seq_cst accesses are totally ordered
    The unnumbered sections hold what a proof about a program over the machine uses step by step:
    views, message lists, the shape of the memory after each operation, inversion of labelled steps,
    and "One step, as an invariant proof over a program sees it" ([appends], [load_facts],
    [store_facts], [rmw_facts]).  The last section shows by litmus executions that the machine
    really is weak. *)

Require Import List NArith Arith Lia Bool.
Import ListNotations.
Require Import XV.WM.View.

(** ** Views *)

Lemma upd_same : forall v l k, upd v l k l = k.
Proof. intros; unfold upd; now rewrite Nat.eqb_refl. Qed.

Lemma upd_other : forall v l k l', l' <> l -> upd v l k l' = v l'.
Proof.
  intros; unfold upd. destruct (Nat.eqb_spec l' l); [contradiction|reflexivity].
Qed.

Lemma vjoin_l : forall v1 v2 l, v1 l <= vjoin v1 v2 l.
Proof. intros; unfold vjoin; lia. Qed.

Lemma vjoin_r : forall v1 v2 l, v2 l <= vjoin v1 v2 l.
Proof. intros; unfold vjoin; lia. Qed.

Lemma vjoin_lub : forall v1 v2 l k, v1 l <= k -> v2 l <= k -> vjoin v1 v2 l <= k.
Proof. intros; unfold vjoin; lia. Qed.

Lemma vle_refl : forall v, vle v v.
Proof. intros v l; lia. Qed.

Lemma vle_trans : forall a b c, vle a b -> vle b c -> vle a c.
Proof. intros a b c H1 H2 l; specialize (H1 l); specialize (H2 l); lia. Qed.

Lemma sc_pre_ge : forall o sc c l, c l <= sc_pre o sc c l.
Proof. intros; unfold sc_pre, vjoin; destruct (is_sc o); lia. Qed.

Lemma sc_pre_sc : forall sc c l, sc l <= sc_pre SC sc c l.
Proof. intros; unfold sc_pre, vjoin; simpl; lia. Qed.

Lemma sc_pre_lub : forall o sc c l k, c l <= k -> sc l <= k -> sc_pre o sc c l <= k.
Proof. intros; unfold sc_pre, vjoin; destruct (is_sc o); lia. Qed.

Lemma upd_thr_same : forall th t x, upd_thr th t x t = x.
Proof. intros; unfold upd_thr; now rewrite Nat.eqb_refl. Qed.

Lemma upd_thr_other : forall th t x t', t' <> t -> upd_thr th t x t' = th t'.
Proof.
  intros; unfold upd_thr. destruct (Nat.eqb_spec t' t); [contradiction|reflexivity].
Qed.

Lemma upd_mem_same : forall mm l ms, upd_mem mm l ms l = ms.
Proof. intros; unfold upd_mem; now rewrite Nat.eqb_refl. Qed.

Lemma upd_mem_other : forall mm l ms l', l' <> l -> upd_mem mm l ms l' = mm l'.
Proof.
  intros; unfold upd_mem. destruct (Nat.eqb_spec l' l); [contradiction|reflexivity].
Qed.

(** ** Message lists *)

Lemma last_msg_app : forall ms m, last_msg (ms ++ [m]) = m.
Proof. intros; unfold last_msg; apply last_last. Qed.

Lemma last_ts_app : forall ms m, last_ts (ms ++ [m]) = m_ts m.
Proof. intros; unfold last_ts; now rewrite last_msg_app. Qed.

Lemma last_msg_in : forall ms, ms <> [] -> In (last_msg ms) ms.
Proof.
  unfold last_msg. induction ms as [|a r IH]; intros H; [congruence|].
  destruct r as [|b r']; [left; reflexivity|].
  right. change (In (last (b :: r') init_msg) (b :: r')). apply IH; discriminate.
Qed.

Lemma incr_ts_le_last : forall ms m, incr_ts ms -> In m ms -> m_ts m <= last_ts ms.
Proof.
  unfold last_ts, last_msg.
  induction ms as [|a r IH]; intros m Hs Hin; [inversion Hin|].
  destruct Hs as [Ha Hr]. destruct r as [|b r'].
  - destruct Hin as [->|[]]. simpl; lia.
  - change (m_ts m <= m_ts (last (b :: r') init_msg)).
    destruct Hin as [->|Hin].
    + assert (Hl : In (last_msg (b :: r')) (b :: r')) by (apply last_msg_in; discriminate).
      apply Ha in Hl. unfold last_msg in Hl. lia.
    + apply IH; assumption.
Qed.

Lemma incr_ts_app : forall ms m,
  incr_ts ms -> (forall m', In m' ms -> m_ts m' < m_ts m) -> incr_ts (ms ++ [m]).
Proof.
  induction ms as [|a r IH]; intros m Hs Hlt; simpl.
  - split; [intros ? []|exact I].
  - destruct Hs as [Ha Hr]. split.
    + intros m' Hin. apply in_app_or in Hin. destruct Hin as [Hin|[<-|[]]].
      * now apply Ha.
      * apply Hlt; now left.
    + apply IH; [assumption|]. intros m' Hin; apply Hlt; now right.
Qed.

Lemma incr_ts_inj : forall ms m m',
  incr_ts ms -> In m ms -> In m' ms -> m_ts m = m_ts m' -> m = m'.
Proof.
  induction ms as [|a r IH]; intros m m' Hs H1 H2 He; [inversion H1|].
  destruct Hs as [Ha Hr]. destruct H1 as [<-|H1], H2 as [<-|H2].
  - reflexivity.
  - apply Ha in H2; lia.
  - apply Ha in H1; lia.
  - now apply IH.
Qed.

(** ** Shape of the memory after each operation *)

Lemma memory_do_load : forall s t l o m, memory (do_load s t l o m) = memory s.
Proof. reflexivity. Qed.

Definition new_msg (e : view) (s : state) (t : tid) (l : loc) (o : ord) (v : val) : msg :=
  last_msg (memory (do_store_with e s t l o v) l).

Lemma memory_store_same : forall e s t l o v,
  memory (do_store_with e s t l o v) l = memory s l ++ [new_msg e s t l o v].
Proof.
  intros. unfold new_msg. simpl. rewrite upd_mem_same. now rewrite last_msg_app.
Qed.

Lemma memory_store_other : forall e s t l o v l',
  l' <> l -> memory (do_store_with e s t l o v) l' = memory s l'.
Proof. intros. simpl. now rewrite upd_mem_other. Qed.

Lemma new_msg_ts : forall e s t l o v,
  m_ts (new_msg e s t l o v) = S (last_ts (memory s l)).
Proof. intros. unfold new_msg. simpl. rewrite upd_mem_same, last_msg_app. reflexivity. Qed.

Lemma new_msg_val : forall e s t l o v, m_val (new_msg e s t l o v) = v.
Proof. intros. unfold new_msg. simpl. rewrite upd_mem_same, last_msg_app. reflexivity. Qed.

Lemma new_msg_view : forall e s t l o v l',
  m_view (new_msg e s t l o v) l' =
  Nat.max ((if is_rel o then upd (read_view s t o) l (S (last_ts (memory s l)))
            else upd (rel (threads s t)) l (S (last_ts (memory s l)))) l') (e l').
Proof. intros. unfold new_msg. simpl. rewrite upd_mem_same, last_msg_app. reflexivity. Qed.

Lemma last_ts_store : forall e s t l o v l',
  last_ts (memory (do_store_with e s t l o v) l') =
  if Nat.eqb l' l then S (last_ts (memory s l)) else last_ts (memory s l').
Proof.
  intros. destruct (Nat.eqb_spec l' l) as [->|Hn].
  - rewrite memory_store_same, last_ts_app. apply new_msg_ts.
  - now rewrite memory_store_other.
Qed.

Lemma in_memory_store : forall e s t l o v l' m,
  In m (memory (do_store_with e s t l o v) l') <->
  In m (memory s l') \/ (l' = l /\ m = new_msg e s t l o v).
Proof.
  intros. destruct (Nat.eqb_spec l' l) as [->|Hn].
  - rewrite memory_store_same. rewrite in_app_iff. simpl. intuition.
  - rewrite memory_store_other by assumption. intuition.
Qed.

(** thread components after each operation *)

Lemma threads_store_same : forall e s t l o v,
  threads (do_store_with e s t l o v) t =
  {| cur := upd (read_view s t o) l (S (last_ts (memory s l)));
     acq := acq (threads s t); rel := rel (threads s t) |}.
Proof. intros. simpl. now rewrite upd_thr_same. Qed.

Lemma threads_store_other : forall e s t l o v t',
  t' <> t -> threads (do_store_with e s t l o v) t' = threads s t'.
Proof. intros. simpl. now rewrite upd_thr_other. Qed.

Lemma threads_load_other : forall s t l o m t',
  t' <> t -> threads (do_load s t l o m) t' = threads s t'.
Proof. intros. simpl. now rewrite upd_thr_other. Qed.

Lemma threads_fence_other : forall s t o t',
  t' <> t -> threads (do_fence s t o) t' = threads s t'.
Proof. intros. simpl. now rewrite upd_thr_other. Qed.

(** ** 1. Well-formedness is an invariant *)

Lemma wf_init : wf init.
Proof.
  constructor; simpl; intros; try (unfold vbot; lia).
  - discriminate.
  - split; [intros ? []|exact I].
  - destruct H as [<-|[]]. unfold last_ts, last_msg; simpl. unfold vbot; lia.
  - destruct H as [<-|[]]. reflexivity.
Qed.

Lemma wf_read_view : forall s t o l,
  wf s -> read_view s t o l <= last_ts (memory s l).
Proof.
  intros. unfold read_view. apply sc_pre_lub; [apply wf_cur|apply wf_sc]; assumption.
Qed.

Lemma wf_in_ts : forall s l m, wf s -> In m (memory s l) -> m_ts m <= last_ts (memory s l).
Proof. intros. apply incr_ts_le_last; [apply wf_sorted|]; assumption. Qed.

Lemma wf_last_in : forall s l, wf s -> In (last_msg (memory s l)) (memory s l).
Proof. intros. apply last_msg_in. now apply wf_nonempty. Qed.

Lemma read_view_ge_cur : forall s t o l, cur (threads s t) l <= read_view s t o l.
Proof. intros. unfold read_view. apply sc_pre_ge. Qed.

Lemma cur_do_load : forall s t l o m l',
  cur (threads (do_load s t l o m) t) l' =
  (if is_acq o
   then vjoin (upd (read_view s t o) l (Nat.max (read_view s t o l) (m_ts m))) (m_view m)
   else upd (read_view s t o) l (Nat.max (read_view s t o l) (m_ts m))) l'.
Proof. intros. simpl. rewrite upd_thr_same. simpl. destruct (is_acq o); reflexivity. Qed.

Lemma cur_do_load_bound : forall s t l o m l',
  wf s -> In m (memory s l) ->
  cur (threads (do_load s t l o m) t) l' <= last_ts (memory s l').
Proof.
  intros s t l o m l' W Hin. rewrite cur_do_load.
  assert (B : upd (read_view s t o) l (Nat.max (read_view s t o l) (m_ts m)) l'
              <= last_ts (memory s l')).
  { unfold upd. destruct (Nat.eqb_spec l' l) as [->|Hn].
    - pose proof (wf_read_view s t o l W). pose proof (wf_in_ts s l m W Hin). lia.
    - now apply wf_read_view. }
  destruct (is_acq o); [|exact B].
  apply vjoin_lub; [exact B|]. eapply wf_msg; eassumption.
Qed.

Lemma scview_do_load : forall s t l o m l',
  scview (do_load s t l o m) l' =
  sc_post o (scview s) (cur (threads (do_load s t l o m) t)) l'.
Proof. intros. simpl. rewrite upd_thr_same. reflexivity. Qed.

Lemma scview_store : forall e s t l o v l',
  scview (do_store_with e s t l o v) l' =
  sc_post o (scview s) (cur (threads (do_store_with e s t l o v) t)) l'.
Proof. intros. simpl. rewrite upd_thr_same. reflexivity. Qed.

Lemma scview_do_fence : forall s t o l',
  scview (do_fence s t o) l' =
  sc_post o (scview s) (cur (threads (do_fence s t o) t)) l'.
Proof. intros. simpl. rewrite upd_thr_same. reflexivity. Qed.

(** what [wf] says about the memory alone *)
Definition mem_wf (mm : mem) : Prop :=
  (forall l, mm l <> [] /\ incr_ts (mm l)) /\
  forall l m, In m (mm l) -> m_view m l = m_ts m /\ forall l', m_view m l' <= last_ts (mm l').

Lemma wf_mem : forall s, wf s -> mem_wf (memory s).
Proof.
  intros s W. split; intros.
  - split; [apply wf_nonempty|apply wf_sorted]; exact W.
  - split; [now apply (wf_msg_self s W)|intros; eapply wf_msg; eassumption].
Qed.

(** [s'] differs from [s] in thread [t], in the SC view (published by an access of order [o]) and by
    appended messages: what is left to show is about the memory and about thread [t] *)
Lemma wf_upd : forall s s' t o,
  wf s ->
  (forall t0, t0 <> t -> threads s' t0 = threads s t0) ->
  (forall l, scview s' l = sc_post o (scview s) (cur (threads s' t)) l) ->
  (forall l, last_ts (memory s l) <= last_ts (memory s' l)) ->
  mem_wf (memory s') ->
  (forall l, cur (threads s' t) l <= last_ts (memory s' l) /\
             acq (threads s' t) l <= last_ts (memory s' l) /\
             rel (threads s' t) l <= cur (threads s' t) l) ->
  wf s'.
Proof.
  intros s s' t o W Ht Hs Hl [Hm Hv] HT.
  constructor; intros; try apply Hm; try apply (Hv l m H).
  - destruct (Nat.eq_dec t0 t) as [->|N]; [apply HT|]. rewrite Ht by assumption.
    etransitivity; [now apply wf_cur|apply Hl].
  - destruct (Nat.eq_dec t0 t) as [->|N]; [apply HT|]. rewrite Ht by assumption.
    etransitivity; [now apply wf_acq|apply Hl].
  - destruct (Nat.eq_dec t0 t) as [->|N]; [apply HT|]. rewrite Ht by assumption. now apply wf_rel.
  - rewrite Hs. unfold sc_post. destruct (is_sc o); [apply HT|]. etransitivity; [now apply wf_sc|apply Hl].
Qed.

Lemma wf_do_load : forall s t l o m,
  wf s -> In m (memory s l) -> wf (do_load s t l o m).
Proof.
  intros s t l o m W Hin. apply (wf_upd s _ t o W).
  - intros; now apply threads_load_other.
  - apply scview_do_load.
  - intros; apply le_n.
  - exact (wf_mem s W).
  - intros l0. split; [exact (cur_do_load_bound s t l o m l0 W Hin)|]. rewrite cur_do_load. simpl. rewrite upd_thr_same. simpl.
    pose proof (wf_rel s W t l0) as R. pose proof (read_view_ge_cur s t o l0) as P.
    assert (B : rel (threads s t) l0 <=
                upd (read_view s t o) l (Nat.max (read_view s t o l) (m_ts m)) l0).
    { unfold upd. destruct (Nat.eqb_spec l0 l) as [->|Hn]; lia. }
    destruct (is_acq o); (split; [|unfold vjoin; lia]).
    + now apply wf_acq.
    + apply vjoin_lub; [now apply wf_acq|]. eapply wf_msg; eassumption.
Qed.

Lemma wf_do_store_with : forall e s t l o v,
  wf s ->
  (forall l', e l' <= last_ts (memory s l')) ->
  wf (do_store_with e s t l o v).
Proof.
  intros e s t l o v W He.
  assert (RV := fun l' => wf_read_view s t o l' W).
  assert (Hl : forall l0, last_ts (memory s l0) <= last_ts (memory (do_store_with e s t l o v) l0)).
  { intros. rewrite last_ts_store. destruct (Nat.eqb_spec l0 l) as [->|]; lia. }
  apply (wf_upd s _ t o W).
  - intros; now apply threads_store_other.
  - apply scview_store.
  - exact Hl.
  - split; intros.
    + destruct (Nat.eq_dec l0 l) as [->|Hn].
      * rewrite memory_store_same. split; [intros Hc; apply app_eq_nil in Hc; destruct Hc; discriminate|].
        apply incr_ts_app; [now apply wf_sorted|].
        intros m' Hin. rewrite new_msg_ts. pose proof (wf_in_ts s l m' W Hin). lia.
      * rewrite memory_store_other by assumption. split; [now apply wf_nonempty|now apply wf_sorted].
    + apply in_memory_store in H. destruct H as [H|[-> ->]].
      * split; [now apply (wf_msg_self s W)|]. intros l'. pose proof (wf_msg s W l0 m l' H). specialize (Hl l'). lia.
      * pose proof (wf_rel s W t) as R. pose proof (wf_cur s W t) as C.
        split; [|intros l'; rewrite last_ts_store]; rewrite new_msg_view, ?new_msg_ts.
        -- specialize (He l). destruct (is_rel o); rewrite upd_same; lia.
        -- specialize (He l'). specialize (RV l'). specialize (R l'). specialize (C l').
           unfold upd. destruct (is_rel o); destruct (Nat.eqb_spec l' l) as [->|]; lia.
  - intros l0. rewrite last_ts_store, threads_store_same. simpl.
    pose proof (wf_rel s W t l0). pose proof (wf_cur s W t l0). pose proof (wf_acq s W t l0).
    pose proof (read_view_ge_cur s t o l0). specialize (RV l0).
    unfold upd. destruct (Nat.eqb_spec l0 l) as [->|]; lia.
Qed.

Lemma wf_do_store : forall s t l o v, wf s -> wf (do_store s t l o v).
Proof.
  intros. unfold do_store. apply wf_do_store_with; [assumption|].
  intros; unfold vbot; lia.
Qed.

Lemma wf_do_rmw : forall s t l o v, wf s -> wf (do_rmw s t l o v).
Proof.
  intros s t l o v W. unfold do_rmw.
  apply wf_do_store_with.
  - apply wf_do_load; [assumption|now apply wf_last_in].
  - intros l'. rewrite memory_do_load. eapply wf_msg; [assumption|].
    apply wf_last_in; assumption.
Qed.

Lemma cur_do_fence : forall s t o l,
  cur (threads (do_fence s t o) t) l =
  sc_pre o (scview s)
         (if is_acq o then vjoin (cur (threads s t)) (acq (threads s t))
          else cur (threads s t)) l.
Proof. intros. simpl. rewrite upd_thr_same. reflexivity. Qed.

Lemma cur_do_fence_bound : forall s t o l,
  wf s -> cur (threads (do_fence s t o) t) l <= last_ts (memory s l).
Proof.
  intros s t o l W. rewrite cur_do_fence.
  apply sc_pre_lub; [|now apply wf_sc].
  destruct (is_acq o); [apply vjoin_lub; [now apply wf_cur|now apply wf_acq]|now apply wf_cur].
Qed.

Lemma cur_do_fence_ge : forall s t o l,
  cur (threads s t) l <= cur (threads (do_fence s t o) t) l.
Proof.
  intros. rewrite cur_do_fence.
  etransitivity; [|apply sc_pre_ge]. destruct (is_acq o); [apply vjoin_l|lia].
Qed.

Lemma wf_do_fence : forall s t o, wf s -> wf (do_fence s t o).
Proof.
  intros s t o W. apply (wf_upd s _ t o W).
  - intros; now apply threads_fence_other.
  - apply scview_do_fence.
  - intros; apply le_n.
  - exact (wf_mem s W).
  - intros l. split; [exact (cur_do_fence_bound s t o l W)|].
    pose proof (cur_do_fence_ge s t o l) as G. pose proof (wf_rel s W t l) as R.
    pose proof (wf_acq s W t l) as A. simpl in *. rewrite upd_thr_same in *. simpl in *.
    destruct (is_rel o); lia.
Qed.

Lemma wf_step : forall s t lab s', wf s -> step s t lab s' -> wf s'.
Proof.
  intros s t lab s' W St. destruct St.
  - destruct H. now apply wf_do_load.
  - now apply wf_do_store.
  - now apply wf_do_rmw.
  - now apply wf_do_fence.
Qed.

Theorem wf_reachable : forall s, reachable s -> wf s.
Proof.
  induction 1; [apply wf_init|eapply wf_step; eassumption].
Qed.

Lemma reachable_steps : forall s s', reachable s -> steps s s' -> reachable s'.
Proof.
  intros s s' R St. induction St; [assumption|].
  apply IHSt. eapply reach_step; eassumption.
Qed.

Lemma wf_steps : forall s s', wf s -> steps s s' -> wf s'.
Proof.
  intros s s' W St. induction St; [assumption|]. apply IHSt. eapply wf_step; eassumption.
Qed.

Lemma steps_trans : forall a b c, steps a b -> steps b c -> steps a c.
Proof.
  intros a b c H1 H2. induction H1; [assumption|]. eapply steps_cons; eauto.
Qed.

Lemma steps_one : forall s t lab s', step s t lab s' -> steps s s'.
Proof. intros. eapply steps_cons; [eassumption|apply steps_refl]. Qed.

(** unfolded, readable form of item 1 *)
Corollary wf_reachable_unfolded : forall s, reachable s ->
  (forall l, memory s l <> [] /\ incr_ts (memory s l)) /\
  (forall t l, cur (threads s t) l <= last_ts (memory s l)) /\
  (forall t l, acq (threads s t) l <= last_ts (memory s l)) /\
  (forall t l, rel (threads s t) l <= cur (threads s t) l) /\
  (forall l, scview s l <= last_ts (memory s l)) /\
  (forall l m, In m (memory s l) ->
     m_ts m <= last_ts (memory s l) /\ m_view m l = m_ts m /\
     forall l', m_view m l' <= last_ts (memory s l')).
Proof.
  intros s R. apply wf_reachable in R.
  repeat split; intros.
  - now apply wf_nonempty.
  - now apply wf_sorted.
  - now apply wf_cur.
  - now apply wf_acq.
  - now apply wf_rel.
  - now apply wf_sc.
  - now apply wf_in_ts.
  - now apply (wf_msg_self s R).
  - eapply wf_msg; eassumption.
Qed.

(** ** 2. Monotonicity *)

Record mono (s s' : state) : Prop := {
  mono_cur  : forall t l, cur (threads s t) l <= cur (threads s' t) l;
  mono_acq  : forall t l, acq (threads s t) l <= acq (threads s' t) l;
  mono_rel  : forall t l, rel (threads s t) l <= rel (threads s' t) l;
  mono_sc   : forall l, scview s l <= scview s' l;
  mono_mem  : forall l m, In m (memory s l) -> In m (memory s' l);
  mono_last : forall l, last_ts (memory s l) <= last_ts (memory s' l)
}.

Lemma mono_refl : forall s, mono s s.
Proof. intros; constructor; intros; auto. Qed.

Lemma mono_trans : forall a b c, mono a b -> mono b c -> mono a c.
Proof.
  intros a b c [] []. constructor; intros; eauto using Nat.le_trans.
Qed.

Lemma read_view_ge_sc : forall s t o l,
  is_sc o = true -> scview s l <= read_view s t o l.
Proof. intros s t o l E. unfold read_view, sc_pre. rewrite E. apply vjoin_r. Qed.

Lemma cur_do_load_ge : forall s t l o m l',
  read_view s t o l' <= cur (threads (do_load s t l o m) t) l'.
Proof.
  intros. rewrite cur_do_load.
  assert (B : read_view s t o l' <=
              upd (read_view s t o) l (Nat.max (read_view s t o l) (m_ts m)) l').
  { unfold upd. destruct (Nat.eqb_spec l' l) as [->|]; lia. }
  destruct (is_acq o); [unfold vjoin; lia|exact B].
Qed.

Lemma cur_do_load_ge_ts : forall s t l o m,
  m_ts m <= cur (threads (do_load s t l o m) t) l.
Proof.
  intros. rewrite cur_do_load.
  assert (B : m_ts m <=
              upd (read_view s t o) l (Nat.max (read_view s t o l) (m_ts m)) l).
  { rewrite upd_same. lia. }
  destruct (is_acq o); [unfold vjoin; lia|exact B].
Qed.

(** the same shape of update as in [wf_upd] only raises views if it raises those of thread [t] *)
Lemma mono_upd : forall s s' t o,
  (forall t0, t0 <> t -> threads s' t0 = threads s t0) ->
  (forall l, scview s' l = sc_post o (scview s) (cur (threads s' t)) l) ->
  (forall l, read_view s t o l <= cur (threads s' t) l /\
             acq (threads s t) l <= acq (threads s' t) l /\ rel (threads s t) l <= rel (threads s' t) l) ->
  (forall l m, In m (memory s l) -> In m (memory s' l)) ->
  (forall l, last_ts (memory s l) <= last_ts (memory s' l)) ->
  mono s s'.
Proof.
  intros s s' t o Ht Hs HT Hm Hl. constructor; intros; auto.
  - destruct (Nat.eq_dec t0 t) as [->|N]; [|rewrite Ht by assumption; lia].
    etransitivity; [apply (read_view_ge_cur s t o)|apply HT].
  - destruct (Nat.eq_dec t0 t) as [->|N]; [apply HT|rewrite Ht by assumption; lia].
  - destruct (Nat.eq_dec t0 t) as [->|N]; [apply HT|rewrite Ht by assumption; lia].
  - rewrite Hs. unfold sc_post. destruct (is_sc o) eqn:E; [|lia].
    etransitivity; [apply (read_view_ge_sc s t o l E)|apply HT].
Qed.

Lemma mono_do_load : forall s t l o m, mono s (do_load s t l o m).
Proof.
  intros. apply (mono_upd s _ t o); auto.
  - intros; now apply threads_load_other.
  - apply scview_do_load.
  - intros l0. split; [apply cur_do_load_ge|]. simpl. rewrite upd_thr_same. simpl.
    destruct (is_acq o); split; try lia. apply vjoin_l.
Qed.

Lemma cur_store_ge : forall e s t l o v l',
  wf s -> read_view s t o l' <= cur (threads (do_store_with e s t l o v) t) l'.
Proof.
  intros e s t l o v l' W. rewrite threads_store_same. simpl.
  pose proof (wf_read_view s t o l W).
  unfold upd. destruct (Nat.eqb_spec l' l) as [->|]; lia.
Qed.

Lemma cur_store_ts : forall e s t l o v,
  cur (threads (do_store_with e s t l o v) t) l = S (last_ts (memory s l)).
Proof. intros. rewrite threads_store_same. simpl. apply upd_same. Qed.

Lemma mono_do_store_with : forall e s t l o v,
  wf s -> mono s (do_store_with e s t l o v).
Proof.
  intros e s t l o v W. apply (mono_upd s _ t o).
  - intros; now apply threads_store_other.
  - apply scview_store.
  - intros l0. split; [now apply cur_store_ge|]. rewrite threads_store_same. simpl. lia.
  - intros. apply in_memory_store. now left.
  - intros. rewrite last_ts_store. destruct (Nat.eqb_spec l0 l) as [->|]; lia.
Qed.

Lemma mono_do_fence : forall s t o, wf s -> mono s (do_fence s t o).
Proof.
  intros s t o W. apply (mono_upd s _ t o); auto.
  - intros; now apply threads_fence_other.
  - apply scview_do_fence.
  - intros l. pose proof (wf_rel s W t l). rewrite cur_do_fence. simpl. rewrite upd_thr_same. simpl.
    unfold read_view, sc_pre, vjoin. destruct (is_sc o), (is_acq o), (is_rel o); lia.
Qed.

Lemma mono_step : forall s t lab s', wf s -> step s t lab s' -> mono s s'.
Proof.
  intros s t lab s' W St. destruct St.
  - apply mono_do_load.
  - now apply mono_do_store_with.
  - unfold do_rmw. eapply mono_trans; [apply mono_do_load|].
    apply mono_do_store_with. apply wf_do_load; [assumption|now apply wf_last_in].
  - now apply mono_do_fence.
Qed.

Lemma mono_steps : forall s s', wf s -> steps s s' -> mono s s'.
Proof.
  intros s s' W St. induction St; [apply mono_refl|].
  eapply mono_trans; [eapply mono_step; eassumption|].
  apply IHSt. eapply wf_step; eassumption.
Qed.

(** a step of any thread never decreases any thread's [cur], nor [scview] *)
Theorem view_monotone : forall s t lab s',
  reachable s -> step s t lab s' ->
  (forall t' l, cur (threads s t') l <= cur (threads s' t') l) /\
  (forall l, scview s l <= scview s' l).
Proof.
  intros s t lab s' R St. apply wf_reachable in R.
  pose proof (mono_step s t lab s' R St) as M.
  split; intros; [apply (mono_cur _ _ M)|apply (mono_sc _ _ M)].
Qed.

Theorem view_monotone_steps : forall s s',
  reachable s -> steps s s' ->
  (forall t' l, cur (threads s t') l <= cur (threads s' t') l) /\
  (forall l, scview s l <= scview s' l).
Proof.
  intros s s' R St. apply wf_reachable in R.
  pose proof (mono_steps s s' R St) as M.
  split; intros; [apply (mono_cur _ _ M)|apply (mono_sc _ _ M)].
Qed.

(** also [acq], [rel] never decrease and memory only grows *)
Theorem view_monotone_full : forall s s', reachable s -> steps s s' -> mono s s'.
Proof. intros. apply mono_steps; [now apply wf_reachable|assumption]. Qed.

(** ** Inversion of labelled steps *)

Lemma step_load_inv : forall s t l o m s',
  step s t (LLoad l o m) s' -> can_read s t l o m /\ s' = do_load s t l o m.
Proof. intros. inversion H; subst. split; [assumption|reflexivity]. Qed.

Lemma step_store_inv : forall s t l o v s',
  step s t (LStore l o v) s' -> s' = do_store s t l o v.
Proof. intros. inversion H; subst. reflexivity. Qed.

Lemma step_rmw_inv : forall s t l o v s',
  step s t (LRmw l o v) s' -> s' = do_rmw s t l o v.
Proof. intros. inversion H; subst. reflexivity. Qed.

Lemma step_fence_inv : forall s t o s',
  step s t (LFence o) s' -> s' = do_fence s t o.
Proof. intros. inversion H; subst. reflexivity. Qed.

Lemma step_apply : forall s t lab s',
  step s t lab s' <-> enabled s t lab /\ s' = apply s t lab.
Proof.
  intros; split.
  - intros H; destruct H; simpl; auto.
  - intros [E ->]. destruct lab; simpl in *; constructor; assumption.
Qed.

(** the executable load agrees with the relation *)
Lemma exec_load_step : forall s t l o i m s',
  exec_load s t l o i = Some (m, s') -> step s t (LLoad l o m) s'.
Proof.
  unfold exec_load. intros s t l o i m s' H.
  destruct (nth_error (memory s l) i) as [m0|] eqn:E; [|discriminate].
  destruct (Nat.leb_spec (read_view s t o l) (m_ts m0)); [|discriminate].
  inversion H; subst. constructor. split; [eapply nth_error_In; eassumption|assumption].
Qed.

Lemma step_exec_load : forall s t l o m s',
  step s t (LLoad l o m) s' -> exists i, exec_load s t l o i = Some (m, s').
Proof.
  intros s t l o m s' H. apply step_load_inv in H. destruct H as [[Hin Hle] ->].
  apply In_nth_error in Hin. destruct Hin as [i Hi]. exists i.
  unfold exec_load. rewrite Hi.
  destruct (Nat.leb_spec (read_view s t o l) (m_ts m)); [reflexivity|lia].
Qed.

(** ** 3. Read-read coherence *)

(** a load reads a message at least as new as the thread's view ... *)
Lemma load_reads_ge_cur : forall s t l o m s',
  step s t (LLoad l o m) s' -> cur (threads s t) l <= m_ts m.
Proof.
  intros. apply step_load_inv in H. destruct H as [[_ Hle] _].
  etransitivity; [apply read_view_ge_cur|exact Hle].
Qed.

(** ... and afterwards the thread's view includes the message read *)
Lemma load_cur_ge : forall s t l o m s',
  step s t (LLoad l o m) s' -> m_ts m <= cur (threads s' t) l.
Proof.
  intros. apply step_load_inv in H. destruct H as [_ ->]. apply cur_do_load_ge_ts.
Qed.

(** in fact, exactly the message read *)
Lemma load_cur_eq : forall s t l o m s',
  reachable s -> step s t (LLoad l o m) s' -> cur (threads s' t) l = m_ts m.
Proof.
  intros s t l o m s' R H. apply wf_reachable in R.
  apply step_load_inv in H. destruct H as [[Hin Hle] ->].
  rewrite cur_do_load. pose proof (wf_msg_self s R l m Hin) as E.
  destruct (is_acq o); unfold vjoin; rewrite upd_same; lia.
Qed.

(** the thread's view bounds all its later loads *)
Lemma cur_bounds_loads : forall s t l k s' o m s'',
  reachable s -> k <= cur (threads s t) l ->
  steps s s' -> step s' t (LLoad l o m) s'' -> k <= m_ts m.
Proof.
  intros s t l k s' o m s'' R Hk St Ld.
  pose proof (mono_cur _ _ (view_monotone_full s s' R St) t l).
  pose proof (load_reads_ge_cur _ _ _ _ _ _ Ld). lia.
Qed.

Theorem coherence_rr_forever : forall s t l o m s1 s2,
  reachable s -> step s t (LLoad l o m) s1 -> steps s1 s2 ->
  m_ts m <= cur (threads s2 t) l.
Proof.
  intros s t l o m s1 s2 R Ld St.
  assert (R1 : reachable s1) by (eapply reach_step; eassumption).
  pose proof (mono_cur _ _ (view_monotone_full s1 s2 R1 St) t l).
  pose proof (load_cur_ge _ _ _ _ _ _ Ld). lia.
Qed.

Theorem coherence_rr : forall s t l o m s1 s2 o' m' s3,
  reachable s ->
  step s t (LLoad l o m) s1 -> steps s1 s2 -> step s2 t (LLoad l o' m') s3 ->
  m_ts m <= m_ts m'.
Proof.
  intros s t l o m s1 s2 o' m' s3 R Ld St Ld'.
  assert (R1 : reachable s1) by (eapply reach_step; eassumption).
  eapply cur_bounds_loads; [exact R1| |exact St|exact Ld'].
  eapply load_cur_ge; eassumption.
Qed.

(** ** 4. Write-read coherence *)

(** what a store does to memory: exactly one new last message *)
Lemma store_new_message : forall s t l o v s',
  step s t (LStore l o v) s' ->
  exists mk, memory s' l = memory s l ++ [mk] /\
             m_ts mk = S (last_ts (memory s l)) /\ m_val mk = v /\
             (forall l', l' <> l -> memory s' l' = memory s l') /\
             cur (threads s' t) l = m_ts mk.
Proof.
  intros. apply step_store_inv in H. subst. unfold do_store.
  exists (new_msg vbot s t l o v). split; [apply memory_store_same|].
  split; [apply new_msg_ts|]. split; [apply new_msg_val|].
  split; [intros; now apply memory_store_other|].
  rewrite cur_store_ts, new_msg_ts. reflexivity.
Qed.

(** the same for an RMW; the new message immediately follows the one read *)
Lemma rmw_new_message : forall s t l o v s',
  step s t (LRmw l o v) s' ->
  exists mk, memory s' l = memory s l ++ [mk] /\
             m_ts mk = S (last_ts (memory s l)) /\ m_val mk = v /\
             (forall l', l' <> l -> memory s' l' = memory s l') /\
             cur (threads s' t) l = m_ts mk.
Proof.
  intros. apply step_rmw_inv in H. subst. unfold do_rmw.
  set (s1 := do_load s t l o (last_msg (memory s l))).
  exists (new_msg (m_view (last_msg (memory s l))) s1 t l o v).
  split; [exact (memory_store_same _ s1 t l o v)|].
  split; [rewrite new_msg_ts; reflexivity|]. split; [apply new_msg_val|].
  split; [intros l' Hn; exact (memory_store_other _ s1 t l o v l' Hn)|].
  rewrite cur_store_ts, new_msg_ts. reflexivity.
Qed.

Theorem coherence_wr : forall s t l o v s1 s2 o' m s3,
  reachable s ->
  step s t (LStore l o v) s1 -> steps s1 s2 -> step s2 t (LLoad l o' m) s3 ->
  S (last_ts (memory s l)) <= m_ts m.
Proof.
  intros s t l o v s1 s2 o' m s3 R St Sts Ld.
  assert (R1 : reachable s1) by (eapply reach_step; eassumption).
  destruct (store_new_message _ _ _ _ _ _ St) as (mk & _ & Hts & _ & _ & Hc).
  eapply cur_bounds_loads; [exact R1| |exact Sts|exact Ld]. lia.
Qed.

Theorem coherence_wr_rmw : forall s t l o v s1 s2 o' m s3,
  reachable s ->
  step s t (LRmw l o v) s1 -> steps s1 s2 -> step s2 t (LLoad l o' m) s3 ->
  S (last_ts (memory s l)) <= m_ts m.
Proof.
  intros s t l o v s1 s2 o' m s3 R St Sts Ld.
  assert (R1 : reachable s1) by (eapply reach_step; eassumption).
  destruct (rmw_new_message _ _ _ _ _ _ St) as (mk & _ & Hts & _ & _ & Hc).
  eapply cur_bounds_loads; [exact R1| |exact Sts|exact Ld]. lia.
Qed.

(** after a store of t to l, [cur t l] is at least the new timestamp forever *)
Lemma store_cur_forever : forall s t l o v s1 s2,
  reachable s -> step s t (LStore l o v) s1 -> steps s1 s2 ->
  S (last_ts (memory s l)) <= cur (threads s2 t) l.
Proof.
  intros s t l o v s1 s2 R St Sts.
  assert (R1 : reachable s1) by (eapply reach_step; eassumption).
  destruct (store_new_message _ _ _ _ _ _ St) as (mk & _ & Hts & _ & _ & Hc).
  pose proof (mono_cur _ _ (view_monotone_full s1 s2 R1 Sts) t l). lia.
Qed.

(** ** One step, as an invariant proof over a program sees it

    Every step keeps [wf], only raises views, and appends at most one message, to one location. *)

(** [s'] is [s] with the messages [news] appended to location [l0] *)
Definition appends (s s' : state) (l0 : loc) (news : list msg) : Prop :=
  memory s' l0 = memory s l0 ++ news /\ forall l, l <> l0 -> memory s' l = memory s l.

Lemma appends_in : forall s s' l0 news l m, appends s s' l0 news ->
  In m (memory s' l) -> In m (memory s l) \/ (l = l0 /\ In m news).
Proof.
  intros s s' l0 news l m [E O] H. destruct (Nat.eq_dec l l0) as [->|N].
  - rewrite E in H. apply in_app_or in H. tauto.
  - rewrite O in H by assumption. now left.
Qed.

Lemma load_facts : forall s t l o m s',
  wf s -> step s t (LLoad l o m) s' ->
  wf s' /\ mono s s' /\ memory s' = memory s /\ In m (memory s l) /\
  cur (threads s t) l <= m_ts m /\ m_ts m <= cur (threads s' t) l.
Proof.
  intros s t l o m s' W St.
  split; [eapply wf_step; eassumption|]. split; [apply (mono_step _ _ _ _ W St)|].
  pose proof (load_reads_ge_cur _ _ _ _ _ _ St). pose proof (load_cur_ge _ _ _ _ _ _ St).
  destruct (step_load_inv _ _ _ _ _ _ St) as [[Hin _] ->]. auto.
Qed.

Lemma load_appends : forall s s' l, memory s' = memory s -> appends s s' l [].
Proof. intros s s' l E. unfold appends. rewrite E, app_nil_r. auto. Qed.

(** a release store publishes the writer's view *)
Lemma store_facts : forall s t l o v s',
  wf s -> step s t (LStore l o v) s' ->
  wf s' /\ mono s s' /\
  exists mk, appends s s' l [mk] /\ m_ts mk = S (last_ts (memory s l)) /\ m_val mk = v /\
    cur (threads s' t) l = m_ts mk /\
    (is_rel o = true -> forall l', cur (threads s t) l' <= m_view mk l').
Proof.
  intros s t l o v s' W St.
  split; [eapply wf_step; eassumption|]. split; [apply (mono_step _ _ _ _ W St)|].
  destruct (store_new_message _ _ _ _ _ _ St) as (mk & E & Hts & Hv & Ho & Hc).
  exists mk. repeat split; try assumption.
  intros A l'. apply step_store_inv in St. subst s'. unfold do_store in *.
  rewrite memory_store_same in E. apply app_inj_tail in E. destruct E as [_ <-].
  rewrite new_msg_view, A.
  pose proof (read_view_ge_cur s t o l'). pose proof (wf_read_view s t o l W).
  unfold upd. destruct (Nat.eqb_spec l' l) as [->|]; lia.
Qed.

Lemma rmw_facts : forall s t l o v s',
  wf s -> step s t (LRmw l o v) s' ->
  wf s' /\ mono s s' /\
  exists mk, appends s s' l [mk] /\ m_ts mk = S (last_ts (memory s l)) /\ m_val mk = v.
Proof.
  intros s t l o v s' W St.
  split; [eapply wf_step; eassumption|]. split; [apply (mono_step _ _ _ _ W St)|].
  destruct (rmw_new_message _ _ _ _ _ _ St) as (mk & E & Hts & Hv & Ho & Hc).
  exists mk. repeat split; assumption.
Qed.

(** ** 5. Message passing (release store / acquire load) *)

(** messages of a location are identified by their timestamp *)
Lemma msg_unique_ts : forall s l m m',
  reachable s -> In m (memory s l) -> In m' (memory s l) -> m_ts m = m_ts m' -> m = m'.
Proof.
  intros s l m m' R. apply wf_reachable in R.
  apply incr_ts_inj. now apply wf_sorted.
Qed.

(** an acquire load joins the whole view of the message into [cur] *)
Lemma acquire_load_view : forall s t y o my s',
  step s t (LLoad y o my) s' -> is_acq o = true ->
  forall l, m_view my l <= cur (threads s' t) l.
Proof.
  intros s t y o my s' Ld A l. apply step_load_inv in Ld. destruct Ld as [_ ->].
  rewrite cur_do_load, A. apply vjoin_r.
Qed.

(** item 5, state form *)
Theorem message_passing : forall s t2 y o my s' x kx,
  reachable s -> In my (memory s y) -> kx <= m_view my x ->
  step s t2 (LLoad y o my) s' -> is_acq o = true ->
  kx <= cur (threads s' t2) x.
Proof.
  intros s t2 y o my s' x kx _ _ Hk Ld A.
  pose proof (acquire_load_view _ _ _ _ _ _ Ld A x). lia.
Qed.

(** ... hence every later load of x by t2 reads timestamp >= kx *)
Corollary message_passing_loads : forall s t2 y o my s' x kx s'' o' m s''',
  reachable s -> kx <= m_view my x ->
  step s t2 (LLoad y o my) s' -> is_acq o = true ->
  steps s' s'' -> step s'' t2 (LLoad x o' m) s''' ->
  kx <= m_ts m.
Proof.
  intros s t2 y o my s' x kx s'' o' m s''' R Hk Ld A Sts Ld'.
  assert (R1 : reachable s') by (eapply reach_step; eassumption).
  eapply cur_bounds_loads; [exact R1| |exact Sts|exact Ld'].
  pose proof (acquire_load_view _ _ _ _ _ _ Ld A x). lia.
Qed.

(** the view of a release store's message includes the storing thread's cur *)
Lemma release_store_view : forall s t1 y o v s',
  reachable s -> step s t1 (LStore y o v) s' -> is_rel o = true ->
  forall l, cur (threads s t1) l <= m_view (last_msg (memory s' y)) l.
Proof.
  intros s t1 y o v s' R St A l. apply wf_reachable in R.
  apply step_store_inv in St. subst. unfold do_store.
  fold (new_msg vbot s t1 y o v). rewrite new_msg_view, A.
  pose proof (read_view_ge_cur s t1 o l). pose proof (wf_read_view s t1 o y R).
  unfold upd. destruct (Nat.eqb_spec l y) as [->|]; lia.
Qed.

Lemma release_rmw_view : forall s t1 y o v s',
  reachable s -> step s t1 (LRmw y o v) s' -> is_rel o = true ->
  forall l, cur (threads s t1) l <= m_view (last_msg (memory s' y)) l.
Proof.
  intros s t1 y o v s' R St A l. apply wf_reachable in R.
  apply step_rmw_inv in St. subst. unfold do_rmw.
  set (mr := last_msg (memory s y)). set (s1 := do_load s t1 y o mr).
  fold (new_msg (m_view mr) s1 t1 y o v). rewrite new_msg_view, A.
  assert (W1 : wf s1) by (apply wf_do_load; [assumption|now apply wf_last_in]).
  pose proof (mono_cur _ _ (mono_do_load s t1 y o mr) t1 l).
  pose proof (read_view_ge_cur s1 t1 o l). pose proof (wf_read_view s1 t1 o y W1).
  fold s1 in H.
  unfold upd. destruct (Nat.eqb_spec l y) as [->|]; lia.
Qed.

(** the last message after a store is the new one *)
Lemma store_last_msg : forall s t l o v s',
  step s t (LStore l o v) s' ->
  In (last_msg (memory s' l)) (memory s' l) /\
  m_ts (last_msg (memory s' l)) = S (last_ts (memory s l)) /\
  m_val (last_msg (memory s' l)) = v.
Proof.
  intros. destruct (store_new_message _ _ _ _ _ _ H) as (mk & E & Hts & Hv & _).
  rewrite E, last_msg_app. split; [|split; assumption].
  apply in_or_app; right; now left.
Qed.

(** item 5, end to end (the MP litmus test):
    t1: x :=ox vx ; ... ; y :=rel vy      t2: r1 := y.load(acq) reading t1's message ; ... ; r2 := x.load
    then r2 does not read a message older than t1's store to x *)
Theorem message_passing_litmus :
  forall s0 t1 x ox vx s1 s2 y oy vy s3 s4 t2 o my s5 s6 o' m s7,
  reachable s0 ->
  step s0 t1 (LStore x ox vx) s1 -> steps s1 s2 ->
  step s2 t1 (LStore y oy vy) s3 -> is_rel oy = true -> steps s3 s4 ->
  step s4 t2 (LLoad y o my) s5 -> is_acq o = true ->
  m_ts my = S (last_ts (memory s2 y)) ->
  steps s5 s6 -> step s6 t2 (LLoad x o' m) s7 ->
  S (last_ts (memory s0 x)) <= m_ts m.
Proof.
  intros s0 t1 x ox vx s1 s2 y oy vy s3 s4 t2 o my s5 s6 o' m s7
         R0 Sx S12 Sy Arel S34 Ly Aacq Hts S56 Lx.
  assert (R1 : reachable s1) by (eapply reach_step; eassumption).
  assert (R2 : reachable s2) by (eapply reachable_steps; eassumption).
  assert (R3 : reachable s3) by (eapply reach_step; eassumption).
  assert (R4 : reachable s4) by (eapply reachable_steps; eassumption).
  pose proof (store_cur_forever _ _ _ _ _ _ _ R0 Sx S12) as Kx.
  pose proof (release_store_view _ _ _ _ _ _ R2 Sy Arel x) as V.
  destruct (store_last_msg _ _ _ _ _ _ Sy) as (In3 & Ts3 & _).
  pose proof (mono_mem _ _ (view_monotone_full s3 s4 R3 S34) y _ In3) as In4.
  pose proof (step_load_inv _ _ _ _ _ _ Ly) as [[Inmy _] _].
  assert (E : my = last_msg (memory s3 y)).
  { apply (msg_unique_ts s4 y); [exact R4|assumption|assumption|lia]. }
  eapply message_passing_loads; [exact R4| |exact Ly|exact Aacq|exact S56|exact Lx].
  rewrite E. lia.
Qed.

(** ** 9. The SC interleaving semantics is included in the weak one *)

(** every thread may read the last message of a location: an SC load, and the load half of an RMW,
    are always enabled *)
Lemma can_read_last : forall s t l o,
  wf s -> can_read s t l o (last_msg (memory s l)).
Proof.
  intros s t l o W. split; [now apply wf_last_in|]. now apply wf_read_view.
Qed.

Corollary rmw_load_enabled : forall s t l o,
  reachable s -> can_read s t l o (last_msg (memory s l)).
Proof. intros. apply can_read_last. now apply wf_reachable. Qed.

Theorem sc_refines : forall s t lab s',
  reachable s -> sc_step s t lab s' -> step s t lab s'.
Proof.
  intros s t lab s' R H. apply wf_reachable in R.
  inversion H; subst; constructor. apply can_read_last; assumption.
Qed.

Theorem sc_reachable_reachable : forall s, sc_reachable s -> reachable s.
Proof.
  induction 1; [constructor|].
  apply (reach_step s t lab s'); [assumption|]. apply sc_refines; assumption.
Qed.

(** safety properties of all weak executions hold for all SC executions *)
Corollary sc_safety : forall (P : state -> Prop),
  (forall s, reachable s -> P s) -> forall s, sc_reachable s -> P s.
Proof. intros P H s R. apply H. now apply sc_reachable_reachable. Qed.

(** ** 6. Message passing through fences *)

Lemma fence_rel_snapshot : forall s t o s',
  step s t (LFence o) s' -> is_rel o = true ->
  forall l, cur (threads s t) l <= rel (threads s' t) l.
Proof.
  intros s t o s' F A l. apply step_fence_inv in F. subst.
  pose proof (cur_do_fence_ge s t o l) as G.
  simpl in *. rewrite upd_thr_same in *. simpl in *. rewrite A. exact G.
Qed.

Lemma fence_acq_join : forall s t o s',
  step s t (LFence o) s' -> is_acq o = true ->
  forall l, acq (threads s t) l <= cur (threads s' t) l.
Proof.
  intros s t o s' F A l. apply step_fence_inv in F. subst.
  rewrite cur_do_fence, A. etransitivity; [|apply sc_pre_ge]. apply vjoin_r.
Qed.

(** every store's message carries at least the thread's [rel] view *)
Lemma store_view_ge_rel : forall s t y o v s',
  reachable s -> step s t (LStore y o v) s' ->
  forall l, rel (threads s t) l <= m_view (last_msg (memory s' y)) l.
Proof.
  intros s t y o v s' R St l. apply wf_reachable in R.
  apply step_store_inv in St. subst. unfold do_store.
  fold (new_msg vbot s t y o v). rewrite new_msg_view.
  pose proof (wf_rel s R t l). pose proof (wf_rel s R t y).
  pose proof (read_view_ge_cur s t o l). pose proof (wf_read_view s t o y R).
  unfold upd. destruct (is_rel o); destruct (Nat.eqb_spec l y) as [->|]; lia.
Qed.

(** a relaxed load remembers the message view in [acq] *)
Lemma relaxed_load_view : forall s t y o my s',
  step s t (LLoad y o my) s' ->
  forall l, m_view my l <= Nat.max (cur (threads s' t) l) (acq (threads s' t) l).
Proof.
  intros s t y o my s' Ld l. apply step_load_inv in Ld. destruct Ld as [_ ->].
  rewrite cur_do_load. simpl. rewrite upd_thr_same. simpl.
  destruct (is_acq o); unfold vjoin; lia.
Qed.

(** receiver side, state form *)
Theorem message_passing_fences_recv : forall s t2 y o my s1 s2 fo s3 x kx,
  reachable s -> kx <= m_view my x ->
  step s t2 (LLoad y o my) s1 -> steps s1 s2 ->
  step s2 t2 (LFence fo) s3 -> is_acq fo = true ->
  kx <= cur (threads s3 t2) x.
Proof.
  intros s t2 y o my s1 s2 fo s3 x kx R Hk Ld Sts F A.
  assert (R1 : reachable s1) by (eapply reach_step; eassumption).
  assert (R2 : reachable s2) by (eapply reachable_steps; eassumption).
  pose proof (relaxed_load_view _ _ _ _ _ _ Ld x) as V.
  pose proof (view_monotone_full s1 s2 R1 Sts) as M.
  pose proof (mono_cur _ _ M t2 x). pose proof (mono_acq _ _ M t2 x).
  pose proof (fence_acq_join _ _ _ _ F A x).
  pose proof (mono_cur _ _ (mono_step _ _ _ _ (wf_reachable _ R2) F) t2 x).
  lia.
Qed.

(** sender side, state form *)
Theorem message_passing_fences_send : forall s t1 fo s1 s2 y oy vy s3 x kx,
  reachable s -> kx <= cur (threads s t1) x ->
  step s t1 (LFence fo) s1 -> is_rel fo = true -> steps s1 s2 ->
  step s2 t1 (LStore y oy vy) s3 ->
  kx <= m_view (last_msg (memory s3 y)) x.
Proof.
  intros s t1 fo s1 s2 y oy vy s3 x kx R Hk F A Sts St.
  assert (R1 : reachable s1) by (eapply reach_step; eassumption).
  assert (R2 : reachable s2) by (eapply reachable_steps; eassumption).
  pose proof (fence_rel_snapshot _ _ _ _ F A x).
  pose proof (mono_rel _ _ (view_monotone_full s1 s2 R1 Sts) t1 x).
  pose proof (store_view_ge_rel _ _ _ _ _ _ R2 St x). lia.
Qed.

(** item 6, end to end:
    t1: x := vx ; fence(rel) ; y :=rlx vy     t2: r1 := y.load(rlx) reading t1's message ; fence(acq) ; r2 := x.load *)
Theorem message_passing_fences :
  forall s0 t1 x ox vx s1 s2 f1 s3 s4 y oy vy s5 s6 t2 o my s7 s8 f2 s9,
  reachable s0 ->
  step s0 t1 (LStore x ox vx) s1 -> steps s1 s2 ->
  step s2 t1 (LFence f1) s3 -> is_rel f1 = true -> steps s3 s4 ->
  step s4 t1 (LStore y oy vy) s5 -> steps s5 s6 ->
  step s6 t2 (LLoad y o my) s7 -> m_ts my = S (last_ts (memory s4 y)) -> steps s7 s8 ->
  step s8 t2 (LFence f2) s9 -> is_acq f2 = true ->
  S (last_ts (memory s0 x)) <= cur (threads s9 t2) x.
Proof.
  intros s0 t1 x ox vx s1 s2 f1 s3 s4 y oy vy s5 s6 t2 o my s7 s8 f2 s9
         R0 Sx S12 F1 A1 S34 Sy S56 Ly Hts S78 F2 A2.
  assert (R1 : reachable s1) by (eapply reach_step; eassumption).
  assert (R2 : reachable s2) by (eapply reachable_steps; eassumption).
  assert (R3 : reachable s3) by (eapply reach_step; eassumption).
  assert (R4 : reachable s4) by (eapply reachable_steps; eassumption).
  assert (R5 : reachable s5) by (eapply reach_step; eassumption).
  assert (R6 : reachable s6) by (eapply reachable_steps; eassumption).
  pose proof (store_cur_forever _ _ _ _ _ _ _ R0 Sx S12) as Kx.
  pose proof (message_passing_fences_send _ _ _ _ _ _ _ _ _ _ _ R2 Kx F1 A1 S34 Sy) as V.
  destruct (store_last_msg _ _ _ _ _ _ Sy) as (In5 & Ts5 & _).
  pose proof (mono_mem _ _ (view_monotone_full s5 s6 R5 S56) y _ In5) as In6.
  pose proof (step_load_inv _ _ _ _ _ _ Ly) as [[Inmy _] _].
  assert (E : my = last_msg (memory s5 y)).
  { apply (msg_unique_ts s6 y); [exact R6|assumption|assumption|lia]. }
  eapply message_passing_fences_recv; [exact R6| |exact Ly|exact S78|exact F2|exact A2].
  rewrite E. exact V.
Qed.

Corollary message_passing_fences_loads :
  forall s0 t1 x ox vx s1 s2 f1 s3 s4 y oy vy s5 s6 t2 o my s7 s8 f2 s9 s10 o' m s11,
  reachable s0 ->
  step s0 t1 (LStore x ox vx) s1 -> steps s1 s2 ->
  step s2 t1 (LFence f1) s3 -> is_rel f1 = true -> steps s3 s4 ->
  step s4 t1 (LStore y oy vy) s5 -> steps s5 s6 ->
  step s6 t2 (LLoad y o my) s7 -> m_ts my = S (last_ts (memory s4 y)) -> steps s7 s8 ->
  step s8 t2 (LFence f2) s9 -> is_acq f2 = true ->
  steps s9 s10 -> step s10 t2 (LLoad x o' m) s11 ->
  S (last_ts (memory s0 x)) <= m_ts m.
Proof.
  intros s0 t1 x ox vx s1 s2 f1 s3 s4 y oy vy s5 s6 t2 o my s7 s8 f2 s9 s10 o' m s11
         R0 Sx S12 F1 A1 S34 Sy S56 Ly Hts S78 F2 A2 S910 Lx.
  pose proof (message_passing_fences _ _ _ _ _ _ _ _ _ _ _ _ _ _ _ _ _ _ _ _ _ _
                R0 Sx S12 F1 A1 S34 Sy S56 Ly Hts S78 F2 A2) as K.
  assert (R9 : reachable s9).
  { eapply reach_step; [|exact F2]. eapply reachable_steps; [|exact S78].
    eapply reach_step; [|exact Ly]. eapply reachable_steps; [|exact S56].
    eapply reach_step; [|exact Sy]. eapply reachable_steps; [|exact S34].
    eapply reach_step; [|exact F1]. eapply reachable_steps; [|exact S12].
    eapply reach_step; [exact R0|exact Sx]. }
  eapply cur_bounds_loads; [exact R9|exact K|exact S910|exact Lx].
Qed.

(** ** 8. Store buffering with SC fences *)

Lemma sc_fence_views : forall s t s',
  step s t (LFence SC) s' ->
  forall l, cur (threads s t) l <= cur (threads s' t) l /\
            scview s l <= cur (threads s' t) l /\
            scview s' l = cur (threads s' t) l.
Proof.
  intros s t s' F l. apply step_fence_inv in F. subst.
  split; [apply cur_do_fence_ge|]. split.
  - rewrite cur_do_fence. apply sc_pre_sc.
  - rewrite scview_do_fence. reflexivity.
Qed.

(** if t1's SC fence is executed before t2's SC fence, then after its fence t2
    sees everything t1 saw before its fence *)
Lemma sb_ordered : forall sa t1 sa' sb t2 sb' x kx,
  reachable sa -> kx <= cur (threads sa t1) x ->
  step sa t1 (LFence SC) sa' -> steps sa' sb -> step sb t2 (LFence SC) sb' ->
  kx <= cur (threads sb' t2) x.
Proof.
  intros sa t1 sa' sb t2 sb' x kx R Hk F1 Sts F2.
  assert (R1 : reachable sa') by (eapply reach_step; eassumption).
  destruct (sc_fence_views _ _ _ F1 x) as (A1 & _ & A3).
  destruct (sc_fence_views _ _ _ F2 x) as (_ & B2 & _).
  pose proof (mono_sc _ _ (view_monotone_full sa' sb R1 Sts) x). lia.
Qed.

(** *** traces *)

Lemma run_app : forall a b s, run s (a ++ b) = run (run s a) b.
Proof. induction a as [|[t lab] a IH]; intros; simpl; [reflexivity|apply IH]. Qed.

Lemma valid_app : forall a b s, valid s (a ++ b) <-> valid s a /\ valid (run s a) b.
Proof.
  induction a as [|[t lab] a IH]; intros; simpl; [tauto|]. rewrite IH. tauto.
Qed.

Lemma valid_steps : forall tr s, valid s tr -> steps s (run s tr).
Proof.
  induction tr as [|[t lab] tr IH]; intros s V; simpl; [apply steps_refl|].
  destruct V as [E V]. apply (steps_cons s t lab (apply s t lab)); [|apply IH; exact V].
  apply step_apply. split; [assumption|reflexivity].
Qed.

Lemma valid_firstn : forall tr s n, valid s tr -> valid s (firstn n tr).
Proof.
  intros tr s n V. rewrite <- (firstn_skipn n tr) in V. apply valid_app in V. tauto.
Qed.

Lemma valid_skipn : forall tr s n, valid s tr -> valid (state_at s tr n) (skipn n tr).
Proof.
  intros tr s n V. rewrite <- (firstn_skipn n tr) in V. apply valid_app in V.
  unfold state_at. tauto.
Qed.

Lemma state_at_0 : forall s tr, state_at s tr 0 = s.
Proof. reflexivity. Qed.

Lemma state_at_cons : forall s t lab tr n,
  state_at s ((t, lab) :: tr) (S n) = state_at (apply s t lab) tr n.
Proof. reflexivity. Qed.

Lemma state_at_end : forall s tr, state_at s tr (length tr) = run s tr.
Proof. intros. unfold state_at. now rewrite firstn_all. Qed.

Lemma state_at_steps : forall tr s i j,
  valid s tr -> i <= j -> steps (state_at s tr i) (state_at s tr j).
Proof.
  induction tr as [|[t lab] tr IH]; intros s i j V Hij.
  - unfold state_at. rewrite !firstn_nil. apply steps_refl.
  - destruct i as [|i].
    + rewrite state_at_0. unfold state_at. apply valid_steps. now apply valid_firstn.
    + destruct j as [|j]; [lia|]. rewrite !state_at_cons.
      destruct V as [_ V]. apply IH; [assumption|lia].
Qed.

Lemma state_at_step : forall tr s i t lab,
  valid s tr -> nth_error tr i = Some (t, lab) ->
  step (state_at s tr i) t lab (state_at s tr (S i)).
Proof.
  induction tr as [|[t0 lab0] tr IH]; intros s i t lab V Hn.
  - destruct i; discriminate.
  - destruct i as [|i].
    + simpl in Hn. inversion Hn; subst. destruct V as [E _].
      rewrite state_at_0. unfold state_at. simpl.
      apply step_apply. split; [assumption|reflexivity].
    + simpl in Hn. destruct V as [_ V]. rewrite !state_at_cons. now apply IH.
Qed.

Lemma state_at_reachable : forall s tr i,
  reachable s -> valid s tr -> reachable (state_at s tr i).
Proof.
  intros s tr i R V. eapply reachable_steps; [exact R|].
  rewrite <- (state_at_0 s tr) at 1. apply state_at_steps; [assumption|lia].
Qed.

Lemma state_at_mono : forall s tr i j,
  reachable s -> valid s tr -> i <= j -> mono (state_at s tr i) (state_at s tr j).
Proof.
  intros. apply view_monotone_full.
  - now apply state_at_reachable.
  - now apply state_at_steps.
Qed.

(** after position i of a store by t to x, cur t x >= its timestamp *)
Lemma trace_store_cur : forall s tr i t x o v n,
  reachable s -> valid s tr -> nth_error tr i = Some (t, LStore x o v) -> i < n ->
  S (last_ts (memory (state_at s tr i) x)) <= cur (threads (state_at s tr n) t) x.
Proof.
  intros s tr i t x o v n R V Hn Hlt.
  pose proof (state_at_step _ _ _ _ _ V Hn) as St.
  eapply store_cur_forever; [now apply state_at_reachable|exact St|].
  apply state_at_steps; [assumption|lia].
Qed.

(** a load at position r by t of x reads at least cur t x of any earlier position *)
Lemma trace_load_bound : forall s tr n r t x o m k,
  reachable s -> valid s tr -> nth_error tr r = Some (t, LLoad x o m) -> n <= r ->
  k <= cur (threads (state_at s tr n) t) x -> k <= m_ts m.
Proof.
  intros s tr n r t x o m k R V Hn Hle Hk.
  pose proof (state_at_step _ _ _ _ _ V Hn) as Ld.
  eapply cur_bounds_loads; [apply (state_at_reachable s tr n R V)|exact Hk| |exact Ld].
  now apply state_at_steps.
Qed.

Lemma sb_ordered_trace : forall s tr t1 t2 x o1 v1 i1 j1 j2 n,
  reachable s -> valid s tr ->
  nth_error tr i1 = Some (t1, LStore x o1 v1) ->
  nth_error tr j1 = Some (t1, LFence SC) -> i1 < j1 ->
  nth_error tr j2 = Some (t2, LFence SC) -> j1 <= j2 -> j2 < n ->
  S (last_ts (memory (state_at s tr i1) x)) <= cur (threads (state_at s tr n) t2) x.
Proof.
  intros s tr t1 t2 x o1 v1 i1 j1 j2 n R V Hs Hf1 Hlt Hf2 Hle Hn.
  destruct (Nat.eq_dec j1 j2) as [E|NE].
  - subst j2. rewrite Hf1 in Hf2. inversion Hf2; subst t2.
    eapply trace_store_cur; [assumption|assumption|exact Hs|lia].
  - pose proof (trace_store_cur s tr i1 t1 x o1 v1 j1 R V Hs Hlt) as K.
    pose proof (state_at_step _ _ _ _ _ V Hf1) as F1.
    pose proof (state_at_step _ _ _ _ _ V Hf2) as F2.
    assert (Sts : steps (state_at s tr (S j1)) (state_at s tr j2))
      by (apply state_at_steps; [assumption|lia]).
    pose proof (sb_ordered _ _ _ _ _ _ _ _ (state_at_reachable s tr j1 R V) K F1 Sts F2) as K2.
    pose proof (mono_cur _ _ (state_at_mono s tr (S j2) n R V Hn) t2 x). lia.
Qed.

(** item 8 on states: after both fences, one of the threads sees the other's store *)
Theorem store_buffering_sc_fences :
  forall s tr t1 t2 x y o1 v1 o2 v2 i1 j1 i2 j2 n,
  reachable s -> valid s tr ->
  nth_error tr i1 = Some (t1, LStore x o1 v1) ->
  nth_error tr j1 = Some (t1, LFence SC) -> i1 < j1 ->
  nth_error tr i2 = Some (t2, LStore y o2 v2) ->
  nth_error tr j2 = Some (t2, LFence SC) -> i2 < j2 ->
  j1 < n -> j2 < n ->
  S (last_ts (memory (state_at s tr i2) y)) <= cur (threads (state_at s tr n) t1) y \/
  S (last_ts (memory (state_at s tr i1) x)) <= cur (threads (state_at s tr n) t2) x.
Proof.
  intros s tr t1 t2 x y o1 v1 o2 v2 i1 j1 i2 j2 n R V Hs1 Hf1 L1 Hs2 Hf2 L2 N1 N2.
  destruct (Nat.le_ge_cases j1 j2) as [Hle|Hle].
  - right. eapply sb_ordered_trace; eassumption.
  - left. eapply sb_ordered_trace; eassumption.
Qed.

(** item 8, the SB litmus test: not both loads read a message older than the
    other thread's store *)
Theorem store_buffering_sc_fences_loads :
  forall s tr t1 t2 x y o1 v1 o2 v2 i1 j1 r1 ol1 m1 i2 j2 r2 ol2 m2,
  reachable s -> valid s tr ->
  nth_error tr i1 = Some (t1, LStore x o1 v1) ->
  nth_error tr j1 = Some (t1, LFence SC) -> i1 < j1 ->
  nth_error tr r1 = Some (t1, LLoad y ol1 m1) -> j1 < r1 ->
  nth_error tr i2 = Some (t2, LStore y o2 v2) ->
  nth_error tr j2 = Some (t2, LFence SC) -> i2 < j2 ->
  nth_error tr r2 = Some (t2, LLoad x ol2 m2) -> j2 < r2 ->
  S (last_ts (memory (state_at s tr i2) y)) <= m_ts m1 \/
  S (last_ts (memory (state_at s tr i1) x)) <= m_ts m2.
Proof.
  intros s tr t1 t2 x y o1 v1 o2 v2 i1 j1 r1 ol1 m1 i2 j2 r2 ol2 m2
         R V Hs1 Hf1 L1 Hl1 Lr1 Hs2 Hf2 L2 Hl2 Lr2.
  destruct (Nat.le_ge_cases j1 j2) as [Hle|Hle].
  - right. eapply (trace_load_bound s tr r2 r2); [assumption|assumption|exact Hl2|lia|].
    eapply sb_ordered_trace; eassumption.
  - left. eapply (trace_load_bound s tr r1 r1); [assumption|assumption|exact Hl1|lia|].
    eapply sb_ordered_trace; eassumption.
Qed.

(** ** 10. SC accesses are totally ordered *)

Lemma sc_store_scview : forall s t x v s',
  step s t (LStore x SC v) s' -> scview s' x = S (last_ts (memory s x)).
Proof.
  intros. apply step_store_inv in H. subst. unfold do_store.
  rewrite scview_store. unfold sc_post. change (is_sc SC) with true. cbv iota.
  apply cur_store_ts.
Qed.

Theorem sc_accesses_total_order : forall s t1 x v s1 s2 t2 m s3,
  reachable s ->
  step s t1 (LStore x SC v) s1 -> steps s1 s2 -> step s2 t2 (LLoad x SC m) s3 ->
  S (last_ts (memory s x)) <= m_ts m.
Proof.
  intros s t1 x v s1 s2 t2 m s3 R St Sts Ld.
  assert (R1 : reachable s1) by (eapply reach_step; eassumption).
  pose proof (sc_store_scview _ _ _ _ _ St) as E.
  pose proof (mono_sc _ _ (view_monotone_full s1 s2 R1 Sts) x) as M.
  apply step_load_inv in Ld. destruct Ld as [[_ Hle] _].
  pose proof (read_view_ge_sc s2 t2 SC x eq_refl). lia.
Qed.

(** the same for an SC RMW as the writer *)
Theorem sc_accesses_total_order_rmw : forall s t1 x v s1 s2 t2 m s3,
  reachable s ->
  step s t1 (LRmw x SC v) s1 -> steps s1 s2 -> step s2 t2 (LLoad x SC m) s3 ->
  S (last_ts (memory s x)) <= m_ts m.
Proof.
  intros s t1 x v s1 s2 t2 m s3 R St Sts Ld.
  assert (R1 : reachable s1) by (eapply reach_step; eassumption).
  assert (E : scview s1 x = S (last_ts (memory s x))).
  { apply step_rmw_inv in St. subst. unfold do_rmw.
    rewrite scview_store. unfold sc_post. change (is_sc SC) with true. cbv iota.
    rewrite cur_store_ts. reflexivity. }
  pose proof (mono_sc _ _ (view_monotone_full s1 s2 R1 Sts) x) as M.
  apply step_load_inv in Ld. destruct Ld as [[_ Hle] _].
  pose proof (read_view_ge_sc s2 t2 SC x eq_refl). lia.
Qed.

(** ** 7. Release sequences *)

(** an RMW's message carries the view of the message it read *)
Lemma rmw_view_ge_read : forall s t y o v,
  forall l, m_view (last_msg (memory s y)) l <=
            m_view (last_msg (memory (do_rmw s t y o v) y)) l.
Proof.
  intros. unfold do_rmw.
  set (mr := last_msg (memory s y)). set (s1 := do_load s t y o mr).
  fold (new_msg (m_view mr) s1 t y o v). rewrite new_msg_view. lia.
Qed.

Lemma rs_from_reachable : forall y my s m, rs_from y my s m -> reachable s.
Proof.
  induction 1; [assumption| |].
  - eapply reach_step; [eassumption|apply step_rmw].
  - eapply reach_step; eassumption.
Qed.

Theorem release_sequence : forall y my s m',
  rs_from y my s m' ->
  In m' (memory s y) /\ forall l, m_view my l <= m_view m' l.
Proof.
  induction 1.
  - split; [assumption|intros; lia].
  - destruct IHrs_from as [_ IH]. split.
    + apply last_msg_in. unfold do_rmw. rewrite memory_store_same.
      intros Hc. apply app_eq_nil in Hc. destruct Hc; discriminate.
    + intros l. etransitivity; [apply IH|apply rmw_view_ge_read].
  - destruct IHrs_from as [Hin IH]. split; [|assumption].
    apply rs_from_reachable in H.
    apply (mono_mem _ _ (mono_step _ _ _ _ (wf_reachable _ H) H0)). assumption.
Qed.

(** hence an acquire load of any message of the release sequence synchronises
    with the writer of its head *)
Corollary release_sequence_mp : forall y my s m' t2 o s' x kx,
  rs_from y my s m' -> kx <= m_view my x ->
  step s t2 (LLoad y o m') s' -> is_acq o = true ->
  kx <= cur (threads s' t2) x.
Proof.
  intros y my s m' t2 o s' x kx RS Hk Ld A.
  destruct (release_sequence _ _ _ _ RS) as [_ V].
  pose proof (acquire_load_view _ _ _ _ _ _ Ld A x). specialize (V x). lia.
Qed.

(** ** Sanity: the machine really is weak (the guarantees above are not vacuous)

    Locations x = 0, y = 1; threads 1 and 2. *)

(** store buffering WITHOUT fences: both loads may read the initial messages *)
Example sb_relaxed_allowed :
  valid init [ (1, LStore 0 Rlx 1%N); (2, LStore 1 Rlx 1%N);
               (1, LLoad 1 Rlx init_msg); (2, LLoad 0 Rlx init_msg) ].
Proof.
  simpl. unfold can_read. simpl. repeat split; auto.
Qed.

(** ... even with release stores and acquire loads *)
Example sb_relacq_allowed :
  valid init [ (1, LStore 0 Rel 1%N); (2, LStore 1 Rel 1%N);
               (1, LLoad 1 Acq init_msg); (2, LLoad 0 Acq init_msg) ].
Proof.
  simpl. unfold can_read. simpl. repeat split; auto.
Qed.

(** message passing with a RELAXED load of the flag: the stale x may be read *)
Example mp_relaxed_allowed :
  let s2 := run init [ (1, LStore 0 Rlx 1%N); (1, LStore 1 Rel 1%N) ] in
  valid s2 [ (2, LLoad 1 Rlx (last_msg (memory s2 1))); (2, LLoad 0 Rlx init_msg) ] /\
  m_val (last_msg (memory s2 1)) = 1%N.
Proof.
  simpl. unfold can_read. simpl. repeat split; auto.
Qed.

(** ... but not with an acquire load (instance of [message_passing]) *)
Example mp_acquire_forbidden :
  let s2 := run init [ (1, LStore 0 Rlx 1%N); (1, LStore 1 Rel 1%N) ] in
  ~ valid s2 [ (2, LLoad 1 Acq (last_msg (memory s2 1))); (2, LLoad 0 Rlx init_msg) ].
Proof.
  simpl. unfold can_read. simpl. intros (_ & (_ & H) & _).
  vm_compute in H. lia.
Qed.
