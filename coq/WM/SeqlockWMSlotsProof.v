(** * WM.SeqlockWMSlotsProof : over the weak-memory machine, seqlock::load for slots > 1 never
      returns a torn value; update reads the latest value.

    The model is in WM/SeqlockWMSlots.v.  The structure of the proof is that of
    WM/SeqlockWMProof.v (slots = 1); the differences: a generation lives in slot [g mod K], the reader
    accepts its copy of generation g as long as the lock acquisition of generation g + K (the next
    one that overwrites the slot) is not in its view, and the timestamps of the data messages are
    not the generations (as they are for slots = 1) - the ghost map [g_gen] relates them. *)

Require Import List NArith ZArith Arith Lia Bool.
Import ListNotations.
Require Import XV.WM.View XV.WM.ViewLemmas XV.WM.SeqlockWM XV.WM.SeqlockWMProof XV.WM.SeqlockWMSlots.

(** ** Arithmetic *)

Lemma div2_bounds : forall k, 2 * Nat.div2 k <= k <= 2 * Nat.div2 k + 1.
Proof. intros k. pose proof (Nat.div2_odd k) as H. destruct (Nat.odd k); simpl in H; lia. Qed.

Lemma half_of_nat : forall k, half (N.of_nat k) = Nat.div2 k.
Proof. intros. unfold half. pose proof (div2_bounds k). zify. Z.div_mod_to_equations. lia. Qed.

Lemma rd_base_of_nat : forall k, rd_base (N.of_nat k) = N.of_nat (2 * Nat.div2 k).
Proof. intros. unfold rd_base. pose proof (div2_bounds k). zify. Z.div_mod_to_equations. lia. Qed.

(** two generations in the same slot are at least K apart *)
Lemma same_slot_far : forall K g g', 1 <= K -> g <= g' -> g' < g + K -> g mod K = g' mod K -> g' = g.
Proof.
  intros K g g' HK H1 H2 H3.
  pose proof (Nat.div_mod g K ltac:(lia)). pose proof (Nat.div_mod g' K ltac:(lia)).
  pose proof (Nat.mod_upper_bound g K ltac:(lia)).
  rewrite <- H3 in H0.
  assert (g / K = g' / K) by nia. nia.
Qed.

(** update() computes the slot it writes as [(idx + 1) % slots] from the slot [idx] it read
    (seqlock.hpp:196), store() as [((seq >> 1) + 1) % slots] (seqlock.hpp:203); the model uses the
    second expression for both - they are equal *)
Lemma update_wr_slot : forall K q, 1 <= K -> (upd_slot K q + 1) mod K = wr_slot K q.
Proof.
  intros K q HK. unfold upd_slot, wr_slot. rewrite Nat.add_mod_idemp_l by lia. reflexivity.
Qed.

Lemma dLs_seqL : forall W idx i, dLs W idx i <> seqL.
Proof. discriminate. Qed.

Lemma dLs_inj : forall W idx i idx' i', i < W -> i' < W -> dLs W idx i = dLs W idx' i' -> idx = idx' /\ i = i'.
Proof.
  unfold dLs. intros W idx i idx' i' H1 H2 H. injection H as H.
  assert (idx = idx') by nia. subst. lia.
Qed.

Section Proof.

Variable K : nat.
Variable W : nat.
Hypothesis K_pos : 1 <= K.
Hypothesis W_pos : 1 <= W.
Variable o : orders.

Notation dLs := (dLs W).
Notation rd_slot := (rd_slot K).
Notation upd_slot := (upd_slot K).
Notation wr_slot := (wr_slot K).
Notation accept := (accept K).
Notation pstep := (pstep K W o).
Notation preach := (preach K W o).
Notation ptrace := (ptrace K W o).
Notation pinit := (pinit W).
Notation norm := (norm W).

(** ** The invariant *)

Definition Lseq (M : state) : ts := last_ts (memory M seqL).

Definition ggen := nat -> nat -> ts -> nat.

(** the generation / slot a message of [_seq] stands for *)
Definition gq (m : msg) : nat := Nat.div2 (m_ts m).
Definition rq (m : msg) : nat := gq m mod K.

(** word i of slot idx has a message of generation g with timestamp <= b *)
Definition has_gen (M : state) (gg : ggen) (idx i g : nat) (b : ts) : Prop :=
  exists md, In md (memory M (dLs idx i)) /\ gg idx i (m_ts md) = g /\ m_ts md <= b.

Definition need (M : state) (t : tid) : ts :=
  if is_acq (o_data_load o) then cur (threads M t) seqL
  else Nat.max (cur (threads M t) seqL) (acq (threads M t) seqL).

Definition rd_inv (M : state) (gg : ggen) (t : tid) (c0 : ts) (mq : msg) (buf : list msg) : Prop :=
  In mq (memory M seqL) /\ c0 <= m_ts mq /\ m_ts mq <= cur (threads M t) seqL /\
  length buf <= W /\
  (forall i, i < W -> has_gen M gg (rq mq) i (gq mq) (cur (threads M t) (dLs (rq mq) i))) /\
  (forall j m, nth_error buf j = Some m ->
     In m (memory M (dLs (rq mq) j)) /\ gq mq <= gg (rq mq) j (m_ts m)).

Definition thr_inv (M : state) (gg : ggen) (t : tid) (p : pc) : Prop :=
  match p with
  | RdData c0 mq buf =>
      rd_inv M gg t c0 mq buf /\ length buf < W /\
      (forall j m, nth_error buf j = Some m -> 2 * gg (rq mq) j (m_ts m) <= S (need M t))
  | RdFence c0 mq buf =>
      rd_inv M gg t c0 mq buf /\ length buf = W /\
      (forall j m, nth_error buf j = Some m -> 2 * gg (rq mq) j (m_ts m) <= S (need M t))
  | RdSeq2 c0 mq buf =>
      rd_inv M gg t c0 mq buf /\ length buf = W /\
      (forall j m, nth_error buf j = Some m ->
         2 * gg (rq mq) j (m_ts m) <= S (cur (threads M t) seqL))
  | RdDone c0 mq buf =>
      In mq (memory M seqL) /\ c0 <= m_ts mq /\ length buf = W /\
      (forall j m, nth_error buf j = Some m ->
         In m (memory M (dLs (rq mq) j)) /\ gg (rq mq) j (m_ts m) = gq mq)
  | WrCas w q => N.odd q = false
  | _ => True
  end.

Definition upd_inv (s : pstate) (t : tid) (buf : list msg) : Prop :=
  is_acq (o_lock_cas o) = true ->
  let g := g_cur s - 1 in let r := g mod K in
  (forall i, i < W -> has_gen (ms s) (g_gen s) r i g (cur (threads (ms s) t) (dLs r i))) /\
  (forall j m, nth_error buf j = Some m ->
     In m (memory (ms s) (dLs r j)) /\ g_gen s r j (m_ts m) = g).

(** all data messages are older than the generation being written, except the words already written *)
Definition fresh_from (s : pstate) (j : nat) : Prop :=
  forall idx i m, i < W -> In m (memory (ms s) (dLs idx i)) ->
    (idx = g_cur s mod K /\ i < j) \/ g_gen s idx i (m_ts m) < g_cur s.

Definition written_to (s : pstate) (t : tid) (j : nat) : Prop :=
  forall i, i < j ->
    has_gen (ms s) (g_gen s) (g_cur s mod K) i (g_cur s)
            (cur (threads (ms s) t) (dLs (g_cur s mod K) i)).

Definition holder_inv (s : pstate) (t : tid) (p : pc) : Prop :=
  let M := ms s in let G := g_cur s in
  Lseq M <= cur (threads M t) seqL /\
  match p with
  | WrRead f q buf =>
      N.of_nat (Lseq M) = (q + 1)%N /\ fresh_from s 0 /\
      length (g_hist s) = G /\ upd_inv s t buf /\ length buf < W
  | WrRFence f q buf =>
      N.of_nat (Lseq M) = (q + 1)%N /\ fresh_from s 0 /\
      length (g_hist s) = G /\ upd_inv s t buf /\ length buf = W
  | WrFence v q =>
      N.of_nat (Lseq M) = (q + 1)%N /\ fresh_from s 0 /\ length (g_hist s) = G
  | WrData v q j =>
      N.of_nat (Lseq M) = (q + 1)%N /\ j < W /\ fresh_from s j /\
      length (g_hist s) = S G /\ nth G (g_hist s) [] = norm v /\
      written_to s t j /\
      (is_rel (o_data_store o) = false -> Lseq M <= rel (threads M t) seqL)
  | WrUnlock q =>
      N.of_nat (Lseq M) = (q + 1)%N /\ length (g_hist s) = S G /\ written_to s t W
  | _ => False
  end.

Record inv (s : pstate) : Prop := {
  i_reach : reachable (ms s);
  i_seq_val : forall m, In m (memory (ms s) seqL) -> m_val m = N.of_nat (m_ts m);
  (* the message of _seq with timestamp 2g or 2g+1 carries the data stores of generation g *)
  i_seq_view : forall m i, In m (memory (ms s) seqL) -> i < W ->
                 has_gen (ms s) (g_gen s) (rq m) i (gq m) (m_view m (dLs (rq m) i));
  i_cur : match g_owner s with
          | None => Lseq (ms s) = 2 * g_cur s
          | Some _ => S (Lseq (ms s)) = 2 * g_cur s
          end;
  (* the data messages *)
  i_data_le : forall idx i m, i < W -> In m (memory (ms s) (dLs idx i)) ->
                g_gen s idx i (m_ts m) <= g_cur s;
  i_data_mono : forall idx i m m', i < W ->
                In m (memory (ms s) (dLs idx i)) -> In m' (memory (ms s) (dLs idx i)) ->
                m_ts m <= m_ts m' -> g_gen s idx i (m_ts m) <= g_gen s idx i (m_ts m');
  i_data_slot : forall idx i m, i < W -> In m (memory (ms s) (dLs idx i)) ->
                1 <= g_gen s idx i (m_ts m) -> g_gen s idx i (m_ts m) mod K = idx;
  i_data_view : forall idx i m, i < W -> In m (memory (ms s) (dLs idx i)) ->
                2 * g_gen s idx i (m_ts m) <= S (m_view m seqL);
  i_data_val : forall idx i m, i < W -> In m (memory (ms s) (dLs idx i)) ->
               g_gen s idx i (m_ts m) mod K = idx ->
               m_val m = nth i (nth (g_gen s idx i (m_ts m)) (g_hist s) []) 0%N;
  i_hist_len : forall v, In v (g_hist s) -> length v = W;
  (* the lock *)
  i_owner : forall t, locked (pcs s t) = true <-> g_owner s = Some t;
  i_unlocked : g_owner s = None -> length (g_hist s) = S (g_cur s);
  i_locked : forall t, g_owner s = Some t -> holder_inv s t (pcs s t);
  i_thr : forall t, thr_inv (ms s) (g_gen s) t (pcs s t)
}.

Lemma inv_init : inv pinit.
Proof.
  constructor; simpl.
  - constructor.
  - intros m [<-|[]]. reflexivity.
  - intros m i [<-|[]] Hi. exists init_msg. unfold rq, gq. simpl.
    rewrite Nat.mod_0_l by lia. split; [now left|]. split; [reflexivity|]. simpl. lia.
  - reflexivity.
  - intros. lia.
  - intros. lia.
  - intros. lia.
  - intros. lia.
  - intros idx i m Hi [<-|[]] H. rewrite Nat.mod_0_l in H by lia. subst idx. simpl.
    now rewrite norm_nth; [destruct i|].
  - intros v [<-|[]]. apply norm_length.
  - intros t. split; discriminate.
  - reflexivity.
  - discriminate.
  - intros t. exact Logic.I.
Qed.

(** ** Stability: the per-thread invariants are lower bounds on the thread's views and
       membership of messages; a data store leaves the generations of the old messages alone *)

(** the ghost generation of existing data messages does not change *)
Definition gen_frame (M : state) (gg gg' : ggen) : Prop :=
  forall idx i m, In m (memory M (dLs idx i)) -> gg' idx i (m_ts m) = gg idx i (m_ts m).

Lemma gen_frame_refl : forall M gg, gen_frame M gg gg.
Proof. intros M gg idx i m _. reflexivity. Qed.

Lemma has_gen_mono : forall M M' gg gg' idx i g b b',
  mono M M' -> gen_frame M gg gg' -> b <= b' ->
  has_gen M gg idx i g b -> has_gen M' gg' idx i g b'.
Proof.
  intros M M' gg gg' idx i g b b' Mo Fr Hb (md & Hin & Hg & Ht).
  exists md. split; [now apply (mono_mem _ _ Mo)|]. split; [|lia].
  now rewrite (Fr idx i md Hin).
Qed.

Lemma has_gen_le : forall M M' gg idx i g b b',
  mono M M' -> b <= b' -> has_gen M gg idx i g b -> has_gen M' gg idx i g b'.
Proof. intros M M' gg idx i g b b' Mo. apply has_gen_mono; [assumption|apply gen_frame_refl]. Qed.

Lemma rd_inv_mono : forall M M' gg gg' t c0 mq buf,
  mono M M' -> gen_frame M gg gg' -> rd_inv M gg t c0 mq buf -> rd_inv M' gg' t c0 mq buf.
Proof.
  intros M M' gg gg' t c0 mq buf Mo Fr (A & C & D & Len & E & F).
  split; [now apply (mono_mem _ _ Mo)|]. split; [assumption|].
  split; [pose proof (mono_cur _ _ Mo t seqL); lia|]. split; [assumption|]. split.
  - intros i Hi. eapply has_gen_mono; try eassumption; [|now apply E].
    apply (mono_cur _ _ Mo).
  - intros j m Hj. destruct (F j m Hj) as [F1 F2].
    split; [now apply (mono_mem _ _ Mo)|]. now rewrite (Fr _ _ _ F1).
Qed.

Lemma thr_inv_mono : forall M M' gg gg' t p,
  mono M M' -> gen_frame M gg gg' -> thr_inv M gg t p -> thr_inv M' gg' t p.
Proof.
  intros M M' gg gg' t p Mo Fr H.
  pose proof (SeqlockWMProof.need_mono o M M' t Mo : need M t <= need M' t) as N.
  pose proof (mono_cur _ _ Mo t seqL) as C.
  destruct p; simpl in *; try exact H.
  (* RdData, RdFence, RdSeq2: [rd_inv] and a bound by a view *)
  1-3: destruct H as (A & B & D); (split; [eapply rd_inv_mono; eassumption|]); (split; [assumption|]);
       intros j m Hj; specialize (D j m Hj); destruct A as (_ & _ & _ & _ & _ & F);
       rewrite (Fr _ _ _ (proj1 (F j m Hj))); lia.
  destruct H as (A & B & D & F). split; [now apply (mono_mem _ _ Mo)|].
  split; [assumption|]. split; [assumption|].
  intros j m Hj. destruct (F j m Hj) as [F1 F2].
  split; [now apply (mono_mem _ _ Mo)|]. now rewrite (Fr _ _ _ F1).
Qed.

Lemma holder_inv_frame : forall s s' t p,
  mono (ms s) (ms s') -> memory (ms s') = memory (ms s) ->
  g_hist s' = g_hist s -> g_cur s' = g_cur s -> g_gen s' = g_gen s ->
  holder_inv s t p -> holder_inv s' t p.
Proof.
  intros s s' t p Mo Hm Hh Hc Hg [A B].
  assert (C : forall l, cur (threads (ms s) t) l <= cur (threads (ms s') t) l)
    by (intros; apply (mono_cur _ _ Mo)).
  assert (Fr : forall j, fresh_from s j -> fresh_from s' j).
  { intros j F idx i m Hi Hin. rewrite Hc, Hg. rewrite Hm in Hin. now apply F. }
  assert (Wt : forall j, written_to s t j -> written_to s' t j).
  { intros j H i Hi. rewrite Hc, Hg. eapply has_gen_le; [eassumption|apply C|now apply H]. }
  assert (U : forall buf, upd_inv s t buf -> upd_inv s' t buf).
  { intros buf U Acq. destruct (U Acq) as [U1 U2]. rewrite Hc, Hg, Hm. split; [|exact U2].
    intros i Hi. eapply has_gen_le; [eassumption|apply C|exact (U1 i Hi)]. }
  unfold holder_inv, Lseq in *. rewrite Hm, Hh, Hc.
  split; [specialize (C seqL); lia|].
  destruct p; try contradiction.
  - destruct B as (B1 & B2 & B3 & B4 & B5). auto 10.
  - destruct B as (B1 & B2 & B3 & B4 & B5). auto 10.
  - destruct B as (B1 & B2 & B3). auto.
  - destruct B as (B1 & B2 & B3 & B4 & B5 & B6 & B7). repeat (split; [auto|]).
    intros Hr. specialize (B7 Hr). pose proof (mono_rel _ _ Mo t seqL). lia.
  - destruct B as (B1 & B2 & B3). auto.
Qed.

(** the threads other than the one that steps *)
Lemma thr_others : forall s M' gg' t0,
  inv s -> mono (ms s) M' -> gen_frame (ms s) (g_gen s) gg' -> thr_inv M' gg' t0 (pcs s t0).
Proof. intros s M' gg' t0 I Mo Fr. apply (thr_inv_mono (ms s) _ (g_gen s)); [assumption..|apply (i_thr s I)]. Qed.

(** what the invariant says of the lock holder *)
Lemma holder_at : forall s t, inv s -> locked (pcs s t) = true ->
  g_owner s = Some t /\ S (Lseq (ms s)) = 2 * g_cur s /\ holder_inv s t (pcs s t).
Proof.
  intros s t I L. apply (i_owner s I) in L. pose proof (i_cur s I) as C. rewrite L in C.
  auto using (i_locked s I).
Qed.

Lemma not_holder : forall s t t0, inv s -> g_owner s = Some t -> t0 <> t -> locked (pcs s t0) = false.
Proof.
  intros s t t0 I Ho Hn. destruct (locked (pcs s t0)) eqn:L; [|reflexivity].
  apply (i_owner s I) in L. congruence.
Qed.

(** ** Steps that change neither the memory nor the ghost state *)

Lemma inv_quiet : forall s t lab M' p',
  inv s -> step (ms s) t lab M' -> memory M' = memory (ms s) ->
  locked p' = locked (pcs s t) ->
  thr_inv M' (g_gen s) t p' ->
  (g_owner s = Some t -> holder_inv (set_pc s M' t p') t p') ->
  inv (set_pc s M' t p').
Proof.
  intros s t lab M' p' I St Hm Hl Ht Hh.
  destruct (step_reach _ _ _ _ (i_reach s I) St) as [R' Mo].
  constructor; unfold set_pc; cbn [ms pcs g_hist g_gen g_cur g_owner]; unfold Lseq, has_gen; rewrite ?Hm;
    try apply I.
  - exact R'.
  - apply (upd_all (fun t0 p => locked p = true <-> g_owner s = Some t0)); [rewrite Hl|intros t0 _];
      apply (i_owner s I).
  - apply (upd_all (fun t0 p => g_owner s = Some t0 -> holder_inv _ t0 p)); [exact Hh|].
    intros t0 _ Ho. apply (holder_inv_frame s); try reflexivity; try assumption.
    now apply (i_locked s I).
  - apply (upd_all (thr_inv M' (g_gen s))); [exact Ht|].
    intros t0 _. apply thr_others; [assumption..|apply gen_frame_refl].
Qed.

Lemma inv_quiet_unlocked : forall s t lab M' p',
  inv s -> step (ms s) t lab M' -> memory M' = memory (ms s) ->
  locked (pcs s t) = false -> locked p' = false ->
  thr_inv M' (g_gen s) t p' ->
  inv (set_pc s M' t p').
Proof.
  intros s t lab M' p' I St Hm Hl Hl' Ht. eapply inv_quiet; try eassumption; [congruence|].
  intros Ho. apply (i_owner s I) in Ho. congruence.
Qed.

Lemma idle_unlocked : forall p, is_idle p = true -> locked p = false.
Proof. destruct p; simpl; congruence. Qed.

Lemma wr_after_seq_unlocked : forall w m, locked (wr_after_seq w m) = false.
Proof. intros; unfold wr_after_seq; destruct (is_write_pending (m_val m)); reflexivity. Qed.

(** ** The conditions on the orders, unpacked *)

Definition ok_load : Prop :=
  is_acq (o_load_seq1 o) = true /\ is_acq (o_load_seq2 o) = true /\
  (is_acq (o_data_load o) = true \/ is_acq (o_fence_after_data o) = true) /\
  (is_rel (o_fence_before_data o) = true \/ is_rel (o_data_store o) = true) /\
  is_rel (o_unlock_store o) = true.

Lemma orders_ok_load_spec : orders_ok_load_slots o = true -> ok_load.
Proof.
  unfold orders_ok_load_slots, ok_load. rewrite !andb_true_iff, !orb_true_iff. tauto.
Qed.

(** ** The reader's steps *)

Lemma rd_slot_rq : forall s mq, inv s -> In mq (memory (ms s) seqL) -> rd_slot (m_val mq) = rq mq.
Proof.
  intros s mq I Hin. unfold rd_slot, SeqlockWMSlots.rd_slot, rq, gq.
  now rewrite (i_seq_val s I mq Hin), half_of_nat.
Qed.

(** an ACQUIRE load of [_seq] (sites (1), (3)) by a thread that started its load() when its view
    of [_seq] was [c0]: the generation the message stands for becomes visible in its slot *)
Lemma step_rd_seq : forall s t c0 od m M',
  inv s -> is_acq od = true -> locked (pcs s t) = false -> c0 <= cur (threads (ms s) t) seqL ->
  step (ms s) t (LLoad seqL od m) M' ->
  inv (set_pc s M' t (RdData c0 m [])).
Proof.
  intros s t c0 od m M' I A Hl C St.
  destruct (load_reach _ _ _ _ _ _ (i_reach s I) St) as (R' & Mo & Hm & Hin & Hlo & Hhi).
  eapply inv_quiet_unlocked; try eassumption; [reflexivity|].
  assert (Nil : forall j (m0 : msg), nth_error [] j = Some m0 -> False) by (intros [|j]; discriminate).
  simpl. split; [|split; [lia|intros j m0 Hj; destruct (Nil j m0 Hj)]].
  unfold rd_inv. rewrite Hm.
  split; [assumption|]. split; [lia|]. split; [assumption|]. split; [simpl; lia|]. split.
  - intros i Hi. eapply has_gen_le; [eassumption| |apply (i_seq_view s I m i Hin Hi)].
    apply (acquire_load_view _ _ _ _ _ _ St A).
  - intros j m0 Hj; destruct (Nil j m0 Hj).
Qed.

(** a data load (240) by a reader: generations grow with the timestamps of a word, so the word is
    not older than the generation of [mq]; the lock acquisition of its generation is in [need] *)
Lemma step_rd_data : forall s t c0 mq buf m M',
  inv s -> pcs s t = RdData c0 mq buf ->
  step (ms s) t (LLoad (dLs (rd_slot (m_val mq)) (length buf)) (o_data_load o) m) M' ->
  inv (set_pc s M' t (if Nat.eqb (S (length buf)) W
                      then RdFence c0 mq (buf ++ [m]) else RdData c0 mq (buf ++ [m]))).
Proof.
  intros s t c0 mq buf m M' I Hpc St.
  pose proof (i_thr s I t) as T. rewrite Hpc in T. destruct T as (RI & Hlen & Hneed).
  rewrite (rd_slot_rq s mq I (proj1 RI)) in St.
  destruct (load_reach _ _ _ _ _ _ (i_reach s I) St) as (R' & Mo & Hm & Hin & Hlo & Hhi).
  assert (T' : rd_inv M' (g_gen s) t c0 mq (buf ++ [m]) /\
               forall j m0, nth_error (buf ++ [m]) j = Some m0 ->
                 2 * g_gen s (rq mq) j (m_ts m0) <= S (need M' t)).
  { pose proof (rd_inv_mono _ _ _ _ _ _ _ _ Mo (gen_frame_refl _ _) RI) as (A & C & D & L & E & F).
    split.
    - do 3 (split; [assumption|]). split; [rewrite app_length; simpl; lia|]. split; [assumption|].
      intros j m0 Hj. apply nth_error_snoc in Hj. destruct Hj as [[_ Hj]|[-> ->]]; [now apply F|].
      rewrite Hm. split; [assumption|].
      destruct RI as (_ & _ & _ & _ & E0 & _).
      destruct (E0 (length buf) Hlen) as (md & Hmd & Gmd & Tmd). rewrite <- Gmd.
      apply (i_data_mono s I _ _ md m Hlen Hmd Hin). lia.
    - intros j m0 Hj. apply nth_error_snoc in Hj. destruct Hj as [[_ Hj]|[-> ->]].
      + specialize (Hneed j m0 Hj).
        pose proof (SeqlockWMProof.need_mono o _ _ t Mo : need (ms s) t <= need M' t). lia.
      + pose proof (i_data_view s I _ _ m Hlen Hin).
        pose proof (need_data_load o _ _ _ _ _ St : _ <= need M' t). lia. }
  assert (Hl : length (buf ++ [m]) = S (length buf)) by (rewrite app_length; simpl; lia).
  destruct T' as [RI' Hneed'].
  eapply inv_quiet_unlocked; try eassumption; [now rewrite Hpc| |];
    destruct (Nat.eqb_spec (S (length buf)) W); try reflexivity; simpl;
    (split; [assumption|split; [lia|assumption]]).
Qed.

Lemma step_rd_fence : forall s t c0 mq buf M',
  ok_load -> inv s -> pcs s t = RdFence c0 mq buf ->
  step (ms s) t (LFence (o_fence_after_data o)) M' ->
  inv (set_pc s M' t (RdSeq2 c0 mq buf)).
Proof.
  intros s t c0 mq buf M' Ok I Hpc St.
  destruct (fence_reach _ _ _ _ (i_reach s I) St) as (R' & Mo & Hm).
  pose proof (i_thr s I t) as T. rewrite Hpc in T. destruct T as (RI & Hlen & Hneed).
  eapply inv_quiet_unlocked; try eassumption; [now rewrite Hpc|reflexivity|].
  split; [eapply rd_inv_mono; [eassumption|apply gen_frame_refl|eassumption]|]. split; [assumption|].
  intros j m Hj. specialize (Hneed j m Hj).
  pose proof (need_fence o _ _ _ (proj1 (proj2 (proj2 Ok))) Mo St : need (ms s) t <= _). lia.
Qed.

(** the subtraction of line 180 never truncates: seq <= seq2 *)
Lemma seq2_ge_seq : forall s t c0 mq buf od m M',
  inv s -> pcs s t = RdSeq2 c0 mq buf ->
  step (ms s) t (LLoad seqL od m) M' ->
  (rd_base (m_val mq) <= m_val m)%N.
Proof.
  intros s t c0 mq buf od m M' I Hpc St.
  destruct (load_reach _ _ _ _ _ _ (i_reach s I) St) as (R' & Mo & Hm & Hin & Hlo & Hhi).
  pose proof (i_thr s I t) as T. rewrite Hpc in T. destruct T as ((A & C & D & _) & _).
  rewrite (i_seq_val s I m Hin), (i_seq_val s I mq A), rd_base_of_nat.
  pose proof (div2_bounds (m_ts mq)). lia.
Qed.

(** the second load of [_seq] (179): accepted while the lock acquisition of generation
    [gq mq + K], the next one to overwrite the slot, is not in view; every word read has a
    generation of this slot between [gq mq] ([rd_inv]) and that bound, hence [gq mq] *)
Lemma step_rd_seq2 : forall s t c0 mq buf m M',
  ok_load -> inv s -> pcs s t = RdSeq2 c0 mq buf ->
  step (ms s) t (LLoad seqL (o_load_seq2 o) m) M' ->
  inv (set_pc s M' t (if accept (m_val m) (m_val mq)
                      then RdDone c0 mq buf else RdData c0 m [])).
Proof.
  intros s t c0 mq buf m M' Ok I Hpc St.
  pose proof (i_thr s I t) as T. rewrite Hpc in T. destruct T as ((A & C & D & L0 & E & F) & Hlen & Hb).
  assert (Hl : locked (pcs s t) = false) by now rewrite Hpc.
  destruct (accept (m_val m) (m_val mq)) eqn:Ea.
  - destruct (load_reach _ _ _ _ _ _ (i_reach s I) St) as (R' & Mo & Hm & Hin & Hlo & Hhi).
    eapply inv_quiet_unlocked; try eassumption; [reflexivity|].
    simpl. rewrite Hm. do 3 (split; [assumption|]).
    unfold accept, SeqlockWMSlots.accept in Ea. apply N.ltb_lt in Ea.
    rewrite (i_seq_val s I m Hin), (i_seq_val s I mq A), rd_base_of_nat in Ea.
    fold (gq mq) in Ea. pose proof (div2_bounds (m_ts mq)) as Bq. fold (gq mq) in Bq.
    intros j m0 Hj. destruct (F j m0 Hj) as [F1 F2]. specialize (Hb j m0 Hj).
    split; [assumption|].
    assert (Hjw : j < W) by (pose proof (nth_error_lt _ _ _ _ Hj); lia).
    set (gm := g_gen s (rq mq) j (m_ts m0)) in *.
    destruct (Nat.eq_dec gm 0) as [Z|NZ]; [lia|].
    assert (Sl : gm mod K = rq mq) by (apply (i_data_slot s I _ _ m0 Hjw F1); fold gm; lia).
    apply (same_slot_far K (gq mq) gm); [assumption|assumption|lia|now rewrite Sl].
  - apply (step_rd_seq s t c0 (o_load_seq2 o) m M' I); [apply Ok|assumption|lia|exact St].
Qed.

(** ** The writer's steps before it holds the lock *)

Lemma step_wr_seq : forall s t w od m M',
  inv s -> locked (pcs s t) = false ->
  step (ms s) t (LLoad seqL od m) M' ->
  inv (set_pc s M' t (wr_after_seq w m)).
Proof.
  intros s t w od m M' I Hl St.
  destruct (load_reach _ _ _ _ _ _ (i_reach s I) St) as (_ & _ & Hm & _).
  eapply inv_quiet_unlocked; try eassumption; [apply wr_after_seq_unlocked|].
  unfold wr_after_seq, is_write_pending.
  destruct (N.odd (m_val m)) eqn:E; simpl; [exact Logic.I|exact E].
Qed.

(** ** The lock holder's steps *)

Lemma Lseq_eq : forall M M', memory M' = memory M -> Lseq M' = Lseq M.
Proof. intros M M' H. unfold Lseq. now rewrite H. Qed.

(** the slots the lock holder computes *)
Lemma holder_slots : forall s q, S (Lseq (ms s)) = 2 * g_cur s -> N.of_nat (Lseq (ms s)) = (q + 1)%N ->
  upd_slot q = (g_cur s - 1) mod K /\ wr_slot q = g_cur s mod K.
Proof.
  intros s q C Q. unfold upd_slot, wr_slot, SeqlockWMSlots.upd_slot, SeqlockWMSlots.wr_slot.
  rewrite <- Q, half_of_nat. pose proof (div2_bounds (Lseq (ms s))) as B.
  assert (E : Nat.div2 (Lseq (ms s)) = g_cur s - 1) by lia. rewrite E.
  split; [reflexivity|]. f_equal. lia.
Qed.

Lemma fresh_from_eq : forall s s' j,
  memory (ms s') = memory (ms s) -> g_cur s' = g_cur s -> g_gen s' = g_gen s ->
  fresh_from s j -> fresh_from s' j.
Proof. intros s s' j Hm Hc Hg F idx i m Hi Hin. rewrite Hc, Hg. rewrite Hm in Hin. now apply F. Qed.

(** update: a data load (240) under the lock reads a message of generation [g_cur - 1]: not older
    ([upd_inv]), and nothing newer has been written ([fresh_from]) *)
Lemma step_wr_read : forall s t f q buf m M',
  inv s -> pcs s t = WrRead f q buf ->
  step (ms s) t (LLoad (dLs (upd_slot q) (length buf)) (o_data_load o) m) M' ->
  inv (set_pc s M' t (if Nat.eqb (S (length buf)) W
                      then WrRFence f q (buf ++ [m]) else WrRead f q (buf ++ [m]))).
Proof.
  intros s t f q buf m M' I Hpc St.
  destruct (holder_at s t I) as (Ho & C & H); [now rewrite Hpc|]. rewrite Hpc in H.
  destruct H as (A & Q & Fr & Hh & U & Len).
  destruct (holder_slots s q C Q) as [Us _]. rewrite Us in *.
  destruct (load_reach _ _ _ _ _ _ (i_reach s I) St) as (R' & Mo & Hm & Hin & Hlo & Hhi).
  assert (Hl : length (buf ++ [m]) = S (length buf)) by (rewrite app_length; simpl; lia).
  eapply inv_quiet; try eassumption.
  - rewrite Hpc. destruct (Nat.eqb (S (length buf)) W); reflexivity.
  - destruct (Nat.eqb (S (length buf)) W); exact Logic.I.
  - intros _.
    assert (U' : upd_inv (set_pc s M' t (WrRead f q (buf ++ [m]))) t (buf ++ [m])).
    { intros Acq. destruct (U Acq) as [U1 U2]. unfold set_pc; cbn [ms g_cur g_gen]. rewrite Hm. split.
      - intros i Hi. eapply has_gen_le; [eassumption|apply (mono_cur _ _ Mo)|now apply U1].
      - intros j m0 Hj. apply nth_error_snoc in Hj. destruct Hj as [[_ Hj]|[-> ->]]; [now apply U2|].
        split; [assumption|].
        destruct (U1 (length buf) Len) as (md & Hmd & Gmd & Tmd).
        pose proof (i_data_mono s I _ _ md m Len Hmd Hin ltac:(lia)) as Mn.
        destruct (Fr _ _ m Len Hin) as [[_ Hc]|Hc]; lia. }
    assert (A' : Lseq M' <= cur (threads M' t) seqL).
    { rewrite (Lseq_eq _ _ Hm). pose proof (mono_cur _ _ Mo t seqL). lia. }
    assert (Fr' : forall p, fresh_from (set_pc s M' t p) 0)
      by (intros p; now apply (fresh_from_eq s)).
    destruct (Nat.eqb_spec (S (length buf)) W);
      (split; [exact A'|]); cbn [ms g_cur g_hist set_pc]; rewrite (Lseq_eq _ _ Hm);
      (split; [assumption|]); (split; [apply Fr'|]); (split; [assumption|]);
      (split; [exact U'|lia]).
Qed.

(** update: the fence (243) after the data loads, then func(data) *)
Lemma step_wr_rfence : forall s t f q buf M',
  inv s -> pcs s t = WrRFence f q buf ->
  step (ms s) t (LFence (o_fence_after_data o)) M' ->
  inv (set_pc s M' t (WrFence (f (map m_val buf)) q)).
Proof.
  intros s t f q buf M' I Hpc St.
  destruct (fence_reach _ _ _ _ (i_reach s I) St) as (R' & Mo & Hm).
  destruct (holder_at s t I) as (Ho & _ & H); [now rewrite Hpc|]. rewrite Hpc in H.
  destruct H as (A & Q & Fr & Hh & U & Len).
  eapply inv_quiet; try eassumption; [now rewrite Hpc|exact Logic.I|].
  intros _. split; cbn [ms g_cur g_hist set_pc]; rewrite (Lseq_eq _ _ Hm).
  - pose proof (mono_cur _ _ Mo t seqL). lia.
  - split; [assumption|]. split; [now apply (fresh_from_eq s)|assumption].
Qed.

(** the successful CAS (218): [_seq] was even, so nobody held the lock; the new message of [_seq]
    inherits the view of the one read *)
Lemma step_wr_cas_ok : forall s t w q M',
  inv s -> pcs s t = WrCas w q ->
  m_val (last_msg (memory (ms s) seqL)) = q ->
  step (ms s) t (LRmw seqL (o_lock_cas o) (q + 1)%N) M' ->
  inv {| ms := M';
         pcs := upd_pc (pcs s) t (match w with
                                  | WStore v => WrFence v q
                                  | WUpdate f => WrRead f q []
                                  end);
         g_hist := g_hist s; g_gen := g_gen s;
         g_cur := S (g_cur s); g_owner := Some t |}.
Proof.
  intros s t w q M' I Hpc Hq St.
  pose proof (i_reach s I) as R.
  destruct (rmw_reach _ _ _ _ _ _ R St) as (R' & Mo & mk & E & Hts & Hv & Hoth & Hc & Hrd & Hacq).
  set (ml := last_msg (memory (ms s) seqL)) in *.
  assert (Inl : In ml (memory (ms s) seqL)) by (apply wf_last_in, wf_reachable, R).
  assert (Tl : m_ts ml = Lseq (ms s)) by reflexivity.
  pose proof (i_thr s I t) as T. rewrite Hpc in T. simpl in T.
  pose proof (i_seq_val s I ml Inl) as Vl.
  destruct (even_of_nat (Lseq (ms s))) as [h Hh].
  { rewrite <- Tl, <- Vl, Hq. exact T. }
  pose proof (i_cur s I) as C.
  destruct (g_owner s) eqn:Own; [lia|].
  pose proof (i_unlocked s I Own) as UH.
  assert (L' : Lseq M' = S (Lseq (ms s))).
  { unfold Lseq. rewrite E, last_ts_app, Hts. reflexivity. }
  assert (Dm : forall idx i, memory M' (dLs idx i) = memory (ms s) (dLs idx i)).
  { intros idx i. apply Hoth. apply dLs_seqL. }
  assert (Gl : gq ml = g_cur s).
  { unfold gq. rewrite Tl. pose proof (div2_bounds (Lseq (ms s))). lia. }
  assert (Gk : gq mk = g_cur s).
  { unfold gq. rewrite Hts. fold (Lseq (ms s)). pose proof (div2_bounds (S (Lseq (ms s)))). lia. }
  (* generation [g_cur] is complete in its slot, within every view that includes that of [ml] *)
  assert (Hl : forall i b, i < W -> m_view ml (dLs (g_cur s mod K) i) <= b ->
            has_gen M' (g_gen s) (g_cur s mod K) i (g_cur s) b).
  { intros i b Hi Hb. pose proof (i_seq_view s I ml i Inl Hi) as V. unfold rq in V. rewrite Gl in V.
    exact (has_gen_le _ _ _ _ _ _ _ _ Mo Hb V). }
  constructor; cbn [ms pcs g_hist g_gen g_cur g_owner]; try apply I;
    try (intros *; rewrite Dm; apply I).   (* the data words are untouched *)
  - exact R'.
  - intros m Hin. rewrite E in Hin. apply in_snoc in Hin. destruct Hin as [Hin| ->].
    + now apply (i_seq_val s I).
    + rewrite Hv, Hts. fold (Lseq (ms s)). rewrite <- Tl. rewrite <- Hq, Vl. lia.
  - intros m i Hin Hi. rewrite E in Hin. apply in_snoc in Hin. destruct Hin as [Hin| ->].
    + eapply has_gen_le; [eassumption|apply le_n|now apply (i_seq_view s I)].
    + unfold rq. rewrite Gk.
      apply Hl; [assumption|apply Hrd].
  - lia.
  - intros idx i m Hi. rewrite Dm. intros Hin. pose proof (i_data_le s I idx i m Hi Hin). lia.
  - apply (upd_all (fun t0 p => locked p = true <-> Some t = Some t0)).
    + destruct w; now split.
    + intros t0 Hn. destruct (locked (pcs s t0)) eqn:L; [apply (i_owner s I) in L|]; split; congruence.
  - discriminate.
  - apply (upd_all (fun t0 p => Some t = Some t0 -> holder_inv _ t0 p)); [intros _|congruence].
    assert (A' : Lseq M' <= cur (threads M' t) seqL) by (rewrite Hc, Hts, L'; apply le_n).
    assert (Q' : N.of_nat (Lseq M') = (q + 1)%N).
    { rewrite L', <- Hq, Vl, Tl. lia. }
    assert (Fr' : forall p, fresh_from {| ms := M'; pcs := p; g_hist := g_hist s; g_gen := g_gen s;
                                          g_cur := S (g_cur s); g_owner := Some t |} 0).
    { intros p idx i m Hi Hin. cbn [ms g_cur g_gen] in *. rewrite Dm in Hin. right.
      pose proof (i_data_le s I idx i m Hi Hin). lia. }
    destruct w; (split; [exact A'|]); cbn [ms g_cur g_hist].
    + split; [assumption|]. split; [apply Fr'|assumption].
    + split; [assumption|]. split; [apply Fr'|]. split; [assumption|]. split; [|simpl; lia].
      intros Acq. cbn [ms g_cur g_gen]. replace (S (g_cur s) - 1) with (g_cur s) by lia.
      split; [|intros [|j]; discriminate].
      intros i Hi. apply Hl; [assumption|apply (Hacq Acq)].
  - apply (upd_all (thr_inv M' (g_gen s))); [destruct w; exact Logic.I|].
    intros t0 _. apply thr_others; [assumption..|apply gen_frame_refl].
Qed.

(** the release fence (260) before the data stores; the value of the new generation is recorded *)
Lemma step_wr_fence : forall s t v q M',
  ok_load -> inv s -> pcs s t = WrFence v q ->
  step (ms s) t (LFence (o_fence_before_data o)) M' ->
  inv {| ms := M'; pcs := upd_pc (pcs s) t (WrData v q 0);
         g_hist := g_hist s ++ [norm v]; g_gen := g_gen s;
         g_cur := g_cur s; g_owner := g_owner s |}.
Proof.
  intros s t v q M' Ok I Hpc St.
  destruct (fence_reach _ _ _ _ (i_reach s I) St) as (R' & Mo & Hm).
  destruct (holder_at s t I) as (Ho & C & H); [now rewrite Hpc|]. rewrite Hpc in H.
  destruct H as (A & Q & Fr & Hh).
  constructor; cbn [ms pcs g_hist g_gen g_cur g_owner]; unfold has_gen; rewrite ?(Lseq_eq _ _ Hm), ?Hm;
    try apply I.
  - exact R'.
  - intros idx i m Hi Hin Hs. rewrite (i_data_val s I idx i m Hi Hin Hs).
    destruct (Fr idx i m Hi Hin) as [[_ Hc]|Hc]; [lia|].
    rewrite app_nth1 by lia. reflexivity.
  - intros v0 Hin. apply in_app_or in Hin. destruct Hin as [Hin|[<-|[]]].
    + now apply (i_hist_len s I).
    + apply norm_length.
  - apply (upd_all (fun t0 p => locked p = true <-> g_owner s = Some t0)).
    + rewrite Ho. now split.
    + intros t0 _. apply (i_owner s I).
  - congruence.
  - apply (upd_all (fun t0 p => g_owner s = Some t0 -> holder_inv _ t0 p)); [intros _|congruence].
    split; cbn [ms g_cur g_hist]; rewrite ?(Lseq_eq _ _ Hm).
    + pose proof (mono_cur _ _ Mo t seqL). lia.
    + split; [assumption|]. split; [lia|]. split; [now apply (fresh_from_eq s)|].
      split; [rewrite app_length; simpl; lia|].
      split; [rewrite app_nth2 by lia; rewrite Hh, Nat.sub_diag; reflexivity|].
      split; [intros i Hi; lia|].
      intros Hr. destruct Ok as (_ & _ & _ & [Of|Od] & _); [|congruence].
      pose proof (fence_rel_snapshot _ _ _ _ St Of seqL). lia.
  - apply (upd_all (thr_inv M' (g_gen s))); [exact Logic.I|].
    intros t0 _. apply thr_others; [assumption..|apply gen_frame_refl].
Qed.

(** a data store (266): the new message of word [j] of the slot gets generation [g_cur], which is
    newer than all others ([fresh_from]), and carries the lock acquisition through the release
    fence (7) or its own release order *)
Lemma step_wr_data : forall s t v q j M',
  inv s -> pcs s t = WrData v q j ->
  step (ms s) t (LStore (dLs (wr_slot q) j) (o_data_store o) (nth j v 0%N)) M' ->
  inv {| ms := M';
         pcs := upd_pc (pcs s) t (if Nat.eqb (S j) W then WrUnlock q else WrData v q (S j));
         g_hist := g_hist s;
         g_gen := upd_gen (g_gen s) (wr_slot q) j
                          (S (last_ts (memory (ms s) (dLs (wr_slot q) j)))) (g_cur s);
         g_cur := g_cur s; g_owner := g_owner s |}.
Proof.
  intros s t v q j M' I Hpc St.
  pose proof (i_reach s I) as R. pose proof (wf_reachable _ R) as Wf.
  destruct (holder_at s t I) as (Ho & C & H); [now rewrite Hpc|]. rewrite Hpc in H.
  destruct H as (A & Q & Hj & Fr & Hh & Hn & Wt & Hr).
  destruct (holder_slots s q C Q) as [_ Ws]. rewrite Ws in *.
  set (r := g_cur s mod K) in *.
  destruct (store_reach _ _ _ _ _ _ R St) as (R' & Mo & mk & E & Hts & Hv & Hoth & Hc & Hrel & Hrl).
  set (gg' := upd_gen (g_gen s) r j (S (last_ts (memory (ms s) (dLs r j)))) (g_cur s)).
  assert (Sm : memory M' seqL = memory (ms s) seqL).
  { apply Hoth. intros X. symmetry in X. revert X. apply dLs_seqL. }
  assert (Ls : Lseq M' = Lseq (ms s)) by (unfold Lseq; now rewrite Sm).
  (* the data messages afterwards: the old ones and [mk] at word [j] of slot [r] *)
  assert (Mem : forall idx i m, i < W -> In m (memory M' (dLs idx i)) ->
                  In m (memory (ms s) (dLs idx i)) \/ (idx = r /\ i = j /\ m = mk)).
  { intros idx i m Hi Hin. destruct (Nat.eq_dec (dLs idx i) (dLs r j)) as [Eq|Ne].
    - apply dLs_inj in Eq; [|assumption|assumption]. destruct Eq as [-> ->].
      rewrite E in Hin. apply in_snoc in Hin. destruct Hin; [now left|now right].
    - rewrite (Hoth _ Ne) in Hin. now left. }
  (* ghost generations: old messages keep theirs, the new one has [g_cur] *)
  assert (Frm : gen_frame (ms s) (g_gen s) gg').
  { intros idx i m Hin. unfold gg', upd_gen.
    destruct (Nat.eqb_spec idx r) as [->|]; [|reflexivity].
    destruct (Nat.eqb_spec i j) as [->|]; [|reflexivity].
    pose proof (wf_in_ts _ _ _ Wf Hin) as B.
    destruct (Nat.eqb_spec (m_ts m) (S (last_ts (memory (ms s) (dLs r j))))); [lia|reflexivity]. }
  assert (Gk : gg' r j (m_ts mk) = g_cur s).
  { unfold gg', upd_gen. now rewrite Hts, !Nat.eqb_refl. }
  assert (Ink : In mk (memory M' (dLs r j))) by (rewrite E; apply in_snoc; now right).
  constructor; cbn [ms pcs g_hist g_gen g_cur g_owner]; fold gg'; rewrite ?Ls, ?Sm; try apply I.
  - exact R'.
  - intros m i Hin Hi. eapply has_gen_mono; try eassumption; [apply le_n|now apply (i_seq_view s I)].
  - intros idx i m Hi Hin. destruct (Mem idx i m Hi Hin) as [Old|(-> & -> & ->)].
    + rewrite (Frm _ _ _ Old). now apply (i_data_le s I).
    + rewrite Gk. apply le_n.
  - intros idx i m m' Hi Hin Hin' Hle.
    destruct (Mem idx i m Hi Hin) as [Old|(Ei & Ej & Em)];
      destruct (Mem idx i m' Hi Hin') as [Old'|(Ei' & Ej' & Em')].
    + rewrite (Frm _ _ _ Old), (Frm _ _ _ Old'). now apply (i_data_mono s I).
    + subst idx i m'. rewrite (Frm _ _ _ Old), Gk.
      destruct (Fr r j m Hi Old) as [[_ Hx]|Hx]; lia.
    + subst idx i m. pose proof (wf_in_ts _ _ _ Wf Old') as B. lia.
    + subst m m'. apply le_n.
  - intros idx i m Hi Hin Hpos. destruct (Mem idx i m Hi Hin) as [Old|(-> & -> & ->)].
    + rewrite (Frm _ _ _ Old) in *. now apply (i_data_slot s I).
    + rewrite Gk. reflexivity.
  - intros idx i m Hi Hin. destruct (Mem idx i m Hi Hin) as [Old|(-> & -> & ->)].
    + rewrite (Frm _ _ _ Old). now apply (i_data_view s I idx i).
    + rewrite Gk. destruct (is_rel (o_data_store o)) eqn:Er.
      * specialize (Hrel eq_refl seqL). lia.
      * specialize (Hrl seqL). specialize (Hr eq_refl). lia.
  - intros idx i m Hi Hin Hs. destruct (Mem idx i m Hi Hin) as [Old|(-> & -> & ->)].
    + rewrite (Frm _ _ _ Old) in *. now apply (i_data_val s I).
    + rewrite Gk, Hv, Hn. now rewrite norm_nth.
  - apply (upd_all (fun t0 p => locked p = true <-> g_owner s = Some t0)).
    + rewrite Ho. destruct (Nat.eqb (S j) W); now split.
    + intros t0 _. apply (i_owner s I).
  - apply (upd_all (fun t0 p => g_owner s = Some t0 -> holder_inv _ t0 p)); [intros _|congruence].
    assert (A' : Lseq M' <= cur (threads M' t) seqL).
    { rewrite Ls. pose proof (mono_cur _ _ Mo t seqL). lia. }
    assert (Fr' : forall p, fresh_from {| ms := M'; pcs := p; g_hist := g_hist s; g_gen := gg';
                                          g_cur := g_cur s; g_owner := g_owner s |} (S j)).
    { intros p idx i m Hi Hin. cbn [ms g_cur g_gen] in *. fold r.
      destruct (Mem idx i m Hi Hin) as [Old|(-> & -> & ->)].
      - rewrite (Frm _ _ _ Old). destruct (Fr idx i m Hi Old) as [[X Y]|X]; [left; split; [assumption|lia]|now right].
      - left. split; [reflexivity|lia]. }
    assert (Wt' : forall p, written_to {| ms := M'; pcs := p; g_hist := g_hist s; g_gen := gg';
                                          g_cur := g_cur s; g_owner := g_owner s |} t (S j)).
    { intros p i Hi. cbn [ms g_cur g_gen]. fold r. destruct (Nat.eq_dec i j) as [->|Hne].
      - exists mk. split; [assumption|]. split; [assumption|]. rewrite Hc. apply le_n.
      - assert (Hi' : i < j) by lia.
        eapply has_gen_mono; try eassumption; [apply (mono_cur _ _ Mo)|now apply Wt]. }
    destruct (Nat.eqb_spec (S j) W) as [Ew|Ew]; (split; [exact A'|]); cbn [ms g_cur g_hist]; rewrite Ls.
    + split; [assumption|]. split; [assumption|]. rewrite <- Ew. apply Wt'.
    + split; [assumption|]. split; [lia|]. split; [apply Fr'|]. split; [assumption|].
      split; [assumption|]. split; [apply Wt'|].
      intros Er. specialize (Hr Er). pose proof (mono_rel _ _ Mo t seqL). lia.
  - apply (upd_all (thr_inv M' gg')); [destruct (Nat.eqb (S j) W); exact Logic.I|].
    intros t0 _. now apply thr_others.
Qed.

(** the unlocking release store (230): its message carries the data stores of generation [g_cur] *)
Lemma step_wr_unlock : forall s t q M',
  ok_load -> inv s -> pcs s t = WrUnlock q ->
  step (ms s) t (LStore seqL (o_unlock_store o) (q + 2)%N) M' ->
  inv {| ms := M'; pcs := upd_pc (pcs s) t Idle;
         g_hist := g_hist s; g_gen := g_gen s; g_cur := g_cur s; g_owner := None |}.
Proof.
  intros s t q M' Ok I Hpc St.
  destruct (store_reach _ _ _ _ _ _ (i_reach s I) St)
    as (R' & Mo & mk & E & Hts & Hv & Hoth & Hc & Hrel & Hrl).
  destruct (holder_at s t I) as (Ho & C & H); [now rewrite Hpc|]. rewrite Hpc in H.
  destruct H as (A & Q & Hh & Wt).
  assert (Orel : is_rel (o_unlock_store o) = true) by apply Ok.
  assert (L' : Lseq M' = S (Lseq (ms s))).
  { unfold Lseq. rewrite E, last_ts_app, Hts. reflexivity. }
  assert (Dm : forall idx i, memory M' (dLs idx i) = memory (ms s) (dLs idx i)).
  { intros idx i. apply Hoth. apply dLs_seqL. }
  assert (Gk : gq mk = g_cur s).
  { unfold gq. rewrite Hts. fold (Lseq (ms s)). pose proof (div2_bounds (S (Lseq (ms s)))). lia. }
  constructor; cbn [ms pcs g_hist g_gen g_cur g_owner]; try apply I;
    try (intros *; rewrite Dm; apply I).   (* the data words are untouched *)
  - exact R'.
  - intros m Hin. rewrite E in Hin. apply in_snoc in Hin. destruct Hin as [Hin| ->].
    + now apply (i_seq_val s I).
    + rewrite Hv, Hts. fold (Lseq (ms s)). lia.
  - intros m i Hin Hi. rewrite E in Hin. apply in_snoc in Hin. destruct Hin as [Hin| ->].
    + eapply has_gen_le; [eassumption|apply le_n|now apply (i_seq_view s I)].
    + unfold rq. rewrite Gk.
      eapply has_gen_le; [eassumption| |apply (Wt i Hi)]. apply (Hrel Orel).
  - lia.
  - apply (upd_all (fun t0 p => locked p = true <-> None = Some t0)); [split; discriminate|].
    intros t0 Hn. rewrite (not_holder s t t0 I Ho Hn). split; discriminate.
  - intros _. exact Hh.
  - discriminate.
  - apply (upd_all (thr_inv M' (g_gen s))); [exact Logic.I|].
    intros t0 _. apply thr_others; [assumption..|apply gen_frame_refl].
Qed.

(** ** The invariant holds in every reachable state *)

Lemma inv_step : forall s t lab s',
  orders_ok_load_slots o = true -> inv s -> pstep s t lab s' -> inv s'.
Proof.
  intros s t lab s' Ok I St. apply orders_ok_load_spec in Ok.
  destruct St.
  - apply (step_rd_seq _ _ _ (o_load_seq1 o)); [assumption|apply Ok|now apply idle_unlocked|apply le_n|assumption].
  - eapply step_rd_data; eassumption.
  - eapply step_rd_fence; eassumption.
  - eapply step_rd_seq2; eassumption.
  - eapply step_wr_seq; [assumption|now apply idle_unlocked|eassumption].
  - eapply step_wr_seq; [assumption|now rewrite H|eassumption].
  - eapply step_wr_cas_ok; eassumption.
  - eapply step_wr_seq; [assumption|now rewrite H|eassumption].
  - eapply step_wr_read; eassumption.
  - eapply step_wr_rfence; eassumption.
  - eapply step_wr_fence; eassumption.
  - eapply step_wr_data; eassumption.
  - eapply step_wr_unlock; eassumption.
Qed.

Theorem inv_preach : forall s, orders_ok_load_slots o = true -> preach s -> inv s.
Proof.
  intros s Ok R. induction R; [apply inv_init|eapply inv_step; eassumption].
Qed.

Lemma hist_length_bound : forall s, inv s ->
  g_cur s <= length (g_hist s) /\ (g_owner s = None -> length (g_hist s) = S (g_cur s)).
Proof.
  intros s I. split; [|apply (i_unlocked s I)].
  destruct (g_owner s) as [t0|] eqn:Eo.
  - pose proof (i_locked s I t0 Eo) as H. destruct H as [_ H].
    destruct (pcs s t0); try contradiction; decompose [and] H; lia.
  - pose proof (i_unlocked s I Eo). lia.
Qed.

(** ** MAIN THEOREM (slots > 1): a load is never torn *)

(** what a completed load returns (explained at the theorem) *)
Definition load_returns (s : pstate) (c0 : ts) (mq : msg) (buf : list msg) : Prop :=
  exists g,
    length buf = W /\
    rd_slot (m_val mq) = g mod K /\
    (forall j m, nth_error buf j = Some m ->
       g_gen s (g mod K) j (m_ts m) = g /\ m_val m = nth j (nth g (g_hist s) []) 0%N) /\
    ret_gens s (g mod K) buf = repeat g W /\
    ret_vals buf = nth g (g_hist s) [] /\
    g < length (g_hist s) /\ g <= g_cur s /\ 2 * g <= last_ts (memory (ms s) seqL) /\
    2 * g <= m_ts mq <= 2 * g + 1 /\
    c0 <= 2 * g + 1.

(** For every completed load (thread [t] at [RdDone c0 mq buf]) there is ONE generation [g]
    (= half the timestamp of the message [mq] of [_seq] the copy was validated against) with:
    - the W words returned were read from slot [g mod K] and all carry generation [g];
    - they are exactly the value of generation [g];
    - generation [g] was complete at the end of the load ([2 * g <= last timestamp of _seq]);
    - [c0 <= 2 * g + 1]: every store whose unlocking store (timestamp [2 * k]) was in the reader's
      view of [_seq] when load() was called has [k <= g]. *)
Theorem seqlock_slots_load_atomic_wm : forall s t c0 mq buf,
  orders_ok_load_slots o = true -> preach s -> pcs s t = RdDone c0 mq buf -> load_returns s c0 mq buf.
Proof.
  intros s t c0 mq buf Ok R Hpc. pose proof (inv_preach s Ok R) as I.
  pose proof (i_thr s I t) as T. rewrite Hpc in T. destruct T as (Inq & Hc0 & Hlen & F).
  pose proof (wf_in_ts _ _ _ (wf_reachable _ (i_reach s I)) Inq) as Bq.
  pose proof (div2_bounds (m_ts mq)) as Bg. fold (gq mq) in Bg.
  destruct (hist_length_bound s I) as [HL1 HL2].
  assert (Hcur : gq mq <= g_cur s /\ gq mq < length (g_hist s)).
  { pose proof (i_cur s I) as C. unfold Lseq in C. destruct (g_owner s); [|specialize (HL2 eq_refl)]; lia. }
  assert (G : forall j m, nth_error buf j = Some m ->
                g_gen s (gq mq mod K) j (m_ts m) = gq mq /\
                m_val m = nth j (nth (gq mq) (g_hist s) []) 0%N).
  { intros j m Hj. destruct (F j m Hj) as [Hin Hg]. fold (rq mq).
    assert (Hjw : j < W) by (rewrite <- Hlen; eapply nth_error_lt; eassumption).
    split; [assumption|].
    rewrite (i_data_val s I _ j m Hjw Hin); rewrite Hg; reflexivity. }
  exists (gq mq). split; [assumption|]. split; [now apply (rd_slot_rq s mq I)|].
  split; [exact G|]. split; [|split].
  - rewrite <- Hlen. apply (gens_same (g_gen s (gq mq mod K)) buf _ 0). intros j m Hj. now apply G.
  - apply vals_eq; [|intros j m Hj; now apply G].
    rewrite Hlen. symmetry. apply (i_hist_len s I), nth_In. lia.
  - repeat split; lia.
Qed.

Theorem seqlock_slots_writers_exclusive_wm : forall s t1 t2,
  orders_ok_load_slots o = true -> preach s ->
  locked (pcs s t1) = true -> locked (pcs s t2) = true -> t1 = t2.
Proof.
  intros s t1 t2 Ok R H1 H2. pose proof (inv_preach s Ok R) as I.
  apply (i_owner s I) in H1. apply (i_owner s I) in H2. congruence.
Qed.

(** update() applies its functor to the latest generation [g_cur - 1], read from slot
    [(g_cur - 1) mod K] (needs the acquire CAS (4)) *)
Definition update_reads_latest (s : pstate) (q : val) (buf : list msg) : Prop :=
  1 <= g_cur s /\ length (g_hist s) = g_cur s /\ length buf = W /\
  upd_slot q = (g_cur s - 1) mod K /\
  (forall j m, nth_error buf j = Some m -> g_gen s (upd_slot q) j (m_ts m) = g_cur s - 1) /\
  ret_gens s (upd_slot q) buf = repeat (g_cur s - 1) W /\
  ret_vals buf = nth (g_cur s - 1) (g_hist s) [].

Theorem seqlock_slots_update_reads_latest_wm : forall s t f q buf,
  orders_ok_slots o = true -> preach s -> pcs s t = WrRFence f q buf -> update_reads_latest s q buf.
Proof.
  intros s t f q buf Ok R Hpc. unfold orders_ok_slots in Ok. apply andb_true_iff in Ok.
  destruct Ok as [Ok Oku]. pose proof (inv_preach s Ok R) as I.
  destruct (holder_at s t I) as (Ho & C & H); [now rewrite Hpc|]. rewrite Hpc in H.
  destruct H as (A & Q & Fr & Hh & U & Len). destruct (U Oku) as [U1 U2].
  destruct (holder_slots s q C Q) as [Us _]. unfold update_reads_latest. rewrite Us.
  assert (G : forall j m, nth_error buf j = Some m ->
              g_gen s ((g_cur s - 1) mod K) j (m_ts m) = g_cur s - 1 /\
              m_val m = nth j (nth (g_cur s - 1) (g_hist s) []) 0%N).
  { intros j m Hj. destruct (U2 j m Hj) as [Hin Hg].
    assert (Hjw : j < W) by (rewrite <- Len; eapply nth_error_lt; eassumption).
    split; [assumption|].
    rewrite (i_data_val s I _ j m Hjw Hin); rewrite Hg; reflexivity. }
  split; [lia|]. do 2 (split; [assumption|]). split; [reflexivity|].
  split; [intros j m Hj; now apply G|]. split.
  - rewrite <- Len. apply (gens_same (g_gen s ((g_cur s - 1) mod K)) buf _ 0). intros j m Hj. now apply G.
  - apply vals_eq; [|intros j m Hj; now apply G].
    rewrite Len. symmetry. apply (i_hist_len s I), nth_In. lia.
Qed.

(** ** The executable form is sound *)

Lemma pexec_sound : forall s t c lab s', pexec K W o s t c = Some (lab, s') -> pstep s t lab s'.
Proof.
  intros s t c lab s' H. unfold pexec in H. destruct c.
  - destruct (is_idle (pcs s t)) eqn:Ei; [|discriminate].
    apply exec_load_sound in H. destruct H as (m & M' & -> & -> & St). now apply ps_rd_seq1.
  - destruct (is_idle (pcs s t)) eqn:Ei; [|discriminate].
    apply exec_load_sound in H. destruct H as (m & M' & -> & -> & St). now apply ps_wr_load.
  - destruct (pcs s t) eqn:Ep; try discriminate;
      apply exec_load_sound in H; destruct H as (m & M' & -> & -> & St).
    + eapply ps_rd_data; eassumption.
    + eapply ps_rd_seq2; eassumption.
    + eapply ps_wr_spin; eassumption.
    + eapply ps_wr_cas_fail; eassumption.
    + eapply ps_wr_read; eassumption.
  - destruct (pcs s t) eqn:Ep; try discriminate.
    destruct (N.eqb_spec (m_val (last_msg (memory (ms s) seqL))) q) as [Eq|]; [|discriminate].
    inversion H; subst. eapply ps_wr_cas_ok; [eassumption|reflexivity|constructor].
  - destruct (pcs s t) eqn:Ep; try discriminate; inversion H; subst.
    + eapply ps_rd_fence; [eassumption|constructor].
    + eapply ps_wr_rfence; [eassumption|constructor].
    + eapply ps_wr_fence; [eassumption|constructor].
    + eapply ps_wr_data; [eassumption|constructor].
    + eapply ps_wr_unlock; [eassumption|constructor].
Qed.

Lemma prun_sound : forall cs s tr s', prun K W o s cs = Some (tr, s') -> ptrace s tr s'.
Proof.
  induction cs as [|[t c] cs IH]; intros s tr s' H; simpl in H.
  - inversion H; subst. constructor.
  - destruct (pexec K W o s t c) as [[lab s1]|] eqn:E; [|discriminate].
    destruct (prun K W o s1 cs) as [[tr1 s2]|] eqn:E2; [|discriminate].
    inversion H; subst. econstructor; [eapply pexec_sound; eassumption|now apply IH].
Qed.

Lemma pstep_step : forall s t lab s', pstep s t lab s' -> step (ms s) t lab (ms s').
Proof. intros s t lab s' H. destruct H; assumption. Qed.

Lemma ptrace_valid : forall s tr s', ptrace s tr s' -> valid (ms s) tr /\ ms s' = run (ms s) tr.
Proof.
  induction 1 as [|s t lab s1 tr s2 St _ [IH1 IH2]]; simpl; [auto|].
  apply pstep_step in St. apply step_apply in St. destruct St as [En Eq].
  rewrite <- Eq. auto.
Qed.

Lemma ptrace_preach : forall s tr s', preach s -> ptrace s tr s' -> preach s'.
Proof.
  intros s tr s' R H. induction H; [assumption|]. apply IHptrace. eapply preach_step; eassumption.
Qed.

End Proof.

(** ** Concrete executions (slots > 1) *)

Definition exec_load_returns (Kn Wn : nat) (od : orders) (sg : list esig) (t : tid)
           (gs : list nat) (vs : list val) : Prop :=
  exists tr s c0 mq buf,
    preach Kn Wn od s /\ ptrace Kn Wn od (pinit Wn) tr s /\
    valid init tr /\ ms s = run init tr /\ map sig_of tr = sg /\
    pcs s t = RdDone c0 mq buf /\ ret_gens s (rd_slot Kn (m_val mq)) buf = gs /\ ret_vals buf = vs.

Arguments exec_load_returns (Kn Wn)%nat od sg t%nat gs%nat vs%N.

Lemma exec_load_returns_by_computation : forall Kn Wn od cs sg t gs vs,
  match prun Kn Wn od (pinit Wn) cs with
  | Some (tr, s) => map sig_of tr = sg /\ done_gens Kn s t = Some gs /\ done_vals s t = Some vs
  | None => False
  end -> exec_load_returns Kn Wn od sg t gs vs.
Proof.
  intros Kn Wn od cs sg t gs vs H.
  destruct (prun Kn Wn od (pinit Wn) cs) as [[tr s]|] eqn:E; [|contradiction].
  destruct H as (H1 & H2 & H3). apply prun_sound in E.
  assert (R : preach Kn Wn od s) by (eapply ptrace_preach; [constructor|eassumption]).
  destruct (ptrace_valid _ _ _ _ _ _ E) as [V M].
  unfold done_gens in H2. unfold done_vals in H3.
  destruct (pcs s t) eqn:Ep; try discriminate.
  exists tr, s, c0, mq, buf. inversion H2. inversion H3. auto 10.
Qed.

Local Open Scope N_scope.

(** thread 1 stores {7,8}, {5,6} and locks for {3,4}, of which it writes both words; thread 2 has
    called load() after the first store *)
Definition cs_three_stores : list (tid * choice) :=
  [(1%nat, CWrite (WStore [7; 8]) 0); (1%nat, CCas); (1%nat, CGo); (1%nat, CGo); (1%nat, CGo); (1%nat, CGo);
   (2%nat, CLoad 2);
   (1%nat, CWrite (WStore [5; 6]) 2); (1%nat, CCas); (1%nat, CGo); (1%nat, CGo); (1%nat, CGo); (1%nat, CGo);
   (1%nat, CWrite (WStore [3; 4]) 4); (1%nat, CCas); (1%nat, CGo); (1%nat, CGo); (1%nat, CGo)].

(** NON-VACUITY: 2 slots, 2 words, xenium's orders.  Thread 1 stores {7,8} (generation 1, slot 1);
    thread 2 calls load() and reads _seq = 2; thread 1 stores {5,6} (generation 2, slot 0) and locks
    again for generation 3 = {3,4} (slot 1) - thread 2 reads word 0 of slot 1 still from generation 1
    but word 1 already from generation 3; the fence (6) makes it see _seq >= 5, 5 - 2 >= 3: retry
    with seq = 5, i.e. generation 2 in slot 0, which it then returns although generation 3 is still
    being written (the load does not wait for the writer). *)
Example xenium_slots_load_completes :
  exec_load_returns 2 2 xenium_orders
    [ SLoad 1 0 Rlx 0 0; SRmw 1 0 Acq 1; SFence 1 Rel; SStore 1 3 Rlx 7; SStore 1 4 Rlx 8;
      SStore 1 0 Rel 2;
      SLoad 2 0 Acq 2 2;
      SLoad 1 0 Rlx 2 2; SRmw 1 0 Acq 3; SFence 1 Rel; SStore 1 1 Rlx 5; SStore 1 2 Rlx 6;
      SStore 1 0 Rel 4;
      SLoad 1 0 Rlx 4 4; SRmw 1 0 Acq 5; SFence 1 Rel; SStore 1 3 Rlx 3; SStore 1 4 Rlx 4;
      SLoad 2 3 Rlx 7 1; SLoad 2 4 Rlx 4 2; SFence 2 Acq; SLoad 2 0 Acq 5 5;
      SLoad 2 1 Rlx 5 1; SLoad 2 2 Rlx 6 1; SFence 2 Acq; SLoad 2 0 Acq 5 5 ]
    2 [2; 2]%nat [5; 6].
Proof.
  apply (exec_load_returns_by_computation 2 2 xenium_orders
    (cs_three_stores ++
     [(2%nat, CRd 1); (2%nat, CRd 2); (2%nat, CGo); (2%nat, CRd 5);
      (2%nat, CRd 1); (2%nat, CRd 1); (2%nat, CGo); (2%nat, CRd 5)])).
  vm_compute. repeat split.
Qed.

(** NECESSITY of the fence (6) for slots > 1: the same schedule up to the torn copy, with
    [weak_orders] (the fence of read_data relaxed) the second load of _seq may still read 2 and the
    load returns word 0 of generation 1 with word 1 of generation 3: {7,4} *)
Theorem weak_orders_slots_torn :
  exec_load_returns 2 2 weak_orders
    [ SLoad 1 0 Rlx 0 0; SRmw 1 0 Acq 1; SFence 1 Rel; SStore 1 3 Rlx 7; SStore 1 4 Rlx 8;
      SStore 1 0 Rel 2;
      SLoad 2 0 Acq 2 2;
      SLoad 1 0 Rlx 2 2; SRmw 1 0 Acq 3; SFence 1 Rel; SStore 1 1 Rlx 5; SStore 1 2 Rlx 6;
      SStore 1 0 Rel 4;
      SLoad 1 0 Rlx 4 4; SRmw 1 0 Acq 5; SFence 1 Rel; SStore 1 3 Rlx 3; SStore 1 4 Rlx 4;
      SLoad 2 3 Rlx 7 1; SLoad 2 4 Rlx 4 2; SFence 2 Rlx; SLoad 2 0 Acq 2 2 ]
    2 [1; 3]%nat [7; 4].
Proof.
  apply (exec_load_returns_by_computation 2 2 weak_orders
    (cs_three_stores ++ [(2%nat, CRd 1); (2%nat, CRd 2); (2%nat, CGo); (2%nat, CRd 2)])).
  vm_compute. repeat split.
Qed.

Local Close Scope N_scope.

(** ** Summary theorem (the form used in Properties/Properties_C03_seqlock_slots.v) *)

Theorem seqlock_slots_weak_atomic : forall K W o, 1 <= K -> 1 <= W -> orders_ok_slots o = true ->
  forall s, preach K W o s ->
  (forall t c0 mq buf, pcs s t = RdDone c0 mq buf -> load_returns K W s c0 mq buf) /\
  (forall t f q buf, pcs s t = WrRFence f q buf -> update_reads_latest K W s q buf) /\
  (forall t1 t2, locked (pcs s t1) = true -> locked (pcs s t2) = true -> t1 = t2).
Proof.
  intros K W o HK HW Ok s R.
  assert (Okl : orders_ok_load_slots o = true).
  { unfold orders_ok_slots in Ok. apply andb_true_iff in Ok. tauto. }
  split; [|split].
  - intros t c0 mq buf Hpc. exact (seqlock_slots_load_atomic_wm K W HK HW o s t c0 mq buf Okl R Hpc).
  - intros t f q buf Hpc. exact (seqlock_slots_update_reads_latest_wm K W HK HW o s t f q buf Ok R Hpc).
  - intros t1 t2. exact (seqlock_slots_writers_exclusive_wm K W HK HW o s t1 t2 Okl R).
Qed.
