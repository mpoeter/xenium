(** * WM.SeqlockWMProof : over the weak-memory machine, seqlock::load (slots = 1) never returns a
      torn value; update reads the latest value; the conditions on the memory orders are necessary.

    The model is in WM/SeqlockWM.v, the machine in WM/View.v, its meta-theory in WM/ViewLemmas.v. *)

Require Import List NArith Arith Lia Bool.
Import ListNotations.
Require Import XV.WM.View XV.WM.ViewLemmas XV.WM.SeqlockWM.

(** ** Small facts *)

Lemma odd_of_nat_double : forall h, N.odd (N.of_nat (2 * h)) = false.
Proof.
  intros. replace (N.of_nat (2 * h)) with (0 + 2 * N.of_nat h)%N by lia.
  now rewrite N.odd_add_mul_2.
Qed.

Lemma dL_seqL : forall i, dL i <> seqL.
Proof. discriminate. Qed.

Lemma dL_inj : forall i j, dL i = dL j -> i = j.
Proof. intros i j H; now injection H. Qed.

(** a relaxed fence does nothing (a fence site whose order is [Rlx] = no fence) *)
Lemma fence_rlx_noop : forall s t,
  memory (do_fence s t Rlx) = memory s /\ scview (do_fence s t Rlx) = scview s /\
  forall t', threads (do_fence s t Rlx) t' = threads s t'.
Proof.
  intros. split; [reflexivity|]. split; [reflexivity|]. intros t'. simpl. unfold upd_thr.
  destruct (Nat.eqb_spec t' t) as [->|]; [|reflexivity]. destruct (threads s t); reflexivity.
Qed.

(** ** What the proofs for slots = 1 and slots > 1 (SeqlockWMSlotsProof.v) have in common *)

Lemma even_of_nat : forall k, N.odd (N.of_nat k) = false -> exists h, k = 2 * h.
Proof.
  intros k H. destruct (Nat.Even_or_Odd k) as [[h ->]|[h ->]]; [eauto|].
  replace (N.of_nat (2 * h + 1)) with (1 + 2 * N.of_nat h)%N in H by lia.
  rewrite N.odd_add_mul_2 in H. discriminate.
Qed.

Lemma in_snoc : forall (A : Type) (x y : A) l, In x (l ++ [y]) <-> In x l \/ x = y.
Proof. intros. rewrite in_app_iff. simpl. intuition. Qed.

Lemma nth_error_snoc : forall (A : Type) (l : list A) (x : A) j y,
  nth_error (l ++ [x]) j = Some y ->
  (j < length l /\ nth_error l j = Some y) \/ (j = length l /\ y = x).
Proof.
  intros A l x j y H. destruct (Nat.lt_ge_cases j (length l)) as [Hl|Hl].
  - left. split; [assumption|]. now rewrite nth_error_app1 in H.
  - right. rewrite nth_error_app2 in H by assumption.
    destruct (j - length l) as [|[|n]] eqn:E; try discriminate.
    inversion H. split; [lia|reflexivity].
Qed.

Lemma nth_error_lt : forall (A : Type) (l : list A) j y, nth_error l j = Some y -> j < length l.
Proof. intros. apply nth_error_Some. congruence. Qed.

(** a property of every thread's entry survives the update of one entry *)
Lemma upd_all : forall (A : Type) (P : tid -> A -> Prop) (f : tid -> A) t p,
  P t p -> (forall t0, t0 <> t -> P t0 (f t0)) ->
  forall t0, P t0 (if Nat.eqb t0 t then p else f t0).
Proof. intros A P f t p H1 H2 t0. destruct (Nat.eqb_spec t0 t) as [->|]; auto. Qed.
Arguments upd_all {A}.

(** ** What the machine steps do *)

Lemma step_reach : forall M t lab M', reachable M -> step M t lab M' -> reachable M' /\ mono M M'.
Proof.
  intros M t lab M' R St.
  split; [eapply reach_step; eassumption|apply (mono_step _ _ _ _ (wf_reachable _ R) St)].
Qed.

Lemma load_reach : forall M t l od m M',
  reachable M -> step M t (LLoad l od m) M' ->
  reachable M' /\ mono M M' /\ memory M' = memory M /\ In m (memory M l) /\
  cur (threads M t) l <= m_ts m /\ m_ts m <= cur (threads M' t) l.
Proof.
  intros M t l od m M' R St. split; [exact (reach_step _ _ _ _ R St)|].
  exact (proj2 (load_facts _ _ _ _ _ _ (wf_reachable _ R) St)).
Qed.

Lemma fence_reach : forall M t od M',
  reachable M -> step M t (LFence od) M' -> reachable M' /\ mono M M' /\ memory M' = memory M.
Proof.
  intros M t od M' R St. destruct (step_reach _ _ _ _ R St).
  apply step_fence_inv in St. subst. auto.
Qed.

(** a store appends the message [mk] *)
Lemma store_reach : forall M t l od v M',
  reachable M -> step M t (LStore l od v) M' ->
  reachable M' /\ mono M M' /\
  exists mk, memory M' l = memory M l ++ [mk] /\ m_ts mk = S (last_ts (memory M l)) /\
    m_val mk = v /\
    (forall l', l' <> l -> memory M' l' = memory M l') /\
    cur (threads M' t) l = m_ts mk /\
    (is_rel od = true -> forall l', cur (threads M t) l' <= m_view mk l') /\
    (forall l', rel (threads M t) l' <= m_view mk l').
Proof.
  intros M t l od v M' R St. split; [exact (reach_step _ _ _ _ R St)|].
  destruct (store_facts _ _ _ _ _ _ (wf_reachable _ R) St) as (_ & Mo & mk & [E O] & Hts & Hv & Hc & Hrel).
  split; [exact Mo|]. exists mk. repeat split; try assumption.
  intros l'. pose proof (store_view_ge_rel _ _ _ _ _ _ R St l') as V. now rewrite E, last_msg_app in V.
Qed.

(** an RMW reads the last message and appends [mk], whose view includes that of the message read *)
Lemma rmw_reach : forall M t l od v M',
  reachable M -> step M t (LRmw l od v) M' ->
  reachable M' /\ mono M M' /\
  exists mk, memory M' l = memory M l ++ [mk] /\ m_ts mk = S (last_ts (memory M l)) /\
    m_val mk = v /\
    (forall l', l' <> l -> memory M' l' = memory M l') /\
    cur (threads M' t) l = m_ts mk /\
    (forall l', m_view (last_msg (memory M l)) l' <= m_view mk l') /\
    (is_acq od = true -> forall l', m_view (last_msg (memory M l)) l' <= cur (threads M' t) l').
Proof.
  intros M t l od v M' R St. destruct (step_reach _ _ _ _ R St).
  destruct (rmw_new_message _ _ _ _ _ _ St) as (mk & E & Hts & Hv & Ho & Hc).
  split; [assumption|]. split; [assumption|]. exists mk. repeat split; try assumption.
  - intros l'. apply step_rmw_inv in St. subst M'.
    pose proof (rmw_view_ge_read M t l od v l') as V. now rewrite E, last_msg_app in V.
  - intros A l'. apply step_rmw_inv in St. subst M'. unfold do_rmw.
    set (mr := last_msg (memory M l)). set (s1 := do_load M t l od mr).
    assert (Ld : step M t (LLoad l od mr) s1).
    { constructor. now apply rmw_load_enabled. }
    pose proof (acquire_load_view _ _ _ _ _ _ Ld A l') as V.
    assert (W1 : wf s1) by exact (wf_reachable _ (reach_step _ _ _ _ R Ld)).
    pose proof (mono_cur _ _ (mono_do_store_with (m_view mr) s1 t l od v W1) t l'). lia.
Qed.

(** the executable load of [SeqlockWM.with_load] / [SeqlockWMSlots.with_load_k] is a load step *)
Lemma exec_load_sound : forall (A : Type) M t l od i (k : msg -> state -> A) lab s',
  match exec_load M t l od i with
  | Some (m, M') => Some (LLoad l od m, k m M')
  | None => None
  end = Some (lab, s') ->
  exists m M', lab = LLoad l od m /\ s' = k m M' /\ step M t (LLoad l od m) M'.
Proof.
  intros A M t l od i k lab s' H.
  destruct (exec_load M t l od i) as [[m M']|] eqn:E; [|discriminate].
  inversion H; subst. exists m, M'. split; [reflexivity|]. split; [reflexivity|].
  eapply exec_load_step; eassumption.
Qed.

(** ** The words of a value *)

Lemma norm_length : forall W v, length (norm W v) = W.
Proof. intros. unfold norm. now rewrite map_length, seq_length. Qed.

Lemma norm_nth : forall W v i, i < W -> nth i (norm W v) 0%N = nth i v 0%N.
Proof.
  intros W v i Hi. unfold norm.
  rewrite (nth_indep _ 0%N (nth 0 v 0%N)) by (now rewrite map_length, seq_length).
  change (nth 0 v 0%N) with ((fun i => nth i v 0%N) 0).
  rewrite map_nth. rewrite seq_nth by assumption. reflexivity.
Qed.

(** ** What a buffer of messages returns ([ret_gens], [ret_vals] of both programs) *)

(** all words carry generation [h]; [gen j k] = the generation of the message of word [j] with
    timestamp [k] *)
Lemma gens_same : forall (gen : nat -> ts -> nat) (buf : list msg) h a,
  (forall j m, nth_error buf j = Some m -> gen (a + j) (m_ts m) = h) ->
  map (fun jm => gen (fst jm) (m_ts (snd jm))) (combine (seq a (length buf)) buf)
  = repeat h (length buf).
Proof.
  intros gen buf h. induction buf as [|m buf IH]; intros a H; [reflexivity|].
  simpl. f_equal.
  - rewrite <- (Nat.add_0_r a). exact (H 0 m eq_refl).
  - apply IH. intros j m0 Hj. rewrite Nat.add_succ_comm. exact (H (S j) m0 Hj).
Qed.

(** the words are those of the value [v] *)
Lemma vals_eq : forall (buf : list msg) (v : list val),
  length buf = length v ->
  (forall j m, nth_error buf j = Some m -> m_val m = nth j v 0%N) ->
  map m_val buf = v.
Proof.
  intros buf v L H. apply (nth_ext _ _ 0%N 0%N); rewrite map_length; [assumption|].
  intros j Hj. destruct (nth_error buf j) as [m|] eqn:En; [|apply nth_error_None in En; lia].
  rewrite (nth_error_nth _ _ 0%N (map_nth_error m_val _ _ En)). now apply H.
Qed.

Section Proof.

Variable W : nat.
Hypothesis W_pos : 1 <= W.
Variable o : orders.

Notation pstep := (pstep W o).
Notation preach := (preach W o).
Notation ptrace := (ptrace W o).
Notation pinit := (pinit W).
Notation norm := (norm W).

(** ** The invariant

    Encoding: the value of every message of [_seq] is its timestamp; generation g >= 1 is locked by the
    message with timestamp 2g - 1 and unlocked by the one with timestamp 2g.  The message of a data
    word written for generation g has timestamp g and carries (in its view of [_seq]) the lock
    acquisition 2g - 1 of its writer: [2 * m_ts m <= S (m_view m seqL)]. *)

Definition Lseq (M : state) : ts := last_ts (memory M seqL).
Definition Dl (M : state) (i : nat) : ts := last_ts (memory M (dL i)).

(** the component of the reader's views that the acquire fence (6) / the acquire data loads
    will have brought into [cur] before the second load of [_seq] *)
Definition need (M : state) (t : tid) : ts :=
  if is_acq (o_data_load o) then cur (threads M t) seqL
  else Nat.max (cur (threads M t) seqL) (acq (threads M t) seqL).

Definition rd_inv (M : state) (t : tid) (c0 : ts) (mq : msg) (buf : list msg) : Prop :=
  In mq (memory M seqL) /\ N.odd (m_val mq) = false /\
  c0 <= m_ts mq /\ m_ts mq <= cur (threads M t) seqL /\
  (* the acquire load of mq has made every generation completed at mq visible *)
  (forall i g, i < W -> 2 * g <= m_ts mq -> g <= cur (threads M t) (dL i)) /\
  (* hence no word read is older *)
  (forall j m, nth_error buf j = Some m -> In m (memory M (dL j)) /\ m_ts mq <= 2 * m_ts m).

Definition thr_inv (M : state) (t : tid) (p : pc) : Prop :=
  match p with
  | RdSpin c0 => c0 <= cur (threads M t) seqL
  | RdData c0 mq buf =>
      rd_inv M t c0 mq buf /\ length buf < W /\
      (forall j m, nth_error buf j = Some m -> 2 * m_ts m <= S (need M t))
  | RdFence c0 mq buf =>
      rd_inv M t c0 mq buf /\ length buf = W /\
      (forall j m, nth_error buf j = Some m -> 2 * m_ts m <= S (need M t))
  | RdSeq2 c0 mq buf =>
      rd_inv M t c0 mq buf /\ length buf = W /\
      (* the lock acquisition of the generation of every word read is in the reader's view *)
      (forall j m, nth_error buf j = Some m -> 2 * m_ts m <= S (cur (threads M t) seqL))
  | RdDone c0 mq buf =>
      In mq (memory M seqL) /\ c0 <= m_ts mq /\ length buf = W /\
      exists h, m_ts mq = 2 * h /\
                forall j m, nth_error buf j = Some m -> In m (memory M (dL j)) /\ m_ts m = h
  | WrCas w q => N.odd q = false
  | _ => True
  end.

(** the lock holder *)
Definition upd_inv (s : pstate) (t : tid) (buf : list msg) : Prop :=
  is_acq (o_lock_cas o) = true ->
  (forall i, i < W -> g_cur s - 1 <= cur (threads (ms s) t) (dL i)) /\
  (forall j m, nth_error buf j = Some m -> In m (memory (ms s) (dL j)) /\ m_ts m = g_cur s - 1).

Definition holder_inv (s : pstate) (t : tid) (p : pc) : Prop :=
  let M := ms s in let G := g_cur s in
  Lseq M <= cur (threads M t) seqL /\
  match p with
  | WrRead f q buf =>
      N.of_nat (Lseq M) = (q + 1)%N /\ (forall i, i < W -> Dl M i = G - 1) /\
      length (g_hist s) = G /\ upd_inv s t buf /\ length buf < W
  | WrRFence f q buf =>
      N.of_nat (Lseq M) = (q + 1)%N /\ (forall i, i < W -> Dl M i = G - 1) /\
      length (g_hist s) = G /\ upd_inv s t buf /\ length buf = W
  | WrFence v q =>
      N.of_nat (Lseq M) = (q + 1)%N /\ (forall i, i < W -> Dl M i = G - 1) /\
      length (g_hist s) = G
  | WrData v q j =>
      N.of_nat (Lseq M) = (q + 1)%N /\ j < W /\
      (forall i, i < W -> Dl M i = if Nat.ltb i j then G else G - 1) /\
      length (g_hist s) = S G /\ nth G (g_hist s) [] = norm v /\
      (forall i, i < j -> G <= cur (threads M t) (dL i)) /\
      (is_rel (o_data_store o) = false -> Lseq M <= rel (threads M t) seqL)
  | WrUnlock q =>
      N.of_nat (Lseq M) = (q + 1)%N /\ (forall i, i < W -> Dl M i = G) /\
      length (g_hist s) = S G /\ (forall i, i < W -> G <= cur (threads M t) (dL i))
  | _ => False
  end.

Record inv (s : pstate) : Prop := {
  i_reach : reachable (ms s);
  (* the messages of _seq: value = timestamp; the message with timestamp 2g (the unlock of
     generation g) or 2g+1 (the next lock) carries the data stores of generation g *)
  i_seq_val : forall m, In m (memory (ms s) seqL) -> m_val m = N.of_nat (m_ts m);
  i_seq_view : forall m i g, In m (memory (ms s) seqL) -> i < W ->
                             2 * g <= m_ts m -> g <= m_view m (dL i);
  i_cur : match g_owner s with
          | None => Lseq (ms s) = 2 * g_cur s
          | Some _ => S (Lseq (ms s)) = 2 * g_cur s
          end;
  (* the messages of the data words: timestamp = generation; the message of generation g >= 1
     carries the lock acquisition (timestamp 2g-1 of _seq) of its writer *)
  i_data_gen : forall i m, i < W -> In m (memory (ms s) (dL i)) -> g_gen s i (m_ts m) = m_ts m;
  i_data_view : forall i m, i < W -> In m (memory (ms s) (dL i)) ->
                            2 * m_ts m <= S (m_view m seqL);
  i_data_val : forall i m, i < W -> In m (memory (ms s) (dL i)) ->
                           m_val m = nth i (nth (m_ts m) (g_hist s) []) 0%N;
  i_hist_len : forall v, In v (g_hist s) -> length v = W;
  (* the lock *)
  i_owner : forall t, locked (pcs s t) = true <-> g_owner s = Some t;
  i_unlocked : g_owner s = None ->
               (forall i, i < W -> Dl (ms s) i = g_cur s) /\ length (g_hist s) = S (g_cur s);
  i_locked : forall t, g_owner s = Some t -> holder_inv s t (pcs s t);
  i_thr : forall t, thr_inv (ms s) t (pcs s t)
}.

Lemma inv_init : inv pinit.
Proof using W_pos.
  constructor; simpl.
  - constructor.
  - intros m [<-|[]]. reflexivity.
  - intros m i g [<-|[]] _ H. simpl in H. lia.
  - reflexivity.
  - intros i m _ [<-|[]]. reflexivity.
  - intros i m _ [<-|[]]. simpl. lia.
  - intros i m Hi [<-|[]]. simpl. now rewrite norm_nth; [destruct i|].
  - intros v [<-|[]]. apply norm_length.
  - intros t. split; discriminate.
  - intros _. split; reflexivity.
  - discriminate.
  - intros t. exact Logic.I.
Qed.

(** ** [need]: it only grows, a data load adds the view of the message read, the fence (6) moves
       it into [cur] *)

Lemma need_mono : forall M M' t, mono M M' -> need M t <= need M' t.
Proof.
  intros M M' t Mo. unfold need. destruct (is_acq (o_data_load o)); [apply (mono_cur _ _ Mo)|].
  apply Nat.max_le_compat; [apply (mono_cur _ _ Mo)|apply (mono_acq _ _ Mo)].
Qed.

Lemma need_data_load : forall M t l m M',
  step M t (LLoad l (o_data_load o) m) M' -> m_view m seqL <= need M' t.
Proof.
  intros M t l m M' St. unfold need. destruct (is_acq (o_data_load o)) eqn:Ad.
  - apply (acquire_load_view _ _ _ _ _ _ St Ad).
  - apply (relaxed_load_view _ _ _ _ _ _ St).
Qed.

Lemma need_fence : forall M t M',
  is_acq (o_data_load o) = true \/ is_acq (o_fence_after_data o) = true ->
  mono M M' -> step M t (LFence (o_fence_after_data o)) M' ->
  need M t <= cur (threads M' t) seqL.
Proof.
  intros M t M' Ok Mo St. unfold need.
  destruct (is_acq (o_data_load o)); [apply (mono_cur _ _ Mo)|].
  destruct Ok as [Ok|Ok]; [discriminate|].
  apply Nat.max_lub; [apply (mono_cur _ _ Mo)|apply (fence_acq_join _ _ _ _ St Ok)].
Qed.

(** ** Stability of the per-thread invariants under machine steps: they are lower bounds on
       the thread's views and membership of messages *)

Lemma rd_inv_mono : forall M M' t c0 mq buf,
  mono M M' -> rd_inv M t c0 mq buf -> rd_inv M' t c0 mq buf.
Proof.
  intros M M' t c0 mq buf Mo (A & B & C & D & E & F).
  pose proof (mono_cur _ _ Mo t) as Mc. pose proof (mono_mem _ _ Mo) as Mm.
  repeat split; auto.
  - specialize (Mc seqL). lia.
  - intros i g Hi Hg. specialize (E i g Hi Hg). specialize (Mc (dL i)). lia.
  - apply Mm. now apply (F j m).
  - now apply (F j m).
Qed.

Lemma thr_inv_mono : forall M M' t p, mono M M' -> thr_inv M t p -> thr_inv M' t p.
Proof.
  intros M M' t p Mo H. pose proof (need_mono M M' t Mo) as N.
  pose proof (mono_cur _ _ Mo t seqL) as C.
  destruct p; simpl in *; try exact H; [lia| | | |].
  (* RdData, RdFence, RdSeq2: [rd_inv] and a bound by a view *)
  1-3: destruct H as (A & B & D); (split; [eapply rd_inv_mono; eassumption|]); (split; [assumption|]);
       intros j m Hj; specialize (D j m Hj); lia.
  destruct H as (A & B & D & h & E & F). pose proof (mono_mem _ _ Mo) as Mm.
  repeat (split; auto). exists h. split; [assumption|].
  intros j m Hj. destruct (F j m Hj). auto.
Qed.

Lemma holder_inv_frame : forall s s' t p,
  mono (ms s) (ms s') -> memory (ms s') = memory (ms s) ->
  g_hist s' = g_hist s -> g_cur s' = g_cur s ->
  holder_inv s t p -> holder_inv s' t p.
Proof.
  intros s s' t p Mo Hm Hh Hc [A B].
  assert (C : forall l, cur (threads (ms s) t) l <= cur (threads (ms s') t) l)
    by (intros; apply (mono_cur _ _ Mo)).
  assert (U : forall buf, upd_inv s t buf -> upd_inv s' t buf).
  { intros buf U Acq. destruct (U Acq) as [U1 U2]. rewrite Hc, Hm. split; [|exact U2].
    intros i Hi. specialize (U1 i Hi). specialize (C (dL i)). lia. }
  unfold holder_inv, Lseq, Dl in *. rewrite Hm, Hh, Hc.
  split; [specialize (C seqL); lia|].
  destruct p; try contradiction.
  - destruct B as (B1 & B2 & B3 & B4 & B5). auto 10.
  - destruct B as (B1 & B2 & B3 & B4 & B5). auto 10.
  - assumption.
  - destruct B as (B1 & B2 & B3 & B4 & B5 & B6 & B7). repeat (split; [assumption|]). split.
    + intros i0 Hi. specialize (B6 i0 Hi). specialize (C (dL i0)). lia.
    + intros Hr. specialize (B7 Hr). pose proof (mono_rel _ _ Mo t seqL). lia.
  - destruct B as (B1 & B2 & B3 & B4). repeat (split; [assumption|]).
    intros i Hi. specialize (B4 i Hi). specialize (C (dL i)). lia.
Qed.

(** the threads other than the one that steps *)
Lemma thr_others : forall s M' t0, inv s -> mono (ms s) M' -> thr_inv M' t0 (pcs s t0).
Proof. intros s M' t0 I Mo. apply (thr_inv_mono (ms s)); [assumption|apply (i_thr s I)]. Qed.

(** what the invariant says of the lock holder *)
Lemma holder_at : forall s t, inv s -> locked (pcs s t) = true ->
  g_owner s = Some t /\ S (Lseq (ms s)) = 2 * g_cur s /\ holder_inv s t (pcs s t).
Proof.
  intros s t I L. apply (i_owner s I) in L. pose proof (i_cur s I) as C. rewrite L in C.
  auto using (i_locked s I).
Qed.

Lemma not_holder : forall s t t0, inv s -> g_owner s = Some t -> t0 <> t -> locked (pcs s t0) = false.
Proof.
  intros s t t0 I Ho Hn. destruct (locked (pcs s t0)) eqn:L; [|reflexivity].
  apply (i_owner s I) in L. congruence.
Qed.

(** ** Steps that change neither the memory nor the ghost state (loads, fences of non-holders
       and the data loads of update) *)

Lemma inv_quiet : forall s t lab M' p',
  inv s -> step (ms s) t lab M' -> memory M' = memory (ms s) ->
  locked p' = locked (pcs s t) ->
  thr_inv M' t p' ->
  (g_owner s = Some t -> holder_inv (set_pc s M' t p') t p') ->
  inv (set_pc s M' t p').
Proof.
  intros s t lab M' p' I St Hm Hl Ht Hh.
  destruct (step_reach _ _ _ _ (i_reach s I) St) as [R' Mo].
  constructor; unfold set_pc; cbn [ms pcs g_hist g_gen g_cur g_owner]; unfold Lseq, Dl; rewrite ?Hm;
    try apply I.
  - exact R'.
  - apply (upd_all (fun t0 p => locked p = true <-> g_owner s = Some t0)); [rewrite Hl|intros t0 _];
      apply (i_owner s I).
  - apply (upd_all (fun t0 p => g_owner s = Some t0 -> holder_inv _ t0 p)); [exact Hh|].
    intros t0 _ Ho. apply (holder_inv_frame s); try reflexivity; try assumption.
    now apply (i_locked s I).
  - apply (upd_all (thr_inv M')); [exact Ht|]. intros t0 _. now apply thr_others.
Qed.

Lemma inv_quiet_unlocked : forall s t lab M' p',
  inv s -> step (ms s) t lab M' -> memory M' = memory (ms s) ->
  locked (pcs s t) = false -> locked p' = false ->
  thr_inv M' t p' ->
  inv (set_pc s M' t p').
Proof.
  intros s t lab M' p' I St Hm Hl Hl' Ht. eapply inv_quiet; try eassumption; [congruence|].
  intros Ho. apply (i_owner s I) in Ho. congruence.
Qed.

Lemma idle_unlocked : forall p, is_idle p = true -> locked p = false.
Proof. destruct p; simpl; congruence. Qed.

Lemma rd_after_seq_unlocked : forall c0 m, locked (rd_after_seq c0 m) = false.
Proof. intros; unfold rd_after_seq; destruct (is_write_pending (m_val m)); reflexivity. Qed.

Lemma wr_after_seq_unlocked : forall w m, locked (wr_after_seq w m) = false.
Proof. intros; unfold wr_after_seq; destruct (is_write_pending (m_val m)); reflexivity. Qed.

(** ** The conditions on the orders, unpacked *)

Definition ok_load : Prop :=
  is_acq (o_load_seq1 o) = true /\ is_acq (o_load_seq_spin o) = true /\
  is_acq (o_load_seq2 o) = true /\
  (is_acq (o_data_load o) = true \/ is_acq (o_fence_after_data o) = true) /\
  (is_rel (o_fence_before_data o) = true \/ is_rel (o_data_store o) = true) /\
  is_rel (o_unlock_store o) = true.

Lemma orders_ok_load_spec : orders_ok_load o = true -> ok_load.
Proof.
  unfold orders_ok_load, ok_load. rewrite !andb_true_iff, !orb_true_iff. tauto.
Qed.

(** ** The reader's steps *)

Lemma seq_msg_even : forall s m, inv s -> In m (memory (ms s) seqL) -> N.odd (m_val m) = false ->
  exists h, m_ts m = 2 * h.
Proof. intros s m I Hin E. apply even_of_nat. now rewrite <- (i_seq_val s I m Hin). Qed.

(** an ACQUIRE load of [_seq] (sites (1), (2), (3)) by a thread that started its load() when its
    view of [_seq] was [c0]: every generation completed at the message read becomes visible *)
Lemma step_rd_seq : forall s t c0 od m M',
  inv s -> is_acq od = true -> locked (pcs s t) = false -> c0 <= cur (threads (ms s) t) seqL ->
  step (ms s) t (LLoad seqL od m) M' ->
  inv (set_pc s M' t (rd_after_seq c0 m)).
Proof.
  intros s t c0 od m M' I A Hl C St.
  destruct (load_reach _ _ _ _ _ _ (i_reach s I) St) as (R' & Mo & Hm & Hin & Hlo & Hhi).
  eapply inv_quiet_unlocked; try eassumption; [apply rd_after_seq_unlocked|].
  unfold rd_after_seq, is_write_pending. destruct (N.odd (m_val m)) eqn:E; simpl.
  - pose proof (mono_cur _ _ Mo t seqL). lia.
  - assert (Nil : forall j (m0 : msg), nth_error [] j = Some m0 -> False) by (intros [|j]; discriminate).
    split; [|split; [lia|intros j m0 Hj; destruct (Nil j m0 Hj)]].
    unfold rd_inv. rewrite Hm. repeat (split; [assumption || lia|]). split.
    + intros i g Hi Hg. pose proof (i_seq_view s I m i g Hin Hi Hg).
      pose proof (acquire_load_view _ _ _ _ _ _ St A (dL i)). lia.
    + intros j m0 Hj; destruct (Nil j m0 Hj).
Qed.

(** a data load (240) by a reader: the word is not older than the generation of [mq], and the
    lock acquisition of its generation is in [need] *)
Lemma step_rd_data : forall s t c0 mq buf m M',
  inv s -> pcs s t = RdData c0 mq buf ->
  step (ms s) t (LLoad (dL (length buf)) (o_data_load o) m) M' ->
  inv (set_pc s M' t (if Nat.eqb (S (length buf)) W
                      then RdFence c0 mq (buf ++ [m]) else RdData c0 mq (buf ++ [m]))).
Proof.
  intros s t c0 mq buf m M' I Hpc St.
  destruct (load_reach _ _ _ _ _ _ (i_reach s I) St) as (R' & Mo & Hm & Hin & Hlo & Hhi).
  pose proof (i_thr s I t) as T. rewrite Hpc in T. destruct T as (RI & Hlen & Hneed).
  assert (T' : rd_inv M' t c0 mq (buf ++ [m]) /\
               forall j m0, nth_error (buf ++ [m]) j = Some m0 -> 2 * m_ts m0 <= S (need M' t)).
  { pose proof (rd_inv_mono _ _ _ _ _ _ Mo RI) as (A & B & C & D & E & F). split.
    - repeat (split; [assumption|]).
      intros j m0 Hj. apply nth_error_snoc in Hj. destruct Hj as [[_ Hj]|[-> ->]]; [now apply F|].
      rewrite Hm. split; [assumption|].
      destruct (seq_msg_even s mq I) as [h Hh]; [apply RI|assumption|].
      destruct RI as (_ & _ & _ & _ & E0 & _). specialize (E0 (length buf) h Hlen). lia.
    - intros j m0 Hj. apply nth_error_snoc in Hj. destruct Hj as [[_ Hj]|[-> ->]].
      + specialize (Hneed j m0 Hj). pose proof (need_mono _ _ t Mo). lia.
      + pose proof (i_data_view s I (length buf) m Hlen Hin). pose proof (need_data_load _ _ _ _ _ St).
        lia. }
  assert (Hl : length (buf ++ [m]) = S (length buf)) by (rewrite app_length; simpl; lia).
  destruct T' as [RI' Hneed'].
  eapply inv_quiet_unlocked; try eassumption; [now rewrite Hpc| |];
    destruct (Nat.eqb_spec (S (length buf)) W); try reflexivity; simpl;
    (split; [assumption|split; [lia|assumption]]).
Qed.

Lemma step_rd_fence : forall s t c0 mq buf M',
  ok_load -> inv s -> pcs s t = RdFence c0 mq buf ->
  step (ms s) t (LFence (o_fence_after_data o)) M' ->
  inv (set_pc s M' t (RdSeq2 c0 mq buf)).
Proof.
  intros s t c0 mq buf M' Ok I Hpc St.
  destruct (fence_reach _ _ _ _ (i_reach s I) St) as (R' & Mo & Hm).
  pose proof (i_thr s I t) as T. rewrite Hpc in T. destruct T as (RI & Hlen & Hneed).
  eapply inv_quiet_unlocked; try eassumption; [now rewrite Hpc|reflexivity|].
  split; [eapply rd_inv_mono; eassumption|]. split; [assumption|].
  intros j m Hj. specialize (Hneed j m Hj).
  pose proof (need_fence _ _ _ (proj1 (proj2 (proj2 (proj2 Ok)))) Mo St). lia.
Qed.

(** the second load of [_seq] (179): the same value means the same message, of timestamp [2 h],
    and all words lie between generation [h] ([rd_inv]) and [h] (the bound by [cur]) *)
Lemma step_rd_seq2 : forall s t c0 mq buf m M',
  ok_load -> inv s -> pcs s t = RdSeq2 c0 mq buf ->
  step (ms s) t (LLoad seqL (o_load_seq2 o) m) M' ->
  inv (set_pc s M' t (if N.eqb (m_val m) (m_val mq)
                      then RdDone c0 mq buf else rd_after_seq c0 m)).
Proof.
  intros s t c0 mq buf m M' Ok I Hpc St.
  pose proof (i_thr s I t) as T. rewrite Hpc in T. destruct T as ((A & B & C & D & E & F) & Hlen & Hb).
  assert (Hl : locked (pcs s t) = false) by now rewrite Hpc.
  destruct (N.eqb_spec (m_val m) (m_val mq)) as [Ev|_].
  - destruct (load_reach _ _ _ _ _ _ (i_reach s I) St) as (R' & Mo & Hm & Hin & Hlo & Hhi).
    eapply inv_quiet_unlocked; try eassumption; [reflexivity|].
    simpl. rewrite Hm. repeat (split; [assumption|]).
    rewrite (i_seq_val s I m Hin), (i_seq_val s I mq A) in Ev. apply Nat2N.inj in Ev.
    destruct (seq_msg_even s mq I A B) as [h Hh]. exists h. split; [assumption|].
    intros j m0 Hj. destruct (F j m0 Hj) as [F1 F2]. specialize (Hb j m0 Hj).
    split; [assumption|lia].
  - apply (step_rd_seq s t c0 (o_load_seq2 o) m M' I); [apply Ok|assumption|lia|exact St].
Qed.

(** ** The writer's steps before it holds the lock *)

Lemma step_wr_seq : forall s t w od m M',
  inv s -> locked (pcs s t) = false ->
  step (ms s) t (LLoad seqL od m) M' ->
  inv (set_pc s M' t (wr_after_seq w m)).
Proof.
  intros s t w od m M' I Hl St.
  destruct (load_reach _ _ _ _ _ _ (i_reach s I) St) as (_ & _ & Hm & _).
  eapply inv_quiet_unlocked; try eassumption; [apply wr_after_seq_unlocked|].
  unfold wr_after_seq, is_write_pending.
  destruct (N.odd (m_val m)) eqn:E; simpl; [exact Logic.I|exact E].
Qed.

(** ** The lock holder's steps *)

Lemma Lseq_eq : forall M M', memory M' = memory M -> Lseq M' = Lseq M.
Proof. intros M M' H. unfold Lseq. now rewrite H. Qed.

(** update: a data load (240) under the lock reads the last message, of generation [g_cur - 1] *)
Lemma step_wr_read : forall s t f q buf m M',
  inv s -> pcs s t = WrRead f q buf ->
  step (ms s) t (LLoad (dL (length buf)) (o_data_load o) m) M' ->
  inv (set_pc s M' t (if Nat.eqb (S (length buf)) W
                      then WrRFence f q (buf ++ [m]) else WrRead f q (buf ++ [m]))).
Proof.
  intros s t f q buf m M' I Hpc St.
  pose proof (i_reach s I) as R.
  destruct (load_reach _ _ _ _ _ _ R St) as (R' & Mo & Hm & Hin & Hlo & Hhi).
  destruct (holder_at s t I) as (Ho & _ & H); [now rewrite Hpc|]. rewrite Hpc in H.
  destruct H as (A & Q & D & Hh & U & Len).
  assert (Hl : length (buf ++ [m]) = S (length buf)) by (rewrite app_length; simpl; lia).
  eapply inv_quiet; try eassumption.
  - rewrite Hpc. destruct (Nat.eqb (S (length buf)) W); reflexivity.
  - destruct (Nat.eqb (S (length buf)) W); exact Logic.I.
  - intros _.
    assert (U' : upd_inv (set_pc s M' t (WrRead f q (buf ++ [m]))) t (buf ++ [m])).
    { intros Acq. destruct (U Acq) as [U1 U2]. unfold set_pc; cbn [ms g_cur]. rewrite Hm. split.
      - intros i Hi. specialize (U1 i Hi). pose proof (mono_cur _ _ Mo t (dL i)). lia.
      - intros j m0 Hj. apply nth_error_snoc in Hj. destruct Hj as [[_ Hj]|[-> ->]]; [now apply U2|].
        split; [assumption|]. specialize (U1 (length buf) Len).
        pose proof (wf_in_ts _ _ _ (wf_reachable _ R) Hin) as B.
        specialize (D (length buf) Len). unfold Dl in D. lia. }
    assert (A' : Lseq M' <= cur (threads M' t) seqL).
    { rewrite (Lseq_eq _ _ Hm). pose proof (mono_cur _ _ Mo t seqL). lia. }
    destruct (Nat.eqb_spec (S (length buf)) W);
      (split; [exact A'|]); cbn [ms g_cur g_hist set_pc]; unfold Dl; rewrite (Lseq_eq _ _ Hm), Hm;
      do 3 (split; [assumption|]); (split; [exact U'|lia]).
Qed.

(** update: the fence (243) after the data loads, then func(data) *)
Lemma step_wr_rfence : forall s t f q buf M',
  inv s -> pcs s t = WrRFence f q buf ->
  step (ms s) t (LFence (o_fence_after_data o)) M' ->
  inv (set_pc s M' t (WrFence (f (map m_val buf)) q)).
Proof.
  intros s t f q buf M' I Hpc St.
  destruct (fence_reach _ _ _ _ (i_reach s I) St) as (R' & Mo & Hm).
  destruct (holder_at s t I) as (Ho & _ & H); [now rewrite Hpc|]. rewrite Hpc in H.
  destruct H as (A & Q & D & Hh & U & Len).
  eapply inv_quiet; try eassumption; [now rewrite Hpc|exact Logic.I|].
  intros _. split; cbn [ms g_cur g_hist set_pc]; unfold Dl; rewrite (Lseq_eq _ _ Hm), ?Hm; [|auto].
  pose proof (mono_cur _ _ Mo t seqL). lia.
Qed.

(** the successful CAS (218): [_seq] was even, so nobody held the lock; the new message of [_seq]
    inherits the view of the one read *)
Lemma step_wr_cas_ok : forall s t w q M',
  inv s -> pcs s t = WrCas w q ->
  m_val (last_msg (memory (ms s) seqL)) = q ->
  step (ms s) t (LRmw seqL (o_lock_cas o) (q + 1)%N) M' ->
  inv {| ms := M';
         pcs := upd_pc (pcs s) t (match w with
                                  | WStore v => WrFence v q
                                  | WUpdate f => WrRead f q []
                                  end);
         g_hist := g_hist s; g_gen := g_gen s;
         g_cur := S (g_cur s); g_owner := Some t |}.
Proof.
  intros s t w q M' I Hpc Hq St.
  pose proof (i_reach s I) as R.
  destruct (rmw_reach _ _ _ _ _ _ R St) as (R' & Mo & mk & E & Hts & Hv & Hoth & Hc & Hrd & Hacq).
  set (ml := last_msg (memory (ms s) seqL)) in *.
  assert (Inl : In ml (memory (ms s) seqL)) by (apply wf_last_in, wf_reachable, R).
  assert (Tl : m_ts ml = Lseq (ms s)) by reflexivity.
  pose proof (i_thr s I t) as T. rewrite Hpc in T. simpl in T.
  pose proof (i_seq_val s I ml Inl) as Vl.
  destruct (seq_msg_even s ml I Inl) as [h Hh]; [now rewrite Hq|].
  pose proof (i_cur s I) as C.
  destruct (g_owner s) eqn:Own; [lia|].
  destruct (i_unlocked s I Own) as [UD UH].
  assert (L' : Lseq M' = S (Lseq (ms s))).
  { unfold Lseq. rewrite E, last_ts_app, Hts. reflexivity. }
  assert (Dm : forall i, memory M' (dL i) = memory (ms s) (dL i)).
  { intros i. apply Hoth. apply dL_seqL. }
  constructor; cbn [ms pcs g_hist g_gen g_cur g_owner]; try apply I;
    try (intros *; rewrite Dm; apply I).   (* the data words are untouched *)
  - exact R'.
  - intros m Hin. rewrite E in Hin. apply in_snoc in Hin. destruct Hin as [Hin| ->].
    + now apply (i_seq_val s I).
    + rewrite Hv, Hts. fold (Lseq (ms s)). rewrite <- Tl. rewrite <- Hq, Vl. lia.
  - intros m i g Hin Hi Hg. rewrite E in Hin. apply in_snoc in Hin. destruct Hin as [Hin| ->].
    + now apply (i_seq_view s I).
    + rewrite Hts in Hg. fold (Lseq (ms s)) in Hg.
      assert (Hg' : 2 * g <= m_ts ml) by lia.
      pose proof (i_seq_view s I ml i g Inl Hi Hg'). specialize (Hrd (dL i)). lia.
  - lia.
  - apply (upd_all (fun t0 p => locked p = true <-> Some t = Some t0)).
    + destruct w; now split.
    + intros t0 Hn. destruct (locked (pcs s t0)) eqn:L; [apply (i_owner s I) in L|]; split; congruence.
  - discriminate.
  - intros t0 Ho. injection Ho as <-. unfold upd_pc. rewrite Nat.eqb_refl.
    assert (A' : Lseq M' <= cur (threads M' t) seqL) by (rewrite Hc, Hts, L'; apply le_n).
    assert (Q' : N.of_nat (Lseq M') = (q + 1)%N).
    { rewrite L', <- Hq, Vl, Tl. lia. }
    assert (D' : forall i, i < W -> Dl M' i = S (g_cur s) - 1).
    { intros i Hi. specialize (UD i Hi). unfold Dl in *. rewrite Dm. lia. }
    destruct w; (split; [exact A'|]); cbn [ms g_cur g_hist]; [auto|].
    repeat (split; [assumption|]). split; [|simpl; lia].
    intros Acq. cbn [ms g_cur]. split; [|intros [|j]; discriminate].
    intros i Hi. assert (Hg : 2 * g_cur s <= m_ts ml) by lia.
    pose proof (i_seq_view s I ml i (g_cur s) Inl Hi Hg). specialize (Hacq Acq (dL i)). lia.
  - apply (upd_all (thr_inv M')); [destruct w; exact Logic.I|]. intros t0 _. now apply thr_others.
Qed.

(** the release fence (260) before the data stores; the value of the new generation is recorded *)
Lemma step_wr_fence : forall s t v q M',
  ok_load -> inv s -> pcs s t = WrFence v q ->
  step (ms s) t (LFence (o_fence_before_data o)) M' ->
  inv {| ms := M'; pcs := upd_pc (pcs s) t (WrData v q 0);
         g_hist := g_hist s ++ [norm v]; g_gen := g_gen s;
         g_cur := g_cur s; g_owner := g_owner s |}.
Proof.
  intros s t v q M' Ok I Hpc St.
  pose proof (i_reach s I) as R.
  destruct (fence_reach _ _ _ _ R St) as (R' & Mo & Hm).
  destruct (holder_at s t I) as (Ho & C & H); [now rewrite Hpc|]. rewrite Hpc in H.
  destruct H as (A & Q & D & Hh).
  constructor; cbn [ms pcs g_hist g_gen g_cur g_owner]; unfold Dl; rewrite ?(Lseq_eq _ _ Hm), ?Hm;
    try apply I.
  - exact R'.
  - intros i m Hi Hin. rewrite (i_data_val s I i m Hi Hin).
    pose proof (wf_in_ts _ _ _ (wf_reachable _ R) Hin) as B.
    specialize (D i Hi). unfold Dl in D. rewrite app_nth1 by lia. reflexivity.
  - intros v0 Hin. apply in_app_or in Hin. destruct Hin as [Hin|[<-|[]]].
    + now apply (i_hist_len s I).
    + apply norm_length.
  - apply (upd_all (fun t0 p => locked p = true <-> g_owner s = Some t0)).
    + rewrite Ho. now split.
    + intros t0 _. apply (i_owner s I).
  - congruence.
  - apply (upd_all (fun t0 p => g_owner s = Some t0 -> holder_inv _ t0 p)); [intros _|congruence].
    split; cbn [ms g_cur g_hist]; unfold Dl; rewrite ?(Lseq_eq _ _ Hm), ?Hm.
    + pose proof (mono_cur _ _ Mo t seqL). lia.
    + split; [assumption|]. split; [lia|]. split; [intros i Hi; simpl; now apply D|].
      split; [rewrite app_length; simpl; lia|].
      split; [rewrite app_nth2 by lia; rewrite Hh, Nat.sub_diag; reflexivity|].
      split; [intros i Hi; lia|].
      intros Hr. destruct Ok as (_ & _ & _ & _ & [Of|Od] & _); [|congruence].
      pose proof (fence_rel_snapshot _ _ _ _ St Of seqL). lia.
  - apply (upd_all (thr_inv M')); [exact Logic.I|]. intros t0 _. now apply thr_others.
Qed.

(** a data store (266): the message of word [j] gets timestamp = generation [g_cur] and carries
    the lock acquisition through the release fence (7) or its own release order *)
Lemma step_wr_data : forall s t v q j M',
  inv s -> pcs s t = WrData v q j ->
  step (ms s) t (LStore (dL j) (o_data_store o) (nth j v 0%N)) M' ->
  inv {| ms := M';
         pcs := upd_pc (pcs s) t (if Nat.eqb (S j) W then WrUnlock q else WrData v q (S j));
         g_hist := g_hist s;
         g_gen := upd_gen (g_gen s) j (S (last_ts (memory (ms s) (dL j)))) (g_cur s);
         g_cur := g_cur s; g_owner := g_owner s |}.
Proof.
  intros s t v q j M' I Hpc St.
  pose proof (i_reach s I) as R. pose proof (wf_reachable _ R) as Wf.
  destruct (store_reach _ _ _ _ _ _ R St) as (R' & Mo & mk & E & Hts & Hv & Hoth & Hc & Hrel & Hrl).
  destruct (holder_at s t I) as (Ho & C & H); [now rewrite Hpc|]. rewrite Hpc in H.
  destruct H as (A & Q & Hj & D & Hh & Hn & Hcd & Hr).
  assert (Dj : last_ts (memory (ms s) (dL j)) = g_cur s - 1).
  { specialize (D j Hj). rewrite Nat.ltb_irrefl in D. exact D. }
  assert (Tk : m_ts mk = g_cur s) by lia.
  assert (Sm : memory M' seqL = memory (ms s) seqL) by (apply Hoth; discriminate).
  assert (Ls : Lseq M' = Lseq (ms s)) by (unfold Lseq; now rewrite Sm).
  (* the messages of the data words afterwards: the old ones and [mk] at word [j] *)
  assert (Mem : forall i m, In m (memory M' (dL i)) ->
                  In m (memory (ms s) (dL i)) \/ (i = j /\ m = mk)).
  { intros i m Hin. destruct (Nat.eq_dec i j) as [->|Hne].
    - rewrite E in Hin. apply in_snoc in Hin. destruct Hin; [now left|now right].
    - rewrite Hoth in Hin by (intros X; apply dL_inj in X; contradiction). now left. }
  assert (Gen : forall i m, In m (memory (ms s) (dL i)) ->
                  upd_gen (g_gen s) j (S (last_ts (memory (ms s) (dL j)))) (g_cur s) i (m_ts m)
                  = g_gen s i (m_ts m)).
  { intros i m Hin. unfold upd_gen. destruct (Nat.eqb_spec i j) as [->|]; [|reflexivity].
    pose proof (wf_in_ts _ _ _ Wf Hin). destruct (Nat.eqb_spec (m_ts m) (S (last_ts (memory (ms s) (dL j)))));
      [lia|reflexivity]. }
  assert (Dl' : forall i, i < W -> Dl M' i = if Nat.ltb i (S j) then g_cur s else g_cur s - 1).
  { intros i Hi. unfold Dl. destruct (Nat.eq_dec i j) as [->|Hne].
    - rewrite E, last_ts_app, Tk. destruct (Nat.ltb_spec j (S j)); [reflexivity|lia].
    - rewrite Hoth by (intros X; apply dL_inj in X; contradiction).
      specialize (D i Hi). unfold Dl in D. rewrite D.
      destruct (Nat.ltb_spec i j), (Nat.ltb_spec i (S j)); try reflexivity; lia. }
  constructor; cbn [ms pcs g_hist g_gen g_cur g_owner]; rewrite ?Ls, ?Sm; try apply I.
  - exact R'.
  - intros i m Hi Hin. destruct (Mem i m Hin) as [Old|[-> ->]].
    + rewrite (Gen i m Old). now apply (i_data_gen s I).
    + unfold upd_gen. rewrite Hts, !Nat.eqb_refl. simpl. lia.
  - intros i m Hi Hin. destruct (Mem i m Hin) as [Old|[-> ->]]; [now apply (i_data_view s I i)|].
    destruct (is_rel (o_data_store o)) eqn:Er.
    + specialize (Hrel eq_refl seqL). lia.
    + specialize (Hrl seqL). specialize (Hr eq_refl). lia.
  - intros i m Hi Hin. destruct (Mem i m Hin) as [Old|[-> ->]]; [now apply (i_data_val s I i)|].
    rewrite Hv, Tk, Hn. now rewrite norm_nth.
  - apply (upd_all (fun t0 p => locked p = true <-> g_owner s = Some t0)).
    + rewrite Ho. destruct (Nat.eqb (S j) W); now split.
    + intros t0 _. apply (i_owner s I).
  - congruence.
  - apply (upd_all (fun t0 p => g_owner s = Some t0 -> holder_inv _ t0 p)); [intros _|congruence].
    assert (A' : Lseq M' <= cur (threads M' t) seqL).
    { rewrite Ls. pose proof (mono_cur _ _ Mo t seqL). lia. }
    assert (Cd : forall i, i < S j -> g_cur s <= cur (threads M' t) (dL i)).
    { intros i Hi. destruct (Nat.eq_dec i j) as [->|Hne]; [lia|].
      assert (Hi' : i < j) by lia. specialize (Hcd i Hi').
      pose proof (mono_cur _ _ Mo t (dL i)). lia. }
    destruct (Nat.eqb_spec (S j) W) as [Ew|Ew]; (split; [exact A'|]); cbn [ms g_cur g_hist]; rewrite Ls.
    + split; [assumption|]. split.
      * intros i Hi. rewrite (Dl' i Hi). destruct (Nat.ltb_spec i (S j)); [reflexivity|lia].
      * split; [assumption|]. intros i Hi. apply Cd. lia.
    + split; [assumption|]. split; [lia|]. split; [exact Dl'|]. split; [assumption|].
      split; [assumption|]. split; [exact Cd|].
      intros Er. specialize (Hr Er). pose proof (mono_rel _ _ Mo t seqL). lia.
  - apply (upd_all (thr_inv M')); [destruct (Nat.eqb (S j) W); exact Logic.I|].
    intros t0 _. now apply thr_others.
Qed.

(** the unlocking release store (230): its message carries the data stores of generation [g_cur] *)
Lemma step_wr_unlock : forall s t q M',
  ok_load -> inv s -> pcs s t = WrUnlock q ->
  step (ms s) t (LStore seqL (o_unlock_store o) (q + 2)%N) M' ->
  inv {| ms := M'; pcs := upd_pc (pcs s) t Idle;
         g_hist := g_hist s; g_gen := g_gen s; g_cur := g_cur s; g_owner := None |}.
Proof.
  intros s t q M' Ok I Hpc St.
  destruct (store_reach _ _ _ _ _ _ (i_reach s I) St)
    as (R' & Mo & mk & E & Hts & Hv & Hoth & Hc & Hrel & Hrl).
  destruct (holder_at s t I) as (Ho & C & H); [now rewrite Hpc|]. rewrite Hpc in H.
  destruct H as (A & Q & D & Hh & Hcd).
  assert (Orel : is_rel (o_unlock_store o) = true) by apply Ok.
  assert (L' : Lseq M' = S (Lseq (ms s))).
  { unfold Lseq. rewrite E, last_ts_app, Hts. reflexivity. }
  assert (Dm : forall i, memory M' (dL i) = memory (ms s) (dL i)).
  { intros i. apply Hoth. apply dL_seqL. }
  constructor; cbn [ms pcs g_hist g_gen g_cur g_owner]; try apply I;
    try (intros *; rewrite Dm; apply I).
  - exact R'.
  - intros m Hin. rewrite E in Hin. apply in_snoc in Hin. destruct Hin as [Hin| ->].
    + now apply (i_seq_val s I).
    + rewrite Hv, Hts. fold (Lseq (ms s)). lia.
  - intros m i g Hin Hi Hg. rewrite E in Hin. apply in_snoc in Hin. destruct Hin as [Hin| ->].
    + now apply (i_seq_view s I).
    + rewrite Hts in Hg. fold (Lseq (ms s)) in Hg.
      specialize (Hcd i Hi). specialize (Hrel Orel (dL i)). lia.
  - lia.
  - apply (upd_all (fun t0 p => locked p = true <-> None = Some t0)); [split; discriminate|].
    intros t0 Hn. rewrite (not_holder s t t0 I Ho Hn). split; discriminate.
  - intros _. split; [|exact Hh]. intros i Hi. unfold Dl. rewrite Dm. now apply D.
  - discriminate.
  - apply (upd_all (thr_inv M')); [exact Logic.I|]. intros t0 _. now apply thr_others.
Qed.

(** ** The invariant holds in every reachable state *)

Lemma inv_step : forall s t lab s',
  orders_ok_load o = true -> inv s -> pstep s t lab s' -> inv s'.
Proof.
  intros s t lab s' Ok I St. apply orders_ok_load_spec in Ok.
  destruct St.
  - apply (step_rd_seq _ _ _ (o_load_seq1 o)); [assumption|apply Ok|now apply idle_unlocked|apply le_n|assumption].
  - pose proof (i_thr s I t) as T. rewrite H in T.
    apply (step_rd_seq _ _ _ (o_load_seq_spin o)); [assumption|apply Ok|now rewrite H|exact T|assumption].
  - eapply step_rd_data; eassumption.
  - eapply step_rd_fence; eassumption.
  - eapply step_rd_seq2; eassumption.
  - eapply step_wr_seq; [assumption|now apply idle_unlocked|eassumption].
  - eapply step_wr_seq; [assumption|now rewrite H|eassumption].
  - eapply step_wr_cas_ok; eassumption.
  - eapply step_wr_seq; [assumption|now rewrite H|eassumption].
  - eapply step_wr_read; eassumption.
  - eapply step_wr_rfence; eassumption.
  - eapply step_wr_fence; eassumption.
  - eapply step_wr_data; eassumption.
  - eapply step_wr_unlock; eassumption.
Qed.

Theorem inv_preach : forall s, orders_ok_load o = true -> preach s -> inv s.
Proof.
  intros s Ok R. induction R; [apply inv_init|eapply inv_step; eassumption].
Qed.


Lemma hist_length_bound : forall s, inv s ->
  g_cur s <= length (g_hist s) /\ (g_owner s = None -> length (g_hist s) = S (g_cur s)).
Proof.
  intros s I. split; [|apply (i_unlocked s I)].
  destruct (g_owner s) as [t0|] eqn:Eo.
  - pose proof (i_locked s I t0 Eo) as H. destruct H as [_ H].
    destruct (pcs s t0); try contradiction; decompose [and] H; lia.
  - destruct (i_unlocked s I Eo) as [_ H]. lia.
Qed.

(** ** MAIN THEOREM: a load is never torn *)

(** what a completed load returns (explained at the theorem) *)
Definition load_returns (s : pstate) (c0 : ts) (mq : msg) (buf : list msg) : Prop :=
  exists h,
    length buf = W /\
    (forall j m, nth_error buf j = Some m ->
       g_gen s j (m_ts m) = h /\ m_val m = nth j (nth h (g_hist s) []) 0%N) /\
    ret_gens s buf = repeat h W /\
    ret_vals buf = nth h (g_hist s) [] /\
    h < length (g_hist s) /\ h <= g_cur s /\ 2 * h <= last_ts (memory (ms s) seqL) /\
    m_ts mq = 2 * h /\
    c0 <= 2 * h.

(** For every completed load (thread [t] is at [RdDone c0 mq buf]: load() was called when the
    thread's view of [_seq] was [c0], it validated its copy against the message [mq] of [_seq],
    the W words it returns were read from the messages [buf]) there is ONE generation [h] with:
    - the load returns exactly W words and every one of them carries generation [h]
      ([g_gen], [ret_gens]) - the value is not torn;
    - the words returned are exactly the value of generation [h] ([g_hist]);
    - generation [h] exists: its store had started ([h <= g_cur]) and in fact was complete
      ([2 * h] = timestamp of its unlocking store <= last timestamp of [_seq]) at the end of the load;
    - [c0 <= 2 * h]: generation [h] is not older than any store whose unlocking store (timestamp
      [2 * k]) was in the reader's view of [_seq] when load() was called ([2 * k <= c0] gives
      [k <= h]) - in particular not older than any store that happens-before the call. *)
Theorem seqlock_load_atomic_wm : forall s t c0 mq buf,
  orders_ok_load o = true -> preach s -> pcs s t = RdDone c0 mq buf -> load_returns s c0 mq buf.
Proof.
  intros s t c0 mq buf Ok R Hpc. pose proof (inv_preach s Ok R) as I.
  pose proof (i_thr s I t) as T. rewrite Hpc in T. destruct T as (Inq & Hc0 & Hlen & h & Hh & F).
  pose proof (wf_in_ts _ _ _ (wf_reachable _ (i_reach s I)) Inq) as Bq.
  destruct (hist_length_bound s I) as [HL1 HL2].
  assert (Hcur : h <= g_cur s /\ h < length (g_hist s)).
  { pose proof (i_cur s I) as C. unfold Lseq in C. destruct (g_owner s); [|specialize (HL2 eq_refl)]; lia. }
  assert (G : forall j m, nth_error buf j = Some m ->
                g_gen s j (m_ts m) = h /\ m_val m = nth j (nth h (g_hist s) []) 0%N).
  { intros j m Hj. destruct (F j m Hj) as [Hin Hts].
    assert (Hjw : j < W) by (rewrite <- Hlen; eapply nth_error_lt; eassumption).
    now rewrite (i_data_gen s I j m Hjw Hin), (i_data_val s I j m Hjw Hin), Hts. }
  exists h. split; [assumption|]. split; [exact G|]. split; [|split].
  - rewrite <- Hlen. apply (gens_same (g_gen s) buf h 0). intros j m Hj. now apply G.
  - apply vals_eq; [|intros j m Hj; now apply G].
    rewrite Hlen. symmetry. apply (i_hist_len s I), nth_In. lia.
  - repeat split; lia.
Qed.

(** the writers are mutually exclusive ... *)
Theorem seqlock_writers_exclusive_wm : forall s t1 t2,
  orders_ok_load o = true -> preach s ->
  locked (pcs s t1) = true -> locked (pcs s t2) = true -> t1 = t2.
Proof.
  intros s t1 t2 Ok R H1 H2. pose proof (inv_preach s Ok R) as I.
  apply (i_owner s I) in H1. apply (i_owner s I) in H2. congruence.
Qed.

(** ... and update() applies its functor to the LATEST value: when the functor is applied
    (thread at [WrRFence f q buf]), the W words read carry generation [g_cur - 1], the last
    complete one, and are exactly its value (no lost update).  Needs the acquire CAS (4). *)
Definition update_reads_latest (s : pstate) (buf : list msg) : Prop :=
  1 <= g_cur s /\ length (g_hist s) = g_cur s /\ length buf = W /\
  (forall j m, nth_error buf j = Some m -> g_gen s j (m_ts m) = g_cur s - 1) /\
  ret_gens s buf = repeat (g_cur s - 1) W /\
  ret_vals buf = nth (g_cur s - 1) (g_hist s) [].

Theorem seqlock_update_reads_latest_wm : forall s t f q buf,
  orders_ok o = true -> preach s -> pcs s t = WrRFence f q buf -> update_reads_latest s buf.
Proof.
  intros s t f q buf Ok R Hpc. unfold orders_ok in Ok. apply andb_true_iff in Ok.
  destruct Ok as [Ok Oku]. pose proof (inv_preach s Ok R) as I.
  destruct (holder_at s t I) as (Ho & C & H); [now rewrite Hpc|]. rewrite Hpc in H.
  destruct H as (A & Q & D & Hh & U & Len). destruct (U Oku) as [U1 U2].
  assert (G : forall j m, nth_error buf j = Some m ->
                g_gen s j (m_ts m) = g_cur s - 1 /\
                m_val m = nth j (nth (g_cur s - 1) (g_hist s) []) 0%N).
  { intros j m Hj. destruct (U2 j m Hj) as [Hin Hts].
    assert (Hjw : j < W) by (rewrite <- Len; eapply nth_error_lt; eassumption).
    now rewrite (i_data_gen s I j m Hjw Hin), (i_data_val s I j m Hjw Hin), Hts. }
  split; [lia|]. repeat (split; [assumption|]). split; [intros j m Hj; now apply G|]. split.
  - rewrite <- Len. apply (gens_same (g_gen s) buf _ 0). intros j m Hj. now apply G.
  - apply vals_eq; [|intros j m Hj; now apply G].
    rewrite Len. symmetry. apply (i_hist_len s I), nth_In. lia.
Qed.

(** a thread's own store is in its view afterwards: the unlocking store of generation [g_cur s]
    sets the thread's view of [_seq] to [2 * g_cur s]; views only grow ([ViewLemmas.mono]), so
    every later load() of this thread starts with [c0 >= 2 * g_cur s] and therefore (main
    theorem, [c0 <= 2 * h]) returns a generation [h >= g_cur s].  The same holds for every thread
    that has acquired a message carrying this view (that is what "happens-before" means in the machine). *)
Lemma seqlock_own_store_in_view_wm : forall s t q lab s',
  orders_ok_load o = true -> preach s -> pcs s t = WrUnlock q -> pstep s t lab s' ->
  cur (threads (ms s') t) seqL = 2 * g_cur s /\ g_cur s' = g_cur s.
Proof.
  intros s t q lab s' Ok R Hpc St. pose proof (inv_preach s Ok R) as I.
  destruct (holder_at s t I) as (_ & C & _); [now rewrite Hpc|].
  destruct St; try (rewrite Hpc in *; discriminate). cbn [ms g_cur]. split; [|reflexivity].
  destruct (store_reach _ _ _ _ _ _ (i_reach s I) H0) as (_ & _ & mk & _ & Hts & _ & _ & Hc & _).
  fold (Lseq (ms s)) in Hts. lia.
Qed.

(** ** The executable form is sound *)

Lemma pexec_sound : forall s t c lab s', pexec W o s t c = Some (lab, s') -> pstep s t lab s'.
Proof.
  intros s t c lab s' H. unfold pexec in H. destruct c.
  - destruct (is_idle (pcs s t)) eqn:Ei; [|discriminate].
    apply exec_load_sound in H. destruct H as (m & M' & -> & -> & St). now apply ps_rd_seq1.
  - destruct (is_idle (pcs s t)) eqn:Ei; [|discriminate].
    apply exec_load_sound in H. destruct H as (m & M' & -> & -> & St). now apply ps_wr_load.
  - destruct (pcs s t) eqn:Ep; try discriminate;
      apply exec_load_sound in H; destruct H as (m & M' & -> & -> & St).
    + eapply ps_rd_spin; eassumption.
    + eapply ps_rd_data; eassumption.
    + eapply ps_rd_seq2; eassumption.
    + eapply ps_wr_spin; eassumption.
    + eapply ps_wr_cas_fail; eassumption.
    + eapply ps_wr_read; eassumption.
  - destruct (pcs s t) eqn:Ep; try discriminate.
    destruct (N.eqb_spec (m_val (last_msg (memory (ms s) seqL))) q) as [Eq|]; [|discriminate].
    inversion H; subst. eapply ps_wr_cas_ok; [eassumption|reflexivity|constructor].
  - destruct (pcs s t) eqn:Ep; try discriminate; inversion H; subst.
    + eapply ps_rd_fence; [eassumption|constructor].
    + eapply ps_wr_rfence; [eassumption|constructor].
    + eapply ps_wr_fence; [eassumption|constructor].
    + eapply ps_wr_data; [eassumption|constructor].
    + eapply ps_wr_unlock; [eassumption|constructor].
Qed.

Lemma prun_sound : forall cs s tr s', prun W o s cs = Some (tr, s') -> ptrace s tr s'.
Proof.
  induction cs as [|[t c] cs IH]; intros s tr s' H; simpl in H.
  - inversion H; subst. constructor.
  - destruct (pexec W o s t c) as [[lab s1]|] eqn:E; [|discriminate].
    destruct (prun W o s1 cs) as [[tr1 s2]|] eqn:E2; [|discriminate].
    inversion H; subst. econstructor; [eapply pexec_sound; eassumption|now apply IH].
Qed.

Lemma pstep_step : forall s t lab s', pstep s t lab s' -> step (ms s) t lab (ms s').
Proof. intros s t lab s' H. destruct H; assumption. Qed.

(** the trace of a program execution is a valid trace of the machine *)
Lemma ptrace_valid : forall s tr s', ptrace s tr s' -> valid (ms s) tr /\ ms s' = run (ms s) tr.
Proof.
  induction 1 as [|s t lab s1 tr s2 St _ [IH1 IH2]]; simpl; [auto|].
  apply pstep_step in St. apply step_apply in St. destruct St as [En Eq].
  rewrite <- Eq. auto.
Qed.

Lemma ptrace_preach : forall s tr s', preach s -> ptrace s tr s' -> preach s'.
Proof.
  intros s tr s' R H. induction H; [assumption|]. apply IHptrace. eapply preach_step; eassumption.
Qed.

End Proof.

(** ** Concrete executions *)

(** "in some execution of the program with orders [od] (W words), whose machine trace has the
    summary [sg], thread [t] completes a load() that returns the words [vs] carrying the
    generations [gs]" *)
Definition exec_load_returns (Wn : nat) (od : orders) (sg : list esig) (t : tid)
           (gs : list nat) (vs : list val) : Prop :=
  exists tr s c0 mq buf,
    preach Wn od s /\ ptrace Wn od (pinit Wn) tr s /\
    valid init tr /\ ms s = run init tr /\ map sig_of tr = sg /\
    pcs s t = RdDone c0 mq buf /\ ret_gens s buf = gs /\ ret_vals buf = vs.

(** the same for the words an update() applies its functor to; [gc] = generations started *)
Definition exec_update_reads (Wn : nat) (od : orders) (sg : list esig) (t : tid)
           (gc : nat) (gs : list nat) : Prop :=
  exists tr s f q buf,
    preach Wn od s /\ ptrace Wn od (pinit Wn) tr s /\
    valid init tr /\ ms s = run init tr /\ map sig_of tr = sg /\
    pcs s t = WrRFence f q buf /\ g_cur s = gc /\ ret_gens s buf = gs.

Arguments exec_load_returns Wn%nat od sg t%nat gs%nat vs%N.
Arguments exec_update_reads Wn%nat od sg t%nat gc%nat gs%nat.

Lemma exec_witness : forall Wn od cs tr s,
  prun Wn od (pinit Wn) cs = Some (tr, s) ->
  preach Wn od s /\ ptrace Wn od (pinit Wn) tr s /\ valid init tr /\ ms s = run init tr.
Proof.
  intros Wn od cs tr s H. apply prun_sound in H.
  split; [eapply ptrace_preach; [constructor|eassumption]|]. split; [assumption|].
  apply ptrace_valid in H. exact H.
Qed.

Lemma exec_load_returns_by_computation : forall Wn od cs sg t gs vs,
  match prun Wn od (pinit Wn) cs with
  | Some (tr, s) => map sig_of tr = sg /\ done_gens s t = Some gs /\ done_vals s t = Some vs
  | None => False
  end -> exec_load_returns Wn od sg t gs vs.
Proof.
  intros Wn od cs sg t gs vs H.
  destruct (prun Wn od (pinit Wn) cs) as [[tr s]|] eqn:E; [|contradiction].
  destruct H as (H1 & H2 & H3). destruct (exec_witness _ _ _ _ _ E) as (R & P & V & M).
  unfold done_gens in H2. unfold done_vals in H3.
  destruct (pcs s t) eqn:Ep; try discriminate.
  exists tr, s, c0, mq, buf. inversion H2. inversion H3. auto 10.
Qed.

Lemma exec_update_reads_by_computation : forall Wn od cs sg t gc gs,
  match prun Wn od (pinit Wn) cs with
  | Some (tr, s) => map sig_of tr = sg /\ upd_gens s t = Some gs /\ g_cur s = gc
  | None => False
  end -> exec_update_reads Wn od sg t gc gs.
Proof.
  intros Wn od cs sg t gc gs H.
  destruct (prun Wn od (pinit Wn) cs) as [[tr s]|] eqn:E; [|contradiction].
  destruct H as (H1 & H2 & H3). destruct (exec_witness _ _ _ _ _ E) as (R & P & V & M).
  unfold upd_gens in H2.
  destruct (pcs s t) eqn:Ep; try discriminate.
  exists tr, s, f, q, buf. inversion H2. auto 10.
Qed.

Local Open Scope N_scope.

(** thread 1: store({7,8}) *)
Definition st78 : wop := WStore [7; 8].
Definition full_store : list (tid * choice) :=
  [(1%nat, CWrite st78 0); (1%nat, CCas); (1%nat, CGo); (1%nat, CGo); (1%nat, CGo); (1%nat, CGo)].

(** *** NON-VACUITY (a): with xenium's orders, 2 words: thread 1 stores {7,8}, thread 3 updates it
    to {8,9} (functor: +1 on every word), thread 2 loads and obtains generation 2 = {8,9} *)
Example xenium_load_completes :
  exec_load_returns 2 xenium_orders
    [ SLoad 1 0 Rlx 0 0; SRmw 1 0 Acq 1; SFence 1 Rel; SStore 1 1 Rlx 7; SStore 1 2 Rlx 8;
      SStore 1 0 Rel 2;
      SLoad 3 0 Rlx 2 2; SRmw 3 0 Acq 3; SLoad 3 1 Rlx 7 1; SLoad 3 2 Rlx 8 1; SFence 3 Acq;
      SFence 3 Rel; SStore 3 1 Rlx 8; SStore 3 2 Rlx 9; SStore 3 0 Rel 4;
      SLoad 2 0 Acq 4 4; SLoad 2 1 Rlx 8 2; SLoad 2 2 Rlx 9 2; SFence 2 Acq; SLoad 2 0 Acq 4 4 ]
    2 [2; 2]%nat [8; 9].
Proof.
  apply (exec_load_returns_by_computation 2 xenium_orders
    (full_store ++
     [(3%nat, CWrite (WUpdate (map (N.add 1))) 2); (3%nat, CCas); (3%nat, CRd 1); (3%nat, CRd 1);
      (3%nat, CGo); (3%nat, CGo); (3%nat, CGo); (3%nat, CGo); (3%nat, CGo);
      (2%nat, CLoad 4); (2%nat, CRd 2); (2%nat, CRd 2); (2%nat, CGo); (2%nat, CRd 4)])).
  vm_compute. repeat split.
Qed.

(** a load that overlaps a store retries: thread 2 reads word 0 old and word 1 new, the fence (6)
    makes the second load of _seq see the lock, the load retries and returns generation 1 *)
Example xenium_load_retries :
  exec_load_returns 2 xenium_orders
    [ SLoad 1 0 Rlx 0 0; SLoad 2 0 Acq 0 0; SRmw 1 0 Acq 1; SFence 1 Rel;
      SStore 1 1 Rlx 7; SStore 1 2 Rlx 8;
      SLoad 2 1 Rlx 0 0; SLoad 2 2 Rlx 8 1; SFence 2 Acq; SLoad 2 0 Acq 1 1;
      SStore 1 0 Rel 2;
      SLoad 2 0 Acq 2 2; SLoad 2 1 Rlx 7 1; SLoad 2 2 Rlx 8 1; SFence 2 Acq; SLoad 2 0 Acq 2 2 ]
    2 [1; 1]%nat [7; 8].
Proof.
  apply (exec_load_returns_by_computation 2 xenium_orders
    [(1%nat, CWrite st78 0); (2%nat, CLoad 0); (1%nat, CCas); (1%nat, CGo); (1%nat, CGo); (1%nat, CGo);
     (2%nat, CRd 0); (2%nat, CRd 1); (2%nat, CGo); (2%nat, CRd 1);
     (1%nat, CGo);
     (2%nat, CRd 2); (2%nat, CRd 1); (2%nat, CRd 1); (2%nat, CGo); (2%nat, CRd 2)]).
  vm_compute. repeat split.
Qed.

(** *** NECESSITY (b): every conjunct of [orders_ok] is needed - for each of them, the orders of
    xenium with that one site weakened to relaxed admit an execution of the machine in which
    load() returns word 0 of generation 0 together with word 1 of generation 1: {0,8}, a value
    that was never stored.  Program: W = 2, thread 1 does store({7,8}), thread 2 does load(). *)

(** the schedule / read choices of the main refutation *)
Definition cs_overlap : list (tid * choice) :=
  [(1%nat, CWrite st78 0); (2%nat, CLoad 0); (1%nat, CCas); (1%nat, CGo); (1%nat, CGo); (1%nat, CGo);
   (2%nat, CRd 0); (2%nat, CRd 1); (2%nat, CGo); (2%nat, CRd 0)].

(** the load starts after the complete store, from the new sequence value, and reads word 0 old *)
Definition cs_late_load : list (tid * choice) :=
  full_store ++ [(2%nat, CLoad 2); (2%nat, CRd 0); (2%nat, CRd 1); (2%nat, CGo); (2%nat, CRd 2)].

(** (6) the acquire fence of read_data (243) missing / relaxed: the reader's second load of _seq
    may still read the old sequence value although word 1 was read from the concurrent store *)
Theorem weak_orders_torn :
  exec_load_returns 2 weak_orders
    [ SLoad 1 0 Rlx 0 0;          (* T1 210: seq = 0 *)
      SLoad 2 0 Acq 0 0;          (* T2 158: seq = 0 *)
      SRmw 1 0 Acq 1;             (* T1 218: lock, _seq = 1 *)
      SFence 1 Rel;               (* T1 260 *)
      SStore 1 1 Rlx 7;           (* T1 266: word 0 := 7 *)
      SStore 1 2 Rlx 8;           (* T1 266: word 1 := 8 *)
      SLoad 2 1 Rlx 0 0;          (* T2 240: word 0 = 0 (generation 0) *)
      SLoad 2 2 Rlx 8 1;          (* T2 240: word 1 = 8 (generation 1) *)
      SFence 2 Rlx;               (* T2 243: no fence *)
      SLoad 2 0 Acq 0 0 ]         (* T2 179: seq2 = 0 = seq: accepted *)
    2 [0; 1]%nat [0; 8].
Proof.
  apply (exec_load_returns_by_computation 2 weak_orders cs_overlap). vm_compute. repeat split.
Qed.

(** the machine rejects these read choices under xenium's orders (after the acquire fence the
    old message of _seq is no longer readable) *)
Example xenium_orders_reject_overlap : prun 2 xenium_orders (pinit 2) cs_overlap = None.
Proof. vm_compute. reflexivity. Qed.

(** hence the conclusion of the main theorem is FALSE for [weak_orders] *)
Theorem weak_orders_refute_atomicity :
  ~ (forall s t c0 mq buf, preach 2 weak_orders s -> pcs s t = RdDone c0 mq buf ->
       exists h, ret_gens s buf = repeat h 2).
Proof.
  intros H. destruct weak_orders_torn as (tr & s & c0 & mq & buf & R & _ & _ & _ & _ & Hpc & Hg & _).
  destruct (H s 2%nat c0 mq buf R Hpc) as [h Hh]. rewrite Hg in Hh. simpl in Hh.
  inversion Hh. lia.
Qed.

(** (1) the first load of _seq (158) relaxed: it may read the new sequence value without
    acquiring the data stores *)
Theorem weak_load_seq1_torn :
  exec_load_returns 2 (set_load_seq1 Rlx xenium_orders)
    [ SLoad 1 0 Rlx 0 0; SRmw 1 0 Acq 1; SFence 1 Rel; SStore 1 1 Rlx 7; SStore 1 2 Rlx 8;
      SStore 1 0 Rel 2;
      SLoad 2 0 Rlx 2 2; SLoad 2 1 Rlx 0 0; SLoad 2 2 Rlx 8 1; SFence 2 Acq; SLoad 2 0 Acq 2 2 ]
    2 [0; 1]%nat [0; 8].
Proof.
  apply (exec_load_returns_by_computation 2 _ cs_late_load). vm_compute. repeat split.
Qed.

(** (2) the load of _seq in the wait loop (167) relaxed *)
Theorem weak_load_seq_spin_torn :
  exec_load_returns 2 (set_load_seq_spin Rlx xenium_orders)
    [ SLoad 1 0 Rlx 0 0; SRmw 1 0 Acq 1; SLoad 2 0 Acq 1 1;
      SFence 1 Rel; SStore 1 1 Rlx 7; SStore 1 2 Rlx 8; SStore 1 0 Rel 2;
      SLoad 2 0 Rlx 2 2; SLoad 2 1 Rlx 0 0; SLoad 2 2 Rlx 8 1; SFence 2 Acq; SLoad 2 0 Acq 2 2 ]
    2 [0; 1]%nat [0; 8].
Proof.
  apply (exec_load_returns_by_computation 2 _
    [(1%nat, CWrite st78 0); (1%nat, CCas); (2%nat, CLoad 1);
     (1%nat, CGo); (1%nat, CGo); (1%nat, CGo); (1%nat, CGo);
     (2%nat, CRd 2); (2%nat, CRd 0); (2%nat, CRd 1); (2%nat, CGo); (2%nat, CRd 2)]).
  vm_compute. repeat split.
Qed.

(** (3) the second load of _seq (179) relaxed: after a failed validation its value becomes the
    new [seq] of the retry *)
Theorem weak_load_seq2_torn :
  exec_load_returns 2 (set_load_seq2 Rlx xenium_orders)
    [ SLoad 2 0 Acq 0 0; SLoad 2 1 Rlx 0 0; SLoad 2 2 Rlx 0 0; SFence 2 Acq;
      SLoad 1 0 Rlx 0 0; SRmw 1 0 Acq 1; SFence 1 Rel; SStore 1 1 Rlx 7; SStore 1 2 Rlx 8;
      SStore 1 0 Rel 2;
      SLoad 2 0 Rlx 2 2;
      SLoad 2 1 Rlx 0 0; SLoad 2 2 Rlx 8 1; SFence 2 Acq; SLoad 2 0 Rlx 2 2 ]
    2 [0; 1]%nat [0; 8].
Proof.
  apply (exec_load_returns_by_computation 2 _
    ([(2%nat, CLoad 0); (2%nat, CRd 0); (2%nat, CRd 0); (2%nat, CGo)] ++ full_store ++
     [(2%nat, CRd 2); (2%nat, CRd 0); (2%nat, CRd 1); (2%nat, CGo); (2%nat, CRd 2)])).
  vm_compute. repeat split.
Qed.

(** (7) the release fence of store_data (260) missing / relaxed (data stores relaxed) *)
Theorem weak_fence_before_data_torn :
  exec_load_returns 2 (set_fence_before_data Rlx xenium_orders)
    [ SLoad 1 0 Rlx 0 0; SLoad 2 0 Acq 0 0; SRmw 1 0 Acq 1; SFence 1 Rlx;
      SStore 1 1 Rlx 7; SStore 1 2 Rlx 8;
      SLoad 2 1 Rlx 0 0; SLoad 2 2 Rlx 8 1; SFence 2 Acq; SLoad 2 0 Acq 0 0 ]
    2 [0; 1]%nat [0; 8].
Proof.
  apply (exec_load_returns_by_computation 2 _ cs_overlap). vm_compute. repeat split.
Qed.

(** (5) the unlocking store (230) relaxed *)
Theorem weak_unlock_store_torn :
  exec_load_returns 2 (set_unlock_store Rlx xenium_orders)
    [ SLoad 1 0 Rlx 0 0; SRmw 1 0 Acq 1; SFence 1 Rel; SStore 1 1 Rlx 7; SStore 1 2 Rlx 8;
      SStore 1 0 Rlx 2;
      SLoad 2 0 Acq 2 2; SLoad 2 1 Rlx 0 0; SLoad 2 2 Rlx 8 1; SFence 2 Acq; SLoad 2 0 Acq 2 2 ]
    2 [0; 1]%nat [0; 8].
Proof.
  apply (exec_load_returns_by_computation 2 _ cs_late_load). vm_compute. repeat split.
Qed.

(** (4) the locking CAS (218) relaxed: update() of thread 2, after the complete store of
    thread 1 (2 generations started), applies its functor to the words of generation 0 *)
Theorem weak_lock_cas_stale_update :
  exec_update_reads 2 (set_lock_cas Rlx xenium_orders)
    [ SLoad 1 0 Rlx 0 0; SRmw 1 0 Rlx 1; SFence 1 Rel; SStore 1 1 Rlx 7; SStore 1 2 Rlx 8;
      SStore 1 0 Rel 2;
      SLoad 2 0 Rlx 2 2; SRmw 2 0 Rlx 3; SLoad 2 1 Rlx 0 0; SLoad 2 2 Rlx 0 0 ]
    2 2%nat [0; 0]%nat.
Proof.
  apply (exec_update_reads_by_computation 2 _
    (full_store ++ [(2%nat, CWrite (WUpdate (map (N.add 1))) 2); (2%nat, CCas);
                    (2%nat, CRd 0); (2%nat, CRd 0)])).
  vm_compute. repeat split.
Qed.

(** ** Summary theorem (the form used in Properties/Properties_C03_seqlock.v) *)

Local Close Scope N_scope.

Theorem seqlock_weak_atomic : forall W o, 1 <= W -> orders_ok o = true ->
  forall s, preach W o s ->
  (* load() is never torn, returns a complete, current-enough generation *)
  (forall t c0 mq buf, pcs s t = RdDone c0 mq buf -> load_returns W s c0 mq buf) /\
  (* update() applies its functor to the latest generation *)
  (forall t f q buf, pcs s t = WrRFence f q buf -> update_reads_latest W s buf) /\
  (* writers are mutually exclusive *)
  (forall t1 t2, locked (pcs s t1) = true -> locked (pcs s t2) = true -> t1 = t2).
Proof.
  intros W o HW Ok s R.
  assert (Okl : orders_ok_load o = true).
  { unfold orders_ok in Ok. apply andb_true_iff in Ok. tauto. }
  split; [|split].
  - intros t c0 mq buf Hpc. exact (seqlock_load_atomic_wm W HW o s t c0 mq buf Okl R Hpc).
  - intros t f q buf Hpc. exact (seqlock_update_reads_latest_wm W HW o s t f q buf Ok R Hpc).
  - intros t1 t2. exact (seqlock_writers_exclusive_wm W HW o s t1 t2 Okl R).
Qed.

(** ** Tie to the generated code: the model's [is_write_pending] is the function generated from
       seqlock.hpp:142 (gen/SeqlockGen.v, regenerated from the C++ source on every run) *)
Require XV.gen.SeqlockGen.
Lemma is_write_pending_generated : forall q,
  SeqlockWM.is_write_pending q = XV.gen.SeqlockGen.is_write_pending q.
Proof.
  intros q. unfold SeqlockWM.is_write_pending, XV.gen.SeqlockGen.is_write_pending.
  destruct q as [|p]; [reflexivity|]. destruct p; reflexivity.
Qed.
