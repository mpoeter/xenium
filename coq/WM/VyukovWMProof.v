(** * WM.VyukovWMProof : over the weak-memory machine, xenium::vyukov_bounded_queue (a) passes every element
      from its push to exactly one pop (message passing), (b) its plain accesses are race free, (c) failures
      are justified by the messages read (the three parts of [vyukov_weak_correct]); the conditions on the
      memory orders are necessary.

    The model is in WM/VyukovWM.v, the machine in WM/View.v, its meta-theory in WM/ViewLemmas.v. *)

Require Import List NArith Arith Lia Bool.
Import ListNotations.
Require Import XV.WM.View XV.WM.ViewLemmas XV.WM.VyukovWM.

(** ** Arithmetic of tickets: ticket [p] lives in cell [p mod cap] on lap [p / cap] *)

Lemma decomp_unique : forall cap i k i' k', i < cap -> i' < cap ->
  i + k * cap = i' + k' * cap -> i = i' /\ k = k'.
Proof.
  intros cap i k i' k' Hi Hi' H.
  assert (E1 : i = (i + k * cap) mod cap) by (apply (Nat.mod_unique _ _ k); [assumption|lia]).
  assert (E2 : i' = (i + k * cap) mod cap) by (apply (Nat.mod_unique _ _ k'); [assumption|lia]).
  assert (E3 : k = (i + k * cap) / cap) by (apply (Nat.div_unique _ _ _ i); [assumption|lia]).
  assert (E4 : k' = (i + k * cap) / cap) by (apply (Nat.div_unique _ _ _ i'); [assumption|lia]).
  split; congruence.
Qed.

Lemma pos_decomp : forall cap p, 0 < cap -> p = cellof cap p + lapof cap p * cap.
Proof. intros. unfold cellof, lapof. pose proof (Nat.div_mod p cap). lia. Qed.

Lemma cellof_lt : forall cap p, 0 < cap -> cellof cap p < cap.
Proof. intros. unfold cellof. apply Nat.mod_upper_bound. lia. Qed.

Lemma cell_lap_of : forall cap i k, i < cap ->
  cellof cap (i + k * cap) = i /\ lapof cap (i + k * cap) = k.
Proof.
  intros cap i k Hi. assert (Hc : 0 < cap) by lia.
  pose proof (pos_decomp cap (i + k * cap) Hc) as E.
  pose proof (cellof_lt cap (i + k * cap) Hc) as L.
  destruct (decomp_unique cap _ _ _ _ L Hi (eq_sym E)). auto.
Qed.

(** ** Locations *)

(** (dis)equalities between [enqL], [deqL], [seqL i], [valL j] are linear arithmetic *)
Ltac loc_lia := unfold enqL, deqL, seqL, valL in *; lia.

Lemma enqL_deqL : enqL <> deqL.
Proof. discriminate. Qed.
Lemma seqL_valL : forall i j, seqL i <> valL j.
Proof. intros. loc_lia. Qed.

Lemma init_val_seqL : forall i, init_val (seqL i) = N.of_nat i.
Proof.
  intros i. unfold init_val, seqL.
  replace (2 + 2 * i) with (2 * (S i)) by lia.
  rewrite Nat.even_mul. simpl (Nat.even 2). simpl orb.
  destruct (Nat.leb_spec 2 (2 * S i)); [|lia]. simpl andb. cbv iota.
  rewrite Nat.div2_double. f_equal. lia.
Qed.

Lemma init_val_enqL : init_val enqL = 0%N.
Proof. reflexivity. Qed.
Lemma init_val_deqL : init_val deqL = 0%N.
Proof. reflexivity. Qed.

Lemma wf_minit : wf minit.
Proof.
  constructor; simpl; intros; try (unfold vbot; lia).
  - discriminate.
  - split; [intros ? []|exact Logic.I].
  - destruct H as [<-|[]]. unfold last_ts, last_msg; simpl. unfold vbot; lia.
  - destruct H as [<-|[]]. reflexivity.
Qed.

Lemma upd_pc_same : forall f t p, upd_pc f t p t = p.
Proof. intros; unfold upd_pc; now rewrite Nat.eqb_refl. Qed.
Lemma upd_pc_other : forall f t p t', t' <> t -> upd_pc f t p t' = f t'.
Proof. intros; unfold upd_pc. destruct (Nat.eqb_spec t' t); [contradiction|reflexivity]. Qed.
Lemma upd_cell_same : forall (A : Type) (f : nat -> A) i x, upd_cell f i x i = x.
Proof. intros; unfold upd_cell; now rewrite Nat.eqb_refl. Qed.
Lemma upd_cell_other : forall (A : Type) (f : nat -> A) i x i', i' <> i -> upd_cell f i x i' = f i'.
Proof. intros; unfold upd_cell. destruct (Nat.eqb_spec i' i); [contradiction|reflexivity]. Qed.

Lemma vle_mono_r : forall a b c, vle a b -> (forall l, b l <= c l) -> vle a c.
Proof. intros a b c H1 H2 l. specialize (H1 l). specialize (H2 l). lia. Qed.

Lemma nodup_snoc : forall (l : list nat) x, NoDup l -> ~ In x l -> NoDup (l ++ [x]).
Proof.
  intros l x H Hn. apply NoDup_rev in H. rewrite <- (rev_involutive (l ++ [x])), rev_unit.
  apply NoDup_rev. constructor; [now rewrite <- in_rev|assumption].
Qed.

Section Proof.

Variable cap : nat.
Hypothesis cap_ge : 2 <= cap.
Variable o : orders.

Notation cellof := (cellof cap).
Notation lapof := (lapof cap).
Notation pstep := (pstep cap o).
Notation preach := (preach cap o).
Notation ptrace := (ptrace cap o).

(** ** The invariant *)

(** last timestamps: [E] of enqueue_pos = number of push tickets issued, [D] of dequeue_pos = number of pop
    tickets issued, [Ls i] of the sequence of cell [i] (2 k = free for lap [k], 2 k + 1 = holds the element of
    lap [k]), [Lv i] of its value slot = number of elements written to it *)
Definition E (M : state) : ts := last_ts (memory M enqL).
Definition D (M : state) : ts := last_ts (memory M deqL).
Definition Ls (M : state) (i : nat) : ts := last_ts (memory M (seqL i)).
Definition Lv (M : state) (i : nat) : ts := last_ts (memory M (valL i)).

(** the cell a thread owns *)
Definition holds (p : pc) : option nat :=
  match p with
  | PWrite _ pos | PStore _ pos | QRead pos | QStore pos _ => Some (cellof pos)
  | _ => None
  end.

Definition thr_inv (M : state) (rv : nat -> view) (t : tid) (p : pc) : Prop :=
  match p with
  | PSeq w v pos => pos <= E M
  | PCas w v pos =>
      pos <= E M /\ 2 * lapof pos <= Ls M (cellof pos) /\
      lapof pos <= cur (threads M t) (valL (cellof pos)) /\
      (Ls M (cellof pos) = 2 * lapof pos -> vle (rv (cellof pos)) (cur (threads M t)))
  | PEnq2 v pos mq | PDeq v pos mq =>
      pos <= E M /\ In mq (memory M (seqL (cellof pos))) /\ m_val mq <> N.of_nat pos
  | PFull w pos mq md =>
      pos <= E M /\ In mq (memory M (seqL (cellof pos))) /\
      match md with
      | None => w = true /\ (m_val mq < N.of_nat pos)%N
      | Some d => w = false /\ m_val mq <> N.of_nat pos /\
                  In d (memory M deqL) /\ (m_val d + N.of_nat cap = N.of_nat pos)%N
      end
  | QSeq w pos => pos <= D M
  | QCas w pos =>
      pos <= D M /\ 2 * lapof pos + 1 <= Ls M (cellof pos) /\
      lapof pos + 1 <= cur (threads M t) (valL (cellof pos))
  | QDeq2 pos mq | QEnq pos mq =>
      pos <= D M /\ In mq (memory M (seqL (cellof pos))) /\ m_val mq <> N.of_nat (pos + 1)
  | QEmpty w pos mq me =>
      pos <= D M /\ In mq (memory M (seqL (cellof pos))) /\
      match me with
      | None => w = true /\ (m_val mq < N.of_nat (pos + 1))%N
      | Some e => w = false /\ m_val mq <> N.of_nat (pos + 1) /\
                  In e (memory M enqL) /\ m_val e = N.of_nat pos
      end
  | _ => True
  end.

(** the owner of a cell; [Lv = cur] of the owner is the race freedom of its plain access *)
Definition holder_inv (s : pstate) (t : tid) (p : pc) : Prop :=
  let M := ms s in
  match p with
  | PWrite v pos =>
      pos < E M /\ Ls M (cellof pos) = 2 * lapof pos /\ Lv M (cellof pos) = lapof pos /\
      lapof pos <= cur (threads M t) (valL (cellof pos)) /\
      vle (g_rview s (cellof pos)) (cur (threads M t)) /\
      nth pos (g_push s) 0%N = v
  | PStore v pos =>
      pos < E M /\ Ls M (cellof pos) = 2 * lapof pos /\ Lv M (cellof pos) = lapof pos + 1 /\
      lapof pos + 1 <= cur (threads M t) (valL (cellof pos)) /\
      nth pos (g_push s) 0%N = v
  | QRead pos =>
      pos < D M /\ pos < E M /\ Ls M (cellof pos) = 2 * lapof pos + 1 /\
      Lv M (cellof pos) = lapof pos + 1 /\
      lapof pos + 1 <= cur (threads M t) (valL (cellof pos))
  | QStore pos m =>
      pos < D M /\ pos < E M /\ Ls M (cellof pos) = 2 * lapof pos + 1 /\
      Lv M (cellof pos) = lapof pos + 1 /\
      lapof pos + 1 <= cur (threads M t) (valL (cellof pos)) /\
      vle (g_rview s (cellof pos)) (cur (threads M t)) /\
      In m (memory M (valL (cellof pos))) /\ m_ts m = lapof pos + 1 /\
      In (pos, m_val m) (g_pop s)
  | _ => False
  end.

Definition cell_inv (s : pstate) (i : nat) : Prop :=
  match g_own s i with
  | Some t => holder_inv s t (pcs s t)
  | None => forall k,
      (Ls (ms s) i = 2 * k -> E (ms s) <= i + k * cap /\ Lv (ms s) i = k) /\
      (Ls (ms s) i = 2 * k + 1 -> D (ms s) <= i + k * cap /\ Lv (ms s) i = k + 1)
  end.

(** the pop with ticket [p] has read its element *)
Definition qstore_at (s : pstate) (p : nat) : Prop :=
  match g_own s (cellof p) with
  | Some t => match pcs s t with QStore p' _ => p' = p | _ => False end
  | None => False
  end.
Definition pop_done (s : pstate) (p : nat) : Prop :=
  2 * lapof p + 2 <= Ls (ms s) (cellof p) \/ qstore_at s p.
(** the pop with ticket [p] is about to read its element *)
Definition qread_at (s : pstate) (p : nat) : Prop :=
  match g_own s (cellof p) with
  | Some t => pcs s t = QRead p
  | None => False
  end.

Definition done_inv (s : pstate) (p : pc) : Prop :=
  match p with
  | PDone v pos => pos < length (g_push s) /\ nth pos (g_push s) 0%N = v
  | QDone pos m => In (pos, m_val m) (g_pop s)
  | _ => True
  end.

Record inv (s : pstate) : Prop := {
  i_wf : wf (ms s);
  (* enqueue_pos / dequeue_pos: value = timestamp (every write is a successful CAS, +1) *)
  i_enq_val : forall m, In m (memory (ms s) enqL) -> m_val m = N.of_nat (m_ts m);
  i_deq_val : forall m, In m (memory (ms s) deqL) -> m_val m = N.of_nat (m_ts m);
  (* the sequence of cell i: the message with timestamp 2k holds i + k cap (free for push ticket
     i + k cap), the one with timestamp 2k+1 holds i + k cap + 1 (holds the element of that ticket) *)
  i_seq_val : forall i m k, i < cap -> In m (memory (ms s) (seqL i)) ->
      (m_ts m = 2 * k -> m_val m = N.of_nat (i + k * cap)) /\
      (m_ts m = 2 * k + 1 -> m_val m = N.of_nat (i + k * cap + 1));
  (* ... and carries the writes to the value slot made so far *)
  i_seq_view : forall i m k, i < cap -> In m (memory (ms s) (seqL i)) ->
      2 * k <= m_ts m + 1 -> k <= m_view m (valL i);
  (* ... and, if it is the latest message and frees the cell, the view of the reader of the slot *)
  i_seq_rview : forall i m k, i < cap -> In m (memory (ms s) (seqL i)) ->
      m_ts m = 2 * k -> Ls (ms s) i = 2 * k -> vle (g_rview s i) (m_view m);
  (* the value slot of cell i: the message with timestamp j+1 is the element of push ticket i + j cap *)
  i_val_val : forall i m j, i < cap -> In m (memory (ms s) (valL i)) -> m_ts m = S j ->
      i + j * cap < length (g_push s) /\ m_val m = nth (i + j * cap) (g_push s) 0%N;
  i_push_len : length (g_push s) = E (ms s);
  i_bounds : forall i k, i < cap ->
      (2 * k + 1 <= Ls (ms s) i -> i + k * cap < E (ms s)) /\
      (2 * k + 2 <= Ls (ms s) i -> i + k * cap < D (ms s)) /\
      (i + k * cap < E (ms s) -> 2 * k <= Ls (ms s) i) /\
      (i + k * cap < D (ms s) -> 2 * k + 1 <= Ls (ms s) i);
  i_owner : forall t i, holds (pcs s t) = Some i <-> g_own s i = Some t;
  i_cell : forall i, i < cap -> cell_inv s i;
  (* the pops *)
  i_pop_in : forall p v, In (p, v) (g_pop s) ->
      p < D (ms s) /\ p < length (g_push s) /\ v = nth p (g_push s) 0%N /\ pop_done s p;
  i_pop_nodup : NoDup (map fst (g_pop s));
  i_pop_all : forall p, p < D (ms s) -> In p (map fst (g_pop s)) \/ qread_at s p;
  i_done : forall t, done_inv s (pcs s t);
  i_thr : forall t, thr_inv (ms s) (g_rview s) t (pcs s t)
}.

Lemma cap_pos : 0 < cap.
Proof. lia. Qed.

Lemma inv_init : inv (pinit).
Proof.
  constructor; simpl.
  - apply wf_minit.
  - intros m [<-|[]]. reflexivity.
  - intros m [<-|[]]. reflexivity.
  - intros i m k Hi [<-|[]]. simpl. rewrite init_val_seqL. split; intros H; [|lia].
    assert (k = 0) by lia. subst. f_equal. lia.
  - intros i m k Hi [<-|[]]. simpl. intros H. unfold vbot. lia.
  - intros i m k Hi [<-|[]] _ _. intros l. simpl. unfold vbot. lia.
  - intros i m j Hi [<-|[]]. simpl. discriminate.
  - reflexivity.
  - intros i k Hi. unfold Ls, E, D, last_ts, last_msg. simpl. repeat split; intros; lia.
  - intros t i. split; discriminate.
  - intros i Hi. unfold cell_inv. simpl. intros k. unfold Ls, Lv, E, D, last_ts, last_msg. simpl.
    split; intros; lia.
  - intros p v [].
  - constructor.
  - intros p H. unfold D, last_ts, last_msg in H. simpl in H. lia.
  - intros t. exact Logic.I.
  - intros t. exact Logic.I.
Qed.

(** ** Monotonicity of the per-thread facts *)

Lemma mono_E : forall M M', mono M M' -> E M <= E M'.
Proof. intros. apply (mono_last _ _ H). Qed.
Lemma mono_D : forall M M', mono M M' -> D M <= D M'.
Proof. intros. apply (mono_last _ _ H). Qed.
Lemma mono_Ls : forall M M' i, mono M M' -> Ls M i <= Ls M' i.
Proof. intros. apply (mono_last _ _ H). Qed.

(** which last timestamps an appended message leaves alone *)
Lemma appends_enq : forall M M' news, appends M M' enqL news ->
  D M' = D M /\ (forall i, Ls M' i = Ls M i) /\ (forall i, Lv M' i = Lv M i).
Proof. intros M M' news [_ O]. unfold D, Ls, Lv. repeat split; intros; rewrite O; auto; loc_lia. Qed.

Lemma appends_deq : forall M M' news, appends M M' deqL news ->
  E M' = E M /\ (forall i, Ls M' i = Ls M i) /\ (forall i, Lv M' i = Lv M i).
Proof. intros M M' news [_ O]. unfold E, Ls, Lv. repeat split; intros; rewrite O; auto; loc_lia. Qed.

Lemma appends_seq : forall M M' i0 news, appends M M' (seqL i0) news ->
  E M' = E M /\ D M' = D M /\ (forall i, Lv M' i = Lv M i).
Proof. intros M M' i0 news [_ O]. unfold E, D, Lv. repeat split; intros; rewrite O; auto; loc_lia. Qed.

Lemma appends_val : forall M M' i0 news, appends M M' (valL i0) news ->
  E M' = E M /\ D M' = D M /\ (forall i, Ls M' i = Ls M i).
Proof. intros M M' i0 news [_ O]. unfold E, D, Ls. repeat split; intros; rewrite O; auto; loc_lia. Qed.

Lemma thr_inv_mono : forall M M' rv t p, mono M M' -> thr_inv M rv t p -> thr_inv M' rv t p.
Proof.
  intros M M' rv t p Mo H.
  pose proof (mono_E _ _ Mo) as HE. pose proof (mono_D _ _ Mo) as HD.
  assert (HC : forall l, cur (threads M t) l <= cur (threads M' t) l) by (intros; apply (mono_cur _ _ Mo)).
  assert (HM : forall l m, In m (memory M l) -> In m (memory M' l)) by (apply (mono_mem _ _ Mo)).
  destruct p; simpl in *; try exact Logic.I; try lia.
  - destruct H as (A & B & C & F). pose proof (mono_Ls _ _ (cellof pos) Mo) as L.
    split; [lia|]. split; [lia|]. split; [specialize (HC (valL (cellof pos))); lia|].
    intros Heq. apply (vle_mono_r _ (cur (threads M t))); [apply F; lia|exact HC].
  - destruct H as (A & B & C). split; [lia|]. split; [now apply HM|assumption].
  - destruct H as (A & B & C). split; [lia|]. split; [now apply HM|assumption].
  - destruct H as (A & B & C). split; [lia|]. split; [now apply HM|].
    destruct md as [d|]; [|assumption]. destruct C as (C1 & C2 & C3 & C4). auto.
  - destruct H as (A & B & C). pose proof (mono_Ls _ _ (cellof pos) Mo) as L.
    split; [lia|]. split; [lia|]. specialize (HC (valL (cellof pos))); lia.
  - destruct H as (A & B & C). split; [lia|]. split; [now apply HM|assumption].
  - destruct H as (A & B & C). split; [lia|]. split; [now apply HM|assumption].
  - destruct H as (A & B & C). split; [lia|]. split; [now apply HM|].
    destruct me as [e|]; [|assumption]. destruct C as (C1 & C2 & C3 & C4). auto.
Qed.

(** the reader view of a cell changes only while the cell sequence is odd *)
Lemma thr_inv_rv : forall M rv rv' t p,
  (forall i, rv' i = rv i \/ exists k, Ls M i = 2 * k + 1) ->
  thr_inv M rv t p -> thr_inv M rv' t p.
Proof.
  intros M rv rv' t p Hrv H. destruct p; simpl in *; try assumption.
  destruct H as (A & B & C & F). repeat (split; [assumption|]).
  intros Heq. destruct (Hrv (cellof pos)) as [->|[k Hk]]; [now apply F|lia].
Qed.

(** what the owner of a cell knows survives as long as its cell and its ticket's history do *)
Lemma holder_inv_frame : forall s s' t p,
  holder_inv s t p ->
  E (ms s) <= E (ms s') -> D (ms s) <= D (ms s') ->
  (forall i, holds p = Some i ->
     Ls (ms s') i = Ls (ms s) i /\ Lv (ms s') i = Lv (ms s) i /\ g_rview s' i = g_rview s i /\
     forall m, In m (memory (ms s) (valL i)) -> In m (memory (ms s') (valL i))) ->
  (forall l, cur (threads (ms s) t) l <= cur (threads (ms s') t) l) ->
  (forall q, q < E (ms s) -> nth q (g_push s') 0%N = nth q (g_push s) 0%N) ->
  (forall x, In x (g_pop s) -> In x (g_pop s')) ->
  holder_inv s' t p.
Proof.
  intros s s' t p H HE HD Hc HC Hp Hq.
  unfold holder_inv in *. destruct p; try contradiction; simpl in Hc;
    destruct (Hc _ eq_refl) as (L1 & L2 & L3 & L4); rewrite L1, L2, ?L3;
    pose proof (HC (valL (cellof pos))).
  - destruct H as (A & B & C & F & G & K). rewrite Hp by assumption.
    repeat split; try assumption; try lia. apply (vle_mono_r _ _ _ G), HC.
  - destruct H as (A & B & C & F & G). rewrite Hp by assumption. repeat split; try assumption; lia.
  - destruct H as (A & A' & B & C & F). repeat split; try assumption; lia.
  - destruct H as (A & A' & B & C & F & G & K & K1 & K2).
    repeat split; try assumption; try lia; auto. apply (vle_mono_r _ _ _ G), HC.
Qed.

Lemma done_inv_mono : forall s s' p,
  done_inv s p ->
  (forall q, q < length (g_push s) ->
     q < length (g_push s') /\ nth q (g_push s') 0%N = nth q (g_push s) 0%N) ->
  (forall x, In x (g_pop s) -> In x (g_pop s')) ->
  done_inv s' p.
Proof.
  intros s s' p H Hp Hq. destruct p; simpl in *; try exact Logic.I.
  - destruct H as [A B]. destruct (Hp pos A) as [A' B']. split; [assumption|congruence].
  - now apply Hq.
Qed.

(** ** Owners *)

Lemma owner_of : forall s t i, inv s -> holds (pcs s t) = Some i -> g_own s i = Some t.
Proof. intros s t i I H. now apply (i_owner s I). Qed.

Lemma holder_of : forall s t i, inv s -> i < cap -> holds (pcs s t) = Some i ->
  holder_inv s t (pcs s t).
Proof.
  intros s t i I Hi H. pose proof (i_cell s I i Hi) as C. unfold cell_inv in C.
  now rewrite (owner_of s t i I H) in C.
Qed.

Lemma other_owner : forall s t t' i i', inv s ->
  holds (pcs s t) = Some i -> g_own s i' = Some t' -> t' <> t -> i' <> i.
Proof.
  intros s t t' i i' I H Ho Hn ->. rewrite (owner_of s t i I H) in Ho. congruence.
Qed.

(** an owned cell belongs to a ticket that its sequence number identifies *)
Lemma owned_cell : forall s i t', inv s -> i < cap -> g_own s i = Some t' ->
  exists p, cellof p = i /\
    (Ls (ms s) i = 2 * lapof p /\ p < E (ms s) \/ Ls (ms s) i = 2 * lapof p + 1 /\ p < D (ms s)).
Proof.
  intros s i t' I Hi Ho. pose proof (i_cell s I i Hi) as C. unfold cell_inv in C. rewrite Ho in C.
  apply (i_owner s I) in Ho.
  destruct (pcs s t'); try contradiction; simpl in Ho; injection Ho as Hc; exists pos;
    (split; [exact Hc|]); simpl in C; rewrite Hc in C; tauto.
Qed.

(** taking, keeping and releasing a cell *)
Lemma owner_take : forall s t p' i0, inv s -> holds (pcs s t) = None ->
  g_own s i0 = None -> holds p' = Some i0 ->
  forall t0, holds (upd_pc (pcs s) t p' t0) = Some i0 <-> upd_cell (g_own s) i0 (Some t) i0 = Some t0.
Proof.
  intros s t p' i0 I Hh Ho Hp t0. rewrite upd_cell_same. destruct (Nat.eq_dec t0 t) as [->|N].
  - rewrite upd_pc_same. tauto.
  - rewrite upd_pc_other, (i_owner s I), Ho by assumption. split; congruence.
Qed.

Lemma owner_release : forall s t p' i0, inv s -> holds (pcs s t) = Some i0 -> holds p' = None ->
  forall t0, holds (upd_pc (pcs s) t p' t0) = Some i0 <-> upd_cell (g_own s) i0 None i0 = Some t0.
Proof.
  intros s t p' i0 I Hh Hp t0. rewrite upd_cell_same. destruct (Nat.eq_dec t0 t) as [->|N].
  - rewrite upd_pc_same, Hp. split; discriminate.
  - rewrite upd_pc_other, (i_owner s I), (owner_of s t i0 I Hh) by assumption. split; congruence.
Qed.

Lemma owner_keep : forall s t p' i, inv s -> holds p' = holds (pcs s t) ->
  forall t0, holds (upd_pc (pcs s) t p' t0) = Some i <-> g_own s i = Some t0.
Proof.
  intros s t p' i I Hh t0. rewrite <- (i_owner s I). destruct (Nat.eq_dec t0 t) as [->|N].
  - now rewrite upd_pc_same, Hh.
  - now rewrite upd_pc_other.
Qed.

(** ** The frame of a step

    Thread [t] moves to [p'], appending the messages [news] to location [l0], which is [enqL], [deqL]
    or a location of cell [i0]; of the ghost state it extends the histories and changes the owner and
    the reader view of cell [i0] at most.  Then everything the invariant says about the other cells,
    the other threads and the old messages carries over, and what remains to be shown is what it
    says about the new messages, the counters, cell [i0] and thread [t].  At the call sites [auto] closes
    the premises the step does not touch; each bullet is labelled with the premise it proves. *)
Lemma inv_frame : forall s s' t p' l0 news i0
  (I : inv s)
  (Wf' : wf (ms s')) (Mo : mono (ms s) (ms s')) (Ap : appends (ms s) (ms s') l0 news)
  (Hpcs : pcs s' = upd_pc (pcs s) t p')
  (Hl0 : l0 = enqL \/ l0 = deqL \/ l0 = seqL i0 \/ l0 = valL i0)
  (Hfr : forall i, i <> i0 ->
     holds (pcs s t) <> Some i /\ holds p' <> Some i /\
     g_own s' i = g_own s i /\ g_rview s' i = g_rview s i)
  (Hrv0 : g_rview s' i0 = g_rview s i0 \/ exists k, Ls (ms s') i0 = 2 * k + 1)
  (Hpush : forall q, q < length (g_push s) ->
     q < length (g_push s') /\ nth q (g_push s') 0%N = nth q (g_push s) 0%N)
  (Hpop : forall x, In x (g_pop s) -> In x (g_pop s'))
  (* the new message, by the kind of [l0]: a counter, the sequence, the value slot of cell [i0] *)
  (Ncnt : forall m, In m news -> l0 = enqL \/ l0 = deqL -> m_val m = N.of_nat (m_ts m))
  (Nseq : forall m k, In m news -> l0 = seqL i0 ->
     (m_ts m = 2 * k -> m_val m = N.of_nat (i0 + k * cap) /\ vle (g_rview s' i0) (m_view m)) /\
     (m_ts m = 2 * k + 1 -> m_val m = N.of_nat (i0 + k * cap + 1)) /\
     (2 * k <= m_ts m + 1 -> k <= m_view m (valL i0)))
  (Nval : forall m j, In m news -> l0 = valL i0 -> m_ts m = S j ->
     i0 + j * cap < length (g_push s') /\ m_val m = nth (i0 + j * cap) (g_push s') 0%N)
  (* the counters: a new ticket belongs to cell [i0] *)
  (Hlen : length (g_push s') = E (ms s'))
  (HE0 : E (ms s') = E (ms s) \/ E (ms s') = S (E (ms s)) /\ cellof (E (ms s)) = i0)
  (HD0 : D (ms s') = D (ms s) \/
     D (ms s') = S (D (ms s)) /\ cellof (D (ms s)) = i0 /\ qread_at s' (D (ms s)))
  (* cell [i0] *)
  (Hbnd : i0 < cap -> forall k,
     (2 * k + 1 <= Ls (ms s') i0 -> i0 + k * cap < E (ms s')) /\
     (2 * k + 2 <= Ls (ms s') i0 -> i0 + k * cap < D (ms s')) /\
     (i0 + k * cap < E (ms s') -> 2 * k <= Ls (ms s') i0) /\
     (i0 + k * cap < D (ms s') -> 2 * k + 1 <= Ls (ms s') i0))
  (Hown : forall t0, holds (pcs s' t0) = Some i0 <-> g_own s' i0 = Some t0)
  (Hcell : i0 < cap -> cell_inv s' i0)
  (* thread [t] *)
  (Hthr : thr_inv (ms s') (g_rview s') t p') (Hdone : done_inv s' p')
  (Hqs : forall p m, pcs s t = QStore p m -> pop_done s' p)
  (Hqr : forall p, pcs s t = QRead p -> In p (map fst (g_pop s')) \/ qread_at s' p)
  (* the new pops *)
  (Hpin : forall p v, In (p, v) (g_pop s') -> In (p, v) (g_pop s) \/
     p < D (ms s') /\ p < length (g_push s') /\ v = nth p (g_push s') 0%N /\ pop_done s' p)
  (Hnd : NoDup (map fst (g_pop s'))),
  inv s'.
Proof.
  intros.
  assert (Hl : forall i, i <> i0 -> l0 <> seqL i /\ l0 <> valL i).
  { clear - Hl0. intros i N. destruct Hl0 as [-> | [-> | [-> | ->]]]; loc_lia. }
  pose proof (mono_E _ _ Mo) as LE. pose proof (mono_D _ _ Mo) as LD.
  assert (HE : forall p, E (ms s) <= p < E (ms s') -> cellof p = i0).
  { intros p Hp. destruct HE0 as [X|[X Y]]; [lia|]. now replace p with (E (ms s)) by lia. }
  assert (HD : forall p, D (ms s) <= p < D (ms s') -> cellof p = i0 /\ qread_at s' p).
  { intros p Hp. destruct HD0 as [X|[X Y]]; [lia|]. now replace p with (D (ms s)) by lia. }
  assert (Hpc : forall t0, t0 <> t -> pcs s' t0 = pcs s t0)
    by (intros; rewrite Hpcs; now apply upd_pc_other).
  assert (Hpt : pcs s' t = p') by (rewrite Hpcs; apply upd_pc_same).
  assert (Hmem : forall i, i <> i0 -> memory (ms s') (seqL i) = memory (ms s) (seqL i) /\
                                       memory (ms s') (valL i) = memory (ms s) (valL i)).
  { intros i N. destruct (Hl i N) as (A & B). destruct Ap as [_ O]. split; apply O; congruence. }
  assert (New : forall i m, In m (memory (ms s') (seqL i)) ->
            In m (memory (ms s) (seqL i)) \/ (i = i0 /\ l0 = seqL i0 /\ In m news)).
  { intros i m H. destruct (appends_in _ _ _ _ _ _ Ap H) as [H0|[E0 H0]]; [now left|right].
    destruct (Nat.eq_dec i i0) as [->|N]; [auto|]. destruct (Hl i N) as (A & _). congruence. }
  assert (Own : forall t0 i, holds (pcs s' t0) = Some i <-> g_own s' i = Some t0).
  { intros t0 i. destruct (Nat.eq_dec i i0) as [->|N]; [apply Hown|].
    destruct (Hfr i N) as (A & B & -> & _). rewrite <- (i_owner s I).
    destruct (Nat.eq_dec t0 t) as [->|Nt]; [rewrite Hpt; split; intros X; contradiction|now rewrite Hpc]. }
  (* another thread keeps the cell it owns *)
  assert (Keep : forall i t', g_own s i = Some t' -> t' <> t ->
            g_own s' i = Some t' /\ pcs s' t' = pcs s t').
  { intros i t' Ho Nt. split; [|now apply Hpc]. apply Own. rewrite Hpc by assumption.
    now apply (i_owner s I). }
  constructor.
  - exact Wf'.
  - intros m H. destruct (appends_in _ _ _ _ _ _ Ap H) as [H0|[E0 H0]]; [now apply (i_enq_val s I)|auto].
  - intros m H. destruct (appends_in _ _ _ _ _ _ Ap H) as [H0|[E0 H0]]; [now apply (i_deq_val s I)|auto].
  - intros i m k Hi H. destruct (New i m H) as [H0|(-> & E0 & H0)]; [now apply (i_seq_val s I)|].
    destruct (Nseq m k H0 E0) as (A & B & _). split; [intros X; apply A, X|exact B].
  - intros i m k Hi H. destruct (New i m H) as [H0|(-> & E0 & H0)]; [now apply (i_seq_view s I)|].
    apply (Nseq m k H0 E0).
  - intros i m k Hi H Hk HL. destruct (New i m H) as [H0|(-> & E0 & H0)]; [|now apply (Nseq m k H0 E0)].
    (* an old message that is still the last one *)
    assert (HL0 : Ls (ms s) i = 2 * k).
    { pose proof (wf_in_ts _ _ _ (i_wf s I) H0). pose proof (mono_Ls _ _ i Mo). unfold Ls in *. lia. }
    assert (R : g_rview s' i = g_rview s i).
    { destruct (Nat.eq_dec i i0) as [->|N]; [destruct Hrv0 as [R|[k' R]]; [exact R|lia]|apply Hfr, N]. }
    rewrite R. now apply (i_seq_rview s I i m k).
  - intros i m j Hi H Hj. destruct (appends_in _ _ _ _ _ _ Ap H) as [H0|[E0 H0]].
    + destruct (i_val_val s I i m j Hi H0 Hj) as [A B]. destruct (Hpush _ A) as [A' B'].
      split; [assumption|congruence].
    + destruct (Nat.eq_dec i i0) as [->|N]; [now apply Nval|].
      destruct (Hl i N) as (_ & A). congruence.
  - exact Hlen.
  - intros i k Hi. destruct (Nat.eq_dec i i0) as [->|N]; [now apply Hbnd|].
    destruct (Hmem i N) as [Es _]. unfold Ls. rewrite Es. fold (Ls (ms s) i).
    destruct (i_bounds s I i k Hi) as (A & B & C & F).
    pose proof (proj1 (cell_lap_of cap i k Hi)) as X.
    split; [intros H; specialize (A H); lia|]. split; [intros H; specialize (B H); lia|].
    split; intros H.
    + destruct (Nat.lt_ge_cases (i + k * cap) (E (ms s))) as [L|L]; [now apply C|].
      rewrite (HE _ (conj L H)) in X. congruence.
    + destruct (Nat.lt_ge_cases (i + k * cap) (D (ms s))) as [L|L]; [now apply F|].
      rewrite (proj1 (HD _ (conj L H))) in X. congruence.
  - exact Own.
  - intros i Hi. destruct (Nat.eq_dec i i0) as [->|N]; [now apply Hcell|].
    pose proof (i_cell s I i Hi) as C. unfold cell_inv in *.
    destruct (Hfr i N) as (Nh & _ & -> & Rv). destruct (Hmem i N) as [Es Ev].
    destruct (g_own s i) as [t'|] eqn:Eo.
    + assert (Nt : t' <> t) by (intros ->; now apply (i_owner s I) in Eo).
      rewrite Hpc by assumption.
      apply (holder_inv_frame s); [exact C|exact LE|exact LD| |intros; apply (mono_cur _ _ Mo)| |exact Hpop].
      * intros i' Hi'. assert (i' = i) by (apply (i_owner s I) in Eo; congruence). subst i'.
        unfold Ls, Lv. rewrite Es, Ev, Rv. auto.
      * intros q Hq. apply Hpush. now rewrite (i_push_len s I).
    + intros k. pose proof (proj1 (cell_lap_of cap i k Hi)) as X.
      unfold Ls, Lv. rewrite Es, Ev. fold (Ls (ms s) i) (Lv (ms s) i).
      destruct (C k) as [C1 C2]. split; intros H.
      * destruct (C1 H) as [C3 C4]. split; [|assumption].
        destruct (Nat.le_gt_cases (E (ms s')) (i + k * cap)) as [L|L]; [assumption|].
        rewrite (HE _ (conj C3 L)) in X. congruence.
      * destruct (C2 H) as [C3 C4]. split; [|assumption].
        destruct (Nat.le_gt_cases (D (ms s')) (i + k * cap)) as [L|L]; [assumption|].
        rewrite (proj1 (HD _ (conj C3 L))) in X. congruence.
  - intros p v H. destruct (Hpin p v H) as [H0|H0]; [|exact H0].
    destruct (i_pop_in s I p v H0) as (A & B & C & F). destruct (Hpush _ B) as [B1 B2].
    split; [lia|]. split; [assumption|]. split; [congruence|].
    destruct F as [F|F]; [left; pose proof (mono_Ls _ _ (cellof p) Mo); lia|].
    unfold qstore_at in F. destruct (g_own s (cellof p)) as [t'|] eqn:Eo; [|contradiction].
    destruct (pcs s t') eqn:Ep; try contradiction. subst pos.
    destruct (Nat.eq_dec t' t) as [->|Nt]; [now apply (Hqs p m)|].
    right. unfold qstore_at. destruct (Keep _ _ Eo Nt) as [-> ->]. now rewrite Ep.
  - exact Hnd.
  - intros p Hp. destruct (Nat.lt_ge_cases p (D (ms s))) as [L|L]; [|right; now apply HD].
    destruct (i_pop_all s I p L) as [A|A].
    + left. apply in_map_iff in A. destruct A as (x & Ex & Hx). apply in_map_iff. exists x. auto.
    + unfold qread_at in A. destruct (g_own s (cellof p)) as [t'|] eqn:Eo; [|contradiction].
      destruct (Nat.eq_dec t' t) as [->|Nt]; [now apply Hqr|].
      right. unfold qread_at. destruct (Keep _ _ Eo Nt) as [-> ->]. exact A.
  - intros t0. destruct (Nat.eq_dec t0 t) as [->|Nt]; [now rewrite Hpt|].
    rewrite Hpc by assumption. apply (done_inv_mono s); [apply (i_done s I)|exact Hpush|exact Hpop].
  - intros t0. destruct (Nat.eq_dec t0 t) as [->|Nt]; [now rewrite Hpt|].
    rewrite Hpc by assumption. apply (thr_inv_rv _ (g_rview s)).
    + intros i. destruct (Nat.eq_dec i i0) as [->|N]; [exact Hrv0|left; apply Hfr, N].
    + apply (thr_inv_mono (ms s)); [assumption|apply (i_thr s I)].
Qed.

Lemma idle_holds : forall p, is_idle p = true -> holds p = None.
Proof. destruct p; simpl; congruence. Qed.

(** ** Reading the messages of a cell sequence: the value determines the timestamp, and a smaller
    value is an older message *)
Lemma seq_val_ts : forall s i m k, inv s -> i < cap -> In m (memory (ms s) (seqL i)) ->
  (m_val m = N.of_nat (i + k * cap) -> m_ts m = 2 * k) /\
  (m_val m = N.of_nat (i + k * cap + 1) -> m_ts m = 2 * k + 1) /\
  ((m_val m < N.of_nat (i + k * cap))%N -> m_ts m < 2 * k) /\
  ((m_val m < N.of_nat (i + k * cap + 1))%N -> m_ts m <= 2 * k).
Proof.
  intros s i m k I Hi Hin.
  assert (V : exists k', m_ts m = 2 * k' /\ m_val m = N.of_nat (i + k' * cap) \/
                         m_ts m = 2 * k' + 1 /\ m_val m = N.of_nat (i + k' * cap + 1)).
  { destruct (Nat.Even_or_Odd (m_ts m)) as [[k' Hk]|[k' Hk]]; exists k';
      [left|right]; (split; [exact Hk|]); now apply (i_seq_val s I i m k' Hi Hin). }
  destruct V as (k' & [[-> ->]|[-> ->]]); repeat split; intros H; nia.
Qed.

(** ** The conditions on the orders, unpacked *)

Definition ok_orders : Prop :=
  is_acq (o_pop_seq_load o) = true /\ is_rel (o_push_seq_store o) = true /\
  is_acq (o_push_seq_load o) = true /\ is_rel (o_pop_seq_store o) = true.

Lemma orders_ok_spec : orders_ok o = true -> ok_orders.
Proof.
  unfold orders_ok, orders_ok_mp, orders_ok_reuse, ok_orders. rewrite !andb_true_iff. tauto.
Qed.

(** ** The steps that change neither the memory nor the ghost state (all loads except the pop's read) *)

Lemma load_quiet : forall s t l od m M' p',
  inv s -> holds (pcs s t) = None -> holds p' = None ->
  step (ms s) t (LLoad l od m) M' ->
  thr_inv M' (g_rview s) t p' -> done_inv s p' ->
  inv (set_pc s M' t p').
Proof.
  intros s t l od m M' p' I Hh Hh' St Ht Hd.
  destruct (load_facts _ _ _ _ _ _ (i_wf s I) St) as (Wf' & Mo & Hm & _).
  (* no cell is touched: [cap] is not a cell *)
  apply (inv_frame s _ t p' enqL [] cap); cbn [set_pc ms pcs g_push g_pop g_own g_rview];
    unfold E, D; rewrite ?Hm; auto; try (intros; lia).
  - (* Ap *) now apply load_appends.
  - (* Hfr *) intros i N. rewrite Hh, Hh'. repeat split; discriminate.
  - (* Ncnt *) intros ? [].
  - (* Nseq *) intros ? ? [].
  - (* Nval *) intros ? ? [].
  - (* Hlen *) apply (i_push_len s I).
  - (* Hown *) apply owner_keep; [assumption|congruence].
  - (* Hqs *) intros p m0 X. rewrite X in Hh. discriminate.
  - (* Hqr *) intros p X. rewrite X in Hh. discriminate.
  - (* Hnd *) apply (i_pop_nodup s I).
Qed.

Lemma enq_read : forall s m, inv s -> In m (memory (ms s) enqL) ->
  N.to_nat (m_val m) = m_ts m /\ m_ts m <= E (ms s).
Proof.
  intros s m I Hin. rewrite (i_enq_val s I m Hin), Nat2N.id. split; [reflexivity|].
  apply wf_in_ts; [apply (i_wf s I)|assumption].
Qed.

Lemma deq_read : forall s m, inv s -> In m (memory (ms s) deqL) ->
  N.to_nat (m_val m) = m_ts m /\ m_ts m <= D (ms s).
Proof.
  intros s m I Hin. rewrite (i_deq_val s I m Hin), Nat2N.id. split; [reflexivity|].
  apply wf_in_ts; [apply (i_wf s I)|assumption].
Qed.

(** a load of enqueue_pos that sets [pos] (252, 258 failure, 266, 268 with pos2 != pos) *)
Lemma step_to_pseq : forall s t od m M' w v,
  inv s -> holds (pcs s t) = None ->
  step (ms s) t (LLoad enqL od m) M' ->
  inv (set_pc s M' t (PSeq w v (N.to_nat (m_val m)))).
Proof.
  intros s t od m M' w v I Hh St.
  destruct (load_facts _ _ _ _ _ _ (i_wf s I) St) as (Wf' & Mo & Hm & Hin & _).
  eapply load_quiet; try eassumption; try reflexivity.
  simpl. destruct (enq_read s m I Hin) as [-> H]. unfold E in *. now rewrite Hm.
Qed.

Lemma step_to_qseq : forall s t od m M' w,
  inv s -> holds (pcs s t) = None ->
  step (ms s) t (LLoad deqL od m) M' ->
  inv (set_pc s M' t (QSeq w (N.to_nat (m_val m)))).
Proof.
  intros s t od m M' w I Hh St.
  destruct (load_facts _ _ _ _ _ _ (i_wf s I) St) as (Wf' & Mo & Hm & Hin & _).
  eapply load_quiet; try eassumption; try reflexivity.
  simpl. destruct (deq_read s m I Hin) as [-> H]. unfold D in *. now rewrite Hm.
Qed.

(** 256: the acquire load of the cell sequence in try_push (3) *)
Lemma step_push_seq : forall s t w v pos m M',
  ok_orders -> inv s -> pcs s t = PSeq w v pos ->
  step (ms s) t (LLoad (seqL (cellof pos)) (o_push_seq_load o) m) M' ->
  inv (set_pc s M' t (after_pseq w v pos m)).
Proof.
  intros s t w v pos m M' Ok I Hpc St.
  destruct (load_facts _ _ _ _ _ _ (i_wf s I) St) as (Wf' & Mo & Hm & Hin & _).
  pose proof (i_thr s I t) as T. rewrite Hpc in T. simpl in T.
  assert (Hi : cellof pos < cap) by (apply cellof_lt, cap_pos).
  assert (HE : pos <= E M') by (unfold E in *; now rewrite Hm).
  eapply load_quiet; try eassumption.
  - now rewrite Hpc.
  - unfold after_pseq. destruct (N.eqb _ _); [reflexivity|].
    destruct w; [destruct (N.ltb _ _)|]; reflexivity.
  - unfold after_pseq. destruct (N.eqb_spec (m_val m) (N.of_nat pos)) as [Ev|Nv].
    + (* seq == pos *)
      rewrite (pos_decomp cap pos cap_pos) in Ev at 1.
      pose proof (proj1 (seq_val_ts s _ m _ I Hi Hin) Ev) as Hts.
      pose proof (wf_in_ts _ _ _ (i_wf s I) Hin) as Hle.
      destruct Ok as (_ & _ & Oa & _).
      pose proof (acquire_load_view _ _ _ _ _ _ St Oa) as AV.
      simpl. unfold Ls. rewrite Hm. fold (Ls (ms s) (cellof pos)).
      split; [assumption|]. split; [unfold Ls; lia|]. split.
      * assert (Hk : 2 * lapof pos <= m_ts m + 1) by lia.
        pose proof (i_seq_view s I _ m _ Hi Hin Hk). specialize (AV (valL (cellof pos))). lia.
      * intros HL. apply (vle_mono_r _ (m_view m)); [|exact AV].
        apply (i_seq_rview s I _ m (lapof pos)); assumption.
    + destruct w.
      * destruct (N.ltb_spec (m_val m) (N.of_nat pos)); simpl; [|exact Logic.I].
        rewrite Hm. auto.
      * simpl. rewrite Hm. auto.
  - unfold after_pseq. destruct (N.eqb _ _); [exact Logic.I|].
    destruct w; [destruct (N.ltb _ _)|]; exact Logic.I.
Qed.

(** 289: the acquire load of the cell sequence in try_pop (1) *)
Lemma step_pop_seq : forall s t w pos m M',
  ok_orders -> inv s -> pcs s t = QSeq w pos ->
  step (ms s) t (LLoad (seqL (cellof pos)) (o_pop_seq_load o) m) M' ->
  inv (set_pc s M' t (after_qseq w pos m)).
Proof.
  intros s t w pos m M' Ok I Hpc St.
  destruct (load_facts _ _ _ _ _ _ (i_wf s I) St) as (Wf' & Mo & Hm & Hin & _).
  pose proof (i_thr s I t) as T. rewrite Hpc in T. simpl in T.
  assert (Hi : cellof pos < cap) by (apply cellof_lt, cap_pos).
  assert (HD : pos <= D M') by (unfold D in *; now rewrite Hm).
  eapply load_quiet; try eassumption.
  - now rewrite Hpc.
  - unfold after_qseq. destruct (N.eqb _ _); [reflexivity|].
    destruct w; [destruct (N.ltb _ _)|]; reflexivity.
  - unfold after_qseq. destruct (N.eqb_spec (m_val m) (N.of_nat (pos + 1))) as [Ev|Nv].
    + rewrite (pos_decomp cap pos cap_pos) in Ev at 1.
      pose proof (proj1 (proj2 (seq_val_ts s _ m _ I Hi Hin)) Ev) as Hts.
      pose proof (wf_in_ts _ _ _ (i_wf s I) Hin) as Hle.
      destruct Ok as (Oa & _).
      pose proof (acquire_load_view _ _ _ _ _ _ St Oa) as AV.
      simpl. unfold Ls. rewrite Hm.
      split; [assumption|]. split; [lia|].
      assert (Hk : 2 * (lapof pos + 1) <= m_ts m + 1) by lia.
      pose proof (i_seq_view s I _ m _ Hi Hin Hk). specialize (AV (valL (cellof pos))). lia.
    + destruct w.
      * destruct (N.ltb_spec (m_val m) (N.of_nat (pos + 1))); simpl; [|exact Logic.I].
        rewrite Hm. auto.
      * simpl. rewrite Hm. auto.
  - unfold after_qseq. destruct (N.eqb _ _); [exact Logic.I|].
    destruct w; [destruct (N.ltb _ _)|]; exact Logic.I.
Qed.

(** 268 / 269 / 302 / 303 *)
Lemma step_push_enq2 : forall s t v pos mq m M',
  inv s -> pcs s t = PEnq2 v pos mq ->
  step (ms s) t (LLoad enqL (o_push_enq_reload o) m) M' ->
  inv (set_pc s M' t (if N.eqb (m_val m) (N.of_nat pos) then PDeq v pos mq
                      else PSeq false v (N.to_nat (m_val m)))).
Proof.
  intros s t v pos mq m M' I Hpc St.
  destruct (N.eqb (m_val m) (N.of_nat pos)).
  - destruct (load_facts _ _ _ _ _ _ (i_wf s I) St) as (Wf' & Mo & Hm & Hin & _).
    pose proof (i_thr s I t) as T. rewrite Hpc in T.
    eapply load_quiet; try eassumption; try reflexivity; [now rewrite Hpc|].
    apply (thr_inv_mono (ms s)); assumption.
  - eapply step_to_pseq; [assumption|now rewrite Hpc|eassumption].
Qed.

Lemma step_push_deq : forall s t v pos mq m M',
  inv s -> pcs s t = PDeq v pos mq ->
  step (ms s) t (LLoad deqL (o_push_deq_load o) m) M' ->
  inv (set_pc s M' t (if N.eqb (m_val m + N.of_nat cap) (N.of_nat pos) then PFull false pos mq (Some m)
                      else PSeq false v pos)).
Proof.
  intros s t v pos mq m M' I Hpc St.
  destruct (load_facts _ _ _ _ _ _ (i_wf s I) St) as (Wf' & Mo & Hm & Hin & _).
  pose proof (i_thr s I t) as T. rewrite Hpc in T.
  pose proof (thr_inv_mono _ _ _ _ _ Mo T) as T'. simpl in T'. destruct T' as (A & B & C).
  eapply load_quiet; try eassumption.
  - now rewrite Hpc.
  - destruct (N.eqb _ _); reflexivity.
  - destruct (N.eqb_spec (m_val m + N.of_nat cap) (N.of_nat pos)) as [Ev|Nv]; simpl.
    + rewrite <- Hm in Hin. auto 8.
    + assumption.
  - destruct (N.eqb _ _); exact Logic.I.
Qed.

Lemma step_pop_deq2 : forall s t pos mq m M',
  inv s -> pcs s t = QDeq2 pos mq ->
  step (ms s) t (LLoad deqL (o_pop_deq_reload o) m) M' ->
  inv (set_pc s M' t (if N.eqb (m_val m) (N.of_nat pos) then QEnq pos mq
                      else QSeq false (N.to_nat (m_val m)))).
Proof.
  intros s t pos mq m M' I Hpc St.
  destruct (N.eqb (m_val m) (N.of_nat pos)).
  - destruct (load_facts _ _ _ _ _ _ (i_wf s I) St) as (Wf' & Mo & Hm & Hin & _).
    pose proof (i_thr s I t) as T. rewrite Hpc in T.
    eapply load_quiet; try eassumption; try reflexivity; [now rewrite Hpc|].
    apply (thr_inv_mono (ms s)); assumption.
  - eapply step_to_qseq; [assumption|now rewrite Hpc|eassumption].
Qed.

Lemma step_pop_enq : forall s t pos mq m M',
  inv s -> pcs s t = QEnq pos mq ->
  step (ms s) t (LLoad enqL (o_pop_enq_load o) m) M' ->
  inv (set_pc s M' t (if N.eqb (m_val m) (N.of_nat pos) then QEmpty false pos mq (Some m)
                      else QSeq false pos)).
Proof.
  intros s t pos mq m M' I Hpc St.
  destruct (load_facts _ _ _ _ _ _ (i_wf s I) St) as (Wf' & Mo & Hm & Hin & _).
  pose proof (i_thr s I t) as T. rewrite Hpc in T.
  pose proof (thr_inv_mono _ _ _ _ _ Mo T) as T'. simpl in T'. destruct T' as (A & B & C).
  eapply load_quiet; try eassumption.
  - now rewrite Hpc.
  - destruct (N.eqb _ _); reflexivity.
  - destruct (N.eqb_spec (m_val m) (N.of_nat pos)) as [Ev|Nv]; simpl.
    + rewrite <- Hm in Hin. auto 8.
    + assumption.
  - destruct (N.eqb _ _); exact Logic.I.
Qed.

(** ** The steps that write *)

(** 258: the successful CAS on enqueue_pos: the thread becomes the owner of the cell *)
Lemma step_push_cas_ok : forall s t w v pos M',
  inv s -> pcs s t = PCas w v pos ->
  m_val (last_msg (memory (ms s) enqL)) = N.of_nat pos ->
  step (ms s) t (LRmw enqL (o_push_cas o) (N.of_nat (pos + 1))) M' ->
  inv {| ms := M'; pcs := upd_pc (pcs s) t (PWrite v pos);
         g_push := g_push s ++ [v]; g_pop := g_pop s;
         g_own := upd_cell (g_own s) (cellof pos) (Some t); g_rview := g_rview s |}.
Proof.
  intros s t w v pos M' I Hpc Hq St.
  pose proof (i_wf s I) as Wf.
  destruct (rmw_facts _ _ _ _ _ _ Wf St) as (Wf' & Mo & mk & Ap & Hts & Hv).
  pose proof Ap as [Em Hoth].
  pose proof (cellof_lt cap pos cap_pos) as Hi0.
  pose proof (pos_decomp cap pos cap_pos) as Hpos.
  pose proof (i_thr s I t) as T. rewrite Hpc in T. simpl in T. destruct T as (T1 & T2 & T3 & T4).
  set (i0 := cellof pos) in *. set (k0 := lapof pos) in *.
  assert (Hh : holds (pcs s t) = None) by now rewrite Hpc.
  assert (HEp : E (ms s) = pos).
  { pose proof (i_enq_val s I _ (wf_last_in _ enqL Wf)) as V. rewrite Hq in V.
    apply Nat2N.inj in V. unfold E, last_ts. now rewrite <- V. }
  assert (HE' : E M' = S (E (ms s))) by (unfold E; rewrite Em, last_ts_app, Hts; reflexivity).
  destruct (appends_enq _ _ _ Ap) as (HD' & HLs' & HLv').
  assert (HLs0 : Ls (ms s) i0 = 2 * k0).
  { destruct (i_bounds s I i0 k0 Hi0) as (A & _).
    destruct (Nat.le_gt_cases (2 * k0 + 1) (Ls (ms s) i0)) as [L|L]; [specialize (A L)|]; lia. }
  assert (Hown0 : g_own s i0 = None).
  { destruct (g_own s i0) as [t'|] eqn:Eo; [exfalso|reflexivity].
    destruct (owned_cell s i0 t' I Hi0 Eo) as (p & Ec & [[A B]|[A B]]); [|lia].
    pose proof (pos_decomp cap p cap_pos). assert (lapof p = k0) by lia. lia. }
  assert (Hlen : length (g_push s) = pos) by (rewrite (i_push_len s I); exact HEp).
  apply (inv_frame s _ t (PWrite v pos) enqL [mk] i0); cbn [ms pcs g_push g_pop g_own g_rview]; auto.
  - (* Hfr *) intros i N. rewrite Hpc, upd_cell_other by assumption. simpl. fold i0.
    repeat split; congruence.
  - (* Hpush *) intros q Hq'. rewrite app_length. split; [lia|now apply app_nth1].
  - (* Ncnt *) intros m [<-|[]] _. rewrite Hv, Hts. fold (E (ms s)). rewrite HEp. f_equal. lia.
  - (* Nseq *) intros m k _ X. discriminate X.
  - (* Nval *) intros m j _ X. discriminate X.
  - (* Hlen *) rewrite app_length, HE', (i_push_len s I). simpl. lia.
  - (* HE0 *) right. split; [exact HE'|now rewrite HEp].
  - (* Hbnd *) intros _ k. rewrite HE', HD', HLs'. destruct (i_bounds s I i0 k Hi0) as (A & B & C & F).
    split; [intros H; specialize (A H); lia|]. split; [assumption|]. split; [|assumption].
    intros H. destruct (Nat.eq_dec (i0 + k * cap) pos) as [Ep|Np]; [|apply C; lia].
    rewrite Hpos in Ep. destruct (decomp_unique cap i0 k i0 k0 Hi0 Hi0 Ep) as [_ ->]. exact T2.
  - (* Hown *) now apply owner_take.
  - (* Hcell *) intros _. unfold cell_inv. cbn [ms pcs g_push g_pop g_own g_rview].
    rewrite upd_cell_same, upd_pc_same. simpl. fold i0 k0. rewrite HE', HLs', HLv'.
    pose proof (i_cell s I i0 Hi0) as C. unfold cell_inv in C. rewrite Hown0 in C.
    destruct (C k0) as [[_ C2] _]; [assumption|].
    pose proof (mono_cur _ _ Mo t) as HC.
    split; [lia|]. split; [assumption|]. split; [assumption|].
    split; [specialize (HC (valL i0)); lia|].
    split; [apply (vle_mono_r _ _ _ (T4 HLs0)), HC|].
    rewrite <- Hlen, app_nth2, Nat.sub_diag by lia. reflexivity.
  - (* Hthr *) exact Logic.I.
  - (* Hdone *) exact Logic.I.
  - (* Hqs *) intros p m X. congruence.
  - (* Hqr *) intros p X. congruence.
  - (* Hnd *) apply (i_pop_nodup s I).
Qed.

(** 276: the plain write of the element *)
Lemma step_push_write : forall s t v pos M',
  inv s -> pcs s t = PWrite v pos ->
  step (ms s) t (LStore (valL (cellof pos)) Rlx v) M' ->
  inv (set_pc s M' t (PStore v pos)).
Proof.
  intros s t v pos M' I Hpc St.
  pose proof (i_wf s I) as Wf.
  destruct (store_facts _ _ _ _ _ _ Wf St) as (Wf' & Mo & mk & Ap & Hts & Hv & Hcur & _).
  pose proof Ap as [Em Hoth].
  pose proof (cellof_lt cap pos cap_pos) as Hi0.
  pose proof (pos_decomp cap pos cap_pos) as Hpos.
  assert (Hh : holds (pcs s t) = Some (cellof pos)) by now rewrite Hpc.
  pose proof (holder_of s t _ I Hi0 Hh) as H. rewrite Hpc in H. simpl in H.
  destruct H as (A & B & C & F & G & K).
  set (i0 := cellof pos) in *. set (k0 := lapof pos) in *.
  destruct (appends_val _ _ _ _ Ap) as (HE' & HD' & HLs').
  assert (HLv0 : Lv M' i0 = k0 + 1).
  { unfold Lv. rewrite Em, last_ts_app, Hts. fold (Lv (ms s) i0). lia. }
  apply (inv_frame s _ t (PStore v pos) (valL i0) [mk] i0);
    cbn [set_pc ms pcs g_push g_pop g_own g_rview]; auto.
  - (* Hfr *) intros i N. rewrite Hpc. simpl. fold i0. repeat split; congruence.
  - (* Ncnt *) intros m _ [X|X]; discriminate X.
  - (* Nseq *) intros m k _ X. symmetry in X. now apply seqL_valL in X.
  - (* Nval *) intros m j [<-|[]] _ Hj. assert (j = k0) by (fold (Lv (ms s) i0) in Hts; lia). subst j.
    rewrite <- Hpos, Hv, (i_push_len s I). split; [assumption|now symmetry].
  - (* Hlen *) rewrite HE'. apply (i_push_len s I).
  - (* Hbnd *) intros _ k. rewrite HE', HD', HLs'. now apply (i_bounds s I).
  - (* Hown *) apply owner_keep; [assumption|now rewrite Hpc].
  - (* Hcell *) intros _. unfold cell_inv. cbn [set_pc ms pcs g_push g_pop g_own g_rview].
    rewrite (owner_of s t i0 I Hh), upd_pc_same. simpl. fold i0 k0. rewrite HE', HLs', HLv0.
    repeat (split; [assumption || reflexivity|]). split; [|assumption].
    rewrite Hcur, Hts. fold (Lv (ms s) i0). lia.
  - (* Hthr *) exact Logic.I.
  - (* Hdone *) exact Logic.I.
  - (* Hqs *) intros p m X. congruence.
  - (* Hqr *) intros p X. congruence.
  - (* Hnd *) apply (i_pop_nodup s I).
Qed.

(** 278: the release store of the cell sequence in try_push (4): publishes the element *)
Lemma step_push_store : forall s t v pos M',
  ok_orders -> inv s -> pcs s t = PStore v pos ->
  step (ms s) t (LStore (seqL (cellof pos)) (o_push_seq_store o) (N.of_nat (pos + 1))) M' ->
  inv {| ms := M'; pcs := upd_pc (pcs s) t (PDone v pos);
         g_push := g_push s; g_pop := g_pop s;
         g_own := upd_cell (g_own s) (cellof pos) None; g_rview := g_rview s |}.
Proof.
  intros s t v pos M' Ok I Hpc St.
  pose proof (i_wf s I) as Wf.
  destruct (store_facts _ _ _ _ _ _ Wf St) as (Wf' & Mo & mk & Ap & Hts & Hv & Hcur & Hrel).
  pose proof Ap as [Em Hoth].
  destruct Ok as (_ & Orel & _). specialize (Hrel Orel).
  pose proof (cellof_lt cap pos cap_pos) as Hi0.
  pose proof (pos_decomp cap pos cap_pos) as Hpos.
  assert (Hh : holds (pcs s t) = Some (cellof pos)) by now rewrite Hpc.
  pose proof (holder_of s t _ I Hi0 Hh) as H. rewrite Hpc in H. simpl in H.
  destruct H as (A & B & C & F & K).
  set (i0 := cellof pos) in *. set (k0 := lapof pos) in *.
  destruct (appends_seq _ _ _ _ Ap) as (HE' & HD' & HLv').
  assert (Htk : m_ts mk = 2 * k0 + 1) by (fold (Ls (ms s) i0) in Hts; lia).
  assert (HLs0 : Ls M' i0 = 2 * k0 + 1) by (unfold Ls; rewrite Em, last_ts_app; exact Htk).
  apply (inv_frame s _ t (PDone v pos) (seqL i0) [mk] i0); cbn [ms pcs g_push g_pop g_own g_rview]; auto.
  - (* Hfr *) intros i N. rewrite Hpc, upd_cell_other by assumption. simpl. fold i0.
    repeat split; congruence.
  - (* Ncnt *) intros m _ [X|X]; discriminate X.
  - (* Nseq *) intros m k [<-|[]] _. rewrite Htk, Hv. split; [intros; lia|]. split.
    + intros Hk. assert (k = k0) by lia. subst k. f_equal. lia.
    + intros Hk. specialize (Hrel (valL i0)). lia.
  - (* Nval *) intros m j _ X. now apply seqL_valL in X.
  - (* Hlen *) rewrite HE'. apply (i_push_len s I).
  - (* Hbnd *) intros _ k. rewrite HE', HD', HLs0. destruct (i_bounds s I i0 k Hi0) as (A1 & B1 & C1 & F1).
    split.
    + intros Hk. destruct (Nat.eq_dec k k0) as [->|Nk]; [lia|]. apply A1. lia.
    + split; [intros Hk; apply B1; lia|].
      split; intros Hk; [specialize (C1 Hk)|specialize (F1 Hk)]; lia.
  - (* Hown *) now apply owner_release.
  - (* Hcell *) intros _. unfold cell_inv. cbn [ms g_own]. rewrite upd_cell_same. intros k.
    rewrite HLs0, HD', HLv'. split; [lia|].
    intros Hk. assert (k = k0) by lia. subst k. split; [|assumption].
    destruct (i_bounds s I i0 k0 Hi0) as (_ & _ & _ & F1).
    destruct (Nat.le_gt_cases (D (ms s)) (i0 + k0 * cap)) as [L|L]; [assumption|].
    specialize (F1 L). lia.
  - (* Hthr *) exact Logic.I.
  - (* Hdone *) simpl. rewrite (i_push_len s I). auto.
  - (* Hqs *) intros p m X. congruence.
  - (* Hqr *) intros p X. congruence.
  - (* Hnd *) apply (i_pop_nodup s I).
Qed.

(** 292: the successful CAS on dequeue_pos *)
Lemma step_pop_cas_ok : forall s t w pos M',
  inv s -> pcs s t = QCas w pos ->
  m_val (last_msg (memory (ms s) deqL)) = N.of_nat pos ->
  step (ms s) t (LRmw deqL (o_pop_cas o) (N.of_nat (pos + 1))) M' ->
  inv {| ms := M'; pcs := upd_pc (pcs s) t (QRead pos);
         g_push := g_push s; g_pop := g_pop s;
         g_own := upd_cell (g_own s) (cellof pos) (Some t); g_rview := g_rview s |}.
Proof.
  intros s t w pos M' I Hpc Hq St.
  pose proof (i_wf s I) as Wf.
  destruct (rmw_facts _ _ _ _ _ _ Wf St) as (Wf' & Mo & mk & Ap & Hts & Hv).
  pose proof Ap as [Em Hoth].
  pose proof (cellof_lt cap pos cap_pos) as Hi0.
  pose proof (pos_decomp cap pos cap_pos) as Hpos.
  pose proof (i_thr s I t) as T. rewrite Hpc in T. simpl in T. destruct T as (T1 & T2 & T3).
  set (i0 := cellof pos) in *. set (k0 := lapof pos) in *.
  assert (Hh : holds (pcs s t) = None) by now rewrite Hpc.
  assert (HDp : D (ms s) = pos).
  { pose proof (i_deq_val s I _ (wf_last_in _ deqL Wf)) as V. rewrite Hq in V.
    apply Nat2N.inj in V. unfold D, last_ts. now rewrite <- V. }
  assert (HD' : D M' = S (D (ms s))) by (unfold D; rewrite Em, last_ts_app, Hts; reflexivity).
  destruct (appends_deq _ _ _ Ap) as (HE' & HLs' & HLv').
  assert (HLs0 : Ls (ms s) i0 = 2 * k0 + 1).
  { destruct (i_bounds s I i0 k0 Hi0) as (_ & B & _).
    destruct (Nat.le_gt_cases (2 * k0 + 2) (Ls (ms s) i0)) as [L|L]; [specialize (B L)|]; lia. }
  assert (HposE : pos < E (ms s)).
  { destruct (i_bounds s I i0 k0 Hi0) as (A & _). rewrite Hpos. apply A. lia. }
  assert (Hown0 : g_own s i0 = None).
  { destruct (g_own s i0) as [t'|] eqn:Eo; [exfalso|reflexivity].
    destruct (owned_cell s i0 t' I Hi0 Eo) as (p & Ec & [[A B]|[A B]]); [lia|].
    pose proof (pos_decomp cap p cap_pos). assert (lapof p = k0) by lia. lia. }
  assert (Hrd : qread_at {| ms := M'; pcs := upd_pc (pcs s) t (QRead pos);
                            g_push := g_push s; g_pop := g_pop s;
                            g_own := upd_cell (g_own s) i0 (Some t); g_rview := g_rview s |} pos).
  { unfold qread_at. cbn [pcs g_own]. fold i0. now rewrite upd_cell_same, upd_pc_same. }
  apply (inv_frame s _ t (QRead pos) deqL [mk] i0); cbn [ms pcs g_push g_pop g_own g_rview]; auto.
  - (* Hfr *) intros i N. rewrite Hpc, upd_cell_other by assumption. simpl. fold i0.
    repeat split; congruence.
  - (* Ncnt *) intros m [<-|[]] _. rewrite Hv, Hts. fold (D (ms s)). rewrite HDp. f_equal. lia.
  - (* Nseq *) intros m k _ X. discriminate X.
  - (* Nval *) intros m j _ X. discriminate X.
  - (* Hlen *) rewrite HE'. apply (i_push_len s I).
  - (* HD0 *) right. rewrite HD', HDp. auto.
  - (* Hbnd *) intros _ k. rewrite HE', HD', HLs'. destruct (i_bounds s I i0 k Hi0) as (A & B & C & F).
    split; [assumption|]. split; [intros H; specialize (B H); lia|]. split; [assumption|].
    intros H. destruct (Nat.eq_dec (i0 + k * cap) pos) as [Ep|Np]; [|apply F; lia].
    rewrite Hpos in Ep. destruct (decomp_unique cap i0 k i0 k0 Hi0 Hi0 Ep) as [_ ->]. exact T2.
  - (* Hown *) now apply owner_take.
  - (* Hcell *) intros _. unfold cell_inv. cbn [ms pcs g_push g_pop g_own g_rview].
    rewrite upd_cell_same, upd_pc_same. unfold holder_inv. cbn [ms]. fold i0 k0.
    rewrite HE', HD', HLs', HLv'.
    pose proof (i_cell s I i0 Hi0) as C. unfold cell_inv in C. rewrite Hown0 in C.
    destruct (C k0) as [_ [_ C2]]; [assumption|].
    pose proof (mono_cur _ _ Mo t (valL i0)).
    repeat split; try assumption; lia.
  - (* Hthr *) exact Logic.I.
  - (* Hdone *) exact Logic.I.
  - (* Hqs *) intros p m X. congruence.
  - (* Hqr *) intros p X. congruence.
  - (* Hnd *) apply (i_pop_nodup s I).
Qed.

(** 311-313: the plain read (move out, destroy) of the element *)
Lemma step_pop_read : forall s t pos m M',
  inv s -> pcs s t = QRead pos ->
  step (ms s) t (LLoad (valL (cellof pos)) Rlx m) M' ->
  inv {| ms := M'; pcs := upd_pc (pcs s) t (QStore pos m);
         g_push := g_push s; g_pop := g_pop s ++ [(pos, m_val m)];
         g_own := g_own s;
         g_rview := upd_cell (g_rview s) (cellof pos) (cur (threads M' t)) |}.
Proof.
  intros s t pos m M' I Hpc St.
  pose proof (i_wf s I) as Wf.
  destruct (load_facts _ _ _ _ _ _ Wf St) as (Wf' & Mo & Hm & Hin & Hlo & Hhi).
  pose proof (cellof_lt cap pos cap_pos) as Hi0.
  pose proof (pos_decomp cap pos cap_pos) as Hpos.
  assert (Hh : holds (pcs s t) = Some (cellof pos)) by now rewrite Hpc.
  pose proof (holder_of s t _ I Hi0 Hh) as H. rewrite Hpc in H. simpl in H.
  destruct H as (A & A' & B & C & F).
  set (i0 := cellof pos) in *. set (k0 := lapof pos) in *.
  assert (Htm : m_ts m = k0 + 1).
  { pose proof (wf_in_ts _ _ _ Wf Hin) as L. fold (Lv (ms s) i0) in L. lia. }
  destruct (i_val_val s I i0 m k0 Hi0 Hin) as [V1 V2]; [lia|]. rewrite <- Hpos in V1, V2.
  assert (Own : g_own s i0 = Some t) by (now apply owner_of).
  assert (Hnew : ~ In pos (map fst (g_pop s))).
  { intros Hx. apply in_map_iff in Hx. destruct Hx as ([p v0] & Ep & Hx). simpl in Ep. subst p.
    destruct (i_pop_in s I pos v0 Hx) as (_ & _ & _ & [L|L]).
    - fold i0 k0 in L. lia.
    - unfold qstore_at in L. fold i0 in L. rewrite Own, Hpc in L. exact L. }
  assert (Hqs : qstore_at {| ms := M'; pcs := upd_pc (pcs s) t (QStore pos m);
                             g_push := g_push s; g_pop := g_pop s ++ [(pos, m_val m)];
                             g_own := g_own s;
                             g_rview := upd_cell (g_rview s) i0 (cur (threads M' t)) |} pos).
  { unfold qstore_at. cbn [pcs g_own]. fold i0. now rewrite Own, upd_pc_same. }
  apply (inv_frame s _ t (QStore pos m) (valL i0) [] i0); cbn [ms pcs g_push g_pop g_own g_rview];
    unfold E, D, Ls, Lv; rewrite ?Hm; fold (E (ms s)) (D (ms s)); auto;
    try (intros; lia).
  - (* Ap *) now apply load_appends.
  - (* Hfr *) intros i N. rewrite Hpc, upd_cell_other by assumption. simpl. fold i0.
    repeat split; congruence.
  - (* Hrv0 *) right. exists k0. exact B.
  - (* Hpop *) intros x Hx. apply in_or_app. now left.
  - (* Ncnt *) intros ? [].
  - (* Nseq *) intros ? ? [].
  - (* Nval *) intros ? ? [].
  - (* Hlen *) apply (i_push_len s I).
  - (* Hbnd *) intros _ k. apply (i_bounds s I i0 k Hi0).
  - (* Hown *) apply owner_keep; [assumption|now rewrite Hpc].
  - (* Hcell *) intros _. unfold cell_inv. cbn [ms pcs g_push g_pop g_own g_rview].
    rewrite Own, upd_pc_same. unfold holder_inv. cbn [ms g_rview g_pop]. fold i0 k0.
    unfold E, D, Ls, Lv. rewrite Hm. fold (E (ms s)) (D (ms s)) (Ls (ms s) i0) (Lv (ms s) i0).
    rewrite upd_cell_same. pose proof (mono_cur _ _ Mo t (valL i0)).
    repeat split; try assumption; try lia; [apply vle_refl|].
    apply in_or_app. right. now left.
  - (* Hthr *) exact Logic.I.
  - (* Hdone *) exact Logic.I.
  - (* Hqs *) intros p m0 X. congruence.
  - (* Hqr *) intros p X. rewrite Hpc in X. injection X as <-. left.
    rewrite map_app. apply in_or_app. right. now left.
  - (* Hpin *) intros p v0 Hx. apply in_app_or in Hx. destruct Hx as [Hx|[Hx|[]]]; [now left|right].
    inversion Hx; subst p v0. rewrite (i_push_len s I). repeat (split; [assumption|]). now right.
  - (* Hnd *) rewrite map_app. apply nodup_snoc; [apply (i_pop_nodup s I)|assumption].
Qed.

(** 316: the release store of the cell sequence in try_pop (2): frees the cell for the next lap *)
Lemma step_pop_store : forall s t pos m M',
  ok_orders -> inv s -> pcs s t = QStore pos m ->
  step (ms s) t (LStore (seqL (cellof pos)) (o_pop_seq_store o) (N.of_nat (pos + cap))) M' ->
  inv {| ms := M'; pcs := upd_pc (pcs s) t (QDone pos m);
         g_push := g_push s; g_pop := g_pop s;
         g_own := upd_cell (g_own s) (cellof pos) None; g_rview := g_rview s |}.
Proof.
  intros s t pos m M' Ok I Hpc St.
  pose proof (i_wf s I) as Wf.
  destruct (store_facts _ _ _ _ _ _ Wf St) as (Wf' & Mo & mk & Ap & Hts & Hv & Hcur & Hrel).
  pose proof Ap as [Em Hoth].
  destruct Ok as (_ & _ & _ & Orel). specialize (Hrel Orel).
  pose proof (cellof_lt cap pos cap_pos) as Hi0.
  pose proof (pos_decomp cap pos cap_pos) as Hpos.
  assert (Hh : holds (pcs s t) = Some (cellof pos)) by now rewrite Hpc.
  pose proof (holder_of s t _ I Hi0 Hh) as H. rewrite Hpc in H. simpl in H.
  destruct H as (A & A' & B & C & F & G & K1 & K2 & K3).
  set (i0 := cellof pos) in *. set (k0 := lapof pos) in *.
  destruct (appends_seq _ _ _ _ Ap) as (HE' & HD' & HLv').
  assert (Htk : m_ts mk = 2 * k0 + 2) by (fold (Ls (ms s) i0) in Hts; lia).
  assert (HLs0 : Ls M' i0 = 2 * k0 + 2) by (unfold Ls; rewrite Em, last_ts_app; exact Htk).
  apply (inv_frame s _ t (QDone pos m) (seqL i0) [mk] i0); cbn [ms pcs g_push g_pop g_own g_rview]; auto.
  - (* Hfr *) intros i N. rewrite Hpc, upd_cell_other by assumption. simpl. fold i0.
    repeat split; congruence.
  - (* Ncnt *) intros m0 _ [X|X]; discriminate X.
  - (* Nseq *) intros m0 k [<-|[]] _. rewrite Htk, Hv. split; [|split; [intros; lia|]].
    + intros Hk. assert (k = k0 + 1) by lia. subst k.
      split; [f_equal; lia|apply (vle_mono_r _ _ _ G Hrel)].
    + intros Hk. specialize (Hrel (valL i0)). lia.
  - (* Nval *) intros m0 j _ X. now apply seqL_valL in X.
  - (* Hlen *) rewrite HE'. apply (i_push_len s I).
  - (* Hbnd *) intros _ k. rewrite HE', HD', HLs0. destruct (i_bounds s I i0 k Hi0) as (A1 & B1 & C1 & F1).
    split; [intros Hk; apply A1; lia|]. split.
    + intros Hk. destruct (Nat.eq_dec k k0) as [->|Nk]; [lia|]. apply B1. lia.
    + split; intros Hk; [specialize (C1 Hk)|specialize (F1 Hk)]; lia.
  - (* Hown *) now apply owner_release.
  - (* Hcell *) intros _. unfold cell_inv. cbn [ms g_own]. rewrite upd_cell_same. intros k.
    rewrite HLs0, HE', HLv'. split; [|lia].
    intros Hk. assert (k = k0 + 1) by lia. subst k. split; [|assumption].
    destruct (i_bounds s I i0 (k0 + 1) Hi0) as (_ & _ & C1 & _).
    destruct (Nat.le_gt_cases (E (ms s)) (i0 + (k0 + 1) * cap)) as [L|L]; [assumption|].
    specialize (C1 L). lia.
  - (* Hthr *) exact Logic.I.
  - (* Hqs *) intros p m0 X. rewrite Hpc in X. injection X as <- <-. left. cbn [ms]. fold i0 k0. lia.
  - (* Hqr *) intros p X. congruence.
  - (* Hnd *) apply (i_pop_nodup s I).
Qed.

(** ** The invariant holds in every reachable state *)

Lemma inv_step : forall s t lab s',
  orders_ok o = true -> inv s -> pstep s t lab s' -> inv s'.
Proof.
  intros s t lab s' Ok I St. apply orders_ok_spec in Ok.
  destruct St.
  - eapply step_to_pseq; [assumption|now apply idle_holds|eassumption].
  - eapply step_push_seq; eassumption.
  - eapply step_push_cas_ok; eassumption.
  - eapply step_to_pseq; [assumption|now rewrite H|eassumption].
  - eapply step_to_pseq; [assumption|now rewrite H|eassumption].
  - eapply step_push_enq2; eassumption.
  - eapply step_push_deq; eassumption.
  - eapply step_push_write; eassumption.
  - eapply step_push_store; eassumption.
  - eapply step_to_qseq; [assumption|now apply idle_holds|eassumption].
  - eapply step_pop_seq; eassumption.
  - eapply step_pop_cas_ok; eassumption.
  - eapply step_to_qseq; [assumption|now rewrite H|eassumption].
  - eapply step_to_qseq; [assumption|now rewrite H|eassumption].
  - eapply step_pop_deq2; eassumption.
  - eapply step_pop_enq; eassumption.
  - eapply step_pop_read; eassumption.
  - eapply step_pop_store; eassumption.
Qed.

Theorem inv_preach : forall s, orders_ok o = true -> preach s -> inv s.
Proof.
  intros s Ok R. induction R; [apply inv_init|eapply inv_step; eassumption].
Qed.

(** tickets: [D <= E <= D + cap] (never more than [cap] elements) *)
Lemma tickets_bounded : forall s, inv s ->
  length (g_push s) = E (ms s) /\ D (ms s) <= E (ms s) /\ E (ms s) <= D (ms s) + cap.
Proof.
  intros s I. split; [apply (i_push_len s I)|]. split.
  - destruct (D (ms s)) as [|d] eqn:Ed; [lia|].
    pose proof (cellof_lt cap d cap_pos) as Hi. pose proof (pos_decomp cap d cap_pos) as Hd.
    destruct (i_bounds s I _ (lapof d) Hi) as (A & _ & _ & F). rewrite Ed in F.
    assert (H1 : 2 * lapof d + 1 <= Ls (ms s) (cellof d)) by (apply F; lia).
    specialize (A H1). lia.
  - destruct (E (ms s)) as [|e] eqn:Ee; [lia|].
    destruct (Nat.lt_ge_cases e cap) as [L|L]; [lia|].
    pose proof (cellof_lt cap e cap_pos) as Hi. pose proof (pos_decomp cap e cap_pos) as He.
    destruct (lapof e) as [|k'] eqn:Ek; [lia|].
    destruct (i_bounds s I _ (S k') Hi) as (_ & _ & C & _). rewrite Ee in C.
    assert (H1 : 2 * S k' <= Ls (ms s) (cellof e)) by (apply C; lia).
    destruct (i_bounds s I _ k' Hi) as (_ & B & _ & _).
    assert (H2 : cellof e + k' * cap < D (ms s)) by (apply B; lia). lia.
Qed.

(** the step by which an operation fails is a load: it changes neither the memory nor the histories *)
Lemma fail_step_pure : forall s t lab s',
  pstep s t lab s' -> has_failed (pcs s' t) = true -> has_failed (pcs s t) = false ->
  memory (ms s') = memory (ms s) /\ g_push s' = g_push s /\ g_pop s' = g_pop s.
Proof.
  intros s t lab s' St Hf Hn.
  destruct St; cbn [ms pcs g_push g_pop set_pc] in *;
    try (rewrite upd_pc_same in Hf; discriminate);
    (split; [|split; reflexivity]);
    match goal with H : step _ _ (LLoad _ _ _) _ |- _ =>
      apply step_load_inv in H; destruct H as [_ ->]; reflexivity end.
Qed.

(** ** The executable form is sound *)

Lemma with_load_sound : forall M t l od i k lab s',
  with_load M t l od i k = Some (lab, s') ->
  exists m M', lab = LLoad l od m /\ s' = k m M' /\ step M t (LLoad l od m) M'.
Proof.
  unfold with_load. intros M t l od i k lab s' H.
  destruct (exec_load M t l od i) as [[m M']|] eqn:Ex; [|discriminate].
  inversion H; subst. exists m, M'. split; [reflexivity|]. split; [reflexivity|].
  eapply exec_load_step; eassumption.
Qed.

Lemma pexec_sound : forall s t c lab s', pexec cap o s t c = Some (lab, s') -> pstep s t lab s'.
Proof.
  intros s t c lab s' H. unfold pexec in H. destruct c.
  - destruct (is_idle (pcs s t)) eqn:Ei; [|discriminate].
    apply with_load_sound in H. destruct H as (m & M' & -> & -> & St). now apply ps_push_start.
  - destruct (is_idle (pcs s t)) eqn:Ei; [|discriminate].
    apply with_load_sound in H. destruct H as (m & M' & -> & -> & St). now apply ps_pop_start.
  - destruct (pcs s t) eqn:Ep; try discriminate;
      apply with_load_sound in H; destruct H as (m0 & M' & -> & -> & St).
    + eapply ps_push_seq; eassumption.
    + eapply ps_push_cas_fail; eassumption.
    + eapply ps_push_enq_w; eassumption.
    + eapply ps_push_enq2; eassumption.
    + eapply ps_push_deq; eassumption.
    + eapply ps_pop_seq; eassumption.
    + eapply ps_pop_cas_fail; eassumption.
    + eapply ps_pop_deq_w; eassumption.
    + eapply ps_pop_deq2; eassumption.
    + eapply ps_pop_enq; eassumption.
    + eapply ps_pop_read; eassumption.
  - destruct (pcs s t) eqn:Ep; try discriminate.
    + destruct (N.eqb_spec (m_val (last_msg (memory (ms s) enqL))) (N.of_nat pos)) as [Eq|]; [|discriminate].
      inversion H; subst. eapply ps_push_cas_ok; [eassumption|assumption|constructor].
    + destruct (N.eqb_spec (m_val (last_msg (memory (ms s) deqL))) (N.of_nat pos)) as [Eq|]; [|discriminate].
      inversion H; subst. eapply ps_pop_cas_ok; [eassumption|assumption|constructor].
  - destruct (pcs s t) eqn:Ep; try discriminate; inversion H; subst.
    + eapply ps_push_write; [eassumption|constructor].
    + eapply ps_push_store; [eassumption|constructor].
    + eapply ps_pop_store; [eassumption|constructor].
Qed.

Lemma prun_sound : forall cs s tr s', prun cap o s cs = Some (tr, s') -> ptrace s tr s'.
Proof.
  induction cs as [|[t c] cs IH]; intros s tr s' H; simpl in H.
  - inversion H; subst. constructor.
  - destruct (pexec cap o s t c) as [[lab s1]|] eqn:Ex; [|discriminate].
    destruct (prun cap o s1 cs) as [[tr1 s2]|] eqn:E2; [|discriminate].
    inversion H; subst. econstructor; [eapply pexec_sound; eassumption|now apply IH].
Qed.

Lemma pstep_step : forall s t lab s', pstep s t lab s' -> step (ms s) t lab (ms s').
Proof. intros s t lab s' H. destruct H; assumption. Qed.

(** the trace of a program execution is a valid trace of the machine *)
Lemma ptrace_valid : forall s tr s', ptrace s tr s' -> valid (ms s) tr /\ ms s' = run (ms s) tr.
Proof.
  induction 1 as [|s t lab s1 tr s2 St _ [IH1 IH2]]; simpl; [auto|].
  apply pstep_step in St. apply step_apply in St. destruct St as [En Eq].
  rewrite <- Eq. auto.
Qed.

Lemma ptrace_preach : forall s tr s', preach s -> ptrace s tr s' -> preach s'.
Proof.
  intros s tr s' R H. induction H; [assumption|]. apply IHptrace. eapply preach_step; eassumption.
Qed.

End Proof.

(** ** Concrete executions *)

(** "some execution of the program with [cap] cells and orders [od], whose machine trace has the summary
    [sg], reaches a state satisfying [P]" *)
Definition exec_reaches (cap : nat) (od : orders) (sg : list esig) (P : pstate -> Prop) : Prop :=
  exists tr s,
    preach cap od s /\ ptrace cap od pinit tr s /\
    valid minit tr /\ ms s = run minit tr /\ map sig_of tr = sg /\ P s.

Lemma exec_reaches_by_computation : forall cap od cs sg (P : pstate -> Prop),
  match prun cap od pinit cs with
  | Some (tr, s) => map sig_of tr = sg /\ P s
  | None => False
  end -> exec_reaches cap od sg P.
Proof.
  intros cap od cs sg P H.
  destruct (prun cap od pinit cs) as [[tr s]|] eqn:Ex; [|contradiction].
  destruct H as [H1 H2]. apply prun_sound in Ex.
  exists tr, s. split; [eapply ptrace_preach; [constructor|eassumption]|]. split; [assumption|].
  apply ptrace_valid in Ex. destruct Ex as [V Mm]. auto.
Qed.

(** observers *)
Definition writer_view (cap : nat) (s : pstate) (t : tid) : option (ts * ts) :=
  match pcs s t with
  | PWrite v pos => Some (cur (threads (ms s) t) (valL (cellof cap pos)),
                          last_ts (memory (ms s) (valL (cellof cap pos))))
  | _ => None
  end.
(** (is it a push, Weak, pos) of a failed operation *)
Definition fail_result (s : pstate) (t : tid) : option (bool * bool * nat) :=
  match pcs s t with
  | PFull w pos _ _ => Some (true, w, pos)
  | QEmpty w pos _ _ => Some (false, w, pos)
  | _ => None
  end.

Arguments exec_reaches cap%nat od sg P.
Arguments exec_reaches_by_computation cap%nat od cs sg P.
Arguments writer_view cap%nat s t%nat.
Arguments fail_result s t%nat.
Arguments pop_result s t%nat.

Local Open Scope N_scope.

(** a complete try_push by thread [t]: 252 reads message [i] of enqueue_pos, 256 reads message [c] of the
    cell sequence; a complete try_pop: 285 reads message [i] of dequeue_pos, 289 message [c] of the cell
    sequence, 311 message [d] of the value slot *)
Definition push1 (t : tid) (w : bool) (v : val) (i c : nat) : list (tid * choice) :=
  [(t, CPush w v i); (t, CRd c); (t, CCas); (t, CGo); (t, CGo)].
Definition pop1 (t : tid) (w : bool) (i c d : nat) : list (tid * choice) :=
  [(t, CPop w i); (t, CRd c); (t, CCas); (t, CRd d); (t, CGo)].
Arguments push1 t%nat w v%N (i c)%nat.
Arguments pop1 t%nat w (i c d)%nat.

(** *** NON-VACUITY: 2 cells, the orders of the source: thread 1 pushes 7 and 8, thread 3 pushes 9 (into
    cell 0 again, second lap); thread 2 pops three times and obtains 7, 8, 9 with tickets 0, 1, 2.
    Locations: 0 enqueue_pos, 1 dequeue_pos, 2 / 3 sequence / data of cell 0, 4 / 5 of cell 1. *)
Example xenium_three_laps :
  exec_reaches 2 xenium_orders
    [ SLoad 1 0 Rlx 0 0; SLoad 1 2 Acq 0 0; SRmw 1 0 Rlx 1; SStore 1 3 Rlx 7; SStore 1 2 Rel 1;
      SLoad 2 1 Rlx 0 0; SLoad 2 2 Acq 1 1; SRmw 2 1 Rlx 1; SLoad 2 3 Rlx 7 1; SStore 2 2 Rel 2;
      SLoad 1 0 Rlx 1 1; SLoad 1 4 Acq 1 0; SRmw 1 0 Rlx 2; SStore 1 5 Rlx 8; SStore 1 4 Rel 2;
      SLoad 2 1 Rlx 1 1; SLoad 2 4 Acq 2 1; SRmw 2 1 Rlx 2; SLoad 2 5 Rlx 8 1; SStore 2 4 Rel 3;
      SLoad 3 0 Rlx 2 2; SLoad 3 2 Acq 2 2; SRmw 3 0 Rlx 3; SStore 3 3 Rlx 9; SStore 3 2 Rel 3;
      SLoad 2 1 Rlx 2 2; SLoad 2 2 Acq 3 3; SRmw 2 1 Rlx 3; SLoad 2 3 Rlx 9 2; SStore 2 2 Rel 4 ]
    (fun s => pop_result s 2 = Some (2%nat, 9) /\ g_push s = [7; 8; 9] /\
              g_pop s = [(0%nat, 7); (1%nat, 8); (2%nat, 9)]).
Proof.
  apply (exec_reaches_by_computation 2 xenium_orders
    (push1 1 false 7 0 0 ++ pop1 2 false 0 1 1 ++ push1 1 false 8 1 0 ++ pop1 2 false 1 1 1 ++
     push1 3 true 9 2 2 ++ pop1 2 true 2 3 2)).
  vm_compute. repeat split.
Qed.

(** *** NECESSITY of the four conditions of [orders_ok] *)

(** thread 1 pushes 7; thread 2 pops, reads the published sequence value 1 of cell 0, but then the
    INITIAL message (timestamp 0) of the value slot *)
Definition cs_stale_pop : list (tid * choice) := push1 1 false 7 0 0 ++ pop1 2 false 0 1 0.

(** (4) the sequence store of try_push (278) relaxed: the pop returns 0, a value that was never pushed *)
Theorem weak_push_seq_store_invents :
  exec_reaches 2 (set_push_seq_store Rlx xenium_orders)
    [ SLoad 1 0 Rlx 0 0; SLoad 1 2 Acq 0 0; SRmw 1 0 Rlx 1; SStore 1 3 Rlx 7;
      SStore 1 2 Rlx 1;           (* T1 278: sequence := 1, relaxed *)
      SLoad 2 1 Rlx 0 0;
      SLoad 2 2 Acq 1 1;          (* T2 289: seq = 1 = pos + 1 *)
      SRmw 2 1 Rlx 1;
      SLoad 2 3 Rlx 0 0;          (* T2 311: reads the uninitialised slot *)
      SStore 2 2 Rel 2 ]
    (fun s => pop_result s 2 = Some (0%nat, 0) /\ g_push s = [7] /\ g_pop s = [(0%nat, 0)]).
Proof.
  apply (exec_reaches_by_computation 2 _ cs_stale_pop). vm_compute. repeat split.
Qed.

(** (1) the sequence load of try_pop (289) relaxed: the same *)
Theorem weak_pop_seq_load_invents :
  exec_reaches 2 (set_pop_seq_load Rlx xenium_orders)
    [ SLoad 1 0 Rlx 0 0; SLoad 1 2 Acq 0 0; SRmw 1 0 Rlx 1; SStore 1 3 Rlx 7; SStore 1 2 Rel 1;
      SLoad 2 1 Rlx 0 0;
      SLoad 2 2 Rlx 1 1;          (* T2 289: seq = 1, relaxed *)
      SRmw 2 1 Rlx 1;
      SLoad 2 3 Rlx 0 0;          (* T2 311: reads the uninitialised slot *)
      SStore 2 2 Rel 2 ]
    (fun s => pop_result s 2 = Some (0%nat, 0) /\ g_push s = [7] /\ g_pop s = [(0%nat, 0)]).
Proof.
  apply (exec_reaches_by_computation 2 _ cs_stale_pop). vm_compute. repeat split.
Qed.

(** the machine rejects these read choices under the orders of the source *)
Example xenium_orders_reject_stale_pop : prun 2 xenium_orders pinit cs_stale_pop = None.
Proof. vm_compute. reflexivity. Qed.

(** hence the conclusion of (a) is FALSE for these orders *)
Theorem weak_orders_refute_mp :
  ~ (forall s p v, preach 2 (set_push_seq_store Rlx xenium_orders) s ->
       In (p, v) (g_pop s) -> v = nth p (g_push s) 0) /\
  ~ (forall s p v, preach 2 (set_pop_seq_load Rlx xenium_orders) s ->
       In (p, v) (g_pop s) -> v = nth p (g_push s) 0).
Proof.
  split; intros H.
  - destruct weak_push_seq_store_invents as (tr & s & R & _ & _ & _ & _ & _ & Hg & Hp).
    specialize (H s 0%nat 0 R). rewrite Hg, Hp in H. simpl in H.
    assert (X : 0 = 7) by (apply H; now left). discriminate.
  - destruct weak_pop_seq_load_invents as (tr & s & R & _ & _ & _ & _ & _ & Hg & Hp).
    specialize (H s 0%nat 0 R). rewrite Hg, Hp in H. simpl in H.
    assert (X : 0 = 7) by (apply H; now left). discriminate.
Qed.

(** thread 1 pushes 7 and 8, thread 2 pops 7 (frees cell 0), thread 3 obtains ticket 2 (cell 0, second
    lap) and is about to write the slot *)
Definition cs_reuse : list (tid * choice) :=
  push1 1 false 7 0 0 ++ push1 1 false 8 1 0 ++ pop1 2 false 0 1 1 ++
  [(3%nat, CPush false 9 2); (3%nat, CRd 2); (3%nat, CCas)].

(** (2) the sequence store of try_pop (316) relaxed: thread 3 writes the slot although the previous write
    to it (timestamp 1) - and the pop's read of it - is not in its view (view 0): a DATA RACE *)
Theorem weak_pop_seq_store_races :
  exec_reaches 2 (set_pop_seq_store Rlx xenium_orders)
    [ SLoad 1 0 Rlx 0 0; SLoad 1 2 Acq 0 0; SRmw 1 0 Rlx 1; SStore 1 3 Rlx 7; SStore 1 2 Rel 1;
      SLoad 1 0 Rlx 1 1; SLoad 1 4 Acq 1 0; SRmw 1 0 Rlx 2; SStore 1 5 Rlx 8; SStore 1 4 Rel 2;
      SLoad 2 1 Rlx 0 0; SLoad 2 2 Acq 1 1; SRmw 2 1 Rlx 1; SLoad 2 3 Rlx 7 1;
      SStore 2 2 Rlx 2;           (* T2 316: sequence := 2, relaxed *)
      SLoad 3 0 Rlx 2 2;
      SLoad 3 2 Acq 2 2;          (* T3 256: seq = 2 = pos *)
      SRmw 3 0 Rlx 3 ]
    (fun s => writer_view 2 s 3 = Some (0%nat, 1%nat)).
Proof.
  apply (exec_reaches_by_computation 2 _ cs_reuse). vm_compute. repeat split.
Qed.

(** (3) the sequence load of try_push (256) relaxed: the same *)
Theorem weak_push_seq_load_races :
  exec_reaches 2 (set_push_seq_load Rlx xenium_orders)
    [ SLoad 1 0 Rlx 0 0; SLoad 1 2 Rlx 0 0; SRmw 1 0 Rlx 1; SStore 1 3 Rlx 7; SStore 1 2 Rel 1;
      SLoad 1 0 Rlx 1 1; SLoad 1 4 Rlx 1 0; SRmw 1 0 Rlx 2; SStore 1 5 Rlx 8; SStore 1 4 Rel 2;
      SLoad 2 1 Rlx 0 0; SLoad 2 2 Acq 1 1; SRmw 2 1 Rlx 1; SLoad 2 3 Rlx 7 1; SStore 2 2 Rel 2;
      SLoad 3 0 Rlx 2 2;
      SLoad 3 2 Rlx 2 2;          (* T3 256: seq = 2 = pos, relaxed *)
      SRmw 3 0 Rlx 3 ]
    (fun s => writer_view 2 s 3 = Some (0%nat, 1%nat)).
Proof.
  apply (exec_reaches_by_computation 2 _ cs_reuse). vm_compute. repeat split.
Qed.

(** with the orders of the source the same schedule gives the writer the latest message of the slot *)
Example xenium_orders_reuse_ordered :
  exec_reaches 2 xenium_orders
    [ SLoad 1 0 Rlx 0 0; SLoad 1 2 Acq 0 0; SRmw 1 0 Rlx 1; SStore 1 3 Rlx 7; SStore 1 2 Rel 1;
      SLoad 1 0 Rlx 1 1; SLoad 1 4 Acq 1 0; SRmw 1 0 Rlx 2; SStore 1 5 Rlx 8; SStore 1 4 Rel 2;
      SLoad 2 1 Rlx 0 0; SLoad 2 2 Acq 1 1; SRmw 2 1 Rlx 1; SLoad 2 3 Rlx 7 1; SStore 2 2 Rel 2;
      SLoad 3 0 Rlx 2 2; SLoad 3 2 Acq 2 2; SRmw 3 0 Rlx 3 ]
    (fun s => writer_view 2 s 3 = Some (1%nat, 1%nat)).
Proof.
  apply (exec_reaches_by_computation 2 _ cs_reuse). vm_compute. repeat split.
Qed.

(** hence the conclusion of (b) is FALSE for these orders *)
Theorem weak_orders_refute_race_freedom :
  ~ (forall s t v pos, preach 2 (set_pop_seq_store Rlx xenium_orders) s -> pcs s t = PWrite v pos ->
       cur (threads (ms s) t) (valL (cellof 2 pos)) = last_ts (memory (ms s) (valL (cellof 2 pos)))) /\
  ~ (forall s t v pos, preach 2 (set_push_seq_load Rlx xenium_orders) s -> pcs s t = PWrite v pos ->
       cur (threads (ms s) t) (valL (cellof 2 pos)) = last_ts (memory (ms s) (valL (cellof 2 pos)))).
Proof.
  split; intros H.
  - destruct weak_pop_seq_store_races as (tr & s & R & _ & _ & _ & _ & Hw).
    unfold writer_view in Hw.
    destruct (pcs s 3%nat) eqn:Ep; try discriminate.
    rewrite (H s 3%nat v pos R Ep) in Hw.
    injection Hw as H1 H2. congruence.
  - destruct weak_push_seq_load_races as (tr & s & R & _ & _ & _ & _ & Hw).
    unfold writer_view in Hw.
    destruct (pcs s 3%nat) eqn:Ep; try discriminate.
    rewrite (H s 3%nat v pos R Ep) in Hw.
    injection Hw as H1 H2. congruence.
Qed.

(** *** What (c) does NOT say: with the (relaxed) orders of the source a failure may be SPURIOUS.

    try_push_strong reports "full" although the queue (2 cells) never held more than one element:
    thread 3 reads enqueue_pos = 2, the STALE sequence value 1 of cell 0, enqueue_pos = 2 again and the
    STALE dequeue_pos = 0 (0 + 2 == 2). *)
Example spurious_full :
  exec_reaches 2 xenium_orders
    [ SLoad 1 0 Rlx 0 0; SLoad 1 2 Acq 0 0; SRmw 1 0 Rlx 1; SStore 1 3 Rlx 7; SStore 1 2 Rel 1;
      SLoad 2 1 Rlx 0 0; SLoad 2 2 Acq 1 1; SRmw 2 1 Rlx 1; SLoad 2 3 Rlx 7 1; SStore 2 2 Rel 2;
      SLoad 1 0 Rlx 1 1; SLoad 1 4 Acq 1 0; SRmw 1 0 Rlx 2; SStore 1 5 Rlx 8; SStore 1 4 Rel 2;
      SLoad 3 0 Rlx 2 2;          (* T3 252: pos = 2 *)
      SLoad 3 2 Acq 1 1;          (* T3 256: seq = 1 (stale; the latest value is 2) *)
      SLoad 3 0 Rlx 2 2;          (* T3 268: pos2 = 2 = pos *)
      SLoad 3 1 Rlx 0 0 ]         (* T3 269: dequeue_pos = 0 (stale; the latest value is 1) *)
    (fun s => fail_result s 3 = Some (true, false, 2%nat) /\
              last_ts (memory (ms s) enqL) = 2%nat /\ last_ts (memory (ms s) deqL) = 1%nat).
Proof.
  apply (exec_reaches_by_computation 2 _
    (push1 1 false 7 0 0 ++ pop1 2 false 0 1 1 ++ push1 1 false 8 1 0 ++
     [(3%nat, CPush false 9 2); (3%nat, CRd 1); (3%nat, CRd 2); (3%nat, CRd 0)])).
  vm_compute. repeat split.
Qed.

(** try_pop_strong reports "empty" although the queue has not been empty since the first push *)
Example spurious_empty :
  exec_reaches 2 xenium_orders
    [ SLoad 1 0 Rlx 0 0; SLoad 1 2 Acq 0 0; SRmw 1 0 Rlx 1; SStore 1 3 Rlx 7; SStore 1 2 Rel 1;
      SLoad 1 0 Rlx 1 1; SLoad 1 4 Acq 1 0; SRmw 1 0 Rlx 2; SStore 1 5 Rlx 8; SStore 1 4 Rel 2;
      SLoad 2 1 Rlx 0 0; SLoad 2 2 Acq 1 1; SRmw 2 1 Rlx 1; SLoad 2 3 Rlx 7 1; SStore 2 2 Rel 2;
      SLoad 3 1 Rlx 1 1;          (* T3 285: pos = 1 *)
      SLoad 3 4 Acq 1 0;          (* T3 289: seq = 1 (stale; the latest value is 2) *)
      SLoad 3 1 Rlx 1 1;          (* T3 302: pos2 = 1 = pos *)
      SLoad 3 0 Rlx 1 1 ]         (* T3 303: enqueue_pos = 1 (stale; the latest value is 2) *)
    (fun s => fail_result s 3 = Some (false, false, 1%nat) /\
              last_ts (memory (ms s) enqL) = 2%nat /\ last_ts (memory (ms s) deqL) = 1%nat).
Proof.
  apply (exec_reaches_by_computation 2 _
    (push1 1 false 7 0 0 ++ push1 1 false 8 1 0 ++ pop1 2 false 0 1 1 ++
     [(3%nat, CPop false 1); (3%nat, CRd 0); (3%nat, CRd 1); (3%nat, CRd 1)])).
  vm_compute. repeat split.
Qed.

(** the weak variants fail on a stale sequence value, too *)
Example weak_variants_fail :
  exec_reaches 2 xenium_orders
    [ SLoad 1 0 Rlx 0 0; SLoad 1 2 Acq 0 0; SRmw 1 0 Rlx 1; SStore 1 3 Rlx 7; SStore 1 2 Rel 1;
      SLoad 2 1 Rlx 0 0;          (* T2 285: pos = 0 *)
      SLoad 2 2 Acq 0 0 ]         (* T2 289: seq = 0 < 1 (stale) *)
    (fun s => fail_result s 2 = Some (false, true, 0%nat)).
Proof.
  apply (exec_reaches_by_computation 2 _ (push1 1 false 7 0 0 ++ [(2%nat, CPop true 0); (2%nat, CRd 0)])).
  vm_compute. repeat split.
Qed.

Local Close Scope N_scope.

(** ** Summary theorem (the form used in Properties/Properties_C03_vyukov_src.v) *)

Theorem vyukov_weak_correct : forall cap o, 2 <= cap -> orders_ok o = true ->
  forall s, preach cap o s ->
  (* (a) message passing: a pop reads exactly the write of the push with its ticket *)
  (forall t pos m, pcs s t = QStore pos m ->
     In m (memory (ms s) (valL (cellof cap pos))) /\
     m_ts m = lapof cap pos + 1 /\
     m_ts m = last_ts (memory (ms s) (valL (cellof cap pos))) /\
     pos < D (ms s) /\ pos < length (g_push s) /\
     m_val m = nth pos (g_push s) 0%N /\
     In (pos, m_val m) (g_pop s)) /\
  (* ... the histories: nothing invented, nothing duplicated, nothing lost, FIFO per ticket *)
  ((forall p v, In (p, v) (g_pop s) ->
      p < D (ms s) /\ p < length (g_push s) /\ v = nth p (g_push s) 0%N) /\
   NoDup (map fst (g_pop s)) /\
   (forall p, p < D (ms s) -> In p (map fst (g_pop s)) \/ exists t, pcs s t = QRead p) /\
   (forall t pos m, pcs s t = QDone pos m -> In (pos, m_val m) (g_pop s)) /\
   (forall t v pos, pcs s t = PDone v pos ->
      pos < length (g_push s) /\ nth pos (g_push s) 0%N = v) /\
   length (g_push s) = E (ms s) /\ D (ms s) <= E (ms s) /\ E (ms s) <= D (ms s) + cap) /\
  (* (b) race freedom of the plain accesses *)
  ((forall t1 t2 i, holds cap (pcs s t1) = Some i -> holds cap (pcs s t2) = Some i -> t1 = t2) /\
   (forall t v pos, pcs s t = PWrite v pos ->
      cur (threads (ms s) t) (valL (cellof cap pos)) = last_ts (memory (ms s) (valL (cellof cap pos))) /\
      last_ts (memory (ms s) (valL (cellof cap pos))) = lapof cap pos /\
      vle (g_rview s (cellof cap pos)) (cur (threads (ms s) t))) /\
   (forall t pos, pcs s t = QRead pos ->
      cur (threads (ms s) t) (valL (cellof cap pos)) = last_ts (memory (ms s) (valL (cellof cap pos))) /\
      last_ts (memory (ms s) (valL (cellof cap pos))) = lapof cap pos + 1)) /\
  (* (c) failures are justified by the messages read *)
  ((forall t w pos mq md, pcs s t = PFull w pos mq md ->
      pos <= E (ms s) /\ In mq (memory (ms s) (seqL (cellof cap pos))) /\
      match md with
      | None => w = true /\ (m_val mq < N.of_nat pos)%N /\ m_ts mq < 2 * lapof cap pos
      | Some d => w = false /\ m_val mq <> N.of_nat pos /\
                  In d (memory (ms s) deqL) /\ m_ts d + cap = pos
      end) /\
   (forall t w pos mq me, pcs s t = QEmpty w pos mq me ->
      pos <= D (ms s) /\ In mq (memory (ms s) (seqL (cellof cap pos))) /\
      match me with
      | None => w = true /\ (m_val mq < N.of_nat (pos + 1))%N /\ m_ts mq <= 2 * lapof cap pos
      | Some e => w = false /\ m_val mq <> N.of_nat (pos + 1) /\
                  In e (memory (ms s) enqL) /\ m_ts e = pos
      end)).
Proof.
  intros cap o Hc Ok s R. pose proof (inv_preach cap Hc o s Ok R) as I.
  assert (Hi0 : forall pos, cellof cap pos < cap) by (intros; apply cellof_lt; lia).
  (* what the owner of a cell knows *)
  assert (Hold : forall t pos, holds cap (pcs s t) = Some (cellof cap pos) -> holder_inv cap s t (pcs s t))
    by (intros t pos; apply (holder_of cap s t _ I (Hi0 pos))).
  split; [|split; [|split]].
  - (* [m] is the [lapof pos + 1]-st write to the slot, i.e. the write of the push with ticket [pos] (the
       push whose sequence store [pos + 1] the pop observed), and it is the LATEST message of the slot,
       neither a stale nor a later value *)
    intros t pos m Hpc. pose proof (Hold t pos) as H. rewrite Hpc in H.
    destruct (H eq_refl) as (A & A' & B & C & F & G & K1 & K2 & K3).
    destruct (i_pop_in cap s I _ _ K3) as (P1 & P2 & P3 & _).
    unfold Lv in C. repeat split; try assumption; lia.
  - (* every recorded pop [(p, v)] has a ticket that was issued both as a pop and as a push ticket, and [v] is the
       value of that push; no ticket is popped twice; every issued pop ticket has been served or is owned
       by a thread about to read the element; a completed pop / push is recorded; [D <= E <= D + cap] *)
    split; [|split; [|split; [|split; [|split]]]].
    + intros p v Hin. destruct (i_pop_in cap s I p v Hin) as (A & B & C & _). auto.
    + apply (i_pop_nodup cap s I).
    + intros p Hp. destruct (i_pop_all cap s I p Hp) as [A|A]; [now left|right].
      unfold qread_at in A. destruct (g_own s (cellof cap p)) as [t|]; [|contradiction]. now exists t.
    + intros t pos m Hpc. pose proof (i_done cap s I t) as X. now rewrite Hpc in X.
    + intros t v pos Hpc. pose proof (i_done cap s I t) as X. now rewrite Hpc in X.
    + now apply tickets_bounded.
  - (* the plain accesses are made by the owner of the cell, and a cell has at most one owner; the push
       about to WRITE the slot has in its view the latest message of the slot (every earlier write
       happens-before this write) and the complete view the last reader of the slot had when it read
       (that read happens-before this write); the pop about to READ the slot has in its view the latest
       message of the slot, which is the write of the push with the same ticket *)
    split; [|split].
    + intros t1 t2 i H1 H2. apply (i_owner cap s I) in H1. apply (i_owner cap s I) in H2. congruence.
    + intros t v pos Hpc. pose proof (Hold t pos) as H. rewrite Hpc in H.
      destruct (H eq_refl) as (A & B & C & F & G & K).
      pose proof (wf_cur _ (i_wf cap s I) t (valL (cellof cap pos))) as Wc. unfold Lv in C.
      split; [lia|]. split; assumption.
    + intros t pos Hpc. pose proof (Hold t pos) as H. rewrite Hpc in H.
      destruct (H eq_refl) as (A & A' & B & C & F).
      pose proof (wf_cur _ (i_wf cap s I) t (valL (cellof cap pos))) as Wc. unfold Lv in C.
      split; [lia|assumption].
  - (* [pos] was read from a message of enqueue_pos / dequeue_pos, [mq] is the message of the cell sequence
       that was read.  Weak push: [mq] is older than the store [2 * lapof pos] by which the pop of ticket
       [pos - cap] frees the cell: when [mq] was the latest message, the cell was still occupied.  Weak pop:
       [mq] is not newer than that store: the element of ticket [pos] had not been published.  Strong
       variants: the position was read twice as [pos], and a message of the opposite position with value
       [pos - cap] / [pos] was read.  Each of these reads may be STALE ([spurious_full] / [spurious_empty]);
       a failing operation has written nothing ([fail_step_pure]). *)
    split.
    + intros t w pos mq md Hpc. pose proof (i_thr cap s I t) as T. rewrite Hpc in T.
      destruct T as (A & B & C). split; [assumption|]. split; [assumption|].
      destruct md as [d|].
      * destruct C as (C1 & C2 & C3 & C4). repeat (split; [assumption|]).
        rewrite (i_deq_val cap s I d C3) in C4. lia.
      * destruct C as (C1 & C2). split; [assumption|]. split; [assumption|].
        apply (seq_val_ts cap Hc s (cellof cap pos) mq (lapof cap pos) I (Hi0 pos) B).
        rewrite <- (pos_decomp cap pos); [assumption|lia].
    + intros t w pos mq me Hpc. pose proof (i_thr cap s I t) as T. rewrite Hpc in T.
      destruct T as (A & B & C). split; [assumption|]. split; [assumption|].
      destruct me as [e|].
      * destruct C as (C1 & C2 & C3 & C4). repeat (split; [assumption|]).
        rewrite (i_enq_val cap s I e C3) in C4. lia.
      * destruct C as (C1 & C2). split; [assumption|]. split; [assumption|].
        apply (seq_val_ts cap Hc s (cellof cap pos) mq (lapof cap pos) I (Hi0 pos) B).
        rewrite <- (pos_decomp cap pos); [assumption|lia].
Qed.

(** the four parts on their own *)
Definition vyukov_pop_reads_push_wm cap (Hc : 2 <= cap) o s t pos m
    (Ok : orders_ok o = true) (R : preach cap o s) :=
  proj1 (vyukov_weak_correct cap o Hc Ok s R) t pos m.
Definition vyukov_histories_wm cap (Hc : 2 <= cap) o s (Ok : orders_ok o = true) (R : preach cap o s) :=
  proj1 (proj2 (vyukov_weak_correct cap o Hc Ok s R)).
Definition vyukov_race_free_wm cap (Hc : 2 <= cap) o s (Ok : orders_ok o = true) (R : preach cap o s) :=
  proj1 (proj2 (proj2 (vyukov_weak_correct cap o Hc Ok s R))).
Definition vyukov_fail_justified_wm cap (Hc : 2 <= cap) o s (Ok : orders_ok o = true) (R : preach cap o s) :=
  proj2 (proj2 (proj2 (vyukov_weak_correct cap o Hc Ok s R))).

(** the machine ([View.step]) started in the constructed queue stays well formed (that every program
    execution is an execution of the machine is [ptrace_valid]) *)
Theorem vyukov_machine_wf : forall cap o s, 2 <= cap -> orders_ok o = true -> preach cap o s -> wf (ms s).
Proof. intros cap o s Hc Ok R. destruct (inv_preach cap Hc o s Ok R). assumption. Qed.
