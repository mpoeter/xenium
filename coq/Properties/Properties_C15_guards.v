(** C15 - guard_ptr smart-pointer algebra, on the executable guard / slot models of hazard_pointer and hazard_eras
    (Model/HpSlotsDefs.v, Model/HeSlotsDefs.v; tied to the real guard_ptrs by the differential run): reset empties the
    guard and returns its slot, move transfers the slot and empties the source, copy makes a second, independently
    protecting guard, swap exchanges the guards together with their slots.  Statements only. *)
From Coq Require Import List Arith Permutation.
From XV Require Import Model.HpSlotsDefs Proof.HpSlots Model.HeSlotsDefs Proof.HeSlots Proof.GuardAlgebra.
Import ListNotations.

Theorem C15_hp_reset_empties : forall cfg ops g gd i, 1 <= cK cfg ->
  let st := snd (run cfg ops) in
  get_g st g = Some gd -> g_hp gd = Some i ->
  let st' := state_after cfg st (GReset g) in
  outcome_of cfg st (GReset g) = Ok /\
  get_g st' g = Some empty_guard /\ (forall g', g' <> g -> get_g st' g' = get_g st g') /\
  free_list (pl st') = i :: free_list (pl st) /\
  held_count st' + 1 = held_count st /\
  (exists p, p_alloc cfg (pl st') = AOk i p).
Proof. intros cfg ops g gd i HK. exact (reset_returns_slot_inv cfg _ g gd i HK (run_inv cfg ops HK)). Qed.
Print Assumptions C15_hp_reset_empties.

Theorem C15_hp_move_empties_source : forall cfg ops op dst src dd sd, 1 <= cK cfg ->
  let st := snd (run cfg ops) in
  op = GMoveCtor dst src \/ op = GMoveAssign dst src -> dst <> src ->
  get_g st dst = Some dd -> get_g st src = Some sd ->
  let st' := state_after cfg st op in
  outcome_of cfg st op = Ok /\
  get_g st' dst = Some sd /\ get_g st' src = Some empty_guard /\
  (forall g, g <> dst -> g <> src -> get_g st' g = get_g st g) /\
  free_list (pl st') = hpl dd ++ free_list (pl st) /\
  held_count st' + length (hpl dd) = held_count st.
Proof. intros cfg ops op dst src dd sd HK. exact (move_transfers_slot_inv cfg _ op dst src dd sd HK (run_inv cfg ops HK)). Qed.
Print Assumptions C15_hp_move_empties_source.

Theorem C15_hp_copy_protects_independently : forall cfg ops dst src dd sd i, 1 <= cK cfg ->
  let st := snd (run cfg ops) in
  dst <> src -> get_g st dst = Some dd -> get_g st src = Some sd -> g_hp sd = Some i -> g_ptr sd <> 0 ->
  let st0 := reset_guard st dst in
  let st' := state_after cfg st (GCopyCtor dst src) in
  alloc_site st (GCopyCtor dst src) = Some st0 /\
  (outcome_of cfg st (GCopyCtor dst src) = Ok ->
   exists j, get_g st' dst = Some {| g_hp := Some j; g_ptr := g_ptr sd; g_mark := g_mark sd |} /\
             j <> i /\ ~ In j (held (guards st0)) /\
             get_g st' src = Some sd /\
             nth_error (slots (pl st')) j = Some (Obj (g_ptr sd)) /\
             nth_error (slots (pl st')) i = Some (Obj (g_ptr sd)) /\
             held_count st' = S (held_count st0)).
Proof. intros cfg ops dst src dd sd i HK. exact (copy_takes_new_slot_inv cfg _ dst src dd sd i HK (run_inv cfg ops HK)). Qed.
Print Assumptions C15_hp_copy_protects_independently.

Theorem C15_hp_swap_exchanges : forall cfg st a b ga gb,
  get_g st a = Some ga -> get_g st b = Some gb ->
  let st' := state_after cfg st (GSwap a b) in
  outcome_of cfg st (GSwap a b) = Ok /\
  get_g st' b = Some ga /\ (a <> b -> get_g st' a = Some gb) /\
  (forall g, g <> a -> g <> b -> get_g st' g = get_g st g) /\
  pl st' = pl st /\ length (guards st') = length (guards st).
Proof. exact hp_swap_exchanges. Qed.
Print Assumptions C15_hp_swap_exchanges.

Theorem C15_hp_swap_moves_slots : forall cfg st a b ga gb, a <> b ->
  get_g st a = Some ga -> get_g st b = Some gb ->
  let st' := state_after cfg st (GSwap a b) in
  option_map g_hp (get_g st' a) = Some (g_hp gb) /\ option_map g_hp (get_g st' b) = Some (g_hp ga) /\
  option_map g_ptr (get_g st' a) = Some (g_ptr gb) /\ option_map g_ptr (get_g st' b) = Some (g_ptr ga).
Proof. exact hp_swap_moves_slots. Qed.
Print Assumptions C15_hp_swap_moves_slots.

Theorem C15_he_swap_exchanges : forall cfg st a b ga gb,
  h_get st a = Some ga -> h_get st b = Some gb ->
  let st' := snd (h_step_g cfg st (GSwap a b)) in
  fst (fst (h_step_g cfg st (GSwap a b))) = Ok /\
  h_get st' b = Some ga /\ (a <> b -> h_get st' a = Some gb) /\
  (forall g, g <> a -> g <> b -> h_get st' g = h_get st g) /\
  hpool st' = hpool st /\ h_clock st' = h_clock st.
Proof. exact he_swap_exchanges. Qed.
Print Assumptions C15_he_swap_exchanges.
