(** The case analysis of a step of the lock-free reference counting model (Model/LfrcDefs.v), shared by all proofs that
    a step preserves a clause of [Inv].  [step] is split by program point and by the tests of that program point; the
    continuations of the model ([rk_go], [acq_done]) are not unfolded but replaced by their summary [cont]: thread t
    moves to a program point that owns nothing, possibly dereferences a node, or operator new takes a block from the
    heap.  Only [tsh_step] looks into the continuations.  No axioms. *)
From Coq Require Import NArith List Bool Arith Lia PeanoNat.
From XV Require Import Conc.Lts Conc.Ev Model.LfrcDefs Proof.LfrcBase.
Import ListNotations.

Definition actor (a : action) : nat := match a with Start t _ | Step t => t end.

(** the program points a continuation leads to: the thread owns no reference and works on no node *)
Definition quiet (p : pc) : Prop :=
  match p with Idle | Done | A1 _ | D1 (WG _) _ _ | P4 _ _ _ | R1 _ None => True | _ => False end.

Lemma quiet_owned p : quiet p -> owned p = None.
Proof. destruct p as [| | | | | |[]| | | | | | | | | | | | |? []| |]; cbn; intros H; try reflexivity; destruct H. Qed.
Lemma quiet_own s t p : quiet p -> own_ok s t p.
Proof. destruct p as [| | | | | |[]| | | | | | | | | | | | |? []| |]; cbn; intros H; try exact I; destruct H. Qed.

Inductive cont (ns t : nat) (s1 : state) : state -> Prop :=
| C_pc p : quiet p -> cont ns t s1 (set_pc t p s1)
| C_deref p n : quiet p -> cont ns t s1 (set_pc t p (deref n s1))
| C_alloc c : cont ns t s1 (set_pc t (N2 c (nalloc s1)) (w_nalloc (S (nalloc s1)) (w_g_ns (upd (g_ns s1) (nalloc s1) (NNew t)) s1))).

Lemma rk_go_cont ns s1 t k e s' es : rk_go ns s1 t k e = Some (s', es) -> cont ns t s1 s'.
Proof.
  intros H. unfold rk_go, pop_moved, exit_next, finish in H; step_split H.
  all: first [apply C_pc | apply C_alloc]; exact I.
Qed.
Lemma acq_done_cont ns s1 t k e s' es : acq_done ns s1 t k e = Some (s', es) -> cont ns t s1 s'.
Proof.
  intros H. unfold acq_done, pop_moved, finish, deref_g in H; step_split H.
  all: first [apply C_pc | apply C_deref | apply C_alloc]; exact I.
Qed.

Ltac on := cbn [own_ok ownr_ok owned holds gnode cbit is_new has_ref bad_q live4 isfree alive_ok who_ref].
Ltac on_in H := cbn [own_ok ownr_ok owned holds gnode cbit is_new has_ref bad_q live4 isfree alive_ok who_ref] in H.

(* The cases of [H : step ns s a = Some (s', es)], t the acting thread: [E : th s t = ..]; [Eread : src s k = .. /
   cells s c = .. / fhead s = ..] if the step found the pointer it loads equal to something (the other tests of the
   program point are to be selected by their shape); a continuation is replaced by its [cont]
   (new program counter q, [Hq : quiet q]).  The memory order of the decrement's CAS appears in the event only and is
   hidden from the split ([mo]). *)
Ltac step_cases H t :=
  match type of H with step _ _ (Step _) = _ => idtac | step _ _ ?a = _ => destruct a as [t ?|t] end; cbn [actor] in *;
  unfold step, finish, deref_g in H; cbv beta iota zeta in H;
  (destruct (th _ t) eqn:E; try discriminate H); try set (mo := if _ =? 1 then mo_acqrel else mo_rel) in H;
  step_split H; bool_eqs; subst;
  try (first [apply rk_go_cont in H | apply acq_done_cont in H]; destruct H as [q Hq|q ? Hq|?]);
  try match goal with
      | Hx : src _ _ = _ |- _ => rename Hx into Eread | Hx : cells _ _ = _ |- _ => rename Hx into Eread
      | Hx : fhead _ = _ |- _ => rename Hx into Eread
      end.

(* .. with the shape [Hs] [Hg] [Hp] and the ownership facts [Ho] of t's program point *)
Ltac leaves HI H t :=
  step_cases H t; try match goal with Hq : quiet _ |- _ => pose proof (quiet_owned _ Hq) end;
  let Hs := fresh "Hs" in let Ho := fresh "Ho" in
  pose proof (I_sh _ _ HI t) as Hs; pose proof (I_own _ _ HI t) as Ho;
  match goal with E : th _ t = _ |- _ => rewrite E in Hs, Ho end; destruct Hs as (Hs & Hg & Hp);
  fn_in Hs; fn_in Hp; on_in Ho; cbn [who_ref].

(** a step of t leaves the other threads' program counters and guards alone *)
Lemma step_frame ns s a s' es : step ns s a = Some (s', es) -> forall u, u <> actor a -> th s' u = th s u /\ tl s' u = tl s u.
Proof.
  intros H u Hu. step_cases H t.
  all: prj; rewrite ?upd_other by exact Hu; split; reflexivity.
Qed.

Lemma tsh_step ns s a s' es : step ns s a = Some (s', es) ->
  tsh ns (th s (actor a)) (gd (tl s (actor a))) -> tsh ns (th s' (actor a)) (gd (tl s' (actor a))).
Proof.
  intros H (I & G & P). destruct a as [t o|t]; cbn [actor] in *.
  all: unfold step, rk_go, acq_done, pop_moved, exit_next, finish, deref_g, deref_res in H; cbv beta iota zeta in H.
  all: destruct (th s t) eqn:E; try discriminate H; try set (mo := if _ =? 1 then mo_acqrel else mo_rel) in H; step_split H.
  all: bool_eqs; prj; rewrite ?upd_same; prj; fn_in I; fn_in P.
  all: split; [fn | split; [intros gx qx Hgx; fn | fn; intros HP]].
  (* the continuation is carried along unchanged *)
  all: try solve [assumption | exact (G _ _ Hgx) | exact (P HP)].
  all: solve [fin G P].
Qed.
