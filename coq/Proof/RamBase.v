(** Ramalhete queue model (Model/RamDefs.v): arithmetic of the generated index step; the step function
    read as a relation ([move] inside [qstep] inside [tstep], obtained from [step] by the one inversion
    lemma [step_inv]); what a step may do to the nodes ([ext], [keeps]) and to their tickets ([unwritten],
    [quiet]); and the first invariant layer (node chain, counters, per-thread node facts).
    Everything is proved for every E >= 1 with C_step_size E * E < 2^32, every R, and every reachable
    state in which no 32-bit counter has wrapped ([g_ovf st = false]). *)
From Coq Require Import NArith List Bool Lia PeanoNat.
From XV Require Import Base.Word Conc.Lts Conc.Ev gen.RamalheteNodeGen Proof.RamalheteNode Model.RamDefs.
From XV Require Proof.MsqInv.
Import ListNotations.
Local Open Scope N_scope.

Notation lpath := MsqInv.lpath.

Lemma setf_same {X} (f : N -> X) i v : setf f i v i = v.
Proof. unfold setf. rewrite N.eqb_refl. reflexivity. Qed.
Lemma setf_other {X} (f : N -> X) i v j : j <> i -> setf f i v j = f j.
Proof. unfold setf. intros H. destruct (N.eqb_spec j i); [contradiction|reflexivity]. Qed.
Lemma setf2_same {X} (f : N -> N -> X) i k v : setf2 f i k v i k = v.
Proof. unfold setf2. rewrite N.eqb_refl. apply setf_same. Qed.
Lemma setf2_other_n {X} (f : N -> N -> X) i k v j k' : j <> i -> setf2 f i k v j k' = f j k'.
Proof. unfold setf2. intros H. destruct (N.eqb_spec j i); [contradiction|reflexivity]. Qed.
Lemma setf2_other_k {X} (f : N -> N -> X) i k v j k' : k' <> k -> setf2 f i k v j k' = f j k'.
Proof.
  unfold setf2. intros H. destruct (N.eqb_spec j i); [|reflexivity]. subst. apply setf_other. exact H.
Qed.
Lemma setf2_other {X} (f : N -> N -> X) i k v j k' : (j <> i \/ k' <> k) -> setf2 f i k v j k' = f j k'.
Proof. intros [H|H]; [apply setf2_other_n|apply setf2_other_k]; exact H. Qed.

Lemma threads_upd (P : pc -> Prop) f t p :
  (forall t', t' <> t -> P (f t')) -> P p -> forall t', P (upd f t p t').
Proof.
  intros Ho Hp t'. destruct (Nat.eq_dec t' t) as [->|Hne].
  - rewrite upd_same. exact Hp.
  - rewrite upd_other by exact Hne. apply Ho. exact Hne.
Qed.

(** an [option]-valued tag of the program counters that is unique among the threads stays unique when the
    stepping thread drops it, keeps it, or takes one that nobody has *)
Lemma uniq_upd {X : Type} (g : pc -> option X) f t p :
  (forall t1 t2 x, g (f t1) = Some x -> g (f t2) = Some x -> t1 = t2) ->
  (g p = None \/ g p = g (f t) \/ (forall x, g p = Some x -> forall t', g (f t') <> Some x)) ->
  forall t1 t2 x, g (upd f t p t1) = Some x -> g (upd f t p t2) = Some x -> t1 = t2.
Proof.
  intros HU Hp.
  assert (Hx : forall a x, a <> t -> g p = Some x -> g (f a) = Some x -> False).
  { intros a x Ha Hpx Hax. destruct Hp as [Hp|[Hp|Hp]]; [congruence| |exact (Hp x Hpx a Hax)]. rewrite Hp in Hpx. exact (Ha (HU _ _ _ Hax Hpx)). }
  intros a b x. destruct (Nat.eq_dec a t) as [->|Ha]; destruct (Nat.eq_dec b t) as [->|Hb];
    rewrite ?upd_same, ?(upd_other _ _ _ _ Ha), ?(upd_other _ _ _ _ Hb); intros H1 H2; [reflexivity| | |exact (HU _ _ _ H1 H2)]; exfalso; eauto.
Qed.

(** projections of the updated records *)
Ltac prj := cbn [head tail popi pushi ent nnext nalloc tokv th g_pushed g_popped g_fate g_nodes g_retired g_ptk g_dtk g_ovf
                 w_th w_head w_tail w_popi w_pushi w_ent w_next w_nalloc w_tokv w_pushed w_popped w_fate w_nodes w_retired w_ptk w_dtk w_ovf].
Ltac prj_in H := cbn [head tail popi pushi ent nnext nalloc tokv th g_pushed g_popped g_fate g_nodes g_retired g_ptk g_dtk g_ovf
                 w_th w_head w_tail w_popi w_pushi w_ent w_next w_nalloc w_tokv w_pushed w_popped w_fate w_nodes w_retired w_ptk w_dtk w_ovf] in H.


(** * Lists *)
Lemma NoDup_app_notin (A : Type) (l1 l2 : list A) x : NoDup (l1 ++ l2) -> In x l1 -> ~ In x l2.
Proof.
  induction l1 as [|a l1 IH]; intros Hnd Hin; [destruct Hin|].
  cbn [app] in Hnd. inversion Hnd as [|a' l' Hna Hnd']; subst.
  destruct Hin as [<-|Hin]; [|apply IH; assumption].
  intros Hc. apply Hna. apply in_or_app. right. exact Hc.
Qed.

Lemma NoDup_app_l (A : Type) (l1 l2 : list A) : NoDup (l1 ++ l2) -> NoDup l1.
Proof.
  induction l1 as [|a l1 IH]; intros H; [constructor|].
  cbn [app] in H. inversion H as [|a' l' Hna Hnd']; subst. constructor.
  - intros Hc. apply Hna. apply in_or_app. left. exact Hc.
  - apply IH. exact Hnd'.
Qed.

Lemma app_inj_nodup (l1 l2 l1' l2' : list N) x :
  NoDup (l1 ++ x :: l2) -> l1 ++ x :: l2 = l1' ++ x :: l2' -> l1 = l1' /\ l2 = l2'.
Proof.
  revert l1'. induction l1 as [|a l1 IH]; intros l1' Hnd He.
  - destruct l1' as [|a' l1']; cbn [app] in *.
    + inversion He. split; reflexivity.
    + inversion He; subst. exfalso. inversion Hnd as [|? ? Hna ?]; subst. apply Hna.
      apply in_or_app. right. left. reflexivity.
  - destruct l1' as [|a' l1']; cbn [app] in *.
    + inversion He; subst. exfalso. inversion Hnd as [|? ? Hna ?]; subst. apply Hna.
      apply in_or_app. right. left. reflexivity.
    + inversion He; subst. inversion Hnd; subst. destruct (IH l1') as [-> ->]; try assumption. split; reflexivity.
Qed.

Lemma app_nil_ex (A : Type) (l : list A) : exists more, l = l ++ more.
Proof. exists []. symmetry. apply app_nil_r. Qed.

Lemma snoc_inj (A : Type) (l l' : list A) a a' : l ++ [a] = l' ++ [a'] -> l = l' /\ a = a'.
Proof. intros H. apply app_inj_tail in H. exact H. Qed.

(** * Arithmetic of the generated step *)
Section Arith.
  Variable E : N.
  Hypothesis HE : 1 <= E.
  Hypothesis HM : C_step_size E * E < 2 ^ 32.

  Lemma SS_pos : 0 < SS E.
  Proof using HE HM. apply step_pos. Qed.

  Lemma MAXI_eq : MAXI E = SS E * E.
  Proof using HE HM. apply C_max_idx_eq. exact HM. Qed.

  Lemma tick_mul k : tick_of E (SS E * k) = k.
  Proof using HE HM. unfold tick_of. rewrite N.mul_comm. apply N.div_mul. pose proof SS_pos. lia. Qed.

  (** a counter value that is a multiple of the step *)
  Definition aligned (x : N) : Prop := x = SS E * tick_of E x.

  Lemma aligned_mul k : aligned (SS E * k).
  Proof using HE HM. unfold aligned. rewrite tick_mul. reflexivity. Qed.

  Lemma aligned_0 : aligned 0.
  Proof using HE HM. unfold aligned, tick_of. rewrite N.div_0_l; [lia|]. pose proof SS_pos. lia. Qed.

  Lemma tick_0 : tick_of E 0 = 0.
  Proof using HE HM. unfold tick_of. apply N.div_0_l. pose proof SS_pos. lia. Qed.

  Lemma tick_SS : tick_of E (SS E) = 1.
  Proof using HE HM. unfold tick_of. apply N.div_same. pose proof SS_pos. lia. Qed.

  Lemma aligned_SS : aligned (SS E).
  Proof using HE HM. unfold aligned. rewrite tick_SS. lia. Qed.

  Lemma aligned_step x : aligned x -> aligned (x + SS E) /\ tick_of E (x + SS E) = tick_of E x + 1.
  Proof using HE HM.
    intros Hx. unfold aligned in Hx. assert (H : x + SS E = SS E * (tick_of E x + 1)) by lia.
    rewrite H. split; [apply aligned_mul|apply tick_mul].
  Qed.

  Lemma tick_mono x y : x <= y -> tick_of E x <= tick_of E y.
  Proof using HE HM. intros H. unfold tick_of. apply N.div_le_mono; [pose proof SS_pos; lia|exact H]. Qed.

  (** [max_idx <= idx] is [E <= ticket] *)
  Lemma maxi_le x : aligned x -> (MAXI E <= x <-> E <= tick_of E x).
  Proof using HE HM. intros Hx. unfold aligned in Hx. rewrite MAXI_eq. pose proof SS_pos. nia. Qed.

  Lemma slot_lt idx : slot_of E idx < E.
  Proof using HE HM. unfold slot_of, wmod. apply N.mod_lt. lia. Qed.

  Lemma slot_0 : slot_of E 0 = 0.
  Proof using HE HM. unfold slot_of, wmod. apply N.mod_0_l. lia. Qed.

  (** distinct tickets of a node use distinct entries: the generated, proved [slots_distinct] *)
  Lemma slot_inj k1 k2 : k1 < E -> k2 < E -> slot_of E (SS E * k1) = slot_of E (SS E * k2) -> k1 = k2.
  Proof using HE HM. intros H1 H2 H. apply (slots_distinct E k1 k2); try assumption. lia. Qed.

  Lemma slot_nz k : k < E -> k <> 0 -> slot_of E (SS E * k) <> 0.
  Proof using HE HM.
    intros Hk Hnz Hc. apply Hnz. apply slot_inj; [exact Hk|lia|].
    rewrite Hc. rewrite N.mul_0_r. symmetry. apply slot_0.
  Qed.

  (** every entry index is the slot of exactly one ticket *)
  Lemma le_counter_tick x y : aligned x -> aligned y -> (x <=? y) = (tick_of E x <=? tick_of E y).
  Proof using HE HM.
    intros Hx Hy. unfold aligned in Hx, Hy. pose proof SS_pos as HS.
    destruct (N.leb_spec (tick_of E x) (tick_of E y)) as [H|H].
    - apply N.leb_le. rewrite Hx, Hy. apply N.mul_le_mono_l. exact H.
    - apply N.leb_gt. rewrite Hx, Hy. apply N.mul_lt_mono_pos_l; assumption.
  Qed.
End Arith.

(** * Step case analysis *)
Lemma orb_false_ovf (a : bool) (x y : N) : a || negb (x =? y) = false -> a = false /\ x = y.
Proof.
  intros H. apply orb_false_iff in H. destruct H as [H1 H2]. split; [exact H1|].
  apply negb_false_iff in H2. apply N.eqb_eq. exact H2.
Qed.

Ltac hbs := repeat match goal with
  | H : (_ =? _) = true |- _ => apply N.eqb_eq in H
  | H : (_ =? _) = false |- _ => apply N.eqb_neq in H
  | H : (_ <? _) = true |- _ => apply N.ltb_lt in H
  | H : (_ <? _) = false |- _ => apply N.ltb_ge in H
  | H : (_ <=? _) = true |- _ => apply N.leb_le in H
  | H : (_ <=? _) = false |- _ => apply N.leb_gt in H
  end.

(** * The step relation
    The step function of the model, read as a relation between the program counter of the stepping
    thread, the new shared state and the new program counter; guards are propositions.
    [move s p p']: loads and failed CASes, which write nothing. *)
Definition ctor_ent (b j : N) : cell := if j =? 0 then CVal b else CNull.

Section Step.
  Variables E R : N.
  Notation S := (SS E).
  Notation slot := (slot_of E).
  Notation tk := (tick_of E).

  Inductive move (s : state) : pc -> pc -> Prop :=
  | m_start o : move s Idle (Begin o)
  | m_pop : move s (Begin OPop) D1
  | m_P1 b : move s (P1 b) (P2 b (tail s))
  | m_P3y b tl : tail s = tl -> move s (P3 b tl) (P4 b tl)
  | m_P3n b tl : tail s <> tl -> move s (P3 b tl) (P1 b)
  | m_P4 b tl : nnext s tl <> 0 -> move s (P4 b tl) (P9 b tl)
  | m_P6 b tl n : nnext s tl <> 0 -> move s (P6 b tl n) (P6a b n)
  | m_P7 tl n : tail s <> tl -> move s (P7 tl n) Idle
  | m_P6b b n : move s (P6b b n) (P6c b n)
  | m_P6c b n : move s (P6c b n) (P1 b)
  | m_P9 b tl : move s (P9 b tl) (P10 b tl (nnext s tl))
  | m_P10 b tl nx : tail s <> tl -> move s (P10 b tl nx) (P1 b)
  | m_P8 b tl idx : ent s tl (slot idx) <> CNull -> move s (P8 b tl idx) (P1 b)
  | m_D1 : move s D1 (D2 (head s))
  | m_D2 h : move s (D2 h) (D3 h (popi s h))
  | m_D3y h p : pushi s h <= p -> move s (D3 h p) (D4 h)
  | m_D3n h p : p < pushi s h -> move s (D3 h p) (D5 h)
  | m_D4e h : nnext s h = 0 -> move s (D4 h) Idle
  | m_D4n h : nnext s h <> 0 -> move s (D4 h) (D5 h)
  | m_D6e h : nnext s h = 0 -> move s (D6 h) Idle
  | m_D6n h : nnext s h <> 0 -> move s (D6 h) (D6t h (nnext s h))
  | m_D6t h nx : tail s <> h -> move s (D6t h nx) (D7 h nx)
  | m_D7 h nx : head s <> h -> move s (D7 h nx) D1
  | m_D9n h idx c : ent s h (slot idx) = CNull -> c < R -> move s (D9 h idx c) (D9 h idx (c + 1))
  | m_D9x h idx c : ent s h (slot idx) = CNull -> R <= c -> move s (D9 h idx c) (D11 h idx)
  | m_D9t h idx c : ent s h (slot idx) = CTaken -> move s (D9 h idx c) Idle
  | m_D10 h idx b : move s (D10 h idx b) Idle.

  (** the three places where _tail is swung from [tl] to its successor [nx]: (5), (7), (16) *)
  Inductive swing : pc -> N -> N -> pc -> Prop :=
  | sw_P7 tl n : swing (P7 tl n) tl n Idle
  | sw_P10 b tl nx : swing (P10 b tl nx) tl nx (P1 b)
  | sw_D6t h nx : swing (D6t h nx) h nx (D7 h nx).

  (** the 32-bit fetch_add: the new counter value and the wrap flag *)
  Definition faa (x : N) : N := wadd 32 x S.
  Definition faa_ovf (s : state) (x : N) : bool := g_ovf s || negb (faa x =? x + S).

  (** [qstep]: the transitions that neither link a node nor hand out or write a ticket of a linked node *)
  Inductive qstep (s : state) : pc -> state -> pc -> Prop :=
  | q_move p p' : move s p p' -> qstep s p s p'
  | q_push v : qstep s (Begin (OPush v)) (w_tokv (w_nalloc s (nalloc s + 1)) (setf (tokv s) (nalloc s) v)) (P1 (nalloc s))
  | q_P2 b tl : MAXI E <= pushi s tl -> qstep s (P2 b tl) (w_ovf (w_pushi s (setf (pushi s) tl (faa (pushi s tl)))) (faa_ovf s (pushi s tl))) (P3 b tl)
  | q_P4 b tl : nnext s tl = 0 ->
      qstep s (P4 b tl)
        (w_fate (w_next (w_pushi (w_popi (w_nalloc s (nalloc s + 1)) (setf (popi s) (nalloc s) 0)) (setf (pushi s) (nalloc s) S))
                        (setf (nnext s) (nalloc s) 0))
                (fun n' => if n' =? nalloc s then (fun _ => FNone) else g_fate s n'))
        (P5 b tl (nalloc s) 0)
  | q_P5 b tl n i :
      qstep s (P5 b tl n i) (w_ent s (setf2 (ent s) n i (ctor_ent b i))) (if i + 1 <? E then P5 b tl n (i + 1) else P6 b tl n)
  | q_swing p tl nx p' : swing p tl nx p' -> tail s = tl -> qstep s p (w_tail s nx) p'
  | q_P6a b n : qstep s (P6a b n) (w_pushi s (setf (pushi s) n 0)) (P6b b n)
  | q_D5 h : MAXI E <= popi s h -> qstep s (D5 h) (w_ovf (w_popi s (setf (popi s) h (faa (popi s h)))) (faa_ovf s (popi s h))) (D6 h)
  | q_D7 h nx : head s = h -> qstep s (D7 h nx) (w_retired (w_head s nx) (g_retired s ++ [h])) D1
  | q_D11 h idx : ent s h (slot idx) = CTaken -> qstep s (D11 h idx) (w_ent s (setf2 (ent s) h (slot idx) CTaken)) Idle.

  Inductive tstep (s : state) : pc -> state -> pc -> Prop :=
  | t_quiet p u p' : qstep s p u p' -> tstep s p u p'
  | t_P2 b tl : pushi s tl < MAXI E ->
      tstep s (P2 b tl) (w_ptk (w_ovf (w_pushi s (setf (pushi s) tl (faa (pushi s tl)))) (faa_ovf s (pushi s tl))) (g_ptk s ++ [(tl, tk (pushi s tl))]))
        (P8 b tl (pushi s tl))
  | t_D5 h : popi s h < MAXI E ->
      tstep s (D5 h) (w_dtk (w_ovf (w_popi s (setf (popi s) h (faa (popi s h)))) (faa_ovf s (popi s h))) (g_dtk s ++ [(h, tk (popi s h))]))
        (D9 h (popi s h) 0)
  | t_link b tl n : nnext s tl = 0 ->
      tstep s (P6 b tl n)
        (w_ptk (w_nodes (w_fate (w_pushed (w_next s (setf (nnext s) tl n)) (g_pushed s ++ [b])) (setf2 (g_fate s) n 0 (FFilled b)))
                        (g_nodes s ++ [n]))
               (g_ptk s ++ [(n, 0)]))
        (P7 tl n)
  | t_P8 b tl idx : ent s tl (slot idx) = CNull ->
      tstep s (P8 b tl idx)
        (w_fate (w_pushed (w_ent s (setf2 (ent s) tl (slot idx) (CVal b))) (g_pushed s ++ [b])) (setf2 (g_fate s) tl (tk idx) (FFilled b)))
        Idle
  | t_D9 h idx c b : ent s h (slot idx) = CVal b ->
      tstep s (D9 h idx c) (w_fate (w_popped s (g_popped s ++ [b])) (setf2 (g_fate s) h (tk idx) (FConsumed b))) (D10 h idx b)
  | t_D11n h idx : ent s h (slot idx) = CNull ->
      tstep s (D11 h idx) (w_fate (w_ent s (setf2 (ent s) h (slot idx) CTaken)) (setf2 (g_fate s) h (tk idx) FPoisoned)) D1
  | t_D11v h idx b : ent s h (slot idx) = CVal b ->
      tstep s (D11 h idx)
        (w_fate (w_popped (w_ent s (setf2 (ent s) h (slot idx) CTaken)) (g_popped s ++ [b])) (setf2 (g_fate s) h (tk idx) (FConsumed b)))
        Idle.

  Lemma faa_nowrap s x : faa_ovf s x = false -> g_ovf s = false /\ faa x = x + S.
  Proof. apply orb_false_ovf. Qed.

  Lemma faa_small s x : x + S < 2 ^ 32 -> faa x = x + S /\ faa_ovf s x = g_ovf s.
  Proof. intros H. unfold faa_ovf, faa. rewrite (wadd_small 32 _ _ H), N.eqb_refl. split; [reflexivity|apply orb_false_r]. Qed.

  Lemma step_inv s a s' es : step E R s a = Some (s', es) ->
    exists t u p', tstep s (th s t) u p' /\ s' = w_th u (upd (th s) t p') /\ (a = Step t /\ th s t <> Idle \/ exists o, a = Start t o /\ th s t = Idle).
  Proof.
    unfold step, step_gen. destruct a as [t o|t]; intros H; exists t.
    - destruct (th s t); inversion H. eexists _, _. split; [apply t_quiet, q_move, m_start|]. eauto.
    - destruct (th s t) as [|[v|]| | | | |b tl n i| | | | | | | | | | | | | | | | | | |]; cbv beta iota zeta in H; try discriminate H.
      7: { injection H as <- _. eexists _, _. split; [apply t_quiet, q_P5|]. split; [reflexivity|]. left. split; [reflexivity|discriminate]. }
      all: repeat match type of H with context [match ?x with _ => _ end] => destruct x eqn:? end.
      all: injection H as <- _; hbs.
      all: refine (ex_intro _ _ (ex_intro _ _ (conj _ (conj eq_refl (or_introl (conj eq_refl _)))))); [|discriminate].
      all: first [ apply t_quiet, q_move; constructor; first [assumption | congruence] | apply t_quiet; econstructor; first [assumption | constructor] | constructor; assumption ].
  Qed.

  (** the two returns of a value: the second load of the entry writes nothing, the exchange consumes the ticket *)
  Lemma tstep_D10 s h idx b u p' : tstep s (D10 h idx b) u p' -> u = s.
  Proof.
    intros Hs. inversion Hs as [? ? ? Hq| | | | | | |]; subst. inversion Hq as [? ? Hm| | | | |? ? ? ? Hsw| | | |]; subst; [reflexivity|inversion Hsw].
  Qed.

  Lemma tstep_D11 s h idx b u p' : tstep s (D11 h idx) u p' -> ent s h (slot idx) = CVal b ->
    g_nodes u = g_nodes s /\ g_fate u h (tk idx) = FConsumed b.
  Proof.
    intros Hs He. inversion Hs as [? ? ? Hq| | | | | |? ? Hn|? ? b' Hv]; subst; [|congruence|].
    - inversion Hq as [? ? Hm| | | | |? ? ? ? Hsw| | | |? ? Ht]; subst; [inversion Hm|inversion Hsw|congruence].
    - prj. replace b' with b by congruence. split; [reflexivity|apply setf2_same].
  Qed.

  Lemma ovf_sticky s a s' es : step E R s a = Some (s', es) -> g_ovf s' = false -> g_ovf s = false.
  Proof.
    intros H. destruct (step_inv s a s' es H) as (t & u & p' & Hs & -> & _). prj.
    destruct Hs as [? ? ? Hs| | | | | | |]; [destruct Hs|..]; prj; try exact (fun H => H); intros Ho; apply faa_nowrap in Ho; tauto.
  Qed.
End Step.

(** all transitions of [tstep], the quiet ones first *)
Ltac tcases Hs := destruct Hs as [? ? ? Hs| | | | | | |]; [destruct Hs|..].

(** * Layer A: node chain, counters, per-thread node facts *)
Section LayerA.
  Variables E R : N.
  Hypothesis HE : 1 <= E.
  Hypothesis HM : C_step_size E * E < 2 ^ 32.
  Set Default Proof Using "HE HM".
  Notation S := (SS E).
  Notation tk := (tick_of E).
  Notation al := (aligned E).
  Local Notation tick_mono := (tick_mono E HE HM).
  Local Notation aligned_step := (aligned_step E HE HM).
  Local Notation aligned_0 := (aligned_0 E HE HM).
  Local Notation aligned_SS := (aligned_SS E HE HM).
  Local Notation maxi_le := (maxi_le E HE HM).

  (** the private (allocated, not yet linked or already lost) node of a pushing thread *)
  Definition priv (p : pc) : option N :=
    match p with
    | P5 _ _ n _ | P6 _ _ n | P6a _ n | P6b _ n | P6c _ n => Some n
    | _ => None
    end.

  Definition fresh_node (st : state) (n : N) : Prop := n <> 0 /\ n < nalloc st /\ ~ In n (g_nodes st).
  Definition in_old (st : state) (h : N) : Prop := In h (g_retired st ++ [head st]).
  (** push tickets / pop tickets handed out on node n so far *)
  Definition pa (st : state) (n : N) : N := tk (pushi st n).
  Definition pd (st : state) (n : N) : N := tk (popi st n).

  Definition TA (st : state) (p : pc) : Prop :=
    match p with
    | P2 _ t | P8 _ t _ => In t (g_nodes st)
    | P3 _ t => In t (g_nodes st) /\ E + 1 <= pa st t
    | P4 _ t => In t (g_nodes st) /\ E + 1 <= pa st t /\ (nnext st t = 0 -> tail st = t)
    | P9 _ t => In t (g_nodes st) /\ nnext st t <> 0
    | P5 b t n i =>
      In t (g_nodes st) /\ E + 1 <= pa st t /\ (nnext st t = 0 -> tail st = t) /\ fresh_node st n /\ popi st n = 0 /\ pushi st n = S /\ nnext st n = 0 /\
      i < E /\ (forall j, j < i -> ent st n j = ctor_ent b j)
    | P6 b t n =>
      In t (g_nodes st) /\ E + 1 <= pa st t /\ (nnext st t = 0 -> tail st = t) /\ fresh_node st n /\ popi st n = 0 /\ pushi st n = S /\ nnext st n = 0 /\
      (forall j, j < E -> ent st n j = ctor_ent b j)
    | P6a _ n => fresh_node st n /\ popi st n = 0
    | P6b _ n | P6c _ n => fresh_node st n /\ popi st n = 0 /\ pushi st n = 0
    | P7 t n | P10 _ t n => In t (g_nodes st) /\ nnext st t = n /\ n <> 0
    | D2 h | D3 h _ | D4 h | D5 h => in_old st h
    | D6 h => in_old st h /\ E + 1 <= pd st h
    | D6t h nx => in_old st h /\ E + 1 <= pd st h /\ nnext st h = nx /\ nx <> 0
    | D7 h nx => in_old st h /\ E + 1 <= pd st h /\ nnext st h = nx /\ nx <> 0 /\ tail st <> h
    | D9 h _ _ | D10 h _ _ | D11 h _ => In h (g_nodes st)
    | _ => True
    end.

  Record InvA (st : state) : Prop := mkInvA {
    a_path : lpath (nnext st) (g_nodes st);
    a_nodup : NoDup (g_nodes st);
    a_lt : forall n, In n (g_nodes st) -> n < nalloc st;
    a_head : exists rest, g_nodes st = g_retired st ++ head st :: rest /\ forall n, In n rest -> popi st n = 0;
    a_tail : exists l0, g_nodes st = l0 ++ [tail st] \/ exists x, g_nodes st = l0 ++ [tail st; x];
    a_al : forall n, In n (g_nodes st) -> al (pushi st n) /\ al (popi st n);
    a_full : forall n, In n (g_nodes st) -> nnext st n <> 0 -> E + 1 <= pa st n;
    a_ret : forall n, In n (g_retired st) -> E + 1 <= pd st n;
    a_tnr : ~ In (tail st) (g_retired st);
    a_thr : forall t, TA st (th st t);
    a_priv : forall t1 t2 n, priv (th st t1) = Some n -> priv (th st t2) = Some n -> t1 = t2
  }.

  (** ** What a step may do to the linked nodes and to the unlinked ones *)

  (** a counter after at most one fetch_add *)
  Definition bump (x y : N) : Prop := y = x \/ y = x + S.

  (** [ext s s']: the chain grows at the end, head and the retired list advance, the counters of linked
      nodes grow (the pop counter only of a node that has been the head), a non-null next pointer is final, and _tail leaves a node only for its successor *)
  Record ext (s s' : state) : Prop := mkExt {
    e_nodes : exists more, g_nodes s' = g_nodes s ++ more;
    e_ret : exists more, g_retired s' = g_retired s ++ more;
    e_cnt : forall n, In n (g_nodes s) ->
      bump (pushi s n) (pushi s' n) /\ bump (popi s n) (popi s' n) /\ (popi s' n <> popi s n -> in_old s n) /\
      (nnext s n <> 0 -> nnext s' n = nnext s n);
    e_old : forall h, in_old s h -> in_old s' h;
    e_tail : forall n, In n (g_nodes s) -> nnext s n = 0 -> tail s = n -> tail s' = n;
    e_tailne : forall h, in_old s h -> tail s <> h -> tail s' <> h
  }.

  (** [keeps s s' n]: the unlinked node n stays unlinked and none of its fields is written *)
  Definition keeps (s s' : state) (n : N) : Prop :=
    fresh_node s' n /\ popi s' n = popi s n /\ pushi s' n = pushi s n /\ nnext s' n = nnext s n /\ forall j, ent s' n j = ent s n j.

  Lemma ext_fields s s' :
    g_nodes s' = g_nodes s -> g_retired s' = g_retired s -> head s' = head s -> tail s' = tail s ->
    (forall n, In n (g_nodes s) ->
       bump (pushi s n) (pushi s' n) /\ bump (popi s n) (popi s' n) /\ (popi s' n <> popi s n -> in_old s n) /\ nnext s' n = nnext s n) ->
    ext s s'.
  Proof using.
    intros Hn Hr Hh Ht Hc. constructor; unfold in_old; rewrite ?Hn, ?Hr, ?Hh, ?Ht; try (intros; assumption).
    - apply app_nil_ex.
    - apply app_nil_ex.
    - intros n Hi. destruct (Hc n Hi) as (H1 & H2 & H3 & H4). auto.
  Qed.

  Lemma ext_same s s' :
    g_nodes s' = g_nodes s -> g_retired s' = g_retired s -> head s' = head s -> tail s' = tail s ->
    popi s' = popi s -> pushi s' = pushi s -> nnext s' = nnext s -> ext s s'.
  Proof.
    intros Hn Hr Hh Ht H1 H2 H3. apply ext_fields; try assumption. rewrite H1, H2, H3. intros. unfold bump. tauto.
  Qed.

  Lemma bump_setf (f : N -> N) n m : bump (f m) (setf f n (f n + S) m).
  Proof using. unfold bump, setf. destruct (N.eqb_spec m n) as [->|_]; auto. Qed.

  Lemma bump_le x y : bump x y -> x <= y.
  Proof. unfold bump. lia. Qed.

  (** what [ext] leaves of the counter clauses of the chain invariant *)
  Lemma ext_counters s s' :
    (forall n, In n (g_nodes s) -> al (pushi s n) /\ al (popi s n)) ->
    (forall n, In n (g_nodes s) -> nnext s n <> 0 -> E + 1 <= pa s n) ->
    (forall n, In n (g_retired s) -> In n (g_nodes s) /\ E + 1 <= pd s n) ->
    ext s s' ->
    (forall n, In n (g_nodes s) -> al (pushi s' n) /\ al (popi s' n)) /\
    (forall n, In n (g_nodes s) -> nnext s n <> 0 -> E + 1 <= pa s' n) /\
    (forall n, In n (g_retired s) -> E + 1 <= pd s' n).
  Proof.
    intros Hal Hfull Hret [_ _ Hc _ _ _].
    assert (Hb : forall x y, al x -> bump x y -> al y /\ tk x <= tk y).
    { intros x y Hx [->| ->]; [split; [exact Hx|apply N.le_refl]|]. destruct (aligned_step x Hx) as [H1 H2]. split; [exact H1|lia]. }
    split; [|split].
    - intros n Hn. destruct (Hal n Hn) as [A1 A2]. destruct (Hc n Hn) as (B1 & B2 & _). split; [apply (Hb _ _ A1 B1)|apply (Hb _ _ A2 B2)].
    - intros n Hn Hz. destruct (Hal n Hn) as [A1 _]. destruct (Hc n Hn) as (B1 & _). specialize (Hfull n Hn Hz). destruct (Hb _ _ A1 B1). unfold pa in *. lia.
    - intros n Hn. destruct (Hret n Hn) as [Hi Hr]. destruct (Hal n Hi) as [_ A2]. destruct (Hc n Hi) as (_ & B2 & _). destruct (Hb _ _ A2 B2). unfold pd in *. lia.
  Qed.

  (** the per-thread facts of a thread that does not move survive a step *)
  Lemma TA_frame s s' q :
    ext s s' -> (forall h, in_old s h -> In h (g_nodes s)) -> (forall n, priv q = Some n -> fresh_node s n -> keeps s s' n) ->
    TA s q -> TA s' q.
  Proof.
    intros [[more Hn] _ Hcnt Hold Htl Htne] Hio Hpr.
    assert (Hin : forall n, In n (g_nodes s) -> In n (g_nodes s')) by (intros n Hi; rewrite Hn; apply in_or_app; left; exact Hi).
    assert (Hpa : forall n x, In n (g_nodes s) -> x <= pa s n -> x <= pa s' n).
    { intros n x Hi Hx. destruct (Hcnt n Hi) as (Hc & _). apply bump_le, (tick_mono _ _) in Hc. unfold pa in *. lia. }
    assert (Hpd : forall n x, in_old s n -> x <= pd s n -> x <= pd s' n).
    { intros n x Hi Hx. destruct (Hcnt n (Hio n Hi)) as (_ & Hc & _). apply bump_le, (tick_mono _ _) in Hc. unfold pd in *. lia. }
    assert (Hnx : forall n x, In n (g_nodes s) -> nnext s n = x -> x <> 0 -> nnext s' n = x).
    { intros n x Hi <- Hz. apply (Hcnt n Hi). exact Hz. }
    assert (Hz : forall n, In n (g_nodes s) -> (nnext s n = 0 -> tail s = n) -> nnext s' n = 0 -> tail s' = n).
    { intros n Hi Ht Hz. destruct (N.eq_dec (nnext s n) 0) as [e|e]; [auto|]. rewrite (Hnx n _ Hi eq_refl e) in Hz. contradiction. }
    unfold keeps in Hpr.
    destruct q; cbn [TA priv] in *; try exact (fun H => H); auto.
    5, 10: (* P7, P10 *) intros (H1 & H2 & H3); eauto.
    6-7: (* P6b, P6c *) intros (H4 & H5); destruct (Hpr n eq_refl H4) as (F1 & -> & -> & _); auto.
    - (* P3 *) intros (H1 & H2). auto.
    - (* P4 *) intros (H1 & H2 & H3). auto.
    - (* P5 *) intros (H1 & H2 & H3 & H4 & H5 & H6 & H7 & H8 & H9). destruct (Hpr n eq_refl H4) as (F1 & -> & -> & -> & F5).
      repeat (split; [solve [auto]|]). intros j Hj. rewrite F5. auto.
    - (* P6 *) intros (H1 & H2 & H3 & H4 & H5 & H6 & H7 & H9). destruct (Hpr n eq_refl H4) as (F1 & -> & -> & -> & F5).
      repeat (split; [solve [auto]|]). intros j Hj. rewrite F5. auto.
    - (* P6a *) intros (H4 & H5). destruct (Hpr n eq_refl H4) as (F1 & -> & _). auto.
    - (* P9 *) intros (H1 & H2). split; [auto|]. rewrite (Hnx _ _ H1 eq_refl H2). exact H2.
    - (* D6 *) intros (H1 & H2). auto.
    - (* D6t *) intros (H1 & H2 & H3 & H4). repeat split; eauto.
    - (* D7 *) intros (H1 & H2 & H3 & H4 & H5). repeat split; eauto.
  Qed.

  (** ** Consequences of the chain part *)
  Lemma old_in_nodes st h :
    (exists rest, g_nodes st = g_retired st ++ head st :: rest /\ forall n, In n rest -> popi st n = 0) ->
    in_old st h -> In h (g_nodes st).
  Proof.
    intros (rest & -> & _) Hh. unfold in_old in Hh. apply in_app_or in Hh. apply in_or_app.
    destruct Hh as [Hh|[<-|[]]]; [left; exact Hh|right; left; reflexivity].
  Qed.

  Lemma tail_in_nodes st :
    (exists l0, g_nodes st = l0 ++ [tail st] \/ exists x, g_nodes st = l0 ++ [tail st; x]) -> In (tail st) (g_nodes st).
  Proof. intros (l0 & [->|[x ->]]); apply in_or_app; right; left; reflexivity. Qed.

  Lemma head_in_old st : in_old st (head st).
  Proof. unfold in_old. apply in_or_app. right. left. reflexivity. Qed.

  Lemma old_not_rest st rest h :
    NoDup (g_nodes st) -> g_nodes st = g_retired st ++ head st :: rest -> in_old st h -> ~ In h rest.
  Proof.
    intros Hnd He Hh. rewrite He in Hnd.
    replace (g_retired st ++ head st :: rest) with ((g_retired st ++ [head st]) ++ rest) in Hnd
      by (rewrite <- app_assoc; reflexivity).
    eapply NoDup_app_notin; eauto.
  Qed.

  Lemma priv_fresh st t n : TA st (th st t) -> priv (th st t) = Some n -> fresh_node st n.
  Proof. destruct (th st t); cbn [TA priv]; intros H Hp; inversion Hp; subst; tauto. Qed.

  Lemma tick_step_le x : tk x <= tk (x + S).
  Proof. apply tick_mono. lia. Qed.

  Lemma nodes_nonempty st : lpath (nnext st) (g_nodes st) -> exists n, In n (g_nodes st).
  Proof. intros H. inversion H; eexists; left; reflexivity. Qed.

  Lemma last_two (l0 l1 : list N) a b c : l0 ++ [a] = l1 ++ [b; c] -> a = c /\ l0 = l1 ++ [b].
  Proof.
    intros H. change (l1 ++ [b; c]) with (l1 ++ [b] ++ [c]) in H. rewrite app_assoc in H.
    apply app_inj_tail in H. destruct H as [H1 H2]. split; [exact H2|exact H1].
  Qed.

  (** the tail has a successor: it is the second-last node and the successor is the last one *)
  Lemma tail_lag st nx :
    lpath (nnext st) (g_nodes st) ->
    (exists l0, g_nodes st = l0 ++ [tail st] \/ exists x, g_nodes st = l0 ++ [tail st; x]) ->
    nnext st (tail st) = nx -> nx <> 0 ->
    exists l0, g_nodes st = l0 ++ [tail st; nx].
  Proof.
    intros Hp (l0 & [He|[x He]]) Hn Hz.
    - exfalso. pose proof (MsqInv.lpath_last_null _ _ Hp) as Hl. rewrite He in Hl. rewrite last_last in Hl. congruence.
    - exists l0. rewrite He in Hp. apply MsqInv.lpath_suffix in Hp; [|discriminate].
      inversion Hp as [|a b r Ha Hab Hr]; subst. rewrite He. reflexivity.
  Qed.

  (** the successor of the tail is younger than every retired node and the head, as long as the tail itself is not retired *)
  Lemma tail_succ_young st n :
    lpath (nnext st) (g_nodes st) -> NoDup (g_nodes st) ->
    (exists rest, g_nodes st = g_retired st ++ head st :: rest /\ forall n, In n rest -> popi st n = 0) ->
    (exists l0, g_nodes st = l0 ++ [tail st] \/ exists x, g_nodes st = l0 ++ [tail st; x]) ->
    ~ In (tail st) (g_retired st) ->
    nnext st (tail st) = n -> n <> 0 -> forall h, in_old st h -> n <> h.
  Proof.
    intros Hp Hnd (rest & He & _) Htl Htnr Hn Hz h Hh Heq. subst h.
    destruct (tail_lag st n Hp Htl Hn Hz) as [l0 El].
    apply (old_not_rest st rest n Hnd He Hh).
    assert (Hin : In (tail st) (head st :: rest)).
    { assert (Hi : In (tail st) (g_nodes st)) by (rewrite El; apply in_or_app; right; left; reflexivity).
      rewrite He in Hi. apply in_app_or in Hi. destruct Hi as [Hi|Hi]; [contradiction|exact Hi]. }
    rewrite He in Hnd, El. destruct Hin as [Hh0|Hr].
    - rewrite Hh0 in El, Hnd. apply app_inj_nodup in El; [|exact Hnd]. destruct El as [_ ->]. left; reflexivity.
    - apply in_split in Hr. destruct Hr as (r1 & r2 & ->).
      replace (g_retired st ++ head st :: r1 ++ tail st :: r2) with ((g_retired st ++ head st :: r1) ++ tail st :: r2) in *
        by (rewrite <- app_assoc; reflexivity).
      apply app_inj_nodup in El; [|exact Hnd]. destruct El as [_ ->].
      apply in_or_app. right. right. left. reflexivity.
  Qed.

  (** the thread that swings _tail has seen the successor *)
  Lemma swing_next s p tl nx p' : swing p tl nx p' -> TA s p -> nnext s tl = nx /\ nx <> 0.
  Proof using. destruct 1; cbn [TA]; tauto. Qed.

  (** ** The steps *)

  Lemma tstep_ext s p u p' : InvA s -> TA s p -> tstep E R s p u p' -> g_ovf u = false -> ext s u.
  Proof.
    intros [Hpath Hnd Hlt Hhead Htail Hal Hfull Hret Htnr _ _] Ht Hs Hov.
    tcases Hs; try (apply ext_same; reflexivity); cbn [TA] in Ht; prj_in Hov; try (apply faa_nowrap in Hov as [_ ->]).
    1-2, 4-5, 7-8: apply ext_fields; try reflexivity; prj; intros n0 Hn0; unfold bump.
    - (* P2 *) pose proof (bump_setf (pushi s) tl n0). tauto.
    - (* P4: the new node is not linked *) specialize (Hlt n0 Hn0). rewrite !setf_other by lia. tauto.
    - (* P6a: the lost node is not linked *) rewrite setf_other by (intros ->; apply Ht; exact Hn0). tauto.
    - (* D5 *) pose proof (bump_setf (popi s) h n0). unfold setf. destruct (N.eqb_spec n0 h) as [->|_]; tauto.
    - pose proof (bump_setf (pushi s) tl n0). tauto.
    - pose proof (bump_setf (popi s) h n0). unfold setf. destruct (N.eqb_spec n0 h) as [->|_]; tauto.
    - (* swing: the successor of the tail is no old node *)
      destruct (swing_next s _ _ _ _ H Ht) as [Hn Hz]. subst tl. constructor; prj; eauto.
      + apply app_nil_ex.
      + apply app_nil_ex.
      + intros; unfold bump; tauto.
      + intros n0 _ Hz0 He. congruence.
      + intros h0 Hh0 _. exact (tail_succ_young s nx Hpath Hnd Hhead Htail Htnr Hn Hz h0 Hh0).
    - (* D7 *) constructor; prj; eauto.
      + apply app_nil_ex.
      + intros; unfold bump; tauto.
      + intros h0 Hh0. subst h. unfold in_old in *; prj. apply in_or_app. left. exact Hh0.
    - (* link *) destruct Ht as (H1 & H2 & H3 & (F1 & F2 & F3) & _). constructor; prj; eauto.
      + apply app_nil_ex.
      + intros n0 Hn0. unfold bump. repeat split; try tauto. intros Hz. apply setf_other. congruence.
  Qed.

  (** an unlinked node that is not the private node of the stepping thread is left alone *)
  Lemma tstep_keeps s p u p' n : InvA s -> TA s p -> tstep E R s p u p' -> fresh_node s n -> priv p <> Some n -> keeps s u n.
  Proof.
    intros HA Ht Hs (F1 & F2 & F3) Hp. pose proof (fun h => old_in_nodes s h (a_head s HA)) as Hio.
    tcases Hs; cbn [TA priv] in Ht, Hp; unfold keeps, fresh_node; prj.
    all: repeat split; try assumption; try reflexivity; try lia; try (intros; reflexivity).
    all: try (apply setf_other; first [lia | congruence]); try (intros j; apply setf2_other_n; congruence).
    - (* D5 *) apply setf_other. intros ->. exact (F3 (Hio _ Ht)).
    - apply setf_other. intros ->. exact (F3 (Hio _ Ht)).
    - (* link *) intros Hc. apply in_app_or in Hc. destruct Hc as [Hc|[Hc|[]]]; [contradiction|congruence].
    - apply setf_other. intros ->. tauto.
  Qed.

  (** ** The tickets of the linked nodes
      [unwritten s u]: no node is linked, no fate and no entry of a linked node written, no value handed over or taken out.
      [quiet s u]: moreover no ticket is handed out: the claimed part [min (pa n) E], [min (pd n) E] of every linked node is the same *)
  Record unwritten (s u : state) : Prop := mkUnw {
    uw_nodes : g_nodes u = g_nodes s;
    uw_nalloc : nalloc s <= nalloc u;
    uw_fate : forall n, n < nalloc s -> g_fate u n = g_fate s n;
    uw_ent : forall n i, In n (g_nodes s) -> ent u n i = ent s n i;
    uw_pushed : g_pushed u = g_pushed s;
    uw_popped : g_popped u = g_popped s
  }.

  Record quiet (s u : state) : Prop := mkQuiet {
    q_unw : unwritten s u;
    q_ptk : g_ptk u = g_ptk s;
    q_dtk : g_dtk u = g_dtk s;
    q_cnt : forall n, In n (g_nodes s) -> N.min (pa u n) E = N.min (pa s n) E /\ N.min (pd u n) E = N.min (pd s n) E
  }.

  (** a fetch_add on the counter of a node whose tickets are all handed out *)
  Lemma min_full x : al x -> MAXI E <= x -> N.min (tk (x + S)) E = N.min (tk x) E.
  Proof. intros Hx Hm. apply (maxi_le x Hx) in Hm. destruct (aligned_step x Hx) as [_ ->]. rewrite !N.min_r by lia. reflexivity. Qed.

  Lemma tick_full x : al x -> MAXI E <= x -> E + 1 <= tk (x + S).
  Proof. intros Hx Hm. apply (maxi_le x Hx) in Hm. destruct (aligned_step x Hx) as [_ ->]. lia. Qed.

  Lemma qstep_quiet s p u p' : InvA s -> TA s p -> qstep E R s p u p' -> g_ovf u = false -> quiet s u.
  Proof.
    intros HA Ht Hq Hov. pose proof (a_lt s HA) as Hlt.
    destruct Hq; prj_in Hov; try (apply faa_nowrap in Hov as [_ ->]); cbn [TA] in Ht;
      (constructor; [constructor|..]; unfold pa, pd; prj; auto using N.le_refl).
    - lia.
    - (* P2 *) intros n Hn. split; [|reflexivity]. unfold setf. destruct (N.eqb_spec n tl) as [->|_]; [|reflexivity].
      apply min_full; [apply (a_al s HA tl Ht)|exact H].
    - (* P4: the new node is not linked *) lia.
    - intros n Hn. destruct (N.eqb_spec n (nalloc s)); [lia|reflexivity].
    - intros n Hn. specialize (Hlt n Hn). rewrite !setf_other by lia. auto.
    - (* P5, P6a: the private node is not linked *) intros n0 i0 Hn0. apply setf2_other_n. intros ->. apply Ht. exact Hn0.
    - intros n0 Hn0. rewrite setf_other; [auto|]. intros ->. apply Ht. exact Hn0.
    - (* D5 *) intros n Hn. split; [reflexivity|]. unfold setf. destruct (N.eqb_spec n h) as [->|_]; [|reflexivity].
      apply min_full; [apply (a_al s HA h), (old_in_nodes s h (a_head s HA) Ht)|exact H].
    - (* D11 exchanges taken for taken *) intros n i _. unfold setf2, setf.
      destruct (N.eqb_spec n h) as [->|_]; [|reflexivity]. destruct (N.eqb_spec i (slot_of E idx)) as [->|_]; [|reflexivity]. symmetry. exact H.
  Qed.

  Lemma TA_th s f q : TA s q -> TA (w_th s f) q.
  Proof using. destruct q; exact (fun H => H). Qed.

  Lemma TA_move s p p' : In (tail s) (g_nodes s) -> move E R s p p' -> TA s p -> TA s p'.
  Proof. intros Hti Hm. destruct Hm; cbn [TA]; try tauto; intros _; apply head_in_old. Qed.

  Lemma tstep_priv s p u p' : tstep E R s p u p' -> priv p' = None \/ priv p' = priv p \/ priv p' = Some (nalloc s).
  Proof using. intros Hs. tcases Hs; cbn [priv]; auto; [destruct H; auto|destruct (_ <? _); auto|destruct H; auto]. Qed.

  Lemma InvA_tstep s t u p' : InvA s -> tstep E R s (th s t) u p' -> g_ovf u = false -> InvA (w_th u (upd (th s) t p')).
  Proof.
    intros HA Hs Hov. pose proof (a_thr s HA t) as Ht. pose proof (tstep_ext s _ u p' HA Ht Hs Hov) as Hext.
    assert (Hthr : TA u p' -> forall t', TA (w_th u (upd (th s) t p')) (upd (th s) t p' t')).
    { intros Hp' t'. apply TA_th. revert t'. apply threads_upd; [|exact Hp']. intros t' Hne.
      apply (TA_frame s); [exact Hext|exact (fun h => old_in_nodes s h (a_head s HA))| |exact (a_thr s HA t')].
      intros n Hn Hf. apply (tstep_keeps s _ u p' n HA Ht Hs Hf). intros Hc. exact (Hne (a_priv s HA t' t n Hn Hc)). }
    assert (Hpriv : forall t1 t2 n, priv (upd (th s) t p' t1) = Some n -> priv (upd (th s) t p' t2) = Some n -> t1 = t2).
    { apply uniq_upd; [exact (a_priv s HA)|]. destruct (tstep_priv s _ u p' Hs) as [Hp|[Hp|Hp]]; auto.
      right; right. intros n Hn t' Hc. rewrite Hp in Hn. inversion Hn; subst n.
      pose proof (priv_fresh s t' _ (a_thr s HA t') Hc) as (_ & Hl & _). lia. }
    destruct HA as [Hpath Hnd Hlt Hhead Htail Hal Hfull Hret Htnr _ _]. pose proof (fun h => old_in_nodes s h Hhead) as Hio.
    destruct (ext_counters s u Hal Hfull (fun n Hn => conj (Hio n (in_or_app _ _ n (or_introl Hn))) (Hret n Hn)) Hext) as (Hal' & Hfull' & Hret').
    assert (Hhead' : exists rest, g_nodes s = g_retired s ++ head s :: rest /\ forall n, In n rest -> popi u n = 0).
    { destruct Hhead as (rest & He & Hr). exists rest. split; [exact He|]. intros n Hn.
      assert (Hi : In n (g_nodes s)) by (rewrite He; apply in_or_app; right; right; exact Hn).
      destruct (N.eq_dec (popi u n) (popi s n)) as [->|e]; [exact (Hr n Hn)|].
      exfalso. apply (old_not_rest s rest n Hnd He); [|exact Hn]. apply (e_cnt s u Hext n Hi). exact e. }
    remember (th s t) as p eqn:Hpc. clear Hext.
    tcases Hs; prj_in Hov; try (apply faa_nowrap in Hov as [_ Hw]; rewrite Hw in * );
      cbn [TA] in Ht; unfold fresh_node in Ht.
    (* the three transitions that change the shape of the chain: 6 = swing, 9 = D7, 13 = link *)
    6: destruct (swing_next s _ _ _ _ H Ht) as [Hn Hz]; rewrite <- H0 in Hn.
    9: destruct Ht as (H1 & H2 & H3 & H4 & H5); subst h.
    13: destruct Ht as (H1 & H2 & H3 & (H4 & H4' & H4'') & H5 & H6 & H7 & H8).
    all: constructor; unfold pa, pd; prj; [ try assumption .. | apply Hthr; cbn [TA]; unfold pa, pd; prj; try tauto | exact Hpriv ].
    - (* move *) eapply TA_move; eauto. apply tail_in_nodes; exact Htail.
    - (* start of a push *) intros n Hn. specialize (Hlt n Hn). lia.
    - (* P2, node full *) split; [exact Ht|]. rewrite setf_same. apply tick_full; [apply (Hal tl Ht)|exact H].
    - (* P4: a new node *) eapply MsqInv.lpath_ext; [exact Hpath|]. intros x Hx. apply setf_other. specialize (Hlt x Hx). lia.
    - intros n Hn. specialize (Hlt n Hn). lia.
    - intros n Hn. rewrite setf_other by (specialize (Hlt n Hn); lia). exact (Hfull' n Hn).
    - destruct Ht as (H1 & H2 & H3). pose proof (Hlt tl H1). unfold fresh_node; prj. rewrite !setf_same, !(setf_other _ _ _ tl) by lia.
      repeat split; try assumption; try lia. intros Hc. specialize (Hlt _ Hc). lia.
    - (* P5: the constructor fills the entries *) destruct Ht as (H1 & H2 & H3 & H4 & H5 & H6 & H7 & H8 & H9).
      assert (Hj : forall j, j < i + 1 -> setf2 (ent s) n i (ctor_ent b i) n j = ctor_ent b j).
      { intros j Hj. destruct (N.eq_dec j i) as [->|Hji]; [apply setf2_same|]. rewrite setf2_other by (right; exact Hji). apply H9. lia. }
      destruct (N.ltb_spec (i + 1) E); cbn [TA]; prj; repeat (split; [assumption|]); [exact Hj|]. intros j Hl. apply Hj. lia.
    - (* swing: the tail was the second-last node *)
      destruct (tail_lag s nx Hpath Htail Hn Hz) as [l0 El]. exists (l0 ++ [tail s]). left. rewrite El, <- app_assoc. reflexivity.
    - intros Hc. apply (tail_succ_young s nx Hpath Hnd Hhead Htail Htnr Hn Hz nx); [apply in_or_app; left; exact Hc|reflexivity].
    - destruct H; cbn [TA] in *; prj; try exact I. repeat split; try tauto.
      apply (tail_succ_young s nx Hpath Hnd Hhead Htail Htnr Hn Hz). tauto.
    - (* P6a *) unfold fresh_node; prj. rewrite setf_same. tauto.
    - (* D5, node drained *) split; [exact Ht|]. rewrite setf_same. apply tick_full; [apply (Hal h (Hio h Ht))|exact H].
    - (* D7: the head moves on *)
      destruct Hhead as (rest & He & Hr). pose proof Hpath as Hp2. rewrite He in Hp2.
      apply MsqInv.lpath_suffix in Hp2; [|discriminate].
      destruct (MsqInv.lpath_hd_next _ _ _ Hp2 ltac:(congruence)) as [r' Er]. subst rest.
      exists r'. split; [rewrite He, <- app_assoc, H3; reflexivity|]. intros n0 Hn0. apply Hr. right. exact Hn0.
    - intros n0 Hn0. apply in_app_or in Hn0. destruct Hn0 as [Hn0|[<-|[]]]; [apply Hret; exact Hn0|exact H2].
    - intros Hc. apply in_app_or in Hc. destruct Hc as [Hc|[Hc|[]]]; [exact (Htnr Hc)|exact (H5 (eq_sym Hc))].
    - (* D5, a ticket *) exact (Hio h Ht).
    - (* link *) apply (MsqInv.lpath_snoc _ _ Hpath tl n); assumption.
    - apply MsqInv.NoDup_snoc; assumption.
    - intros n0 Hn0. apply in_app_or in Hn0. destruct Hn0 as [Hn0|[<-|[]]]; [apply Hlt; exact Hn0|exact H4'].
    - destruct Hhead as (rest & He & Hr). exists (rest ++ [n]). split; [rewrite He, <- app_assoc; reflexivity|].
      intros n0 Hn0. apply in_app_or in Hn0. destruct Hn0 as [Hn0|[<-|[]]]; [apply Hr; exact Hn0|exact H5].
    - destruct (MsqInv.lpath_last _ _ Hpath tl H1 H) as [l1 El].
      exists l1. right. exists n. rewrite El, <- app_assoc, (H3 H). reflexivity.
    - intros n0 Hn0. apply in_app_or in Hn0. destruct Hn0 as [Hn0|[<-|[]]]; [apply Hal; exact Hn0|].
      rewrite H5, H6. split; [apply aligned_SS|apply aligned_0].
    - intros n0 Hn0 Hz0. unfold setf in Hz0. destruct (N.eqb_spec n0 tl) as [->|Hd]; [exact H2|].
      apply in_app_or in Hn0. destruct Hn0 as [Hn0|[<-|[]]]; [apply Hfull; assumption|congruence].
    - split; [apply in_or_app; left; exact H1|]. split; [apply setf_same|exact H4].
  Qed.

  Lemma InvA_step s a s' es : InvA s -> step E R s a = Some (s', es) -> g_ovf s' = false -> InvA s'.
  Proof.
    intros HA H Hov. destruct (step_inv E R s a s' es H) as (t & u & p' & Hs & -> & _). exact (InvA_tstep s t u p' HA Hs Hov).
  Qed.

  Lemma InvA_init : InvA init.
  Proof.
    constructor; cbn [init head tail popi pushi ent nnext nalloc tokv th g_pushed g_popped g_fate g_nodes g_retired g_ptk g_dtk g_ovf].
    - apply MsqInv.lp_one; [discriminate|reflexivity].
    - constructor; [intros []|constructor].
    - intros n [<-|[]]. reflexivity.
    - exists []. split; [reflexivity|]. intros n [].
    - exists []. left. reflexivity.
    - intros n _. split; apply aligned_0.
    - intros n _ Hc. exfalso. apply Hc. reflexivity.
    - intros n [].
    - intros [].
    - intros t. exact I.
    - intros t1 t2 n Hc. discriminate Hc.
  Qed.

  Theorem InvA_reach s : reach init (step E R) s -> g_ovf s = false -> InvA s.
  Proof.
    intros Hr. induction Hr as [|s a s' es Hr IH Hst]; intros Hov.
    - exact InvA_init.
    - eapply InvA_step; [apply IH; eapply ovf_sticky; eauto|exact Hst|exact Hov].
  Qed.
End LayerA.
