(** Structural invariants of the epoch based reclamation model (Model/EbrDefs.v): the frame of a step,
    the thread-local shape of every program point ([tshape]: which program points own a control block, the
    nesting counter = number of non-empty guards of the thread), exclusive ownership of thread control
    blocks and the meaning of the critical-region flag ([O0]).  Used by Proof/EbrInv.v.  No axioms. *)
From Coq Require Import NArith List Bool Arith Lia PeanoNat.
From XV Require Import Conc.Lts Conc.Ev Model.EbrDefs.
Import ListNotations.
Local Open Scope N_scope.

(** * Function updates *)
Lemma updN_same {X} (f : N -> X) i v : updN f i v i = v.
Proof. unfold updN. rewrite N.eqb_refl. reflexivity. Qed.
Lemma updN_other {X} (f : N -> X) i v j : j <> i -> updN f i v j = f j.
Proof. unfold updN. intros H. destruct (N.eqb_spec j i); [contradiction|reflexivity]. Qed.
Lemma updN_cases {X} (f : N -> X) i v j : (j = i /\ updN f i v j = v) \/ (j <> i /\ updN f i v j = f j).
Proof. destruct (N.eq_dec j i) as [->|H]; [left; split; [reflexivity|apply updN_same] | right; split; [exact H|apply updN_other; exact H]]. Qed.
Lemma upd_cases {X} (f : nat -> X) i v j : (j = i /\ upd f i v j = v) \/ (j <> i /\ upd f i v j = f j).
Proof. destruct (Nat.eq_dec j i) as [->|H]; [left; split; [reflexivity|apply upd_same] | right; split; [exact H|apply upd_other; exact H]]. Qed.

Ltac prj := cbn [gep blist bstate bflag blocal orph cells nalloc nextid nid th tl g_owner g_life g_where g_nfree g_uaf
                 w_gep w_blist w_bstate w_bflag w_blocal w_orph w_cells w_nalloc w_nextid w_nid w_th w_tl w_g_owner w_g_life w_g_where w_g_nfree w_g_uaf
                 set_pc set_tl free_all move_all deref
                 cb nest ces lidx rl gs wt_cb wt_nest wt_ces wt_lidx wt_rl wt_gs tl0].
Ltac prj_in H := cbn [gep blist bstate bflag blocal orph cells nalloc nextid nid th tl g_owner g_life g_where g_nfree g_uaf
                 w_gep w_blist w_bstate w_bflag w_blocal w_orph w_cells w_nalloc w_nextid w_nid w_th w_tl w_g_owner w_g_life w_g_where w_g_nfree w_g_uaf
                 set_pc set_tl free_all move_all deref
                 cb nest ces lidx rl gs wt_cb wt_nest wt_ces wt_lidx wt_rl wt_gs tl0] in H.

Lemma oeqb_eq a b : oeqb a b = true <-> a = b.
Proof.
  destruct a as [x|], b as [y|]; cbn; split; intros H; try congruence; try discriminate.
  - apply N.eqb_eq in H. congruence.
  - inversion H. apply N.eqb_refl.
Qed.

Lemma memN_In n l : memN n l = true <-> In n l.
Proof.
  unfold memN. rewrite existsb_exists. split.
  - intros (x & Hx & E). apply N.eqb_eq in E. subst. exact Hx.
  - intros H. exists n. split; [exact H|apply N.eqb_refl].
Qed.
Lemma memN_false n l : memN n l = false <-> ~ In n l.
Proof. rewrite <- memN_In. destruct (memN n l); split; intros; congruence. Qed.

(** * Case analysis of one step *)

(** every way [step] can succeed yields one goal with the successor state in constructor form *)
Ltac inv_some H := injection H as <- <-.

Ltac step_split H :=
  repeat match type of H with
  | None = Some _ => discriminate H
  | context [match ?x with _ => _ end] =>
      let E := fresh "E" in destruct x eqn:E
  | Some _ = Some _ => inv_some H
  end.

Ltac unfold_step H :=
  unfold step, leave, do_cont, to_cas, finish, enter, enter_cb, walk, scan_next in H.

Definition touched (s : state) (t : nat) (b : N) : Prop :=
  cb (tl s t) = Some b \/ b = nalloc s \/ (exists k rest, th s t = C3 k b rest /\ bstate s b = 0) \/ (exists k, th s t = C4 k b).

Ltac split_updN_goal :=
  repeat match goal with
  | |- context [updN ?f ?i ?v ?i] => rewrite (updN_same f i v)
  | H : ?j <> ?i |- context [updN ?f ?i ?v ?j] => rewrite (updN_other f i v j H)
  | |- context [updN ?f ?i ?v ?j] => destruct (N.eq_dec j i); [subst j|]
  end.

Lemma is_nil_true l : is_nil l = true -> l = [].
Proof. destruct l; [reflexivity|discriminate]. Qed.
Lemma is_nil_false l : is_nil l = false -> l <> [].
Proof. destruct l; [discriminate|intros _ ?; discriminate]. Qed.
Lemma negb_eqb_true a b : negb (a =? b) = true -> a <> b.
Proof. destruct (N.eqb_spec a b); [discriminate|auto]. Qed.
Lemma negb_eqb_false a b : negb (a =? b) = false -> a = b.
Proof. destruct (N.eqb_spec a b); [auto|discriminate]. Qed.
Lemma oeqb_false a b : oeqb a b = false -> a <> b.
Proof. intros H E. apply oeqb_eq in E. congruence. Qed.

(* turn the boolean equations produced by the case analysis into propositions *)
Ltac bool_eqs :=
  repeat match goal with
  | H : negb (_ =? _) = true |- _ => apply negb_eqb_true in H
  | H : negb (_ =? _) = false |- _ => apply negb_eqb_false in H
  | H : (_ =? _) = true |- _ => apply N.eqb_eq in H
  | H : (_ =? _) = false |- _ => apply N.eqb_neq in H
  | H : (_ =? _)%nat = true |- _ => apply Nat.eqb_eq in H
  | H : (_ =? _)%nat = false |- _ => apply Nat.eqb_neq in H
  | H : (_ <? _)%nat = true |- _ => apply Nat.ltb_lt in H
  | H : (_ <? _)%nat = false |- _ => apply Nat.ltb_ge in H
  | H : oeqb _ _ = true |- _ => apply oeqb_eq in H
  | H : oeqb _ _ = false |- _ => apply oeqb_false in H
  | H : is_nil _ = true |- _ => apply is_nil_true in H
  | H : is_nil _ = false |- _ => apply is_nil_false in H
  end.

Lemma step_frame ns s t s' es : step ns s (Step t) = Some (s', es) ->
  (forall u, u <> t -> th s' u = th s u /\ tl s' u = tl s u) /\
  (forall b, ~ touched s t b -> bstate s' b = bstate s b /\ bflag s' b = bflag s b /\ blocal s' b = blocal s b /\ g_owner s' b = g_owner s b) /\
  (blist s' = blist s \/ exists k b h, th s t = C6 k b h /\ blist s' = b :: blist s) /\
  nalloc s <= nalloc s' /\ gep s <= gep s'.
Proof.
  intros H. unfold_step H. cbv zeta in H. step_split H.
  all: bool_eqs; prj.
  all: (split; [intros u Hu; rewrite ?upd_other by exact Hu; split; reflexivity|]).
  all: (split; [intros bb Hb; unfold touched in Hb|]).
  all: try solve [repeat split; reflexivity].
  all: try solve [repeat split; split_updN_goal; try reflexivity; exfalso; apply Hb; eauto 6].
  all: try solve [split; [left; congruence|split; lia]].
  all: try solve [split; [right; eauto|split; lia]].
  repeat split; split_updN_goal; try reflexivity; exfalso; apply Hb; right; right; left; eauto.
Qed.

Definition in_enter (p : pc) : bool :=
  match p with
  | E1 _ | E2 _ | E3 _ | E4 _ _ | S1 _ _ | S2 _ _ _ _ | S3 _ _ _ _ | G1 _ _ | G2 _ _ | G3 _ _ | G4 _ _
  | G5 _ _ _ | G6 _ _ _ | G7 _ _ _ _ | U1 _ _ | U2 _ _ _ => true
  | _ => false
  end.
Definition in_cphase (p : pc) : bool :=
  match p with C1 _ | C2 _ _ _ | C3 _ _ _ | C4 _ _ | C5 _ _ | C6 _ _ _ | C7 _ | C8 _ _ => true | _ => false end.
Definition in_xphase (p : pc) : bool := match p with X1 _ | X2 _ _ | X3 => true | _ => false end.
Definition cblk (p : pc) : option N := match p with C4 _ b | C5 _ b | C6 _ b _ => Some b | _ => None end.
Definition tmp (p : pc) (x : tls) : nat :=
  if in_enter p then 1%nat else
  match p with
  | A2 (KHold _ s) => if is_some (gs x s) then 0 else 1
  | A2 _ => 1
  | R3 _ (Some _) _ => 1
  | _ => 0
  end%nat.
Definition needs_cb (p : pc) : bool :=
  in_enter p || in_xphase p ||
  match p with C7 _ | C8 _ _ | A2 _ | R3 _ (Some _) _ | LV _ | X0 => true | _ => false end.
Definition no_cb (p : pc) : bool := match p with C1 _ | C2 _ _ _ | C3 _ _ _ | C4 _ _ | C5 _ _ | C6 _ _ _ => true | _ => false end.
Definition ctx_of (p : pc) : option ctx :=
  match p with
  | A1 k | C1 k | C2 k _ _ | C3 k _ _ | C4 k _ | C5 k _ | C6 k _ _ | C7 k | C8 k _ | E1 k | E2 k | E3 k | E4 k _
  | S1 k _ | S2 k _ _ _ | S3 k _ _ _ | G1 k _ | G2 k _ | G3 k _ | G4 k _ | G5 k _ _ | G6 k _ _ | G7 k _ _ _ | U1 k _ | U2 k _ _ | A2 k => Some k
  | _ => None
  end.
Definition slot_of (p : pc) : option nat :=
  match p with
  | Begin (OHold _ s) | Begin (ODrop s) | Begin (ODeref s) => Some s
  | _ => match ctx_of p with Some (KHold _ s) => Some s | _ => None end
  end.
Definition walk_of (p : pc) : list N := match p with C2 _ r rest | C3 _ r rest => r :: rest | _ => [] end.
Definition flagexp (p : pc) (n : nat) : bool :=
  match p with E1 _ => false | LV _ | X0 => true | _ => negb (Nat.eqb n 0) end.


Lemma cnt_held_none n : cnt_held (fun _ => None) n = O.
Proof. induction n; cbn; [reflexivity|exact IHn]. Qed.
(** counting held guards *)
Lemma cnt_upd_hi g s v n : (n <= s)%nat -> cnt_held (upd g s v) n = cnt_held g n.
Proof.
  induction n as [|n IH]; intros H; cbn [cnt_held]; [reflexivity|].
  rewrite IH by lia. rewrite upd_other by lia. reflexivity.
Qed.
Lemma cnt_upd_some_none g s x n : g s = Some x -> (s < n)%nat -> cnt_held g n = S (cnt_held (upd g s None) n).
Proof.
  intros Hg. induction n as [|n IH]; intros H; [lia|]. cbn [cnt_held].
  destruct (Nat.eq_dec s n) as [->|Hne].
  - rewrite upd_same, Hg. cbn [is_some]. rewrite cnt_upd_hi by lia. reflexivity.
  - rewrite (upd_other _ _ _ n) by congruence. rewrite IH by lia. lia.
Qed.
Lemma cnt_upd_none_some g s x n : g s = None -> (s < n)%nat -> cnt_held (upd g s (Some x)) n = S (cnt_held g n).
Proof.
  intros Hg. induction n as [|n IH]; intros H; [lia|]. cbn [cnt_held].
  destruct (Nat.eq_dec s n) as [->|Hne].
  - rewrite upd_same, Hg. cbn [is_some]. rewrite cnt_upd_hi by lia. reflexivity.
  - rewrite (upd_other _ _ _ n) by congruence. rewrite IH by lia. lia.
Qed.
Lemma cnt_upd_same_kind g s v n : is_some (g s) = is_some v -> cnt_held (upd g s v) n = cnt_held g n.
Proof.
  intros Hg. induction n as [|n IH]; [reflexivity|]. cbn [cnt_held]. rewrite IH.
  destruct (Nat.eq_dec n s) as [->|Hne]; [rewrite upd_same, Hg; reflexivity|rewrite upd_other by exact Hne; reflexivity].
Qed.
Lemma cnt_zero_all g n : cnt_held g n = O -> forall s, (s < n)%nat -> g s = None.
Proof.
  induction n as [|n IH]; intros H s Hs; [lia|]. cbn [cnt_held] in H.
  destruct (g n) eqn:En; cbn [is_some] in H; [lia|].
  destruct (Nat.eq_dec s n) as [->|Hne]; [exact En|apply IH; lia].
Qed.
Lemma cnt_pos g n s x : g s = Some x -> (s < n)%nat -> (1 <= cnt_held g n)%nat.
Proof. intros Hg Hs. rewrite (cnt_upd_some_none g s x n Hg Hs). lia. Qed.

Lemma xnext_cases r i : xnext r i = X1 0 \/ xnext r i = X1 1 \/ xnext r i = X1 2 \/ xnext r i = X3.
Proof. unfold xnext. repeat match goal with |- context [if ?c then _ else _] => destruct c end; auto. Qed.

Ltac fn := cbn [walk_of ctx_of slot_of in_enter in_cphase in_xphase cblk tmp needs_cb no_cb flagexp orb andb negb is_some cell_of].
Ltac fn_in H := cbn [walk_of ctx_of slot_of in_enter in_cphase in_xphase cblk tmp needs_cb no_cb flagexp orb andb negb is_some cell_of] in H.


Record tshape (ns : nat) (p : pc) (x : tls) : Prop := {
  ts_need : needs_cb p = true -> cb x <> None;
  ts_no : no_cb p = true -> cb x = None;
  ts_fresh : cb x = None -> nest x = O /\ (forall s, gs x s = None);
  ts_cnt : nest x = (cnt_held (gs x) ns + tmp p x)%nat;
  ts_slot : forall s, slot_of p = Some s -> (s < ns)%nat;
  ts_hi : forall s, (ns <= s)%nat -> gs x s = None;
  ts_c : in_cphase p = true -> nest x = O;
  ts_e : in_enter p = true -> nest x = 1%nat;
  ts_lv : (match p with LV _ => true | _ => false end) = true -> nest x = O;
  ts_x : in_xphase p = true -> nest x = O /\ (forall s, gs x s = None) }.

Ltac xn :=
  repeat match goal with
  | |- context [xnext ?r ?i] => let Ex := fresh "Ex" in destruct (xnext_cases r i) as [Ex|[Ex|[Ex|Ex]]]; rewrite Ex in *; clear Ex
  | H : context [xnext ?r ?i] |- _ => let Ex := fresh "Ex" in destruct (xnext_cases r i) as [Ex|[Ex|[Ex|Ex]]]; rewrite Ex in *; clear Ex
  end.

Ltac cleanup :=
  repeat match goal with
  | H : false = true -> _ |- _ => clear H
  | H : true = true -> _ |- _ => specialize (H eq_refl)
  | H : forall s, None = Some s -> _ |- _ => clear H
  | H : forall s, Some ?a = Some s -> _ |- _ => specialize (H a eq_refl)
  | H : ?a = None -> _, H2 : ?a = None |- _ => specialize (H H2)
  | H : _ /\ _ |- _ => destruct H
  end.

Ltac cnt_tac :=
  repeat match goal with
  | |- context [cnt_held (fun _ => None) ?n] => rewrite (cnt_held_none n)
  | E : ?g ?s0 = Some ?x, L : (?s0 < ?n)%nat |- context [cnt_held (upd ?g ?s0 None) ?n] =>
      rewrite (cnt_upd_some_none g s0 x n E L) in *
  | E : ?g ?s0 = None, L : (?s0 < ?n)%nat |- context [cnt_held (upd ?g ?s0 (Some ?x)) ?n] =>
      rewrite (cnt_upd_none_some g s0 x n E L)
  | E : ?g ?s0 = Some ?y |- context [cnt_held (upd ?g ?s0 (Some ?x)) ?n] =>
      rewrite (cnt_upd_same_kind g s0 (Some x) n) by (rewrite E; reflexivity)
  | E : ?g ?s0 = None |- context [cnt_held (upd ?g ?s0 None) ?n] =>
      rewrite (cnt_upd_same_kind g s0 None n) by (rewrite E; reflexivity)
  end.

Ltac prj_hyps := repeat match goal with H : _ |- _ => progress prj_in H end.
Ltac tfin :=
  try (let X := fresh "X" in intros X);
  cleanup; bool_eqs;
  repeat match goal with
  | |- context [match ?k with KRepl _ _ => _ | _ => _ end] => destruct k
  | H : context [match ?k with KRepl _ _ => _ | _ => _ end] |- _ => destruct k
  end; fn; repeat match goal with H : _ |- _ => progress fn_in H end; prj; prj_hyps; cleanup;
  repeat match goal with
  | |- context [is_some (?g ?s0)] => let E := fresh "Eg" in destruct (g s0) eqn:E; cbn [is_some] in *
  | H : context [is_some (?g ?s0)] |- _ => let E := fresh "Eg" in destruct (g s0) eqn:E; cbn [is_some] in *
  end; prj;
  repeat match goal with
  | |- context [upd ?f ?a ?v ?b] => destruct (upd_cases f a v b) as [[? ->]|[? ->]]; try subst
  end;
  repeat match goal with
  | H : forall s, ?g s = None, E : ?g ?s0 = Some _ |- _ => rewrite H in E; discriminate E
  end;
  cnt_tac;
  repeat match goal with
  | E : ?g ?s0 = Some ?x, L : (?s0 < ?ns)%nat |- _ =>
    lazymatch goal with | _ : (1 <= cnt_held g ns)%nat |- _ => fail | _ => pose proof (cnt_pos _ _ _ _ E L) end
  end;
  first [ assumption | reflexivity | discriminate | congruence | lia | exfalso; congruence | exfalso; lia | solve [auto]
        | split; first [assumption | lia | congruence | solve [auto]] ].

Lemma tshape_step ns s t s' es : step ns s (Step t) = Some (s', es) ->
  tshape ns (th s t) (tl s t) -> tshape ns (th s' t) (tl s' t).
Proof.
  intros H I. unfold_step H. cbv zeta in H. step_split H.
  all: bool_eqs; prj; rewrite ?upd_same; prj; prj_hyps; rewrite ?upd_same in *; prj_hyps.
  all: try match goal with E : th _ _ = _ |- _ => rewrite E in I end.
  all: destruct I as [Ineed Ino Ifresh Icnt Islot Ihi Ic Ie Ilv Ix].
  all: fn_in Ineed; fn_in Ino; fn_in Icnt; fn_in Islot; fn_in Ic; fn_in Ie; fn_in Ilv; fn_in Ix.
  all: constructor; prj; fn; intros.
  all: try solve [first [assumption | reflexivity | discriminate | congruence | lia | auto]].
  all: solve [xn; tfin].
Qed.

Lemma tshape_start ns s t o s' es : step ns s (Start t o) = Some (s', es) ->
  tshape ns (th s t) (tl s t) -> tshape ns (th s' t) (tl s' t).
Proof.
  intros H I. unfold_step H. cbv zeta in H. step_split H.
  all: bool_eqs; prj; rewrite ?upd_same; prj; prj_hyps.
  all: try match goal with E : th _ _ = _ |- _ => rewrite E in I end.
  all: destruct I as [Ineed Ino Ifresh Icnt Islot Ihi Ic Ie Ilv Ix].
  all: fn_in Ineed; fn_in Ino; fn_in Icnt; fn_in Islot; fn_in Ic; fn_in Ie; fn_in Ilv; fn_in Ix.
  all: constructor; prj; fn; intros.
  all: try solve [first [assumption | reflexivity | discriminate | congruence | lia | auto]].
  all: try solve [xn; tfin].
  split; [lia|]. intros s0. destruct (le_lt_dec ns s0); [apply Ihi; lia | eapply cnt_zero_all; eauto].
Qed.

(** ** the thread-local shape holds for every thread of every reachable state *)
Section Reach.
Variables (ns : nat) (nc : N).
Definition reachable (st : state) : Prop := reach (init nc) (step ns) st.

Lemma step_other_thread s a s' es u : step ns s a = Some (s', es) ->
  (match a with Start t _ => t | Step t => t end) <> u -> th s' u = th s u /\ tl s' u = tl s u.
Proof.
  intros H Hne. destruct a as [t o|t].
  - unfold step in H. step_split H. all: prj; rewrite upd_other by congruence; split; reflexivity.
  - destruct (step_frame _ _ _ _ _ H) as (F & _). apply F. congruence.
Qed.

Definition T0 (st : state) : Prop := forall u, tshape ns (th st u) (tl st u).

Lemma T0_init : T0 (init nc).
Proof.
  intros u. constructor; cbn; intros; try congruence; try discriminate; try (split; [reflexivity|intros; reflexivity]); try reflexivity.
  rewrite cnt_held_none. reflexivity.
Qed.

Lemma T0_step s a s' es : T0 s -> step ns s a = Some (s', es) -> T0 s'.
Proof.
  intros I H u. destruct (Nat.eq_dec (match a with Start t _ => t | Step t => t end) u) as [<-|Hne].
  - destruct a as [t o|t]; [eapply tshape_start|eapply tshape_step]; eauto.
  - destruct (step_other_thread _ _ _ _ u H Hne) as [-> ->]. apply I.
Qed.

Lemma T0_reach s : reachable s -> T0 s.
Proof. apply inv_rule; [exact T0_init|exact T0_step]. Qed.
End Reach.


(** * Ownership of control blocks, the critical-region flag *)
Record O0 (s : state) : Prop := {
  o_own : forall u b, cb (tl s u) = Some b -> g_owner s b = Some u /\ In b (blist s);
  o_ownC : forall u b, cblk (th s u) = Some b -> g_owner s b = Some u /\ ~ In b (blist s) /\ bflag s b = false;
  o_rev : forall b u, g_owner s b = Some u -> (cb (tl s u) = Some b \/ cblk (th s u) = Some b) /\ bstate s b = 2 /\ b < nalloc s;
  o_inlt : forall b, In b (blist s) -> b < nalloc s;
  o_walk : forall u b, In b (walk_of (th s u)) -> In b (blist s);
  o_flag : forall u b, cb (tl s u) = Some b -> bflag s b = flagexp (th s u) (nest (tl s u));
  o_free : forall b, g_owner s b = None -> bflag s b = false }.

Lemma owner_untouched s t u b : O0 s -> g_owner s b = Some u -> u <> t -> ~ touched s t b.
Proof.
  intros I Ho Hne [H|[H|[(k & rest & H & H0)|(k & H)]]].
  - apply (o_own s I) in H. destruct H as [H _]. congruence.
  - apply (o_rev s I) in Ho. destruct Ho as (_ & _ & Hlt). subst b. lia.
  - apply (o_rev s I) in Ho. destruct Ho as (_ & Hst & _). rewrite Hst in H0. discriminate.
  - assert (Hc : cblk (th s t) = Some b) by (rewrite H; reflexivity).
    apply (o_ownC s I) in Hc. destruct Hc as [Hc _]. congruence.
Qed.

Ltac split_updN_all :=
  repeat match goal with
  | |- context [updN ?f ?i ?v ?i] => rewrite (updN_same f i v)
  | H : context [updN ?f ?i ?v ?i] |- _ => rewrite (updN_same f i v) in H
  | H : ?j <> ?i |- context [updN ?f ?i ?v ?j] => rewrite (updN_other f i v j H)
  | H : ?j <> ?i, H2 : context [updN ?f ?i ?v ?j] |- _ => rewrite (updN_other f i v j H) in H2
  | |- context [updN ?f ?i ?v ?j] => destruct (N.eq_dec j i); [subst j|]
  | H2 : context [updN ?f ?i ?v ?j] |- _ => destruct (N.eq_dec j i); [subst j|]
  end.

Ltac inj_some :=
  repeat match goal with
  | H : Some ?a = Some ?b |- _ => first [ is_var b; injection H as <- | is_var a; injection H as -> | injection H as H ]
  end.
(** a step of t that touches no control block and leaves t's own block, walk and flag expectation alone keeps [O0] *)
Lemma O0_frame s s' t : O0 s ->
  blist s' = blist s -> bstate s' = bstate s -> bflag s' = bflag s -> g_owner s' = g_owner s -> nalloc s <= nalloc s' ->
  (forall u, u <> t -> th s' u = th s u /\ tl s' u = tl s u) ->
  cb (tl s' t) = cb (tl s t) -> cblk (th s' t) = cblk (th s t) ->
  (forall b, In b (walk_of (th s' t)) -> In b (walk_of (th s t)) \/ In b (blist s)) ->
  (cb (tl s t) <> None -> flagexp (th s' t) (nest (tl s' t)) = flagexp (th s t) (nest (tl s t))) -> O0 s'.
Proof.
  intros [Iown IownC Irev Iinlt Iwalk Iflag Ifree] Hbl Hbs Hbf Hgo Hna F Hcb Hck Hw Hfl.
  assert (Xcb : forall u, cb (tl s' u) = cb (tl s u)) by (intros u; destruct (Nat.eq_dec u t) as [->|Hu]; [exact Hcb|destruct (F u Hu) as [_ ->]; reflexivity]).
  assert (Xck : forall u, cblk (th s' u) = cblk (th s u)) by (intros u; destruct (Nat.eq_dec u t) as [->|Hu]; [exact Hck|destruct (F u Hu) as [-> _]; reflexivity]).
  constructor; intros; rewrite ?Hbl, ?Hbs, ?Hbf, ?Hgo, ?Xcb, ?Xck in *; auto.
  - destruct (Irev b u H) as (A & B & C). repeat split; [exact A|exact B|lia].
  - apply Iinlt in H. lia.
  - destruct (Nat.eq_dec u t) as [->|Hu]; [|destruct (F u Hu) as [E _]; rewrite E in H; eauto].
    destruct (Hw b H) as [X|X]; eauto.
  - destruct (Nat.eq_dec u t) as [->|Hu]; [|destruct (F u Hu) as [-> ->]; auto].
    rewrite Hfl by congruence. auto.
Qed.

(** ** One step, seen from the control blocks
    [step_blocks]: with respect to what [O0] reads, a step of t leaves the control blocks alone ([cs_none]) or is one of
    six transitions on one block; [G] carries the new global fields, the successor is [set_pc t p' (set_tl t x' G)],
    and the real successor agrees with it on everything [O0] reads ([ceq]). *)
Definition ceq (s' st : state) : Prop :=
  th s' = th st /\ (forall u, cb (tl s' u) = cb (tl st u) /\ nest (tl s' u) = nest (tl st u)) /\
  blist s' = blist st /\ bstate s' = bstate st /\ bflag s' = bflag st /\ g_owner s' = g_owner st /\ nalloc st <= nalloc s'.

Lemma O0_ext s' st : ceq s' st -> O0 st -> O0 s'.
Proof.
  intros (Hth & Htl & Hbl & Hbs & Hbf & Hgo & Hna) [Iown IownC Irev Iinlt Iwalk Iflag Ifree].
  assert (Hcb : forall u, cb (tl s' u) = cb (tl st u)) by (intros u; apply Htl).
  assert (Hne : forall u, nest (tl s' u) = nest (tl st u)) by (intros u; apply Htl).
  constructor; intros; rewrite ?Hth, ?Hbl, ?Hbs, ?Hbf, ?Hgo, ?Hcb, ?Hne in *; eauto.
  - destruct (Irev b u H) as (A & B & C). repeat split; [exact A|exact B|lia].
  - apply Iinlt in H. lia.
Qed.

Definition alloc_block (t : nat) (s : state) : state :=
  let b := nalloc s in
  w_nalloc (b + 1) (w_bstate (updN (bstate s) b 2) (w_bflag (updN (bflag s) b false) (w_g_owner (updN (g_owner s) b (Some t)) s))).

Inductive cstep (t : nat) (s : state) : pc -> tls -> state -> Prop :=
| cs_none p' x' : cb x' = cb (tl s t) -> cblk p' = cblk (th s t) ->
    (forall b, In b (walk_of p') -> In b (walk_of (th s t)) \/ In b (blist s)) ->
    (cb (tl s t) <> None -> flagexp p' (nest x') = flagexp (th s t) (nest (tl s t))) -> cstep t s p' x' s
| cs_alloc k : no_cb (th s t) = true -> cblk (th s t) = None -> cstep t s (C4 k (nalloc s)) (tl s t) (alloc_block t s)
| cs_adopt k r rest : th s t = C3 k r rest -> bstate s r = 0 ->
    cstep t s (C7 k) (wt_cb (Some r) (tl s t)) (w_bstate (updN (bstate s) r 2) (w_g_owner (updN (g_owner s) r (Some t)) s))
| cs_active k b : th s t = C4 k b -> cstep t s (C5 k b) (tl s t) (w_bstate (updN (bstate s) b 2) s)
| cs_push k b h : th s t = C6 k b h -> cstep t s (C7 k) (wt_cb (Some b) (tl s t)) (w_blist (b :: blist s) s)
| cs_flag p' x' b : cb (tl s t) = Some b -> cb x' = Some b -> cblk p' = None -> cblk (th s t) = None -> walk_of p' = [] ->
    cstep t s p' x' (w_bflag (updN (bflag s) b (flagexp p' (nest x'))) s)
| cs_exit b : th s t = X3 -> cb (tl s t) = Some b ->
    cstep t s Idle tl0 (w_bstate (updN (bstate s) b 0) (w_g_owner (updN (g_owner s) b None) s)).

Lemma step_blocks ns s t s' es : tshape ns (th s t) (tl s t) -> step ns s (Step t) = Some (s', es) ->
  exists G, cstep t s (th s' t) (tl s' t) G /\ ceq s' (set_pc t (th s' t) (set_tl t (tl s' t) G)).
Proof.
  intros T H. unfold_step H. cbv zeta in H. step_split H.
  all: prj; rewrite ?upd_same; prj; rewrite ?upd_same; prj; prj_hyps; rewrite ?upd_same in *; prj_hyps; eexists.
  all: solve [split;
    [ econstructor; prj; match goal with E : th _ _ = _ |- _ => rewrite ?E end; xn; cbn [cblk walk_of flagexp no_cb In];
      solve [ eassumption | reflexivity | apply N.eqb_eq; eassumption
            | intros; repeat match goal with E : blist _ = _ |- _ => rewrite E end; cbn [In] in *; tauto
            | intros Hcb; first
                [ reflexivity
                | exfalso; apply Hcb; apply (ts_no _ _ _ T eq_refl)
                | match goal with E : (_ =? _)%nat = _ |- _ => rewrite E end; reflexivity
                | pose proof (ts_cnt _ _ _ T) as Tc; cbn [tmp in_enter] in Tc;
                  try match goal with Eg : gs _ ?s0 = Some _ |- _ => pose proof (cnt_pos _ ns _ _ Eg (ts_slot _ _ _ T s0 eq_refl)); rewrite ?Eg in Tc end;
                  try match type of Tc with context [is_some (?g ?s0)] =>
                        let Eg := fresh "Eg" in destruct (g s0) eqn:Eg; [pose proof (cnt_pos _ ns _ _ Eg (ts_slot _ _ _ T s0 eq_refl))|] end;
                  cbn [is_some] in Tc; destruct (nest (tl s t)) as [|[|m]]; cbn [pred Nat.eqb negb] in *; first [reflexivity | discriminate | lia] ] ]
    | unfold alloc_block; repeat split; prj; rewrite ?upd_same; prj; rewrite ?(ts_e _ _ _ T eq_refl), ?(ts_lv _ _ _ T eq_refl); xn; cbn [flagexp Nat.eqb negb];
      first [ reflexivity | lia | unfold upd; match goal with |- context [Nat.eqb ?u ?v] => destruct (Nat.eqb_spec u v) as [->|_] end; reflexivity ] ]].
Qed.
Section Blocks.
Variables (ns : nat) (s : state) (t : nat).
Hypotheses (I : O0 s) (T : tshape ns (th s t) (tl s t)).
Let Iown := o_own s I.
Let IownC := o_ownC s I.
Let Irev := o_rev s I.
Let Iinlt := o_inlt s I.
Let Iwalk := o_walk s I.
Let Iflag := o_flag s I.
Let Ifree := o_free s I.

Lemma O0_cs_none p' x' : cb x' = cb (tl s t) -> cblk p' = cblk (th s t) ->
  (forall b, In b (walk_of p') -> In b (walk_of (th s t)) \/ In b (blist s)) ->
  (cb (tl s t) <> None -> flagexp p' (nest x') = flagexp (th s t) (nest (tl s t))) -> O0 (set_pc t p' (set_tl t x' s)).
Proof.
  intros H1 H2 H3 H4. apply (O0_frame s _ t I); prj; rewrite ?upd_same; try reflexivity; try assumption; try lia.
  intros u Hu. rewrite !upd_other by exact Hu. split; reflexivity.
Qed.

(* a block that is not allocated yet has no owner and is not in the list *)
Lemma fresh_block : g_owner s (nalloc s) = None /\ ~ In (nalloc s) (blist s).
Proof.
  split; [destruct (g_owner s (nalloc s)) as [u|] eqn:X; [apply Irev in X; lia|reflexivity]|intros X; apply Iinlt in X; lia].
Qed.
(* the facts about t's own blocks used below *)
Lemma own_cb b : cb (tl s t) = Some b -> g_owner s b = Some t /\ In b (blist s) /\ bstate s b = 2 /\ b < nalloc s.
Proof. intros H. destruct (Iown t b H) as [A B]. destruct (Irev b t A) as (_ & C & D). auto. Qed.
Lemma other_block u b b' : u <> t -> g_owner s b = Some u -> g_owner s b' = Some t -> b <> b'.
Proof. intros Hu A B ->. congruence. Qed.

Ltac thr u := destruct (Nat.eq_dec u t) as [->|Hu]; [rewrite ?upd_same in * | rewrite ?upd_other in * by exact Hu].

Lemma O0_cs_flag p' x' b : cb (tl s t) = Some b -> cb x' = Some b -> cblk p' = None -> cblk (th s t) = None -> walk_of p' = [] ->
  O0 (set_pc t p' (set_tl t x' (w_bflag (updN (bflag s) b (flagexp p' (nest x'))) s))).
Proof.
  intros Hb Hx Hc Hc0 Hw. destruct (own_cb b Hb) as (Ho & _).
  assert (Hcb : forall u, cb (upd (tl s) t x' u) = cb (tl s u)) by (intros u; thr u; congruence).
  assert (Hck : forall u, cblk (upd (th s) t p' u) = cblk (th s u)) by (intros u; thr u; congruence).
  constructor; prj; intros; rewrite ?Hcb, ?Hck in *; eauto.
  - destruct (IownC u b0 H) as (A & B & C). repeat split; try assumption. rewrite updN_other; [exact C|]. intros ->. thr u; congruence.
  - thr u; [rewrite Hw in H; destruct H|eauto].
  - thr u; [assert (b0 = b) by congruence; subst b0; apply updN_same|].
    rewrite updN_other; [eauto|]. destruct (Iown u b0 H) as [A _]. exact (other_block u b0 b Hu A Ho).
  - rewrite updN_other; [eauto|]. intros ->. congruence.
Qed.
Lemma O0_cs_active k b : th s t = C4 k b -> O0 (set_pc t (C5 k b) (set_tl t (tl s t) (w_bstate (updN (bstate s) b 2) s))).
Proof.
  intros Hpc.
  assert (Htl : forall u, upd (tl s) t (tl s t) u = tl s u) by (intros u; thr u; reflexivity).
  assert (Hck : forall u, cblk (upd (th s) t (C5 k b) u) = cblk (th s u)) by (intros u; thr u; [rewrite Hpc|]; reflexivity).
  constructor; prj; intros; rewrite ?Htl, ?Hck in *; eauto.
  - destruct (Irev b0 u H) as (A & B & C). repeat split; try assumption. destruct (updN_cases (bstate s) b 2 b0) as [[_ ->]|[_ ->]]; auto.
  - thr u; [destruct H|eauto].
  - rewrite (Iflag u b0 H). thr u; [rewrite Hpc|]; reflexivity.
Qed.

Lemma O0_cs_adopt k r rest : th s t = C3 k r rest -> bstate s r = 0 ->
  O0 (set_pc t (C7 k) (set_tl t (wt_cb (Some r) (tl s t)) (w_bstate (updN (bstate s) r 2) (w_g_owner (updN (g_owner s) r (Some t)) s)))).
Proof.
  intros Hpc Hr. rewrite Hpc in T.
  assert (Hin : In r (blist s)) by (apply (Iwalk t); rewrite Hpc; left; reflexivity).
  assert (Hno : g_owner s r = None) by (destruct (g_owner s r) as [u|] eqn:X; [destruct (Irev r u X) as (_ & Y & _); congruence|reflexivity]).
  pose proof (ts_no _ _ _ T eq_refl) as Hcb. pose proof (ts_c _ _ _ T eq_refl) as Hn.
  assert (Hoth : forall b u, g_owner s b = Some u -> b <> r) by (intros b u X ->; congruence).
  constructor; prj; intros.
  - thr u; prj_in H; [injection H as <-; rewrite updN_same; auto|]. destruct (Iown u b H) as [A B]. rewrite updN_other by eauto. auto.
  - thr u; [discriminate H|]. destruct (IownC u b H) as (A & B & C). rewrite updN_other by eauto. auto.
  - destruct (updN_cases (g_owner s) r (Some t) b) as [[-> E]|[Hb E]]; rewrite E in H.
    + injection H as <-. rewrite !upd_same, updN_same. prj. repeat split; auto.
    + destruct (Irev b u H) as (A & B & C). rewrite updN_other by exact Hb. repeat split; try assumption.
      thr u; [rewrite Hpc in A; destruct A as [A|A]; [congruence|discriminate A]|exact A].
  - auto.
  - thr u; [destruct H|eauto].
  - thr u; prj_in H; prj; [injection H as <-; rewrite Hn; apply Ifree; exact Hno|eauto].
  - destruct (updN_cases (g_owner s) r (Some t) b) as [[-> E]|[Hb E]]; rewrite E in H; [discriminate H|auto].
Qed.
Lemma O0_cs_alloc k : no_cb (th s t) = true -> cblk (th s t) = None -> O0 (set_pc t (C4 k (nalloc s)) (set_tl t (tl s t) (alloc_block t s))).
Proof.
  intros Hpc Hck. destruct fresh_block as [Hno Hni]. pose proof (ts_no _ _ _ T Hpc) as Hcb.
  assert (Htl : forall u, upd (tl s) t (tl s t) u = tl s u) by (intros u; thr u; reflexivity).
  assert (Hoth : forall b u, g_owner s b = Some u -> b <> nalloc s) by (intros b u X ->; congruence).
  constructor; unfold alloc_block; prj; intros; rewrite ?Htl in *.
  - destruct (Iown u b H) as [A B]. rewrite updN_other by eauto. auto.
  - thr u; [injection H as <-; rewrite !updN_same; auto|]. destruct (IownC u b H) as (A & B & C). rewrite !updN_other by eauto. auto.
  - destruct (updN_cases (g_owner s) (nalloc s) (Some t) b) as [[-> E]|[Hb E]]; rewrite E in H.
    + injection H as <-. rewrite upd_same, updN_same. repeat split; [right; reflexivity|lia].
    + destruct (Irev b u H) as (A & B & C). rewrite updN_other by exact Hb. repeat split; [|exact B|lia].
      thr u; [destruct A as [A|A]; congruence|exact A].
  - apply Iinlt in H. lia.
  - thr u; [destruct H|eauto].
  - destruct (Iown u b H) as [A _]. rewrite updN_other by eauto. rewrite (Iflag u b H). thr u; [congruence|reflexivity].
  - destruct (updN_cases (g_owner s) (nalloc s) (Some t) b) as [[-> E]|[Hb E]]; rewrite E in H; [discriminate H|]. rewrite updN_other by exact Hb. auto.
Qed.

Lemma O0_cs_push k b h : th s t = C6 k b h -> O0 (set_pc t (C7 k) (set_tl t (wt_cb (Some b) (tl s t)) (w_blist (b :: blist s) s))).
Proof.
  intros Hpc. rewrite Hpc in T. destruct (IownC t b) as (Ho & Hni & Hf); [rewrite Hpc; reflexivity|].
  pose proof (ts_no _ _ _ T eq_refl) as Hcb. pose proof (ts_c _ _ _ T eq_refl) as Hn.
  constructor; prj; intros.
  - thr u; prj_in H; [assert (b0 = b) by congruence; subst b0; split; [exact Ho|left; reflexivity]|]. destruct (Iown u b0 H) as [A B]. split; [exact A|right; exact B].
  - thr u; [discriminate H|]. destruct (IownC u b0 H) as (A & B & C). repeat split; try assumption. intros [<-|X]; [congruence|contradiction].
  - destruct (Irev b0 u H) as (A & B & C). repeat split; try assumption.
    thr u; prj; [rewrite Hpc in A; destruct A as [A|A]; [congruence|injection A as <-; auto]|exact A].
  - destruct H as [<-|H]; [apply (Irev b t Ho)|auto].
  - thr u; [destruct H|right; eauto].
  - thr u; prj_in H; prj; [injection H as <-; rewrite Hn; exact Hf|eauto].
  - auto.
Qed.

Lemma O0_cs_exit b : th s t = X3 -> cb (tl s t) = Some b ->
  O0 (set_pc t Idle (set_tl t tl0 (w_bstate (updN (bstate s) b 0) (w_g_owner (updN (g_owner s) b None) s)))).
Proof.
  intros Hpc Hb. rewrite Hpc in T. destruct (own_cb b Hb) as (Ho & _).
  assert (Hf : bflag s b = false) by (rewrite (Iflag t b Hb), Hpc, (proj1 (ts_x _ _ _ T eq_refl)); reflexivity).
  assert (Hoth : forall b' u, u <> t -> g_owner s b' = Some u -> b' <> b) by (intros b' u Hu X ->; congruence).
  constructor; prj; intros.
  - thr u; [discriminate H|]. destruct (Iown u b0 H) as [A B]. rewrite updN_other by eauto. auto.
  - thr u; [discriminate H|]. destruct (IownC u b0 H) as (A & B & C). rewrite updN_other by eauto. auto.
  - destruct (updN_cases (g_owner s) b None b0) as [[-> E]|[Hb0 E]]; rewrite E in H; [discriminate H|].
    destruct (Irev b0 u H) as (A & B & C). rewrite updN_other by exact Hb0. repeat split; try assumption.
    thr u; [rewrite Hpc in A; destruct A as [A|A]; [congruence|discriminate A]|exact A].
  - auto.
  - thr u; [destruct H|eauto].
  - thr u; [discriminate H|]. rewrite (Iflag u b0 H). reflexivity.
  - destruct (updN_cases (g_owner s) b None b0) as [[-> _]|[_ E]]; [exact Hf|rewrite E in H; auto].
Qed.

Lemma O0_cstep p' x' G : cstep t s p' x' G -> O0 (set_pc t p' (set_tl t x' G)).
Proof.
  destruct 1; [apply O0_cs_none|apply O0_cs_alloc|eapply O0_cs_adopt|apply O0_cs_active|eapply O0_cs_push|apply O0_cs_flag|apply O0_cs_exit]; eassumption.
Qed.
End Blocks.

Section ReachO.
Variables (ns : nat) (nc : N).

Lemma O0_init : O0 (init nc).
Proof. constructor; cbn; intros; try congruence; try discriminate; try contradiction; try reflexivity. Qed.

Lemma O0_start s t o s' es : O0 s -> tshape ns (th s t) (tl s t) -> step ns s (Start t o) = Some (s', es) -> O0 s'.
Proof.
  intros I T H. unfold step in H. step_split H.
  all: apply (O0_frame s _ t I); prj; try reflexivity; try lia.
  all: try solve [intros u Hu; rewrite upd_other by exact Hu; split; reflexivity].
  all: rewrite ?upd_same, ?E; xn; cbn [cblk walk_of flagexp In]; try reflexivity; try tauto.
  all: intros _; pose proof (ts_cnt _ _ _ T) as Tc; cbn [tmp in_enter] in Tc; bool_eqs; destruct (nest (tl s t)); [lia|reflexivity].
Qed.

Lemma O0_step s a s' es : T0 ns s -> O0 s -> step ns s a = Some (s', es) -> O0 s'.
Proof.
  intros T I H. destruct a as [t o|t]; [eapply O0_start; eauto|].
  destruct (step_blocks _ _ _ _ _ (T t) H) as (G & Hc & He). exact (O0_ext _ _ He (O0_cstep ns s t I (T t) _ _ _ Hc)).
Qed.

Lemma O0_reach s : reachable ns nc s -> O0 s.
Proof.
  apply (inv_rule_aux _ _ _ _ _ (T0 ns) O0 (T0_reach ns nc) O0_init).
  intros s0 a s1 es J _ I H. eapply O0_step; eauto.
Qed.
End ReachO.

