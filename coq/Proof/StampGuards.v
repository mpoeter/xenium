(** Safety of guard_ptr in the stamp_it model (Model/StampDefs.v), C01, relative to the lower-bound property of the tail
    stamp:  [Tinv s]  the stamp of tail is not larger than the stamp of any block inside a critical region.
    Along every run that keeps [Tinv] ([reach_in Tinv]) a node held by a persistent guard_ptr is never reclaimed and no
    dereference hits a destroyed node ([G0], [guards_safe]): the thread of the guard is inside its critical region since
    before the node was retired, so the node's stamp (head->stamp at the time of the retirement) is larger than the
    thread's stamp, and nodes are reclaimed only up to a tail stamp read earlier.  No axioms. *)
From Coq Require Import NArith List Bool Arith Lia PeanoNat Setoid Permutation.
From XV Require Import Conc.Lts Conc.Ev Model.StampDefs Proof.StampBase Proof.StampNodes Proof.StampStamps.
Import ListNotations.
Local Open Scope N_scope.

Definition Tinv (s : state) : Prop := forall b, g_reg s b = true -> qstamp s TTail <= cst (qstamp s (TB b)).

(** runs that stay inside P *)
Section ReachIn.
Variables (ns : nat) (nc : N) (P : state -> Prop).
Inductive reach_in : state -> Prop :=
| ri_init : P (init nc) -> reach_in (init nc)
| ri_step : forall s a s' es, reach_in s -> step ns s a = Some (s', es) -> P s' -> reach_in s'.
Lemma reach_in_reach s : reach_in s -> reachable ns nc s /\ P s.
Proof.
  induction 1 as [Hi|s a s' es Hr [IH1 IH2] Hst Hp]; [split; [apply reach_init|exact Hi]|].
  split; [eapply reach_step; eauto|exact Hp].
Qed.
Lemma reach_reach_in s : (forall x, reachable ns nc x -> P x) -> reachable ns nc s -> reach_in s.
Proof.
  intros HP. induction 1 as [|s a s' es Hr IH Hst]; [apply ri_init; apply HP; apply reach_init|].
  eapply ri_step; eauto. apply HP. eapply reach_step; eauto.
Qed.
End ReachIn.

(** a retired node: its life cycle and its stamp *)
Lemma retired_somewhere s n : N0 s -> g_where s n <> PNone -> exists v r, g_life s n = LRet v r /\ nstamp s n = r.
Proof.
  intros I Hw. destruct (wh_ret_some _ _ _ (n_where s I n) Hw) as (v & r & E). exists v, r. split; [exact E|eapply n_stamp; eauto].
Qed.

Lemma in_list_retired s u n : N0 s -> In n (rl (tl s u)) -> exists v r, g_life s n = LRet v r /\ nstamp s n = r.
Proof. intros I H. apply retired_somewhere; [exact I|]. apply (n_list s I) in H. congruence. Qed.
Lemma in_glob_retired s n : N0 s -> In n (concat (gret s)) -> exists v r, g_life s n = LRet v r /\ nstamp s n = r.
Proof. intros I H. apply retired_somewhere; [exact I|]. apply (n_glob s I) in H. congruence. Qed.
Lemma in_flight_retired s u n : N0 s -> In n (flight (th s u)) -> exists v r, g_life s n = LRet v r /\ nstamp s n = r.
Proof. intros I H. apply retired_somewhere; [exact I|]. apply (n_flight s I) in H. congruence. Qed.

Lemma split_chunk_in ns ts l f r n : split_chunk ns ts l = (f, r) -> In n f -> In n l /\ ns n <= ts.
Proof.
  intros E H. split.
  - pose proof (split_chunk_app ns ts l) as A. rewrite E in A. rewrite A. apply in_or_app. left. exact H.
  - pose proof (split_chunk_le ns ts l n) as L. rewrite E in L. apply L. exact H.
Qed.
Lemma proc_chunks_in ns ts chs fl rest n : proc_chunks ns ts chs = (fl, rest) -> In n fl -> In n (concat chs) /\ ns n <= ts.
Proof.
  intros E H. split.
  - pose proof (proc_chunks_perm ns ts chs) as P. rewrite E in P. eapply Permutation_in; [apply Permutation_sym; exact P|].
    apply in_or_app. left. exact H.
  - pose proof (proc_chunks_le ns ts chs n) as L. rewrite E in L. apply L. exact H.
Qed.
Lemma in_chain_retired s t stolen n : N0 s -> (stolen = gret s \/ stolen = []) ->
  In n (concat (if is_nil (rl (tl s t)) then stolen else rl (tl s t) :: stolen)) -> exists v r, g_life s n = LRet v r /\ nstamp s n = r.
Proof.
  intros I Hs H. rewrite concat_ifnil in H. apply in_app_or in H. destruct H as [H|H]; [eapply in_list_retired; eauto|].
  destruct Hs as [-> | ->]; [eapply in_glob_retired; eauto|destruct H].
Qed.

(** * what one step does to guards and nodes *)
Lemma step_neffects ns s t s' es : N0 s -> S0 s -> step ns s (Step t) = Some (s', es) ->
  (forall u i n, gs (tl s' u) i = Some n -> gs (tl s u) i = Some n \/ (u = t /\ exists c, th s t = A2 (KHold c i) /\ cells s c = Some n)) /\
  (forall n, g_life s' n = g_life s n \/ g_life s n = LNone \/ (exists u, g_life s n = LFresh u) \/
             (exists c, g_life s n = LPub c /\ g_life s' n = LUnl t) \/
             (g_life s n = LUnl t /\ g_life s' n = LRet t (qstamp s THead))) /\
  (forall n, g_where s' n = PFreed -> g_where s n = PFreed \/ (exists v r, g_life s n = LRet v r /\ r <= qstamp s TTail)).
Proof.
  intros I S H. unfold_step H. cbv zeta in H. step_split H.
  all: bool_eqs; prj; prj_hyps; rewrite ?upd_same in *; prj_hyps.
  all: (split; [intros gu gi gn Hg|split; [intros gn|intros gn Hw]]).
  all: try solve [left; first [assumption|reflexivity]].
  (* guards *)
  all: try solve [match goal with Hg : gs (upd _ ?t0 _ ?u0) _ = Some _ |- _ =>
    (destruct (Nat.eq_dec u0 t0) as [->|Hne]; [rewrite ?upd_same in Hg|rewrite ?upd_other in Hg by exact Hne; left; exact Hg]); prj_in Hg;
    try match type of Hg with context [upd ?f ?a ?v ?x] => destruct (Nat.eq_dec x a) as [->|Hne2]; [rewrite upd_same in Hg|rewrite upd_other in Hg by exact Hne2] end;
    first [ discriminate Hg | left; assumption
          | try subst; right; (split; [reflexivity|eexists; (split; [first [eassumption|reflexivity]|cbn [cell_of] in *; congruence])]) ] end].
  (* life cycle *)
  all: try solve [match goal with |- g_life _ _ = _ \/ _ => idtac | |- updN _ _ _ _ = _ \/ _ => idtac end;
    pose proof (n_new s I) as Hnew;
    match goal with E : th ?s ?t = _ |- _ =>
         pose proof (n_fresh1 s I t) as If1t; pose proof (n_unl1 s I t) as Iu1t; rewrite E in If1t, Iu1t; cbn [fresh_of unl_of] in If1t, Iu1t end;
    repeat match goal with H : cells ?s0 _ = Some _ |- _ => apply (n_cell s0 I) in H end;
    try specialize (If1t _ eq_refl); try specialize (Iu1t _ eq_refl); inj_some;
    repeat match goal with |- context [updN ?f ?a ?v ?x] => destruct (updN_cases f a v x) as [[-> ->]|[? ->]] end;
    first [ left; reflexivity | right; left; assumption | right; right; left; solve [eauto]
          | right; right; right; left; eexists; split; [eassumption|reflexivity]
          | right; right; right; right; split; [assumption|reflexivity] ]].
  (* reclaimed: only retired nodes whose stamp is not above the tail stamp *)
  all: try solve [match goal with Hw : _ = PFreed |- _ =>
    pose proof (s_ts s S t) as Hts; match goal with E : th _ _ = _ |- _ => rewrite E in Hts end; sfn_in Hts;
    repeat match type of Hw with context [updN ?f ?a ?v ?x] => destruct (updN_cases f a v x) as [[? E']|[? E']]; rewrite E' in Hw; clear E' end;
    repeat match type of Hw with context [memN ?n ?l] => let M := fresh "M" in destruct (memN n l) eqn:M; [apply memN_In in M|] end;
    try discriminate Hw; try (left; exact Hw);
    right;
    first [ match goal with E : split_chunk _ _ _ = (?f, _), M : In _ ?f |- _ =>
              destruct (split_chunk_in _ _ _ _ _ _ E M) as [X1 X2]; destruct (in_list_retired _ _ _ I X1) as (vv & rr & L1 & L2) end
          | match goal with E : proc_chunks _ _ (if is_nil _ then gret _ else _) = (?f, _), M : In _ ?f |- _ =>
              destruct (proc_chunks_in _ _ _ _ _ _ E M) as [X1 X2]; destruct (in_chain_retired _ _ _ _ I (or_introl eq_refl) X1) as (vv & rr & L1 & L2) end
          | match goal with E : proc_chunks _ _ (if is_nil _ then [] else _) = (?f, _), M : In _ ?f |- _ =>
              destruct (proc_chunks_in _ _ _ _ _ _ E M) as [X1 X2]; destruct (in_chain_retired _ _ _ _ I (or_intror eq_refl) X1) as (vv & rr & L1 & L2) end
          | match goal with E : proc_chunks _ _ ?ch = (?f, _), M : In _ ?f, Ep : th _ ?t0 = _ |- _ =>
              destruct (proc_chunks_in _ _ _ _ _ _ E M) as [X1 X2];
              assert (X3 : In gn (flight (th s t0))) by (rewrite Ep; exact X1);
              destruct (in_flight_retired _ _ _ I X3) as (vv & rr & L1 & L2) end ];
    exists vv, rr; (split; [exact L1|]); rewrite <- L2; lia end].
Qed.
(** * the guard invariant *)
Definition glife_ok (s : state) (b n : N) : Prop :=
  match g_life s n with
  | LPub _ | LUnl _ => True
  | LRet _ r => cst (qstamp s (TB b)) < r
  | _ => False
  end.

Definition G0 (s : state) : Prop :=
  forall u i n, gs (tl s u) i = Some n ->
    g_where s n <> PFreed /\ exists b, cb (tl s u) = Some b /\ g_reg s b = true /\ glife_ok s b n.

Lemma G0_init nc : G0 (init nc).
Proof. intros u i n H. discriminate H. Qed.

(** a thread that holds a guard is inside its critical region *)
Lemma guard_in_region ns s u i n : T0 ns s -> S0 s -> gs (tl s u) i = Some n ->
  exists b, cb (tl s u) = Some b /\ g_reg s b = true.
Proof.
  intros T S Hg. pose proof (T u) as Tu.
  destruct (cb (tl s u)) as [b|] eqn:Ecb.
  - exists b. split; [reflexivity|]. destruct (s_own s S u b Ecb) as (_ & _ & ->).
    assert (Hi : (i < ns)%nat). { destruct (Nat.lt_ge_cases i ns) as [L|L]; [exact L|]. rewrite (ts_hi _ _ _ Tu i L) in Hg. discriminate. }
    pose proof (cnt_pos _ _ _ _ Hg Hi) as Hp. pose proof (ts_cnt _ _ _ Tu) as Hc.
    assert (Hn : (1 <= nest (tl s u))%nat) by lia.
    unfold inreg. destruct (nest (tl s u)); [lia|]. destruct (th s u); try reflexivity. destruct p; reflexivity.
  - destruct (ts_fresh _ _ _ Tu Ecb) as (_ & Hn & _). rewrite Hn in Hg. discriminate.
Qed.

Lemma cst_stable ns s t s' es u b : T0 ns s -> O0 s -> S0 s -> step ns s (Step t) = Some (s', es) ->
  cb (tl s u) = Some b -> g_reg s b = true -> cst (qstamp s' (TB b)) = cst (qstamp s (TB b)).
Proof.
  intros T O S H Hcb Hr. destruct (s_own s S u b Hcb) as (_ & _ & F3). rewrite Hr in F3.
  destruct (cst_step _ _ _ _ _ b (T t) S H) as [E|[(k & hp & v & Ef & Hb & _)|[-> _]]]; [exact E| |].
  - exfalso. assert (u = t) by (destruct (o_own s O u b Hcb) as [X1 _]; destruct (o_own s O t b Hb) as [X2 _]; congruence). subst u.
    rewrite Ef in F3. sfn_in F3. pose proof (ts_p _ _ _ (T t)) as L. rewrite Ef in L. rewrite (L eq_refl) in F3. discriminate.
  - exfalso. destruct (o_own s O u _ Hcb) as [X1 _]. apply (o_rev s O) in X1. lia.
Qed.

Lemma G0_step ns s t s' es : T0 ns s -> O0 s -> N0 s -> S0 s -> T0 ns s' -> S0 s' -> Tinv s -> G0 s ->
  step ns s (Step t) = Some (s', es) -> G0 s'.
Proof.
  intros T O I S T' S' TI G H u i n Hg.
  destruct (step_neffects _ _ _ _ _ I S H) as (NE1 & NE2 & NE3).
  destruct (step_qwrites ns s t s' es (T t) H) as (WA & _ & _ & WD).
  pose proof (f_others _ _ _ (step_frame _ _ _ _ _ H)) as Fth.
  destruct (guard_in_region _ _ _ _ _ T' S' Hg) as (b' & Hcb' & Hr').
  destruct (NE1 u i n Hg) as [Hold|(-> & c & Epc & Ec)].
  - (* held before *)
    destruct (G u i n Hold) as (Hw & b & Hcb & Hr & Hl).
    assert (Eb : b' = b).
    { destruct (Nat.eq_dec u t) as [->|Hne].
      - destruct (WD b Hcb) as [X|[X _]]; [congruence|].
        exfalso. pose proof (T t) as Tt. rewrite X in Tt.
        pose proof (ts_l _ _ _ Tt eq_refl) as L. pose proof (ts_cnt _ _ _ Tt) as C. rewrite L in C.
        assert (Hi : (i < ns)%nat). { destruct (Nat.lt_ge_cases i ns) as [Q|Q]; [exact Q|]. rewrite (ts_hi _ _ _ Tt i Q) in Hold. discriminate. }
        pose proof (cnt_pos _ _ _ _ Hold Hi). lia.
      - destruct (Fth u Hne) as [_ Et]. rewrite Et in Hcb'. congruence. }
    subst b'.
    assert (Hcst : cst (qstamp s' (TB b)) = cst (qstamp s (TB b))) by (eapply cst_stable; eauto).
    assert (Hl' : glife_ok s' b n).
    { unfold glife_ok in *. rewrite Hcst.
      destruct (NE2 n) as [E|[E|[(v & E)|[(c & E1 & E2)|(E1 & E2)]]]].
      - rewrite E. exact Hl.
      - rewrite E in Hl. contradiction.
      - rewrite E in Hl. contradiction.
      - rewrite E2. exact Logic.I.
      - rewrite E2. pose proof (s_sb s S b). lia. }
    split; [|exists b; auto].
    intros Hf. destruct (NE3 n Hf) as [X|(v & r & X1 & X2)]; [contradiction|].
    unfold glife_ok in Hl. rewrite X1 in Hl. specialize (TI b Hr). lia.
  - (* a new guard: the node is in a cell *)
    pose proof (n_cell s I c n Ec) as Hp.
    destruct (wh_not_ret _ _ _ (n_where s I n) ltac:(rewrite Hp; intros; discriminate)) as [Hw0 _].
    split.
    + intros Hf. destruct (NE3 n Hf) as [X|(v & r & X1 & _)]; congruence.
    + exists b'. split; [exact Hcb'|]. split; [exact Hr'|].
      unfold glife_ok. destruct (NE2 n) as [E|[E|[(v & E)|[(c' & E1 & E2)|(E1 & E2)]]]]; try congruence.
      * rewrite E, Hp. exact Logic.I.
      * rewrite E2. exact Logic.I.
Qed.

Lemma G0_start ns s t o s' es : G0 s -> step ns s (Start t o) = Some (s', es) -> G0 s'.
Proof.
  intros G H. unfold step, step_gen in H. step_split H.
  all: bool_eqs; prj.
  all: intros gu gi gn Hg; prj_in Hg.
  all: unfold glife_ok; prj.
  all: try solve [destruct (G _ _ _ Hg) as (Hw & b & Hcb & Hr & Hl); unfold glife_ok in Hl; split; [exact Hw|exists b; repeat split; assumption]].
  all: destruct (Nat.eq_dec gu t) as [->|Hne]; [rewrite ?upd_same in *; prj_hyps; try discriminate Hg|rewrite ?upd_other in * by exact Hne].
  all: try solve [destruct (G _ _ _ Hg) as (Hw & b & Hcb & Hr & Hl); unfold glife_ok in Hl; split; [exact Hw|exists b; repeat split; assumption]].
Qed.

(** * no dereference of a destroyed node *)
Lemma dead_false s n : N0 s -> g_where s n <> PFreed -> g_life s n <> LDropped -> dead s n = false.
Proof.
  intros I Hw Hl. unfold dead. pose proof (n_where s I n) as W.
  assert (Hn : g_nfree s n = O). { destruct (g_where s n); cbn in W; try apply W. contradiction. }
  rewrite Hn. cbn. destruct (g_life s n); try reflexivity. contradiction.
Qed.
Lemma dead_cell s c n : N0 s -> cells s c = Some n -> dead s n = false.
Proof.
  intros I Hc. pose proof (n_cell s I c n Hc) as Hp.
  destruct (wh_not_ret _ _ _ (n_where s I n) ltac:(rewrite Hp; intros; discriminate)) as [Hw0 _].
  apply dead_false; [exact I|congruence|congruence].
Qed.

Lemma uaf_step ns s t s' es : N0 s -> G0 s -> g_uaf s = false -> step ns s (Step t) = Some (s', es) -> g_uaf s' = false.
Proof.
  intros I G U H. unfold_step H. cbv zeta in H. step_split H.
  all: bool_eqs; prj; rewrite ?U; cbn [orb].
  all: try reflexivity.
  all: try solve [eapply dead_cell; eauto].
  all: try solve [match goal with E : gs (tl _ _) _ = Some _ |- _ => destruct (G _ _ _ E) as (Hw & b & _ & _ & Hl) end;
                  apply dead_false; [exact I|exact Hw|]; unfold glife_ok in Hl; intros X; rewrite X in Hl; exact Hl].
  all: match goal with E : cells _ _ = Some ?n |- dead _ ?n = false =>
         pose proof (dead_cell _ _ _ I E) as D; unfold dead in *; prj; apply orb_false_elim in D; destruct D as [D1 D2]; rewrite D1; cbn [orb] end.
  all: try exact D2.
  all: repeat match goal with |- context [updN ?f ?a ?v ?x] => destruct (updN_cases f a v x) as [[-> ->]|[? ->]] end; try reflexivity; try exact D2.
Qed.

Section Safe.
Variables (ns : nat) (nc : N).

Lemma G0_reach_in s : reach_in ns nc Tinv s -> G0 s /\ g_uaf s = false.
Proof.
  induction 1 as [Hi|s a s' es Hr [IH1 IH2] Hst Hp]; [split; [apply G0_init|reflexivity]|].
  destruct (reach_in_reach _ _ _ _ Hr) as [Hre HT].
  assert (Hre' : reachable ns nc s') by (eapply reach_step; eauto).
  destruct a as [t o|t].
  - split; [eapply G0_start; eauto|]. unfold step, step_gen in Hst. step_split Hst; prj; exact IH2.
  - split.
    + eapply (G0_step ns s t s' es); [eapply T0_reach; exact Hre | eapply O0_reach; exact Hre | eapply N0_reach; exact Hre | eapply S0_reach; exact Hre
        | eapply T0_reach; exact Hre' | eapply S0_reach; exact Hre' | exact HT | exact IH1 | exact Hst].
    + eapply (uaf_step ns s t s' es); [eapply N0_reach; exact Hre | exact IH1 | exact IH2 | exact Hst].
Qed.

(** C01: along every run that keeps the tail stamp below the stamps of the blocks inside a critical region, a node held
    by a guard_ptr is not reclaimed (its deleter has not run, nor was it dropped) and no dereference hit a destroyed node *)
Theorem guards_safe s : reach_in ns nc Tinv s ->
  (forall u i n, gs (tl s u) i = Some n -> dead s n = false /\ g_nfree s n = O) /\ g_uaf s = false.
Proof.
  intros Hr. destruct (G0_reach_in s Hr) as [G U]. split; [|exact U].
  destruct (reach_in_reach _ _ _ _ Hr) as [Hre _]. pose proof (N0_reach ns nc s Hre) as I.
  intros u i n Hg. destruct (G u i n Hg) as (Hw & b & _ & _ & Hl).
  assert (Hd : dead s n = false).
  { apply dead_false; [exact I|exact Hw|]. unfold glife_ok in Hl. intros X. rewrite X in Hl. exact Hl. }
  split; [exact Hd|]. unfold dead in Hd. apply orb_false_elim in Hd. destruct Hd as [Hd _].
  destruct (g_nfree s n); [reflexivity|discriminate].
Qed.
End Safe.

