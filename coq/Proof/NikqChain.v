(** nikolaev_queue model, node chain layer: the list of linked nodes [q_nodes] (never reordered, only extended by the
    link CAS), next pointers = consecutive elements, retired nodes = the prefix before the head (each node retired at
    most once), tail is a linked node, a non-null next is final and implies that the node's allocated ring is
    finalized; nodes under construction / being destroyed are private to one thread, not linked, and a node under
    construction is exactly [used_init v] until the link CAS. *)
From Coq Require Import NArith List Bool Lia PeanoNat.
From XV Require Import Base.Word Conc.Lts Conc.Ev gen.ScqGen Model.NikbDefs Model.NikqDefs.
From XV Require Import Proof.NikbArith Proof.NikbBase Proof.NikqBase.
Import ListNotations.
Local Open Scope N_scope.

(** consecutive elements are linked, the last element has no successor *)
Fixpoint linked (nx : N -> N) (l : list N) : Prop :=
  match l with
  | [] => True
  | a :: r => match r with [] => nx a = 0 | b :: _ => nx a = b /\ linked nx r end
  end.

Lemma linked_mid nx l1 a b l2 : linked nx (l1 ++ a :: b :: l2) -> nx a = b.
Proof.
  induction l1 as [|c l1 IH]; cbn [app linked]; [tauto|].
  destruct (l1 ++ a :: b :: l2) eqn:E; [destruct l1; discriminate|]. intros [_ H]. apply IH. exact H.
Qed.

Lemma linked_last nx l a : linked nx (l ++ [a]) -> nx a = 0.
Proof.
  induction l as [|c l IH]; cbn [app linked]; [tauto|].
  destruct (l ++ [a]) eqn:E; [destruct l; discriminate|]. intros [_ H]. apply IH. exact H.
Qed.

Lemma linked_ext nx nx' l : (forall a, In a l -> nx' a = nx a) -> linked nx l -> linked nx' l.
Proof.
  induction l as [|a r IH]; [auto|]. intros He. cbn [linked]. destruct r as [|b r'].
  - rewrite He by (left; reflexivity). auto.
  - intros [H1 H2]. split; [rewrite He by (left; reflexivity); exact H1|].
    apply IH; [intros c Hc; apply He; right; exact Hc|exact H2].
Qed.

Lemma linked_snoc nx l a m : NoDup (l ++ [a]) -> ~ In m (l ++ [a]) -> nx m = 0 -> linked nx (l ++ [a]) ->
  linked (setf nx a m) ((l ++ [a]) ++ [m]).
Proof.
  intros Hnd Hm Hz. revert Hnd Hm. induction l as [|c l IH]; intros Hnd Hm Hl.
  - cbn [app linked] in *. split; [apply setf_same|]. rewrite setf_other; [exact Hz|]. intros ->. apply Hm. left. reflexivity.
  - cbn [app] in *. inversion Hnd as [|x y Hx Hy]; subst.
    assert (IH' := IH Hy (fun Hi => Hm (or_intror Hi))).
    destruct (l ++ [a]) as [|b r] eqn:E; [destruct l; discriminate|].
    cbn [linked] in Hl. destruct Hl as [H1 H2]. specialize (IH' H2).
    cbn [app linked] in *. split; [|exact IH'].
    rewrite setf_other; [exact H1|]. intros ->. apply Hx. rewrite <- E. apply in_or_app. right. left. reflexivity.
Qed.

(** the successor of an element with a non-null next *)
Lemma linked_succ nx l a : linked nx l -> In a l -> nx a <> 0 -> exists l1 l2, l = l1 ++ a :: nx a :: l2.
Proof.
  induction l as [|c r IH]; [intros _ []|]. cbn [linked]. destruct r as [|b r'].
  - intros H [->|[]] Hn. contradiction.
  - intros [H1 H2] [->|Hi] Hn.
    + exists [], r'. rewrite H1. reflexivity.
    + destruct (IH H2 Hi Hn) as (l1 & l2 & E). exists (c :: l1), l2. rewrite E. reflexivity.
Qed.

Lemma nodup_snoc (l : list N) m : NoDup l -> ~ In m l -> NoDup (l ++ [m]).
Proof.
  induction l as [|a l IH]; cbn [app]; intros Hnd Hni; [constructor; [intros []|constructor]|].
  inversion Hnd; subst. constructor.
  - intros Hi. apply in_app_or in Hi. destruct Hi as [Hi|[->|[]]]; [contradiction|apply Hni; left; reflexivity].
  - apply IH; [assumption|intros Hi; apply Hni; right; exact Hi].
Qed.

Definition refs (p : opc) : list N :=
  match p with
  | P2 _ n | P2a _ n | PIn _ n | PRe _ n | PFin _ n | PCa _ n _ _ | PCf _ n _ _ | PLink _ n _ => [n]
  | P2b _ n nx => [n; nx]
  | PSw _ n m => [n; m]
  | QIn1 n _ | Q2 n | Q3 n | QIn2 n _ | Q4 n => [n]
  | Q5 n nx => [n; nx]
  | _ => []
  end.
Definition priv (p : opc) : option N :=
  match p with
  | PCa _ _ m _ | PCf _ _ m _ | PLink _ _ m | PSt _ m _ | PDel _ m _ => Some m
  | _ => None
  end.

Section Chain.
  Variable cap R : N.
  Notation qstep := (qstep cap R).

  (** program points that have seen a non-null next / carry the next they have read *)
  Definition T5 (s : qstate) (p : opc) : Prop :=
    match p with
    | P2a _ n | Q3 n | QIn2 n _ | Q4 n => nxt s n <> 0
    | P2b _ n nx | Q5 n nx => nxt s n = nx /\ nx <> 0
    | PCa v n m _ | PCf v n m _ | PLink v n m => nd s m = used_init cap v /\ fin s n = true /\ fin s m = false
    | PRe _ n => fin s n = true
    | _ => True
    end.

  Record CI (s : qstate) : Prop := mkCI {
    c_nd : NoDup (q_nodes s);
    c_lt : forall n, In n (q_nodes s) -> 0 < n < nalloc s;
    c_split : exists rest, q_nodes s = q_retired s ++ qhead s :: rest;
    c_tail : In (qtail s) (q_nodes s);
    c_link : linked (nxt s) (q_nodes s);
    c_nx : forall n, nxt s n <> 0 -> In n (q_nodes s) /\ fin s n = true;
    c_refs : forall t n, In n (refs (oth s t)) -> In n (q_nodes s);
    c_priv : forall t m, priv (oth s t) = Some m ->
               ~ In m (q_nodes s) /\ 0 < m < nalloc s /\ nxt s m = 0 /\ forall u, priv (oth s u) = Some m -> u = t;
    c_fresh : forall m, nalloc s <= m -> fin s m = false /\ nd s m = init cap;
    c_t5 : forall t, T5 s (oth s t) }.

  Lemma CI_init : CI (qinit cap).
  Proof.
    constructor; cbn [qinit q_nodes q_retired qhead qtail nxt nalloc oth refs priv fin nd].
    - constructor; [intros []|constructor].
    - intros n [<-|[]]. lia.
    - exists []. reflexivity.
    - left. reflexivity.
    - reflexivity.
    - intros n H. contradiction.
    - intros t n [].
    - intros t m H. discriminate.
    - split; reflexivity.
    - intros t. exact I.
  Qed.

  Definition same_chain (s s' : qstate) : Prop :=
    qhead s' = qhead s /\ qtail s' = qtail s /\ nxt s' = nxt s /\ fin s' = fin s /\ q_nodes s' = q_nodes s /\ q_retired s' = q_retired s.

  Lemma same_chain_refl s : same_chain s s.
  Proof. repeat split. Qed.

  Lemma CI_frame s s' t p :
    CI s ->
    qhead s' = qhead s -> nxt s' = nxt s -> q_nodes s' = q_nodes s -> q_retired s' = q_retired s ->
    In (qtail s') (q_nodes s) ->
    (forall x, fin s' x = fin s x \/ (fin s' x = true /\ In x (q_nodes s))) ->
    nalloc s <= nalloc s' ->
    (forall u, u <> t -> oth s' u = oth s u) -> oth s' t = p ->
    (forall m, nd s' m = nd s m \/ In m (q_nodes s) \/ priv (oth s t) = Some m \/ (m = nalloc s /\ nalloc s < nalloc s')) ->
    (forall n, In n (refs p) -> In n (q_nodes s)) ->
    (forall m, priv p = Some m -> ~ In m (q_nodes s) /\ 0 < m < nalloc s' /\ nxt s m = 0 /\ forall u, u <> t -> priv (oth s u) <> Some m) ->
    T5 s' p -> CI s'.
  Proof.
    intros [a1 a2 a3 a4 a5 a6 a7 a8 af a9] E1 E3 E5 E6 Htl Hfin Hna Ho Hp Hnd0 Hr Hv H5.
    assert (Hnd : forall m u, u <> t -> priv (oth s u) = Some m -> nd s' m = nd s m).
    { intros m u Hne Hx. destruct (a8 u m Hx) as (V1 & V2 & V3 & V4). destruct (Hnd0 m) as [E|[E|[E|[E _]]]]; [exact E| | |lia].
      - exfalso. apply V1. exact E.
      - exfalso. apply Hne. symmetry. apply V4. exact E. }
    assert (Hfr : forall m, nalloc s' <= m -> nd s' m = nd s m).
    { intros m Hm. destruct (Hnd0 m) as [E|[E|[E|[E E']]]]; [exact E| | |lia].
      - pose proof (a2 m E). lia.
      - destruct (a8 t m E) as (_ & V2 & _). lia. }
    assert (Hfm : forall x, fin s x = true -> fin s' x = true) by (intros x Hx; destruct (Hfin x) as [->|[-> _]]; [exact Hx|reflexivity]).
    assert (Hfp : forall x, ~ In x (q_nodes s) -> fin s' x = fin s x) by (intros x Hx; destruct (Hfin x) as [->|[_ Hi]]; [reflexivity|contradiction]).
    constructor; rewrite ?E1, ?E3, ?E5, ?E6; try assumption.
    - intros n Hn. specialize (a2 n Hn). lia.
    - intros n Hn. destruct (a6 n Hn) as [A B]. split; [exact A|apply Hfm; exact B].
    - intros u n. destruct (Nat.eq_dec u t) as [->|Hne]; [rewrite Hp; apply Hr|rewrite (Ho u Hne); apply a7].
    - intros u m. destruct (Nat.eq_dec u t) as [->|Hne].
      + rewrite Hp. intros Hx. destruct (Hv m Hx) as (V1 & V2 & V3 & V4). ssplit; try assumption; try lia.
        intros w. destruct (Nat.eq_dec w t) as [->|Hnw]; [reflexivity|]. rewrite (Ho w Hnw). intros Hy. exfalso. apply (V4 w Hnw Hy).
      + rewrite (Ho u Hne). intros Hx. destruct (a8 u m Hx) as (V1 & V2 & V3 & V4). ssplit; try assumption; try lia.
        intros w. destruct (Nat.eq_dec w t) as [->|Hnw]; [|rewrite (Ho w Hnw); apply V4].
        rewrite Hp. intros Hy. exfalso. destruct (Hv m Hy) as (_ & _ & _ & W). apply (W u Hne Hx).
    - intros m Hm. rewrite (Hfr m Hm). rewrite Hfp; [apply af; lia|]. intros Hi. specialize (a2 m Hi). lia.
    - intros u. destruct (Nat.eq_dec u t) as [->|Hne]; [rewrite Hp; exact H5|]. rewrite (Ho u Hne).
      specialize (a9 u). destruct (oth s u) eqn:Eu; cbn [T5] in *; rewrite ?E3; try exact a9.
      1: apply Hfm; exact a9.
      (* a node under construction is private: its state and finalized bit are untouched *)
      all: destruct a9 as (A & B & C); destruct (a8 u m ltac:(rewrite Eu; reflexivity)) as (V1 & _);
        rewrite (Hnd _ u Hne) by (rewrite Eu; reflexivity); ssplit; [exact A|apply Hfm; exact B|rewrite (Hfp _ V1); exact C].
  Qed.

  (** the thread keeps its private node *)
  Lemma priv_keep s t m : CI s -> priv (oth s t) = Some m ->
    ~ In m (q_nodes s) /\ 0 < m < nalloc s /\ nxt s m = 0 /\ forall u, u <> t -> priv (oth s u) <> Some m.
  Proof. intros Hc Hp. destruct (c_priv s Hc t m Hp) as (V1 & V2 & V3 & V4). ssplit; try assumption; try lia. intros u Hne Hx. apply Hne, V4, Hx. Qed.

  (** thread t goes to p; s1 is s up to the value ghosts and a tail that stays a linked node *)
  Lemma CI_go s s1 t p : CI s ->
    qhead s1 = qhead s -> nd s1 = nd s -> fin s1 = fin s -> nxt s1 = nxt s -> nalloc s <= nalloc s1 -> oth s1 = oth s ->
    q_nodes s1 = q_nodes s -> q_retired s1 = q_retired s -> In (qtail s1) (q_nodes s) ->
    (forall n, In n (refs p) -> In n (q_nodes s)) -> (forall m, priv p = Some m -> priv (oth s t) = Some m) -> T5 s1 p ->
    CI (at_opc s1 t p).
  Proof.
    intros Hc E1 E2 E3 E4 E5 E6 E7 E8 Htl Hr Hv H5.
    apply (CI_frame s _ t p Hc); qsimg; rewrite ?E6; try assumption.
    - intros x. left. rewrite E3. reflexivity.
    - intros u Hne. apply upd_other, Hne.
    - apply upd_same.
    - intros m. left. rewrite E2. reflexivity.
    - intros m Hm. destruct (priv_keep s t m Hc (Hv m Hm)) as (V1 & V2 & V3 & V4). ssplit; try assumption; lia.
  Qed.

  (** a phase: the state of node n, a linked node or the private node of t, changes *)
  Lemma CI_mv s s' t n sg' p : CI s -> moves s s' t n sg' p -> In n (q_nodes s) \/ priv (oth s t) = Some n ->
    (forall x, In x (refs p) -> In x (q_nodes s)) -> (forall m, priv p = Some m -> priv (oth s t) = Some m) -> T5 s' p -> CI s'.
  Proof.
    intros Hc ((E1 & E2 & E3 & E4 & _ & E5 & E6 & E7) & En & Eo) Hn Hr Hv H5.
    apply (CI_frame s s' t p Hc); try assumption; rewrite ?Eo.
    - rewrite E2. apply (c_tail s Hc).
    - intros x. left. rewrite E3. reflexivity.
    - rewrite E5. apply N.le_refl.
    - intros u Hne. apply upd_other, Hne.
    - apply upd_same.
    - intros m. rewrite En. unfold setf. destruct (N.eqb_spec m n) as [->|]; [right; destruct Hn; auto|left; reflexivity].
    - intros m Hm. rewrite E5. apply (priv_keep s t m Hc), Hv, Hm.
  Qed.

  Lemma nodup_split_eq (l : list N) : NoDup l -> forall a1 b1 a2 b2 x, l = a1 ++ x :: b1 -> l = a2 ++ x :: b2 -> a1 = a2 /\ b1 = b2.
  Proof.
    intros Hnd a1. revert l Hnd. induction a1 as [|c a1 IH]; intros l Hnd b1 a2 b2 x E1 E2.
    - destruct a2 as [|d a2]; cbn [app] in *.
      + rewrite E1 in E2. inversion E2. auto.
      + exfalso. rewrite E1 in E2. inversion E2; subst. inversion Hnd as [|? ? Hx _]; subst. apply Hx. apply in_or_app. right. left. reflexivity.
    - destruct a2 as [|d a2]; cbn [app] in *.
      + exfalso. rewrite E2 in E1. inversion E1; subst. inversion Hnd as [|? ? Hx _]; subst. apply Hx. apply in_or_app. right. left. reflexivity.
      + rewrite E1 in E2. inversion E2; subst. inversion Hnd as [|? ? _ Hy]; subst.
        destruct (IH _ Hy b1 a2 b2 x eq_refl H1) as [-> ->]. auto.
  Qed.

  Lemma ci_head_in s : CI s -> In (qhead s) (q_nodes s).
  Proof. intros H. destruct (c_split s H) as [rest E]. rewrite E. apply in_or_app. right. left. reflexivity. Qed.

  Lemma ci_nalloc_pos s : CI s -> 0 < nalloc s.
  Proof. intros H. pose proof (c_lt s H _ (ci_head_in s H)). lia. Qed.

  Lemma ci_fresh_nxt s m : CI s -> nalloc s <= m -> nxt s m = 0.
  Proof.
    intros H Hm. destruct (N.eq_dec (nxt s m) 0) as [E|E]; [exact E|]. destruct (c_nx s H m E) as [Hi _].
    pose proof (c_lt s H m Hi). lia.
  Qed.

  Lemma ci_succ_in s n : CI s -> In n (q_nodes s) -> nxt s n <> 0 -> In (nxt s n) (q_nodes s).
  Proof.
    intros H Hi Hn. destruct (linked_succ _ _ _ (c_link s H) Hi Hn) as (l1 & l2 & E). rewrite E.
    apply in_or_app. right. right. left. reflexivity.
  Qed.

  (** a linked node without successor is the last one *)
  Lemma ci_last s n : CI s -> In n (q_nodes s) -> nxt s n = 0 -> exists l, q_nodes s = l ++ [n].
  Proof.
    intros H Hi Hz. apply in_split in Hi. destruct Hi as (l1 & l2 & E). destruct l2 as [|b l2]; [exists l1; exact E|exfalso].
    pose proof (c_link s H) as Hl. rewrite E in Hl. apply linked_mid in Hl.
    assert (Hb : In b (q_nodes s)) by (rewrite E; apply in_or_app; right; right; left; reflexivity).
    pose proof (c_lt s H b Hb). lia.
  Qed.

  Lemma priv_not_ref s t u m n : CI s -> priv (oth s u) = Some m -> In n (refs (oth s t)) -> m <> n.
  Proof. intros Hc Hx Hr ->. destruct (c_priv s Hc u _ Hx) as (V1 & _). apply V1. apply (c_refs s Hc t). exact Hr. Qed.
  Lemma priv_distinct s t u m : CI s -> u <> t -> priv (oth s u) = Some m -> priv (oth s t) = Some m -> False.
  Proof. intros Hc Hne Hx Hy. destruct (c_priv s Hc u _ Hx) as (_ & _ & _ & V4). apply Hne. symmetry. apply V4. exact Hy. Qed.
  Lemma priv_lt s u m : CI s -> priv (oth s u) = Some m -> m < nalloc s.
  Proof. intros Hc Hx. destruct (c_priv s Hc u _ Hx) as (_ & V2 & _). lia. Qed.

  Lemma CI_step s a s' es : CI s -> qstep s a = Some (s', es) -> CI s'.
  Proof.
    intros Hc H. unfold NikqDefs.qstep in H. pose proof (c_tail s Hc) as Htl. destruct a as [t o|t].
    - destruct (oth s t) eqn:Eo; try discriminate. injection H as <- _.
      apply (CI_go s s t _ Hc); try reflexivity; [exact Htl|intros ? []|discriminate].
    - pose proof (c_refs s Hc t) as Hrf. pose proof (c_priv s Hc t) as Hpv. pose proof (c_t5 s Hc t) as Ht5.
      pose proof (fun s1 p => CI_go s s1 t p Hc) as Hgo. pose proof (fun n sg' p => CI_mv s s' t n sg' p Hc) as Hmv.
      assert (Hent : forall n q x p, moves s (at_opc (w_nd s n (enter (nd s n) t (D0 q x))) t p) t n (enter (nd s n) t (D0 q x)) p) by (repeat split).
      destruct (oth s t) as [|[v|tp]| |v|v n|v n|v n nx|v n|v n|v n|v n m0 i|v n m0 i|v n m0|v n m0|v m0 lb|v m0 lb| |n lb|n|n|n lb|n|n nx] eqn:Eo;
        try discriminate; cbn [refs] in Hrf; cbn [priv] in Hpv, Hgo, Hmv; cbn [T5] in Ht5.
      + (* OBegin push *) injection H as <- _. apply Hgo; try reflexivity; [exact Htl|intros ? []|discriminate].
      + (* OBegin pop *) injection H as <- _. apply Hgo; try reflexivity; [exact Htl|intros ? []|discriminate].
      + (* P1 *) injection H as <- _. apply Hgo; try reflexivity; [exact Htl|intros ? [<-|[]]; exact Htl|discriminate].
      + (* P2 *) destruct (N.eqb_spec (nxt s n) 0) as [Hz|Hz]; injection H as <- _.
        * eapply Hmv; [apply Hent|left; apply Hrf; left; reflexivity|exact Hrf|discriminate|exact I].
        * apply Hgo; try reflexivity; [exact Htl|exact Hrf|discriminate|exact Hz].
      + (* P2a *) injection H as <- _. apply Hgo; try reflexivity; [exact Htl| |discriminate|split; [reflexivity|exact Ht5]].
        intros x [<-|[<-|[]]]; [|apply ci_succ_in; [exact Hc| |exact Ht5]]; apply Hrf; left; reflexivity.
      + (* P2b *) destruct (qtail s =? n); injection H as <- _; (apply Hgo; try reflexivity; [ |intros ? []|discriminate]); qsimg; first [exact Htl|apply Hrf; right; left; reflexivity].
      + (* PIn *) destruct (push_in_mv cap R true _ _ _ _ _ _ H) as (sg' & p & Hm & _ & Hp). pose proof Hm as ((_ & _ & E3 & _) & _).
        destruct Hp as [->|[[-> Hf]|[_ [->| ->]]]];
          (apply (Hmv n sg' _ Hm); [left; apply Hrf; left; reflexivity|first [exact Hrf|intros ? []]|discriminate|cbn [T5]; rewrite ?E3; first [exact I|exact Hf]]).
      + (* PRe *) destruct (push_re_mv cap R true _ _ _ _ _ _ H) as (sg' & _ & [Hm|[_ ->]]).
        * pose proof Hm as ((_ & _ & E3 & _) & _). apply (Hmv n sg' _ Hm); [left; apply Hrf; left; reflexivity|exact Hrf|discriminate|]. cbn [T5]. rewrite E3. exact Ht5.
        * assert (Hpos := ci_nalloc_pos s Hc). pose proof (c_lt s Hc n (Hrf n (or_introl eq_refl))) as Hn.
          eapply (CI_frame s _ t (PCa v n (nalloc s) 0) Hc); qsimg; try reflexivity; try exact Htl; try exact Hrf; try apply upd_same; [auto|lia|intros; apply upd_other; assumption| | |].
          -- intros m. unfold setf. destruct (N.eqb_spec m (nalloc s)) as [->|]; [right; right; right; split; [reflexivity|lia]|].
             destruct (N.eqb_spec m n) as [->|]; [right; left; apply Hrf; left; reflexivity|left; reflexivity].
          -- intros m [= <-]. ssplit; try lia; [intros Hi; pose proof (c_lt s Hc _ Hi); lia|apply ci_fresh_nxt; [exact Hc|lia]|].
             intros u Hne Hx. pose proof (priv_lt s u _ Hc Hx). lia.
          -- cbn [T5]; qsimg. rewrite setf_same. ssplit; [reflexivity|exact Ht5|apply (c_fresh s Hc); lia].
      + (* PFin *) apply new_node_eff in H. destruct H as [-> _].
        assert (Hpos := ci_nalloc_pos s Hc). assert (Hin : In n (q_nodes s)) by (apply Hrf; left; reflexivity). pose proof (c_lt s Hc n Hin) as Hn.
        eapply (CI_frame s _ t (PCa v n (nalloc s) 0) Hc); qsimg; try reflexivity; try exact Htl; try exact Hrf; try apply upd_same; [|lia|intros; apply upd_other; assumption| | |].
        * intros x. unfold setf. destruct (N.eqb_spec x n) as [->|]; auto.
        * intros m. unfold setf. destruct (N.eqb_spec m (nalloc s)) as [->|]; [right; right; right; split; [reflexivity|lia]|auto].
        * intros m [= <-]. ssplit; try lia; [intros Hi; pose proof (c_lt s Hc _ Hi); lia|apply ci_fresh_nxt; [exact Hc|lia]|].
          intros u Hne Hx. pose proof (priv_lt s u _ Hc Hx). lia.
        * cbn [T5]; qsimg. rewrite !setf_same. ssplit; [reflexivity..|]. rewrite setf_other by lia. apply (c_fresh s Hc); lia.
      + (* PCa *) destruct (i + 1 <? 2 * cap); injection H as <- _; (apply Hgo; try reflexivity; try (qsimg; lia); [exact Htl|exact Hrf|auto|exact Ht5]).
      + (* PCf *) destruct (i + 1 <? 2 * cap); injection H as <- _; (apply Hgo; try reflexivity; [exact Htl|exact Hrf|auto|exact Ht5]).
      + (* PLink *) destruct (Hpv m0 eq_refl) as (V1 & V2 & V3 & V4). destruct Ht5 as (T1 & T2 & T3).
        assert (Hin : In n (q_nodes s)) by (apply Hrf; left; reflexivity).
        destruct (N.eqb_spec (nxt s n) 0) as [Hz|Hz]; injection H as <- _; [|eapply Hmv; [apply Hent|auto|intros ? []|auto|exact I]].
        (* linked *)
        destruct (ci_last s n Hc Hin Hz) as [l El].
        pose proof Hc as [a1 a2 a3 a4 a5 a6 a7 a8 af a9].
        assert (Hnm : n <> m0) by (intros ->; contradiction).
        constructor; qsimg.
        * apply nodup_snoc; assumption.
        * intros x Hx. apply in_app_or in Hx. destruct Hx as [Hx|[<-|[]]]; [apply a2; exact Hx|exact V2].
        * destruct a3 as [rest E]. exists (rest ++ [m0]). rewrite E. rewrite <- app_assoc. reflexivity.
        * apply in_or_app. left. exact a4.
        * rewrite El. apply linked_snoc; rewrite <- ?El; assumption.
        * intros x. unfold setf. destruct (N.eqb_spec x n) as [->|Hne].
          -- intros _. split; [apply in_or_app; left; exact Hin|exact T2].
          -- intros Hx. destruct (a6 x Hx) as [A B]. split; [apply in_or_app; left; exact A|exact B].
        * intros u x. destruct (Nat.eq_dec u t) as [->|Hne].
          -- rewrite upd_same. cbn [refs]. intros [<-|[<-|[]]]; apply in_or_app; [left; exact Hin|right; left; reflexivity].
          -- rewrite upd_other by exact Hne. intros Hx. apply in_or_app. left. apply (a7 u x Hx).
        * intros u m. destruct (Nat.eq_dec u t) as [->|Hne]; [rewrite upd_same; discriminate|]. rewrite upd_other by exact Hne.
          intros Hx. destruct (a8 u m Hx) as (W1 & W2 & W3 & W4).
          assert (Hmm : m <> m0) by (intros ->; apply Hne; apply V4; exact Hx).
          ssplit; try assumption; try lia.
          -- intros Hi. apply in_app_or in Hi. destruct Hi as [Hi|[Hi|[]]]; [contradiction|congruence].
          -- rewrite setf_other; [exact W3|]. intros ->. contradiction.
          -- intros w. destruct (Nat.eq_dec w t) as [->|Hnw]; [rewrite upd_same; discriminate|]. rewrite upd_other by exact Hnw. apply W4.
        * exact af.
        * intros u. destruct (Nat.eq_dec u t) as [->|Hne]; [rewrite upd_same; exact I|]. rewrite upd_other by exact Hne.
          specialize (a9 u). destruct (oth s u) eqn:Eu; cbn [T5] in *; qsimg; try exact a9.
          all: try (rewrite setf_other; [exact a9|]; intros ->; apply a9; exact Hz).
          all: try (destruct a9 as [A B]; rewrite setf_other; [split; assumption|]; intros ->; rewrite Hz in A; subst; apply B; reflexivity).
      + (* PSw *) destruct (qtail s =? n); injection H as <- _; (apply Hgo; try reflexivity; [ |intros ? []|discriminate]); qsimg; first [exact Htl|apply Hrf; right; left; reflexivity].
      + (* PSt *) destruct (steal_mv cap R true _ _ _ _ _ _ _ H) as (sg' & p & Hm & _ & Hp).
        destruct Hp as [[lb' ->]|[[x ->]| ->]]; (apply (Hmv m0 sg' _ Hm); [auto|intros ? []|auto; discriminate|exact I]).
      + (* PDel *) destruct (del_mv cap R true _ _ _ _ _ _ _ H) as (sg' & p & Hm & _ & Hp).
        destruct Hp as [[lb' ->]|[->|[_ ->]]]; (apply (Hmv m0 sg' _ Hm); [auto|intros ? []|auto; discriminate|exact I]).
      + (* Q1 *) injection H as <- _. pose proof (ci_head_in s Hc) as Hh.
        eapply Hmv; [apply Hent|auto|intros ? [<-|[]]; exact Hh|discriminate|exact I].
      + (* QIn1 *) destruct (pop_mv cap R true _ _ _ _ _ _ _ _ H) as (sg' & p & Hm & _ & Hp).
        destruct Hp as [[lb' ->]|[_ [->| ->]]]; (apply (Hmv n sg' _ Hm); [left; apply Hrf; left; reflexivity|first [exact Hrf|intros ? []]|discriminate|exact I]).
      + (* Q2 *) destruct (N.eqb_spec (nxt s n) 0) as [Hz|Hz]; injection H as <- _;
          (apply Hgo; try reflexivity; [exact Htl|first [exact Hrf|intros ? []]|discriminate|exact Hz..]).
      + (* Q3 *) injection H as <- _. eapply Hmv; [repeat split|left; apply Hrf; left; reflexivity|exact Hrf|discriminate|exact Ht5].
      + (* QIn2 *) destruct (pop_mv cap R true _ _ _ _ _ _ _ _ H) as (sg' & p & Hm & _ & Hp). pose proof Hm as ((_ & _ & _ & E4 & _) & _).
        destruct Hp as [[lb' ->]|[_ [->| ->]]];
          (apply (Hmv n sg' _ Hm); [left; apply Hrf; left; reflexivity|first [exact Hrf|intros ? []]|discriminate|cbn [T5]; rewrite ?E4; first [exact I|exact Ht5]]).
      + (* Q4 *) injection H as <- _. apply Hgo; try reflexivity; [exact Htl| |discriminate|split; [reflexivity|exact Ht5]].
        intros x [<-|[<-|[]]]; [|apply ci_succ_in; [exact Hc| |exact Ht5]]; apply Hrf; left; reflexivity.
      + (* Q5 *) destruct Ht5 as [T1 T2]. assert (Hin : In n (q_nodes s)) by (apply Hrf; left; reflexivity).
        destruct (N.eqb_spec (qhead s) n) as [Hh|Hh]; injection H as <- _;
          [|apply Hgo; try reflexivity; [exact Htl|intros ? []|discriminate]].
        pose proof Hc as [a1 a2 a3 a4 a5 a6 a7 a8 af a9]. subst n nx.
        destruct (linked_succ _ _ _ a5 Hin T2) as (l1 & l2 & El). destruct a3 as [rest Er].
        destruct (nodup_split_eq _ a1 _ _ _ _ _ El Er) as [-> <-].
        constructor; qsimg; try assumption.
        * exists l2. rewrite Er. rewrite <- app_assoc. reflexivity.
        * intros u x. destruct (Nat.eq_dec u t) as [->|Hne]; [rewrite upd_same; intros []|rewrite upd_other by exact Hne; apply a7].
        * intros u m. destruct (Nat.eq_dec u t) as [->|Hne]; [rewrite upd_same; discriminate|]. rewrite upd_other by exact Hne.
          intros Hx. destruct (a8 u m Hx) as (W1 & W2 & W3 & W4). ssplit; try assumption; try lia.
          intros w. destruct (Nat.eq_dec w t) as [->|Hnw]; [rewrite upd_same; discriminate|]. rewrite upd_other by exact Hnw. apply W4.
        * intros u. destruct (Nat.eq_dec u t) as [->|Hne]; [rewrite upd_same; exact I|]. rewrite upd_other by exact Hne. apply a9.
  Qed.

  Theorem CI_reach : forall s, reach (qinit cap) qstep s -> CI s.
  Proof. apply inv_rule; [apply CI_init|intros; eapply CI_step; eauto]. Qed.
End Chain.
