(** Layer N: the life cycle of the nodes and where the retired nodes are *)
From Coq Require Import NArith List Bool Arith Lia PeanoNat.
From XV Require Import Conc.Lts Conc.Ev Model.HpDefs Proof.HpBase Proof.HpGuards.
Import ListNotations.

Lemma mem_In n l : mem n l = true <-> In n l.
Proof.
  unfold mem. rewrite existsb_exists. split.
  - intros (x & Hx & He). apply Nat.eqb_eq in He. subst. exact Hx.
  - intros H. exists n. split; [exact H|apply Nat.eqb_refl].
Qed.

Lemma mem_false n l : mem n l = false <-> ~ In n l.
Proof. rewrite <- mem_In. destruct (mem n l); split; intros; congruence. Qed.

Lemma count_notin n l : ~ In n l -> count n l = 0.
Proof.
  unfold count. induction l as [|a l IH]; intros H; [reflexivity|]. cbn [filter].
  destruct (Nat.eqb_spec n a) as [->|Hne]; [exfalso; apply H; left; reflexivity|]. apply IH. intros Hc. apply H. right. exact Hc.
Qed.

Lemma count_nodup n l : NoDup l -> In n l -> count n l = 1.
Proof.
  unfold count. induction l as [|a l IH]; intros Hnd Hin; [destruct Hin|]. apply NoDup_cons_iff in Hnd. destruct Hnd as [Hna Hnd].
  cbn [filter]. destruct (Nat.eqb_spec n a) as [->|Hne].
  - cbn [length]. f_equal. apply (count_notin a l Hna).
  - destruct Hin as [->|Hin]; [congruence|]. apply IH; assumption.
Qed.

Lemma NoDup_app_iff (l1 l2 : list nat) : NoDup (l1 ++ l2) <-> NoDup l1 /\ NoDup l2 /\ (forall x, In x l1 -> ~ In x l2).
Proof.
  induction l1 as [|a l1 IH]; cbn [app].
  - split; [intros H; split; [constructor|split; [exact H|intros x []]]|intros (_ & H & _); exact H].
  - rewrite !NoDup_cons_iff, IH, in_app_iff. split.
    + intros (H1 & H2 & H3 & H4). split; [split; [tauto|exact H2]|]. split; [exact H3|].
      intros x [<-|Hx]; [tauto|apply H4; exact Hx].
    + intros ((H1 & H2) & H3 & H4). split; [intros [Hc|Hc]; [contradiction|apply (H4 a (or_introl eq_refl) Hc)]|].
      split; [exact H2|]. split; [exact H3|]. intros x Hx. apply H4. right. exact Hx.
Qed.

Definition ad_of (p : pc) : list nat :=
  match p with S1 s | S2 s | S3 s | S4 s | S5 s _ _ | S6 s _ _ _ | S7 s => s_ad s | _ => [] end.

Definition gone (st : state) (n : nat) : bool :=
  match g_where st n, g_life st n with PFreed, _ => true | _, LDropped => true | _, _ => false end.

Definition pcN (st : state) (t : nat) (p : pc) : Prop :=
  match p with
  | R1 _ (Some n) => g_life st n = LFresh t
  | R2 o => g_life st o = LUnl t
  | S1 s | S2 s | S3 s => s_ad s = []
  | _ => True
  end.

Record InvN (st : state) : Prop := mkN {
  n_cell : forall c n, cells st c = Some n -> g_life st n = LPub c;
  n_lt : forall n, nalloc st <= n -> g_life st n = LNone;
  n_none : forall n, g_where st n = PNone <-> (forall u, g_life st n <> LRet u);
  n_list : forall t n, g_where st n = PList t <-> In n (rl (tl st t));
  n_list_nd : forall t, NoDup (rl (tl st t));
  n_aband : forall n, g_where st n = PAband <-> In n (aband st);
  n_aband_nd : NoDup (aband st);
  n_flight : forall t n, g_where st n = PFlight t <-> In n (ad_of (th st t));
  n_flight_nd : forall t, NoDup (ad_of (th st t));
  n_free : forall n, g_nfree st n = if gone st n then 1 else 0;
  n_pc : forall t, pcN st t (th st t) }.

Lemma pcN_ext st st' t p : (forall n, g_life st' n = g_life st n) -> pcN st t p -> pcN st' t p.
Proof.
  intros Hl H. destruct p; cbn [pcN] in *; try exact I; try assumption.
  - destruct n; [rewrite Hl; exact H|exact I].
  - rewrite Hl. exact H.
Qed.

(** a node is allocated (repl): block [nalloc st] *)
Lemma InvN_fresh st st' t c :
  InvN st -> ad_of (th st t) = [] ->
  (forall c, cells st' c = cells st c) -> (forall n, g_life st' n = upd (g_life st) (nalloc st) (LFresh t) n) ->
  (forall n, g_where st' n = g_where st n) -> (forall n, g_nfree st' n = g_nfree st n) -> aband st' = aband st ->
  nalloc st' = S (nalloc st) ->
  (forall u, rl (tl st' u) = rl (tl st u)) -> th st' t = R1 c (Some (nalloc st)) -> (forall u, u <> t -> th st' u = th st u) ->
  InvN st'.
Proof.
  intros [I1 I2 I3 I4 I5 I6 I7 I8 I9 I10 I11] Had Hc Hl Hw Hf Ha Hn Hr Ht Hu.
  set (b := nalloc st) in *.
  assert (Hb : g_life st b = LNone) by (apply I2; unfold b; lia).
  assert (Hwb : g_where st b = PNone) by (apply I3; intros u; congruence).
  assert (Hlo : forall n, n <> b -> g_life st' n = g_life st n) by (intros n Hne; rewrite Hl; upds; reflexivity).
  assert (Hadu : forall u, ad_of (th st' u) = ad_of (th st u)).
  { intros u. destruct (Nat.eq_dec u t) as [->|Hne]; [rewrite Ht, Had; reflexivity|rewrite Hu by exact Hne; reflexivity]. }
  constructor.
  - intros c0 n. rewrite Hc. intros H.
    assert (n <> b) by (intros ->; rewrite (I1 c0 b H) in Hb; discriminate). rewrite Hlo by assumption. apply I1. exact H.
  - intros n H. assert (n <> b) by lia. rewrite Hlo by assumption. apply I2. lia.
  - intros n. rewrite Hw. destruct (Nat.eq_dec n b) as [->|Hne].
    + rewrite Hl. upds. split; [intros _ u; discriminate|intros _; exact Hwb].
    + rewrite Hlo by exact Hne. apply I3.
  - intros u n. rewrite Hw, Hr. apply I4.
  - intros u. rewrite Hr. apply I5.
  - intros n. rewrite Hw, Ha. apply I6.
  - rewrite Ha. exact I7.
  - intros u n. rewrite Hw, Hadu. apply I8.
  - intros u. rewrite Hadu. apply I9.
  - intros n. rewrite Hf. unfold gone. rewrite Hw. destruct (Nat.eq_dec n b) as [->|Hne].
    + rewrite Hl. upds. specialize (I10 b). unfold gone in I10. rewrite Hwb, Hb in I10. rewrite Hwb. exact I10.
    + rewrite Hlo by exact Hne. apply I10.
  - intros t0. destruct (Nat.eq_dec t0 t) as [->|Hne].
    + rewrite Ht. cbn [pcN]. rewrite Hl. upds. reflexivity.
    + rewrite Hu by exact Hne. specialize (I11 t0). destruct (th st t0); cbn [pcN] in *; try exact I; try assumption.
      * destruct n; [|exact I]. assert (n <> b) by (intros ->; congruence). rewrite Hlo by assumption. exact I11.
      * assert (o <> b) by (intros ->; congruence). rewrite Hlo by assumption. exact I11.
Qed.

(** the client's CAS succeeded: [n] is published in cell [c], the old node [o] is unlinked *)
Lemma InvN_cas st st' t c n o p :
  InvN st -> th st t = R1 c n -> cells st c = o ->
  (forall c', cells st' c' = upd (cells st) c n c') ->
  (forall m, g_life st' m = if (match o with Some o' => m =? o' | None => false end) then LUnl t
                            else if (match n with Some n' => m =? n' | None => false end) then LPub c else g_life st m) ->
  (forall n, g_where st' n = g_where st n) -> (forall n, g_nfree st' n = g_nfree st n) -> aband st' = aband st ->
  nalloc st <= nalloc st' ->
  (forall u, rl (tl st' u) = rl (tl st u)) -> th st' t = p -> (forall u, u <> t -> th st' u = th st u) ->
  ad_of p = [] -> (match o with Some o' => p = R2 o' | None => pcN st t p /\ (forall x, p <> R2 x) /\ (forall a b, p <> R1 a b) end) ->
  InvN st'.
Proof.
  intros HN Hth Hco Hc Hl Hw Hf Ha Hn Hr Ht Hu Hadp Hp.
  pose proof HN as [I1 I2 I3 I4 I5 I6 I7 I8 I9 I10 I11].
  pose proof (I11 t) as Hpc. rewrite Hth in Hpc. cbn [pcN] in Hpc.
  assert (Hadu : forall u, ad_of (th st' u) = ad_of (th st u)).
  { intros u. destruct (Nat.eq_dec u t) as [->|Hne]; [rewrite Ht, Hth, Hadp; reflexivity|rewrite Hu by exact Hne; reflexivity]. }
  assert (Hon : forall o' n', o = Some o' -> n = Some n' -> o' <> n').
  { intros o' n' -> -> ->. rewrite (I1 c n' Hco) in Hpc. discriminate. }
  assert (Hlo : forall o', o = Some o' -> g_life st o' = LPub c) by (intros o' ->; apply I1; exact Hco).
  assert (Hret : forall m u, g_life st' m = LRet u <-> g_life st m = LRet u).
  { intros m u. rewrite Hl. destruct o as [o'|]; [destruct (Nat.eqb_spec m o') as [->|_]|];
      [rewrite (Hlo o' eq_refl); split; discriminate| |];
      (destruct n as [n'|]; [destruct (Nat.eqb_spec m n') as [->|_]; [rewrite Hpc; split; discriminate|reflexivity]|reflexivity]). }
  constructor.
  - intros c0 n0. rewrite Hc. intros H. rewrite Hl. destruct (Nat.eq_dec c0 c) as [->|Hne]; upds_in H.
    + subst n. destruct o as [o'|]; [destruct (Nat.eqb_spec n0 o') as [->|_]; [exfalso; apply (Hon o' o'); reflexivity|]|];
        rewrite Nat.eqb_refl; reflexivity.
    + pose proof (I1 c0 n0 H) as Hn0.
      destruct o as [o'|]; [destruct (Nat.eqb_spec n0 o') as [->|_]; [rewrite (Hlo o' eq_refl) in Hn0; congruence|]|];
        (destruct n as [n'|]; [destruct (Nat.eqb_spec n0 n') as [->|_]; [congruence|exact Hn0]|exact Hn0]).
  - intros n0 H. rewrite Hl. assert (Hm : g_life st n0 = LNone) by (apply I2; lia).
    destruct o as [o'|]; [destruct (Nat.eqb_spec n0 o') as [->|_]; [rewrite (Hlo o' eq_refl) in Hm; discriminate|]|];
      (destruct n as [n'|]; [destruct (Nat.eqb_spec n0 n') as [->|_]; [congruence|exact Hm]|exact Hm]).
  - intros n0. rewrite Hw, I3. split; intros H u; specialize (H u); rewrite Hret in *; exact H.
  - intros u n0. rewrite Hw, Hr. apply I4.
  - intros u. rewrite Hr. apply I5.
  - intros n0. rewrite Hw, Ha. apply I6.
  - rewrite Ha. exact I7.
  - intros u n0. rewrite Hw, Hadu. apply I8.
  - intros u. rewrite Hadu. apply I9.
  - intros n0. rewrite Hf. unfold gone. rewrite Hw. specialize (I10 n0). unfold gone in I10. rewrite Hl.
    destruct o as [o'|]; [destruct (Nat.eqb_spec n0 o') as [->|_]; [rewrite (Hlo o' eq_refl) in I10; destruct (g_where st o'); exact I10|]|];
      (destruct n as [n'|]; [destruct (Nat.eqb_spec n0 n') as [->|_]; [rewrite Hpc in I10; destruct (g_where st n'); exact I10|exact I10]|exact I10]).
  - intros t0. destruct (Nat.eq_dec t0 t) as [->|Hne].
    + rewrite Ht. destruct o as [o'|].
      * rewrite Hp. cbn [pcN]. rewrite Hl, Nat.eqb_refl. reflexivity.
      * destruct Hp as (Hp1 & Hp2 & Hp3). destruct p; cbn [pcN] in *; try exact I; try assumption.
        -- exfalso. apply (Hp3 c0 n0). reflexivity.
        -- exfalso. apply (Hp2 o). reflexivity.
    + rewrite Hu by exact Hne. specialize (I11 t0). destruct (th st t0); cbn [pcN] in *; try exact I; try assumption.
      * destruct n0 as [m|]; [|exact I]. rewrite Hl.
        destruct o as [o'|]; [destruct (Nat.eqb_spec m o') as [->|_]; [rewrite (Hlo o' eq_refl) in I11; discriminate|]|];
          (destruct n as [n'|]; [destruct (Nat.eqb_spec m n') as [->|_]; [congruence|exact I11]|exact I11]).
      * rewrite Hl.
        destruct o as [o'|]; [destruct (Nat.eqb_spec o0 o') as [->|_]; [rewrite (Hlo o' eq_refl) in I11; discriminate|]|];
          (destruct n as [n'|]; [destruct (Nat.eqb_spec o0 n') as [->|_]; [congruence|exact I11]|exact I11]).
Qed.

(** the CAS failed: the creator deletes its new node *)
Lemma InvN_drop st st' t c n p :
  InvN st -> th st t = R1 c (Some n) ->
  (forall c', cells st' c' = cells st c') -> (forall m, g_life st' m = upd (g_life st) n LDropped m) ->
  (forall m, g_where st' m = g_where st m) -> (forall m, g_nfree st' m = upd (g_nfree st) n (S (g_nfree st n)) m) ->
  aband st' = aband st -> nalloc st <= nalloc st' ->
  (forall u, rl (tl st' u) = rl (tl st u)) -> th st' t = p -> (forall u, u <> t -> th st' u = th st u) ->
  ad_of p = [] -> pcN st t p -> (forall x, p <> R2 x) -> (forall a b, p <> R1 a b) ->
  InvN st'.
Proof.
  intros HN Hth Hc Hl Hw Hf Ha Hn Hr Ht Hu Hadp Hp Hp2 Hp3.
  pose proof HN as [I1 I2 I3 I4 I5 I6 I7 I8 I9 I10 I11].
  pose proof (I11 t) as Hpc. rewrite Hth in Hpc. cbn [pcN] in Hpc.
  assert (Hadu : forall u, ad_of (th st' u) = ad_of (th st u)).
  { intros u. destruct (Nat.eq_dec u t) as [->|Hne]; [rewrite Ht, Hth, Hadp; reflexivity|rewrite Hu by exact Hne; reflexivity]. }
  assert (Hlo : forall m, m <> n -> g_life st' m = g_life st m) by (intros m Hne; rewrite Hl; upds; reflexivity).
  assert (Hwn : g_where st n = PNone) by (apply I3; intros u; congruence).
  constructor.
  - intros c0 m. rewrite Hc. intros H. assert (m <> n) by (intros ->; rewrite (I1 c0 n H) in Hpc; discriminate).
    rewrite Hlo by assumption. apply I1. exact H.
  - intros m H. assert (m <> n) by (intros ->; rewrite I2 in Hpc by lia; discriminate). rewrite Hlo by assumption. apply I2. lia.
  - intros m. rewrite Hw. destruct (Nat.eq_dec m n) as [->|Hne].
    + rewrite Hl. upds. split; [intros _ u; discriminate|intros _; exact Hwn].
    + rewrite Hlo by exact Hne. apply I3.
  - intros u m. rewrite Hw, Hr. apply I4.
  - intros u. rewrite Hr. apply I5.
  - intros m. rewrite Hw, Ha. apply I6.
  - rewrite Ha. exact I7.
  - intros u m. rewrite Hw, Hadu. apply I8.
  - intros u. rewrite Hadu. apply I9.
  - intros m. rewrite Hf. unfold gone. rewrite Hw. destruct (Nat.eq_dec m n) as [->|Hne]; upds.
    + rewrite Hl. upds. specialize (I10 n). unfold gone in I10. rewrite Hwn, Hpc in I10. rewrite I10, Hwn. reflexivity.
    + rewrite Hlo by exact Hne. apply I10.
  - intros t0. destruct (Nat.eq_dec t0 t) as [->|Hne].
    + rewrite Ht. destruct p; cbn [pcN] in *; try exact I; try assumption.
      * exfalso. apply (Hp3 c0 n0). reflexivity.
      * exfalso. apply (Hp2 o). reflexivity.
    + rewrite Hu by exact Hne. specialize (I11 t0). destruct (th st t0); cbn [pcN] in *; try exact I; try assumption.
      * destruct n0 as [m|]; [|exact I]. assert (m <> n) by (intros ->; congruence). rewrite Hlo by assumption. exact I11.
      * assert (o <> n) by (intros ->; congruence). rewrite Hlo by assumption. exact I11.
Qed.

(** add_retired_node of the unlinked node *)
Lemma InvN_retire st st' t o p :
  InvN st -> th st t = R2 o ->
  (forall c', cells st' c' = cells st c') -> (forall m, g_life st' m = upd (g_life st) o (LRet t) m) ->
  (forall m, g_where st' m = upd (g_where st) o (PList t) m) -> (forall m, g_nfree st' m = g_nfree st m) ->
  aband st' = aband st -> nalloc st <= nalloc st' ->
  rl (tl st' t) = o :: rl (tl st t) -> th st' t = p -> (forall u, u <> t -> tl st' u = tl st u /\ th st' u = th st u) ->
  ad_of p = [] -> pcN st t p -> (forall x, p <> R2 x) -> (forall a b, p <> R1 a b) ->
  InvN st'.
Proof.
  intros HN Hth Hc Hl Hw Hf Ha Hn Hr Ht Hu Hadp Hp Hp2 Hp3.
  pose proof HN as [I1 I2 I3 I4 I5 I6 I7 I8 I9 I10 I11].
  pose proof (I11 t) as Hpc. rewrite Hth in Hpc. cbn [pcN] in Hpc.
  assert (Hadu : forall u, ad_of (th st' u) = ad_of (th st u)).
  { intros u. destruct (Nat.eq_dec u t) as [->|Hne]; [rewrite Ht, Hth, Hadp; reflexivity|destruct (Hu u Hne) as [_ ->]; reflexivity]. }
  assert (Hlo : forall m, m <> o -> g_life st' m = g_life st m) by (intros m Hne; rewrite Hl; upds; reflexivity).
  assert (Hwo' : forall m, m <> o -> g_where st' m = g_where st m) by (intros m Hne; rewrite Hw; upds; reflexivity).
  assert (Hwo : g_where st o = PNone) by (apply I3; intros u; congruence).
  assert (Hru : forall u, u <> t -> rl (tl st' u) = rl (tl st u)) by (intros u Hne; destruct (Hu u Hne) as [-> _]; reflexivity).
  constructor.
  - intros c0 m. rewrite Hc. intros H. assert (m <> o) by (intros ->; rewrite (I1 c0 o H) in Hpc; discriminate).
    rewrite Hlo by assumption. apply I1. exact H.
  - intros m H. assert (m <> o) by (intros ->; rewrite I2 in Hpc by lia; discriminate). rewrite Hlo by assumption. apply I2. lia.
  - intros m. destruct (Nat.eq_dec m o) as [->|Hne].
    + rewrite Hw, Hl. upds. split; [discriminate|intros H; exfalso; apply (H t); reflexivity].
    + rewrite Hwo', Hlo by exact Hne. apply I3.
  - intros u m. destruct (Nat.eq_dec u t) as [->|Hnu].
    + rewrite Hr. cbn [In]. destruct (Nat.eq_dec m o) as [->|Hne].
      * rewrite Hw. upds. split; [intros _; left; reflexivity|reflexivity].
      * rewrite Hwo' by exact Hne. rewrite I4. split; [intros H; right; exact H|intros [H|H]; [congruence|exact H]].
    + rewrite Hru by exact Hnu. destruct (Nat.eq_dec m o) as [->|Hne].
      * rewrite Hw. upds. split; [intros H; congruence|]. intros H. apply I4 in H. congruence.
      * rewrite Hwo' by exact Hne. apply I4.
  - intros u. destruct (Nat.eq_dec u t) as [->|Hnu]; [|rewrite Hru by exact Hnu; apply I5].
    rewrite Hr. constructor; [|apply I5]. intros H. apply I4 in H. congruence.
  - intros m. rewrite Ha. destruct (Nat.eq_dec m o) as [->|Hne].
    + rewrite Hw. upds. split; [discriminate|]. intros H. apply I6 in H. congruence.
    + rewrite Hwo' by exact Hne. apply I6.
  - rewrite Ha. exact I7.
  - intros u m. rewrite Hadu. destruct (Nat.eq_dec m o) as [->|Hne].
    + rewrite Hw. upds. split; [discriminate|]. intros H. apply I8 in H. congruence.
    + rewrite Hwo' by exact Hne. apply I8.
  - intros u. rewrite Hadu. apply I9.
  - intros m. rewrite Hf. unfold gone. destruct (Nat.eq_dec m o) as [->|Hne].
    + rewrite Hw, Hl. upds. specialize (I10 o). unfold gone in I10. rewrite Hwo, Hpc in I10. exact I10.
    + rewrite Hwo', Hlo by exact Hne. apply I10.
  - intros t0. destruct (Nat.eq_dec t0 t) as [->|Hne].
    + rewrite Ht. destruct p; cbn [pcN] in *; try exact I; try assumption.
      * exfalso. apply (Hp3 c n). reflexivity.
      * exfalso. apply (Hp2 o0). reflexivity.
    + destruct (Hu t0 Hne) as [_ ->]. specialize (I11 t0). destruct (th st t0); cbn [pcN] in *; try exact I; try assumption.
      * destruct n as [m|]; [|exact I]. assert (m <> o) by (intros ->; congruence). rewrite Hlo by assumption. exact I11.
      * assert (o0 <> o) by (intros ->; congruence). rewrite Hlo by assumption. exact I11.
Qed.

(** adopt_abandoned_retired_nodes: the exchange *)
Lemma InvN_adopt st st' t s s' :
  InvN st -> th st t = S3 s -> th st' t = S4 s' -> s_ad s' = aband st ->
  (forall c', cells st' c' = cells st c') -> (forall m, g_life st' m = g_life st m) ->
  (forall m, g_where st' m = if mem m (aband st) then PFlight t else g_where st m) -> (forall m, g_nfree st' m = g_nfree st m) ->
  aband st' = [] -> nalloc st <= nalloc st' ->
  (forall u, rl (tl st' u) = rl (tl st u)) -> (forall u, u <> t -> th st' u = th st u) ->
  InvN st'.
Proof.
  intros HN Hth Ht Hs' Hc Hl Hw Hf Ha Hn Hr Hu.
  pose proof HN as [I1 I2 I3 I4 I5 I6 I7 I8 I9 I10 I11].
  pose proof (I11 t) as Hpc. rewrite Hth in Hpc. cbn [pcN] in Hpc.
  assert (Hin : forall m, In m (aband st) -> g_where st' m = PFlight t).
  { intros m Hm. rewrite Hw. apply mem_In in Hm. rewrite Hm. reflexivity. }
  assert (Hout : forall m, ~ In m (aband st) -> g_where st' m = g_where st m).
  { intros m Hm. rewrite Hw. apply mem_false in Hm. rewrite Hm. reflexivity. }
  assert (Hret : forall m, In m (aband st) -> exists u, g_life st m = LRet u).
  { intros m Hm. apply I6 in Hm. destruct (g_life st m) eqn:E; try (exfalso; assert (Hc' : g_where st m = PNone) by (apply I3; intros u; congruence); congruence).
    exists t0. reflexivity. }
  constructor.
  - intros c0 m. rewrite Hc, Hl. apply I1.
  - intros m H. rewrite Hl. apply I2. lia.
  - intros m. rewrite Hl. destruct (in_dec Nat.eq_dec m (aband st)) as [Hm|Hm].
    + rewrite (Hin m Hm). destruct (Hret m Hm) as [u Hu']. split; [discriminate|intros H; exfalso; apply (H u); exact Hu'].
    + rewrite (Hout m Hm). apply I3.
  - intros u m. rewrite Hr. destruct (in_dec Nat.eq_dec m (aband st)) as [Hm|Hm].
    + rewrite (Hin m Hm). split; [discriminate|]. intros H. apply I4 in H. apply I6 in Hm. congruence.
    + rewrite (Hout m Hm). apply I4.
  - intros u. rewrite Hr. apply I5.
  - intros m. rewrite Ha. cbn [In]. destruct (in_dec Nat.eq_dec m (aband st)) as [Hm|Hm].
    + rewrite (Hin m Hm). split; [discriminate|tauto].
    + rewrite (Hout m Hm). rewrite I6. tauto.
  - rewrite Ha. constructor.
  - intros u m. destruct (Nat.eq_dec u t) as [->|Hne].
    + rewrite Ht. cbn [ad_of]. rewrite Hs'. destruct (in_dec Nat.eq_dec m (aband st)) as [Hm|Hm].
      * rewrite (Hin m Hm). tauto.
      * rewrite (Hout m Hm). rewrite I8, Hth. cbn [ad_of]. rewrite Hpc. cbn [In]. tauto.
    + rewrite Hu by exact Hne. destruct (in_dec Nat.eq_dec m (aband st)) as [Hm|Hm].
      * rewrite (Hin m Hm). split; [intros H; congruence|]. intros H. apply I8 in H. apply I6 in Hm. congruence.
      * rewrite (Hout m Hm). apply I8.
  - intros u. destruct (Nat.eq_dec u t) as [->|Hne]; [rewrite Ht; cbn [ad_of]; rewrite Hs'; exact I7|rewrite Hu by exact Hne; apply I9].
  - intros m. rewrite Hf. unfold gone. rewrite Hl. destruct (in_dec Nat.eq_dec m (aband st)) as [Hm|Hm].
    + rewrite (Hin m Hm). specialize (I10 m). unfold gone in I10. apply I6 in Hm. rewrite Hm in I10. exact I10.
    + rewrite (Hout m Hm). apply I10.
  - intros u. destruct (Nat.eq_dec u t) as [->|Hne]; [rewrite Ht; exact I|]. rewrite Hu by exact Hne.
    apply (pcN_ext st); [exact Hl|apply I11].
Qed.

(** abandon_retired_nodes: the successful CAS *)
Lemma InvN_abandon st st' t p :
  InvN st -> ad_of (th st t) = [] -> th st' t = p -> ad_of p = [] -> pcN st t p ->
  (forall c', cells st' c' = cells st c') -> (forall m, g_life st' m = g_life st m) ->
  (forall m, g_where st' m = if mem m (rl (tl st t)) then PAband else g_where st m) -> (forall m, g_nfree st' m = g_nfree st m) ->
  aband st' = rl (tl st t) ++ aband st -> nalloc st <= nalloc st' ->
  rl (tl st' t) = [] -> (forall u, u <> t -> tl st' u = tl st u /\ th st' u = th st u) ->
  InvN st'.
Proof.
  intros HN Had Ht Hadp Hp Hc Hl Hw Hf Ha Hn Hr Hu.
  pose proof HN as [I1 I2 I3 I4 I5 I6 I7 I8 I9 I10 I11].
  set (L := rl (tl st t)) in *.
  assert (Hin : forall m, In m L -> g_where st' m = PAband).
  { intros m Hm. rewrite Hw. apply mem_In in Hm. rewrite Hm. reflexivity. }
  assert (Hout : forall m, ~ In m L -> g_where st' m = g_where st m).
  { intros m Hm. rewrite Hw. apply mem_false in Hm. rewrite Hm. reflexivity. }
  assert (HL : forall m, In m L <-> g_where st m = PList t) by (intros m; symmetry; apply I4).
  assert (Hret : forall m, In m L -> exists u, g_life st m = LRet u).
  { intros m Hm. apply HL in Hm. destruct (g_life st m) eqn:E; try (exfalso; assert (Hc' : g_where st m = PNone) by (apply I3; intros u; congruence); congruence).
    exists t0. reflexivity. }
  assert (Hadu : forall u, ad_of (th st' u) = ad_of (th st u)).
  { intros u. destruct (Nat.eq_dec u t) as [->|Hne]; [rewrite Ht, Had, Hadp; reflexivity|destruct (Hu u Hne) as [_ ->]; reflexivity]. }
  assert (Hru : forall u, u <> t -> rl (tl st' u) = rl (tl st u)) by (intros u Hne; destruct (Hu u Hne) as [-> _]; reflexivity).
  constructor.
  - intros c0 m. rewrite Hc, Hl. apply I1.
  - intros m H. rewrite Hl. apply I2. lia.
  - intros m. rewrite Hl. destruct (in_dec Nat.eq_dec m L) as [Hm|Hm].
    + rewrite (Hin m Hm). destruct (Hret m Hm) as [u Hu']. split; [discriminate|intros H; exfalso; apply (H u); exact Hu'].
    + rewrite (Hout m Hm). apply I3.
  - intros u m. destruct (Nat.eq_dec u t) as [->|Hne].
    + rewrite Hr. cbn [In]. destruct (in_dec Nat.eq_dec m L) as [Hm|Hm].
      * rewrite (Hin m Hm). split; [discriminate|tauto].
      * rewrite (Hout m Hm). rewrite <- HL. tauto.
    + rewrite Hru by exact Hne. destruct (in_dec Nat.eq_dec m L) as [Hm|Hm].
      * rewrite (Hin m Hm). split; [discriminate|]. intros H. apply I4 in H. apply HL in Hm. congruence.
      * rewrite (Hout m Hm). apply I4.
  - intros u. destruct (Nat.eq_dec u t) as [->|Hne]; [rewrite Hr; constructor|rewrite Hru by exact Hne; apply I5].
  - intros m. rewrite Ha, in_app_iff. destruct (in_dec Nat.eq_dec m L) as [Hm|Hm].
    + rewrite (Hin m Hm). tauto.
    + rewrite (Hout m Hm). rewrite I6. tauto.
  - rewrite Ha. apply NoDup_app_iff. split; [apply I5|]. split; [exact I7|]. intros x Hx Hx'. apply HL in Hx. apply I6 in Hx'. congruence.
  - intros u m. rewrite Hadu. destruct (in_dec Nat.eq_dec m L) as [Hm|Hm].
    + rewrite (Hin m Hm). split; [discriminate|]. intros H. apply I8 in H. apply HL in Hm. congruence.
    + rewrite (Hout m Hm). apply I8.
  - intros u. rewrite Hadu. apply I9.
  - intros m. rewrite Hf. unfold gone. rewrite Hl. destruct (in_dec Nat.eq_dec m L) as [Hm|Hm].
    + rewrite (Hin m Hm). specialize (I10 m). unfold gone in I10. apply HL in Hm. rewrite Hm in I10. exact I10.
    + rewrite (Hout m Hm). apply I10.
  - intros u. destruct (Nat.eq_dec u t) as [->|Hne]; [rewrite Ht; apply (pcN_ext st); [exact Hl|exact Hp]|].
    destruct (Hu u Hne) as [_ ->]. apply (pcN_ext st); [exact Hl|apply I11].
Qed.

(** the end of scan(): reclaim_nodes(retire_list); reclaim_nodes(adopted) *)
Lemma InvN_reclaim st st' t s p (keepb : nat -> bool) :
  InvN st -> th st t = S7 s -> th st' t = p -> ad_of p = [] -> pcN st t p ->
  let L := rl (tl st t) ++ s_ad s in
  let freed := filter (fun n => negb (keepb n)) L in
  let kept := rev (filter keepb (s_ad s)) ++ rev (filter keepb (rl (tl st t))) in
  (forall c', cells st' c' = cells st c') -> (forall m, g_life st' m = g_life st m) ->
  (forall m, g_where st' m = if mem m kept then PList t else if mem m freed then PFreed else g_where st m) ->
  (forall m, g_nfree st' m = g_nfree st m + count m freed) ->
  aband st' = aband st -> nalloc st <= nalloc st' ->
  rl (tl st' t) = kept -> (forall u, u <> t -> tl st' u = tl st u /\ th st' u = th st u) ->
  InvN st'.
Proof.
  intros HN Hth Ht Hadp Hp L freed kept Hc Hl Hw Hf Ha Hn Hr Hu.
  pose proof HN as [I1 I2 I3 I4 I5 I6 I7 I8 I9 I10 I11].
  assert (HL : forall m, In m L <-> g_where st m = PList t \/ g_where st m = PFlight t).
  { intros m. unfold L. rewrite in_app_iff, <- I4, I8, Hth. cbn [ad_of]. tauto. }
  assert (HLnd : NoDup L).
  { unfold L. apply NoDup_app_iff. split; [apply I5|]. split; [specialize (I9 t); rewrite Hth in I9; exact I9|].
    intros x Hx Hx'. apply I4 in Hx. specialize (I8 t x). rewrite Hth in I8. apply I8 in Hx'. congruence. }
  assert (Hk : forall m, In m kept <-> In m L /\ keepb m = true).
  { intros m. unfold kept, L. rewrite !in_app_iff, <- !in_rev, !filter_In. tauto. }
  assert (Hfr : forall m, In m freed <-> In m L /\ keepb m = false).
  { intros m. unfold freed. rewrite filter_In, negb_true_iff. tauto. }
  assert (Hknd : NoDup kept).
  { unfold kept. apply NoDup_app_iff. split; [apply NoDup_rev, NoDup_filter; specialize (I9 t); rewrite Hth in I9; exact I9|].
    split; [apply NoDup_rev, NoDup_filter, I5|]. intros x Hx Hx'. apply in_rev, filter_In in Hx. apply in_rev, filter_In in Hx'.
    destruct Hx as [Hx _]. destruct Hx' as [Hx' _]. apply I4 in Hx'. specialize (I8 t x). rewrite Hth in I8. apply I8 in Hx. congruence. }
  assert (Hfnd : NoDup freed) by (apply NoDup_filter; exact HLnd).
  assert (Hwk : forall m, In m kept -> g_where st' m = PList t).
  { intros m Hm. rewrite Hw. apply mem_In in Hm. rewrite Hm. reflexivity. }
  assert (Hwf : forall m, In m freed -> g_where st' m = PFreed).
  { intros m Hm. rewrite Hw. assert (Hnk : ~ In m kept) by (rewrite Hk; apply Hfr in Hm; destruct Hm as [_ Hm]; rewrite Hm; intros [_ Hc']; discriminate).
    apply mem_false in Hnk. apply mem_In in Hm. rewrite Hnk, Hm. reflexivity. }
  assert (Hwo : forall m, ~ In m L -> g_where st' m = g_where st m).
  { intros m Hm. rewrite Hw. assert (Hnk : ~ In m kept) by (rewrite Hk; tauto). assert (Hnf : ~ In m freed) by (rewrite Hfr; tauto).
    apply mem_false in Hnk. apply mem_false in Hnf. rewrite Hnk, Hnf. reflexivity. }
  assert (Hcase : forall m, In m L -> In m kept \/ In m freed).
  { intros m Hm. rewrite Hk, Hfr. destruct (keepb m); tauto. }
  assert (Hret : forall m, In m L -> exists u, g_life st m = LRet u).
  { intros m Hm. apply HL in Hm. destruct (g_life st m) eqn:E;
      try (exfalso; assert (Hc' : g_where st m = PNone) by (apply I3; intros u; congruence); destruct Hm; congruence).
    exists t0. reflexivity. }
  assert (Hadu : forall u, ad_of (th st' u) = if Nat.eq_dec u t then [] else ad_of (th st u)).
  { intros u. destruct (Nat.eq_dec u t) as [->|Hne]; [rewrite Ht, Hadp; reflexivity|destruct (Hu u Hne) as [_ ->]; reflexivity]. }
  assert (Hru : forall u, u <> t -> rl (tl st' u) = rl (tl st u)) by (intros u Hne; destruct (Hu u Hne) as [-> _]; reflexivity).
  constructor.
  - intros c0 m. rewrite Hc, Hl. apply I1.
  - intros m H. rewrite Hl. apply I2. lia.
  - intros m. rewrite Hl. destruct (in_dec Nat.eq_dec m L) as [Hm|Hm].
    + destruct (Hret m Hm) as [u Hu']. destruct (Hcase m Hm) as [Hm'|Hm']; [rewrite (Hwk m Hm')|rewrite (Hwf m Hm')];
        (split; [discriminate|intros H; exfalso; apply (H u); exact Hu']).
    + rewrite (Hwo m Hm). apply I3.
  - intros u m. destruct (Nat.eq_dec u t) as [->|Hne].
    + rewrite Hr. destruct (in_dec Nat.eq_dec m L) as [Hm|Hm].
      * destruct (Hcase m Hm) as [Hm'|Hm']; [rewrite (Hwk m Hm'); tauto|]. rewrite (Hwf m Hm'). split; [discriminate|].
        intros Hc'. apply Hk in Hc'. apply Hfr in Hm'. destruct Hc' as [_ Hc']. destruct Hm' as [_ Hm']. congruence.
      * rewrite (Hwo m Hm). split; [intros H; exfalso; apply Hm; apply HL; left; exact H|]. intros H. apply Hk in H. tauto.
    + rewrite Hru by exact Hne. destruct (in_dec Nat.eq_dec m L) as [Hm|Hm].
      * assert (Hnot : ~ In m (rl (tl st u))) by (intros H; apply I4 in H; apply HL in Hm; destruct Hm; congruence).
        destruct (Hcase m Hm) as [Hm'|Hm']; [rewrite (Hwk m Hm')|rewrite (Hwf m Hm')]; (split; [intros H; congruence|tauto]).
      * rewrite (Hwo m Hm). apply I4.
  - intros u. destruct (Nat.eq_dec u t) as [->|Hne]; [rewrite Hr; exact Hknd|rewrite Hru by exact Hne; apply I5].
  - intros m. rewrite Ha. destruct (in_dec Nat.eq_dec m L) as [Hm|Hm].
    + assert (Hnot : ~ In m (aband st)) by (intros H; apply I6 in H; apply HL in Hm; destruct Hm; congruence).
      destruct (Hcase m Hm) as [Hm'|Hm']; [rewrite (Hwk m Hm')|rewrite (Hwf m Hm')]; (split; [discriminate|tauto]).
    + rewrite (Hwo m Hm). apply I6.
  - rewrite Ha. exact I7.
  - intros u m. rewrite Hadu. destruct (Nat.eq_dec u t) as [->|Hne].
    + cbn [In]. split; [|tauto]. intros H. destruct (in_dec Nat.eq_dec m L) as [Hm|Hm].
      * destruct (Hcase m Hm) as [Hm'|Hm']; [rewrite (Hwk m Hm') in H|rewrite (Hwf m Hm') in H]; discriminate.
      * rewrite (Hwo m Hm) in H. apply Hm. apply HL. right. exact H.
    + destruct (in_dec Nat.eq_dec m L) as [Hm|Hm].
      * assert (Hnot : ~ In m (ad_of (th st u))) by (intros H; apply I8 in H; apply HL in Hm; destruct Hm; congruence).
        destruct (Hcase m Hm) as [Hm'|Hm']; [rewrite (Hwk m Hm')|rewrite (Hwf m Hm')]; (split; [intros H; congruence|tauto]).
      * rewrite (Hwo m Hm). apply I8.
  - intros u. rewrite Hadu. destruct (Nat.eq_dec u t); [constructor|apply I9].
  - intros m. rewrite Hf. unfold gone. rewrite Hl. specialize (I10 m). unfold gone in I10.
    destruct (in_dec Nat.eq_dec m L) as [Hm|Hm].
    + destruct (Hret m Hm) as [u Hu']. rewrite Hu' in *. pose proof Hm as Hm2. apply HL in Hm2.
      assert (H0 : g_nfree st m = 0) by (destruct Hm2 as [Hm2|Hm2]; rewrite Hm2 in I10; exact I10).
      destruct (Hcase m Hm) as [Hm'|Hm'].
      * rewrite (Hwk m Hm'). assert (Hnf : ~ In m freed).
        { rewrite Hfr. apply Hk in Hm'. destruct Hm' as [_ Hm']. rewrite Hm'. intros [_ Hc']. discriminate. }
        rewrite (count_notin m freed Hnf). lia.
      * rewrite (Hwf m Hm'). rewrite (count_nodup m freed Hfnd Hm'). lia.
    + assert (Hnf : ~ In m freed) by (rewrite Hfr; tauto). rewrite (count_notin m freed Hnf), (Hwo m Hm). lia.
  - intros u. destruct (Nat.eq_dec u t) as [->|Hne]; [rewrite Ht; apply (pcN_ext st); [exact Hl|exact Hp]|].
    destruct (Hu u Hne) as [_ ->]. apply (pcN_ext st); [exact Hl|apply I11].
Qed.

Section N.
Variable nslots : nat.

(** the nodes and the lists stay as they are, thread [t] moves to [p'] *)
Lemma InvN_quiet st st1 t p' :
  InvN st -> cells st1 = cells st -> g_life st1 = g_life st -> g_where st1 = g_where st -> g_nfree st1 = g_nfree st ->
  aband st1 = aband st -> nalloc st <= nalloc st1 -> th st1 = th st -> (forall u, rl (tl st1 u) = rl (tl st u)) ->
  ad_of p' = ad_of (th st t) -> (pcN st t (th st t) -> pcN st t p') ->
  InvN (set_pc t p' st1).
Proof.
  intros [I1 I2 I3 I4 I5 I6 I7 I8 I9 I10 I11] Hc Hl Hw Hf Ha Hn Ht Hr Had Hp.
  assert (Hadu : forall u, ad_of (upd (th st) t p' u) = ad_of (th st u)) by (intros u; destruct (Nat.eq_dec u t) as [->|?]; upds; auto).
  constructor; unfold gone; prj; rewrite ?Hc, ?Hl, ?Hw, ?Hf, ?Ha, ?Ht; intros; rewrite ?Hr, ?Hadu; auto.
  - apply I2. lia.
  - apply I10.
  - apply (pcN_ext st); [intros; prj; rewrite Hl; reflexivity|]. destruct (Nat.eq_dec t0 t) as [->|?]; upds; auto.
Qed.

Lemma ad_of_next s l : ad_of (next_pc s l) = s_ad s.
Proof. destruct l; reflexivity. Qed.

Lemma move_N st t p p' : move nslots t st p p' -> ad_of p' = ad_of p /\ (pcN st t p -> pcN st t p').
Proof.
  intros Hm. destruct Hm; cbn [ad_of pcN s_ad]; auto.
  1: { pattern p'. eapply exits_pc; [..|exact H]; cbn [ad_of pcN]; auto. }
  all: split; [apply ad_of_next|intros _].
  all: match goal with |- context [next_pc _ ?l] => destruct l; exact I end.
Qed.

(** the premises of the InvN_* effect lemmas: field equations of the explicit successor, and the pc conditions on [p] *)
Ltac cl t :=
  intros; sim;
  first [ reflexivity | assumption | lia | discriminate | exact I
        | (upds; prj; try split; reflexivity)
        | (cbn [pcN]; repeat split; intros; first [discriminate | exact I])
        | (match goal with |- context [upd _ t _ ?u] => destruct (Nat.eq_dec u t) as [->|?]; upds; prj; try split; reflexivity end) ].

Lemma InvN_step st a st' es : InvG nslots st -> InvN st -> step nslots st a = Some (st', es) -> InvN st'.
Proof.
  intros HG HN Hs. destruct a as [t o|t].
  - cbn [step] in Hs. destruct (th st t) eqn:Hth; try discriminate Hs. destruct (legal nslots o); [|discriminate Hs].
    injection Hs as <- <-. apply (InvN_quiet st); rewrite ?Hth; auto.
  - pose proof (n_pc st HN t) as Hpc. step_cases Hs Hth.
    1: { subst p. destruct (move_N st t _ p' H0) as [H1 H2]. apply (InvN_quiet st); auto. }
    all: try match goal with H : acq_pre _ _ _ _ _ _ |- _ => destruct H | H : walk_end _ _ _ _ |- _ => destruct H
                          | H : reset_at _ _ _ _ _ _ |- _ => destruct H as [| |? ? []] | H : scan_ret _ _ _ _ |- _ => destruct H end.
    all: rewrite Hth in Hpc; cbn [pcN] in Hpc.
    all: try match goal with |- context [acq_eff _ _ ?k _] => destruct k as [? [|]| |]; cbn [acq_eff acq_pc] end.
    all: try subst st3.
    (* the steps that leave the nodes and the lists alone.  Left after this block: acquire returning to repl (the new node),
       S7, X3 (closed by the three lines after it), then in this order R1 (CAS succeeded with / without hazard pointer,
       null old value to RR / Idle, CAS lost to RR / Idle), R2, S3 *)
    all: try (match goal with
              | |- context [publish _ ?n _] => fail 1
              | |- context [drop_new (Some _) _] => fail 1
              | _ => see_through (InvN_quiet st); try exact (q_nalloc _ _ Q) end;
              rewrite ?Hth; unfold td_pc; unfold reset_guard, set_gd, ret_pc, exit_pc;
              repeat match goal with |- context [match ?x with _ => _ end] => destruct x end;
              try match goal with |- context [next_pc _ ?l] => destruct l end;
              cbn [ad_of pcN next_pc s_ad is_nil]; prj; rewrite ?(proj1 (proj2 (push_scan _ _ _ _)));
              first [reflexivity | assumption | lia | exact (fun _ => I)
                    | (intros u; destruct (Nat.eq_dec u t) as [->|?]; upds; reflexivity) ]).
    all: unfold ret_pc, exit_pc; repeat match goal with |- context [match ?x with Some _ => _ | None => _ end] => destruct x eqn:? end.
    all: try (eapply (InvN_fresh st _ t); [exact HN|rewrite Hth; reflexivity|cl t ..]; fail).
    all: try (match goal with |- context [reclaimed _ ?s _] =>
           eapply (InvN_reclaim st _ t s _ (is_prot (s_prot s))); [exact HN|exact Hth|unfold kept; cl t ..] end; fail).
    all: try (match goal with |- context [abandoned] => eapply (InvN_abandon st _ t); [exact HN|rewrite Hth; reflexivity|cl t ..] end; fail).
    + (* the successful CAS *)
      eapply (InvN_cas st _ t c n (Some o)); [exact HN|exact Hth|assumption|destruct n; cl t ..].
    + (* its guard owns a hazard pointer *)
      exfalso. eapply (g_ptr _ _ _ (HG t) nslots); eassumption.
    + eapply (InvN_cas st _ t c n None); [exact HN|exact Hth|assumption|destruct n; cl t ..].
    + eapply (InvN_cas st _ t c n None); [exact HN|exact Hth|assumption|destruct n; cl t ..].
    + (* the lost CAS *)
      destruct n as [n|]; [eapply (InvN_drop st _ t c n); [exact HN|exact Hth|cl t ..]|].
      apply (InvN_quiet st); rewrite ?Hth; auto; exact (fun _ => I).
    + destruct n as [n|]; [eapply (InvN_drop st _ t c n); [exact HN|exact Hth|cl t ..]|].
      apply (InvN_quiet st); rewrite ?Hth; auto; exact (fun _ => I).
    + eapply (InvN_retire st _ t o); [exact HN|exact Hth|cl t ..].
    + eapply (InvN_adopt st _ t s); [exact HN|exact Hth|cl t ..].
Qed.

Lemma InvN_init ncells : InvN (init ncells).
Proof.
  constructor; unfold init, gone; prj; cbn [tl0 rl ad_of].
  - intros c n H. destruct (c <? ncells) eqn:E; [|discriminate]. injection H as <-. rewrite E. reflexivity.
  - intros n H. destruct (Nat.ltb_spec n ncells); [lia|reflexivity].
  - intros n. split; [intros _ u; destruct (n <? ncells); discriminate|reflexivity].
  - intros t n. split; [discriminate|intros []].
  - intros; constructor.
  - intros n. split; [discriminate|intros []].
  - constructor.
  - intros t n. split; [discriminate|intros []].
  - intros; constructor.
  - intros n. destruct (n <? ncells); reflexivity.
  - intros; exact I.
Qed.
End N.
