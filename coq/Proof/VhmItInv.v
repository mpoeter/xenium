(** vyukov_hash_map bucket model with iterators: the lock-free reader (try_get_value) also under erase(iterator),
    and the final theorems (C10 for the extended model, C11).
    Bnd, Cur, pend, POS, Env, RK_env, Env_same .. Env_unlink, item_lookup, limbo_owned, nil_not_0, in_snoc, next_not_hd mirror
    Proof/VhmInv.v: the statements read the same, but over the state record of Model/VhmItDefs.v (more fields, more program
    points), so neither the definitions nor the proofs can be shared. *)
From Coq Require Import NArith List Bool Lia PeanoNat.
From XV Require Import Base.Word Conc.Lts Conc.Ev gen.BucketStateGen Proof.BucketState.
From XV Require Import Proof.VhmBase Proof.VhmMem Proof.VhmItBase Proof.VhmItMem Proof.VhmItAbs Model.VhmItDefs.
Import ListNotations.
Local Open Scope N_scope.

(** the version counter did not wrap around: fewer than 2^27 removals so far *)
Definition Bnd (st : state) : Prop := g_nver st < 2 ^ 27.

(** no version increment since the reader's last load of the state *)
Definition Cur (st : state) (t : nat) : Prop := g_rv st t = g_nver st.
(** a removal is past its linearization point and its version increment has not been stored yet *)
Definition pend (st : state) : Prop := mk st <> 0 \/ g_limbo st <> 0.
(** where a reader can stand: on an item of the chain or on the item that was just unlinked *)
Definition POS (st : state) (x : N) : Prop := In x (g_chain st) \/ (x <> 0 /\ x = g_limbo st).

(** What reader t, looking for key k, knows at a program point ([RI] below).  It is after one of two outcomes: a value that
    [g_map] gave k at some step of the call, or 'absent'.
    [esc]: 'absent' is already justified: an observation None is recorded, or k is absent now and a removal is pending,
    so that the reader's validation will fail or this very step can be the observation. *)
Definition esc (st : state) (t : nat) (k : N) : Prop :=
  In None (g_obs st t) \/ (lookup k (g_map st) = None /\ pend st).
(** otherwise k is still ahead of the reader: in a valid slot at or after index i ([slotw]), in the logical chain ([chainw]),
    or in the chain behind item x ([succw]) *)
Definition slotw (st : state) (s k i : N) : Prop :=
  exists j, i <= j /\ j < bs_item_count s /\ j + 1 <> mk st /\ akey st j = k.
Definition chainw (st : state) (k : N) : Prop := exists y, In y (lchain st) /\ xkey st y = k.
Definition succw (st : state) (k x : N) : Prop :=
  exists y, In y (from (xnext st x) (g_chain st)) /\ In y (lchain st) /\ xkey st y = k.
(** if the item the reader stands on carries k, its value has been observed *)
Definition J (st : state) (t : nat) (k x : N) : Prop := xkey st x = k -> In (Some (xval st x)) (g_obs st t).

(** the state word s the reader loaded: its version is the one recorded in [g_rv] *)
Definition RB (st : state) (t : nat) (s : N) : Prop :=
  g_rv st t <= g_nver st /\ bs_version s = g_rv st t mod 2 ^ 27 /\ bs_item_count s <= 3.

(** the part of the reader's invariant that holds whatever the writers do: about the word and the index it holds *)
Definition RU (st : state) (t : nat) (p : pc) : Prop :=
  match p with
  | GK _ s i | GV _ s i | GD _ s i _ | GS _ s i _ => RB st t s /\ i < bs_item_count s
  | GH _ s | GXV _ s _ | GXD _ s _ _ | GXS _ s _ _ | GXC _ s _ | GE _ s => RB st t s
  | GXK _ s x | GXN _ s x => RB st t s /\ x <> 0
  | _ => True
  end.
(** the part that holds while the version has not changed since the reader's load ([Cur]): where k still is, per program
    point; steps of other threads preserve it by [RK_env], a version increment voids it *)
Definition RK (st : state) (t : nat) (p : pc) : Prop :=
  match p with
  | GK k s i => bs_item_count s <= ic st /\ (esc st t k \/ slotw st s k i \/ chainw st k)
  | GV k s i => bs_item_count s <= ic st /\ (esc st t k \/ slotw st s k i \/ chainw st k) /\
                (mk st = i + 1 \/ akey st i = k)
  | GD k s i v | GS k s i v =>
    bs_item_count s <= ic st /\ (esc st t k \/ slotw st s k i \/ chainw st k) /\
    (mk st = i + 1 \/ (akey st i = k /\ aval st i = v))
  | GH k s => esc st t k \/ chainw st k
  | GXK k s x => POS st x /\ J st t k x /\ (esc st t k \/ xkey st x = k \/ succw st k x)
  | GXV k s x => POS st x /\ In (Some (xval st x)) (g_obs st t)
  | GXD k s x v | GXS k s x v => In (Some v) (g_obs st t)
  | GXN k s x => POS st x /\ (esc st t k \/ succw st k x)
  | GXC k s y => (y = 0 /\ esc st t k) \/
                 (y <> 0 /\ POS st y /\ J st t k y /\ (esc st t k \/ xkey st y = k \/ succw st k y))
  | GE k s => esc st t k
  | _ => True
  end.
(** the reader's invariant *)
Definition RI (st : state) (t : nat) (p : pc) : Prop := RU st t p /\ (Cur st t -> RK st t p).

(** the unlinked item keeps pointing into the chain *)
Definition Lim (st : state) : Prop :=
  g_limbo st <> 0 -> ~ In (g_limbo st) (g_chain st) /\
                     (xnext st (g_limbo st) = 0 \/ In (xnext st (g_limbo st)) (g_chain st)).

(** results of the completed reader calls: the value returned (or 'absent') is what [g_map] associated
    with the key at one of the steps of the call *)
Definition hist_ok_r (h : hrec) : Prop :=
  match h_op h with
  | OGet _ => (exists v, h_res h = [4; 1; v] /\ In (Some v) (h_obs h)) \/ (h_res h = [4; 0] /\ In None (h_obs h))
  | _ => True
  end.

Lemma in_snoc {X} (l : list X) (a b : X) : In a (l ++ [b]) <-> In a l \/ a = b.
Proof. rewrite in_app_iff. cbn. intuition. Qed.

Lemma nil_not_0 st : Mem st -> ~ In 0 (g_chain st).
Proof. intros HM Hc. apply (M_cok _ HM) in Hc. unfold item_ok in Hc. lia. Qed.

(** the successor of a chain item is never the head of the chain *)
Lemma next_not_hd nx l x : NoDup l -> linksto nx l 0 -> ~ In 0 l -> In x l -> nx x <> hd 0 l.
Proof.
  intros Hnd HL H0 Hx E. destruct l as [|a l]; [destruct Hx|]. cbn [hd] in E.
  assert (Hin : In (nx x) (a :: l)) by (rewrite E; left; reflexivity).
  (* nx x = a: then from (nx x) = whole list = tl (from x ...) which is shorter *)
  pose proof (from_next nx (a :: l) x Hnd H0 HL Hx) as Hf. rewrite E, from_hd in Hf.
  assert (Hlen : (length (tl (from x (a :: l))) < length (a :: l))%nat).
  { destruct (from_in x (a :: l) Hx) as [r Hr]. rewrite Hr. cbn [tl].
    assert (Hle : (length (from x (a :: l)) <= length (a :: l))%nat).
    { clear. generalize (a :: l). intros l0. induction l0 as [|b l0 IH]; cbn [from length]; [lia|].
      destruct (b =? x); cbn [length]; lia. }
    rewrite Hr in Hle. cbn [length] in *. lia. }
  rewrite <- Hf in Hlen. lia.
Qed.

Lemma lchain_sub st y : In y (lchain st) -> In y (g_chain st).
Proof. unfold lchain. destruct (g_dup st); [|tauto]. destruct (g_chain st); [tauto|]. cbn [tl]. intros H. right. exact H. Qed.

(** * what the steps of the other threads guarantee to a reader as long as the version does not change *)
Record Env (st st' : state) : Prop := mkEnv {
  En_ic : ic st <= ic st';
  En_slot : forall j, j < ic st -> j + 1 <> mk st -> j + 1 <> mk st' ->
            akey st' j = akey st j /\ aval st' j = aval st j;
  En_mk : mk st <> 0 -> mk st' = mk st;
  En_mk_lp : forall j, j < ic st -> j + 1 <> mk st -> j + 1 = mk st' -> lookup (akey st j) (g_map st') = None;
  En_pend : pend st -> pend st' /\ forall k, lookup k (g_map st) = None -> lookup k (g_map st') = None;
  En_pos : forall x, POS st x -> POS st' x /\ xkey st' x = xkey st x /\ xval st' x = xval st x;
  En_lch : forall y, In y (lchain st) -> In y (lchain st') \/ (lookup (xkey st y) (g_map st') = None /\ pend st');
  En_succ : forall x y, POS st x -> In y (from (xnext st x) (g_chain st)) -> In y (lchain st') ->
            In y (from (xnext st' x) (g_chain st'))
}.

Lemma RK_env st st' t p : Env st st' -> g_obs st' t = g_obs st t -> RU st t p -> RK st t p -> RK st' t p.
Proof.
  intros HE Eo HU HK.
  assert (Hesc : forall k, esc st t k -> esc st' t k).
  { intros k [H|[H1 H2]]; [left; rewrite Eo; exact H | right]. destruct (En_pend _ _ HE H2) as [H3 H4]. auto. }
  assert (Hmkpend : forall j, j + 1 = mk st' -> pend st') by (intros j Hj; left; lia).
  assert (Hslot : forall s k i, bs_item_count s <= ic st -> slotw st s k i -> esc st' t k \/ slotw st' s k i).
  { intros s k i Hic (j & H1 & H2 & H3 & H4). destruct (N.eq_dec (j + 1) (mk st')) as [E|E].
    - left. right. split; [|eapply Hmkpend; exact E]. rewrite <- H4. apply (En_mk_lp _ _ HE); [lia | exact H3 | exact E].
    - right. exists j. destruct (En_slot _ _ HE j ltac:(lia) H3 E) as [E1 _]. rewrite E1. auto. }
  assert (Hch : forall k, chainw st k -> esc st' t k \/ chainw st' k).
  { intros k (y & H1 & H2). destruct (En_lch _ _ HE y H1) as [H|[H3 H4]].
    - right. exists y. split; [exact H|]. destruct (En_pos _ _ HE y (or_introl (lchain_sub _ _ H1))) as (_ & -> & _). exact H2.
    - left. right. rewrite <- H2. auto. }
  assert (Hsu : forall k x, POS st x -> succw st k x -> esc st' t k \/ succw st' k x).
  { intros k x Hx (y & H1 & H2 & H3). destruct (En_lch _ _ HE y H2) as [H|[H4 H5]].
    - right. exists y. split; [apply (En_succ _ _ HE x y Hx H1 H)|]. split; [exact H|].
      destruct (En_pos _ _ HE y (or_introl (lchain_sub _ _ H2))) as (_ & -> & _). exact H3.
    - left. right. rewrite <- H3. auto. }
  assert (Hfa : forall i k (P : Prop), i < ic st -> (mk st = i + 1 \/ (akey st i = k /\ P)) ->
                 (mk st' = i + 1 \/ (akey st i = k /\ P /\ i + 1 <> mk st /\ i + 1 <> mk st'))).
  { intros i k P Hi [H|[H1 H2]].
    - left. rewrite (En_mk _ _ HE); [exact H | lia].
    - destruct (N.eq_dec (mk st) (i + 1)) as [E|E]; [left; rewrite (En_mk _ _ HE); [exact E | lia]|].
      destruct (N.eq_dec (mk st') (i + 1)) as [E'|E']; [left; exact E'|]. right. repeat split; auto. }
  pose proof (En_ic _ _ HE) as Hic.
  destruct p; cbn [RK RU] in *; try exact I.
  - (* GK *) destruct HK as [H1 H2]. split; [lia|]. destruct H2 as [H|[H|H]]; [auto | destruct (Hslot _ _ _ H1 H); auto | destruct (Hch _ H); auto].
  - (* GV *) destruct HK as (H1 & H2 & H3). destruct HU as [_ Hi]. split; [lia|]. split.
    + destruct H2 as [H|[H|H]]; [auto | destruct (Hslot _ _ _ H1 H); auto | destruct (Hch _ H); auto].
    + assert (H3' : mk st = i + 1 \/ (akey st i = k /\ True)) by tauto.
      destruct (Hfa i k True ltac:(lia) H3') as [H|(H4 & _ & H5 & H6)]; [left; exact H|right].
      destruct (En_slot _ _ HE i ltac:(lia) H5 H6) as [-> _]. exact H4.
  - (* GD *) destruct HK as (H1 & H2 & H3). destruct HU as [_ Hi]. split; [lia|]. split.
    + destruct H2 as [H|[H|H]]; [auto | destruct (Hslot _ _ _ H1 H); auto | destruct (Hch _ H); auto].
    + destruct (Hfa i k (aval st i = v) ltac:(lia) H3) as [H|(H4 & H7 & H5 & H6)]; [left; exact H|right].
      destruct (En_slot _ _ HE i ltac:(lia) H5 H6) as [-> ->]. auto.
  - (* GS *) destruct HK as (H1 & H2 & H3). destruct HU as [_ Hi]. split; [lia|]. split.
    + destruct H2 as [H|[H|H]]; [auto | destruct (Hslot _ _ _ H1 H); auto | destruct (Hch _ H); auto].
    + destruct (Hfa i k (aval st i = v) ltac:(lia) H3) as [H|(H4 & H7 & H5 & H6)]; [left; exact H|right].
      destruct (En_slot _ _ HE i ltac:(lia) H5 H6) as [-> ->]. auto.
  - (* GH *) destruct HK as [H|H]; [auto | destruct (Hch _ H); auto].
  - (* GXK *) destruct HK as (H1 & H2 & H3). destruct (En_pos _ _ HE x H1) as (P1 & P2 & P3). split; [exact P1|]. split.
    + unfold J in *. rewrite P2, P3, Eo. exact H2.
    + rewrite P2. destruct H3 as [H|[H|H]]; [auto | auto | destruct (Hsu _ _ H1 H); auto].
  - (* GXV *) destruct HK as (H1 & H2). destruct (En_pos _ _ HE x H1) as (P1 & P2 & P3). split; [exact P1|]. rewrite P3, Eo. exact H2.
  - (* GXD *) rewrite Eo. exact HK.
  - (* GXS *) rewrite Eo. exact HK.
  - (* GXN *) destruct HK as (H1 & H2). destruct (En_pos _ _ HE x H1) as (P1 & P2 & P3). split; [exact P1|].
    destruct H2 as [H|H]; [auto | destruct (Hsu _ _ H1 H); auto].
  - (* GXC *) destruct HK as [[H0 H]|(H0 & H1 & H2 & H3)]; [left; auto|right]. split; [exact H0|].
    destruct (En_pos _ _ HE x H1) as (P1 & P2 & P3). split; [exact P1|]. split.
    + unfold J in *. rewrite P2, P3, Eo. exact H2.
    + rewrite P2. destruct H3 as [H|[H|H]]; [auto | auto | destruct (Hsu _ _ H1 H); auto].
  - (* GE *) auto.
Qed.

Lemma pend_eq st st' : mk st' = mk st -> g_limbo st' = g_limbo st -> (pend st' <-> pend st).
Proof. unfold pend. intros -> ->. tauto. Qed.

(** steps that leave the logical content alone *)
Lemma Env_same st st' : ic st' = ic st -> mk st' = mk st -> g_map st' = g_map st -> g_chain st' = g_chain st ->
  g_dup st' = g_dup st -> g_limbo st' = g_limbo st ->
  (forall j, j < ic st -> j + 1 <> mk st -> akey st' j = akey st j /\ aval st' j = aval st j) ->
  (forall x, POS st x -> xkey st' x = xkey st x /\ xval st' x = xval st x /\ xnext st' x = xnext st x) -> Env st st'.
Proof.
  intros Eic Emk Em Ec Ed El Hs Hx.
  assert (Hl : lchain st' = lchain st) by (unfold lchain; rewrite Ed, Ec; reflexivity).
  constructor.
  - lia.
  - intros j H1 H2 _. apply Hs; assumption.
  - intros _. exact Emk.
  - intros j _ H1 H2. congruence.
  - intros H. split; [apply (pend_eq _ _ Emk El); exact H | intros k; rewrite Em; tauto].
  - intros x H. destruct (Hx x H) as (H1 & H2 & _). split; [|tauto]. unfold POS in *. rewrite Ec, El. exact H.
  - intros y H. left. rewrite Hl. exact H.
  - intros x y H1 H2 _. destruct (Hx x H1) as (_ & _ & ->). rewrite Ec. exact H2.
Qed.

(** insertion into the array (unlocking store) *)
Lemma Env_ins_slot st st' : ic st' = ic st + 1 -> mk st' = mk st -> mk st = 0 -> g_limbo st = 0 ->
  akey st' = akey st -> aval st' = aval st -> xkey st' = xkey st -> xval st' = xval st -> xnext st' = xnext st ->
  g_chain st' = g_chain st -> g_dup st' = g_dup st -> g_limbo st' = g_limbo st -> Env st st'.
Proof.
  intros Eic Emk Hmk Hl Ea Eb Exk Exv Exn Ec Ed El.
  assert (Hlc : lchain st' = lchain st) by (unfold lchain; rewrite Ed, Ec; reflexivity).
  assert (Hnp : ~ pend st) by (unfold pend; lia).
  constructor.
  - lia.
  - intros j _ _ _. rewrite Ea, Eb. tauto.
  - intros _. exact Emk.
  - intros j _ _ H. lia.
  - intros H. contradiction.
  - intros x H. rewrite Exk, Exv. split; [|tauto]. unfold POS in *. rewrite Ec, El. exact H.
  - intros y H. left. rewrite Hlc. exact H.
  - intros x y _ H _. rewrite Exn, Ec. exact H.
Qed.

(** insertion of an extension item (store to head) *)
Lemma Env_ins_item st st' n : Mem st -> ic st' = ic st -> mk st' = mk st -> mk st = 0 -> g_limbo st = 0 ->
  akey st' = akey st -> aval st' = aval st -> xkey st' = xkey st -> xval st' = xval st -> xnext st' = xnext st ->
  g_chain st' = n :: g_chain st -> ~ In n (g_chain st) -> n <> 0 ->
  g_dup st' = false -> g_dup st = false -> g_limbo st' = g_limbo st -> Env st st'.
Proof.
  intros HM Eic Emk Hmk Hl Ea Eb Exk Exv Exn Ec Hn Hnz Ed' Ed El.
  assert (Hnp : ~ pend st) by (unfold pend; lia).
  constructor.
  - lia.
  - intros j _ _ _. rewrite Ea, Eb. tauto.
  - intros _. exact Emk.
  - intros j _ _ H. lia.
  - intros H. contradiction.
  - intros x H. rewrite Exk, Exv. split; [|tauto]. unfold POS in *. rewrite Ec, El. destruct H as [H|H]; [left; right; exact H | right; exact H].
  - intros y H. left. rewrite lchain_nodup in * by assumption. rewrite Ec. right. exact H.
  - intros x y Hx H _. rewrite Exn, Ec. rewrite from_cons_ne; [exact H|].
    destruct Hx as [Hx|[Hx1 Hx2]]; [|congruence]. intros E.
    destruct (N.eq_dec (xnext st x) 0) as [E0|E0]; [congruence|].
    apply Hn. rewrite E. apply linksto_next_in; [apply nil_not_0; exact HM | exact (M_clk _ HM) | exact Hx | exact E0].
Qed.

(** removal from the array: store of the delete marker *)
Lemma Env_mark st st' i : ic st' = ic st -> mk st = 0 -> g_limbo st = 0 -> mk st' = i + 1 ->
  akey st' = akey st -> aval st' = aval st -> xkey st' = xkey st -> xval st' = xval st -> xnext st' = xnext st ->
  g_chain st' = g_chain st -> g_dup st' = g_dup st -> g_limbo st' = g_limbo st ->
  g_map st' = rem (akey st i) (g_map st) -> Env st st'.
Proof.
  intros Eic Hmk Hl Emk Ea Eb Exk Exv Exn Ec Ed El Em.
  assert (Hlc : lchain st' = lchain st) by (unfold lchain; rewrite Ed, Ec; reflexivity).
  assert (Hnp : ~ pend st) by (unfold pend; lia).
  constructor.
  - lia.
  - intros j _ _ _. rewrite Ea, Eb. tauto.
  - intros H. contradiction.
  - intros j _ _ H. assert (j = i) by lia. subst j. rewrite Em, lookup_rem, N.eqb_refl. reflexivity.
  - intros H. contradiction.
  - intros x H. rewrite Exk, Exv. split; [|tauto]. unfold POS in *. rewrite Ec, El. exact H.
  - intros y H. left. rewrite Hlc. exact H.
  - intros x y _ H _. rewrite Exn, Ec. exact H.
Qed.

(** a removal that back-filled from the chain unlinks the copied head item *)
Lemma Env_xa8 st st' e r : Mem st -> ic st' = ic st -> mk st' = mk st -> mk st = 0 -> g_limbo st = 0 ->
  akey st' = akey st -> aval st' = aval st -> xkey st' = xkey st -> xval st' = xval st -> xnext st' = xnext st ->
  g_chain st = e :: r -> g_chain st' = r -> g_dup st = true -> g_dup st' = false -> g_limbo st' = e ->
  g_map st' = g_map st -> Env st st'.
Proof.
  intros HM Eic Emk Hmk Hl Ea Eb Exk Exv Exn Ec Ec' Ed Ed' El Em.
  assert (Hlc : lchain st' = lchain st) by (unfold lchain; rewrite Ed, Ed', Ec, Ec'; reflexivity).
  assert (Hnp : ~ pend st) by (unfold pend; lia).
  assert (He : e <> 0) by (intros ->; apply (nil_not_0 _ HM); rewrite Ec; left; reflexivity).
  constructor.
  - lia.
  - intros j _ _ _. rewrite Ea, Eb. tauto.
  - intros _. exact Emk.
  - intros j _ _ H. lia.
  - intros H. contradiction.
  - intros x H. rewrite Exk, Exv. split; [|tauto]. unfold POS in *. rewrite Ec', El. rewrite Ec, Hl in H.
    destruct H as [[<-|H]|[H1 H2]]; [right; auto | left; exact H | congruence].
  - intros y H. left. rewrite Hlc. exact H.
  - intros x y Hx H _. rewrite Exn, Ec'. rewrite Ec in H. rewrite from_cons_ne in H; [exact H|].
    destruct Hx as [Hx|[Hx1 Hx2]]; [|congruence]. intros E.
    apply (next_not_hd (xnext st) (g_chain st) x); [exact (M_cnd _ HM) | exact (M_clk _ HM) | apply nil_not_0; exact HM | exact Hx |].
    rewrite Ec. cbn [hd]. symmetry. exact E.
Qed.


(** the item an eraser has unlinked is not owned by anybody else *)
Lemma limbo_owned st : Lk st -> Mem st -> g_limbo st <> 0 ->
  exists u, g_owner st = Some u /\ pc_own (th st u) = Some (g_limbo st) /\ pc_bst (th st u) <> None.
Proof.
  intros HI HM Hl. destruct (g_owner st) as [u|] eqn:Eo; [|destruct (M_fl0 _ HM Eo) as [_ Hl0]; congruence].
  exists u. split; [reflexivity|]. destruct (M_fl _ HM u Eo) as [_ Hlu]. pose proof (Lk_pc _ HI u Eo) as Hb.
  rewrite Hlu in *. destruct (th st u); repeat match goal with i : itpos |- _ => destruct i end; cbn [pc_limbo pc_own pc_bst] in *; try congruence; split; congruence.
Qed.

Lemma pred_unique nx l a b : NoDup l -> ~ In 0 l -> linksto nx l 0 -> In a l -> In b l ->
  nx a = nx b -> nx a <> 0 -> a = b.
Proof.
  induction l as [|c r IH]; intros Hnd H0 HL Ha Hb E Hnz; [destruct Ha|].
  inversion Hnd as [|c' r' Hnc Hnd']; subst. cbn [linksto] in HL. destruct HL as [Hc HL].
  assert (H0' : ~ In 0 r) by (intros H; apply H0; right; exact H).
  destruct Ha as [<-|Ha]; destruct Hb as [<-|Hb]; try reflexivity.
  - exfalso. apply (next_not_hd nx r b Hnd' HL H0' Hb). congruence.
  - exfalso. apply (next_not_hd nx r a Hnd' HL H0' Ha). congruence.
  - apply IH; assumption.
Qed.

(** removal of an extension item: store to the predecessor's link *)
Lemma Env_unlink st st' p x : Mem st -> ic st' = ic st -> mk st' = mk st -> mk st = 0 -> g_limbo st = 0 ->
  akey st' = akey st -> aval st' = aval st -> xkey st' = xkey st -> xval st' = xval st ->
  In x (g_chain st) -> link_ok st p x ->
  xnext st' = (if p =? 0 then xnext st else setf (xnext st) p (xnext st x)) ->
  g_chain st' = remx x (g_chain st) -> g_dup st = false -> g_dup st' = false -> g_limbo st' = x ->
  g_map st' = rem (xkey st x) (g_map st) -> Env st st'.
Proof.
  intros HM Eic Emk Hmk Hl Ea Eb Exk Exv Hx Hlk Exn Ec Ed Ed' El Em.
  assert (Hnp : ~ pend st) by (unfold pend; lia).
  pose proof (nil_not_0 _ HM) as H0. pose proof (M_cnd _ HM) as Hnd. pose proof (M_clk _ HM) as HL.
  assert (Hxz : x <> 0) by (intros ->; contradiction).
  assert (Hpend' : pend st') by (right; rewrite El; exact Hxz).
  assert (Hfx : from x (g_chain st) = x :: from (xnext st x) (g_chain st)).
  { destruct (from_in _ _ Hx) as [r Hr]. rewrite (from_next _ _ _ Hnd H0 HL Hx), Hr. reflexivity. }
  assert (Hnx : xnext st x <> x).
  { intros E. assert (Hd : NoDup (from x (g_chain st))).
    { clear -Hnd. induction (g_chain st) as [|a l IH]; cbn [from]; [constructor|]. destruct (a =? x); [exact Hnd|].
      apply IH. inversion Hnd; assumption. }
    rewrite Hfx in Hd. inversion Hd as [|? ? Hni _]; subst. apply Hni. rewrite E.
    destruct (from_in _ _ Hx) as [r Hr]. rewrite Hr. left. reflexivity. }
  constructor.
  - lia.
  - intros j _ _ _. rewrite Ea, Eb. tauto.
  - intros _. exact Emk.
  - intros j _ _ H. lia.
  - intros H. contradiction.
  - intros y H. rewrite Exk, Exv. split; [|tauto]. unfold POS in *. rewrite Ec, El.
    destruct H as [H|[H1 H2]]; [|congruence]. destruct (N.eq_dec y x) as [->|Hne]; [right; auto | left; apply in_remx; auto].
  - intros y H. rewrite lchain_nodup in * by assumption. rewrite Ec. destruct (N.eq_dec y x) as [->|Hne].
    + right. split; [|exact Hpend']. rewrite Em, lookup_rem, N.eqb_refl. reflexivity.
    + left. apply in_remx. auto.
  - intros y0 z Hy0 Hz Hz'. rewrite lchain_nodup in Hz' by assumption. rewrite Ec in *. apply in_remx in Hz'. destruct Hz' as [Hz1 Hz2].
    destruct Hy0 as [Hy0|[Hy1 Hy2]]; [|congruence].
    assert (Hcase : (p <> 0 /\ y0 = p) \/ xnext st' y0 = xnext st y0).
    { rewrite Exn. destruct (N.eqb_spec p 0) as [Ep|Ep]; [right; reflexivity|].
      destruct (N.eq_dec y0 p) as [->|Hne]; [left; auto | right; apply setf_other; exact Hne]. }
    destruct Hcase as [[Hp ->]|En].
    + (* the predecessor: its link now skips x *)
      destruct Hlk as [[Hp0 _]|(_ & Hpc & Hpx)]; [contradiction|].
      rewrite Exn. destruct (N.eqb_spec p 0) as [Ep|_]; [contradiction|]. rewrite setf_same.
      rewrite Hpx, Hfx in Hz. destruct Hz as [Hz|Hz]; [congruence|].
      rewrite from_remx by exact Hnx. apply in_remx. auto.
    + rewrite En. assert (Hw : xnext st y0 <> x).
      { intros E. destruct Hlk as [[Hp0 Hh]|(Hp0 & Hpc & Hpx)].
        - apply (next_not_hd (xnext st) (g_chain st) y0 Hnd HL H0 Hy0). rewrite <- (M_chd _ HM). congruence.
        - assert (y0 = p) by (apply (pred_unique (xnext st) (g_chain st)); try assumption; congruence).
          subst y0. rewrite Exn in En. destruct (N.eqb_spec p 0) as [Ep|_]; [contradiction|]. rewrite setf_same in En. congruence. }
      rewrite from_remx by exact Hw. apply in_remx. auto.
Qed.

Lemma lookup_wit st k v : G st -> lookup k (g_map st) = Some v ->
  (exists j, vslot st j /\ akey st j = k /\ aval st j = v) \/ (exists y, In y (lchain st) /\ xkey st y = k /\ xval st y = v).
Proof. intros HG H. apply (G_map _ HG) in H. exact H. Qed.

(** every item of the physical chain (also a head that is a copy of a slot) carries a pair of [g_map] *)
Lemma item_lookup st y : G st -> In y (g_chain st) -> lookup (xkey st y) (g_map st) = Some (xval st y).
Proof.
  intros HG Hy. apply (G_map _ HG). unfold item_has, lchain. destruct (g_dup st) eqn:Ed.
  - destruct (g_chain st) as [|e r] eqn:Ec; [destruct Hy|]. destruct Hy as [<-|Hy].
    + left. destruct (G_dup _ HG Ed) as (j & J1 & J2 & J3). rewrite Ec in J2, J3. cbn [hd] in *. exists j. split; [exact J1 | split; assumption].
    + right. exists y. cbn [tl]. split; [exact Hy | split; reflexivity].
  - right. exists y. split; [exact Hy | split; reflexivity].
Qed.

Lemma succw_next st k x : Mem st -> succw st k x ->
  In (xnext st x) (g_chain st) /\ (xkey st (xnext st x) = k \/ succw st k (xnext st x)).
Proof.
  intros HM (w & H1 & H2 & H3). set (y := xnext st x) in *.
  destruct (in_dec N.eq_dec y (g_chain st)) as [Hy|Hy]; [|rewrite (from_notin _ _ Hy) in H1; destruct H1].
  split; [exact Hy|]. destruct (from_in _ _ Hy) as [r Hr].
  pose proof (from_next (xnext st) (g_chain st) y (M_cnd _ HM) (nil_not_0 _ HM) (M_clk _ HM) Hy) as Hf.
  rewrite Hr in H1, Hf. cbn [tl] in Hf. destruct H1 as [<-|H1]; [left; exact H3|right].
  exists w. rewrite Hf. auto.
Qed.

Lemma from_hd0 (l : list N) x : x = hd 0 l -> In x l -> from x l = l.
Proof. destruct l as [|a l]; [intros _ []|]. cbn [hd]. intros -> _. apply from_hd. Qed.

Lemma chainw_hd st k : Mem st -> chainw st k -> bhead st <> 0 ->
  xkey st (bhead st) = k \/ succw st k (bhead st).
Proof.
  intros HM (w & H1 & H2) Hnz. pose proof (M_chd _ HM) as Hh.
  assert (Hb : In (bhead st) (g_chain st)) by (apply hd_in; assumption).
  pose proof (from_next (xnext st) (g_chain st) (bhead st) (M_cnd _ HM) (nil_not_0 _ HM) (M_clk _ HM) Hb) as Hf.
  pose proof (lchain_sub _ _ H1) as Hw. rewrite (from_hd0 _ _ Hh Hb) in Hf.
  destruct (g_chain st) as [|e r] eqn:Ec; [destruct Hb|]. cbn [hd tl] in *.
  destruct Hw as [Hw|Hw]; [left; congruence|right].
  exists w. unfold succw. rewrite Ec, Hf. auto.
Qed.

(** an item that is unlinked keeps pointing into the rest of the list *)
Lemma limbo_next nx l x : NoDup l -> ~ In 0 l -> linksto nx l 0 -> In x l ->
  ~ In x (remx x l) /\ (nx x = 0 \/ In (nx x) (remx x l)).
Proof.
  intros Hnd H0 HL Hx. split; [rewrite in_remx; tauto|].
  destruct (N.eq_dec (nx x) 0) as [E|E]; [left; exact E|right]. apply in_remx.
  split; [apply linksto_next_in; assumption | apply (next_ne_self nx l); assumption].
Qed.

Lemma limbo_hd nx l : NoDup l -> ~ In 0 l -> linksto nx l 0 -> hd 0 l <> 0 ->
  ~ In (hd 0 l) (tl l) /\ (nx (hd 0 l) = 0 \/ In (nx (hd 0 l)) (tl l)).
Proof.
  intros Hnd H0 HL Hnz. destruct (hd_cons l _ eq_refl Hnz) as [r Ec]. rewrite Ec in *. cbn [hd tl].
  rewrite <- (remx_hd (hd 0 l) r) by (inversion Hnd; assumption). apply limbo_next; try assumption. left. reflexivity.
Qed.

(** what the holder of the bucket lock has unlinked *)
Lemma holder_limbo st t : Lk st -> Mem st -> pc_bst (th st t) <> None -> g_limbo st = pc_limbo (th st t).
Proof. intros HI HM Hb. apply (M_fl _ HM t (Lk_own _ HI t Hb)). Qed.

Section VhmItInv.
  Variable xoff : N.
  Notation step := (step xoff).

  (** [Env_same] for a step that leaves map, chain, flags and item memory alone; left to prove: ic and mk are unchanged
      ([esame]), also the valid slots ([esame1]), resp. the items a reader can stand on ([esame2]) *)
  Ltac esame := apply Env_same; [ | | reflexivity | reflexivity | reflexivity | reflexivity
                              | intros; split; reflexivity | intros; rsplit; reflexivity].
  Ltac esame1 := apply Env_same; [ | | reflexivity | reflexivity | reflexivity | reflexivity
                              | | intros; rsplit; reflexivity].
  Ltac esame2 := apply Env_same; [ | | reflexivity | reflexivity | reflexivity | reflexivity
                              | intros; split; reflexivity | ].

  Lemma step_env st a st' es : Lk st -> Mem st -> Abs st -> step st a = Some (st', es) ->
    g_nver st' = g_nver st + 1 \/ (g_nver st' = g_nver st /\ Env st st').
  Proof.
    intros HI HM (HG & HA & _) H. step_inv H; st_simpl.
    all: try (left; reflexivity).
    all: right; (split; [reflexivity|]).
    all: try (apply Env_same; [reflexivity | reflexivity | reflexivity | reflexivity | reflexivity | reflexivity
                              | intros; split; reflexivity | intros; rsplit; reflexivity]).
    all: prep2 HI HM HA t Epc.
    all: repeat match goal with E : ?c = _, H : context [if ?c then _ else _] |- _ => rewrite E in H end.
    all: try (assert (Hwfs : wf_s s) by tauto; destruct (wf_fields s Hwfs) as (FL1 & FL2 & FM & FN1 & FN2 & _ & _ & _ & _ & _ & FI & _)).
    all: unfold mark in *.
    all: try (assert (Hicst : ic st = bs_item_count s /\ mk st = 0) by (unfold ic, mk; rewrite <- Hbst; split; [exact FL1 | exact FL2]);
              destruct Hicst as [Hicst Hmk0]).
    all: b2p; repeat match goal with Hc : _ /\ _ |- _ => destruct Hc end.
    all: try match goal with Hi : ?i < bs_item_count _ |- _ => destruct (FM i Hi) as [FM1 FM2] end.
    all: try (destruct (FI ltac:(assumption)) as [FI1 FI2]).
    all: try (pose proof (M_own _ HM t) as Ho; rewrite Epc in Ho; destruct (Ho _ eq_refl) as (Hok & Hnc & _)).
    (* lock acquisition: the word read is the current one *)
    all: try (let h := pc_head in lazymatch h with L3 => idtac | X3 => idtac | FL3 => idtac | MN2 => idtac end;
              subst; esame; [apply ic_locked | apply mk_locked]).
    (* unlocking stores that keep item count and marker *)
    all: try (let h := pc_head in
              lazymatch h with IUold => idtac | IUnew2 => idtac | XU => idtac | FU => idtac | MN3 => idtac | R1 => idtac end;
              esame; icmk; symmetry; first [apply ic_locked | apply mk_locked]).
    (* stores to the free slot and to the marked slot *)
    all: try (let h := pc_head in
              lazymatch h with ISK => idtac | ISV => idtac | XA4 => idtac | XA5 => idtac | XB4 => idtac | XB5 => idtac
                             | EA4 => idtac | EA5 => idtac | EB4 => idtac | EB5 => idtac end;
              esame1; [icmk | icmk |]; intros j Hj Hm; unfold mk in Hm; rewrite <- Hbst, ?FM2 in Hm; st_simpl;
              rewrite setf_other by lia; split; reflexivity).
    (* stores to an item the thread owns and that is not the unlinked one *)
    all: try (let h := pc_head in lazymatch h with IXSK => idtac | IXSV => idtac | IXSN => idtac | IF4 => idtac end;
              esame2; [icmk | icmk |]; intros y Hy; st_simpl;
              match goal with |- context [setf _ ?n _ y] => assert (y <> n) by (intros ->; destruct Hy as [Hy|[Hy1 Hy2]]; [contradiction | congruence]) end;
              rewrite setf_other by assumption; rsplit; reflexivity).
    (* the linearization points and the steps that unlink an item *)
    - (* IUnew *) apply Env_ins_slot; try reflexivity; try assumption; icmk.
    - (* IXSH *) apply (Env_ins_item st _ n); try reflexivity; try assumption; try icmk. unfold item_ok in Hok. lia.
    - (* XA1 *) subst k. apply (Env_mark st _ i); try reflexivity; try assumption; icmk.
    - (* XA8 *) destruct (hd_cons _ _ (M_chd _ HM)) as [rr Ec]; [congruence|].
      apply (Env_xa8 st _ x rr); try reflexivity; try assumption; try icmk; rewrite Ec; reflexivity.
    - (* XB1 *) subst k. apply (Env_mark st _ i); try reflexivity; try assumption; icmk.
    - (* XXP *) apply (Env_unlink st _ p x); try reflexivity; try assumption; try icmk; st_simpl_goal; destruct (N.eqb_spec p 0); congruence.
    - apply (Env_unlink st _ p x); try reflexivity; try assumption; try icmk; st_simpl_goal; destruct (N.eqb_spec p 0); congruence.
    - (* F4: the item that is freed is not the one another thread has just unlinked *)
      esame2; [icmk | icmk |]. intros y Hy. st_simpl.
      assert (y <> x).
      { intros ->. destruct Hy as [Hy|[Hy1 Hy2]]; [contradiction|].
        assert (Hl : g_limbo st <> 0) by congruence.
        destruct (limbo_owned _ HI HM Hl) as (u & Hou & Hpo & Hpb).
        apply (M_inj _ HM t u x); [|rewrite Epc; reflexivity | rewrite Hy2; exact Hpo].
        intros ->. rewrite Epc in Hpb. apply Hpb. reflexivity. }
      rewrite setf_other by assumption. rsplit; reflexivity.
    - (* EX2 *) apply (Env_unlink st _ p x); try reflexivity; try assumption; try icmk; st_simpl_goal; destruct (N.eqb_spec p 0); congruence.
    - apply (Env_unlink st _ p x); try reflexivity; try assumption; try icmk; st_simpl_goal; destruct (N.eqb_spec p 0); congruence.
    - (* EA1 *) subst w. apply (Env_mark st _ idx); try reflexivity; try assumption; icmk.
    - (* EA8 *) destruct (hd_cons _ _ (M_chd _ HM)) as [rr Ec]; [congruence|].
      apply (Env_xa8 st _ h rr); try reflexivity; try assumption; try icmk; rewrite Ec; reflexivity.
    - (* EB1 *) subst w. apply (Env_mark st _ idx); try reflexivity; try assumption; icmk.
  Qed.

  (** a step only touches the thread-local ghosts of the thread that moves, and never decreases [g_nver] *)
  Lemma step_local st a st' es : step st a = Some (st', es) ->
    g_nver st <= g_nver st' /\
    forall t', t' <> tid a -> th st' t' = th st t' /\ g_obs st' t' = g_obs st t' /\ g_rv st' t' = g_rv st t'.
  Proof.
    intros H. step_inv H; st_simpl; (split; [lia|]); intros t' Hne; rewrite ?upd_other by exact Hne; auto.
  Qed.

  Lemma step_other st a st' es : step st a = Some (st', es) ->
    exists t, (forall t', t' <> t -> th st' t' = th st t' /\ g_obs st' t' = g_obs st t' /\ g_rv st' t' = g_rv st t') /\
              (a = Step t \/ exists o, a = Start t o).
  Proof. intros H. exists (tid a). split; [apply (step_local _ _ _ _ H) | destruct a; eauto]. Qed.

  Lemma nver_mono st a st' es : step st a = Some (st', es) -> g_nver st <= g_nver st'.
  Proof. intros H. apply (step_local _ _ _ _ H). Qed.

  Lemma Lim_step st a st' es : Lk st -> Mem st -> Lim st -> step st a = Some (st', es) -> Lim st'.
  Proof.
    intros HI HM HL H. unfold Lim in *. step_inv H; st_simpl.
    all: try exact HL.
    all: try (intros Hc; exfalso; apply Hc; reflexivity).
    all: pose proof (M_ch _ HM t) as Hch; rewrite Epc in Hch; cbn [pc_ch] in Hch.
    all: pose proof (M_cnd _ HM) as Hcnd; pose proof (M_chd _ HM) as Hchd; pose proof (M_clk _ HM) as Hclk;
         pose proof (nil_not_0 _ HM) as H0.
    all: b2p.
    - (* IXSN: nothing is unlinked while an item is inserted *)
      intros Hc. exfalso. apply Hc. rewrite (holder_limbo st t HI HM) by (rewrite Epc; discriminate). rewrite Epc. reflexivity.
    - (* IXSH *) intros Hc. exfalso. apply Hc. rewrite (holder_limbo st t HI HM) by (rewrite Epc; discriminate). rewrite Epc. reflexivity.
    - (* XA8 *) intros _. destruct Hch as (-> & Hnz & _). rewrite Hchd in *. apply limbo_hd; assumption.
    - (* XXP *) intros _. destruct Hch as (Hx & _). exact (limbo_next _ _ _ Hcnd H0 Hclk Hx).
    - destruct Hch as (Hx & [(Hc & _)|(_ & Hp & Hpx)] & _); [contradiction|]. intros _.
      rewrite setf_other by (intros ->; apply (next_ne_self (xnext st) (g_chain st) p); assumption).
      exact (limbo_next _ _ _ Hcnd H0 Hclk Hx).
    - (* F4: the item that is freed is not the unlinked one *)
      intros Hl. destruct (limbo_owned _ HI HM Hl) as (u & Ho & Hpo & Hpb). rewrite setf_other; [exact (HL Hl)|]. intros E.
      apply (M_inj _ HM t u x); [|rewrite Epc; reflexivity | rewrite <- E; exact Hpo].
      intros ->. rewrite Epc in Hpb. apply Hpb. reflexivity.
    - (* EX2 *) intros _. destruct Hch as (Hx & _). exact (limbo_next _ _ _ Hcnd H0 Hclk Hx).
    - destruct Hch as (Hx & [(Hc & _)|(_ & Hp & Hpx)] & _); [contradiction|]. intros _.
      rewrite setf_other by (intros ->; apply (next_ne_self (xnext st) (g_chain st) p); assumption).
      exact (limbo_next _ _ _ Hcnd H0 Hclk Hx).
    - (* EA8 *) intros _. destruct Hch as (-> & Hnz & _). rewrite Hchd in *. apply limbo_hd; assumption.
    - (* IF4 *)
      intros Hl. destruct (limbo_owned _ HI HM Hl) as (u & Ho & Hpo & Hpb). rewrite setf_other; [exact (HL Hl)|]. intros E.
      assert (Hut : u = t).
      { destruct (Nat.eq_dec u t) as [E'|E']; [exact E'|]. exfalso.
        apply (M_inj _ HM t u fx); [congruence | rewrite Epc; reflexivity | rewrite <- E; exact Hpo]. }
      subst u. destruct (M_fl _ HM t Ho) as [_ Hlt]. rewrite Epc in Hlt. cbn [pc_limbo] in Hlt. congruence.
  Qed.

  Theorem Lim_reach st : reach init step st -> Lim st.
  Proof.
    apply (inv_rule_aux _ _ _ init step (fun s => Lk s /\ Mem s) Lim).
    - intros s Hr. split; [apply (Lk_reach xoff); exact Hr | apply (Mem_reach xoff); exact Hr].
    - intros H. cbn in H. contradiction.
    - intros s a s' es [HI HM] _ HL Hs. exact (Lim_step _ _ _ _ HI HM HL Hs).
  Qed.

  Lemma RU_mono st st' t p : g_rv st' t = g_rv st t -> g_nver st <= g_nver st' -> RU st t p -> RU st' t p.
  Proof. intros E1 E2 H. destruct p; cbn [RU] in *; unfold RB in *; rewrite ?E1; try exact H; intuition lia. Qed.

  Lemma RI_other st a st' es t' : Lk st -> Mem st -> Abs st -> step st a = Some (st', es) ->
    th st' t' = th st t' -> g_obs st' t' = g_obs st t' -> g_rv st' t' = g_rv st t' ->
    RI st t' (th st t') -> RI st' t' (th st' t').
  Proof.
    intros HI HM HA Hs Eth Eo Er [HU HK]. rewrite Eth. pose proof (nver_mono _ _ _ _ Hs) as Hmono.
    split; [apply (RU_mono st); assumption|]. intros HC. unfold Cur in *.
    destruct (step_env _ _ _ _ HI HM HA Hs) as [Hb|[Hv HE]].
    - rewrite Er, Hb in HC. destruct (th st t'); cbn [RK]; try exact I; exfalso; cbn [RU] in HU; unfold RB in HU; intuition lia.
    - apply (RK_env st); try assumption. apply HK. congruence.
  Qed.

  Lemma RI_own st a st' es t : Lk st -> Mem st -> Abs st -> Lim st -> (a = Step t \/ exists o, a = Start t o) ->
    RI st t (th st t) -> step st a = Some (st', es) -> RI st' t (th st' t).
  Proof.
    intros HI HM (HG & HA & _) HL Ha HR H.
    assert (Ht : forall u, (a = Step u \/ exists o, a = Start u o) -> u = t) by (intros u [->|[o ->]]; destruct Ha as [E|[o' E]]; congruence).
    clear Ha. step_inv H; st_simpl.
    all: assert (t0 = t) by (apply Ht; eauto); subst t0; clear Ht.
    all: rewrite ?upd_same.
    all: try (split; [exact I | intros _; exact I]).
    all: rewrite Epc in HR; destruct HR as [HU HK]; cbn [RU RK] in HU, HK.
    all: unfold RI, Cur in *; cbn [RU RK]; unfold RB, esc, J in *; st_simpl; rewrite ?upd_same; b2p.
    all: match goal with HG0 : G ?s0 |- _ => repeat match goal with
         | |- context [ic ?x] => lazymatch x with s0 => fail | _ => change (ic x) with (ic s0) end
         | |- context [mk ?x] => lazymatch x with s0 => fail | _ => change (mk x) with (mk s0) end
         | |- context [pend ?x] => lazymatch x with s0 => fail | _ => change (pend x) with (pend s0) end
         | |- context [slotw ?x] => lazymatch x with s0 => fail | _ => change (slotw x) with (slotw s0) end
         | |- context [chainw ?x] => lazymatch x with s0 => fail | _ => change (chainw x) with (chainw s0) end
         | |- context [succw ?x] => lazymatch x with s0 => fail | _ => change (succw x) with (succw s0) end
         | |- context [POS ?x] => lazymatch x with s0 => fail | _ => change (POS x) with (POS s0) end
         end end.
    all: (split; [try solve [intuition lia]|]).
    all: try (intros HC; specialize (HK HC)).
    - (* G2 -> GK 0 *) rsplit; try lia; first [exact (Lk_ver _ HI) | exact (Lk_ic _ HI)].
    - unfold ic. split; [lia|]. destruct (lookup k (g_map st)) as [v0|] eqn:EL; [|left; left; apply in_snoc; auto].
      right. destruct (lookup_wit _ _ _ HG EL) as [(j & [J1 J2] & J3 & _)|(y & Y1 & Y2 & _)]; [left | right; exists y; auto].
      exists j. unfold ic in J1. rsplit; try assumption; lia.
    - (* G2 -> GH *) rsplit; try lia; first [exact (Lk_ver _ HI) | exact (Lk_ic _ HI)].
    - destruct (lookup k (g_map st)) as [v0|] eqn:EL; [|left; left; apply in_snoc; auto].
      right. destruct (lookup_wit _ _ _ HG EL) as [(j & [J1 J2] & J3 & _)|(y & Y1 & Y2 & _)]; [unfold ic in J1; lia | exists y; auto].
    - (* GK match *) destruct HK as (H1 & H2). rsplit; [exact H1 | | right; exact Ei].
      destruct H2 as [[H|H]|H]; [left; left; apply in_snoc; auto | left; right; exact H | right; exact H].
    - (* GK next slot *) destruct HK as (H1 & H2). split; [exact H1|].
      destruct H2 as [[H|H]|[(j & J1 & J2 & J3 & J4)|H]]; [left; left; apply in_snoc; auto | left; right; exact H | | right; right; exact H].
      right. left. exists j. rsplit; try assumption. assert (j <> i) by (intros ->; contradiction). lia.
    - (* GK -> GH *) destruct HK as (H1 & H2).
      destruct H2 as [[H|H]|[(j & J1 & J2 & J3 & J4)|H]]; [left; left; apply in_snoc; auto | left; right; exact H | | right; exact H].
      exfalso. assert (j = i) by lia. subst j. contradiction.
    - (* GV *) destruct HK as (H1 & H2 & H3). rsplit; [exact H1 | | tauto].
      destruct H2 as [[H|H]|H]; [left; left; apply in_snoc; auto | left; right; exact H | right; exact H].
    - (* GD *) destruct HK as (H1 & H2 & H3). rsplit; [exact H1 | | tauto].
      destruct H2 as [[H|H]|H]; [left; left; apply in_snoc; auto | left; right; exact H | right; exact H].
    - (* GS continue -> GK *) destruct HK as (H1 & H2 & H3). split; [exact H1|].
      destruct H2 as [[H|H]|[(j & J1 & J2 & J3 & J4)|H]]; [left; left; apply in_snoc; auto | left; right; exact H | | right; right; exact H].
      right. left. exists j. rsplit; try assumption. unfold mk in J3. assert (j <> i) by lia. lia.
    - (* GS continue -> GH *) destruct HK as (H1 & H2 & H3).
      destruct H2 as [[H|H]|[(j & J1 & J2 & J3 & J4)|H]]; [left; left; apply in_snoc; auto | left; right; exact H | | right; exact H].
      exfalso. unfold mk in J3. lia.
    - (* GH -> GE *) destruct HK as [[H|H]|(y & Y1 & _)]; [left; apply in_snoc; auto | right; exact H |].
      exfalso. apply lchain_sub in Y1. rewrite (chain_nil _ HM Ei) in Y1. destruct Y1.
    - (* GH -> GXK *) assert (Hb : In (bhead st) (g_chain st)) by (apply hd_in; [exact (M_chd _ HM) | exact Ei]).
      rsplit; [left; exact Hb | |].
      + intros Hk. apply in_snoc. right. rewrite <- Hk. symmetry. apply item_lookup; assumption.
      + destruct HK as [[H|H]|H]; [left; left; apply in_snoc; auto | left; right; exact H | right].
        apply chainw_hd; assumption.
    - (* GXK match *) destruct HK as (H1 & H2 & H3). split; [exact H1|]. apply in_snoc. left. apply H2. exact Ei.
    - (* GXK no match *) destruct HK as (H1 & H2 & H3). split; [exact H1|].
      destruct H3 as [[H|H]|[H|H]]; [left; left; apply in_snoc; auto | left; right; exact H | contradiction | right; exact H].
    - (* GXV *) destruct HK as (H1 & H2). apply in_snoc. left. exact H2.
    - (* GXD *) apply in_snoc. left. exact HK.
    - (* GXN -> GXC *) destruct HK as (H1 & H2). destruct HU as [_ Hxz].
      assert (Hy : xnext st x = 0 \/ In (xnext st x) (g_chain st)).
      { destruct H1 as [H1|[_ H1]].
        - destruct (N.eq_dec (xnext st x) 0) as [E|E]; [left; exact E|right].
          apply linksto_next_in; [apply nil_not_0; exact HM | exact (M_clk _ HM) | exact H1 | exact E].
        - subst x. apply HL. exact Hxz. }
      destruct (N.eq_dec (xnext st x) 0) as [E|E].
      + left. split; [exact E|]. destruct H2 as [[H|H]|H]; [left; apply in_snoc; auto | right; exact H |].
        exfalso. destruct (succw_next _ _ _ HM H) as [Hc _]. rewrite E in Hc. exact (nil_not_0 _ HM Hc).
      + right. destruct Hy as [Hy|Hy]; [contradiction|]. rsplit; [exact E | left; exact Hy | |].
        * intros Hk. apply in_snoc. right. rewrite <- Hk. symmetry. apply item_lookup; assumption.
        * destruct H2 as [[H|H]|H]; [left; left; apply in_snoc; auto | left; right; exact H | right].
          apply succw_next; assumption.
    - (* GXC -> GE *) destruct HK as [[_ H]|(H & _)]; [|contradiction].
      destruct H as [H|H]; [left; apply in_snoc; auto | right; exact H].
    - (* GXC -> GXK *) destruct HK as [[H _]|(_ & H1 & H2 & H3)]; [contradiction|]. rsplit; [exact H1 | |].
      + intros Hk. apply in_snoc. left. apply H2. exact Hk.
      + destruct H3 as [[H|H]|H]; [left; left; apply in_snoc; auto | left; right; exact H | right; exact H].
  Qed.

  Definition Inv0 (st : state) : Prop := Lk st /\ Mem st /\ Abs st /\ Lim st.

  Lemma Inv0_reach st : reach init step st -> Inv0 st.
  Proof.
    intros Hr. split; [apply (Lk_reach xoff); exact Hr|]. split; [apply (Mem_reach xoff); exact Hr|].
    split; [apply (Abs_reach xoff); exact Hr | apply Lim_reach; exact Hr].
  Qed.

  Theorem RI_reach st : reach init step st -> forall t, RI st t (th st t).
  Proof.
    apply (inv_rule_aux _ _ _ init step Inv0 (fun s => forall t, RI s t (th s t))).
    - exact Inv0_reach.
    - intros t. cbn. split; [exact I | intros _; exact I].
    - intros s a s' es (HI & HM & HA & HL) _ HR Hs t'.
      destruct (step_other _ _ _ _ Hs) as (t & Ho & Ha).
      destruct (Nat.eq_dec t' t) as [->|Hne].
      + exact (RI_own _ _ _ _ t HI HM HA HL Ha (HR t) Hs).
      + destruct (Ho t' Hne) as (E1 & E2 & E3). exact (RI_other _ _ _ _ t' HI HM HA Hs E1 E2 E3 (HR t')).
  Qed.

  Lemma cur_of_version st t s : Lk st -> Bnd st -> RB st t s -> bs_version s = bs_version (bst st) -> Cur st t.
  Proof.
    intros HI HB (H1 & H2 & _) E. unfold Cur, Bnd in *. rewrite H2, (Lk_ver _ HI) in E.
    rewrite !N.mod_small in E by lia. exact E.
  Qed.

  Lemma hist_r_step st a st' es : Inv0 st -> (forall t, RI st t (th st t)) ->
    (Bnd st -> forall h, In h (g_hist st) -> hist_ok_r h) ->
    step st a = Some (st', es) -> Bnd st' -> forall h, In h (g_hist st') -> hist_ok_r h.
  Proof.
    intros (HI & HM & (HG & HA & _) & HL) HR HH H HB'.
    assert (HB : Bnd st) by (pose proof (nver_mono _ _ _ _ H); unfold Bnd in *; lia). specialize (HH HB). clear HB'.
    step_inv H; st_simpl.
    all: try exact HH.
    all: intros h Hh; apply in_app_or in Hh; destruct Hh as [Hh|[<-|[]]]; [apply HH; exact Hh|].
    all: unfold hist_ok_r, ins_op, del_op; cbn [h_op h_res h_obs]; try (destruct a; exact I); try (destruct e; exact I).
    all: rewrite ?upd_same.
    all: try exact I.
    all: try solve [pose proof (HA t) as Hab; rewrite Epc in Hab; cbn [pc_abs] in Hab; destruct Hab as [Hop _];
                    destruct o; cbn [itop] in Hop; try contradiction; exact I].
    all: pose proof (HR t) as [HU HK]; rewrite Epc in HU, HK; cbn [RU RK] in HU, HK; b2p.
    - (* GS returns v *) destruct HU as [HU Hi]. pose proof (cur_of_version _ _ _ HI HB HU Ec) as HC.
      destruct (HK HC) as (H1 & _ & [H3|[H3 H4]]); [unfold mk in H3; contradiction|].
      left. exists v. split; [reflexivity|]. apply in_snoc. right. symmetry. apply (G_map _ HG). left. exists i.
      unfold vslot, mk. split; [split; [lia | intros E; apply Ec0; symmetry; exact E] | auto].
    - (* GXS returns v *) pose proof (cur_of_version _ _ _ HI HB HU Ec) as HC.
      left. exists v. split; [reflexivity|]. apply in_snoc. left. exact (HK HC).
    - (* GE returns absent *) pose proof (cur_of_version _ _ _ HI HB HU Ec) as HC.
      right. split; [reflexivity|]. apply in_snoc. destruct (HK HC) as [H|[H _]]; [left; exact H | right; symmetry; exact H].
  Qed.

  Theorem hist_r_reach st : reach init step st -> Bnd st -> forall h, In h (g_hist st) -> hist_ok_r h.
  Proof.
    apply (inv_rule_aux _ _ _ init step (fun s => Inv0 s /\ forall t, RI s t (th s t))
             (fun s => Bnd s -> forall h, In h (g_hist s) -> hist_ok_r h)).
    - intros s Hr. split; [apply Inv0_reach; exact Hr | apply RI_reach; exact Hr].
    - intros _ h [].
    - intros s a s' es [H0 HR] _ HH Hs. exact (hist_r_step _ _ _ _ H0 HR HH Hs).
  Qed.

  (** * Final statements *)

  (** ** structure *)
  Definition slots (n : N) : list N := map N.of_nat (seq 0 (N.to_nat n)).
  Lemma in_slots n j : In j (slots n) <-> j < n.
  Proof.
    unfold slots. rewrite in_map_iff. split.
    - intros (i & <- & Hi). apply in_seq in Hi. lia.
    - intros H. exists (N.to_nat j). split; [apply Nnat.N2Nat.id | apply in_seq; lia].
  Qed.
  (** the pairs the bucket holds: array slots below item_count, then the extension chain *)
  Definition pairs (st : state) : list (N * N) :=
    map (fun j => (akey st j, aval st j)) (slots (ic st)) ++ map (fun x => (xkey st x, xval st x)) (g_chain st).

  (** When nobody holds the bucket lock: lock bit and delete marker are clear, [g_map] associates exactly the
      pairs of the slots [0, item_count) and of the chain, and no key occurs at two places. *)
  Theorem vhm_structure st : reach init step st -> g_owner st = None ->
    bs_is_locked (bst st) = false /\ bs_delete_marker (bst st) = 0 /\
    (forall k v, lookup k (g_map st) = Some v <-> In (k, v) (pairs st)) /\
    (forall j j', j < ic st -> j' < ic st -> akey st j = akey st j' -> j = j') /\
    (forall x x', In x (g_chain st) -> In x' (g_chain st) -> xkey st x = xkey st x' -> x = x') /\
    (forall j x, j < ic st -> In x (g_chain st) -> akey st j <> xkey st x) /\
    (g_chain st <> [] -> ic st = 3).
  Proof.
    intros Hr Ho. destruct (Inv0_reach _ Hr) as (HI & HM & (HG & _) & _).
    pose proof (Lk_bit _ HI) as Hb. rewrite Ho in Hb. pose proof (Lk_mk _ HI Ho) as Hmk.
    destruct (M_fl0 _ HM Ho) as [Hd _]. pose proof (lchain_nodup _ Hd) as Hl.
    assert (Hv : forall j, vslot st j <-> j < ic st) by (intros j; unfold vslot, mk; rewrite Hmk; lia).
    rsplit; try assumption.
    - intros k v. rewrite (G_map _ HG). unfold pairs, slot_has, item_has. rewrite in_app_iff, !in_map_iff, Hl. split.
      + intros [(j & H1 & H2 & H3)|(x & H1 & H2 & H3)].
        * left. exists j. split; [congruence|]. apply in_slots. apply (proj1 (Hv j)). exact H1.
        * right. exists x. split; [congruence | exact H1].
      + intros [(j & H1 & H2)|(x & H1 & H2)].
        * left. exists j. injection H1 as <- <-. apply in_slots in H2. apply (proj2 (Hv j)) in H2. auto.
        * right. exists x. injection H1 as <- <-. auto.
    - intros j j' H1 H2. apply (G_us _ HG); apply Hv; assumption.
    - rewrite <- Hl. apply (G_ux _ HG).
    - rewrite <- Hl. intros j x H1. apply (G_usx _ HG). apply Hv. exact H1.
    - apply (G_full _ HG).
  Qed.

  (** the chain of the bucket and the free list are the duplicate-free lists [g_chain] / [g_free] linked through
      the next fields from bucket.head / the extension bucket's head, they are disjoint, and an item that a
      thread has popped or unlinked (and not yet linked / pushed) is in neither of them *)
  Theorem vhm_lists st : reach init step st ->
    bhead st = hd 0 (g_chain st) /\ linksto (xnext st) (g_chain st) 0 /\ NoDup (g_chain st) /\
    xhead st = hd 0 (g_free st) /\ linksto (xnext st) (g_free st) 0 /\ NoDup (g_free st) /\
    (forall x, In x (g_chain st) -> In x (g_free st) -> False) /\
    (forall x, In x (g_chain st) \/ In x (g_free st) -> 1 <= x <= 10) /\
    (forall t x, pc_own (th st t) = Some x -> ~ In x (g_chain st) /\ ~ In x (g_free st)).
  Proof.
    intros Hr. destruct (Inv0_reach _ Hr) as (_ & HM & _).
    rsplit; try apply HM.
    all: try (intros x [H|H]; [apply (M_cok _ HM) | apply (M_fok _ HM)]; exact H).
    all: try (intros t x H; apply (M_own _ HM) in H; tauto).
  Qed.

  (** the lock: the lock bit is set iff a thread is between its acquire-CAS and its unlocking store, there is at
      most one such thread, and the version field counts the version increments *)
  Theorem vhm_lock st : reach init step st ->
    (bs_is_locked (bst st) = true <-> exists t, pc_bst (th st t) <> None) /\
    (forall t t', pc_bst (th st t) <> None -> pc_bst (th st t') <> None -> t = t') /\
    bs_version (bst st) = g_nver st mod 2 ^ 27.
  Proof.
    intros Hr. pose proof (Lk_reach xoff _ Hr) as HI. rsplit.
    - rewrite (Lk_bit _ HI). split.
      + destruct (g_owner st) as [t|] eqn:Eo; [|discriminate]. intros _. exists t. rewrite (Lk_pc _ HI t Eo). discriminate.
      + intros [t Ht]. rewrite (Lk_own _ HI t Ht). reflexivity.
    - intros t t'. apply (vhmit_mutex xoff); exact Hr.
    - exact (Lk_ver _ HI).
  Qed.

  (** ** the version rule: what may change without a version increment
      Every step either increments the version (and [g_nver]) or satisfies [Env]:
      the item count does not decrease; a valid slot (below the item count, not marked) keeps key and value unless
      this step marks it, and marking it removes its key from [g_map]; the marker stays;
      an item of the chain (or the item that was just unlinked) keeps key and value and stays chain-or-unlinked
      (it is not pushed to the free list or reused); an item leaves the chain only together with its key leaving
      [g_map]; what a reader could reach from its position through next links stays reachable. *)
  Theorem vhm_version_rule st a st' es : reach init step st -> step st a = Some (st', es) ->
    g_nver st' = g_nver st + 1 \/ (g_nver st' = g_nver st /\ Env st st').
  Proof. intros Hr Hs. destruct (Inv0_reach _ Hr) as (HI & HM & HA & _). exact (step_env _ _ _ _ HI HM HA Hs). Qed.

  (** ** writers *)
  (** [g_map] changes only at a step of a writer that records in [g_lp] what [g_map] associated with its key just
      before, and the step either prepends a pair for that key or removes the key (the linearization points) *)
  Theorem vhm_lp_step st a st' es : step st a = Some (st', es) ->
    g_map st' = g_map st \/
    exists t k, a = Step t /\ g_lp st' t = Some (lookup k (g_map st)) /\
      ((exists v, g_map st' = (k, v) :: g_map st) \/ g_map st' = rem k (g_map st)).
  Proof.
    intros H. step_inv H; st_simpl; try (left; reflexivity); right; match goal with |- context [VhmDefs.lookup ?k0 (g_map _)] => exists t, k0 end; rewrite ?upd_same; (split; [reflexivity|]); (split; [reflexivity|]); eauto.
  Qed.

  (** emplace / get_or_emplace return 'new' iff the key was absent at the linearization point (else the value
      found, for get_or_emplace), erase / extract return 'ok' iff it was present, extract returns its value *)
  Theorem vhm_writers st : reach init step st -> forall h, In h (g_hist st) -> hist_ok_w h.
  Proof. intros Hr. destruct (Inv0_reach _ Hr) as (_ & _ & (_ & _ & HH) & _). exact HH. Qed.

  (** ** readers *)
  (** [g_obs t] is: what [g_map] associated with the key at every step of t's current try_get_value call *)
  Definition get_key (p : pc) : option N :=
    match p with
    | G1 k | G2 k | GK k _ _ | GV k _ _ | GD k _ _ _ | GS k _ _ _ | GH k _ | GXK k _ _ | GXV k _ _ | GXD k _ _ _
    | GXS k _ _ _ | GXN k _ _ | GXC k _ _ | GE k _ => Some k
    | _ => None
    end.
  Lemma start_pc st t o st' es : step st (Start t o) = Some (st', es) ->
    get_key (th st t) = None /\ get_key (th st' t) = None /\ g_obs st' t = g_obs st t.
  Proof.
    cbn [step]. destruct (th st t); try discriminate; [|destruct o; try discriminate];
      intros H; injection H as <- _; st_simpl_goal; rewrite upd_same; auto.
  Qed.

  (** a step of thread [t], seen from its try_get_value call: the call starts with no observations, every step inside
      it records what [g_map] associates with the key, and a return puts the observations into the history *)
  Lemma reader_step st t st' es : step st (Step t) = Some (st', es) ->
    match get_key (th st t) with
    | Some k => g_obs st' t = g_obs st t ++ [lookup k (g_map st)] /\
                (get_key (th st' t) = Some k \/ get_key (th st' t) = None) /\
                forall r, In (ERet t r) es -> exists w, In (mkH t (OGet k) r w (g_obs st t ++ [lookup k (g_map st)])) (g_hist st')
    | None => (g_obs st' t = g_obs st t /\ get_key (th st' t) = None) \/
              (g_obs st' t = [] /\ exists k, th st t = Begin (OGet k) /\ get_key (th st' t) = Some k)
    end.
  Proof.
    intros H. remember (Step t) as a eqn:Ea. step_inv H; try discriminate Ea; injection Ea as ->.
    all: rewrite Epc; st_simpl; rewrite ?upd_same; cbn [get_key].
    all: try (left; split; reflexivity).
    all: try (right; split; [reflexivity | eexists; split; reflexivity]).
    all: (split; [reflexivity | split; [first [left; reflexivity | right; reflexivity] |]]).
    all: cbn [In app]; intros r Hr; repeat (destruct Hr as [Hr|Hr]; try discriminate Hr); try contradiction.
    all: injection Hr as <-; eexists; apply in_snoc; right; reflexivity.
  Qed.

  (** C10, readers: a completed try_get_value(k) that returned v observed [g_map k = v] at one of its steps, one
      that returned 'absent' observed k absent at one of its steps (as long as the 27-bit version counter has
      not wrapped around: fewer than 2^27 removals) *)
  Theorem vhm_readers st : reach init step st -> Bnd st ->
    forall h k, In h (g_hist st) -> h_op h = OGet k ->
    (exists v, h_res h = [4; 1; v] /\ In (Some v) (h_obs h)) \/ (h_res h = [4; 0] /\ In None (h_obs h)).
  Proof.
    intros Hr HB h k Hh Ho. pose proof (hist_r_reach _ Hr HB h Hh) as H. unfold hist_ok_r in H. rewrite Ho in H. exact H.
  Qed.

  (** ** the reader statement over executions (independent of the ghost [g_obs]) *)
  (** [exec s h]: [s] is reachable and [h] lists the states visited before, most recent first *)
  Inductive exec : state -> list state -> Prop :=
  | exec_init : exec init []
  | exec_step : forall s h a s' es, exec s h -> step s a = Some (s', es) -> exec s' (s :: h).

  Lemma exec_reach s h : exec s h -> reach init step s.
  Proof. induction 1 as [|s h a s' es _ IH Hs]; [apply reach_init | eapply reach_step; eauto]. Qed.

  (** every recorded observation is the association of the key in a state of the execution at which (and since
      which) the thread has been inside this call *)
  Definition obs_ok (s : state) (h : list state) : Prop :=
    forall t k, get_key (th s t) = Some k -> forall o, In o (g_obs s t) ->
    exists m, (m < length h)%nat /\ lookup k (g_map (nth m h s)) = o /\
              forall m', (m' <= m)%nat -> get_key (th (nth m' h s) t) = Some k.

  Lemma obs_ok_exec s h : exec s h -> obs_ok s h.
  Proof.
    induction 1 as [|s h a s' es He IH Hs].
    - intros t k Hk. cbn in Hk. discriminate.
    - intros t k Hk o Ho.
      assert (Hshift : forall o0, get_key (th s t) = Some k -> In o0 (g_obs s t) ->
                exists m, (m < length (s :: h))%nat /\ lookup k (g_map (nth m (s :: h) s')) = o0 /\
                          forall m', (m' <= m)%nat -> get_key (th (nth m' (s :: h) s') t) = Some k).
      { intros o0 Hk0 Ho0. destruct (IH t k Hk0 o0 Ho0) as (m & M1 & M2 & M3). exists (S m). cbn [length nth].
        split; [lia|]. split; [rewrite (nth_indep h s' s) by exact M1; exact M2|].
        intros [|m'] Hm'; [exact Hk0|]. rewrite (nth_indep h s' s) by lia. apply M3. lia. }
      destruct (step_other _ _ _ _ Hs) as (u & Hu & Ha).
      destruct (Nat.eq_dec t u) as [->|Hne].
      + destruct Ha as [->|[o' ->]].
        * pose proof (reader_step _ _ _ _ Hs) as Hrs. destruct (get_key (th s u)) as [k0|] eqn:Ek0.
          -- destruct Hrs as (Eo & [Hk'|Hk'] & _); [|congruence]. assert (k0 = k) by congruence. subst k0.
             rewrite Eo in Ho. apply in_snoc in Ho. destruct Ho as [Ho| ->]; [apply Hshift; [reflexivity | exact Ho]|].
             exists 0%nat. cbn [length nth]. split; [lia|]. split; [reflexivity|]. intros m' Hm'. assert (m' = 0)%nat by lia. subst m'. exact Ek0.
          -- destruct Hrs as [[_ Hn]|[Eo _]]; [congruence | rewrite Eo in Ho; destruct Ho].
        * (* a Start action of this thread: it is not inside a call afterwards *)
          destruct (start_pc _ _ _ _ _ Hs) as (_ & Hn & _). congruence.
      + destruct (Hu t Hne) as (E1 & E2 & _). rewrite E1 in Hk. rewrite E2 in Ho. apply Hshift; assumption.
  Qed.

  (** C10, the main theorem: in every execution, a try_get_value(k) call of thread t that returns r at the step
      s -> s' has a state [sm] of the execution, at which and since which t has been inside this call, where
      [g_map] associated k with the returned value (r = [4;1;v]), resp. where k was absent (r = [4;0]) *)
  Theorem vhm_try_get_value_linearizable s h a t k s' es r :
    exec s h -> step s a = Some (s', es) -> a = Step t -> get_key (th s t) = Some k -> In (ERet t r) es -> Bnd s' ->
    exists m, (m <= length h)%nat /\
      (forall m', (m' <= m)%nat -> get_key (th (nth m' (s :: h) s) t) = Some k) /\
      ((exists v, r = [4; 1; v] /\ lookup k (g_map (nth m (s :: h) s)) = Some v) \/
       (r = [4; 0] /\ lookup k (g_map (nth m (s :: h) s)) = None)).
  Proof.
    intros He Hs Ea Hk Hr HB.
    subst a. pose proof (reader_step _ _ _ _ Hs) as Hrs. rewrite Hk in Hrs. destruct Hrs as (_ & _ & Hret). destruct (Hret r Hr) as [w Hh].
    assert (Hreach : reach init step s') by (eapply reach_step; [apply (exec_reach _ _ He) | exact Hs]).
    pose proof (vhm_readers _ Hreach HB _ k Hh eq_refl) as Hres. cbn [h_res h_obs] in Hres.
    assert (Hwit : forall o, In o (g_obs s t ++ [lookup k (g_map s)]) ->
              exists m, (m <= length h)%nat /\ (forall m', (m' <= m)%nat -> get_key (th (nth m' (s :: h) s) t) = Some k) /\
                        lookup k (g_map (nth m (s :: h) s)) = o).
    { intros o Ho. apply in_snoc in Ho. destruct Ho as [Ho| ->].
      - destruct (obs_ok_exec _ _ He t k Hk o Ho) as (m & M1 & M2 & M3). exists (S m). cbn [nth]. split; [lia|]. split; [|exact M2].
        intros [|m'] Hm'; [exact Hk | apply M3; lia].
      - exists 0%nat. cbn [nth]. split; [lia|]. split; [|reflexivity]. intros m' Hm'. assert (m' = 0)%nat by lia. subst m'. exact Hk. }
    destruct Hres as [(v & E & Hin)|[E Hin]]; destruct (Hwit _ Hin) as (m & M1 & M2 & M3); exists m; (split; [exact M1|]); (split; [exact M2|]).
    - left. exists v. auto.
    - right. auto.
  Qed.

  (** * C11: iterators *)

  (** exclusivity: while a thread's iterator is positioned (also between operations: [ItIdle]) the bucket is locked
      with the iterator's state word and no other thread is between a lock acquisition and its unlocking store -
      in particular no other iterator is positioned and no writer is inside the bucket *)
  Theorem vhmit_iterator_exclusive st t s idx x p : reach init step st -> th st t = ItIdle (It s idx x p) ->
    bst st = bs_locked s /\ bs_is_locked (bst st) = true /\ g_owner st = Some t /\
    forall t', t' <> t -> pc_bst (th st t') = None.
  Proof.
    intros Hr Ht. pose proof (Lk_reach xoff _ Hr) as HI.
    assert (Ho : g_owner st = Some t) by (apply (Lk_own _ HI); rewrite Ht; discriminate).
    pose proof (Lk_pc _ HI t Ho) as Hb. rewrite Ht in Hb. cbn [pc_bst] in Hb. injection Hb as Hb.
    rsplit; [congruence | rewrite (Lk_bit _ HI), Ho; reflexivity | exact Ho |].
    intros t' Hne. destruct (pc_bst (th st t')) eqn:E; [|reflexivity]. exfalso. apply Hne.
    assert (Ho' : g_owner st = Some t') by (apply (Lk_own _ HI); rewrite E; discriminate). congruence.
  Qed.

  (** a positioned iterator stands on an element of the bucket: an array slot below the item count or an item of
      the extension chain (with its predecessor link), and the bucket word it will write back is well formed *)
  Theorem vhmit_iterator_position st t s idx x p : reach init step st -> th st t = ItIdle (It s idx x p) ->
    (x = 0 -> idx < bs_item_count s) /\ (x <> 0 -> In x (g_chain st) /\ link_ok st p x) /\
    bs_item_count s = ic st /\ bs_is_locked s = false /\ bs_delete_marker s = 0.
  Proof.
    intros Hr Ht. destruct (Inv0_reach _ Hr) as (HI & HM & _).
    pose proof (Lk_wf _ HI t) as Hw. rewrite Ht in Hw. cbn [pc_wf it_wf it_elem] in Hw. destruct Hw as [(Hs & _) He].
    pose proof (M_ch _ HM t) as Hc. rewrite Ht in Hc. cbn [pc_ch] in Hc.
    destruct (vhmit_iterator_exclusive _ _ _ _ _ _ Hr Ht) as (Hb & _).
    rsplit; [exact He | exact Hc | unfold ic; rewrite Hb; symmetry; apply ic_locked | apply Hs | apply Hs].
  Qed.

  (** erase(iterator) removes exactly the current pair: at its linearization point the pair (w, v) that the
      operation read at the iterator's position is in [g_map], and [g_map] loses exactly the key w *)
  Theorem vhmit_erase_removes_current st t st' es : reach init step st -> step st (Step t) = Some (st', es) ->
    match th st t with
    | EX2 (It s idx x p) w v nx =>
      xkey st x = w /\ xval st x = v /\ lookup w (g_map st) = Some v /\ g_map st' = rem w (g_map st)
    | EA1 (It s idx x p) w v _ | EB1 (It s idx x p) w v =>
      akey st idx = w /\ aval st idx = v /\ lookup w (g_map st) = Some v /\ g_map st' = rem w (g_map st)
    | EB6 (It s idx x p) w v =>
      idx = bs_item_count s - 1 ->
      akey st idx = w /\ aval st idx = v /\ lookup w (g_map st) = Some v /\ g_map st' = rem w (g_map st)
    | _ => True
    end.
  Proof.
    intros Hr Hs. destruct (Inv0_reach _ Hr) as (HI & HM & (HG & HA & _) & _).
    destruct (th st t) eqn:Epc; try exact I; destruct i as [s idx x p].
    all: prep2 HI HM HA t Epc; cbn [step] in Hs; rewrite Epc in Hs.
    all: assert (Hwfs : wf_s s) by tauto; destruct (wf_fields s Hwfs) as (FL1 & FL2 & _).
    (* four goals, in the order of the statement: EX2, EA1, EB1, EB6; only EB6 has a guard *)
    4: intros Ei; revert Hs Hab; destruct (N.eqb_spec idx (bs_item_count s - 1)) as [_|Hn]; [intros Hs Hab|contradiction].
    all: injection Hs as <- _; destruct Hab as [H1 H2]; rsplit; try assumption; try (st_simpl_goal; reflexivity).
    (* the pair read at the iterator's position is the one [g_map] holds for its key *)
    all: rewrite <- H2.
    2-4: apply own_slot; [exact HG | icmk | unfold ic; rewrite <- Hbst, FL1; tauto | exact H1].
    apply own_item; tauto.
  Qed.

  (** results of erase(iterator): unless the iterator was at the end, the erased key was present (with the value
      the operation read) at the linearization point *)
  Theorem vhmit_erase_results st : reach init step st -> forall h, In h (g_hist st) -> h_op h = OIte ->
    h_res h = [6; 2] \/ exists v, h_wit h = Some (Some v).
  Proof.
    intros Hr h Hh Ho. destruct (Inv0_reach _ Hr) as (_ & _ & (_ & _ & HH) & _).
    specialize (HH h Hh). unfold hist_ok_w in HH. rewrite Ho in HH. exact HH.
  Qed.

  (** after reset (and after find() returned end(), after ++ / erase moved past the last bucket): when every thread
      is idle with its iterator at end(), every bucket lock is released *)
  Theorem vhmit_locks_released st : reach init step st -> (forall t, th st t = Idle) ->
    bs_is_locked (bst st) = false /\ g_owner st = None /\ forall b, obst st b = 0.
  Proof.
    intros Hr Hi. pose proof (Lk_reach xoff _ Hr) as HI.
    assert (Ho : g_owner st = None).
    { destruct (g_owner st) as [t|] eqn:E; [|reflexivity]. pose proof (Lk_pc _ HI t E) as Hb. rewrite Hi in Hb. discriminate. }
    rsplit; [rewrite (Lk_bit _ HI), Ho; reflexivity | exact Ho |].
    intros b. rewrite (Lk_obit _ HI b). destruct (g_ob st b) as [t|] eqn:E; [|reflexivity].
    pose proof (Lk_opc _ HI t b E) as Hb. rewrite Hi in Hb. destruct Hb.
  Qed.

  (** reset releases the lock: the step of [R1] stores the iterator's state word (unlocked) and ends the operation *)
  Theorem vhmit_reset_unlocks st t i st' es : reach init step st -> th st t = R1 i -> step st (Step t) = Some (st', es) ->
    bs_is_locked (bst st') = false /\ g_owner st' = None /\ th st' t = Idle.
  Proof.
    intros Hr Ht Hs. pose proof (Lk_reach xoff _ Hr) as HI.
    pose proof (Lk_wf _ HI t) as Hw. rewrite Ht in Hw. destruct i as [s idx x p]. cbn [pc_wf it_wf] in Hw. destruct Hw as [((_ & Hl & _) & _) _].
    cbn [step] in Hs. rewrite Ht in Hs. injection Hs as <- _. st_simpl_goal. rewrite upd_same. auto.
  Qed.
End VhmItInv.

(** * Examples (run + vm_compute) on reachable states of the model with iterators *)
Module VhmItExamples.
  Definition steps (t : nat) (n : nat) : list action := repeat (Step t) n.
  Definition ins0 (k : N) : list action := Start 0%nat (OIns k (10 * k)) :: steps 0 30.
  (** thread 0 inserts 1..5: array 1 2 3, chain 5 (item 9) -> 4 (item 10) *)
  Definition setup : list action := ins0 1 ++ ins0 2 ++ ins0 3 ++ ins0 4 ++ ins0 5.
  Definition stof (acts : list action) : state := fst (fst (run (step 8256) init acts)).

  (** thread 1 calls try_get_value(5) and is stopped when it stands on item 9 (key 5);
      thread 2 positions its iterator on key 5 (it = find(5)): the bucket stays locked after the operation *)
  Definition a1 := setup ++ [Start 1%nat (OGet 5)] ++ steps 1 7.
  Definition a2 := a1 ++ [Start 2%nat (OItf 5)] ++ steps 2 30.
  Example ex_iterator_positioned :
    (th (stof a2) 1%nat, th (stof a2) 2%nat, bst (stof a2), g_owner (stof a2)) =
    (GXK 5 6 9, ItIdle (It 6 3 9 0), 7, Some 2%nat).
  Proof. vm_compute. reflexivity. Qed.

  (** erase(it): item 9 is unlinked and freed, the version is incremented while the lock stays held (39 = locked,
      3 items, version 1), the iterator moves to the next element (key 4 in item 10); result "5>4=40" *)
  Definition a3 := a2 ++ [Start 2%nat OIte] ++ steps 2 40.
  Example ex_iterator_erase :
    (th (stof a3) 1%nat, th (stof a3) 2%nat, bst (stof a3), g_owner (stof a3), g_chain (stof a3), g_free (stof a3), g_map (stof a3),
     map (fun h => (h_op h, h_res h, h_wit h)) (filter (fun h => Nat.eqb (h_t h) 2) (g_hist (stof a3)))) =
    (GXK 5 6 9, ItIdle (It 38 3 10 0), 39, Some 2%nat, [10], [9; 8; 7; 6; 5; 4; 3; 2; 1], [(4, 40); (3, 30); (2, 20); (1, 10)],
     [(OItf 5, [5; 1; 5; 50], None); (OIte, [6; 1; 5; 4; 40], Some (Some 50))]).
  Proof. vm_compute. reflexivity. Qed.

  (** the reader continues on the freed item while the iterator still holds the lock: its version validation fails,
      it starts over and answers 'absent' *)
  Definition a4 := a3 ++ steps 1 40.
  Example ex_reader_not_misled :
    (th (stof a4) 1%nat, th (stof a4) 2%nat, bst (stof a4),
     map (fun h => (h_op h, h_res h)) (filter (fun h => Nat.eqb (h_t h) 1) (g_hist (stof a4)))) =
    (Idle, ItIdle (It 38 3 10 0), 39, [(OGet 5, [4; 0])]).
  Proof. vm_compute. reflexivity. Qed.

  (** reset releases the lock and writes back the incremented version *)
  Definition a5 := a4 ++ [Start 2%nat OItr] ++ steps 2 5.
  Example ex_reset_unlocks : (th (stof a5) 2%nat, bst (stof a5), g_owner (stof a5)) = (Idle, 38, None).
  Proof. vm_compute. reflexivity. Qed.

  (** a writer that arrives while the iterator is positioned spins (re-reads data_block and the state) until the reset *)
  Definition c3 := a2 ++ [Start 3%nat (OIns 6 60)] ++ steps 3 50.
  Example ex_writer_waits : th (stof c3) 3%nat = L2 false 6 60.
  Proof. vm_compute. reflexivity. Qed.
  Definition c4 := c3 ++ [Start 2%nat OItr] ++ steps 2 5 ++ steps 3 50.
  Example ex_writer_proceeds :
    (th (stof c4) 2%nat, th (stof c4) 3%nat, bst (stof c4), g_owner (stof c4), g_map (stof c4)) =
    (Idle, Idle, 6, None, [(6, 60); (5, 50); (4, 40); (3, 30); (2, 20); (1, 10)]).
  Proof. vm_compute. reflexivity. Qed.
End VhmItExamples.
