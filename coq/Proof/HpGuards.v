(** Layer G: the hazard pointer slots of a thread (guards, free list, what the slots contain).
    Its step proof analyses [step] leaf by leaf ([leaves], below) and not through [step_inv] of Proof/HpBase.v as the other
    layers do: the script matches on the successor as built by [step] and needs [st'] as a variable.  New layers: use
    [step_cases]. *)
From Coq Require Import NArith List Bool Arith Lia PeanoNat.
From XV Require Import Conc.Lts Conc.Ev Model.HpDefs Proof.HpBase.
Import ListNotations.

Fixpoint chain (f : nat -> slotv) (l : list nat) : Prop :=
  match l with [] => True | i :: l' => f i = VLink (hd_opt l') /\ chain f l' end.

Lemma chain_ext f f' l : (forall i, In i l -> f' i = f i) -> chain f l -> chain f' l.
Proof.
  induction l as [|i l IH]; intros He H; [exact I|]. destruct H as [H1 H2]. split.
  - rewrite He; [exact H1|left; reflexivity].
  - apply IH; [|exact H2]. intros j Hj. apply He. right. exact Hj.
Qed.

Definition is_tmp (k : ctx) : bool := match k with KHold _ _ => false | _ => true end.
Definition uses_tmp (p : pc) : bool :=
  match p with
  | Q1 k | W0 k _ | W1 k _ _ _ | W2 k _ _ _ | A1 k _ _ | A2 k _ _ | A3 k _ _ _ | I0 k _ | I1 k _ _ | H1 k _
  | Q2 k _ | Q3 k _ | Q4 k _ | QR k => is_tmp k
  | R1 _ _ | R2 _ | RR _ => true
  | _ => false
  end.

Section G.
Variable nslots : nat.

Definition ctx_ok (k : ctx) : Prop := match k with KHold _ g => g < nslots | _ => True end.
Definition sk_exit (k : sctx) : Prop := match k with SExit => True | SRepl => False end.

Definition init_link (j : nat) : slotv := VLink (if j <? 2 then Some (S j) else None).

(** what the program point of thread t says about its guards and slots *)
Definition pcG (st : state) (x : tls) (p : pc) : Prop :=
  let none := forall g, hp (gd x g) = None in
  match p with
  | Begin (OHold _ g) | Begin (ODeref g) | Begin (ODrop g) | D1 g => g < nslots
  | Q1 k | Q2 k _ | QR k => ctx_ok k
  | W0 k _ | W1 k _ _ _ | W2 k _ _ _ | A1 k _ _ | A2 k _ _ | A3 k _ _ _ => ctx_ok k /\ none
  | I0 k _ => ctx_ok k /\ none /\ fl x = []
  | I1 k _ i => ctx_ok k /\ none /\ fl x = [] /\ i < 3 /\ forall b j, rcd x = Some b -> j < i -> hz st b j = init_link j
  | H1 k _ => ctx_ok k /\ hp (gd x (guard_of nslots k)) = None
  | Q3 k p | Q4 k p =>
    ctx_ok k /\ hp (gd x (guard_of nslots k)) <> None /\
    forall b i, rcd x = Some b -> hp (gd x (guard_of nslots k)) = Some i -> hz st b i = VObj (Some p)
  | X0 g => forall j, j < g -> hp (gd x j) = None
  | S0 k => sk_exit k -> none
  | S1 s | S2 s | S3 s | S4 s | S5 s _ _ | S6 s _ _ _ | S7 s => sk_exit (s_k s) -> none
  | X2 | X3 _ | X4 | X5 | Done => none
  | _ => True
  end.

(** [nslots] is the number of persistent guards of the client (guard [nslots] is the temporary one of repl/clear/read), not
    the number of hazard pointer slots of a control block: that is K = 3, the literal 3 below *)
Record GT (st : state) (t : nat) : Prop := mkGT {
  g_lt : forall g i, hp (gd (tl st t) g) = Some i -> i < 3 /\ rcd (tl st t) <> None;
  g_inj : forall g g' i, hp (gd (tl st t) g) = Some i -> hp (gd (tl st t) g') = Some i -> g = g';
  g_hint : hint (tl st t) = hd_opt (fl (tl st t));
  g_fl : NoDup (fl (tl st t)) /\ forall i, In i (fl (tl st t)) -> i < 3 /\ forall g, hp (gd (tl st t) g) <> Some i;
  g_chain : forall b, rcd (tl st t) = Some b -> chain (hz st b) (fl (tl st t));
  g_nofl : rcd (tl st t) = None -> fl (tl st t) = [];
  g_ptr : forall g n, ptr (gd (tl st t) g) = Some n -> hp (gd (tl st t) g) <> None;
  g_val : forall b g i n, rcd (tl st t) = Some b -> hp (gd (tl st t) g) = Some i -> ptr (gd (tl st t) g) = Some n ->
          gv (gd (tl st t) g) = true -> hz st b i = VObj (Some n);
  g_hi : forall g, nslots < g -> hp (gd (tl st t) g) = None;
  g_tmp : uses_tmp (th st t) = false -> hp (gd (tl st t) nslots) = None;
  g_pc : pcG st (tl st t) (th st t) }.

Definition InvG (st : state) : Prop := forall t, GT st t.

(** a thread without a control block has no hazard pointer *)
Lemma no_rcd_no_hp st t : GT st t -> rcd (tl st t) = None -> forall g, hp (gd (tl st t) g) = None.
Proof.
  intros HG Hr g. destruct (hp (gd (tl st t) g)) eqn:E; [|reflexivity].
  destruct (g_lt st t HG g n E) as [_ H]. contradiction.
Qed.

(** ** frame: nothing the invariant of thread t looks at changes *)
Lemma GT_frame st st' t :
  tl st' t = tl st t -> th st' t = th st t ->
  (forall b i, rcd (tl st t) = Some b -> hz st' b i = hz st b i) ->
  GT st t -> GT st' t.
Proof.
  intros Htl Hth Hhz [I1 I2 I3 I4 I5 I6 I7 I8 I9 I10 I11].
  constructor; rewrite ?Htl, ?Hth; try assumption.
  - intros b Hb. apply (chain_ext (hz st b)); [intros i _; apply Hhz; exact Hb|apply I5; exact Hb].
  - intros b g i n Hb. rewrite Hhz by exact Hb. apply I8. exact Hb.
  - destruct (th st t) as [| |[]| | | | | | | | | | | | | | | | | | | | | | | | | | | | | | | | ]; cbn [pcG] in *; try assumption.
    + destruct I11 as (H1 & H2 & H3 & H4 & H5). repeat split; try assumption. intros b j Hb Hj. rewrite Hhz by exact Hb. apply H5; assumption.
    + destruct I11 as (H1 & H2 & H3). repeat split; try assumption. intros b j Hb Hj. rewrite Hhz by exact Hb. apply H3; assumption.
    + destruct I11 as (H1 & H2 & H3). repeat split; try assumption. intros b j Hb Hj. rewrite Hhz by exact Hb. apply H3; assumption.
Qed.

(** ** the thread moves to another program point, its thread_data and slots unchanged *)
Lemma GT_pc st st' t :
  tl st' t = tl st t ->
  (forall b i, rcd (tl st t) = Some b -> hz st' b i = hz st b i) ->
  GT st t ->
  (uses_tmp (th st' t) = false -> hp (gd (tl st t) nslots) = None) ->
  pcG st' (tl st t) (th st' t) ->
  GT st' t.
Proof.
  intros Htl Hhz [I1 I2 I3 I4 I5 I6 I7 I8 I9 I10 I11] Ht Hp.
  constructor; rewrite ?Htl; try assumption.
  - intros b Hb. apply (chain_ext (hz st b)); [intros i _; apply Hhz; exact Hb|apply I5; exact Hb].
  - intros b g i n Hb. rewrite Hhz by exact Hb. apply I8. exact Hb.
Qed.

(** ** the thread's hazard pointers and slots are unchanged (retire list and ghosts may change) *)
Lemma GT_local st st' t :
  rcd (tl st' t) = rcd (tl st t) -> hint (tl st' t) = hint (tl st t) -> fl (tl st' t) = fl (tl st t) ->
  (forall g, gd (tl st' t) g = gd (tl st t) g) ->
  (forall b i, rcd (tl st t) = Some b -> hz st' b i = hz st b i) ->
  GT st t ->
  (uses_tmp (th st' t) = false -> hp (gd (tl st t) nslots) = None) ->
  pcG st' (tl st' t) (th st' t) ->
  GT st' t.
Proof.
  intros Hr Hh Hf Hg Hhz [I1 I2 I3 I4 I5 I6 I7 I8 I9 I10 I11] Ht Hp.
  constructor; rewrite ?Hr, ?Hh, ?Hf; try assumption; try (intros; rewrite ?Hg in *; eauto; fail).
  - destruct I4 as [H1 H2]. split; [exact H1|]. intros i Hi. destruct (H2 i Hi) as [H3 H4]. split; [exact H3|]. intros g. rewrite Hg. apply H4.
  - intros b Hb. apply (chain_ext (hz st b)); [intros i _; apply Hhz; exact Hb|apply I5; exact Hb].
  - intros b g i n Hb. rewrite Hhz by exact Hb. rewrite Hg. apply I8. exact Hb.
Qed.

(** ** guard_ptr::reset() of a guard that owns slot i *)
Lemma GT_reset st st' t b i g :
  GT st t -> rcd (tl st t) = Some b -> hp (gd (tl st t) g) = Some i ->
  rcd (tl st' t) = Some b -> hint (tl st' t) = Some i -> fl (tl st' t) = i :: fl (tl st t) ->
  (forall g', gd (tl st' t) g' = upd (gd (tl st t)) g g0 g') ->
  (forall j, hz st' b j = if j =? i then VLink (hint (tl st t)) else hz st b j) ->
  (uses_tmp (th st' t) = false -> g <> nslots -> hp (gd (tl st t) nslots) = None) ->
  pcG st' (tl st' t) (th st' t) ->
  GT st' t.
Proof.
  intros [I1 I2 I3 I4 I5 I6 I7 I8 I9 I10 I11] Hb Hg Hr Hh Hf Hgd Hhz Ht Hp.
  assert (Hgd' : forall g', g' <> g -> gd (tl st' t) g' = gd (tl st t) g') by (intros g' Hne; rewrite Hgd; upds; reflexivity).
  assert (Hgg : gd (tl st' t) g = g0) by (rewrite Hgd; upds; reflexivity).
  destruct I4 as [Hnd Hfl].
  assert (Hni : ~ In i (fl (tl st t))) by (intros Hc; destruct (Hfl i Hc) as [_ Hc']; apply (Hc' g); exact Hg).
  constructor; rewrite ?Hr, ?Hh, ?Hf.
  - intros g' j H. split; [|congruence]. destruct (Nat.eq_dec g' g) as [->|Hne]; [rewrite Hgg in H; discriminate|].
    rewrite Hgd' in H by exact Hne. apply (I1 g' j H).
  - intros g1 g2 j H1 H2.
    destruct (Nat.eq_dec g1 g) as [->|Hn1]; [rewrite Hgg in H1; discriminate|].
    destruct (Nat.eq_dec g2 g) as [->|Hn2]; [rewrite Hgg in H2; discriminate|].
    rewrite Hgd' in H1, H2 by assumption. apply (I2 g1 g2 j); assumption.
  - reflexivity.
  - split; [constructor; assumption|]. intros j [<-|Hj].
    + split; [apply (I1 g i Hg)|]. intros g'. destruct (Nat.eq_dec g' g) as [->|Hne]; [rewrite Hgg; discriminate|].
      rewrite Hgd' by exact Hne. intros Hc. apply Hne. apply (I2 g' g i); assumption.
    + destruct (Hfl j Hj) as [H1 H2]. split; [exact H1|]. intros g'.
      destruct (Nat.eq_dec g' g) as [->|Hne]; [rewrite Hgg; discriminate|]. rewrite Hgd' by exact Hne. apply H2.
  - intros b' Hb'. injection Hb' as <-. cbn [chain]. split.
    + rewrite Hhz, Nat.eqb_refl, I3. reflexivity.
    + apply (chain_ext (hz st b)); [|apply I5; exact Hb]. intros j Hj. rewrite Hhz.
      destruct (Nat.eqb_spec j i) as [->|_]; [contradiction|reflexivity].
  - intros; discriminate.
  - intros g' n H. destruct (Nat.eq_dec g' g) as [->|Hne]; [rewrite Hgg in H; discriminate|].
    rewrite Hgd' in * by exact Hne. apply (I7 g' n H).
  - intros b' g' j n Hb' H1 H2 H3. injection Hb' as <-.
    destruct (Nat.eq_dec g' g) as [->|Hne]; [rewrite Hgg in H1; discriminate|]. rewrite Hgd' in * by exact Hne.
    rewrite Hhz. destruct (Nat.eqb_spec j i) as [->|_]; [exfalso; apply Hne; apply (I2 g' g i); assumption|].
    apply (I8 b g' j n); assumption.
  - intros g' H. destruct (Nat.eq_dec g' g) as [->|Hne]; [rewrite Hgg; reflexivity|]. rewrite Hgd' by exact Hne. apply I9. exact H.
  - intros H. destruct (Nat.eq_dec nslots g) as [->|Hne]; [rewrite Hgg; reflexivity|]. rewrite Hgd' by exact Hne. apply Ht; [exact H|congruence].
  - exact Hp.
Qed.

(** ** a guard without hazard pointer is emptied (acquire of a null pointer, drop of an empty guard) *)
Lemma GT_clear st st' t g v :
  GT st t -> hp (gd (tl st t) g) = None -> hp v = None -> ptr v = None ->
  rcd (tl st' t) = rcd (tl st t) -> hint (tl st' t) = hint (tl st t) -> fl (tl st' t) = fl (tl st t) ->
  (forall g', gd (tl st' t) g' = upd (gd (tl st t)) g v g') ->
  (forall b i, rcd (tl st t) = Some b -> hz st' b i = hz st b i) ->
  (uses_tmp (th st' t) = false -> g <> nslots -> hp (gd (tl st t) nslots) = None) ->
  pcG st' (tl st' t) (th st' t) ->
  GT st' t.
Proof.
  intros [I1 I2 I3 I4 I5 I6 I7 I8 I9 I10 I11] Hg Hv1 Hv2 Hr Hh Hf Hgd Hhz Ht Hp.
  assert (Hhp : forall g', hp (gd (tl st' t) g') = hp (gd (tl st t) g')).
  { intros g'. rewrite Hgd. destruct (Nat.eq_dec g' g) as [->|Hne]; upds; congruence. }
  assert (Hgd' : forall g', g' <> g -> gd (tl st' t) g' = gd (tl st t) g') by (intros g' Hne; rewrite Hgd; upds; reflexivity).
  assert (Hgg : gd (tl st' t) g = v) by (rewrite Hgd; upds; reflexivity).
  constructor; rewrite ?Hr, ?Hh, ?Hf; try assumption.
  - intros g' j. rewrite Hhp. apply I1.
  - intros g1 g2 j. rewrite !Hhp. apply I2.
  - destruct I4 as [H1 H2]. split; [exact H1|]. intros i Hi. destruct (H2 i Hi) as [H3 H4]. split; [exact H3|]. intros g'. rewrite Hhp. apply H4.
  - intros b Hb. apply (chain_ext (hz st b)); [intros i _; apply Hhz; exact Hb|apply I5; exact Hb].
  - intros g' n H. rewrite Hhp. destruct (Nat.eq_dec g' g) as [->|Hne]; [rewrite Hgg in H; congruence|].
    rewrite Hgd' in H by exact Hne. apply (I7 g' n H).
  - intros b g' i n Hb H1 H2 H3. rewrite Hhp in H1. destruct (Nat.eq_dec g' g) as [->|Hne]; [congruence|].
    rewrite Hgd' in * by exact Hne. rewrite Hhz by exact Hb. apply (I8 b g' i n); assumption.
  - intros g' H. rewrite Hhp. apply I9. exact H.
  - intros H. rewrite Hhp. destruct (Nat.eq_dec g nslots) as [->|Hne]; [exact Hg|apply Ht; assumption].
Qed.

(** ** alloc_hazard_pointer: the guard takes the first slot of the free list *)
Lemma GT_alloc st st' t b i g v :
  GT st t -> rcd (tl st t) = Some b -> hint (tl st t) = Some i -> hp (gd (tl st t) g) = None ->
  hp v = Some i -> ptr v = ptr (gd (tl st t) g) ->
  rcd (tl st' t) = Some b -> hint (tl st' t) = link_of (hz st b i) -> fl (tl st' t) = List.tl (fl (tl st t)) ->
  (forall g', gd (tl st' t) g' = upd (gd (tl st t)) g v g') ->
  (forall j, hz st' b j = hz st b j) ->
  (g <= nslots) ->
  (uses_tmp (th st' t) = false -> g <> nslots /\ hp (gd (tl st t) nslots) = None) ->
  pcG st' (tl st' t) (th st' t) ->
  GT st' t.
Proof.
  intros [I1 I2 I3 I4 I5 I6 I7 I8 I9 I10 I11] Hb Hh Hg Hv1 Hv2 Hr Hh' Hf Hgd Hhz Hle Ht Hp.
  assert (Hgd' : forall g', g' <> g -> gd (tl st' t) g' = gd (tl st t) g') by (intros g' Hne; rewrite Hgd; upds; reflexivity).
  assert (Hgg : gd (tl st' t) g = v) by (rewrite Hgd; upds; reflexivity).
  destruct (fl (tl st t)) as [|i' fl'] eqn:Efl; [rewrite Hh in I3; discriminate|].
  rewrite Hh in I3. cbn in I3. injection I3 as <-.
  destruct I4 as [Hnd Hfl]. apply NoDup_cons_iff in Hnd. destruct Hnd as [Hni Hnd'].
  specialize (I5 b Hb). cbn [chain] in I5. destruct I5 as [Hc1 Hc2].
  assert (Hpg : ptr (gd (tl st t) g) = None).
  { destruct (ptr (gd (tl st t) g)) eqn:E; [|reflexivity]. exfalso. apply (I7 g n E). exact Hg. }
  constructor; rewrite ?Hr, ?Hh', ?Hf; cbn [List.tl].
  - intros g' j H. split; [|congruence]. destruct (Nat.eq_dec g' g) as [->|Hne].
    + rewrite Hgg, Hv1 in H. injection H as <-. apply (Hfl i). left. reflexivity.
    + rewrite Hgd' in H by exact Hne. apply (I1 g' j H).
  - intros g1 g2 j H1 H2.
    destruct (Nat.eq_dec g1 g) as [->|Hn1]; destruct (Nat.eq_dec g2 g) as [->|Hn2]; try reflexivity.
    + rewrite Hgg, Hv1 in H1. injection H1 as <-. rewrite Hgd' in H2 by exact Hn2.
      exfalso. destruct (Hfl i (or_introl eq_refl)) as [_ Hc]. apply (Hc g2). exact H2.
    + rewrite Hgg, Hv1 in H2. injection H2 as <-. rewrite Hgd' in H1 by exact Hn1.
      exfalso. destruct (Hfl i (or_introl eq_refl)) as [_ Hc]. apply (Hc g1). exact H1.
    + rewrite Hgd' in H1, H2 by assumption. apply (I2 g1 g2 j); assumption.
  - rewrite Hc1. reflexivity.
  - split; [exact Hnd'|]. intros j Hj. destruct (Hfl j (or_intror Hj)) as [H1 H2]. split; [exact H1|]. intros g'.
    destruct (Nat.eq_dec g' g) as [->|Hne].
    + rewrite Hgg, Hv1. intros Hc. injection Hc as <-. contradiction.
    + rewrite Hgd' by exact Hne. apply H2.
  - intros b' Hb'. injection Hb' as <-. apply (chain_ext (hz st b)); [intros j _; apply Hhz|exact Hc2].
  - intros; discriminate.
  - intros g' n H. destruct (Nat.eq_dec g' g) as [->|Hne]; [rewrite Hgg, Hv1; discriminate|].
    rewrite Hgd' in * by exact Hne. apply (I7 g' n H).
  - intros b' g' j n Hb' H1 H2 H3. injection Hb' as <-.
    destruct (Nat.eq_dec g' g) as [->|Hne]; [rewrite Hgg, Hv2, Hpg in H2; discriminate|]. rewrite Hgd' in * by exact Hne.
    rewrite Hhz. apply (I8 b g' j n); assumption.
  - intros g' H. assert (g' <> g) by lia. rewrite Hgd' by assumption. apply I9. exact H.
  - intros H. destruct (Ht H) as [H1 H2]. rewrite Hgd' by congruence. exact H2.
  - exact Hp.
Qed.

(** ** set_object: the guard's slot is overwritten with the candidate *)
Lemma GT_setobj st st' t b i g p v :
  GT st t -> rcd (tl st t) = Some b -> hp (gd (tl st t) g) = Some i ->
  hp v = Some i -> gv v = false ->
  rcd (tl st' t) = Some b -> hint (tl st' t) = hint (tl st t) -> fl (tl st' t) = fl (tl st t) ->
  (forall g', gd (tl st' t) g' = upd (gd (tl st t)) g v g') ->
  (forall j, hz st' b j = if j =? i then VObj (Some p) else hz st b j) ->
  (uses_tmp (th st' t) = false -> g <> nslots /\ hp (gd (tl st t) nslots) = None) ->
  pcG st' (tl st' t) (th st' t) ->
  GT st' t.
Proof.
  intros [I1 I2 I3 I4 I5 I6 I7 I8 I9 I10 I11] Hb Hg Hv1 Hv2 Hr Hh Hf Hgd Hhz Ht Hp.
  assert (Hhp : forall g', hp (gd (tl st' t) g') = hp (gd (tl st t) g')).
  { intros g'. rewrite Hgd. destruct (Nat.eq_dec g' g) as [->|Hne]; upds; congruence. }
  assert (Hgd' : forall g', g' <> g -> gd (tl st' t) g' = gd (tl st t) g') by (intros g' Hne; rewrite Hgd; upds; reflexivity).
  assert (Hgg : gd (tl st' t) g = v) by (rewrite Hgd; upds; reflexivity).
  destruct I4 as [Hnd Hfl].
  assert (Hni : ~ In i (fl (tl st t))) by (intros Hc; destruct (Hfl i Hc) as [_ Hc']; apply (Hc' g); exact Hg).
  constructor; rewrite ?Hr, ?Hh, ?Hf; try assumption.
  - intros g' j. rewrite Hhp. intros H. split; [apply (I1 g' j H)|congruence].
  - intros g1 g2 j. rewrite !Hhp. apply I2.
  - split; [exact Hnd|]. intros j Hj. destruct (Hfl j Hj) as [H3 H4]. split; [exact H3|]. intros g'. rewrite Hhp. apply H4.
  - intros b' Hb'. injection Hb' as <-. apply (chain_ext (hz st b)); [|apply I5; exact Hb]. intros j Hj. rewrite Hhz.
    destruct (Nat.eqb_spec j i) as [->|_]; [contradiction|reflexivity].
  - intros; discriminate.
  - intros g' n H. rewrite Hhp. destruct (Nat.eq_dec g' g) as [->|Hne]; [congruence|].
    rewrite Hgd' in H by exact Hne. apply (I7 g' n H).
  - intros b' g' j n Hb' H1 H2 H3. injection Hb' as <-. destruct (Nat.eq_dec g' g) as [->|Hne]; [rewrite Hgg in H3; congruence|].
    rewrite Hgd' in * by exact Hne. rewrite Hhz.
    destruct (Nat.eqb_spec j i) as [->|_]; [exfalso; apply Hne; apply (I2 g' g i); assumption|].
    apply (I8 b g' j n); assumption.
  - intros g' H. rewrite Hhp. apply I9. exact H.
  - intros H. rewrite Hhp. apply Ht. exact H.
Qed.

(** ** the validating load succeeded: this->ptr = p *)
Lemma GT_validate st st' t g p v :
  GT st t -> hp (gd (tl st t) g) <> None ->
  (forall b i, rcd (tl st t) = Some b -> hp (gd (tl st t) g) = Some i -> hz st b i = VObj (Some p)) ->
  hp v = hp (gd (tl st t) g) -> ptr v = Some p ->
  rcd (tl st' t) = rcd (tl st t) -> hint (tl st' t) = hint (tl st t) -> fl (tl st' t) = fl (tl st t) ->
  (forall g', gd (tl st' t) g' = upd (gd (tl st t)) g v g') ->
  (forall b i, rcd (tl st t) = Some b -> hz st' b i = hz st b i) ->
  (uses_tmp (th st' t) = false -> g <> nslots /\ hp (gd (tl st t) nslots) = None) ->
  pcG st' (tl st' t) (th st' t) ->
  GT st' t.
Proof.
  intros [I1 I2 I3 I4 I5 I6 I7 I8 I9 I10 I11] Hg Hs Hv1 Hv2 Hr Hh Hf Hgd Hhz Ht Hp.
  assert (Hhp : forall g', hp (gd (tl st' t) g') = hp (gd (tl st t) g')).
  { intros g'. rewrite Hgd. destruct (Nat.eq_dec g' g) as [->|Hne]; upds; congruence. }
  assert (Hgd' : forall g', g' <> g -> gd (tl st' t) g' = gd (tl st t) g') by (intros g' Hne; rewrite Hgd; upds; reflexivity).
  assert (Hgg : gd (tl st' t) g = v) by (rewrite Hgd; upds; reflexivity).
  constructor; rewrite ?Hr, ?Hh, ?Hf; try assumption.
  - intros g' j. rewrite Hhp. apply I1.
  - intros g1 g2 j. rewrite !Hhp. apply I2.
  - destruct I4 as [H1 H2]. split; [exact H1|]. intros i Hi. destruct (H2 i Hi) as [H3 H4]. split; [exact H3|]. intros g'. rewrite Hhp. apply H4.
  - intros b Hb. apply (chain_ext (hz st b)); [intros i _; apply Hhz; exact Hb|apply I5; exact Hb].
  - intros g' n H. rewrite Hhp. destruct (Nat.eq_dec g' g) as [->|Hne]; [exact Hg|].
    rewrite Hgd' in H by exact Hne. apply (I7 g' n H).
  - intros b g' i n Hb H1 H2 H3. rewrite Hhp in H1. rewrite Hhz by exact Hb. destruct (Nat.eq_dec g' g) as [->|Hne].
    + rewrite Hgg, Hv2 in H2. injection H2 as <-. apply Hs; assumption.
    + rewrite Hgd' in * by exact Hne. apply (I8 b g' i n); assumption.
  - intros g' H. rewrite Hhp. apply I9. exact H.
  - intros H. rewrite Hhp. apply Ht. exact H.
Qed.

(** ** no guard owns a hazard pointer and the free list is empty: the slots may change (initialize) *)
Lemma GT_fresh st st' t :
  GT st t -> (forall g, hp (gd (tl st t) g) = None) -> fl (tl st' t) = [] -> hint (tl st' t) = None ->
  (forall g, gd (tl st' t) g = gd (tl st t) g) ->
  pcG st' (tl st' t) (th st' t) ->
  GT st' t.
Proof.
  intros [I1 I2 I3 I4 I5 I6 I7 I8 I9 I10 I11] Hn Hf Hh Hgd Hp.
  assert (Hn' : forall g, hp (gd (tl st' t) g) = None) by (intros g; rewrite Hgd; apply Hn).
  constructor; rewrite ?Hf, ?Hh; try assumption; try reflexivity.
  - intros g i H. rewrite Hn' in H. discriminate.
  - intros g g' i H. rewrite Hn' in H. discriminate.
  - split; [constructor|]. intros i [].
  - intros g n H. rewrite Hgd in H. exfalso. apply (I7 g n H). apply Hn.
  - intros b g i n _ H. rewrite Hn' in H. discriminate.
  - intros; apply Hn'.
  - intros; apply Hn'.
Qed.

(** ** the last store of initialize: the free list is 0 -> 1 -> 2 *)
Lemma GT_initialized st st' t b :
  GT st t -> (forall g, hp (gd (tl st t) g) = None) ->
  rcd (tl st' t) = Some b -> fl (tl st' t) = [0; 1; 2] -> hint (tl st' t) = Some 0 ->
  (forall g, gd (tl st' t) g = gd (tl st t) g) ->
  (forall j, j < 3 -> hz st' b j = init_link j) ->
  pcG st' (tl st' t) (th st' t) ->
  GT st' t.
Proof.
  intros [I1 I2 I3 I4 I5 I6 I7 I8 I9 I10 I11] Hn Hr Hf Hh Hgd Hhz Hp.
  assert (Hn' : forall g, hp (gd (tl st' t) g) = None) by (intros g; rewrite Hgd; apply Hn).
  constructor; rewrite ?Hf, ?Hh, ?Hr; try assumption; try reflexivity.
  - intros g i H. rewrite Hn' in H. discriminate.
  - intros g g' i H. rewrite Hn' in H. discriminate.
  - split.
    + repeat constructor; cbn [In]; lia.
    + intros i Hi. split; [cbn [In] in Hi; lia|]. intros g. rewrite Hn'. discriminate.
  - intros b' Hb'. injection Hb' as <-. cbn [chain hd_opt]. rewrite !Hhz by lia. cbn. tauto.
  - intros; discriminate.
  - intros g n H. rewrite Hgd in H. exfalso. apply (I7 g n H). apply Hn.
  - intros b' g i n _ H. rewrite Hn' in H. discriminate.
  - intros; apply Hn'.
  - intros; apply Hn'.
Qed.
Lemma hz_other st t t' b i v :
  InvO st -> t' <> t -> rcd (tl st t) = Some b ->
  forall b' j, rcd (tl st t') = Some b' -> upd2 (hz st) b i v b' j = hz st b' j.
Proof.
  intros HO Hne Hb b' j Hb'. unfold upd2. destruct (Nat.eqb_spec b' b) as [->|_]; [|reflexivity].
  exfalso. apply Hne. apply (own_inj st t' t b HO Hb' Hb).
Qed.

Lemma upd2_same_block {X} (f : nat -> nat -> X) b i v j : upd2 f b i v b j = if j =? i then v else f b j.
Proof. unfold upd2. rewrite Nat.eqb_refl. reflexivity. Qed.

Lemma all_none st t :
  GT st t -> uses_tmp (th st t) = false -> (forall j, j < nslots -> hp (gd (tl st t) j) = None) ->
  forall g, hp (gd (tl st t) g) = None.
Proof.
  intros HG Ht H g. destruct (Nat.lt_trichotomy g nslots) as [Hl|[->|Hl]]; [apply H; exact Hl|apply (g_tmp st t HG Ht)|apply (g_hi st t HG g Hl)].
Qed.

(** the side conditions of the GT_* lemmas: [ra] the field equations of the new state; [tmpg] "uses_tmp p' = false -> the
    temporary guard owns no hazard pointer" (by g_tmp at the old program point); [pcg] the clause pcG of the new program
    point from the one of the old *)
Ltac ra := first [reflexivity | assumption].
Ltac tmpg HGt Hth :=
  cbn [uses_tmp is_tmp]; intros;
  first [ discriminate | assumption | congruence
        | (apply (g_tmp _ _ HGt); rewrite Hth; cbn [uses_tmp is_tmp]; first [assumption|reflexivity]) ].

Ltac pcg HGt Hth :=
  let Hpc := fresh "Hpc" in
  pose proof (g_pc _ _ HGt) as Hpc; rewrite Hth in Hpc; cbn [pcG ctx_ok sk_exit s_k] in *; prj; upds;
  try (intuition (auto; try lia; try congruence); fail).


Lemma x0_none st t b i g :
  GT st t -> th st t = X0 g ->
  (forall j, S g <= j < S g + (nslots - S g) -> hp (gd (tl (reset_guard st t b i g) t) j) = None) ->
  (forall j, j < g -> hp (gd (tl st t) j) = None) ->
  forall g1, hp (upd (gd (tl st t)) g {| hp := None; ptr := None; gv := true |} g1) = None.
Proof.
  intros HGt Hth Hg1 Hpc g1. destruct (Nat.eq_dec g1 g) as [->|Hne]; upds; [reflexivity|].
  destruct (Nat.lt_ge_cases g1 g) as [Hl|Hl]; [apply Hpc; exact Hl|].
  destruct (Nat.lt_trichotomy g1 nslots) as [Hl2|[->|Hl2]].
  - specialize (Hg1 g1). unfold reset_guard in Hg1. prjh Hg1. upds_in Hg1. prjh Hg1. upds_in Hg1. apply Hg1. lia.
  - apply (g_tmp _ _ HGt). rewrite Hth. reflexivity.
  - apply (g_hi _ _ HGt). exact Hl2.
Qed.

(** exit_guards: the first guard from [g] on that owns a hazard pointer, or ~thread_data *)
Lemma exit_guards_spec st t f : forall g e r,
  exit_guards st t g f e = r ->
  (exists g', g <= g' < g + f /\ hp (gd (tl st t) g') <> None /\ (forall j, g <= j < g' -> hp (gd (tl st t) j) = None) /\ Some (set_pc t (X0 g') st, e) = r)
  \/ ((forall j, g <= j < g + f -> hp (gd (tl st t) j) = None) /\ exit_td st t e = r).
Proof.
  induction f as [|f IH]; intros g e r H; cbn [exit_guards] in H.
  - right. split; [intros j Hj; lia|congruence].
  - destruct (hp (gd (tl st t) g)) eqn:Hg.
    + left. exists g. split; [lia|]. split; [congruence|]. split; [intros j Hj; lia|congruence].
    + destruct (IH (S g) e r H) as [(g' & H1 & H2 & H3 & H4)|[H1 H2]].
      * left. exists g'. split; [lia|]. split; [exact H2|]. split; [|exact H4].
        intros j Hj. destruct (Nat.eq_dec j g) as [->|Hne]; [exact Hg|apply H3; lia].
      * right. split; [|exact H2]. intros j Hj. destruct (Nat.eq_dec j g) as [->|Hne]; [exact Hg|apply H1; lia].
Qed.

(** case analysis of a step down to the leaves: every leaf has the new state as an explicit term *)
Ltac unf H := unfold acq_done, acq_loop, ret_reset, throw, alloc_hp, walk, scan_next, exit_rel, exit_td, finish, push in H.
Ltac exg H :=
  match type of H with
  | exit_guards _ _ _ _ _ = _ =>
    apply exit_guards_spec in H;
    let g' := fresh "g'" in let Hg1 := fresh "Hg1" in let Hg2 := fresh "Hg2" in let Hg3 := fresh "Hg3" in
    destruct H as [(g' & Hg1 & Hg2 & Hg3 & H)|[Hg1 H]]; [|unfold exit_td, exit_rel in H; repeat des1 H]
  end.
Ltac leaves H := repeat first [progress unf H | des1 H]; try discriminate H; try exg H; try (injection H as <- <-); cbn [guard_of cell_of] in *.
Ltac dg := unfold deref_g in *; repeat match goal with |- context [match ?x with Some _ => _ | None => _ end] => destruct x eqn:? end;
  cbn [tl deref w_g_uaf] in *.

Lemma InvG_step st a st' es : InvO st -> InvG st -> step nslots st a = Some (st', es) -> InvG st'.
Proof.
  intros HO HG Hs. destruct a as [t o|t]; cbn [step] in Hs.
  - destruct (th st t) eqn:Hth; try discriminate Hs. destruct (legal nslots o) eqn:Hl; [|discriminate Hs].
    injection Hs as <- <-. intros t'. destruct (Nat.eq_dec t' t) as [->|Hne].
    + pose proof (HG t) as HGt. apply (GT_pc st); prj; upds; try reflexivity; try assumption.
      * tmpg HGt Hth.
      * destruct o; cbn [pcG legal] in *; try exact I; apply Nat.ltb_lt; exact Hl.
    + apply (GT_frame st); prj; upds; try reflexivity. apply HG.
  - pose proof (HG t) as HGt. destruct (th st t) eqn:Hth; try discriminate Hs.
    all: leaves Hs.
    all: intros t'; destruct (Nat.eq_dec t' t) as [->|Hne];
      [|apply (GT_frame st); dg; prj; upds; try reflexivity; try apply HG; try (eapply hz_other; eassumption)].
    all: try (dg; (apply (GT_local st); prj; upds; [reflexivity|reflexivity|reflexivity|reflexivity|reflexivity|exact HGt|tmpg HGt Hth|pcg HGt Hth])).
    (* "no guard owns a hazard pointer" *)
    all: try (match goal with
      | |- forall j, j < _ -> hp _ = None => intros j Hj; apply Hg3; lia
      | |- True -> forall g, hp _ = None => intros _; apply all_none; [exact HGt|rewrite Hth; reflexivity|intros j Hj; apply Hg1; lia]
      | |- forall g, hp _ = None =>
        first [ (apply all_none; [exact HGt|rewrite Hth; reflexivity|intros j Hj; apply Hg1; lia])
              | (match goal with H : s_k ?s = SExit, Hpc : sk_exit (s_k ?s) -> _ |- _ => apply Hpc; rewrite H; exact I end) ]
      | |- ctx_ok _ /\ (forall g, hp _ = None) => split; [assumption|apply no_rcd_no_hp; assumption]
      end; fail).
    (* reset() *)
    all: try (match goal with
      | Er : rcd (tl ?st ?t) = Some ?b, Eh : hp (gd (tl ?st ?t) ?g) = Some ?i |- context [reset_guard ?st ?t ?b ?i ?g] =>
        dg; (apply (GT_reset st _ t b i g); unfold reset_guard; prj; upds; prj;
          [exact HGt|exact Er|exact Eh|ra|ra|ra|ra|intros; apply upd2_same_block|tmpg HGt Hth|pcg HGt Hth])
      end).
    (* a guard without hazard pointer is emptied *)
    all: unfold g0 in *.
    all: try (match goal with
      | Eh : hp (gd (tl ?st ?t) ?g) = None |- context [set_gd ?t ?g {| hp := None; ptr := None; gv := true |} ?st] =>
        dg; (apply (GT_clear st _ t g (mkG None None true)); unfold set_gd; prj; upds; prj;
          [exact HGt|exact Eh|ra|ra|ra|ra|ra|ra|ra|tmpg HGt Hth|pcg HGt Hth])
      end).
    all: try (pose proof (g_pc _ _ HGt) as Hpc; rewrite Hth in Hpc; cbn [pcG ctx_ok sk_exit s_k guard_of] in Hpc).
    all: try (match goal with
      | |- context [set_gd ?t ?g {| hp := hp (gd (tl ?st ?t) ?g); ptr := Some ?p; gv := true |} ?st] =>
        destruct Hpc as (Hc & Hn & Hz);
        dg; (apply (GT_validate st _ t g p (mkG (hp (gd (tl st t) g)) (Some p) true)); unfold set_gd in *; prj; upds; prj; try ra;
             cbn [uses_tmp is_tmp]; try (intros; discriminate))
      end).
    + (* Q1: bad_hazard_pointer_alloc *)
      apply (GT_local st); prj; upds; try ra.
      intros _. destruct k; cbn [guard_of] in *; try assumption. apply (g_tmp _ _ HGt). rewrite Hth. reflexivity.
    + (* W2: adoption *)
      destruct Hpc as [Hc Hn].
      assert (Hr : rcd (tl st t) = None) by (apply (O_seek st HO); rewrite Hth; reflexivity).
      pose proof (g_nofl _ _ HGt Hr) as Hf. pose proof (g_hint _ _ HGt) as Hh. rewrite Hf in Hh.
      apply (GT_fresh st); prj; upds; prj; try ra. cbn [pcG ctx_ok]. prj; upds; prj. tauto.
    + (* A3: the new block is linked *)
      destruct Hpc as [Hc Hn].
      assert (Hr : rcd (tl st t) = None) by (apply (O_seek st HO); rewrite Hth; reflexivity).
      pose proof (g_nofl _ _ HGt Hr) as Hf. pose proof (g_hint _ _ HGt) as Hh. rewrite Hf in Hh.
      apply (GT_fresh st); prj; upds; prj; try ra. cbn [pcG ctx_ok]. prj; upds; prj. tauto.
    + (* I1: set_link *)
      destruct Hpc as (Hc & Hn & Hf & Hi & Hz). pose proof (g_hint _ _ HGt) as Hh. rewrite Hf in Hh.
      apply Nat.ltb_lt in E0.
      apply (GT_fresh st); prj; upds; prj; try ra. cbn [pcG ctx_ok]. prj; upds; prj.
      repeat split; try assumption; try lia. intros b j Hb Hj. rewrite E in Hb. injection Hb as <-. rewrite upd2_same_block.
      destruct (Nat.eqb_spec j i) as [->|Hne]; [unfold init_link; replace (i <? 2) with true by (symmetry; apply Nat.ltb_lt; exact E0); reflexivity|].
      apply Hz; [exact E|lia].
    + (* I1: the last set_link *)
      destruct Hpc as (Hc & Hn & Hf & Hi & Hz). apply Nat.ltb_ge in E0. assert (i = 2) by lia. subst i.
      apply (GT_initialized st _ t n); prj; upds; prj; try ra.
      * intros j Hj. rewrite upd2_same_block. destruct (Nat.eqb_spec j 2) as [->|Hne]; [reflexivity|]. apply Hz; [exact E|lia].
      * cbn [pcG]. prj; upds; prj. split; [exact Hc|apply Hn].
    + (* H1: alloc_hazard_pointer *)
      destruct Hpc as [Hc Hn].
      assert (Hle : guard_of nslots k <= nslots) by (destruct k; cbn [guard_of ctx_ok] in *; lia).
      apply (GT_alloc st _ t n n0 (guard_of nslots k) (mkG (Some n0) (ptr (gd (tl st t) (guard_of nslots k))) (gv (gd (tl st t) (guard_of nslots k)))));
        prj; upds; prj; try ra.
      cbn [uses_tmp]. intros Hk. destruct k; cbn [is_tmp guard_of ctx_ok] in *; try discriminate. split; [lia|].
      apply (g_tmp _ _ HGt). rewrite Hth. reflexivity.
    + (* Q2: set_object *)
      apply (GT_setobj st _ t n n0 (guard_of nslots k) p (mkG (Some n0) (ptr (gd (tl st t) (guard_of nslots k))) false));
        unfold set_gd; prj; upds; prj; try ra.
      * intros j. apply upd2_same_block.
      * cbn [uses_tmp]. intros Hk. destruct k; cbn [is_tmp guard_of ctx_ok] in *; try discriminate. split; [lia|].
        apply (g_tmp _ _ HGt). rewrite Hth. reflexivity.
      * cbn [pcG]. prj; upds; prj. split; [exact Hpc|]. split; [discriminate|].
        intros b i Hb Hi. rewrite E in Hb. injection Hb as <-. injection Hi as <-. rewrite upd2_same_block, Nat.eqb_refl. reflexivity.
    + (* Q4 read: the guard keeps its hazard pointer until the destructor *)
      intros _. exfalso. apply Hn. clear - E1. prjh E1. upds_in E1. prjh E1. upds_in E1. cbn in E1. upds_in E1. prjh E1. upds_in E1. exact E1.
    + intros _. exfalso. apply Hn. clear - E1. prjh E1. upds_in E1. prjh E1. upds_in E1. cbn in E1. upds_in E1. prjh E1. upds_in E1. exact E1.
    + intros _. split; [lia|]. apply (g_tmp _ _ HGt). rewrite Hth. reflexivity.
    + intros _. split; [lia|]. apply (g_tmp _ _ HGt). rewrite Hth. reflexivity.
    + exfalso. apply (g_ptr _ _ HGt nslots n0); assumption.
    + exfalso. apply (g_ptr _ _ HGt nslots n0); assumption.
    + (* X0: the guards before the next one are empty *)
      intros j Hj. destruct (Nat.eq_dec j g) as [->|Hne]; upds; [reflexivity|].
      destruct (Nat.lt_ge_cases j g) as [Hl|Hl]; [apply Hpc; exact Hl|].
      specialize (Hg3 j). unfold reset_guard in Hg3. prjh Hg3. upds_in Hg3. prjh Hg3. upds_in Hg3. apply Hg3. lia.
    + eapply x0_none; eassumption.
    + eapply x0_none; eassumption.
    + intros _. eapply x0_none; eassumption.
    + (* X5: release_entry *)
      apply (GT_fresh st); prj; upds; prj; try ra.
Qed.

Lemma InvG_init ncells : InvG (init ncells).
Proof.
  intros t. constructor; cbn; intros; try discriminate; try reflexivity; try exact I.
  - split; [constructor|]. intros i [].
Qed.
End G.
