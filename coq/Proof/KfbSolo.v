(** C16 for kirsch_bounded_kfifo_queue: try_push and pop finish within (2k+12)*(segs+2) solo steps from every
    reachable state, for every sequence of random start offsets.  Phase A: from any program point the thread
    reaches the top of its retry loop (or returns) within 2k+9 steps; phase B: from the loop top every local
    value is up to date and a measure (remaining loop restarts, steps left in the iteration) decreases.
    No axioms, no admits. *)
From Coq Require Import NArith List Bool Lia PeanoNat Arith Wf_nat.
From XV Require Import Base.Word Conc.Lts Conc.Ev Conc.Solo Model.KfbDefs.
From XV Require Import Proof.KfbArith Proof.KfbWf Proof.KfbOwn Proof.KfbRing Proof.KfbRegion Proof.KfbMono Proof.KfbCons.
Import ListNotations.
Local Open Scope N_scope.

Definition idle (s : state) (t : nat) : bool := match th s t with Idle => true | _ => false end.

Set Default Proof Using "All".
Section SoloGen.
  Variables k segs : N.
  Notation step := (step k segs).
  Variable t : nat.

  (** [orun orc n s s']: t takes n consecutive steps from s to s', the i-th with oracle value [orc i],
      each of them enabled and taken while t is not idle *)
  Fixpoint orun (orc : nat -> N) (n : nat) (s s' : state) : Prop :=
    match n with
    | O => s' = s
    | S m => idle s t = false /\ exists s1 es, step s (Step t (orc O)) = Some (s1, es) /\ orun (fun i => orc (S i)) m s1 s'
    end.

  Lemma orun_app orc n m s s1 s2 : orun orc n s s1 -> orun (fun i => orc (n + i)%nat) m s1 s2 -> orun orc (n + m) s s2.
  Proof.
    revert orc s. induction n as [|n IH]; intros orc s; cbn [orun Nat.add].
    - intros ->. exact (fun x => x).
    - intros (Hi & sa & es & Hst & Hr) H2. split; [exact Hi|]. exists sa, es. split; [exact Hst|]. apply IH; assumption.
  Qed.

  (** constant oracle: the solo runs of Conc/Solo.v *)
  Lemma orun_solo r n s s' : orun (fun _ => r) n s s' -> solo_steps step (fun u => Step u r) idle t n s s'.
  Proof.
    revert s. induction n as [|n IH]; intros s; cbn [orun].
    - intros ->. constructor.
    - intros (Hi & sa & es & Hst & Hr). eapply solo_S; eauto.
  Qed.

  (** measure rule with a target predicate and arbitrary oracle values *)
  Lemma by_measure (P : state -> Prop) (Q : state -> bool) (mu : state -> nat) :
    (forall s, P s -> Q s = false -> idle s t = false /\
       forall r, exists s' es, step s (Step t r) = Some (s', es) /\ P s' /\ (mu s' < mu s)%nat) ->
    forall s, P s -> forall orc, exists n s', (n <= mu s)%nat /\ orun orc n s s' /\ P s' /\ Q s' = true.
  Proof.
    intros Hstep s. remember (mu s) as m eqn:Hm. revert s Hm.
    induction m as [m IH] using lt_wf_ind. intros s Hm HP orc.
    destruct (Q s) eqn:HQ.
    - exists O, s. repeat split; [lia|exact HP|exact HQ].
    - destruct (Hstep s HP HQ) as [Hi Hr]. destruct (Hr (orc O)) as (s1 & es & Hst & HP1 & Hlt).
      destruct (IH (mu s1) ltac:(lia) s1 eq_refl HP1 (fun i => orc (S i))) as (n & s' & Hn & Hrun & HP' & HQ').
      exists (S n), s'. split; [lia|]. split; [|split; assumption]. cbn [orun]. split; [exact Hi|]. exists s1, es. auto.
  Qed.
End SoloGen.

Section SoloA.
  Variables k segs : N.
  Hypothesis Hk : 1 <= k.
  Hypothesis Hs : 1 <= segs.
  Notation step := (step k segs).
  Variable t : nat.
  Notation K := (N.to_nat k).

  (** * Phase A: from anywhere to the top of the retry loop (or to the end of the call) *)
  Definition topb (s : state) : bool := match th s t with Idle | P1 _ | D1 => true | _ => false end.

  (** steps left in the current iteration of the retry loop when every local copy is up to date *)
  Definition leftp (p : pc) : nat :=
    match p with
    | Idle => 0
    | Begin (OPush _) => 2 * K + 11
    | P1 _ => 2 * K + 10
    | P2 _ _ => 2 * K + 9
    | PF _ _ _ _ i => N.to_nat (k - i) + K + 8
    | P3 _ _ _ _ => 8
    | P4 _ _ _ _ => 7
    | C1 _ _ _ _ => 6
    | C2 _ _ _ _ => 5
    | C3 _ _ _ _ _ => 4
    | C4 _ _ _ _ _ _ => 3
    | C5 _ _ _ _ _ => 2
    | C6 _ _ _ => 1
    | P3n _ _ _ => K + 4
    | PQ _ _ _ => K + 3
    | PS _ _ _ i => N.to_nat (k - i) + 2
    | PHC _ _ _ => 2
    | PH _ _ _ => 1
    | PT _ _ => 1
    | Begin OPop => K + 6
    | D1 => K + 5
    | D2 _ => K + 4
    | DF _ _ _ i => N.to_nat (k - i) + 3
    | D3 _ _ _ _ _ | D3n _ _ => 3
    | DT _ _ _ _ _ | DE _ _ => 2
    | D4 _ _ _ _ | DH _ => 1
    end%nat.

  (** steps to the loop top: a stale head copy in committed() costs one more round C3, C4 *)
  Definition leftA (s : state) : nat :=
    match th s t with
    | Idle | P1 _ | D1 => 0
    | Begin _ => 1
    | C3 _ _ _ _ hc | C4 _ _ _ _ hc _ => if iw_eqb (head s) hc then leftp (th s t) else leftp (th s t) + 2
    | p => leftp p
    end%nat.

  Lemma leftA_le s : (leftA s <= 2 * K + 9)%nat.
  Proof. unfold leftA. destruct (th s t); cbn [leftp]; try lia; destruct (iw_eqb _ _); lia. Qed.

  Lemma stepA s : reach init step s -> topb s = false ->
    idle s t = false /\ forall r, exists s' es, step s (Step t r) = Some (s', es) /\ reach init step s' /\ (leftA s' < leftA s)%nat.
  Proof.
    intros Hr Htop.
    assert (Hni : th s t <> Idle) by (intros E; unfold topb in Htop; rewrite E in Htop; discriminate).
    split; [unfold idle; destruct (th s t); congruence|]. intros r.
    destruct (step_enabled k segs s t r Hni) as (s' & es & Hst). exists s', es. split; [exact Hst|]. split; [eapply reach_step; eauto|].
    destruct (step_inv k segs s _ s' es Hst) as (r0 & p & s1 & p' & res & Ep & -> & _ & Htr & _). cbn [tid] in *.
    destruct (Inv1_reach k segs Hk Hs s Hr) as (_ & _ & _ & Hall). pose proof (Hall t) as Hme.
    unfold leftA, topb in *. sim. rewrite upd_same. rewrite Ep in *.
    destruct Htr as [[-> Htr]|Htr]; destruct Htr; try discriminate; subst; cbn [KfbWf.T1 leftp] in *; sim;
      repeat match goal with |- context [iw_eqb ?a ?b] => destruct (iw_eqb_spec a b) end; try congruence; lia.
  Qed.
End SoloA.

Lemma nrange_succ i : nrange (i + 1) = nrange i ++ [i].
Proof.
  unfold nrange. replace (N.to_nat (i + 1)) with (S (N.to_nat i)) by lia.
  rewrite seq_S, map_app. cbn [map Nat.add]. rewrite N2Nat.id. reflexivity.
Qed.

Section SoloB.
  Variables k segs : N.
  Hypothesis Hk : 1 <= k.
  Hypothesis Hs : 1 <= segs.
  Notation step := (step k segs).
  Notation qsize := (qsize k segs).
  Notation dist := (dist segs).
  Notation hs := (hs k).
  Notation ts := (ts k).
  Notation fidx := (fidx k segs).
  Notation sidx := (sidx k segs).
  Variable t : nat.
  Notation K := (N.to_nat k).
  Notation SS := (N.to_nat segs).

  (** * Phase B: from the top of the retry loop, with every local value up to date *)
  Definition nullb (s : state) (j : N) : bool := fst (slot s j) =? 0.
  Definition segnull (s : state) (x : N) : bool := existsb (fun m => nullb s (fidx x 0 m)) (nrange k).
  Definition foundb (s : state) : bool := segnull s (fst (tail s)).
  Definition nextfound (s : state) : bool := segnull s ((fst (tail s) + k) mod qsize).
  Definition scanned_full (s : state) (x ri i : N) : bool := forallb (fun m => negb (nullb s (fidx x ri m))) (nrange i).
  Definition scanned_null (s : state) (x i : N) : bool := forallb (fun m => nullb s (sidx x m)) (nrange i).
  Definition dn (s : state) : nat := N.to_nat (dist (hs s) (ts s)).
  Definition Phi (s : state) : nat := (SS - 1 - dn s)%nat.
  Definition r1 (s : state) : nat := if foundb s then 0%nat else (Phi s + 1)%nat.
  Definition IT : nat := (2 * K + 12)%nat.

  Definition freshB (s : state) : Prop :=
    match th s t with
    | Idle | Begin _ | P1 _ | D1 => True
    | P2 _ tl => tl = tail s
    | PF _ tl hd ri i => tl = tail s /\ hd = head s /\ scanned_full s (fst tl) ri i = true
    | P3 _ tl j otag | P4 _ tl j otag => tl = tail s /\ slot s j = (0, otag)
    | C1 b tl j tg | C2 b tl j tg => tl = tail s /\ slot s j = (b, tg)
    | C3 b tl j tg hc => tl = tail s /\ slot s j = (b, tg) /\ hc = head s
    | C4 b tl j tg hc tc => tl = tail s /\ slot s j = (b, tg) /\ hc = head s /\ tc = tail s
    | C5 b tl j tg hc => hc = head s
    | C6 _ _ _ => False
    | P3n _ tl hd => tl = tail s /\ hd = head s /\ foundb s = false
    | PQ _ tl hd => tl = tail s /\ hd = head s /\ (fst tl + k) mod qsize = fst hd
    | PS _ tl hd i => tl = tail s /\ hd = head s /\ (fst tl + k) mod qsize = fst hd /\ scanned_null s (fst hd) i = true
    | PHC _ tl hd => tl = tail s /\ hd = head s /\ (fst tl + k) mod qsize = fst hd /\ scanned_null s (fst hd) k = true
    | PH _ tl hd => hd = head s
    | PT _ tl => tl = tail s /\ (nextfound s = true \/ dist (hs s) (ts s) + 1 < segs)
    | D2 hd => hd = head s
    | DF hd tl ri i => hd = head s /\ tl = tail s
    | D3 hd tl j p tg => hd = head s /\ slot s j = (p, tg)
    | D3n hd tl | DE hd tl => hd = head s /\ tl = tail s
    | DT _ _ j p tg | D4 _ j p tg => slot s j = (p, tg)
    | DH hd => hd = head s /\ 1 <= dist (hs s) (ts s)
    end.

  Definition rrB (s : state) : nat :=
    match th s t with
    | Begin (OPush _) | P1 _ | P2 _ _ | PF _ _ _ _ _ => r1 s
    | P3n _ _ _ => (Phi s + 1)%nat
    | PQ _ _ _ | PS _ _ _ _ | PHC _ _ _ | PH _ _ _ => 1%nat
    | PT _ _ => if nextfound s then 1%nat else (Phi s + 1)%nat
    | Begin OPop | D1 | D2 _ | DF _ _ _ _ | D3n _ _ | DE _ _ | DH _ => dn s
    | _ => 0%nat
    end.

  Definition leftB (s : state) : nat := leftp k (th s t).

  Definition muB (s : state) : nat := (IT * rrB s + leftB s)%nat.

  Lemma mu_lt (r' r l' l : nat) : (r' <= r)%nat -> (l' < l)%nat -> (IT * r' + l' < IT * r + l)%nat.
  Proof. intros. nia. Qed.
  Lemma mu_restart (r' r l' l : nat) : (r' < r)%nat -> (l' < IT)%nat -> (IT * r' + l' < IT * r + l)%nat.
  Proof. intros. nia. Qed.

  (** a scan has checked the indices below i; it checks i *)
  Lemma scan_next (f : N -> bool) i : forallb f (nrange i) = true -> f i = true -> forallb f (nrange (i + 1)) = true.
  Proof. intros A B. rewrite nrange_succ, forallb_app, A. cbn. rewrite B. reflexivity. Qed.
  Lemma scan_done (f : N -> bool) i : i < k -> k <= i + 1 -> forallb f (nrange i) = true -> f i = true -> forallb f (nrange k) = true.
  Proof. intros A B. replace k with (i + 1) by lia. apply scan_next. Qed.

  (** a scan of find_index that saw k occupied slots: the segment has no empty slot *)
  Lemma full_not_found s x ri : wfi k segs x ->
    forallb (fun m => negb (fst (slot s (fidx x ri m)) =? 0)) (nrange k) = true ->
    existsb (fun m => fst (slot s (fidx x 0 m)) =? 0) (nrange k) = false.
  Proof.
    intros Hw Hall. destruct (existsb _ _) eqn:Ex; [|reflexivity]. exfalso.
    apply existsb_exists in Ex. destruct Ex as (m0 & Hm0 & Hz). apply nrange_in in Hm0.
    destruct (fidx_in k segs Hk Hs x 0 m0 Hw) as (_ & A & B).
    destruct (fidx_cover k segs Hk Hs x ri _ Hw B) as (m & Hm & Em).
    rewrite forallb_forall in Hall. specialize (Hall m ltac:(apply nrange_in; exact Hm)).
    rewrite Em, Hz in Hall. discriminate.
  Qed.

  (** in_valid_region / not_in_valid_region for an insertion into the current tail segment *)
  Lemma valid_tail_segment x h : in_valid_region x x h = false -> not_in_valid_region x x h = true -> False.
  Proof.
    unfold in_valid_region, not_in_valid_region.
    destruct (N.ltb_spec x h); destruct (N.ltb_spec h x); destruct (N.leb_spec x x); destruct (N.ltb_spec x x); cbn; try discriminate; lia.
  Qed.

  Lemma stepB s : reach init step s -> freshB s -> idle s t = false ->
    forall r, exists s' es, step s (Step t r) = Some (s', es) /\ reach init step s' /\ freshB s' /\ (muB s' < muB s)%nat.
  Proof.
    intros Hr Hf Hi r.
    destruct (Inv_reach k segs Hk Hs s Hr) as ((Hh & Ht & Hsl & Hall) & I2 & H3 & I4). pose proof (Hall t) as Hme. pose proof (H3 t) as Hme3.
    assert (Hni : th s t <> Idle) by (unfold idle in Hi; destruct (th s t); congruence).
    destruct (step_enabled k segs s t r Hni) as (s' & es & Hst). exists s', es. split; [exact Hst|]. split; [eapply reach_step; eauto|].
    destruct (step_inv k segs s _ s' es Hst) as (r0 & p & s1 & p' & res & Ep & -> & _ & Htr & _). cbn [tid] in *.
    clear Hr Hst Hsl Hall I2 H3 I4 Hi.
    unfold freshB, muB, rrB, leftB, leftp in *. sim. rewrite upd_same. rewrite Ep in *. clear Ep.
    destruct Htr as [[-> Htr]|Htr]; destruct Htr; cbn [KfbWf.T1 KfbRing.T3] in Hme, Hme3;
      decompose [and] Hf; subst; try congruence; try contradiction.
    all: unfold r1, Phi, dn, foundb, nextfound, segnull, scanned_full, scanned_null, nullb, KfbRing.hs, KfbRing.ts, KfbRing.sgw in *; sim.
    all: rewrite ?setf_same.
    all: repeat match goal with H : ?x = _ |- context [if ?x then _ else _] => rewrite H end.
    all: try solve [split; [repeat split; auto|]; first [lia | apply mu_lt; lia]].
    all: try pose proof (wfw_lt k segs Hk Hs _ Hh) as X3; try pose proof (wfw_lt k segs Hk Hs _ Ht) as X1; unfold KfbRing.sgw in *.
    - (* PF -> PF *) split; [repeat split; auto; apply scan_next; [assumption|apply negb_true_iff, N.eqb_neq; assumption]|apply mu_lt; lia].
    - (* PF -> P3n *) destruct Hme as ([Hwt _] & _ & _ & Hi').
      rewrite (full_not_found s _ ri Hwt); [split; [auto|apply mu_lt; lia]|].
      apply (scan_done _ i); try assumption. apply negb_true_iff, N.eqb_neq. assumption.
    - (* P3n -> PT: the next segment is not the head segment *)
      assert (Hd : dist (sg k (fst (head s))) (sg k (fst (tail s))) + 1 < segs).
      { pose proof (dist_lt k segs Hk Hs _ _ X3 X1).
        destruct (N.eq_dec (dist (sg k (fst (head s))) (sg k (fst (tail s)))) (segs - 1)) as [Q|Q]; [exfalso|lia].
        apply H0. apply (adv_full k segs Hk Hs); assumption. }
      split; [auto|]. match goal with |- context [if ?c then _ else _] => destruct c end; apply mu_lt; lia.
    - (* PS -> PS *) split; [repeat split; auto; apply scan_next; [assumption|apply N.eqb_eq; assumption]|apply mu_lt; lia].
    - (* PS -> PHC *) split; [repeat split; auto; apply (scan_done _ i); try assumption; [apply Hme|apply N.eqb_eq; assumption]|apply mu_lt; lia].
    - (* C4 -> C6: the insertion went into the current tail segment *) exfalso. eapply valid_tail_segment; eauto.
    - (* D3n -> DH *)
      assert (dist (sg k (fst (head s))) (sg k (fst (tail s))) <> 0) by (intros Q; apply H0; apply (same_seg k segs Hk Hs); assumption).
      split; [split; [reflexivity|lia]|apply mu_lt; lia].
    - (* PHC success -> PT: slot 0 of the segment after the tail, the old head segment, is empty *)
      match goal with |- context [existsb ?f ?l] => assert (Hnf : existsb f l = true) end.
      { apply existsb_exists. exists 0. split; [apply nrange_in; lia|].
        match goal with Hq : _ = fst (head s) |- _ => rewrite Hq end.
        match goal with Hsc : forallb _ (nrange k) = true |- _ => rewrite forallb_forall in Hsc; specialize (Hsc 0 ltac:(apply nrange_in; lia)) end.
        unfold KfbDefs.fidx, KfbDefs.sidx in *. cbn [N.add]. rewrite N.mod_0_l by lia. assumption. }
      rewrite Hnf. split; [auto|apply mu_lt; lia].
    - (* DH success -> D1: head comes closer to the tail *) split; [exact I|]. unfold adv. cbn [fst].
      destruct (adv_wf k segs Hk Hs _ Hh) as [_ ->].
      rewrite (dist_pred k segs Hk Hs _ _ X3 X1) by assumption. apply mu_restart; unfold IT; lia.
    - (* PT success -> P1: the next segment has an empty slot, or the tail moves away from head *)
      split; [exact I|]. unfold adv in *. cbn [fst] in *.
      match goal with Hor : _ = true \/ _ |- _ => destruct Hor as [Enf|Hlt] end; [rewrite Enf; apply mu_restart; unfold IT; lia|].
      destruct (adv_wf k segs Hk Hs _ Ht) as [_ ->]. rewrite (dist_succ_r k segs Hk Hs _ _ X3 X1 Hlt).
      match goal with |- context [if ?c then _ else _] => destruct c end; apply mu_restart; unfold IT; lia.
  Qed.
End SoloB.

Section SoloMain.
  Variables k segs : N.
  Hypothesis Hk : 1 <= k.
  Hypothesis Hs : 1 <= segs.
  Notation step := (step k segs).
  Notation K := (N.to_nat k).
  Notation SS := (N.to_nat segs).

  (** the explicit bound: (2k+12) * (segs+2) atomic steps *)
  Definition kfb_bound : nat := ((2 * K + 12) * (SS + 2))%nat.

  Lemma kfb_bound_value : kfb_bound = ((2 * K + 12) * (SS + 2))%nat.
  Proof using. reflexivity. Qed.

  Lemma muB_top t s : reach init step s -> topb t s = true -> freshB k segs t s /\ (muB k segs t s <= (2 * K + 12) * SS + 2 * K + 10)%nat.
  Proof.
    intros Hr Htop. destruct (Inv_reach k segs Hk Hs s Hr) as ((Hh & Ht & _) & _).
    pose proof (dist_lt k segs Hk Hs _ _ (wfw_lt k segs Hk Hs _ Hh) (wfw_lt k segs Hk Hs _ Ht)) as Hd.
    unfold topb in Htop. unfold freshB, muB, rrB, leftB, leftp, IT, r1, Phi, dn, KfbRing.hs, KfbRing.ts.
    destruct (th s t); try discriminate; (split; [exact I|]).
    - lia.
    - destruct (foundb k segs s); nia.
    - nia.
  Qed.

  (** C16: from EVERY reachable state (the other threads stopped anywhere), a thread running alone
      finishes its try_push / pop within [kfb_bound] of its own steps, whatever values the random
      start offsets take *)
  Theorem kfb_solo_any t s orc : reach init step s ->
    exists n s', (n <= kfb_bound)%nat /\ orun k segs t orc n s s' /\ idle s' t = true.
  Proof.
    intros Hr.
    destruct (by_measure k segs t (reach init step) (topb t) (leftA k t)) with (s := s) (orc := orc) as (n1 & s1 & Hn1 & Hrun1 & Hr1 & Htop).
    { intros s0 Hr0 Hq. apply (stepA k segs Hk Hs t s0 Hr0 Hq). }
    { exact Hr. }
    destruct (muB_top t s1 Hr1 Htop) as [Hf1 Hmu1].
    destruct (by_measure k segs t (fun x => reach init step x /\ freshB k segs t x) (fun x => idle x t) (muB k segs t))
      with (s := s1) (orc := fun i => orc (n1 + i)%nat) as (n2 & s2 & Hn2 & Hrun2 & _ & Hidle).
    { intros s0 [Hr0 Hf0] Hq. split; [exact Hq|]. intros r.
      destruct (stepB k segs Hk Hs t s0 Hr0 Hf0 Hq r) as (s' & es & A & B & C & D). exists s', es. auto. }
    { split; assumption. }
    exists (n1 + n2)%nat, s2. split; [|split; [eapply orun_app; eauto|exact Hidle]].
    pose proof (leftA_le k segs Hk Hs t s). unfold kfb_bound. nia.
  Qed.

  Corollary kfb_solo t s r : reach init step s ->
    finishes_within step (fun u => Step u r) idle t kfb_bound s.
  Proof.
    intros Hr. destruct (kfb_solo_any t s (fun _ => r) Hr) as (n & s' & Hn & Hrun & Hid).
    exists n, s'. split; [exact Hn|]. split; [apply (orun_solo k segs t r n s s' Hrun)|exact Hid].
  Qed.

  Corollary kfb_never_stuck t s r : reach init step s -> never_stuck step (fun u => Step u r) idle t s.
  Proof. intros Hr. eapply finishes_never_stuck. apply kfb_solo. exact Hr. Qed.
End SoloMain.

(** * Example: the solo run of T1 from the state of the premature-'full' schedule (its insertion is
    taken back, head and tail are advanced around the ring, the value is committed): 22 steps <= 56 *)
From XV Require Proof.KfbInv.
Definition solo_len (o : outcome state) : option nat := match o with Done _ n => Some n | _ => None end.
Example ex_solo_takeback :
  solo_len (solo_run (step 1 2) (fun u => Step u 0) idle 1%nat 100 0 (KfbInv.st_of 1 2 KfbInv.ex_full)) = Some 22%nat /\
  kfb_bound 1 2 = 56%nat.
Proof. vm_compute. split; reflexivity. Qed.
