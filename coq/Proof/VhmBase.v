(** vyukov_hash_map bucket model (Model/VhmDefs.v): generic lemmas, step inversion, lock discipline. *)
From Coq Require Import NArith List Bool Lia PeanoNat.
From XV Require Import Base.Word Conc.Lts Conc.Ev gen.BucketStateGen Proof.BucketState Model.VhmDefs Proof.VhmStep.
Import ListNotations.
Local Open Scope N_scope.

Lemma setf_same {X} (f : N -> X) i v : setf f i v i = v.
Proof. unfold setf. rewrite N.eqb_refl. reflexivity. Qed.
Lemma setf_other {X} (f : N -> X) i v j : j <> i -> setf f i v j = f j.
Proof. unfold setf. intros H. destruct (N.eqb_spec j i); [contradiction|reflexivity]. Qed.

(** * the state word as a tuple of fields *)
Definition W (w : N) (l : bool) (c d v : N) : Prop :=
  w < 2 ^ 32 /\ bs_is_locked w = l /\ bs_item_count w = c /\ bs_delete_marker w = d /\ bs_version w = v.

Lemma W_ex w : w < 2 ^ 32 -> W w (bs_is_locked w) (bs_item_count w) (bs_delete_marker w) (bs_version w).
Proof. intros H. repeat split. exact H. Qed.
Lemma W_locked w l c d v : W w l c d v -> W (bs_locked w) true c d v.
Proof.
  intros (H & <- & <- & <- & <-). destruct (bs_locked_spec w H) as (H1 & H2 & H3 & H4 & H5).
  repeat split; assumption.
Qed.
Lemma W_clear w c d v : W w true c d v -> W (bs_clear_lock w) false c d v.
Proof.
  intros (H & Hl & <- & <- & <-). destruct (bs_clear_lock_spec w Hl) as (H2 & H3 & H4 & H5).
  repeat split; try assumption. apply bs_clear_lock_lt; assumption.
Qed.
Lemma W_nv w l c d v : W w l c d v -> W (bs_new_version w) l c d ((v + 1) mod 2 ^ 27).
Proof.
  intros (H & <- & <- & <- & <-). destruct (bs_new_version_spec w H) as (H1 & H2 & H3 & H4 & H5 & _).
  repeat split; assumption.
Qed.
Lemma W_inc w l c d v : W w l c d v -> c < 3 -> W (bs_inc_item_count w) l (c + 1) d v.
Proof.
  intros (H & <- & <- & <- & <-) Hc. destruct (bs_inc_item_count_spec w H Hc) as (H1 & H2 & H3 & H4 & H5).
  repeat split; assumption.
Qed.
Lemma W_dec w l c d v : W w l c d v -> 0 < c -> W (bs_dec_item_count w) l (c - 1) d v.
Proof.
  intros (H & <- & <- & <- & <-) Hc. destruct (bs_dec_item_count_spec w H Hc) as (H1 & H2 & H3 & H4 & H5).
  repeat split; assumption.
Qed.
Lemma W_mark w l c v m : W w l c 0 v -> m < 4 -> W (bs_set_delete_marker w m) l c m v.
Proof.
  intros (H & <- & <- & Hd & <-) Hm. destruct (bs_set_delete_marker_spec w m H Hd Hm) as (H1 & H2 & H3 & H4 & H5).
  repeat split; assumption.
Qed.
Lemma W_fun w l c d v l' c' d' v' : W w l c d v -> W w l' c' d' v' -> l = l' /\ c = c' /\ d = d' /\ v = v'.
Proof. intros (_ & <- & <- & <- & <-) (_ & <- & <- & <- & <-). repeat split. Qed.
Lemma W_eq w w' l c d v : W w l c d v -> W w' l c d v -> w = w'.
Proof.
  intros (H & H1 & H2 & H3 & H4) (H' & H1' & H2' & H3' & H4'). apply bs_eq_fields; try assumption.
  repeat split; congruence.
Qed.

(** * lists: [lookup], [rem], [remx], [from] *)
Lemma lookup_cons k k' v m : lookup k ((k', v) :: m) = if k' =? k then Some v else lookup k m.
Proof. reflexivity. Qed.
Lemma lookup_rem k k' m : lookup k (rem k' m) = if k =? k' then None else lookup k m.
Proof.
  unfold rem. induction m as [|[a b] m IH]; cbn [filter lookup fst].
  - destruct (k =? k'); reflexivity.
  - destruct (N.eqb_spec a k') as [->|Hne]; cbn [negb].
    + rewrite IH. destruct (N.eqb_spec k k') as [->|Hne']; [reflexivity|].
      destruct (N.eqb_spec k' k); [congruence|reflexivity].
    + cbn [lookup]. rewrite IH. destruct (N.eqb_spec a k) as [->|Hne2]; [|reflexivity].
      destruct (N.eqb_spec k k'); [congruence|reflexivity].
Qed.

Lemma in_remx x y l : In y (remx x l) <-> In y l /\ y <> x.
Proof.
  unfold remx. rewrite filter_In. split; intros [H1 H2]; (split; [exact H1|]).
  - intros ->. rewrite N.eqb_refl in H2. discriminate.
  - destruct (N.eqb_spec y x); [contradiction|reflexivity].
Qed.
Lemma remx_notin x l : ~ In x l -> remx x l = l.
Proof.
  induction l as [|a l IH]; intros H; [reflexivity|]. cbn [remx filter].
  destruct (N.eqb_spec a x) as [->|Hne]; [exfalso; apply H; left; reflexivity|].
  cbn [negb]. f_equal. apply IH. intros Hc. apply H. right. exact Hc.
Qed.
Lemma NoDup_remx x l : NoDup l -> NoDup (remx x l).
Proof. intros H. apply NoDup_filter. exact H. Qed.

(** the suffix of [l] that starts at [x] *)
Fixpoint from (x : N) (l : list N) : list N :=
  match l with
  | [] => []
  | y :: r => if y =? x then l else from x r
  end.

Lemma from_sub x l y : In y (from x l) -> In y l.
Proof.
  induction l as [|a l IH]; cbn [from]; [tauto|]. destruct (a =? x); [tauto|]. intros H. right. apply IH. exact H.
Qed.
Lemma from_notin x l : ~ In x l -> from x l = [].
Proof.
  induction l as [|a l IH]; intros H; [reflexivity|]. cbn [from].
  destruct (N.eqb_spec a x) as [->|Hne]; [exfalso; apply H; left; reflexivity|]. apply IH. intros Hc. apply H. right. exact Hc.
Qed.
Lemma from_in x l : In x l -> exists r, from x l = x :: r.
Proof.
  induction l as [|a l IH]; intros H; [destruct H|]. cbn [from].
  destruct (N.eqb_spec a x) as [->|Hne]; [eexists; reflexivity|]. destruct H as [H|H]; [contradiction|]. apply IH. exact H.
Qed.
Lemma from_hd x l : from x (x :: l) = x :: l.
Proof. cbn [from]. rewrite N.eqb_refl. reflexivity. Qed.
Lemma from_cons_ne x y l : y <> x -> from x (y :: l) = from x l.
Proof. intros H. cbn [from]. destruct (N.eqb_spec y x); [contradiction|reflexivity]. Qed.
Lemma from_filter (P : N -> bool) x l : P x = true -> from x (filter P l) = filter P (from x l).
Proof.
  intros HP. induction l as [|a l IH]; [reflexivity|]. cbn [filter from].
  destruct (P a) eqn:Ea.
  - cbn [from]. destruct (N.eqb_spec a x) as [->|Hne]; [cbn [filter]; rewrite Ea; reflexivity | exact IH].
  - destruct (N.eqb_spec a x) as [->|Hne]; [congruence | exact IH].
Qed.
Lemma from_remx x u l : x <> u -> from x (remx u l) = remx u (from x l).
Proof. intros H. apply from_filter. destruct (N.eqb_spec x u); [contradiction|reflexivity]. Qed.

(** [linksto nx c b]: consecutive elements of [c] are linked by [nx], the last one links to [b] *)
Fixpoint linksto (nx : N -> N) (c : list N) (b : N) : Prop :=
  match c with
  | [] => True
  | a :: r => nx a = hd b r /\ linksto nx r b
  end.
Lemma linksto_ext nx nx' c b : (forall x, In x c -> nx' x = nx x) -> linksto nx c b -> linksto nx' c b.
Proof.
  induction c as [|a c IH]; intros He H; cbn [linksto] in *; [exact I|].
  destruct H as [H1 H2]. split.
  - rewrite He; [exact H1 | left; reflexivity].
  - apply IH; [|exact H2]. intros x Hx. apply He. right. exact Hx.
Qed.
(** in a linked duplicate-free list without 0, the successor link of [x] starts the tail of [from x] *)
Lemma from_next nx l x : NoDup l -> ~ In 0 l -> linksto nx l 0 -> In x l -> from (nx x) l = tl (from x l).
Proof.
  induction l as [|a l IH]; intros Hnd H0 HL Hx; [destruct Hx|].
  cbn [linksto] in HL. destruct HL as [Ha HL]. inversion Hnd as [|a' l' Hna Hnd']; subst.
  assert (H0' : ~ In 0 l) by (intros Hc; apply H0; right; exact Hc).
  destruct (N.eq_dec a x) as [->|Hne].
  - rewrite from_hd. cbn [tl]. rewrite Ha. destruct l as [|b l]; cbn [hd].
    + cbn [from]. destruct (N.eqb_spec x 0) as [->|_]; [exfalso; apply H0; left; reflexivity|reflexivity].
    + rewrite from_cons_ne; [apply from_hd|]. intros ->. apply Hna. left. reflexivity.
  - destruct Hx as [Hx|Hx]; [contradiction|]. rewrite (from_cons_ne x a) by exact Hne.
    rewrite from_cons_ne; [apply IH; assumption|].
    intros E. (* nx x = a: impossible, a is not in l, but nx x is in l or 0 *)
    clear IH. revert Hx HL. clear -Hna H0 E. induction l as [|b l IH]; intros Hx HL; [destruct Hx|].
    cbn [linksto] in HL. destruct HL as [Hb HL]. destruct Hx as [->|Hx].
    + rewrite <- E in Hb. destruct l as [|c l]; cbn [hd] in Hb.
      * apply H0. left. exact Hb.
      * apply Hna. right. left. symmetry. exact Hb.
    + apply IH; try assumption.
      * intros Hc. apply H0. destruct Hc as [Hc|Hc]; [left; exact Hc|right; right; exact Hc].
      * intros Hc. apply Hna. right. exact Hc.
Qed.

Lemma in_snoc {X} (l : list X) (a b : X) : In a (l ++ [b]) <-> In a l \/ a = b.
Proof. rewrite in_app_iff. cbn. intuition. Qed.

(** the successor of a chain item is never the head of the chain *)
Lemma next_not_hd nx l x : NoDup l -> linksto nx l 0 -> ~ In 0 l -> In x l -> nx x <> hd 0 l.
Proof.
  intros Hnd HL H0 Hx E. destruct l as [|a l]; [destruct Hx|]. cbn [hd] in E.
  assert (Hin : In (nx x) (a :: l)) by (rewrite E; left; reflexivity).
  (* nx x = a: then from (nx x) = whole list = tl (from x ...) which is shorter *)
  pose proof (from_next nx (a :: l) x Hnd H0 HL Hx) as Hf. rewrite E, from_hd in Hf.
  assert (Hlen : (length (tl (from x (a :: l))) < length (a :: l))%nat).
  { destruct (from_in x (a :: l) Hx) as [r Hr]. rewrite Hr. cbn [tl].
    assert (Hle : (length (from x (a :: l)) <= length (a :: l))%nat).
    { clear. generalize (a :: l). intros l0. induction l0 as [|b l0 IH]; cbn [from length]; [lia|].
      destruct (b =? x); cbn [length]; lia. }
    rewrite Hr in Hle. cbn [length] in *. lia. }
  rewrite <- Hf in Hlen. lia.
Qed.

(** * Lock discipline *)
Definition mark (s i : N) : N := bs_set_delete_marker (bs_locked s) (i + 1).
Definition wf_s (s : N) : Prop :=
  s < 2 ^ 32 /\ bs_is_locked s = false /\ bs_delete_marker s = 0 /\ bs_item_count s <= 3.

(** the word [bucket.state] holds while a thread that owns the bucket lock is at [p] *)
Definition pc_bst (p : pc) : option N :=
  match p with
  | IK _ _ _ s _ | IV _ _ _ s _ | IUold _ _ _ s _ | ISK _ _ _ s | ISV _ _ _ s | IUnew _ _ _ s | IH _ _ _ s
  | IXK _ _ _ s _ | IXV _ _ _ s _ | IXN _ _ _ s _ | Grow s
  | A1 _ _ _ s _ | A2 _ _ _ s _ | A3 _ _ _ s _ | A4 _ _ _ s _ | A4u _ _ _ s _ | A5 _ _ _ s _ | A6 _ _ _ s _ _ | A7 _ _ _ s _
  | IXSK _ _ _ s _ | IXSV _ _ _ s _ | IXH _ _ _ s _ | IXSN _ _ _ s _ _ | IXSH _ _ _ s _ | IUnew2 _ _ _ s
  | XK _ _ s _ | XV _ _ s _ | XH _ _ s _ _ | XA1 _ _ s _ _ _ | XB1 _ _ s _ _ | XHH _ _ s
  | XXK _ _ s _ _ | XXV _ _ s _ _ | XXN _ _ s _ _ _ | XXP _ _ s _ _ _ _ | XXU _ _ s _ _ | XXM _ _ s _ | XU _ _ s =>
    Some (bs_locked s)
  | XA2 _ _ s i _ _ | XA3 _ _ s i _ _ _ | XA4 _ _ s i _ _ _ _ | XA5 _ _ s i _ _ _ | XA6 _ _ s i _ _
  | XB2 _ _ s i _ | XB3 _ _ s i _ _ | XB4 _ _ s i _ _ _ | XB5 _ _ s i _ _ => Some (mark s i)
  | XB6 _ _ s i _ => Some (if i =? bs_item_count s - 1 then bs_locked s else mark s i)
  | XA7 _ _ s _ _ _ | XA8 _ _ s _ _ _ _ | XA9 _ _ s _ _ => Some (bs_new_version (bs_locked s))
  | _ => None
  end.

(** local facts about the state word [s] a thread has read, and its array index *)
Definition pc_wf (p : pc) : Prop :=
  match p with
  | L3 _ _ _ s => bs_is_locked s = false
  | X3 _ _ s => bs_is_locked s = false /\ bs_item_count s <> 0
  | IK _ _ _ s i | IV _ _ _ s i => wf_s s /\ i < bs_item_count s
  | IUold _ _ _ s _ => wf_s s
  | ISK _ _ _ s | ISV _ _ _ s | IUnew _ _ _ s => wf_s s /\ bs_item_count s < 3
  | IH _ _ _ s | IXK _ _ _ s _ | IXV _ _ _ s _ | IXN _ _ _ s _ | Grow s
  | A1 _ _ _ s _ | A2 _ _ _ s _ | A3 _ _ _ s _ | A4 _ _ _ s _ | A4u _ _ _ s _ | A5 _ _ _ s _ | A6 _ _ _ s _ _ | A7 _ _ _ s _
  | IXSK _ _ _ s _ | IXSV _ _ _ s _ | IXH _ _ _ s _ | IXSN _ _ _ s _ _ | IXSH _ _ _ s _ | IUnew2 _ _ _ s =>
    wf_s s /\ bs_item_count s = 3
  | XK _ _ s i | XV _ _ s i | XH _ _ s i _ | XA1 _ _ s i _ _ | XA2 _ _ s i _ _ | XA3 _ _ s i _ _ _ | XA4 _ _ s i _ _ _ _
  | XA5 _ _ s i _ _ _ | XA6 _ _ s i _ _ | XA7 _ _ s i _ _ | XA8 _ _ s i _ _ _ | XB6 _ _ s i _ =>
    wf_s s /\ i < bs_item_count s
  | XB1 _ _ s i _ | XB2 _ _ s i _ | XB3 _ _ s i _ _ | XB4 _ _ s i _ _ _ | XB5 _ _ s i _ _ =>
    wf_s s /\ i < bs_item_count s /\ i <> bs_item_count s - 1
  | XA9 _ _ s _ _ | XHH _ _ s | XXK _ _ s _ _ | XXV _ _ s _ _ | XXN _ _ s _ _ _ | XXP _ _ s _ _ _ _ | XXU _ _ s _ _
  | XXM _ _ s _ | XU _ _ s => wf_s s /\ bs_item_count s <> 0
  | _ => True
  end.

Definition xlocked_pc (p : pc) : bool :=
  match p with
  | A4 _ _ _ _ _ | A4u _ _ _ _ _ | A5 _ _ _ _ _ | A6 _ _ _ _ _ _ | A7 _ _ _ _ _
  | F3 _ _ _ _ | F4 _ _ _ _ _ | F5 _ _ _ _ | F6 _ _ _ _ => true
  | _ => false
  end.

Record Lk (st : state) : Prop := mkLk {
  Lk_lt : bst st < 2 ^ 32;
  Lk_ic : bs_item_count (bst st) <= 3;
  Lk_ver : bs_version (bst st) = g_nver st mod 2 ^ 27;
  Lk_bit : bs_is_locked (bst st) = match g_owner st with Some _ => true | None => false end;
  Lk_mk : g_owner st = None -> bs_delete_marker (bst st) = 0;
  Lk_own : forall t, pc_bst (th st t) <> None -> g_owner st = Some t;
  Lk_pc : forall t, g_owner st = Some t -> pc_bst (th st t) = Some (bst st);
  Lk_wf : forall t, pc_wf (th st t);
  Lk_xbit : xlock st = match g_xowner st with Some _ => 1 | None => 0 end;
  Lk_xown : forall t, xlocked_pc (th st t) = true -> g_xowner st = Some t;
  Lk_xpc : forall t, g_xowner st = Some t -> xlocked_pc (th st t) = true
}.

Ltac st_simpl :=
  cbn [bst bhead akey aval xkey xval xnext xlock xhead th g_map g_owner g_xowner g_nver g_chain g_free g_dup g_limbo
       g_lp g_rv g_obs g_hist
       s_bst s_bhead s_akey s_aval s_xkey s_xval s_xnext s_xlock s_xhead s_th s_g_map s_g_owner s_g_xowner s_g_nver
       s_g_chain s_g_free s_g_dup s_g_limbo s_g_lp s_g_rv s_g_obs s_g_hist go obs lp ret bump] in *.

Lemma wf_W s : wf_s s -> W s false (bs_item_count s) 0 (bs_version s).
Proof. intros (H1 & H2 & H3 & H4). repeat split; assumption. Qed.

Lemma upd_cases {X} (f : nat -> X) t p t' : (t' = t /\ upd f t p t' = p) \/ (t' <> t /\ upd f t p t' = f t').
Proof.
  destruct (Nat.eq_dec t' t) as [->|Hne]; [left; split; [reflexivity|apply upd_same] | right; split; [exact Hne|apply upd_other; exact Hne]].
Qed.

(** in a goal about [upd f t p t'] for all [t']: the stepping thread, then another thread *)
Ltac split_t' t' :=
  intros t'; match goal with |- context [upd ?f ?t ?p t'] => destruct (upd_cases f t p t') as [[-> E]|[Hne E]]; rewrite E; clear E end.

Lemma mod27_succ a : (a mod 2 ^ 27 + 1) mod 2 ^ 27 = (a + 1) mod 2 ^ 27.
Proof. rewrite N.add_mod_idemp_l; [reflexivity|]. rewrite pow2_27. discriminate. Qed.

Ltac b2p :=
  repeat match goal with
  | H : (_ =? _) = true |- _ => apply N.eqb_eq in H
  | H : (_ =? _) = false |- _ => apply N.eqb_neq in H
  | H : (_ <? _) = true |- _ => apply N.ltb_lt in H
  | H : (_ <? _) = false |- _ => apply N.ltb_ge in H
  | H : negb _ = true |- _ => apply negb_true_iff in H
  | H : negb _ = false |- _ => apply negb_false_iff in H
  end.

Lemma C_bic : C_bucket_item_count = 3.
Proof. reflexivity. Qed.

Ltac st_simpl_goal :=
  cbn [bst bhead akey aval xkey xval xnext xlock xhead th g_map g_owner g_xowner g_nver g_chain g_free g_dup g_limbo
       g_lp g_rv g_obs g_hist
       s_bst s_bhead s_akey s_aval s_xkey s_xval s_xnext s_xlock s_xhead s_th s_g_map s_g_owner s_g_xowner s_g_nver
       s_g_chain s_g_free s_g_dup s_g_limbo s_g_lp s_g_rv s_g_obs s_g_hist go obs lp ret bump].

(** the transitions of [step] (Proof/VhmStep.v), one goal each with the successor state in constructor form;
    [t] names the stepping thread, [Epc] its program point *)
Ltac step_split H t :=
  destruct (step_cases _ _ _ _ _ H) as [t o Epc|t p p' Epc Hl|t p st' Epc Hs|t p st' Epc Hr]; clear H;
  [ | destruct Hl | destruct Hs | destruct Hr]; st_simpl_goal; unfold g_next_slot;
  repeat match goal with |- context [if ?c then _ else _] => destruct c eqn:? end.

Section VhmBase.
  Variable xoff : N.
  Notation step := (step xoff).

  Lemma Lk_init : Lk init.
  Proof.
    constructor; cbn; try (intros; discriminate); try reflexivity; try lia; try (intros; congruence).
  Qed.

  (** the five clauses of [Lk] about the state word *)
  Definition word_inv (w : N) (o : option nat) (n : N) : Prop :=
    w < 2 ^ 32 /\ bs_item_count w <= 3 /\ bs_version w = n mod 2 ^ 27 /\
    bs_is_locked w = match o with Some _ => true | None => false end /\ (o = None -> bs_delete_marker w = 0).

  Lemma Lk_word st : Lk st -> word_inv (bst st) (g_owner st) (g_nver st).
  Proof. intros []. repeat split; assumption. Qed.

  Lemma word_inv_W w l c d v o n : W w l c d v -> c <= 3 -> v = n mod 2 ^ 27 ->
    l = match o with Some _ => true | None => false end -> (o = None -> d = 0) -> word_inv w o n.
  Proof. intros (H & <- & <- & <- & <-) Hc Hv Hl Hd. repeat split; assumption. Qed.

  Lemma Lk_holder st t p w : Lk st -> th st t = p -> pc_bst p = Some w -> g_owner st = Some t /\ w = bst st.
  Proof.
    intros HI <- Hb. assert (Ho : g_owner st = Some t) by (apply (Lk_own _ HI); rewrite Hb; discriminate).
    split; [exact Ho|]. pose proof (Lk_pc _ HI t Ho) as Hp. congruence.
  Qed.
  Lemma holder_ver st t p w : Lk st -> th st t = p -> pc_bst p = Some w ->
    forall l c d v, W w l c d v -> v = g_nver st mod 2 ^ 27.
  Proof. intros HI Ep Hb l c d v (_ & _ & _ & _ & <-). destruct (Lk_holder _ _ _ _ HI Ep Hb) as [_ ->]. exact (Lk_ver _ HI). Qed.

  (** [Lk] after a step of [t] from [p] to [p'].  Per lock: [t] may take it only when it is free, the new ghost
      owner is [t] if [p'] holds it, nobody if [p] held it and [p'] does not, else the old one; a holder's
      program point tells the state word.  The side conditions are written so that they compute for concrete
      [p], [p']. *)
  Lemma Lk_upd st st' t p p' : Lk st -> th st t = p -> th st' = upd (th st) t p' -> (pc_wf p -> pc_wf p') ->
    match pc_bst p, pc_bst p' with None, Some _ => bs_is_locked (bst st) = false | _, _ => True end ->
    g_owner st' = match pc_bst p', pc_bst p with Some _, None => Some t | None, Some _ => None | _, _ => g_owner st end ->
    match pc_bst p', pc_bst p with
    | Some w', Some w => (w' = w /\ bst st' = bst st) \/ w' = bst st'
    | Some w', None => w' = bst st'
    | None, Some _ => True
    | None, None => bst st' = bst st
    end ->
    word_inv (bst st') (g_owner st') (g_nver st') ->
    (if xlocked_pc p then True else if xlocked_pc p' then xlock st = 0 else True) ->
    g_xowner st' = match xlocked_pc p', xlocked_pc p with true, false => Some t | false, true => None | _, _ => g_xowner st end ->
    xlock st' = match xlocked_pc p', xlocked_pc p with true, false => 1 | false, true => 0 | _, _ => xlock st end -> Lk st'.
  Proof.
    intros HI Ep Eth Hwf Hfree Ho' Hb' (W1 & W2 & W3 & W4 & W5) Hxfree Hxo' Hx'.
    assert (Hu : forall u, (u = t /\ th st' u = p') \/ (u <> t /\ th st' u = th st u)).
    { intros u. rewrite Eth. destruct (upd_cases (th st) t p' u) as [[-> E]|[Hne E]]; auto. }
    (* the owners before the step, seen from [p] *)
    assert (Ho : match pc_bst p with Some _ => g_owner st = Some t | None => g_owner st <> Some t end).
    { rewrite <- Ep. destruct (pc_bst (th st t)) eqn:E; [apply (Lk_own _ HI); rewrite E; discriminate|].
      intros Hc. rewrite (Lk_pc _ HI t Hc) in E. discriminate. }
    assert (Hxo : if xlocked_pc p then g_xowner st = Some t else g_xowner st <> Some t).
    { rewrite <- Ep. destruct (xlocked_pc (th st t)) eqn:E; [apply (Lk_xown _ HI); exact E|].
      intros Hc. rewrite (Lk_xpc _ HI t Hc) in E. discriminate. }
    assert (Hfree' : match pc_bst p, pc_bst p' with None, Some _ => g_owner st = None | _, _ => True end).
    { destruct (pc_bst p), (pc_bst p'); try exact I. pose proof (Lk_bit _ HI) as Hbit. destruct (g_owner st); congruence. }
    assert (Hxfree' : if xlocked_pc p then True else if xlocked_pc p' then g_xowner st = None else True).
    { destruct (xlocked_pc p), (xlocked_pc p'); try exact I. pose proof (Lk_xbit _ HI) as Hbit. destruct (g_xowner st); congruence. }
    constructor; try assumption.
    - intros u. destruct (Hu u) as [[-> ->]|[Hne ->]].
      + rewrite Ho'. destruct (pc_bst p'), (pc_bst p); congruence.
      + intros Hc. pose proof (Lk_own _ HI u Hc) as Hou. rewrite Ho'.
        destruct (pc_bst p), (pc_bst p'); congruence.
    - intros u Hou. rewrite Ho' in Hou. pose proof (Lk_pc _ HI t) as Hpt. rewrite Ep in Hpt.
      destruct (Hu u) as [[-> ->]|[Hne ->]].
      + destruct (pc_bst p'), (pc_bst p); try congruence. destruct Hb' as [[E1 E2]|E1]; [specialize (Hpt Hou)|]; congruence.
      + destruct (pc_bst p'), (pc_bst p); try congruence. rewrite Hb'. apply (Lk_pc _ HI). exact Hou.
    - intros u. destruct (Hu u) as [[-> ->]|[_ ->]]; [apply Hwf; rewrite <- Ep|]; apply (Lk_wf _ HI).
    - rewrite Hx', Hxo'. pose proof (Lk_xbit _ HI). destruct (xlocked_pc p'), (xlocked_pc p); auto.
    - intros u. destruct (Hu u) as [[-> ->]|[Hne ->]].
      + rewrite Hxo'. intros ->. destruct (xlocked_pc p); auto.
      + intros Hc. pose proof (Lk_xown _ HI u Hc) as Hou. rewrite Hxo'.
        destruct (xlocked_pc p), (xlocked_pc p'); congruence.
    - intros u Hou. rewrite Hxo' in Hou. destruct (Hu u) as [[-> ->]|[Hne ->]].
      + destruct (xlocked_pc p'), (xlocked_pc p); congruence.
      + destruct (xlocked_pc p'), (xlocked_pc p); try congruence. apply (Lk_xpc _ HI). exact Hou.
  Qed.

  Lemma word_acquire st t : Lk st -> bs_is_locked (bst st) = false -> word_inv (bs_locked (bst st)) (Some t) (g_nver st).
  Proof.
    intros HI Hu. assert (Ho : g_owner st = None) by (pose proof (Lk_bit _ HI) as Hbit; destruct (g_owner st); congruence).
    pose proof (W_ex _ (Lk_lt _ HI)) as HW. rewrite Hu, (Lk_mk _ HI Ho) in HW.
    eapply word_inv_W; [exact (W_locked _ _ _ _ _ HW) | exact (Lk_ic _ HI) | exact (Lk_ver _ HI) | reflexivity | discriminate].
  Qed.

  Lemma Lk_step st a st' es : Lk st -> step st a = Some (st', es) -> Lk st'.
  Proof.
    intros HI H. pose proof (Lk_word _ HI) as Hw.
    destruct (step_cases _ _ _ _ _ H) as [t o Ep|t p p' Ep Hl|t p st' Ep Hs|t p st' Ep Hr]; clear H;
      pose proof (Lk_wf _ HI t) as Hwf; rewrite Ep in Hwf;
      [ | destruct Hl | destruct Hs | destruct Hr]; cbn [pc_wf] in Hwf; unfold g_next_slot;
      repeat match goal with |- context [if ?c then _ else _] => destruct c eqn:? end; try subst s;
      (eapply (Lk_upd st _ t _ _ HI Ep); [reflexivity| ..]); cbn [pc_bst xlocked_pc pc_wf]; auto.
    (* what a load has learnt about [s] and [i]; a lock acquisition reads an unlocked word *)
    all: try solve [ destruct Hw as (W1 & W2 & _ & W4 & W5); unfold wf_s in *; b2p; rewrite ?C_bic in *;
                     try (destruct (g_owner st); [intuition congruence | specialize (W5 eq_refl)]); intuition lia ].
    (* the word at XB6 depends on whether [i] is the last slot *)
    all: try solve [destruct (N.eqb_spec i (bs_item_count s - 1)); b2p; first [congruence | tauto | left; split; reflexivity]].
    (* the new state word.  A holder's program point tells [bucket.state], whose version is [g_nver] *)
    all: cbn [bst g_owner g_nver go ret lp bump s_bst s_g_owner s_g_nver s_th s_g_hist s_g_lp s_g_map s_g_dup s_g_limbo].
    all: try (destruct (Lk_holder st t _ _ HI Ep eq_refl) as [Ho Hb]; pose proof (holder_ver st t _ _ HI Ep eq_refl) as Hv;
              assert (Hs : W s false (bs_item_count s) 0 (bs_version s)) by (apply wf_W; tauto);
              pose proof (W_locked _ _ _ _ _ Hs) as Hl; rewrite ?Ho).
    all: try match type of Hv with context [if ?c then _ else _] =>   (* XB6 *)
           assert (Hv' : bs_version s = g_nver st mod 2 ^ 27) by
             (destruct c; [exact (Hv _ _ _ _ Hl) | exact (Hv _ _ _ _ (W_mark _ _ _ _ (i + 1) Hl ltac:(unfold wf_s in Hwf; lia)))])
         end.
    - (* L3 *) apply word_acquire; assumption.
    - apply word_acquire; assumption.
    - (* IUold *) eapply word_inv_W; [exact Hs | apply Hwf | exact (Hv _ _ _ _ Hl) | reflexivity | reflexivity].
    - (* IUnew *) eapply word_inv_W; [exact (W_inc _ _ _ _ _ Hs (proj2 Hwf)) | lia | exact (Hv _ _ _ _ Hl) | reflexivity | reflexivity].
    - (* IUnew2 *) eapply word_inv_W; [exact Hs | apply Hwf | exact (Hv _ _ _ _ Hl) | reflexivity | reflexivity].
    - (* X3 *) apply word_acquire; tauto.
    - (* XA1 *) eapply word_inv_W; [exact (W_mark _ _ _ _ (i + 1) Hl ltac:(unfold wf_s in Hwf; lia)) | apply Hwf | exact (Hv _ _ _ _ Hl) | reflexivity | discriminate].
    - (* XA6 *) pose proof (Hv _ _ _ _ (W_mark _ _ _ _ (i + 1) Hl ltac:(unfold wf_s in Hwf; lia))) as Hv'.
      eapply word_inv_W; [exact (W_nv _ _ _ _ _ Hl) | apply Hwf | | reflexivity | discriminate].
      rewrite <- (mod27_succ (g_nver st)), <- Hv'. reflexivity.
    - (* XA9 *) pose proof (W_nv _ _ _ _ _ Hl) as Hn. pose proof (Hv _ _ _ _ Hn) as Hv'.
      eapply word_inv_W; [exact (W_clear _ _ _ _ (W_nv _ _ _ _ _ Hn)) | apply Hwf | | reflexivity | reflexivity].
      rewrite Hv'. apply mod27_succ.
    - (* XB1 *) eapply word_inv_W; [exact (W_mark _ _ _ _ (i + 1) Hl ltac:(unfold wf_s in Hwf; lia)) | apply Hwf | exact (Hv _ _ _ _ Hl) | reflexivity | discriminate].
    - (* XB6, last slot *)
      eapply word_inv_W; [exact (W_dec _ _ _ _ _ (W_nv _ _ _ _ _ Hs) ltac:(lia)) | unfold wf_s in Hwf; lia | | reflexivity | reflexivity].
      rewrite <- (mod27_succ (g_nver st)), <- Hv'. reflexivity.
    - (* XB6, back-filled slot *)
      eapply word_inv_W; [exact (W_dec _ _ _ _ _ (W_nv _ _ _ _ _ Hs) ltac:(lia)) | unfold wf_s in Hwf; lia | | reflexivity | reflexivity].
      rewrite <- (mod27_succ (g_nver st)), <- Hv'. reflexivity.
    - (* XXU *) eapply word_inv_W; [exact (W_nv _ _ _ _ _ Hs) | apply Hwf | | reflexivity | reflexivity].
      rewrite <- (mod27_succ (g_nver st)), <- (Hv _ _ _ _ Hl). reflexivity.
    - (* XU *) eapply word_inv_W; [exact Hs | apply Hwf | exact (Hv _ _ _ _ Hl) | reflexivity | reflexivity].
  Qed.

  Theorem Lk_reach st : reach init step st -> Lk st.
  Proof. apply inv_rule; [exact Lk_init | intros s a s' es; apply Lk_step]. Qed.

  (** at most one thread is at a program point between the lock acquisition and the unlocking store *)
  Theorem vhm_mutex st t t' : reach init step st ->
    pc_bst (th st t) <> None -> pc_bst (th st t') <> None -> t = t'.
  Proof.
    intros Hr H1 H2. pose proof (Lk_reach _ Hr) as HI.
    pose proof (Lk_own _ HI t H1). pose proof (Lk_own _ HI t' H2). congruence.
  Qed.
End VhmBase.
