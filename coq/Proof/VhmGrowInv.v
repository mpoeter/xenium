(** vyukov_hash_map with several buckets and grow: the lock-free reader (try_get_value) across any number of grows,
    the lock-free prefix of erase / extract, retired blocks, and the final theorems. *)
From Coq Require Import NArith List Bool Lia PeanoNat.
From XV Require Import Base.Word Conc.Lts Conc.Ev gen.BucketStateGen Proof.BucketState Model.VhmGrowDefs
  Proof.VhmGrowBase Proof.VhmGrowAbs.
From XV Require Proof.VhmBase Proof.VhmAbs.
Import ListNotations.
Local Open Scope N_scope.

(** the version counters did not wrap around: fewer than 2^27 removals per bucket (of an allocated block) so far *)
Definition Bnd (st : state) : Prop := forall b j, b < nalloc st -> g_nver st b j < 2 ^ 27.

(** no version increment of bucket (b, j) since the reader's last load of its state *)
Definition Cur (st : state) (t : nat) (b j : N) : Prop := g_rv st t = g_nver st b j.
(** a removal is past its linearization point and its version increment has not been stored yet *)
Definition pend (st : state) (b j : N) : Prop := mk st b j <> 0.

Definition esc (st : state) (t : nat) (b j k : N) : Prop :=
  In None (g_obs st t) \/ (lookup k (g_map st) = None /\ pend st b j).
Definition slotw (st : state) (b j s k i : N) : Prop :=
  exists x, i <= x /\ x < bs_item_count s /\ x + 1 <> mk st b j /\ akey st b j x = k.

Definition RB (st : state) (t : nat) (b j s : N) : Prop :=
  g_rv st t <= g_nver st b j /\ bs_version s = g_rv st t mod 2 ^ 27 /\ bs_item_count s <= 3.

(** unconditional part *)
Definition RU (st : state) (t : nat) (p : pc) : Prop :=
  match p with
  | GK _ b j s i | GV _ b j s i | GD _ b j s i _ | GS _ b j s i _ => RB st t b j s /\ i < bs_item_count s
  | GH _ b j s | GE _ b j s => RB st t b j s
  | _ => True
  end.
(** part that holds as long as the version has not changed *)
Definition RK (st : state) (t : nat) (p : pc) : Prop :=
  match p with
  | GK k b j s i => bs_item_count s <= ic st b j /\ (esc st t b j k \/ slotw st b j s k i)
  | GV k b j s i => bs_item_count s <= ic st b j /\ (esc st t b j k \/ slotw st b j s k i) /\
                    (mk st b j = i + 1 \/ akey st b j i = k)
  | GD k b j s i v | GS k b j s i v =>
    bs_item_count s <= ic st b j /\ (esc st t b j k \/ slotw st b j s k i) /\
    (mk st b j = i + 1 \/ (akey st b j i = k /\ aval st b j i = v))
  | GH k b j s | GE k b j s => esc st t b j k
  | _ => True
  end.
Definition pc_cur (st : state) (t : nat) (p : pc) : Prop :=
  match p with
  | GK _ b j _ _ | GV _ b j _ _ | GD _ b j _ _ _ | GS _ b j _ _ _ | GH _ b j _ | GE _ b j _ => Cur st t b j
  | _ => True
  end.
Definition RI (st : state) (t : nat) (p : pc) : Prop := RU st t p /\ (pc_cur st t p -> RK st t p).

(** a reader (or the lock-free prefix of erase / extract) that still works on a replaced block has observed, at the
    publication of the new block, what the frozen bucket says about its key *)
Definition pc_obs_ref (p : pc) : option (N * N * N) :=
  match p with
  | X2 _ k b j | G2 k b j | GK k b j _ _ | GV k b j _ _ | GD k b j _ _ _ | GS k b j _ _ _ | GH k b j _ | GE k b j _ => Some (b, j, k)
  | _ => None
  end.
Definition FZ (st : state) (t : nat) (p : pc) : Prop :=
  forall b j k, pc_obs_ref p = Some (b, j, k) -> g_frozen st b = true ->
    (forall i, i < ic st b j -> akey st b j i = k -> In (Some (aval st b j i)) (g_obs st t)) /\
    ((forall i, i < ic st b j -> akey st b j i <> k) -> In None (g_obs st t)).

(** results of the completed lock-free calls: the value returned (or 'absent') is what [g_map] associated with the
    key at one of the recorded instants of the call *)
Definition hist_ok_r (h : hrec) : Prop :=
  match h_op h with
  | OGet _ => (exists v, h_res h = [4; 1; v] /\ In (Some v) (h_obs h)) \/ (h_res h = [4; 0] /\ In None (h_obs h))
  | ODel _ | OExt _ => h_wit h = None -> In None (h_obs h)
  | _ => True
  end.

Lemma in_snoc {X} (l : list X) (a b : X) : In a (l ++ [b]) <-> In a l \/ a = b.
Proof. rewrite in_app_iff. cbn. intuition. Qed.
Lemma NoDup_app_snoc {X} (l : list X) (a : X) : NoDup l -> ~ In a l -> NoDup (l ++ [a]).
Proof.
  induction l as [|b l IH]; intros Hnd Hn; cbn [app]; [constructor; [intros []|constructor]|].
  inversion Hnd as [|? ? H1 H2]; subst. constructor.
  - rewrite in_snoc. intros [H|H]; [contradiction | subst; apply Hn; left; reflexivity].
  - apply IH; [exact H2 | intros H; apply Hn; right; exact H].
Qed.

(** * what the steps of the other threads guarantee to a reader of bucket (b, j) as long as its version does not change *)
Record Env (hash : N -> N) (st st' : state) (b j : N) : Prop := mkEnv {
  En_ic : ic st b j <= ic st' b j;
  En_slot : forall x, x < ic st b j -> x + 1 <> mk st b j -> x + 1 <> mk st' b j ->
            akey st' b j x = akey st b j x /\ aval st' b j x = aval st b j x;
  En_mk : mk st b j <> 0 -> mk st' b j = mk st b j;
  En_mk_lp : forall x, x < ic st b j -> x + 1 <> mk st b j -> x + 1 = mk st' b j -> lookup (akey st b j x) (g_map st') = None;
  En_pend : pend st b j -> pend st' b j /\ forall k, j = hash k mod bcnt st b -> lookup k (g_map st) = None -> lookup k (g_map st') = None
}.

Section VhmGrowInv.
  Variable hash : N -> N.
  Notation step := (step hash).
  Notation Lk := (Lk hash).
  Notation Env := (Env hash).

  Lemma RK_env st st' t p : (forall b j k, pc_ref p = Some (b, j, k) -> Env st st' b j /\ j = hash k mod bcnt st b) ->
    (forall o, In o (g_obs st t) -> In o (g_obs st' t)) -> RU st t p -> RK st t p -> RK st' t p.
  Proof.
    intros HEp Eo HU HK.
    assert (Hgen : forall b j k, Env st st' b j -> j = hash k mod bcnt st b ->
      (esc st t b j k -> esc st' t b j k) /\
      (forall s i, bs_item_count s <= ic st b j -> slotw st b j s k i -> esc st' t b j k \/ slotw st' b j s k i) /\
      (forall i (P : Prop), i < ic st b j -> (mk st b j = i + 1 \/ (akey st b j i = k /\ P)) ->
                 (mk st' b j = i + 1 \/ (akey st b j i = k /\ P /\ i + 1 <> mk st b j /\ i + 1 <> mk st' b j))) /\
      ic st b j <= ic st' b j).
    { intros b j k HE Hj.
      assert (Hesc : esc st t b j k -> esc st' t b j k).
      { intros [H|[H1 H2]]; [left; apply Eo; exact H | right]. destruct (En_pend _ _ _ _ _ HE H2) as [H3 H4]. auto. }
      split; [exact Hesc|]. split; [|split; [|exact (En_ic _ _ _ _ _ HE)]].
      - intros s i Hic (x & H1 & H2 & H3 & H4). destruct (N.eq_dec (x + 1) (mk st' b j)) as [E|E].
        + left. right. split; [|unfold pend; lia]. rewrite <- H4. apply (En_mk_lp _ _ _ _ _ HE); [lia | exact H3 | exact E].
        + right. exists x. destruct (En_slot _ _ _ _ _ HE x ltac:(lia) H3 E) as [E1 _]. rewrite E1. auto.
      - intros i P Hi [H|[H1 H2]].
        + left. rewrite (En_mk _ _ _ _ _ HE); [exact H | lia].
        + destruct (N.eq_dec (mk st b j) (i + 1)) as [E|E]; [left; rewrite (En_mk _ _ _ _ _ HE); [exact E | lia]|].
          destruct (N.eq_dec (mk st' b j) (i + 1)) as [E'|E']; [left; exact E'|]. right. repeat split; auto. }
    destruct p; cbn [RK RU pc_ref] in *; try exact I.
    all: destruct (HEp _ _ _ eq_refl) as [HE Hj]; destruct (Hgen _ _ _ HE Hj) as (Hesc & Hslot & Hfa & Hic).
    - (* GK *) destruct HK as [H1 H2]. split; [lia|]. destruct H2 as [H|H]; [auto | destruct (Hslot _ _ H1 H); auto].
    - (* GV *) destruct HK as (H1 & H2 & H3). destruct HU as [_ Hi]. split; [lia|]. split.
      + destruct H2 as [H|H]; [auto | destruct (Hslot _ _ H1 H); auto].
      + assert (H3' : mk st b j = i + 1 \/ (akey st b j i = k /\ True)) by tauto.
        destruct (Hfa i True ltac:(lia) H3') as [H|(H4 & _ & H5 & H6)]; [left; exact H|right].
        destruct (En_slot _ _ _ _ _ HE i ltac:(lia) H5 H6) as [-> _]. exact H4.
    - (* GD *) destruct HK as (H1 & H2 & H3). destruct HU as [_ Hi]. split; [lia|]. split.
      + destruct H2 as [H|H]; [auto | destruct (Hslot _ _ H1 H); auto].
      + destruct (Hfa i (aval st b j i = v) ltac:(lia) H3) as [H|(H4 & H7 & H5 & H6)]; [left; exact H|right].
        destruct (En_slot _ _ _ _ _ HE i ltac:(lia) H5 H6) as [-> ->]. auto.
    - (* GS *) destruct HK as (H1 & H2 & H3). destruct HU as [_ Hi]. split; [lia|]. split.
      + destruct H2 as [H|H]; [auto | destruct (Hslot _ _ H1 H); auto].
      + destruct (Hfa i (aval st b j i = v) ltac:(lia) H3) as [H|(H4 & H7 & H5 & H6)]; [left; exact H|right].
        destruct (En_slot _ _ _ _ _ HE i ltac:(lia) H5 H6) as [-> ->]. auto.
    - (* GH *) auto.
    - (* GE *) auto.
  Qed.

  (** steps that leave the logical content of the bucket alone *)
  Lemma Env_same st st' b j : ic st' b j = ic st b j -> mk st' b j = mk st b j ->
    (forall x, x < ic st b j -> x + 1 <> mk st b j -> akey st' b j x = akey st b j x /\ aval st' b j x = aval st b j x) ->
    (pend st b j -> forall k, j = hash k mod bcnt st b -> lookup k (g_map st) = None -> lookup k (g_map st') = None) ->
    Env st st' b j.
  Proof.
    intros Eic Emk Hs Hm. constructor.
    - lia.
    - intros x H1 H2 _. apply Hs; assumption.
    - intros _. exact Emk.
    - intros x _ H1 H2. congruence.
    - intros H. split; [unfold pend in *; congruence | apply Hm; exact H].
  Qed.

  (** insertion into the array (unlocking store) *)
  Lemma Env_ins_slot st st' b j : ic st' b j = ic st b j + 1 -> mk st' b j = mk st b j -> mk st b j = 0 ->
    (forall x, akey st' b j x = akey st b j x /\ aval st' b j x = aval st b j x) -> Env st st' b j.
  Proof.
    intros Eic Emk Hmk Hs. constructor.
    - lia.
    - intros x _ _ _. apply Hs.
    - intros H. contradiction.
    - intros x _ _ H. lia.
    - intros H. unfold pend in H. contradiction.
  Qed.

  (** removal from the array: store of the delete marker *)
  Lemma Env_mark st st' b j i : ic st' b j = ic st b j -> mk st b j = 0 -> mk st' b j = i + 1 ->
    (forall x, akey st' b j x = akey st b j x /\ aval st' b j x = aval st b j x) ->
    g_map st' = rem (akey st b j i) (g_map st) -> Env st st' b j.
  Proof.
    intros Eic Hmk Emk Hs Em. constructor.
    - lia.
    - intros x _ _ _. apply Hs.
    - intros H. contradiction.
    - intros x _ _ H. assert (x = i) by lia. subst x. rewrite Em, VhmBase.lookup_rem, N.eqb_refl. reflexivity.
    - intros H. unfold pend in H. contradiction.
  Qed.

  (** a pending removal: the bucket is locked, so it belongs to the current block *)
  Lemma pend_cur st b j : Lk st -> pend st b j -> b = db st /\ j < bcnt st b /\ exists u, g_own st b j = Some u.
  Proof.
    intros HI Hp. destruct (g_own st b j) as [u|] eqn:Eo.
    - destruct (own_cur hash _ _ _ _ HI Eo). eauto.
    - exfalso. apply Hp. apply (K_mk _ _ HI). intros t Ht. congruence.
  Qed.

  (** a step that works on another bucket (b, j) of the current block, for key k *)
  Lemma Env_other st st' b j k b0 j0 : Lk st -> b0 <> b \/ j0 <> j -> b = db st -> j = hash k mod bcnt st b ->
    bst st' b0 j0 = bst st b0 j0 -> (forall x, akey st' b0 j0 x = akey st b0 j0 x /\ aval st' b0 j0 x = aval st b0 j0 x) ->
    (forall k', k' <> k -> lookup k' (g_map st) = None -> lookup k' (g_map st') = None) -> Env st st' b0 j0.
  Proof.
    intros HI Hne Hb Hj Eb Hs Hm. apply Env_same; try (unfold ic, mk; rewrite Eb; reflexivity).
    - intros x _ _. apply Hs.
    - intros Hp k' Hk'. destruct (pend_cur _ _ _ HI Hp) as (Hb0 & _). apply Hm. intros ->. subst b b0. destruct Hne; congruence.
  Qed.

  (** the writers change the map at their own key only *)
  Lemma map_other (m m' : list (N * N)) k : m' = m \/ (exists v, m' = (k, v) :: m) \/ m' = rem k m ->
    forall k', k' <> k -> lookup k' m = None -> lookup k' m' = None.
  Proof.
    intros [->|[[v ->]| ->]] k' Hne Hn; [exact Hn | rewrite VhmBase.lookup_cons | rewrite VhmBase.lookup_rem].
    - destruct (N.eqb_spec k k'); [congruence | exact Hn].
    - destruct (k' =? k); [reflexivity | exact Hn].
  Qed.

  (** the bucket (b0, j0) is not the one the step writes to *)
  Ltac other_bucket HI b j k Hcur Hj :=
    right; split; [st_simpl_goal; rewrite ?setf2_other by auto; reflexivity |
      apply (Env_other _ _ b j k); [exact HI | auto | exact Hcur | exact Hj
        | st_simpl_goal; rewrite ?setf2_other by auto; reflexivity
        | intros; st_simpl_goal; rewrite ?setf3_other by tauto; split; reflexivity
        | eapply map_other; st_simpl_goal; eauto]].

  Lemma step_env st a st' es b0 j0 : Lk st -> (forall t, pc_abs st t (th st t)) -> step st a = Some (st', es) ->
    b0 = db st \/ g_frozen st b0 = true ->
    g_nver st' b0 j0 = g_nver st b0 j0 + 1 \/ (g_nver st' b0 j0 = g_nver st b0 j0 /\ Env st st' b0 j0).
  Proof.
    intros HI HA H Hb0.
    assert (Hlt0 : b0 < nalloc st) by (destruct Hb0 as [->|Hf]; [apply (K_db _ _ HI) | apply (K_fr _ _ HI); exact Hf]).
    destruct (step_inv hash _ _ _ _ H) as [t o Epc | t p st1 p' Epc HL | t p st1 p' Epc HS].
    1: right; split; [reflexivity|]; apply Env_same; [reflexivity | reflexivity | intros; split; reflexivity | intros; assumption].
    1: destruct (tlocal_ghost hash _ _ _ _ _ HL) as (l & r & o & h & ->);
       right; split; [reflexivity|]; apply Env_same; [reflexivity | reflexivity | intros; split; reflexivity | intros; assumption].
    destruct HS; st_simpl.
    all: try (right; split; [reflexivity|]; apply Env_same; [reflexivity | reflexivity | intros; split; reflexivity | intros; assumption]).
    all: pose proof (K_wf _ _ HI t) as Hwf; rewrite Epc in Hwf; cbn [pc_wf] in Hwf.
    all: pose proof (HA t) as Hab; rewrite Epc in Hab; cbn [pc_abs] in Hab.
    all: try (destruct (holder_facts hash _ t _ _ _ HI ltac:(rewrite Epc; reflexivity) ltac:(rewrite Epc; reflexivity)) as (Hb & Ho & Hcur & Hjlt & Hfz)).
    all: try (pose proof (K_ref _ _ HI t) as Href; rewrite Epc in Href; cbn [pc_ref] in Href; destruct (Href _ _ _ eq_refl) as [Hbb Hj]; clear Href).
    all: try (assert (Hwfs : wf_s s) by tauto;
              destruct (VhmAbs.wf_fields s Hwfs) as (FL1 & FL2 & FM & FN1 & FN2 & FC1 & FC2 & FV1 & FV2 & FS & FI & FD)).
    all: unfold VhmBase.mark in *.
    all: try (assert (Hicst : ic st b j = bs_item_count s) by
               (unfold ic; rewrite Hb; first [exact FL1 | apply FM; tauto]);
              assert (Hmkst : mk st b j = 0 \/ True) by (left; unfold mk; rewrite Hb; exact FL2)).
    (* another bucket than the one the holder of a lock writes to *)
    all: try match goal with |- context [if ?c then rem _ _ else _] => destruct c end.
    all: try (destruct (N.eq_dec b0 b) as [->|Hnb]; [destruct (N.eq_dec j0 j) as [->|Hnj]|]; [|other_bucket HI b j k Hcur Hj ..]).
    - (* L3 *) subst s. destruct (acq_facts hash st t _ _ _ HI ltac:(rewrite Epc; reflexivity) Hwf) as (_ & Hcur & _).
      destruct (N.eq_dec b0 b) as [->|Hnb]; [destruct (N.eq_dec j0 j) as [->|Hnj]|]; [|other_bucket HI b j k Hcur Hj ..].
      right. split; [reflexivity|]. apply Env_same; unfold ic, mk; st_simpl_goal; rewrite ?setf2_same.
      + apply bs_locked_item_count. + apply bs_locked_delete_marker. + intros; split; reflexivity. + intros; assumption.
    - (* IUold *) right. split; [reflexivity|]. apply Env_same; unfold ic, mk; st_simpl_goal; rewrite ?setf2_same, ?Hb.
      + congruence. + congruence. + intros; split; reflexivity. + intros; assumption.
    - (* ISK *) right. split; [reflexivity|]. apply Env_same; try reflexivity; [|intros; assumption].
      intros x Hx _. st_simpl_goal. rewrite setf3_other by (right; right; lia). split; reflexivity.
    - (* ISV *) right. split; [reflexivity|]. apply Env_same; try reflexivity; [|intros; assumption].
      intros x Hx _. st_simpl_goal. rewrite setf3_other by (right; right; lia). split; reflexivity.
    - (* IUnew *) right. split; [reflexivity|]. destruct Hwf as [_ Hlt]. destruct (FI Hlt) as [FI1 FI2].
      apply Env_ins_slot; unfold ic, mk; st_simpl_goal; rewrite ?setf2_same, ?Hb.
      + congruence. + congruence. + exact FL2. + intros; split; reflexivity.
    - (* GR2 *) right. split; [reflexivity|]. apply Env_same; unfold ic, mk; st_simpl_goal; rewrite ?setf2_same, ?Hb.
      + congruence. + congruence. + intros; split; reflexivity. + intros; assumption.
    - (* DG1 *) right. rewrite clr2_other by lia. split; [reflexivity|].
      apply Env_same; unfold ic, mk; st_simpl_goal; rewrite ?clr2_other by lia; try reflexivity; [|intros; assumption].
      intros; rewrite !clr3_other by lia; split; reflexivity.
    - (* DGC *) subst s. right. split; [reflexivity|]. apply Env_same; unfold ic, mk; st_simpl_goal; [| | intros; split; reflexivity | intros; assumption].
      + destruct (N.eq_dec b0 ob) as [->|Hnb]; [destruct (N.eq_dec j0 i) as [->|Hnj]|]; rewrite ?setf2_same, ?setf2_other by auto; try reflexivity. apply bs_locked_item_count.
      + destruct (N.eq_dec b0 ob) as [->|Hnb]; [destruct (N.eq_dec j0 i) as [->|Hnj]|]; rewrite ?setf2_same, ?setf2_other by auto; try reflexivity. apply bs_locked_delete_marker.
    - (* DMSK *) destruct (blocks_facts hash st t _ _ _ HI ltac:(rewrite Epc; reflexivity)) as (B1 & B2 & B3 & B4 & B5 & B6 & B7 & B8).
      assert (Hn0 : b0 <> nb) by (destruct Hb0; congruence).
      right. split; [reflexivity|]. apply Env_same; try reflexivity; [|intros; assumption].
      intros; st_simpl_goal; rewrite setf3_other by auto; split; reflexivity.
    - (* DMSV *) destruct (blocks_facts hash st t _ _ _ HI ltac:(rewrite Epc; reflexivity)) as (B1 & B2 & B3 & B4 & B5 & B6 & B7 & B8).
      assert (Hn0 : b0 <> nb) by (destruct Hb0; congruence).
      right. split; [reflexivity|]. apply Env_same; try reflexivity; [|intros; assumption].
      intros; st_simpl_goal; rewrite setf3_other by auto; split; reflexivity.
    - (* DMSS *) destruct (blocks_facts hash st t _ _ _ HI ltac:(rewrite Epc; reflexivity)) as (B1 & B2 & B3 & B4 & B5 & B6 & B7 & B8).
      assert (Hn0 : b0 <> nb) by (destruct Hb0; congruence).
      right. split; [reflexivity|]. apply Env_same; unfold ic, mk; st_simpl_goal; rewrite ?setf2_other by auto; try reflexivity; [intros; split; reflexivity | intros; assumption].
    - (* X3 *) subst s. destruct (acq_facts hash st t _ _ _ HI ltac:(rewrite Epc; reflexivity) ltac:(tauto)) as (_ & Hcur & _).
      destruct (N.eq_dec b0 b) as [->|Hnb]; [destruct (N.eq_dec j0 j) as [->|Hnj]|]; [|other_bucket HI b j k Hcur Hj ..].
      right. split; [reflexivity|]. apply Env_same; unfold ic, mk; st_simpl_goal; rewrite ?setf2_same.
      + apply bs_locked_item_count. + apply bs_locked_delete_marker. + intros; split; reflexivity. + intros; assumption.
    - (* XB1 *) right. split; [reflexivity|]. destruct Hwf as (_ & Hi & _). destruct (FM i Hi) as [FM1 FM2]. destruct Hab as [Hab1 Hab2].
      apply (Env_mark _ _ _ _ i); unfold ic, mk; st_simpl_goal; rewrite ?setf2_same, ?Hb.
      + congruence. + exact FL2. + exact FM2. + intros; split; reflexivity. + rewrite Hab1. reflexivity.
    - (* XB4 *) right. split; [reflexivity|]. destruct Hwf as (_ & Hi & _). destruct (FM i Hi) as [FM1 FM2].
      apply Env_same; try reflexivity; [|intros; assumption].
      intros x _ Hx. unfold mk in Hx. rewrite Hb, FM2 in Hx. st_simpl_goal. rewrite setf3_other by (right; right; lia). split; reflexivity.
    - (* XB5 *) right. split; [reflexivity|]. destruct Hwf as (_ & Hi & _). destruct (FM i Hi) as [FM1 FM2].
      apply Env_same; try reflexivity; [|intros; assumption].
      intros x _ Hx. unfold mk in Hx. rewrite Hb, FM2 in Hx. st_simpl_goal. rewrite setf3_other by (right; right; lia). split; reflexivity.
    - (* XB6 *) left. rewrite setf2_same. reflexivity.
    - left. rewrite setf2_same. reflexivity.
    - (* XU *) right. split; [reflexivity|]. apply Env_same; unfold ic, mk; st_simpl_goal; rewrite ?setf2_same, ?Hb.
      + congruence. + congruence. + intros; split; reflexivity. + intros; assumption.
  Qed.

  Lemma nver_mono st a st' es b j : step st a = Some (st', es) -> b < nalloc st -> g_nver st b j <= g_nver st' b j.
  Proof.
    intros H Hb. destruct (step_inv hash _ _ _ _ H) as [t o Epc | t p st1 p' Epc HL | t p st1 p' Epc HS]; [apply N.le_refl | |].
    - destruct (tlocal_ghost hash _ _ _ _ _ HL) as (l & r & o & h & ->). apply N.le_refl.
    - destruct HS; st_simpl_goal; try apply N.le_refl.
      + (* DG1 *) rewrite clr2_other by lia. apply N.le_refl.
      + (* XB6 *) destruct (bkt_dec b j b0 j0) as [[-> ->]|Hne]; [rewrite setf2_same; lia | rewrite setf2_other by exact Hne; apply N.le_refl].
  Qed.

  Lemma frozen_mono st a st' es b : step st a = Some (st', es) -> g_frozen st b = true -> g_frozen st' b = true.
  Proof.
    intros H Hb. destruct (step_inv hash _ _ _ _ H) as [t o Epc | t p st1 p' Epc HL | t p st1 p' Epc HS]; [exact Hb | |].
    - destruct (tlocal_ghost hash _ _ _ _ _ HL) as (l & r & o & h & ->). exact Hb.
    - destruct HS; try exact Hb. st_simpl_goal. unfold setf1. destruct (b =? ob); [reflexivity | exact Hb].
  Qed.

  (** the buckets of a replaced block never change again *)
  Lemma frozen_same st a st' es b j : Lk st -> step st a = Some (st', es) -> g_frozen st b = true -> same_bkt st st' b j.
  Proof.
    intros HI Hs Hf.
    destruct (step_frame hash _ _ _ _ HI Hs b j) as [H|[(t0 & _ & H & _)|[(t0 & ob & n & E & H)|(t0 & c & E & H1 & H2)]]]; [exact H | exfalso ..].
    - subst b. pose proof (K_db _ _ HI). intuition congruence.
    - destruct (blocks_facts hash _ _ _ _ _ HI H) as (_ & _ & _ & _ & B5 & _). congruence.
    - subst b. apply (K_fr _ _ HI) in Hf. lia.
  Qed.

  (** observations are only added during a call *)
  Lemma obs_mono st a st' es t' : step st a = Some (st', es) -> (forall k, th st t' <> Begin (OGet k) /\ th st t' <> Begin (ODel k) /\ th st t' <> Begin (OExt k)) \/ a <> Step t' ->
    forall o, In o (g_obs st t') -> In o (g_obs st' t').
  Proof.
    intros H Hc. destruct (step_inv hash _ _ _ _ H) as [t o Epc | t p st1 p' Epc HL | t p st1 p' Epc HS]; [| destruct HL | destruct HS]; st_simpl; intros o0 Ho.
    all: try exact Ho.
    all: try (destruct (VhmBase.upd_cases (g_obs st) t [] t') as [[-> E]|[Hne E]]; rewrite E; [|exact Ho];
              exfalso; destruct Hc as [Hc|Hc]; [destruct (Hc k) as (C1 & C2 & C3); congruence | congruence]).
    all: try (match goal with |- In _ (upd ?f ?t0 ?l ?t1) => destruct (VhmBase.upd_cases f t0 l t1) as [[-> E]|[Hne E]]; rewrite E end;
              [apply in_snoc; left; exact Ho | exact Ho]).
    - (* DP1 *) destruct (obs_key (th st t')); [apply in_snoc; left; exact Ho | exact Ho].
  Qed.

  Lemma RU_mono st st' t p : g_rv st' t = g_rv st t ->
    (forall b j k, pc_ref p = Some (b, j, k) -> g_nver st b j <= g_nver st' b j) -> RU st t p -> RU st' t p.
  Proof.
    intros E1 E2 H. destruct p; cbn [RU pc_ref] in *; unfold RB in *; rewrite ?E1; try exact H.
    all: pose proof (E2 _ _ _ eq_refl); intuition lia.
  Qed.

  Lemma RI_other st a st' es t' : Lk st -> (forall t, pc_abs st t (th st t)) -> step st a = Some (st', es) ->
    g_rv st' t' = g_rv st t' -> (forall o, In o (g_obs st t') -> In o (g_obs st' t')) ->
    RI st t' (th st t') -> RI st' t' (th st t').
  Proof.
    intros HI HA Hs Er Eo [HU HK].
    assert (Hrf : forall b j k, pc_ref (th st t') = Some (b, j, k) ->
              (b = db st \/ g_frozen st b = true) /\ j = hash k mod bcnt st b /\ b < nalloc st).
    { intros b j k Hr. destruct (K_ref _ _ HI t' b j k Hr) as [H1 H2]. rsplit; try assumption.
      destruct H1 as [->|Hf]; [apply (K_db _ _ HI) | apply (K_fr _ _ HI); exact Hf]. }
    split.
    - apply (RU_mono st); [exact Er | | exact HU]. intros b j k Hr. destruct (Hrf _ _ _ Hr) as (_ & _ & Hlt). exact (nver_mono _ _ _ _ b j Hs Hlt).
    - intros HC. destruct (th st t') eqn:Ep; try (cbn [RK]; exact I).
      all: cbn [pc_cur RU] in *.
      all: destruct (Hrf _ _ _ eq_refl) as (Hb & Hj & Hlt).
      all: destruct (step_env _ _ _ _ b j HI HA Hs Hb) as [Hbump|[Hsame HE]]; unfold Cur, RB in *; rewrite Er in HC;
        [exfalso; assert (Hle : g_rv st t' <= g_nver st b j) by apply HU; lia|].
      all: assert (HC0 : g_rv st t' = g_nver st b j) by congruence.
      all: (apply (RK_env st); [| exact Eo | exact HU | exact (HK HC0)]); cbn [pc_ref]; intros b1 j1 k1 E; injection E as <- <- <-; split; assumption.
  Qed.

  Lemma slot_dec (f : N -> N) (n k : N) : (exists x, x < n /\ f x = k) \/ (forall x, x < n -> f x <> k).
  Proof.
    induction n as [|n IH] using N.peano_ind.
    - right. intros x Hx. lia.
    - destruct IH as [(x & H1 & H2)|IH].
      + left. exists x. split; [lia | exact H2].
      + destruct (N.eq_dec (f n) k) as [E|E].
        * left. exists n. split; [lia | exact E].
        * right. intros x Hx. destruct (N.eq_dec x n) as [->|]; [exact E | apply IH; lia].
  Qed.

  (** a replaced block: nobody holds its locks, no marker *)
  Lemma frozen_mk st b j : Lk st -> g_frozen st b = true -> mk st b j = 0.
  Proof.
    intros HI Hf. apply (K_mk _ _ HI). intros u Hu. destruct (own_cur hash _ _ _ _ HI Hu) as [-> _].
    pose proof (K_db _ _ HI). intuition congruence.
  Qed.

  Lemma RI_own st a st' es : Lk st -> G hash st -> FZ st (actor a) (th st (actor a)) ->
    RI st (actor a) (th st (actor a)) -> step st a = Some (st', es) -> RI st' (actor a) (th st' (actor a)).
  Proof.
    intros HI HG HF HR H.
    destruct (step_inv hash _ _ _ _ H) as [t o Epc | t p st1 p' Epc HL | t p st1 p' Epc HS]; [| destruct HL | destruct HS]; clear H; st_simpl.
    all: rewrite ?upd_same; try match goal with |- RI _ _ (if ?c then _ else _) => destruct c end.
    all: try (split; [exact I | intros _; exact I]).
    all: rewrite Epc in HR, HF; destruct HR as [HU HK]; cbn [RU RK pc_cur] in HU, HK.
    all: pose proof (K_ref _ _ HI t) as Href; rewrite Epc in Href; cbn [pc_ref] in Href; destruct (Href _ _ _ eq_refl) as [Hbb Hj]; clear Href.
    all: unfold RI, Cur in *; cbn [RU RK pc_cur]; unfold RB, esc in *; st_simpl; rewrite ?upd_same; b2p.
    all: match goal with HG0 : G _ ?s0 |- _ => repeat match goal with
         | |- context [ic ?x ?b1 ?j1] => lazymatch x with s0 => fail | _ => change (ic x b1 j1) with (ic s0 b1 j1) end
         | |- context [mk ?x ?b1 ?j1] => lazymatch x with s0 => fail | _ => change (mk x b1 j1) with (mk s0 b1 j1) end
         | |- context [pend ?x ?b1 ?j1] => lazymatch x with s0 => fail | _ => change (pend x b1 j1) with (pend s0 b1 j1) end
         | |- context [slotw ?x ?b1 ?j1] => lazymatch x with s0 => fail | _ => change (slotw x b1 j1) with (slotw s0 b1 j1) end
         end end.
    all: (split; [try solve [tauto | intuition lia]|]).
    all: try (intros HC; specialize (HK HC)).
    - (* G2 -> GK 0 *) rsplit; try lia; first [exact (K_ver _ _ HI b j) | exact (K_ic _ _ HI b j)].
    - split; [unfold ic; lia|]. destruct Hbb as [->|Hf].
      + destruct (lookup k (g_map st)) as [v0|] eqn:EL; [|left; left; apply in_snoc; auto].
        right. apply (G_map _ _ HG) in EL. destruct EL as (x & [X1 X2] & X3 & _). unfold hb, nb_ in *. rewrite <- Hj in *.
        exists x. unfold ic in X1. rsplit; [lia | exact X1 | exact X2 | exact X3].
      + destruct (slot_dec (akey st b j) (ic st b j) k) as [(x & X1 & X2)|Hno].
        * right. exists x. rsplit; [lia | exact X1 | rewrite (frozen_mk _ _ _ HI Hf); lia | exact X2].
        * left. left. apply in_snoc. left. apply (HF _ _ _ eq_refl Hf). exact Hno.
    - (* G2 -> GH *) rsplit; try lia; first [exact (K_ver _ _ HI b j) | exact (K_ic _ _ HI b j)].
    - destruct Hbb as [->|Hf].
      + left. apply in_snoc. right. symmetry. apply (own_absent hash st j); [exact HG | unfold hb, nb_; symmetry; exact Hj |]. intros x Hx. unfold ic in Hx. lia.
      + left. apply in_snoc. left. apply (HF _ _ _ eq_refl Hf). intros x Hx. unfold ic in Hx. lia.
    - (* GK match *) destruct HK as (H1 & H2). rsplit; [exact H1 | | right; exact Ek].
      destruct H2 as [[H|H]|H]; [left; left; apply in_snoc; auto | left; right; exact H | right; exact H].
    - (* GK next slot *) destruct HK as (H1 & H2). split; [exact H1|].
      destruct H2 as [[H|H]|(x & J1 & J2 & J3 & J4)]; [left; left; apply in_snoc; auto | left; right; exact H |].
      right. exists x. rsplit; try assumption. assert (x <> i) by (intros ->; contradiction). lia.
    - (* GK -> GH *) destruct HK as (H1 & H2).
      destruct H2 as [[H|H]|(x & J1 & J2 & J3 & J4)]; [left; apply in_snoc; auto | right; exact H |].
      exfalso. assert (x = i) by lia. subst x. contradiction.
    - (* GV *) destruct HK as (H1 & H2 & H3). rsplit; [exact H1 | | tauto].
      destruct H2 as [[H|H]|H]; [left; left; apply in_snoc; auto | left; right; exact H | right; exact H].
    - (* GD *) destruct HK as (H1 & H2 & H3). rsplit; [exact H1 | | tauto].
      destruct H2 as [[H|H]|H]; [left; left; apply in_snoc; auto | left; right; exact H | right; exact H].
    - (* GS continue -> GK *) destruct HK as (H1 & H2 & H3). split; [exact H1|].
      destruct H2 as [[H|H]|(x & J1 & J2 & J3 & J4)]; [left; left; apply in_snoc; auto | left; right; exact H |].
      right. exists x. rsplit; try assumption. unfold mk in J3. assert (x <> i) by lia. lia.
    - (* GS continue -> GH *) destruct HK as (H1 & H2 & H3).
      destruct H2 as [[H|H]|(x & J1 & J2 & J3 & J4)]; [left; apply in_snoc; auto | right; exact H |].
      exfalso. unfold mk in J3. lia.
    - (* GH -> GE *) destruct HK as [H|H]; [left; apply in_snoc; auto | right; exact H].
  Qed.

  (** a thread's own step keeps the bucket it observes, or takes a bucket of the current block *)
  Lemma ref_step st a st' es b j k : step st a = Some (st', es) ->
    pc_obs_ref (th st' (actor a)) = Some (b, j, k) -> pc_obs_ref (th st (actor a)) = Some (b, j, k) \/ b = db st.
  Proof.
    intros H.
    destruct (step_inv hash _ _ _ _ H) as [t o Epc | t p st1 p' Epc HL | t p st1 p' Epc HS]; [| destruct HL | destruct HS]; clear H; st_simpl.
    all: rewrite ?upd_same, ?Epc; try match goal with |- context [pc_obs_ref (if ?c then _ else _)] => destruct c end;
      cbn [pc_obs_ref]; intros E; try discriminate E; injection E as <- <- <-; auto.
  Qed.

  Lemma obs_ref_key p b j k : pc_obs_ref p = Some (b, j, k) -> obs_key p = Some k /\ pc_ref p = Some (b, j, k).
  Proof. destruct p; cbn [pc_obs_ref obs_key pc_ref]; intros E; try discriminate E; injection E as <- <- <-; auto. Qed.

  Lemma frozen_change st a st' es b : step st a = Some (st', es) -> g_frozen st' b = true -> g_frozen st b = false ->
    exists t c nb n, a = Step t /\ th st t = DP1 c b nb n.
  Proof.
    intros H H1 H2. destruct (step_inv hash _ _ _ _ H) as [t o Epc | t p st1 p' Epc HL | t p st1 p' Epc HS]; [st_simpl; congruence | |].
    - destruct (tlocal_ghost hash _ _ _ _ _ HL) as (l & r & o & h & ->). st_simpl. congruence.
    - destruct HS; st_simpl; try congruence.
      unfold setf1 in H1. destruct (N.eqb_spec b ob) as [->|]; [eauto 6 | congruence].
  Qed.

  Lemma FZ_step st a st' es : Lk st -> G hash st -> (forall t, FZ st t (th st t)) -> step st a = Some (st', es) ->
    forall t', FZ st' t' (th st' t').
  Proof.
    intros HI HG HF Hs. pose proof (step_other hash _ _ _ _ Hs) as Hoth.
    intros t' b j k Hr Hf'. destruct (g_frozen st b) eqn:Hf.
    - (* replaced before this step *)
      assert (Hr0 : pc_obs_ref (th st t') = Some (b, j, k)).
      { destruct (Nat.eq_dec t' (actor a)) as [->|Hne].
        - destruct (ref_step _ _ _ _ _ _ _ Hs Hr) as [H|H]; [exact H|]. subst b. pose proof (K_db _ _ HI). intuition congruence.
        - destruct (Hoth t' Hne) as (E1 & _). rewrite <- E1. exact Hr. }
      destruct (HF t' b j k Hr0 Hf) as [F1 F2].
      destruct (frozen_same _ _ _ _ b j HI Hs Hf) as (S1 & S2 & _).
      assert (Hic : ic st' b j = ic st b j) by (unfold ic; rewrite S1; reflexivity).
      assert (Ho : forall o, In o (g_obs st t') -> In o (g_obs st' t')).
      { apply (obs_mono _ _ _ _ _ Hs). left. intros k0. destruct (th st t'); cbn [pc_obs_ref] in Hr0; try discriminate Hr0; rsplit; discriminate. }
      rewrite Hic. split.
      + intros i Hi Hk. destruct (S2 i) as [E1 E2]. rewrite E1 in Hk. rewrite E2. apply Ho. apply F1; assumption.
      + intros Hno. apply Ho. apply F2. intros i Hi. destruct (S2 i) as [E1 _]. rewrite <- E1. apply Hno. exact Hi.
    - (* replaced by this step: the publication recorded the association of the key *)
      destruct (frozen_change _ _ _ _ _ Hs Hf' Hf) as (t & c & nb & n & E & Epc). subst a.
      cbn [step] in Hs. rewrite Epc in Hs. injection Hs as <- <-. st_simpl.
      destruct (blocks_facts hash st t _ _ _ HI ltac:(rewrite Epc; reflexivity)) as (B1 & B2 & _).
      destruct (VhmBase.upd_cases (th st) t (DP2 c b nb) t') as [[-> E]|[Hne E]]; rewrite E in Hr; [discriminate Hr|].
      destruct (obs_ref_key _ _ _ _ Hr) as [Hok Hrf]. rewrite Hok. destruct (K_ref _ _ HI t' _ _ _ Hrf) as [_ Hj].
      assert (Hjlt : j < bcnt st b) by (apply (ref_lt hash st t' b j k HI Hrf)).
      assert (Hmk : mk st b j = 0).
      { apply (grower_mk hash st t b nb n); [exact HI | rewrite Epc; reflexivity | rewrite Epc; cbn [holds]; split; [reflexivity | lia]]. }
      unfold ic. st_simpl_goal. fold (ic st b j). subst b.
      assert (Hhb : hb hash st k = j) by (unfold hb, nb_; symmetry; exact Hj).
      split.
      + intros i Hi Hk. apply in_snoc. right. symmetry. apply (own_slot hash st j i k); assumption.
      + intros Hno. apply in_snoc. right. symmetry. apply (own_absent hash st j); assumption.
  Qed.

  Lemma cur_of_version st t b j s : Lk st -> Bnd st -> b < nalloc st -> RB st t b j s -> bs_version s = bs_version (bst st b j) -> Cur st t b j.
  Proof.
    intros HI HB Hlt (H1 & H2 & _) E. unfold Cur. pose proof (HB b j Hlt) as Hb. rewrite H2, (K_ver _ _ HI) in E.
    rewrite !N.mod_small in E by lia. exact E.
  Qed.

  Lemma nalloc_mono st a st' es : step st a = Some (st', es) -> nalloc st <= nalloc st'.
  Proof.
    intros H. destruct (step_inv hash _ _ _ _ H) as [t o Epc | t p st1 p' Epc HL | t p st1 p' Epc HS]; [apply N.le_refl | |].
    - destruct (tlocal_ghost hash _ _ _ _ _ HL) as (l & r & o & h & ->). apply N.le_refl.
    - destruct HS; st_simpl_goal; lia.
  Qed.

  Lemma Bnd_mono st a st' es : step st a = Some (st', es) -> Bnd st' -> Bnd st.
  Proof.
    intros H HB b j Hlt. pose proof (nver_mono _ _ _ _ b j H Hlt). pose proof (nalloc_mono _ _ _ _ H).
    pose proof (HB b j ltac:(lia)). lia.
  Qed.

  Lemma ref_alloc st t b j k : Lk st -> pc_ref (th st t) = Some (b, j, k) -> b < nalloc st.
  Proof.
    intros HI H. destruct (K_ref _ _ HI t b j k H) as [[->|Hf] _]; [apply (K_db _ _ HI) | apply (K_fr _ _ HI); exact Hf].
  Qed.

  Lemma hist_r_step st a st' es : Lk st -> G hash st -> (forall t, pc_abs st t (th st t)) -> (forall t, RI st t (th st t)) -> (forall t, FZ st t (th st t)) ->
    (Bnd st -> forall h, In h (g_hist st) -> hist_ok_r h) ->
    step st a = Some (st', es) -> Bnd st' -> forall h, In h (g_hist st') -> hist_ok_r h.
  Proof.
    intros HI HG HA HR HF HH H HB'.
    assert (HB : Bnd st) by (exact (Bnd_mono _ _ _ _ H HB')). specialize (HH HB). clear HB'.
    unfold hist_ok_r.
    destruct (step_inv hash _ _ _ _ H) as [t o Epc | t p st1 p' Epc HL | t p st1 p' Epc HS]; [exact HH | |]; clear H;
      pose proof (HA t) as Hab; rewrite Epc in Hab.
    2: { (* the writers' returns have a linearization point or are insertions *)
      destruct HS; try exact HH; apply in_snoc_all; try exact HH; cbn [h_op h_res h_obs h_wit pc_abs] in *; st_simpl_goal; rewrite ?upd_same.
      - destruct a; exact I.
      - destruct a; exact I.
      - revert Hab. destruct e; (destruct (i =? bs_item_count s - 1); intros Hab; rewrite ?upd_same;
          [discriminate | intros Hc; destruct Hab as [Hc' _]; congruence]).
      - destruct e; discriminate. }
    pose proof (HR t) as [HU HK]. pose proof (HF t) as HFt. pose proof (K_ref _ _ HI t) as Href.
    destruct HL; try exact HH; apply in_snoc_all; try exact HH; cbn [h_op h_res h_obs h_wit]; st_simpl_goal; rewrite ?upd_same;
      rewrite Epc in HU, HK, HFt, Href; cbn [RU RK pc_cur pc_ref pc_abs] in HU, HK, Href, Hab; destruct (Href _ _ _ eq_refl) as [Hbb Hj];
      assert (Hlt : b < nalloc st) by (apply (ref_alloc st t b j k HI); rewrite Epc; reflexivity).
    - (* X2: item_count = 0 *) assert (Hgoal : In None (g_obs st t ++ [lookup k (g_map st)])).
      { apply in_snoc. destruct Hbb as [->|Hf].
        - right. symmetry. apply (own_absent hash st j); [exact HG | unfold hb, nb_; symmetry; exact Hj |]. intros x Hx. unfold ic in Hx. lia.
        - left. apply (HFt _ _ _ eq_refl Hf). intros x Hx. unfold ic in Hx. lia. }
      destruct e; intros _; exact Hgoal.
    - (* GS returns v *) destruct HU as [HU Hi]. pose proof (cur_of_version _ _ _ _ _ HI HB Hlt HU Ev) as HC.
      destruct (HK HC) as (H1 & _ & [H3|[H3 H4]]); [unfold mk in H3; congruence|].
      left. exists v. split; [reflexivity|]. apply in_snoc. destruct Hbb as [->|Hf].
      + right. symmetry. rewrite <- H4. apply (G_map _ _ HG). unfold hb, nb_. rewrite <- Hj. exists i.
        split; [split; [lia | unfold mk; intros E; apply Em; symmetry; exact E] | auto].
      + left. rewrite <- H4. apply (HFt _ _ _ eq_refl Hf); [lia | exact H3].
    - (* GE returns absent *) pose proof (cur_of_version _ _ _ _ _ HI HB Hlt HU Ev) as HC.
      right. split; [reflexivity|]. apply in_snoc. destruct (HK HC) as [H|[H _]]; [left; exact H | right; symmetry; exact H].
  Qed.

  (** * retired blocks *)
  Record Ret (st : state) : Prop := mkRet {
    R_nd : NoDup (g_retired st);
    R_fr : forall b, In b (g_retired st) -> g_frozen st b = true;
    R_dp : forall t c ob nb, th st t = DP2 c ob nb -> ~ In ob (g_retired st);
    R_all : forall b, g_frozen st b = true -> In b (g_retired st) \/ exists t c nb, th st t = DP2 c b nb
  }.

  Lemma Ret_step st a st' es : Lk st -> Ret st -> step st a = Some (st', es) -> Ret st'.
  Proof.
    intros HI HR H. destruct HR as [R1 R2 R3 R4].
    destruct (step_inv hash _ _ _ _ H) as [t o Epc | t p st1 p' Epc HL | t p st1 p' Epc HS]; [| destruct HL | destruct HS]; clear H; st_simpl.
    all: constructor; st_simpl_goal; try assumption.
    all: try (intros t' c' ob' nb'; match goal with |- context [upd ?f ?t0 ?p t'] => destruct (VhmBase.upd_cases f t0 p t') as [[-> E]|[Hne E]]; rewrite E end;
              [first [discriminate | match goal with |- (if ?c then _ else _) = _ -> _ => destruct c; discriminate end] | apply R3]).
    all: try (intros b' Hb'; destruct (R4 b' Hb') as [H|(t' & c' & nb' & H)]; [left; exact H | right; exists t', c', nb'];
              rewrite upd_other; [exact H | intros ->; congruence]).
    all: pose proof (K_gw _ _ HI t) as Hgw; rewrite Epc in Hgw; cbn [pc_gw pc_blocks] in Hgw.
    - (* DP1 *) intros b Hb. unfold setf1. destruct (b =? ob); [reflexivity | apply R2; exact Hb].
    - intros t' c' ob' nb'. destruct (VhmBase.upd_cases (th st) t (DP2 c ob nb) t') as [[-> E]|[Hne E]]; rewrite E; [|apply R3].
      intros E'. injection E' as <- <- <-. intros Hin. apply R2 in Hin. destruct Hgw as (-> & _). pose proof (K_db _ _ HI). intuition congruence.
    - intros b. unfold setf1. destruct (N.eqb_spec b ob) as [->|Hne].
      + intros _. right. exists t, c, nb. apply upd_same.
      + intros Hb. destruct (R4 b Hb) as [H|(t' & c' & nb' & H)]; [left; exact H | right; exists t', c', nb'].
        rewrite upd_other; [exact H | intros ->; congruence].
    - (* DP2 *) apply NoDup_app_snoc; [exact R1 | apply (R3 t c ob nb Epc)].
    - intros b Hb. apply in_snoc in Hb. destruct Hb as [Hb| ->]; [apply R2; exact Hb | apply Hgw].
    - intros t' c' ob' nb'. destruct (VhmBase.upd_cases (th st) t (L1 (c_a c) (c_k c) (c_v c)) t') as [[-> E]|[Hne E]]; rewrite E; [discriminate|].
      intros E'. exfalso. apply Hne. apply (rs_unique hash st); [exact HI | rewrite E'; reflexivity | rewrite Epc; reflexivity].
    - intros b Hb. destruct (R4 b Hb) as [H|(t' & c' & nb' & H)]; [left; apply in_snoc; left; exact H|].
      left. apply in_snoc. right. assert (t' = t) by (apply (rs_unique hash st); [exact HI | rewrite H; reflexivity | rewrite Epc; reflexivity]). subst t'. congruence.
  Qed.

  Lemma Ret_init cap : Ret (init cap).
  Proof. constructor; cbn; [constructor | intros b [] | intros; discriminate | intros; discriminate]. Qed.

  (** * the invariant *)
  Definition Inv1 (st : state) : Prop :=
    Inv0 hash st /\ (forall t, RI st t (th st t)) /\ (forall t, FZ st t (th st t)) /\ Ret st /\
    (Bnd st -> forall h, In h (g_hist st) -> hist_ok_r h).

  Lemma Inv1_init cap : 0 < cap -> Inv1 (init cap).
  Proof.
    intros Hc. split; [apply Inv0_init; exact Hc|]. split; [intros t; cbn; split; [exact I | intros _; exact I]|].
    split; [intros t b j k E; cbn in E; discriminate|]. split; [apply Ret_init | intros _ h []].
  Qed.

  Lemma Inv1_step st a st' es : Inv1 st -> step st a = Some (st', es) -> Inv1 st'.
  Proof.
    intros (H0 & HR & HF & HT & HH) Hs. split; [exact (Inv0_step hash _ _ _ _ H0 Hs)|].
    destruct H0 as (HI & HG & HA & HM & HW). split; [|split; [|split]].
    - intros t'. destruct (Nat.eq_dec t' (actor a)) as [->|Hne].
      + exact (RI_own _ _ _ _ HI HG (HF _) (HR _) Hs).
      + destruct (step_other hash _ _ _ _ Hs t' Hne) as (E1 & _ & E3). rewrite E1. apply (RI_other st a st' es t' HI HA Hs E3); [|exact (HR t')].
        apply (obs_mono _ _ _ _ _ Hs). right. intros ->. exact (Hne eq_refl).
    - exact (FZ_step _ _ _ _ HI HG HF Hs).
    - exact (Ret_step _ _ _ _ HI HT Hs).
    - exact (hist_r_step _ _ _ _ HI HG HA HR HF HH Hs).
  Qed.

  Theorem Inv1_reach cap st : 0 < cap -> reach (init cap) step st -> Inv1 st.
  Proof. intros Hc. apply inv_rule; [apply Inv1_init; exact Hc | intros s a s' es; apply Inv1_step]. Qed.
End VhmGrowInv.
