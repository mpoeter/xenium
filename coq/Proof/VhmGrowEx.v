(** vyukov_hash_map with several buckets and grow: examples (run + vm_compute) on reachable states that exercise the
    hypotheses of the C10 theorems: a grow in its migration phase, a reader and an eraser that finish on a replaced
    block, retired blocks. *)
From Coq Require Import NArith List Bool Lia PeanoNat.
From XV Require Import Base.Word Conc.Lts Conc.Ev gen.BucketStateGen Model.VhmGrowDefs
  Proof.VhmGrowBase Proof.VhmGrowAbs Proof.VhmGrowInv Proof.VhmGrowThm.
Import ListNotations.
Local Open Scope N_scope.

(** a version counter is incremented only by a removal that returns at the same step: [Bnd] follows from the number of
    completed calls *)
Lemma nver_hist hash st a st' es : step hash st a = Some (st', es) ->
  (forall b j, g_nver st b j <= N.of_nat (length (g_hist st))) -> forall b j, g_nver st' b j <= N.of_nat (length (g_hist st')).
Proof.
  intros H HB b j. pose proof (HB b j) as Hb.
  destruct (step_inv hash _ _ _ _ H) as [t o Epc | t p st1 p' Epc HL | t p st1 p' Epc HS]; [exact Hb | destruct HL | destruct HS];
    st_simpl_goal; rewrite ?app_length; cbn [length]; try lia.
  - (* DG1 *) unfold clr2. destruct (b =? nalloc st); lia.
  - (* XB6 *) destruct (bkt_dec b j b0 j0) as [[-> ->]|Hne]; [rewrite setf2_same | rewrite setf2_other by exact Hne]; lia.
Qed.

Lemma Bnd_of_hist hash cap st : reach (init cap) (step hash) st -> N.of_nat (length (g_hist st)) < 2 ^ 27 -> Bnd st.
Proof.
  intros Hr Hl b j _. enough (H : forall b j, g_nver st b j <= N.of_nat (length (g_hist st))) by (pose proof (H b j); lia).
  clear -Hr. induction Hr as [|s a s' es Hr IH Hs]; [intros; cbn; lia | exact (nver_hist _ _ _ _ _ Hs IH)].
Qed.

(** run with the list of visited states (most recent first) *)
Fixpoint runh (hash : N -> N) (s : state) (h : list state) (acts : list action) : state * list state :=
  match acts with
  | [] => (s, h)
  | a :: rest => match step hash s a with
                 | Some (s', _) => runh hash s' (s :: h) rest
                 | None => runh hash s h rest
                 end
  end.
Lemma exec_runh hash cap acts : forall s h, exec hash cap s h -> exec hash cap (fst (runh hash s h acts)) (snd (runh hash s h acts)).
Proof.
  induction acts as [|a rest IH]; intros s h He; cbn [runh]; [exact He|].
  destruct (step hash s a) as [[s' es]|] eqn:Hs; [|apply IH; exact He]. apply IH. eapply exec_step; eauto.
Qed.

Module VhmGrowExamples.
  Definition hid (k : N) : N := k.
  Definition steps (t : nat) (n : nat) : list action := repeat (Step t) n.
  Definition ins0 (k : N) : list action := Start 0%nat (OIns k (10 * k)) :: steps 0 12.
  Definition stof (cap : N) (acts : list action) : state := fst (fst (run (step hid) (init cap) acts)).
  Lemma stof_reach cap acts : reach (init cap) (step hid) (stof cap acts).
  Proof. apply run_reach. Qed.

  (** capacity 1: thread 0 inserts 1, 2, 3 (the only bucket is full) *)
  Definition setup : list action := ins0 1 ++ ins0 2 ++ ins0 3.
  Example ex_full_bucket :
    (db (stof 1 setup), bcnt (stof 1 setup) 1, bst (stof 1 setup) 1 0, g_map (stof 1 setup)) = (1, 1, 6, [(3, 30); (2, 20); (1, 10)]).
  Proof. vm_compute. reflexivity. Qed.

  (** thread 0 inserts 4: the bucket is full, it grows the table; stopped in the migration phase after it has moved
      (1,10) into bucket 1 of the new block (2 buckets): it holds the lock of every bucket of the old block *)
  Definition g1 := setup ++ [Start 0%nat (OIns 4 40)] ++ steps 0 20.
  Example ex_migration :
    (th (stof 1 g1) 0%nat, db (stof 1 g1), rlock (stof 1 g1), bcnt (stof 1 g1) 2, bst (stof 1 g1) 1 0, bst (stof 1 g1) 2 1,
     akey (stof 1 g1) 2 1 0, g_own (stof 1 g1) 1 0, g_map (stof 1 g1)) =
    (DMK (mkIC false 4 40) 1 2 1 0 3 1, 1, 1, 2, 7, 2, 1, Some 0%nat, [(3, 30); (2, 20); (1, 10)]).
  Proof. vm_compute. reflexivity. Qed.
  (** ... so the hypotheses of [vhmg_grow_excludes_writers] hold there *)
  Example ex_migration_hyps :
    pc_blocks (th (stof 1 g1) 0%nat) = Some (1, 2, 1) /\ forall j, j < 1 -> holds (th (stof 1 g1) 0%nat) 1 j.
  Proof. split; [vm_compute; reflexivity|]. intros j Hj. assert (j = 0) by lia. subst j. vm_compute. split; reflexivity. Qed.

  (** a reader that started on the old block: thread 1 calls try_get_value(5) and has loaded data_block (block 1) and the
      state of its bucket; then thread 0 finishes the grow (block 2 published, block 1 retired), completes its insertion
      and also inserts 5 through the new block *)
  Definition r1 := setup ++ [Start 1%nat (OGet 5)] ++ steps 1 3.
  Definition r2 := r1 ++ [Start 0%nat (OIns 4 40)] ++ steps 0 60 ++ ins0 5.
  Example ex_reader_on_replaced_block :
    (th (stof 1 r2) 1%nat, db (stof 1 r2), g_frozen (stof 1 r2) 1, g_retired (stof 1 r2), bcnt (stof 1 r2) 2,
     g_map (stof 1 r2), g_obs (stof 1 r2) 1%nat) =
    (GK 5 1 0 6 0, 2, true, [1], 2, [(5, 50); (4, 40); (3, 30); (2, 20); (1, 10)], [None; None; None]).
  Proof. vm_compute. reflexivity. Qed.
  (** the reader scans the frozen bucket (1, 2, 3), validates the unchanged version and answers 'absent' although 5 is in
      the map by now: 5 was absent when the new block was published, an instant inside the call *)
  Definition r3 := r2 ++ steps 1 5.
  Example ex_reader_answers_from_replaced_block :
    (th (stof 1 r3) 1%nat, map (fun h => (h_t h, h_op h, h_res h)) (filter (fun h => Nat.eqb (h_t h) 1) (g_hist (stof 1 r3)))) =
    (Idle, [(1%nat, OGet 5, [4; 0])]).
  Proof. vm_compute. reflexivity. Qed.
  Example ex_Bnd : Bnd (stof 1 r3).
  Proof. apply (Bnd_of_hist hid 1); [apply stof_reach | vm_compute; reflexivity]. Qed.
  (** the hypotheses of [vhmg_try_get_value_linearizable] for the returning step of that call *)
  Definition r3' := r2 ++ steps 1 4.
  Example ex_main_theorem_hyps :
    let sh := runh hid (init 1) [] r3' in
    exec hid 1 (fst sh) (snd sh) /\ get_key (th (fst sh) 1%nat) = Some 5 /\
    exists s' es, step hid (fst sh) (Step 1%nat) = Some (s', es) /\ In (ERet 1%nat [4; 0]) es /\ Bnd s'.
  Proof.
    cbv zeta. set (s := fst (runh hid (init 1) [] r3')).
    assert (He : exec hid 1 s (snd (runh hid (init 1) [] r3'))) by (apply exec_runh; apply exec_init).
    split; [exact He|]. split; [vm_compute; reflexivity|].
    exists (fst (fst (run (step hid) s [Step 1%nat]))), (snd (fst (run (step hid) s [Step 1%nat]))).
    assert (Hs : step hid s (Step 1%nat) = Some (fst (fst (run (step hid) s [Step 1%nat])), snd (fst (run (step hid) s [Step 1%nat])))).
    { destruct (step hid s (Step 1%nat)) as [[s1 e1]|] eqn:E; [cbn [run]; rewrite E; cbn; rewrite app_nil_r; reflexivity|].
      exfalso. vm_compute in E. discriminate E. }
    split; [exact Hs|]. split; [vm_compute; auto|].
    apply (Bnd_of_hist hid 1); [eapply reach_step; [exact (exec_reach hid 1 _ _ He) | exact Hs] | vm_compute; reflexivity].
  Qed.

  (** a reader that finds its key in the replaced block starts over on the new block *)
  Definition q1 := setup ++ [Start 1%nat (OGet 2)] ++ steps 1 3.
  Definition q2 := q1 ++ [Start 0%nat (OIns 4 40)] ++ steps 0 60 ++ steps 1 4.
  Example ex_reader_restarts : (th (stof 1 q2) 1%nat, db (stof 1 q2)) = (G1 2, 2).
  Proof. vm_compute. reflexivity. Qed.
  Example ex_reader_restarted_result :
    map (fun h => (h_op h, h_res h)) (filter (fun h => Nat.eqb (h_t h) 1) (g_hist (stof 1 (q2 ++ steps 1 10)))) = [(OGet 2, [4; 1; 20])].
  Proof. vm_compute. reflexivity. Qed.

  (** capacity 2: 1, 3, 5 fill bucket 1, bucket 0 is empty.  Thread 1 calls erase(2) and loads data_block (block 1); thread
      0 inserts 7 (grow to 4 buckets) and then 2; thread 1 reads item_count = 0 in bucket 0 of the replaced block and
      answers 'no' without locking: 2 was absent at the publication *)
  Definition e1 := ins0 1 ++ ins0 3 ++ ins0 5 ++ [Start 1%nat (ODel 2)] ++ steps 1 2.
  Definition e2 := e1 ++ [Start 0%nat (OIns 7 70)] ++ steps 0 80 ++ ins0 2.
  Example ex_eraser_on_replaced_block :
    (th (stof 2 e2) 1%nat, db (stof 2 e2), bcnt (stof 2 e2) 2, g_frozen (stof 2 e2) 1, g_map (stof 2 e2), bst (stof 2 e2) 1 0) =
    (X2 false 2 1 0, 2, 4, true, [(2, 20); (7, 70); (5, 50); (3, 30); (1, 10)], 1).
  Proof. vm_compute. reflexivity. Qed.
  Example ex_eraser_answers_from_replaced_block :
    map (fun h => (h_op h, h_res h, h_wit h, existsb (fun o => match o with None => true | _ => false end) (h_obs h)))
        (filter (fun h => Nat.eqb (h_t h) 1) (g_hist (stof 2 (e2 ++ steps 1 1)))) = [(ODel 2, [2; 0], None, true)].
  Proof. vm_compute. reflexivity. Qed.

  (** three successive grows: 1 -> 2 -> 4 -> 8 buckets; every replaced block is retired exactly once *)
  Definition m1 := ins0 0 ++ ins0 4 ++ ins0 8 ++ [Start 0%nat (OIns 12 120)] ++ steps 0 200.
  Example ex_three_grows :
    (th (stof 1 m1) 0%nat, db (stof 1 m1), bcnt (stof 1 m1) 4, g_retired (stof 1 m1), map (g_frozen (stof 1 m1)) [1; 2; 3; 4],
     g_map (stof 1 m1), bst (stof 1 m1) 4 0) =
    (Idle, 4, 8, [1; 2; 3], [true; true; true; false], [(12, 120); (8, 80); (4, 40); (0, 0)], 4).
  Proof. vm_compute. reflexivity. Qed.
End VhmGrowExamples.
