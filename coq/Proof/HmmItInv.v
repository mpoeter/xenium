(** Iterators of the Harris-Michael hash map (Model/HmmDefs.v; the structural invariant, the abstraction and the
    linearizability of the map operations are in Proof/HmmInv.v): safety of the iterators (the nodes they refer to
    are allocated and reachable or retired, never freed: GC reclaimer instance); soundness of the yielded positions;
    order / no duplicates and completeness of a traversal ACROSS THE BUCKETS, for the ordering predicate of the code
    (lexicographic on (hash, key)) and for unmemoized hashes; exactness of erase(iterator) and its successor.
    With the former predicate [hash >= h && key >= k] ([lex = false], memoized) completeness is FALSE: the find
    started by operator++ on an erased node walks past nodes with a smaller hash and a larger key
    ([it_complete_refuted_conj], a schedule the code reproduced before the repair).
    All theorems hold for every reachable state (any number of threads, any program, any schedule). *)
From Coq Require Import NArith List Bool Lia ZifyBool PeanoNat Sorted.
From XV Require Import Base.Word Conc.Lts Conc.Ev Model.HmmDefs Proof.HmmStep Proof.HmmInv.
Import ListNotations.
Local Open Scope N_scope.

#[local] Arguments Inv_chain {nb memo lex hf}.
#[local] Arguments Inv_reach {nb memo lex hf}.
#[local] Arguments abs_in {nb memo lex hf}.
#[local] Arguments chain_bound {nb memo lex hf}.
#[local] Arguments chain_eq {nb memo lex hf}.
#[local] Arguments chain_key_inj {nb memo lex hf}.
#[local] Arguments chain_next_in {nb memo lex hf}.
#[local] Arguments chain_nz {nb memo lex hf}.
#[local] Arguments chain_split {nb memo lex hf}.
#[local] Arguments closed_nx {nb memo lex hf}.
#[local] Arguments unlink_step {nb memo lex hf}.
#[local] Arguments gef_antisym {memo lex hf}.
#[local] Arguments gef_frame {memo lex}.
#[local] Arguments gef_key {memo lex hf}.
#[local] Arguments gef_trans {memo lex hf}.
#[local] Arguments hmm_abs_step {nb memo lex hf}.
#[local] Arguments known_chain {nb memo lex hf}.
#[local] Arguments known_nz {nb memo lex hf}.
#[local] Arguments nh_frame {memo hf}.
#[local] Arguments nh_hash {nb memo lex hf}.
#[local] Arguments node_in_chain {nb memo lex hf}.
#[local] Arguments okref_mono {nb memo lex hf}.
#[local] Arguments pre_next {nb memo lex hf}.
#[local] Arguments valid_chain {nb memo lex hf}.
#[local] Arguments st_bk {nb memo lex hf}.
#[local] Arguments st_key {nb memo lex hf}.
#[local] Arguments step0_ext {nb memo lex hf}.
#[local] Arguments unmarked_in_chain {nb memo lex hf}.
#[local] Arguments G_bk {nb memo lex hf}.
#[local] Arguments G_bound {nb memo lex hf}.
#[local] Arguments G_pos {nb memo lex hf}.
#[local] Arguments G_hash {nb memo lex hf}.
#[local] Arguments G_abs {nb memo lex hf}.
#[local] Arguments G_lins {nb memo lex hf}.
#[local] Arguments G_ldel {nb memo lex hf}.
#[local] Arguments G_marked_del {nb memo lex hf}.
#[local] Arguments G_known_ins {nb memo lex hf}.
#[local] Arguments M_known {nb memo lex hf}.
#[local] Arguments M_mark {nb memo lex hf}.
#[local] Arguments M_pre {nb memo lex hf}.

Lemma nth_error_app_old {X} (l l' : list X) j x : (j < length l)%nat -> nth_error (l ++ l') j = Some x -> nth_error l j = Some x.
Proof. intros H E. rewrite nth_error_app1 in E by exact H. exact E. Qed.
Lemma nth_error_app_keep {X} (l l' : list X) j x : nth_error l j = Some x -> nth_error (l ++ l') j = Some x.
Proof. intros E. rewrite nth_error_app1; [exact E|]. apply nth_error_Some. congruence. Qed.
Lemma list_last_cases {X} (l : list X) : l = [] \/ exists l0 x, l = l0 ++ [x].
Proof. induction l using rev_ind; [left; reflexivity | right; eauto]. Qed.

Section It.
  Variable nb : N.
  Variable memo : bool.
  Variable lex : bool.
  Variable hf : N -> N.

  Notation bucket_of := (bucket_of nb hf).
  Notation nh := (nh memo hf).
  Notation gef := (gef memo lex).
  Notation step := (step nb memo lex hf).
  Notation step0 := (step0 nb memo lex hf).
  Notation init := (init nb).
  Notation G := (@HmmInv.G nb memo lex hf).
  Notation IT0 := (@HmmInv.IT0 nb memo lex hf).
  Notation Inv := (@HmmInv.Inv nb memo lex hf).
  Notation R := (@HmmInv.R memo lex hf).
  Notation T := (@HmmInv.T nb memo lex hf).
  Notation Tw := (@HmmInv.Tw nb memo lex hf).
  Notation bk := (@HmmInv.bk nb hf).
  Notation cont_ok := (@HmmInv.cont_ok nb hf).
  Notation ext := (@HmmInv.ext nb memo lex hf).
  Notation fcom := (@HmmInv.fcom nb hf).
  Notation fresh := (@HmmInv.fresh nb hf).
  Notation in_call := (@HmmInv.in_call nb memo lex hf).
  Notation known := (@HmmInv.known nb hf).
  Notation le2 := (@HmmInv.le2 memo lex hf).
  Notation mono := (@HmmInv.mono nb memo lex hf).
  Notation oknode := (@HmmInv.oknode nb hf).
  Notation oknx := (@HmmInv.oknx nb hf).
  Notation okprev := (@HmmInv.okprev nb memo lex hf).
  Notation okref := (@HmmInv.okref nb hf).
  Notation pre := (@HmmInv.pre memo lex).

  (** the ordering predicate is total: the one of the code (lexicographic), or no memoized hash *)
  Definition ord : Prop := lex = true \/ memo = false.

  Lemma le2_total m x y : ord -> le2 m x y = true \/ le2 m y x = true.
  Proof.
    unfold HmmInv.le2, HmmDefs.gef, HmmDefs.nh. intros [H | H]; rewrite H.
    - destruct memo; [|lia]. destruct (N.eqb_spec (nhash m y) (nhash m x)), (N.eqb_spec (nhash m x) (nhash m y)); lia.
    - lia.
  Qed.

  (** nodes that are or were linked: [HmmInv.known] with the chains computed from the memory ([chain]), for the
      statements of this file, which do not mention [cs]; [kn_known] converts *)
  Definition kn (m : mem) (x : N) : Prop := In x (chain m (bk m x)) \/ In x (g_retired m).

  Lemma kn_known m cs x : G m cs -> (kn m x <-> known m cs x).
  Proof. intros HG. unfold kn, HmmInv.known. rewrite (chain_eq _ _ (bk m x) HG). tauto. Qed.

  (** a recorded position of the iterator *)
  Definition yok (m : mem) (y : yrec) : Prop :=
    y_node y <> 0 /\ kn m (y_node y) /\ bk m (y_node y) = y_b y /\ nkey m (y_node y) = y_key y /\
    (y_lin y <= length (g_lin m))%nat /\
    (y_wit y = true \/
     exists j t' i, (j < y_lin y)%nat /\ nth_error (g_lin m) j = Some (LDel t' (y_key y) (y_node y) i)) /\
    (forall j t' v n, (j < y_lin y)%nat -> nth_error (g_lin m) j = Some (LIns t' (y_key y) v n) ->
       n = y_node y \/ nmark m n = true) /\
    (exists j t' v, (j < y_lin y)%nat /\ nth_error (g_lin m) j = Some (LIns t' (y_key y) v (y_node y))) /\
    y_reach y = true.

  (** two consecutive positions: a later bucket; or the same bucket and a node that is not [<=] the first one;
      or the same key carried by a different node that was linked after the first position was taken *)
  Definition ystep (m : mem) (y1 y2 : yrec) : Prop :=
    (y_lin y1 <= y_lin y2)%nat /\ (y_lin y2 <= length (g_lin m))%nat /\
    (y_b y1 < y_b y2 \/
     (y_b y1 = y_b y2 /\
      (le2 m (y_node y2) (y_node y1) = false \/
       (y_key y1 = y_key y2 /\ y_node y1 <> y_node y2 /\
        forall j t' v, nth_error (g_lin m) j = Some (LIns t' (y_key y2) v (y_node y2)) -> (y_lin y1 <= j)%nat)))).

  Inductive ychain (m : mem) : list yrec -> Prop :=
  | yc_nil : ychain m []
  | yc_one y : ychain m [y]
  | yc_snoc ys y1 y2 : ychain m (ys ++ [y1]) -> ystep m y1 y2 -> ychain m ((ys ++ [y1]) ++ [y2]).

  Definition is_itf (c : fk) : bool := match c with KItF => true | _ => false end.
  Definition is_itn (c : fk) : bool := match c with KItN _ | KItE _ => true | _ => false end.
  (** the thread is inside the call that starts the traversal (begin() / find(key)) *)
  Definition in_start (p : pc) : bool :=
    match p with
    | MB MBeg _ => true
    | F1 c _ _ _ _ | F2 c _ _ _ _ _ _ | F3 c _ _ _ _ _ _ | F4 c _ _ _ _ _ _ | F5 c _ _ _ _ _ _ _ | F6 c _ _ _ _ _ _ _ _ => is_itf c
    | _ => false
    end.

  (** [k] lies behind or at the position (bucket b, node cur) *)
  Definition behind (m : mem) (b cur k : N) : Prop :=
    bucket_of k < b \/ (bucket_of k = b /\ (cur = 0 \/ gef m (hf k) k cur = true)).

  (** a find on behalf of it = find(k) runs on a fresh traversal: nothing yielded yet, iterator at end() *)
  Definition fit (i : itv) (c : fk) : Prop :=
    match c with KItF => g_yield i = [] /\ it_cur i = 0 /\ g_lo i <> None | _ => True end.

  (** [cur] (found by a find on behalf of operator++ / erase(iterator)) is not the node the iterator stands on, and
      if it carries the same key it was linked after the last position was recorded *)
  Definition newpos (m : mem) (i : itv) (cur : N) : Prop :=
    cur <> it_cur i /\
    (nkey m cur = nkey m (it_cur i) -> forall ys0 y j t' v, g_yield i = ys0 ++ [y] ->
       nth_error (g_lin m) j = Some (LIns t' (nkey m cur) v cur) -> (y_lin y <= j)%nat).

  Definition yielded (i : itv) (k : N) : Prop := In k (map y_key (g_yield i)).

  (** what the program point of a thread adds to the invariant of its iterator *)
  Definition ITp (m : mem) (i : itv) (p : pc) : Prop :=
    match p with
    | MB c b =>
      match c with MBeg => g_yield i = [] | _ => it_cur i <> 0 /\ it_b i < b end /\
      (ord -> g_trav i = true -> g_lo i = None -> forall k, In k (g_always i) -> bucket_of k < b -> yielded i k)
    | F1 c _ _ _ _ | F2 c _ _ _ _ _ _ | F3 c _ _ _ _ _ _ | F4 c _ _ _ _ _ _ | F5 c _ _ _ _ _ _ _ => fit i c
    | F6 c _ _ _ _ _ cur _ w => fit i c /\ w = true /\ (is_itn c = true -> newpos m i cur /\ kn m cur /\ it_cur i <> 0)
    | _ => True
    end.

  (** the iterator invariant of thread t: the iterator stands on the last recorded position, every recorded position is
      sound ([yok]), consecutive positions are ordered ([ychain]), and everything behind the iterator that was present
      throughout has been yielded *)
  Record IT (st : state) (t : nat) : Prop := mkIT {
    IT_last : it_cur (its st t) <> 0 ->
              exists ys0 y, g_yield (its st t) = ys0 ++ [y] /\ y_node y = it_cur (its st t) /\ y_b y = it_b (its st t);
    IT_yok : forall y, In y (g_yield (its st t)) -> yok (sm st) y;
    IT_chain : ychain (sm st) (g_yield (its st t));
    IT_compl : ord -> g_trav (its st t) = true -> g_lo (its st t) = None -> in_start (th st t) = false ->
               forall k, In k (g_always (its st t)) -> behind (sm st) (it_b (its st t)) (it_cur (its st t)) k ->
                 yielded (its st t) k;
    IT_atend : g_trav (its st t) = true -> in_start (th st t) = false -> it_cur (its st t) = 0 -> nb <= it_b (its st t) + 1;
    IT_pc : ITp (sm st) (its st t) (th st t) }.

  (** [g_always] only holds keys of the current abstract map; [Y] = that, and [IT] for every thread *)
  Definition Ainv (st : state) : Prop := forall t k, In k (g_always (its st t)) -> In k (keys (g_abs (sm st))).

  Definition Y (st : state) : Prop := Ainv st /\ forall t, IT st t.

  (** ** stability *)

  Section Stable.
    Variables (m : mem) (cs : N -> list N) (m' : mem) (cs' : N -> list N) (sp : N) (l : list lev).
    Hypothesis HG : G m cs.
    Hypothesis HE : ext m cs m' cs' sp l.

    Let HG' : G m' cs' := proj1 HE.
    Let Elin : g_lin m' = g_lin m ++ l := proj1 (proj2 (proj2 HE)).

    Lemma sx_kn x : kn m x -> kn m' x /\ nkey m' x = nkey m x /\ nhash m' x = nhash m x /\ bk m' x = bk m x.
    Proof.
      intros Hk. apply (kn_known _ _ _ HG) in Hk. pose proof (proj1 (proj2 HE)) as HM.
      split; [apply (kn_known _ _ _ HG'); apply (M_known _ _ _ _ _ HM); exact Hk|].
      destruct (st_key _ _ _ _ _ HG HM _ Hk) as (H1 & _ & H3). split; [exact H1|]. split; [exact H3|]. exact (st_bk _ _ _ _ _ HG HM _ Hk).
    Qed.
    Lemma sx_mark x : nmark m x = true -> nmark m' x = true.
    Proof. intros H. pose proof (proj1 (proj2 HE)) as HM. exact (proj1 (M_mark _ _ _ _ _ HM x H)). Qed.
    Lemma sx_len : (length (g_lin m) <= length (g_lin m'))%nat.
    Proof. rewrite Elin, app_length. lia. Qed.
    Lemma sx_le2 x y : kn m x -> kn m y -> le2 m' x y = le2 m x y.
    Proof.
      intros Hx Hy. destruct (sx_kn x Hx) as (_ & H1 & H2 & _). destruct (sx_kn y Hy) as (_ & H3 & H4 & _).
      unfold HmmInv.le2. rewrite (nh_frame m m' x H1 H2), H1. apply gef_frame; assumption.
    Qed.

    Lemma sx_yok y : yok m y -> yok m' y.
    Proof.
      intros (H0 & H1 & H2 & H3 & H4 & H5 & H6 & H7 & H8). destruct (sx_kn _ H1) as (K1 & K2 & _ & K4).
      split; [exact H0|]. split; [exact K1|]. split; [congruence|]. split; [congruence|].
      split; [pose proof sx_len; lia|]. split; [|split; [|split; [|exact H8]]].
      - destruct H5 as [H5 | (j & t' & i & Hj & Hn)]; [left; exact H5 | right]. exists j, t', i. split; [exact Hj|].
        rewrite Elin. apply nth_error_app_keep. exact Hn.
      - intros j t' v n Hj Hn. rewrite Elin in Hn. apply nth_error_app_old in Hn; [|lia].
        destruct (H6 j t' v n Hj Hn) as [H | H]; [left; exact H | right; apply sx_mark; exact H].
      - destruct H7 as (j & t' & v & Hj & Hn). exists j, t', v. split; [exact Hj|]. rewrite Elin. apply nth_error_app_keep. exact Hn.
    Qed.

    Lemma sx_ystep y1 y2 : yok m y1 -> yok m y2 -> ystep m y1 y2 -> ystep m' y1 y2.
    Proof.
      intros Hy1 Hy2 (H1 & H2 & H3). split; [exact H1|]. split; [pose proof sx_len; lia|].
      destruct H3 as [H3 | (H3 & H4)]; [left; exact H3 | right]. split; [exact H3|].
      destruct H4 as [H4 | (H4 & H5 & H6)]; [left | right].
      - rewrite sx_le2; [exact H4 | exact (proj1 (proj2 Hy2)) | exact (proj1 (proj2 Hy1))].
      - split; [exact H4|]. split; [exact H5|].
        intros j t' v Hn. rewrite Elin in Hn. destruct (Nat.lt_ge_cases j (length (g_lin m))) as [Hlt | Hge].
        + apply nth_error_app_old in Hn; [|exact Hlt]. exact (H6 j t' v Hn).
        + lia.
    Qed.

    Lemma sx_ychain ys : (forall y, In y ys -> yok m y) -> ychain m ys -> ychain m' ys.
    Proof.
      intros Hall H. induction H as [|y|ys y1 y2 Hc IH Hs]; [constructor | constructor|].
      constructor; [apply IH; intros y Hy; apply Hall; apply in_or_app; left; exact Hy|].
      apply sx_ystep; [| |exact Hs]; apply Hall; rewrite !in_app_iff; cbn [In]; auto.
    Qed.
  End Stable.

  Definition same_it (i i' : itv) : Prop :=
    it_b i' = it_b i /\ it_sv i' = it_sv i /\ it_cur i' = it_cur i /\ g_yield i' = g_yield i /\
    g_lo i' = g_lo i /\ g_trav i' = g_trav i /\ (forall k, In k (g_always i') -> In k (g_always i)).

  Lemma same_it_refl i : same_it i i.
  Proof. unfold same_it. auto 10. Qed.

  Lemma last_yield st t : IT st t -> it_cur (its st t) <> 0 -> forall ys0 y, g_yield (its st t) = ys0 ++ [y] ->
    y_node y = it_cur (its st t) /\ y_b y = it_b (its st t) /\ yok (sm st) y.
  Proof.
    intros HI Hnz ys0 y E. destruct (IT_last _ _ HI Hnz) as (ys1 & y1 & E1 & Hn & Hb). rewrite E in E1.
    apply app_inj_tail in E1. destruct E1 as [_ <-].
    split; [exact Hn|]. split; [exact Hb|]. apply (IT_yok _ _ HI). rewrite E. apply in_or_app. right. left. reflexivity.
  Qed.

  Lemma cur_kn st t : IT st t -> it_cur (its st t) <> 0 -> kn (sm st) (it_cur (its st t)).
  Proof.
    intros HI Hnz. destruct (IT_last _ _ HI Hnz) as (ys0 & y & E & _). destruct (last_yield st t HI Hnz ys0 y E) as (Hn & _ & Hy).
    rewrite <- Hn. exact (proj1 (proj2 Hy)).
  Qed.

  Lemma fit_same i i' c : same_it i i' -> fit i c -> fit i' c.
  Proof. intros (_ & _ & E3 & E4 & E5 & _) H. destruct c; cbn [fit] in *; try exact I. rewrite E3, E4, E5. exact H. Qed.

  Lemma ITp_stable m cs m' cs' sp l i i' p : G m cs -> ext m cs m' cs' sp l -> same_it i i' ->
    (it_cur i <> 0 -> kn m (it_cur i)) -> (forall y, In y (g_yield i) -> yok m y) ->
    ITp m i p -> ITp m' i' p.
  Proof.
    intros HG HE Hs Hcur Hyok Hp. pose proof Hs as (E1 & E2 & E3 & E4 & E5 & E6 & HA).
    destruct p; cbn [ITp] in *; try exact I; try (eapply fit_same; eassumption).
    - (* F6 *) destruct Hp as (Hp1 & Hw & Hp2). split; [eapply fit_same; eassumption|]. split; [exact Hw|]. intros Hc.
      destruct (Hp2 Hc) as ((Hn1 & Hn2) & Hkc & Hnz). rewrite E3.
      destruct (sx_kn _ _ _ _ _ _ HG HE _ Hkc) as (K0 & K1 & _). destruct (sx_kn _ _ _ _ _ _ HG HE _ (Hcur Hnz)) as (_ & K2 & _).
      split; [|split; [exact K0 | exact Hnz]]. unfold newpos. rewrite E3, E4. split; [exact Hn1|].
      rewrite K1, K2. intros Hk1 ys0 y j t' v Ey Hn. rewrite (proj1 (proj2 (proj2 HE))) in Hn.
      destruct (Nat.lt_ge_cases j (length (g_lin m))) as [Hlt | Hge].
      + apply nth_error_app_old in Hn; [|exact Hlt]. exact (Hn2 Hk1 ys0 y j t' v Ey Hn).
      + assert (Hy : yok m y) by (apply Hyok; rewrite Ey; apply in_or_app; right; left; reflexivity).
        destruct Hy as (_ & _ & _ & _ & Hy & _). lia.
    - (* MB *) destruct Hp as [Hp1 Hp2]. unfold yielded in *. rewrite E3, E1, E4, E5, E6. split; [exact Hp1|].
      intros Ho Ht Hl k Hk0 Hb. apply Hp2; auto.
  Qed.

  (** the memory changes by [ext], the program point of thread t goes from [th st t] to [th st' t] (possibly the
      same), its iterator variable stays *)
  Lemma IT_step st st' cs cs' sp l t :
    G (sm st) cs -> ext (sm st) cs (sm st') cs' sp l -> same_it (its st t) (its st' t) ->
    ITp (sm st') (its st' t) (th st' t) ->
    in_start (th st' t) = in_start (th st t) ->
    IT st t -> IT st' t.
  Proof.
    intros HG HE (E1 & E2 & E3 & E4 & E5 & E6 & HA) Hp Hs HI.
    pose proof HI as [H1 H2 H3 H4 H4e H5].
    assert (Hcur : it_cur (its st t) <> 0 -> kn (sm st) (it_cur (its st t))) by (apply cur_kn; exact HI).
    constructor; rewrite ?E1, ?E2, ?E3, ?E4, ?E5, ?E6.
    - exact H1.
    - intros y Hy. eapply sx_yok; [exact HG | exact HE | apply H2; exact Hy].
    - eapply sx_ychain; [exact HG | exact HE | exact H2 | exact H3].
    - intros Ho Ht Hl Hs' k Hk Hbe. unfold yielded. rewrite E4. apply (H4 Ho Ht Hl); [|apply HA; exact Hk|].
      + congruence.
      + destruct Hbe as [Hbe | [Hb Hbe]]; [left; exact Hbe | right]. split; [exact Hb|].
        destruct Hbe as [Hz | Hge]; [left; exact Hz|]. destruct (N.eq_dec (it_cur (its st t)) 0) as [Hz|Hnz]; [left; exact Hz | right].
        destruct (sx_kn _ _ _ _ _ _ HG HE _ (Hcur Hnz)) as (_ & K1 & K2 & _). rewrite <- Hge. symmetry. apply gef_frame; assumption.
    - intros Ht Hs' Hc. apply (H4e Ht); [congruence | exact Hc].
    - exact Hp.
  Qed.

  (** a thread that does not move *)
  Lemma IT_other st st' cs cs' sp l u :
    G (sm st) cs -> ext (sm st) cs (sm st') cs' sp l -> same_it (its st u) (its st' u) -> th st' u = th st u ->
    IT st u -> IT st' u.
  Proof.
    intros HG HE Hs Eth HI. eapply IT_step; try eassumption; [|rewrite Eth; reflexivity].
    rewrite Eth. eapply ITp_stable; try eassumption; [apply cur_kn; exact HI | exact (IT_yok _ _ HI) | exact (IT_pc _ _ HI)].
  Qed.

  (** ** landing of an iterator *)

  Lemma in_del_nodes_nth l x : In x (del_nodes l) -> exists j t k i, (j < length l)%nat /\ nth_error l j = Some (LDel t k x i).
  Proof.
    intros H. apply del_nodes_in in H. destruct H as (t & k & i & H). apply In_nth_error in H. destruct H as [j Hj].
    exists j, t, k, i. split; [apply nth_error_Some; congruence | exact Hj].
  Qed.

  Lemma reachable_chain m cs b x : G m cs -> (reachable m b x = true <-> In x (cs b)).
  Proof. intros HG. unfold reachable. rewrite memb_true, (chain_eq _ _ b HG). tauto. Qed.

  Lemma push_y_nz m ys b cur w : cur <> 0 ->
    push_y m ys b cur w = ys ++ [mkY b (nkey m cur) cur w (reachable m b cur) (length (g_lin m))].
  Proof. intros H. unfold push_y. destruct (N.eqb_spec cur 0); [contradiction | reflexivity]. Qed.

  Lemma land_yok m cs b sv cur w : G m cs -> In sv (0 :: cs b) -> pnext m b sv = cur -> cur <> 0 ->
    (w = true \/ w = memk (nkey m cur) (g_abs m)) ->
    In cur (cs b) /\ yok m (mkY b (nkey m cur) cur w (reachable m b cur) (length (g_lin m))).
  Proof.
    intros HG Hsv Hn Hnz Hw.
    assert (Hc : In cur (cs b)) by (rewrite <- Hn; apply (chain_next_in m cs b sv HG Hsv); congruence).
    assert (Hbk : bk m cur = b) by exact (G_bk _ _ HG _ _ Hc).
    assert (Hk : known m cs cur) by exact (known_chain m cs b cur HG Hc).
    split; [exact Hc|]. unfold yok. cbn [y_key y_node y_wit y_lin y_reach y_b].
    split; [exact Hnz|]. split; [apply (kn_known _ _ _ HG); exact Hk|]. split; [exact Hbk|]. split; [reflexivity|].
    split; [lia|]. split; [|split; [|split]].
    - destruct (nmark m cur) eqn:Hm.
      + right. destruct (in_del_nodes_nth _ _ (G_marked_del _ _ HG _ Hm)) as (j & t' & k & i & Hj & Hnth). exists j, t', i. split; [exact Hj|].
        assert (k = nkey m cur). { symmetry. apply (proj2 (G_ldel _ _ HG t' k cur i (nth_error_In _ _ Hnth))). }
        subst k. exact Hnth.
      + left. destruct Hw as [-> | ->]; [reflexivity|]. apply memk_true. apply in_keys. exists (nval m cur).
        apply (abs_in m cs cur HG); [rewrite Hbk; exact Hc | exact Hm].
    - intros j t' v n Hj Hnth. apply nth_error_In in Hnth. destruct (G_lins _ _ HG _ _ _ _ Hnth) as (Hkn & Hkey & _).
      destruct (nmark m n) eqn:Hm; [right; reflexivity | left].
      assert (Hbn : bk m n = b) by (unfold HmmInv.bk in *; rewrite Hkey; exact Hbk).
      apply (chain_key_inj m cs b n cur HG); [| exact Hc | exact Hkey].
      rewrite <- Hbn. exact (unmarked_in_chain m cs n HG Hkn Hm).
    - pose proof (G_known_ins _ _ HG cur Hk) as Hi. apply ins_nodes_in in Hi. destruct Hi as (t' & k & v & Hi).
      assert (k = nkey m cur) by (symmetry; exact (proj1 (proj2 (G_lins _ _ HG _ _ _ _ Hi)))). subst k.
      apply In_nth_error in Hi. destruct Hi as [j Hj]. exists j, t', v. split; [apply nth_error_Some; congruence | exact Hj].
    - apply (reachable_chain m cs); assumption.
  Qed.

  (** the chain of bucket [b] ends at [sv] *)
  Lemma bucket_done m cs b sv : G m cs -> In sv (0 :: cs b) -> pnext m b sv = 0 ->
    forall x, In x (cs b) -> In x (upto sv (0 :: cs b)).
  Proof.
    intros HG Hsv Hn x Hx. destruct (chain_split m cs b sv HG Hsv) as (c1 & c2 & E & Hn' & _ & _ & _ & _ & _ & HR2 & _ & Hsv1 & _).
    rewrite Hn in Hn'. destruct c2 as [|y r]; [|cbn [hd] in Hn'; exfalso; destruct (HR2 y (or_introl eq_refl)) as [Hy _]; congruence].
    rewrite E, (upto_app_notin _ _ _ Hsv1). cbn [upto]. rewrite N.eqb_refl. rewrite <- E. right. exact Hx.
  Qed.

  (** [k] lies behind or at the successor [cur] of [sv]: its node is in the prefix up to [sv], or it is [cur] *)
  Lemma behind_cases m cs b sv cur k x : G m cs -> In sv (0 :: cs b) -> pnext m b sv = cur -> cur <> 0 ->
    In x (cs b) -> nkey m x = k -> gef m (hf k) k cur = true -> In x (upto sv (0 :: cs b)) \/ x = cur.
  Proof.
    intros HG Hsv Hn Hnz Hx Hk Hge.
    destruct (chain_split m cs b sv HG Hsv) as (c1 & c2 & E & Hn' & _ & _ & _ & HS2 & _ & HR2 & _ & Hsv1 & _).
    rewrite Hn in Hn'. destruct c2 as [|y r]; cbn [hd] in Hn'; [contradiction|]. subst y.
    assert (Hx' : In x (c1 ++ sv :: cur :: r)) by (rewrite <- E; right; exact Hx).
    rewrite E, (upto_app_notin _ _ _ Hsv1). cbn [upto]. rewrite N.eqb_refl.
    apply in_app_or in Hx'. destruct Hx' as [Hx' | [Hx' | [Hx' | Hx']]].
    - left. apply in_or_app. left. exact Hx'.
    - left. apply in_or_app. right. left. exact Hx'.
    - right. symmetry. exact Hx'.
    - exfalso. apply SS_cons_inv in HS2. destruct HS2 as [_ HS2]. destruct (HS2 _ Hx') as [_ [H0 | Hlt]]; [contradiction|].
      assert (Hxnz : x <> 0) by exact (chain_nz m cs b x HG Hx).
      unfold HmmInv.le2 in Hlt. rewrite (nh_hash m cs x HG Hxnz (chain_bound m cs b x HG Hx)), Hk, Hge in Hlt. discriminate.
  Qed.

  Section Land.
    Variables (st : state) (cs : N -> list N) (t : nat) (b sv cur : N) (w : bool).
    Hypothesis HG : G (sm st) cs.
    Hypothesis HA : forall k, In k (g_always (its st t)) -> In k (keys (g_abs (sm st))).
    Hypothesis HI : IT st t.
    Hypothesis Hsv : In sv (0 :: cs b).
    Hypothesis Hn : pnext (sm st) b sv = cur.
    (** the keys of the earlier buckets and of the prefix up to [sv] have been yielded *)
    Hypothesis Hlow : ord -> g_trav (its st t) = true -> g_lo (its st t) = None ->
      forall k, In k (g_always (its st t)) ->
        (bucket_of k < b \/ (bucket_of k = b /\ exists x, In x (upto sv (0 :: cs b)) /\ x <> 0 /\ nkey (sm st) x = k)) ->
        yielded (its st t) k.

    Let m := sm st.
    Let i := its st t.

    (** every key of [g_always] in bucket b has a node in the chain *)
    Lemma always_node k : In k (g_always i) -> bucket_of k = b -> exists x, In x (cs b) /\ nkey m x = k.
    Proof.
      intros Hk Hb. apply HA in Hk. apply in_keys in Hk. destruct Hk as (v & Hk). apply (G_abs _ _ HG) in Hk.
      destruct Hk as (x & H1 & _ & H3 & _). exists x. rewrite <- Hb. auto.
    Qed.

    Lemma land_bucket_done : cur = 0 -> ord -> g_trav i = true -> g_lo i = None ->
      forall k, In k (g_always i) -> bucket_of k < b + 1 -> yielded i k.
    Proof.
      intros Hz Ho Ht Hl k Hk Hb. apply (Hlow Ho Ht Hl k Hk). destruct (N.lt_ge_cases (bucket_of k) b) as [Hlt | Hge]; [left; exact Hlt | right].
      assert (Hbe : bucket_of k = b) by lia. split; [exact Hbe|]. destruct (always_node k Hk Hbe) as (x & Hx & Hkx).
      exists x. split; [apply (bucket_done m cs b sv HG Hsv); [unfold m; rewrite Hn; exact Hz | exact Hx]|]. split; [exact (chain_nz m cs b x HG Hx) | exact Hkx].
    Qed.

    (** the iterator operation returns at end(): bucket b was the last one *)
    Lemma IT_land_end : cur = 0 -> (b + 1 <? nb) = false -> IT (move_it st t b 0 0 w) t.
    Proof.
      intros Hz Hlast. pose proof HI as [H1 H2 H3 H4 H4e H5].
      constructor; cbn [move_it sm th its it_b it_sv it_cur g_yield g_lo g_trav g_always]; rewrite ?upd_same;
        cbn [it_b it_sv it_cur g_yield g_lo g_trav g_always push_y N.eqb]; fold i.
      - intros H. contradiction.
      - exact H2.
      - exact H3.
      - intros Ho Ht Hl _ k Hk [Hb | [Hb _]]; apply (land_bucket_done Hz Ho Ht Hl k Hk); lia.
      - intros _ _ _. apply N.ltb_ge in Hlast. exact Hlast.
      - exact I.
    Qed.

    (** the iterator operation goes on with bucket b + 1 *)
    Lemma IT_land_next c : cur = 0 ->
      match c with MBeg => g_yield i = [] | _ => it_cur i <> 0 /\ it_b i <= b /\ in_start (th st t) = false end ->
      IT (set_pc st t (MB c (b + 1))) t.
    Proof.
      intros Hz Hc. pose proof HI as [H1 H2 H3 H4 H4e H5].
      constructor; cbn [set_pc sm th its]; rewrite ?upd_same; fold i; try assumption.
      - intros Ho Ht Hl Hs. destruct c; cbn [in_start] in Hs; [discriminate | |]; apply (H4 Ho Ht Hl); exact (proj2 (proj2 Hc)).
      - intros Ht Hs Hcz. destruct c; cbn [in_start] in Hs; [discriminate | |]; exfalso; exact (proj1 Hc Hcz).
      - cbn [ITp]. fold i. split; [destruct c; [exact Hc | |]; (split; [exact (proj1 Hc) | pose proof (proj1 (proj2 Hc)); lia])|].
        intros Ho Ht Hl k Hk Hb. exact (land_bucket_done Hz Ho Ht Hl k Hk Hb).
    Qed.

    (** the iterator operation returns with the iterator on [cur] *)
    Lemma IT_land_node : cur <> 0 ->
      (w = true \/ w = memk (nkey m cur) (g_abs m)) ->
      (forall ys0 y, g_yield i = ys0 ++ [y] ->
         y_b y < b \/
         (y_b y = b /\ (le2 m cur (y_node y) = false \/
            (y_key y = nkey m cur /\ y_node y <> cur /\
             forall j t' v, nth_error (g_lin m) j = Some (LIns t' (nkey m cur) v cur) -> (y_lin y <= j)%nat)))) ->
      IT (move_it st t b sv cur w) t.
    Proof.
      intros Hnz Hw Hrel. pose proof HI as [H1 H2 H3 H4 H4e H5].
      destruct (land_yok m cs b sv cur w HG Hsv Hn Hnz Hw) as [Hc Hynew].
      constructor; cbn [move_it sm th its it_b it_sv it_cur g_yield g_lo g_trav g_always]; rewrite ?upd_same;
        cbn [it_b it_sv it_cur g_yield g_lo g_trav g_always]; fold i m; rewrite ?(push_y_nz m _ b cur w Hnz).
      - intros _. eexists _, _. split; [reflexivity|]. split; reflexivity.
      - intros y Hy. apply in_app_or in Hy. destruct Hy as [Hy | [<- | []]]; [apply H2; exact Hy | exact Hynew].
      - destruct (list_last_cases (g_yield i)) as [E | (ys0 & y & E)].
        + rewrite E. constructor.
        + rewrite E. constructor; [rewrite <- E; exact H3|]. unfold ystep. cbn [y_key y_node y_lin y_b].
          assert (Hy : yok m y) by (apply H2; fold i; rewrite E; apply in_or_app; right; left; reflexivity).
          split; [exact (proj1 (proj2 (proj2 (proj2 (proj2 Hy)))))|]. split; [lia|]. exact (Hrel ys0 y E).
      - intros Ho Ht Hl _ k Hk Hbe. unfold yielded. cbn [g_yield]. rewrite map_app. apply in_or_app.
        destruct Hbe as [Hb | [Hb [Hz | Hge]]]; [left; apply (Hlow Ho Ht Hl k Hk); left; exact Hb | contradiction|].
        destruct (always_node k Hk Hb) as (x & Hx & Hkx).
        destruct (behind_cases m cs b sv cur k x HG Hsv Hn Hnz Hx Hkx Hge) as [Hpre | ->].
        * left. apply (Hlow Ho Ht Hl k Hk). right. split; [exact Hb|]. exists x. split; [exact Hpre|]. split; [exact (chain_nz m cs b x HG Hx) | exact Hkx].
        * right. left. exact Hkx.
      - intros _ _ Hcz. contradiction.
      - exact I.
    Qed.
  End Land.

  (** ** one step *)

  Lemma upto_before m cs b sv x : G m cs -> In sv (0 :: cs b) -> In x (upto sv (0 :: cs b)) -> x = sv \/ R m x sv.
  Proof.
    intros HG Hsv Hx. destruct (chain_split m cs b sv HG Hsv) as (c1 & c2 & E & _ & _ & _ & _ & _ & HR1 & _ & _ & Hsv1 & _).
    rewrite E, (upto_app_notin _ _ _ Hsv1) in Hx. cbn [upto] in Hx. rewrite N.eqb_refl in Hx.
    apply in_app_or in Hx. destruct Hx as [Hx | [Hx | []]]; [right; apply HR1; exact Hx | left; symmetry; exact Hx].
  Qed.

  (** by totality, a node of the prefix that is below (h, k) = the pair of node [o] is [<=] o *)
  Lemma below_le m cs x o k : G m cs -> ord -> known m cs x -> o <> 0 -> o < nalloc m -> nkey m x = k ->
    gef m (nh m o) (nkey m o) x = false -> gef m (hf k) k o = true.
  Proof.
    intros HG Ho Hk Honz Holt Hkx Hf.
    assert (Hxnz : x <> 0) by exact (known_nz m cs x HG Hk).
    assert (Hxlt : x < nalloc m) by exact (G_bound _ _ HG x Hk).
    destruct (le2_total m x o Ho) as [H | H]; [|unfold HmmInv.le2 in H; rewrite Hf in H; discriminate].
    unfold HmmInv.le2 in H. rewrite (nh_hash m cs x HG Hxnz Hxlt), Hkx in H. exact H.
  Qed.

  Lemma it_land_Y st cs t c b sv cur w e st' es :
    G (sm st) cs -> (forall k, In k (g_always (its st t)) -> In k (keys (g_abs (sm st)))) -> IT st t ->
    In sv (0 :: cs b) -> pnext (sm st) b sv = cur ->
    (ord -> g_trav (its st t) = true -> g_lo (its st t) = None ->
      forall k, In k (g_always (its st t)) ->
        (bucket_of k < b \/ (bucket_of k = b /\ exists x, In x (upto sv (0 :: cs b)) /\ x <> 0 /\ nkey (sm st) x = k)) ->
        yielded (its st t) k) ->
    (cur <> 0 ->
      (w = true \/ w = memk (nkey (sm st) cur) (g_abs (sm st))) /\
      (forall ys0 y, g_yield (its st t) = ys0 ++ [y] ->
         y_b y < b \/
         (y_b y = b /\ (le2 (sm st) cur (y_node y) = false \/
            (y_key y = nkey (sm st) cur /\ y_node y <> cur /\
             forall j t' v, nth_error (g_lin (sm st)) j = Some (LIns t' (nkey (sm st) cur) v cur) -> (y_lin y <= j)%nat))))) ->
    match c with MBeg => g_yield (its st t) = [] | _ => it_cur (its st t) <> 0 /\ it_b (its st t) <= b /\ in_start (th st t) = false end ->
    it_land nb st t c b sv cur w e = Some (st', es) -> IT st' t.
  Proof.
    intros HG HA HI Hsv Hn Hlow Hnode Hc Hst. unfold it_land in Hst.
    destruct (N.eqb_spec cur 0) as [Hz|Hz]; [destruct (b + 1 <? nb) eqn:Hlast|]; injection Hst as <- <-.
    - eapply IT_land_next; eassumption.
    - eapply IT_land_end; eassumption.
    - destruct (Hnode Hz) as [Hw Hrel]. eapply IT_land_node; eassumption.
  Qed.

  (** the find of operator++ / erase(iterator) returns with info = (sv, cur) *)
  Lemma find_land_Y st cs t (c : fk) (mc : mk) o b h key sv cur w e st' es :
    G (sm st) cs -> (forall k, In k (g_always (its st t)) -> In k (keys (g_abs (sm st)))) -> IT st t ->
    (c = KItN o \/ c = KItE o) -> (mc = MNext \/ mc = MErase o) ->
    in_start (th st t) = false ->
    fcom (sm st) cs (g_lp st t) (it_b (its st t)) (it_cur (its st t)) c b h key ->
    IT0 (sm st) cs (it_b (its st t)) (it_sv (its st t)) (it_cur (its st t)) ->
    okprev (sm st) cs b h key sv -> valid (sm st) b sv cur = true ->
    (cur <> 0 -> gef (sm st) h key cur = true /\ w = true /\ newpos (sm st) (its st t) cur) ->
    it_land nb st t mc b sv cur w e = Some (st', es) -> IT st' t.
  Proof.
    intros HG HA HI Hc Hmc Hs (Hh & Hb & Hco) Hit0 Hsv Hv Hcur Hst.
    destruct (valid_chain (sm st) cs b sv cur HG (proj1 Hsv) Hv) as (Hsvc & Hn & Hm).
    assert (Hco' : it_cur (its st t) = o /\ o <> 0 /\ nmark (sm st) o = true /\ key = nkey (sm st) o /\ b = it_b (its st t))
      by (destruct Hc as [-> | ->]; exact Hco).
    destruct Hco' as (Eo & Honz & Hom & Ekey & Eb).
    assert (Hcz : it_cur (its st t) <> 0) by congruence.
    destruct (proj2 Hit0 Hcz) as [_ (_ & Hok & _)]. rewrite Eo in Hok.
    assert (Holt : o < nalloc (sm st)) by exact (G_bound _ _ HG o Hok).
    assert (Enh : nh (sm st) o = h) by (rewrite Hh, Ekey; exact (nh_hash (sm st) cs o HG Honz Holt)).
    eapply (it_land_Y st cs t mc b sv cur w); try eassumption.
    - (* prefix yielded *)
      intros Ho Ht Hl k Hk Hcase. apply (IT_compl _ _ HI Ho Ht Hl Hs k Hk). rewrite <- Eb, Eo.
      destruct Hcase as [Hlt | (Hbe & x & Hx & Hxnz & Hkx)]; [left; exact Hlt | right]. split; [exact Hbe | right].
      assert (Hxc : In x (cs b)) by (destruct (upto_incl _ _ _ Hx) as [H0 | H0]; [congruence | exact H0]).
      apply (below_le (sm st) cs x o k HG Ho (known_chain (sm st) cs b x HG Hxc) Honz Holt Hkx).
      rewrite Enh, <- Ekey. exact (proj2 Hsv Hsvc x Hx Hxnz).
    - (* the new position *)
      intros Hnz. destruct (Hcur Hnz) as (Hge & Hw & Hne & Hnp). split; [left; exact Hw|].
      intros ys0 y E. destruct (last_yield st t HI Hcz ys0 y E) as (Hyn & Hyb & Hyok). right. split; [congruence|].
      rewrite Hyn, Eo. destruct (le2 (sm st) cur o) eqn:Hle; [right | left; reflexivity].
      assert (Hk : nkey (sm st) cur = nkey (sm st) o).
      { apply (gef_antisym (sm st) cur o Hle). unfold HmmInv.le2. rewrite Enh, <- Ekey. exact Hge. }
      split; [rewrite <- (proj1 (proj2 (proj2 (proj2 Hyok)))), Hyn, Eo; symmetry; exact Hk|].
      split; [rewrite <- Eo; intros Hq; apply Hne; symmetry; exact Hq|].
      intros j t' v Hj. rewrite <- Eo in Hk. exact (Hnp Hk ys0 y j t' v E Hj).
    - destruct Hmc as [-> | ->]; (split; [exact Hcz | split; [rewrite Eb; apply N.le_refl | exact Hs]]).
  Qed.

  Lemma IT_start st t p lo : (p = MB MBeg 0 /\ lo = None) \/ (exists c b h k, p = F1 KItF b h k 0 /\ lo = Some c) ->
    IT (start_trav st t p lo) t.
  Proof.
    intros Hp. constructor; sprj; rewrite ?upd_same; sprj.
    - intros H. contradiction.
    - intros y [].
    - constructor.
    - intros _ _ _ Hs. destruct Hp as [[-> _] | (c & b & h & k & -> & _)]; discriminate Hs.
    - intros _ Hs. destruct Hp as [[-> _] | (c & b & h & k & -> & _)]; discriminate Hs.
    - destruct Hp as [[-> ->] | (c & b & h & k & -> & ->)]; cbn [ITp fit g_yield it_cur g_lo].
      + split; [reflexivity|]. intros _ _ _ k _ Hb. lia.
      + split; [reflexivity|]. split; [reflexivity | discriminate].
  Qed.

  Lemma IT_end st t : IT st t -> IT (end_trav nb st t) t.
  Proof.
    intros [H1 H2 H3 H4 H4e H5]. constructor; unfold HmmDefs.end_trav; sprj; rewrite ?upd_same; sprj; try assumption.
    - intros H. contradiction.
    - intros _ Ht. discriminate Ht.
    - intros Ht. discriminate Ht.
    - exact I.
  Qed.

  Lemma IT_eq st st' t : sm st' = sm st -> th st' t = th st t -> its st' t = its st t -> IT st t -> IT st' t.
  Proof. intros E1 E2 E3 [H1 H2 H3 H4 H4e H5]. constructor; rewrite ?E1, ?E2, ?E3; assumption. Qed.

  (** a step of thread t that leaves its iterator variable alone *)
  Lemma IT_keep s s' cs cs' sp l t p : G (sm s) cs -> ext (sm s) cs (sm s') cs' sp l -> IT s t ->
    its s' t = its s t -> th s' t = p -> ITp (sm s') (its s t) p -> in_start p = in_start (th s t) -> IT s' t.
  Proof.
    intros HG HE HI Ei Ep Hp Hs.
    eapply IT_step; [exact HG | exact HE | rewrite Ei; apply same_it_refl | rewrite Ei, Ep; exact Hp | rewrite Ep; exact Hs | exact HI].
  Qed.

  (** [find] has loaded the unmarked node [cur]: if it works for operator++ / erase(iterator), [cur] is a new position *)
  Lemma ITp_F6 s cs t c b h key start sv cur :
    G (sm s) cs -> IT s t -> cont_ok (sm s) cs (g_lp s t) (it_b (its s t)) (it_cur (its s t)) c b h key ->
    oknode (sm s) cs b cur -> nmark (sm s) cur = false -> fit (its s t) c ->
    ITp (sm s) (its s t) (F6 c b h key start sv cur (nnext (sm s) cur) (memk (nkey (sm s) cur) (g_abs (sm s)))).
  Proof.
    intros HG HI Hco Hcur Hm Hp.
    assert (Hcc : In cur (cs (bk (sm s) cur))) by exact (unmarked_in_chain (sm s) cs cur HG (proj1 (proj2 Hcur)) Hm).
    split; [exact Hp|]. split.
    - apply memk_true. apply in_keys. exists (nval (sm s) cur). exact (abs_in (sm s) cs cur HG Hcc Hm).
    - intros Hitn.
      assert (Hco' : exists o, it_cur (its s t) = o /\ o <> 0 /\ nmark (sm s) o = true)
        by (destruct c; try discriminate Hitn; cbn [HmmInv.cont_ok] in Hco; destruct Hco as (H1 & H2 & H3 & _); eauto).
      destruct Hco' as (o & Eo & Honz & Hom). assert (Hcz : it_cur (its s t) <> 0) by congruence.
      split; [|split; [apply (kn_known _ _ _ HG); exact (proj1 (proj2 Hcur)) | exact Hcz]].
      split; [intros Hq; rewrite Hq, Eo in Hm; congruence|].
      intros Hk ys0 y j t' v Ey Hj. destruct (last_yield s t HI Hcz ys0 y Ey) as (Hyn & _ & Hyok).
      destruct (Nat.lt_ge_cases j (y_lin y)) as [Hlt | Hge]; [exfalso | exact Hge].
      destruct Hyok as (_ & _ & _ & Hyk & _ & _ & Hy6 & _). rewrite Hyn in Hyk. rewrite Hk, Hyk in Hj.
      destruct (Hy6 j t' v cur Hlt Hj) as [Hq | Hq]; [rewrite Hyn, Eo in Hq; rewrite Hq, Hom in Hm; discriminate | congruence].
  Qed.

  (** the internal find returns with info = (sv, cur) *)
  Lemma find_ret_IT s cs cs' sp l t c b h key sv cur nx found w e s' es :
    G (sm s) cs -> (forall k, In k (g_always (its s t)) -> In k (keys (g_abs (sm s)))) -> IT s t ->
    ext (sm s) cs (sm s') cs' sp l -> in_start (th s t) = is_itf c -> fit (its s t) c ->
    fcom (sm s) cs (g_lp s t) (it_b (its s t)) (it_cur (its s t)) c b h key ->
    IT0 (sm s) cs (it_b (its s t)) (it_sv (its s t)) (it_cur (its s t)) ->
    okprev (sm s) cs b h key sv -> valid (sm s) b sv cur = true ->
    (found = true -> cur <> 0) ->
    (cur <> 0 -> gef (sm s) h key cur = true /\ w = true /\ (is_itn c = true -> newpos (sm s) (its s t) cur)) ->
    find_ret nb memo hf s t c b h key sv cur nx found w e = Some (s', es) -> IT s' t.
  Proof.
    intros HG HA HI HE Hs Hfit Hco Hit0 Hsv Hv Hyes Hcur Hst.
    destruct c as [n v|n v| | | | | |o|o]; cbn [is_itf fit is_itn] in *.
    1-6: ret_cases Hst; (apply (IT_keep s _ cs cs' sp l t _ HG HE HI eq_refl (upd_same _ _ _)); [exact I | rewrite Hs; reflexivity]).
    - unfold find_ret in Hst. destruct found; injection Hst as <- <-.
      + destruct Hfit as (Hy0 & Hc0 & Hlo). destruct (valid_chain (sm s) cs b sv cur HG (proj1 Hsv) Hv) as (Hsvc & Hn & Hm).
        apply (IT_eq (move_it s t b sv cur w)); try reflexivity.
        eapply (IT_land_node s cs t b sv cur w HG HA HI Hsvc Hn); [| exact (Hyes eq_refl) | left; exact (proj1 (proj2 (Hcur (Hyes eq_refl)))) |].
        * intros _ _ Hl. contradiction.
        * intros ys0 y Ey. rewrite Hy0 in Ey. destruct ys0; discriminate.
      + apply (IT_eq (end_trav nb s t)); try reflexivity. apply IT_end. exact HI.
    - eapply (find_land_Y s cs t (KItN o) MNext o b h key sv cur); try eassumption; auto.
      intros Hnz. destruct (Hcur Hnz) as (H1 & H2 & H3). auto.
    - eapply (find_land_Y s cs t (KItE o) (MErase o) o b h key sv cur); try eassumption; auto.
      intros Hnz. destruct (Hcur Hnz) as (H1 & H2 & H3). auto.
  Qed.

  Ltac keep s cs cs' sp l t HG HE HI E :=
    eapply (IT_keep s _ cs cs' sp l t _ HG HE (HI t) eq_refl (upd_same _ _ _)); [cbn [ITp] | rewrite E; try match goal with |- context [if ?g then _ else _] => destruct g end; reflexivity].

  Lemma Y_step0 s a s1 es : Inv s -> Y s -> step0 s a = Some (s1, es) -> forall u, IT s1 u.
  Proof.
    intros [cs (HG & HT & HU)] [HA HI] Hst u.
    destruct (step0_ext s a s1 es cs HG HT Hst) as (cs' & sp & l & HE). apply step0_tstep in Hst.
    destruct (Nat.eq_dec u (actor a)) as [->|Hne].
    2: { destruct (tstep_others _ _ _ _ _ _ _ _ u Hst Hne) as (E1 & E2 & _).
         eapply IT_other; [exact HG | exact HE | rewrite E2; apply same_it_refl | exact E1 | apply HI]. }
    (* most steps leave the iterator variable alone and go to a program point that asks nothing new of it *)
    destruct Hst; cbn [actor]; destruct (HT t) as [Ht Hit]; pose proof (IT_pc _ _ (HI t)) as Hp; rewrite E in Ht, Hp;
      cbn [HmmInv.Tw] in Ht; cbn [ITp] in Hp;
      try (keep s cs cs' sp l t HG HE HI E; first [exact I | exact Hp | exact (proj1 Hp) | match goal with |- context [if ?g then _ else _] => destruct g end; exact I]).
    - apply IT_start. left. auto.
    - apply IT_start. right. eauto 8.
    - apply IT_end. apply HI.
    - (* F2, the chain ends *) destruct Ht as (Hco & Hstart & Hsv & Hnxk).
      eapply (find_ret_IT s cs cs' sp l t c b h key sv 0 0 false); try eassumption;
        [apply HA | apply HI | rewrite E; reflexivity | discriminate | intros Hq; contradiction].
    - (* F3 *) destruct Ht as (Hco & Hstart & Hsv & Hcur). keep s cs cs' sp l t HG HE HI E.
      exact (ITp_F6 s cs t c b h key start sv cur HG (HI t) (proj2 (proj2 Hco)) Hcur Hc Hp).
    - destruct Ht as (Hco & Hstart & Hsv & Hcur). keep s cs cs' sp l t HG HE HI E.
      exact (ITp_F6 s cs t c b h key start sv cur HG (HI t) (proj2 (proj2 Hco)) Hcur Hc Hp).
    - (* F6, greater or equal *) destruct Ht as (Hco & Hstart & Hsv & Hcur & Hlp & Hnxk). destruct Hp as (Hfit & Hw & Hnp).
      eapply (find_ret_IT s cs cs' sp l t c b h key sv cur nx); try eassumption;
        [apply HA | apply HI | rewrite E; reflexivity | intros _; exact (proj1 Hcur) |].
      intros _. split; [exact Hc0|]. split; [exact Hw|]. intros Hq. exact (proj1 (Hnp Hq)).
    - (* MB *) destruct Hp as [Hp1 Hp2].
      eapply (it_land_Y s cs t c b 0 (bhead (sm s) b)); [exact HG | apply HA | apply HI | left; reflexivity | reflexivity | | | | exact Hr].
      + intros Ho Htr Hl k Hk [Hlt | (_ & x & Hx & Hxnz & _)]; [exact (Hp2 Ho Htr Hl k Hk Hlt)|].
        cbn [upto] in Hx. rewrite N.eqb_refl in Hx. destruct Hx as [Hx | []]. congruence.
      + intros _. split; [right; reflexivity|]. intros ys0 y Ey. left.
        destruct c; [rewrite Hp1 in Ey; destruct ys0; discriminate | |];
          destruct Hp1 as [Hcz Hlt]; destruct (last_yield s t (HI t) Hcz ys0 y Ey) as (_ & Hyb & _); rewrite Hyb; exact Hlt.
      + destruct c; [exact Hp1 | |]; destruct Hp1 as [Hcz Hlt]; (split; [exact Hcz | split; [lia | rewrite E; reflexivity]]).
    - (* N2 *) destruct Ht as [Hnz Hnxk]. destruct (proj2 Hit Hnz) as [_ Hon].
      apply cond_true in Hc. destruct Hc as [Hnx Hcm].
      assert (Hcc : In (it_cur (its s t)) (cs (it_b (its s t)))) by exact (node_in_chain (sm s) cs _ _ HG Hon Hcm).
      assert (Hpn : pnext (sm s) (it_b (its s t)) (it_cur (its s t)) = nx) by (rewrite pnext_nz by exact Hnz; exact Hnx).
      assert (Hs : in_start (th s t) = false) by (rewrite E; reflexivity).
      eapply (it_land_Y s cs t MNext (it_b (its s t)) (it_cur (its s t)) nx); [exact HG | apply HA | apply HI | right; exact Hcc | exact Hpn | | | | exact Hr].
      + intros Ho Htr Hl k Hk Hcase. apply (IT_compl _ _ (HI t) Ho Htr Hl Hs k Hk).
        destruct Hcase as [Hlt | (Hbe & x & Hx & Hxnz & Hkx)]; [left; exact Hlt | right]. split; [exact Hbe | right].
        destruct (upto_before (sm s) cs _ _ x HG (or_intror Hcc) Hx) as [-> | [_ [H0 | Hlt]]]; [|contradiction|].
        * apply gef_key; [exact Hkx|]. rewrite (G_hash _ _ HG _ Hnz (G_bound _ _ HG _ (proj1 (proj2 Hon)))), Hkx. reflexivity.
        * assert (Hxc : In x (cs (it_b (its s t)))) by (destruct (upto_incl _ _ _ Hx) as [H0 | H0]; [congruence | exact H0]).
          exact (below_le (sm s) cs x _ k HG Ho (known_chain (sm s) cs _ x HG Hxc) Hnz (G_bound _ _ HG _ (proj1 (proj2 Hon))) Hkx Hlt).
      + intros Hnxz. split; [right; reflexivity|]. intros ys0 y Ey.
        destruct (last_yield s t (HI t) Hnz ys0 y Ey) as (Hyn & Hyb & _). right. split; [exact Hyb|]. left. rewrite Hyn.
        assert (Hin : In (it_cur (its s t)) (0 :: cs (it_b (its s t)))) by (right; exact Hcc).
        exact (pre_next (sm s) cs _ _ nx HG Hin Hpn Hnxz Hin _ (upto_self _ _ Hin) Hnz).
      + split; [exact Hnz|]. split; [apply N.le_refl | exact Hs].
    - (* X3 *) destruct Ht as (Hnz & Hm & Hn).
      destruct (valid_chain (sm s) cs _ _ _ HG (proj1 Hit) Hc) as (Hsvc & Hnx & Hsvm). destruct (proj2 Hit Hnz) as [Hpre Hon].
      set (ib := it_b (its s t)) in *. set (isv := it_sv (its s t)) in *. set (icur := it_cur (its s t)) in *.
      set (m' := m_unlink (sm s) ib isv icur nx) in *.
      destruct (unlink_step (sm s) cs ib isv icur nx HG (proj1 Hit) Hc Hnz Hm Hn) as (cs2 & HE1 & Hsub & Hps & Hsvc').
      pose proof HE1 as (HG' & HM & _).
      assert (Ek : nkey m' = nkey (sm s)) by apply sp_nkey.
      assert (Eh : nhash m' = nhash (sm s)) by apply sp_nhash.
      assert (Hgef : forall h0 k0 x, gef m' h0 k0 x = gef (sm s) h0 k0 x) by (intros; unfold HmmDefs.gef; rewrite Ek, Eh; reflexivity).
      assert (Hs : in_start (th s t) = false) by (rewrite E; reflexivity).
      assert (HI1 : IT (set_mem s m') t).
      { eapply (IT_step s (set_mem s m') cs cs2 0 [] t HG HE1); [apply same_it_refl | sprj; rewrite E; exact I | reflexivity | apply HI]. }
      eapply (it_land_Y (set_mem s m') cs2 t (MErase icur) ib isv nx); [exact HG' | exact (HA t) | exact HI1 | exact Hsvc' | exact Hps | | | | exact Hr].
      + intros Ho Htr Hl k Hk Hcase. apply (IT_compl _ _ (HI t) Ho Htr Hl Hs k Hk). fold ib icur.
        destruct Hcase as [Hlt | (Hbe & x & Hx & Hxnz & Hkx)]; [left; exact Hlt | right]. split; [exact Hbe | right].
        assert (Hxc : In x (cs2 ib)) by (destruct (upto_incl _ _ _ Hx) as [H0 | H0]; [congruence | exact H0]).
        assert (Hxk : known (sm s) cs x) by exact (known_chain (sm s) cs ib x HG (Hsub x Hxc)).
        cbn [sm set_mem] in Hkx. fold m' in Hkx. rewrite Ek in Hkx.
        apply (below_le (sm s) cs x icur k HG Ho Hxk Hnz (G_bound _ _ HG _ (proj1 (proj2 Hon))) Hkx).
        rewrite <- Hgef.
        exact (M_pre _ _ _ _ _ HM ib _ _ isv (proj1 Hit) Hpre Hsvc' x Hx Hxnz).
      + intros Hnxz. sprj. split; [right; rewrite Ek; reflexivity|]. intros ys0 y Ey.
        destruct (last_yield s t (HI t) Hnz ys0 y Ey) as (Hyn & Hyb & _). right. split; [exact Hyb|]. left. rewrite Hyn. fold icur.
        assert (Hcc : In icur (cs ib)) by (rewrite <- Hnx; apply (chain_next_in (sm s) cs ib isv HG Hsvc); rewrite Hnx; exact Hnz).
        unfold HmmInv.le2. rewrite Hgef, (nh_frame (sm s) m' nx), Ek by (rewrite ?Ek, ?Eh; reflexivity).
        assert (Hpn : pnext (sm s) ib icur = nx) by (rewrite pnext_nz by exact Hnz; exact Hn).
        assert (Hin : In icur (0 :: cs ib)) by (right; exact Hcc).
        exact (pre_next (sm s) cs ib icur nx HG Hin Hpn Hnxz Hin _ (upto_self _ _ Hin) Hnz).
      + sprj. fold ib icur. split; [exact Hnz|]. split; [apply N.le_refl | exact Hs].
  Qed.

  Lemma IT_refresh st u : IT st u -> IT (refresh st) u.
  Proof.
    intros [H1 H2 H3 H4 H4e H5].
    assert (HA : forall k, In k (g_always (its (refresh st) u)) -> In k (g_always (its st u))).
    { intros k Hk. cbn [refresh its g_always] in Hk. apply filter_In in Hk. exact (proj1 Hk). }
    constructor; cbn [refresh sm th its it_b it_sv it_cur g_yield g_lo g_trav] in *; try assumption.
    - intros Ho Ht Hl Hs k Hk. apply (H4 Ho Ht Hl Hs). apply HA. exact Hk.
    - destruct (th st u); cbn [ITp fit newpos yielded it_b it_sv it_cur g_yield g_lo g_trav] in *; try assumption.
      destruct H5 as [Hp1 Hp2]. split; [exact Hp1|]. intros Ho Ht Hl k Hk Hb. apply (Hp2 Ho Ht Hl); [apply HA; exact Hk | exact Hb].
  Qed.

  Lemma Y_step s a s' es : Inv s -> Y s -> step s a = Some (s', es) -> Y s'.
  Proof.
    intros HI HY Hst. destruct (step_split Hst) as (s1 & H0 & ->). split.
    - intros t k Hk. cbn [refresh its g_always sm] in *. apply filter_In in Hk. apply memk_true. exact (proj2 Hk).
    - intros u. apply IT_refresh. eapply Y_step0; eassumption.
  Qed.

  Lemma Y_init : Y init.
  Proof.
    split; [intros t k []|]. intros t. constructor; cbn.
    - intros H. contradiction.
    - intros y [].
    - constructor.
    - intros _ H. discriminate H.
    - intros H. discriminate H.
    - exact I.
  Qed.

  Theorem Y_reach st : reach init step st -> Y st.
  Proof.
    apply (inv_rule_aux _ _ _ init step Inv Y (Inv_reach)).
    - exact Y_init.
    - intros s a s' es HI _ HY Hst. eapply Y_step; eassumption.
  Qed.

  (** * Theorems *)

  (** node variables of a program point and of the iterator variable (0 = null / a bucket head) *)
  Definition held_k (c : fk) : list N := match c with KIns n _ | KGet n _ => [n] | KItN o | KItE o => [o] | _ => [] end.
  Definition held (p : pc) (i : itv) : list N :=
    it_sv i :: it_cur i ::
    match p with
    | F1 c _ _ _ start => held_k c ++ [start]
    | F2 c _ _ _ start sv nx => held_k c ++ [start; sv; nx]
    | F3 c _ _ _ start sv cur | F4 c _ _ _ start sv cur => held_k c ++ [start; sv; cur]
    | F5 c _ _ _ start sv cur nx | F6 c _ _ _ start sv cur nx _ => held_k c ++ [start; sv; cur; nx]
    | E1 _ n _ _ _ _ sv cur | E2 _ n _ _ _ _ sv cur => [n; sv; cur]
    | D1 _ _ _ sv cur nx | D2 _ _ _ sv cur nx => [sv; cur; nx]
    | N2 nx | X2 nx | X3 nx => [nx]
    | _ => []
    end.

  Lemma ychain_pairs m cs ys : G m cs -> ord -> (forall y, In y ys -> yok m y) -> ychain m ys ->
    forall i j y1 y2, (i < j)%nat -> nth_error ys i = Some y1 -> nth_error ys j = Some y2 ->
      (y_lin y1 <= y_lin y2)%nat /\
      (y_b y1 < y_b y2 \/
       (y_b y1 = y_b y2 /\
        (le2 m (y_node y2) (y_node y1) = false \/
         (y_key y1 = y_key y2 /\
          forall n t' v, nth_error (g_lin m) n = Some (LIns t' (y_key y2) v (y_node y2)) -> (y_lin y1 <= n)%nat)))).
  Proof.
    intros HG Ho Hall Hc.
    (* [le2] depends on a node only through its key, for nodes that were linked *)
    assert (Hpair : forall x y, yok m x -> yok m y -> y_key x = y_key y ->
              (forall z, le2 m (y_node x) z = le2 m (y_node y) z) /\ (forall z, le2 m z (y_node x) = le2 m z (y_node y))).
    { intros x y (Hx0 & Hxk & _ & Hxkey & _) (Hy0 & Hyk & _ & Hykey & _) E.
      apply (kn_known _ _ _ HG) in Hxk, Hyk.
      assert (Hh : nhash m (y_node x) = nhash m (y_node y)).
      { rewrite (G_hash _ _ HG _ Hx0 (G_bound _ _ HG _ Hxk)), (G_hash _ _ HG _ Hy0 (G_bound _ _ HG _ Hyk)). congruence. }
      assert (Hk : nkey m (y_node x) = nkey m (y_node y)) by congruence.
      split; intros z; unfold HmmInv.le2, HmmDefs.gef, HmmDefs.nh; rewrite Hh, Hk; reflexivity. }
    induction Hc as [|y|ys ya yb Hc IH Hs]; intros i j y1 y2 Hij Hi Hj.
    - destruct j; discriminate.
    - destruct j as [|j]; [lia|]. destruct j; discriminate.
    - set (n := length (ys ++ [ya])).
      assert (Hn : n = S (length ys)) by (subst n; rewrite app_length; cbn; lia).
      assert (Hya : nth_error (ys ++ [ya]) (length ys) = Some ya).
      { rewrite nth_error_app2 by lia. rewrite Nat.sub_diag. reflexivity. }
      assert (Hall' : forall y, In y (ys ++ [ya]) -> yok m y) by (intros y Hy; apply Hall; apply in_or_app; left; exact Hy).
      destruct (Nat.lt_ge_cases j n) as [Hjn | Hjn].
      + rewrite nth_error_app1 in Hi by (fold n; lia). rewrite nth_error_app1 in Hj by (fold n; lia).
        exact (IH Hall' i j y1 y2 Hij Hi Hj).
      + assert (Hjl : (j < length ((ys ++ [ya]) ++ [yb]))%nat) by (apply nth_error_Some; congruence).
        rewrite app_length in Hjl. cbn [length] in Hjl. fold n in Hjl. assert (j = n) by lia. subst j.
        rewrite nth_error_app2 in Hj by (fold n; lia). fold n in Hj. rewrite Nat.sub_diag in Hj. injection Hj as <-.
        rewrite nth_error_app1 in Hi by (fold n; lia).
        destruct Hs as (Hs1 & Hs2 & Hs3).
        destruct (Nat.eq_dec i (length ys)) as [->|Hne].
        * rewrite Hya in Hi. injection Hi as <-. split; [exact Hs1|].
          destruct Hs3 as [Hs3 | (Hs3 & [Hs4 | (Hs4 & _ & Hs5)])]; [left; exact Hs3 | right; split; [exact Hs3 | left; exact Hs4] |].
          right. split; [exact Hs3|]. right. split; assumption.
        * destruct (IH Hall' i (length ys) y1 ya ltac:(lia) Hi Hya) as [Hl Hk]. split; [lia|].
          assert (Hy1 : yok m y1) by (apply Hall'; eapply nth_error_In; exact Hi).
          assert (Hyaok : yok m ya) by (apply Hall'; eapply nth_error_In; exact Hya).
          assert (Hyb : yok m yb) by (apply Hall; apply in_or_app; right; left; reflexivity).
          destruct Hk as [Hk | (Hk & Hk2)]; [left; destruct Hs3 as [Hs3 | [Hs3 _]]; lia|].
          destruct Hs3 as [Hs3 | (Hs3 & Hs4)]; [left; lia | right]. split; [congruence|].
          destruct Hk2 as [Hk2 | (Hk2 & Hk3)]; destruct Hs4 as [Hs4 | (Hs4 & _ & Hs5)].
          -- (* < , < *) left. destruct (le2 m (y_node yb) (y_node y1)) eqn:Hq; [exfalso | reflexivity].
             destruct (le2_total m (y_node y1) (y_node ya) Ho) as [Ht | Ht]; [|rewrite Hk2 in Ht; discriminate].
             unfold HmmInv.le2 in Hs4. rewrite (gef_trans m _ _ _ _ Hq Ht) in Hs4. discriminate.
          -- (* < , = *) left. rewrite <- (proj1 (Hpair ya yb Hyaok Hyb Hs4)). exact Hk2.
          -- (* = , < *) left. rewrite (proj2 (Hpair y1 ya Hy1 Hyaok Hk2)). exact Hs4.
          -- (* = , = *) right. split; [congruence|]. intros n0 t' v Hn0. specialize (Hs5 n0 t' v Hn0). lia.
  Qed.

  Section XTheorems.
    Variable st : state.
    Hypothesis Hreach : reach init step st.

    Let HI := Inv_chain st (Inv_reach st Hreach).
    Let HY := Y_reach st Hreach.

    (** 1. SAFETY: every node an operation in progress (map operation or iterator operation) or an iterator variable
        refers to was allocated and is null / a bucket head, reachable from a bucket head, retired, or the thread's
        own not yet linked new node.  Retired nodes are never freed or reused in this model (GC reclaimer instance):
        that is the guarantee C01 gives for a node on which a guard_ptr is held. *)
    Theorem it_node_safe t x : In x (held (th st t) (its st t)) ->
      x < nalloc (sm st) /\
      (x = 0 \/ (exists b, In x (chain (sm st) b)) \/ In x (g_retired (sm st)) \/ fresh_of (th st t) = Some x).
    Proof.
      destruct HI as (cs & Hext & HG & HT & _). destruct (HT t) as [Ht [Hi1 Hi2]].
      set (P := fun y => y < nalloc (sm st) /\
                  (y = 0 \/ (exists b, In y (chain (sm st) b)) \/ In y (g_retired (sm st)) \/ fresh_of (th st t) = Some y)).
      assert (Hz : P 0) by (split; [exact (G_pos _ _ HG) | left; reflexivity]).
      assert (Hkn : forall y, known (sm st) cs y -> P y).
      { intros y Hy. split; [exact (G_bound _ _ HG y Hy)|]. destruct Hy as [Hy | Hy]; [right; left; eexists; rewrite <- Hext; exact Hy | auto]. }
      assert (Hrf : forall b y, okref (sm st) cs b y -> P y) by (intros b y [-> | [Hy _]]; [exact Hz | exact (Hkn y Hy)]).
      assert (Hpv : forall b h k y, okprev (sm st) cs b h k y -> P y) by (intros b h k y [Hy _]; exact (Hrf b y Hy)).
      assert (Hnd : forall b y, oknode (sm st) cs b y -> P y) by (intros b y (_ & Hy & _); exact (Hkn y Hy)).
      assert (Hnx : forall b y, oknx (sm st) cs b y -> P y) by (intros b y [-> | Hy]; [exact Hz | exact (Hnd b y Hy)]).
      assert (Hcl : forall b y, oknode (sm st) cs b y -> P (nnext (sm st) y)) by (intros b y Hy; exact (Hnx b _ (closed_nx (sm st) cs b y HG Hy))).
      assert (Hcurc : forall b h key cur, (cur <> 0 -> oknode (sm st) cs b cur /\ gef (sm st) h key cur = true /\ nkey (sm st) cur <> key) -> P cur).
      { intros b h key cur H. destruct (N.eq_dec cur 0) as [->|Hnz]; [exact Hz | exact (Hnd b cur (proj1 (H Hnz)))]. }
      assert (Hcur : P (it_cur (its st t))).
      { destruct (N.eq_dec (it_cur (its st t)) 0) as [->|Hnz]; [exact Hz | exact (Hnd _ _ (proj2 (Hi2 Hnz)))]. }
      assert (Hfk : forall c b h key, fcom (sm st) cs (g_lp st t) (it_b (its st t)) (it_cur (its st t)) c b h key ->
                fresh_of (th st t) = fresh_of_k c -> forall y, In y (held_k c) -> P y).
      { intros c b h key (_ & _ & Hco) Hf y Hy. destruct c as [n v|n v| | | | | |o|o]; cbn [held_k cont_ok] in *; try (destruct Hy; fail);
          destruct Hy as [<- | []].
        - destruct Hco as [(_ & Hlt & _) _]. split; [exact Hlt|]. right. right. right. exact Hf.
        - destruct Hco as [-> | [(Hnz & Hlt & _) _]]; [exact Hz|]. split; [exact Hlt|]. right. right. right. rewrite Hf. cbn [fresh_of_k].
          destruct (N.eqb_spec n 0); [contradiction | reflexivity].
        - destruct Hco as (<- & _). exact Hcur.
        - destruct Hco as (<- & _). exact Hcur. }
      fold (P x). intros [<- | [<- | Hin]]; [exact (Hrf _ _ Hi1) | exact Hcur |].
      (* every other held node is covered by a conjunct of [Tw] *)
      assert (Hfr : forall key n, fresh (sm st) cs key n -> fresh_of (th st t) = Some n -> P n)
        by (intros key n (_ & Hlt & _) Hf; split; [exact Hlt | auto]).
      pose proof (fun H => proj2 (Hi2 H)) as Hion.
      destruct (th st t) eqn:E; cbn [HmmInv.Tw held] in *; try (destruct Hin; fail);
        repeat match goal with H : _ /\ _ |- _ => destruct H end;
        try (apply in_app_or in Hin; destruct Hin as [Hin | Hin]; [eapply Hfk; [eassumption | reflexivity | exact Hin]|]);
        repeat (destruct Hin as [<- | Hin]); try (destruct Hin; fail); eauto;
        match goal with H : nnext _ _ = ?y |- P ?y => rewrite <- H end; eauto.
    Qed.

    (** the iterator variable stands on the last recorded position of the traversal, in the bucket its key selects *)
    Theorem it_position t : it_cur (its st t) <> 0 ->
      bucket_of (nkey (sm st) (it_cur (its st t))) = it_b (its st t) /\
      exists ys0 y, g_yield (its st t) = ys0 ++ [y] /\ y_node y = it_cur (its st t) /\ y_b y = it_b (its st t) /\
                    y_key y = nkey (sm st) (it_cur (its st t)).
    Proof.
      destruct HY as [_ HIT]. intros Hnz. destruct (IT_last _ _ (HIT t) Hnz) as (ys0 & y & E & Hn & Hb).
      destruct (last_yield st t (HIT t) Hnz ys0 y E) as (_ & _ & (_ & _ & Hbk & Hk & _)).
      split; [rewrite <- Hn, <- Hb; exact Hbk|]. exists ys0, y. rewrite <- Hn. auto.
    Qed.

    (** 2. YIELDS: every recorded position [y] of the current traversal of thread [t] is a node of the bucket
        [y_b y] its key selects that was linked by a recorded insertion before the yield ("yielded keys were
        inserted") and was REACHABLE from its bucket head at the instant the iterator moved onto it ([y_reach]); its
        witness flag is true (the key was in [g_abs] at that instant), or the node had been erased (marked by a
        recorded erase) before the iterator moved onto it - it was then still linked *)
    Theorem it_yield_sound t y : In y (g_yield (its st t)) ->
      nkey (sm st) (y_node y) = y_key y /\ y_node y <> 0 /\ bucket_of (y_key y) = y_b y /\
      (In (y_node y) (chain (sm st) (y_b y)) \/ In (y_node y) (g_retired (sm st))) /\
      (y_lin y <= length (g_lin (sm st)))%nat /\
      (exists j t' v, (j < y_lin y)%nat /\ nth_error (g_lin (sm st)) j = Some (LIns t' (y_key y) v (y_node y))) /\
      y_reach y = true /\
      (y_wit y = true \/
       exists j t' i, (j < y_lin y)%nat /\ nth_error (g_lin (sm st)) j = Some (LDel t' (y_key y) (y_node y) i)).
    Proof.
      destruct HY as [_ HIT]. intros Hy.
      destruct (IT_yok _ _ (HIT t) y Hy) as (H0 & H1 & H2 & H3 & H4 & H5 & _ & H7 & H8).
      split; [exact H3|]. split; [exact H0|]. split; [rewrite <- H3; exact H2|]. split; [|auto 6].
      unfold kn in H1. rewrite H2 in H1. exact H1.
    Qed.

    (** 3. ORDER / NO DUPLICATES across the buckets (total ordering predicate): of two recorded positions the later one
        lies in a later bucket, or in the same bucket and its node is strictly greater in the order of the chain, or
        it carries the same key on a DIFFERENT node that was linked by an insertion whose linearization point lies
        after the first yield and before the second one *)
    Theorem it_no_duplicate t i j y1 y2 : ord -> (i < j)%nat ->
      nth_error (g_yield (its st t)) i = Some y1 -> nth_error (g_yield (its st t)) j = Some y2 ->
      y_b y1 < y_b y2 \/
      (y_b y1 = y_b y2 /\
       (le2 (sm st) (y_node y2) (y_node y1) = false \/
        (y_key y1 = y_key y2 /\ y_node y1 <> y_node y2 /\
         exists n t' v, nth_error (g_lin (sm st)) n = Some (LIns t' (y_key y2) v (y_node y2)) /\ (y_lin y1 <= n < y_lin y2)%nat))).
    Proof.
      destruct HI as (cs & _ & HG & _). destruct HY as [_ HIT]. intros Ho Hij H1 H2.
      destruct (ychain_pairs (sm st) cs _ HG Ho (IT_yok _ _ (HIT t)) (IT_chain _ _ (HIT t)) i j y1 y2 Hij H1 H2)
        as [Hl [Hk | (Hb & [Hk | [Hk Hre]])]]; [left; exact Hk | right; split; [exact Hb | left; exact Hk] | right].
      split; [exact Hb|]. right. split; [exact Hk|].
      destruct (IT_yok _ _ (HIT t) y1 (nth_error_In _ _ H1)) as (_ & _ & _ & _ & _ & _ & _ & (m1 & t1 & v1 & Hm1 & Hn1) & _).
      destruct (IT_yok _ _ (HIT t) y2 (nth_error_In _ _ H2)) as (_ & _ & _ & _ & _ & _ & _ & (m2 & t2 & v2 & Hm2 & Hn2) & _).
      split.
      - intros Heq. rewrite Hk, Heq in Hn1. specialize (Hre m1 t1 v1 Hn1). lia.
      - exists m2, t2, v2. split; [exact Hn2|]. specialize (Hre m2 t2 v2 Hn2). lia.
    Qed.

    (** ... in particular: no key is yielded twice in one traversal unless it was re-inserted in between *)
    Corollary it_no_duplicate_key t i j y1 y2 : ord -> (i < j)%nat ->
      nth_error (g_yield (its st t)) i = Some y1 -> nth_error (g_yield (its st t)) j = Some y2 -> y_key y1 = y_key y2 ->
      y_node y1 <> y_node y2 /\
      exists n t' v, nth_error (g_lin (sm st)) n = Some (LIns t' (y_key y2) v (y_node y2)) /\ (y_lin y1 <= n < y_lin y2)%nat.
    Proof.
      intros Ho Hij H1 H2 Hk. destruct HI as (cs & _ & HG & _). destruct HY as [_ HIT].
      pose proof (IT_yok _ _ (HIT t) y1 (nth_error_In _ _ H1)) as (Ha0 & Hak & Hab & Hakey & _).
      pose proof (IT_yok _ _ (HIT t) y2 (nth_error_In _ _ H2)) as (Hb0 & Hbk & Hbb & Hbkey & _).
      destruct (it_no_duplicate t i j y1 y2 Ho Hij H1 H2) as [Hlt | (_ & [Hlt | Hre])]; [exfalso | exfalso | exact (proj2 Hre)].
      - unfold HmmInv.bk in Hab, Hbb. rewrite Hakey in Hab. rewrite Hbkey in Hbb. rewrite <- Hab, <- Hbb, Hk in Hlt. lia.
      - apply (kn_known _ _ _ HG) in Hak, Hbk.
        assert (Hh : nhash (sm st) (y_node y1) = hf (y_key y2)).
        { rewrite (G_hash _ _ HG _ Ha0 (G_bound _ _ HG _ Hak)). congruence. }
        unfold HmmInv.le2 in Hlt. rewrite (nh_hash (sm st) cs _ HG Hb0 (G_bound _ _ HG _ Hbk)), Hbkey in Hlt.
        rewrite (gef_key (sm st) (y_key y2) (y_node y1)) in Hlt; [discriminate | congruence | exact Hh].
    Qed.

    (** 4. COMPLETENESS ACROSS THE BUCKETS (total ordering predicate, at least one bucket): when a traversal of thread
        [t] started by begin() has reached end(), every key that was in the abstract map in every state since the
        first step of the traversal ([g_always], see [it_always_exact]) has been yielded - whatever bucket it lives
        in.  More generally, at any time all such keys of the earlier buckets and of the current bucket up to the
        current position have been yielded. *)
    Theorem it_complete_upto t k : ord -> g_trav (its st t) = true -> g_lo (its st t) = None -> in_start (th st t) = false ->
      In k (g_always (its st t)) -> behind (sm st) (it_b (its st t)) (it_cur (its st t)) k -> yielded (its st t) k.
    Proof. destruct HY as [_ HIT]. intros Ho H1 H2 H3 H4 H5. exact (IT_compl _ _ (HIT t) Ho H1 H2 H3 k H4 H5). Qed.

    Corollary it_complete t k : ord -> nb <> 0 -> g_trav (its st t) = true -> g_lo (its st t) = None -> in_start (th st t) = false ->
      it_cur (its st t) = 0 -> In k (g_always (its st t)) -> yielded (its st t) k.
    Proof.
      intros Ho Hnb H1 H2 H3 H4 H5. apply (it_complete_upto t k Ho H1 H2 H3 H5). destruct HY as [_ HIT].
      pose proof (IT_atend _ _ (HIT t) H1 H3 H4) as Hend. unfold behind. rewrite H4.
      assert (Hlt : bucket_of k < nb) by (apply N.mod_lt; exact Hnb).
      destruct (N.lt_ge_cases (bucket_of k) (it_b (its st t))) as [Hl | Hg]; [left; exact Hl | right; split; [lia | left; reflexivity]].
    Qed.

    (** [g_always] only contains keys of the current abstract map *)
    Theorem it_always_abs t k : In k (g_always (its st t)) -> In k (keys (g_abs (sm st))).
    Proof. destruct HY as [HA _]. apply HA. Qed.
  End XTheorems.

  (** * Trace-level form of the completeness *)

  Definition starts_trav (s : state) (a : action) (u : nat) : Prop :=
    a = Step u /\ (th s u = Begin OItB \/ exists k, th s u = Begin (OItF k)).

  Definition akeys (st : state) : list N := keys (g_abs (sm st)).

  (** what a landing / a return of [find] does to the ghosts of the traversal *)
  Lemma it_land_trav st t c b sv cur w e st' es : it_land nb st t c b sv cur w e = Some (st', es) ->
    g_lo (its st' t) = g_lo (its st t) /\ g_trav (its st' t) = g_trav (its st t) /\ g_always (its st' t) = g_always (its st t).
  Proof. intros H. ret_cases H; sprj; rewrite ?upd_same; auto. Qed.
  Lemma find_ret_trav st t c b h key sv cur nx found w e st' es :
    find_ret nb memo hf st t c b h key sv cur nx found w e = Some (st', es) ->
    g_lo (its st' t) = g_lo (its st t) /\ (g_trav (its st' t) = true -> g_trav (its st t) = true) /\
    g_always (its st' t) = g_always (its st t).
  Proof. intros H. ret_cases H; sprj; rewrite ?upd_same; sprj; repeat split; auto; discriminate. Qed.

  Lemma it_always_step s a s' es u : step s a = Some (s', es) ->
    (~ starts_trav s a u /\ g_lo (its s' u) = g_lo (its s u) /\ (g_trav (its s' u) = true -> g_trav (its s u) = true) /\
     g_always (its s' u) = filter (fun k => memk k (g_abs (sm s'))) (g_always (its s u))) \/
    (starts_trav s a u /\ g_trav (its s' u) = true /\
     (th s u = Begin OItB -> g_lo (its s' u) = None) /\
     g_always (its s' u) = filter (fun k => memk k (g_abs (sm s'))) (akeys s)).
  Proof.
    intros Hst. destruct (step_split Hst) as (s1 & H0 & ->). clear Hst. apply step0_tstep in H0. unfold akeys.
    cbn [refresh sm its g_lo g_trav g_always].
    destruct (Nat.eq_dec u (actor a)) as [->|Hne].
    2: { left. destruct (tstep_others _ _ _ _ _ _ _ _ u H0 Hne) as (_ & -> & _). split; [intros [-> _]; apply Hne; reflexivity | auto]. }
    destruct H0; cbn [actor] in *;
      try (left; split; [intros [_ [Hq | [? Hq]]]; rewrite E in Hq; discriminate Hq|];
           first [destruct (find_ret_trav _ _ _ _ _ _ _ _ _ _ _ _ _ _ Hr) as (H1 & H2 & H3)
                 | destruct (it_land_trav _ _ _ _ _ _ _ _ _ _ Hr) as (H1 & H2 & H3); cbn [set_mem its] in H1, H2, H3
                 | sprj; rewrite ?upd_same; sprj; repeat split; auto; discriminate];
           rewrite H1, H3; repeat split; auto; rewrite H2; auto).
    - right. split; [split; [reflexivity | rewrite E; auto]|]. sprj. rewrite upd_same. sprj. auto.
    - right. split; [split; [reflexivity | rewrite E; eauto]|]. sprj. rewrite upd_same. sprj.
      split; [reflexivity|]. split; [rewrite E; discriminate | reflexivity].
  Qed.

  (** [trav_path u s0 l s]: thread [u] took the first step of a call of begin() / find(key) ([OItB] / [OItF]) from [s0]; [l] lists the states of the
      execution after that step up to the current state [s] (the last element of [l]); [u] has not started another
      traversal in between.  The states of the traversal are [s0 :: l]. *)
  Inductive trav_path (u : nat) (s0 : state) : list state -> state -> Prop :=
  | tp_first s1 es : starts_trav s0 (Step u) u -> step s0 (Step u) = Some (s1, es) -> trav_path u s0 [s1] s1
  | tp_next l s a s' es : trav_path u s0 l s -> ~ starts_trav s a u -> step s a = Some (s', es) ->
                          trav_path u s0 (l ++ [s']) s'.

  Lemma trav_path_reach u s0 l s : reach init step s0 -> trav_path u s0 l s -> reach init step s.
  Proof. intros Hr H. induction H; eapply reach_step; eauto. Qed.

  (** meaning of the ghost [g_always]: exactly the keys that were in the abstract map in EVERY state of the traversal *)
  Theorem it_always_exact u s0 l s : trav_path u s0 l s ->
    forall k, In k (g_always (its s u)) <-> (forall s1, In s1 (s0 :: l) -> In k (akeys s1)).
  Proof.
    induction 1 as [s1 es Hs Hst | l s a s' es Hp IH Hns Hst].
    - destruct (it_always_step _ _ _ _ u Hst) as [(Hn & _) | (_ & _ & _ & E2)]; [contradiction|].
      intros k. rewrite E2, filter_In, memk_true. split.
      + intros [H1 H2] s [<- | [<- | []]]; assumption.
      + intros H. split; apply H; [left | right; left]; reflexivity.
    - destruct (it_always_step _ _ _ _ u Hst) as [(_ & _ & _ & E2) | (Hs & _)]; [|contradiction].
      intros k. rewrite E2, filter_In, memk_true, IH. split.
      + intros [H1 H2] s1 [<- | Hin]; [apply H1; left; reflexivity|]. apply in_app_or in Hin.
        destruct Hin as [Hin | [<- | []]]; [apply H1; right; exact Hin | exact H2].
      + intros H. split; [|apply H; right; apply in_or_app; right; left; reflexivity].
        intros s1 [<- | Hin]; apply H; [left; reflexivity | right; apply in_or_app; left; exact Hin].
  Qed.

  Lemma trav_lo u s0 l s : trav_path u s0 l s -> th s0 u = Begin OItB -> g_lo (its s u) = None.
  Proof.
    induction 1 as [s1 es Hs Hst | l s a s' es Hp IH Hns Hst]; intros Hb.
    - destruct (it_always_step _ _ _ _ u Hst) as [(Hn & _) | (_ & _ & E1 & _)]; [contradiction | exact (E1 Hb)].
    - destruct (it_always_step _ _ _ _ u Hst) as [(_ & E1 & _) | (Ha & _)]; [rewrite E1; exact (IH Hb) | contradiction].
  Qed.

  (** COMPLETENESS, trace level: take any execution and any traversal of thread [u] started by begin() (first step
      taken from [s0], later states [l], current state [s]).  If the traversal was not abandoned ([g_trav]), the
      thread is not inside begin(), and the iterator equals end(), then every key that was in the abstract map in
      EVERY state of the traversal - whatever its bucket - is among the keys of the recorded positions. *)
  Theorem it_complete_trace u s0 l s : ord -> nb <> 0 -> reach init step s0 -> trav_path u s0 l s -> th s0 u = Begin OItB ->
    g_trav (its s u) = true -> in_start (th s u) = false -> it_cur (its s u) = 0 ->
    forall k, (forall s1, In s1 (s0 :: l) -> In k (akeys s1)) -> yielded (its s u) k.
  Proof.
    intros Ho Hnb Hr Hp Hb Ht Hs Hc k Hall.
    assert (Hrs : reach init step s) by (eapply trav_path_reach; eassumption).
    apply (it_complete s Hrs u k Ho Hnb Ht (trav_lo u s0 l s Hp Hb) Hs Hc).
    apply (proj2 (it_always_exact u s0 l s Hp k)). exact Hall.
  Qed.

  (** * erase(iterator) *)

  (** the cases of a step of thread t inside a call of erase(iterator) *)
  Ltac ite_cases H0 Hop :=
    let Ea := fresh "Ea" in
    match type of H0 with tstep _ _ _ _ _ ?x _ _ => remember x as a eqn:Ea end;
    destruct H0; try discriminate Ea; injection Ea as ->;
    match goal with E : th _ _ = _ |- _ => rewrite E in Hop end; cbn [cur_op] in Hop; try discriminate Hop;
    try match type of Hop with
        | context [op_of ?c _] => destruct c | context [mk_op ?c] => destruct c | context [if ?g then _ else _] => destruct g
        end; try discriminate Hop;
    try match goal with Hr : _ = Some _ |- _ => ret_cases Hr end.

  (** 5a. erase(iterator) removes exactly the referenced element: during the call the iterator variable is not
      changed, and the only step of the call that changes marks / the abstract map is the successful mark CAS
      (program point X2) on exactly the node the iterator stands on, which removes exactly its key (which was
      present); all other steps of the call leave the abstract map as it is *)
  Theorem it_erase_exact s t s' es : reach init step s -> step s (Step t) = Some (s', es) -> cur_op (th s t) = Some OItE ->
    (th s' t <> Idle -> its s' t = mkI (it_b (its s t)) (it_sv (its s t)) (it_cur (its s t)) (g_yield (its s t)) (g_lo (its s t))
                                      (g_trav (its s t)) (g_start (its s t)) (g_always (its s' t))) /\
    ((g_abs (sm s') = g_abs (sm s) /\ g_lin (sm s') = g_lin (sm s) /\ nmark (sm s') = nmark (sm s)) \/
     (exists nx, th s t = X2 nx /\ th s' t = X3 nx /\ let cur := it_cur (its s t) in
        nmark (sm s) cur = false /\ In cur (chain (sm s) (bk (sm s) cur)) /\
        lookup (nkey (sm s) cur) (g_abs (sm s)) = Some (nval (sm s) cur) /\
        g_abs (sm s') = remk (nkey (sm s) cur) (g_abs (sm s)) /\
        g_lin (sm s') = g_lin (sm s) ++ [LDel t (nkey (sm s) cur) cur true] /\
        (forall x, nmark (sm s') x = if x =? cur then true else nmark (sm s) x))).
  Proof.
    intros HR Hst Hop. split.
    - destruct (step_split Hst) as (s1 & H0 & ->). apply step0_tstep in H0. cbn [refresh th its].
      ite_cases H0 Hop; sprj; rewrite ?upd_same; sprj;
        try (intros Hq; exfalso; apply Hq; reflexivity); intros _; reflexivity.
    - destruct (hmm_abs_step s (Step t) s' es HR Hst) as [(H1 & H2) | [(t0 & g & n & v & b & h & key & sv & cur & Ha & Hth & _) | H]].
      + left. split; [exact H1|]. split; [exact H2|].
        destruct (step_split Hst) as (s1 & H0 & ->). apply step0_tstep in H0. cbn [refresh sm] in *.
        ite_cases H0 Hop; sprj; try reflexivity; try apply sp_nmark.
        (* X2 would have grown [g_lin] *)
        cbn [g_lin set_mem set_pc sm m_mark] in H2. apply (f_equal (@length lev)) in H2. rewrite app_length in H2. cbn [length] in H2. lia.
      + injection Ha as <-. rewrite Hth in Hop. cbn [cur_op] in Hop. destruct g; discriminate Hop.
      + right. destruct H as (t0 & cur & it & Ha & Hpc & Hm & Hm' & Hin & Hlk & Habs & Hlin). injection Ha as <-.
        destruct Hpc as [(b & h & key & sv & nx & Hth & _) | (nx & Hth & -> & ->)]; [rewrite Hth in Hop; discriminate Hop|].
        exists nx. split; [exact Hth|].
        destruct (step_split Hst) as (s1 & H0 & ->). cbn [refresh sm th] in *.
        unfold HmmDefs.step0 in H0. rewrite Hth in H0. cbv beta iota zeta in H0.
        destruct ((nnext (sm s) (it_cur (its s t)) =? nx) && negb (nmark (sm s) (it_cur (its s t)))) eqn:Hc.
        * injection H0 as <- <-. sprj. rewrite upd_same. split; [reflexivity|]. cbn zeta. repeat (split; [assumption|]).
          intros x. cbn [sm set_mem m_mark nmark]. unfold setf. reflexivity.
        * exfalso. destruct (nmark (sm s) (it_cur (its s t))) eqn:Hq; injection H0 as <- <-; cbn [sm set_pc refresh] in Hm'; congruence.
  Qed.

  (** the iterator variable after a returning step of thread t: unchanged, or moved to a new position *)
  Lemma ret_yield s t s' es : step s (Step t) = Some (s', es) -> cur_op (th s t) = Some OItE -> th s' t = Idle ->
    it_cur (its s t) <> 0 ->
    (it_cur (its s' t) = 0 /\ g_yield (its s' t) = g_yield (its s t)) \/
    (it_cur (its s' t) <> 0 /\ exists y, g_yield (its s' t) = g_yield (its s t) ++ [y] /\ y_node y = it_cur (its s' t)).
  Proof.
    intros Hst Hop Hidle Hnz. destruct (step_split Hst) as (s1 & H0 & ->). clear Hst. apply step0_tstep in H0.
    cbn [refresh th its it_cur g_yield] in *.
    ite_cases H0 Hop; sprj; cbn [th set_pc set_pc_lp set_mem move_it] in Hidle; rewrite ?upd_same in *; try discriminate Hidle; sprj;
      try (apply N.eqb_eq in Hc; contradiction);
      unfold push_y;
      try (left; split; reflexivity);
      match goal with
      | |- context [if ?c =? 0 then _ else _] => destruct (N.eqb_spec c 0) as [Hz|Hz]
      end; try (left; split; [assumption || reflexivity | reflexivity]);
      try (right; split; [exact Hz | eexists; split; reflexivity]).
  Qed.

  (** 5b. erase(iterator) returns the successor, possibly in a later bucket: the returned iterator is end(), or it
      stands on a new position [y_n] recorded right after the position [y_o] of the erased node, and [y_n] lies in
      a later bucket, or in the same bucket on a node that is not [<=] the erased one, or it carries the same key on
      a different node that was linked after [y_o] was recorded (a re-insertion); the erased node is marked *)
  Theorem it_erase_return s t s' es : reach init step s -> step s (Step t) = Some (s', es) ->
    cur_op (th s t) = Some OItE -> th s' t = Idle -> it_cur (its s t) <> 0 ->
    it_cur (its s' t) = 0 \/
    exists ys y_o y_n, g_yield (its s' t) = ys ++ [y_o; y_n] /\
      y_node y_o = it_cur (its s t) /\ y_node y_n = it_cur (its s' t) /\ y_b y_n = it_b (its s' t) /\
      bucket_of (y_key y_n) = y_b y_n /\ ystep (sm s') y_o y_n.
  Proof.
    intros Hr Hst Hop Hidle Hnz.
    assert (Hr' : reach init step s') by (eapply reach_step; eassumption).
    destruct (Y_reach s Hr) as [_ HIT]. destruct (Y_reach s' Hr') as [_ HIT'].
    destruct (ret_yield s t s' es Hst Hop Hidle Hnz) as [[Hz _] | (Hnz' & y & Ey & Hyn)]; [left; exact Hz | right].
    destruct (IT_last _ _ (HIT t) Hnz) as (ys0 & yo & Eo & Hon & _).
    destruct (IT_last _ _ (HIT' t) Hnz') as (ys1 & y1 & E1 & H1n & H1b).
    rewrite Ey, Eo in E1. apply app_inj_tail in E1. destruct E1 as [_ <-].
    exists ys0, yo, y. split; [rewrite Ey, Eo, <- app_assoc; reflexivity|]. split; [exact Hon|]. split; [exact H1n|]. split; [exact H1b|].
    assert (Hyok : yok (sm s') y) by (apply (IT_yok _ _ (HIT' t)); rewrite Ey; apply in_or_app; right; left; reflexivity).
    split; [destruct Hyok as (_ & _ & Hb & Hk & _); rewrite <- Hk; exact Hb|].
    pose proof (IT_chain _ _ (HIT' t)) as Hc. rewrite Ey, Eo in Hc.
    inversion Hc as [Hq | y0 Hq | ys2 ya yb Hc2 Hs Hq].
    - destruct ys0; discriminate Hq.
    - destruct ys0 as [|? [|? ?]]; discriminate Hq.
    - apply app_inj_tail in Hq. destruct Hq as [Hq <-]. apply app_inj_tail in Hq. destruct Hq as [_ <-]. exact Hs.
  Qed.
End It.

(** * Examples *)

(** T1: emplace(10,100); emplace(15,150); emplace(20,200).  T3: it = begin() (10).  T2: erase(10) (the element the
    iterator stands on).  T3: ++it three times. *)
Definition ex_trav : list action :=
  ex_ins ++ call 3 OItB ++ call 2 (ODel 10) ++ call 3 OItN ++ call 3 OItN ++ call 3 OItN.

(** (it_yield_sound, it_no_duplicate, it_complete) two buckets, memoized hash k mod 2: the traversal yields 10 and
    20 in bucket 0 (20 via the find started by ++ on the erased node), crosses to bucket 1 (15) and reaches end();
    the keys present throughout, 20 and 15, have been yielded *)
Example ex_trav_state :
  let st := st_of 2 true true hf_mod2 ex_trav in
  g_yield (its st 3%nat) = [mkY 0 10 1 true true 3; mkY 0 20 3 true true 4; mkY 1 15 2 true true 4] /\
  it_b (its st 3%nat) = 1 /\ it_cur (its st 3%nat) = 0 /\ g_trav (its st 3%nat) = true /\ g_lo (its st 3%nat) = None /\
  g_start (its st 3%nat) = [20; 15; 10] /\ g_always (its st 3%nat) = [20; 15] /\ th st 3%nat = Idle /\
  g_retired (sm st) = [1].
Proof. vm_compute. repeat split. Qed.

(** (it_erase_exact, it_erase_return) erase(iterator) on 20, the last element of bucket 0: the successor is 15 in
    bucket 1 *)
Definition ex_ite : list action := ex_ins ++ call 3 (OItF 20) ++ call 3 OItE.
Example ex_ite_state :
  let st := st_of 2 true true hf_mod2 ex_ite in
  g_yield (its st 3%nat) = [mkY 0 20 3 true true 3; mkY 1 15 2 true true 4] /\
  it_b (its st 3%nat) = 1 /\ it_cur (its st 3%nat) = 2 /\ g_abs (sm st) = [(15, 150); (10, 100)] /\ g_retired (sm st) = [3] /\
  g_lin (sm st) = [LIns 1 10 100 1; LIns 1 15 150 2; LIns 1 20 200 3; LDel 3 20 3 true].
Proof. vm_compute. repeat split. Qed.

(** T3: begin() (10), ++ (the second element); T2: erase(15); T3: ++ *)
Definition ex_skip : list action := ex_ins ++ call 3 OItB ++ call 3 OItN ++ call 2 (ODel 15) ++ call 3 OItN.

(** one bucket, memoized hash k mod 2, the ordering predicate of the code: the chain is 10, 20, 15 and the traversal
    is complete *)
Example ex_skip_lex :
  let st := st_of 1 true true hf_mod2 ex_skip in
  map (nkey (sm st)) (chain (sm st) 0) = [10; 20] /\ map y_key (g_yield (its st 3%nat)) = [10; 20] /\
  it_cur (its st 3%nat) = 0 /\ g_always (its st 3%nat) = [20; 10].
Proof. vm_compute. repeat split. Qed.

(** the former predicate [hash >= h && key >= k]: the chain is 10, 15, 20; the iterator stands on 15 when it is
    erased; the find started by ++ for (hash 1, key 15) walks past 20 (hash 0) to the end: 20 was in the map
    during the whole traversal and is not yielded *)
Example ex_skip_conj :
  let st := st_of 1 true false hf_mod2 ex_skip in
  map y_key (g_yield (its st 3%nat)) = [10; 15] /\ it_cur (its st 3%nat) = 0 /\ g_trav (its st 3%nat) = true /\
  g_lo (its st 3%nat) = None /\ th st 3%nat = Idle /\ g_always (its st 3%nat) = [20; 10] /\
  g_abs (sm st) = [(20, 200); (10, 100)].
Proof. vm_compute. repeat split. Qed.

(** REFUTED for the former ordering predicate: "a traversal from begin() that reaches end() has yielded every key
    that was present throughout" (memoized hash k mod 2, one bucket; the implementation reproduced this schedule
    before greater_or_equal was made lexicographic) *)
Theorem it_complete_refuted_conj :
  ~ (forall st t k, reach (init 1) (step 1 true false hf_mod2) st ->
       g_trav (its st t) = true -> g_lo (its st t) = None -> in_start (th st t) = false -> it_cur (its st t) = 0 ->
       In k (g_always (its st t)) -> yielded (its st t) k).
Proof.
  intros H. pose proof (H (st_of 1 true false hf_mod2 ex_skip) 3%nat 20 (st_of_reach _ _ _ _ _)) as H1. clear H.
  vm_compute in H1.
  destruct (H1 eq_refl eq_refl eq_refl eq_refl (or_introl eq_refl)) as [Hq | [Hq | []]]; discriminate Hq.
Qed.
