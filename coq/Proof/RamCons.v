(** Ramalhete queue model: third and fourth invariant layers - the values (token blocks) and the
    order in which tickets are handed out. *)
From Coq Require Import NArith List Bool Lia PeanoNat Permutation.
From XV Require Import Base.Word Conc.Lts Conc.Ev gen.RamalheteNodeGen Proof.RamalheteNode Model.RamDefs Proof.RamBase Proof.RamTickets.
Import ListNotations.
Local Open Scope N_scope.

Section LayerC.
  Variables E R : N.
  Hypothesis HE : 1 <= E.
  Hypothesis HM : C_step_size E * E < 2 ^ 32.
  Notation S := (SS E).
  Notation tk := (tick_of E).
  Notation InvA := (InvA E).
  Notation InvB := (InvB E).
  Notation TK := (TK E).

  (** the value a pushing thread still has to hand over *)
  Definition holds (p : pc) : option N :=
    match p with
    | P1 b | P2 b _ | P3 b _ | P4 b _ | P5 b _ _ _ | P6 b _ _ | P6a b _ | P6b b _ | P6c b _
    | P9 b _ | P10 b _ _ | P8 b _ _ => Some b
    | _ => None
    end.
  (** the value stored under a ticket *)
  Definition fval (f : fate) : option N := match f with FFilled b | FConsumed b => Some b | _ => None end.

  (** the values under the tickets are exactly the pushed values, each under one ticket *)
  Definition CF (nodes : list N) (g : N -> N -> fate) (pushed : list N) : Prop :=
    (forall n k b, In n nodes -> k < E -> fval (g n k) = Some b -> In b pushed) /\
    (forall b, In b pushed -> exists n k, In n nodes /\ k < E /\ fval (g n k) = Some b) /\
    (forall n k n' k' b, In n nodes -> k < E -> In n' nodes -> k' < E ->
       fval (g n k) = Some b -> fval (g n' k') = Some b -> n = n' /\ k = k').
  (** the popped values are exactly the consumed tickets *)
  Definition CP (nodes : list N) (g : N -> N -> fate) (popped : list N) : Prop :=
    forall b, In b popped <-> exists n k, In n nodes /\ k < E /\ g n k = FConsumed b.

  Lemma CF_ext nodes g g' pushed :
    (forall n k, In n nodes -> k < E -> fval (g' n k) = fval (g n k)) -> CF nodes g pushed -> CF nodes g' pushed.
  Proof using.
    intros He (H1 & H2 & H3). split; [|split].
    - intros n k b Hn Hk Hf. rewrite He in Hf by assumption. eapply H1; eauto.
    - intros b Hb. destruct (H2 b Hb) as (n & k & Hn & Hk & Hf). exists n, k. rewrite He by assumption. auto.
    - intros n k n' k' b Hn Hk Hn' Hk' Hf Hf'. rewrite He in Hf, Hf' by assumption. eapply H3; eauto.
  Qed.

  Lemma CF_add nodes g pushed n1 k1 b :
    In n1 nodes -> k1 < E -> fval (g n1 k1) = None -> ~ In b pushed ->
    CF nodes g pushed -> CF nodes (setf2 g n1 k1 (FFilled b)) (pushed ++ [b]).
  Proof using.
    intros Hn1 Hk1 Hnone Hnb (H1 & H2 & H3).
    assert (Hv : forall n k, fval (setf2 g n1 k1 (FFilled b) n k) = if (n =? n1) && (k =? k1) then Some b else fval (g n k)).
    { intros n k. unfold setf2, setf. destruct (N.eqb_spec n n1); [subst; destruct (N.eqb_spec k k1)|]; reflexivity. }
    split; [|split].
    - intros n k b0 Hn Hk Hf. rewrite Hv in Hf. apply in_or_app.
      destruct ((n =? n1) && (k =? k1)); [right; left; congruence|left; eapply H1; eauto].
    - intros b0 Hb. apply in_app_or in Hb. destruct Hb as [Hb|[<-|[]]].
      + destruct (H2 b0 Hb) as (n & k & Hn & Hk & Hf). exists n, k. rewrite Hv.
        destruct ((n =? n1) && (k =? k1)) eqn:Eb; [|repeat split; assumption].
        exfalso. apply andb_true_iff in Eb. destruct Eb as [E1 E2]. apply N.eqb_eq in E1, E2. subst. congruence.
      + exists n1, k1. rewrite Hv, !N.eqb_refl. repeat split; assumption.
    - intros n k n' k' b0 Hn Hk Hn' Hk' Hf Hf'. rewrite Hv in Hf, Hf'.
      destruct ((n =? n1) && (k =? k1)) eqn:Eb; destruct ((n' =? n1) && (k' =? k1)) eqn:Eb'.
      + apply andb_true_iff in Eb, Eb'. destruct Eb as [E1 E2]. destruct Eb' as [E3 E4]. apply N.eqb_eq in E1, E2, E3, E4. subst. auto.
      + exfalso. apply Hnb. inversion Hf; subst. exact (H1 n' k' _ Hn' Hk' Hf').
      + exfalso. apply Hnb. inversion Hf'; subst. exact (H1 n k _ Hn Hk Hf).
      + exact (H3 n k n' k' b0 Hn Hk Hn' Hk' Hf Hf').
  Qed.

  Lemma CF_newnode nodes g pushed n :
    (forall k, fval (g n k) = None) -> CF nodes g pushed -> CF (nodes ++ [n]) g pushed.
  Proof using.
    intros Hn (H1 & H2 & H3).
    assert (Hi : forall m k b, In m (nodes ++ [n]) -> fval (g m k) = Some b -> In m nodes).
    { intros m k b Hm Hf. apply in_app_or in Hm. destruct Hm as [Hm|[<-|[]]]; [exact Hm|]. rewrite Hn in Hf. discriminate. }
    split; [|split].
    - intros m k b Hm Hk Hf. eapply H1; eauto.
    - intros b Hb. destruct (H2 b Hb) as (m & k & Hm & Hk & Hf). exists m, k. split; [apply in_or_app; left; exact Hm|auto].
    - intros m k m' k' b Hm Hk Hm' Hk' Hf Hf'. eapply H3; eauto.
  Qed.

  Lemma CP_ext nodes g g' popped :
    (forall n k b, In n nodes -> k < E -> (g' n k = FConsumed b <-> g n k = FConsumed b)) -> CP nodes g popped -> CP nodes g' popped.
  Proof using.
    intros He H b. rewrite (H b). split; intros (n & k & Hn & Hk & Hf); exists n, k; (split; [exact Hn|split; [exact Hk|]]); apply (He n k b Hn Hk); exact Hf.
  Qed.

  (** one fate is overwritten by one that stores the same value / neither of the two is 'consumed' *)
  Lemma CF_set nodes g pushed n k f : fval f = fval (g n k) -> CF nodes g pushed -> CF nodes (setf2 g n k f) pushed.
  Proof using.
    intros Hv. apply CF_ext. intros n0 k0 _ _. unfold setf2, setf.
    destruct (N.eqb_spec n0 n) as [->|_]; [|reflexivity]. destruct (N.eqb_spec k0 k) as [->|_]; [exact Hv|reflexivity].
  Qed.

  Lemma CP_set nodes g popped n k f :
    (forall b, f <> FConsumed b) -> (forall b, g n k <> FConsumed b) -> CP nodes g popped -> CP nodes (setf2 g n k f) popped.
  Proof using.
    intros H1 H2. apply CP_ext. intros n0 k0 b _ _. unfold setf2, setf.
    destruct (N.eqb_spec n0 n) as [->|_]; [|reflexivity]. destruct (N.eqb_spec k0 k) as [->|_]; [|reflexivity].
    split; intros Hc; exfalso; [exact (H1 _ Hc)|exact (H2 _ Hc)].
  Qed.

  Lemma CP_add nodes g popped n1 k1 b :
    In n1 nodes -> k1 < E -> (forall b0, g n1 k1 <> FConsumed b0) ->
    CP nodes g popped -> CP nodes (setf2 g n1 k1 (FConsumed b)) (popped ++ [b]).
  Proof using.
    intros Hn1 Hk1 Hnc H b0. split.
    - intros Hb. apply in_app_or in Hb. destruct Hb as [Hb|[<-|[]]].
      + apply (H b0) in Hb. destruct Hb as (n & k & Hn & Hk & Hf). exists n, k. split; [exact Hn|]. split; [exact Hk|].
        unfold setf2, setf. destruct (N.eqb_spec n n1); [subst; destruct (N.eqb_spec k k1)|]; try exact Hf. subst. exfalso. exact (Hnc _ Hf).
      + exists n1, k1. rewrite setf2_same. auto.
    - intros (n & k & Hn & Hk & Hf). apply in_or_app. unfold setf2, setf in Hf.
      destruct (N.eqb_spec n n1); [subst; destruct (N.eqb_spec k k1)|].
      + right; left. congruence.
      + left. apply (H b0). exists n1, k. auto.
      + left. apply (H b0). exists n, k. auto.
  Qed.

  Lemma CP_newnode nodes g popped n :
    (forall k b, g n k <> FConsumed b) -> CP nodes g popped -> CP (nodes ++ [n]) g popped.
  Proof using.
    intros Hn H b. rewrite (H b). split; intros (m & k & Hm & Hk & Hf); exists m, k.
    - split; [apply in_or_app; left; exact Hm|auto].
    - apply in_app_or in Hm. destruct Hm as [Hm|[<-|[]]]; [auto|]. exfalso. exact (Hn _ _ Hf).
  Qed.

  Record InvC (st : state) : Prop := mkInvC {
    c_nodup : NoDup (g_pushed st);
    c_lt : forall b, In b (g_pushed st) -> b < nalloc st;
    c_hold : forall t b, holds (th st t) = Some b -> b < nalloc st /\ ~ In b (g_pushed st);
    c_huniq : forall t1 t2 b, holds (th st t1) = Some b -> holds (th st t2) = Some b -> t1 = t2;
    c_cf : CF (g_nodes st) (g_fate st) (g_pushed st);
    c_cp : CP (g_nodes st) (g_fate st) (g_popped st);
    c_pnodup : NoDup (g_popped st)
  }.

  Lemma hold_upd (P : N -> Prop) f t p :
    (forall t0 b, t0 <> t -> holds (f t0) = Some b -> P b) -> (forall b, holds p = Some b -> P b) ->
    forall t0 b, holds (upd f t p t0) = Some b -> P b.
  Proof using.
    intros Hf Hp t0 b. destruct (Nat.eq_dec t0 t) as [->|Hne].
    - rewrite upd_same. apply Hp.
    - rewrite upd_other by exact Hne. apply Hf. exact Hne.
  Qed.

  Local Notation ent_null_fate := (ent_null_fate E HE HM).

  (** the popper of a ticket has found the value b in its entry: the ticket was filled and becomes consumed *)
  Lemma consume s h idx b :
    InvB s -> CF (g_nodes s) (g_fate s) (g_pushed s) -> CP (g_nodes s) (g_fate s) (g_popped s) -> NoDup (g_popped s) ->
    In h (g_nodes s) -> TB E s (D11 h idx) -> ent s h (slot_of E idx) = CVal b ->
    CF (g_nodes s) (setf2 (g_fate s) h (tk idx) (FConsumed b)) (g_pushed s) /\
    CP (g_nodes s) (setf2 (g_fate s) h (tk idx) (FConsumed b)) (g_popped s ++ [b]) /\
    NoDup (g_popped s ++ [b]).
  Proof using HE HM.
    intros HB Hcf Hcp Hpnd Hta (Hal1 & HkE & Hkp & Hfa) He.
    pose proof (popper_entry E HE HM s h idx (b_tk _ _ HB h _ Hta HkE) Hal1 Hfa) as Hx. rewrite He in Hx. destruct Hx as [Hf1 _].
    split; [|split].
    - apply CF_set; [rewrite Hf1; reflexivity|exact Hcf].
    - apply CP_add; try assumption. intros b0. rewrite Hf1. discriminate.
    - apply MsqInv.NoDup_snoc; [exact Hpnd|]. intros Hc. apply (Hcp b) in Hc. destruct Hc as (n0 & k0 & Hn0 & Hk0 & Hf0).
      destruct Hcf as (_ & _ & Hinj).
      destruct (Hinj n0 k0 h (tk idx) b Hn0 Hk0 Hta HkE) as [-> ->]; [rewrite Hf0; reflexivity|rewrite Hf1; reflexivity|]. congruence.
  Qed.

  (** a step of thread t that hands no value over and starts no push *)
  Lemma InvC_frame s t u p' :
    InvC s -> nalloc s <= nalloc u -> g_pushed u = g_pushed s -> holds p' = None \/ holds p' = holds (th s t) ->
    CF (g_nodes u) (g_fate u) (g_pushed s) -> CP (g_nodes u) (g_fate u) (g_popped u) -> NoDup (g_popped u) ->
    InvC (w_th u (upd (th s) t p')).
  Proof using HE HM.
    intros [Hnd Hlt Hhold Hhu _ _ _] Hna Hpu Hh Hcf Hcp Hpnd. constructor; prj; rewrite ?Hpu; try assumption.
    - intros b Hb. specialize (Hlt b Hb). lia.
    - apply (hold_upd (fun b => b < nalloc u /\ ~ In b (g_pushed s))).
      + intros t0 b _ Hb. destruct (Hhold t0 b Hb). split; [lia|assumption].
      + intros b Hb. destruct Hh as [Hh|Hh]; rewrite Hh in Hb; [discriminate Hb|]. destruct (Hhold t b Hb). split; [lia|assumption].
    - apply uniq_upd; [exact Hhu|tauto].
  Qed.

  (** ... and writes no ticket *)
  Lemma InvC_quiet s t u p' :
    InvA s -> InvC s -> unwritten s u -> holds p' = None \/ holds p' = holds (th s t) -> InvC (w_th u (upd (th s) t p')).
  Proof using HE HM.
    intros HA HC [Hn Hna Hf _ Hpu Hpo] Hh. apply InvC_frame; try assumption; rewrite ?Hpo, ?Hn; [| |exact (c_pnodup s HC)].
    - apply (CF_ext _ (g_fate s)); [|exact (c_cf s HC)]. intros n k Hi _. rewrite (Hf n (a_lt _ _ HA n Hi)). reflexivity.
    - apply (CP_ext _ (g_fate s)); [|exact (c_cp s HC)]. intros n k b Hi _. rewrite (Hf n (a_lt _ _ HA n Hi)). reflexivity.
  Qed.

  (** thread t hands the value b it holds over *)
  Lemma InvC_push s t u p' b :
    InvC s -> holds (th s t) = Some b -> holds p' = None -> nalloc u = nalloc s -> g_pushed u = g_pushed s ++ [b] -> g_popped u = g_popped s ->
    (~ In b (g_pushed s) -> CF (g_nodes u) (g_fate u) (g_pushed s ++ [b])) -> CP (g_nodes u) (g_fate u) (g_popped s) ->
    InvC (w_th u (upd (th s) t p')).
  Proof using HE HM.
    intros [Hnd Hlt Hhold Hhu _ _ Hpnd] Hb Hp' Hna Hpu Hpo Hcf Hcp. destruct (Hhold t b Hb) as [Hbl Hbn].
    constructor; prj; rewrite ?Hpu, ?Hpo, ?Hna; auto.
    - apply MsqInv.NoDup_snoc; assumption.
    - intros b0 Hb0. apply in_app_or in Hb0. destruct Hb0 as [Hb0|[<-|[]]]; [apply Hlt; exact Hb0|exact Hbl].
    - apply (hold_upd (fun b0 => b0 < nalloc s /\ ~ In b0 (g_pushed s ++ [b]))).
      + intros t1 b0 Hne Hb0. destruct (Hhold t1 b0 Hb0) as [Hl Hn]. split; [exact Hl|]. intros Hc.
        apply in_app_or in Hc. destruct Hc as [Hc|[<-|[]]]; [contradiction|]. apply Hne. exact (Hhu t1 t b Hb0 Hb).
      + rewrite Hp'. intros b0 Hb0. discriminate Hb0.
    - apply uniq_upd; [exact Hhu|]. left. exact Hp'.
  Qed.

  Lemma InvC_tstep s t u p' :
    InvA s -> InvB s -> InvC s -> tstep E R s (th s t) u p' -> g_ovf u = false -> InvC (w_th u (upd (th s) t p')).
  Proof using HE HM.
    intros HA HB HC Hs Hov. pose proof (a_thr _ _ HA t) as Hta. pose proof (b_thr _ _ HB t) as Ht. pose proof (c_hold s HC t) as Hh.
    remember (th s t) as p eqn:Hpc.
    destruct Hs as [p u p' Hq| | | | | | |]; cbn [TA TB holds] in Hta, Ht, Hh.
    (* D9 or D11 finds the value *)
    6, 8: destruct (consume s h idx b HB (c_cf s HC) (c_cp s HC) (c_pnodup s HC) Hta Ht H) as (C1 & C2 & C3);
      apply InvC_frame; rewrite <- ?Hpc; prj; auto using N.le_refl.
    (* a ticket is handed out *)
    2-3: apply InvC_quiet; rewrite <- ?Hpc; auto; constructor; prj; auto using N.le_refl.
    - (* no ticket written *) pose proof (q_unw E s u (qstep_quiet E R HE HM s p u p' HA Hta Hq Hov)) as Hunw.
      destruct Hq as [p p' Hm|v| | | |p tl nx p' Hsw| | | |]; [destruct Hm| | | | |destruct Hsw| | | |];
        try (apply InvC_quiet; rewrite <- ?Hpc; cbn [holds]; auto; fail).
      + (* a push starts: the new token block is held by nobody else and was never pushed *)
        destruct HC as [Hnd Hlt Hhold Hhu Hcf Hcp Hpnd]. constructor; prj; try assumption.
        * intros b0 Hb0. specialize (Hlt _ Hb0). lia.
        * apply (hold_upd (fun b => b < nalloc s + 1 /\ ~ In b (g_pushed s))).
          -- intros t0 b0 _ Hb0. destruct (Hhold t0 b0 Hb0). split; [lia|assumption].
          -- cbn [holds]. intros b0 Hb0. inversion Hb0; subst. split; [lia|]. intros Hc. specialize (Hlt _ Hc). lia.
        * apply uniq_upd; [exact Hhu|]. right; right. cbn [holds]. intros x Hx t' Hc. inversion Hx; subst.
          destruct (Hhold t' _ Hc). lia.
      + (* P5 *) apply InvC_quiet; rewrite <- ?Hpc; auto. destruct (_ <? _); auto.
    - (* link: the value goes into ticket 0 of the new node *)
      apply (InvC_push s t _ _ b); rewrite <- ?Hpc; prj; auto.
      + intros Hbn. apply CF_add; [apply in_or_app; right; left; reflexivity|lia|rewrite Ht; reflexivity|exact Hbn|].
        apply CF_newnode; [intros k; rewrite Ht; reflexivity|exact (c_cf s HC)].
      + apply CP_set; [discriminate|rewrite Ht; discriminate|]. apply CP_newnode; [intros k b0; rewrite Ht; discriminate|exact (c_cp s HC)].
    - (* P8: the value goes into the ticket *)
      destruct Ht as (Hal1 & HkE & Hkp).
      assert (Hf1 : g_fate s tl (tk idx) = FNone) by (apply ent_null_fate; [apply (b_tk _ _ HB); assumption|rewrite <- Hal1; assumption]).
      apply (InvC_push s t _ _ b); rewrite <- ?Hpc; prj; auto.
      + intros Hbn. apply CF_add; [exact Hta|exact HkE|rewrite Hf1; reflexivity|exact Hbn|exact (c_cf s HC)].
      + apply CP_set; [discriminate|rewrite Hf1; discriminate|exact (c_cp s HC)].
    - (* D11 on an empty entry: the ticket held no value *)
      destruct Ht as (Hal1 & HkE & Hkp & Hfa). pose proof (popper_entry E HE HM s h idx (b_tk _ _ HB h _ Hta HkE) Hal1 Hfa) as Hx. rewrite H in Hx.
      apply InvC_frame; rewrite <- ?Hpc; prj; auto using N.le_refl; [| |exact (c_pnodup s HC)].
      + apply CF_set; [rewrite Hx; reflexivity|exact (c_cf s HC)].
      + apply CP_set; [discriminate|rewrite Hx; discriminate|exact (c_cp s HC)].
  Qed.

  Lemma InvC_step s a s' es :
    InvA s -> InvB s -> InvC s -> step E R s a = Some (s', es) -> g_ovf s' = false -> InvC s'.
  Proof using HE HM.
    intros HA HB HC H Hov. destruct (step_inv E R s a s' es H) as (t & u & p' & Hs & -> & _). exact (InvC_tstep s t u p' HA HB HC Hs Hov).
  Qed.

  Lemma InvC_init : InvC init.
  Proof using HE HM.
    constructor; cbn [init head tail popi pushi ent nnext nalloc tokv th g_pushed g_popped g_fate g_nodes g_retired g_ptk g_dtk g_ovf].
    - constructor.
    - intros b [].
    - intros t b Hc. discriminate Hc.
    - intros t1 t2 b Hc. discriminate Hc.
    - split; [|split].
      + intros n k b _ _ Hc. discriminate Hc.
      + intros b [].
      + intros n k n' k' b _ _ _ _ Hc. discriminate Hc.
    - intros b. split; [intros []|]. intros (n & k & _ & _ & Hc). discriminate Hc.
    - constructor.
  Qed.

  Theorem InvC_reach s : reach init (step E R) s -> g_ovf s = false -> InvC s.
  Proof using HE HM.
    intros Hr. induction Hr as [|s a s' es Hr IH Hst]; intros Hov.
    - exact InvC_init.
    - pose proof (ovf_sticky _ _ _ _ _ _ Hst Hov) as Hov0.
      eapply InvC_step; [apply (InvA_reach E R HE HM); [exact Hr|exact Hov0] | apply (InvB_reach E R HE HM); [exact Hr|exact Hov0]
                        | apply IH; exact Hov0 | exact Hst | exact Hov].
  Qed.
End LayerC.

  Lemma tickets_snoc k : tickets 0 (k + 1) = tickets 0 k ++ [k].
  Proof. rewrite (tickets_split 0 k (k + 1)) by lia. f_equal. unfold tickets. replace (k + 1 - k) with 1 by lia. reflexivity. Qed.

  Lemma flat_map_ext_in {A B} (f g : A -> list B) l : (forall x, In x l -> f x = g x) -> flat_map f l = flat_map g l.
  Proof.
    induction l as [|a l IH]; intros H; [reflexivity|]. cbn [flat_map]. rewrite (H a) by (left; reflexivity).
    rewrite IH; [reflexivity|]. intros x Hx. apply H. right. exact Hx.
  Qed.

  Lemma flat_map_nil {A B} (f : A -> list B) l : (forall x, In x l -> f x = []) -> flat_map f l = [].
  Proof.
    induction l as [|a l IH]; intros H; [reflexivity|]. cbn [flat_map]. rewrite (H a) by (left; reflexivity).
    apply IH. intros x Hx. apply H. right. exact Hx.
  Qed.

(** * Layer D: tickets are handed out in chain/ticket order, without gaps *)
Section LayerD.
  Variables E R : N.
  Hypothesis HE : 1 <= E.
  Hypothesis HM : C_step_size E * E < 2 ^ 32.
  Set Default Proof Using "HE HM".
  Notation S := (SS E).
  Notation tk := (tick_of E).
  Notation pa := (pa E).
  Notation pd := (pd E).
  Notation InvA := (InvA E).
  Local Notation aligned_step := (aligned_step E HE HM).
  Local Notation maxi_le := (maxi_le E HE HM).
  Local Notation old_in_nodes := (old_in_nodes E HE HM).
  Local Notation tick_0 := (tick_0 E HE HM).
  Local Notation tick_SS := (tick_SS E HE HM).

  (** the first m tickets of node n *)
  Definition tks (n m : N) : list (N * N) := map (pair n) (tickets 0 m).
  Definition ptks (st : state) : list (N * N) := flat_map (fun n => tks n (N.min (pa st n) E)) (g_nodes st).
  Definition dtks (st : state) : list (N * N) := flat_map (fun n => tks n (N.min (pd st n) E)) (g_nodes st).
  (** all tickets of all linked nodes, in the global order: node order, then ticket order *)
  Definition all_tickets (st : state) : list (N * N) := flat_map (fun n => tks n E) (g_nodes st).

  Definition InvD (st : state) : Prop := g_ptk st = ptks st /\ g_dtk st = dtks st.

  Lemma tks_snoc n k : tks n (k + 1) = tks n k ++ [(n, k)].
  Proof. unfold tks. rewrite tickets_snoc, map_app. reflexivity. Qed.


  (** a step that hands out no ticket: the handed-out part of every linked node is unchanged *)
  Lemma InvD_frame s s' :
    g_ptk s' = g_ptk s -> g_dtk s' = g_dtk s -> g_nodes s' = g_nodes s ->
    (forall n, In n (g_nodes s) -> N.min (pa s' n) E = N.min (pa s n) E /\ N.min (pd s' n) E = N.min (pd s n) E) ->
    InvD s -> InvD s'.
  Proof.
    intros Hp Hd Hn Hc [HDp HDd]. unfold InvD, ptks, dtks. rewrite Hp, Hd, Hn, HDp, HDd.
    split; apply flat_map_ext_in; intros n Hi; destruct (Hc n Hi) as [H1 H2]; rewrite ?H1, ?H2; reflexivity.
  Qed.

  (** the fetch_add that hands out ticket [tk (f n)] of node n appends it to the handed-out tickets, if the
      nodes behind n have handed out none *)
  Lemma handout (f : N -> N) l0 n rest :
    NoDup (l0 ++ n :: rest) -> (forall m, In m rest -> f m = 0) -> aligned E (f n) -> tk (f n) < E ->
    flat_map (fun m => tks m (N.min (tk (setf f n (f n + S) m)) E)) (l0 ++ n :: rest) =
    flat_map (fun m => tks m (N.min (tk (f m)) E)) (l0 ++ n :: rest) ++ [(n, tk (f n))].
  Proof.
    intros Hnd Hr A Hk. destruct (aligned_step _ A) as [_ Hts].
    assert (Hnil : forall g, (forall m, In m rest -> g m = 0) -> flat_map (fun m => tks m (N.min (tk (g m)) E)) rest = []).
    { intros g Hg. apply flat_map_nil. intros m Hm. rewrite (Hg m Hm), tick_0. rewrite N.min_l by lia. reflexivity. }
    rewrite !flat_map_app. cbn [flat_map]. rewrite (Hnil f Hr), (Hnil (setf f n (f n + S))).
    - rewrite !app_nil_r, <- app_assoc. f_equal.
      + apply flat_map_ext_in. intros m Hm. rewrite setf_other; [reflexivity|]. intros ->. apply (NoDup_app_notin _ _ _ _ Hnd Hm). left. reflexivity.
      + rewrite setf_same, Hts. rewrite !N.min_l by lia. rewrite tks_snoc. reflexivity.
    - intros m Hm. rewrite setf_other; [exact (Hr m Hm)|]. intros ->. apply (NoDup_remove_2 _ _ _ Hnd), in_or_app. right. exact Hm.
  Qed.

  Lemma InvD_tstep s t u p' : InvA s -> InvD s -> tstep E R s (th s t) u p' -> g_ovf u = false -> InvD (w_th u (upd (th s) t p')).
  Proof.
    intros HA HD Hs Hov. pose proof (a_thr _ _ HA t) as Hta. pose proof (fun h => old_in_nodes s h (a_head _ _ HA)) as Hio.
    remember (th s t) as p eqn:Hpc.
    destruct Hs as [p u p' Hq| | | | | | |]; prj_in Hov; try (apply faa_nowrap in Hov as [_ Hw]; rewrite Hw in * );
      cbn [TA] in Hta; try (apply (InvD_frame s); auto; fail).
    - (* no ticket handed out *) destruct (qstep_quiet E R HE HM s p u p' HA Hta Hq Hov) as [[Hn _ _ _ _ _] Hp Hd Hc]. apply (InvD_frame s); assumption.
    - (* P2: a ticket of the last node *) destruct HD as [HDp HDd].
      destruct (a_al _ _ HA tl Hta) as [A1 _]. apply N.lt_nge in H. rewrite (maxi_le _ A1) in H.
      assert (Hz : nnext s tl = 0).
      { destruct (N.eq_dec (nnext s tl) 0) as [e|e]; [exact e|]. pose proof (a_full _ _ HA tl Hta e) as Hf. unfold RamBase.pa in Hf. lia. }
      destruct (MsqInv.lpath_last _ _ (a_path _ _ HA) tl Hta Hz) as [l0 El]. pose proof (a_nodup _ _ HA) as Hnd. rewrite El in Hnd.
      split; prj; [|exact HDd]. rewrite HDp. unfold ptks, RamBase.pa; prj. rewrite El. symmetry. apply handout; [exact Hnd|intros m []|exact A1|lia].
    - (* D5: a ticket of the head node *) destruct HD as [HDp HDd]. pose proof (Hio h Hta) as Hin.
      destruct (a_al _ _ HA h Hin) as [_ A1]. apply N.lt_nge in H. rewrite (maxi_le _ A1) in H.
      destruct (a_head _ _ HA) as (rest & He & Hr).
      assert (Hh : h = head s).
      { unfold in_old in Hta. apply in_app_or in Hta. destruct Hta as [Hc|[Hc|[]]]; [|symmetry; exact Hc].
        pose proof (a_ret _ _ HA h Hc) as Hf. unfold RamBase.pd in Hf. lia. }
      subst h. pose proof (a_nodup _ _ HA) as Hnd. rewrite He in Hnd.
      split; prj; [exact HDp|]. rewrite HDd. unfold dtks, RamBase.pd; prj. rewrite He. symmetry. apply handout; [exact Hnd|exact Hr|exact A1|lia].
    - (* link *) destruct HD as [HDp HDd]. destruct Hta as (H1 & H2 & H3 & H4 & H5 & H6 & H7 & H8).
      split; prj.
      + rewrite HDp. unfold ptks; prj. rewrite flat_map_app. cbn [flat_map]. rewrite app_nil_r. f_equal.
        unfold RamBase.pa; prj. rewrite H6, tick_SS. rewrite N.min_l by lia. reflexivity.
      + rewrite HDd. unfold dtks; prj. rewrite flat_map_app. cbn [flat_map]. rewrite app_nil_r.
        unfold RamBase.pd; prj. rewrite H5, tick_0. rewrite N.min_l by lia. rewrite app_nil_r. reflexivity.
  Qed.

  Lemma InvD_step s a s' es :
    InvA s -> InvD s -> step E R s a = Some (s', es) -> g_ovf s' = false -> InvD s'.
  Proof.
    intros HA HD H Hov. destruct (step_inv E R s a s' es H) as (t & u & p' & Hs & -> & _). exact (InvD_tstep s t u p' HA HD Hs Hov).
  Qed.

  Lemma InvD_init : InvD init.
  Proof.
    split; cbn [init g_ptk g_dtk]; unfold ptks, dtks, RamBase.pa, RamBase.pd; cbn [init g_nodes pushi popi flat_map];
      rewrite tick_0; rewrite N.min_l by lia; reflexivity.
  Qed.

  Theorem InvD_reach s : reach init (step E R) s -> g_ovf s = false -> InvD s.
  Proof.
    intros Hr. induction Hr as [|s a s' es Hr IH Hst]; intros Hov.
    - exact InvD_init.
    - pose proof (ovf_sticky _ _ _ _ _ _ Hst Hov) as Hov0.
      eapply InvD_step; [apply (InvA_reach E R HE HM); [exact Hr|exact Hov0] | apply IH; exact Hov0 | exact Hst | exact Hov].
  Qed.
End LayerD.
