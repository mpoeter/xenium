(** kirsch_bounded_kfifo_queue (C06), invariant layer 1: head / tail and every local copy are segment starts,
    local copies are not newer than the shared word (version tags only grow), scan indices stay inside the
    segment.  No axioms, no admits. *)
From Coq Require Import NArith List Bool Lia PeanoNat.
From XV Require Import Base.Word Conc.Lts Conc.Ev Model.KfbDefs.
From XV Require Export Proof.KfbStep.
From XV Require Import Proof.KfbArith.
Import ListNotations.
Local Open Scope N_scope.

Section L0.
  Variables k segs : N.
  Notation step := (step k segs).
  Notation sg := (sg k).
  Notation wfi := (wfi k segs).
  Notation qsize := (qsize k segs).

  Definition wfw (w : iw) : Prop := wfi (fst w).
  Definition iw_mono (a b : iw) : Prop := b = a \/ snd a < snd b.
  Definition hle (st : state) (w : iw) : Prop := wfw w /\ iw_mono w (head st).
  Definition tle (st : state) (w : iw) : Prop := wfw w /\ iw_mono w (tail st).
  Definition inseg (w : iw) (j : N) : Prop := j < qsize /\ sg j = sg (fst w).

  Definition T1 (st : state) (p : pc) : Prop :=
    match p with
    | P2 b tl => tle st tl
    | PF b tl hd ri i => tle st tl /\ hle st hd /\ ri < k /\ i < k
    | P3 b tl j otag | P4 b tl j otag => tle st tl /\ inseg tl j
    | P3n b tl hd | PQ b tl hd | PHC b tl hd | PH b tl hd => tle st tl /\ hle st hd
    | PS b tl hd i => tle st tl /\ hle st hd /\ i < k
    | PT b tl => tle st tl
    | C1 b tl j tg | C2 b tl j tg => wfw tl /\ inseg tl j
    | C3 b tl j tg hc | C5 b tl j tg hc => wfw tl /\ inseg tl j /\ hle st hc
    | C4 b tl j tg hc tc => wfw tl /\ inseg tl j /\ hle st hc /\ tle st tc
    | C6 b j tg => j < qsize
    | D2 hd => hle st hd
    | DF hd tl ri i => hle st hd /\ tle st tl /\ ri < k /\ i < k
    | D3 hd tl j p tg | DT hd tl j p tg => hle st hd /\ tle st tl /\ inseg hd j /\ p <> 0 /\ tg <= snd (slot st j)
    | D3n hd tl | DE hd tl => hle st hd /\ tle st tl
    | D4 hd j p tg => wfw hd /\ inseg hd j /\ p <> 0 /\ tg <= snd (slot st j)
    | DH hd => hle st hd
    | _ => True
    end.

  Definition Inv1 (st : state) : Prop :=
    wfw (head st) /\ wfw (tail st) /\ (forall j, fst (slot st j) <> 0 -> j < qsize) /\ forall t, T1 st (th st t).

  Lemma iw_mono_refl a : iw_mono a a. Proof. left. reflexivity. Qed.
  Lemma iw_mono_trans a b c : iw_mono a b -> iw_mono b c -> iw_mono a c.
  Proof. unfold iw_mono. intros [->|H1] [->|H2]; auto. right. lia. Qed.
  (** a word that is equal at both ends of an execution was equal all the time *)
  Lemma iw_mono_squeeze a b c : iw_mono a b -> iw_mono b c -> c = a -> b = a.
  Proof. unfold iw_mono. intros [->|H1] [->|H2] E; subst; try reflexivity; lia. Qed.
  Lemma adv_mono w : iw_mono w (adv k segs w). Proof. right. cbn. lia. Qed.
  Lemma bump_mono w : iw_mono w (bump w). Proof. right. cbn. lia. Qed.
  Lemma setf_mono (f : N -> sw) j w : snd (f j) < snd w -> forall j0, iw_mono (f j0) (setf f j w j0).
  Proof. intros H j0. unfold setf. destruct (N.eqb_spec j0 j) as [->|_]; [right; exact H|left; reflexivity]. Qed.
  Lemma incl_commit b l : incl l (commit b l).
  Proof. intros x Hx. apply commit_in. left. exact Hx. Qed.

  (** version tags never decrease, and a word changes only together with its tag; ghosts only grow *)
  Lemma step_mono s a s' es : step s a = Some (s', es) ->
    iw_mono (head s) (head s') /\ iw_mono (tail s) (tail s') /\ (forall j, iw_mono (slot s j) (slot s' j)) /\
    incl (g_in s) (g_in s') /\ incl (g_out s) (g_out s') /\ incl (g_ok s) (g_ok s').
  Proof.
    intros Hst. destruct (step_inv k segs s a s' es Hst) as (r & p & s1 & p' & res & _ & -> & _ & [[-> _]|Hwr] & _);
      [|destruct Hwr; subst]; sim; repeat split;
      auto using iw_mono_refl, adv_mono, bump_mono, incl_refl, incl_appl, incl_commit;
      apply setf_mono; rewrite H; cbn; lia.
  Qed.

  Lemma T1_stable st st' p :
    iw_mono (head st) (head st') -> iw_mono (tail st) (tail st') -> (forall j, iw_mono (slot st j) (slot st' j)) ->
    T1 st p -> T1 st' p.
  Proof.
    intros Hh Ht Hsl.
    assert (HH : forall w, hle st w -> hle st' w) by (intros w [A B]; split; [exact A|eapply iw_mono_trans; eauto]).
    assert (TT : forall w, tle st w -> tle st' w) by (intros w [A B]; split; [exact A|eapply iw_mono_trans; eauto]).
    assert (SS : forall j tg, tg <= snd (slot st j) -> tg <= snd (slot st' j)) by (intros j tg H; destruct (Hsl j) as [->|Hlt]; lia).
    destruct p; cbn [T1]; intuition.
  Qed.
End L0.

Set Default Proof Using "All".
Section L1.
  Variables k segs : N.
  Hypothesis Hk : 1 <= k.
  Hypothesis Hs : 1 <= segs.
  Notation step := (step k segs).
  Notation qsize := (qsize k segs).
  Notation wfw := (wfw k segs).
  Notation hle := (hle k segs).
  Notation tle := (tle k segs).
  Notation inseg := (inseg k segs).
  Notation T1 := (T1 k segs).
  Notation Inv1 := (Inv1 k segs).

  Lemma adv_wfw w : wfw w -> wfw (adv k segs w).
  Proof. intros H. apply (adv_wf k segs Hk Hs _ H). Qed.
  Lemma hle_head st : wfw (head st) -> hle st (head st). Proof. intros; split; [assumption|apply iw_mono_refl]. Qed.
  Lemma tle_tail st : wfw (tail st) -> tle st (tail st). Proof. intros; split; [assumption|apply iw_mono_refl]. Qed.
  Lemma inseg_lt w j : inseg w j -> j < qsize. Proof. intros [H _]. exact H. Qed.
  Lemma tag_le (w : sw) p tg : w = (p, tg) -> tg <= snd w. Proof. intros ->. cbn. lia. Qed.
  Lemma fidx_inseg w ri i : wfw w -> inseg w (fidx k segs (fst w) ri i).
  Proof. intros H. apply (fidx_in k segs Hk Hs _ ri i H). Qed.
  Lemma sidx_inseg w i : wfw w -> i < k -> inseg w (sidx k segs (fst w) i).
  Proof. intros H Hi. apply (sidx_in k segs Hk Hs _ i H Hi). Qed.

  (** what a thread knows after its step, in terms of the state before the step: the facts about the words it
      holds are carried along, a freshly read word is the current one, a scanned index lies in the segment *)
  Lemma T1_next s r p s1 p' res : wfw (head s) -> wfw (tail s) -> T1 s p ->
    rd k segs s p p' res \/ wr k segs s r p s1 p' res -> T1 s p'.
  Proof.
    intros Hh Ht H1 Htr. pose proof (hle_head s Hh). pose proof (tle_tail s Ht).
    assert (rnd r mod k < k) by (apply N.mod_lt; lia).
    destruct Htr as [Htr|Htr]; destruct Htr; subst; cbn [T1] in *; unfold hle, tle in *;
      intuition (eauto using fidx_inseg, sidx_inseg, inseg_lt, tag_le; lia).
  Qed.

  Lemma Inv1_init : Inv1 init.
  Proof.
    repeat split; try apply (wfi_0 k segs Hk Hs). intros j H. cbn in H. congruence.
  Qed.

  Lemma Inv1_step s a s' es : Inv1 s -> step s a = Some (s', es) -> Inv1 s'.
  Proof.
    intros (Hh & Ht & Hsl & Hall) Hst. destruct (step_mono k segs s a s' es Hst) as (Mh & Mt & Ms & _).
    destruct (step_inv k segs s a s' es Hst) as (r & p & s1 & p' & res & <- & -> & Eth & Htr & _). sim.
    pose proof (Hall (tid a)) as Hme.
    assert (Hp' : T1 s p') by (apply (T1_next s r _ s1 p' res Hh Ht Hme); tauto).
    assert (Hsh : wfw (head s1) /\ wfw (tail s1) /\ forall j, fst (slot s1 j) <> 0 -> j < qsize).
    { destruct Htr as [[-> _]|Hwr]; [auto|]. destruct Hwr; subst; cbn [T1] in Hme; sim; (split; [|split]); auto using adv_wfw.
      all: intros j0; unfold setf; destruct (N.eqb_spec j0 j) as [->|_]; [intros _|apply Hsl].
      all: unfold inseg in Hme; tauto. }
    destruct Hsh as (A & B & C). split; [exact A|]. split; [exact B|]. split; [exact C|].
    intros t'. apply (T1_stable k segs s); [exact Mh|exact Mt|exact Ms|]. sim. rewrite Eth. unfold upd. destruct (t' =? tid a)%nat; [exact Hp'|apply Hall].
  Qed.

  Theorem Inv1_reach st : reach init step st -> Inv1 st.
  Proof. apply inv_rule; [exact Inv1_init|]. intros s a s' es. apply Inv1_step. Qed.
End L1.
