(** kirsch_kfifo_queue (C06 / C07 / C02, unbounded), invariant layer 4 (ownership of the segments): the chain
    has no duplicates; the retired segments are exactly the linked segments head_ has left, each retired once;
    a segment released by its allocator (lost link CAS) was never linked and belongs to nobody.
    No axioms, no admits. *)
From Coq Require Import NArith List Bool Lia PeanoNat ZifyBool ZifyNat ZifyN.
From XV Require Import Base.Word Conc.Lts Conc.Ev Model.KfqDefs.
From XV Require Import Proof.KfqStep Proof.KfqWf Proof.KfqOwn.
Import ListNotations.
Local Open Scope N_scope.

Set Default Proof Using "All".
Section L4.
  Variable k : N.
  Hypothesis Hk : 1 <= k.
  Notation step := (step k).
  Notation InvA := (InvA k).

  Record InvR (st : state) : Prop := {
    r_nd : NoDup (g_segs st);
    r_ret : forall x, In x (g_retired st) <-> linked st x /\ x < fst (head st);
    r_rnd : NoDup (g_retired st);
    r_fr : forall x, In x (g_freed st) -> ~ linked st x /\ 2 <= x < nalloc st /\ forall t, aseg (th st t) <> Some x;
    r_fnd : NoDup (g_freed st) }.

  Lemma InvR_init : InvR init.
  Proof.
    constructor; cbn [init g_segs g_retired g_freed head fst].
    - constructor; [intros []|constructor].
    - intros x. unfold linked. cbn. split; [intros []|]. intros [[<-|[]] H]. lia.
    - constructor.
    - intros x [].
    - constructor.
  Qed.

  Lemma InvR_local s s' t p' :
    InvR s -> g_segs s' = g_segs s -> g_retired s' = g_retired s -> g_freed s' = g_freed s ->
    fst (head s') = fst (head s) -> nalloc s <= nalloc s' -> th s' = upd (th s) t p' ->
    (aseg p' = None \/ aseg p' = aseg (th s t) \/ aseg p' = Some (nalloc s)) -> InvR s'.
  Proof.
    intros I E1 E2 E3 E4 E5 Et Ha. destruct I. constructor; unfold linked in *; rewrite ?E1, ?E2, ?E3, ?E4; try assumption.
    intros x Hx. destruct (r_fr0 x Hx) as (A & B & C). split; [exact A|]. split; [lia|].
    intros t0. rewrite Et. unfold upd. destruct (Nat.eqb_spec t0 t) as [->|]; [|apply C].
    destruct Ha as [Ha|[Ha|Ha]]; rewrite Ha; [discriminate|apply C|]. intros Q. inversion Q. lia.
  Qed.

  Lemma InvR_step s a s' es : InvA s -> InvR s -> step s a = Some (s', es) -> InvR s'.
  Proof.
    intros IA I Hst. destruct (step_inv k Hk s a s' es Hst) as (sh & p' & res & -> & [Hs|(Hl & -> & _)] & _).
    2:{ eapply (InvR_local _ _ _ _ I); sim; try reflexivity; try apply N.le_refl. left. exact (lstep_aseg k Hk _ _ _ Hl). }
    set (t := actor a) in *. pose proof (a_th k s IA t) as Hme. remember (th s t) as p eqn:E. symmetry in E.
    destruct Hs; cbn [TA] in Hme;
      try (eapply (InvR_local _ _ t _ I); sim; try reflexivity; try lia; cbn [aseg]; rewrite ?(aseg_kpc k Hk); auto; fail).
    - (* C5 *) subst hc. eapply (InvR_local _ _ t _ I); sim; try reflexivity; try lia; auto.
    - (* A4: the segment is linked *) destruct Hme as ((Lx & Tl) & B & -> & D & F).
      pose proof (null_last k Hk s _ IA Lx H) as Hx. pose proof (a_max k s IA _ (a_head k s IA)) as Hhl.
      assert (Hnl : ~ linked s n) by (apply (a_fresh k s IA t); rewrite E; reflexivity).
      destruct I. constructor; unfold linked in *; sim.
      + apply NoDup_snoc; assumption.
      + intros x. rewrite r_ret0, in_app_iff. cbn. split; [intros [A1 A2]; auto|]. intros [[A1|[<-|[]]] A2]; [auto|lia].
      + assumption.
      + intros x Hx0. destruct (r_fr0 x Hx0) as (A1 & A2 & A3). split; [|split; [exact A2|]].
        * rewrite in_app_iff. cbn. intros [Q|[<-|[]]]; [contradiction|]. apply (A3 t). rewrite E. reflexivity.
        * intros t0. unfold upd. destruct (Nat.eqb_spec t0 t) as [->|]; [cbn; discriminate|apply A3].
      + assumption.
    - (* A4: the segment is released *) destruct Hme as ((Lx & Tl) & B & C & D & F).
      assert (Hnl : ~ linked s n) by (apply (a_fresh k s IA t); rewrite E; reflexivity).
      destruct I. constructor; unfold linked in *; sim; try assumption.
      + intros x. rewrite in_app_iff. cbn. intros [Hx0|[<-|[]]].
        * destruct (r_fr0 x Hx0) as (A1 & A2 & A3). split; [exact A1|split; [exact A2|]].
          intros t0. unfold upd. destruct (Nat.eqb_spec t0 t) as [->|]; [rewrite (aseg_kpc k Hk); discriminate|apply A3].
        * split; [exact Hnl|]. split; [pose proof (a_lt k s IA _ Lx); lia|]. intros t0. unfold upd.
          destruct (Nat.eqb_spec t0 t) as [->|Hne]; [rewrite (aseg_kpc k Hk); discriminate|].
          intros Q. apply Hne. apply (a_own k s IA t0 t n Q). rewrite E. reflexivity.
      + apply NoDup_snoc; [assumption|]. intros Q. destruct (r_fr0 n Q) as (_ & _ & A3). apply (A3 t). rewrite E. reflexivity.
    - (* H7: the head segment is retired *) subst hd. destruct Hme as ((A & B & C & D & D') & F).
      destruct (head_succ k Hk s IA C) as (n & Q & _ & (Hlt & _) & Hmin). rewrite Q in D. subst hn. destruct I. constructor; unfold linked in *; sim; try assumption.
      + intros x. rewrite in_app_iff, r_ret0. cbn. split.
        * intros [[A1 A2]|[<-|[]]]; [split; [exact A1|lia]|split; [exact A|exact Hlt]].
        * intros [A1 A2]. destruct (N.lt_ge_cases (fst (head s)) x) as [W|W]; [specialize (Hmin x A1 W); lia|].
          destruct (N.eq_dec x (fst (head s))) as [->|Hne]; [right; left; reflexivity|left; split; [exact A1|lia]].
      + apply NoDup_snoc; [assumption|]. rewrite r_ret0. intros [_ W]. lia.
      + intros x Hx0. destruct (r_fr0 x Hx0) as (A1 & A2 & A3). split; [exact A1|split; [exact A2|]].
        intros t0. unfold upd. destruct (Nat.eqb_spec t0 t) as [->|]; [cbn; discriminate|apply A3].
  Qed.

  Theorem InvR_reach st : reach init step st -> InvR st.
  Proof.
    apply (inv_rule_aux _ _ _ init step InvA InvR).
    - apply InvA_reach; assumption.
    - exact InvR_init.
    - intros s a s' es J _ I Hst. eapply InvR_step; eauto.
  Qed.
End L4.
