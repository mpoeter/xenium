(** kirsch_bounded_kfifo_queue (C06): version tags never decrease along executions. *)
From Coq Require Import NArith List Bool Lia PeanoNat.
From XV Require Import Base.Word Conc.Lts Conc.Ev Model.KfbDefs.
From XV Require Import Proof.KfbArith Proof.KfbWf.
Import ListNotations.
Local Open Scope N_scope.

Set Default Proof Using "All".
Section Mono.
  Variables k segs : N.
  Notation step := (step k segs).

  Lemma reach_from_mono s s' : reach_from step s s' ->
    iw_mono (head s) (head s') /\ iw_mono (tail s) (tail s') /\ (forall j, iw_mono (slot s j) (slot s' j)) /\
    incl (g_in s) (g_in s') /\ incl (g_out s) (g_out s') /\ incl (g_ok s) (g_ok s').
  Proof.
    induction 1 as [|x a y es Hf IH Hst].
    - repeat split; auto using iw_mono_refl, incl_refl.
    - destruct IH as (A1 & A2 & A3 & A4 & A5 & A6). destruct (step_mono k segs _ _ _ _ Hst) as (B1 & B2 & B3 & B4 & B5 & B6).
      repeat split; eauto using iw_mono_trans, incl_tran.
  Qed.

  Lemma reach_from_trans (s0 s1 s2 : state) : reach_from step s0 s1 -> reach_from step s1 s2 -> reach_from step s0 s2.
  Proof. intros H1 H2. induction H2; [exact H1|eapply rf_step; eauto]. Qed.
End Mono.
