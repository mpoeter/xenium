(** The flush of the epoch based reclamation model (Model/EbrDefs.v), the liveness half of C02 as a bounded solo run:
    a thread that enters critical regions again and again (the repl operation of the harness' teardown) frees, within
    SEVEN operations, every node that sits in an orphan list or in one of its own retire lists, provided no thread is
    inside a critical region ([ebr_no_leak_at_quiescence]).  The proof executes the model symbolically: a solo step is computed
    ([sstep]; the steps that branch on shared state have a lemma, [st_*]), one lemma per phase ([ph_*]: enter, scan - by induction over the thread block list -, advance,
    update, finish), one per operation ([round]: the three cases local epoch behind / current without scan /
    current with scan), and composes seven operations.  No axioms. *)
From Coq Require Import NArith List Bool Arith Lia PeanoNat Setoid.
From XV Require Import Conc.Lts Conc.Ev Conc.Solo Model.EbrDefs Proof.EbrBase Proof.EbrEpoch Proof.EbrNodes Proof.EbrTags Proof.EbrGuards.
Import ListNotations.
Local Open Scope N_scope.

(** * The flush: one thread entering critical regions again and again *)
Definition idle (s : state) (t : nat) : bool := match th s t with Idle => true | _ => false end.

Section Flush.
Variables (ns : nat) (nc : N) (t : nat) (c : N).
Notation K := (KRepl c true).
Notation sstep := (fun s s' => exists es, idle s t = false /\ step ns s (Step t) = Some (s', es)).

(** the steps of the solo run that branch on the thread block list, the epochs or the CAS *)
Ltac stp := unfold step; cbv zeta;
  repeat match goal with H : th _ _ = _ |- _ => rewrite H end;
  repeat match goal with H : cb _ = _ |- _ => rewrite H end; cbn [cell_of opcode fst snd].

Lemma st_E4a s b e : th s t = E4 K e -> cb (tl s t) = Some b -> blocal s b <> e ->
  step ns s (Step t) = Some (set_pc t (U1 K e) (set_tl t (wt_ces false (tl s t)) s), [ELoad t (L_blocal b) mo_rlx (VInt (blocal s b))]).
Proof. intros H H1 H2. stp. destruct (N.eqb_spec (blocal s b) e); [contradiction|]. reflexivity. Qed.

Lemma st_E4b s b e : th s t = E4 K e -> cb (tl s t) = Some b -> blocal s b = e -> ces (tl s t) = false ->
  step ns s (Step t) = Some (set_pc t (A2 K) (set_tl t (wt_ces true (tl s t)) s), [ELoad t (L_blocal b) mo_rlx (VInt (blocal s b))]).
Proof. intros H H1 H2 H3. stp. rewrite H2, N.eqb_refl, H3. reflexivity. Qed.

Lemma st_E4c s b e : th s t = E4 K e -> cb (tl s t) = Some b -> blocal s b = e -> ces (tl s t) = true ->
  step ns s (Step t) = Some (set_pc t (S1 K e) (set_tl t (wt_ces false (tl s t)) s), [ELoad t (L_blocal b) mo_rlx (VInt (blocal s b))]).
Proof. intros H H1 H2 H3. stp. rewrite H2, N.eqb_refl, H3. reflexivity. Qed.

Lemma st_S1 s e : th s t = S1 K e ->
  step ns s (Step t) = Some (set_pc t (match blist s with [] => G1 K e | p :: rest => S2 K e p rest end) s,
                             [ELoad t L_head mo_acq (vptr (hd_opt (blist s)))]).
Proof. intros H. stp. unfold scan_next. destruct (blist s); reflexivity. Qed.

Lemma st_S2f s e p rest : th s t = S2 K e p rest -> bflag s p = false ->
  step ns s (Step t) = Some (set_pc t (match rest with [] => G1 K e | q :: r => S2 K e q r end) s,
                             [ELoad t (L_bflag p) mo_rlx (vbool false)]).
Proof. intros H H1. stp. rewrite H1. unfold scan_next. destruct rest; reflexivity. Qed.

Lemma st_S3 s e p rest : th s t = S3 K e p rest -> blocal s p = e ->
  step ns s (Step t) = Some (set_pc t (match rest with [] => G1 K e | q :: r => S2 K e q r end) s,
                             [ELoad t (L_blocal p) mo_rlx (VInt (blocal s p))]).
Proof. intros H H1. stp. rewrite H1, N.eqb_refl. cbn [negb]. unfold scan_next. destruct rest; reflexivity. Qed.

Lemma st_R3 s n0 n1 b : th s t = R3 c (Some n0) (Some n1) -> cells s c = Some n0 -> cb (tl s t) = Some b -> nest (tl s t) = 1%nat ->
  exists s', step ns s (Step t) = Some (s', [ERmw t (L_cell c) mo_acqrel (vptr (Some n0)) (vptr (Some n1))]) /\
    th s' t = LV (LFin r_ok) /\ tl s' t = wt_nest O (wt_rl (updN (rl (tl s t)) (lidx (tl s t)) (n0 :: rl (tl s t) (lidx (tl s t)))) (tl s t)) /\
    gep s' = gep s /\ blist s' = blist s /\ bflag s' = bflag s /\ blocal s' = blocal s /\ orph s' = orph s /\
    cells s' c = Some n1 /\ g_where s' = updN (g_where s) n0 (PList t (lidx (tl s t))).
Proof.
  intros H H1 H2 H3. eexists. split.
  - stp. rewrite H1. cbn [oeqb]. rewrite N.eqb_refl. unfold leave. prj. rewrite upd_same. prj. rewrite H3. cbn [pred Nat.eqb]. reflexivity.
  - prj. rewrite !upd_same. prj. repeat split; try reflexivity. apply updN_same.
Qed.

Definition ssteps (n : nat) (s s' : state) : Prop := solo_steps (step ns) Step idle t n s s'.

(* one solo step, computed: the pc and the guards the step reads are rewritten from the hypotheses *)
Ltac sstep := eapply solo_S;
  [ unfold idle; prj; rewrite ?upd_same; try match goal with H : th ?s ?t = _ |- context [th ?s ?t] => rewrite H end; reflexivity
  | unfold step, enter, enter_cb, to_cas, finish; cbv zeta; prj; rewrite ?upd_same; prj;
    do 2 (prj; cbn [cell_of opcode fst snd Nat.eqb negb pred is_nil]; repeat match goal with H : ?l = _ |- context [?l] => rewrite H end; rewrite ?N.eqb_refl); reflexivity
  | ].

Ltac sst L :=
  eapply solo_S; [ unfold idle; prj; rewrite ?upd_same; try match goal with H : th ?s ?t = _ |- context [th ?s ?t] => rewrite H end; reflexivity
                 | eapply L; prj; rewrite ?upd_same; prj; try eassumption; try reflexivity
                 | ].

(** start of the operation up to the load of the global epoch in do_enter_critical *)
Lemma ph_enter s b n0 : th s t = Idle -> cb (tl s t) = Some b -> nest (tl s t) = O -> cells s c = Some n0 ->
  exists s1 s', step ns s (Start t (ORepl c)) = Some (s1, []) /\ ssteps 5 s1 s' /\
    th s' t = E4 K (gep s) /\ tl s' t = wt_nest 1 (tl s t) /\ bflag s' = updN (bflag s) b true /\
    gep s' = gep s /\ blist s' = blist s /\ blocal s' = blocal s /\ orph s' = orph s /\ cells s' = cells s /\ g_where s' = g_where s.
Proof.
  intros H H1 H2 H3. eexists _, _. split; [unfold step; rewrite H; reflexivity|]. split.
  - unfold ssteps. do 5 sstep. apply solo_O.
  - prj. rewrite !upd_same. prj. repeat split; reflexivity.
Qed.

Definition Same (s s' : state) : Prop :=
  tl s' t = tl s t /\ gep s' = gep s /\ blist s' = blist s /\ bflag s' = bflag s /\ blocal s' = blocal s /\
  orph s' = orph s /\ cells s' = cells s /\ g_where s' = g_where s.

(** the scan of the thread block list: every other thread is outside its critical region *)
Lemma ph_scan_l e b : forall l s, bflag s b = true -> blocal s b = e -> (forall p, In p l -> p = b \/ bflag s p = false) ->
  th s t = (match l with [] => G1 K e | p :: rest => S2 K e p rest end) ->
  exists n s', ssteps n s s' /\ th s' t = G1 K e /\ Same s s'.
Proof.
  induction l as [|p rest IH]; intros s Hb He Hl Hpc.
  - exists O, s. split; [apply solo_O|]. split; [exact Hpc|]. repeat split; reflexivity.
  - destruct (Hl p (or_introl eq_refl)) as [->|Hf].
    + destruct (IH (set_pc t (match rest with [] => G1 K e | q :: r => S2 K e q r end) (set_pc t (S3 K e b rest) s))) as (n & s' & Hs & Hp & Hsame).
      * exact Hb.
      * exact He.
      * intros q Hq. apply Hl. right. exact Hq.
      * prj. apply upd_same.
      * exists (S (S n)), s'. split; [|split; [exact Hp|exact Hsame]].
        unfold ssteps. sstep. sst st_S3. exact Hs.
    + destruct (IH (set_pc t (match rest with [] => G1 K e | q :: r => S2 K e q r end) s)) as (n & s' & Hs & Hp & Hsame).
      * exact Hb.
      * exact He.
      * intros q Hq. apply Hl. right. exact Hq.
      * prj. apply upd_same.
      * exists (S n), s'. split; [|split; [exact Hp|exact Hsame]].
        unfold ssteps. sst st_S2f. exact Hs.
Qed.

Lemma ph_scan s e b : th s t = S1 K e -> bflag s b = true -> blocal s b = e -> (forall p, In p (blist s) -> p = b \/ bflag s p = false) ->
  exists n s', ssteps n s s' /\ th s' t = G1 K e /\ Same s s'.
Proof.
  intros Hpc Hb He Hl.
  destruct (ph_scan_l e b (blist s) (set_pc t (match blist s with [] => G1 K e | p :: rest => S2 K e p rest end) s)) as (n & s' & Hs & Hp & Hsame); try assumption.
  - prj. apply upd_same.
  - exists (S n), s'. split; [|split; [exact Hp|exact Hsame]]. unfold ssteps. sst st_S1. exact Hs.
Qed.

(** update_global_epoch(e, e+1): the orphans of slot (e+1) mod 3 are adopted and, the CAS succeeding, freed *)
Lemma ph_adv s e : th s t = G1 K e -> gep s = e ->
  exists n s', ssteps n s s' /\ th s' t = U1 K (e + 1) /\ gep s' = e + 1 /\ tl s' t = tl s t /\
    blist s' = blist s /\ bflag s' = bflag s /\ blocal s' = blocal s /\ cells s' = cells s /\
    (forall n, g_where s' n = if memN n (orph s ((e + 1) mod 3)) then PFreed else g_where s n) /\
    (forall i, orph s' i = if i =? (e + 1) mod 3 then [] else orph s i).
Proof.
  intros Hpc Hg. destruct (is_nil (orph s ((e + 1) mod 3))) eqn:En.
  - apply is_nil_true in En. eexists _, _. split.
    + unfold ssteps. do 4 sstep. apply solo_O.
    + prj. rewrite !upd_same. prj. repeat split; try reflexivity.
      * intros n. rewrite En. reflexivity.
      * intros i. destruct (N.eqb_spec i ((e + 1) mod 3)) as [->|]; [exact En|reflexivity].
  - eexists _, _. split.
    + unfold ssteps. do 5 sstep. apply solo_O.
    + prj. rewrite !upd_same. prj. repeat split; try reflexivity.
      all: try (intros n; destruct (memN n (orph s ((e + 1) mod 3))); reflexivity).
      all: try (intros i; unfold updN; reflexivity).
Qed.

(** update_local_epoch(new) *)
Lemma ph_upd s b new : th s t = U1 K new -> cb (tl s t) = Some b ->
  exists s', ssteps 2 s s' /\ th s' t = A2 K /\
    tl s' t = wt_lidx (if is_nil (uslots new (blocal s b)) then lidx (tl s t) else new mod 3)
                (wt_rl (fun i => if memN i (uslots new (blocal s b)) then [] else rl (tl s t) i) (tl s t)) /\
    gep s' = gep s /\ blist s' = blist s /\ bflag s' = bflag s /\ blocal s' = updN (blocal s) b new /\ cells s' = cells s /\ orph s' = orph s /\
    (forall n, g_where s' n = if memN n (flat_map (rl (tl s t)) (uslots new (blocal s b))) then PFreed else g_where s n).
Proof.
  intros Hpc Hcb. eexists. split.
  - unfold ssteps. do 2 sstep. apply solo_O.
  - prj. rewrite !upd_same. prj. repeat split; reflexivity.
Qed.

(** the rest of repl: second load of the cell, new node, CAS, retire, leave_critical *)
Lemma ph_fin s b n0 : th s t = A2 K -> cells s c = Some n0 -> cb (tl s t) = Some b -> nest (tl s t) = 1%nat ->
  exists s', ssteps 3 s s' /\ th s' t = Idle /\
    tl s' t = wt_nest O (wt_rl (updN (rl (tl s t)) (lidx (tl s t)) (n0 :: rl (tl s t) (lidx (tl s t)))) (tl s t)) /\
    gep s' = gep s /\ blist s' = blist s /\ bflag s' = updN (bflag s) b false /\ blocal s' = blocal s /\ orph s' = orph s /\
    cells s' c = Some (nalloc s) /\ g_where s' = updN (g_where s) n0 (PList t (lidx (tl s t))).
Proof.
  intros Hpc Hc Hcb Hn.
  destruct (st_R3 (set_pc t (R3 c (Some n0) (Some (nalloc s)))
          (w_nalloc (nalloc s + 1) (w_nextid (nextid s + 1) (w_nid (updN (nid s) (nalloc s) (nextid s))
             (w_g_life (updN (g_life s) (nalloc s) (LFresh t)) s))))) n0 (nalloc s) b) as (s2 & Hst & H1 & H2 & H3 & H4 & H5 & H6 & H7 & H8 & H9).
  { prj. apply upd_same. } { exact Hc. } { exact Hcb. } { exact Hn. }
  prj_in H2. prj_in H3. prj_in H4. prj_in H5. prj_in H6. prj_in H7. prj_in H9.
  eexists. split.
  - unfold ssteps. sstep.
    eapply solo_S; [unfold idle; prj; rewrite upd_same; reflexivity | exact Hst |].
    sstep. apply solo_O.
  - prj. rewrite ?upd_same. prj. rewrite ?H2, ?H3, ?H4, ?H5, ?H6, ?H7, ?H8, ?H9. repeat split; reflexivity.
Qed.

Notation reachable := (reach (init nc) (step ns)).

Lemma ssteps_reach n s s' : ssteps n s s' -> reachable s -> reachable s'.
Proof. induction 1 as [|n s s1 es s' Hi Hst Hs IH]; intros Hr; [exact Hr|]. apply IH. eapply reach_step; eauto. Qed.

Lemma ssteps_app n m s s1 s2 : ssteps n s s1 -> ssteps m s1 s2 -> ssteps (n + m) s s2.
Proof. apply solo_steps_app. Qed.

Lemma uslots_succ e : uslots (e + 1) e = [(e + 1) mod 3].
Proof. unfold uslots. replace (e + 1 - e) with 1 by lia. reflexivity. Qed.

(** one flush operation = one repl on cell c, executed solo *)
Definition solo_op (s s' : state) : Prop :=
  exists s1 n, step ns s (Start t (ORepl c)) = Some (s1, []) /\ ssteps n s1 s' /\ idle s' t = true.

Record Quiet (s : state) (b : N) : Prop := {
  q_reach : reachable s;
  q_idle : th s t = Idle;
  q_cb : cb (tl s t) = Some b;
  q_nest : nest (tl s t) = O;
  q_flags : forall p, In p (blist s) -> bflag s p = false;
  q_cell : exists n0, cells s c = Some n0 }.

Definition Summary (s s' : state) (b : N) : Prop :=
  (forall n, g_where s n = PFreed -> g_where s' n = PFreed) /\
  (forall i n, g_where s n = POrph i -> g_where s' n = POrph i \/ g_where s' n = PFreed) /\
  (forall i n, g_where s n = PList t i -> g_where s' n = PList t i \/ g_where s' n = PFreed) /\
  ( (blocal s b <> gep s /\ gep s' = gep s /\ blocal s' b = gep s /\ ces (tl s' t) = false)
  \/ (blocal s b = gep s /\ ces (tl s t) = false /\ gep s' = gep s /\ blocal s' b = gep s /\ ces (tl s' t) = true)
  \/ (blocal s b = gep s /\ ces (tl s t) = true /\ gep s' = gep s + 1 /\ blocal s' b = gep s + 1 /\ ces (tl s' t) = false /\
      (forall n, g_where s n = POrph ((gep s + 1) mod 3) -> g_where s' n = PFreed) /\
      (forall n, g_where s n = PList t ((gep s + 1) mod 3) -> g_where s' n = PFreed)) ).

(** the published node of the cell is not retired *)
Lemma cell_where s n0 : reachable s -> cells s c = Some n0 -> g_where s n0 = PNone.
Proof.
  intros Hr Hc. pose proof (N0_reach ns nc s Hr) as I. pose proof (n_cell s I c n0 Hc) as L.
  destruct (wh_not_ret _ _ _ (n_where s I n0)) as [W _]; [rewrite L; intros; discriminate|exact W].
Qed.

(** the thread is quiet again after an operation that ran alone and only raised and cleared its own flag *)
Lemma Quiet_back s b s1 n s' : Quiet s b -> step ns s (Start t (ORepl c)) = Some (s1, []) -> ssteps n s1 s' ->
  th s' t = Idle -> cb (tl s' t) = Some b -> nest (tl s' t) = O -> blist s' = blist s ->
  bflag s' = updN (updN (bflag s) b true) b false -> (exists n0, cells s' c = Some n0) -> Quiet s' b.
Proof.
  intros Q Hst Hss Hpc Hcb Hn Hbl Hbf Hc. constructor; try assumption.
  - eapply ssteps_reach; [exact Hss|]. eapply reach_step; [exact (q_reach _ _ Q)|exact Hst].
  - intros p Hp. rewrite Hbl in Hp. rewrite Hbf. destruct (updN_cases (updN (bflag s) b true) b false p) as [[_ ->]|[Hpb ->]]; [reflexivity|].
    rewrite updN_other by exact Hpb. exact (q_flags _ _ Q p Hp).
Qed.

Lemma round s b : Quiet s b -> exists s', solo_op s s' /\ Quiet s' b /\ Summary s s' b.
Proof.
  intros Q. pose proof Q as [Hr Hidle Hcb Hnest Hfl [n0 Hcell]].
  pose proof (cell_where s n0 Hr Hcell) as Hw0.
  pose proof (O0_reach ns nc s Hr) as O. destruct (o_own s O t b Hcb) as [_ Hbin].
  destruct (ph_enter s b n0 Hidle Hcb Hnest Hcell) as (s1 & s2 & Hst & Hs12 & Hpc2 & Htl2 & Hbf2 & Hg2 & Hbl2 & Hlo2 & Hor2 & Hce2 & Hwh2).
  assert (Hcb2 : cb (tl s2 t) = Some b) by (rewrite Htl2; exact Hcb).
  destruct (N.eq_dec (blocal s b) (gep s)) as [Heq|Hne].
  - destruct (ces (tl s t)) eqn:Eces.
    + (* C: a scan is due: it succeeds, the epoch is advanced, the orphans of the new slot and the own list of that slot are freed *)
      pose (s3 := set_pc t (S1 K (gep s)) (set_tl t (wt_ces false (tl s2 t)) s2)).
      assert (Hst3 : step ns s2 (Step t) = Some (s3, [ELoad t (L_blocal b) mo_rlx (VInt (blocal s2 b))])).
      { unfold s3. eapply st_E4c; [exact Hpc2|exact Hcb2|rewrite Hlo2; exact Heq|rewrite Htl2; exact Eces]. }
      destruct (ph_scan s3 (gep s) b) as (k4 & s4 & Hs34 & Hpc4 & Htl4 & Hg4 & Hbl4 & Hbf4 & Hlo4 & Hor4 & Hce4 & Hwh4).
      { unfold s3. prj. apply upd_same. } { unfold s3. prj. rewrite Hbf2. apply updN_same. } { unfold s3. prj. rewrite Hlo2. exact Heq. }
      { unfold s3. prj. intros p Hp. rewrite Hbl2 in Hp. rewrite Hbf2. destruct (N.eq_dec p b) as [->|Hpb]; [left; reflexivity|right].
        rewrite updN_other by exact Hpb. apply Hfl. exact Hp. }
      unfold s3 in Htl4, Hg4, Hbl4, Hbf4, Hlo4, Hor4, Hce4, Hwh4. prj_in Htl4. prj_in Hg4. prj_in Hbl4. prj_in Hbf4. prj_in Hlo4. prj_in Hor4. prj_in Hce4. prj_in Hwh4.
      rewrite !upd_same in Htl4. prj_in Htl4.
      destruct (ph_adv s4 (gep s)) as (k5 & s5 & Hs45 & Hpc5 & Hg5 & Htl5 & Hbl5 & Hbf5 & Hlo5 & Hce5 & Hwh5 & Hor5).
      { exact Hpc4. } { rewrite Hg4. exact Hg2. }
      destruct (ph_upd s5 b (gep s + 1)) as (s6 & Hs56 & Hpc6 & Htl6 & Hg6 & Hbl6 & Hbf6 & Hlo6 & Hce6 & Hor6 & Hwh6).
      { exact Hpc5. } { rewrite Htl5, Htl4. prj. exact Hcb2. }
      assert (Hb5 : blocal s5 b = gep s) by (rewrite Hlo5, Hlo4, Hlo2; exact Heq).
      rewrite Hb5, uslots_succ in Htl6, Hwh6. cbn [is_nil flat_map] in Htl6, Hwh6. rewrite app_nil_r in Hwh6.
      destruct (ph_fin s6 b n0) as (s' & Hs6 & Hpc' & Htl' & Hg' & Hbl' & Hbf' & Hlo' & Hor' & Hce' & Hwh').
      { exact Hpc6. } { rewrite Hce6, Hce5, Hce4, Hce2. exact Hcell. } { rewrite Htl6. prj. rewrite Htl5, Htl4. prj. exact Hcb2. }
      { rewrite Htl6. prj. rewrite Htl5, Htl4. prj. rewrite Htl2. reflexivity. }
      pose proof (N0_reach ns nc s Hr) as I0.
      assert (Hss : ssteps (5 + (1 + (k4 + (k5 + (2 + 3))))) s1 s').
      { eapply ssteps_app; [exact Hs12|]. eapply solo_S; [unfold idle; rewrite Hpc2; reflexivity | exact Hst3 |].
        eapply ssteps_app; [exact Hs34|]. eapply ssteps_app; [exact Hs45|]. eapply ssteps_app; [exact Hs56|exact Hs6]. }
      exists s'. split; [|split].
      * exists s1. eexists. split; [exact Hst|]. split; [exact Hss|unfold idle; rewrite Hpc'; reflexivity].
      * apply (Quiet_back s b s1 _ s' Q Hst Hss Hpc'); [| rewrite Htl'; reflexivity | rewrite Hbl', Hbl6, Hbl5, Hbl4, Hbl2; reflexivity
                                                        | rewrite Hbf', Hbf6, Hbf5, Hbf4, Hbf2; reflexivity | eexists; exact Hce'].
        rewrite Htl', Htl6. prj. rewrite Htl5, Htl4. prj. rewrite Htl2. prj. exact Hcb.
      * unfold Summary. rewrite Hwh', Hg', Hg6, Hg5, Hlo', Hlo6, Htl', Htl6. prj. rewrite ?Htl5, ?Htl4. prj. rewrite ?Htl2. prj.
        assert (Hw5 : forall n, g_where s5 n = if memN n (orph s ((gep s + 1) mod 3)) then PFreed else g_where s n).
        { intros n. rewrite Hwh5, Hor4, Hor2, Hwh4, Hwh2. reflexivity. }
        assert (Hw6 : forall n, g_where s6 n = if memN n (rl (tl s t) ((gep s + 1) mod 3)) then PFreed else g_where s5 n).
        { intros n. rewrite Hwh6, Htl5, Htl4. prj. rewrite Htl2. prj. reflexivity. }
        assert (Hn0 : forall pl n, g_where s6 n <> PNone -> updN (g_where s6) n0 pl n = g_where s6 n).
        { intros pl n Hn. apply updN_other. intros ->. apply Hn. rewrite Hw6, Hw5.
          destruct (memN n0 (rl _ _)) eqn:M1; [exfalso; apply memN_In in M1; apply (n_list s I0 t _ n0) in M1; congruence|].
          destruct (memN n0 (orph _ _)) eqn:M2; [exfalso; apply memN_In in M2; apply (n_orph s I0 _ n0) in M2; congruence|exact Hw0]. }
        assert (Hmono : forall n pl, g_where s n = pl -> pl <> PNone -> g_where s6 n = pl \/ g_where s6 n = PFreed).
        { intros n pl Hn Hpl. rewrite Hw6, Hw5. destruct (memN n (rl _ _)); [right; reflexivity|]. destruct (memN n (orph _ _)); [right; reflexivity|left; exact Hn]. }
        split; [intros n Hn; destruct (Hmono n _ Hn ltac:(discriminate)) as [X|X]; rewrite Hn0; congruence|].
        split; [intros i n Hn; destruct (Hmono n _ Hn ltac:(discriminate)) as [X|X]; rewrite Hn0; [left; exact X|congruence|right; exact X|congruence]|].
        split; [intros i n Hn; destruct (Hmono n _ Hn ltac:(discriminate)) as [X|X]; rewrite Hn0; [left; exact X|congruence|right; exact X|congruence]|].
        right. right. repeat split; try assumption; try reflexivity.
        -- apply updN_same.
        -- intros n Hn. assert (X : g_where s6 n = PFreed).
           { rewrite Hw6, Hw5. destruct (memN n (rl _ _)); [reflexivity|]. apply (n_orph s I0) in Hn. apply memN_In in Hn. rewrite Hn. reflexivity. }
           rewrite Hn0; congruence.
        -- intros n Hn. assert (X : g_where s6 n = PFreed).
           { rewrite Hw6. apply (n_list s I0) in Hn. apply memN_In in Hn. rewrite Hn. reflexivity. }
           rewrite Hn0; congruence.
    + (* B: the epoch is current and no scan is due *)
      pose (s3 := set_pc t (A2 K) (set_tl t (wt_ces true (tl s2 t)) s2)).
      destruct (ph_fin s3 b n0) as (s' & Hs3 & Hpc' & Htl' & Hg' & Hbl' & Hbf' & Hlo' & Hor' & Hce' & Hwh').
      { unfold s3. prj. apply upd_same. } { unfold s3. prj. rewrite Hce2. exact Hcell. }
      { unfold s3. prj. rewrite upd_same. prj. exact Hcb2. } { unfold s3. prj. rewrite upd_same. prj. rewrite Htl2. reflexivity. }
      unfold s3 in *. prj_in Htl'. prj_in Hg'. prj_in Hbl'. prj_in Hbf'. prj_in Hlo'. prj_in Hor'. prj_in Hwh'. rewrite !upd_same in Htl'. prj_in Htl'.
      assert (Hss : ssteps (5 + (1 + 3)) s1 s').
      { eapply ssteps_app; [exact Hs12|]. eapply solo_S; [unfold idle; rewrite Hpc2; reflexivity | eapply st_E4b; [exact Hpc2|exact Hcb2|rewrite Hlo2; exact Heq|rewrite Htl2; exact Eces] | exact Hs3]. }
      exists s'. split; [|split].
      * exists s1. eexists. split; [exact Hst|]. split; [exact Hss|unfold idle; rewrite Hpc'; reflexivity].
      * apply (Quiet_back s b s1 _ s' Q Hst Hss Hpc'); [| rewrite Htl'; reflexivity | rewrite Hbl', Hbl2; reflexivity
                                                        | rewrite Hbf', Hbf2; reflexivity | eexists; exact Hce'].
        rewrite Htl', Htl2. prj. exact Hcb.
      * unfold Summary. rewrite Hwh', Hwh2, Hg', Hg2, Hlo', Hlo2, Htl', Htl2. prj.
        assert (Hn0 : forall pl n, g_where s n <> PNone -> updN (g_where s) n0 pl n = g_where s n).
        { intros pl n Hn. apply updN_other. intros ->. contradiction. }
        split; [intros n Hn; rewrite Hn0; [exact Hn|congruence]|].
        split; [intros i n Hn; rewrite Hn0; [left; exact Hn|congruence]|].
        split; [intros i n Hn; rewrite Hn0; [left; exact Hn|congruence]|].
        right. left. repeat split; try assumption; reflexivity.
  - (* A: the local epoch is behind: update_local_epoch(global epoch) *)
      pose (s3 := set_pc t (U1 K (gep s)) (set_tl t (wt_ces false (tl s2 t)) s2)).
      assert (Hst3 : step ns s2 (Step t) = Some (s3, [ELoad t (L_blocal b) mo_rlx (VInt (blocal s2 b))])).
      { unfold s3. eapply st_E4a; [exact Hpc2|exact Hcb2|rewrite Hlo2; exact Hne]. }
      destruct (ph_upd s3 b (gep s)) as (s4 & Hs34 & Hpc4 & Htl4 & Hg4 & Hbl4 & Hbf4 & Hlo4 & Hce4 & Hor4 & Hwh4).
      { unfold s3. prj. apply upd_same. } { unfold s3. prj. rewrite upd_same. prj. exact Hcb2. }
      unfold s3 in Htl4, Hg4, Hbl4, Hbf4, Hlo4, Hce4, Hor4, Hwh4. prj_in Htl4. prj_in Hg4. prj_in Hbl4. prj_in Hbf4. prj_in Hlo4. prj_in Hce4. prj_in Hor4. prj_in Hwh4.
      rewrite !upd_same in Htl4. prj_in Htl4. rewrite !upd_same in Hwh4. prj_in Hwh4.
      destruct (ph_fin s4 b n0) as (s' & Hs4 & Hpc' & Htl' & Hg' & Hbl' & Hbf' & Hlo' & Hor' & Hce' & Hwh').
      { exact Hpc4. } { rewrite Hce4, Hce2. exact Hcell. } { rewrite Htl4. prj. exact Hcb2. } { rewrite Htl4. prj. rewrite Htl2. reflexivity. }
      assert (Hss : ssteps (5 + (1 + (2 + 3))) s1 s').
      { eapply ssteps_app; [exact Hs12|]. eapply solo_S; [unfold idle; rewrite Hpc2; reflexivity | exact Hst3 |].
        eapply ssteps_app; [exact Hs34|exact Hs4]. }
      exists s'. split; [|split].
      * exists s1. eexists. split; [exact Hst|]. split; [exact Hss|unfold idle; rewrite Hpc'; reflexivity].
      * apply (Quiet_back s b s1 _ s' Q Hst Hss Hpc'); [| rewrite Htl'; reflexivity | rewrite Hbl', Hbl4, Hbl2; reflexivity
                                                        | rewrite Hbf', Hbf4, Hbf2; reflexivity | eexists; exact Hce'].
        rewrite Htl', Htl4, Htl2. prj. exact Hcb.
      * unfold Summary. rewrite Hwh', Hg', Hg4, Hg2, Hlo', Hlo4, Hlo2, Htl', Htl4, Htl2. prj.
        assert (Hn0 : forall pl n, g_where s4 n <> PNone -> updN (g_where s4) n0 pl n = g_where s4 n).
        { intros pl n Hn. apply updN_other. intros ->. apply Hn. rewrite Hwh4.
          destruct (memN n0 _) eqn:M; [|rewrite Hwh2; exact Hw0].
          exfalso. apply memN_In in M. apply in_flat_map in M. destruct M as (i & _ & M). rewrite Htl2 in M. prj_in M.
          apply (n_list s (N0_reach ns nc s Hr) t i n0) in M. congruence. }
        assert (Hmono : forall n pl, g_where s n = pl -> pl <> PNone -> g_where s4 n = pl \/ g_where s4 n = PFreed).
        { intros n pl Hn Hpl. rewrite Hwh4. destruct (memN n _); [right; reflexivity|left; rewrite Hwh2; exact Hn]. }
        split; [intros n Hn; destruct (Hmono n _ Hn ltac:(discriminate)) as [X|X]; rewrite Hn0; congruence|].
        split; [intros i n Hn; destruct (Hmono n _ Hn ltac:(discriminate)) as [X|X]; rewrite Hn0; [left; exact X|congruence|right; exact X|congruence]|].
        split; [intros i n Hn; destruct (Hmono n _ Hn ltac:(discriminate)) as [X|X]; rewrite Hn0; [left; exact X|congruence|right; exact X|congruence]|].
        left. repeat split; try assumption; try reflexivity. apply updN_same.
Qed.

(** [flush k]: k flush operations one after the other, the thread running alone *)
Fixpoint flush (k : nat) (s s' : state) : Prop :=
  match k with O => s' = s | S m => exists s1, solo_op s s1 /\ flush m s1 s' end.

Lemma flush_app k m s s1 s2 : flush k s s1 -> flush m s1 s2 -> flush (k + m) s s2.
Proof. revert s. induction k as [|k IH]; intros s H1 H2; cbn in *; [subst; exact H2|]. destruct H1 as (x & Hx & H1). exists x. split; [exact Hx|]. eapply IH; eauto. Qed.

Definition Keep (s s' : state) : Prop :=
  (forall n, g_where s n = PFreed -> g_where s' n = PFreed) /\
  (forall i n, g_where s n = POrph i -> g_where s' n = POrph i \/ g_where s' n = PFreed) /\
  (forall i n, g_where s n = PList t i -> g_where s' n = PList t i \/ g_where s' n = PFreed).
Definition FreedSlot (j : N) (s s' : state) : Prop :=
  forall n, g_where s n = POrph j \/ g_where s n = PList t j -> g_where s' n = PFreed.

Lemma Keep_refl s : Keep s s.
Proof. repeat split; auto. Qed.
Lemma Keep_trans s1 s2 s3 : Keep s1 s2 -> Keep s2 s3 -> Keep s1 s3.
Proof.
  intros (A1 & A2 & A3) (B1 & B2 & B3). repeat split.
  - auto.
  - intros i n H. destruct (A2 i n H) as [X|X]; [apply B2; exact X|right; apply B1; exact X].
  - intros i n H. destruct (A3 i n H) as [X|X]; [apply B3; exact X|right; apply B1; exact X].
Qed.
(** what was freed (or is about to be) in an earlier part of the flush stays freed *)
Lemma FreedSlot_pre j s1 s2 s3 : Keep s1 s2 -> FreedSlot j s2 s3 -> Keep s2 s3 -> FreedSlot j s1 s3.
Proof.
  intros (A1 & A2 & A3) F (B1 & _). intros n [H|H].
  - destruct (A2 j n H) as [X|X]; [apply F; left; exact X|apply B1; exact X].
  - destruct (A3 j n H) as [X|X]; [apply F; right; exact X|apply B1; exact X].
Qed.
Lemma FreedSlot_post j s1 s2 s3 : FreedSlot j s1 s2 -> Keep s2 s3 -> FreedSlot j s1 s3.
Proof. intros F (B1 & _) n H. apply B1. apply F. exact H. Qed.

Lemma Summary_Keep s s' b : Summary s s' b -> Keep s s'.
Proof. intros (A1 & A2 & A3 & _). repeat split; assumption. Qed.

(** two operations from a state whose local epoch is current and where no scan is due: the second one scans, advances the epoch and frees slot (e+1) mod 3 *)
Lemma pairB s b : Quiet s b -> blocal s b = gep s -> ces (tl s t) = false ->
  exists s2, flush 2 s s2 /\ Quiet s2 b /\ blocal s2 b = gep s2 /\ ces (tl s2 t) = false /\ gep s2 = gep s + 1 /\
    Keep s s2 /\ FreedSlot ((gep s + 1) mod 3) s s2.
Proof.
  intros Q Hl Hc.
  destruct (round s b Q) as (s1 & Ho1 & Q1 & S1). pose proof (Summary_Keep _ _ _ S1) as K1.
  destruct S1 as (_ & _ & _ & [(X & _)|[(_ & _ & Hg1 & Hl1 & Hc1)|(_ & X & _)]]); [contradiction| |congruence].
  destruct (round s1 b Q1) as (s2 & Ho2 & Q2 & S2). pose proof (Summary_Keep _ _ _ S2) as K2.
  destruct S2 as (_ & _ & _ & [(X & _)|[(_ & X & _)|(_ & _ & Hg2 & Hl2 & Hc2 & F1 & F2)]]); [rewrite Hl1, Hg1 in X; contradiction|congruence|].
  exists s2. split; [exists s1; split; [exact Ho1|exists s2; split; [exact Ho2|reflexivity]]|].
  split; [exact Q2|]. rewrite Hg1 in *.
  split; [congruence|]. split; [exact Hc2|]. split; [exact Hg2|]. split; [eapply Keep_trans; eauto|].
  assert (F : FreedSlot ((gep s + 1) mod 3) s1 s2) by (intros n [H|H]; [apply F1|apply F2]; exact H).
  exact (FreedSlot_pre _ _ _ _ K1 F K2).
Qed.

Lemma residues e i : i < 3 -> i = (e + 1) mod 3 \/ i = (e + 2) mod 3 \/ i = (e + 3) mod 3.
Proof.
  intros Hi. rewrite (N.add_mod e 1 3), (N.add_mod e 2 3), (N.add_mod e 3 3) by discriminate.
  pose proof (N.mod_lt e 3 ltac:(discriminate)) as H. set (m := e mod 3) in *.
  assert (Hm : m = 0 \/ m = 1 \/ m = 2) by lia. assert (Hi' : i = 0 \/ i = 1 \/ i = 2) by lia.
  destruct Hm as [-> | [-> | ->]], Hi' as [-> | [-> | ->]]; cbn; auto.
Qed.

Lemma tripleB s b : Quiet s b -> blocal s b = gep s -> ces (tl s t) = false ->
  exists s6, flush 6 s s6 /\ Quiet s6 b /\ blocal s6 b = gep s6 /\ ces (tl s6 t) = false /\ Keep s s6 /\
    FreedSlot ((gep s + 1) mod 3) s s6 /\ FreedSlot ((gep s + 2) mod 3) s s6 /\ FreedSlot ((gep s + 3) mod 3) s s6.
Proof.
  intros Q Hl Hc.
  destruct (pairB s b Q Hl Hc) as (s2 & Hf2 & Q2 & Hl2 & Hc2 & Hg2 & K2 & F2).
  destruct (pairB s2 b Q2 Hl2 Hc2) as (s4 & Hf4 & Q4 & Hl4 & Hc4 & Hg4 & K4 & F4).
  destruct (pairB s4 b Q4 Hl4 Hc4) as (s6 & Hf6 & Q6 & Hl6 & Hc6 & Hg6 & K6 & F6).
  exists s6. split; [exact (flush_app 2 4 _ _ _ Hf2 (flush_app 2 2 _ _ _ Hf4 Hf6))|].
  split; [exact Q6|]. split; [exact Hl6|]. split; [exact Hc6|].
  pose proof (Keep_trans _ _ _ K2 K4) as K24. pose proof (Keep_trans _ _ _ K4 K6) as K46.
  split; [exact (Keep_trans _ _ _ K24 K6)|]. split; [|split].
  - exact (FreedSlot_post _ _ _ _ F2 K46).
  - replace (gep s + 2) with (gep s2 + 1) by lia. exact (FreedSlot_post _ _ _ _ (FreedSlot_pre _ _ _ _ K2 F4 K4) K6).
  - replace (gep s + 3) with (gep s4 + 1) by lia. exact (FreedSlot_pre _ _ _ _ K24 F6 K6).
Qed.

(** [ebr_no_leak_at_quiescence] (C02, the liveness half as a bounded solo run): in a reachable state in which thread t is
    between operations and holds no guard and no thread is inside a critical region (every control block of the list has
    is_in_critical_region = false), SEVEN flush operations of t - each one acquires a guard on cell c (entering a critical
    region), replaces the node and retires the old one, exactly what the teardown of harness/h_recl.cpp does - free every
    node that sits in an orphan list or in a retire list of t (and keep freed what was freed).  Seven = one operation to
    catch up with the global epoch, then three times (one operation without scan, one with scan that advances the epoch):
    the scan frequency of the harness configuration is 1.  Every operation finishes when the thread runs alone. *)
Theorem ebr_no_leak_at_quiescence s b : Quiet s b ->
  exists s', flush 7 s s' /\ Quiet s' b /\
    forall n, (g_where s n = PFreed \/ exists i, g_where s n = POrph i \/ g_where s n = PList t i) -> g_where s' n = PFreed.
Proof.
  intros Q.
  assert (Hall : forall s', Keep s s' -> FreedSlot ((gep s + 1) mod 3) s s' -> FreedSlot ((gep s + 2) mod 3) s s' -> FreedSlot ((gep s + 3) mod 3) s s' ->
                 forall n, (g_where s n = PFreed \/ exists i, g_where s n = POrph i \/ g_where s n = PList t i) -> g_where s' n = PFreed).
  { intros s' (K1 & _) F1 F2 F3 n [H|(i & H)]; [apply K1; exact H|].
    assert (Hi : i < 3).
    { destruct (wh_ret_some _ _ _ (n_where s (N0_reach ns nc s (q_reach _ _ Q)) n)) as (t' & r & L); [destruct H as [H|H]; rewrite H; discriminate|].
      pose proof (tag_reach ns nc s (q_reach _ _ Q) n t' r L) as G.
      destruct H as [H|H]; rewrite H in G; [destruct G as (<- & _)|destruct G as (e & _ & <- & _)]; apply N.mod_lt; discriminate. }
    destruct (residues (gep s) i Hi) as [-> | [-> | ->]]; [apply F1|apply F2|apply F3]; exact H. }
  destruct (round s b Q) as (s1 & Ho1 & Q1 & S1). pose proof (Summary_Keep _ _ _ S1) as K1.
  destruct S1 as (_ & _ & _ & [(Hne & Hg1 & Hl1 & Hc1)|[(Hl & Hc & Hg1 & Hl1 & Hc1)|(Hl & Hc & Hg1 & Hl1 & Hc1 & F1 & F2)]]).
  - (* the local epoch was behind *)
    destruct (tripleB s1 b Q1 ltac:(congruence) Hc1) as (s7 & Hf & Q7 & _ & _ & K7 & G1 & G2 & G3).
    exists s7. split; [exists s1; split; [exact Ho1|exact Hf]|]. split; [exact Q7|].
    rewrite Hg1 in G1, G2, G3. apply Hall; [exact (Keep_trans _ _ _ K1 K7)| | |]; eapply FreedSlot_pre; eauto using Keep_refl.
    all: eapply Keep_refl.
  - (* current, no scan due: three pairs, and one more operation *)
    destruct (tripleB s b Q Hl Hc) as (s6 & Hf & Q6 & _ & _ & K6 & G1 & G2 & G3).
    destruct (round s6 b Q6) as (s7 & Ho7 & Q7 & S7). pose proof (Summary_Keep _ _ _ S7) as K7.
    exists s7. split; [exact (flush_app 6 1 _ _ _ Hf (ex_intro _ s7 (conj Ho7 eq_refl)))|]. split; [exact Q7|].
    apply Hall; [exact (Keep_trans _ _ _ K6 K7)| | |]; eapply FreedSlot_post; eauto.
  - (* current, scan due: this operation advances; two pairs; one more pair *)
    assert (F : FreedSlot ((gep s + 1) mod 3) s s1) by (intros n [H|H]; [apply F1|apply F2]; exact H).
    destruct (pairB s1 b Q1 ltac:(congruence) Hc1) as (s3 & Hf3 & Q3 & Hl3 & Hc3 & Hg3 & K3 & F3).
    destruct (pairB s3 b Q3 Hl3 Hc3) as (s5 & Hf5 & Q5 & Hl5 & Hc5 & Hg5 & K5 & F5).
    destruct (pairB s5 b Q5 Hl5 Hc5) as (s7 & Hf7 & Q7 & _ & _ & _ & K7 & _).
    exists s7. split; [exists s1; split; [exact Ho1|exact (flush_app 2 4 _ _ _ Hf3 (flush_app 2 2 _ _ _ Hf5 Hf7))]|]. split; [exact Q7|].
    pose proof (Keep_trans _ _ _ K1 K3) as K13. pose proof (Keep_trans _ _ _ K5 K7) as K57. pose proof (Keep_trans _ _ _ K3 K57) as K37.
    apply Hall; [exact (Keep_trans _ _ _ K13 K57)| | |].
    + exact (FreedSlot_post _ _ _ _ F K37).
    + replace (gep s + 2) with (gep s1 + 1) by lia. exact (FreedSlot_post _ _ _ _ (FreedSlot_pre _ _ _ _ K1 F3 K3) K57).
    + replace (gep s + 3) with (gep s3 + 1) by lia. exact (FreedSlot_post _ _ _ _ (FreedSlot_pre _ _ _ _ K13 F5 K5) K7).
Qed.
End Flush.
