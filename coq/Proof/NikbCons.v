(** nikolaev_bounded_queue model: the conservation and order theorems derived from the invariant layers
    (Proof/NikbWf.v, NikbOwn.v, NikbVal.v, NikbSafe.v).  Everything is stated for capacity 2^k (k <= 40), any
    pop_retries R, any number of threads, any schedule (sequentially consistent interleavings), for states
    in which no counter has wrapped ([g_ovf st = false]: head / tail below 2^62, thresholds above -2^62). *)
From Coq Require Import NArith List Bool Lia PeanoNat Permutation.
From XV Require Import Base.Word Conc.Lts Conc.Ev gen.ScqGen Proof.ScqIndex Model.NikbDefs
  Proof.NikbArith Proof.NikbBase Proof.NikbWf Proof.NikbOwn Proof.NikbVal Proof.NikbSafe.
Import ListNotations.
Local Open Scope N_scope.

Set Default Proof Using "All".
Section Cons.
  Variable k R : N.
  Hypothesis Hk : k <= 40.
  Notation cap := (2 ^ k).
  Notation step := (step cap R).
  Notation Inv1 := (Inv1 k).
  Notation Inv2 := (Inv2 k).
  Notation Inv3 := (Inv3 k).
  Notation slot := (slot k).
  Notation eidx := (eidx k).
  Notation ecyc := (ecyc k).

  (** * every dequeue ticket below head has been handed out (used below for [nikb_published_fate]; nikolaev_queue takes it
      as a conjunct of its ring invariant, Proof/NikqRing.v) *)
  Definition A3 (st : state) : Prop := forall q H, 2 * H + 2 <= rhead (rg st q) -> g_dq (rg st q) H <> DNone.

  Lemma A3_step s a s' es : Inv1 s -> A3 s -> step s a = Some (s', es) -> g_ovf s' = false -> A3 s'.
  Proof.
    intros H1 HA Hst Hov. pose proof H1 as [HW HT1].
    unfold NikbDefs.step, step_gen in Hst. destruct a as [t o|t].
    - destruct (th s t) eqn:E; try discriminate. inversion Hst; subst; clear Hst. exact HA.
    - pc_cases (th s t); try discriminate.
      all: try (destruct (HW q) as ([Hh2 Hhlt] & _)).
      all: unfold mark_left, mark_skip in Hst.
      all: repeat match type of Hst with context [if ?c then _ else _] => destruct c end.
      all: try destruct q.
      all: injection Hst as <- <-; sim.
      all: try exact HA.
      all: intros q' H; destruct q'; sim; try apply HA.
      all: try rewrite (wadd2_small _ Hhlt).
      all: unfold setf; match goal with |- context [if ?a =? ?b then _ else _] => destruct (N.eqb_spec a b) as [Heq|Hneq] end.
      all: try (intros; discriminate).
      all: try apply HA.
      all: intros Hle; apply HA; lia.
  Qed.

  Lemma A3_reach s : reach (init cap) step s -> g_ovf s = false -> A3 s.
  Proof.
    intros Hr. induction Hr as [|s a s' es Hr IH Hst]; intros Hov.
    - intros q H. destruct q; cbn [init rgs rhead]; lia.
    - eapply A3_step; [|apply IH; eapply ovf_sticky; eauto|exact Hst|exact Hov].
      apply (Inv123_reach k R Hk); [exact Hr|eapply ovf_sticky; eauto].
  Qed.

  (** reachable and no counter wrapped: the hypothesis of every theorem below and of Proof/NikbSolo.v *)
  Definition good (s : state) : Prop := reach (init cap) step s /\ g_ovf s = false.

  Lemma good_inv s : good s -> Inv1 s /\ Inv2 s /\ Inv3 s /\ A3 s.
  Proof. intros [Hr Ho]. destruct (Inv123_reach k R Hk s Hr Ho) as (A & B & C). ssplit; try assumption. apply A3_reach; assumption. Qed.

  Lemma good_inv4 s : good s -> Inv4 k s.
  Proof. intros [Hr Ho]. apply (Inv4_reach k R Hk s Hr Ho). Qed.

  (** * no stranding (the repaired code): an index is never published with a ticket whose dequeue ticket was given up *)
  Theorem nikb_never_stranded s q T : good s -> ~ stranded (rg s q) T.
  Proof. intros Hg (i & Hp & Hl). apply (i4ns k s (good_inv4 s Hg) q T i Hl Hp). Qed.

  (** so a published index has been taken, or an operation in progress holds its dequeue ticket inside its do-loop, or
      it is still in its slot and its dequeue ticket has not been handed out yet (head <= ticket: a future dequeue
      ticket will reach it) *)
  Theorem nikb_published_fate s q T i : good s -> g_eq (rg s q) T = EPub i ->
    g_dq (rg s q) T = DTaken i \/
    (exists u, g_dq (rg s q) T = DHeld u /\ dtk (th s u) = Some (q, 2 * T)) \/
    (g_dq (rg s q) T = DNone /\ rhead (rg s q) <= 2 * T /\ eidx (slot s q T) = i /\ ecyc (slot s q T) = T / nn cap).
  Proof.
    intros Hg Hp. destruct (good_inv s Hg) as ([HW _] & (HR & _) & _ & HA3). destruct (HR q) as [_ _ c1 _ _ _ _ s5 s6].
    destruct (g_dq (rg s q) T) as [|u|j|] eqn:E.
    - right. right. destruct (s5 T i Hp) as [_ [Ht|(_ & X & Y)]]; [rewrite E in Ht; discriminate|].
      ssplit; [reflexivity| |exact X|exact Y]. destruct (HW q) as ([Hh2 _] & _).
      destruct (N.le_gt_cases (rhead (rg s q)) (2 * T)) as [Hle|Hgt]; [exact Hle|exfalso].
      apply (HA3 q T); [lia|exact E].
    - right. left. exists u. split; [reflexivity|apply c1; exact E].
    - left. specialize (s6 T j E). rewrite Hp in s6. inversion s6. reflexivity.
    - exfalso. apply (nikb_never_stranded s q T Hg). exists i. split; assumption.
  Qed.

  (** * index conservation *)

  (** where index i is: [g_own] is right *)
  Theorem nikb_index_place s i : good s -> i < cap ->
    match g_own s i with
    | OFree T => 2 * T < 2 ^ 62 /\ eidx (slot s RF T) = i /\ ecyc (slot s RF T) = T / nn cap /\
                 g_eq (rf s) T = EPub i /\ (forall j, g_dq (rf s) T <> DTaken j)
    | OFull T => 2 * T < 2 ^ 62 /\ eidx (slot s RA T) = i /\ ecyc (slot s RA T) = T / nn cap /\
                 g_eq (ra s) T = EPub i /\ (forall j, g_dq (ra s) T <> DTaken j)
    | OWrite t => hidx (th s t) = Some (RA, i)
    | ORead t => hidx (th s t) = Some (RF, i)
    end.
  Proof.
    intros Hg Hi. destruct (good_inv s Hg) as (I1 & (HR & HT & HO) & I3 & _).
    destruct (g_own s i) as [T|t|T|t] eqn:E.
    - destruct (HR RF) as [_ _ _ _ s2 _ s4 _ _]. destruct (s4 i T Hi E) as (X & Y & Z).
      assert (Y' : eidx (slot s RF T) < cap) by (rewrite Y; exact Hi).
      destruct (s2 T X Y' Z) as (P & _ & Q). rewrite Y in P. ssplit; assumption.
    - apply (HO i t RA). exact E.
    - destruct (HR RA) as [_ _ _ _ s2 _ s4 _ _]. destruct (s4 i T Hi E) as (X & Y & Z).
      assert (Y' : eidx (slot s RA T) < cap) by (rewrite Y; exact Hi).
      destruct (s2 T X Y' Z) as (P & _ & Q). rewrite Y in P. ssplit; assumption.
    - apply (HO i t RF). exact E.
  Qed.

  (** and nothing else holds i: every slot that contains i (for the ticket of its cycle) and every thread that
      holds i is the recorded place *)
  Theorem nikb_slot_owner s q T : good s -> 2 * T < 2 ^ 62 ->
    eidx (slot s q T) < cap -> ecyc (slot s q T) = T / nn cap -> g_own s (eidx (slot s q T)) = inring q T.
  Proof.
    intros Hg HT Hi Hc. destruct (good_inv s Hg) as (I1 & (HR & _) & _). destruct (HR q) as [_ _ _ _ s2 _ _ _ _].
    apply (s2 T HT Hi Hc).
  Qed.

  Theorem nikb_holder_owner s t q i : good s -> hidx (th s t) = Some (q, i) -> g_own s i = held q t /\ i < cap.
  Proof.
    intros Hg Hh. destruct (good_inv s Hg) as (I1 & (_ & HT & _) & _). destruct (HT t) as (_ & _ & C & _). apply C. exact Hh.
  Qed.

  (** no two threads access the same storage cell: the cell of index i is written / read only by the thread at
      an enqueue program point carrying i ([hidx]), and that thread is unique *)
  Theorem nikb_exclusive_cell s t1 t2 q1 q2 i : good s ->
    hidx (th s t1) = Some (q1, i) -> hidx (th s t2) = Some (q2, i) -> t1 = t2 /\ q1 = q2.
  Proof.
    intros Hg H1 H2. destruct (nikb_holder_owner s t1 q1 i Hg H1) as [A _]. destruct (nikb_holder_owner s t2 q2 i Hg H2) as [B _].
    rewrite A in B. apply held_inj in B. tauto.
  Qed.

  (** an index held by a thread is in no slot; an index is in at most one slot of the two rings *)
  Theorem nikb_held_not_in_ring s t q i q' T : good s -> hidx (th s t) = Some (q, i) -> 2 * T < 2 ^ 62 ->
    ecyc (slot s q' T) = T / nn cap -> eidx (slot s q' T) <> i.
  Proof.
    intros Hg Hh HT Hc He. destruct (nikb_holder_owner s t q i Hg Hh) as [A Hi].
    assert (B := nikb_slot_owner s q' T Hg HT ltac:(rewrite He; exact Hi) Hc). rewrite He, A in B.
    symmetry in B. apply (inring_held _ _ _ _ B).
  Qed.

  Theorem nikb_one_slot s q T q' T' : good s -> 2 * T < 2 ^ 62 -> 2 * T' < 2 ^ 62 ->
    eidx (slot s q T) < cap -> ecyc (slot s q T) = T / nn cap -> ecyc (slot s q' T') = T' / nn cap ->
    eidx (slot s q' T') = eidx (slot s q T) -> q' = q /\ T' = T.
  Proof.
    intros Hg HT HT' Hi Hc Hc' He.
    assert (A := nikb_slot_owner s q T Hg HT Hi Hc).
    assert (B := nikb_slot_owner s q' T' Hg HT' ltac:(rewrite He; exact Hi) Hc'). rewrite He, A in B.
    apply inring_inj in B. destruct B; split; congruence.
  Qed.

  (** physical form: every entry of a ring's array that holds an index is the slot of exactly one ticket *)
  Lemma phys_surj j : j < nn cap -> exists p, p < nn cap /\ phys cap (2 * p) = j.
  Proof.
    intros Hj. rewrite (nn_eq k Hk) in *. destruct (remap_index_surj (k + 1) j ltac:(lia) Hj) as (p & Hp & E).
    exists p. split; [exact Hp|]. unfold phys. rewrite (shift_eq k Hk), (nn_eq k Hk). exact E.
  Qed.

  Theorem nikb_array_entry_owner s q j : good s -> j < nn cap -> eidx (rdata (rg s q) j) < cap ->
    exists T, 2 * T < 2 ^ 62 /\ phys cap (2 * T) = j /\ g_own s (eidx (rdata (rg s q) j)) = inring q T.
  Proof.
    intros Hg Hj Hi. destruct (good_inv s Hg) as ([HW _] & _). destruct (HW q) as (_ & _ & _ & Hd).
    destruct (phys_surj j Hj) as (p & Hp & Ep). set (e := rdata (rg s q) j) in *.
    assert (Hc : ecyc e < CB k).
    { destruct (Hd j) as [[Hc|[_ Hb]] _]; [exact Hc|]. fold e in Hb. exfalso. apply (lt_cap_ne_bot k R Hk _ Hi Hb). }
    assert (Hn := nn_pos k Hk). assert (HM := M_CB k Hk).
    set (T := ecyc e * nn cap + p).
    assert (HT : 2 * T < 2 ^ 62) by (unfold T; nia).
    assert (Hdiv : T / nn cap = ecyc e) by (unfold T; rewrite N.div_add_l by lia; rewrite N.div_small by exact Hp; lia).
    assert (Hmod : T mod nn cap = p) by (unfold T; rewrite N.add_comm, N.mod_add by lia; apply N.mod_small; exact Hp).
    assert (Hph : phys cap (2 * T) = j) by (rewrite (phys_tick k Hk), Hmod; exact Ep).
    exists T. ssplit; [exact HT|exact Hph|].
    assert (Hsl : slot s q T = e) by (unfold NikbOwn.slot; rewrite Hph; reflexivity).
    rewrite <- Hsl. apply nikb_slot_owner; [exact Hg|exact HT|rewrite Hsl; exact Hi|rewrite Hsl; symmetry; exact Hdiv].
  Qed.

  Theorem nikb_array_no_duplicate s q j q' j' : good s -> j < nn cap -> j' < nn cap ->
    eidx (rdata (rg s q) j) < cap -> eidx (rdata (rg s q') j') = eidx (rdata (rg s q) j) -> q' = q /\ j' = j.
  Proof.
    intros Hg Hj Hj' Hi He.
    destruct (nikb_array_entry_owner s q j Hg Hj Hi) as (T & _ & Hp & Ho).
    destruct (nikb_array_entry_owner s q' j' Hg Hj' ltac:(rewrite He; exact Hi)) as (T' & _ & Hp' & Ho').
    rewrite He, Ho in Ho'. apply inring_inj in Ho'. destruct Ho' as [-> ->]. split; [reflexivity|congruence].
  Qed.

  (** * values *)
  Theorem nikb_values s : good s ->
    NoDup (map fst (g_in s)) /\ NoDup (map fst (g_out s)) /\ incl (g_out s) (g_in s) /\
    NoDup (map fst (g_ok s)) /\ incl (g_ok s) (g_in s) /\
    NoDup (map fst (g_ret s)) /\ incl (g_ret s) (g_out s).
  Proof.
    intros Hg. destruct (good_inv s Hg) as (_ & _ & I3 & _). destruct I3.
    ssplit; try assumption.
    - intros [H v] Hx. apply (v3 H v Hx).
    - intros [H v] Hx. apply (vok H v Hx).
    - intros [H v] Hx. apply (vret H v Hx).
  Qed.

  Lemma nodup_key_eq (l : list (N * N)) a v w : NoDup (map fst l) -> In (a, v) l -> In (a, w) l -> v = w.
  Proof.
    induction l as [|[a' v'] l IH]; cbn [map fst In]; intros Hn H1 H2; [contradiction|].
    inversion Hn as [|? ? Hni Hn']; subst.
    destruct H1 as [H1|H1], H2 as [H2|H2].
    - congruence.
    - inversion H1; subst. exfalso. apply Hni. apply in_map_iff. exists (a, w). split; [reflexivity|exact H2].
    - inversion H2; subst. exfalso. apply Hni. apply in_map_iff. exists (a, v). split; [reflexivity|exact H1].
    - apply IH; assumption.
  Qed.

  (** a published value has been taken out or is still in the cell whose index is in the allocated ring;
      a value in the allocated ring was published and has not been taken *)
  Theorem nikb_published_taken_or_in_ring s T v : good s -> In (T, v) (g_in s) ->
    In (T, v) (g_out s) \/ exists i, i < cap /\ g_own s i = OFull T /\ store s i = v.
  Proof.
    intros Hg Hin. destruct (good_inv s Hg) as (I1 & (HR & _) & I3 & _). destruct I3.
    destruct (v2 T v Hin) as [i Hp]. destruct (HR RA) as [_ a2 _ _ s2 _ _ s5 _].
    destruct (s5 T i Hp) as [Hi [Ht|(Hnt & Hsi & Hsc)]].
    - left. destruct (v4 T i Ht) as [w Hw]. destruct (v3 T w Hw) as [Hw' _].
      rewrite (nodup_key_eq _ T v w v2n Hin Hw'). exact Hw.
    - right. exists i. assert (HT : 2 * T < 2 ^ 62).
      { assert (Hne : g_eq (ra s) T <> ENone) by (rewrite Hp; discriminate). specialize (a2 T Hne).
        destruct I1 as [HW _]. destruct (HW RA) as (_ & [_ Hlt] & _). lia. }
      destruct (s2 T HT ltac:(rewrite Hsi; exact Hi) Hsc) as (_ & Ho & _). rewrite Hsi in Ho. cbn [inring] in Ho.
      ssplit; [exact Hi|exact Ho|]. apply (nodup_key_eq _ T _ _ v2n); [apply v1; assumption|exact Hin].
  Qed.

  Theorem nikb_in_ring_published s i T : good s -> i < cap -> g_own s i = OFull T ->
    In (T, store s i) (g_in s) /\ forall v, ~ In (T, v) (g_out s).
  Proof.
    intros Hg Hi Ho. destruct (good_inv s Hg) as (I1 & I2 & I3 & _). destruct I3.
    split; [apply v1; assumption|]. intros v Hin. destruct (v3 T v Hin) as [_ [j Hj]].
    pose proof (nikb_index_place s i Hg Hi) as Hp. rewrite Ho in Hp. destruct Hp as (_ & _ & _ & _ & Hnt). apply (Hnt j Hj).
  Qed.

  (** the same as one equation between multisets, in EVERY state: what was published = what was taken + what is in
      the cells whose index is in the allocated ring (listed with their tickets, i.e. their ring order) *)
  Definition ring_pairs (s : state) : list (N * N) :=
    flat_map (fun i => match g_own s (N.of_nat i) with OFull T => [(T, store s (N.of_nat i))] | _ => [] end) (seq 0 (N.to_nat cap)).

  Lemma in_ring_pairs s T v : In (T, v) (ring_pairs s) <-> exists i, i < cap /\ g_own s i = OFull T /\ store s i = v.
  Proof.
    unfold ring_pairs. rewrite in_flat_map. split.
    - intros (j & Hj & Hin). apply in_seq in Hj. exists (N.of_nat j). split; [lia|].
      destruct (g_own s (N.of_nat j)) as [T'|t|T'|t]; try contradiction. destruct Hin as [Hin|[]]. inversion Hin; subst. split; reflexivity.
    - intros (i & Hi & Ho & Hv). exists (N.to_nat i). split; [apply in_seq; lia|]. rewrite N2Nat.id, Ho. left. rewrite Hv. reflexivity.
  Qed.

  Lemma nodup_pairs_of_keys (l : list (N * N)) : NoDup (map fst l) -> NoDup l.
  Proof. apply NoDup_map_inv. Qed.

  Lemma NoDup_app_aux {A} (l1 l2 : list A) : NoDup l1 -> NoDup l2 -> (forall x, In x l1 -> In x l2 -> False) -> NoDup (l1 ++ l2).
  Proof.
    induction l1 as [|a l1 IH]; intros H1 H2 Hd; cbn [app]; [exact H2|]. inversion H1 as [|? ? Hni H1']; subst. constructor.
    - rewrite in_app_iff. intros [Hx|Hx]; [contradiction|]. apply (Hd a); [left; reflexivity|exact Hx].
    - apply IH; [exact H1'|exact H2|]. intros x Hx Hy. apply (Hd x); [right; exact Hx|exact Hy].
  Qed.

  Lemma nodup_flat_map_single {A} (f : A -> list (N * N)) (l : list A) :
    NoDup l -> (forall a, In a l -> NoDup (f a)) ->
    (forall a b x, In a l -> In b l -> In x (f a) -> In x (f b) -> a = b) -> NoDup (flat_map f l).
  Proof.
    induction l as [|a l IH]; intros Hn Hf Hd; cbn [flat_map]; [constructor|]. inversion Hn as [|? ? Hni Hn']; subst.
    apply NoDup_app_aux.
    - apply Hf. left. reflexivity.
    - apply IH; [exact Hn'|intros b Hb; apply Hf; right; exact Hb|intros b c x Hb Hc; apply Hd; right; assumption].
    - intros x Hx Hy. apply in_flat_map in Hy. destruct Hy as (b & Hb & Hxb).
      assert (a = b) by (apply (Hd a b x); [left; reflexivity|right; exact Hb|exact Hx|exact Hxb]). subst b. contradiction.
  Qed.

  Theorem nikb_published_eq_taken_plus_ring s : good s -> Permutation (g_in s) (g_out s ++ ring_pairs s).
  Proof.
    intros Hg. destruct (nikb_values s Hg) as (N1 & N2 & I1 & _).
    apply NoDup_Permutation.
    - apply nodup_pairs_of_keys. exact N1.
    - apply NoDup_app_aux.
      + apply nodup_pairs_of_keys. exact N2.
      + unfold ring_pairs. apply nodup_flat_map_single; [apply seq_NoDup| |].
        * intros j _. destruct (g_own s (N.of_nat j)); try constructor; [intros []|constructor].
        * intros a b [T v] Ha Hb Hxa Hxb. apply in_seq in Ha. apply in_seq in Hb.
          destruct (g_own s (N.of_nat a)) as [Ta|ta|Ta|ta] eqn:Ea; try contradiction.
          destruct (g_own s (N.of_nat b)) as [Tb|tb|Tb|tb] eqn:Eb; try contradiction.
          destruct Hxa as [Hxa|[]]. destruct Hxb as [Hxb|[]]. inversion Hxa; subst. inversion Hxb; subst.
          pose proof (nikb_index_place s (N.of_nat a) Hg ltac:(lia)) as Pa. rewrite Ea in Pa.
          pose proof (nikb_index_place s (N.of_nat b) Hg ltac:(lia)) as Pb. rewrite Eb in Pb.
          destruct Pa as (_ & Pa & _). destruct Pb as (_ & Pb & _). rewrite Pa in Pb. lia.
      + intros [T v] Hout Hring. apply in_ring_pairs in Hring. destruct Hring as (i & Hi & Ho & _).
        destruct (nikb_in_ring_published s i T Hg Hi Ho) as [_ Hn]. apply (Hn v Hout).
    - intros [T v]. rewrite in_app_iff, in_ring_pairs. split.
      + intros Hin. apply (nikb_published_taken_or_in_ring s T v Hg Hin).
      + intros [Hout|(i & Hi & Ho & Hv)]; [apply I1; exact Hout|]. subst v. apply (nikb_in_ring_published s i T Hg Hi Ho).
  Qed.

  (** * FIFO: ticket order of the allocated ring *)

  (** what a try_pop takes with ticket H is what a try_push published with ticket H; tickets are unique *)
  Theorem nikb_fifo_by_ticket s H v : good s -> In (H, v) (g_out s) ->
    In (H, v) (g_in s) /\ (forall w, In (H, w) (g_in s) -> w = v) /\ (forall w, In (H, w) (g_out s) -> w = v).
  Proof.
    intros Hg Hin. destruct (nikb_values s Hg) as (N1 & N2 & I1 & _). pose proof (I1 _ Hin) as Hi.
    ssplit; [exact Hi| |]; intros w Hw; [apply (nodup_key_eq _ H w v N1 Hw Hi)|apply (nodup_key_eq _ H w v N2 Hw Hin)].
  Qed.

  (** no overtaking: when the value of ticket T2 has been taken, every published value with a smaller ticket T1 has
      been taken or is being taken (a try_pop in progress holds dequeue ticket T1 and is inside the do-loop) *)
  Theorem nikb_fifo_order s T1 v1 T2 v2 : good s -> In (T1, v1) (g_in s) -> In (T2, v2) (g_out s) -> T1 < T2 ->
    In (T1, v1) (g_out s) \/
    (exists u, g_dq (ra s) T1 = DHeld u /\ dtk (th s u) = Some (RA, 2 * T1)).
  Proof.
    intros Hg Hin Hout Hlt. destruct (good_inv s Hg) as (I1 & (HR & _) & I3 & HA3). destruct I3 as [i1 i2 i2n i3 i3n i4 iok iokn iret iretn ib1 ib2 it_].
    destruct (i3 T2 v2 Hout) as [_ [j2 Ht2]]. destruct (HR RA) as [a1 _ _ _ _ _ _ _ _].
    assert (Hh : 2 * T2 + 2 <= rhead (ra s)) by (apply a1; rewrite Ht2; discriminate).
    destruct (i2 T1 v1 Hin) as [i Hp].
    destruct (nikb_published_fate s RA T1 i Hg Hp) as [E|[Hh'|(_ & Hle & _)]]; [left|right; exact Hh'|lia].
    destruct (i4 T1 i E) as [w Hw]. destruct (i3 T1 w Hw) as [Hw' _].
    rewrite (nodup_key_eq _ T1 v1 w i2n Hin Hw'). exact Hw.
  Qed.

  (** tickets respect real time: everything published is below tail, everything taken is below head, so an
      operation that starts later obtains a larger ticket *)
  Theorem nikb_ticket_below_counter s : good s ->
    (forall T v, In (T, v) (g_in s) -> 2 * T + 2 <= rtail (ra s)) /\
    (forall H v, In (H, v) (g_out s) -> 2 * H + 2 <= rhead (ra s)).
  Proof.
    intros Hg. destruct (good_inv s Hg) as (I1 & (HR & _) & I3 & _). destruct I3. destruct (HR RA) as [a1 a2 _ _ _ _ _ _ _].
    split.
    - intros T v Hin. destruct (v2 T v Hin) as [i Hi]. apply a2. rewrite Hi. discriminate.
    - intros H v Hin. destruct (v3 H v Hin) as [_ [i Hi]]. apply a1. rewrite Hi. discriminate.
  Qed.

  (** * verdicts *)

  (** where a failing answer comes from: 'full' ([0]) is the failure of the dequeue on the free ring, 'empty'
      ([3]) the failure of the dequeue on the allocated ring; a dequeue fails at the first threshold test (D0:
      threshold < 0), at the threshold decrement inside the loop (D7: old value <= 0) or after the final
      check of tail against its own ticket (D6 -> catchup C1/C2 -> D8) *)
  Theorem nikb_fail_sources s u s' es r : step s (Step u) = Some (s', es) -> In (ERet u r) es -> r = [0] \/ r = [3] ->
    exists q x, r = match q with RF => [0] | RA => [3] end /\
      ((th s u = D0 q x /\ lt0 (rthr (rg s q)) = true) \/
       (th s u = D7 q x /\ sle 64 (rthr (rg s q)) 0 = true) \/
       th s u = D8 q x).
  Proof.
    intros Hst Hin Hr. unfold NikbDefs.step, step_gen in Hst.
    pc_cases (th s u); try discriminate.
    all: repeat match type of Hst with context [if ?c then _ else _] => destruct c eqn:? end.
    all: try destruct q.
    all: injection Hst as <- <-; cbn [In app] in Hin.
    all: repeat (destruct Hin as [Hin|Hin]; [try discriminate Hin|]); try contradiction.
    all: inversion Hin; subst; destruct Hr as [Hr|Hr]; try discriminate Hr.
    all: try (exists RF, x; split; [reflexivity|tauto]); try (exists RA, x; split; [reflexivity|tauto]).
  Qed.

  (** the program points after the final check are reached only through it *)
  Theorem nikb_fail_path s u s' es : step s (Step u) = Some (s', es) ->
    (forall q x, th s' u = D8 q x -> (exists tl hd, th s u = C1 q x tl hd) \/ (exists tl, th s u = C2 q x tl)) /\
    (forall q x tl, th s' u = C2 q x tl -> exists tl0 hd, th s u = C1 q x tl0 hd) /\
    (forall q x tl hd, th s' u = C1 q x tl hd ->
       (exists hd0, th s u = D6 q x hd0 /\ hd = wadd 64 hd0 2 /\ tl = rtail (rg s q) /\ gt0 (diff tl hd) = false) \/
       (th s u = C2 q x tl /\ hd = rhead (rg s q))).
  Proof.
    intros Hst. unfold NikbDefs.step, step_gen in Hst.
    pc_cases (th s u); try discriminate.
    all: unfold mark_left, mark_skip in Hst.
    all: try (destruct (dq_eval_cases cap q x hd att (rdata (rg s q) (phys cap hd))) as [[C1 Ee]|[C1 [[C2 [[C3 Ee]|[C3 [[C4 Ee]|[C4 Ee]]]]]|[C2 Ee]]]]; rewrite Ee in Hst).
    all: try (destruct (en_eval_cases cap q x idx gk tl (rdata (rg s q) (phys cap tl))) as [(C1 & C2 & Ee)|[(C1 & C2 & C3 & Ee)|Ee]]; rewrite Ee in Hst).
    all: cbn [leaves skips] in Hst.
    all: repeat match type of Hst with context [if ?c then _ else _] => destruct c eqn:? end.
    all: try destruct q.
    all: injection Hst as <- <-; sim; rewrite ?upd_same.
    all: ssplit; intros; try discriminate.
    all: try match goal with H : _ = D8 _ _ |- _ => inversion H; subst; clear H end.
    all: try match goal with H : _ = C2 _ _ _ |- _ => inversion H; subst; clear H end.
    all: try match goal with H : _ = C1 _ _ _ _ |- _ => inversion H; subst; clear H end.
    all: eauto 8.
  Qed.

  (** what the final check sees.  At the instant thread u, holding (given-up) dequeue ticket hd of ring q, loads
      tail and finds it not beyond its own ticket, tail <= head: every index published in ring q has an
      enqueue ticket below head, i.e. its dequeue ticket has been handed out already: the index has been taken,
      or is being taken by an operation in progress that holds the ticket inside its do-loop *)
  Theorem nikb_final_check s u q x hd : good s -> th s u = D6 q x hd ->
    gt0 (diff (rtail (rg s q)) (wadd 64 hd 2)) = false ->
    rtail (rg s q) <= hd + 2 /\ hd + 2 <= rhead (rg s q) /\
    forall T i, g_eq (rg s q) T = EPub i ->
      2 * T + 2 <= rhead (rg s q) /\
      (g_dq (rg s q) T = DTaken i \/
       (exists u', g_dq (rg s q) T = DHeld u' /\ dtk (th s u') = Some (q, 2 * T))).
  Proof.
    intros Hg Hpc Hchk. destruct (good_inv s Hg) as ([HW HT1] & (HR & _) & _ & HA3).
    pose proof (HT1 u) as Hu. rewrite Hpc in Hu. cbn [T1] in Hu. destruct Hu as [[Hhd2 Hhdlt] Hhle].
    destruct (HW q) as ([_ Hhlt] & [_ Htlt] & _).
    rewrite (wadd2_small hd Hhdlt) in Hchk. rewrite diff_gt0 in Hchk by lia. apply N.ltb_ge in Hchk.
    ssplit; [exact Hchk|exact Hhle|]. intros T i Hp. destruct (HR q) as [_ a2 _ _ _ _ _ _ _].
    assert (Hlt : 2 * T + 2 <= rtail (rg s q)) by (apply a2; rewrite Hp; discriminate).
    split; [lia|]. destruct (nikb_published_fate s q T i Hg Hp) as [E|[Hh'|(_ & Hle & _)]]; [left; exact E|right; exact Hh'|lia].
  Qed.

  (** C05 'empty' (final-check path): at that instant every published value has been taken or is being taken by a
      try_pop in progress: the queue is empty, counting the operations in progress *)
  Theorem nikb_empty_final_check s u x hd : good s -> th s u = D6 RA x hd ->
    gt0 (diff (rtail (ra s)) (wadd 64 hd 2)) = false ->
    forall T v, In (T, v) (g_in s) ->
      In (T, v) (g_out s) \/ (exists u', g_dq (ra s) T = DHeld u' /\ dtk (th s u') = Some (RA, 2 * T)).
  Proof.
    intros Hg Hpc Hchk T v Hin. destruct (nikb_final_check s u RA x hd Hg Hpc Hchk) as (_ & _ & Hall).
    destruct (good_inv s Hg) as (_ & _ & I3 & _). destruct I3 as [i1 i2 i2n i3 i3n i4 iok iokn iret iretn ib1 ib2 it_].
    destruct (i2 T v Hin) as [i Hp]. destruct (Hall T i Hp) as [_ [Ht|Hh]]; [left|right; exact Hh].
    destruct (i4 T i Ht) as [w Hw]. destruct (i3 T w Hw) as [Hw' _]. rewrite (nodup_key_eq _ T v w i2n Hin Hw'). exact Hw.
  Qed.

  (** C05 'full' (final-check path): at that instant every storage index is in the allocated ring, or held by an
      operation in progress (being written / being read), or being taken out of the free ring by a try_push in
      progress: the queue is full, counting every operation in progress as occupying one slot *)
  Theorem nikb_full_final_check s u x hd : good s -> th s u = D6 RF x hd ->
    gt0 (diff (rtail (rf s)) (wadd 64 hd 2)) = false ->
    forall i, i < cap ->
      match g_own s i with
      | OFull _ => True
      | OWrite t => hidx (th s t) = Some (RA, i)
      | ORead t => hidx (th s t) = Some (RF, i)
      | OFree T => exists u', g_dq (rf s) T = DHeld u' /\ dtk (th s u') = Some (RF, 2 * T)
      end.
  Proof.
    intros Hg Hpc Hchk i Hi. destruct (nikb_final_check s u RF x hd Hg Hpc Hchk) as (_ & _ & Hall).
    pose proof (nikb_index_place s i Hg Hi) as Hp. destruct (g_own s i) as [T|t|T|t]; try exact I; try exact Hp.
    destruct Hp as (_ & _ & _ & Hpub & Hnt). destruct (Hall T i Hpub) as [_ [Ht|Hh]]; [exfalso; apply (Hnt i Ht)|exact Hh].
  Qed.
End Cons.

(** * closed statements (hypotheses spelled out) for Properties/Properties_C05_nikb.v *)
Section Closed.
  Variable k R : N.
  Hypothesis Hk : k <= 40.
  Variable s : state.
  Hypothesis Hr : reach (init (2 ^ k)) (step (2 ^ k) R) s.
  Hypothesis Ho : g_ovf s = false.
  Let Hg : good k R s := conj Hr Ho.

  Definition c_index_place := fun i => nikb_index_place k R Hk s i Hg.
  Definition c_slot_owner := fun q T => nikb_slot_owner k R Hk s q T Hg.
  Definition c_holder_owner := fun t q i => nikb_holder_owner k R Hk s t q i Hg.
  Definition c_exclusive_cell := fun t1 t2 q1 q2 i => nikb_exclusive_cell k R Hk s t1 t2 q1 q2 i Hg.
  Definition c_held_not_in_ring := fun t q i q' T => nikb_held_not_in_ring k R Hk s t q i q' T Hg.
  Definition c_array_entry_owner := fun q j => nikb_array_entry_owner k R Hk s q j Hg.
  Definition c_array_no_duplicate := fun q j q' j' => nikb_array_no_duplicate k R Hk s q j q' j' Hg.
  Definition c_values := nikb_values k R Hk s Hg.
  Definition c_published_taken_or_in_ring := fun T v => nikb_published_taken_or_in_ring k R Hk s T v Hg.
  Definition c_in_ring_published := fun i T => nikb_in_ring_published k R Hk s i T Hg.
  Definition c_published_eq_taken_plus_ring := nikb_published_eq_taken_plus_ring k R Hk s Hg.
  Definition c_fifo_by_ticket := fun H v => nikb_fifo_by_ticket k R Hk s H v Hg.
  Definition c_fifo_order := fun T1 v1 T2 v2 => nikb_fifo_order k R Hk s T1 v1 T2 v2 Hg.
  Definition c_ticket_below_counter := nikb_ticket_below_counter k R Hk s Hg.
  Definition c_final_check := fun u q x hd => nikb_final_check k R Hk s u q x hd Hg.
  Definition c_empty_final_check := fun u x hd => nikb_empty_final_check k R Hk s u x hd Hg.
  Definition c_full_final_check := fun u x hd => nikb_full_final_check k R Hk s u x hd Hg.
  Definition c_never_stranded := fun q T => nikb_never_stranded k R Hk s q T Hg.
  Definition c_published_fate := fun q T i => nikb_published_fate k R Hk s q T i Hg.
  Definition c_safe_layer := good_inv4 k R Hk s Hg.
End Closed.
