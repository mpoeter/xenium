(** nikolaev_queue model, value layer.
    [good s]: s is reachable and no counter of any node has wrapped; a wrapped counter stays wrapped, so every state
    on the way to a good state is good.
    [PT]: which ring code a thread executes in which phase (try_push: dequeue on RF then enqueue on RA; the finalized
    case: enqueue on RF; do_pop / steal_init_value: dequeue on RA then enqueue on RF; ~node: dequeue on RA).
    [VI]: the value ghosts: [q_in] / [q_out] / [q_ok] / [q_ret] are lists of ((node, RA ticket), value) with unique
    keys; a published pair belongs to a linked node and its ticket is published in that node's allocated ring; what a
    pop takes at (n, H) is what a push published at (n, H); the cell of an index in the allocated ring of a linked node
    holds the value published with its ticket; returns report what was published / taken. *)
From Coq Require Import NArith List Bool Lia PeanoNat.
From XV Require Import Base.Word Conc.Lts Conc.Ev gen.ScqGen Model.NikbDefs Model.NikqDefs.
From XV Require Import Proof.NikbArith Proof.NikbBase Proof.NikbWf Proof.NikbOwn Proof.NikbVal Proof.NikbSafe Proof.NikbCons.
From XV Require Import Proof.NikqBase Proof.NikqRing Proof.NikqChain.
Import ListNotations.
Local Open Scope N_scope.

(** program points of dequeue on ring q / of enqueue on ring q *)
Definition isD (q : rid) (p : pc) : bool :=
  match p with
  | D0 q' _ | D1 q' _ | D2 q' _ _ _ | D3 q' _ _ _ | D4 q' _ _ _ _ | D5 q' _ _ _ _ _ | D6 q' _ _ | D7 q' _
  | C1 q' _ _ _ | C2 q' _ _ | D8 q' _ => rid_eqb q' q
  | _ => false
  end.
Definition isE (q : rid) (p : pc) : bool :=
  match p with
  | E1 q' _ _ _ | E2 q' _ _ _ _ | E3 q' _ _ _ _ _ | E4 q' _ _ _ _ _ | E5 q' _ _ _ | E6 q' _ _ _ => rid_eqb q' q
  | _ => false
  end.

Set Default Proof Using "All".
Section Val.
  Variable k R : N.
  Hypothesis Hk : k <= 40.
  Notation cap := (2 ^ k).
  Notation step := (NikbDefs.step cap R).
  Notation qstep := (NikqDefs.qstep cap R).
  Notation RingInv := (RingInv k).

  (** the states the theorems of this model are about: reachable, and no counter of any node has wrapped.  It is the
      queue-level counterpart of NikbCons.good (one bounded queue: reachable in the bounded model, [g_ovf] false); the node
      states of a good queue state need not be reachable in the bounded model (the constructor of push, the finalized bit);
      they satisfy the same ring invariants ([good_inv], from NikqRing.ring_reach) *)
  Definition good (s : qstate) : Prop := reach (qinit cap) qstep s /\ noovf s.

  Lemma noovf_sticky s a s' es : reach (qinit cap) qstep s -> qstep s a = Some (s', es) -> noovf s' -> noovf s.
  Proof.
    intros Hr Hst Ho n. pose proof (CI_reach cap R s Hr) as Hc. pose proof (Coh_reach cap R s Hr) as Hh.
    destruct (N.le_gt_cases (nalloc s) n) as [Hle|Hgt].
    - destruct (c_fresh cap s Hc n Hle) as [_ ->]. reflexivity.
    - eapply (xs_ovf k R Hk); [|apply Ho]. apply (qstep_xs cap R false s a s' es Hh Hst n). right. lia.
  Qed.

  Lemma good_step s a s' es : reach (qinit cap) qstep s -> qstep s a = Some (s', es) -> good s' -> good s.
  Proof. intros Hr Hst [_ Ho]. split; [exact Hr|eapply noovf_sticky; eauto]. Qed.

  Lemma good_inv s : good s -> Coh s /\ CI cap s /\ forall n, RingInv (nd s n).
  Proof.
    intros [Hr Ho]. split; [apply (Coh_reach cap R); exact Hr|split; [apply (CI_reach cap R); exact Hr|]].
    intros n. apply (ring_reach k R Hk s Hr n). apply Ho.
  Qed.

  (** the induction principle for invariants of good states *)
  Lemma good_rule (I : qstate -> Prop) :
    I (qinit cap) ->
    (forall s a s' es, good s -> good s' -> I s -> qstep s a = Some (s', es) -> I s') ->
    forall s, good s -> I s.
  Proof.
    intros Hi Hs s [Hr Ho]. induction Hr as [|s a s' es Hr IH Hst]; [exact Hi|].
    assert (Hg : good s) by (split; [exact Hr|eapply noovf_sticky; eauto]).
    apply (Hs s a s' es Hg); [split; [eapply reach_step; eauto|exact Ho]|apply IH; apply Hg|exact Hst].
  Qed.

  (** * what one step of the ring code does to the cells, the index owners, the published / taken tickets of RA *)
  Lemma step_store sg t sg' es i : step sg (Step t) = Some (sg', es) ->
    store sg' i = store sg i \/ exists x gk, th sg t = E1 RA x i gk /\ store sg' i = x.
  Proof.
    intros Hst. step_cases Hst; try (left; reflexivity).
    all: unfold setf; destruct (N.eqb_spec i idx) as [->|]; [right; eauto|left; reflexivity].
  Qed.

  Lemma step_own sg t sg' es i : step sg (Step t) = Some (sg', es) ->
    g_own sg' i = g_own sg i \/
    (exists q x hd e, th sg t = D3 q x hd e /\ i = N.land e (vmask cap) /\ g_own sg' i = held (other q) t) \/
    (exists q x gk tl e, th sg t = E4 q x i gk tl e /\ rdata (rg sg q) (phys cap tl) = e /\ g_own sg' i = inring q (tl / 2)).
  Proof.
    intros Hst. step_cases Hst; try (left; reflexivity).
    all: unfold setf; match goal with |- context [if ?a =? ?b then _ else _] => destruct (N.eqb_spec a b) as [->|]; [|left; reflexivity] end.
    all: try (right; left; do 4 eexists; ssplit; reflexivity).
    all: right; right; do 5 eexists; ssplit; [reflexivity|apply N.eqb_eq; assumption|reflexivity].
  Qed.

  Lemma step_pub sg t sg' es T i : step sg (Step t) = Some (sg', es) -> g_eq (ra sg') T = EPub i ->
    g_eq (ra sg) T = EPub i \/ exists x gk tl e, th sg t = E4 RA x i gk tl e /\ T = tl / 2 /\ rdata (ra sg) (phys cap tl) = e.
  Proof.
    intros Hst. step_cases Hst; intros Hx; try (left; exact Hx).
    all: unfold setf in Hx; match type of Hx with context [if ?a =? ?b then _ else _] => destruct (N.eqb_spec a b) as [Heq|]; [|left; exact Hx] end.
    all: try discriminate Hx.
    all: inversion Hx; subst; right; do 4 eexists; (ssplit; [reflexivity|reflexivity|apply N.eqb_eq; assumption]).
  Qed.

  Lemma step_pub_fwd sg t sg' es x idx gk tl e : step sg (Step t) = Some (sg', es) -> th sg t = E4 RA x idx gk tl e ->
    rdata (ra sg) (phys cap tl) = e -> g_eq (ra sg') (tl / 2) = EPub idx /\ g_own sg' idx = OFull (tl / 2) /\ th sg' t = E5 RA x idx (tl / 2).
  Proof.
    intros Hst E Hc. unfold NikbDefs.step, step_gen in Hst. rewrite E in Hst. apply N.eqb_eq in Hc. rewrite Hc in Hst.
    inversion Hst; subst; clear Hst. sim. rewrite !setf_same. rewrite upd_same. auto.
  Qed.

  Lemma step_take_fwd sg t sg' es x hd e : step sg (Step t) = Some (sg', es) -> th sg t = D3 RA x hd e ->
    g_dq (ra sg') (hd / 2) = DTaken (N.land e (vmask cap)) /\ th sg' t = E1 RF x (N.land e (vmask cap)) (hd / 2).
  Proof.
    intros Hst E. unfold NikbDefs.step, step_gen in Hst. rewrite E in Hst.
    inversion Hst; subst; clear Hst. sim. rewrite setf_same, upd_same. auto.
  Qed.

  (** * which ring code runs in which phase *)
  Definition isE1 (q : rid) (p : pc) : bool := match p with E1 q' _ _ _ => rid_eqb q' q | _ => false end.

  Lemma isD_dq_eval q x hd att e : isD q (dq_eval cap q x hd att e) = true.
  Proof.
    destruct (dq_eval_cases cap q x hd att e) as [[_ ->]|[_ [[_ [[_ ->]|[_ [[_ ->]|[_ ->]]]]]|[_ ->]]]]; cbn [isD]; apply rid_eqb_refl.
  Qed.
  Lemma isE_en_eval q x idx gk tl e : isE q (en_eval cap q x idx gk tl e) = true.
  Proof.
    destruct (en_eval_cases cap q x idx gk tl e) as [(_ & _ & ->)|[(_ & _ & _ & ->)| ->]]; cbn [isE]; apply rid_eqb_refl.
  Qed.

  Lemma step_cls sg t sg' es : step sg (Step t) = Some (sg', es) ->
    forall q, (isD q (th sg t) = true -> isD q (th sg' t) = true \/ isE1 (other q) (th sg' t) = true \/ th sg' t = Idle) /\
              (isE q (th sg t) = true -> isE q (th sg' t) = true \/ th sg' t = Idle).
  Proof.
    intros Hst. step_cases Hst; intros q0; destruct q0; rewrite upd_same; cbn [isD isE isE1 other rid_eqb]; rewrite ?isD_dq_eval, ?isE_en_eval;
      (split; intros Hq; try discriminate Hq; auto).
  Qed.

  Lemma istep_cls sg f lb t sg' es lb' : istep cap R sg f lb t = Some (sg', es, lb') ->
    forall q, (isD q (th sg t) = true -> isD q (th sg' t) = true \/ isE1 (other q) (th sg' t) = true \/ th sg' t = Idle) /\
              (isE q (th sg t) = true -> isE q (th sg' t) = true \/ th sg' t = Idle).
  Proof.
    intros H.
    destruct (istep_inv cap R _ _ _ _ _ _ _ H) as [Hs|[(x & hd & att & e & b & E & ->)|[(x & hd & E & ->)|[(x & tl & hd & E & [[_ ->]| ->])|(x & tl & E & ->)]]]];
      [eapply step_cls; eauto|intros q; rewrite E; sim; rewrite ?th_mark_left'; rewrite upd_same; (split; [intros Hq; left|discriminate])..].
    - unfold d4p. destruct b; [|destruct (lt0 _)]; exact Hq.
    - destruct (gt0 _); exact Hq.
    - exact Hq.
    - exact Hq.
    - destruct (lt0 _); exact Hq.
  Qed.

  Definition PT (s : qstate) : Prop :=
    forall t, match oth s t with
              | PIn _ n => isD RF (th (nd s n) t) || isE RA (th (nd s n) t) = true
              | PRe _ n => isE RF (th (nd s n) t) = true
              | PSt _ n _ | QIn1 n _ | QIn2 n _ => isD RA (th (nd s n) t) || isE RF (th (nd s n) t) = true
              | PDel _ n _ => isD RA (th (nd s n) t) = true
              | _ => True
              end.

  (** the node of a phase is allocated *)
  Lemma innode_lt s t n : CI cap s -> innode (oth s t) = Some n -> n < nalloc s.
  Proof.
    intros Hc Hi. destruct (oth s t) eqn:Eo; cbn [innode] in Hi; inversion Hi; subst.
    1,2,5,6: (assert (Hin : In n (q_nodes s)) by (apply (c_refs cap s Hc t); rewrite Eo; left; reflexivity); pose proof (c_lt cap s Hc n Hin); lia).
    all: destruct (c_priv cap s Hc t n ltac:(rewrite Eo; reflexivity)) as (_ & V2 & _); lia.
  Qed.

  Lemma PT_init : PT (qinit cap).
  Proof. intros t. exact I. Qed.


  (** a dequeue on q followed by an enqueue on the other ring: the thread stays in that code until it is idle again *)
  Lemma dq_en_cls p p' q :
    (forall q, (isD q p = true -> isD q p' = true \/ isE1 (other q) p' = true \/ p' = Idle) /\ (isE q p = true -> isE q p' = true \/ p' = Idle)) ->
    isD q p || isE (other q) p = true -> p' <> Idle -> isD q p' || isE (other q) p' = true.
  Proof.
    intros H HP Hni. apply orb_true_iff. apply orb_true_iff in HP. destruct HP as [HP|HP].
    - destruct (H q) as [Y _]. destruct (Y HP) as [Z|[Z|Z]]; [left; exact Z| |contradiction]. right. destruct p'; try discriminate. exact Z.
    - destruct (H (other q)) as [_ Y]. destruct (Y HP) as [Z|Z]; [right; exact Z|contradiction].
  Qed.

  Lemma PT_step s a s' es : Coh s -> CI cap s -> PT s -> qstep s a = Some (s', es) -> PT s'.
  Proof.
    intros Hh Hc HP Hst u. destruct (qstep_eff cap R s a s' es Hh Hst) as [Ho _].
    destruct (Nat.eq_dec u (tid a)) as [->|Hne].
    2:{ rewrite (Ho u Hne). specialize (HP u).
        destruct (oth s u) eqn:Eu; try exact I;
          (rewrite (qstep_th_other cap R s a s' es _ u Hh Hst); [exact HP| |exact Hne]);
          (assert (Hl := innode_lt s u _ Hc ltac:(rewrite Eu; reflexivity)); lia). }
    clear Ho. unfold NikqDefs.qstep in Hst. destruct a as [t o|t]; cbn [tid].
    - destruct (oth s t); try discriminate. inversion Hst; subst. qsimg. rewrite upd_same. exact I.
    - specialize (HP t).
      destruct (oth s t) as [|[v|tp]| |v|v n|v n|v n nx|v n|v n|v n|v n m0 i|v n m0 i|v n m0|v n m0|v m0 lb|v m0 lb| |n lb|n|n|n lb|n|n nx] eqn:Eo;
        try discriminate.
      all: try (break Hst; injection Hst as <- _; qsimg; rewrite upd_same; try exact I; rewrite setf_same; unfold enter; sim; rewrite upd_same; reflexivity).
      + (* PIn *) destruct (push_in_spec cap R _ _ _ _ _ _ Hst) as [(x & idx & gk & sg' & es0 & Ep & Ef & Hfe & -> & _)|(sg' & es0 & Hs & _ & [(Hni & -> & _)|[(Hi & _ & -> & _)|(Hi & _ & x & i & gk & _ & -> & _)]])];
          qsimg; rewrite ?oth_pub_ghost; qsimg; rewrite upd_same; try exact I.
        * rewrite setf_same. destruct (fin_enq_th cap R _ _ _ _ _ _ _ Hfe) as [-> _]. reflexivity.
        * rewrite nd_pub_ghost. qsimg. rewrite setf_same. exact (dq_en_cls _ _ RF (step_cls _ _ _ _ Hs) HP Hni).
      + (* PRe *) destruct (push_re_spec cap R _ _ _ _ _ _ Hst) as (sg' & es0 & Hs & [(Hni & -> & _)|[Hi Hn]]); [|apply new_node_eff in Hn; destruct Hn as [-> _]]; qsimg; rewrite upd_same; try exact I.
        rewrite setf_same. destruct (step_cls _ _ _ _ Hs RF) as [_ Y]. destruct (Y HP) as [Z|Z]; [exact Z|contradiction].
      + (* PSt *) destruct (steal_spec cap R _ _ _ _ _ _ _ Hst) as (sg' & es0 & lb' & Hs & _ & [[Hni ->]|[Hi [[x ->]| ->]]]); qsimg; rewrite upd_same; try exact I.
        * rewrite setf_same. exact (dq_en_cls _ _ RA (istep_cls _ _ _ _ _ _ _ Hs) HP Hni).
        * rewrite setf_same. unfold enter. sim. rewrite upd_same. reflexivity.
      + (* PDel *) destruct (del_spec cap R _ _ _ _ _ _ _ Hst) as (sg' & es0 & lb' & Hs & [(Hi & -> & _)|(Hni & _ & [[_ ->]|[Hn1 ->]])]); qsimg; rewrite upd_same; try exact I.
        rewrite setf_same. destruct (istep_cls _ _ _ _ _ _ _ Hs RA) as [Y _]. destruct (Y HP) as [Z|[Z|Z]]; [exact Z| |contradiction].
        destruct (th sg' t) as [| | | | | | | | | | | | |[|] x i gk| | | | |]; try discriminate Z. destruct (Hn1 x i gk eq_refl).
      + (* QIn1 *) destruct (pop_spec cap R _ _ _ _ _ _ _ _ Hst) as (sg' & es0 & lb' & Hs & [(Hni & -> & _)|[(Hi & _ & -> & _)|(Hi & x & x' & i & gk & _ & _ & -> & _)]]);
          qsimg; rewrite ?oth_take_ghost; qsimg; rewrite upd_same; try exact I.
        rewrite nd_take_ghost. qsimg. rewrite setf_same. exact (dq_en_cls _ _ RA (istep_cls _ _ _ _ _ _ _ Hs) HP Hni).
      + (* QIn2 *) destruct (pop_spec cap R _ _ _ _ _ _ _ _ Hst) as (sg' & es0 & lb' & Hs & [(Hni & -> & _)|[(Hi & _ & -> & _)|(Hi & x & x' & i & gk & _ & _ & -> & _)]]);
          qsimg; rewrite ?oth_take_ghost; qsimg; rewrite upd_same; try exact I.
        rewrite nd_take_ghost. qsimg. rewrite setf_same. exact (dq_en_cls _ _ RA (istep_cls _ _ _ _ _ _ _ Hs) HP Hni).
  Qed.

  Theorem PT_reach : forall s, reach (qinit cap) qstep s -> PT s.
  Proof.
    apply (inv_rule_aux _ _ _ (qinit cap) qstep (fun s => Coh s /\ CI cap s) PT).
    - intros s Hr. split; [apply (Coh_reach cap R); exact Hr|apply (CI_reach cap R); exact Hr].
    - apply PT_init.
    - intros s a s' es [Hh Hc] _ HP Hst. eapply PT_step; eauto.
  Qed.

  (** * the value invariant *)
  Definition T3q (s : qstate) (t : nat) : Prop :=
    match oth s t with
    | PIn v n =>
      match th (nd s n) t with
      | E2 RA x i _ _ | E3 RA x i _ _ _ | E4 RA x i _ _ _ => store (nd s n) i = x
      | E5 RA x i gk | E6 RA x i gk => In (n, gk, x) (q_in s) /\ q_ebusy s n gk = Some t
      | _ => True
      end
    | PSw v n m => In (m, 0, v) (q_in s) /\ q_ebusy s m 0 = Some t
    | QIn1 n _ | QIn2 n _ =>
      match th (nd s n) t with
      | E1 RF x i gk => In (n, gk, store (nd s n) i) (q_out s) /\ q_dbusy s n gk = Some t
      | E2 RF x i gk _ | E3 RF x i gk _ _ | E4 RF x i gk _ _ => In (n, gk, x) (q_out s) /\ q_dbusy s n gk = Some t /\ store (nd s n) i = x
      | E5 RF x i gk | E6 RF x i gk => In (n, gk, x) (q_out s) /\ q_dbusy s n gk = Some t
      | _ => True
      end
    | _ => True
    end.

  Record VI (s : qstate) : Prop := mkVI {
    v1 : forall n i T, In n (q_nodes s) -> i < cap -> g_own (nd s n) i = OFull T -> In (n, T, store (nd s n) i) (q_in s);
    v2 : forall n T v, In (n, T, v) (q_in s) -> In n (q_nodes s) /\ exists i, g_eq (ra (nd s n)) T = EPub i;
    v2n : NoDup (map fst (q_in s));
    v3 : forall n H v, In (n, H, v) (q_out s) -> In (n, H, v) (q_in s) /\ exists i, g_dq (ra (nd s n)) H = DTaken i;
    v3n : NoDup (map fst (q_out s));
    v4 : forall n H i, In n (q_nodes s) -> g_dq (ra (nd s n)) H = DTaken i -> exists v, In (n, H, v) (q_out s);
    vok : forall n T v, In (n, T, v) (q_ok s) -> In (n, T, v) (q_in s) /\ q_ebusy s n T = None;
    vokn : NoDup (map fst (q_ok s));
    vret : forall n H v, In (n, H, v) (q_ret s) -> In (n, H, v) (q_out s) /\ q_dbusy s n H = None;
    vretn : NoDup (map fst (q_ret s));
    vb1 : forall n T u, q_ebusy s n T = Some u -> exists v, In (n, T, v) (q_in s);
    vb2 : forall n H u, q_dbusy s n H = Some u -> exists v, In (n, H, v) (q_out s);
    vt : forall t, T3q s t }.

  Lemma VI_init : VI (qinit cap).
  Proof.
    constructor; cbn [qinit q_nodes q_in q_out q_ok q_ret q_ebusy q_dbusy nd].
    - intros n i T _ _. cbn [init g_own]. discriminate.
    - intros n T v [].
    - constructor.
    - intros n H v [].
    - constructor.
    - intros n H i _. cbn [init rgs g_dq]. discriminate.
    - intros n T v [].
    - constructor.
    - intros n H v [].
    - constructor.
    - intros n T u Hx. discriminate.
    - intros n H u Hx. discriminate.
    - intros t. exact I.
  Qed.

  (** the part of a node state the value invariant looks at *)
  Definition vsame (a b : state) : Prop :=
    (forall i, store b i = store a i) /\ (forall i, g_own b i = g_own a i) /\
    (forall T, g_eq (ra b) T = g_eq (ra a) T) /\ (forall H, g_dq (ra b) H = g_dq (ra a) H).

  Lemma vsame_refl a : vsame a a. Proof. repeat split. Qed.

  (** a node state changed without publishing into / taking from RA: cells of indices in RA keep their value *)
  Definition vle (a b : state) : Prop :=
    (forall i T, g_own b i = OFull T -> g_own a i = OFull T /\ store b i = store a i) /\
    (forall T i, g_eq (ra b) T = EPub i <-> g_eq (ra a) T = EPub i) /\
    (forall H i, g_dq (ra b) H = DTaken i <-> g_dq (ra a) H = DTaken i).

  Lemma vle_refl a : vle a a.
  Proof. split; [auto|split; intros; tauto]. Qed.
  Lemma vsame_vle a b : vsame a b -> vle a b.
  Proof. intros (A & B & C & D). split; [intros i T; rewrite A, B; auto|split; intros; rewrite ?C, ?D; tauto]. Qed.

  (** [VI] in parts: [VN] the clauses about the node states; [recd] for each kind of recorded pairs (published, taken):
      the pairs of the calls that returned and the busy threads; the local facts *)
  Definition VN (l : list N) (f : N -> state) (qi qo : list (N * N * N)) : Prop :=
    (forall n i T, In n l -> i < cap -> g_own (f n) i = OFull T -> In (n, T, store (f n) i) qi) /\
    (forall n T v, In (n, T, v) qi -> In n l /\ exists i, g_eq (ra (f n)) T = EPub i) /\ NoDup (map fst qi) /\
    (forall n H v, In (n, H, v) qo -> In (n, H, v) qi /\ exists i, g_dq (ra (f n)) H = DTaken i) /\ NoDup (map fst qo) /\
    (forall n H i, In n l -> g_dq (ra (f n)) H = DTaken i -> exists v, In (n, H, v) qo).
  Definition recd (L Lr : list (N * N * N)) (B : N -> N -> option nat) : Prop :=
    (forall n T v, In (n, T, v) Lr -> In (n, T, v) L /\ B n T = None) /\ NoDup (map fst Lr) /\
    (forall n T u, B n T = Some u -> exists v, In (n, T, v) L).

  Lemma VI_iff s : VI s <->
    VN (q_nodes s) (nd s) (q_in s) (q_out s) /\ recd (q_in s) (q_ok s) (q_ebusy s) /\ recd (q_out s) (q_ret s) (q_dbusy s) /\ forall t, T3q s t.
  Proof.
    unfold VN, recd. split; [intros []; ssplit; assumption|].
    intros ((a1 & a2 & a3 & a4 & a5 & a6) & (b1 & b2 & b3) & (c1 & c2 & c3) & d). constructor; assumption.
  Qed.

  Lemma VN_vle l f f' qi qo : VN l f qi qo -> (forall m, In m l -> vle (f m) (f' m)) -> VN l f' qi qo.
  Proof.
    intros (a1 & a2 & a2n & a3 & a3n & a4) Hv. unfold VN. ssplit; try assumption.
    - intros n i T Hn Hi Hx. destruct (Hv n Hn) as (A & _). destruct (A i T Hx) as [B ->]. apply a1; assumption.
    - intros n T v Hx. destruct (a2 n T v Hx) as [Hn [i Hy]]. split; [exact Hn|]. exists i. destruct (Hv n Hn) as (_ & C & _). apply C. exact Hy.
    - intros n H v Hx. destruct (a3 n H v Hx) as [Hy [i Hz]]. split; [exact Hy|]. exists i.
      destruct (a2 n H v Hy) as [Hn _]. destruct (Hv n Hn) as (_ & _ & D). apply D. exact Hz.
    - intros n H i Hn Hx. apply (a4 n H i Hn). destruct (Hv n Hn) as (_ & _ & D). apply D. exact Hx.
  Qed.

  (** the ghost lists do not change *)
  Lemma VI_vle s s' :
    VI s -> q_nodes s' = q_nodes s -> q_in s' = q_in s -> q_out s' = q_out s -> q_ok s' = q_ok s -> q_ret s' = q_ret s ->
    q_ebusy s' = q_ebusy s -> q_dbusy s' = q_dbusy s ->
    (forall n, In n (q_nodes s) -> vle (nd s n) (nd s' n)) -> (forall t, T3q s' t) -> VI s'.
  Proof.
    intros HV En Ei Eo Eok Er Eeb Edb Hv Ht. apply VI_iff in HV. destruct HV as (HN & HE & HD & _).
    apply VI_iff. rewrite En, Ei, Eo, Eok, Er, Eeb, Edb. ssplit; try assumption. apply (VN_vle _ (nd s)); assumption.
  Qed.

  (** the facts about another thread survive when its program points, its busy keys and the cells it holds are untouched
      and the lists only grow *)
  Lemma T3q_other s s' u :
    oth s' u = oth s u -> (forall n, In n (refs (oth s u)) -> th (nd s' n) u = th (nd s n) u) ->
    (forall x, In x (q_in s) -> In x (q_in s')) -> (forall x, In x (q_out s) -> In x (q_out s')) ->
    (forall n T, q_ebusy s n T = Some u -> q_ebusy s' n T = Some u) ->
    (forall n H, q_dbusy s n H = Some u -> q_dbusy s' n H = Some u) ->
    (forall n q i, In n (refs (oth s u)) -> hidx (th (nd s n) u) = Some (q, i) -> store (nd s' n) i = store (nd s n) i) ->
    T3q s u -> T3q s' u.
  Proof.
    intros Ho Hth Hi Hq Hb1 Hb2 Hs. unfold T3q. rewrite Ho.
    destruct (oth s u) eqn:Eu; try exact (fun x => x); cbn [refs] in Hth, Hs.
    - rewrite (Hth n ltac:(left; reflexivity)). pose proof (Hs n) as Hs'.
      destruct (th (nd s n) u); try exact (fun x => x); destruct q; try exact (fun x => x); cbn [hidx] in Hs';
        try (rewrite (Hs' _ _ ltac:(left; reflexivity) eq_refl); exact (fun x => x));
        intros [A B]; split; auto.
    - intros [A B]. split; auto.
    - rewrite (Hth n ltac:(left; reflexivity)). pose proof (Hs n) as Hs'.
      destruct (th (nd s n) u); try exact (fun x => x); destruct q; try exact (fun x => x); cbn [hidx] in Hs';
        try (rewrite (Hs' _ _ ltac:(left; reflexivity) eq_refl)); intuition auto.
    - rewrite (Hth n ltac:(left; reflexivity)). pose proof (Hs n) as Hs'.
      destruct (th (nd s n) u); try exact (fun x => x); destruct q; try exact (fun x => x); cbn [hidx] in Hs';
        try (rewrite (Hs' _ _ ltac:(left; reflexivity) eq_refl)); intuition auto.
  Qed.

  (** steps that change no ghost and nothing the invariant looks at in the linked nodes *)
  Lemma VI_same s s' t :
    VI s -> q_nodes s' = q_nodes s -> q_in s' = q_in s -> q_out s' = q_out s -> q_ok s' = q_ok s -> q_ret s' = q_ret s ->
    q_ebusy s' = q_ebusy s -> q_dbusy s' = q_dbusy s ->
    (forall n, In n (q_nodes s) -> vsame (nd s n) (nd s' n)) ->
    (forall u, u <> t -> oth s' u = oth s u /\ forall n, In n (q_nodes s) -> th (nd s' n) u = th (nd s n) u) ->
    (forall u n, In n (refs (oth s u)) -> In n (q_nodes s)) ->
    T3q s' t -> VI s'.
  Proof.
    intros HV En Ei Eo Eok Er Eeb Edb Hv Hu Hrf Ht.
    apply (VI_vle s s' HV En Ei Eo Eok Er Eeb Edb); [intros n Hn; apply vsame_vle, Hv, Hn|].
    intros u. destruct (Nat.eq_dec u t) as [->|Hne]; [exact Ht|]. destruct (Hu u Hne) as [Ho Hth].
    apply (T3q_other s s' u Ho); rewrite ?Ei, ?Eo, ?Eeb, ?Edb; auto; [| |apply (vt s HV)].
    - intros n Hn. apply Hth, (Hrf u n Hn).
    - intros n q i Hn _. apply (proj1 (Hv n (Hrf u n Hn))).
  Qed.

  (** * steps of the ring code that neither publish into nor take from RA *)
  Lemma held_cell sg t q i : Inv2 k sg -> hidx (th sg t) = Some (q, i) -> g_own sg i = held q t /\ i < cap.
  Proof. intros (_ & HT & _) Hh. destruct (HT t) as (_ & _ & C & _). apply C. exact Hh. Qed.

  Lemma step_vle sg t sg' es : Inv1 k sg -> Inv2 k sg -> step sg (Step t) = Some (sg', es) ->
    (forall x idx gk tl e, th sg t = E4 RA x idx gk tl e -> rdata (ra sg) (phys cap tl) <> e) ->
    (forall x hd e, th sg t <> D3 RA x hd e) -> vle sg sg'.
  Proof.
    intros I1 I2 Hst Hn4 Hn3. destruct (fate_stable k R Hk _ _ _ _ I1 I2 Hst) as [Fe Fd]. split; [|split].
    - intros i T Hx. destruct (step_own _ _ _ _ i Hst) as [E|[(q & x & hd & e & Ep & _ & E)|(q & x & gk & tl & e & Ep & Hc & E)]].
      + rewrite E in Hx. split; [exact Hx|]. destruct (step_store _ _ _ _ i Hst) as [Es|(x & gk & Ep & _)]; [exact Es|exfalso].
        destruct (held_cell sg t RA i I2 ltac:(rewrite Ep; reflexivity)) as [Ho _]. rewrite Ho in Hx. discriminate.
      + rewrite E in Hx. destruct q; discriminate.
      + rewrite E in Hx. destruct q; [|discriminate]. exfalso. apply (Hn4 _ _ _ _ _ Ep Hc).
    - intros T i. split; [|apply Fe]. intros Hx. destruct (step_pub _ _ _ _ T i Hst Hx) as [E|(x & gk & tl & e & Ep & _ & Hc)]; [exact E|].
      exfalso. apply (Hn4 _ _ _ _ _ Ep Hc).
    - intros H i. split; [|apply Fd]. intros Hx. destruct (fate_back k R Hk _ _ _ _ Hst H i Hx) as [E|(t' & x & hd & e & Ea & Ep & _)]; [exact E|].
      inversion Ea; subst t'. exfalso. apply (Hn3 _ _ _ Ep).
  Qed.

  Lemma istep_vle sg f lb t sg' es lb' : Inv1 k sg -> Inv2 k sg -> istep cap R sg f lb t = Some (sg', es, lb') ->
    (forall x hd e, th sg t <> D3 RA x hd e) -> isD RA (th sg t) || isE RF (th sg t) = true -> vle sg sg'.
  Proof.
    intros I1 I2 H Hn3 Hcl. pose proof I2 as (_ & HT & _). pose proof (HT t) as (Ta & _).
    destruct (istep_inv cap R _ _ _ _ _ _ _ H) as [Hs|[(x & hd & att & e & b & E & ->)|[(x & hd & E & ->)|[(x & tl & hd & E & [[_ ->]| ->])|(x & tl & E & ->)]]]].
    - apply (step_vle sg t sg' es I1 I2 Hs); [|exact Hn3]. intros x idx gk tl e Ep. rewrite Ep in Hcl. discriminate.
    - (* D4: the ticket may be given up *)
      unfold mark_left. destruct (leaves _); [|exact (vle_refl sg)]. split; [|split]; intros; sim; try tauto.
      unfold setf. destruct (N.eqb_spec H0 (hd / 2)) as [->|]; [|tauto]. rewrite (Ta RA hd ltac:(rewrite E; reflexivity)). split; discriminate.
    - exact (vle_refl sg).
    - split; [|split]; intros; sim; tauto.
    - exact (vle_refl sg).
    - exact (vle_refl sg).
  Qed.

  Lemma fin_enq_vle sg t x idx gk sg' es : Inv1 k sg -> Inv2 k sg -> th sg t = E1 RA x idx gk ->
    fin_enq cap R sg t x idx gk = Some (sg', es) ->
    vle sg sg' /\ (forall i, i <> idx -> store sg' i = store sg i).
  Proof.
    intros I1 I2 Ep H. pose proof (ticket_fresh_eq k R Hk sg RA I1 I2) as Hfr.
    destruct (held_cell sg t RA idx I2 ltac:(rewrite Ep; reflexivity)) as [Ho _]. cbn [held] in Ho.
    unfold fin_enq in H. destruct (step sg (Step t)) as [[s1 e1]|] eqn:Es; [|discriminate].
    unfold NikbDefs.step, step_gen in Es. rewrite Ep in Es. injection Es as Hs1 _. subst s1.
    injection H as Hs _. rewrite <- Hs. clear Hs.
    cbn [mark_skip skips]. unfold vle. sim. split; [split; [|split]|].
    - intros i T. unfold setf. destruct (N.eqb_spec i idx) as [->|]; [discriminate|auto].
    - intros T i. unfold setf. destruct (N.eqb_spec T (rtail (rgs sg RA) / 2)) as [->|]; [|tauto].
      rewrite Hfr. split; discriminate.
    - intros; tauto.
    - intros i Hne. apply setf_other. exact Hne.
  Qed.

  (** * the two steps that change RA's contents *)
  Lemma step_pub_eff sg t sg' es x idx gk tl e : Inv1 k sg -> Inv2 k sg -> step sg (Step t) = Some (sg', es) ->
    th sg t = E4 RA x idx gk tl e -> rdata (ra sg) (phys cap tl) = e ->
    (forall i T, g_own sg' i = OFull T -> (i <> idx /\ g_own sg i = OFull T) \/ (i = idx /\ T = tl / 2)) /\
    (forall i, store sg' i = store sg i) /\
    (forall T i, g_eq (ra sg') T = EPub i <-> (g_eq (ra sg) T = EPub i \/ (T = tl / 2 /\ i = idx))) /\
    (forall H i, g_dq (ra sg') H = DTaken i <-> g_dq (ra sg) H = DTaken i) /\
    g_eq (ra sg) (tl / 2) = EHeld t /\ idx < cap.
  Proof.
    intros I1 I2 Hst Ep Hc.
    destruct (held_cell sg t RA idx I2 ltac:(rewrite Ep; reflexivity)) as [Ho Hidx].
    pose proof I2 as (_ & HT & _). destruct (HT t) as (_ & Tb & _). specialize (Tb RA tl ltac:(rewrite Ep; reflexivity)).
    (* the successor state, written out *)
    unfold NikbDefs.step, step_gen in Hst. rewrite Ep in Hst. apply N.eqb_eq in Hc. rewrite Hc in Hst. injection Hst as <- _. sim.
    unfold setf. ssplit; try assumption; try reflexivity.
    - intros i T. destruct (N.eqb_spec i idx) as [->|Hne]; [intros [= <-]|]; auto.
    - intros T i. destruct (N.eqb_spec T (tl / 2)) as [->|Hne].
      + rewrite Tb. split; [intros [= <-]; auto|intros [H|[_ ->]]; [discriminate H|reflexivity]].
      + split; [auto|intros [H|[E _]]; [exact H|contradiction]].
  Qed.

  Lemma step_take_eff sg t sg' es x hd e : Inv1 k sg -> Inv2 k sg -> step sg (Step t) = Some (sg', es) ->
    th sg t = D3 RA x hd e ->
    let i0 := N.land e (vmask cap) in
    (forall i T, g_own sg' i = OFull T -> i <> i0 /\ g_own sg i = OFull T) /\
    (forall i, store sg' i = store sg i) /\
    (forall T i, g_eq (ra sg') T = EPub i <-> g_eq (ra sg) T = EPub i) /\
    (forall H i, g_dq (ra sg') H = DTaken i <-> (g_dq (ra sg) H = DTaken i \/ (H = hd / 2 /\ i = i0))) /\
    g_dq (ra sg) (hd / 2) = DHeld t /\ g_own sg i0 = OFull (hd / 2) /\ i0 < cap /\ g_own sg' i0 = ORead t.
  Proof.
    intros I1 I2 Hst Ep i0.
    destruct (ticket_of_pc k R Hk sg t RA hd I1 I2 ltac:(rewrite Ep; reflexivity)) as (Hhd2 & Hhdlt & Hheld & Hcyc).
    pose proof I2 as (HR & HT & _). destruct (HT t) as (_ & _ & _ & Td). rewrite Ep in Td. destruct Td as (Hidx & Hsi & Hsc).
    assert (Ei0 : i0 = eidx k e) by (unfold i0; apply (land_vmask k Hk)).
    destruct (HR RA) as [_ _ _ _ s2 _ _ _ _].
    assert (HH0 : 2 * (hd / 2) < 2 ^ 62) by (rewrite <- Hhd2; exact Hhdlt).
    destruct (s2 (hd / 2) HH0 ltac:(rewrite Hsi; exact Hidx) ltac:(rewrite Hsc; exact Hcyc)) as (X & Y & Z).
    rewrite Hsi, <- Ei0 in X, Y. cbn [inring] in Y.
    (* the successor state, written out *)
    unfold NikbDefs.step, step_gen in Hst. rewrite Ep in Hst. injection Hst as <- _. sim. fold i0.
    unfold setf. ssplit; try assumption; try reflexivity; try (rewrite Ei0; exact Hidx).
    - intros i T. destruct (N.eqb_spec i i0) as [->|Hne]; [discriminate|auto].
    - intros H i. destruct (N.eqb_spec H (hd / 2)) as [->|Hne].
      + rewrite Hheld. split; [intros [= <-]; auto|intros [Hx|[_ ->]]; [discriminate Hx|reflexivity]].
      + split; [auto|intros [Hx|[E _]]; [exact Hx|contradiction]].
    - rewrite N.eqb_refl. reflexivity.
  Qed.
End Val.
