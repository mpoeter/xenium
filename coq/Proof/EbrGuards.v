(** Guards of the epoch based reclamation model (Model/EbrDefs.v), the core of C01:
    [guard_ok]  a node held by a guard_ptr of thread u (a persistent guard of the client or the guard of the running
                repl) is still published in its cell, or it was retired in a local epoch r with
                local_epoch(u) <= r + 1;
    [guard_not_freed]  hence (with [P1]: the global epoch is at most one ahead of a thread inside its critical region,
                and [tag_ok]: a node is freed only when the global epoch is >= r + 3) a guarded node is not freed;
    [uaf_reach] no dereference ever hits a destroyed node.  No axioms. *)
From Coq Require Import NArith List Bool Arith Lia PeanoNat Setoid.
From XV Require Import Conc.Lts Conc.Ev Model.EbrDefs Proof.EbrBase Proof.EbrEpoch Proof.EbrNodes Proof.EbrTags.
Import ListNotations.
Local Open Scope N_scope.

(** * Guards *)
Definition holds (s : state) (u : nat) (n : N) : Prop :=
  (exists sl, gs (tl s u) sl = Some n) \/ tmpg (th s u) = Some n.

Definition guard_ok (s : state) (u : nat) (n : N) : Prop :=
  (exists c, g_life s n = LPub c) \/
  (exists t' r b, g_life s n = LRet t' r /\ cb (tl s u) = Some b /\ blocal s b <= r + 1).

(** a thread that holds a guard is inside a critical region with a validated epoch *)
Lemma holds_shape ns p x n : tshape ns p x -> ((exists sl, gs x sl = Some n) \/ tmpg p = Some n) ->
  cb x <> None /\ has_loc p = true /\ (1 <= nest x)%nat /\ in_enter p = false /\ in_cphase p = false /\
  (forall le, ve p le = Some le) /\ flagexp p (nest x) = true.
Proof.
  intros T [(sl & Hs)|Hp].
  - assert (Hlt : (sl < ns)%nat). { destruct (le_lt_dec ns sl) as [Hle|]; [|assumption]. rewrite (ts_hi _ _ _ T sl Hle) in Hs. discriminate. }
    pose proof (cnt_pos _ _ _ _ Hs Hlt) as Hc. pose proof (ts_cnt _ _ _ T) as Hn.
    assert (H1 : (1 <= nest x)%nat) by lia.
    assert (Hcb : cb x <> None). { intros E. destruct (ts_fresh _ _ _ T E) as [E0 _]. lia. }
    assert (He : in_enter p = false). { destruct (in_enter p) eqn:E; [|reflexivity]. pose proof (ts_e _ _ _ T E). unfold tmp in Hn. rewrite E in Hn. lia. }
    assert (Hc' : in_cphase p = false). { destruct (in_cphase p) eqn:E; [|reflexivity]. pose proof (ts_c _ _ _ T E). lia. }
    assert (Hlv : forall k, p <> LV k). { intros k ->. pose proof (ts_lv _ _ _ T eq_refl). lia. }
    assert (Hx : in_xphase p = false). { destruct (in_xphase p) eqn:E; [|reflexivity]. destruct (ts_x _ _ _ T E) as [_ Hg]. rewrite Hg in Hs. discriminate. }
    repeat split; try assumption.
    + destruct p; cbn in Hc' |- *; try reflexivity; discriminate.
    + intros le. destruct p; cbn in He, Hc' |- *; try reflexivity; discriminate.
    + destruct p; cbn in He |- *; try discriminate; try (exfalso; eapply Hlv; reflexivity); try reflexivity;
        destruct (Nat.eqb_spec (nest x) 0); try reflexivity; lia.
  - destruct p; cbn in Hp; try discriminate. destruct g; [|discriminate].
    pose proof (ts_cnt _ _ _ T) as Hn. cbn in Hn.
    pose proof (ts_need _ _ _ T eq_refl) as Hcb.
    repeat split; try assumption; try reflexivity; try lia.
    cbn. destruct (Nat.eqb_spec (nest x) 0); [lia|reflexivity].
Qed.

Lemma guard_not_freed ns s u n : T0 ns s -> O0 s -> EI s -> N0 s -> (forall m, tag_ok s m) -> guard_ok s u n -> holds s u n ->
  g_where s n <> PFreed /\ g_nfree s n = O /\ g_life s n <> LDropped.
Proof.
  intros T O [P _] I G Hg Hh.
  assert (Hw : g_where s n <> PFreed).
  { destruct Hg as [(c & L)|(t' & r & b & L & C & B)].
    - destruct (n_unret s I n) as [W _]; [rewrite L; discriminate|]. rewrite W. discriminate.
    - intros W. pose proof (G n t' r L) as Gn. rewrite W in Gn. cbn [tagp] in Gn.
      destruct (holds_shape _ _ _ _ (T u) Hh) as (_ & _ & _ & _ & _ & Hve & Hf).
      pose proof (o_flag s O u b C) as Hfl. rewrite Hf in Hfl.
      destruct (P u b C) as (_ & _ & PA). specialize (PA Hfl _ (Hve _)). lia. }
  split; [exact Hw|].
  pose proof (n_where s I n) as W. split.
  - destruct (g_where s n); cbn in W; try (destruct W as [_ W]; exact W). congruence.
  - destruct Hg as [(c & L)|(t' & r & b & L & _)]; rewrite L; discriminate.
Qed.

(** a guard held after a step of t was held before, or was just read from a cell *)
Lemma step_holds ns s t s' es n : step ns s (Step t) = Some (s', es) -> holds s' t n -> holds s t n \/ exists c, cells s c = Some n.
Proof.
  intros H. unfold holds. unfold_step H. cbv zeta in H. step_split H.
  all: prj; rewrite ?upd_same; prj; rewrite ?E; cbn [tmpg]; xn; cbn [tmpg].
  all: intros [(sl & Hs)|Hp]; try discriminate Hp; try discriminate Hs.
  all: try solve [left; left; eauto].
  all: try solve [injection Hp as <-; eauto].
  all: try solve [destruct (upd_cases (gs (tl s t)) s0 None sl) as [[_ X]|[_ X]]; rewrite X in Hs; [discriminate Hs|left; left; eauto]].
  destruct (upd_cases (gs (tl s t)) s0 (Some n0) sl) as [[_ X]|[_ X]]; rewrite X in Hs; [injection Hs as <-; right; eauto|left; left; eauto].
Qed.

(* the life of a published or retired node only changes when the CAS of repl/clear unlinks it *)
Lemma nstep_life t s p' st n : N0 s -> nstep t s p' st -> (forall u, g_life s n <> LFresh u) -> g_life s n <> LNone ->
  g_life st n = g_life s n \/
  exists c n0, th s t = R3 c (Some n) n0 /\ g_life st n = LRet t (match cb (tl s t) with Some b => blocal s b | None => 0 end).
Proof.
  intros I Hn Hf Hnn. pose proof (c_lt s (n_core s I) n Hnn) as Hlt.
  destruct Hn; try (left; reflexivity).
  - left. unfold alloc_node. prj. apply updN_other. lia.
  - assert (Hp : g_life (publish c n0 s) n = g_life s n).
    { unfold publish. destruct n0 as [n1|]; prj; [|reflexivity]. apply updN_other. intros ->. apply (Hf t). apply (n_fresh1 s I). rewrite H. reflexivity. }
    destruct g as [old|]; [|left; exact Hp]. unfold retire. prj.
    destruct (updN_cases (g_life (publish c n0 s)) old (LRet t (match cb (tl (publish c n0 s) t) with Some b => blocal (publish c n0 s) b | None => 0 end)) n) as [[-> X]|[_ X]]; rewrite X; [|left; exact Hp].
    right. exists c, n0. split; [exact H|]. destruct n0; reflexivity.
  - left. unfold drop. destruct n0 as [n1|]; prj; [|reflexivity]. apply updN_other. intros ->. apply (Hf t). apply (n_fresh1 s I). rewrite H. reflexivity.
Qed.

(* the published epoch of t only changes while it acquires a control block, updates its local epoch, or exits *)
Lemma nstep_lb t s p' st : nstep t s p' st -> in_enter (th s t) = false -> th s t <> X3 -> lb st t = lb s t.
Proof.
  intros Hn He Hx. destruct Hn; try reflexivity; try congruence; unfold lb; prj; rewrite ?upd_same; prj; try reflexivity.
  - destruct g, n; unfold retire, publish; prj; rewrite ?upd_same; prj; reflexivity.
  - destruct n; reflexivity.
  - rewrite H in He. discriminate He.
Qed.

Lemma GI_step ns s t s' es : T0 ns s -> O0 s -> EI s -> N0 s -> (forall u n, holds s u n -> guard_ok s u n) ->
  step ns s (Step t) = Some (s', es) -> forall u n, holds s' u n -> guard_ok s' u n.
Proof.
  intros T O [P _] I G H u n Hh.
  destruct (step_nodes _ _ _ _ _ H) as (st & Hn & (_ & _ & _ & Hli & _) & Hlb). prj_in Hli.
  destruct (step_frame _ _ _ _ _ H) as (Fth & _).
  assert (Hold : holds s u n \/ exists c, cells s c = Some n).
  { destruct (Nat.eq_dec u t) as [->|Hu]; [exact (step_holds _ _ _ _ _ _ H Hh)|]. left. unfold holds in *. destruct (Fth u Hu) as [<- <-]. exact Hh. }
  (* the epoch u has published is the same after the step *)
  assert (Hlbu : holds s u n -> lb s' u = lb s u).
  { intros Hs. destruct (Nat.eq_dec u t) as [->|Hu]; [|exact (lb_other _ _ _ _ _ u O H Hu)].
    destruct (holds_shape _ _ _ _ (T t) Hs) as (_ & _ & _ & He & Hc & _ & _). rewrite (Hlb Hc). apply (nstep_lb _ _ _ _ Hn He).
    intros X. destruct (ts_x _ _ _ (T t) ltac:(rewrite X; reflexivity)) as [_ Hg]. destruct Hs as [(sl & Hs)|Hs]; [rewrite Hg in Hs|rewrite X in Hs]; discriminate. }
  assert (Hlive : (forall v, g_life s n <> LFresh v) /\ g_life s n <> LNone).
  { destruct Hold as [Hs|(c & Hc)]; [destruct (G u n Hs) as [(c & L)|(t' & r & b & L & _)]|pose proof (n_cell s I _ _ Hc) as L]; rewrite L; split; intros; discriminate. }
  unfold guard_ok. rewrite Hli.
  destruct (nstep_life t s _ st n I Hn (proj1 Hlive) (proj2 Hlive)) as [->|(c & n0 & Hpc & ->)].
  - (* the life of n did not change *)
    destruct Hold as [Hs|(c & Hc)]; [|left; exists c; exact (n_cell s I _ _ Hc)].
    destruct (G u n Hs) as [(c & L)|(t' & r & b & L & C & B)]; [left; eauto|right].
    pose proof (Hlbu Hs) as X. unfold lb in X. rewrite C in X. destruct (cb (tl s' u)) as [b'|]; [|discriminate]. injection X as X.
    exists t', r, b'. rewrite X. auto.
  - (* n was unlinked and retired by t: every thread holding it has published an epoch of at most r + 1 *)
    right. assert (Ht : holds s t n) by (right; rewrite Hpc; reflexivity).
    destruct (holds_shape _ _ _ _ (T t) Ht) as (Hcb & _ & _ & _ & _ & Hve & Hf).
    destruct (cb (tl s t)) as [bt|] eqn:Ebt; [|congruence].
    pose proof (o_flag s O t bt Ebt) as Hfl. rewrite Hf in Hfl. destruct (P t bt Ebt) as (_ & _ & PA). specialize (PA Hfl _ (Hve _)).
    assert (Hs : holds s u n) by (destruct (Nat.eq_dec u t) as [->|Hu]; [exact Ht | unfold holds in *; destruct (Fth u Hu) as [<- <-]; exact Hh]).
    destruct (holds_shape _ _ _ _ (T u) Hs) as (Hcbu & Hloc & _).
    pose proof (Hlbu Hs) as X. unfold lb in X. destruct (cb (tl s u)) as [bu|] eqn:Ebu; [|congruence].
    destruct (cb (tl s' u)) as [b'|]; [|discriminate]. injection X as X.
    destruct (P u bu Ebu) as (PL & _ & _). destruct (PL Hloc) as [PL1 _].
    exists t, (blocal s bt), b'. rewrite X. repeat split; lia.
Qed.

Lemma GI_start ns s t o s' es : (forall u n, holds s u n -> guard_ok s u n) ->
  step ns s (Start t o) = Some (s', es) -> forall u n, holds s' u n -> guard_ok s' u n.
Proof.
  intros G H. destruct (start_pc _ _ _ _ _ _ H) as (Hidle & Eth & Etl & Eg & Ef & El & Hp).
  assert (Etm : forall u, tmpg (th s' u) = tmpg (th s u)).
  { intros u. rewrite Eth. destruct (Nat.eq_dec u t) as [->|Hne]; [rewrite upd_same, Hidle|rewrite upd_other by exact Hne; reflexivity].
    destruct Hp as [->|[Hp|[o' ->]]]; [reflexivity| |reflexivity]. destruct (th s' t); try discriminate; reflexivity. }
  assert (Elf : g_life s' = g_life s). { unfold step in H. step_split H; prj; reflexivity. }
  intros u n Hh. unfold holds, guard_ok in *. rewrite Etl, Etm in Hh. rewrite Elf, Etl, El. apply G. exact Hh.
Qed.

Section ReachG.
Variables (ns : nat) (nc : N).
Lemma GI_reach s : reachable ns nc s -> forall u n, holds s u n -> guard_ok s u n.
Proof.
  apply (inv_rule_aux _ _ _ _ _ (fun s => T0 ns s /\ O0 s /\ EI s /\ N0 s) (fun s => forall u n, holds s u n -> guard_ok s u n)).
  - intros s0 Hr. split; [apply (T0_reach ns nc); exact Hr|]. split; [apply (O0_reach ns nc); exact Hr|]. split; [apply (EI_reach ns nc); exact Hr|apply (N0_reach ns nc); exact Hr].
  - intros u n [(sl & Hs)|Hp]; cbn in *; discriminate.
  - intros s0 a s1 es (J1 & J2 & J3 & J4) _ I H. destruct a as [t o|t]; [eapply GI_start; eauto|eapply GI_step; eauto].
Qed.
End ReachG.

(** * No dereference of a destroyed node *)
Lemma dead_false s n : g_nfree s n = O -> g_life s n <> LDropped -> dead s n = false.
Proof. intros H1 H2. unfold dead. rewrite H1. cbn. destruct (g_life s n); try reflexivity. congruence. Qed.

Lemma uaf_step ns s a s' es : T0 ns s -> O0 s -> EI s -> N0 s -> (forall m, tag_ok s m) -> (forall u n, holds s u n -> guard_ok s u n) ->
  g_uaf s = false -> step ns s a = Some (s', es) -> g_uaf s' = false.
Proof.
  intros T O EIs I Tg G U H. destruct a as [t o|t].
  { unfold step in H. step_split H; prj; exact U. }
  assert (Hcell : forall c n, cells s c = Some n -> dead s n = false).
  { intros c n Hc. pose proof (n_cell s I c n Hc) as L. apply dead_false; [|rewrite L; discriminate].
    destruct (wh_not_ret _ _ _ (n_where s I n)) as [_ W]; [rewrite L; intros; discriminate|exact W]. }
  assert (Hslot : forall sl n, gs (tl s t) sl = Some n -> dead s n = false).
  { intros sl n Hs. assert (Hh : holds s t n) by (left; exists sl; exact Hs).
    destruct (guard_not_freed _ _ _ _ T O EIs I Tg (G t n Hh) Hh) as (_ & H1 & H2). apply dead_false; assumption. }
  unfold_step H. cbv zeta in H. step_split H.
  all: bool_eqs; prj; try exact U.
  all: rewrite U; cbn [orb]; unfold dead; prj.
  all: first [ eapply Hslot; eassumption | eapply Hcell; eassumption | idtac ].
  all: pose proof (Hcell _ _ E0) as Hd; unfold dead in Hd; apply orb_false_iff in Hd; destruct Hd as [Hd1 Hd2]; rewrite Hd1; cbn [orb];
       destruct (updN_cases (g_life s) n1 (LPub c) n0) as [[_ ->]|[_ ->]]; [reflexivity|exact Hd2].
Qed.

Section ReachU.
Variables (ns : nat) (nc : N).
Lemma uaf_reach s : reachable ns nc s -> g_uaf s = false.
Proof.
  apply (inv_rule_aux _ _ _ _ _ (fun s => T0 ns s /\ O0 s /\ EI s /\ N0 s /\ (forall m, tag_ok s m) /\ (forall u n, holds s u n -> guard_ok s u n)) (fun s => g_uaf s = false)).
  - intros s0 Hr. split; [apply (T0_reach ns nc); exact Hr|]. split; [apply (O0_reach ns nc); exact Hr|]. split; [apply (EI_reach ns nc); exact Hr|].
    split; [apply (N0_reach ns nc); exact Hr|]. split; [apply (tag_reach ns nc); exact Hr|apply (GI_reach ns nc); exact Hr].
  - reflexivity.
  - intros s0 a s1 es (J1 & J2 & J3 & J4 & J5 & J6) _ I H. eapply uaf_step; eauto.
Qed.
End ReachU.
