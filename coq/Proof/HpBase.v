(** Hazard pointer model (Model/HpDefs.v), base layer: the transitions of a thread as an inductive relation
    ([tstep], with [move] for the steps that change only the program counter; [step_inv] is the case analysis
    of [step] behind the step proofs of the layers O, N, P, V, S; layer G, Proof/HpGuards.v, has its own: [leaves]) and
    Layer O: ownership of the control blocks (thread_block_list entries): a block has at most one owner, owned blocks
    are linked and active, the walks only visit linked blocks.  The other layers: Proof/HpGuards.v, Proof/HpNodes.v,
    Proof/HpInv.v (theorems hp_safe, hp_exactly_once), Proof/HpFlush.v (hp_no_leak_at_quiescence_partial). *)
From Coq Require Import NArith List Bool Arith Lia PeanoNat.
From XV Require Import Conc.Lts Conc.Ev Model.HpDefs.
Import ListNotations.

(** destructs the scrutinee of an innermost [match] of [H] *)
Ltac des1 H :=
  match type of H with
  | context [match ?x with _ => _ end] =>
    match x with
    | context [match _ with _ => _ end] => fail 1
    | _ => let E := fresh "E" in destruct x eqn:E
    end
  end.

Lemma upd_upd {X} (f : nat -> X) t a b x : upd (upd f t a) t b x = upd f t b x.
Proof. unfold upd. destruct (Nat.eqb x t); reflexivity. Qed.

Ltac upds :=
  repeat first [ rewrite upd_upd | rewrite upd_same | rewrite upd_other by (first [assumption | congruence | lia]) ].
Ltac upds_in H :=
  repeat first [ rewrite upd_upd in H | rewrite upd_same in H | rewrite upd_other in H by (first [assumption | congruence | lia]) ].

Lemma oeqb_eq a b : oeqb a b = true <-> a = b.
Proof.
  destruct a, b; cbn; split; intros H; try congruence; try reflexivity.
  - apply Nat.eqb_eq in H. congruence.
  - injection H as ->. apply Nat.eqb_refl.
Qed.

(** * [step] as a relation: the transitions of thread [t], the new state as a term over the old one *)
Section Step.
Variables nslots t : nat.

Definition next_pc (s : scan) (rest : list nat) : pc := match rest with [] => S7 s | r :: l => S5 s r l end.
Definition exit_pc (st : state) : pc := match rcd (tl st t) with Some _ => X4 | None => Done end.
Definition td_pc (st : state) : pc := if is_nil (rl (tl st t)) then exit_pc st else S0 SExit.
Definition ret_pc (st : state) (r : list N) : pc := match hp (gd (tl st t) nslots) with Some _ => RR r | None => Idle end.

(** thread_end looks at the guards [g .. g + f - 1] *)
Inductive exits (st : state) (g f : nat) : pc -> Prop :=
| ex_guard g' : g <= g' < g + f -> hp (gd (tl st t) g') <> None -> (forall j, g <= j < g' -> hp (gd (tl st t) j) = None) ->
    exits st g f (X0 g')
| ex_td : (forall j, g <= j < g + f -> hp (gd (tl st t) j) = None) -> exits st g f (td_pc st).

(** where thread_end can go *)
Lemma exits_pc (P : pc -> Prop) st g f p' :
  (forall g', P (X0 g')) -> P (S0 SExit) -> P X4 -> P Done -> exits st g f p' -> P p'.
Proof.
  intros H0 H1 H2 H3 [g' _ _ _|_]; [apply H0|]. unfold td_pc, exit_pc. destruct (is_nil _); [destruct (rcd _)|]; assumption.
Qed.

Lemma exit_guards_inv st f : forall g e r,
  exit_guards st t g f e = Some r -> exists p', exits st g f p' /\ fst r = set_pc t p' st.
Proof.
  induction f as [|f IH]; intros g e r H; cbn [exit_guards] in H.
  - exists (td_pc st). split; [apply ex_td; intros; lia|].
    unfold exit_td, td_pc, exit_rel, exit_pc in *. destruct (is_nil (rl (tl st t))), (rcd (tl st t)); injection H as <-; reflexivity.
  - destruct (hp (gd (tl st t) g)) eqn:Hg.
    + injection H as <-. exists (X0 g). split; [|reflexivity]. apply ex_guard; [lia|congruence|intros; lia].
    + destruct (IH (S g) e r H) as (p' & Hx & Hr). exists p'. split; [|exact Hr].
      assert (Hj : forall j, g <= j -> j <> g -> S g <= j) by (intros; lia).
      destruct Hx as [g' H1 H2 H3|H1]; [apply ex_guard|apply ex_td]; try assumption; try lia;
        intros j Hj'; (destruct (Nat.eq_dec j g) as [->|Hne]; [exact Hg|]); [apply H3|apply H1]; lia.
Qed.

(** the steps that change nothing but the program counter of the thread *)
Inductive move (st : state) : pc -> pc -> Prop :=
| m_repl c : move st (Begin (ORepl c)) (Q1 (KRepl c true))
| m_clear c : move st (Begin (OClear c)) (Q1 (KRepl c false))
| m_read c : move st (Begin (ORead c)) (Q1 (KRead c))
| m_hold c g : move st (Begin (OHold c g)) (Q1 (KHold c g))
| m_drop g : hp (gd (tl st t) g) <> None -> move st (Begin (ODrop g)) (D1 g)
| m_exit p' : exits st 0 nslots p' -> move st (Begin OExit) p'
| m_q1_w0 k p : cells st (cell_of k) = Some p -> hp (gd (tl st t) (guard_of nslots k)) = None -> rcd (tl st t) = None ->
    move st (Q1 k) (W0 k p)
| m_q1_h1 k p : cells st (cell_of k) = Some p -> hp (gd (tl st t) (guard_of nslots k)) = None -> rcd (tl st t) <> None ->
    hint (tl st t) <> None -> move st (Q1 k) (H1 k p)
| m_q1_q2 k p : cells st (cell_of k) = Some p -> hp (gd (tl st t) (guard_of nslots k)) <> None -> move st (Q1 k) (Q2 k p)
| m_q1_qr k : cells st (cell_of k) = None -> hp (gd (tl st t) (guard_of nslots k)) <> None -> move st (Q1 k) (QR k)
| m_w0 k p r rest : blist st = r :: rest -> move st (W0 k p) (W1 k p r rest)
| m_w1_w2 k p r rest : est st r = 0 -> move st (W1 k p r rest) (W2 k p r rest)
| m_w1_w1 k p r r' rest : est st r <> 0 -> move st (W1 k p r (r' :: rest)) (W1 k p r' rest)
| m_w2_w1 k p r r' rest : est st r <> 0 -> move st (W2 k p r (r' :: rest)) (W1 k p r' rest)
| m_a2 k p b : move st (A2 k p b) (A3 k p b (hd_opt (blist st)))
| m_a3 k p b h : hd_opt (blist st) <> h -> move st (A3 k p b h) (A3 k p b (hd_opt (blist st)))
| m_q3 k p : move st (Q3 k p) (Q4 k p)
| m_q4_q2 k p p2 : cells st (cell_of k) = Some p2 -> p2 <> p -> move st (Q4 k p) (Q2 k p2)
| m_q4_qr k p : cells st (cell_of k) = None -> hp (gd (tl st t) (guard_of nslots k)) <> None -> move st (Q4 k p) (QR k)
| m_t1 : move st T1 (S0 SRepl)
| m_s0 k : nact st = 0 -> move st (S0 k) (S1 (mkScan k 0 None [] []))
| m_s1 s : move st (S1 s) (S2 s)
| m_s2_s4 s : aband st = [] -> move st (S2 s) (S4 s)
| m_s2_s3 s : aband st <> [] -> move st (S2 s) (S3 s)
| m_s4 s : move st (S4 s) (next_pc s (blist st))
| m_s5_s6 s r rest : est st r = 2 -> move st (S5 s r rest) (S6 s r rest 0)
| m_s5_next s r rest : est st r <> 2 -> move st (S5 s r rest) (next_pc s rest)
| m_s6 s r rest i nx : hz st r i = VLink nx -> i < 2 -> move st (S6 s r rest i) (S6 s r rest (S i))
| m_s6_last s r rest i nx : hz st r i = VLink nx -> 2 <= i -> move st (S6 s r rest i) (next_pc s rest)
| m_x2 : move st X2 (X3 (hd_opt (aband st)))
| m_x3 h : hd_opt (aband st) <> h -> move st (X3 h) (X3 (hd_opt (aband st))).

(** what acquire does to the guard before it returns: nothing (the cell holds this->ptr), the guard has no hazard
    pointer and the cell is null, the validating load succeeded, reset() *)
Inductive acq_pre (st : state) : pc -> ctx -> state -> Prop :=
| ap_same k : cells st (cell_of k) = ptr (gd (tl st t) (guard_of nslots k)) -> acq_pre st (Q1 k) k st
| ap_null1 k : cells st (cell_of k) = None -> hp (gd (tl st t) (guard_of nslots k)) = None ->
    acq_pre st (Q1 k) k (set_gd t (guard_of nslots k) (mkG None None true) st)
| ap_null4 k p : cells st (cell_of k) = None -> hp (gd (tl st t) (guard_of nslots k)) = None ->
    acq_pre st (Q4 k p) k (set_gd t (guard_of nslots k) (mkG None None true) st)
| ap_valid k p : cells st (cell_of k) = Some p ->
    acq_pre st (Q4 k p) k (set_gd t (guard_of nslots k) (mkG (hp (gd (tl st t) (guard_of nslots k))) (Some p) true) st)
| ap_reset k b i : rcd (tl st t) = Some b -> hp (gd (tl st t) (guard_of nslots k)) = Some i ->
    acq_pre st (QR k) k (reset_guard st t b i (guard_of nslots k)).

(** acquire returns: repl allocates its node, read and hold dereference *)
Definition acq_eff (k : ctx) (st : state) : state :=
  match k with
  | KRepl _ true =>
    w_nalloc (S (nalloc st)) (w_nextid (S (nextid st)) (w_nid (upd (nid st) (nalloc st) (nextid st))
      (w_g_life (upd (g_life st) (nalloc st) (LFresh t)) st)))
  | KRepl _ false => st
  | _ => deref_g (gd (tl st t) (guard_of nslots k)) st
  end.
Definition acq_pc (k : ctx) (st : state) : pc :=
  match k with
  | KRepl c fresh => R1 c (if fresh then Some (nalloc st) else None)
  | KRead _ => ret_pc st (deref_res st (gd (tl st t) nslots))
  | KHold _ _ => Idle
  end.

Lemma acq_done_eq st k e : exists e', acq_done nslots st t k e = Some (set_pc t (acq_pc k st) (acq_eff k st), e').
Proof.
  destruct k as [c [|]|c|c g]; unfold acq_done, ret_reset, finish, acq_pc, ret_pc, acq_eff, deref_g; cbn [guard_of];
    try (destruct (ptr (gd (tl st t) nslots))); cbn [deref tl w_g_uaf]; try (destruct (hp (gd (tl st t) nslots))); eexists; reflexivity.
Qed.

(** [st'] differs from [st] at most in the allocation counter, the node ids, the life of a fresh node and [g_uaf] *)
Record quiet (st st' : state) : Prop := mkQuiet {
  q_cells : cells st' = cells st; q_blist : blist st' = blist st; q_est : est st' = est st; q_hz : hz st' = hz st;
  q_aband : aband st' = aband st; q_nact : nact st' = nact st; q_th : th st' = th st; q_tl : tl st' = tl st;
  q_owner : g_owner st' = g_owner st; q_where : g_where st' = g_where st; q_nfree : g_nfree st' = g_nfree st;
  q_nalloc : nalloc st <= nalloc st' }.

Lemma deref_quiet g st : quiet st (deref_g g st).
Proof. unfold deref_g. destruct (ptr g); constructor; cbn; auto. Qed.

Lemma acq_quiet k st : quiet st (acq_eff k st).
Proof. destruct k as [c [|]|c|c g]; cbn [acq_eff]; try apply deref_quiet; constructor; cbn; auto. Qed.

Lemma push_quiet st s x : quiet st (fst (fst (push st t s x))).
Proof. unfold push. destruct (length (s_prot s) <? s_cap s); constructor; cbn; auto. Qed.

Lemma push_scan st s x :
  s_k (snd (fst (push st t s x))) = s_k s /\ s_ad (snd (fst (push st t s x))) = s_ad s /\
  s_prot (snd (fst (push st t s x))) = s_prot s ++ [x].
Proof. unfold push. destruct (length (s_prot s) <? s_cap s); repeat split. Qed.

Lemma deref_life g st : g_life (deref_g g st) = g_life st.
Proof. unfold deref_g. destruct (ptr g); reflexivity. Qed.
Lemma push_life st s x : g_life (fst (fst (push st t s x))) = g_life st /\ g_uaf (fst (fst (push st t s x))) = g_uaf st.
Proof. unfold push. destruct (length (s_prot s) <? s_cap s); split; reflexivity. Qed.

(** the walk over the thread block list found no free entry *)
Inductive walk_end (st : state) : pc -> ctx -> nat -> Prop :=
| we_w0 k p : blist st = [] -> walk_end st (W0 k p) k p
| we_w1 k p r : est st r <> 0 -> walk_end st (W1 k p r []) k p
| we_w2 k p r : est st r <> 0 -> walk_end st (W2 k p r []) k p.

(** reset() of guard [g] outside acquire and reclaim, and where the thread goes then *)
Inductive reset_at (st1 : state) : pc -> nat -> pc -> Prop :=
| ra_rr r : reset_at st1 (RR r) nslots Idle
| ra_d1 g : reset_at st1 (D1 g) g Idle
| ra_x0 g p' : exits st1 (S g) (nslots - S g) p' -> reset_at st1 (X0 g) g p'.

Definition retire (o : nat) (st : state) : state :=
  set_tl t (wt_rl (o :: rl (tl st t)) (tl st t)) (w_g_life (upd (g_life st) o (LRet t)) (w_g_where (upd (g_where st) o (PList t)) st)).

(** the client's CAS: the new node is published, the old one unlinked *)
Definition publish (c : nat) (n : option nat) (st : state) : state :=
  let st1 := w_cells (upd (cells st) c n) st in
  match n with Some n' => w_g_life (upd (g_life st1) n' (LPub c)) st1 | None => st1 end.
Definition unlink (o : nat) (st : state) : state := deref o (w_g_life (upd (g_life st) o (LUnl t)) st).
Definition drop_new (n : option nat) (st : state) : state :=
  match n with
  | Some n' => w_g_nfree (upd (g_nfree st) n' (S (g_nfree st n'))) (w_g_life (upd (g_life st) n' LDropped) st)
  | None => st
  end.

(** the end of scan() *)
Definition kept (s : scan) (st : state) : list nat :=
  rev (filter (is_prot (s_prot s)) (s_ad s)) ++ rev (filter (is_prot (s_prot s)) (rl (tl st t))).
Definition reclaimed (s : scan) (st : state) : state :=
  set_tl t (wt_rl (kept s st) (tl st t))
    (move_all (kept s st) (PList t) (free_all (filter (fun n => negb (is_prot (s_prot s) n)) (rl (tl st t) ++ s_ad s)) st)).
Definition abandoned (st : state) : state :=
  set_tl t (wt_rl [] (tl st t)) (move_all (rl (tl st t)) PAband (w_aband (rl (tl st t) ++ aband st) st)).

Inductive scan_ret (s : scan) (st : state) : pc -> Prop :=
| sr_repl : s_k s = SRepl -> scan_ret s st Idle
| sr_exit : s_k s = SExit -> kept s st = [] -> scan_ret s st (exit_pc (reclaimed s st))
| sr_more : s_k s = SExit -> kept s st <> [] -> scan_ret s st X2.

Inductive tstep (st : state) : state -> Prop :=
| ts_move p p' : th st t = p -> move st p p' -> tstep st (set_pc t p' st)
| ts_deref g : th st t = Begin (ODeref g) -> tstep st (set_pc t Idle (deref_g (gd (tl st t) g) st))
| ts_drop0 g : th st t = Begin (ODrop g) -> hp (gd (tl st t) g) = None -> tstep st (set_pc t Idle (set_gd t g g0 st))
| ts_throw k p : th st t = Q1 k -> hp (gd (tl st t) (guard_of nslots k)) = None -> rcd (tl st t) <> None -> hint (tl st t) = None ->
    cells st (cell_of k) = Some p -> tstep st (set_pc t Idle (w_nalloc (S (nalloc st)) st))
| ts_new p k q : th st t = p -> walk_end st p k q ->
    tstep st (set_pc t (A1 k q (nalloc st))
                (w_nalloc (S (nalloc st)) (w_est (upd (est st) (nalloc st) 2) (w_g_owner (upd (g_owner st) (nalloc st) (Some t)) st))))
| ts_adopt k q r rest : th st t = W2 k q r rest -> est st r = 0 ->
    tstep st (set_pc t (I0 k q) (set_tl t (wt_rcd (Some r) (tl st t)) (w_est (upd (est st) r 2) (w_g_owner (upd (g_owner st) r (Some t)) st))))
| ts_a1 k q b : th st t = A1 k q b -> tstep st (set_pc t (A2 k q b) (w_est (upd (est st) b 2) st))
| ts_link k q b h : th st t = A3 k q b h -> hd_opt (blist st) = h ->
    tstep st (set_pc t (I0 k q) (set_tl t (wt_rcd (Some b) (tl st t)) (w_blist (b :: blist st) st)))
| ts_i0 k q : th st t = I0 k q -> tstep st (set_pc t (I1 k q 0) (w_nact (nact st + 3) st))
| ts_i1 k q i b : th st t = I1 k q i -> rcd (tl st t) = Some b -> i < 2 ->
    tstep st (set_pc t (I1 k q (S i)) (w_hz (upd2 (hz st) b i (VLink (Some (S i)))) st))
| ts_i1_last k q i b : th st t = I1 k q i -> rcd (tl st t) = Some b -> 2 <= i ->
    tstep st (set_pc t (H1 k q) (set_tl t (wt_hint (Some 0) (wt_fl [0; 1; 2] (tl st t))) (w_hz (upd2 (hz st) b i (VLink None)) st)))
| ts_h1 k q b i : th st t = H1 k q -> rcd (tl st t) = Some b -> hint (tl st t) = Some i ->
    tstep st (set_pc t (Q2 k q)
      (set_tl t (wt_hint (link_of (hz st b i)) (wt_fl (List.tl (fl (tl st t)))
         (wt_gd (upd (gd (tl st t)) (guard_of nslots k)
                   (mkG (Some i) (ptr (gd (tl st t) (guard_of nslots k))) (gv (gd (tl st t) (guard_of nslots k))))) (tl st t)))) st))
| ts_q2 k q b i : th st t = Q2 k q -> rcd (tl st t) = Some b -> hp (gd (tl st t) (guard_of nslots k)) = Some i ->
    tstep st (set_pc t (Q3 k q)
      (set_gd t (guard_of nslots k) (mkG (Some i) (ptr (gd (tl st t) (guard_of nslots k))) false)
         (w_hz (upd2 (hz st) b i (VObj (Some q))) st)))
| ts_cas c n o : th st t = R1 c n -> cells st c = Some o -> ptr (gd (tl st t) nslots) = Some o -> hp (gd (tl st t) nslots) <> None ->
    tstep st (set_pc t (R2 o) (unlink o (publish c n st)))
| ts_cas_nohp c n o : th st t = R1 c n -> cells st c = Some o -> ptr (gd (tl st t) nslots) = Some o -> hp (gd (tl st t) nslots) = None ->
    let st3 := unlink o (publish c n st) in
    tstep st (set_pc t T1 (set_tl t (wt_rl (o :: rl (tl st t)) (wt_gd (upd (gd (tl st t)) nslots g0) (tl st t)))
                             (w_g_life (upd (g_life st3) o (LRet t)) (w_g_where (upd (g_where st3) o (PList t)) st3))))
| ts_cas_null c n : th st t = R1 c n -> cells st c = None -> ptr (gd (tl st t) nslots) = None ->
    tstep st (set_pc t (ret_pc st r_ok) (publish c n st))
| ts_cas_fail c n : th st t = R1 c n -> cells st c <> ptr (gd (tl st t) nslots) ->
    tstep st (set_pc t (ret_pc st r_lost) (drop_new n st))
| ts_r2 o b i : th st t = R2 o -> rcd (tl st t) = Some b -> hp (gd (tl st t) nslots) = Some i ->
    tstep st (set_pc t T1 (retire o (reset_guard st t b i nslots)))
| ts_reset p g b i p' : th st t = p -> rcd (tl st t) = Some b -> hp (gd (tl st t) g) = Some i ->
    reset_at (reset_guard st t b i g) p g p' -> tstep st (set_pc t p' (reset_guard st t b i g))
| ts_s0 k : th st t = S0 k -> nact st <> 0 ->
    tstep st (set_pc t (S1 (mkScan k (nact st) (Some (nalloc st)) [] [])) (w_nalloc (S (nalloc st)) st))
| ts_s3 s : th st t = S3 s ->
    tstep st (set_pc t (S4 (mkScan (s_k s) (s_cap s) (s_vec s) (s_prot s) (aband st))) (move_all (aband st) (PFlight t) (w_aband [] st)))
| ts_push s r rest i x : th st t = S6 s r rest i -> hz st r i = VObj x -> i < 2 ->
    tstep st (set_pc t (S6 (snd (fst (push st t s x))) r rest (S i)) (fst (fst (push st t s x))))
| ts_push_last s r rest i x : th st t = S6 s r rest i -> hz st r i = VObj x -> 2 <= i ->
    tstep st (set_pc t (next_pc (snd (fst (push st t s x))) rest) (fst (fst (push st t s x))))
| ts_s7 s p' : th st t = S7 s -> scan_ret s st p' -> tstep st (set_pc t p' (reclaimed s st))
| ts_x3 h : th st t = X3 h -> hd_opt (aband st) = h -> tstep st (set_pc t (exit_pc (abandoned st)) (abandoned st))
| ts_x4 : th st t = X4 -> tstep st (set_pc t X5 (w_nact (nact st - 3) st))
| ts_x5 b : th st t = X5 -> rcd (tl st t) = Some b ->
    tstep st (set_pc t Done (set_tl t (mkTl None None [] (gd (tl st t)) (rl (tl st t)))
                               (w_est (upd (est st) b 0) (w_g_owner (upd (g_owner st) b None) st))))
| ts_acq p k st1 : th st t = p -> acq_pre st p k st1 -> tstep st (set_pc t (acq_pc k st1) (acq_eff k st1)).

Lemma is_nil_eq l : is_nil l = true <-> l = [].
Proof. destruct l; split; intros H; try discriminate H; reflexivity. Qed.

Lemma scan_next_eq st s l e : scan_next st t s l e = Some (set_pc t (next_pc s l) st, e).
Proof. destruct l; reflexivity. Qed.
Lemma exit_rel_eq st e : exit_rel st t e = Some (set_pc t (exit_pc st) st, e).
Proof. unfold exit_rel, exit_pc. destruct (rcd (tl st t)); reflexivity. Qed.
Lemma ret_reset_eq st r e : exists e', ret_reset nslots st t r e = Some (set_pc t (ret_pc st r) st, e').
Proof. unfold ret_reset, ret_pc, finish. destruct (hp (gd (tl st t) nslots)); eexists; reflexivity. Qed.

Lemma step_inv st st' es : step nslots st (Step t) = Some (st', es) -> tstep st st'.
Proof.
  intros Hs. cbn [step] in Hs. destruct (th st t) eqn:Hth; try discriminate Hs.
  all: repeat first [ progress unfold acq_loop, throw, alloc_hp, walk, exit_td, finish in Hs
                    | rewrite scan_next_eq in Hs | rewrite exit_rel_eq in Hs | des1 Hs].
  all: try discriminate Hs.
  all: try match type of Hs with ret_reset _ ?s _ ?r ?e = _ => destruct (ret_reset_eq s r e) as [e' He]; rewrite He in Hs end.
  all: try match type of Hs with acq_done _ ?s _ ?k ?e = _ => destruct (acq_done_eq s k e) as [e' He]; rewrite He in Hs end.
  all: try (apply exit_guards_inv in Hs; destruct Hs as (p' & Hx & Hs); cbn [fst] in Hs).
  all: try (injection Hs as <- <-).
  all: try subst st'.
  all: cbn [guard_of cell_of] in *.
  all: repeat match goal with
       | E : oeqb _ _ = true |- _ => apply oeqb_eq in E
       | E : oeqb ?a ?b = false |- _ => assert (a <> b) by (intros Hc; apply oeqb_eq in Hc; congruence); clear E
       | E : (_ =? _) = true |- _ => apply Nat.eqb_eq in E
       | E : (_ =? _) = false |- _ => apply Nat.eqb_neq in E
       | E : (_ <? _) = true |- _ => apply Nat.ltb_lt in E
       | E : (_ <? _) = false |- _ => apply Nat.ltb_ge in E
       | E : is_nil _ = true |- _ => apply is_nil_eq in E
       | E : is_nil ?l = false |- _ => assert (l <> []) by (intros Hc; apply is_nil_eq in Hc; congruence); clear E
       | E : push ?a ?b ?c ?d = (?s0, ?s1, _) |- _ =>
         assert (Hp : s0 = fst (fst (push a b c d)) /\ s1 = snd (fst (push a b c d))) by (rewrite E; split; reflexivity);
         clear E; destruct Hp as [-> ->]
       end.
  (* the constructors with large successor terms are chosen by hand: unification against them is slow when it fails *)
  all: try (match type of Hth with
       | _ = R1 ?c ?n =>
         first [eapply (ts_cas st c n) | eapply (ts_cas_nohp st c n) | eapply (ts_cas_null st c n) | eapply (ts_cas_fail st c n)];
         solve [eassumption | congruence]
       | _ = R2 _ => eapply ts_r2; eassumption
       | _ = S7 _ => eapply ts_s7; [exact Hth|econstructor; assumption]
       | _ = X3 _ => eapply ts_x3; eassumption
       end).
  all: try (solve [eapply ts_move; [exact Hth|econstructor; first [eassumption | congruence]]]).
  all: try (solve [eapply ts_new; [exact Hth|econstructor; first [eassumption | congruence]]]).
  all: try (solve [eapply ts_reset; [exact Hth|eassumption|eassumption|econstructor; eassumption]]).
  all: try (solve [eapply ts_acq; [exact Hth|econstructor; first [eassumption | congruence]]]).
  all: econstructor; first [eassumption | congruence].
Qed.
End Step.

Ltac prj := cbn [cells blist est hz aband nact nalloc nextid nid th tl g_owner g_life g_where g_nfree g_uaf
                 rcd hint fl gd rl hp ptr gv s_k s_cap s_vec s_prot s_ad
                 w_cells w_blist w_est w_hz w_aband w_nact w_nalloc w_nextid w_nid w_th w_tl w_g_owner w_g_life w_g_where w_g_nfree w_g_uaf
                 wt_rcd wt_hint wt_fl wt_gd wt_rl set_pc set_tl set_gd free_all move_all deref deref_g reset_guard
                 retire unlink publish drop_new reclaimed abandoned].
Ltac prjh H := cbn [cells blist est hz aband nact nalloc nextid nid th tl g_owner g_life g_where g_nfree g_uaf
                 rcd hint fl gd rl hp ptr gv s_k s_cap s_vec s_prot s_ad
                 w_cells w_blist w_est w_hz w_aband w_nact w_nalloc w_nextid w_nid w_th w_tl w_g_owner w_g_life w_g_where w_g_nfree w_g_uaf
                 wt_rcd wt_hint wt_fl wt_gd wt_rl set_pc set_tl set_gd free_all move_all deref deref_g reset_guard
                 retire unlink publish drop_new reclaimed abandoned] in H.


(** the fields of a state that is [quiet] over another *)
Ltac quiet_rw Q :=
  rewrite ?(q_cells _ _ Q), ?(q_blist _ _ Q), ?(q_est _ _ Q), ?(q_hz _ _ Q), ?(q_aband _ _ Q), ?(q_nact _ _ Q), ?(q_th _ _ Q),
          ?(q_tl _ _ Q), ?(q_owner _ _ Q), ?(q_where _ _ Q), ?(q_nfree _ _ Q).

(** the transitions of the stepping thread; [Hth] names the hypothesis on its program counter *)
Ltac step_cases Hs Hth :=
  apply step_inv in Hs; destruct Hs; match goal with H : th _ _ = _ |- _ => rename H into Hth end.

(** applies [L] to a goal about [set_pc t p' st1] and rewrites the fields of [st1] that deref_g, push, acq_eff leave alone *)
Ltac see_through L :=
  match goal with
  | |- context [deref_g ?g ?s] => pose proof (deref_quiet g s) as Q; apply L; rewrite ?deref_life; quiet_rw Q
  | |- context [push ?a ?b ?c ?d] =>
    pose proof (push_quiet b a c d) as Q; apply L; rewrite ?(proj1 (push_life b a c d)), ?(proj2 (push_life b a c d)); quiet_rw Q
  | |- context [acq_eff ?n ?t ?k ?s] => pose proof (acq_quiet n t k s) as Q; apply L; quiet_rw Q
  | _ => apply L
  end.

Ltac sim := unfold reset_guard, set_gd; prj; upds; prj.
Ltac simh H := unfold reset_guard, set_gd in H; prjh H; upds_in H; prjh H.

(** * Layer O: ownership of the control blocks *)
Definition pendb (p : pc) : option nat := match p with A1 _ _ b | A2 _ _ b | A3 _ _ b _ => Some b | _ => None end.
Definition seek (p : pc) : bool :=
  match p with W0 _ _ | W1 _ _ _ _ | W2 _ _ _ _ | A1 _ _ _ | A2 _ _ _ | A3 _ _ _ _ => true | _ => false end.

(** the walks only visit linked control blocks *)
Definition walk_ok (st : state) (p : pc) : Prop :=
  match p with
  | W1 _ _ r rest | W2 _ _ r rest => forall b, In b (r :: rest) -> In b (blist st)
  | S5 _ r rest | S6 _ r rest _ => forall b, In b (r :: rest) -> In b (blist st)
  | _ => True
  end.


Record InvO (st : state) : Prop := mkO {
  O_rcd : forall t b, rcd (tl st t) = Some b -> g_owner st b = Some t /\ In b (blist st) /\ est st b = 2;
  O_own : forall t b, g_owner st b = Some t -> rcd (tl st t) = Some b \/ pendb (th st t) = Some b;
  O_pend : forall t b, pendb (th st t) = Some b -> g_owner st b = Some t /\ ~ In b (blist st) /\ est st b = 2;
  O_seek : forall t, seek (th st t) = true -> rcd (tl st t) = None;
  O_free : forall b, est st b = 0 -> g_owner st b = None;
  O_lt : forall b, nalloc st <= b -> g_owner st b = None /\ ~ In b (blist st);
  O_walk : forall t, walk_ok st (th st t) }.

(** two threads never own the same control block *)
Lemma own_inj st t t' b : InvO st -> rcd (tl st t) = Some b -> rcd (tl st t') = Some b -> t = t'.
Proof.
  intros HI H1 H2. destruct (O_rcd st HI t b H1) as [Ha _]. destruct (O_rcd st HI t' b H2) as [Hb _]. congruence.
Qed.

Section InvO.
Variable nslots : nat.

(** a new control block *)
Lemma InvO_new st t p :
  InvO st -> seek (th st t) = true -> pendb (th st t) = None -> pendb p = Some (nalloc st) -> seek p = true ->
  (forall s, walk_ok s p) ->
  InvO (set_pc t p (w_nalloc (S (nalloc st)) (w_est (upd (est st) (nalloc st) 2) (w_g_owner (upd (g_owner st) (nalloc st) (Some t)) st)))).
Proof.
  intros [I1 I2 I3 I4 I5 I6 I7] Hs Hp Hp' Hs' Hwp. set (b := nalloc st) in *.
  assert (Hb : g_owner st b = None /\ ~ In b (blist st)) by (apply I6; unfold b; lia).
  destruct Hb as [Hb1 Hb2].
  constructor; prj; fold b.
  - intros t' b' H. destruct (I1 t' b' H) as (H1 & H2 & H3).
    assert (b' <> b) by congruence. upds. tauto.
  - intros t' b' H. destruct (Nat.eq_dec b' b) as [->|Hne]; upds_in H.
    + injection H as <-. right. upds. exact Hp'.
    + destruct (Nat.eq_dec t' t) as [->|Hnt]; upds; [|apply I2; exact H].
      destruct (I2 t b' H) as [H1|H1]; [left; exact H1|congruence].
  - intros t' b' H. destruct (Nat.eq_dec t' t) as [->|Hnt]; upds_in H.
    + rewrite Hp' in H. injection H as <-. upds. tauto.
    + destruct (I3 t' b' H) as (H1 & H2 & H3). assert (b' <> b) by congruence. upds. tauto.
  - intros t' H. destruct (Nat.eq_dec t' t) as [->|Hnt]; upds_in H; [apply I4; exact Hs|apply I4; exact H].
  - intros b' H. destruct (Nat.eq_dec b' b) as [->|Hne]; upds_in H; [discriminate|]. upds. apply I5. exact H.
  - intros b' H. assert (b' <> b) by (unfold b; lia). upds. apply I6. unfold b in *. lia.
  - intros t'. destruct (Nat.eq_dec t' t) as [->|Hnt]; upds; [apply Hwp|]. specialize (I7 t'). destruct (th st t'); exact I7.
Qed.


(** adoption of a free control block *)
Lemma InvO_adopt st t r p :
  InvO st -> seek (th st t) = true -> pendb (th st t) = None -> est st r = 0 -> In r (blist st) -> pendb p = None -> seek p = false ->
  (forall s, walk_ok s p) ->
  InvO (set_pc t p (set_tl t (wt_rcd (Some r) (tl st t)) (w_est (upd (est st) r 2) (w_g_owner (upd (g_owner st) r (Some t)) st)))).
Proof.
  intros [I1 I2 I3 I4 I5 I6 I7] Hs Hp He Hin Hp' Hs' Hwp.
  assert (Hr : g_owner st r = None) by (apply I5; exact He).
  assert (Ht : rcd (tl st t) = None) by (apply I4; exact Hs).
  constructor; prj.
  - intros t' b' H. destruct (Nat.eq_dec t' t) as [->|Hnt]; upds_in H.
    + cbn in H. injection H as <-. upds. tauto.
    + destruct (I1 t' b' H) as (H1 & H2 & H3). assert (b' <> r) by congruence. upds. tauto.
  - intros t' b' H. destruct (Nat.eq_dec b' r) as [->|Hne]; upds_in H.
    + injection H as <-. left. upds. reflexivity.
    + destruct (Nat.eq_dec t' t) as [->|Hnt]; upds; [|apply I2; exact H].
      destruct (I2 t b' H) as [H1|H1]; congruence.
  - intros t' b' H. destruct (Nat.eq_dec t' t) as [->|Hnt]; upds_in H; [congruence|].
    destruct (I3 t' b' H) as (H1 & H2 & H3). assert (b' <> r) by congruence. upds. tauto.
  - intros t' H. destruct (Nat.eq_dec t' t) as [->|Hnt]; upds_in H; [congruence|]. upds. apply I4; exact H.
  - intros b' H. destruct (Nat.eq_dec b' r) as [->|Hne]; upds_in H; [discriminate|]. upds. apply I5. exact H.
  - intros b' H. destruct (I6 b' H) as [H1 H2]. assert (b' <> r) by (intros ->; contradiction). upds. tauto.
  - intros t'. destruct (Nat.eq_dec t' t) as [->|Hnt]; upds; [apply Hwp|]. specialize (I7 t'). destruct (th st t'); exact I7.
Qed.

(** the new control block is linked into the list *)
Lemma InvO_link st t b p :
  InvO st -> pendb (th st t) = Some b -> pendb p = None -> seek p = false ->
  (forall s, walk_ok s p) ->
  InvO (set_pc t p (set_tl t (wt_rcd (Some b) (tl st t)) (w_blist (b :: blist st) st))).
Proof.
  intros [I1 I2 I3 I4 I5 I6 I7] Hp Hp' Hs' Hwp.
  destruct (I3 t b Hp) as (Ho & Hnin & He).
  assert (Ht : rcd (tl st t) = None) by (apply I4; destruct (th st t); cbn in Hp; try discriminate; reflexivity).
  constructor; prj.
  - intros t' b' H. destruct (Nat.eq_dec t' t) as [->|Hnt]; upds_in H.
    + cbn in H. injection H as <-. split; [exact Ho|]. split; [left; reflexivity|exact He].
    + destruct (I1 t' b' H) as (H1 & H2 & H3). split; [exact H1|]. split; [right; exact H2|exact H3].
  - intros t' b' H. destruct (Nat.eq_dec t' t) as [->|Hnt]; upds; [|apply I2; exact H].
    destruct (I2 t b' H) as [H1|H1]; [congruence|]. left. cbn. congruence.
  - intros t' b' H. destruct (Nat.eq_dec t' t) as [->|Hnt]; upds_in H; [congruence|].
    destruct (I3 t' b' H) as (H1 & H2 & H3). split; [exact H1|]. split; [|exact H3].
    intros [<-|Hc]; [congruence|contradiction].
  - intros t' H. destruct (Nat.eq_dec t' t) as [->|Hnt]; upds_in H; [congruence|]. upds. apply I4; exact H.
  - exact I5.
  - intros b' H. destruct (I6 b' H) as [H1 H2]. split; [exact H1|]. intros [<-|Hc]; [congruence|contradiction].
  - intros t'. destruct (Nat.eq_dec t' t) as [->|Hnt]; upds; [apply Hwp|]. specialize (I7 t').
    destruct (th st t'); cbn [walk_ok] in *; prj; try exact I; intros x Hx; right; apply I7; exact Hx.
Qed.

(** release_entry *)
Lemma InvO_release st t b p :
  InvO st -> rcd (tl st t) = Some b -> pendb (th st t) = None -> pendb p = None -> seek p = false ->
  (forall s, walk_ok s p) ->
  InvO (set_pc t p (set_tl t (mkTl None None [] (gd (tl st t)) (rl (tl st t))) (w_est (upd (est st) b 0) (w_g_owner (upd (g_owner st) b None) st)))).
Proof.
  intros [I1 I2 I3 I4 I5 I6 I7] Hr Hp Hp' Hs' Hwp.
  destruct (I1 t b Hr) as (Ho & Hin & He).
  constructor; prj.
  - intros t' b' H. destruct (Nat.eq_dec t' t) as [->|Hnt]; upds_in H; [discriminate|].
    destruct (I1 t' b' H) as (H1 & H2 & H3). assert (b' <> b) by congruence. upds. tauto.
  - intros t' b' H. destruct (Nat.eq_dec b' b) as [->|Hne]; upds_in H; [discriminate|].
    destruct (Nat.eq_dec t' t) as [->|Hnt]; upds; [|apply I2; exact H].
    destruct (I2 t b' H) as [H1|H1]; congruence.
  - intros t' b' H. destruct (Nat.eq_dec t' t) as [->|Hnt]; upds_in H; [congruence|].
    destruct (I3 t' b' H) as (H1 & H2 & H3). assert (b' <> b) by congruence. upds. tauto.
  - intros t' H. destruct (Nat.eq_dec t' t) as [->|Hnt]; upds_in H; [congruence|]. upds. apply I4; exact H.
  - intros b' H. destruct (Nat.eq_dec b' b) as [->|Hne]; upds; [reflexivity|]. upds_in H. apply I5. exact H.
  - intros b' H. destruct (I6 b' H) as [H1 H2]. destruct (Nat.eq_dec b' b) as [->|Hne]; upds; tauto.
  - intros t'. destruct (Nat.eq_dec t' t) as [->|Hnt]; upds; [apply Hwp|]. specialize (I7 t'). destruct (th st t'); exact I7.
Qed.

Lemma walk_ok_ext st st' p : blist st' = blist st -> walk_ok st p -> walk_ok st' p.
Proof. intros Hb H. destruct p; cbn [walk_ok] in *; rewrite ?Hb; exact H. Qed.

(** the thread moves on and the control blocks stay as they are *)
Lemma InvO_quiet st st1 t p' :
  InvO st -> blist st1 = blist st -> (forall b, est st1 b = est st b) -> (forall b, g_owner st1 b = g_owner st b) ->
  nalloc st <= nalloc st1 -> th st1 = th st ->
  (forall u, rcd (tl st1 u) = rcd (tl st u)) ->
  pendb p' = pendb (th st t) -> (seek p' = true -> seek (th st t) = true \/ rcd (tl st t) = None) ->
  (walk_ok st (th st t) -> walk_ok st p') ->
  InvO (set_pc t p' st1).
Proof.
  intros [I1 I2 I3 I4 I5 I6 I7] Hb He Ho Hn Ht Hr Hp Hs Hw.
  assert (Hu : forall u, u <> t -> upd (th st) t p' u = th st u) by (intros; apply upd_other; assumption).
  constructor; prj; rewrite ?Hb, ?Ht; intros u; intros; rewrite ?He, ?Ho, ?Hr in *.
  - apply I1. assumption.
  - destruct (Nat.eq_dec u t) as [->|Hne]; [rewrite upd_same, Hp|rewrite Hu by exact Hne]; apply I2; assumption.
  - apply I3. destruct (Nat.eq_dec u t) as [->|Hne]; [rewrite upd_same, Hp in H|rewrite Hu in H by exact Hne]; exact H.
  - destruct (Nat.eq_dec u t) as [->|Hne]; [rewrite upd_same in H; destruct (Hs H) as [H1|H1]; [apply I4|]; exact H1|].
    rewrite Hu in H by exact Hne. apply I4. exact H.
  - apply I5. assumption.
  - apply I6. lia.
  - apply (walk_ok_ext st); [exact Hb|]. destruct (Nat.eq_dec u t) as [->|Hne]; [rewrite upd_same; apply Hw|rewrite Hu by exact Hne]; apply I7.
Qed.

Lemma next_pc_O st s l :
  (forall b, In b l -> In b (blist st)) -> pendb (next_pc s l) = None /\ seek (next_pc s l) = false /\ walk_ok st (next_pc s l).
Proof. intros H. destruct l; cbn [next_pc pendb seek walk_ok]; auto. Qed.

Lemma move_O st t p p' :
  move nslots t st p p' -> walk_ok st p ->
  pendb p' = pendb p /\ (seek p' = true -> seek p = true \/ rcd (tl st t) = None) /\ walk_ok st p'.
Proof.
  intros Hm Hw. destruct Hm; cbn [pendb seek walk_ok] in *.
  all: try match goal with |- context [next_pc ?s ?l] =>
         destruct (next_pc_O st s l) as (-> & -> & Hn); [|split; [reflexivity|split; [discriminate|exact Hn]]] end.
  all: try (repeat split; auto; discriminate).
  1: { destruct H; unfold td_pc, exit_pc; repeat match goal with |- context [match ?x with _ => _ end] => destruct x end;
         cbn [pendb seek walk_ok]; repeat split; auto; discriminate. }
  all: repeat split; auto; intros b Hb.
  all: first [apply Hw; right; exact Hb | match goal with H : blist _ = _ |- _ => rewrite H; exact Hb end].
Qed.


Lemma InvO_step st a st' es :
  InvO st -> step nslots st a = Some (st', es) -> InvO st'.
Proof.
  intros HI Hs. destruct a as [t o|t].
  - cbn [step] in Hs. destruct (th st t) eqn:Hth; try discriminate Hs. destruct (legal nslots o); [|discriminate Hs].
    injection Hs as <- <-. apply (InvO_quiet st); rewrite ?Hth; auto.
  - pose proof (O_walk st HI t) as Hw. step_cases Hs Hth.
    1: { subst p. destruct (move_O st t _ p' H0 Hw) as (H1 & H2 & H3). apply (InvO_quiet st); auto. }
    all: rewrite Hth in Hw.
    (* the steps that leave the control blocks alone; the thread is not inside acquire_entry afterwards.
       Left after this block, in this order: the end of a walk (W0/W1/W2: new block), W2 (adoption), A1, A3 (link),
       S6 on the last slot with push_back (the walk goes on), X5 *)
    all: try match goal with H : reset_at _ _ _ _ _ _ |- _ => destruct H as [| |? ? [|]] end.
    all: try match goal with H : scan_ret _ _ _ _ |- _ => destruct H end.
    all: try subst st3.
    all: try match goal with H : acq_pre _ _ _ _ _ _ |- _ => destruct H end.
    all: try match goal with |- context [acq_eff _ _ ?k _] => destruct k as [? []| |]
                           | |- context [publish _ ?n _] => destruct n | |- context [drop_new ?n _] => destruct n end.
    all: try (see_through (InvO_quiet st); try exact (q_nalloc _ _ Q); rewrite ?Hth; unfold acq_pc, td_pc, ret_pc, exit_pc;
              repeat match goal with |- context [match ?x with _ => _ end] => destruct x end;
              cbn [pendb seek walk_ok next_pc]; prj;
              first [reflexivity | assumption | lia | discriminate | (intros; reflexivity) | exact (fun _ => I) | exact (fun _ => Hw)
                    | (intros u; destruct (Nat.eq_dec u t) as [->|?]; upds; reflexivity) ]).
    + destruct H0; apply InvO_new; rewrite ?Hth; auto; intros; exact I.
    + apply InvO_adopt; rewrite ?Hth; auto; [apply Hw; left; reflexivity|intros; exact I].
    + destruct (O_pend st HI t b) as (_ & _ & He); [rewrite Hth; reflexivity|].
      apply (InvO_quiet st); rewrite ?Hth; prj; auto. intros x. unfold upd. destruct (Nat.eqb_spec x b); congruence.
    + apply InvO_link; rewrite ?Hth; auto; intros; exact I.
    + see_through (InvO_quiet st); try exact (q_nalloc _ _ Q); rewrite ?Hth; auto.
      all: destruct rest; cbn [next_pc pendb seek walk_ok] in *; try first [reflexivity | discriminate | exact (fun _ => I)].
      intros _ b Hb. apply Hw. right. exact Hb.
    + apply InvO_release; rewrite ?Hth; auto; intros; exact I.
Qed.

End InvO.

Lemma InvO_init ncells : InvO (init ncells).
Proof.
  constructor; cbn; intros; try discriminate; try tauto; try exact I.
Qed.

