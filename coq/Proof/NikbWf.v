(** nikolaev_bounded_queue model, invariant layer 1: the words are well formed (counters even and
    below 2^62, thresholds in range, entries = (cycle, safe, index) with a cycle below the bound or the
    initial all-ones word), local copies of head / tail are tickets that were handed out, the local
    entry copies satisfy what the code tested.  All under [g_ovf = false]. *)
From Coq Require Import NArith List Bool Lia PeanoNat.
From XV Require Import Base.Word Conc.Lts Conc.Ev gen.ScqGen Model.NikbDefs Proof.NikbArith Proof.NikbBase.
Import ListNotations.
Local Open Scope N_scope.

Definition ctr (w : N) : Prop := w = 2 * (w / 2) /\ w < 2 ^ 62.

Lemma ctr_add2 w : ctr w -> w + 2 < 2 ^ 62 -> ctr (w + 2).
Proof.
  intros [He Hl] H. split; [|exact H].
  replace (w + 2) with (w + 1 * 2) by lia. rewrite N.div_add by lia. lia.
Qed.
Lemma ctr_0 : ctr 0. Proof. split; [reflexivity|reflexivity]. Qed.
Lemma ctr_land1 w : ctr w -> N.land w 1 = 0.
Proof.
  intros [He _]. change 1 with (N.ones 1). rewrite N.land_ones. change (2 ^ 1) with 2.
  rewrite He. rewrite N.mul_comm. apply N.mod_mul. lia.
Qed.
Lemma ctr_double T : 2 * T < 2 ^ 62 -> ctr (2 * T).
Proof. intros H. split; [|exact H]. rewrite (N.mul_comm 2 T), N.div_mul by lia. lia. Qed.

Set Default Proof Using "All".
Section L1.
  Variable k R : N.
  Hypothesis Hk : k <= 40.
  Notation cap := (2 ^ k).
  Notation step := (step cap R).
  Notation ecyc := (ecyc k).
  Notation eidx := (eidx k).
  Notation esafe := (esafe k).
  Notation bot := (bot k).
  Notation CB := (CB k).
  Notation cmax := (cmax k).
  Notation clt := (clt k).

  Definition wfi (i : N) : Prop := i < cap \/ i = bot.
  Definition wfe (e : N) : Prop := (ecyc e < CB \/ (ecyc e = cmax /\ eidx e = bot)) /\ wfi (eidx e).

  Definition RW (r : ring) : Prop :=
    ctr (rhead r) /\ ctr (rtail r) /\ thr_ok k (rthr r) /\ forall j, wfe (rdata r j).

  Definition T1 (st : state) (p : pc) : Prop :=
    match p with
    | D2 q x hd _ | D6 q x hd => ctr hd /\ hd + 2 <= rhead (rg st q)
    | D3 q x hd e => ctr hd /\ hd + 2 <= rhead (rg st q) /\ wfe e /\ ecyc e = ecyc hd
    | D4 q x hd att e => ctr hd /\ hd + 2 <= rhead (rg st q) /\ wfe e /\ eidx e = bot
    | D5 q x hd att e enew =>
      ctr hd /\ hd + 2 <= rhead (rg st q) /\ wfe e /\ clt e (ecyc hd) = true /\
      ((enew = N.ldiff e (nn cap) /\ eidx e <> bot) \/ (enew = bot_word false cap hd e /\ eidx e = bot))
    | C1 q x tl hd => ctr tl /\ ctr hd /\ tl <= hd /\ hd <= rhead (rg st q)
    | C2 q x tl => ctr tl
    | E1 q x idx gk => wfi idx
    | E2 q x idx gk tl => wfi idx /\ ctr tl /\ tl + 2 <= rtail (rg st q)
    | E3 q x idx gk tl e | E4 q x idx gk tl e =>
      wfi idx /\ ctr tl /\ tl + 2 <= rtail (rg st q) /\ wfe e /\ eidx e = bot /\ clt e (ecyc tl) = true
    | _ => True
    end.

  Definition Inv1 (st : state) : Prop := (forall q, RW (rg st q)) /\ forall t, T1 st (th st t).

  Lemma T1_stable st st' p :
    (forall q, rhead (rg st q) <= rhead (rg st' q) /\ rtail (rg st q) <= rtail (rg st' q)) -> T1 st p -> T1 st' p.
  Proof.
    intros H. destruct p; cbn [T1]; try tauto;
      match goal with q : rid |- _ => destruct (H q) as [Hh Ht] end; intuition lia.
  Qed.

  Lemma wfe_ones64 : wfe ones64.
  Proof.
    split; [right; split; [apply (ecyc_ones64 k Hk)|apply (eidx_ones64 k Hk)]|right; apply (eidx_ones64 k Hk)].
  Qed.

  Lemma wfe_cycle_ok e : wfe e -> ecyc e < CB \/ ecyc e = cmax.
  Proof. intros [[H|[H _]] _]; auto. Qed.

  Lemma wfi_le i : wfi i -> i <= bot.
  Proof. assert (Hb := cap_lt_bot k Hk). intros [H|H]; lia. Qed.

  (** the initial free ring *)
  Lemma free_data_spec j : free_data cap j = ones64 \/ exists i, i < cap /\ free_data cap j = nn cap + i.
  Proof.
    unfold free_data.
    assert (G : forall l f, (forall j, f j = ones64 \/ exists i, i < cap /\ f j = nn cap + i) ->
                (forall i, In i l -> N.of_nat i < cap) ->
                forall j, fold_left (fun f i => setf f (phys cap (2 * N.of_nat i)) (nn cap + N.of_nat i)) l f j = ones64 \/
                          exists i, i < cap /\ fold_left (fun f i => setf f (phys cap (2 * N.of_nat i)) (nn cap + N.of_nat i)) l f j = nn cap + i).
    { induction l as [|a l IH]; intros f Hf Hl j0; cbn [fold_left]; [apply Hf|].
      apply IH.
      - intros j1. unfold setf. destruct (j1 =? _); [right; exists (N.of_nat a); split; [apply Hl; left; reflexivity|reflexivity]|apply Hf].
      - intros i Hi. apply Hl. right. exact Hi. }
    apply G.
    - intros; left; reflexivity.
    - intros i Hi. apply in_seq in Hi. lia.
  Qed.

  Lemma nn_plus_enc i : i < cap -> nn cap + i = enc k 0 true i.
  Proof.
    intros Hi. assert (Hb := cap_lt_bot k Hk).
    unfold enc. rewrite N.shiftl_0_l, N.lor_0_l, (nn_eq k Hk).
    assert (Hd : N.land (2 ^ (k + 1)) i = 0).
    { apply N.bits_inj. intros b. rewrite N.land_spec, N.bits_0.
      destruct (N.eq_dec b (k + 1)) as [->|Hne].
      - replace (N.testbit i (k + 1)) with false; [apply andb_false_r|]. symmetry.
        destruct (N.eq_dec i 0) as [->|Hnz]; [apply N.bits_0|].
        apply N.bits_above_log2. apply N.log2_lt_pow2; [lia|]. unfold NikbArith.bot in Hb. rewrite <- pow2_pred_ones in Hb. lia.
      - rewrite N.pow2_bits_false by lia. reflexivity. }
    rewrite <- N.lxor_lor by exact Hd. rewrite <- N.add_nocarry_lxor by exact Hd. reflexivity.
  Qed.

  Lemma f_nn_i i : i < cap -> ecyc (nn cap + i) = 0 /\ eidx (nn cap + i) = i.
  Proof.
    intros Hi. assert (Hb := cap_lt_bot k Hk). rewrite (nn_plus_enc i Hi).
    destruct (f_enc k Hk 0 true i ltac:(lia)) as (A & B & C). split; assumption.
  Qed.

  Lemma wfe_nn_i i : i < cap -> wfe (nn cap + i).
  Proof.
    intros Hi. destruct (f_nn_i i Hi) as [A C].
    split; [left; rewrite A; apply pow2_pos|left; rewrite C; exact Hi].
  Qed.

  Lemma Inv1_init : Inv1 (init cap).
  Proof.
    split; [|intros t; exact I].
    intros [|]; cbn [init rgs]; unfold RW; cbn [rhead rtail rthr rdata].
    - split; [apply ctr_0|]. split; [apply ctr_0|]. split; [right; split; [vm_compute; discriminate|reflexivity]|]. intros j. apply wfe_ones64.
    - split; [apply ctr_0|]. assert (Hc := cap3_small k Hk). assert (Hp := cap_pos k Hk).
      split; [apply ctr_double; lia|]. split; [left; lia|].
      intros j. destruct (free_data_spec j) as [->|(i & Hi & ->)]; [apply wfe_ones64|apply wfe_nn_i; exact Hi].
  Qed.

  Lemma Inv1_intro s s' t p :
    Inv1 s -> (forall q, RW (rg s' q)) ->
    (forall q, rhead (rg s q) <= rhead (rg s' q) /\ rtail (rg s q) <= rtail (rg s' q)) ->
    th s' = upd (th s) t p -> T1 s' p -> Inv1 s'.
  Proof.
    intros [HR HT] HR' Hm Hth Hp. split; [exact HR'|]. intros t'. rewrite Hth.
    destruct (Nat.eq_dec t' t) as [->|Hne]; [rewrite upd_same; exact Hp|rewrite upd_other by exact Hne].
    eapply T1_stable; [exact Hm|apply HT].
  Qed.

  Lemma RW_upd (f : rid -> ring) q r' : RW r' -> (forall q', RW (f q')) ->
    forall q', RW (if rid_eqb q' q then r' else f q').
  Proof. intros H1 H2 q'. destruct (rid_eqb q' q); [exact H1|apply H2]. Qed.

  Lemma mono_upd (f : rid -> ring) q r' : rhead (f q) <= rhead r' -> rtail (f q) <= rtail r' ->
    forall q', rhead (f q') <= rhead (if rid_eqb q' q then r' else f q') /\ rtail (f q') <= rtail (if rid_eqb q' q then r' else f q').
  Proof. intros H1 H2 q'. destruct (rid_eqb_spec q' q) as [->|]; [split; assumption|split; lia]. Qed.

  Lemma mono_refl (f : rid -> ring) : forall q', rhead (f q') <= rhead (f q') /\ rtail (f q') <= rtail (f q').
  Proof. intros; split; lia. Qed.

  Lemma ctr_ovf_false w : ctr_ovf w = false -> w < 2 ^ 62.
  Proof. unfold ctr_ovf. intros H. apply N.leb_gt in H. exact H. Qed.

  Lemma rg_mark_left st q hd p q' :
    rg (mark_left st q hd p) q' = if leaves p && rid_eqb q' q then r_dq (rg st q) (setf (g_dq (rg st q)) (hd / 2) DLeft) else rg st q'.
  Proof. unfold mark_left. destruct (leaves p); sim; reflexivity. Qed.
  Lemma th_mark_left st q hd p : th (mark_left st q hd p) = th st.
  Proof. unfold mark_left. destruct (leaves p); reflexivity. Qed.

  Lemma RW_mark st q hd p : (forall q', RW (rg st q')) -> forall q', RW (rg (mark_left st q hd p) q').
  Proof.
    intros H q'. rewrite rg_mark_left. destruct (leaves p && rid_eqb q' q); [|apply H].
    destruct (H q) as (A & B & C & D). unfold RW. sim. exact (conj A (conj B (conj C D))).
  Qed.
  Lemma mono_mark st q hd p : forall q', rhead (rg st q') <= rhead (rg (mark_left st q hd p) q') /\ rtail (rg st q') <= rtail (rg (mark_left st q hd p) q').
  Proof. intros q'. rewrite rg_mark_left. destruct (leaves p), q, q'; cbn; split; lia. Qed.
  Lemma rhead_mark st q hd p q' : rhead (rg (mark_left st q hd p) q') = rhead (rg st q').
  Proof. rewrite rg_mark_left. destruct (leaves p), q, q'; reflexivity. Qed.
  Lemma rtail_mark st q hd p q' : rtail (rg (mark_left st q hd p) q') = rtail (rg st q').
  Proof. rewrite rg_mark_left. destruct (leaves p), q, q'; reflexivity. Qed.

  Lemma rg_mark_skip st q tl p q' :
    rg (mark_skip st q tl p) q' = if skips p && rid_eqb q' q then r_eq (rg st q) (setf (g_eq (rg st q)) (tl / 2) ESkip) else rg st q'.
  Proof. unfold mark_skip. destruct (skips p); sim; reflexivity. Qed.
  Lemma th_mark_skip st q tl p : th (mark_skip st q tl p) = th st.
  Proof. unfold mark_skip. destruct (skips p); reflexivity. Qed.
  Lemma RW_skip st q tl p : (forall q', RW (rg st q')) -> forall q', RW (rg (mark_skip st q tl p) q').
  Proof.
    intros H q'. rewrite rg_mark_skip. destruct (skips p && rid_eqb q' q); [|apply H].
    destruct (H q) as (A & B & C & D). unfold RW. sim. exact (conj A (conj B (conj C D))).
  Qed.
  Lemma mono_skip st q tl p : forall q', rhead (rg st q') <= rhead (rg (mark_skip st q tl p) q') /\ rtail (rg st q') <= rtail (rg (mark_skip st q tl p) q').
  Proof. intros q'. rewrite rg_mark_skip. destruct (skips p), q, q'; cbn; split; lia. Qed.
  Lemma rhead_skip st q tl p q' : rhead (rg (mark_skip st q tl p) q') = rhead (rg st q').
  Proof. rewrite rg_mark_skip. destruct (skips p), q, q'; reflexivity. Qed.
  Lemma rtail_skip st q tl p q' : rtail (rg (mark_skip st q tl p) q') = rtail (rg st q').
  Proof. rewrite rg_mark_skip. destruct (skips p), q, q'; reflexivity. Qed.

  (** what the loop body of dequeue establishes for the next program point *)
  Lemma T1_dq_eval st q x hd att e :
    ctr hd -> hd + 2 <= rhead (rg st q) -> wfe e -> T1 st (dq_eval cap q x hd att e).
  Proof.
    intros Hc Hh He.
    destruct (dq_eval_cases cap q x hd att e) as [[C1 ->]|[C1 [[C2 [[C3 ->]|[C3 [[C4 ->]|[C4 ->]]]]]|[C2 ->]]]]; cbn [T1].
    - ssplit; try assumption. rewrite (cyc_eqb k Hk) in C1. apply N.eqb_eq in C1. exact C1.
    - split; assumption.
    - ssplit; try assumption.
      + rewrite (cyc_lt_diff k Hk) in C4; [exact C4|apply wfe_cycle_ok; exact He|apply Hc].
      + left. split; [reflexivity|]. rewrite (is_bot_eqb k Hk) in C2. apply N.eqb_neq in C2. exact C2.
    - split; assumption.
    - ssplit; try assumption. rewrite (is_bot_eqb k Hk) in C2. apply N.eqb_eq in C2. exact C2.
  Qed.

  Lemma T1_en_eval st q x idx gk tl e :
    wfi idx -> ctr tl -> tl + 2 <= rtail (rg st q) -> wfe e -> T1 st (en_eval cap q x idx gk tl e).
  Proof.
    intros Hi Hc Ht He.
    destruct (en_eval_cases cap q x idx gk tl e) as [(C1 & C2 & Ee)|[(C1 & C2 & C3 & Ee)|Ee]]; rewrite Ee; cbn [T1].
    - ssplit; try assumption.
      + rewrite (safe_bot_eqb k Hk) in C2. apply andb_true_iff in C2. destruct C2 as [_ C2]. apply N.eqb_eq in C2. exact C2.
      + rewrite (cyc_lt_diff k Hk) in C1; [exact C1|apply wfe_cycle_ok; exact He|apply Hc].
    - ssplit; try assumption.
      + rewrite (unsafe_bot_eqb k Hk) in C3. apply andb_true_iff in C3. destruct C3 as [_ C3]. apply N.eqb_eq in C3. exact C3.
      + rewrite (cyc_lt_diff k Hk) in C1; [exact C1|apply wfe_cycle_ok; exact He|apply Hc].
    - exact Hi.
  Qed.

  Lemma thr_ok_dec old : thr_ok k old -> thr_ovf (wsub 64 old 1) = false -> thr_ok k (wsub 64 old 1).
  Proof.
    intros H Ho. rewrite (thr_dec k Hk) in * by exact H.
    pose proof lit64 as E64.
    pose proof lit63 as E63.
    pose proof lit62 as E62.
    destruct (N.eqb_spec old 0) as [->|Hnz].
    - right. split; [vm_compute; discriminate|reflexivity].
    - unfold thr_ovf in Ho. unfold thr_ok in *. assert (Hc := cap3_small k Hk).
      destruct H as [H|H]; [left; lia|]. right.
      apply andb_false_iff in Ho. destruct Ho as [Ho|Ho]; [apply N.leb_gt in Ho; lia|apply N.ltb_ge in Ho; lia].
  Qed.

  Lemma wfe_data_upd (f : N -> N) j e : (forall j', wfe (f j')) -> wfe e -> forall j', wfe (setf f j e j').
  Proof. intros Hf He j'. unfold setf. destruct (j' =? j); [exact He|apply Hf]. Qed.

  Ltac ovf_split Hov :=
    sim; apply orb_false_2 in Hov; let Ho := fresh "Ho" in destruct Hov as [Hov Ho].

  Lemma Inv1_step s a s' es : Inv1 s -> step s a = Some (s', es) -> g_ovf s' = false -> Inv1 s'.
  Proof.
    intros HI Hst Hov. pose proof HI as [HR HT]. unfold NikbDefs.step, step_gen in Hst. destruct a as [t o|t].
    - destruct (th s t) eqn:E; try discriminate. injection Hst as <- <-.
      eapply (Inv1_intro s _ t (Begin o) HI); sim; [exact HR|apply mono_refl|reflexivity|exact I].
    - pose proof (HT t) as Hme.
      pc_cases (th s t); try discriminate;
        cbn [T1] in Hme.
      + (* Begin push *) injection Hst as <- <-.
        eapply (Inv1_intro s _ t _ HI); sim; [exact HR|apply mono_refl|reflexivity|exact I].
      + (* Begin pop *) injection Hst as <- <-.
        eapply (Inv1_intro s _ t _ HI); sim; [exact HR|apply mono_refl|reflexivity|exact I].
      + (* D0 *) destruct (lt0 (rthr (rg s q))); injection Hst as <- <-;
        (eapply (Inv1_intro s _ t _ HI); sim; [exact HR|apply mono_refl|reflexivity|exact I]).
      + (* D1 *) injection Hst as <- <-. ovf_split Hov. apply ctr_ovf_false in Ho.
        destruct (HR q) as (Hh & Htl & Hthr & Hd). rewrite (wadd2_small _ (proj2 Hh)) in *.
        eapply (Inv1_intro s _ t _ HI); sim.
        * apply RW_upd; [|exact HR]. unfold RW; sim. ssplit; try assumption. apply ctr_add2; assumption.
        * apply mono_upd; sim; lia.
        * reflexivity.
        * cbn [T1]. sim. rewrite rid_eqb_refl. sim. split; [exact Hh|lia].
      + (* D2 *) injection Hst as <- <-. sim. rewrite mark_left_ovf in Hov.
        destruct Hme as [Hc Hh]. destruct (HR q) as (_ & _ & _ & Hd).
        eapply (Inv1_intro s _ t _ HI).
        * sim. apply RW_mark. exact HR.
        * sim. apply mono_mark.
        * sim. rewrite th_mark_left. reflexivity.
        * eapply T1_stable; [|apply (T1_dq_eval s); [exact Hc|exact Hh|apply Hd]].
          intros q'. sim. rewrite rhead_mark, rtail_mark. split; lia.
      + (* D3 *) destruct Hme as (Hc & Hh & He & Hcy). destruct (HR q) as (Hhd & Htl & Hthr & Hd).
        assert (Hnew : wfe (N.lor (rdata (rg s q) (phys cap hd)) (vmask cap))).
        { destruct (f_take k Hk (rdata (rg s q) (phys cap hd))) as (A & B & C). destruct (Hd (phys cap hd)) as [Hx _].
          split; [rewrite A, C; destruct Hx as [Hx|[Hx _]]; [left; exact Hx|right; split; [exact Hx|reflexivity]]|right; exact C]. }
        assert (Hidx : wfi (N.land e (vmask cap))) by (rewrite (land_vmask k Hk); apply He).
        destruct q; injection Hst as <- <-; sim;
        (eapply (Inv1_intro s _ t _ HI); sim;
         [apply RW_upd; [|exact HR]; unfold RW; sim; ssplit; try assumption; apply wfe_data_upd; assumption
         |apply mono_upd; sim; lia|reflexivity|exact Hidx]).
      + (* D4 *) injection Hst as <- <-. sim. rewrite mark_left_ovf in Hov.
        destruct Hme as (Hc & Hh & He & Hb). destruct (HR q) as (Hhd & Htl & _ & Hd).
        eapply (Inv1_intro s _ t _ HI).
        * sim. apply RW_mark. exact HR.
        * sim. apply mono_mark.
        * sim. rewrite th_mark_left. reflexivity.
        * eapply T1_stable with (st := s); [intros q'; sim; rewrite rhead_mark, rtail_mark; split; lia|].
          destruct (gt0 _ && _); cbn [T1]; [split; assumption|].
          destruct (lt0 (diff (cyc cap e) (cyc cap hd))) eqn:Hlt; cbn [T1]; [|split; assumption].
          ssplit; try assumption.
          -- rewrite (cyc_lt_diff k Hk) in Hlt; [exact Hlt|apply wfe_cycle_ok; exact He|apply Hc].
          -- right. split; [reflexivity|exact Hb].
      + (* D5 *) destruct Hme as (Hc & Hh & He & Hlt & Hnew). destruct (HR q) as (Hhd & Htl & Hthr & Hd).
        destruct (rdata (rg s q) (phys cap hd) =? e); injection Hst as <- <-; sim.
        * assert (Hwn : wfe enew).
          { destruct Hnew as [[-> Hnb]|[-> Hb]].
            - destruct (f_unsafe k Hk e) as (A & B & C). destruct He as [Hx Hy]. split; rewrite ?A, ?C; assumption.
            - destruct (f_botw k Hk hd e) as (A & B & C). split; [left; rewrite A; apply (ecyc_ctr k Hk); apply Hc|right; exact C]. }
          eapply (Inv1_intro s _ t _ HI); sim;
          [apply RW_upd; [|exact HR]; unfold RW; sim; ssplit; try assumption; apply wfe_data_upd; assumption
          |apply mono_upd; sim; lia|reflexivity|cbn [T1]; sim; rewrite rid_eqb_refl; sim; split; assumption].
        * rewrite mark_left_ovf in Hov.
          eapply (Inv1_intro s _ t _ HI).
          -- sim. apply RW_mark. exact HR.
          -- sim. apply mono_mark.
          -- sim. rewrite th_mark_left. reflexivity.
          -- eapply T1_stable; [|apply (T1_dq_eval s); [exact Hc|exact Hh|apply Hd]].
             intros q'. sim. rewrite rhead_mark, rtail_mark. split; lia.
      + (* D6 *) destruct Hme as [Hc Hh]. destruct (HR q) as (Hhd & Htl & Hthr & Hd).
        assert (Hlt : hd + 2 < 2 ^ 62) by (destruct Hhd; lia).
        rewrite (wadd2_small hd (proj2 Hc)) in Hst.
        destruct (gt0 (diff (rtail (rg s q)) (hd + 2))) eqn:Hg; injection Hst as <- <-; sim;
        (eapply (Inv1_intro s _ t _ HI); sim; [exact HR|apply mono_refl|reflexivity|cbn [T1]; try exact I]).
        rewrite diff_gt0 in Hg by (try apply Htl; lia). apply N.ltb_ge in Hg.
        ssplit; [exact Htl|apply ctr_add2; assumption|exact Hg|exact Hh].
      + (* D7 *) destruct (HR q) as (Hhd & Htl & Hthr & Hd).
        destruct (sle 64 (rthr (rg s q)) 0); injection Hst as <- <-; ovf_split Hov;
        (eapply (Inv1_intro s _ t _ HI); sim;
         [apply RW_upd; [|exact HR]; unfold RW; sim; ssplit; try assumption; apply thr_ok_dec; assumption
         |apply mono_upd; sim; lia|reflexivity|exact I]).
      + (* C1 *) destruct Hme as (Hct & Hch & Hle & Hhr). destruct (HR q) as (Hhd & Htl & Hthr & Hd).
        destruct (N.eqb_spec (rtail (rg s q)) tl) as [<-|Hne]; injection Hst as <- <-.
        * ovf_split Hov. rewrite (ctr_land1 _ Htl), N.lor_0_r in *.
          eapply (Inv1_intro s _ t _ HI); sim;
          [apply RW_upd; [|exact HR]; unfold RW; sim; ssplit; assumption
          |apply mono_upd; sim; lia|reflexivity|exact I].
        * eapply (Inv1_intro s _ t _ HI); sim; [exact HR|apply mono_refl|reflexivity|exact Htl].
      + (* C2 *) destruct (HR q) as (Hhd & Htl & Hthr & Hd).
        destruct (lt0 (diff tl (rhead (rg s q)))) eqn:Hl; injection Hst as <- <-; sim;
        (eapply (Inv1_intro s _ t _ HI); sim; [exact HR|apply mono_refl|reflexivity|cbn [T1]; try exact I]).
        rewrite diff_lt0 in Hl by (try apply Hhd; apply Hme). apply N.ltb_lt in Hl.
        ssplit; [exact Hme|exact Hhd|lia|sim; lia].
      + (* D8 *) destruct (HR q) as (Hhd & Htl & Hthr & Hd).
        injection Hst as <- <-; ovf_split Hov.
        eapply (Inv1_intro s _ t _ HI); sim;
         [apply RW_upd; [|exact HR]; unfold RW; sim; ssplit; try assumption; apply thr_ok_dec; assumption
         |apply mono_upd; sim; lia|reflexivity|exact I].
      + (* E1 *) destruct (HR q) as (Hhd & Htl & Hthr & Hd).
        destruct q; injection Hst as <- <-; ovf_split Hov; apply ctr_ovf_false in Ho;
        rewrite (wadd2_small _ (proj2 Htl)) in *;
        (eapply (Inv1_intro s _ t _ HI); sim;
         [apply RW_upd; [|exact HR]; unfold RW; sim; ssplit; try assumption; apply ctr_add2; assumption
         |apply mono_upd; sim; lia|reflexivity|cbn [T1]; sim; ssplit; [exact Hme|exact Htl|lia]]).
      + (* E2 *) injection Hst as <- <-. destruct Hme as (Hi & Hc & Ht). destruct (HR q) as (_ & _ & _ & Hd).
        eapply (Inv1_intro s _ t _ HI); sim; [apply RW_skip; exact HR|apply mono_skip|rewrite th_mark_skip; reflexivity|].
        eapply T1_stable; [|apply (T1_en_eval s); [exact Hi|exact Hc|exact Ht|apply Hd]].
        intros q'. sim. rewrite rhead_skip, rtail_skip. split; lia.
      + (* E3 *) destruct (gt0 (diff (rhead (rg s q)) tl)); injection Hst as <- <-;
        (eapply (Inv1_intro s _ t _ HI); sim; [apply RW_skip; exact HR|apply mono_skip|rewrite ?th_mark_skip; reflexivity|]);
        (eapply T1_stable with (st := s); [intros q'; sim; rewrite rhead_skip, rtail_skip; split; lia|cbn [T1]; tauto]).
      + (* E4 *) destruct Hme as (Hi & Hc & Ht & He & Hb & Hlt). destruct (HR q) as (Hhd & Htl & Hthr & Hd).
        destruct (rdata (rg s q) (phys cap tl) =? e).
        * assert (Hwn : wfe (enq_word false cap tl idx)).
          { destruct (f_enq k Hk tl idx (wfi_le _ Hi)) as (A & B & C).
            split; [left; rewrite A; apply (ecyc_ctr k Hk); apply Hc|rewrite C; exact Hi]. }
          destruct q; injection Hst as <- <-; sim;
          (eapply (Inv1_intro s _ t _ HI); sim;
           [apply RW_upd; [|exact HR]; unfold RW; sim; ssplit; try assumption; apply wfe_data_upd; assumption
           |apply mono_upd; sim; lia|reflexivity|exact I]).
        * injection Hst as <- <-.
          eapply (Inv1_intro s _ t _ HI); sim; [apply RW_skip; exact HR|apply mono_skip|rewrite th_mark_skip; reflexivity|].
          eapply T1_stable; [|apply (T1_en_eval s); [exact Hi|exact Hc|exact Ht|apply Hd]].
          intros q'. sim. rewrite rhead_skip, rtail_skip. split; lia.
      + (* E5 *) destruct (rthr (rg s q) =? thr_full cap); [destruct q|]; injection Hst as <- <-;
        (eapply (Inv1_intro s _ t _ HI); sim; [exact HR|apply mono_refl|reflexivity|exact I]).
      + (* E6 *) destruct (HR q) as (Hhd & Htl & Hthr & Hd).
        assert (Hf : thr_ok k (thr_full cap)).
        { left. unfold thr_full, nn. assert (Hp := cap_pos k Hk). lia. }
        destruct q; injection Hst as <- <-; sim;
        (eapply (Inv1_intro s _ t _ HI); sim;
         [apply RW_upd; [|exact HR]; unfold RW; sim; ssplit; assumption
         |apply mono_upd; sim; lia|reflexivity|exact I]).
  Qed.

  Theorem Inv1_reach s : reach (init cap) step s -> g_ovf s = false -> Inv1 s.
  Proof.
    intros Hr. induction Hr as [|s a s' es Hr IH Hst]; intros Hov.
    - apply Inv1_init.
    - eapply Inv1_step; [apply IH; eapply ovf_sticky; eauto|exact Hst|exact Hov].
  Qed.
End L1.
