(** C16 for xenium::seqlock.
    - [load] with more than one slot is lock-free: from every reachable state (a writer may be
      stopped anywhere, lock held, slot half written) a reader running alone finishes within
      [seqlock_load_bound] <= 2 * words + 4 steps ([words + 4] from the start of the operation): the
      sequence value obtained by a FRESH read passes the final check because nobody moves the
      counter, so at most the one iteration that was started with a stale value is repeated.
    - [load] with ONE slot is blocking: a concrete reachable state (writer stopped with the lock
      held) from which a solo reader spins forever on the odd sequence value.
    - [store] / [update] are blocking for every number of slots (acquire_lock spins).
    Counter wrap-around is excluded as in Proof/SeqlockInv.v.  No axioms, no admits. *)
From Coq Require Import NArith ZArith List Bool Lia PeanoNat.
From XV Require Import Base.Word Conc.Lts Conc.Ev Conc.Solo Model.SeqlockDefs Proof.SeqlockInv.
Import ListNotations.
Local Open Scope N_scope.

Definition idle (s : state) (t : nat) : bool := match th s t with Idle => true | _ => false end.

(** thread is idle or inside [load] *)
Definition load_pc (p : pc) : bool :=
  match p with
  | Idle | Begin OLoad | Ld1 | LdSpin | LdW _ _ _ _ | LdF _ _ | Ld3 _ _ => true
  | _ => false
  end.

Section SeqlockSolo.
  Variable slots : N.
  Variable words : nat.
  Variable func : N -> list N -> list N.
  Variable v0 : list N.
  Hypothesis slots_ge2 : 2 <= slots.
  Hypothesis slots_small : slots < 2 ^ 30.
  Hypothesis words_pos : (1 <= words)%nat.

  Notation step := (step slots words func).
  Notation init := (init v0).

  Let slots_pos : 1 <= slots.
  Proof. lia. Qed.

  (** the final check of [load] for a reader that started from sequence value [q] *)
  Definition passes (s : state) (q : N) : bool :=
    wsub 64 (seq s) q <? wsub 32 (wmul 32 2 slots) 1.

  (** cost of the final check: 1, plus one full iteration [words + 2] if it fails *)
  Definition ld3 (s : state) (q : N) : nat := if passes s q then 1%nat else (words + 3)%nat.

  Definition seqlock_load_bound (s : state) (t : nat) : nat :=
    match th s t with
    | Begin OLoad => words + 4
    | Ld1 | LdSpin => words + 3
    | LdW q _ i _ => (words - i) + 1 + ld3 s q
    | LdF q _ => 1 + ld3 s q
    | Ld3 q _ => ld3 s q
    | _ => 0
    end%nat.

  Lemma window : wsub 32 (wmul 32 2 slots) 1 = 2 * slots - 1.
  Proof.
    rewrite pow2_30 in slots_small.
    unfold wmul. rewrite pow2_32. rewrite (N.mod_small (2 * slots)) by lia.
    apply wsub_small; [lia|rewrite pow2_32; lia].
  Qed.

  (** a freshly read sequence value passes the final check while the counter does not move *)
  Lemma fresh_passes s :
    seq s < 2 ^ 63 ->
    exists idx, ld_next slots (seq s) = LdW (2 * (seq s / 2)) idx 0 [] /\ passes s (2 * (seq s / 2)) = true.
  Proof.
    intros HS. destruct (ld_next_spec slots (seq s) HS) as [[E1 _]|E]; [lia|].
    eexists. split; [exact E|]. change (2 ^ 63) with 9223372036854775808 in HS.
    unfold passes. rewrite window. apply N.ltb_lt.
    rewrite wsub_small; [divmod_lia|divmod_lia|rewrite pow2_64; lia].
  Qed.

  Definition P (t : nat) (s : state) : Prop :=
    reach init step s /\ Bnd s /\ load_pc (th s t) = true.

  Ltac done_step :=
    eexists _, _; split; [reflexivity|];
    unfold seqlock_load_bound, ld3, passes; cbn [th seq g_hist]; rewrite ?upd_same.

  Lemma seqlock_load_step s t : P t s -> idle s t = false ->
    exists s' es, step s (Step t) = Some (s', es) /\ P t s' /\ (seqlock_load_bound s' t < seqlock_load_bound s t)%nat.
  Proof.
    intros (Hr & HB & Hw) Hi.
    pose proof (seqlock_inv slots words func v0 slots_pos slots_small words_pos s Hr HB) as HI.
    pose proof (seq_bound slots words slots_pos slots_small words_pos s HI HB) as HS.
    pose proof (i_pc _ _ _ HI t) as Hpc.
    destruct (fresh_passes s HS) as (idx0 & Hnext & Hpass).
    assert (Hgoal : exists s' es, step s (Step t) = Some (s', es) /\
              (load_pc (th s' t) = true /\ g_hist s' = g_hist s) /\
              (seqlock_load_bound s' t < seqlock_load_bound s t)%nat).
    { unfold idle in Hi. unfold seqlock_load_bound at 2. unfold ld3. cbn [SeqlockDefs.step].
      destruct (th s t) as [|[| |]| | |q idx i buf|q buf|q buf| | | | | | | | ] eqn:E; try discriminate; cbn [pc_ok] in Hpc.
      - (* Begin *) done_step. split; [split; reflexivity|lia].
      - (* Ld1 *) rewrite Hnext. done_step. unfold passes in Hpass. rewrite Hpass.
        split; [split; reflexivity|lia].
      - (* LdSpin *) rewrite Hnext. done_step. unfold passes in Hpass. rewrite Hpass.
        split; [split; reflexivity|lia].
      - (* LdW *)
        destruct Hpc as (_ & _ & Hlt & _).
        destruct (Nat.eqb_spec (S i) words) as [Ew|Ew]; done_step;
          (split; [split; reflexivity|]); fold (passes s q); destruct (passes s q); lia.
      - (* LdF *) done_step. split; [split; reflexivity|]. fold (passes s q); destruct (passes s q); lia.
      - (* Ld3 *)
        fold (passes s q). destruct (passes s q) eqn:Hp.
        + done_step. split; [split; reflexivity|lia].
        + rewrite Hnext. done_step. unfold passes in Hpass. rewrite Hpass.
          split; [split; reflexivity|lia]. }
    destruct Hgoal as (s' & es & Hst & [Hw' Hh] & Hmu). exists s', es.
    split; [exact Hst|]. split; [|exact Hmu].
    split; [eapply reach_step; eauto|]. split; [|exact Hw']. unfold Bnd. rewrite Hh. exact HB.
  Qed.

  (** * load with slots > 1 finishes within [seqlock_load_bound s t] solo steps *)
  Theorem seqlock_load_solo s t :
    reach init step s -> Bnd s -> load_pc (th s t) = true ->
    finishes_within step Step idle t (seqlock_load_bound s t) s.
  Proof.
    intros Hr HB Hw.
    apply (finishes_by_measure _ _ _ step Step idle (P t) (fun s => seqlock_load_bound s t) t).
    - intros s0 HP Hi. exact (seqlock_load_step s0 t HP Hi).
    - split; [exact Hr|]. split; [exact HB|exact Hw].
  Qed.

  Lemma seqlock_load_bound_le s t : (seqlock_load_bound s t <= 2 * words + 4)%nat.
  Proof.
    clear slots_pos slots_ge2 slots_small words_pos.
    unfold seqlock_load_bound, ld3.
    destruct (th s t) as [|[| |]| | |q idx i buf|q buf|q buf| | | | | | | | ]; try lia;
      destruct (passes s q); lia.
  Qed.

  Theorem seqlock_load_solo_const s t :
    reach init step s -> Bnd s -> load_pc (th s t) = true ->
    finishes_within step Step idle t (2 * words + 4) s.
  Proof.
    intros Hr HB Hw. eapply finishes_within_mono; [apply seqlock_load_bound_le|].
    apply seqlock_load_solo; assumption.
  Qed.

  Theorem seqlock_load_never_stuck s t :
    reach init step s -> Bnd s -> load_pc (th s t) = true -> never_stuck step Step idle t s.
  Proof. intros Hr HB Hw. eapply finishes_never_stuck. apply seqlock_load_solo; eassumption. Qed.

  (** an idle thread that starts a load: [words + 4] steps (START, seq, words, fence, seq) *)
  Theorem seqlock_load_solo_start s t s' es :
    reach init step s -> Bnd s -> step s (Start t OLoad) = Some (s', es) ->
    finishes_within step Step idle t (words + 4) s'.
  Proof.
    intros Hr HB Hst. assert (Hr' : reach init step s') by (eapply reach_step; eauto).
    cbn [SeqlockDefs.step] in Hst. destruct (th s t); try discriminate.
    injection Hst as Hs Hes; subst s' es.
    match goal with |- finishes_within _ _ _ _ _ ?st => pose proof (seqlock_load_solo st t Hr' HB) as H end.
    unfold seqlock_load_bound in H. cbn [th] in H. rewrite upd_same in H. apply H. reflexivity.
  Qed.
End SeqlockSolo.

(** * Negative results *)

Definition idf : N -> list N -> list N := fun _ b => b.

(** thread 1 takes the lock for a store and is stopped; thread 2 starts an operation *)
Definition sl_block_acts (o : op) : list action :=
  [Start 1%nat (OStore 1 [7]); Step 1%nat; Step 1%nat; Step 1%nat; Start 2%nat o].

(** (a) one slot: load spins on the odd sequence value *)
Definition sl_block_state_load : state := fst (fst (run (step 1 1 idf) (init [0]) (sl_block_acts OLoad))).

(** a thread that, after [n] solo steps, is in a set of states closed under its steps and never
    idle, blocks *)
Lemma spin_blocks (stp : state -> action -> option (state * list ev)) (Q : state -> Prop) t n s s2 :
  (forall s, Q s -> idle s t = false /\ exists s' es, stp s (Step t) = Some (s', es) /\ Q s') ->
  solo_steps stp Step idle t n s s2 -> Q s2 -> blocks stp Step idle t s.
Proof.
  intros C Hs HQ. apply (blocks_prefix _ _ _ _ _ _ _ n _ s2 Hs), spins_blocks.
  exact (spins_by_invariant _ _ _ _ _ _ Q t C s2 HQ).
Qed.

Definition load_spin_P (t : nat) (s : state) : Prop := th s t = LdSpin /\ odd (seq s) = true.

Lemma load_spin_closed t s : load_spin_P t s ->
  idle s t = false /\ exists s' es, step 1 1 idf s (Step t) = Some (s', es) /\ load_spin_P t s'.
Proof.
  intros [Hp Ho]. unfold idle. rewrite Hp. split; [reflexivity|].
  cbn [step]. rewrite Hp. eexists _, _. split; [reflexivity|].
  split; [|exact Ho]. cbn [th]. rewrite upd_same. unfold ld_next. rewrite Ho. reflexivity.
Qed.

Theorem seqlock_load_one_slot_blocking :
  reach (init [0]) (step 1 1 idf) sl_block_state_load /\
  th sl_block_state_load 2%nat = Begin OLoad /\
  blocks (step 1 1 idf) Step idle 2%nat sl_block_state_load.
Proof.
  split; [apply run_reach|]. split; [vm_compute; reflexivity|].
  eapply (spin_blocks _ (load_spin_P 2%nat) 2%nat 2 _ _ (load_spin_closed 2%nat)).
  - repeat (eapply solo_S; [vm_compute; reflexivity|vm_compute; reflexivity|]). constructor.
  - split; vm_compute; reflexivity.
Qed.

(** (b) any number of slots (here 2): store / update spin in acquire_lock *)
Definition sl_block_state_store : state :=
  fst (fst (run (step 2 1 idf) (init [0]) (sl_block_acts (OStore 2 [9])))).
Definition sl_block_state_update : state :=
  fst (fst (run (step 2 1 idf) (init [0]) (sl_block_acts (OUpdate 3)))).

Definition aq_spin_P (t : nat) (s : state) : Prop := (exists o, th s t = AqSpin o) /\ odd (seq s) = true.

Lemma aq_spin_closed t s : aq_spin_P t s ->
  idle s t = false /\ exists s' es, step 2 1 idf s (Step t) = Some (s', es) /\ aq_spin_P t s'.
Proof.
  intros [[o Hp] Ho]. unfold idle. rewrite Hp. split; [reflexivity|].
  cbn [step]. rewrite Hp. eexists _, _. split; [reflexivity|].
  split; [|exact Ho]. exists o. cbn [th]. rewrite upd_same. unfold aq_next. rewrite Ho. reflexivity.
Qed.

Theorem seqlock_store_blocking :
  reach (init [0]) (step 2 1 idf) sl_block_state_store /\
  th sl_block_state_store 2%nat = Begin (OStore 2 [9]) /\
  blocks (step 2 1 idf) Step idle 2%nat sl_block_state_store.
Proof.
  split; [apply run_reach|]. split; [vm_compute; reflexivity|].
  eapply (spin_blocks _ (aq_spin_P 2%nat) 2%nat 2 _ _ (aq_spin_closed 2%nat)).
  - repeat (eapply solo_S; [vm_compute; reflexivity|vm_compute; reflexivity|]). constructor.
  - split; [eexists|]; vm_compute; reflexivity.
Qed.

Theorem seqlock_update_blocking :
  reach (init [0]) (step 2 1 idf) sl_block_state_update /\
  th sl_block_state_update 2%nat = Begin (OUpdate 3) /\
  blocks (step 2 1 idf) Step idle 2%nat sl_block_state_update.
Proof.
  split; [apply run_reach|]. split; [vm_compute; reflexivity|].
  eapply (spin_blocks _ (aq_spin_P 2%nat) 2%nat 2 _ _ (aq_spin_closed 2%nat)).
  - repeat (eapply solo_S; [vm_compute; reflexivity|vm_compute; reflexivity|]). constructor.
  - split; [eexists|]; vm_compute; reflexivity.
Qed.
