(** C18 - hazard ERA slots: proofs about the model Model/HeSlotsDefs.v (run against the compiled
    xenium::reclamation::hazard_eras by tools/hpslots_diff.py --he).  The pool lemmas are those of Proof/HpSlots.v
    (they are polymorphic in the payload); the guard layer is different: slots are shared and reference counted.
    In order: [used], the invariant [HInv] and how a guard takes ([hinv_take]), drops ([hinv_drop]) or keeps
    ([hinv_put_same], [hinv_set_era]) a reference; [he_alloc_spec], [h_reset_spec]; [Post] with its rules and
    [h_step_post]; [GOk] (pointer and era go together) and [h_step_gok]; runs ([h_run_inv], [h_run_gok]); [HFacts];
    then the theorems of the property: [he_slots_invariant], [he_never_invalid], [he_exhausted_preserves_existing],
    [he_dynamic_never_exhausted], [he_no_leak], [he_pointer_iff_era], [he_exhausted_leaves_guard_empty],
    [he_K_protecting_guards], all about [snd (h_run cfg ops)]. *)
From Coq Require Import String List Arith Bool Lia Permutation.
From XV Require Import Model.HpSlotsDefs Model.HeSlotsDefs Proof.HpSlots.
Import ListNotations.

Lemma slot_at_obj st s ec : nth_error (slots (hpool st)) s = Some (Obj ec) -> slot_at st s = Some ec.
Proof. intros E. unfold slot_at. rewrite E. reflexivity. Qed.

Lemma h_put_get_same st g x : g < length (h_guards st) -> h_get (h_put st g x) g = Some x.
Proof. apply nth_error_set_nth_eq. Qed.

Lemma h_put_get_other st g g' x : g <> g' -> h_get (h_put st g x) g' = h_get st g'.
Proof. apply nth_error_set_nth_neq. Qed.

Lemma h_get_lt st g gd : h_get st g = Some gd -> g < length (h_guards st).
Proof. apply nth_error_lt. Qed.

(** * the slots in use: those referenced by at least one guard *)
Definition used (gs : list guard) : list nat := nodup Nat.eq_dec (held gs).

Lemma cnt_used gs x : cnt (used gs) x = Nat.min 1 (cnt (held gs) x).
Proof.
  pose proof (proj1 (NoDup_count_occ Nat.eq_dec (used gs)) (NoDup_nodup Nat.eq_dec (held gs)) x) as Hle.
  pose proof (nodup_In Nat.eq_dec (held gs) x) as Hin. fold (used gs) in Hin. rewrite !cnt_In in Hin. lia.
Qed.

Lemma used_In gs x : In x (used gs) <-> In x (held gs).
Proof. apply nodup_In. Qed.

(** two guard arrays with the same slots in use *)
Lemma pool_used_ext cfg (p : pool (nat * nat)) gs gs' : (forall y, Nat.min 1 (cnt (held gs) y) = Nat.min 1 (cnt (held gs') y)) ->
  PoolInv cfg p (used gs) -> PoolInv cfg p (used gs').
Proof. intros E. apply PoolInv_perm, (Permutation_count_occ Nat.eq_dec). intros y. rewrite !cnt_used. apply E. Qed.

Record HInv (cfg : config) (st : hstate) : Prop := {
  hi_pool : PoolInv cfg (hpool st) (used (h_guards st));
  (* the reference count of a slot is the number of guards that refer to it *)
  hi_ref : forall s, In s (held (h_guards st)) ->
           exists e, nth_error (slots (hpool st)) s = Some (Obj (e, cnt (held (h_guards st)) s));
  hi_last : forall l, h_last st = Some l -> In l (held (h_guards st));
  hi_len : length (h_guards st) = cG cfg
}.

Lemma hinv_init cfg : 1 <= cK cfg -> HInv cfg (h_init cfg).
Proof.
  intros HK.
  assert (E : held (repeat empty_guard (cG cfg)) = []).
  { apply held_all_empty. intros g gd Hg. apply nth_error_In, repeat_spec in Hg. assumption. }
  split; cbn [h_init hpool h_guards h_last]; unfold used; rewrite ?E.
  - apply pool_init; [assumption|constructor|reflexivity].
  - intros s [].
  - discriminate.
  - apply repeat_length.
Qed.

Lemma hinv_get cfg st g : HInv cfg st -> g < cG cfg -> exists gd, h_get st g = Some gd.
Proof.
  intros Hinv Hlt. destruct (h_get st g) as [gd|] eqn:Hg; [eauto|].
  apply nth_error_None in Hg. rewrite (hi_len _ _ Hinv) in Hg. lia.
Qed.

Lemma hinv_slot cfg st g gd s : HInv cfg st -> h_get st g = Some gd -> g_hp gd = Some s ->
  In s (held (h_guards st)) /\ exists e, nth_error (slots (hpool st)) s = Some (Obj (e, cnt (held (h_guards st)) s)).
Proof. intros Hinv Hg Hs. assert (Hin : In s (held (h_guards st))) by (apply held_In; eauto). split; [assumption|apply Hinv, Hin]. Qed.

(** ** only the guard array changes, the multiset of references stays *)
Lemma hinv_guards_change cfg st gs' : HInv cfg st -> length gs' = length (h_guards st) ->
  Permutation (held gs') (held (h_guards st)) -> HInv cfg (h_with_guards st gs').
Proof.
  intros [Hp Hr Hl Hn] Hlen Hperm. pose proof (proj1 (Permutation_count_occ Nat.eq_dec _ _) Hperm) as Hc.
  split; cbn [h_with_guards hpool h_guards h_last].
  - eapply pool_used_ext; [|exact Hp]. intros y. rewrite Hc. reflexivity.
  - intros s Hin. rewrite Hc. apply Hr. rewrite <- Hperm. assumption.
  - intros l Hl'. rewrite Hperm. auto.
  - congruence.
Qed.

Lemma hinv_put_same cfg st g gd x : HInv cfg st -> h_get st g = Some gd -> g_hp x = g_hp gd -> HInv cfg (h_put st g x).
Proof. intros Hinv Hg Hx. apply hinv_guards_change; [assumption|apply set_nth_length|eapply held_put_same; eassumption]. Qed.

(** ** writing the era of a slot in use *)
Lemma hinv_set_era cfg st s e c era : HInv cfg st -> In s (held (h_guards st)) ->
  nth_error (slots (hpool st)) s = Some (Obj (e, c)) -> HInv cfg (h_with_pool st (p_set s (era, c) (hpool st))).
Proof.
  intros [Hp Hr Hl Hn] Hin Hs. split; cbn [h_with_pool hpool h_guards h_last p_set slots]; try assumption.
  - apply pool_set; [assumption|apply used_In; assumption].
  - intros s' Hin'. destruct (Hr s' Hin') as [e' He']. destruct (Nat.eq_dec s s') as [<-|N].
    + rewrite nth_error_set_nth_eq by (eapply nth_error_lt; eassumption). exists era. congruence.
    + rewrite nth_error_set_nth_neq by assumption. eauto.
Qed.

(** ** a guard without era gets a reference to slot [l] of [p0], which is the pool itself (the slot is shared with other
    guards) or the pool after the allocation of [l] *)
Lemma hinv_take cfg st p0 g gd x l e c last' era' : HInv cfg st -> h_get st g = Some gd -> g_hp gd = None -> g_hp x = Some l ->
  PoolInv cfg p0 (used (set_nth g x (h_guards st))) ->
  (forall s, In s (held (h_guards st)) -> nth_error (slots p0) s = nth_error (slots (hpool st)) s) ->
  c = S (cnt (held (h_guards st)) l) -> last' = h_last st \/ last' = Some l ->
  HInv cfg {| hpool := p_set l (e, c) p0; h_last := last'; h_last_era := era'; h_clock := h_clock st;
              h_guards := set_nth g x (h_guards st) |}.
Proof.
  intros [Hp Hr Hl Hn] Hg Hgn Hx Hp0 Hfr -> Hlast.
  assert (Hc : forall y, cnt (held (set_nth g x (h_guards st))) y = (if l =? y then 1 else 0) + cnt (held (h_guards st)) y).
  { intros y. eapply cnt_held_take; eassumption. }
  assert (Hl' : In l (held (set_nth g x (h_guards st)))) by (apply cnt_In; rewrite Hc, Nat.eqb_refl; lia).
  split; cbn [hpool h_guards h_last p_set slots].
  - apply pool_set; [assumption|apply used_In; assumption].
  - intros s Hin. rewrite Hc. destruct (Nat.eqb_spec l s) as [<-|N].
    + rewrite nth_error_set_nth_eq by (eapply pool_used_lt; [exact Hp0|apply used_In; assumption]). eauto.
    + rewrite nth_error_set_nth_neq by assumption. apply cnt_In in Hin. rewrite Hc in Hin.
      destruct (Nat.eqb_spec l s); [contradiction|]. rewrite Hfr by (apply cnt_In; assumption). apply Hr, cnt_In. assumption.
  - intros l' El. destruct Hlast as [->| ->]; [|congruence]. apply cnt_In. rewrite Hc. specialize (Hl l' El). apply cnt_In in Hl. lia.
  - rewrite set_nth_length. assumption.
Qed.

(** ** a guard drops its reference; the last one returns the slot to the free list *)
Lemma hinv_drop cfg st g gd s x : HInv cfg st -> h_get st g = Some gd -> g_hp gd = Some s -> g_hp x = None ->
  exists st1, he_release st s = Some st1 /\ HInv cfg (h_put st1 g x) /\
              h_guards st1 = h_guards st /\ length (slots (hpool st1)) = length (slots (hpool st)) /\
              forall e c, nth_error (slots (hpool st)) s = Some (Obj (e, c)) -> c <> 1 ->
                          st1 = h_with_pool st (p_set s (e, pred c) (hpool st)).
Proof.
  intros Hinv Hg Hgs Hx. destruct (hinv_slot cfg st g gd s Hinv Hg Hgs) as [Hin [e He]]. destruct Hinv as [Hp Hr Hl Hn].
  pose proof (nth_error_lt _ _ _ He) as Hlt. apply cnt_In in Hin.
  assert (Hc : forall y, cnt (held (h_guards st)) y = (if s =? y then 1 else 0) + cnt (held (set_nth g x (h_guards st))) y).
  { intros y. eapply cnt_held_drop; eassumption. }
  assert (Hoth : forall s', s <> s' -> In s' (held (set_nth g x (h_guards st))) ->
            exists e', nth_error (slots (hpool st)) s' = Some (Obj (e', cnt (held (set_nth g x (h_guards st))) s'))).
  { intros s' N Hin'. apply cnt_In in Hin'. specialize (Hc s'). destruct (Nat.eqb_spec s s'); [contradiction|].
    cbn [Nat.add] in Hc. rewrite <- Hc. apply Hr, cnt_In. lia. }
  pose proof (Hc s) as Hcs. rewrite Nat.eqb_refl in Hcs.
  unfold he_release. rewrite (slot_at_obj _ _ _ He).
  destruct (cnt (held (h_guards st)) s) as [|[|c]] eqn:Ecs; [lia| |]; eexists; (split; [reflexivity|]).
  - (* last reference *)
    split; [|cbn [h_guards hpool p_release slots]; rewrite set_nth_length; repeat split; congruence].
    split; cbn [h_put h_with_guards hpool h_guards h_last p_release slots].
    + apply pool_release. eapply PoolInv_perm; [|exact Hp]. apply (Permutation_count_occ Nat.eq_dec). intros y.
      rewrite cnt_cons, !cnt_used. specialize (Hc y). destruct (Nat.eqb_spec s y) as [E|N]; [rewrite <- E in *|]; lia.
    + intros s' Hin'. assert (N : s <> s') by (intros <-; apply cnt_In in Hin'; lia).
      rewrite nth_error_set_nth_neq by assumption. auto.
    + intros l' Hl'. destruct (h_last st) as [l0|]; [|discriminate].
      destruct (Nat.eqb_spec l0 s) as [->|N]; [discriminate|]. inversion Hl'; subst l'.
      specialize (Hl l0 eq_refl). apply cnt_In in Hl. apply cnt_In. specialize (Hc l0).
      destruct (Nat.eqb_spec s l0); [congruence|]. lia.
    + rewrite set_nth_length. assumption.
  - (* other guards still refer to the slot *)
    split; [|cbn [h_with_pool h_guards hpool p_set slots]; rewrite set_nth_length; repeat split;
             intros e0 c0 E _; rewrite He in E; inversion E; reflexivity].
    split; cbn [h_put h_with_guards h_with_pool hpool h_guards h_last p_set slots].
    + apply pool_set; [|apply used_In, cnt_In; lia]. eapply pool_used_ext; [|exact Hp]. intros y. specialize (Hc y).
      destruct (Nat.eqb_spec s y) as [E|N]; [rewrite <- E in *|]; lia.
    + intros s' Hin'. destruct (Nat.eq_dec s s') as [<-|N].
      * rewrite nth_error_set_nth_eq by assumption. exists e. repeat f_equal. lia.
      * rewrite nth_error_set_nth_neq by assumption. auto.
    + intros l' Hl'. specialize (Hl l' Hl'). apply cnt_In in Hl. apply cnt_In. specialize (Hc l').
      destruct (Nat.eqb_spec s l') as [<-|N]; lia.
    + rewrite set_nth_length. assumption.
Qed.

(** * alloc_hazard_era for a guard [g] without era *)
(** a free slot *)
Lemma he_fresh_spec cfg st g gd era : 1 <= cK cfg -> HInv cfg st -> h_get st g = Some gd -> g_hp gd = None ->
  match p_alloc cfg (hpool st) with
  | AOk i p => forall x, g_hp x = Some i ->
               HInv cfg (h_put {| hpool := p_set i (era, 1) p; h_last := Some i; h_last_era := era;
                                  h_clock := h_clock st; h_guards := h_guards st |} g x)
  | AExh => cDyn cfg = false /\ free_list (hpool st) = []
  | ACorrupt => False
  end.
Proof.
  intros HK Hinv Hg Hgn. pose proof (hi_pool _ _ Hinv) as Hp. pose proof (pool_alloc cfg _ _ HK Hp) as Ha.
  destruct (p_alloc cfg (hpool st)) as [i p| |]; [|assumption..].
  destruct Ha as (Hp' & Hnin & _ & [ext Hext] & _). intros x Hx.
  apply cnt_notIn in Hnin. rewrite cnt_used in Hnin.
  apply (hinv_take cfg st p g gd x i era); auto; [| |lia].
  - eapply PoolInv_perm; [|exact Hp']. apply (Permutation_count_occ Nat.eq_dec). intros y.
    rewrite cnt_cons, !cnt_used, (cnt_held_take _ g gd x i y Hg Hgn Hx).
    destruct (Nat.eqb_spec i y) as [<-|N]; lia.
  - intros s Hs. rewrite Hext. apply nth_error_app1. eapply pool_used_lt; [exact Hp|apply used_In; assumption].
Qed.

(** the cached slot if the era is the same, else a free slot *)
Lemma he_alloc_spec cfg st g gd era : 1 <= cK cfg -> HInv cfg st -> h_get st g = Some gd -> g_hp gd = None ->
  match he_alloc cfg st era with
  | HOk s st1 => forall x, g_hp x = Some s -> HInv cfg (h_put st1 g x)
  | HExh => cDyn cfg = false /\ free_list (hpool st) = []
  | HCorrupt => False
  end.
Proof.
  intros HK Hinv Hg Hgn. pose proof (he_fresh_spec cfg st g gd era HK Hinv Hg Hgn) as Hf.
  unfold he_alloc. cbv zeta. destruct (h_last st) as [l|] eqn:El; [destruct (h_last_era st =? era)|];
    [|destruct (p_alloc cfg (hpool st)); exact Hf..].
  pose proof (hi_last _ _ Hinv l El) as Hin. destruct (hi_ref _ _ Hinv l Hin) as [e He].
  rewrite (slot_at_obj _ _ _ He). intros x Hx. apply cnt_In in Hin.
  apply (hinv_take cfg st (hpool st) g gd x l e); auto.
  eapply pool_used_ext; [|exact (hi_pool _ _ Hinv)]. intros y.
  rewrite (cnt_held_take _ g gd x l y Hg Hgn Hx).
  destruct (Nat.eqb_spec l y) as [<-|N]; lia.
Qed.

(** * reset *)
Lemma h_reset_spec cfg st g gd : HInv cfg st -> h_get st g = Some gd ->
  exists st', h_reset st g = Some st' /\ HInv cfg st' /\ h_get st' g = Some empty_guard /\
              (forall g', g <> g' -> h_get st' g' = h_get st g') /\
              length (slots (hpool st')) = length (slots (hpool st)).
Proof.
  intros Hinv Hg. unfold h_reset. rewrite Hg. pose proof (h_get_lt _ _ _ Hg) as Hlt.
  destruct (g_hp gd) as [s|] eqn:Hs.
  - destruct (hinv_drop cfg st g gd s empty_guard Hinv Hg Hs eq_refl) as (st1 & -> & Hi & Hgs & Hlen & _).
    eexists. split; [reflexivity|]. split; [assumption|].
    split; [apply h_put_get_same; rewrite Hgs; assumption|].
    split; [intros g' Hn; rewrite h_put_get_other by assumption; unfold h_get; rewrite Hgs; reflexivity|assumption].
  - eexists. split; [reflexivity|]. split; [eapply hinv_put_same; [eassumption|eassumption|rewrite Hs; reflexivity]|].
    split; [apply h_put_get_same; assumption|]. split; [intros g' Hn; apply h_put_get_other; assumption|reflexivity].
Qed.

Lemma h_reset_all_spec cfg : forall L st, HInv cfg st -> (forall g, In g L -> g < cG cfg) ->
  exists st', h_reset_all st L = Some st' /\ HInv cfg st' /\
              (forall g, In g L -> h_get st' g = Some empty_guard) /\
              (forall g, h_get st g = Some empty_guard -> h_get st' g = Some empty_guard) /\
              length (slots (hpool st')) = length (slots (hpool st)).
Proof.
  induction L as [|a L IH]; intros st Hinv Hlt; cbn [h_reset_all].
  - exists st. split; [reflexivity|]. split; [assumption|]. split; [intros g []|]. split; auto.
  - destruct (hinv_get cfg st a Hinv (Hlt a (or_introl eq_refl))) as [gd Hgd].
    destruct (h_reset_spec cfg st a gd Hinv Hgd) as (st1 & -> & Hi1 & Hsame & Hoth & Hlen).
    destruct (IH st1 Hi1 (fun g Hg => Hlt g (or_intror Hg))) as (st' & Hr' & Hi' & Hin' & Hkeep & Hlen').
    exists st'. split; [assumption|]. split; [assumption|]. split; [|split; [|congruence]].
    + intros g [<-|HinL]; [apply Hkeep; assumption|apply Hin'; assumption].
    + intros g Hg. apply Hkeep. destruct (Nat.eq_dec a g) as [<-|Hne]; [assumption|]. rewrite Hoth; assumption.
Qed.

Lemma all_reset_held cfg st' : HInv cfg st' -> (forall g, g < cG cfg -> h_get st' g = Some empty_guard) ->
  held (h_guards st') = [].
Proof.
  intros Hinv Hall. apply held_all_empty. intros g gd Hg.
  assert (Hlt : g < cG cfg) by (rewrite <- (hi_len _ _ Hinv); eapply nth_error_lt; eassumption).
  specialize (Hall g Hlt). unfold h_get in Hall. congruence.
Qed.

(** [held_all_empty] of Proof/HpSlots.v *)
Lemma held_all_empty' gs : (forall g gd, nth_error gs g = Some gd -> gd = empty_guard) -> held gs = [].
Proof. apply held_all_empty. Qed.

(** * the operations *)
Definition h_target (op : hop) : nat := match op with HOp o => target o | HTick => 0 end.
Definition valid_hop (cfg : config) (op : hop) : Prop := match op with HOp o => valid_op cfg o | HTick => True end.

(** What the result [r] of an operation on guard [tg] in a state [st] that satisfies the invariant guarantees: the
    invariant; exhaustion is reported only by the static strategy with an empty free list, and then the other guards are
    untouched and the asking guard has no era; [Invalid] only if the operation is not valid.
    [V] stands for "the operation is valid": [h_step_post] takes [valid_hop cfg op] for it; the rules below speak of
    result terms, not of operations, so they only carry it along ([post_get] uses that it bounds the guard index). *)
Definition Post (cfg : config) (V : Prop) (st : hstate) (tg : nat) (r : outcome * bool * hstate) : Prop :=
  let '(o, _, st') := r in
  HInv cfg st' /\
  match o with
  | Ok => True
  | Exhausted => cDyn cfg = false /\ free_list (hpool st') = [] /\
                 (forall g', tg <> g' -> h_get st' g' = h_get st g') /\
                 (exists gd', h_get st' tg = Some gd' /\ g_hp gd' = None)
  | Invalid => ~ V
  end.

Section PostRules.
  Variables (cfg : config) (V : Prop) (st : hstate) (tg : nat).
  Hypothesis Hinv : HInv cfg st.

  Lemma post_ok b st' : HInv cfg st' -> Post cfg V st tg (Ok, b, st').
  Proof. split; trivial. Qed.

  (** the operation names guard [g] *)
  Lemma post_get g (k : guard -> outcome * bool * hstate) : (V -> g < cG cfg) ->
    (forall gd, h_get st g = Some gd -> Post cfg V st tg (k gd)) ->
    Post cfg V st tg (match h_get st g with Some gd => k gd | None => (Invalid, false, st) end).
  Proof.
    intros Hv Hk. destruct (h_get st g) as [gd|] eqn:Hg; [auto|]. split; [assumption|]. intros HV.
    destruct (hinv_get cfg st g Hinv (Hv HV)). congruence.
  Qed.

  (** ... and begins by resetting it *)
  Lemma post_reset g gd (f : hstate -> outcome * bool * hstate) : h_get st g = Some gd ->
    (forall st1, HInv cfg st1 -> h_get st1 g = Some empty_guard -> (forall g', g <> g' -> h_get st1 g' = h_get st g') ->
                 Post cfg V st tg (f st1)) ->
    Post cfg V st tg (opt_bind (h_reset st g) f st).
  Proof.
    intros Hg Hf. destruct (h_reset_spec cfg st g gd Hinv Hg) as (st1 & -> & Hi1 & Hs & Ho & _). apply Hf; assumption.
  Qed.

  Hypothesis HK : 1 <= cK cfg.

  (** [alloc_hazard_era] for the guard [tg], which has no era in the intermediate state [st1] *)
  Lemma post_alloc_for st1 old v m ret : HInv cfg st1 -> h_get st1 tg = Some old -> g_hp old = None ->
    (forall g', tg <> g' -> h_get st1 g' = h_get st g') ->
    Post cfg V st tg (h_alloc_for cfg st1 tg old v m ret).
  Proof.
    intros Hi1 Hg Hgn Hfr. unfold h_alloc_for.
    pose proof (he_alloc_spec cfg st1 tg old (h_clock st1) HK Hi1 Hg Hgn) as Hspec.
    destruct (he_alloc cfg st1 (h_clock st1)) as [s st2| |]; [| |contradiction].
    - apply post_ok, Hspec. reflexivity.
    - destruct Hspec as [Hs Hfl]. split; [eapply hinv_put_same; eauto|].
      split; [assumption|]. split; [assumption|]. split; [intros g' N; rewrite h_put_get_other; auto|].
      eexists. split; [apply h_put_get_same; eapply h_get_lt; eassumption|reflexivity].
  Qed.

  (** [guard_ptr(p)] into the destroyed guard [tg] *)
  Lemma post_construct st1 v m : HInv cfg st1 -> h_get st1 tg = Some empty_guard ->
    (forall g', tg <> g' -> h_get st1 g' = h_get st g') ->
    Post cfg V st tg (let (o, st') := h_construct cfg st1 tg v m in (o, false, st')).
  Proof.
    intros Hi1 Hg Hfr. unfold h_construct. destruct (v =? 0); [apply post_ok; eapply hinv_put_same; eauto|].
    pose proof (he_alloc_spec cfg st1 tg empty_guard (h_clock st1) HK Hi1 Hg eq_refl) as Hspec.
    destruct (he_alloc cfg st1 (h_clock st1)) as [s st2| |]; [| |contradiction].
    - apply post_ok, Hspec. reflexivity.
    - destruct Hspec as [Hs Hfl]. split; [assumption|]. eauto 6.
  Qed.
End PostRules.

Section PostOps.
  Variables (cfg : config) (V : Prop) (st : hstate).
  Hypotheses (HK : 1 <= cK cfg) (Hinv : HInv cfg st).

  (** acquire / acquire_if_equal on a guard whose era is not the current one: the only guard of the slot rewrites the
      era, a guard that shares the slot gives up its reference and allocates *)
  Lemma post_reacquire g gd s e v m ret : h_get st g = Some gd -> g_hp gd = Some s ->
    nth_error (slots (hpool st)) s = Some (Obj (e, cnt (held (h_guards st)) s)) ->
    Post cfg V st g
      (if cnt (held (h_guards st)) s =? 1
       then opt_bind (h_set_era st s (h_clock st)) (fun st1 => (Ok, ret, h_put st1 g (mk_guard (Some s) v m))) st
       else h_alloc_for cfg (h_put (h_with_pool st (p_set s (e, pred (cnt (held (h_guards st)) s)) (hpool st))) g empty_guard)
                        g empty_guard v m ret).
  Proof.
    intros Hg Hgs He. destruct (Nat.eqb_spec (cnt (held (h_guards st)) s) 1) as [_|Hc1].
    - unfold h_set_era. rewrite (slot_at_obj _ _ _ He). apply post_ok.
      eapply hinv_put_same; [eapply hinv_set_era; [assumption|apply held_In; eauto|eassumption]|exact Hg|symmetry; exact Hgs].
    - destruct (hinv_drop cfg st g gd s empty_guard Hinv Hg Hgs eq_refl) as (st1 & _ & Hi1 & _ & _ & Hst1).
      rewrite (Hst1 _ _ He Hc1) in Hi1.
      apply post_alloc_for; [assumption..|apply h_put_get_same; eapply h_get_lt; eassumption|reflexivity|].
      intros g' N. rewrite h_put_get_other by assumption. reflexivity.
  Qed.

  (** copy construction / assignment: the destination is reset and then shares the slot of the source *)
  Lemma post_copy dst src dd sd : dst <> src -> h_get st dst = Some dd -> h_get st src = Some sd ->
    Post cfg V st dst (opt_bind (h_reset st dst) (fun st0 => let (o, st') := h_share st0 dst sd in (o, false, st')) st).
  Proof.
    intros Hne Hd Hs. apply post_reset with (gd := dd); [assumption..|]. intros st1 Hi1 Hd1 Ho1.
    rewrite <- (Ho1 src Hne) in Hs. unfold h_share. destruct (g_hp sd) as [s|] eqn:Hss.
    - destruct (hinv_slot cfg st1 src sd s Hi1 Hs Hss) as [Hin [e He]]. rewrite (slot_at_obj _ _ _ He). apply post_ok.
      apply (hinv_take cfg st1 (hpool st1) dst empty_guard sd s e); auto.
      eapply pool_used_ext; [|exact (hi_pool _ _ Hi1)]. intros y. apply cnt_In in Hin.
      rewrite (cnt_held_take _ dst _ sd s y Hd1 eq_refl Hss).
      destruct (Nat.eqb_spec s y) as [E|N]; [rewrite <- E in *|]; lia.
    - apply post_ok. eapply hinv_put_same; eauto.
  Qed.

  (** move construction / assignment *)
  Lemma post_move dst src dd sd : dst <> src -> h_get st dst = Some dd -> h_get st src = Some sd ->
    Post cfg V st dst (opt_bind (h_reset st dst) (fun st0 => (Ok, false, h_put (h_put st0 dst sd) src empty_guard)) st).
  Proof.
    intros Hne Hd Hs. apply post_reset with (gd := dd); [assumption..|]. intros st1 Hi1 Hd1 Ho1.
    rewrite <- (Ho1 src Hne) in Hs. apply post_ok.
    apply (hinv_guards_change cfg st1 (set_nth src empty_guard (set_nth dst sd (h_guards st1))) Hi1);
      [rewrite !set_nth_length; reflexivity|].
    exact (held_move _ dst src empty_guard sd Hne Hd1 Hs).
  Qed.
End PostOps.

Theorem h_step_post cfg st op : 1 <= cK cfg -> HInv cfg st ->
  Post cfg (valid_hop cfg op) st (h_target op) (h_step cfg st op).
Proof.
  intros HK Hinv. destruct op as [op|]; cbn [h_step h_target valid_hop];
    [|apply post_ok; destruct Hinv; split; assumption].
  destruct op as [g v m|g v m ev em|g|g v m|dst src|dst src|dst src|dst src|dst src|]; cbn [h_step_g target valid_op].
  (* every operation first looks up its guards.
     Goals 1-4: acquire, acquire_if_equal, reset, guard_ptr(p) (one guard [g]); 5-9: copy constructor, move constructor,
     copy assignment, move assignment, swap (two guards [dst], [src]); 10: thread exit *)
  1-4: apply post_get; [assumption|trivial|]; intros gd Hg.
  5-9: apply post_get; [assumption|tauto|]; intros dd Hd; apply post_get; [assumption|tauto|]; intros sd Hs.
  - (* acquire *)
    destruct (v =? 0).
    { apply post_reset with (gd := gd); [assumption..|]. intros st1 Hi1 Hg1 _. apply post_ok. eapply hinv_put_same; eauto. }
    cbv zeta. destruct (g_hp gd) as [s|] eqn:Hgs; [|apply post_alloc_for; auto].
    destruct (hinv_slot cfg st g gd s Hinv Hg Hgs) as [_ [e He]]. rewrite (slot_at_obj _ _ _ He).
    destruct (e =? h_clock st); [apply post_ok; eapply hinv_put_same; eauto|apply post_reacquire with (gd := gd); assumption].
  - (* acquire_if_equal *)
    destruct ((v =? 0) || negb ((v =? ev) && (m =? em))).
    { apply post_reset with (gd := gd); [assumption..|]. intros st1 Hi1 Hg1 _. apply post_ok.
      destruct ((v =? ev) && (m =? em)); [eapply hinv_put_same; eauto|assumption]. }
    cbv zeta. destruct (g_hp gd) as [s|] eqn:Hgs; [|apply post_alloc_for; auto].
    destruct (hinv_slot cfg st g gd s Hinv Hg Hgs) as [_ [e He]]. rewrite (slot_at_obj _ _ _ He).
    apply post_reacquire with (gd := gd); assumption.
  - (* reset *)
    apply post_reset with (gd := gd); [assumption..|]. intros st1 Hi1 _ _. apply post_ok. assumption.
  - (* guard_ptr(p) *)
    apply post_reset with (gd := gd); [assumption..|]. intros st1 Hi1 Hg1 Ho1. apply post_construct; assumption.
  - (* copy constructor *)
    destruct (Nat.eqb_spec dst src); [split; [assumption|tauto]|eapply post_copy; eassumption].
  - (* move constructor *)
    destruct (Nat.eqb_spec dst src); [split; [assumption|tauto]|eapply post_move; eassumption].
  - (* copy assignment *)
    destruct (Nat.eqb_spec dst src); [apply post_ok; assumption|eapply post_copy; eassumption].
  - (* move assignment *)
    destruct (Nat.eqb_spec dst src); [apply post_ok; assumption|eapply post_move; eassumption].
  - (* swap *)
    apply post_ok. apply (hinv_guards_change cfg st (set_nth src dd (set_nth dst sd (h_guards st))) Hinv);
      [rewrite !set_nth_length; reflexivity|eapply held_swap; eassumption].
  - (* thread exit *)
    destruct (h_reset_all_spec cfg (rev (seq 0 (length (h_guards st)))) st Hinv) as (st1 & -> & Hi1 & Hin & _).
    { intros g Hg. apply in_rev, in_seq in Hg. rewrite (hi_len _ _ Hinv) in Hg. lia. }
    apply post_ok.
    assert (Hheld : held (h_guards st1) = []).
    { apply (all_reset_held cfg st1 Hi1). intros g Hg. apply Hin. apply -> in_rev. apply in_seq.
      rewrite (hi_len _ _ Hinv). lia. }
    split; cbn [hpool h_guards h_last]; unfold used; rewrite ?Hheld.
    + apply pool_init; [assumption|apply (pi_blocks _ _ _ (hi_pool _ _ Hi1))|apply (pi_static _ _ _ (hi_pool _ _ Hi1))].
    + intros s [].
    + intros l Hl. rewrite <- Hheld. apply (hi_last _ _ Hi1). assumption.
    + apply (hi_len _ _ Hi1).
Qed.

(** * pointer and era of a guard go together *)
(** (repaired code) a guard has a hazard era iff its pointer is non-null: acquire of a (marked) null pointer releases the
    era, and a guard that gives up a shared era before a throwing allocation also drops its pointer.
    This needs nothing of the pool: every guard an operation writes has this form. *)
Definition gok (gd : guard) : Prop := (g_hp gd = None -> g_ptr gd = 0) /\ (forall s, g_hp gd = Some s -> g_ptr gd <> 0).
Definition GOk (st : hstate) : Prop := forall g gd, h_get st g = Some gd -> gok gd.

Lemma gok_null m v : v = 0 -> gok (mk_guard None v m).
Proof. intros ->. split; [reflexivity|discriminate]. Qed.

Lemma gok_some s v m : v <> 0 -> gok (mk_guard (Some s) v m).
Proof. intros Hv. split; [discriminate|intros; assumption]. Qed.

Lemma gok_put st g x : GOk st -> gok x -> GOk (h_put st g x).
Proof. intros H Hx g' gd Hg. apply nth_error_set_nth_inv in Hg as [[_ ->]|[_ Hg]]; [assumption|eapply H; eassumption]. Qed.

Lemma gok_guards st st1 : h_guards st1 = h_guards st -> GOk st -> GOk st1.
Proof. unfold GOk, h_get. intros ->. auto. Qed.

Lemma he_release_guards st s st1 : he_release st s = Some st1 -> h_guards st1 = h_guards st.
Proof. unfold he_release. destruct (slot_at st s) as [[e [|[|c]]]|]; intros E; inversion E; reflexivity. Qed.

Lemma he_alloc_guards cfg st era s st1 : he_alloc cfg st era = HOk s st1 -> h_guards st1 = h_guards st.
Proof.
  unfold he_alloc. cbv zeta. destruct (h_last st) as [l|]; [destruct (h_last_era st =? era); [destruct (slot_at st l) as [[e c]|]|]|];
    try destruct (p_alloc cfg (hpool st)); intros E; inversion E; reflexivity.
Qed.

Lemma h_reset_gok st g st1 : GOk st -> h_reset st g = Some st1 -> GOk st1.
Proof.
  intros Hg. unfold h_reset. destruct (h_get st g) as [gd|]; [|intros E; inversion E; subst; assumption].
  destruct (g_hp gd) as [s|]; [destruct (he_release st s) as [st2|] eqn:Er; [|discriminate]|]; intros E; inversion E; subst.
  - apply gok_put; [|apply gok_null; reflexivity]. eapply gok_guards; [eapply he_release_guards; eassumption|assumption].
  - apply gok_put; [assumption|apply gok_null; reflexivity].
Qed.

Lemma h_reset_all_gok : forall L st st1, GOk st -> h_reset_all st L = Some st1 -> GOk st1.
Proof.
  induction L as [|a L IH]; intros st st1 Hg; cbn [h_reset_all]; [intros E; inversion E; subst; assumption|].
  destruct (h_reset st a) as [st2|] eqn:Er; [|discriminate]. apply IH. eapply h_reset_gok; eassumption.
Qed.

Section GokRules.
  Variables (cfg : config) (st : hstate).
  Hypothesis Hgok : GOk st.

  Lemma gok_get g (k : guard -> outcome * bool * hstate) : (forall gd, gok gd -> GOk (snd (k gd))) ->
    GOk (snd (match h_get st g with Some gd => k gd | None => (Invalid, false, st) end)).
  Proof. intros Hk. destruct (h_get st g) as [gd|] eqn:Hg; [apply Hk; eapply Hgok; eassumption|assumption]. Qed.

  Lemma gok_reset g (f : hstate -> outcome * bool * hstate) : (forall st1, GOk st1 -> GOk (snd (f st1))) ->
    GOk (snd (opt_bind (h_reset st g) f st)).
  Proof. intros Hf. destruct (h_reset st g) as [st1|] eqn:Er; [apply Hf; eapply h_reset_gok; eassumption|assumption]. Qed.

  Lemma gok_alloc_for g old v m ret : g_ptr old = 0 -> v <> 0 -> GOk (snd (h_alloc_for cfg st g old v m ret)).
  Proof.
    intros Ho Hv. unfold h_alloc_for. destruct (he_alloc cfg st (h_clock st)) as [s st1| |] eqn:Ea; cbn [snd].
    - apply gok_put; [|apply gok_some; assumption]. eapply gok_guards; [eapply he_alloc_guards; eassumption|assumption].
    - apply gok_put; [assumption|apply gok_null; assumption].
    - assumption.
  Qed.

  Lemma gok_construct g v m : GOk (snd (let (o, st') := h_construct cfg st g v m in (o, false, st'))).
  Proof.
    unfold h_construct. destruct (Nat.eqb_spec v 0) as [Hv|Hv]; [apply gok_put; [assumption|apply gok_null; assumption]|].
    destruct (he_alloc cfg st (h_clock st)) as [s st1| |] eqn:Ea; cbn [snd]; try assumption.
    apply gok_put; [|apply gok_some; assumption]. eapply gok_guards; [eapply he_alloc_guards; eassumption|assumption].
  Qed.

  Lemma gok_share g sd : gok sd -> GOk (snd (let (o, st') := h_share st g sd in (o, false, st'))).
  Proof.
    intros Hsd. unfold h_share. destruct (g_hp sd) as [s|] eqn:Hs; [destruct (slot_at st s) as [[e c]|]; [|assumption]|].
    - apply gok_put; assumption.
    - apply gok_put; [assumption|]. apply gok_null, Hsd, Hs.
  Qed.
End GokRules.

Lemma gok_reacquire cfg st g s e c v m ret : GOk st -> v <> 0 ->
  GOk (snd (if c =? 1
            then opt_bind (h_set_era st s (h_clock st)) (fun st1 => (Ok, ret, h_put st1 g (mk_guard (Some s) v m))) st
            else h_alloc_for cfg (h_put (h_with_pool st (p_set s (e, pred c) (hpool st))) g empty_guard) g empty_guard v m ret)).
Proof.
  intros Hg Hv. destruct (c =? 1).
  - unfold h_set_era. destruct (slot_at st s) as [[e' c']|]; [|assumption]. apply gok_put; [assumption|apply gok_some; assumption].
  - apply gok_alloc_for; [|reflexivity|assumption]. apply gok_put; [assumption|apply gok_null; reflexivity].
Qed.

Definition h_outcome_of (cfg : config) (st : hstate) (op : hop) : outcome := fst (fst (h_step cfg st op)).
Definition h_state_after (cfg : config) (st : hstate) (op : hop) : hstate := snd (h_step cfg st op).

Theorem h_step_gok cfg st op : GOk st -> GOk (h_state_after cfg st op).
Proof.
  intros Hg. unfold h_state_after. destruct op as [op|]; cbn [h_step]; [|exact Hg].
  destruct op as [g v m|g v m ev em|g|g v m|dst src|dst src|dst src|dst src|dst src|]; cbn [h_step_g].
  (* every operation first looks up its guards.
     Goals 1-4: acquire, acquire_if_equal, reset, guard_ptr(p) (one guard [g]); 5-9: copy constructor, move constructor,
     copy assignment, move assignment, swap (two guards [dst], [src]); 10: thread exit *)
  1-4: apply gok_get; [assumption|]; intros gd Hgd.
  5-9: apply gok_get; [assumption|]; intros dd Hdd; apply gok_get; [assumption|]; intros sd Hsd.
  (* copy and move, constructor and assignment, reset the destination first *)
  5-8: destruct (dst =? src); [assumption|]; apply gok_reset; [assumption|]; intros st1 H1.
  - (* acquire *)
    destruct (Nat.eqb_spec v 0) as [Hv|Hv].
    { apply gok_reset; [assumption|]. intros st1 H1. apply gok_put; [assumption|apply gok_null; assumption]. }
    cbv zeta. destruct (g_hp gd) as [s|] eqn:Egs; [|apply gok_alloc_for; [assumption|apply Hgd, Egs|assumption]].
    destruct (slot_at st s) as [[e c]|]; [|assumption].
    destruct (e =? h_clock st); [apply gok_put; [assumption|apply gok_some; assumption]|apply gok_reacquire; assumption].
  - (* acquire_if_equal *)
    destruct (Nat.eqb_spec v 0) as [Hv|Hv]; cbn [orb].
    { apply gok_reset; [assumption|]. intros st1 H1. destruct (_ && _); [apply gok_put; [|apply gok_null]|]; assumption. }
    destruct ((v =? ev) && (m =? em)); cbn [negb]; [|apply gok_reset; trivial].
    cbv zeta. destruct (g_hp gd) as [s|] eqn:Egs; [|apply gok_alloc_for; [assumption|apply Hgd, Egs|assumption]].
    destruct (slot_at st s) as [[e c]|]; [apply gok_reacquire|]; assumption.
  - (* reset *)
    apply gok_reset; trivial.
  - (* guard_ptr(p) *)
    apply gok_reset; [assumption|]. intros st1 H1. apply gok_construct, H1.
  - (* copy constructor *)
    apply gok_share; assumption.
  - (* move constructor *)
    apply gok_put; [apply gok_put; assumption|apply gok_null; reflexivity].
  - (* copy assignment *)
    apply gok_share; assumption.
  - (* move assignment *)
    apply gok_put; [apply gok_put; assumption|apply gok_null; reflexivity].
  - (* swap *)
    apply gok_put; [apply gok_put|]; assumption.
  - (* thread exit *)
    destruct (h_reset_all st (rev (seq 0 (length (h_guards st))))) as [st1|] eqn:Er; [|assumption].
    eapply gok_guards; [|eapply h_reset_all_gok; eassumption]. reflexivity.
Qed.

(** * every operation sequence *)
Lemma h_state_after_inv cfg st op : 1 <= cK cfg -> HInv cfg st -> HInv cfg (h_state_after cfg st op).
Proof.
  intros HK Hinv. pose proof (h_step_post cfg st op HK Hinv) as H. unfold h_state_after.
  destruct (h_step cfg st op) as [[o b] s]. apply H.
Qed.

Lemma h_run_from_cons cfg st op r :
  h_run_from cfg st (op :: r) =
  (h_observe (h_outcome_of cfg st op) (snd (fst (h_step cfg st op))) (h_state_after cfg st op)
     :: fst (h_run_from cfg (h_state_after cfg st op) r),
   snd (h_run_from cfg (h_state_after cfg st op) r)).
Proof.
  cbn [h_run_from]. unfold h_outcome_of, h_state_after. destruct (h_step cfg st op) as [[o b] st']. cbn [fst snd].
  destruct (h_run_from cfg st' r); reflexivity.
Qed.

(** a property of the states that every operation preserves holds after every run that starts in such a state *)
Lemma h_run_from_pres cfg (P : hstate -> Prop) : (forall st op, P st -> P (h_state_after cfg st op)) ->
  forall ops st, P st -> P (snd (h_run_from cfg st ops)).
Proof.
  intros Hstep. induction ops as [|op r IH]; intros st HP; [assumption|].
  rewrite h_run_from_cons. cbn [snd]. apply IH, Hstep, HP.
Qed.

Theorem h_run_inv cfg ops : 1 <= cK cfg -> HInv cfg (snd (h_run cfg ops)).
Proof.
  intros HK. apply (h_run_from_pres cfg (HInv cfg)); [|apply hinv_init; assumption]. intros st op. apply h_state_after_inv. assumption.
Qed.

Lemma h_run_gok cfg ops : GOk (snd (h_run cfg ops)).
Proof.
  apply (h_run_from_pres cfg GOk); [intros st op; apply h_step_gok|].
  intros g gd Hg. apply nth_error_In, repeat_spec in Hg. subst. apply (gok_null 0 0 eq_refl).
Qed.

Lemma h_run_from_Forall cfg (Q : hop -> Prop) (P : outcome -> Prop) : 1 <= cK cfg ->
  (forall st op, HInv cfg st -> Q op -> P (h_outcome_of cfg st op)) ->
  forall ops st, HInv cfg st -> Forall Q ops -> Forall (fun o => P (ho_res o)) (fst (h_run_from cfg st ops)).
Proof.
  intros HK Hstep. induction ops as [|op r IH]; intros st Hinv HQ; [constructor|].
  rewrite h_run_from_cons. cbn [fst]. inversion HQ; subst. constructor.
  - cbn [h_observe ho_res]. apply Hstep; assumption.
  - apply IH; [|assumption]. apply h_state_after_inv; assumption.
Qed.

Definition HFacts (cfg : config) (st : hstate) : Prop :=
  let fl := free_list (hpool st) in
  let H := held (h_guards st) in                       (* the slot of every guard that has one (with repetitions) *)
  let n := length (slots (hpool st)) in
  (* the free list is a duplicate free chain of link slots that enumerates exactly the slots no guard refers to *)
  chain (slots (hpool st)) (hint (hpool st)) fl /\ NoDup fl /\
  (forall i, In i fl <-> i < n /\ ~ In i H) /\
  (forall i, In i H -> i < n) /\
  (* a slot that guards refer to holds an era and its guard_cnt is the number of guards that refer to it *)
  (forall s, In s H -> exists e, nth_error (slots (hpool st)) s = Some (Obj (e, cnt H s))) /\
  Permutation (fl ++ used (h_guards st)) (seq 0 n) /\ length (used (h_guards st)) + length fl = n /\
  (* the cache refers to a slot that is in use *)
  (forall l, h_last st = Some l -> In l H) /\
  n = cK cfg + list_sum (blocks (hpool st)) /\ (cDyn cfg = false -> n = cK cfg) /\
  length (h_guards st) = cG cfg.

Lemma hinv_facts cfg st : HInv cfg st -> HFacts cfg st.
Proof.
  intros [Hp Hr Hl Hn]. destruct (pool_facts _ _ _ Hp) as (Hc & Hndf & Hfree & _ & Hlt & Hperm & Hlen & Htot & Hst).
  unfold HFacts. repeat match goal with |- _ /\ _ => split end; try assumption.
  - intros i. rewrite <- used_In. apply Hfree.
  - intros i Hi. apply Hlt, used_In, Hi.
Qed.

Theorem he_slots_invariant cfg ops : 1 <= cK cfg -> HFacts cfg (snd (h_run cfg ops)).
Proof. intros HK. apply hinv_facts, h_run_inv. assumption. Qed.

Example ex_he_slots_invariant :
  let cfg := {| cK := 2; cDyn := false; cG := 4 |} in
  let st := snd (h_run cfg [HOp (GAcquire 0 7 0); HOp (GCopyCtor 1 0); HTick; HOp (GAcquire 2 8 0); HOp (GCopyAssign 3 2);
                            HOp (GReset 0)]) in
  free_list (hpool st) = [] /\ held (h_guards st) = [0; 1; 1] /\ used (h_guards st) = [0; 1] /\
  slots (hpool st) = [Obj (1, 1); Obj (2, 2)] /\ h_last st = Some 1.
Proof. vm_compute. repeat split. Qed.

(** no operation of a valid sequence is ever [Invalid]: no guard_cnt underflow, no release of a free slot (double
    release), no get_link of a slot in use *)
Theorem he_never_invalid cfg ops : 1 <= cK cfg -> Forall (valid_hop cfg) ops ->
  Forall (fun o => ho_res o <> Invalid) (fst (h_run cfg ops)).
Proof.
  intros HK. apply (h_run_from_Forall cfg (valid_hop cfg) (fun o => o <> Invalid) HK); [|apply hinv_init; assumption].
  intros st op Hinv Hv. pose proof (h_step_post cfg st op HK Hinv) as H. unfold h_outcome_of.
  destruct (h_step cfg st op) as [[o b] s]. cbn [fst]. intros ->. apply H, Hv.
Qed.

(** exhaustion is reported only by the static strategy and only when every one of the K slots is referenced by a guard;
    the other guards are untouched, the asking guard has no era afterwards *)
Theorem he_exhausted_preserves_existing cfg ops op : 1 <= cK cfg ->
  let st := snd (h_run cfg ops) in
  h_outcome_of cfg st op = Exhausted ->
  let st' := h_state_after cfg st op in
  cDyn cfg = false /\ free_list (hpool st') = [] /\ length (used (h_guards st')) = cK cfg /\
  (forall g', h_target op <> g' -> h_get st' g' = h_get st g') /\
  (exists gd', h_get st' (h_target op) = Some gd' /\ g_hp gd' = None) /\
  HFacts cfg st'.
Proof.
  intros HK st Hexh st'. subst st'. unfold h_outcome_of, h_state_after in *.
  pose proof (h_step_post cfg st op HK (h_run_inv cfg ops HK)) as H. fold st in H.
  destruct (h_step cfg st op) as [[o b] s]. cbn [fst snd] in *. subst o. destruct H as (Hi & Hs & Hfl & Hoth & Htg).
  split; [assumption|]. split; [assumption|]. split; [|split; [assumption|split; [assumption|apply hinv_facts; assumption]]].
  pose proof (pool_used_length _ _ _ (hi_pool _ _ Hi)) as Hlen.
  rewrite Hfl, (pool_static_total _ _ _ (hi_pool _ _ Hi) Hs) in Hlen. exact Hlen.
Qed.

Theorem he_dynamic_never_exhausted cfg ops : 1 <= cK cfg -> cDyn cfg = true ->
  Forall (fun o => ho_res o <> Exhausted) (fst (h_run cfg ops)).
Proof.
  intros HK Hd.
  assert (H : Forall (fun _ : hop => True) ops) by (apply Forall_forall; trivial).
  revert H. apply (h_run_from_Forall cfg (fun _ => True) (fun o => o <> Exhausted) HK); [|apply hinv_init; assumption].
  intros st op Hinv _. pose proof (h_step_post cfg st op HK Hinv) as H. unfold h_outcome_of.
  destruct (h_step cfg st op) as [[o b] s]. cbn [fst]. intros ->. destruct H as (_ & Hs & _). congruence.
Qed.

Definition h_reset_ops (cfg : config) : list hop := map (fun g => HOp (GReset g)) (seq 0 (cG cfg)).

(** the run of these operations is [h_reset_all] *)
Lemma h_run_resets cfg : forall L st, HInv cfg st -> (forall g, In g L -> g < cG cfg) ->
  h_reset_all st L = Some (snd (h_run_from cfg st (map (fun g => HOp (GReset g)) L))).
Proof.
  induction L as [|a L IH]; intros st Hinv Hlt; [reflexivity|]. cbn [map h_reset_all]. rewrite h_run_from_cons. cbn [snd].
  destruct (hinv_get cfg st a Hinv (Hlt a (or_introl eq_refl))) as [gd Hgd].
  destruct (h_reset_spec cfg st a gd Hinv Hgd) as (st1 & Er & Hi1 & _).
  assert (E : h_state_after cfg st (HOp (GReset a)) = st1) by (unfold h_state_after; cbn [h_step h_step_g]; rewrite Hgd, Er; reflexivity).
  rewrite Er, E. apply IH; [assumption|]. intros g Hg. apply Hlt. right. assumption.
Qed.

(** after all guards were reset every slot is free again and the cache is empty *)
Theorem he_no_leak cfg ops : 1 <= cK cfg ->
  let st := snd (h_run cfg ops) in
  let st' := snd (h_run_from cfg st (h_reset_ops cfg)) in
  held (h_guards st') = [] /\ h_last st' = None /\
  length (slots (hpool st')) = length (slots (hpool st)) /\
  Permutation (free_list (hpool st')) (seq 0 (length (slots (hpool st')))) /\
  length (free_list (hpool st')) = length (slots (hpool st)).
Proof.
  intros HK st st'. pose proof (h_run_inv cfg ops HK) as Hinv. fold st in Hinv.
  assert (Hlt : forall g, In g (seq 0 (cG cfg)) -> g < cG cfg) by (intros g Hg; apply in_seq in Hg; lia).
  destruct (h_reset_all_spec cfg _ st Hinv Hlt) as (st1 & Hr & Hi & Hin & _ & Hlen).
  rewrite (h_run_resets cfg _ st Hinv Hlt) in Hr. fold (h_reset_ops cfg) st' in Hr. inversion Hr; subst st1.
  assert (Hheld : held (h_guards st') = []).
  { apply (all_reset_held cfg st' Hi). intros g Hg. apply Hin. apply in_seq. lia. }
  pose proof (pool_perm _ _ _ (hi_pool _ _ Hi)) as Hp. unfold used in Hp. rewrite Hheld in Hp. cbn [nodup] in Hp. rewrite app_nil_r in Hp.
  split; [assumption|]. split.
  { destruct (h_last st') as [l|] eqn:El; [|reflexivity]. pose proof (hi_last _ _ Hi l El) as Hl. rewrite Hheld in Hl. destruct Hl. }
  split; [assumption|]. split; [assumption|].
  apply Permutation_length in Hp. rewrite seq_length in Hp. congruence.
Qed.

Example ex_he_no_leak :
  let cfg := {| cK := 2; cDyn := false; cG := 4 |} in
  let ops := [HOp (GAcquire 0 7 0); HOp (GCopyCtor 1 0); HTick; HOp (GAcquire 2 8 0); HOp (GCopyAssign 3 2); HTick;
              HOp (GAcquire 1 9 0)] in
  map ho_res (fst (h_run cfg ops)) = [Ok; Ok; Ok; Ok; Ok; Ok; Exhausted] /\
  map ho_cnt (fst (h_run_from cfg (snd (h_run cfg ops)) (h_reset_ops cfg))) = [[0; 2]; [0; 2]; [0; 1]; [0; 0]] /\
  free_list (hpool (snd (h_run_from cfg (snd (h_run cfg ops)) (h_reset_ops cfg)))) = [1; 0].
Proof. vm_compute. repeat split. Qed.

(** * What hazard_eras does differently from hazard_pointer (all confirmed on the compiled code by the differential run) *)

(** copies share the slot: with K = 1 any number of guards can be held as long as the era does not change *)
Example ex_he_copies_share :
  let cfg := {| cK := 1; cDyn := false; cG := 4 |} in
  let r := h_run cfg [HOp (GAcquire 0 1 0); HOp (GCopyCtor 1 0); HOp (GCopyAssign 2 1); HOp (GAcquire 3 2 0)] in
  map ho_res (fst r) = [Ok; Ok; Ok; Ok] /\ map g_hp (h_guards (snd r)) = [Some 0; Some 0; Some 0; Some 0] /\
  slots (hpool (snd r)) = [Obj (1, 4)].
Proof. vm_compute. repeat split. Qed.

(** * pointer and era go together, for every operation sequence *)
Theorem he_pointer_iff_era cfg ops g gd : h_get (snd (h_run cfg ops)) g = Some gd ->
  (g_hp gd = None <-> g_ptr gd = 0).
Proof.
  intros Hg. destruct (h_run_gok cfg ops g gd Hg) as [H1 H2]. split; [assumption|].
  intros Hz. destruct (g_hp gd) as [s|] eqn:E; [|reflexivity]. exfalso. exact (H2 s eq_refl Hz).
Qed.

(** (repaired code; before the repair this theorem and [he_K_protecting_guards] below were false)
    After an Exhausted operation the asking guard has no era and a null pointer, all other guards are unchanged. *)
Theorem he_exhausted_leaves_guard_empty cfg ops op : 1 <= cK cfg ->
  let st := snd (h_run cfg ops) in
  h_outcome_of cfg st op = Exhausted ->
  let st' := h_state_after cfg st op in
  (exists gd', h_get st' (h_target op) = Some gd' /\ g_hp gd' = None /\ g_ptr gd' = 0) /\
  (forall g', h_target op <> g' -> h_get st' g' = h_get st g').
Proof.
  intros HK st Hexh st'.
  destruct (he_exhausted_preserves_existing cfg ops op HK Hexh) as (_ & _ & _ & Hoth & (gd' & Hg' & Hn) & _).
  fold st st' in Hoth, Hg'. split; [|assumption]. exists gd'. split; [assumption|]. split; [assumption|].
  apply (h_step_gok cfg st op (h_run_gok cfg ops) _ _ Hg'). assumption.
Qed.

(** an acquisition throws only if every one of the K slots is referenced by a guard whose pointer is non-null;
    guards with a null (or marked null) pointer hold no era *)
Theorem he_K_protecting_guards cfg ops op : 1 <= cK cfg ->
  let st := snd (h_run cfg ops) in
  h_outcome_of cfg st op = Exhausted ->
  let st' := h_state_after cfg st op in
  cDyn cfg = false /\ length (used (h_guards st')) = cK cfg /\
  (forall s, s < cK cfg -> exists g gd, h_get st' g = Some gd /\ g_hp gd = Some s /\ g_ptr gd <> 0) /\
  (forall g gd, h_get st' g = Some gd -> g_ptr gd = 0 -> g_hp gd = None).
Proof.
  intros HK st Hexh st'.
  destruct (he_exhausted_preserves_existing cfg ops op HK Hexh) as (Hs & Hfl & Hlen & _ & _ & _).
  fold st st' in Hfl, Hlen.
  pose proof (h_step_gok cfg st op (h_run_gok cfg ops)) as HG. fold st' in HG.
  pose proof (hi_pool _ _ (h_state_after_inv cfg st op HK (h_run_inv cfg ops HK))) as Hp. fold st' in Hp.
  split; [assumption|]. split; [assumption|]. split.
  - intros s Hlt. rewrite <- (pool_static_total _ _ _ Hp Hs) in Hlt.
    apply (pool_full _ _ _ s Hp Hfl), used_In, held_In in Hlt. destruct Hlt as (g & gd & Hg & Hi). exists g, gd.
    split; [assumption|]. split; [assumption|]. exact (proj2 (HG _ _ Hg) s Hi).
  - intros g gd Hg Hz. destruct (g_hp gd) as [s|] eqn:E; [|reflexivity]. exfalso. exact (proj2 (HG _ _ Hg) s E Hz).
Qed.

(** the two sequences that refuted these theorems before the repair, run on the repaired code *)
Example ex_he_exhausted_leaves_guard_empty :
  let cfg := {| cK := 1; cDyn := false; cG := 2 |} in
  let r := h_run cfg [HOp (GAcquire 0 1 0); HOp (GCopyCtor 1 0); HTick; HOp (GAcquire 1 2 0); HOp (GReset 0)] in
  map ho_res (fst r) = [Ok; Ok; Ok; Exhausted; Ok] /\
  h_get (snd (h_run cfg [HOp (GAcquire 0 1 0); HOp (GCopyCtor 1 0); HTick; HOp (GAcquire 1 2 0)])) 1 = Some empty_guard /\
  h_get (snd r) 1 = Some empty_guard.
Proof. vm_compute. repeat split. Qed.

Example ex_he_K_protecting_guards :
  let cfg := {| cK := 1; cDyn := false; cG := 2 |} in
  let r := h_run cfg [HOp (GAcquire 0 0 0); HTick; HOp (GAcquire 1 5 0); HOp (GAcquire 0 0 1); HOp (GAcquireIfEqual 0 0 1 0 1)] in
  map ho_res (fst r) = [Ok; Ok; Ok; Ok; Ok] /\
  map g_hp (h_guards (snd r)) = [None; Some 0] /\ map g_ptr (h_guards (snd r)) = [0; 5] /\ map g_mark (h_guards (snd r)) = [1; 0].
Proof. vm_compute. repeat split. Qed.
