(** Ownership of thread control blocks and the critical-region flag in the generalised epoch based reclamation model
    (Model/GebrDefs.v), for every configuration ([O0], [O0_reach]).  No axioms. *)
From Coq Require Import NArith List Bool Arith Lia PeanoNat.
From XV Require Import Conc.Lts Conc.Ev Model.GebrDefs Proof.GebrBase Proof.GebrShape.
Import ListNotations.
Local Open Scope N_scope.

(** program points at which the critical-region flag of the thread is set for sure *)
Definition pcon (p : pc) : bool :=
  match p with
  | E2 _ | E3 _ | E4 _ _ | S1 _ _ | S2 _ _ _ | S3 _ _ _ | G1 _ _ | G2 _ _ | G3 _ _ | G4 _ _
  | G5 _ _ _ | G6 _ _ _ | G7 _ _ _ _ | U1 _ _ | U2 _ _ _ | U3 _ => true
  | _ => false
  end.
Definition isE1 (p : pc) : bool := match p with E1 _ => true | _ => false end.
(** the flag is set: the thread is synchronised, or between the fence and the end of do_enter_critical, or (eager) inside
    a region *)
Definition fon (cfg : config) (p : pc) (x : tls) : bool :=
  sync x || pcon p || (is_eager cfg && Nat.leb 1 (rent x) && negb (isE1 p)).

Ltac ofn := cbn [pcon isE1 walk_of cblk].
Ltac ofn_in H := cbn [pcon isE1 walk_of cblk] in H.

Record O0 (cfg : config) (s : state) : Prop := {
  o_own : forall u b, cb (tl s u) = Some b -> g_owner s b = Some u /\ In b (blist s);
  o_ownC : forall u b, cblk (th s u) = Some b -> g_owner s b = Some u /\ ~ In b (blist s) /\ bflag s b = false;
  o_rev : forall b u, g_owner s b = Some u -> (cb (tl s u) = Some b \/ cblk (th s u) = Some b) /\ bstate s b = 2 /\ b < nalloc s;
  o_inlt : forall b, In b (blist s) -> b < nalloc s;
  o_walk : forall u b, In b (walk_of (th s u)) -> In b (blist s);
  o_flag : forall u b, cb (tl s u) = Some b -> fon cfg (th s u) (tl s u) = true -> bflag s b = true }.

Lemma owner_untouched cfg s t u b : O0 cfg s -> g_owner s b = Some u -> u <> t -> ~ touched s t b.
Proof.
  intros I Ho Hne [H|[H|[(k & rest & H & H0)|(k & H)]]].
  - apply (o_own cfg s I) in H. destruct H as [H _]. congruence.
  - apply (o_rev cfg s I) in Ho. destruct Ho as (_ & _ & Hlt). subst b. lia.
  - apply (o_rev cfg s I) in Ho. destruct Ho as (_ & Hst & _). rewrite Hst in H0. discriminate.
  - assert (Hc : cblk (th s t) = Some b) by (rewrite H; reflexivity).
    apply (o_ownC cfg s I) in Hc. destruct Hc as [Hc _]. congruence.
Qed.

(** the other threads: nothing they rely on is touched *)
Lemma O0_other cfg ns s t s' es u : O0 cfg s -> step cfg ns s (Step t) = Some (s', es) -> u <> t ->
  (forall b, cb (tl s' u) = Some b -> g_owner s' b = Some u /\ In b (blist s')) /\
  (forall b, cblk (th s' u) = Some b -> g_owner s' b = Some u /\ ~ In b (blist s') /\ bflag s' b = false) /\
  (forall b, In b (walk_of (th s' u)) -> In b (blist s')) /\
  (forall b, cb (tl s' u) = Some b -> fon cfg (th s' u) (tl s' u) = true -> bflag s' b = true).
Proof.
  intros I H Hne. pose proof (step_others _ _ _ _ _ _ H) as Fth. pose proof (step_untouched _ _ _ _ _ _ H) as Fb. pose proof (step_blist _ _ _ _ _ _ H) as Fl.
  destruct (Fth u Hne) as [-> ->].
  assert (Hin : forall b, In b (blist s) -> In b (blist s')).
  { destruct Fl as [->|(k & b0 & h & _ & ->)]; intros b Hb; [exact Hb|right; exact Hb]. }
  repeat split.
  - apply (o_own cfg s I) in H0. destruct H0 as [Ho _].
    destruct (Fb b (owner_untouched _ _ _ _ _ I Ho Hne)) as (_ & _ & _ & ->). exact Ho.
  - apply Hin. apply (o_own cfg s I) in H0. apply H0.
  - apply (o_ownC cfg s I) in H0. destruct H0 as [Ho _].
    destruct (Fb b (owner_untouched _ _ _ _ _ I Ho Hne)) as (_ & _ & _ & ->). exact Ho.
  - apply (o_ownC cfg s I) in H0. destruct H0 as (Ho & Hni & _).
    destruct Fl as [->|(k & b0 & h & Hpc & ->)]; [exact Hni|].
    intros [->|Hi]; [|contradiction].
    assert (Hc : cblk (th s t) = Some b) by (rewrite Hpc; reflexivity).
    apply (o_ownC cfg s I) in Hc. destruct Hc as [Hc _]. congruence.
  - apply (o_ownC cfg s I) in H0. destruct H0 as (Ho & _ & Hf).
    destruct (Fb b (owner_untouched _ _ _ _ _ I Ho Hne)) as (_ & -> & _ & _). exact Hf.
  - intros b Hb. apply Hin. eapply (o_walk cfg s I); eauto.
  - intros b Hb Hf. pose proof (o_flag cfg s I u b Hb Hf) as Hfl. apply (o_own cfg s I) in Hb. destruct Hb as [Ho _].
    destruct (Fb b (owner_untouched _ _ _ _ _ I Ho Hne)) as (_ & -> & _ & _). exact Hfl.
Qed.

Ltac split_upd_all :=
  repeat match goal with
  | |- context [upd ?f ?t ?v ?t] => rewrite (upd_same f t v)
  | H : context [upd ?f ?t ?v ?t] |- _ => rewrite (upd_same f t v) in H
  | H : ?u <> ?t |- context [upd ?f ?t ?v ?u] => rewrite (upd_other f t v u H)
  | H : ?u <> ?t, H2 : context [upd ?f ?t ?v ?u] |- _ => rewrite (upd_other f t v u H) in H2
  | |- context [upd ?f ?t ?v ?u] => destruct (Nat.eq_dec u t); [subst u|]
  | H2 : context [upd ?f ?t ?v ?u] |- _ => destruct (Nat.eq_dec u t); [subst u|]
  end.
Ltac split_updN_all :=
  repeat match goal with
  | |- context [updN ?f ?i ?v ?i] => rewrite (updN_same f i v)
  | H : context [updN ?f ?i ?v ?i] |- _ => rewrite (updN_same f i v) in H
  | H : ?j <> ?i |- context [updN ?f ?i ?v ?j] => rewrite (updN_other f i v j H)
  | H : ?j <> ?i, H2 : context [updN ?f ?i ?v ?j] |- _ => rewrite (updN_other f i v j H) in H2
  | |- context [updN ?f ?i ?v ?j] => destruct (N.eq_dec j i); [subst j|]
  | H2 : context [updN ?f ?i ?v ?j] |- _ => destruct (N.eq_dec j i); [subst j|]
  end.

Ltac inj_some :=
  repeat match goal with
  | H : Some ?a = Some ?b |- _ => first [ is_var b; injection H as <- | is_var a; injection H as -> | injection H as H ]
  end.
Ltac pos_facts :=
  repeat match goal with
  | E : ?g ?s0 = Some ?x, L : (?s0 < ?ns)%nat |- _ =>
    lazymatch goal with | _ : (1 <= cnt_held g ns)%nat |- _ => fail | _ => pose proof (cnt_pos _ _ _ _ E L) end
  end.

Lemma fon_mono cfg p x p' x' : fon cfg p' x' = true ->
  (sync x' = true -> sync x = true) -> (pcon p' = true -> pcon p = true) ->
  (is_eager cfg = true -> (1 <= rent x')%nat -> isE1 p' = false -> (1 <= rent x)%nat /\ isE1 p = false) ->
  fon cfg p x = true.
Proof.
  unfold fon. intros H H1 H2 H3.
  destruct (sync x'); [rewrite H1 by reflexivity; reflexivity|].
  destruct (pcon p'); [rewrite H2 by reflexivity; rewrite orb_true_r; reflexivity|].
  cbn [orb] in H. apply andb_true_iff in H. destruct H as [H H4]. apply andb_true_iff in H. destruct H as [H5 H6].
  apply Nat.leb_le in H6. apply negb_true_iff in H4. destruct (H3 H5 H6 H4) as [H7 H8].
  rewrite H5, H8. apply Nat.leb_le in H7. rewrite H7. cbn. rewrite !orb_true_r. reflexivity.
Qed.
Lemma rent_dec_pos cfg n : (1 <= rent_dec cfg n)%nat -> (1 <= n)%nat.
Proof. unfold rent_dec. destruct (rext cfg); lia. Qed.
Lemma eager_first_false cfg x : eager_first cfg x = false -> is_eager cfg = true -> (1 <= rent x)%nat.
Proof. unfold eager_first, is_eager. destruct (rext cfg); try discriminate. intros H _. apply Nat.eqb_neq in H. lia. Qed.
Lemma not_eager cfg : rext cfg <> REager -> is_eager cfg = true -> False.
Proof. unfold is_eager. destruct (rext cfg); congruence. Qed.

Lemma fon_eager cfg p x : rext cfg = REager -> (1 <= rent x)%nat -> isE1 p = false -> fon cfg p x = true.
Proof.
  unfold fon, is_eager. intros -> H ->. apply Nat.leb_le in H. rewrite H. cbn. rewrite orb_true_r. reflexivity.
Qed.
Lemma is_eager_true cfg : rext cfg = REager -> is_eager cfg = true.
Proof. unfold is_eager. intros ->. reflexivity. Qed.

Lemma fon_pcon cfg p x : pcon p = true -> fon cfg p x = true.
Proof. unfold fon. intros ->. rewrite orb_true_r. reflexivity. Qed.
Lemma fon_false cfg p x : sync x = false -> pcon p = false -> rent x = O -> fon cfg p x = false.
Proof. unfold fon. intros -> -> ->. cbn. rewrite andb_false_r. reflexivity. Qed.

(* closes [bflag s' b = true] for the block of the stepping thread given [fon] in the successor: [fon] held before
   ([fon_mono]), or the step is the store / the load that saw the flag, or [fon] is refuted by the shape ([fon_false]) *)
Ltac flag_tac :=
  split_updN_all; try reflexivity; try congruence;
  first [ assumption
        | match goal with
          | Iflagt : fon ?c ?p ?x = true -> forall b, _ = Some b -> bflag ?s b = true, H0 : fon ?c ?p' ?x' = true |- bflag ?s ?b0 = true =>
            apply Iflagt; [|first [assumption | reflexivity | congruence]];
            apply (fon_mono c p x p' x' H0); prj; ofn;
            [ intros; first [assumption | discriminate | congruence]
            | intros; first [reflexivity | discriminate | assumption]
            | let He := fresh "He" in let Hr := fresh "Hr" in let Hi := fresh "Hi" in intros He Hr Hi; first [ discriminate Hi |
              split; [first [ lia | apply rent_dec_pos in Hr; lia | eapply eager_first_false; eassumption
                            | exfalso; eapply not_eager; [|exact He]; congruence ]
                     | first [reflexivity | discriminate | assumption]] ] ]
          | Iflagt : fon ?c ?p ?x = true -> forall b, _ = Some b -> bflag ?s b = true, Er : rext ?c = REager |- bflag ?s ?b0 = true =>
            apply Iflagt; [|first [assumption | reflexivity | congruence]];
            apply (fon_eager c p x Er); [eapply eager_first_false; [eassumption | apply is_eager_true; exact Er] | reflexivity]
          | Iflagt : fon ?c ?p ?x = true -> forall b, _ = Some b -> bflag ?s b = true |- bflag ?s ?b0 = true =>
            apply Iflagt; [|first [assumption | reflexivity | congruence]]; apply fon_pcon; reflexivity
          | H0 : fon ?c ?p' ?x' = true |- _ =>
            exfalso; rewrite (fon_false c p' x') in H0;
            [ discriminate H0
            | prj; first [reflexivity | assumption | congruence]
            | ofn; reflexivity
            | prj; first [ assumption | lia
                         | match goal with Hn : nest ?y = O, Hr : rg ?y = None, Tr : rent ?y = rent_exp _ _ _ |- rent ?y = O =>
                             rewrite Tr, Hn, Hr; apply rent_exp_0 end ] ]
          end ].


(** What a step of thread t does to the ownership of the thread control blocks. *)
Inductive own_eff (s : state) (t : nat) (s' : state) : Prop :=
| OE_same (Eo : g_owner s' = g_owner s) (Es2 : forall b, bstate s b = 2 -> bstate s' b = 2) (El : blist s' = blist s) (Ea : nalloc s <= nalloc s')
    (Ec : cb (tl s' t) = cb (tl s t)) (Ek : cblk (th s' t) = cblk (th s t)) (Ef : forall b, cblk (th s t) = Some b -> bflag s' = bflag s)
    (Ew : forall b, In b (walk_of (th s' t)) -> In b (walk_of (th s t)) \/ In b (blist s))
| OE_alloc (Eo : g_owner s' = updN (g_owner s) (nalloc s) (Some t)) (Es : bstate s' = updN (bstate s) (nalloc s) 2)
    (Ef : bflag s' = updN (bflag s) (nalloc s) false) (El : blist s' = blist s) (Ea : nalloc s' = nalloc s + 1)
    (Ec : cb (tl s' t) = cb (tl s t)) (Hk : cblk (th s t) = None) (Ek : cblk (th s' t) = Some (nalloc s)) (Ew : walk_of (th s' t) = [])
| OE_take k r rest (E : th s t = C3 k r rest) (Hr : bstate s r = 0) (Eo : g_owner s' = updN (g_owner s) r (Some t))
    (Es : bstate s' = updN (bstate s) r 2) (El : blist s' = blist s) (Ea : nalloc s' = nalloc s) (Ec : cb (tl s' t) = Some r)
    (Ek : cblk (th s' t) = None) (Ew : walk_of (th s' t) = [])
| OE_push k b0 h (E : th s t = C6 k b0 h) (Eo : g_owner s' = g_owner s) (Es : bstate s' = bstate s) (El : blist s' = b0 :: blist s)
    (Ea : nalloc s' = nalloc s) (Ec : cb (tl s' t) = Some b0) (Ek : cblk (th s' t) = None) (Ew : walk_of (th s' t) = [])
| OE_release b0 (E : th s t = X3) (Hc : cb (tl s t) = Some b0) (Eo : g_owner s' = updN (g_owner s) b0 None)
    (Es : bstate s' = updN (bstate s) b0 0) (El : blist s' = blist s) (Ea : nalloc s' = nalloc s) (Ec : cb (tl s' t) = None)
    (Ek : cblk (th s' t) = None) (Ew : walk_of (th s' t) = []).

Ltac ownpc := prj; rewrite ?upd_same; prj; sel; cbn [cblk walk_of].

Lemma step_own cfg ns s t s' es : step cfg ns s (Step t) = Some (s', es) -> own_eff s t s'.
Proof.
  intros H. unfold_step H. cbv zeta in H. step_split H.
  all: bool_eqs.
  all: lazymatch goal with
       | E : th _ _ = X3 |- _ => eapply OE_release; [exact E | ownpc; first [eassumption | reflexivity] ..]
       | E : th _ _ = _ |- _ =>
         first [ apply OE_same; ownpc; rewrite ?E; first [reflexivity | lia | intros ? X; discriminate X | intros ? X; exact X | intros ? X; unfold updN; destruct (_ =? _); [reflexivity|exact X] | cbn [walk_of In]; intros; tauto | intros ? ?; right; match goal with X : blist _ = _ |- _ => rewrite X end; assumption]
               | apply OE_alloc; ownpc; rewrite ?E; reflexivity
               | eapply OE_take; [exact E | ownpc; first [assumption | reflexivity] ..]
               | eapply OE_push; [exact E | ownpc; reflexivity ..] ]
       end.
Qed.

(** outside acquire_control_block and before its release a thread keeps its control block *)
Lemma step_cb cfg ns s t s' es : step cfg ns s (Step t) = Some (s', es) -> in_cphase (th s t) = false -> th s t <> X3 ->
  cb (tl s' t) = cb (tl s t).
Proof.
  intros H Hc Hx. destruct (step_own _ _ _ _ _ _ H); try exact Ec;
  rewrite E in *; [discriminate Hc|discriminate Hc|contradiction].
Qed.

Lemma step_flag cfg ns s t s' es : tshape cfg ns (th s t) (tl s t) -> step cfg ns s (Step t) = Some (s', es) ->
  (fon cfg (th s t) (tl s t) = true -> forall b, cb (tl s t) = Some b -> bflag s b = true) ->
  forall b, cb (tl s' t) = Some b -> fon cfg (th s' t) (tl s' t) = true -> bflag s' b = true.
Proof.
  intros T H Iflagt. unfold_step H. cbv zeta in H. step_split H.
  all: bool_eqs; prj; rewrite ?upd_same; prj; prj_hyps; rewrite ?upd_same in *; prj_hyps.
  all: try rewrite E in T; try rewrite E in Iflagt.
  all: destruct T as [Tneed Tno Tfresh Tcnt Trent Tslot Thi Tc Te Tlv Tx Tsync Tg Tinit].
  all: fn_in Tneed; fn_in Tno; fn_in Tcnt; fn_in Tslot; fn_in Tc; fn_in Te; fn_in Tlv; fn_in Tx; fn_in Tsync; fn_in Tg; fn_in Tinit.
  all: cnt_facts.
  all: inj_some; cleanup; pos_facts; use_ll.
  all: intros bb Hb Hf; prj_in Hb; prj_in Hf.
  all: try solve [sel; flag_tac].

Qed.

Lemma O0_self cfg ns s t s' es : O0 cfg s -> tshape cfg ns (th s t) (tl s t) -> step cfg ns s (Step t) = Some (s', es) ->
  (forall b, cb (tl s' t) = Some b -> g_owner s' b = Some t /\ In b (blist s')) /\
  (forall b, cblk (th s' t) = Some b -> g_owner s' b = Some t /\ ~ In b (blist s') /\ bflag s' b = false) /\
  (forall b, In b (walk_of (th s' t)) -> In b (blist s')) /\
  (forall b, cb (tl s' t) = Some b -> fon cfg (th s' t) (tl s' t) = true -> bflag s' b = true) /\
  (forall b u, g_owner s' b = Some u -> (cb (tl s' u) = Some b \/ cblk (th s' u) = Some b) /\ bstate s' b = 2 /\ b < nalloc s') /\
  (forall b, In b (blist s') -> b < nalloc s').
Proof.
  intros I T H. pose proof (step_others _ _ _ _ _ _ H) as Fo.
  pose proof (step_flag _ _ _ _ _ _ T H (fun Hf b Hb => o_flag cfg s I t b Hb Hf)) as Fl.
  pose proof (ts_no _ _ _ _ T) as Tno.
  destruct I as [Iown IownC Irev Iinlt Iwalk _].
  pose proof (Iown t) as Iownt. pose proof (IownC t) as IownCt. pose proof (Iwalk t) as Iwalkt.
  (* the owner of a block keeps naming it unless it is the stepping thread *)
  assert (Hrev : forall b u, (u = t -> cb (tl s' t) = Some b \/ cblk (th s' t) = Some b) -> g_owner s b = Some u ->
                   cb (tl s' u) = Some b \/ cblk (th s' u) = Some b).
  { intros b u Ht Ho. destruct (Nat.eq_dec u t) as [->|Hu]; [auto|]. destruct (Fo u Hu) as [-> ->]. apply Irev, Ho. }
  destruct (step_own _ _ _ _ _ _ H);
  (split; [|split; [|split; [|split; [exact Fl|split]]]]); rewrite ?Eo, ?Es, ?El, ?Ea, ?Ec, ?Ek, ?Ew.
  - exact Iownt.
  - intros b Hb. rewrite (Ef b Hb). apply IownCt, Hb.
  - intros b Hb. destruct (Ew b Hb); auto.
  - intros b u Ho. destruct (Irev b u Ho) as (_ & R2 & R3). split; [|split; [exact (Es2 b R2)|lia]].
    apply Hrev; [intros ->; rewrite Ec, Ek; apply Irev, Ho|exact Ho].
  - intros b Hb. apply Iinlt in Hb. lia.
  - (* a new control block *)
    intros b Hb. destruct (Iownt b Hb) as [Ho Hi]. split; [|exact Hi]. rewrite updN_other; [exact Ho|]. apply Iinlt in Hi. lia.
  - intros b Hb. injection Hb as <-. rewrite Ef, !updN_same. split; [reflexivity|split; [|reflexivity]]. intros X. apply Iinlt in X. lia.
  - intros b [].
  - intros b u. destruct (updN_cases (g_owner s) (nalloc s) (Some t) b) as [[-> ->]|[Hb ->]].
    + intros X. injection X as <-. rewrite Ek, updN_same. split; [auto|split; [reflexivity|lia]].
    + intros Ho. destruct (Irev b u Ho) as (_ & R2 & R3). rewrite updN_other by exact Hb. split; [|split; [exact R2|lia]].
      apply Hrev; [intros ->; rewrite Ec|exact Ho]. destruct (Irev b t Ho) as ([X|X] & _); [auto|congruence].
  - intros b Hb. apply Iinlt in Hb. lia.
  - (* C3: a free control block of the list is taken over *)
    intros b Hb. injection Hb as <-. rewrite updN_same. split; [reflexivity|]. apply Iwalkt. rewrite E. left. reflexivity.
  - discriminate.
  - intros b [].
  - intros b u. destruct (updN_cases (g_owner s) r (Some t) b) as [[-> ->]|[Hb ->]].
    + intros X. injection X as <-. rewrite updN_same. split; [auto|split; [reflexivity|]]. apply Iinlt, Iwalkt. rewrite E. left. reflexivity.
    + intros Ho. destruct (Irev b u Ho) as (_ & R2 & R3). rewrite updN_other by exact Hb. split; [|split; [exact R2|exact R3]].
      apply Hrev; [intros ->; exfalso|exact Ho]. destruct (Irev b t Ho) as ([X|X] & _); rewrite E in *; [rewrite Tno in X by reflexivity|]; discriminate.
  - exact Iinlt.
  - (* C6: the new control block is pushed *)
    assert (Hb0 : g_owner s b0 = Some t) by (apply IownCt; rewrite E; reflexivity).
    intros b Hb. injection Hb as <-. split; [exact Hb0|left; reflexivity].
  - discriminate.
  - intros b [].
  - intros b u Ho. destruct (Irev b u Ho) as (_ & R2 & R3). split; [|split; [exact R2|exact R3]].
    apply Hrev; [intros ->; left|exact Ho]. destruct (Irev b t Ho) as ([X|X] & _); rewrite E in *; [rewrite Tno in X by reflexivity; discriminate|cbn in X; congruence].
  - intros b [<-|Hb]; [|apply Iinlt, Hb]. apply (Irev b0 t). apply IownCt. rewrite E. reflexivity.
  - (* X3: the control block is released *)
    discriminate.
  - discriminate.
  - intros b [].
  - intros b u. destruct (updN_cases (g_owner s) b0 None b) as [[-> ->]|[Hb ->]]; [discriminate|].
    intros Ho. destruct (Irev b u Ho) as (_ & R2 & R3). rewrite updN_other by exact Hb. split; [|split; [exact R2|exact R3]].
    apply Hrev; [intros ->; exfalso|exact Ho]. destruct (Irev b t Ho) as ([X|X] & _); rewrite E in *; [congruence|discriminate].
  - exact Iinlt.
Qed.

(** the start of an operation touches no control block; the thread moves to a program point without a block of its own *)
Lemma start_own cfg ns s t o s' es : step cfg ns s (Start t o) = Some (s', es) ->
  th s t = Idle /\ (forall u, u <> t -> th s' u = th s u /\ tl s' u = tl s u) /\ cb (tl s' t) = cb (tl s t) /\
  cblk (th s' t) = None /\ walk_of (th s' t) = [] /\ pcon (th s' t) = false /\
  sync (tl s' t) = sync (tl s t) /\ (rent (tl s' t) <= rent (tl s t))%nat /\
  g_owner s' = g_owner s /\ bstate s' = bstate s /\ blist s' = blist s /\ bflag s' = bflag s /\ nalloc s' = nalloc s.
Proof.
  intros H. unfold step in H. step_split H.
  all: prj; rewrite ?upd_same; prj; xn; cbn [cblk walk_of pcon]; repeat split; try reflexivity; try lia; try assumption.
  all: intros; rewrite ?upd_other by assumption; reflexivity.
Qed.


Section ReachO.
Variables (cfg : config) (ns : nat) (nc : N).

Lemma O0_init : O0 cfg (init nc).
Proof. constructor; cbn; intros; try congruence; try discriminate; try contradiction; try reflexivity. Qed.

Lemma O0_start s t o s' es : O0 cfg s -> step cfg ns s (Start t o) = Some (s', es) -> O0 cfg s'.
Proof.
  intros I H. destruct (start_own _ _ _ _ _ _ _ H) as (Hi & Fo & Ec & Ek & Ew & Ep & Es & Er & Eo & Eb & El & Ef & Ea).
  destruct I as [Iown IownC Irev Iinlt Iwalk Iflag].
  assert (Hcb : forall u, cb (tl s' u) = cb (tl s u)).
  { intros u. destruct (Nat.eq_dec u t) as [->|Hu]; [exact Ec|]. destruct (Fo u Hu) as [_ ->]. reflexivity. }
  assert (Hk : forall u, u = t /\ cblk (th s' u) = None /\ walk_of (th s' u) = [] \/ th s' u = th s u /\ tl s' u = tl s u).
  { intros u. destruct (Nat.eq_dec u t) as [->|Hu]; auto. }
  constructor; rewrite ?Eo, ?Eb, ?El, ?Ef, ?Ea.
  - intros u b. rewrite Hcb. apply Iown.
  - intros u b Hb. apply IownC. destruct (Hk u) as [(_ & X & _)|[<- _]]; congruence.
  - intros b u Ho. destruct (Irev b u Ho) as ([X|X] & R); (split; [|exact R]); [left; rewrite Hcb; exact X|].
    destruct (Hk u) as [(-> & _)|[-> _]]; [rewrite Hi in X; discriminate X|auto].
  - exact Iinlt.
  - intros u b Hb. destruct (Hk u) as [(_ & _ & X)|[X _]]; rewrite X in Hb; [destruct Hb|eapply Iwalk; eauto].
  - intros u b Hb Hf. rewrite Hcb in Hb. apply (Iflag u b Hb). destruct (Nat.eq_dec u t) as [->|Hu]; [|destruct (Fo u Hu) as [<- <-]; exact Hf].
    apply (fon_mono cfg _ _ _ _ Hf); [rewrite Es; auto|rewrite Ep; discriminate|]. intros _ Hr _. rewrite Hi. split; [lia|reflexivity].
Qed.

Lemma O0_step s a s' es : T0 cfg ns s -> O0 cfg s -> step cfg ns s a = Some (s', es) -> O0 cfg s'.
Proof.
  intros T I H. destruct a as [t o|t]; [eapply O0_start; eauto|].
  destruct (O0_self _ _ _ _ _ _ I (T t) H) as (S1 & S2 & S3 & S4 & S5 & S6).
  constructor; try assumption.
  - intros u b Hb. destruct (Nat.eq_dec u t) as [->|Hne]; [apply S1; exact Hb|].
    destruct (O0_other _ _ _ _ _ _ u I H Hne) as (X1 & _). apply X1; exact Hb.
  - intros u b Hb. destruct (Nat.eq_dec u t) as [->|Hne]; [apply S2; exact Hb|].
    destruct (O0_other _ _ _ _ _ _ u I H Hne) as (_ & X2 & _). apply X2; exact Hb.
  - intros u b Hb. destruct (Nat.eq_dec u t) as [->|Hne]; [apply S3; exact Hb|].
    destruct (O0_other _ _ _ _ _ _ u I H Hne) as (_ & _ & X3 & _). apply X3; exact Hb.
  - intros u b Hb. destruct (Nat.eq_dec u t) as [->|Hne]; [apply S4; exact Hb|].
    destruct (O0_other _ _ _ _ _ _ u I H Hne) as (_ & _ & _ & X4). apply X4; exact Hb.
Qed.

Lemma O0_reach s : reachable cfg ns nc s -> O0 cfg s.
Proof.
  apply (inv_rule_aux _ _ _ _ _ (T0 cfg ns) (O0 cfg) (T0_reach cfg ns nc) O0_init).
  intros s0 a s1 es J _ I H. eapply O0_step; eauto.
Qed.
End ReachO.
