(** Reclamation by the thread that leaves its critical region as the last one, in the stamp_it model (Model/StampDefs.v):
    [F0]  the stamp of a retired node is at most head->stamp; the local retire lists and all chunks of the global list are
    sorted by stamp (nodes are appended with the current head->stamp, which never decreases) - so the prefix of a chunk that
    process_local_nodes / process_global_nodes reclaims is ALL of its nodes whose stamp is at most the tail stamp.
    [pg_frees]: a thread at the start of process_global_nodes reclaims, within its next three steps when no other thread
    runs, every node of its local list and of the global list whose stamp is at most the stamp of tail.  No axioms. *)
From Coq Require Import NArith List Bool Arith Lia PeanoNat Setoid Permutation Sorted.
From XV Require Import Conc.Lts Conc.Ev Model.StampDefs Proof.StampBase Proof.StampNodes Proof.StampStamps Proof.StampOrder Proof.StampGuards.
Import ListNotations.
Local Open Scope N_scope.

Definition sorted (ns : N -> N) (l : list N) : Prop := StronglySorted (fun a b => ns a <= ns b) l.

Lemma sorted_app_inv ns l1 l2 : sorted ns (l1 ++ l2) -> sorted ns l2.
Proof. induction l1 as [|a l IH]; cbn [app]; intros H; [exact H|]. apply IH. inversion H; assumption. Qed.
Lemma sorted_snoc ns l a : sorted ns l -> (forall x, In x l -> ns x <= ns a) -> sorted ns (l ++ [a]).
Proof.
  induction 1 as [|b l Hs IH Hf]; intros Ha; cbn [app].
  - constructor; [constructor|constructor].
  - constructor; [apply IH; intros x Hx; apply Ha; right; exact Hx|].
    apply Forall_app. split; [exact Hf|]. constructor; [apply Ha; left; reflexivity|constructor].
Qed.
Lemma sorted_ext ns ns' l : (forall x, In x l -> ns' x = ns x) -> sorted ns l -> sorted ns' l.
Proof.
  intros He. induction 1 as [|a l Hs IH Hf]; [constructor|]. constructor.
  - apply IH. intros x Hx. apply He. right. exact Hx.
  - rewrite Forall_forall in *. intros x Hx. rewrite (He a), (He x); [apply Hf; exact Hx|right; exact Hx|left; reflexivity].
Qed.

(** on a sorted list the reclaimed prefix is everything up to the tail stamp, and the rest is sorted *)
Lemma split_chunk_all ns ts l : sorted ns l -> forall n, In n l -> ns n <= ts -> In n (fst (split_chunk ns ts l)).
Proof.
  induction 1 as [|a l Hs IH Hf]; intros n Hin Hle; [destruct Hin|]. cbn [split_chunk].
  destruct (N.leb_spec (ns a) ts) as [Ha|Ha].
  - destruct (split_chunk ns ts l) as [f r] eqn:E. cbn [fst] in *. destruct Hin as [->|Hin]; [left; reflexivity|right; apply IH; assumption].
  - exfalso. destruct Hin as [->|Hin]; [lia|]. rewrite Forall_forall in Hf. specialize (Hf n Hin). lia.
Qed.
Lemma split_chunk_rest_sorted ns ts l : sorted ns l -> sorted ns (snd (split_chunk ns ts l)).
Proof.
  intros H. pose proof (split_chunk_app ns ts l) as A. destruct (split_chunk ns ts l) as [f r]. cbn [snd]. subst l.
  eapply sorted_app_inv; eauto.
Qed.
Lemma proc_chunks_all ns ts chs : (forall c, In c chs -> sorted ns c) ->
  forall n, In n (concat chs) -> ns n <= ts -> In n (fst (proc_chunks ns ts chs)).
Proof.
  induction chs as [|c chs IH]; intros Hs n Hin Hle; [destruct Hin|]. cbn [proc_chunks concat] in *.
  pose proof (split_chunk_all ns ts c (Hs c (or_introl eq_refl)) n) as Hc.
  destruct (split_chunk ns ts c) as [f c'] eqn:Ec. destruct (proc_chunks ns ts chs) as [fr r'] eqn:Er. cbn [fst] in *.
  apply in_or_app. apply in_app_or in Hin. destruct Hin as [Hin|Hin]; [left; apply Hc; assumption|right].
  apply IH; [intros c0 Hc0; apply Hs; right; exact Hc0|exact Hin|exact Hle].
Qed.
Lemma proc_chunks_rest_sorted ns ts chs : (forall c, In c chs -> sorted ns c) ->
  forall c, In c (snd (proc_chunks ns ts chs)) -> sorted ns c.
Proof.
  induction chs as [|c0 chs IH]; intros Hs c Hin; [destruct Hin|]. cbn [proc_chunks] in Hin.
  pose proof (split_chunk_rest_sorted ns ts c0 (Hs c0 (or_introl eq_refl))) as Hc.
  destruct (split_chunk ns ts c0) as [f c'] eqn:Ec. destruct (proc_chunks ns ts chs) as [fr r'] eqn:Er. cbn [snd] in *.
  assert (IH' : forall c, In c r' -> sorted ns c) by (intros; apply IH; [intros cc Hcc; apply Hs; right; exact Hcc|assumption]).
  destruct c'; cbn [is_nil] in Hin; [apply IH'; exact Hin|]. destruct Hin as [<-|Hin]; [exact Hc|apply IH'; exact Hin].
Qed.

Definition chunks_of (p : pc) : list (list N) := match p with PG4 _ ch _ | AG1 _ ch | AG2 _ ch _ => ch | _ => [] end.

Record F0 (s : state) : Prop := {
  f_le : forall n u r, g_life s n = LRet u r -> r <= qstamp s THead;
  f_sl : forall u, sorted (nstamp s) (rl (tl s u));
  f_sg : forall c, In c (gret s) -> sorted (nstamp s) c;
  f_sf : forall u c, In c (chunks_of (th s u)) -> sorted (nstamp s) c }.

Lemma F0_init nc : F0 (init nc).
Proof.
  constructor; cbn; intros; try contradiction; try constructor.
  destruct (n <? nc); discriminate.
Qed.

Lemma sorted_upd_out ns old v l : ~ In old l -> sorted ns l -> sorted (updN ns old v) l.
Proof. intros Hn. apply sorted_ext. intros x Hx. apply updN_other. intros ->. contradiction. Qed.

Lemma chain_sorted ns (l : list N) (g : list (list N)) : sorted ns l -> (forall c, In c g -> sorted ns c) ->
  forall c, In c (if is_nil l then g else l :: g) -> sorted ns c.
Proof. intros Hl Hg c Hc. destruct l; cbn [is_nil] in Hc; [apply Hg; exact Hc|]. destruct Hc as [<-|Hc]; [exact Hl|apply Hg; exact Hc]. Qed.

Lemma F0_lists ns s t s' es : N0 s -> F0 s -> step ns s (Step t) = Some (s', es) ->
  (forall u, sorted (nstamp s') (rl (tl s' u))) /\ (forall c, In c (gret s') -> sorted (nstamp s') c) /\
  (forall u c, In c (chunks_of (th s' u)) -> sorted (nstamp s') c).
Proof.
  intros I F H. destruct F as [Fle Fsl Fsg Fsf]. pose proof (Fsf t) as Fsft. pose proof (Fsl t) as Fslt.
  unfold_step H. cbv zeta in H. step_split H.
  all: bool_eqs; prj; prj_hyps; rewrite ?upd_same in *; prj_hyps.
  all: try match goal with E : th _ _ = _ |- _ => rewrite E in Fsft end; cbn [chunks_of] in Fsft.
  all: rmm.
  all: (split; [intros gu|split; [intros gc Hgc|intros gu gc Hgc]]).
  all: try solve [first [apply Fsl | apply Fsg; exact Hgc | eapply Fsf; exact Hgc]].
  all: try (destruct (Nat.eq_dec gu t) as [->|Hne]; [rewrite ?upd_same in *; prj; prj_hyps; cbn [chunks_of] in * |rewrite ?upd_other in * by exact Hne]).
  all: try solve [first [apply Fsl | apply Fsg; exact Hgc | eapply Fsf; exact Hgc | exact Fslt | apply Fsft; exact Hgc | contradiction | constructor]].
  (* retire *)
  all: try solve [match goal with E : th _ _ = RT1 ?old |- _ =>
    assert (Hw : g_where s old = PNone) by
      (pose proof (n_unl1 s I t old) as X; rewrite E in X; specialize (X eq_refl);
       destruct (wh_not_ret _ _ _ (n_where s I old) ltac:(rewrite X; intros; discriminate)) as [W _]; exact W);
    first [ apply sorted_snoc;
            [apply sorted_upd_out; [intros X; apply (n_list s I) in X; congruence|apply Fsl]
            |intros x Hx; rewrite updN_same, updN_other by (intros ->; apply (n_list s I) in Hx; congruence);
             destruct (in_list_retired _ _ _ I Hx) as (v & r & L1 & L2); rewrite L2; eapply Fle; eauto]
          | apply sorted_upd_out; [intros X; apply (n_list s I) in X; congruence|apply Fsl]
          | apply sorted_upd_out; [intros X; assert (Y : In old (concat (gret s))) by (apply in_concat; eauto); apply (n_glob s I) in Y; congruence|apply Fsg; exact Hgc]
          | apply sorted_upd_out; [intros X; assert (Y : In old (flight (th s gu))) by
               (unfold flight; destruct (th s gu); cbn [chunks_of] in Hgc; try contradiction; apply in_concat; eauto);
             apply (n_flight s I) in Y; congruence|eapply Fsf; exact Hgc] ] end].
  (* process_local_nodes *)
  all: try solve [match goal with E : split_chunk ?ns0 ?ts0 ?l = (_, ?r) |- sorted _ ?r =>
    pose proof (split_chunk_rest_sorted ns0 ts0 l Fslt) as X; rewrite E in X; exact X end].
  all: try solve [match goal with E : split_chunk ?ns0 ?ts0 ?l = (_, ?r), Hgc : In _ [?r] |- _ =>
    destruct Hgc as [<-|[]]; pose proof (split_chunk_rest_sorted ns0 ts0 l Fslt) as X; rewrite E in X; exact X end].
  (* process_global_nodes *)
  all: try solve [match goal with E : proc_chunks ?ns0 ?ts0 ?chs = (_, ?r), Hgc : In _ ?r |- _ =>
    assert (Hs : forall c, In c chs -> sorted ns0 c) by
      first [ apply chain_sorted; [exact Fslt|first [exact Fsg | intros c0 []]] | exact Fsft ];
    pose proof (proc_chunks_rest_sorted ns0 ts0 chs Hs) as X; rewrite E in X; apply X; exact Hgc end].
  (* add_to_global_retired_nodes *)
  all: try solve [apply in_app_or in Hgc; destruct Hgc as [Hgc|Hgc]; [apply Fsft; exact Hgc|apply Fsg; exact Hgc]].
Qed.

Lemma ret_origin ns s t s' es n u r : step ns s (Step t) = Some (s', es) -> g_life s' n = LRet u r ->
  g_life s n = LRet u r \/ (u = t /\ r = qstamp s THead).
Proof.
  intros H Hl. unfold_step H. cbv zeta in H. step_split H.
  all: prj_in Hl.
  all: try solve [left; exact Hl].
  all: repeat match type of Hl with context [updN ?f ?a ?x ?y] => destruct (updN_cases f a x y) as [[? X]|[? X]]; rewrite X in Hl; clear X end.
  all: try discriminate Hl.
  all: try solve [left; exact Hl].
  all: try solve [right; injection Hl as <- <-; split; reflexivity].
Qed.

Lemma F0_step ns s t s' es : T0 ns s -> N0 s -> S0 s -> F0 s -> step ns s (Step t) = Some (s', es) -> F0 s'.
Proof.
  intros T I S F H. destruct (F0_lists _ _ _ _ _ I F H) as (L1 & L2 & L3).
  constructor; try assumption.
  intros n u r Hl. destruct (head_stamp_step _ _ _ _ _ (T t) S H) as [HH _].
  destruct (ret_origin _ _ _ _ _ _ _ _ H Hl) as [E|[_ ->]]; [pose proof (f_le s F n u r E); lia|exact HH].
Qed.

Lemma F0_start ns s t o s' es : F0 s -> step ns s (Start t o) = Some (s', es) -> F0 s'.
Proof.
  intros F H. destruct F as [Fle Fsl Fsg Fsf]. unfold step, step_gen in H. step_split H.
  all: bool_eqs; constructor; prj; try assumption.
  all: intros gu; try intros gc Hgc.
  all: (destruct (Nat.eq_dec gu t) as [->|Hne]; [rewrite ?upd_same in *; prj; cbn [chunks_of] in *|rewrite ?upd_other in * by exact Hne]).
  all: try solve [first [apply Fsl | eapply Fsf; exact Hgc | contradiction]].
Qed.

Section ReachF.
Variables (ns : nat) (nc : N).
Lemma F0_reach s : reachable ns nc s -> F0 s.
Proof.
  apply (inv_rule_aux _ _ _ _ _ (fun s => T0 ns s /\ N0 s /\ S0 s) F0).
  - intros s0 Hr. split; [apply (T0_reach ns nc); exact Hr|split; [apply (N0_reach ns nc); exact Hr|apply (S0_reach ns nc); exact Hr]].
  - apply F0_init.
  - intros s0 a s1 es (J1 & J2 & J3) _ I H. destruct a as [t o|t]; [eapply F0_start; eauto|eapply F0_step; eauto].
Qed.
End ReachF.


(** a reclaimed node stays reclaimed *)
Lemma freed_stable ns s a s' es n : N0 s -> step ns s a = Some (s', es) -> g_where s n = PFreed -> g_where s' n = PFreed.
Proof.
  intros I H Hw. destruct a as [t o|t].
  - unfold step, step_gen in H. step_split H; prj; exact Hw.
  - unfold_step H. cbv zeta in H. step_split H.
    all: prj; try exact Hw.
    all: repeat match goal with
         | |- context [updN ?f ?a ?x ?y] => destruct (updN_cases f a x y) as [[? X]|[? X]]; rewrite X; clear X
         | |- context [memN ?y ?l] => let M := fresh "M" in destruct (memN y l) eqn:M; [apply memN_In in M|]
         end; try reflexivity; try exact Hw; exfalso.
    all: try (subst; match goal with E : th ?s0 ?t0 = RT1 ?old |- _ =>
           pose proof (n_unl1 s0 I t0 old) as X; rewrite E in X; specialize (X eq_refl);
           destruct (wh_not_ret _ _ _ (n_where s0 I old) ltac:(rewrite X; intros; discriminate)) as [W _]; congruence end).
    all: try (match goal with M : In _ (rl (tl _ ?u)) |- _ => apply (n_list _ I) in M; congruence end).
    all: try (match goal with M : In _ (concat (gret _)) |- _ => apply (n_glob _ I) in M; congruence end).
    all: try (match goal with M : In ?y (concat ?ch), E : th ?s0 ?t0 = _ |- _ =>
           assert (Y : In y (flight (th s0 t0))) by (rewrite E; exact M); apply (n_flight _ I) in Y; congruence end).
    all: try (match goal with M : In ?y ?r, E : split_chunk ?a1 ?a2 (rl (tl ?s0 ?t0)) = (_, ?r) |- _ =>
           pose proof (split_chunk_app a1 a2 (rl (tl s0 t0))) as A; rewrite E in A;
           assert (Y : In y (rl (tl s0 t0))) by (rewrite A; apply in_or_app; right; exact M); apply (n_list _ I) in Y; congruence end).
Qed.

Lemma free_all_in l st n : In n l -> g_where (free_all l st) n = PFreed.
Proof. intros H. unfold free_all. prj. assert (M : memN n l = true) by (apply memN_In; exact H). rewrite M. reflexivity. Qed.

(** one round of process_global_nodes reclaims every node of the chunks whose stamp is at most ts *)
Lemma pg_round_frees st t k ts ch e s' e' : pg_round st t k ts ch e = Some (s', e') ->
  (forall c, In c ch -> sorted (nstamp st) c) ->
  forall n, In n (concat ch) -> nstamp st n <= ts -> g_where s' n = PFreed.
Proof.
  intros H Hs n Hin Hle. unfold pg_round in H.
  pose proof (proc_chunks_all (nstamp st) ts ch Hs n Hin Hle) as Hf.
  destruct (proc_chunks (nstamp st) ts ch) as [fl rest]. cbn [fst] in Hf.
  destruct rest.
  - unfold do_cont, finish, to_cas in H. repeat match type of H with context [match ?x with _ => _ end] => destruct x end;
      injection H as <- _; prj; rewrite ?(free_all_in _ _ _ Hf); try (apply free_all_in; exact Hf);
      repeat match goal with |- context [updN ?f ?a ?x ?y] => idtac end; unfold free_all; prj;
      assert (M : memN n fl = true) by (apply memN_In; exact Hf); rewrite M; reflexivity.
  - injection H as <- _. prj. unfold free_all. prj. assert (M : memN n fl = true) by (apply memN_In; exact Hf). rewrite M. reflexivity.
Qed.

Section Flush.
Variables (ns : nat) (nc : N).

(** [pg_frees]: thread t is at the start of process_global_nodes (it left its critical region as the last one and has
    updated the tail stamp).  If no other thread runs, its next three steps (the load of the tail stamp, the load and the
    exchange of the global list) reclaim every node of its local retire list and of the global list whose stamp is at
    most the stamp of tail. *)
Theorem pg_frees s t k : reachable ns nc s -> th s t = PG1 k ->
  let s3 := fst (fst (run (step ns) s [Step t; Step t; Step t])) in
  forall n, In n (rl (tl s t)) \/ In n (concat (gret s)) -> nstamp s n <= qstamp s TTail -> g_where s3 n = PFreed.
Proof.
  intros Hr Epc s3 n Hin Hle. subst s3.
  pose proof (F0_reach ns nc s Hr) as F. pose proof (N0_reach ns nc s Hr) as I.
  set (ts := qstamp s TTail) in *.
  set (s1 := set_pc t (PG2 k ts) s).
  assert (H1 : step ns s (Step t) = Some (s1, [ELoad t (L_stamp TTail) mo_acq (VInt ts)])).
  { unfold step, step_gen. rewrite Epc. reflexivity. }
  assert (Hr1 : reachable ns nc s1) by (eapply reach_step; eauto).
  cbn [run]. rewrite H1.
  assert (E1 : th s1 t = PG2 k ts) by (unfold s1; prj; apply upd_same).
  assert (Etl1 : tl s1 t = tl s t) by reflexivity.
  assert (Eg1 : gret s1 = gret s) by reflexivity.
  assert (Hs_l : sorted (nstamp s) (rl (tl s t))) by apply F.
  assert (Hs_g : forall c, In c (gret s) -> sorted (nstamp s) c) by apply F.
  (* the state after the second step, and possibly the third *)
  destruct (gret s) as [|g0 gr] eqn:Eg.
  - (* the global list is empty: the second step reclaims *)
    destruct Hin as [Hin|[]].
    assert (H2 : exists s2 e2, step ns s1 (Step t) = Some (s2, e2) /\ g_where s2 n = PFreed).
    { unfold step, step_gen. rewrite E1. cbv zeta. rewrite Eg1; rewrite ?Eg. cbn [is_nil].
      unfold pg_start. rewrite Etl1.
      destruct (pg_round _ t k ts _ _) as [[s2 e2]|] eqn:Er.
      - exists s2, e2. split; [reflexivity|]. eapply pg_round_frees; [exact Er| | |].
        + unfold s1; prj. apply chain_sorted; [exact Hs_l|intros c0 []].
        + rewrite concat_ifnil. cbn [concat]. rewrite app_nil_r. exact Hin.
        + unfold s1; prj. exact Hle.
      - exfalso. unfold pg_round in Er. destruct (proc_chunks _ _ _) as [fl rest]. destruct rest; [|discriminate].
        unfold do_cont, finish, to_cas in Er. repeat match type of Er with context [match ?x with _ => _ end] => destruct x end; discriminate. }
    destruct H2 as (s2 & e2 & H2 & Hf). rewrite H2.
    assert (Hr2 : reachable ns nc s2) by (eapply reach_step; eauto).
    destruct (step ns s2 (Step t)) as [[s3 e3]|] eqn:H3; cbn [fst].
    + eapply freed_stable; [apply (N0_reach ns nc); exact Hr2|exact H3|exact Hf].
    + exact Hf.
  - (* the global list is not empty: the second step sees it, the third steals it and reclaims *)
    set (s2 := set_pc t (PG3 k ts) s1).
    assert (H2 : step ns s1 (Step t) = Some (s2, [ELoad t L_gret mo_rlx (vptr (ghead s1))])).
    { unfold step, step_gen. rewrite E1. cbv zeta. rewrite Eg1; rewrite ?Eg. reflexivity. }
    rewrite H2.
    assert (E2 : th s2 t = PG3 k ts) by (unfold s2; prj; apply upd_same).
    assert (H3 : exists s3 e3, step ns s2 (Step t) = Some (s3, e3) /\ g_where s3 n = PFreed).
    { unfold step, step_gen. rewrite E2. cbv zeta.
      assert (Eg2 : gret s2 = gret s) by reflexivity. rewrite Eg2; rewrite ?Eg.
      unfold pg_start. assert (Etl2 : forall X, tl (move_all X (PFlight t) (w_gret [] s2)) t = tl s t) by reflexivity. rewrite Etl2.
      destruct (pg_round _ t k ts _ _) as [[s3 e3]|] eqn:Er.
      - exists s3, e3. split; [reflexivity|]. eapply pg_round_frees; [exact Er| | |].
        + unfold s2, s1; prj. apply chain_sorted; [exact Hs_l|]. intros c Hc. apply Hs_g. exact Hc.
        + rewrite concat_ifnil. apply in_or_app. destruct Hin as [Hin|Hin]; [left; exact Hin|right; exact Hin].
        + unfold s2, s1; prj. exact Hle.
      - exfalso. unfold pg_round in Er. destruct (proc_chunks _ _ _) as [fl rest]. destruct rest; [|discriminate].
        unfold do_cont, finish, to_cas in Er. repeat match type of Er with context [match ?x with _ => _ end] => destruct x end; discriminate. }
    destruct H3 as (s3 & e3 & H3 & Hf). rewrite H3. cbn [fst]. exact Hf.
Qed.
End Flush.

(** the hypotheses of [pg_frees] on a concrete reachable state (2 cells, 3 guard slots): thread 2 retired node 0 with stamp
    12 and exited, the node is in the global list; thread 1 - 45 steps into its second critical region afterwards - is at the
    start of process_global_nodes with tail stamp 16: three more steps of thread 1 reclaim node 0 *)
Definition fl_steps (t n : nat) : list action := repeat (Step t) n.
Definition fl_run (acts : list action) : state := fst (fst (run (step 3) (init 2) acts)).
Definition fl_ex : list action :=
  ([Start 1 (OHold 0 0)] ++ fl_steps 1 60 ++ [Start 2 (ORepl 0)] ++ fl_steps 2 120 ++ [Start 2 OExit] ++ fl_steps 2 20 ++
   [Start 1 (ODrop 0)] ++ fl_steps 1 120 ++ [Start 1 (ORead 1)] ++ fl_steps 1 45)%nat.
Example ex_pg_frees :
  let st := fl_run fl_ex in let st3 := fl_run (fl_ex ++ fl_steps 1 3) in
  th st 1%nat = PG1 (LFin (r_id 2) None) /\ gret st = [[0]] /\ nstamp st 0 = 12 /\ qstamp st TTail = 16 /\ g_where st 0 = PGlob /\
  g_where st3 0 = PFreed /\ g_nfree st3 0 = 1%nat /\ gret st3 = [].
Proof. vm_compute. repeat split; reflexivity. Qed.
