(** kirsch_kfifo_queue (C06, unbounded): the sequential clause -- a pop that runs alone from a quiescent state
    answers 'empty' exactly when no committed value is in the queue (partial correctness; the termination of
    the solo run is proved in Proof/KfqSolo.v).  No axioms, no admits. *)
From Coq Require Import NArith List Bool Lia PeanoNat ZifyBool ZifyNat ZifyN.
From XV Require Import Base.Word Conc.Lts Conc.Ev Model.KfqDefs.
From XV Require Import Proof.KfqStep Proof.KfqWf Proof.KfqOwn Proof.KfqRegion Proof.KfqSeg Proof.KfqCons Proof.KfqCall.
Import ListNotations.
Local Open Scope N_scope.

(** program counters of do_pop (with advance_tail called from do_pop, and advance_head) *)
Definition poppc (p : pc) : Prop :=
  match p with
  | D1 | D1f _ | DF _ _ _ | D2 _ _ _ _ | D2n _ | D3 _ _ _ _ | D3n _ | D4 _ _ _ _ | DE _ _
  | H1 _ _ | H2 _ _ _ | H3 _ _ _ | H4 _ _ _ _ | H5 _ _ _ _ | H6 _ _ | H7 _ _ => True
  | A1 c _ | A2 c _ _ | A3 c _ _ | A4 c _ _ _ | A5 c _ _ => match c with KPop _ _ _ _ => True | KPush _ => False end
  | _ => False
  end.

Set Default Proof Using "All".
Section Seq.
  Variable k : N.
  Hypothesis Hk : 1 <= k.
  Notation step := (step k).

  (** [solo u s0 s]: s is reached from s0 by steps of u only, u being inside its operation before each of them *)
  Inductive solo (u : nat) (s0 : state) : state -> Prop :=
  | solo_refl : solo u s0 s0
  | solo_step s r s' es : solo u s0 s -> th s u <> Idle -> step s (Step u r) = Some (s', es) -> solo u s0 s'.

  Lemma poppc_lstep s p p' : lstep k s p p' -> p = Begin OPop \/ poppc p -> poppc p'.
  Proof.
    destruct 1; intros [Q|Q]; try discriminate Q; try contradiction Q; try exact Logic.I; try exact Q;
      destruct c; first [exact Logic.I|contradiction Q].
  Qed.

  (** a step of a pop either returns, or leaves the slots and the ghost lists alone *)
  Lemma pop_step_frame u s r s' es : step s (Step u r) = Some (s', es) -> (th s u = Begin OPop \/ poppc (th s u)) ->
    (exists res, In (ERet u res) es /\ (forall res', In (ERet u res') es -> res' = res) /\ th s' u = Idle /\
       ((res = [2] /\ g_out s' = g_out s) \/
        (exists hd j p tg, th s u = D4 hd j p tg /\ slot s (fst hd) j = (p, tg) /\ res <> [2]))) \/
    ((forall res, ~ In (ERet u res) es) /\
       poppc (th s' u) /\ slot s' = slot s /\ g_in s' = g_in s /\ g_out s' = g_out s /\ forall t, t <> u -> th s' t = th s t).
  Proof.
    intros Hst Hp. destruct (step_inv k Hk s _ s' es Hst) as (sh & p' & res & -> & Hc & Hret). cbn [actor] in *.
    assert (Hno : res = None -> forall r0, ~ In (ERet u r0) es) by (intros -> r0 Q; apply Hret in Q; destruct Q as [_ Q]; discriminate Q).
    assert (Hyes : forall r0, res = Some r0 -> In (ERet u r0) es /\ forall r', In (ERet u r') es -> r' = r0).
    { intros r0 ->. split; [apply Hret; auto|]. intros r' Q. apply Hret in Q. destruct Q as [_ Q]. injection Q; auto. }
    assert (Hth : th sh = th s) by (destruct Hc as [Hs|(_ & -> & _)]; [exact (sstep_th k _ _ _ _ _ Hs)|reflexivity]).
    assert (Hoth : forall t, t <> u -> th (set_th sh u p') t = th s t) by (intros; cbn [set_th th]; rewrite Hth; apply upd_other; assumption).
    assert (Hme : th (set_th sh u p') u = p') by apply upd_same. rewrite Hme. clear Hme Hth.
    destruct Hc as [Hs|(Hl & -> & ->)]; [|right; pose proof (poppc_lstep _ _ _ Hl Hp); auto 7].
    remember (th s u) as p.
    destruct Hs; destruct Hp as [Hp|Hp]; try discriminate Hp; try contradiction Hp; try (destruct c; [contradiction Hp|]);
      try (right; cbn [poppc kpc]; auto 8; fail); left; destruct (Hyes _ eq_refl); eexists.
    - split; [eassumption|]. split; [assumption|]. split; [reflexivity|]. right. eexists _, _, _, _. split; [reflexivity|]. split; [assumption|discriminate].
    - split; [eassumption|]. split; [assumption|]. split; [reflexivity|]. left. split; reflexivity.
  Qed.

  Lemma solo_inv u s0 s : th s0 u = Begin OPop -> (forall t, t <> u -> th s0 t = Idle) -> solo u s0 s ->
    th s u = Idle \/
    ((s = s0 \/ in_call k u OPop s0 s) /\ (th s u = Begin OPop \/ poppc (th s u)) /\
     slot s = slot s0 /\ g_in s = g_in s0 /\ g_out s = g_out s0 /\ forall t, t <> u -> th s t = Idle).
  Proof.
    intros Hb Hq Hs. induction Hs as [|s r s' es Hs IH Hni Hst].
    - right. split; [left; reflexivity|]. split; [left; exact Hb|]. auto.
    - destruct IH as [IH|(A & B & C & D & F & G)]; [contradiction|].
      destruct (pop_step_frame u s r s' es Hst B) as [(res & _ & _ & Q & _)|(_ & P1 & P2 & P3 & P4 & P5)]; [left; exact Q|right].
      split; [right; destruct A as [->|A]; [eapply ic_first; eauto|eapply ic_next; eauto]|].
      split; [right; exact P1|]. split; [congruence|]. split; [congruence|]. split; [congruence|].
      intros t Ht. rewrite P5 by exact Ht. apply G. exact Ht.
  Qed.

  (** A pop that runs alone from a quiescent state: it answers 'empty' if and only if no committed value is in
      the queue when it starts.  (That the solo run terminates is proved in Proof/KfqSolo.v.) *)
  Theorem kfq_solo_pop_verdict u s0 s r s' es res :
    reach init step s0 -> th s0 u = Begin OPop -> (forall t, t <> u -> th s0 t = Idle) ->
    solo u s0 s -> step s (Step u r) = Some (s', es) -> In (ERet u res) es ->
    (res = [2] <-> empty_at s0).
  Proof.
    intros Hr0 Hb Hq Hs Hst Hret.
    destruct (solo_inv u s0 s Hb Hq Hs) as [Hi|(A & B & C & D & F & G)].
    { exfalso. unfold KfqDefs.step in Hst. rewrite Hi in Hst. discriminate. }
    destruct (pop_step_frame u s r s' es Hst B) as [(res0 & R1 & R2 & R3 & R4)|(Hn & _)]; [|exfalso; eapply Hn; eauto].
    rewrite (R2 res Hret). clear res Hret.
    assert (Hic : in_call k u OPop s0 s).
    { destruct A as [->|A]; [|exact A]. exfalso. unfold KfqDefs.step in Hst. rewrite Hb in Hst. inversion Hst; subst.
      cbn in R1. destruct R1 as [R1|[]]. discriminate. }
    destruct R4 as [[-> Ho]|(hd & j & p & tg & Hpc & Hsl & Hne)].
    - split; [intros _|reflexivity].
      destruct (kfq_empty_verdict k Hk u s0 s (Step u r) s' es Hr0 Hic Hst R1) as (s1 & I1 & I2 & _ & He).
      intros b Hb0.
      destruct (reach_from_mono2 k Hk s0 s1 Hr0 (in_call_from k Hk u OPop s0 s1 I1)) as (_ & _ & M1 & _).
      assert (Hr1 : reach init step s1) by exact (in_call_reach k Hk u OPop s0 s1 Hr0 I1).
      destruct (reach_from_mono2 k Hk s1 s' Hr1 I2) as (_ & _ & _ & M2).
      specialize (M2 b (He b (M1 b Hb0))). rewrite Ho, F in M2. exact M2.
    - split; [intros Q; contradiction|]. intros He. exfalso.
      assert (Hrs : reach init step s) by exact (in_call_reach k Hk u OPop s0 s Hr0 Hic).
      pose proof (a_th k s (InvA_reach k Hk s Hrs) u) as T. rewrite Hpc in T. cbn [TA] in T. destruct T as (_ & _ & _ & Hp).
      rewrite C in Hsl.
      pose proof (Inv2_reach k Hk s0 Hr0) as I2.
      destruct (i_slot s0 I2 (fst hd) j p tg Hsl Hp) as [[Q1 Q2]|[_ [t Q]]]; [apply Q2; apply He; exact Q1|].
      destruct (Nat.eq_dec t u) as [->|Htu]; [rewrite Hb in Q; discriminate|rewrite Hq in Q by exact Htu; discriminate].
  Qed.
End Seq.
