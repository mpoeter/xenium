(** The theorems about the quiescent state based reclamation model (Model/QsbrDefs.v = xenium::reclamation::
    quiescent_state_based under the generic client of harness/h_recl.cpp), assembled from the layers
    Proof/QsbrBase.v (thread-local shape, control-block ownership), QsbrEpoch.v (epoch window, scan invariant),
    QsbrNodes.v (where a retired block is), QsbrTags.v (when it may be freed), QsbrGuards.v (guards), and examples on
    concrete reachable states.  [reach (init nc) (step ns)]: any number of threads, nc cells, ns guard slots per
    thread, any programs, any schedule.  No axioms. *)
From Coq Require Import NArith ZArith List Bool Arith Lia PeanoNat Setoid.
From XV Require Import Conc.Lts Conc.Ev Model.QsbrDefs Proof.QsbrBase Proof.QsbrEpoch Proof.QsbrNodes Proof.QsbrTags Proof.QsbrGuards Proof.QsbrFlush.
Import ListNotations.
Local Open Scope N_scope.

Section Theorems.
Variables (ns : nat) (nc : N).
Notation reachable := (reach (init nc) (step ns)).

(** * C01 *)

(** [qsbr_safe]: a node held by a guard_ptr (a persistent guard of the client, or the guard of a running repl / clear;
    the holder is inside a region) has not been freed and was not dropped, and no dereference ever hit a destroyed node *)
Theorem qsbr_safe st : reachable st ->
  (forall u n, holds st u n -> g_nfree st n = O /\ g_where st n <> PFreed /\ g_life st n <> LDropped) /\
  g_uaf st = false.
Proof.
  intros Hr. destruct (QI_reach ns nc st Hr) as [T O E I G Hg U]. split; [|exact U].
  intros u n Hh. destruct (guard_not_freed ns st u n T O E I G (Hg u n Hh) Hh) as (H1 & H2 & H3). auto.
Qed.

(** [qsbr_epoch_window]: global_epoch is the number of advances modulo 3, and for every registered thread (it owns a
    control block and has published its epoch: inside a region or not) local_epoch is its unbounded epoch modulo 3 and
    the global epoch is at most ONE ahead of it *)
Theorem qsbr_epoch_window st : reachable st ->
  gep st = g_gepc st mod 3 /\
  forall u b, cb (tl st u) = Some b -> synced (th st u) = true ->
    g_lepc st b <= g_gepc st /\ g_gepc st <= g_lepc st b + 1 /\ blocal st b = g_lepc st b mod 3.
Proof.
  intros Hr. destruct (qi_e _ _ (QI_reach ns nc st Hr)) as (E & P & _). split; [exact E|].
  intros u b Hb Hs. destruct (P u b Hb) as (P1' & _). destruct (P1' Hs) as (A1 & A2 & A3 & _). auto.
Qed.

(** [qsbr_free_epoch], the precise epoch statement:
    - a node retired by a thread whose local epoch was r while the global epoch was g (r <= g <= r + 1) is freed only when
      the global epoch is >= g + 2;
    - AN ORPHAN CREATED AT GLOBAL EPOCH g (thread exit) IS FREED ONLY WHEN THE GLOBAL EPOCH IS >= g + 2, its target epoch is
      (g + 2) mod 3 = (g + number_epochs - 1) mod number_epochs, and everything it carries is freed no earlier (the tag of
      what it carries is at most its own);
    - a thread that still holds a guard on a retired node entered its region at an epoch <= g, and the global epoch is
      still <= g + 1: two advances beyond g need that thread to pass a quiescent state.
    With the target g + 1 instead of g + 2 the second clause (hence [qsbr_safe]) is false: see
    [qsbr_orphan_target_wrong_refuted] below. *)
Theorem qsbr_free_epoch st : reachable st ->
  (forall n t r g, g_life st n = LRet t r g -> r <= g /\ g <= r + 1 /\ (g_where st n = PFreed -> g + 2 <= g_gepc st)) /\
  (forall o t g, g_life st o = LOrph t g -> otgt st o = (g + 2) mod 3 /\ (g_where st o = PFreed -> g + 2 <= g_gepc st) /\
     (forall n, g_where st n = PIn o -> tagof (g_life st n) <= g + 2)) /\
  (forall u n t r g b, holds st u n -> g_life st n = LRet t r g -> cb (tl st u) = Some b -> g_lepc st b <= g /\ g_gepc st <= g + 1).
Proof.
  intros Hr. destruct (QI_reach ns nc st Hr) as [T _ (E & P & _) I G Hg _].
  split; [|split].
  - intros n t r g L. destruct (g_ret st G n t r g L) as (A1 & A2 & A3). split; [exact A1|]. split; [exact A2|].
    intros W. pose proof (g_freed st G n W) as F. rewrite L in F. exact F.
  - intros o t g L. destruct (g_orph st G o t g L) as [A1 A2]. split; [exact A2|]. split.
    + intros W. pose proof (g_freed st G o W) as F. rewrite L in F. exact F.
    + intros n W. pose proof (g_in st G n o W) as F. rewrite L in F. exact F.
  - intros u n t r g b Hh L C.
    destruct (Hg u n Hh) as [(c & L')|[(t' & L')|(t' & r' & g' & b' & L' & C' & B)]]; try congruence.
    rewrite L in L'. injection L' as <- <- <-. rewrite C in C'. injection C' as <-.
    destruct (holds_shape _ _ _ _ (T u) Hh) as (_ & _ & _ & _ & _ & Hsy).
    destruct (P u b C) as (P1' & _). destruct (P1' Hsy) as (B1 & B2 & _). split; lia.
Qed.

(** * C02, safety half *)

(** [qsbr_exactly_once]: a block is freed at most once and only after it was retired (a node) or created as an orphan;
    a retired block is in exactly one place, which the ghost [g_where] names: retire list [i] of one thread, the hand of
    one exiting thread (the orphan it is about to publish), the global abandoned list, inside one orphan, or freed -
    and it is an element of that list (nothing is dropped, in particular not by the hand-over at thread exit nor by
    adoption) and of no other (nothing is duplicated); the lists are duplicate free. *)
Theorem qsbr_exactly_once st : reachable st ->
  (forall n, (g_nfree st n <= 1)%nat) /\
  (forall n, g_nfree st n = 1%nat <-> g_where st n = PFreed) /\
  (forall n, g_where st n <> PNone <-> (exists t r g, g_life st n = LRet t r g) \/ (exists t g, g_life st n = LOrph t g)) /\
  (forall u i n, In n (rl (tl st u) i) <-> g_where st n = PList u i) /\
  (forall n, In n (aband st) <-> g_where st n = PAband) /\
  (forall u n, hand (th st u) = Some n <-> g_where st n = PHand u) /\
  (forall o n, In n (ocont st o) <-> g_where st n = PIn o) /\
  (forall u i, NoDup (rl (tl st u) i)) /\ NoDup (aband st) /\ (forall o, NoDup (ocont st o)).
Proof.
  intros Hr. pose proof (qi_n _ _ (QI_reach ns nc st Hr)) as I.
  assert (W := n_where st I).
  assert (Hretd : forall l, retd l = true <-> (exists t r g, l = LRet t r g) \/ (exists t g, l = LOrph t g)).
  { intros l. destruct l; cbn; split; intros H; try discriminate; try reflexivity; eauto;
      destruct H as [(t0 & r0 & g0 & H)|(t0 & g0 & H)]; discriminate. }
  split; [|split; [|split; [|split; [|split; [|split; [|split; [|split; [|split]]]]]]]]; try apply I.
  - intros n. specialize (W n). destruct (g_where st n); cbn in W; destruct W as [_ ->]; lia.
  - intros n. specialize (W n). split; intros H.
    + destruct (g_where st n); cbn in W; destruct W as [_ W]; try reflexivity; rewrite W in H; discriminate.
    + rewrite H in W. cbn in W. apply W.
  - intros n. specialize (W n). rewrite <- Hretd. split.
    + intros H. destruct (g_where st n); cbn in W; destruct W as [W _]; try exact W. congruence.
    + intros L H. rewrite H in W. cbn in W. destruct W as [W _]. congruence.
Qed.

(** the region_guard object a continuation is about to delete *)
Definition kc_of (p : pc) : option lcont :=
  match p with
  | Q1 k | Q2 k _ | S1 k _ | S2 k _ _ _ | S3 k _ _ _ | G1 k _ | G2 k _ | G3 k _ | G4 k _ | G5 k _ | Q9 k _ => Some k
  | _ => None
  end.
Definition rgfree (s : state) (t : nat) (n : N) : Prop :=
  rg (tl s t) = Some n \/ (exists r, kc_of (th s t) = Some (LFin r (Some n))) \/ kc_of (th s t) = Some (LExit (Some n)).

(** the same at the level of the FREE events of one step: a FREE is the client's delete of its own never published node
    (lost CAS of repl), the client's delete of its region_guard object, or the reclaimer's delete of a retired block
    that had not been freed before *)
Theorem qsbr_free_event st a st' es : reachable st -> step ns st a = Some (st', es) ->
  forall t n, In (EFree t n) es ->
    (g_life st n = LFresh t /\ g_life st' n = LDropped) \/ rgfree st t n \/
    (retd (g_life st n) = true /\ g_nfree st n = O /\ g_nfree st' n = 1%nat).
Proof.
  intros Hr H t0 n Hin.
  pose proof (qi_n _ _ (QI_reach ns nc st Hr)) as I.
  destruct a as [t o|t]; [destruct (start_same _ _ _ _ _ _ H) as (_ & _ & _); unfold step, step_gen in H; step_split H; destruct Hin|].
  unfold_step H. cbv zeta in H. step_split H.
  all: bool_eqs; unfold free_opt in Hin; cbn [In app map] in Hin; rewrite ?in_app_iff in Hin; cbn [In] in Hin.
  all: repeat match goal with H : _ \/ _ |- _ => destruct H end; try discriminate; try contradiction.
  all: repeat match goal with H : In _ (match ?fr with Some _ => _ | None => _ end) |- _ => destruct fr; cbn [In] in H; [destruct H as [H|[]]|destruct H] end.
  all: try match goal with H : In (EFree _ _) (free_evs _ _) |- _ => unfold free_evs in H; apply in_map_iff in H; destruct H as (m & Hm & Hl); injection Hm as Ht0 Hn0; subst m; subst t0 end.
  all: try match goal with H : EFree _ _ = EFree _ _ |- _ => injection H as Ht0 Hn0; subst t0; try subst n end.
  all: try solve [left; split; [apply (n_fresh1 st I t); rewrite E; reflexivity | prj; rewrite ?updN_same; reflexivity]].
  all: try solve [right; left; unfold rgfree; rewrite E; cbn [kc_of]; eauto].
  all: right; right; destruct (fl_alive st t _ I n Hl) as (A1 & A2 & _); split; [exact A1|]; split; [exact A2|]; prj;
       rewrite A2, (count_nodup n _ (fl_nodup st t _ I)); apply memN_In in Hl; rewrite Hl; reflexivity.
Qed.
End Theorems.

(** * Examples (executable runs of the model; the same schedules were replayed on the real code, build/h_qsbr) *)
(** one operation of thread t run to completion: more [Step]s than it needs ([run] skips the surplus) *)
Definition opn (t : nat) (o : op) : list action := Start t o :: repeat (Step t) 45.
Definition runq (toff : N) (ns : nat) (nc : N) (acts : list action) : state := fst (fst (run (step_gen toff ns) (init nc) acts)).
Definition run2 (acts : list action) : state := runq 2 1 2 acts.

(** thread 1 replaces node 0 of cell 0 (retired at local epoch 0, global epoch 0; its quiescent state advances the epoch to
    1) and exits: retire list 0 goes into an orphan (block 4) created at global epoch 1 with target epoch (1 + 2) mod 3 = 0;
    thread 2 (it reuses the control block) replaces node 1, adopts the orphan when it advances the epoch to 2 and exits with
    the orphan still in its retire list 0: its orphan (block 6, created at epoch 2, target 1) swallows the first one ... *)
Definition ex1_a : list action := opn 1 (ORepl 0) ++ opn 1 OExit.
Definition ex1_b : list action := opn 2 (ORepl 1) ++ opn 2 OExit.
(** ... thread 3 adopts it when it advances to epoch 3 (into its list 1) and frees everything when it announces epoch 4 *)
Definition ex1_c : list action := opn 3 (ORead 0) ++ opn 3 (ORead 0).

Example ex1_orphan_created_at_exit :
  let st := run2 ex1_a in
  aband st = [4] /\ g_life st 4 = LOrph 1 1 /\ otgt st 4 = 0 /\ ocont st 4 = [0] /\ g_where st 0 = PIn 4 /\ g_life st 0 = LRet 1 0 0 /\
  g_where st 4 = PAband /\ cb (tl st 1%nat) = None /\ bstate st 2 = 0 /\ g_gepc st = 1 /\ g_nfree st 0 = O.
Proof. vm_compute. repeat split; reflexivity. Qed.

Example ex1_orphan_of_an_orphan :
  let st := run2 (ex1_a ++ ex1_b) in
  aband st = [6] /\ g_life st 6 = LOrph 2 2 /\ otgt st 6 = 1 /\ ocont st 6 = [0; 4; 1] /\ ocont st 4 = [] /\
  g_where st 0 = PIn 6 /\ g_where st 4 = PIn 6 /\ g_where st 1 = PIn 6 /\ g_life st 1 = LRet 2 1 1 /\ g_gepc st = 2 /\ g_nfree st 0 = O.
Proof. vm_compute. repeat split; reflexivity. Qed.

Example ex1_adopted_and_freed :
  let st3 := run2 (ex1_a ++ ex1_b ++ opn 3 (ORead 0)) in
  let st4 := run2 (ex1_a ++ ex1_b ++ ex1_c) in
  g_gepc st3 = 3 /\ aband st3 = [] /\ g_where st3 6 = PList 3 1 /\ g_where st3 0 = PIn 6 /\
  g_gepc st4 = 4 /\ g_where st4 0 = PFreed /\ g_where st4 4 = PFreed /\ g_where st4 1 = PFreed /\ g_where st4 6 = PFreed /\
  g_nfree st4 0 = 1%nat /\ g_nfree st4 6 = 1%nat /\ g_uaf st4 = false.
Proof. vm_compute. repeat split; reflexivity. Qed.

(** A reader that keeps a guard across another thread's exit.  Thread 1 registers at epoch 0 and holds node 1; thread 2 advances
    the epoch to 1; thread 3 registers at epoch 1 and holds node 0; thread 2 replaces node 0 (retired at local epoch 1, global
    epoch 1), cannot advance (thread 1 is still at epoch 0) and exits: orphan 6, created at global epoch 1.  Thread 1 drops its
    guard (catching up to epoch 1), then advances the epoch to 2 and adopts the orphan. *)
Definition ex2 : list action :=
  opn 1 (OHold 1 0) ++ opn 2 (ORead 0) ++ opn 3 (OHold 0 0) ++ opn 2 (ORepl 0) ++ opn 2 OExit ++
  opn 1 (ODrop 0) ++ opn 1 (ORead 1) ++ opn 3 (ODeref 0).

(** the code (target epoch 1 + 2 = 3, i.e. list 0): the orphan sits in list 0 of thread 1 until epoch 3, which thread 3
    (local epoch 1, still holding node 0) prevents: the guarded node is alive *)
Example ex2_guard_across_exit :
  let st := run2 ex2 in
  g_gepc st = 2 /\ g_life st 6 = LOrph 2 1 /\ otgt st 6 = 0 /\ g_where st 6 = PList 1 0 /\ g_where st 0 = PIn 6 /\
  gs (tl st 3%nat) 0%nat = Some 0 /\ g_nfree st 0 = O /\ g_uaf st = false.
Proof. vm_compute. repeat split; reflexivity. Qed.

(** ... and is freed, two epochs after the orphan was created, once thread 3 has dropped its guard *)
Example ex2_freed_after_drop :
  let st := run2 (ex2 ++ opn 3 (ODrop 0) ++ opn 3 (ORead 1) ++ opn 1 (ORead 1) ++ opn 1 (ORead 1)) in
  g_where st 0 = PFreed /\ g_where st 6 = PFreed /\ g_nfree st 0 = 1%nat /\ 3 <= g_gepc st /\ g_uaf st = false.
Proof. vm_compute. repeat split; try reflexivity. discriminate. Qed.

(** [qsbr_orphan_target_wrong_refuted]: the same schedule on the variant of the model whose orphans get the target epoch
    global_epoch + 1 instead of global_epoch + number_epochs - 1 (the line two seeded changes touched): the orphan created
    at epoch 1 has target 2, thread 1 adopts it when it advances the epoch to 2 and deletes it in the same quiescent state:
    node 0 is freed while thread 3 holds a guard on it, and the dereference hits the destroyed node.  So [qsbr_safe] and
    the orphan clause of [qsbr_free_epoch] (freed only at epoch >= g + 2) fail for that variant. *)
Lemma qsbr_orphan_target_wrong_refuted :
  exists acts, let st := runq 1 1 2 acts in
    reach (init 2) (step_gen 1 1) st /\
    holds st 3 0 /\ g_where st 0 = PFreed /\ g_nfree st 0 = 1%nat /\ g_uaf st = true /\
    g_life st 6 = LOrph 2 1 /\ g_where st 6 = PFreed /\ g_gepc st = 2.
Proof.
  exists ex2. split; [apply run_reach|]. split; [left; exists 0%nat; vm_compute; reflexivity|]. vm_compute. repeat split; reflexivity.
Qed.

(** * C02, liveness half as a bounded solo run: [QsbrFlush.qsbr_no_leak_at_quiescence]
    (stated and proved in Proof/QsbrFlush.v; repeated in Properties/Properties_C01_qsbr.v) *)
Check qsbr_no_leak_at_quiescence.

(** the flush on a concrete state: after [ex1_a ++ ex1_b] (nodes 0 and 1 and the first orphan sit inside the abandoned orphan 6,
    both retiring threads have exited) thread 3 runs flush operations on cell 0 (the first one also registers it): everything
    is freed after four of them - here already after two, the bound is for the worst case *)
Definition flush_ops (t : nat) (c : N) (k : nat) : list action := concat (repeat (opn t (ORead c)) k).
Example ex3_flush :
  let st1 := run2 (ex1_a ++ ex1_b ++ flush_ops 3 0 1) in
  let st4 := run2 (ex1_a ++ ex1_b ++ flush_ops 3 0 4) in
  g_where st1 0 = PIn 6 /\ g_where st1 6 = PList 3 1 /\
  g_where st4 0 = PFreed /\ g_where st4 1 = PFreed /\ g_where st4 4 = PFreed /\ g_where st4 6 = PFreed /\ aband st4 = [] /\ g_uaf st4 = false.
Proof. vm_compute. repeat split; reflexivity. Qed.

(** [qsbr_no_leak_idle_thread_refuted]: "a bounded solo flush frees everything when NO THREAD IS INSIDE A REGION" is FALSE for
    quiescent state based reclamation (by design, not a defect): a thread that is registered (it owns a control block) and sits
    outside any region blocks the epoch as soon as it is one behind.  Thread 1 registers with one read (global epoch 1 afterwards)
    and goes idle; thread 2 replaces node 1 (retired at epoch 1, the epoch gets to 2).  Every thread is between operations and
    outside any region - and no number of flush operations of thread 2 gets the epoch beyond 2 (thread 1 still announces 1):
    node 1 stays in retire list 1 of thread 2 (shown for 4 and for 12 operations).  Hence the hypothesis of
    [qsbr_no_leak_at_quiescence]: every other control block is released. *)
Definition ex4 : list action := opn 1 (ORead 0) ++ opn 2 (ORepl 1).
Lemma qsbr_no_leak_idle_thread_refuted :
  let st := run2 ex4 in
  reach (init 2) (step 1) st /\
  (forall u, th st u = Idle /\ nest (tl st u) = O /\ (forall sl, gs (tl st u) sl = None)) /\
  g_where st 1 = PList 2 1 /\ g_gepc st = 2 /\
  (let st4 := run2 (ex4 ++ flush_ops 2 0 4) in g_where st4 1 = PList 2 1 /\ g_gepc st4 = 2 /\ th st4 2%nat = Idle) /\
  (let st12 := run2 (ex4 ++ flush_ops 2 0 12) in g_where st12 1 = PList 2 1 /\ g_gepc st12 = 2 /\ th st12 2%nat = Idle).
Proof.
  split; [apply run_reach|]. split.
  - intros u. destruct u as [|[|[|u]]]; vm_compute; repeat split; reflexivity.
  - vm_compute. repeat split; reflexivity.
Qed.

(** the hypothesis of the flush theorem holds in that state (it is not vacuous): thread 3 owns the only control block *)
Example ex3_quiet : Quiet 1 2 3 0 (run2 (ex1_a ++ ex1_b ++ flush_ops 3 0 1)) 2.
Proof.
  constructor; [apply run_reach| | | | |]; try (vm_compute; reflexivity).
  - intros p Hp. vm_compute in Hp. destruct Hp as [<-|[]]. left. reflexivity.
  - eexists. vm_compute. reflexivity.
Qed.
