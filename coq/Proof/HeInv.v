(** Invariants of the hazard eras model (Model/HeDefs.v): properties C01 and C02 for
    xenium::reclamation::hazard_eras<> with the static allocation strategy.
    Layers: Proof/HeBase.v (ownership of the control blocks), Proof/HeGuards.v (guards, slots, reference counts, the
    last_hazard_era cache), Proof/HeNodes.v (life cycle of the nodes, where the retired nodes are), Proof/HeEras.v
    (era_clock, construction / retirement eras), this file: the safety argument and the theorems.
    The argument: a guard whose acquire has completed on node n holds a slot that publishes an era e with
    construction_era(n) <= e, and e <= retirement_era(n) once n is retired ([prot]): when acquire completes, the era
    just read equals the published era, so era_clock has not moved since the slot was written, in particular n (read
    from the cell in between) has not been retired yet - a retirement increments era_clock; later retirements stamp
    the node with the current era_clock >= e.  A scan that has n among its candidates started after n was retired,
    hence after the acquire completed: it reads the guard's slot while it still publishes e ([covered]), and e lies in
    [construction_era(n), retirement_era(n)], so reclaim_nodes keeps n.
    All theorems hold for every reachable state: any number of threads, any program, any schedule.  No axioms. *)
From Coq Require Import NArith List Bool Arith Lia PeanoNat.
From XV Require Import Conc.Lts Conc.Ev Model.HeDefs Proof.HeBase Proof.HeGuards Proof.HeNodes Proof.HeEras.
Import ListNotations.
Set Warnings "-cannot-remove-as-expected".

(** guard [g] of thread [t] protects node [n]: this->ptr = n and acquire has completed *)
Definition validated (st : state) (t g n : nat) : Prop :=
  ptr (gd (tl st t) g) = Some n /\ gv (gd (tl st t) g) = true.

(** the guard's slot publishes an era inside the life time of [n] *)
Definition prot (st : state) (t g n : nat) : Prop :=
  exists b i e, rcd (tl st t) = Some b /\ he (gd (tl st t) g) = Some i /\ hz st b i = VEra e /\
                ce st n <= e /\ forall u, g_life st n = LRet u -> e <= re st n.

(** the scan at program point [p] has seen era [e], or will still read slot [i] of control block [b] (publishing [e]) *)
Definition covered (p : pc) (b i e : nat) : Prop :=
  match p with
  | S5 s r rest => In e (s_prot s) \/ In b (r :: rest)
  | S6 s r rest i' => In e (s_prot s) \/ (b = r /\ i' <= i) \/ In b rest
  | S7 s => In e (s_prot s)
  | _ => True
  end.

Record InvP (st : state) : Prop := mkP {
  p_life : forall t g n, validated st t g n -> good (g_life st n);
  p_prot : forall t g n, validated st t g n -> prot st t g n;
  p_cover : forall t g n b i e s, validated st t g n -> rcd (tl st t) = Some b -> he (gd (tl st t) g) = Some i ->
            hz st b i = VEra e -> In n (rl (tl st s) ++ ad_of (th st s)) -> covered (th st s) b i e;
  p_nf : forall t g n, validated st t g n -> g_where st n <> PFreed;
  p_uaf : g_uaf st = false }.

(** a node in a retire list or adopted by a scan is retired *)
Lemma listed_ret st s n : InvN st -> In n (rl (tl st s) ++ ad_of (th st s)) -> exists u, g_life st n = LRet u.
Proof.
  intros HN Hin. assert (Hw : g_where st n <> PNone).
  { apply in_app_iff in Hin. destruct Hin as [H|H]; [apply (n_list st HN) in H|apply (n_flight st HN) in H]; congruence. }
  destruct (g_life st n) eqn:E; try (exfalso; apply Hw; apply (n_none st HN); intros u; congruence). exists t. reflexivity.
Qed.

Section P.
Variable nslots : nat.

(** the general preservation lemma: every step except the end of a scan.  Its seven hypotheses about the step:
    (validated) a guard validated afterwards was validated before, with the same control block, slot and published era, or
    it has just been validated for a node that is not retired, and is protected;
    (life) reachable nodes stay so; (ce) their construction eras do not change;
    (re) a node retired afterwards was retired before, with the same retirement era, or is retired now, at an era >= clock;
    (where) no node is freed; (uaf) no dereference hits a destroyed node;
    (covered) a node in a retire list or adopted by a scan was there before, and what the scan still covers it covered
    before (or the new program point covers everything) *)
Lemma InvP_gen st st' :
  InvN st -> InvG nslots st -> InvP st ->
  (* validated *)
  (forall t g n, validated st' t g n ->
     (validated st t g n /\ rcd (tl st' t) = rcd (tl st t) /\ he (gd (tl st' t) g) = he (gd (tl st t) g) /\
      (forall b i, rcd (tl st t) = Some b -> he (gd (tl st t) g) = Some i -> hz st' b i = hz st b i)) \/
     ((forall u, g_life st n <> LRet u) /\ good (g_life st n) /\ prot st' t g n)) ->
  (* life *) (forall n, good (g_life st n) -> good (g_life st' n)) ->
  (* ce *) (forall n, good (g_life st n) -> ce st' n = ce st n) ->
  (* re *)
  (forall n u, g_life st' n = LRet u ->
     (g_life st n = LRet u /\ re st' n = re st n) \/ ((forall v, g_life st n <> LRet v) /\ clock st <= re st' n)) ->
  (* where *) (forall n, g_where st n <> PFreed -> g_where st' n <> PFreed) ->
  (* uaf *) (g_uaf st = false -> g_uaf st' = false) ->
  (* covered *)
  (forall s n, In n (rl (tl st' s) ++ ad_of (th st' s)) ->
     (forall b i e, covered (th st' s) b i e) \/
     (In n (rl (tl st s) ++ ad_of (th st s)) /\
      forall t g b i e, validated st t g n -> rcd (tl st t) = Some b -> he (gd (tl st t) g) = Some i -> hz st b i = VEra e ->
                        covered (th st s) b i e -> covered (th st' s) b i e)) ->
  InvP st'.
Proof.
  intros HN HG [I1 I2 I3 I4 I5] Hv Hl Hce Hre Hw Hu Hc.
  assert (Hnr : forall n, (forall u, g_life st n <> LRet u) -> g_where st n <> PFreed).
  { intros n H. assert (Hn : g_where st n = PNone) by (apply (n_none st HN); exact H). congruence. }
  constructor.
  - intros t g n H. apply Hl. destruct (Hv t g n H) as [(H1 & _)|(_ & H2 & _)]; [apply (I1 t g n H1)|exact H2].
  - intros t g n H. destruct (Hv t g n H) as [(H1 & H2 & H3 & H4)|(_ & _ & H3)]; [|exact H3].
    destruct (I2 t g n H1) as (b & i & e & Hb & Hi & Hz & Hce' & Hre'). exists b, i, e.
    rewrite H2, H3, (H4 b i Hb Hi), (Hce n (I1 t g n H1)). repeat split; try assumption.
    intros u Hn. destruct (Hre n u Hn) as [[Hn1 ->]|[_ Hn2]]; [apply (Hre' u Hn1)|].
    pose proof (g_le nslots st t (g_s nslots st t (HG t)) b i e Hb Hz). lia.
  - intros t g n b i e s H Hb Hi Hz Hin. destruct (Hc s n Hin) as [Hcv|[Hin' Htr]]; [apply Hcv|].
    destruct (Hv t g n H) as [(H1 & H2 & H3 & H4)|(Hnr' & _)].
    + rewrite H2 in Hb. rewrite H3 in Hi. rewrite (H4 b i Hb Hi) in Hz. apply (Htr t g b i e H1 Hb Hi Hz). apply (I3 t g n b i e s H1 Hb Hi Hz Hin').
    + exfalso. destruct (listed_ret st s n HN Hin') as [u Hu']. apply (Hnr' u Hu').
  - intros t g n H. apply Hw. destruct (Hv t g n H) as [(H1 & _)|(H2 & _)]; [apply (I4 t g n H1)|apply (Hnr n H2)].
  - apply Hu. exact I5.
Qed.

(** a protected node is alive *)
Lemma valid_alive st t g n : InvN st -> InvP st -> validated st t g n -> dead st n = false.
Proof.
  intros HN HP Hv. unfold dead. rewrite (n_free st HN). unfold gone.
  pose proof (p_nf st HP t g n Hv) as H1. destruct (p_life st HP t g n Hv) as (_ & _ & H2).
  destruct (g_where st n); try contradiction; destruct (g_life st n); try contradiction; reflexivity.
Qed.

(** a dereferenced node is alive: it is held by a guard at rest, or it was just read from a cell *)
Lemma uaf_guard st t g n :
  InvN st -> InvV nslots st -> InvP st -> ptr (gd (tl st t) g) = Some n -> ~ in_acq nslots (th st t) g -> dead st n = false.
Proof.
  intros HN HV HP Hp Hna. apply (valid_alive st t g n HN HP). split; [exact Hp|].
  destruct (gv (gd (tl st t) g)) eqn:E; [reflexivity|]. exfalso. apply Hna. apply (HV t g E).
Qed.

Lemma alive_notret st n : InvN st -> good (g_life st n) -> (forall u, g_life st n <> LRet u) -> dead st n = false.
Proof.
  intros HN (H1 & H2 & H3) Hr. unfold dead. rewrite (n_free st HN). unfold gone.
  assert (Hw : g_where st n = PNone) by (apply (n_none st HN); exact Hr). rewrite Hw.
  destruct (g_life st n); try reflexivity. contradiction.
Qed.

Lemma uaf_pub st c n : InvN st -> cells st c = Some n -> dead st n = false.
Proof.
  intros HN Hc. apply alive_notret; [exact HN| |]; rewrite (n_cell st HN c n Hc); [apply good_pub|intros u; discriminate].
Qed.

Lemma is_prot_In prot c r e : In e prot -> c <= e -> e <= r -> is_prot prot c r = true.
Proof.
  intros H H1 H2. unfold is_prot. apply existsb_exists. exists e. split; [exact H|].
  apply andb_true_iff. split; apply Nat.leb_le; assumption.
Qed.

(** the end of a scan: the nodes of the retire list and of the adopted list for which no gathered era lies between
    construction and retirement era are freed *)
Lemma InvP_reclaim st st' t s :
  InvG nslots st -> InvN st -> InvP st -> th st t = S7 s ->
  (forall u g, gd (tl st' u) g = gd (tl st u) g) -> (forall u, rcd (tl st' u) = rcd (tl st u)) ->
  (forall n, g_life st' n = g_life st n) -> (forall n, ce st' n = ce st n) -> (forall n, re st' n = re st n) ->
  (forall b i, hz st' b i = hz st b i) ->
  (forall n, g_where st' n = PFreed -> g_where st n = PFreed \/
     (In n (rl (tl st t) ++ s_ad s) /\ is_prot (s_prot s) (ce st n) (re st n) = false)) ->
  g_uaf st' = g_uaf st -> (forall b i e, covered (th st' t) b i e) ->
  (forall u, u <> t -> rl (tl st' u) = rl (tl st u) /\ th st' u = th st u) ->
  InvP st'.
Proof.
  intros HG HN [I1 I2 I3 I4 I5] Hth Hgd Hr Hl Hce Hre Hhz Hw Hu Hcv Ho.
  assert (Hval : forall u g n, validated st' u g n -> validated st u g n).
  { intros u g n [H1 H2]. rewrite Hgd in H1, H2. split; assumption. }
  constructor.
  - intros u g n H. rewrite Hl. apply (I1 u g n (Hval u g n H)).
  - intros u g n H. destruct (I2 u g n (Hval u g n H)) as (b & i & e & Hb & Hi & Hz & H1 & H2). exists b, i, e.
    rewrite Hr, Hgd, Hhz, Hce. repeat split; try assumption. intros v. rewrite Hl, Hre. apply H2.
  - intros u g n b i e s0 H Hb Hi Hz Hin. destruct (Nat.eq_dec s0 t) as [->|Hne]; [apply Hcv|].
    destruct (Ho s0 Hne) as [H1 H2]. rewrite H1, H2 in Hin. rewrite H2. rewrite Hr in Hb. rewrite Hgd in Hi. rewrite Hhz in Hz.
    apply (I3 u g n b i e s0 (Hval u g n H) Hb Hi Hz Hin).
  - intros u g n H Hc. pose proof (Hval u g n H) as Hv. destruct (Hw n Hc) as [Hc'|[Hin Hnp]]; [apply (I4 u g n Hv Hc')|].
    destruct (I2 u g n Hv) as (b & i & e & Hb & Hi & Hz & H1 & H2).
    assert (Hcov : covered (th st t) b i e).
    { apply (I3 u g n b i e t Hv Hb Hi Hz). rewrite Hth. cbn [ad_of]. exact Hin. }
    rewrite Hth in Hcov. cbn [covered] in Hcov.
    assert (Hret : exists v, g_life st n = LRet v) by (apply (listed_ret st t n HN); rewrite Hth; exact Hin).
    destruct Hret as [v Hv']. rewrite (is_prot_In _ _ _ e Hcov H1 (H2 v Hv')) in Hnp. discriminate.
  - rewrite Hu. exact I5.
Qed.



Lemma InvP_ush st st1 t : ush t st st1 -> InvP st -> InvP st1.
Proof.
  intros Hu [I1 I2 I3 I4 I5]. pose proof (ush_same _ _ _ Hu) as HS.
  assert (Htl : forall u, rl (tl st1 u) = rl (tl st u)).
  { intros u. destruct (Nat.eq_dec u t) as [->|Hne]; [apply (sb_rl _ _ _ HS)|rewrite (sb_tl _ _ _ HS u Hne); reflexivity]. }
  assert (Hrc : forall u, rcd (tl st1 u) = rcd (tl st u)).
  { intros u. destruct (Nat.eq_dec u t) as [->|Hne]; [apply (sb_rcd _ _ _ HS)|rewrite (sb_tl _ _ _ HS u Hne); reflexivity]. }
  assert (Hv : forall u g n, validated st1 u g n -> validated st u g n /\ gd (tl st1 u) g = gd (tl st u) g).
  { intros u g n [H1 H2]. destruct (Nat.eq_dec u t) as [->|Hne].
    - destruct (sb_gd _ _ _ HS g) as [E|[E _]]; [|rewrite E in H1; discriminate H1]. rewrite E in *. split; [split; assumption|reflexivity].
    - rewrite (sb_tl _ _ _ HS u Hne) in *. split; [split; assumption|reflexivity]. }
  constructor.
  - intros u g n H. rewrite (sb_life _ _ _ HS). apply (I1 u g n (proj1 (Hv u g n H))).
  - intros u g n H. destruct (Hv u g n H) as [H1 H2]. destruct (I2 u g n H1) as (b & i & e & Hb & Hi & Hz & Hc & Hr).
    exists b, i, e. rewrite Hrc, H2, (sb_hz _ _ _ HS), (sb_ce _ _ _ HS), (sb_life _ _ _ HS), (sb_re _ _ _ HS). repeat split; assumption.
  - intros u g n b i e s H Hb Hi Hz Hin. destruct (Hv u g n H) as [H1 H2].
    rewrite Hrc in Hb. rewrite H2 in Hi. rewrite (sb_hz _ _ _ HS) in Hz. rewrite Htl, (sb_th _ _ _ HS) in Hin. rewrite (sb_th _ _ _ HS).
    apply (I3 u g n b i e s H1 Hb Hi Hz Hin).
  - intros u g n H. rewrite (sb_where _ _ _ HS). apply (I4 u g n (proj1 (Hv u g n H))).
  - rewrite (sb_uaf _ _ _ HS). exact I5.
Qed.

(** the program point of thread t changes to one outside a scan *)
Lemma InvP_pc st t p : InvP st -> ad_of p = [] -> (forall b i e, covered p b i e) -> ad_of (th st t) = [] -> InvP (set_pc t p st).
Proof.
  intros [I1 I2 I3 I4 I5] Ha Hc Ha'. constructor; prj; try assumption.
  intros u g n b i e s H Hb Hi Hz Hin. destruct (Nat.eq_dec s t) as [->|Hne]; upds; [apply Hc|].
  upds_in Hin. apply (I3 u g n b i e s H Hb Hi Hz Hin).
Qed.


(** The tactics below discharge the hypotheses of [InvP_gen] for a concrete successor state, by position.
    [vold]: (validated), left disjunct: the guards are unchanged, or the changed guard of t is not validated *)
Ltac vold t :=
  let t' := fresh "t'" in let g' := fresh "g'" in let n' := fresh "n'" in let Hv := fresh "Hv" in
  intros t' g' n' Hv; unfold validated in *; destruct (Nat.eq_dec t' t) as [->|?];
  [ simh Hv; sim;
    try (match type of Hv with context [upd _ ?g _ ?x] =>
           destruct (Nat.eq_dec x g) as [->|?]; [upds_in Hv; prjh Hv; upds; prj|upds_in Hv; upds] end);
    first [ (left; split; [exact Hv|split; [reflexivity|split; [reflexivity|intros; reflexivity]]]) | (destruct Hv; discriminate) | idtac ]
  | simh Hv; sim; left; split; [exact Hv|split; [reflexivity|split; [reflexivity|intros; reflexivity]]] ].

(** (life): g_life unchanged, or changed at a node whose new state is good *)
Ltac lifeg := let n := fresh "n" in let Hg := fresh "Hg" in
  intros n Hg; sim; first [exact Hg | (revert Hg; eqs; intros Hg; first [exact Hg | (repeat split; intros; discriminate)])].
(** (life), also when the changed node was not good before (beyond nalloc, or fresh) *)
Ltac lifeg2 st HN := let n := fresh "n" in let Hg := fresh "Hg" in
  intros n Hg; sim; revert Hg; eqs; intros Hg;
  first [ exact Hg | (repeat split; intros; discriminate)
        | (exfalso; destruct Hg as (Hg1 & Hg2 & Hg3); first [ (apply Hg1; apply (n_lt st HN); lia) | (eapply Hg2; eassumption) ]) ].
(** (ce): ce unchanged *)
Ltac ceg := let n := fresh "n" in let Hg := fresh "Hg" in intros n Hg; sim; reflexivity.
(** (re), left disjunct: g_life and re unchanged at every retired node *)
Ltac reg := let n := fresh "n" in let u := fresh "u" in let Hn := fresh "Hn" in
  intros n u Hn; sim; revert Hn; sim; eqs; intros Hn; first [ (left; split; [exact Hn|reflexivity]) | discriminate ].
(** (where): g_where unchanged, or changed to a place other than PFreed *)
Ltac whereg := let n := fresh "n" in let Hn := fresh "Hn" in
  intros n Hn; sim;
  first [ exact Hn
        | (revert Hn; eqs; intros Hn; first [exact Hn | discriminate])
        | (match goal with |- context [mem ?x ?l] => destruct (mem x l); [discriminate|exact Hn] end) ].
(** (covered): the lists are unchanged; the new program point of t covers everything or is the old one *)
Ltac cov t Hth :=
  let s := fresh "s" in let n := fresh "n" in let Hin := fresh "Hin" in
  intros s n Hin; destruct (Nat.eq_dec s t) as [->|?];
  [ simh Hin; sim; rewrite ?Hth in *; cbn [ad_of covered s_ad s_prot] in *;
    first [ (left; intros; exact I) | (right; split; [exact Hin|intros; tauto]) | idtac ]
  | simh Hin; sim; right; split; [exact Hin|intros; assumption] ].

(** a store to slot (b, i) of thread t's block, referenced by no guard or by guard [gx] only, does not touch the slot
    of any other guard *)
Lemma hz_keep st t b i gx v :
  InvO st -> GS nslots st t -> rcd (tl st t) = Some b ->
  (cnt st b i = 0 \/ (he (gd (tl st t) gx) = Some i /\ cnt st b i = 1)) ->
  forall u g' b' i', (u <> t \/ g' <> gx) -> rcd (tl st u) = Some b' -> he (gd (tl st u) g') = Some i' ->
  upd2 (hz st) b i v b' i' = hz st b' i'.
Proof.
  intros HO HS Hb Hc u g' b' i' Hne Hb' Hi'. destruct (Nat.eq_dec u t) as [->|Hnu].
  - rewrite Hb in Hb'. injection Hb' as <-. apply upd2_other_slot. intros ->.
    destruct Hc as [Hc|[Hg Hc]].
    + pose proof (on_cnt nslots st t b g' i HS Hb Hi'). lia.
    + destruct Hne as [Hne|Hne]; [congruence|]. apply Hne. apply (sole_inj nslots st t b gx g' i HS Hb Hg Hc Hi').
  - apply upd2_other_block. intros ->. apply Hnu. apply (own_inj st u t b HO Hb' Hb).
Qed.

(** guard [gx] of thread t is replaced by a guard that is not validated, the other guards and threads keep their
    guards, control blocks and slots: every validated guard was validated before *)
Lemma Hv_upd st st' t gx :
  (forall u, u <> t -> tl st' u = tl st u) -> rcd (tl st' t) = rcd (tl st t) ->
  (forall g', g' <> gx -> gd (tl st' t) g' = gd (tl st t) g') ->
  (ptr (gd (tl st' t) gx) = None \/ gv (gd (tl st' t) gx) = false) ->
  (forall u g' b' i', (u <> t \/ g' <> gx) -> rcd (tl st u) = Some b' -> he (gd (tl st u) g') = Some i' -> hz st' b' i' = hz st b' i') ->
  forall u g' n, validated st' u g' n ->
    (validated st u g' n /\ rcd (tl st' u) = rcd (tl st u) /\ he (gd (tl st' u) g') = he (gd (tl st u) g') /\
     (forall b i, rcd (tl st u) = Some b -> he (gd (tl st u) g') = Some i -> hz st' b i = hz st b i)) \/
    ((forall v, g_life st n <> LRet v) /\ good (g_life st n) /\ prot st' u g' n).
Proof.
  intros Ho Hr Hg Hx Hz u g' n [H1 H2]. left. destruct (Nat.eq_dec u t) as [->|Hnu].
  - destruct (Nat.eq_dec g' gx) as [->|Hng]; [destruct Hx; congruence|].
    rewrite (Hg g' Hng) in *. split; [split; assumption|]. split; [exact Hr|]. split; [reflexivity|].
    intros b i Hb Hi. apply (Hz t g' b i (or_intror Hng) Hb Hi).
  - rewrite (Ho u Hnu) in *. split; [split; assumption|]. split; [reflexivity|]. split; [reflexivity|].
    intros b i Hb Hi. apply (Hz u g' b i (or_introl Hnu) Hb Hi).
Qed.

(** the same when guard [gx] becomes validated for a node that is not retired *)
Lemma Hv_new st st' t gx p :
  (forall u, u <> t -> tl st' u = tl st u) -> rcd (tl st' t) = rcd (tl st t) ->
  (forall g', g' <> gx -> gd (tl st' t) g' = gd (tl st t) g') ->
  ptr (gd (tl st' t) gx) = Some p -> (forall v, g_life st p <> LRet v) -> good (g_life st p) -> prot st' t gx p ->
  (forall b i, hz st' b i = hz st b i) ->
  forall u g' n, validated st' u g' n ->
    (validated st u g' n /\ rcd (tl st' u) = rcd (tl st u) /\ he (gd (tl st' u) g') = he (gd (tl st u) g') /\
     (forall b i, rcd (tl st u) = Some b -> he (gd (tl st u) g') = Some i -> hz st' b i = hz st b i)) \/
    ((forall v, g_life st n <> LRet v) /\ good (g_life st n) /\ prot st' u g' n).
Proof.
  intros Ho Hr Hg Hp Hnr Hgood Hprot Hz u g' n [H1 H2]. destruct (Nat.eq_dec u t) as [->|Hnu].
  - destruct (Nat.eq_dec g' gx) as [->|Hng].
    + right. rewrite Hp in H1. injection H1 as <-. tauto.
    + left. rewrite (Hg g' Hng) in *. split; [split; assumption|]. split; [exact Hr|]. split; [reflexivity|]. intros; apply Hz.
  - left. rewrite (Ho u Hnu) in *. split; [split; assumption|]. split; [reflexivity|]. split; [reflexivity|]. intros; apply Hz.
Qed.

(** acquire completes: era_clock still has the value the guard's slot publishes *)
Lemma q2_done st t k prev p :
  InvG nslots st -> InvN st -> InvE st -> th st t = Q2 k prev p -> clock st = prev ->
  (forall u, g_life st p <> LRet u) /\ good (g_life st p) /\ dead st p = false /\
  exists b i, rcd (tl st t) = Some b /\ he (gd (tl st t) (guard_of nslots k)) = Some i /\ hz st b i = VEra prev /\ ce st p <= prev.
Proof.
  intros HG HN HE Hth Hc. pose proof (e_pc st HE t) as Hp. rewrite Hth in Hp. cbn [pcE] in Hp. destruct Hp as [Hg Hr].
  assert (Hnr : forall u, g_life st p <> LRet u).
  { intros u Hu. pose proof (Hr u Hu). pose proof (e_re st HE p u Hu). lia. }
  split; [exact Hnr|]. split; [exact Hg|]. split; [apply alive_notret; assumption|].
  pose proof (g_pc nslots st t (HG t)) as Hpc. rewrite Hth in Hpc. cbn [pcG] in Hpc. destruct Hpc as (_ & _ & Hz & H0).
  pose proof (g_clk nslots st t (g_s nslots st t (HG t))) as Hk.
  destruct (he (gd (tl st t) (guard_of nslots k))) as [i|] eqn:Ei; [|specialize (H0 eq_refl); lia].
  destruct (g_lt nslots st t (g_s nslots st t (HG t)) _ i Ei) as [_ Hrc].
  destruct (rcd (tl st t)) as [b|] eqn:Eb; [|contradiction]. exists b, i.
  split; [reflexivity|]. split; [reflexivity|]. split; [apply (Hz b i eq_refl eq_refl)|]. pose proof (e_ce st HE p). lia.
Qed.

(** the slot of the last guard on it goes back to the free list *)
Lemma InvP_reset st t b i g :
  InvO st -> InvN st -> InvG nslots st -> InvP st -> rcd (tl st t) = Some b -> he (gd (tl st t) g) = Some i -> cnt st b i = 1 ->
  InvP (reset_guard st t b i g).
Proof.
  intros HO HN HG HP Hb Hg Hc. apply (InvP_gen st); try assumption.
  - apply (Hv_upd st _ t g); unfold reset_guard; repeat (progress (prj; upds)).
    + intros u Hu. upds. reflexivity.
    + reflexivity.
    + intros g' Hg'. upds. reflexivity.
    + left. reflexivity.
    + intros u g' b' i' Hne Hb' Hi'. apply (hz_keep st t b i g _ HO (g_s nslots st t (HG t)) Hb (or_intror (conj Hg Hc)) u g' b' i' Hne Hb' Hi').
  - intros n H. exact H.
  - intros n _. reflexivity.
  - intros n u H. left. split; [exact H|reflexivity].
  - intros n H. exact H.
  - unfold reset_guard. prj. tauto.
  - intros s n Hin. right. unfold reset_guard in *. prj. split.
    + destruct (Nat.eq_dec s t) as [->|Hne]; upds_in Hin; prjh Hin; upds_in Hin; prjh Hin; exact Hin.
    + intros; assumption.
Qed.

(** the scan reads slot [i'] of block [r] *)
Lemma cov_S6 st t g b i e s r rest i' :
  rcd (tl st t) = Some b -> he (gd (tl st t) g) = Some i -> hz st b i = VEra e ->
  covered (S6 s r rest i') b i e ->
  In e (match hz st r i' with VEra x => s_prot s ++ [x] | VLink _ => s_prot s end) \/ (b = r /\ S i' <= i) \/ In b rest.
Proof.
  intros Hb Hi Hz Hc. cbn [covered] in Hc. destruct Hc as [Hc|[[-> Hle]|Hc]].
  - left. destruct (hz st r i'); [exact Hc|apply in_app_iff; left; exact Hc].
  - destruct (Nat.eq_dec i' i) as [->|Hne]; [|right; left; split; [reflexivity|lia]].
    left. rewrite Hz. apply in_app_iff. right. left. reflexivity.
  - right. right. exact Hc.
Qed.

(** the scanning thread moves inside the walk: what has to be shown for its own lists *)
Ltac covS t Hth :=
  let s0 := fresh "s0" in let n' := fresh "n'" in let Hin := fresh "Hin" in
  intros s0 n' Hin; destruct (Nat.eq_dec s0 t) as [->|?]; [|simh Hin; sim; right; split; [exact Hin|intros; assumption]];
  simh Hin; sim; rewrite Hth in *; cbn [ad_of s_ad] in *; right; split; [exact Hin|];
  let t0 := fresh "t0" in let g0 := fresh "g0" in let b0 := fresh "b0" in let i0 := fresh "i0" in let e0 := fresh "e0" in
  intros t0 g0 b0 i0 e0 Hv0 Hb0 Hi0 Hz0 Hcov.

Lemma InvP_step st a st' es :
  InvO st -> InvG nslots st -> InvN st -> InvV nslots st -> InvE st -> InvP st -> step nslots st a = Some (st', es) -> InvP st'.
Proof.
  intros HO HG HN HV HE HP Hs. destruct a as [t o|t]; cbn [step] in Hs.
  - destruct (th st t) eqn:Hth; try discriminate Hs. destruct (legal nslots o); [|discriminate Hs].
    injection Hs as <- <-. apply (InvP_gen st); [exact HN|exact HG|exact HP|vold t|lifeg|ceg|reg|whereg|sim; tauto|cov t Hth].
  - pose proof (HG t) as HGt. pose proof (g_pc nslots st t HGt) as Hpc. pose proof (n_pc st HN t) as Hpn.
    destruct (th st t) eqn:Hth; try discriminate Hs.
    all: leaves Hs.
    all: clean_hyps; try discriminate.
    all: cbn [pcG ctx_ok guard_of] in Hpc; destruct Hpn as [Hpn _]; cbn [pcn] in Hpn.
    (* Begin OExit (thread_end): guards are released without a step ([ush]), then a program point outside a scan *)
    all: try (match goal with Hu : ush _ ?s0 ?st1 |- InvP (set_pc _ _ ?st1) =>
           assert (HP0 : InvP s0) by
             (first [ exact HP
                    | (apply (InvP_gen st); [exact HN|exact HG|exact HP|vold t|lifeg|ceg|reg|whereg|sim; tauto|cov t Hth]) ]);
           pose proof (InvP_ush _ _ _ Hu HP0) as HP1; pose proof (ush_same _ _ _ Hu) as HSb;
           apply InvP_pc; [exact HP1|reflexivity|intros; exact I|rewrite (sb_th _ _ _ HSb); unfold reset_guard; prj; rewrite Hth; reflexivity] end; fail).
    (* S7, the end of a scan: the only step that frees nodes *)
    all: try (match goal with Hth : th _ _ = S7 ?s |- _ =>
      apply (InvP_reclaim st _ t s HG HN HP Hth);
        [ intros u g; sim; destruct (Nat.eq_dec u t) as [->|?]; upds; reflexivity
        | intros u; sim; destruct (Nat.eq_dec u t) as [->|?]; upds; reflexivity
        | intros; sim; reflexivity | intros; sim; reflexivity | intros; sim; reflexivity | intros; sim; reflexivity
        | let nq := fresh "nq" in intros nq; sim;
          match goal with |- context [mem nq ?k] => destruct (mem nq k); [discriminate|] end;
          match goal with |- context [mem nq ?f] => destruct (mem nq f) eqn:Ef; [|intros Hw; left; exact Hw] end;
          intros _; right; apply mem_In, filter_In in Ef; destruct Ef as [Ef1 Ef2]; apply negb_true_iff in Ef2; split; assumption
        | sim; reflexivity
        | intros; sim; cbn [covered]; exact I
        | intros u Hu; sim; upds; split; reflexivity ] end; fail).
    (* S4, S5, S6, the walk of a scan: (covered) is the point; the other hypotheses by the standard tactics *)
    all: try (match goal with Hth : th _ _ = S4 _ |- _ => idtac | Hth : th _ _ = S5 _ _ _ |- _ => idtac end;
      apply (InvP_gen st); [exact HN|exact HG|exact HP|vold t|lifeg|ceg|reg|whereg|sim; tauto|];
      covS t Hth;
      pose proof (O_rcd st HO t0 b0 Hb0) as (Ho1 & Ho2 & Ho3);
      pose proof (guard_active nslots st t0 b0 g0 i0 HO (HG t0) Hb0 Hi0) as Hact;
      cbn [covered s_prot In] in *;
      repeat match goal with E : blist _ = _ |- _ => rewrite E in Ho2; cbn [In] in Ho2 end;
      repeat match goal with E : (est _ _ =? 2) = false |- _ => apply Nat.eqb_neq in E end;
      first [ tauto | (intuition (subst; try lia; try congruence)) ]; fail).
    all: try (match goal with Hth : th _ _ = S6 ?s ?r ?rest ?i |- _ =>
      apply (InvP_gen st); [exact HN|exact HG|exact HP|vold t|lifeg|ceg|reg|whereg|sim; tauto|];
      covS t Hth;
      pose proof (cov_S6 st t0 g0 b0 i0 e0 s r rest i Hb0 Hi0 Hz0 Hcov) as H6;
      pose proof (g_lt nslots st t0 (g_s nslots st t0 (HG t0)) g0 i0 Hi0) as [Hlt _];
      match goal with E : hz _ r i = _ |- _ => rewrite E in H6 end;
      cbn [covered s_prot In] in *;
      repeat match goal with E : (_ <? 2) = false |- _ => apply Nat.ltb_ge in E end;
      first [ exact H6 | tauto | (intuition (subst; try lia; try congruence)) ] end; fail).
    (* only a guard of t (not validated afterwards) and possibly its slot change *)
    all: try (
      let gx := match goal with
                | |- context [reset_guard _ _ _ _ ?g] => g
                | |- context [unshare _ _ _ _ ?g] => g
                | |- context [set_gd _ ?g _ _] => g
                | Hth : th _ _ = E1 ?k _ _ |- _ => constr:(guard_of nslots k)
                | Hth : th _ _ = I1 ?k _ _ |- _ => constr:(guard_of nslots k)
                end in
      sim; dg; apply (InvP_gen st); [exact HN|exact HG|exact HP
        | apply (Hv_upd st _ t gx);
          [ intros uu Hu; sim; reflexivity | sim; reflexivity | intros gg Hgg; sim; reflexivity
          | sim; first [ (left; reflexivity) | (right; reflexivity) | (left; tauto)
                       | (left; destruct (ptr (gd (tl st t) gx)) eqn:Ep; [|reflexivity]; exfalso;
                          apply (g_ptr nslots st t (g_s nslots st t HGt) _ _ Ep); first [assumption|tauto]) ]
          | intros uu gg bb ii Hne Hbb Hii; sim;
            first [ reflexivity
                  | (eapply (hz_keep st t); [exact HO|exact (g_s nslots st t HGt)|eassumption| |exact Hne|exact Hbb|exact Hii];
                     first [ (left; tauto) | (right; split; [eassumption|]; first [assumption | (apply Nat.eqb_eq; assumption) | (destruct Hpc as (_ & _ & Hso & _); eapply Hso; eassumption) | (destruct Hpc as (_ & Hso); eapply Hso; eassumption) | (destruct Hpc as (_ & _ & Hso); eapply Hso; eassumption) | (destruct Hpc as (_ & _ & _ & Hso & _); eapply Hso; eassumption)])
                           | (left; destruct (none_cnt nslots st t _ (g_s nslots st t HGt) ltac:(eassumption) ltac:(tauto)) as [Hc0 _]; apply Hc0; lia)
                           | (left; destruct Hpc as (_ & _ & _ & _ & _ & _ & Hc0 & _); apply Hc0; assumption) ]) ] ]
        | lifeg2 st HN|ceg|reg|whereg
        | intros Hu; sim; try unfold dead; sim; rewrite ?Hu; cbn [orb]; first [ reflexivity | exact Hu | tauto ]
        | cov t Hth]; fail).
    (* Q2: acquire completes, the temporary guard is released at once (its slot is shared) *)
    all: try (match goal with Hth : th _ _ = Q2 ?k ?prev ?p, Ec : (clock _ =? _) = true |- context [unshare] =>
      apply Nat.eqb_eq in Ec;
      destruct (q2_done st t k prev p HG HN HE Hth Ec) as (Hnr & Hgood & Halive & bq & iq & Hbq & Hiq & Hzq & Hceq);
      cbn [guard_of] in *; sim; dg;
      apply (InvP_gen st); [exact HN|exact HG|exact HP
        | apply (Hv_upd st _ t nslots);
          [ intros uu Hu; sim; reflexivity | sim; reflexivity | intros gg Hgg; sim; reflexivity | sim; left; reflexivity
          | intros; sim; reflexivity ]
        | lifeg2 st HN|ceg|reg|whereg
        | intros Hu; sim; try unfold dead; sim; rewrite ?Hu; cbn [orb]; first [ reflexivity | exact Hu | exact Halive ]
        | cov t Hth] end; fail).
    (* Q2: acquire completes *)
    all: try (match goal with Hth : th _ _ = Q2 ?k ?prev ?p, Ec : (clock _ =? _) = true |- _ =>
      apply Nat.eqb_eq in Ec;
      destruct (q2_done st t k prev p HG HN HE Hth Ec) as (Hnr & Hgood & Halive & bq & iq & Hbq & Hiq & Hzq & Hceq);
      let gx := eval cbn [guard_of] in (guard_of nslots k) in
      cbn [guard_of] in *; sim; dg;
      apply (InvP_gen st); [exact HN|exact HG|exact HP
        | apply (Hv_new st _ t gx p);
            [ intros uu Hu; sim; reflexivity | sim; reflexivity | intros gg Hgg; sim; reflexivity | sim; reflexivity
            | exact Hnr | exact Hgood
            | exists bq, iq, prev; sim; repeat split; try assumption; intros v; eqs; intros Hv; first [discriminate | (exfalso; apply (Hnr v Hv))]
            | intros; sim; reflexivity ]
        | lifeg2 st HN|ceg|reg|whereg
        | intros Hu; sim; try unfold dead; sim; rewrite ?Hu; cbn [orb]; first [ reflexivity | exact Hu | exact Halive ]
        | cov t Hth] end; fail).
    (* X0: the guard's slot is released, then the following guards that share their slots.
       Left after this pass: W2 / A3 / I1 / I2 / X5 (the control block changes), I2 -> alloc_he, and the steps of the last pass *)
    all: try (match goal with Hu : ush _ (reset_guard _ _ ?b ?i ?g) ?st1 |- InvP (set_pc _ _ ?st1) =>
           assert (HP0 : InvP (reset_guard st t b i g)) by
             (apply InvP_reset; try assumption; destruct Hpc as (_ & _ & Hso & _); apply Hso; assumption);
           pose proof (InvP_ush _ _ _ Hu HP0) as HP1; pose proof (ush_same _ _ _ Hu) as HSb;
           apply InvP_pc; [exact HP1|reflexivity|intros; exact I|rewrite (sb_th _ _ _ HSb); unfold reset_guard; prj; rewrite Hth; reflexivity] end; fail).
    (* thread t has no guard with a hazard era: its control block changes *)
    all: try (match goal with Hn : forall g, he (gd (tl _ _) g) = None |- _ => idtac
                         | Hpc : _ /\ _ /\ (forall g, he (gd (tl _ _) g) = None) |- _ => destruct Hpc as (? & ? & Hn)
                         | Hpc : _ /\ _ /\ (forall g, he (gd (tl _ _) g) = None) /\ _ |- _ => destruct Hpc as (? & ? & Hn & ?) end;
      apply (InvP_gen st); [exact HN|exact HG|exact HP
        | intros uu gg nn Hvv; unfold validated in *; destruct (Nat.eq_dec uu t) as [->|?];
          [ exfalso; simh Hvv; destruct Hvv as [Hp _]; apply (g_ptr nslots st t (g_s nslots st t HGt) gg nn Hp);
            match goal with Hn : forall g, he _ = None |- _ => apply Hn end
          | simh Hvv; sim; left; split; [exact Hvv|split; [reflexivity|split; [reflexivity|]]];
            intros bb ii Hbb Hii; sim; first [ reflexivity
              | (apply upd2_other_block; intros ->; match goal with Hr : rcd (tl _ _) = Some _ |- _ => apply (own_inj st _ _ _ HO Hbb) in Hr; congruence end) ] ]
        | lifeg|ceg|reg|whereg|sim; tauto|cov t Hth]; fail).
    (* I2: the cache of a block without guards is empty *)
    all: try (match goal with Hth : th _ _ = I2 _ _, El : lhe _ _ = Some _ |- _ =>
           exfalso; destruct Hpc as (_ & _ & Hn);
           match goal with Hb : rcd (tl _ _) = Some ?b |- _ => destruct (none_cnt nslots st t b (g_s nslots st t HGt) Hb Hn) as [_ Hl]; congruence end end; fail).
    (* the other steps: the nodes' life cycle, dereferences, or nothing the invariant looks at changes *)
    all: try (match goal with Ec : oeqb (cells _ _) _ = true |- _ => apply oeqb_eq in Ec end).
    all: try (sim; dg; (apply (InvP_gen st); [exact HN|exact HG|exact HP|vold t|lifeg2 st HN
        | intros nn Hg; sim; eqs; first [ reflexivity | (exfalso; destruct Hg as (_ & Hg2 & _); eapply Hg2; eassumption) ]
        | intros nn uu Hn; sim; revert Hn; sim; eqs; intros Hn;
          first [ (left; split; [exact Hn|reflexivity]) | discriminate
                | (right; split; [intros vv; rewrite Hpn; discriminate|lia]) ]
        | whereg
        | intros Hu; sim; try unfold dead; sim; rewrite ?Hu; cbn [orb];
          first [ reflexivity | exact Hu
                | (eapply (uaf_guard st t); [exact HN|exact HV|exact HP|eassumption|rewrite Hth; unfold in_acq; cbn [acq_of]; tauto])
                | (eapply (uaf_pub st); [exact HN|etransitivity; eassumption]) ]
        | cov t Hth]); fail).
Qed.
End P.

(** * The invariant holds in every reachable state *)
Section Main.
Variables (ncells nslots : nat).

Record Inv (st : state) : Prop := mkInv {
  inv_O : InvO st; inv_G : InvG nslots st; inv_F : InvF st; inv_N : InvN st; inv_V : InvV nslots st; inv_E : InvE st;
  inv_P : InvP st }.

Theorem he_inv st : reach (init ncells) (step nslots) st -> Inv st.
Proof.
  apply inv_rule.
  - constructor; [apply InvO_init|apply InvG_init|apply InvF_init|apply InvN_init|apply InvV_init|apply InvE_init|].
    constructor; unfold validated; cbn; intros; try reflexivity; destruct H; discriminate.
  - intros s a s' es [HO HG HF HN HV HE HP] Hs. constructor.
    + apply (InvO_step nslots s a s' es HO Hs).
    + apply (InvG_step nslots s a s' es HO HG HF Hs).
    + apply (InvF_step nslots s a s' es HO HG HF Hs).
    + apply (InvN_step nslots s a s' es HN Hs).
    + apply (InvV_step nslots s a s' es HG HV Hs).
    + apply (InvE_step nslots s a s' es HG HN HE Hs).
    + apply (InvP_step nslots s a s' es HO HG HN HV HE HP Hs).
Qed.

(** * C01: no object is destroyed while a guard_ptr protects it.
    For every reachable state (any number of threads, any programs of the client operations, any schedule):
    a node n held by a guard whose acquire has completed (the guard's this->ptr, until the guard is reset or
    re-acquired) has not been freed; the guard refers to a slot of the thread's control block, the block is linked
    and active (every scan visits it), and the slot publishes an era e with construction_era(n) <= e, and
    e <= retirement_era(n) as soon as n is retired - so reclaim_nodes of any scan that gathers e keeps n
    (he_scan_keeps: every scan that has n among its candidates does gather e);
    no dereference ever hit a destroyed node ([g_uaf] records every dereference the client makes: read, hold, deref
    and the [g->id] of repl/clear). *)
Theorem he_safe st :
  reach (init ncells) (step nslots) st ->
  (forall t g n, validated st t g n ->
     g_nfree st n = 0 /\ g_where st n <> PFreed /\
     exists b i e, rcd (tl st t) = Some b /\ he (gd (tl st t) g) = Some i /\ In b (blist st) /\ est st b = 2 /\
                   hz st b i = VEra e /\ ce st n <= e /\ e <= clock st /\ (forall u, g_life st n = LRet u -> e <= re st n))
  /\ g_uaf st = false.
Proof.
  intros Hr. destruct (he_inv st Hr) as [HO HG HF HN HV HE HP]. split; [|apply (p_uaf st HP)].
  intros t g n Hv. split.
  - pose proof (valid_alive st t g n HN HP Hv) as Hd. unfold dead in Hd. apply negb_false_iff, Nat.eqb_eq in Hd. exact Hd.
  - split; [apply (p_nf st HP t g n Hv)|]. destruct (p_prot st HP t g n Hv) as (b & i & e & Hb & Hi & Hz & H1 & H2).
    exists b, i, e. destruct (O_rcd st HO t b Hb) as (_ & Hin & _).
    repeat split; try assumption.
    + apply (guard_active nslots st t b g i HO (HG t) Hb Hi).
    + apply (g_le nslots st t (g_s nslots st t (HG t)) b i e Hb Hz).
Qed.

(** the end of every scan keeps the nodes that a completed guard holds *)
Theorem he_scan_keeps st :
  reach (init ncells) (step nslots) st ->
  forall s sc t g n, th st s = S7 sc -> In n (rl (tl st s) ++ s_ad sc) -> validated st t g n ->
  is_prot (s_prot sc) (ce st n) (re st n) = true.
Proof.
  intros Hr s sc t g n Hth Hin Hv. destruct (he_inv st Hr) as [HO HG HF HN HV HE HP].
  destruct (p_prot st HP t g n Hv) as (b & i & e & Hb & Hi & Hz & H1 & H2).
  assert (Hc : covered (th st s) b i e) by (apply (p_cover st HP t g n b i e s Hv Hb Hi Hz); rewrite Hth; exact Hin).
  rewrite Hth in Hc. cbn [covered] in Hc.
  destruct (listed_ret st s n HN) as [u Hu]; [rewrite Hth; exact Hin|].
  apply (is_prot_In _ _ _ e Hc H1 (H2 u Hu)).
Qed.

(** * C02: a retired node is in exactly one place, and it is freed at most once and only after it was retired *)
Definition retired (st : state) (n : nat) : Prop := exists u, g_life st n = LRet u.

(** node [n] is at place [p] *)
Definition at_place (st : state) (n : nat) (p : place) : Prop :=
  match p with
  | PList t => In n (rl (tl st t))               (* the retire list of thread t *)
  | PAband => In n (aband st)                    (* abandoned_retired_nodes *)
  | PFlight t => In n (ad_of (th st t))          (* adopted by the scan thread t is running *)
  | PFreed => g_nfree st n = 1                   (* destroyed *)
  | PNone => False
  end.

Theorem he_exactly_once st :
  reach (init ncells) (step nslots) st ->
  forall n,
    g_nfree st n <= 1 /\
    (g_nfree st n = 1 -> retired st n \/ g_life st n = LDropped) /\
    (g_life st n = LDropped -> ~ retired st n /\ forall p, ~ at_place st n p \/ p = PFreed) /\
    (retired st n -> at_place st n (g_where st n) /\ forall p, at_place st n p -> p = g_where st n) /\
    (forall t, NoDup (rl (tl st t))) /\ NoDup (aband st) /\ (forall t, NoDup (ad_of (th st t))).
Proof.
  intros Hr n. destruct (he_inv st Hr) as [HO HG HF HN HV HE HP].
  pose proof (n_free st HN n) as Hf. unfold gone in Hf.
  assert (Hnone : ~ retired st n -> g_where st n = PNone).
  { intros H. apply (n_none st HN). intros u Hu. apply H. exists u. exact Hu. }
  assert (Hat : forall p, p <> PFreed -> at_place st n p -> g_where st n = p).
  { intros [|t| |t|] Hp H; cbn [at_place] in H; try contradiction.
    - apply (n_list st HN). exact H.
    - apply (n_aband st HN). exact H.
    - apply (n_flight st HN). exact H. }
  split; [destruct (g_where st n), (g_life st n); lia|].
  split.
  { intros H1. destruct (g_life st n) eqn:El; try (right; reflexivity); try (left; exists t; exact El);
      exfalso; (assert (Hw : g_where st n = PNone) by (apply Hnone; intros [u Hu]; rewrite El in Hu; discriminate Hu)); rewrite Hw in Hf; lia. }
  split.
  { intros Hd. split; [intros [u Hu]; congruence|]. intros p. destruct p; try (right; reflexivity); left; intros H;
      (assert (Hw : g_where st n = PNone) by (apply Hnone; intros [u Hu]; congruence));
      try (apply Hat in H; [congruence|discriminate]). exact H. }
  split.
  { intros [u Hu]. assert (Hw : g_where st n <> PNone) by (intros Hc; apply (proj1 (n_none st HN n) Hc u); exact Hu).
    split.
    - destruct (g_where st n) eqn:Ew; cbn [at_place]; try congruence.
      + apply (n_list st HN). exact Ew.
      + apply (n_aband st HN). exact Ew.
      + apply (n_flight st HN). exact Ew.
    - intros p H. destruct p; cbn [at_place] in H; try contradiction;
        try (symmetry; apply Hat; [discriminate|exact H]).
      rewrite Hu in Hf. destruct (g_where st n); try reflexivity; lia. }
  split; [apply (n_list_nd st HN)|]. split; [apply (n_aband_nd st HN)|apply (n_flight_nd st HN)].
Qed.

(** the eras of the nodes: construction eras never exceed era_clock, a retired node was retired at an era below
    era_clock and not before its construction *)
Theorem he_eras st :
  reach (init ncells) (step nslots) st ->
  1 <= clock st /\ forall n, ce st n <= clock st /\ forall u, g_life st n = LRet u -> re st n < clock st.
Proof.
  intros Hr. destruct (he_inv st Hr) as [HO HG HF HN HV HE HP]. split; [apply (g_clk nslots st 0 (g_s nslots st 0 (HG 0)))|].
  intros n. split; [apply (e_ce st HE)|apply (e_re st HE)].
Qed.

(** * Slot accounting (the invariant of the sequential model Model/HeSlotsDefs.v / Proof/HeSlots.v, restated on the
    step-level model): a guard at rest has a hazard era iff its pointer is non-null; guard_cnt of a slot is the number
    of guards that refer to it; a slot on the free list is a link and is not referenced; a referenced slot publishes
    an era <= era_clock; last_hazard_era points to a referenced slot whose era is not older than last_era; a control
    block that no thread uses has no references and an empty cache. *)
Lemma chain_In f l i : chain f l -> In i l -> exists nx, f i = VLink nx.
Proof.
  induction l as [|a l IH]; intros Hc Hin; [destruct Hin|]. destruct Hc as [H1 H2].
  destruct Hin as [<-|Hin]; [eexists; exact H1|apply IH; assumption].
Qed.

Theorem he_slots st :
  reach (init ncells) (step nslots) st ->
  (forall t g, ~ in_acq nslots (th st t) g -> (he (gd (tl st t) g) = None <-> ptr (gd (tl st t) g) = None)) /\
  (forall t g i, he (gd (tl st t) g) = Some i -> i < 3 /\ g <= nslots /\ exists b, rcd (tl st t) = Some b /\ est st b = 2) /\
  (forall t b, rcd (tl st t) = Some b ->
     (forall i, i < 3 -> cnt st b i = ng nslots (tl st t) i) /\
     (forall i, In i (fl (tl st t)) -> i < 3 /\ cnt st b i = 0 /\ exists nx, hz st b i = VLink nx) /\
     (forall i, i < 3 -> 1 <= cnt st b i -> exists e, hz st b i = VEra e /\ e <= clock st) /\
     (forall l, lhe st b = Some l -> l < 3 /\ 1 <= cnt st b l /\ lera st b <= era_of (hz st b l))) /\
  (forall b, (forall u, rcd (tl st u) <> Some b) -> (forall i, i < 3 -> cnt st b i = 0) /\ lhe st b = None).
Proof.
  intros Hr. destruct (he_inv st Hr) as [HO HG HF HN HV HE HP]. split; [|split; [|split]].
  - intros t g Hna. pose proof (HG t) as HGt. split.
    + intros Hh. destruct (ptr (gd (tl st t) g)) eqn:Ep; [|reflexivity]. exfalso. apply (g_ptr nslots st t (g_s nslots st t HGt) g n Ep Hh).
    + intros Hp. destruct (he (gd (tl st t) g)) eqn:Eh; [|reflexivity]. exfalso.
      apply (g_rest nslots st t HGt g Hna); [rewrite Eh; discriminate|exact Hp].
  - intros t g i Hi. pose proof (g_s nslots st t (HG t)) as HS. destruct (g_lt nslots st t HS g i Hi) as [H1 H2].
    split; [exact H1|]. split; [apply (he_le nslots st t g i HS Hi)|]. destruct (rcd (tl st t)) as [b|] eqn:Eb; [|contradiction].
    exists b. split; [reflexivity|]. apply (guard_active nslots st t b g i HO (HG t) Eb Hi).
  - intros t b Hb. pose proof (g_s nslots st t (HG t)) as HS. split; [|split; [|split]].
    + intros i Hi. apply (g_cnt nslots st t HS b i Hb Hi).
    + intros i Hi. split; [apply (proj2 (g_fl nslots st t HS) i Hi)|]. split; [apply (g_flc nslots st t HS b i Hb Hi)|].
      apply (chain_In (hz st b) (fl (tl st t)) i (g_chain nslots st t HS b Hb) Hi).
    + intros i Hi Hc. destruct (g_era nslots st t HS b i Hb Hi Hc) as [e Hz]. exists e. split; [exact Hz|apply (g_le nslots st t HS b i e Hb Hz)].
    + intros l Hl. apply (g_last nslots st t HS b l Hb Hl).
  - intros b Hb. destruct (HF b Hb) as (H1 & H2 & _). split; assumption.
Qed.
End Main.

(** * Examples (cells = 2, nslots = 3: the guards 0..2 of a thread, plus the temporary one; heap blocks: 0, 1 the
      initial nodes (construction era 1), 2 the control block of thread 1, ...) *)
Definition ops (t : nat) (o : op) (k : nat) : list action := Start t o :: repeat (Step t) k.
Definition final (acts : list action) : state := fst (fst (run (step 3) (init 2) acts)).

Lemma final_reach acts : reach (init 2) (step 3) (final acts).
Proof. apply run_reach. Qed.

(** two guards of one thread acquire at the same era: they share slot 0 of control block 2 (guard_cnt = 2, the second
    acquire hits the last_hazard_era cache) *)
Definition ex_a1 := ops 1 (OHold 0 0) 40 ++ ops 1 (OHold 0 1) 40.
Example ex_shared_slot :
  let st := final ex_a1 in
  th st 1 = Idle /\ validated st 1 0 0 /\ validated st 1 1 0 /\ he (gd (tl st 1) 0) = Some 0 /\ he (gd (tl st 1) 1) = Some 0 /\
  hz st 2 0 = VEra 1 /\ cnt st 2 0 = 2 /\ lhe st 2 = Some 0 /\ lera st 2 = 1 /\ fl (tl st 1) = [1; 2] /\ clock st = 1.
Proof. vm_compute. repeat split; reflexivity. Qed.

(** thread 2 replaces the node of cell 1: node 1 is retired at era 1 (era_clock becomes 2); era 1, published for the
    guards on node 0, also lies in [construction_era, retirement_era] = [1, 1] of node 1: the scan keeps node 1 *)
Definition ex_a2 := ex_a1 ++ ops 2 (ORepl 1) 60.
Example ex_era_keeps_more :
  let st := final ex_a2 in
  th st 2 = Idle /\ clock st = 2 /\ ce st 1 = 1 /\ re st 1 = 1 /\ rl (tl st 2) = [1] /\ g_where st 1 = PList 2 /\ g_nfree st 1 = 0 /\
  cells st 1 = Some 4 /\ ce st 4 = 1.
Proof. vm_compute. repeat split; reflexivity. Qed.

(** guard 0 is re-targeted to cell 1 after the era advanced; its slot is shared with guard 1: it drops its reference
    (no atomic access) and takes slot 1 for era 2 *)
Definition ex_a3 := ex_a2 ++ ops 1 (OHold 1 0) 40.
Example ex_retarget_shared :
  let st := final ex_a3 in
  th st 1 = Idle /\ validated st 1 0 4 /\ validated st 1 1 0 /\ he (gd (tl st 1) 0) = Some 1 /\ he (gd (tl st 1) 1) = Some 0 /\
  hz st 2 0 = VEra 1 /\ hz st 2 1 = VEra 2 /\ cnt st 2 0 = 1 /\ cnt st 2 1 = 1 /\ lhe st 2 = Some 1 /\ lera st 2 = 2.
Proof. vm_compute. repeat split; reflexivity. Qed.

(** guard 1 is re-targeted after the era advanced and is the only guard on slot 0: set_era on the same slot *)
Definition ex_a4 := ex_a3 ++ ops 1 (OHold 1 1) 40.
Example ex_retarget_own_slot :
  let st := final ex_a4 in
  th st 1 = Idle /\ validated st 1 0 4 /\ validated st 1 1 4 /\ he (gd (tl st 1) 1) = Some 0 /\
  hz st 2 0 = VEra 2 /\ hz st 2 1 = VEra 2 /\ cnt st 2 0 = 1 /\ cnt st 2 1 = 1 /\ fl (tl st 1) = [2].
Proof. vm_compute. repeat split; reflexivity. Qed.

(** he_safe and he_slots apply to this state *)
Example ex_safe_instance :
  g_nfree (final ex_a4) 4 = 0 /\ cnt (final ex_a4) 2 1 = ng 3 (tl (final ex_a4) 1) 1.
Proof.
  destruct (he_safe 2 3 (final ex_a4) (final_reach ex_a4)) as [H _].
  assert (Hv : validated (final ex_a4) 1 0 4) by (vm_compute; split; reflexivity).
  destruct (H 1 0 4 Hv) as (H1 & _). split; [exact H1|].
  destruct (he_slots 2 3 (final ex_a4) (final_reach ex_a4)) as (_ & _ & Hs & _).
  destruct (Hs 1 2 eq_refl) as (Hc & _). apply Hc. lia.
Qed.

(** an acquire races with a retirement: thread 1 has loaded node 0 from cell 0 (it is about to read era_clock) when
    thread 2 replaces the node, retires node 0 at era 1 and its scan - no era is published - frees it ... *)
Definition ex_c1 := Start 1 (OHold 0 0) :: repeat (Step 1) 2 ++ ops 2 (ORepl 0) 60.
Example ex_race_freed :
  let st := final ex_c1 in
  th st 1 = Q2 (KHold 0 0) 0 0 /\ th st 2 = Idle /\ clock st = 2 /\ g_where st 0 = PFreed /\ g_nfree st 0 = 1 /\ cells st 0 = Some 3.
Proof. vm_compute. repeat split; reflexivity. Qed.

(** ... thread 1 reads era 2 <> 0 = prev_era: it publishes era 2 and loads the cell again: the guard ends up with the
    new node 3, the freed node is never dereferenced *)
Definition ex_c2 := ex_c1 ++ repeat (Step 1) 40.
Example ex_race_retry :
  let st := final ex_c2 in
  th st 1 = Idle /\ validated st 1 0 3 /\ ptr (gd (tl st 1) 0) = Some 3 /\ g_nfree st 3 = 0 /\ g_uaf st = false.
Proof. vm_compute. repeat split; reflexivity. Qed.

(** a scan races with a guard: thread 1 holds node 0 (era 1 in slot 0 of block 2); thread 2 replaces the node, retires
    node 0 (retirement era 1) and is inside its scan, about to read the state of control block 2 *)
Definition ex_d1 := ops 1 (OHold 0 0) 40 ++ Start 2 (ORepl 0) :: repeat (Step 2) 27.
Example ex_scan_running :
  let st := final ex_d1 in
  validated st 1 0 0 /\ rl (tl st 2) = [0] /\ cells st 0 = Some 4 /\ re st 0 = 1 /\ clock st = 2 /\
  th st 2 = S5 (mkScan SRepl 6 (Some 5) [] []) 3 [2].
Proof. vm_compute. repeat split; reflexivity. Qed.

(** the scan gathers era 1: node 0 survives in the retire list of thread 2; thread 1 dereferences it *)
Definition ex_d2 := ex_d1 ++ ops 1 (ODeref 0) 1 ++ repeat (Step 2) 40.
Example ex_node_survives :
  let st := final ex_d2 in
  validated st 1 0 0 /\ th st 1 = Idle /\ th st 2 = Idle /\
  g_nfree st 0 = 0 /\ g_where st 0 = PList 2 /\ rl (tl st 2) = [0] /\ g_uaf st = false.
Proof. vm_compute. repeat split; reflexivity. Qed.

(** after the drop the next scan of thread 2 frees node 0 (and node 4, which it retires now): each exactly once *)
Definition ex_d3 := ex_d2 ++ ops 1 (ODrop 0) 40 ++ ops 2 (ORepl 0) 60.
Example ex_freed_after_drop :
  let st := final ex_d3 in
  th st 1 = Idle /\ th st 2 = Idle /\ ptr (gd (tl st 1) 0) = None /\ he (gd (tl st 1) 0) = None /\
  g_nfree st 0 = 1 /\ g_where st 0 = PFreed /\ g_nfree st 4 = 1 /\ rl (tl st 2) = [] /\ g_uaf st = false.
Proof. vm_compute. repeat split; reflexivity. Qed.

(** thread exit: thread 2 exits while node 0 (in its retire list) is still protected by thread 1: the node is handed
    over to abandoned_retired_nodes and the control block 3 is released *)
Definition ex_b1 := ops 1 (OHold 0 0) 40 ++ ops 2 (ORepl 0) 60 ++ ops 2 OExit 60.
Example ex_abandoned :
  let st := final ex_b1 in
  th st 2 = Done /\ g_where st 0 = PAband /\ aband st = [0] /\ rl (tl st 2) = [] /\ est st 3 = 0 /\ g_nfree st 0 = 0 /\ nact st = 3.
Proof. vm_compute. repeat split; reflexivity. Qed.

(** thread 3 adopts control block 3, retires node 1 and is about to adopt the abandoned node 0 in its scan ... *)
Definition ex_b2 := ex_b1 ++ Start 3 (ORepl 1) :: repeat (Step 3) 25.
Example ex_adopted :
  let st := final ex_b2 in
  rcd (tl st 3) = Some 3 /\ g_where st 0 = PFlight 3 /\ aband st = [] /\ ad_of (th st 3) = [0] /\ rl (tl st 3) = [1].
Proof. vm_compute. repeat split; reflexivity. Qed.

(** ... node 0 is still protected by thread 1 (and era 1 also covers node 1): both stay in the retire list of thread 3 *)
Definition ex_b3 := ex_b2 ++ repeat (Step 3) 40.
Example ex_adopted_kept :
  let st := final ex_b3 in
  th st 3 = Idle /\ g_where st 0 = PList 3 /\ rl (tl st 3) = [0; 1] /\ g_nfree st 0 = 0 /\ g_nfree st 1 = 0.
Proof. vm_compute. repeat split; reflexivity. Qed.

(** after the drop the next scan of thread 3 destroys node 0: exactly once, by another thread than the retiring one *)
Definition ex_b4 := ex_b3 ++ ops 1 (ODrop 0) 40 ++ ops 3 (ORepl 1) 60.
Example ex_handed_over_freed :
  let st := final ex_b4 in
  th st 3 = Idle /\ g_where st 0 = PFreed /\ g_nfree st 0 = 1 /\ g_life st 0 = LRet 2 /\ g_nfree st 1 = 1 /\ rl (tl st 3) = [] /\ g_uaf st = false.
Proof. vm_compute. repeat split; reflexivity. Qed.
