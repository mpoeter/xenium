(** The epoch in which a retired node may be reclaimed (generalised epoch based reclamation model, Model/GebrDefs.v, every
    configuration):
    [tag_ok]  a node retired in local epoch r sits in retire-list slot r mod 3 of a thread whose local epoch is >= r,
    or in orphan list r mod 3 while the global epoch is >= r (abandoned, handed over at exit, or put back), or was adopted
    by update_global_epoch(e, e+1) with r mod 3 = (e+1) mod 3 and r <= global epoch; and WHEN IT IS FREED THE GLOBAL EPOCH
    IS >= r + 3.  Holds in every reachable state ([tag_reach]).  No axioms. *)
From Coq Require Import NArith List Bool Arith Lia PeanoNat Setoid.
From XV Require Import Conc.Lts Conc.Ev Model.GebrDefs Proof.GebrBase Proof.GebrShape Proof.GebrOwn Proof.GebrEpoch Proof.GebrNodes.
Import ListNotations.
Local Open Scope N_scope.

(** * The epoch in which a node was retired *)

Definition tag_ok (s : state) (n : N) : Prop :=
  match g_where s n with
  | PNone => True
  | PList u i => exists b t' r, cb (tl s u) = Some b /\ g_life s n = LRet t' r /\ r mod 3 = i /\ r <= blocal s b
  | POrph i => exists t' r, g_life s n = LRet t' r /\ r mod 3 = i /\ r <= gep s
  | PFlight u => exists e t' r, flight_ep (th s u) = Some e /\ g_life s n = LRet t' r /\ r mod 3 = (e + 1) mod 3 /\ r <= gep s
  | PFreed => exists t' r, g_life s n = LRet t' r /\ r + 3 <= gep s
  end.

Lemma mod3_gap r v : r < v -> r mod 3 = v mod 3 -> r + 3 <= v.
Proof. intros H E. pose proof (N.div_mod r 3 ltac:(discriminate)). pose proof (N.div_mod v 3 ltac:(discriminate)). lia. Qed.

Lemma uslots_gap new old i r : old < new -> In i (uslots new old) -> r <= old -> r mod 3 = i -> r + 3 <= new.
Proof.
  intros Hlt Hi Hr Hm. unfold uslots in Hi.
  destruct (N.eqb_spec (N.min 3 (new - old)) 0); [destruct Hi|].
  destruct (N.eqb_spec (N.min 3 (new - old)) 1).
  { destruct Hi as [<-|[]]. apply mod3_gap; [lia|exact Hm]. }
  destruct (N.eqb_spec (N.min 3 (new - old)) 2).
  { destruct Hi as [<-|[<-|[]]].
    - assert (r + 3 <= new - 1) by (apply mod3_gap; [lia|exact Hm]). lia.
    - apply mod3_gap; [lia|exact Hm]. }
  destruct Hi as [<-|[<-|[<-|[]]]].
  - assert (r + 3 <= new - 2) by (apply mod3_gap; [lia|exact Hm]). lia.
  - assert (r + 3 <= new - 1) by (apply mod3_gap; [lia|exact Hm]). lia.
  - apply mod3_gap; [lia|exact Hm].
Qed.

(** a node that stays where it is keeps its tag: epochs only grow, and a thread with a non-empty retire list keeps its control block *)
Lemma tag_keep cfg ns s t s' es n : T0 cfg ns s -> O0 cfg s -> (forall x, P1 s x) -> N0 s -> step cfg ns s (Step t) = Some (s', es) ->
  tag_ok s n -> g_where s' n = g_where s n -> (In n (flight (th s t)) -> flight_ep (th s' t) = flight_ep (th s t)) -> tag_ok s' n.
Proof.
  intros T O P I H G Ew Ef. unfold tag_ok in *. rewrite Ew.
  pose proof (step_others _ _ _ _ _ _ H) as Fo. pose proof (step_untouched _ _ _ _ _ _ H) as Fb. pose proof (step_gep_mono _ _ _ _ _ _ H) as Fg.
  pose proof (ret_stable _ _ _ _ _ _ I H n) as Rs.
  destruct (g_where s n) as [|u i|i|u|] eqn:W; [exact Logic.I| | | |].
  - destruct G as (b & t' & r & C & L & M & B).
    assert (X : cb (tl s' u) = Some b /\ blocal s b <= blocal s' b).
    { destruct (Nat.eq_dec u t) as [->|Hu].
      - assert (Hin : In n (rl (tl s t) i)) by (apply (n_list s I); exact W).
        assert (Hc : in_cphase (th s t) = false).
        { destruct (in_cphase (th s t)) eqn:X; [|reflexivity]. rewrite (n_cempty s I t (or_introl X)) in Hin. destruct Hin. }
        split.
        + rewrite <- C. apply (step_cb _ _ _ _ _ _ H Hc). intros E. pose proof (n_xdone s I t) as X. rewrite E in X. cbn in X. rewrite X in Hin. destruct Hin.
        + destruct (step_blocal _ _ _ _ _ _ H) as [->|X _|? ? ? E|? new old b' E C2 ->]; [lia| |rewrite E in Hc; discriminate Hc|].
          * destruct (th s t); try discriminate X; discriminate Hc.
          * destruct (P t b C) as (_ & P2 & _). rewrite E in P2. cbn in P2. assert (b' = b) by congruence. subst b'. rewrite updN_same. lia.
      - destruct (Fo u Hu) as [_ ->]. split; [exact C|].
        destruct (Fb b (owner_untouched cfg s t u b O (proj1 (o_own cfg s O u b C)) Hu)) as (_ & _ & -> & _). lia. }
    destruct X as [C' B']. exists b, t', r. repeat split; [exact C'|apply Rs, L|exact M|lia].
  - destruct G as (t' & r & L & M & B). exists t', r. repeat split; [apply Rs, L|exact M|lia].
  - destruct G as (e & t' & r & Fe & L & M & B). exists e, t', r. split; [|repeat split; [apply Rs, L|exact M|lia]].
    destruct (Nat.eq_dec u t) as [->|Hu]; [rewrite Ef; [exact Fe|apply (n_flight s I), W]|destruct (Fo u Hu) as [-> _]; exact Fe].
  - destruct G as (t' & r & L & B). exists t', r. split; [apply Rs, L|lia].
Qed.

Lemma tag_step cfg ns s t s' es : T0 cfg ns s -> O0 cfg s -> (forall x, P1 s x) -> N0 s -> (forall n, tag_ok s n) ->
  step cfg ns s (Step t) = Some (s', es) -> forall n, tag_ok s' n.
Proof.
  intros T O P I G H n. pose proof (tag_keep _ _ _ _ _ _ n T O P I H (G n)) as Keep.
  pose proof (ret_stable _ _ _ _ _ _ I H n) as Rs. pose proof (n_flight s I t n) as Ifl.
  pose proof (step_others _ _ _ _ _ _ H) as _. pose proof (step_untouched _ _ _ _ _ _ H) as _. pose proof (step_gep_mono _ _ _ _ _ _ H) as Fg.
  assert (Hmv : forall l p, g_where s' = moved (g_where s) l p -> ~ In n l -> (In n (flight (th s t)) -> flight_ep (th s' t) = flight_ep (th s t)) -> tag_ok s' n).
  { intros l p Ew Hn. apply Keep. rewrite Ew. unfold moved. apply memN_false in Hn. rewrite Hn. reflexivity. }
  destruct (step_where _ _ _ _ _ _ H).
  - apply Keep; [rewrite Ew; reflexivity|]. intros X. destruct Fe as [Fe|Fe]; [exact Fe|rewrite Fe in X; destruct X].
  - apply Keep; [rewrite Ew; reflexivity|]. rewrite E. intros [].
  - (* G4: from orphan list (e+1) mod 3 into flight *)
    destruct (in_dec N.eq_dec n (orph s ((e + 1) mod 3))) as [Hn|Hn]; [|apply (Hmv _ _ Ew Hn); rewrite E; intros []].
    pose proof (G n) as Gn. unfold tag_ok in *. rewrite Ew. unfold moved. rewrite (proj2 (memN_In _ _) Hn).
    apply (n_orph s I) in Hn. rewrite Hn in Gn. destruct Gn as (t' & r & L & M & B). exists e, t', r. repeat split; [exact Fe|apply Rs, L|exact M|lia].
  - (* G5: adopted with r mod 3 = (e+1) mod 3 and r <= e: freed at e + 1 >= r + 3 *)
    destruct (in_dec N.eq_dec n (flight (th s t))) as [Hn|Hn]; [|apply (Hmv _ _ Ew Hn); intros X; contradiction].
    pose proof (G n) as Gn. unfold tag_ok in *. rewrite Ew. unfold moved. rewrite (proj2 (memN_In _ _) Hn).
    apply Ifl in Hn. rewrite Hn in Gn. destruct Gn as (e' & t' & r & Fe & L & M & B). rewrite E in Fe. injection Fe as <-.
    exists t', r. split; [apply Rs, L|]. rewrite Eg'. apply mod3_gap; [lia|exact M].
  - (* U2: a node of slot i of an epoch passed was retired at r <= old with r mod 3 = i, so r + 3 <= new *)
    set (l := flat_map (rl (tl s t)) (uslots new old)) in *.
    destruct (in_dec N.eq_dec n l) as [Hn|Hn]; [|apply (Hmv _ _ Ew Hn); rewrite E; intros []].
    pose proof (G n) as Gn. unfold tag_ok in *. rewrite Ew. unfold moved. rewrite (proj2 (memN_In _ _) Hn).
    apply (flat_where s t _ _ (n_list s I t)) in Hn. destruct Hn as (i & Hi & W). rewrite W in Gn.
    destruct Gn as (b & t' & r & C & L & M & B). destruct (P t b C) as (_ & P2 & _). rewrite E in P2. destruct P2 as (-> & Hlt & Hnew).
    exists t', r. split; [apply Rs, L|]. pose proof (uslots_gap new _ i r Hlt Hi B M). lia.
  - (* G7: back to orphan list (e+1) mod 3 *)
    destruct (in_dec N.eq_dec n (flight (th s t))) as [Hn|Hn]; [|apply (Hmv _ _ Ew Hn); intros X; contradiction].
    pose proof (G n) as Gn. unfold tag_ok in *. rewrite Ew. unfold moved. rewrite (proj2 (memN_In _ _) Hn).
    apply Ifl in Hn. rewrite Hn in Gn. destruct Gn as (e' & t' & r & Fe & L & M & B). rewrite E in Fe. injection Fe as <-.
    exists t', r. repeat split; [apply Rs, L|exact M|lia].
  - (* B2 / X2: retire list i goes to orphan list i; the local epoch is not ahead of the global one *)
    assert (Hpc : has_loc (th s t) = true /\ flight (th s t) = []) by (destruct E as [(k & h & ->)|(h & ->)]; split; reflexivity).
    destruct Hpc as [Hloc Hfl].
    destruct (in_dec N.eq_dec n (rl (tl s t) i)) as [Hn|Hn]; [|apply (Hmv _ _ Ew Hn); rewrite Hfl; intros []].
    pose proof (G n) as Gn. unfold tag_ok in *. rewrite Ew. unfold moved. rewrite (proj2 (memN_In _ _) Hn).
    apply (n_list s I) in Hn. rewrite Hn in Gn. destruct Gn as (b & t' & r & C & L & M & B).
    destruct (P t b C) as (P1' & _ & _). destruct (P1' Hloc) as [Hle _]. exists t', r. repeat split; [apply Rs, L|exact M|lia].
  - (* R3: retired in the current local epoch r, into slot r mod 3 *)
    destruct (N.eq_dec n old) as [->|Hn].
    2:{ apply Keep; [rewrite Ew; apply updN_other, Hn|rewrite E; intros []]. }
    unfold tag_ok. rewrite Ew, updN_same.
    destruct (cb (tl s t)) as [b|] eqn:C; [|destruct (ts_need _ _ _ _ (T t)); [rewrite E; reflexivity|exact C]].
    destruct (P t b C) as (P1' & _ & _). rewrite E in P1'. destruct (P1' eq_refl) as [_ Hlx].
    pose proof (Hr b eq_refl) as Hrb. subst r. exists b, t, (blocal s b). repeat split; [|exact El|symmetry; exact Hlx|].
    + rewrite (step_cb _ _ _ _ _ _ H); [exact C|rewrite E; reflexivity|rewrite E; discriminate].
    + destruct (step_blocal _ _ _ _ _ _ H) as [->|X _|? ? ? E'|? ? ? ? E']; [lia|rewrite E in X; discriminate X|congruence|congruence].
Qed.

Lemma tag_start cfg ns s t o s' es : (forall n, tag_ok s n) -> step cfg ns s (Start t o) = Some (s', es) -> forall n, tag_ok s' n.
Proof.
  intros G H. destruct (start_pc _ _ _ _ _ _ _ H) as (Hidle & Eth & Hsl & Etl & Eg & Ef & El & Ebl & Ew & Elf & _).
  assert (Efl : forall u, flight_ep (th s' u) = flight_ep (th s u)).
  { intros u. rewrite Eth. destruct (Nat.eq_dec u t) as [->|Hne]; [rewrite upd_same, Hidle|rewrite upd_other by exact Hne; reflexivity].
    destruct (th s' t); try discriminate Hsl; reflexivity. }
  intros n. specialize (G n). unfold tag_ok in *. rewrite Ew, Elf, El, Eg.
  destruct (g_where s n) as [|u i|i|u|]; auto.
  - destruct G as (b & t' & r & G1 & G2). exists b, t', r. destruct (Etl u) as (-> & _). auto.
  - destruct G as (e & t' & r & G1 & G2). exists e, t', r. rewrite Efl. auto.
Qed.

Section ReachT.
Variables (cfg : config) (ns : nat) (nc : N).
Lemma tag_reach s : reachable cfg ns nc s -> forall n, tag_ok s n.
Proof.
  apply (inv_rule_aux _ _ _ _ _ (fun s => T0 cfg ns s /\ O0 cfg s /\ EI cfg s /\ N0 s) (fun s => forall n, tag_ok s n)).
  - intros s0 Hr. split; [apply (T0_reach cfg ns nc); exact Hr|]. split; [apply (O0_reach cfg ns nc); exact Hr|].
    split; [apply (EI_reach cfg ns nc); exact Hr|apply (N0_reach cfg ns nc); exact Hr].
  - intros n. unfold tag_ok. cbn. exact Logic.I.
  - intros s0 a s1 es (J1 & J2 & [J3 _] & J4) _ I H. destruct a as [t o|t]; [eapply tag_start; eauto|].
    exact (tag_step cfg ns s0 t s1 es J1 J2 J3 J4 I H).
Qed.
End ReachT.
