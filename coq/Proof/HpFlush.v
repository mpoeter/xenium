(** No leak at quiescence for the hazard pointer model (Model/HpDefs.v): when no guard owns a hazard pointer and the
    other threads do not move (wherever they are), the scan a thread runs after retiring a node (or at its exit)
    frees every node of its retire list and every abandoned node, within a bounded number of its own steps. *)
From Coq Require Import NArith List Bool Arith Lia PeanoNat.
From XV Require Import Conc.Lts Conc.Ev Model.HpDefs Proof.HpBase Proof.HpGuards Proof.HpNodes Proof.HpInv.
Import ListNotations.

(** * A hazard pointer slot holds an object only if a guard of the owner of the block owns the slot *)
Definition InvS (st : state) : Prop :=
  forall b i n, hz st b i = VObj (Some n) -> exists u g, rcd (tl st u) = Some b /\ hp (gd (tl st u) g) = Some i.

Section S.
Variable nslots : nat.


(** thread [t] steps: a slot that holds an object now held it before or belongs to a guard of [t]; a slot of a guard
    of [t] stays with the guard or holds no object any more *)
Lemma InvS_eff st st1 t p' :
  InvS st -> (forall u, u <> t -> tl st1 u = tl st u) ->
  (forall b i n, hz st1 b i = VObj (Some n) ->
     hz st b i = VObj (Some n) \/ exists g, rcd (tl st1 t) = Some b /\ hp (gd (tl st1 t) g) = Some i) ->
  (forall g b i, rcd (tl st t) = Some b -> hp (gd (tl st t) g) = Some i ->
     (rcd (tl st1 t) = Some b /\ hp (gd (tl st1 t) g) = Some i) \/ (forall n, hz st1 b i <> VObj (Some n))) ->
  InvS (set_pc t p' st1).
Proof.
  intros HS Hu Hz Ho b i n H. prjh H. prj. destruct (Hz b i n H) as [H1|[g H1]]; [|exists t, g; exact H1].
  destruct (HS b i n H1) as (u & g & Hb & Hi). destruct (Nat.eq_dec u t) as [->|Hne].
  - destruct (Ho g b i Hb Hi) as [H2|H2]; [exists t, g; exact H2|destruct (H2 n H)].
  - exists u, g. rewrite Hu by exact Hne. split; assumption.
Qed.

Lemma InvS_step st a st' es : InvO st -> InvG nslots st -> InvS st -> step nslots st a = Some (st', es) -> InvS st'.
Proof.
  intros HO HG HS Hs. destruct a as [t o|t].
  - cbn [step] in Hs. destruct (th st t) eqn:Hth; try discriminate Hs. destruct (legal nslots o); [|discriminate Hs].
    injection Hs as <- <-. apply (InvS_eff st); auto.
  - pose proof (HG t) as HGt. pose proof (g_pc nslots st t HGt) as Hpc.
    step_cases Hs Hth.
    1: { apply (InvS_eff st); auto. }
    all: try match goal with H : acq_pre _ _ _ _ _ _ |- _ => destruct H end.
    all: rewrite Hth in Hpc; cbn [pcG ctx_ok] in Hpc.
    all: try subst st3.
    all: try match goal with |- context [publish _ ?n _] => destruct n | |- context [drop_new ?n _] => destruct n end.
    all: (see_through (InvS_eff st);
          [ exact HS | intros u Hu; sim; reflexivity
          | intros bq iq nq Hz; simh Hz; try (left; exact Hz)
          | intros gq bq iq Hb Hi; sim; try (left; split; assumption) ]).
    (* left: the steps that write a slot or a guard (W2, A3, I1, H1, Q2, R1 without hazard pointer, R2, RR, D1, X0, X5, QR).
       A slot that is written: with a link, or (Q2) the object, and then the guard of the acquire owns it *)
    all: try (unfold upd2 in Hz; match type of Hz with context [if ?c then _ else _] => destruct c eqn:Eq end; [|left; exact Hz];
              first [ discriminate Hz
                    | (apply andb_true_iff in Eq; destruct Eq as [Eq1 Eq2]; apply Nat.eqb_eq in Eq1, Eq2; subst;
                       right; eexists; sim; split; [eassumption|upds; reflexivity]) ]).
    (* the guards of [t]: no guard owns a hazard pointer (W2, A3, X5), or the guard the step works on *)
    all: try (exfalso; first [rewrite Hpc in Hi | (destruct Hpc as [? Hn]; rewrite Hn in Hi)]; discriminate Hi).
    all: match goal with |- context [upd _ ?g _ ?x] => destruct (Nat.eq_dec x g) as [->|?]; upds; prj; [|left; split; assumption] end.
    all: first [ (left; split; [assumption|congruence]) | (exfalso; congruence) | (exfalso; destruct Hpc as [_ Hn]; congruence)
               | (right; assert (bq = b) by congruence; assert (iq = i) by congruence; subst;
                  intros nn; rewrite upd2_same_block, Nat.eqb_refl; discriminate) ].
Qed.

Lemma InvS_init ncells : InvS (init ncells).
Proof. intros b i n H. cbn in H. discriminate. Qed.

(** * Solo runs of thread t *)
Inductive srun (t : nat) : nat -> state -> state -> Prop :=
| srun_0 st : srun t 0 st st
| srun_S k st st1 es st' : step nslots st (Step t) = Some (st1, es) -> srun t k st1 st' -> srun t (S k) st st'.

Lemma srun_app t k1 k2 st st1 st2 : srun t k1 st st1 -> srun t k2 st1 st2 -> srun t (k1 + k2) st st2.
Proof. intros H1 H2. induction H1; [exact H2|]. cbn [Nat.add]. eapply srun_S; eauto. Qed.

Lemma srun_1 t st st1 es : step nslots st (Step t) = Some (st1, es) -> srun t 1 st st1.
Proof. intros H. eapply srun_S; [exact H|apply srun_0]. Qed.

(** what the walk of a scan leaves unchanged *)
Record keep (t : nat) (st st' : state) : Prop := mkKeep {
  k_blist : blist st' = blist st; k_est : forall b, est st' b = est st b; k_hz : forall b i, hz st' b i = hz st b i;
  k_aband : aband st' = aband st; k_tl : forall u, tl st' u = tl st u;
  k_where : forall n, g_where st' n = g_where st n; k_nfree : forall n, g_nfree st' n = g_nfree st n;
  k_th : forall u, u <> t -> th st' u = th st u }.

Lemma keep_refl t st : keep t st st.
Proof. constructor; intros; reflexivity. Qed.

Lemma keep_trans t a b c : keep t a b -> keep t b c -> keep t a c.
Proof.
  intros [A1 A2 A3 A4 A5 A6 A7 A8] [B1 B2 B3 B4 B5 B6 B7 B8]. constructor.
  - congruence.
  - intros x. rewrite B2. apply A2.
  - intros x y. rewrite B3. apply A3.
  - congruence.
  - intros x. rewrite B5. apply A5.
  - intros x. rewrite B6. apply A6.
  - intros x. rewrite B7. apply A7.
  - intros x Hx. rewrite B8 by assumption. apply A8. assumption.
Qed.

(** [keep] / [keep0] of a step whose successor is an explicit term *)
Ltac kp := constructor; intros; sim; reflexivity.

Definition noprot (s : scan) : Prop := forall x, In x (s_prot s) -> x = None.

Lemma walk_step5 st t s r rest :
  th st t = S5 s r rest ->
  exists st1 es, step nslots st (Step t) = Some (st1, es) /\ keep t st st1 /\
                 th st1 t = if est st r =? 2 then S6 s r rest 0 else next_pc s rest.
Proof.
  intros Hth. cbn [step]. rewrite Hth. destruct (est st r =? 2).
  - eexists _, _. split; [reflexivity|]. split; [kp|sim; reflexivity].
  - unfold scan_next, next_pc. destruct rest; (eexists _, _; split; [reflexivity|]; split; [kp|sim; reflexivity]).
Qed.

Lemma walk_step6 st t s r rest i :
  th st t = S6 s r rest i -> (forall n, hz st r i <> VObj (Some n)) -> noprot s ->
  exists st1 es s1, step nslots st (Step t) = Some (st1, es) /\ keep t st st1 /\
    s_k s1 = s_k s /\ s_ad s1 = s_ad s /\ noprot s1 /\
    th st1 t = if i <? 2 then S6 s1 r rest (S i) else next_pc s1 rest.
Proof.
  intros Hth Hz Hn. cbn [step]. rewrite Hth.
  assert (Hn' : forall x, noprot (mkScan (s_k s) (s_cap s) (s_vec s) (s_prot s ++ [None]) x)).
  { intros x y Hy. cbn [s_prot] in Hy. apply in_app_iff in Hy. destruct Hy as [Hy|[<-|[]]]; [apply Hn; exact Hy|reflexivity]. }
  destruct (hz st r i) as [nx|[n|]] eqn:Ez.
  - (* a link *) destruct (i <? 2).
    + eexists _, _, s. split; [reflexivity|]. split; [kp|]. repeat split; try assumption. sim. reflexivity.
    + unfold scan_next, next_pc. destruct rest; (eexists _, _, s; split; [reflexivity|]; split; [kp|]; repeat split; try assumption; sim; reflexivity).
  - exfalso. apply (Hz n). reflexivity.
  - (* a zero slot: nullptr is gathered *) unfold push. destruct (length (s_prot s) <? s_cap s).
    + destruct (i <? 2).
      * eexists _, _, _. split; [reflexivity|]. split; [kp|]. split; [|split; [|split; [apply (Hn' (s_ad s))|sim; reflexivity]]]; reflexivity.
      * unfold scan_next, next_pc. destruct rest; (eexists _, _, _; split; [reflexivity|]; split; [kp|];
          split; [|split; [|split; [apply (Hn' (s_ad s))|sim; reflexivity]]]; reflexivity).
    + assert (Hn2 : forall c v, noprot (mkScan (s_k s) c v (s_prot s ++ [None]) (s_ad s))).
      { intros c v y Hy. cbn [s_prot] in Hy. apply in_app_iff in Hy. destruct Hy as [Hy|[<-|[]]]; [apply Hn; exact Hy|reflexivity]. }
      destruct (i <? 2).
      * eexists _, _, _. split; [reflexivity|]. split; [kp|]. split; [|split; [|split; [apply Hn2|sim; reflexivity]]]; reflexivity.
      * unfold scan_next, next_pc. destruct rest; (eexists _, _, _; split; [reflexivity|]; split; [kp|];
          split; [|split; [|split; [apply Hn2|sim; reflexivity]]]; reflexivity).
Qed.

Definition clean (st : state) : Prop := forall b i n, hz st b i <> VObj (Some n).

Lemma clean_keep t st st' : keep t st st' -> clean st -> clean st'.
Proof. intros HK HC b i n. rewrite (k_hz t st st' HK). apply HC. Qed.

(** three slots of one control block *)
Lemma walk_block st t s r rest :
  th st t = S6 s r rest 0 -> clean st -> noprot s ->
  exists st' s', srun t 3 st st' /\ keep t st st' /\ s_k s' = s_k s /\ s_ad s' = s_ad s /\ noprot s' /\ th st' t = next_pc s' rest.
Proof.
  intros Hth HC Hn.
  destruct (walk_step6 st t s r rest 0 Hth (HC r 0) Hn) as (st1 & e1 & s1 & H1 & K1 & A1 & B1 & N1 & T1). cbn in T1.
  destruct (walk_step6 st1 t s1 r rest 1 T1 (clean_keep t st st1 K1 HC r 1) N1) as (st2 & e2 & s2 & H2 & K2 & A2 & B2 & N2 & T2). cbn in T2.
  pose proof (keep_trans t _ _ _ K1 K2) as K12.
  destruct (walk_step6 st2 t s2 r rest 2 T2 (clean_keep t st st2 K12 HC r 2) N2) as (st3 & e3 & s3 & H3 & K3 & A3 & B3 & N3 & T3). cbn in T3.
  exists st3, s3. split; [eapply srun_S; [exact H1|]; eapply srun_S; [exact H2|]; eapply srun_1; exact H3|].
  split; [apply (keep_trans t _ _ _ K12 K3)|]. repeat split; try congruence; assumption.
Qed.

(** the walk over the remaining control blocks *)
Lemma walk_all rest : forall st t s r,
  th st t = S5 s r rest -> clean st -> noprot s ->
  exists k st' s', k <= 4 * S (length rest) /\ srun t k st st' /\ keep t st st' /\
                   s_k s' = s_k s /\ s_ad s' = s_ad s /\ noprot s' /\ th st' t = S7 s'.
Proof.
  induction rest as [|r' rest IH]; intros st t s r Hth HC Hn.
  - destruct (walk_step5 st t s r [] Hth) as (st1 & e1 & H1 & K1 & T1). destruct (est st r =? 2).
    + destruct (walk_block st1 t s r [] T1 (clean_keep t st st1 K1 HC) Hn) as (st2 & s2 & R2 & K2 & A2 & B2 & N2 & T2).
      exists 4, st2, s2. split; [cbn; lia|]. split; [eapply srun_S; [exact H1|exact R2]|].
      split; [apply (keep_trans t _ _ _ K1 K2)|]. repeat split; assumption.
    + exists 1, st1, s. split; [cbn; lia|]. split; [eapply srun_1; exact H1|]. split; [exact K1|]. repeat split; assumption.
  - destruct (walk_step5 st t s r (r' :: rest) Hth) as (st1 & e1 & H1 & K1 & T1). destruct (est st r =? 2).
    + destruct (walk_block st1 t s r (r' :: rest) T1 (clean_keep t st st1 K1 HC) Hn) as (st2 & s2 & R2 & K2 & A2 & B2 & N2 & T2).
      cbn [next_pc] in T2. pose proof (keep_trans t _ _ _ K1 K2) as K12.
      destruct (IH st2 t s2 r' T2 (clean_keep t st st2 K12 HC) N2) as (k & st3 & s3 & Hk & R3 & K3 & A3 & B3 & N3 & T3).
      exists (4 + k), st3, s3. split; [cbn [length]; lia|].
      split; [change (4 + k) with (1 + (3 + k)); eapply srun_S; [exact H1|]; apply (srun_app t 3 k _ _ _ R2 R3)|].
      split; [apply (keep_trans t _ _ _ K12 K3)|]. repeat split; try congruence; assumption.
    + cbn [next_pc] in T1.
      destruct (IH st1 t s r' T1 (clean_keep t st st1 K1 HC) Hn) as (k & st3 & s3 & Hk & R3 & K3 & A3 & B3 & N3 & T3).
      exists (1 + k), st3, s3. split; [cbn [length]; lia|]. split; [eapply srun_S; [exact H1|exact R3]|].
      split; [apply (keep_trans t _ _ _ K1 K3)|]. repeat split; assumption.
Qed.

(** what the first steps of a scan (reserve, fence, adopt) leave unchanged *)
Record keep0 (t : nat) (st st' : state) : Prop := mkKeep0 {
  k0_blist : blist st' = blist st; k0_est : forall b, est st' b = est st b; k0_hz : forall b i, hz st' b i = hz st b i;
  k0_tl : forall u, tl st' u = tl st u; k0_nfree : forall n, g_nfree st' n = g_nfree st n;
  k0_th : forall u, u <> t -> th st' u = th st u }.

Lemma keep0_trans t a b c : keep0 t a b -> keep0 t b c -> keep0 t a c.
Proof.
  intros [A1 A2 A3 A5 A7 A8] [B1 B2 B3 B5 B7 B8]. constructor.
  - congruence.
  - intros x. rewrite B2. apply A2.
  - intros x y. rewrite B3. apply A3.
  - intros x. rewrite B5. apply A5.
  - intros x. rewrite B7. apply A7.
  - intros x Hx. rewrite B8 by assumption. apply A8. assumption.
Qed.

Lemma scan_start st t k0 :
  th st t = S0 k0 ->
  exists k st1 s1, k <= 4 /\ srun t k st st1 /\ keep0 t st st1 /\ th st1 t = S4 s1 /\
    s_k s1 = k0 /\ s_prot s1 = [] /\ s_ad s1 = aband st /\ aband st1 = [] /\
    (forall n, g_where st1 n = if mem n (aband st) then PFlight t else g_where st n).
Proof.
  intros Hth.
  (* S0: reserve *)
  assert (H0 : exists st1 es s1, step nslots st (Step t) = Some (st1, es) /\ keep0 t st st1 /\ th st1 t = S1 s1 /\
             s_k s1 = k0 /\ s_prot s1 = [] /\ s_ad s1 = [] /\ aband st1 = aband st /\ (forall n, g_where st1 n = g_where st n)).
  { cbn [step]. rewrite Hth. destruct (nact st =? 0).
    - eexists _, _, _. split; [reflexivity|]. split; [kp|]. split; [sim; reflexivity|]. repeat split.
    - eexists _, _, _. split; [reflexivity|]. split; [kp|]. split; [sim; reflexivity|]. repeat split. }
  destruct H0 as (st1 & e1 & s1 & H1 & K1 & T1 & A1 & B1 & C1 & D1 & E1).
  (* S1: fence *)
  assert (H2 : exists st2 es, step nslots st1 (Step t) = Some (st2, es) /\ keep0 t st1 st2 /\ th st2 t = S2 s1 /\
             aband st2 = aband st1 /\ (forall n, g_where st2 n = g_where st1 n)).
  { cbn [step]. rewrite T1. eexists _, _. split; [reflexivity|]. split; [kp|]. split; [sim; reflexivity|]. split; reflexivity. }
  destruct H2 as (st2 & e2 & H2 & K2 & T2 & D2 & E2).
  pose proof (keep0_trans t _ _ _ K1 K2) as K12.
  (* S2, S3: adopt *)
  destruct (aband st) as [|a l] eqn:Ea.
  - assert (H3 : exists st3 es, step nslots st2 (Step t) = Some (st3, es) /\ keep0 t st2 st3 /\ th st3 t = S4 s1 /\
               aband st3 = aband st2 /\ (forall n, g_where st3 n = g_where st2 n)).
    { assert (Hnil : aband st2 = []) by congruence.
      cbn [step]. rewrite T2. destruct (is_nil (aband st2)) eqn:En; rewrite Hnil in En; cbn [is_nil] in En; try discriminate En.
      eexists _, _. split; [reflexivity|]. split; [kp|]. split; [sim; reflexivity|]. split; reflexivity. }
    destruct H3 as (st3 & e3 & H3 & K3 & T3 & D3 & E3).
    exists 3, st3, s1. split; [lia|]. split; [eapply srun_S; [exact H1|]; eapply srun_S; [exact H2|]; eapply srun_1; exact H3|].
    split; [apply (keep0_trans t _ _ _ K12 K3)|].
    split; [exact T3|]. split; [exact A1|]. split; [exact B1|]. split; [exact C1|]. split; [congruence|].
    intros n. cbn [mem existsb]. rewrite E3, E2, E1. reflexivity.
  - assert (H3 : exists st3 es, step nslots st2 (Step t) = Some (st3, es) /\ keep0 t st2 st3 /\ th st3 t = S3 s1 /\
               aband st3 = aband st2 /\ (forall n, g_where st3 n = g_where st2 n)).
    { assert (Hnil : aband st2 = a :: l) by congruence.
      cbn [step]. rewrite T2. destruct (is_nil (aband st2)) eqn:En; rewrite Hnil in En; cbn [is_nil] in En; try discriminate En.
      eexists _, _. split; [reflexivity|]. split; [kp|]. split; [sim; reflexivity|]. split; reflexivity. }
    destruct H3 as (st3 & e3 & H3 & K3 & T3 & D3 & E3).
    assert (H4 : exists st4 es s4, step nslots st3 (Step t) = Some (st4, es) /\ keep0 t st3 st4 /\ th st4 t = S4 s4 /\
               s_k s4 = s_k s1 /\ s_prot s4 = s_prot s1 /\ s_ad s4 = aband st3 /\ aband st4 = [] /\
               (forall n, g_where st4 n = if mem n (aband st3) then PFlight t else g_where st3 n)).
    { cbn [step]. rewrite T3. eexists _, _, _. split; [reflexivity|]. split; [kp|]. split; [sim; reflexivity|]. repeat split. }
    destruct H4 as (st4 & e4 & s4 & H4 & K4 & T4 & A4 & B4 & C4 & D4 & E4).
    exists 4, st4, s4. split; [lia|].
    split; [eapply srun_S; [exact H1|]; eapply srun_S; [exact H2|]; eapply srun_S; [exact H3|]; eapply srun_1; exact H4|].
    split; [apply (keep0_trans t _ _ _ (keep0_trans t _ _ _ K12 K3) K4)|].
    split; [exact T4|]. split; [congruence|]. split; [congruence|]. split; [congruence|]. split; [exact D4|].
    intros n. rewrite E4, D3, D2, D1, E3, E2, E1. reflexivity.
Qed.

Lemma noprot_is_prot s n : noprot s -> is_prot (s_prot s) n = false.
Proof.
  intros H. unfold is_prot. destruct (existsb _ (s_prot s)) eqn:E; [|reflexivity].
  apply existsb_exists in E. destruct E as (x & Hx & Hm). rewrite (H x Hx) in Hm. discriminate.
Qed.

Lemma filter_all {X} (f : X -> bool) l : (forall x, f x = true) -> filter f l = l.
Proof. intros H. induction l as [|a l IH]; [reflexivity|]. cbn [filter]. rewrite H, IH. reflexivity. Qed.
Lemma filter_none {X} (f : X -> bool) l : (forall x, f x = false) -> filter f l = [].
Proof. intros H. induction l as [|a l IH]; [reflexivity|]. cbn [filter]. rewrite H, IH. reflexivity. Qed.

(** the end of the scan when nothing is protected *)
Lemma scan_end st t s :
  th st t = S7 s -> noprot s ->
  exists st' es, step nslots st (Step t) = Some (st', es) /\
    rl (tl st' t) = [] /\ aband st' = aband st /\
    (forall n, In n (rl (tl st t) ++ s_ad s) -> g_where st' n = PFreed) /\
    (forall n, g_nfree st' n = g_nfree st n + count n (rl (tl st t) ++ s_ad s)) /\
    match s_k s with SRepl => th st' t = Idle | SExit => th st' t = X4 \/ th st' t = Done end.
Proof.
  intros Hth Hn. cbn [step]. rewrite Hth.
  rewrite (filter_all (fun n => negb (is_prot (s_prot s) n))) by (intros x; rewrite (noprot_is_prot s x Hn); reflexivity).
  rewrite !(filter_none (is_prot (s_prot s))) by (intros x; apply (noprot_is_prot s x Hn)).
  cbn [rev app]. destruct (s_k s).
  - unfold finish. eexists _, _. split; [reflexivity|]. sim. repeat split.
    intros m Hin. cbn [mem existsb]. apply mem_In in Hin. rewrite Hin. reflexivity.
  - cbn [is_nil]. unfold exit_rel. sim. destruct (rcd (tl st t)).
    + eexists _, _. split; [reflexivity|]. sim. repeat split; [|left; reflexivity].
      intros m Hin. cbn [mem existsb]. apply mem_In in Hin. rewrite Hin. reflexivity.
    + eexists _, _. split; [reflexivity|]. sim. repeat split; [|right; reflexivity].
      intros m Hin. cbn [mem existsb]. apply mem_In in Hin. rewrite Hin. reflexivity.
Qed.

Lemma scan_head st t s :
  th st t = S4 s ->
  exists st1 es, step nslots st (Step t) = Some (st1, es) /\ keep t st st1 /\ th st1 t = next_pc s (blist st).
Proof.
  intros Hth. cbn [step]. rewrite Hth. unfold scan_next, next_pc.
  destruct (blist st); (eexists _, _; split; [reflexivity|]; split; [kp|sim; reflexivity]).
Qed.

(** ** a scan that starts when no guard owns a hazard pointer frees the whole retire list and every abandoned node *)
Lemma scan_frees_all st t k0 :
  InvN st -> InvS st -> th st t = S0 k0 -> (forall u g, hp (gd (tl st u) g) = None) ->
  exists k st', k <= 6 + 4 * length (blist st) /\ srun t k st st' /\
    match k0 with SRepl => th st' t = Idle | SExit => th st' t = X4 \/ th st' t = Done end /\
    rl (tl st' t) = [] /\ aband st' = [] /\
    forall n, In n (rl (tl st t)) \/ In n (aband st) -> g_where st' n = PFreed /\ g_nfree st' n = 1.
Proof.
  intros HN HS Hth Hnone.
  assert (HC : clean st).
  { intros b i n Hz. destruct (HS b i n Hz) as (u & g & _ & Hi). rewrite Hnone in Hi. discriminate. }
  destruct (scan_start st t k0 Hth) as (k1 & st1 & s1 & Hk1 & R1 & K1 & T1 & A1 & B1 & C1 & D1 & E1).
  assert (HC1 : clean st1) by (intros b i n; rewrite (k0_hz t st st1 K1); apply HC).
  assert (N1 : noprot s1) by (intros x Hx; rewrite B1 in Hx; destruct Hx).
  destruct (scan_head st1 t s1 T1) as (st2 & e2 & H2 & K2 & T2).
  assert (H7 : exists k st7 s7, k <= 4 * length (blist st) /\ srun t k st2 st7 /\ keep t st2 st7 /\
                s_k s7 = s_k s1 /\ s_ad s7 = s_ad s1 /\ noprot s7 /\ th st7 t = S7 s7).
  { rewrite (k0_blist t st st1 K1) in T2. destruct (blist st) as [|r rest] eqn:Eb; cbn [next_pc] in T2.
    - exists 0, st2, s1. split; [lia|]. split; [apply srun_0|]. split; [apply keep_refl|].
      split; [reflexivity|]. split; [reflexivity|]. split; [exact N1|exact T2].
    - destruct (walk_all rest st2 t s1 r T2 (clean_keep t st1 st2 K2 HC1) N1) as (k & st7 & s7 & Hk & R7 & K7 & A7 & B7 & N7 & T7).
      exists k, st7, s7. split; [cbn [length] in *; lia|]. split; [exact R7|]. split; [exact K7|].
      split; [exact A7|]. split; [exact B7|]. split; [exact N7|exact T7]. }
  destruct H7 as (k7 & st7 & s7 & Hk7 & R7 & K7 & A7 & B7 & N7 & T7).
  pose proof (keep_trans t _ _ _ K2 K7) as K17.
  destruct (scan_end st7 t s7 T7 N7) as (st8 & e8 & H8 & Hrl & Hab & Hfr & Hnf & Hpc).
  exists (k1 + (1 + (k7 + 1))), st8. split; [lia|].
  split; [apply (srun_app t _ _ _ _ _ R1); eapply srun_S; [exact H2|]; apply (srun_app t _ _ _ _ _ R7); eapply srun_1; exact H8|].
  split; [rewrite A7, A1 in Hpc; exact Hpc|]. split; [exact Hrl|].
  split; [rewrite Hab, (k_aband t st1 st7 K17); exact D1|].
  assert (Hrl7 : rl (tl st7 t) = rl (tl st t)) by (rewrite (k_tl t st1 st7 K17), (k0_tl t st st1 K1); reflexivity).
  assert (Had7 : s_ad s7 = aband st) by congruence.
  rewrite Hrl7, Had7 in Hfr, Hnf.
  intros n Hn. assert (Hin : In n (rl (tl st t) ++ aband st)) by (apply in_app_iff; exact Hn).
  split; [apply Hfr; exact Hin|]. rewrite Hnf, (k_nfree t st1 st7 K17), (k0_nfree t st st1 K1).
  assert (Hnd : NoDup (rl (tl st t) ++ aband st)).
  { apply NoDup_app_iff. split; [apply (n_list_nd st HN)|]. split; [apply (n_aband_nd st HN)|].
    intros x Hx Hx'. apply (n_list st HN) in Hx. apply (n_aband st HN) in Hx'. congruence. }
  rewrite (count_nodup n _ Hnd Hin).
  assert (H0 : g_nfree st n = 0).
  { rewrite (n_free st HN). unfold gone.
    assert (Hw : g_where st n = PList t \/ g_where st n = PAband).
    { destruct Hn as [Hn|Hn]; [left; apply (n_list st HN); exact Hn|right; apply (n_aband st HN); exact Hn]. }
    assert (Hl : exists u, g_life st n = LRet u).
    { destruct (g_life st n) eqn:El; try (exfalso; assert (Hc : g_where st n = PNone) by (apply (n_none st HN); intros u Hu; rewrite El in Hu; discriminate Hu); destruct Hw; congruence).
      exists t0. reflexivity. }
    destruct Hl as [u Hl]. rewrite Hl. destruct Hw as [Hw|Hw]; rewrite Hw; reflexivity. }
  rewrite H0. reflexivity.
Qed.
End S.

(** * The theorem *)
Section Main.
Variables (ncells nslots : nat).

Theorem hp_slots st : reach (init ncells) (step nslots) st -> InvS st.
Proof.
  intros Hr. induction Hr as [|s a s' es Hr IH Hst]; [apply InvS_init|].
  destruct (hp_inv ncells nslots s Hr) as [HO HG _ _ _]. apply (InvS_step nslots s a s' es HO HG IH Hst).
Qed.

(** hp_no_leak_at_quiescence, full statement (not proved as one theorem):
      reach st -> (forall u, th st u = Idle \/ th st u = Done) -> (forall u g, hp (gd (tl st u) g) = None) ->
      th st t = Idle -> cells st c = Some o ->
      exists k st', k <= 32 + 6 * length (blist st) /\ (Start t (ORepl c), then k solo steps of t lead from st to st') /\
        th st' t = Idle /\ rl (tl st' t) = [] /\ aband st' = [] /\
        forall n, In n (rl (tl st t)) \/ In n (aband st) \/ n = o -> g_where st' n = PFreed /\ g_nfree st' n = 1.
    Proved: the scan of the flush.  From the program point where the scan starts (S0: right after
    guard.reclaim() has reset the guard, pushed the node onto the retire list and read the threshold (T1), or at
    thread exit), in any reachable state in which no guard owns a hazard pointer (the other threads may be anywhere:
    they do not move during the solo run), thread t alone gets through its scan (to Idle, or at
    thread exit to X4 / Done) within 6 + 4 * (number of control blocks) steps, and then its retire list and the
    abandoned list are empty and every node that was in them has been freed exactly once.
    Missing for the full statement: the prefix of the retiring operation (Begin, Q1, acquire_entry / initialize /
    alloc_hazard_pointer, Q2..Q4, R1, R2, T1: at most 13 + 2 * (number of control blocks) further steps; when thread
    t runs alone no CAS of it fails and the validating re-load succeeds).  Two things are needed for it that are
    not proved on this model: the symbolic execution of these steps, and the fact that alloc_hazard_pointer does not
    throw when no guard of the thread owns a hazard pointer (the free list then holds all K slots: the pool
    invariant of property C18, proved on the sequential slot pool model Proof/HpSlots.v).  The whole flush is
    exercised by the examples below (vm_compute). *)
Theorem hp_no_leak_at_quiescence_partial st t k0 :
  reach (init ncells) (step nslots) st ->
  th st t = S0 k0 -> (forall u g, hp (gd (tl st u) g) = None) ->
  exists k st', k <= 6 + 4 * length (blist st) /\ srun nslots t k st st' /\
    match k0 with SRepl => th st' t = Idle | SExit => th st' t = X4 \/ th st' t = Done end /\
    rl (tl st' t) = [] /\ aband st' = [] /\
    forall n, In n (rl (tl st t)) \/ In n (aband st) -> g_where st' n = PFreed /\ g_nfree st' n = 1.
Proof.
  intros Hr Hth Hn. destruct (hp_inv ncells nslots st Hr) as [_ _ HN _ _].
  apply (scan_frees_all nslots st t k0 HN (hp_slots st Hr) Hth Hn).
Qed.
End Main.

(** * Example: the whole flush in a quiescent state (continuing the examples of Proof/HpInv.v)
    thread 1 has dropped its guard, every thread is idle and no guard owns a hazard pointer; node 0 is in the retire
    list of thread 2.  Thread 2 runs [repl 0] alone: after 22 steps (Begin, Q1, H1, Q2, Q3, Q4, R1, R2, T1,
    then the 13 steps of the scan: S0 S1 S2 S4, S5 S6 S6 S6 for each of the two control blocks, S7; the bound of the
    theorem is 6 + 4 * 2) it is idle again, nodes 0 and 4 are freed. *)
Definition ex_q := ex_a2 ++ ops 1 (ODrop 0) 40.
Example ex_quiescent :
  let st := final ex_q in
  th st 1 = Idle /\ th st 2 = Idle /\ rl (tl st 2) = [0] /\ aband st = [] /\ blist st = [3; 2] /\
  hp (gd (tl st 1) 0) = None /\ hp (gd (tl st 1) 1) = None /\ hp (gd (tl st 1) 2) = None /\ hp (gd (tl st 2) 0) = None.
Proof. vm_compute. repeat split; reflexivity. Qed.

Example ex_flush_running : th (final (ex_q ++ Start 2 (ORepl 0) :: repeat (Step 2) 21)) 2 <> Idle.
Proof. vm_compute. discriminate. Qed.

Example ex_flush :
  let st := final (ex_q ++ Start 2 (ORepl 0) :: repeat (Step 2) 22) in
  th st 2 = Idle /\ rl (tl st 2) = [] /\ aband st = [] /\
  g_where st 0 = PFreed /\ g_nfree st 0 = 1 /\ g_where st 4 = PFreed /\ g_nfree st 4 = 1 /\ cells st 0 = Some 6.
Proof. vm_compute. repeat split; reflexivity. Qed.

(** the state in which the scan of this flush starts, and the instance of the theorem for it *)
Example ex_flush_scan_start :
  let st := final (ex_q ++ Start 2 (ORepl 0) :: repeat (Step 2) 9) in
  th st 2 = S0 SRepl /\ rl (tl st 2) = [4; 0] /\ length (blist st) = 2.
Proof. vm_compute. repeat split; reflexivity. Qed.
