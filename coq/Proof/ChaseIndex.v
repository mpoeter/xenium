(** Index arithmetic of xenium::detail::growing_circular_array (generated [get_entry] / [grow]):
    closed form of [get_entry], injectivity, sharing of the lower half between capacities, and
    preservation of the live window by [grow]. *)
From Coq Require Import NArith ZArith List Bool Lia.
From XV Require Import Base.Word gen.GrowingArrayGen Model.ChaseDefs.
Import ListNotations.
Local Open Scope N_scope.

(** * 1. [(1 << bucket) >> 1] on C++ [int] *)

Definition low_mask (b : N) : N := sext 32 64 (sshr 32 (wshl 32 1 b) 1).

Definition low_mask_check (n : nat) : bool :=
  low_mask (N.of_nat n) =? (if (n =? 0)%nat then 0 else 2 ^ (N.of_nat n - 1)).

Lemma low_mask_sweep : forallb low_mask_check (seq 0 31) = true.
Proof. vm_compute. reflexivity. Qed.

Lemma low_mask_all b : b <= 30 -> low_mask b = if b =? 0 then 0 else 2 ^ (b - 1).
Proof.
  intros Hb.
  assert (H := low_mask_sweep). rewrite forallb_forall in H.
  specialize (H (N.to_nat b)).
  assert (Hin : In (N.to_nat b) (seq 0 31)) by (apply in_seq; lia).
  specialize (H Hin). unfold low_mask_check in H.
  rewrite N2Nat.id in H. apply N.eqb_eq in H. rewrite H.
  destruct (Nat.eqb_spec (N.to_nat b) 0) as [E|E]; destruct (N.eqb_spec b 0) as [F|F];
    try reflexivity; lia.
Qed.

Lemma low_mask_val b : 1 <= b <= 30 -> sext 32 64 (sshr 32 (wshl 32 1 b) 1) = 2 ^ (b - 1).
Proof.
  intros Hb. fold (low_mask b). rewrite low_mask_all by lia.
  destruct (N.eqb_spec b 0); [lia|reflexivity].
Qed.

Lemma low_mask_val0 : sext 32 64 (sshr 32 (wshl 32 1 0) 1) = 0.
Proof. vm_compute. reflexivity. Qed.

(** * 2. Closed form of [get_entry] *)

Lemma pow2_le_mono a b : a <= b -> 2 ^ a <= 2 ^ b.
Proof. intros. apply N.pow_le_mono_r; lia. Qed.

Lemma pow2_lt_mono a b : a < b -> 2 ^ a < 2 ^ b.
Proof. intros. apply N.pow_lt_mono_r; lia. Qed.

Lemma pow2_64 : 2 ^ 64 = 18446744073709551616.
Proof. reflexivity. Qed.

Lemma pow2_30 : 2 ^ 30 = 1073741824.
Proof. reflexivity. Qed.

Lemma land_mask_mod k i : N.land i (2 ^ k - 1) = i mod 2 ^ k.
Proof.
  replace (2 ^ k - 1) with (N.ones k) by (rewrite N.ones_equiv; apply N.pred_sub).
  apply N.land_ones.
Qed.

Lemma land_mask k idx : k <= 30 -> N.land idx (wsub 64 (2 ^ k) 1) = idx mod 2 ^ k.
Proof.
  intros Hk. assert (Hp := pow2_pos k). assert (Hc := pow2_le_mono k 30 Hk).
  rewrite pow2_30 in Hc.
  rewrite wsub_small by (rewrite ?pow2_64; lia). apply land_mask_mod.
Qed.

Lemma lxor_top j : j <> 0 -> N.lxor j (2 ^ N.log2 j) = j - 2 ^ N.log2 j.
Proof.
  intros Hj. destruct (N.log2_spec j) as [Hlo Hhi]; [lia|].
  rewrite N.pow_succ_r' in Hhi.
  set (l := N.log2 j) in *. set (r := j - 2 ^ l).
  assert (Hr : r < 2 ^ l) by (unfold r; lia).
  assert (Hland : N.land r (2 ^ l) = 0).
  { apply N.bits_inj. intros n. rewrite N.land_spec, N.bits_0, N.pow2_bits_eqb.
    destruct (N.eqb_spec l n) as [<-|Hne]; [|apply andb_false_r].
    rewrite <- (N.mod_small r (2 ^ l)) by exact Hr.
    rewrite N.mod_pow2_bits_high by lia. reflexivity. }
  assert (Hj2 : j = N.lxor r (2 ^ l)).
  { rewrite <- N.add_nocarry_lxor by exact Hland. unfold r. lia. }
  rewrite Hj2 at 1. rewrite N.lxor_assoc, N.lxor_nilpotent, N.lxor_0_r. reflexivity.
Qed.

Lemma size_le_pow2 j k : j < 2 ^ k -> N.size j <= k.
Proof.
  intros H. destruct (N.eq_dec j 0) as [->|Hz]; [cbn; lia|].
  rewrite N.size_log2 by exact Hz.
  assert (N.log2 j < k) by (apply N.log2_lt_pow2; lia). lia.
Qed.

Definition entry_of (j : N) : N * N := (N.size j, if j =? 0 then 0 else j - 2 ^ N.log2 j).

Lemma slot_of_entry j : j < 2 ^ 30 -> slot_of j = entry_of j.
Proof.
  intros Hj. unfold slot_of, entry_of, flbs. fold (low_mask (N.size j)).
  assert (Hs := size_le_pow2 j 30 Hj).
  rewrite low_mask_all by exact Hs.
  destruct (N.eqb_spec j 0) as [->|Hz]; [reflexivity|].
  rewrite N.size_log2 by exact Hz.
  destruct (N.eqb_spec (N.succ (N.log2 j)) 0); [lia|].
  replace (N.succ (N.log2 j) - 1) with (N.log2 j) by lia.
  rewrite lxor_top by exact Hz. reflexivity.
Qed.

Lemma get_entry_slot_of idx cap : get_entry idx cap = slot_of (N.land idx (wsub 64 cap 1)).
Proof. reflexivity. Qed.

Lemma mod_cap_lt30 k idx : k <= 30 -> idx mod 2 ^ k < 2 ^ 30.
Proof.
  intros Hk. assert (Hp := pow2_pos k). assert (Hc := pow2_le_mono k 30 Hk).
  assert (idx mod 2 ^ k < 2 ^ k) by (apply N.mod_lt; lia). lia.
Qed.

Lemma get_entry_entry_of k idx : k <= 30 -> get_entry idx (2 ^ k) = entry_of (idx mod 2 ^ k).
Proof.
  intros Hk. rewrite get_entry_slot_of, land_mask by exact Hk.
  apply slot_of_entry. apply mod_cap_lt30. exact Hk.
Qed.

Theorem get_entry_spec k cap idx :
  1 <= k <= 30 -> cap = 2 ^ k -> idx < 2 ^ 64 ->
  let j := idx mod cap in
  get_entry idx cap = (N.size j, if j =? 0 then 0 else j - 2 ^ N.log2 j).
Proof.
  intros Hk -> _ j. unfold j. rewrite get_entry_entry_of by lia. reflexivity.
Qed.

(** * 3. Injectivity and bounds *)

Lemma entry_of_inj j1 j2 : entry_of j1 = entry_of j2 -> j1 = j2.
Proof.
  unfold entry_of. intros H. injection H as Hs Hr.
  destruct (N.eqb_spec j1 0) as [->|H1]; destruct (N.eqb_spec j2 0) as [->|H2]; try reflexivity.
  - rewrite (N.size_log2 j2) in Hs by exact H2. cbn in Hs. lia.
  - rewrite (N.size_log2 j1) in Hs by exact H1. cbn in Hs. lia.
  - rewrite !N.size_log2 in Hs by assumption.
    assert (Hl : N.log2 j1 = N.log2 j2) by lia. rewrite Hl in Hr.
    destruct (N.log2_spec j1) as [A _]; [lia|]. destruct (N.log2_spec j2) as [B _]; [lia|].
    rewrite Hl in A. lia.
Qed.

Theorem get_entry_inj k cap i1 i2 :
  1 <= k <= 30 -> cap = 2 ^ k -> i1 < 2 ^ 64 -> i2 < 2 ^ 64 ->
  get_entry i1 cap = get_entry i2 cap <-> i1 mod cap = i2 mod cap.
Proof.
  intros Hk -> _ _. rewrite !get_entry_entry_of by lia. split.
  - apply entry_of_inj.
  - intros ->. reflexivity.
Qed.

Lemma entry_of_bounds j k : j < 2 ^ k ->
  fst (entry_of j) <= k /\
  (0 < fst (entry_of j) -> snd (entry_of j) < 2 ^ (fst (entry_of j) - 1)) /\
  (fst (entry_of j) = 0 -> snd (entry_of j) = 0).
Proof.
  intros Hj. unfold entry_of. cbn [fst snd]. split; [apply size_le_pow2; exact Hj|].
  destruct (N.eqb_spec j 0) as [->|Hz].
  - split; [cbn; lia|reflexivity].
  - rewrite N.size_log2 by exact Hz. split; [|lia]. intros _.
    replace (N.succ (N.log2 j) - 1) with (N.log2 j) by lia.
    destruct (N.log2_spec j) as [A B]; [lia|]. rewrite N.pow_succ_r' in B. lia.
Qed.

Theorem get_entry_bounds k cap idx :
  1 <= k <= 30 -> cap = 2 ^ k -> idx < 2 ^ 64 ->
  fst (get_entry idx cap) <= k /\
  (0 < fst (get_entry idx cap) -> snd (get_entry idx cap) < 2 ^ (fst (get_entry idx cap) - 1)) /\
  (fst (get_entry idx cap) = 0 -> snd (get_entry idx cap) = 0).
Proof.
  intros Hk -> _. rewrite get_entry_entry_of by lia.
  apply entry_of_bounds. apply N.mod_lt. apply N.pow_nonzero. discriminate.
Qed.

(** * 4. The lower half of the storage is shared between capacity [cap] and [2*cap] *)

Lemma two_cap k : 2 * 2 ^ k = 2 ^ (k + 1).
Proof. rewrite N.add_1_r, N.pow_succ_r'. reflexivity. Qed.

Lemma mod2_cases x c : c <> 0 -> x mod (2 * c) = x mod c \/ x mod (2 * c) = x mod c + c.
Proof.
  intros Hc.
  assert (Hx := N.div_mod x c Hc).
  assert (Hq := N.div_mod (x / c) 2 ltac:(lia)).
  assert (Hr : x mod c < c) by (apply N.mod_lt; exact Hc).
  assert (Hb : (x / c) mod 2 < 2) by (apply N.mod_lt; lia).
  set (q := x / c / 2) in *. set (b := (x / c) mod 2) in *. set (r := x mod c) in *.
  assert (Hb' : b = 0 \/ b = 1) by lia.
  destruct Hb' as [Hb0|Hb1]; [left|right]; symmetry; apply (N.mod_unique x (2 * c) q).
  - lia.
  - rewrite Hx at 1. rewrite Hq, Hb0. ring.
  - lia.
  - rewrite Hx at 1. rewrite Hq, Hb1. ring.
Qed.

Lemma mod2_lower x c : c <> 0 -> x mod (2 * c) < c -> x mod (2 * c) = x mod c.
Proof.
  intros Hc H. destruct (mod2_cases x c Hc) as [E|E]; [exact E|].
  revert H E. generalize (x mod (2 * c)) (x mod c). intros; lia.
Qed.

Theorem get_entry_lower_half k cap idx :
  1 <= k <= 29 -> cap = 2 ^ k ->
  idx mod (2 * cap) < cap -> get_entry idx (2 * cap) = get_entry idx cap.
Proof.
  intros Hk -> H. assert (Hp := pow2_pos k).
  rewrite (two_cap k). rewrite !get_entry_entry_of by lia. rewrite <- two_cap.
  rewrite mod2_lower; [reflexivity|lia|exact H].
Qed.

(** * 5. [grow] preserves the live window *)

Lemma mget_mset_same m b x v : mget (mset m b x v) b x = v.
Proof. unfold mget, mset. rewrite !N.eqb_refl. reflexivity. Qed.

Lemma mget_mset_other_b m b x v b' x' : b' <> b -> mget (mset m b x v) b' x' = mget m b' x'.
Proof.
  intros H. unfold mget, mset. destruct (N.eqb_spec b' b); [contradiction|reflexivity].
Qed.

Lemma mget_mset_other m b x v b' x' : (b', x') <> (b, x) -> mget (mset m b x v) b' x' = mget m b' x'.
Proof.
  intros H. unfold mget, mset.
  destruct (N.eqb_spec b' b) as [->|]; [|reflexivity].
  destruct (N.eqb_spec x' x) as [->|]; [contradiction H; reflexivity|reflexivity].
Qed.

Lemma win_mod2 c q i : c <> 0 -> 2 * c * q <= i < 2 * c * (q + 1) -> i mod (2 * c) = i - 2 * c * q.
Proof.
  intros Hc Hi. symmetry. apply (N.mod_unique i (2 * c) q); lia.
Qed.

Lemma win_mod1 c q i : c <> 0 -> 2 * c * q + c <= i < 2 * c * (q + 1) -> i mod c = i - 2 * c * q - c.
Proof.
  intros Hc Hi. symmetry. apply (N.mod_unique i c (2 * q + 1)); lia.
Qed.

Lemma entry_upper_bucket k j : 2 ^ k <= j < 2 * 2 ^ k -> fst (entry_of j) = k + 1.
Proof.
  intros Hj. unfold entry_of. cbn [fst]. assert (Hp := pow2_pos k).
  rewrite N.size_log2 by lia.
  rewrite (N.log2_unique j k); [lia|lia|]. rewrite N.pow_succ_r'. exact Hj.
Qed.

Lemma land_mask2 k idx : k <= 29 -> N.land idx (wsub 64 (2 * 2 ^ k) 1) = idx mod (2 * 2 ^ k).
Proof. intros Hk. rewrite two_cap. apply land_mask. lia. Qed.

Lemma get_entry_entry_of2 k idx : k <= 29 -> get_entry idx (2 * 2 ^ k) = entry_of (idx mod (2 * 2 ^ k)).
Proof. intros Hk. rewrite two_cap. apply get_entry_entry_of. lia. Qed.

(** new slots of the upper window live in bucket [k+1] *)
Lemma new_bucket k q i : k <= 29 ->
  2 * 2 ^ k * q + 2 ^ k <= i < 2 * 2 ^ k * (q + 1) -> fst (get_entry i (2 * 2 ^ k)) = k + 1.
Proof.
  intros Hk Hi. assert (Hp := pow2_pos k).
  rewrite get_entry_entry_of2 by exact Hk.
  apply entry_upper_bucket. rewrite (win_mod2 (2 ^ k) q i) by lia. lia.
Qed.

Lemma old_bucket k i : k <= 30 -> fst (get_entry i (2 ^ k)) <= k.
Proof.
  intros Hk. rewrite get_entry_entry_of by exact Hk.
  apply entry_of_bounds. apply N.mod_lt. apply N.pow_nonzero. discriminate.
Qed.

Lemma new_slot_inj k q i0 i1 : k <= 29 ->
  2 * 2 ^ k * q <= i0 < 2 * 2 ^ k * (q + 1) ->
  2 * 2 ^ k * q <= i1 < 2 * 2 ^ k * (q + 1) ->
  get_entry i0 (2 * 2 ^ k) = get_entry i1 (2 * 2 ^ k) -> i0 = i1.
Proof.
  intros Hk H0 H1 E. assert (Hp := pow2_pos k).
  rewrite !get_entry_entry_of2 in E by exact Hk. apply entry_of_inj in E.
  rewrite (win_mod2 (2 ^ k) q i0), (win_mod2 (2 ^ k) q i1) in E by lia. lia.
Qed.

Lemma grow_loop_S fuel bottom tp bk fc cc m ncap nm st sm mem i :
  grow_loop (S fuel) bottom tp bk fc cc m ncap nm st sm mem i =
  if i <? bottom then
    if negb (N.land i m =? N.land i nm) then
      grow_loop fuel bottom tp bk fc cc m ncap nm st sm
        (mset mem (fst (slot_of (N.land i nm))) (snd (slot_of (N.land i nm)))
              (mget mem (fst (slot_of (N.land i m))) (snd (slot_of (N.land i m)))))
        (wadd 64 i 1)
    else Some (mem, i)
  else Some (mem, i).
Proof. reflexivity. Qed.

Definition rde (m : mem_t) (i c : N) : N := mget m (fst (get_entry i c)) (snd (get_entry i c)).

Lemma grow_loop_spec k c q bottom tp bk fc cc ncap st sm :
  1 <= k <= 29 -> c = 2 ^ k -> 2 * c * (q + 1) < 2 ^ 64 ->
  forall fuel mem i,
  2 * c * q + c <= i <= 2 * c * (q + 1) ->
  (N.to_nat (2 * c * (q + 1) - i) < fuel)%nat ->
  exists mem' i',
    grow_loop fuel bottom tp bk fc cc (wsub 64 c 1) ncap (wsub 64 (2 * c) 1) st sm mem i = Some (mem', i') /\
    (forall b x, b <= k -> mget mem' b x = mget mem b x) /\
    (forall i0, i <= i0 -> i0 < 2 * c * (q + 1) -> i0 < bottom -> rde mem' i0 (2 * c) = rde mem i0 c) /\
    (forall i0, 2 * c * q + c <= i0 < i -> rde mem' i0 (2 * c) = rde mem i0 (2 * c)).
Proof.
  intros Hk -> HE. assert (Hp := pow2_pos k).
  induction fuel as [|f IH]; intros mem i Hi Hf; [lia|].
  rewrite grow_loop_S. rewrite <- !get_entry_slot_of.
  rewrite land_mask, land_mask2 by lia.
  destruct (N.ltb_spec i bottom) as [Hib|Hib].
  2:{ exists mem, i. split; [reflexivity|]. split; [reflexivity|]. split; [intros; lia|reflexivity]. }
  destruct (N.eq_dec i (2 * 2 ^ k * (q + 1))) as [HiE|HiE].
  { (* break *)
    assert (E1 : i mod 2 ^ k = 0).
    { symmetry. apply (N.mod_unique i (2 ^ k) (2 * (q + 1))); lia. }
    assert (E2 : i mod (2 * 2 ^ k) = 0).
    { symmetry. apply (N.mod_unique i (2 * 2 ^ k) (q + 1)); lia. }
    rewrite E1, E2. cbn [N.eqb negb].
    exists mem, i. split; [reflexivity|]. split; [reflexivity|]. split; [intros; lia|reflexivity]. }
  assert (Hiw : 2 * 2 ^ k * q + 2 ^ k <= i < 2 * 2 ^ k * (q + 1)) by lia.
  rewrite (win_mod1 (2 ^ k) q i), (win_mod2 (2 ^ k) q i) by lia.
  destruct (N.eqb_spec (i - 2 * 2 ^ k * q - 2 ^ k) (i - 2 * 2 ^ k * q)) as [Habs|_]; [lia|].
  cbn [negb].
  rewrite wadd_small by lia.
  destruct (IH (mset mem (fst (get_entry i (2 * 2 ^ k))) (snd (get_entry i (2 * 2 ^ k)))
                     (mget mem (fst (get_entry i (2 ^ k))) (snd (get_entry i (2 ^ k))))) (i + 1))
    as (mem' & i' & Hrun & Ha & Hb & Hc); [lia|lia|].
  exists mem', i'. split; [exact Hrun|].
  assert (Hnb := new_bucket k q i ltac:(lia) Hiw).
  split; [|split].
  - intros b x Hbk. rewrite Ha by exact Hbk. apply mget_mset_other_b. lia.
  - intros i0 H0 H1 H2. destruct (N.eq_dec i0 i) as [->|Hne].
    + rewrite Hc by lia. unfold rde. apply mget_mset_same.
    + rewrite Hb by lia. unfold rde. apply mget_mset_other_b.
      assert (Hob := old_bucket k i0 ltac:(lia)). lia.
  - intros i0 H0. rewrite Hc by lia. unfold rde. apply mget_mset_other.
    intros Heq. rewrite <- !surjective_pairing in Heq.
    apply (new_slot_inj k q) in Heq; lia.
Qed.

Lemma pow2_29 : 2 ^ 29 = 536870912.
Proof. reflexivity. Qed.

Lemma pow2_63 : 2 ^ 63 = 9223372036854775808.
Proof. reflexivity. Qed.

Lemma cap_bound29 k : k <= 29 -> 2 ^ k <= 536870912.
Proof. intros H. rewrite <- pow2_29. apply pow2_le_mono. exact H. Qed.

Lemma wmul_cap k : k <= 29 -> wmul 64 (2 ^ k) 2 = 2 * 2 ^ k.
Proof.
  intros Hk. assert (Hc := cap_bound29 k Hk). unfold wmul.
  rewrite N.mod_small by (rewrite pow2_64; lia). lia.
Qed.

(** the adjusted loop start of [grow] *)
Lemma start_props k top :
  k <= 29 -> top < 2 ^ 63 ->
  let c := 2 ^ k in
  let s := if top mod c =? top mod (2 * c) then wadd 64 top (wsub 64 c (top mod c)) else top in
  exists q, 2 * c * q <= top < 2 * c * (q + 1) /\
            ((s = top /\ 2 * c * q + c <= top) \/ (s = 2 * c * q + c /\ top < 2 * c * q + c)).
Proof.
  intros Hk Ht c s. assert (Hp : 0 < c) by apply pow2_pos.
  assert (Hc : c <= 536870912) by (apply cap_bound29; exact Hk).
  rewrite pow2_63 in Ht.
  exists (top / (2 * c)).
  assert (Hdm := N.div_mod top (2 * c) ltac:(lia)).
  assert (Hr2 : top mod (2 * c) < 2 * c) by (apply N.mod_lt; lia).
  assert (Hr1 : top mod c < c) by (apply N.mod_lt; lia).
  assert (Hcases := mod2_cases top c ltac:(lia)).
  unfold s. clear s.
  revert Hdm Hr2 Hr1 Hcases.
  generalize (top mod (2 * c)) (top mod c) (top / (2 * c)). intros r2 r1 q Hdm Hr2 Hr1 Hcases.
  split; [lia|].
  destruct (N.eqb_spec r1 r2) as [E|E].
  - right. rewrite wsub_small by (rewrite ?pow2_64; lia).
    rewrite wadd_small by (rewrite ?pow2_64; lia). lia.
  - left. lia.
Qed.

Lemma grow_spec k cap fuel bk mem bottom top :
  1 <= k <= 29 -> cap = 2 ^ k -> top <= bottom -> bottom - top <= cap -> bottom < 2 ^ 63 ->
  (N.to_nat cap < fuel)%nat ->
  exists mem',
    grow fuel bk cap mem bottom top = Some (mem', wadd 64 bk 1, 2 * cap) /\
    (forall b x, b <= k -> mget mem' b x = mget mem b x) /\
    forall i, top <= i < bottom -> rde mem' i (2 * cap) = rde mem i cap.
Proof.
  intros Hk -> Htb Hsz Hb Hf. assert (Hp := pow2_pos k).
  assert (Hc := cap_bound29 k ltac:(lia)).
  assert (Ht : top < 2 ^ 63) by lia.
  unfold grow. cbv zeta. rewrite wmul_cap by lia.
  rewrite (land_mask k top), (land_mask2 k top) by lia.
  destruct (start_props k top ltac:(lia) Ht) as (q & Hq & Hs). cbv zeta in Hs.
  set (s := if top mod 2 ^ k =? top mod (2 * 2 ^ k) then _ else top) in *.
  rewrite pow2_63 in *.
  assert (HE : 2 * 2 ^ k * (q + 1) < 2 ^ 64) by (rewrite pow2_64; lia).
  destruct (grow_loop_spec k (2 ^ k) q bottom top (wadd 64 bk 1) (2 ^ k) (2 ^ k) (2 * 2 ^ k) s (top mod 2 ^ k)
              ltac:(lia) eq_refl HE fuel mem s) as (mem' & i' & Hrun & Ha & Hbb & _); [lia|lia|].
  rewrite Hrun. exists mem'. split; [reflexivity|]. split; [exact Ha|].
  intros i Hi.
  assert (Hlow : i mod (2 * 2 ^ k) < 2 ^ k -> rde mem' i (2 * 2 ^ k) = rde mem i (2 ^ k)).
  { intros Hl. unfold rde. rewrite (get_entry_lower_half k (2 ^ k) i) by (try exact Hl; lia || reflexivity).
    apply Ha. apply old_bucket. lia. }
  destruct (N.lt_ge_cases i s) as [His|His].
  - apply Hlow. rewrite (win_mod2 (2 ^ k) q i) by lia. lia.
  - destruct (N.lt_ge_cases i (2 * 2 ^ k * (q + 1))) as [HiE|HiE].
    + apply Hbb; lia.
    + apply Hlow. rewrite (win_mod2 (2 ^ k) (q + 1) i) by lia. lia.
Qed.

Theorem grow_total k cap fuel bk mem bottom top :
  1 <= k <= 29 -> cap = 2 ^ k -> top <= bottom -> bottom - top <= cap -> bottom < 2 ^ 63 ->
  (N.to_nat cap < fuel)%nat ->
  grow fuel bk cap mem bottom top <> None.
Proof.
  intros Hk Hcap Htb Hsz Hb Hf.
  destruct (grow_spec k cap fuel bk mem bottom top Hk Hcap Htb Hsz Hb Hf) as (mem' & E & _).
  rewrite E. discriminate.
Qed.

Theorem grow_preserves k cap fuel bk mem bottom top mem' bk' cap' :
  1 <= k <= 29 -> cap = 2 ^ k -> top <= bottom -> bottom - top <= cap -> bottom < 2 ^ 63 ->
  (N.to_nat cap < fuel)%nat ->
  grow fuel bk cap mem bottom top = Some (mem', bk', cap') ->
  cap' = 2 * cap /\ bk' = wadd 64 bk 1 /\
  forall i, top <= i < bottom ->
    mget mem' (fst (get_entry i cap')) (snd (get_entry i cap')) =
    mget mem (fst (get_entry i cap)) (snd (get_entry i cap)).
Proof.
  intros Hk Hcap Htb Hsz Hb Hf Hg.
  destruct (grow_spec k cap fuel bk mem bottom top Hk Hcap Htb Hsz Hb Hf) as (m & E & _ & Hpres).
  rewrite E in Hg. injection Hg as <- <- <-.
  split; [reflexivity|]. split; [reflexivity|]. exact Hpres.
Qed.

(** * 6. [ChaseDefs.grow_moves] lists exactly the copies performed by the generated [grow] *)

Definition apply_move (m : mem_t) (p : (N * N) * (N * N)) : mem_t :=
  mset m (fst (snd p)) (snd (snd p)) (mget m (fst (fst p)) (snd (fst p))).

Lemma grow_loop_moves bot tp bk fc cc m ncap nm st sm :
  forall fuel mem i mem' i',
  grow_loop fuel bot tp bk fc cc m ncap nm st sm mem i = Some (mem', i') ->
  fold_left apply_move (grow_moves_from fuel i bot m nm) mem = mem'.
Proof.
  induction fuel as [|f IH]; intros mem i mem' i' H; [discriminate|].
  rewrite grow_loop_S in H. cbn [grow_moves_from].
  destruct (i <? bot).
  - destruct (negb (N.land i m =? N.land i nm)).
    + cbn [fold_left]. apply IH in H. exact H.
    + injection H as <- _. reflexivity.
  - injection H as <- _. reflexivity.
Qed.

(** the result of the loop does not depend on the fuel *)
Lemma grow_loop_det bot tp bk fc cc m ncap nm st sm f1 : forall f2 mem i r1 r2,
  grow_loop f1 bot tp bk fc cc m ncap nm st sm mem i = Some r1 ->
  grow_loop f2 bot tp bk fc cc m ncap nm st sm mem i = Some r2 -> r1 = r2.
Proof.
  induction f1 as [|f1 IH]; intros [|f2] mem i r1 r2 H1 H2; try discriminate.
  rewrite grow_loop_S in H1, H2.
  destruct (i <? bot); [|congruence].
  destruct (negb (N.land i m =? N.land i nm)); [|congruence].
  exact (IH _ _ _ _ _ H1 H2).
Qed.

Lemma grow_unfold fuel bk cap mem bottom top :
  grow fuel bk cap mem bottom top =
  match grow_loop fuel bottom top (wadd 64 bk 1) cap cap (wsub 64 cap 1) (wmul 64 cap 2)
          (wsub 64 (wmul 64 cap 2) 1) (grow_start cap top) (N.land top (wsub 64 cap 1)) mem
          (grow_start cap top) with
  | None => None
  | Some (m2, _) => Some (m2, wadd 64 bk 1, wmul 64 cap 2)
  end.
Proof. reflexivity. Qed.

Theorem grow_moves_gen_eq k cap fuel bk mem bottom top mem' bk' cap' :
  1 <= k <= 29 -> cap = 2 ^ k -> top <= bottom -> bottom - top <= cap -> bottom < 2 ^ 63 ->
  (N.to_nat cap < fuel)%nat ->
  grow fuel bk cap mem bottom top = Some (mem', bk', cap') ->
  fold_left (fun m (p : (N * N) * (N * N)) =>
               mset m (fst (snd p)) (snd (snd p)) (mget m (fst (fst p)) (snd (fst p))))
            (grow_moves cap bottom top) mem = mem'.
Proof.
  intros Hk Hcap Htb Hsz Hb Hf Hg.
  change (fold_left apply_move (grow_moves cap bottom top) mem = mem').
  rewrite grow_unfold in Hg.
  destruct (grow_loop fuel _ _ _ _ _ _ _ _ _ _ _ _) as [[m2 i2]|] eqn:E1; [|discriminate].
  injection Hg as <- _ _.
  assert (Ht := grow_total k cap (S (N.to_nat cap)) bk mem bottom top Hk Hcap Htb Hsz Hb ltac:(lia)).
  rewrite grow_unfold in Ht.
  destruct (grow_loop (S (N.to_nat cap)) _ _ _ _ _ _ _ _ _ _ _ _) as [[m0 i0]|] eqn:E0; [|contradiction].
  unfold grow_moves. rewrite (grow_loop_moves _ _ _ _ _ _ _ _ _ _ _ _ _ _ _ E0).
  assert (D := grow_loop_det _ _ _ _ _ _ _ _ _ _ _ _ _ _ _ _ E0 E1). congruence.
Qed.

Theorem grow_moves_gen k cap fuel bk mem bottom top mem' bk' cap' :
  1 <= k <= 29 -> cap = 2 ^ k -> top <= bottom -> bottom - top <= cap -> bottom < 2 ^ 63 ->
  (N.to_nat cap < fuel)%nat ->
  grow fuel bk cap mem bottom top = Some (mem', bk', cap') ->
  forall b i,
  mget (fold_left (fun m (p : (N * N) * (N * N)) =>
                     mset m (fst (snd p)) (snd (snd p)) (mget m (fst (fst p)) (snd (fst p))))
                  (grow_moves cap bottom top) mem) b i = mget mem' b i.
Proof.
  intros Hk Hcap Htb Hsz Hb Hf Hg b i.
  rewrite (grow_moves_gen_eq k cap fuel bk mem bottom top mem' bk' cap' Hk Hcap Htb Hsz Hb Hf Hg).
  reflexivity.
Qed.
