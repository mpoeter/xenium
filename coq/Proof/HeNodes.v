(** Layer N: the life cycle of the nodes and where the retired nodes are (hazard eras model; the structure of
    Proof/HpNodes.v) *)
From Coq Require Import NArith List Bool Arith Lia PeanoNat.
From XV Require Import Conc.Lts Conc.Ev Model.HeDefs Proof.HeBase Proof.HeGuards.
Import ListNotations.

Lemma mem_In n l : mem n l = true <-> In n l.
Proof.
  unfold mem. rewrite existsb_exists. split.
  - intros (x & Hx & He). apply Nat.eqb_eq in He. subst. exact Hx.
  - intros H. exists n. split; [exact H|apply Nat.eqb_refl].
Qed.

Lemma mem_false n l : mem n l = false <-> ~ In n l.
Proof. rewrite <- mem_In. destruct (mem n l); split; intros; congruence. Qed.

Lemma count_notin n l : ~ In n l -> count n l = 0.
Proof.
  unfold count. induction l as [|a l IH]; intros H; [reflexivity|]. cbn [filter].
  destruct (Nat.eqb_spec n a) as [->|Hne]; [exfalso; apply H; left; reflexivity|]. apply IH. intros Hc. apply H. right. exact Hc.
Qed.

Lemma count_nodup n l : NoDup l -> In n l -> count n l = 1.
Proof.
  unfold count. induction l as [|a l IH]; intros Hnd Hin; [destruct Hin|]. apply NoDup_cons_iff in Hnd. destruct Hnd as [Hna Hnd].
  cbn [filter]. destruct (Nat.eqb_spec n a) as [->|Hne].
  - cbn [length]. f_equal. apply (count_notin a l Hna).
  - destruct Hin as [->|Hin]; [congruence|]. apply IH; assumption.
Qed.

Lemma NoDup_app_iff (l1 l2 : list nat) : NoDup (l1 ++ l2) <-> NoDup l1 /\ NoDup l2 /\ (forall x, In x l1 -> ~ In x l2).
Proof.
  induction l1 as [|a l1 IH]; cbn [app].
  - split; [intros H; split; [constructor|split; [exact H|intros x []]]|intros (_ & H & _); exact H].
  - rewrite !NoDup_cons_iff, IH, in_app_iff. split.
    + intros (H1 & H2 & H3 & H4). split; [split; [tauto|exact H2]|]. split; [exact H3|].
      intros x [<-|Hx]; [tauto|apply H4; exact Hx].
    + intros ((H1 & H2) & H3 & H4). split; [intros [Hc|Hc]; [contradiction|apply (H4 a (or_introl eq_refl) Hc)]|].
      split; [exact H2|]. split; [exact H3|]. intros x Hx. apply H4. right. exact Hx.
Qed.

Definition ad_of (p : pc) : list nat :=
  match p with S1 s | S2 s | S3 s | S4 s | S5 s _ _ | S6 s _ _ _ | S7 s => s_ad s | _ => [] end.

Definition gone (st : state) (n : nat) : bool :=
  match g_where st n, g_life st n with PFreed, _ => true | _, LDropped => true | _, _ => false end.

(** the node a program point owns: freshly allocated (true) or unlinked (false) *)
Definition pcn (p : pc) : option (nat * bool) :=
  match p with
  | C1 _ n | R1 _ (Some n) => Some (n, true)
  | R2 o | R3 o => Some (o, false)
  | _ => None
  end.

Definition pcN (st : state) (t : nat) (p : pc) : Prop :=
  match pcn p with
  | Some (n, true) => g_life st n = LFresh t
  | Some (n, false) => g_life st n = LUnl t
  | None => True
  end /\
  match p with S1 s | S2 s | S3 s => s_ad s = [] | _ => True end.

Lemma pcN_keep st st' t p :
  (forall n, g_life st n = LFresh t \/ g_life st n = LUnl t -> g_life st' n = g_life st n) -> pcN st t p -> pcN st' t p.
Proof.
  intros Hk [H1 H2]. split; [|exact H2]. destruct (pcn p) as [[n []]|]; [| |exact I].
  - rewrite Hk; [exact H1|left; exact H1].
  - rewrite Hk; [exact H1|right; exact H1].
Qed.

Lemma pcN_plain st t p : pcn p = None -> (forall s, p <> S1 s /\ p <> S2 s /\ p <> S3 s) -> pcN st t p.
Proof.
  intros H1 H2. split; [rewrite H1; exact I|]. destruct p; try exact I; exfalso; destruct (H2 s) as (A & B & C); congruence.
Qed.

Record InvN (st : state) : Prop := mkN {
  n_cell : forall c n, cells st c = Some n -> g_life st n = LPub c;
  n_lt : forall n, nalloc st <= n -> g_life st n = LNone;
  n_none : forall n, g_where st n = PNone <-> (forall u, g_life st n <> LRet u);
  n_list : forall t n, g_where st n = PList t <-> In n (rl (tl st t));
  n_list_nd : forall t, NoDup (rl (tl st t));
  n_aband : forall n, g_where st n = PAband <-> In n (aband st);
  n_aband_nd : NoDup (aband st);
  n_flight : forall t n, g_where st n = PFlight t <-> In n (ad_of (th st t));
  n_flight_nd : forall t, NoDup (ad_of (th st t));
  n_free : forall n, g_nfree st n = if gone st n then 1 else 0;
  n_pc : forall t, pcN st t (th st t) }.

Lemma InvN_frame st st' :
  (forall c, cells st' c = cells st c) -> (forall n, g_life st' n = g_life st n) -> (forall n, g_where st' n = g_where st n) ->
  (forall n, g_nfree st' n = g_nfree st n) -> aband st' = aband st -> nalloc st <= nalloc st' ->
  (forall t, rl (tl st' t) = rl (tl st t)) -> (forall t, ad_of (th st' t) = ad_of (th st t)) ->
  (forall t, pcN st t (th st t) -> pcN st t (th st' t)) ->
  InvN st -> InvN st'.
Proof.
  intros Hc Hl Hw Hf Ha Hn Hr Had Hp [I1 I2 I3 I4 I5 I6 I7 I8 I9 I10 I11].
  constructor; intros; rewrite ?Ha, ?Hr, ?Had, ?Hw, ?Hf, ?Hl in *; try rewrite Hc in *; auto.
  - apply I2. lia.
  - unfold gone. rewrite Hw, Hl. apply I10.
  - apply (pcN_keep st); [intros n _; apply Hl|]. apply Hp, I11.
Qed.

Lemma pcN_ext st st' t p : (forall n, g_life st' n = g_life st n) -> pcN st t p -> pcN st' t p.
Proof. intros Hl. apply pcN_keep. intros n _. apply Hl. Qed.

(** ** where the retired nodes are: the list that holds the nodes at place [p] *)
Definition lst (st : state) (p : place) : list nat :=
  match p with PList t => rl (tl st t) | PAband => aband st | PFlight t => ad_of (th st t) | PNone | PFreed => [] end.
Definition listed (p : place) : Prop := match p with PNone | PFreed => False | _ => True end.
Definition where_ok (st : state) : Prop :=
  forall p, listed p -> NoDup (lst st p) /\ forall n, g_where st n = p <-> In n (lst st p).

Lemma InvN_where st : InvN st -> where_ok st.
Proof. intros [I1 I2 I3 I4 I5 I6 I7 I8 I9 I10 I11] p Hp. destruct p; try destruct Hp; cbn [lst]; split; auto. Qed.

Lemma InvN_intro st :
  (forall c n, cells st c = Some n -> g_life st n = LPub c) -> (forall n, nalloc st <= n -> g_life st n = LNone) ->
  (forall n, g_where st n = PNone <-> (forall u, g_life st n <> LRet u)) -> where_ok st ->
  (forall n, g_nfree st n = if gone st n then 1 else 0) -> (forall t, pcN st t (th st t)) -> InvN st.
Proof.
  intros H1 H2 H3 Hw H10 H11. constructor; try assumption; intros.
  - apply (Hw (PList t) I). - apply (Hw (PList t) I). - apply (Hw PAband I). - apply (Hw PAband I).
  - apply (Hw (PFlight t) I). - apply (Hw (PFlight t) I).
Qed.

(** a listed node is retired *)
Lemma listed_retired st n : InvN st -> listed (g_where st n) -> exists u, g_life st n = LRet u.
Proof.
  intros HN H. destruct (g_life st n) eqn:E; try (exfalso; rewrite (proj2 (n_none st HN n)) in H; [exact H|intros u; congruence]).
  exists t. reflexivity.
Qed.

(** the lists are as they were *)
Lemma where_same st st' :
  where_ok st -> (forall n, g_where st' n = g_where st n) -> (forall p, listed p -> lst st' p = lst st p) -> where_ok st'.
Proof. intros Hw Hg Hl p Hp. rewrite (Hl p Hp). destruct (Hw p Hp) as [H1 H2]. split; [exact H1|]. intros n. rewrite Hg. apply H2. Qed.

(** the nodes of [S] move to the places [dst] *)
Lemma where_move st st' (S : list nat) (dst : nat -> place) :
  where_ok st -> (forall n, g_where st' n = if mem n S then dst n else g_where st n) ->
  (forall p, listed p -> NoDup (lst st' p) /\
     forall n, In n (lst st' p) <-> (In n S /\ dst n = p) \/ (~ In n S /\ In n (lst st p))) ->
  where_ok st'.
Proof.
  intros Hw Hg HL p Hp. destruct (HL p Hp) as [Hnd Hin]. split; [exact Hnd|]. intros n. rewrite Hin, Hg, <- (proj2 (Hw p Hp) n).
  destruct (mem n S) eqn:E; [apply mem_In in E|apply mem_false in E]; tauto.
Qed.

(** a place that the move neither drains nor fills *)
Lemma place_same st (S : list nat) (dst : nat -> place) p L :
  where_ok st -> listed p -> L = lst st p -> (forall n, In n S -> g_where st n <> p /\ dst n <> p) ->
  NoDup L /\ forall n, In n L <-> (In n S /\ dst n = p) \/ (~ In n S /\ In n (lst st p)).
Proof.
  intros Hw Hp -> Hs. destruct (Hw p Hp) as [H1 H2]. split; [exact H1|]. intros n. split.
  - intros H. right. split; [|exact H]. intros Hn. apply (proj1 (Hs n Hn)). apply H2. exact H.
  - intros [[Hn Hd]|[_ H]]; [destruct (proj2 (Hs n Hn) Hd)|exact H].
Qed.

(** the retired nodes of [S] move to the places [dst] (to PFreed: their deleters run); thread t goes on *)
Lemma InvN_move st st' t (S : list nat) (dst : nat -> place) :
  InvN st -> (forall n, In n S -> listed (g_where st n)) -> (forall n, In n S -> dst n <> PNone) ->
  (forall c, cells st' c = cells st c) -> (forall n, g_life st' n = g_life st n) -> nalloc st <= nalloc st' ->
  (forall n, g_where st' n = if mem n S then dst n else g_where st n) ->
  (forall n, g_nfree st' n = g_nfree st n + if mem n S then match dst n with PFreed => 1 | _ => 0 end else 0) ->
  (forall p, listed p -> NoDup (lst st' p) /\
     forall n, In n (lst st' p) <-> (In n S /\ dst n = p) \/ (~ In n S /\ In n (lst st p))) ->
  pcN st t (th st' t) -> (forall u, u <> t -> th st' u = th st u) -> InvN st'.
Proof.
  intros HN HS Hd Hc Hl Hn Hw Hf HL Hp Hu. apply InvN_intro.
  - intros c n. rewrite Hc, Hl. apply (n_cell st HN).
  - intros n H. rewrite Hl. apply (n_lt st HN). lia.
  - intros n. rewrite Hl, Hw. destruct (mem n S) eqn:E; [|apply (n_none st HN)]. apply mem_In in E.
    destruct (listed_retired st n HN (HS n E)) as [u Hr]. split; [intros H; destruct (Hd n E H)|intros H; destruct (H u Hr)].
  - apply (where_move st st' S dst (InvN_where st HN) Hw HL).
  - intros n. rewrite Hf. unfold gone. rewrite Hl, Hw. pose proof (n_free st HN n) as H0. unfold gone in H0.
    destruct (mem n S) eqn:E; [|rewrite Nat.add_0_r; exact H0]. apply mem_In in E. pose proof (HS n E) as Hli.
    destruct (listed_retired st n HN Hli) as [u Hr]. rewrite Hr in *.
    destruct (g_where st n); try destruct Hli; rewrite H0; destruct (dst n); reflexivity.
  - intros u. destruct (Nat.eq_dec u t) as [->|Hne]; [|rewrite (Hu u Hne)]; (apply (pcN_ext st); [exact Hl|]); [exact Hp|apply (n_pc st HN)].
Qed.

(** a node is allocated (repl): block [nalloc st] *)
Lemma InvN_fresh st st' t c :
  InvN st -> ad_of (th st t) = [] ->
  (forall c, cells st' c = cells st c) -> (forall n, g_life st' n = upd (g_life st) (nalloc st) (LFresh t) n) ->
  (forall n, g_where st' n = g_where st n) -> (forall n, g_nfree st' n = g_nfree st n) -> aband st' = aband st ->
  nalloc st' = S (nalloc st) ->
  (forall u, rl (tl st' u) = rl (tl st u)) -> th st' t = C1 c (nalloc st) -> (forall u, u <> t -> th st' u = th st u) ->
  InvN st'.
Proof.
  intros HN Had Hc Hl Hw Hf Ha Hn Hr Ht Hu. pose proof HN as [I1 I2 I3 I4 I5 I6 I7 I8 I9 I10 I11].
  set (b := nalloc st) in *.
  assert (Hb : g_life st b = LNone) by (apply I2; unfold b; lia).
  assert (Hwb : g_where st b = PNone) by (apply I3; intros u; congruence).
  assert (Hlo : forall n, n <> b -> g_life st' n = g_life st n) by (intros n Hne; rewrite Hl; upds; reflexivity).
  assert (Hadu : forall u, ad_of (th st' u) = ad_of (th st u)).
  { intros u. destruct (Nat.eq_dec u t) as [->|Hne]; [rewrite Ht, Had; reflexivity|rewrite Hu by exact Hne; reflexivity]. }
  apply InvN_intro.
  - intros c0 n. rewrite Hc. intros H.
    assert (n <> b) by (intros ->; rewrite (I1 c0 b H) in Hb; discriminate). rewrite Hlo by assumption. apply I1. exact H.
  - intros n H. assert (n <> b) by lia. rewrite Hlo by assumption. apply I2. lia.
  - intros n. rewrite Hw. destruct (Nat.eq_dec n b) as [->|Hne].
    + rewrite Hl. upds. split; [intros _ u; discriminate|intros _; exact Hwb].
    + rewrite Hlo by exact Hne. apply I3.
  - apply (where_same st st' (InvN_where st HN) Hw). intros q _. destruct q; cbn [lst]; rewrite ?Hr, ?Ha, ?Hadu; reflexivity.
  - intros n. rewrite Hf. unfold gone. rewrite Hw. destruct (Nat.eq_dec n b) as [->|Hne].
    + rewrite Hl. upds. specialize (I10 b). unfold gone in I10. rewrite Hwb, Hb in I10. rewrite Hwb. exact I10.
    + rewrite Hlo by exact Hne. apply I10.
  - intros t0. destruct (Nat.eq_dec t0 t) as [->|Hne].
    + rewrite Ht. split; [|exact I]. cbn [pcn]. rewrite Hl. upds. reflexivity.
    + rewrite Hu by exact Hne. apply (pcN_keep st); [|apply I11]. intros n [H|H]; apply Hlo; intros ->; congruence.
Qed.

(** the client's CAS succeeded: [n] is published in cell [c], the old node [o] is unlinked *)
Lemma InvN_cas st st' t c n o p :
  InvN st -> th st t = R1 c n -> cells st c = o ->
  (forall c', cells st' c' = upd (cells st) c n c') ->
  (forall m, g_life st' m = if (match o with Some o' => m =? o' | None => false end) then LUnl t
                            else if (match n with Some n' => m =? n' | None => false end) then LPub c else g_life st m) ->
  (forall n, g_where st' n = g_where st n) -> (forall n, g_nfree st' n = g_nfree st n) -> aband st' = aband st ->
  nalloc st <= nalloc st' ->
  (forall u, rl (tl st' u) = rl (tl st u)) -> th st' t = p -> (forall u, u <> t -> th st' u = th st u) ->
  ad_of p = [] -> (match o with Some o' => p = R2 o' \/ p = R3 o' | None => pcn p = None /\ (forall s, p <> S1 s /\ p <> S2 s /\ p <> S3 s) end) ->
  InvN st'.
Proof.
  intros HN Hth Hco Hc Hl Hw Hf Ha Hn Hr Ht Hu Hadp Hp.
  pose proof HN as [I1 I2 I3 I4 I5 I6 I7 I8 I9 I10 I11].
  assert (Hpc : match n with Some n' => g_life st n' = LFresh t | None => True end).
  { destruct (I11 t) as [Hx _]. rewrite Hth in Hx. destruct n; exact Hx. }
  assert (Hadu : forall u, ad_of (th st' u) = ad_of (th st u)).
  { intros u. destruct (Nat.eq_dec u t) as [->|Hne]; [rewrite Ht, Hth, Hadp; reflexivity|rewrite Hu by exact Hne; reflexivity]. }
  assert (Hon : forall o' n', o = Some o' -> n = Some n' -> o' <> n').
  { intros o' n' -> -> ->. rewrite (I1 c n' Hco) in Hpc. discriminate. }
  assert (Hlo : forall o', o = Some o' -> g_life st o' = LPub c) by (intros o' ->; apply I1; exact Hco).
  assert (Hret : forall m u, g_life st' m = LRet u <-> g_life st m = LRet u).
  { intros m u. rewrite Hl. destruct o as [o'|]; [destruct (Nat.eqb_spec m o') as [->|_]|];
      [rewrite (Hlo o' eq_refl); split; discriminate| |];
      (destruct n as [n'|]; [destruct (Nat.eqb_spec m n') as [->|_]; [rewrite Hpc; split; discriminate|reflexivity]|reflexivity]). }
  apply InvN_intro.
  - intros c0 n0. rewrite Hc. intros H. rewrite Hl. destruct (Nat.eq_dec c0 c) as [->|Hne]; upds_in H.
    + subst n. destruct o as [o'|]; [destruct (Nat.eqb_spec n0 o') as [->|_]; [exfalso; apply (Hon o' o'); reflexivity|]|];
        rewrite Nat.eqb_refl; reflexivity.
    + pose proof (I1 c0 n0 H) as Hn0.
      destruct o as [o'|]; [destruct (Nat.eqb_spec n0 o') as [->|_]; [rewrite (Hlo o' eq_refl) in Hn0; congruence|]|];
        (destruct n as [n'|]; [destruct (Nat.eqb_spec n0 n') as [->|_]; [congruence|exact Hn0]|exact Hn0]).
  - intros n0 H. rewrite Hl. assert (Hm : g_life st n0 = LNone) by (apply I2; lia).
    destruct o as [o'|]; [destruct (Nat.eqb_spec n0 o') as [->|_]; [rewrite (Hlo o' eq_refl) in Hm; discriminate|]|];
      (destruct n as [n'|]; [destruct (Nat.eqb_spec n0 n') as [->|_]; [congruence|exact Hm]|exact Hm]).
  - intros n0. rewrite Hw, I3. split; intros H u; specialize (H u); rewrite Hret in *; exact H.
  - apply (where_same st st' (InvN_where st HN) Hw). intros q _. destruct q; cbn [lst]; rewrite ?Hr, ?Ha, ?Hadu; reflexivity.
  - intros n0. rewrite Hf. unfold gone. rewrite Hw. specialize (I10 n0). unfold gone in I10. rewrite Hl.
    destruct o as [o'|]; [destruct (Nat.eqb_spec n0 o') as [->|_]; [rewrite (Hlo o' eq_refl) in I10; destruct (g_where st o'); exact I10|]|];
      (destruct n as [n'|]; [destruct (Nat.eqb_spec n0 n') as [->|_]; [rewrite Hpc in I10; destruct (g_where st n'); exact I10|exact I10]|exact I10]).
  - intros t0. destruct (Nat.eq_dec t0 t) as [->|Hne].
    + rewrite Ht. destruct o as [o'|].
      * destruct Hp as [-> | ->]; (split; [|exact I]); cbn [pcn]; rewrite Hl, Nat.eqb_refl; reflexivity.
      * destruct Hp as (Hp1 & Hp2). apply pcN_plain; assumption.
    + rewrite Hu by exact Hne. apply (pcN_keep st); [|apply I11]. intros m Hm. rewrite Hl.
      destruct o as [o'|]; [destruct (Nat.eqb_spec m o') as [->|_]; [rewrite (Hlo o' eq_refl) in Hm; destruct Hm; discriminate|]|];
        (destruct n as [n'|]; [destruct (Nat.eqb_spec m n') as [->|_]; [rewrite Hpc in Hm; destruct Hm as [Hm|Hm]; congruence|reflexivity]|reflexivity]).
Qed.

(** the CAS failed: the creator deletes its new node *)
Lemma InvN_drop st st' t c n p :
  InvN st -> th st t = R1 c (Some n) ->
  (forall c', cells st' c' = cells st c') -> (forall m, g_life st' m = upd (g_life st) n LDropped m) ->
  (forall m, g_where st' m = g_where st m) -> (forall m, g_nfree st' m = upd (g_nfree st) n (S (g_nfree st n)) m) ->
  aband st' = aband st -> nalloc st <= nalloc st' ->
  (forall u, rl (tl st' u) = rl (tl st u)) -> th st' t = p -> (forall u, u <> t -> th st' u = th st u) ->
  ad_of p = [] -> pcn p = None -> (forall s, p <> S1 s /\ p <> S2 s /\ p <> S3 s) ->
  InvN st'.
Proof.
  intros HN Hth Hc Hl Hw Hf Ha Hn Hr Ht Hu Hadp Hp Hp2.
  pose proof HN as [I1 I2 I3 I4 I5 I6 I7 I8 I9 I10 I11].
  assert (Hpc : g_life st n = LFresh t) by (destruct (I11 t) as [Hx _]; rewrite Hth in Hx; exact Hx).
  assert (Hadu : forall u, ad_of (th st' u) = ad_of (th st u)).
  { intros u. destruct (Nat.eq_dec u t) as [->|Hne]; [rewrite Ht, Hth, Hadp; reflexivity|rewrite Hu by exact Hne; reflexivity]. }
  assert (Hlo : forall m, m <> n -> g_life st' m = g_life st m) by (intros m Hne; rewrite Hl; upds; reflexivity).
  assert (Hwn : g_where st n = PNone) by (apply I3; intros u; congruence).
  apply InvN_intro.
  - intros c0 m. rewrite Hc. intros H. assert (m <> n) by (intros ->; rewrite (I1 c0 n H) in Hpc; discriminate).
    rewrite Hlo by assumption. apply I1. exact H.
  - intros m H. assert (m <> n) by (intros ->; rewrite I2 in Hpc by lia; discriminate). rewrite Hlo by assumption. apply I2. lia.
  - intros m. rewrite Hw. destruct (Nat.eq_dec m n) as [->|Hne].
    + rewrite Hl. upds. split; [intros _ u; discriminate|intros _; exact Hwn].
    + rewrite Hlo by exact Hne. apply I3.
  - apply (where_same st st' (InvN_where st HN) Hw). intros q _. destruct q; cbn [lst]; rewrite ?Hr, ?Ha, ?Hadu; reflexivity.
  - intros m. rewrite Hf. unfold gone. rewrite Hw. destruct (Nat.eq_dec m n) as [->|Hne]; upds.
    + rewrite Hl. upds. specialize (I10 n). unfold gone in I10. rewrite Hwn, Hpc in I10. rewrite I10, Hwn. reflexivity.
    + rewrite Hlo by exact Hne. apply I10.
  - intros t0. destruct (Nat.eq_dec t0 t) as [->|Hne].
    + rewrite Ht. apply pcN_plain; assumption.
    + rewrite Hu by exact Hne. apply (pcN_keep st); [|apply I11]. intros m Hm. apply Hlo. intros ->. destruct Hm; congruence.
Qed.

(** add_retired_node of the unlinked node *)
Lemma InvN_retire st st' t o p :
  InvN st -> th st t = R3 o ->
  (forall c', cells st' c' = cells st c') -> (forall m, g_life st' m = upd (g_life st) o (LRet t) m) ->
  (forall m, g_where st' m = upd (g_where st) o (PList t) m) -> (forall m, g_nfree st' m = g_nfree st m) ->
  aband st' = aband st -> nalloc st <= nalloc st' ->
  rl (tl st' t) = o :: rl (tl st t) -> th st' t = p -> (forall u, u <> t -> tl st' u = tl st u /\ th st' u = th st u) ->
  ad_of p = [] -> pcn p = None -> (forall s, p <> S1 s /\ p <> S2 s /\ p <> S3 s) ->
  InvN st'.
Proof.
  intros HN Hth Hc Hl Hw Hf Ha Hn Hr Ht Hu Hadp Hp Hp2.
  pose proof HN as [I1 I2 I3 I4 I5 I6 I7 I8 I9 I10 I11].
  assert (Hpc : g_life st o = LUnl t) by (destruct (I11 t) as [Hx _]; rewrite Hth in Hx; exact Hx).
  assert (Hadu : forall u, ad_of (th st' u) = ad_of (th st u)).
  { intros u. destruct (Nat.eq_dec u t) as [->|Hne]; [rewrite Ht, Hth, Hadp; reflexivity|destruct (Hu u Hne) as [_ ->]; reflexivity]. }
  assert (Hlo : forall m, m <> o -> g_life st' m = g_life st m) by (intros m Hne; rewrite Hl; upds; reflexivity).
  assert (Hwo' : forall m, m <> o -> g_where st' m = g_where st m) by (intros m Hne; rewrite Hw; upds; reflexivity).
  assert (Hwo : g_where st o = PNone) by (apply I3; intros u; congruence).
  assert (Hru : forall u, u <> t -> rl (tl st' u) = rl (tl st u)) by (intros u Hne; destruct (Hu u Hne) as [-> _]; reflexivity).
  apply InvN_intro.
  - intros c0 m. rewrite Hc. intros H. assert (m <> o) by (intros ->; rewrite (I1 c0 o H) in Hpc; discriminate).
    rewrite Hlo by assumption. apply I1. exact H.
  - intros m H. assert (m <> o) by (intros ->; rewrite I2 in Hpc by lia; discriminate). rewrite Hlo by assumption. apply I2. lia.
  - intros m. destruct (Nat.eq_dec m o) as [->|Hne].
    + rewrite Hw, Hl. upds. split; [discriminate|intros H; exfalso; apply (H t); reflexivity].
    + rewrite Hwo', Hlo by exact Hne. apply I3.
  - pose proof (InvN_where st HN) as HW.
    assert (HS : forall n, In n [o] -> g_where st n <> PAband /\ forall u, g_where st n <> PFlight u /\ (u <> t -> g_where st n <> PList u)).
    { intros n [<-|[]]. rewrite Hwo. repeat split; discriminate. }
    apply (where_move st st' [o] (fun _ => PList t) HW).
    + intros m. rewrite Hw. unfold upd, mem. cbn [existsb]. rewrite orb_false_r. reflexivity.
    + intros q Hq. destruct q as [|u| |u|]; try destruct Hq; cbn [lst].
      * destruct (Nat.eq_dec u t) as [->|Hnu].
        -- rewrite Hr. split; [constructor; [intros H; apply I4 in H; congruence|apply I5]|]. intros m. cbn [In].
           assert (PList t = PList t) by reflexivity. destruct (Nat.eq_dec o m); tauto.
        -- apply (place_same st _ _ (PList u) _ HW I (Hru u Hnu)). intros n H. split; [apply (HS n H); exact Hnu|congruence].
      * apply (place_same st _ _ PAband _ HW I Ha). intros n H. split; [apply (HS n H)|discriminate].
      * apply (place_same st _ _ (PFlight u) _ HW I (Hadu u)). intros n H. split; [apply (HS n H)|discriminate].
  - intros m. rewrite Hf. unfold gone. destruct (Nat.eq_dec m o) as [->|Hne].
    + rewrite Hw, Hl. upds. specialize (I10 o). unfold gone in I10. rewrite Hwo, Hpc in I10. exact I10.
    + rewrite Hwo', Hlo by exact Hne. apply I10.
  - intros t0. destruct (Nat.eq_dec t0 t) as [->|Hne].
    + rewrite Ht. apply pcN_plain; assumption.
    + destruct (Hu t0 Hne) as [_ ->]. apply (pcN_keep st); [|apply I11]. intros m Hm. apply Hlo. intros ->. destruct Hm; congruence.
Qed.

(** adopt_abandoned_retired_nodes: the exchange *)
Lemma InvN_adopt st st' t s s' :
  InvN st -> th st t = S3 s -> th st' t = S4 s' -> s_ad s' = aband st ->
  (forall c', cells st' c' = cells st c') -> (forall m, g_life st' m = g_life st m) ->
  (forall m, g_where st' m = if mem m (aband st) then PFlight t else g_where st m) -> (forall m, g_nfree st' m = g_nfree st m) ->
  aband st' = [] -> nalloc st <= nalloc st' ->
  (forall u, rl (tl st' u) = rl (tl st u)) -> (forall u, u <> t -> th st' u = th st u) ->
  InvN st'.
Proof.
  intros HN Hth Ht Hs' Hc Hl Hw Hf Ha Hn Hr Hu. pose proof (InvN_where st HN) as HW.
  assert (Hpc : s_ad s = []) by (destruct (n_pc st HN t) as [_ Hx]; rewrite Hth in Hx; exact Hx).
  assert (HS : forall n, In n (aband st) -> g_where st n = PAband) by (intros n; apply (HW PAband I)).
  apply (InvN_move st st' t (aband st) (fun _ => PFlight t) HN); try assumption.
  - intros n H. rewrite (HS n H). exact I.
  - intros; discriminate.
  - intros n. rewrite Hf. destruct (mem n (aband st)); lia.
  - intros p Hp. destruct p as [|u| |u|]; try destruct Hp; cbn [lst].
    + apply (place_same st _ _ (PList u) _ HW I (Hr u)). intros n H. rewrite (HS n H). split; discriminate.
    + rewrite Ha. split; [constructor|]. intros n. split; [intros []|intros [[_ H]|[H1 H2]]; [discriminate|contradiction]].
    + destruct (Nat.eq_dec u t) as [->|Hne].
      * rewrite Ht, Hth. cbn [ad_of]. rewrite Hs', Hpc. split; [apply (HW PAband I)|]. intros n.
        split; [intros H; left; split; [exact H|reflexivity]|intros [[H _]|[_ []]]; exact H].
      * apply (place_same st _ _ (PFlight u) _ HW I (f_equal ad_of (Hu u Hne))). intros n H. rewrite (HS n H). split; [discriminate|congruence].
  - rewrite Ht. split; exact I.
Qed.

(** abandon_retired_nodes: the successful CAS *)
Lemma InvN_abandon st st' t p :
  InvN st -> ad_of (th st t) = [] -> th st' t = p -> ad_of p = [] -> pcN st t p ->
  (forall c', cells st' c' = cells st c') -> (forall m, g_life st' m = g_life st m) ->
  (forall m, g_where st' m = if mem m (rl (tl st t)) then PAband else g_where st m) -> (forall m, g_nfree st' m = g_nfree st m) ->
  aband st' = rl (tl st t) ++ aband st -> nalloc st <= nalloc st' ->
  rl (tl st' t) = [] -> (forall u, u <> t -> tl st' u = tl st u /\ th st' u = th st u) ->
  InvN st'.
Proof.
  intros HN Had Ht Hadp Hp Hc Hl Hw Hf Ha Hn Hr Hu. pose proof (InvN_where st HN) as HW. set (L := rl (tl st t)) in *.
  assert (HS : forall n, In n L -> g_where st n = PList t) by (intros n; apply (HW (PList t) I)).
  apply (InvN_move st st' t L (fun _ => PAband) HN); try assumption.
  - intros n H. rewrite (HS n H). exact I.
  - intros; discriminate.
  - intros n. rewrite Hf. destruct (mem n L); lia.
  - intros q Hq. destruct q as [|u| |u|]; try destruct Hq; cbn [lst].
    + destruct (Nat.eq_dec u t) as [->|Hne].
      * rewrite Hr. split; [constructor|]. intros n. split; [intros []|intros [[_ H]|[H1 H2]]; [discriminate|contradiction]].
      * apply (place_same st _ _ (PList u) _ HW I (f_equal rl (proj1 (Hu u Hne)))). intros n H. rewrite (HS n H). split; [congruence|discriminate].
    + rewrite Ha. split.
      * apply NoDup_app_iff. split; [apply (HW (PList t) I)|]. split; [apply (HW PAband I)|]. intros n H H'. apply HS in H. apply (HW PAband I) in H'. congruence.
      * intros n. rewrite in_app_iff. destruct (in_dec Nat.eq_dec n L); tauto.
    + apply (place_same st _ _ (PFlight u) _ HW I).
      * cbn [lst]. destruct (Nat.eq_dec u t) as [->|Hne]; [rewrite Ht, Had, Hadp; reflexivity|destruct (Hu u Hne) as [_ ->]; reflexivity].
      * intros n H. rewrite (HS n H). split; discriminate.
  - rewrite Ht. exact Hp.
  - intros u Hne. apply (Hu u Hne).
Qed.

(** the end of scan(): reclaim_nodes(retire_list); reclaim_nodes(adopted) *)
Lemma InvN_reclaim st st' t s p (keepb : nat -> bool) :
  InvN st -> th st t = S7 s -> th st' t = p -> ad_of p = [] -> pcN st t p ->
  let L := rl (tl st t) ++ s_ad s in
  let freed := filter (fun n => negb (keepb n)) L in
  let kept := rev (filter keepb (s_ad s)) ++ rev (filter keepb (rl (tl st t))) in
  (forall c', cells st' c' = cells st c') -> (forall m, g_life st' m = g_life st m) ->
  (forall m, g_where st' m = if mem m kept then PList t else if mem m freed then PFreed else g_where st m) ->
  (forall m, g_nfree st' m = g_nfree st m + count m freed) ->
  aband st' = aband st -> nalloc st <= nalloc st' ->
  rl (tl st' t) = kept -> (forall u, u <> t -> tl st' u = tl st u /\ th st' u = th st u) ->
  InvN st'.
Proof.
  intros HN Hth Ht Hadp Hp L freed kept Hc Hl Hw Hf Ha Hn Hr Hu. pose proof (InvN_where st HN) as HW.
  destruct (HW (PList t) I) as [Nd1 In1]. destruct (HW (PFlight t) I) as [Nd2 In2]. cbn [lst] in Nd1, In1, Nd2, In2.
  rewrite Hth in Nd2, In2. cbn [ad_of] in Nd2, In2.
  assert (Hdj : forall m, In m (rl (tl st t)) -> ~ In m (s_ad s)) by (intros m H H'; apply In1 in H; apply In2 in H'; congruence).
  assert (HL : forall m, In m L -> g_where st m = PList t \/ g_where st m = PFlight t).
  { intros m H. apply in_app_iff in H. destruct H as [H|H]; [left; apply In1|right; apply In2]; exact H. }
  assert (HLnd : NoDup L) by (apply NoDup_app_iff; split; [exact Nd1|split; [exact Nd2|exact Hdj]]).
  assert (Hk : forall m, In m kept <-> In m L /\ keepb m = true).
  { intros m. unfold kept, L. rewrite !in_app_iff, <- !in_rev, !filter_In. tauto. }
  assert (Hfr : forall m, In m freed <-> In m L /\ keepb m = false).
  { intros m. unfold freed. rewrite filter_In, negb_true_iff. tauto. }
  apply (InvN_move st st' t L (fun m => if keepb m then PList t else PFreed) HN); try assumption.
  - intros n H. destruct (HL n H) as [-> | ->]; exact I.
  - intros n _. destruct (keepb n); discriminate.
  - intros n. rewrite Hw. destruct (mem n L) eqn:E; [apply mem_In in E|apply mem_false in E].
    + destruct (keepb n) eqn:K; [rewrite (proj2 (mem_In n kept) (proj2 (Hk n) (conj E K))); reflexivity|].
      assert (H : ~ In n kept) by (rewrite Hk; intros [_ H]; congruence). apply mem_false in H.
      rewrite H, (proj2 (mem_In n freed) (proj2 (Hfr n) (conj E K))). reflexivity.
    + assert (H1 : ~ In n kept) by (rewrite Hk; tauto). assert (H2 : ~ In n freed) by (rewrite Hfr; tauto).
      apply mem_false in H1, H2. rewrite H1, H2. reflexivity.
  - intros n. rewrite Hf. f_equal. destruct (mem n L) eqn:E; [apply mem_In in E|apply mem_false in E].
    + destruct (keepb n) eqn:K; [apply count_notin; rewrite Hfr; intros [_ H]; congruence|].
      apply count_nodup; [apply NoDup_filter; exact HLnd|apply Hfr; split; assumption].
    + apply count_notin. rewrite Hfr. tauto.
  - intros q Hq. destruct q as [|u| |u|]; try destruct Hq; cbn [lst].
    + destruct (Nat.eq_dec u t) as [->|Hne].
      * rewrite Hr. split.
        -- apply NoDup_app_iff. split; [apply NoDup_rev, NoDup_filter, Nd2|]. split; [apply NoDup_rev, NoDup_filter, Nd1|].
           intros x Hx Hx'. apply in_rev, filter_In in Hx. apply in_rev, filter_In in Hx'. apply (Hdj x (proj1 Hx') (proj1 Hx)).
        -- intros n. rewrite Hk. split; [intros [H K]; left; split; [exact H|rewrite K; reflexivity]|].
           intros [[H K]|[H1 H2]]; [split; [exact H|destruct (keepb n); [reflexivity|discriminate]]|].
           exfalso. apply H1. apply in_app_iff. left. exact H2.
      * apply (place_same st _ _ (PList u) _ HW I (f_equal rl (proj1 (Hu u Hne)))). intros n H.
        split; [destruct (HL n H) as [-> | ->]; congruence|destruct (keepb n); congruence].
    + apply (place_same st _ _ PAband _ HW I Ha). intros n H.
      split; [destruct (HL n H) as [-> | ->]; discriminate|destruct (keepb n); discriminate].
    + destruct (Nat.eq_dec u t) as [->|Hne].
      * rewrite Ht, Hadp, Hth. cbn [ad_of]. split; [constructor|]. intros n. split; [intros []|].
        intros [[_ H]|[H1 H2]]; [destruct (keepb n); discriminate|apply H1; apply in_app_iff; right; exact H2].
      * apply (place_same st _ _ (PFlight u) _ HW I (f_equal ad_of (proj2 (Hu u Hne)))). intros n H.
        split; [destruct (HL n H) as [-> | ->]; congruence|destruct (keepb n); discriminate].
  - rewrite Ht. exact Hp.
  - intros u Hne. apply (Hu u Hne).
Qed.

Lemma InvN_ush st st1 t : ush t st st1 -> InvN st -> InvN st1.
Proof.
  intros Hu HN. pose proof (ush_same _ _ _ Hu) as HS.
  assert (Hrl : forall u, rl (tl st1 u) = rl (tl st u)).
  { intros u. destruct (Nat.eq_dec u t) as [->|Hne]; [apply (sb_rl _ _ _ HS)|rewrite (sb_tl _ _ _ HS u Hne); reflexivity]. }
  apply (InvN_frame st); try (intros; rewrite ?(sb_cells _ _ _ HS), ?(sb_life _ _ _ HS), ?(sb_where _ _ _ HS), ?(sb_nfree _ _ _ HS), ?(sb_th _ _ _ HS); reflexivity).
  - apply (sb_aband _ _ _ HS).
  - rewrite (sb_nalloc _ _ _ HS). lia.
  - exact Hrl.
  - intros u. rewrite (sb_th _ _ _ HS). tauto.
  - exact HN.
Qed.

Section N.
Variable nslots : nat.

(** the side conditions of [InvN_frame]: the fields by computation; the three conditions per thread (rl, ad_of, pcN) by
    [thn]: the stepping thread by its old and new program point ([Hth]), the others unchanged *)
Ltac thn t' t Hth :=
  destruct (Nat.eq_dec t' t) as [->|?]; upds; rewrite ?Hth; cbn [ad_of s_ad]; prj; intros;
  first [reflexivity | assumption | tauto | congruence | discriminate | exact I
        | (apply pcN_plain; [reflexivity|intros; repeat split; discriminate])
        | (match goal with H : pcN _ _ _ |- pcN _ _ _ => destruct H as [H1 H2]; split; [exact H1|first [exact I|exact H2]] end) ].
Ltac frn t Hth := first [reflexivity | assumption | lia | (let t' := fresh "t'" in intros t'; thn t' t Hth)].
(** a successor state simplified, [g0] left folded *)
Ltac simn := unfold reset_guard, unshare, set_gd; repeat (progress (prj; upds)).
(** the hypotheses of the InvN_* lemmas about a concrete successor state, by computation *)
Ltac cl t :=
  intros; simn;
  first [ reflexivity | assumption | lia | discriminate | exact I | tauto
        | (upds; prj; try split; reflexivity)
        | (repeat split; intros; first [discriminate | exact I | reflexivity])
        | (match goal with |- context [upd _ t _ ?u] => destruct (Nat.eq_dec u t) as [->|?]; upds; prj; try split; reflexivity end) ].

Lemma InvN_step st a st' es : InvN st -> step nslots st a = Some (st', es) -> InvN st'.
Proof.
  intros HN Hs. destruct a as [t o|t]; cbn [step] in Hs.
  - destruct (th st t) eqn:Hth; try discriminate Hs. destruct (legal nslots o); [|discriminate Hs].
    injection Hs as <- <-. apply (InvN_frame st); prj; frn t Hth.
  - pose proof (n_pc st HN t) as Hpc. destruct (th st t) eqn:Hth; try discriminate Hs.
    all: leaves Hs.
    (* thread_end *)
    all: try (match goal with Hu : ush _ ?s0 ?st1 |- InvN (set_pc _ _ ?st1) =>
           assert (HN0 : InvN s0) by (first [exact HN | (apply (InvN_frame st); simn; frn t Hth)]);
           pose proof (InvN_ush _ _ _ Hu HN0) as HN1; pose proof (ush_same _ _ _ Hu) as HSb;
           apply (InvN_frame st1); prj; try reflexivity; try lia; try exact HN1;
           [ intros u; destruct (Nat.eq_dec u t) as [->|?]; upds; rewrite ?(sb_th _ _ _ HSb); unfold reset_guard; prj; rewrite ?Hth; reflexivity
           | intros u _; destruct (Nat.eq_dec u t) as [->|?]; upds; [apply pcN_plain; [reflexivity|intros; repeat split; discriminate]|apply (n_pc _ HN1)] ] end; fail).
    (* S0 -> S1 *)
    all: try (match goal with |- InvN (set_pc _ (S1 _) _) =>
           apply (InvN_frame st); simn; try reflexivity; try lia; try exact HN;
           [ intros u; destruct (Nat.eq_dec u t) as [->|?]; upds; rewrite ?Hth; reflexivity
           | intros u Hu; destruct (Nat.eq_dec u t) as [->|?]; upds; [split; [exact I|reflexivity]|exact Hu] ] end; fail).
    (* repl: the new node *)
    all: try (match goal with |- context [LFresh] =>
           dg; (eapply (InvN_fresh st _ t); [exact HN|rewrite Hth; reflexivity|cl t ..]) end; fail).
    (* the end of scan *)
    all: try (match goal with Hth : th _ _ = S7 ?s |- _ =>
           eapply (InvN_reclaim st _ t s _ (fun n => is_prot (s_prot s) (ce st n) (re st n))); [exact HN|exact Hth|cl t ..] end; fail).
    (* abandon *)
    all: try (match goal with Hth : th _ _ = X3 _ |- _ =>
           eapply (InvN_abandon st _ t); [exact HN|rewrite Hth; reflexivity|cl t ..] end; fail).
    (* adopt *)
    all: try (match goal with Hth : th _ _ = S3 ?s |- _ =>
           eapply (InvN_adopt st _ t s); [exact HN|exact Hth|cl t ..] end; fail).
    (* retire *)
    all: try (match goal with Hth : th _ _ = R3 ?o |- _ =>
           eapply (InvN_retire st _ t o); [exact HN|exact Hth|cl t ..] end; fail).
    (* the lost CAS *)
    all: try (match goal with Hth : th _ _ = R1 ?c (Some ?n) |- context [LDropped] =>
           eapply (InvN_drop st _ t c n); [exact HN|exact Hth|cl t ..] end; fail).
    (* the successful CAS *)
    all: try (match goal with Hth : th _ _ = R1 ?c ?n, Ec : oeqb (cells _ ?c) ?o = true |- _ =>
           apply oeqb_eq in Ec;
           eapply (InvN_cas st _ t c n o); [exact HN|exact Hth|exact Ec|cl t ..] end; fail).
    (* the other steps leave the nodes alone *)
    all: dg; apply (InvN_frame st); simn; frn t Hth.
Qed.

Lemma InvN_init ncells : InvN (init ncells).
Proof.
  constructor; unfold init, gone; prj; cbn [tl0 rl ad_of].
  - intros c n H. destruct (c <? ncells) eqn:E; [|discriminate]. injection H as <-. rewrite E. reflexivity.
  - intros n H. destruct (Nat.ltb_spec n ncells); [lia|reflexivity].
  - intros n. split; [intros _ u; destruct (n <? ncells); discriminate|reflexivity].
  - intros t n. split; [discriminate|intros []].
  - intros; constructor.
  - intros n. split; [discriminate|intros []].
  - constructor.
  - intros t n. split; [discriminate|intros []].
  - intros; constructor.
  - intros n. destruct (n <? ncells); reflexivity.
  - intros; split; exact I.
Qed.
End N.
