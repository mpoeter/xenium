(** C18 - hazard pointer slots: proofs about the model Model/HpSlotsDefs.v (which is run against the compiled
    xenium::reclamation::hazard_pointer by tools/hpslots_diff.py).
    For every K >= 1, both allocation strategies, every number of guards and every operation sequence.
    The pool part (free list, allocation, release) is polymorphic in the payload and is used again by Proof/HeSlots.v.
    In order: lists; [chain] (the free list); [PoolInv] with one lemma per pool operation ([pool_init], [pool_release],
    [pool_set], [pool_alloc]) and [pool_facts]; the guard layer: [held], [Inv], [inv_put], [step_inv], [run_inv];
    [Facts] / [slots_invariant]; [alloc_site] / [alloc_site_cases]; then the theorems of the property:
    [static_alloc_succeeds_iff_inv], [exhausted_preserves_existing_inv], [reset_returns_slot_inv],
    [move_transfers_slot_inv], [copy_takes_new_slot_inv], [copy_assign_reuses_slot_inv], [no_leak_inv],
    [repeated_acquire_release_inv], [dynamic_never_exhausted], [static_alloc_succeeds_iff_protecting],
    [K_protecting_guards_inv].  The suffix [_inv] means: for any state that satisfies [Inv], reachable or not;
    Properties/Properties_C18.v instantiates these at [snd (run cfg ops)] with [run_inv]. *)
From Coq Require Import String List Arith Bool Lia Permutation.
From XV Require Import Model.HpSlotsDefs.
Import ListNotations.


(** * Lists *)
Notation cnt l x := (count_occ Nat.eq_dec l x).

(** decides goals of linear arithmetic over [nat] that contain [<?], [<=?], [=?] tests (as the [if .. then 1 else 0]
    of the counting lemmas do): every test is replaced by the two cases of its specification, and each case is left to
    [lia], or to [reflexivity] when both sides have become equal *)
Ltac case_bools :=
  repeat match goal with
         | |- context [?a <? ?b] => destruct (Nat.ltb_spec a b)
         | |- context [?a <=? ?b] => destruct (Nat.leb_spec a b)
         | |- context [?a =? ?b] => destruct (Nat.eqb_spec a b)
         end; cbn [andb orb negb]; try lia; try reflexivity.

Lemma cnt_cons y l x : cnt (y :: l) x = (if y =? x then 1 else 0) + cnt l x.
Proof.
  cbn [count_occ]. destruct (Nat.eq_dec y x) as [->|N]; [rewrite Nat.eqb_refl|rewrite (proj2 (Nat.eqb_neq y x) N)]; reflexivity.
Qed.

Lemma cnt_seq : forall n a x, cnt (seq a n) x = if (a <=? x) && (x <? a + n) then 1 else 0.
Proof.
  induction n as [|n IH]; intros a x.
  - cbn [seq count_occ]. case_bools.
  - cbn [seq]. rewrite cnt_cons, IH. case_bools.
Qed.

Lemma cnt_In l x : In x l <-> 1 <= cnt l x.
Proof. rewrite (count_occ_In Nat.eq_dec). lia. Qed.

Lemma cnt_notIn l x : ~ In x l <-> cnt l x = 0.
Proof. apply count_occ_not_In. Qed.

Lemma nth_error_lt {X} (l : list X) i x : nth_error l i = Some x -> i < length l.
Proof. intros H. apply nth_error_Some. congruence. Qed.

Lemma set_nth_length {X} : forall (l : list X) i x, length (set_nth i x l) = length l.
Proof. induction l as [|h t IH]; intros [|i] x; cbn [set_nth length]; auto. Qed.

Lemma nth_error_set_nth_eq {X} : forall (l : list X) i x, i < length l -> nth_error (set_nth i x l) i = Some x.
Proof.
  induction l as [|h t IH]; intros [|i] x Hl; cbn [length] in Hl; try lia; cbn [set_nth nth_error]; auto.
  apply IH. lia.
Qed.

Lemma nth_error_set_nth_neq {X} : forall (l : list X) i j x, i <> j -> nth_error (set_nth i x l) j = nth_error l j.
Proof.
  induction l as [|h t IH]; intros [|i] [|j] x Hn; cbn [set_nth nth_error]; auto; try congruence.
Qed.

Lemma nth_error_set_nth_inv {X} (l : list X) i j x y : nth_error (set_nth i x l) j = Some y ->
  i = j /\ y = x \/ i <> j /\ nth_error l j = Some y.
Proof.
  intros H. destruct (Nat.eq_dec i j) as [<-|N].
  - left. rewrite nth_error_set_nth_eq in H by (rewrite <- (set_nth_length l i x); eapply nth_error_lt; eassumption).
    split; congruence.
  - right. rewrite nth_error_set_nth_neq in H by assumption. split; assumption.
Qed.

Lemma set_nth_map_const {X Y} (f : X -> Y) : forall (l : list X) i x, set_nth i (f x) (map f l) = map f (set_nth i x l).
Proof. induction l as [|h t IH]; intros [|i] x; cbn [set_nth map]; auto. f_equal. apply IH. Qed.

Lemma set_nth_set_nth_same {X} : forall (l : list X) i x y, set_nth i y (set_nth i x l) = set_nth i y l.
Proof. induction l as [|h t IH]; intros [|i] x y; cbn [set_nth]; auto. f_equal. apply IH. Qed.

(** * The free list *)
Section Chain.
  Context {A : Type}.
  Implicit Types (sl : list (slot A)).

  Inductive chain sl : option nat -> list nat -> Prop :=
  | chain_nil : chain sl None []
  | chain_cons i nx l : nth_error sl i = Some (Link nx) -> chain sl nx l -> chain sl (Some i) (i :: l).

  Lemma chain_set_nth sl h l i s : chain sl h l -> ~ In i l -> chain (set_nth i s sl) h l.
  Proof.
    induction 1 as [|j nx l Hj Hc IH]; intros Hn.
    - constructor.
    - econstructor.
      + rewrite nth_error_set_nth_neq; [eassumption|]. intros ->. apply Hn. left. reflexivity.
      + apply IH. intros Hin. apply Hn. right. assumption.
  Qed.

  Lemma chain_app sl ext h l : chain sl h l -> chain (sl ++ ext) h l.
  Proof.
    induction 1 as [|j nx l Hj Hc IH].
    - constructor.
    - econstructor; [|exact IH]. rewrite nth_error_app1; [assumption|]. eapply nth_error_lt; eassumption.
  Qed.

  Lemma chain_det sl h l1 : chain sl h l1 -> forall l2, chain sl h l2 -> l1 = l2.
  Proof.
    induction 1 as [|j nx l Hj Hc IH]; intros l2 H2; inversion H2; subst.
    - reflexivity.
    - f_equal. apply IH. congruence.
  Qed.

  Lemma chain_walk sl h l : chain sl h l -> forall fuel, length l <= fuel -> walk fuel sl h = l.
  Proof.
    induction 1 as [|j nx l Hj Hc IH]; intros fuel Hf.
    - destruct fuel; reflexivity.
    - destruct fuel as [|f]; cbn [length] in Hf; [lia|]. cbn [walk]. rewrite Hj. f_equal. apply IH. lia.
  Qed.

  Lemma chain_lt sl h l i : chain sl h l -> In i l -> i < length sl.
  Proof.
    induction 1 as [|j nx l Hj Hc IH]; intros Hin; [destruct Hin|].
    destruct Hin as [<-|Hin]; [eapply nth_error_lt; eassumption | auto].
  Qed.

  (** ** blocks *)
  Lemma mkblock_length : forall size start next, length (@mkblock A start size next) = size.
  Proof.
    induction size as [|n IH]; intros start next; [reflexivity|].
    cbn [mkblock]. destruct n as [|n']; [reflexivity|]. cbn [length]. rewrite IH. reflexivity.
  Qed.

  Lemma mkblock_nth : forall size start next j, j < size ->
    nth_error (@mkblock A start size next) j = Some (Link (if S j =? size then next else Some (start + S j))).
  Proof.
    induction size as [|n IH]; intros start next j Hj; [lia|].
    cbn [mkblock]. destruct n as [|n'].
    - assert (j = 0) as -> by lia. reflexivity.
    - destruct j as [|j].
      + cbn [nth_error]. replace (1 =? S (S n')) with false by (symmetry; apply Nat.eqb_neq; lia).
        rewrite Nat.add_1_r. reflexivity.
      + cbn [nth_error]. rewrite IH by lia.
        replace (S (S j) =? S (S n')) with (S j =? S n') by reflexivity.
        replace (S start + S j) with (start + S (S j)) by lia. reflexivity.
  Qed.

  (** a block placed at [start .. start+size) of [sl] whose last slot links to the head of a chain [l] *)
  Lemma block_chain : forall size sl start next l, 1 <= size ->
    (forall j, j < size -> nth_error sl (start + j) = nth_error (@mkblock A start size next) j) ->
    chain sl next l -> chain sl (Some start) (seq start size ++ l).
  Proof.
    induction size as [|n IH]; intros sl start next l Hs Hblk Hc; [lia|].
    cbn [seq app]. pose proof (Hblk 0 ltac:(lia)) as H0. rewrite Nat.add_0_r, mkblock_nth, Nat.add_1_r in H0 by lia.
    econstructor; [exact H0|]. destruct n as [|n']; [exact Hc|].
    apply IH with (next := next); [lia| |exact Hc].
    intros j Hj. specialize (Hblk (S j) ltac:(lia)).
    replace (S start + j) with (start + S j) by lia. rewrite Hblk.
    rewrite !mkblock_nth by lia.
    replace (S (S j) =? S (S n')) with (S j =? S n') by reflexivity.
    replace (S start + S j) with (start + S (S j)) by lia. reflexivity.
  Qed.
End Chain.

(** * The pool invariant, relative to the list [H] of slots that are in use *)
Section PoolInv.
  Context {A : Type}.
  Implicit Types (p : pool A) (H : list nat).

  (** the slots of the dynamically allocated blocks in the order in which [initialize] links them *)
  Fixpoint blocks_chain (start : nat) (bs : list nat) : list nat :=
    match bs with
    | [] => []
    | b :: r => blocks_chain (start + b) r ++ seq start b
    end.

  Lemma cnt_blocks_chain : forall bs start x,
    cnt (blocks_chain start bs) x = if (start <=? x) && (x <? start + list_sum bs) then 1 else 0.
  Proof.
    induction bs as [|b r IH]; intros start x; cbn [blocks_chain].
    - change (list_sum []) with 0. cbn [count_occ]. case_bools.
    - change (list_sum (b :: r)) with (b + list_sum r). rewrite count_occ_app, IH, cnt_seq. case_bools.
  Qed.

  Lemma relink_length : forall bs start prev, length (fst (@relink A start prev bs)) = list_sum bs.
  Proof.
    induction bs as [|b r IH]; intros start prev; cbn [relink]; [reflexivity|].
    change (list_sum (b :: r)) with (b + list_sum r).
    specialize (IH (start + b) (Some start)). destruct (relink (start + b) (Some start) r) as [l newest].
    cbn [fst] in *. rewrite app_length, mkblock_length, IH. reflexivity.
  Qed.

  Lemma relink_chain : forall bs sl start prev lp, Forall (le 1) bs ->
    (forall j, j < list_sum bs -> nth_error sl (start + j) = nth_error (fst (@relink A start prev bs)) j) ->
    chain sl prev lp ->
    chain sl (snd (@relink A start prev bs)) (blocks_chain start bs ++ lp).
  Proof.
    induction bs as [|b r IH]; intros sl start prev lp Hge Hsl Hc; cbn [relink blocks_chain] in *.
    - exact Hc.
    - change (list_sum (b :: r)) with (b + list_sum r) in Hsl. inversion Hge as [|b' r' Hb Hr]; subst.
      pose proof (relink_length r (start + b) (Some start)) as Hlen.
      specialize (IH sl (start + b) (Some start) (seq start b ++ lp) Hr).
      destruct (relink (start + b) (Some start) r) as [l newest]. cbn [fst snd] in *.
      rewrite <- app_assoc. apply IH.
      + intros j Hj. specialize (Hsl (b + j) ltac:(lia)).
        rewrite nth_error_app2 in Hsl by (rewrite mkblock_length; lia).
        rewrite mkblock_length in Hsl. replace (b + j - b) with j in Hsl by lia.
        rewrite <- Hsl. f_equal. lia.
      + apply block_chain with (next := prev); [assumption| |assumption].
        intros j Hj. specialize (Hsl j ltac:(lia)).
        rewrite nth_error_app1 in Hsl by (rewrite mkblock_length; lia). exact Hsl.
  Qed.

  Lemma init_slots_length K bs : length (@init_slots A K bs) = K + list_sum bs.
  Proof.
    unfold init_slots. pose proof (relink_length bs K None) as Hl.
    destruct (relink K None bs) as [l newest]. cbn [fst] in Hl.
    rewrite app_length, mkblock_length, Hl. reflexivity.
  Qed.

  Lemma init_slots_chain K bs : 1 <= K -> Forall (le 1) bs ->
    chain (@init_slots A K bs) (Some 0) (seq 0 K ++ blocks_chain K bs).
  Proof.
    intros HK Hbs. unfold init_slots.
    pose proof (relink_length bs K None) as Hl.
    pose proof (fun sl => relink_chain bs sl K None [] Hbs) as Hc.
    destruct (relink K None bs) as [l newest] eqn:E. cbn [fst snd] in *.
    apply block_chain with (next := newest); [assumption| |].
    - intros j Hj. cbn [Nat.add]. rewrite nth_error_app1 by (rewrite mkblock_length; lia). reflexivity.
    - rewrite <- (app_nil_r (blocks_chain K bs)). apply Hc; [|constructor].
      intros j Hj. rewrite nth_error_app2 by (rewrite mkblock_length; lia).
      rewrite mkblock_length. f_equal. lia.
  Qed.

  Record PoolInv (cfg : config) p H : Prop := {
    pi_chain : exists fl, chain (slots p) (hint p) fl /\
                          forall x, cnt fl x + cnt H x = if x <? length (slots p) then 1 else 0;
    pi_total : length (slots p) = cK cfg + list_sum (blocks p);
    pi_blocks : Forall (le 1) (blocks p);
    pi_static : cDyn cfg = false -> blocks p = []
  }.

  Lemma PoolInv_perm cfg p H H' : Permutation H H' -> PoolInv cfg p H -> PoolInv cfg p H'.
  Proof.
    intros He [(fl & Hc & Hn) Ht Hb Hs]. split; try assumption.
    exists fl. split; [assumption|]. intros x. rewrite <- (proj1 (Permutation_count_occ Nat.eq_dec _ _) He). apply Hn.
  Qed.

  (** the chain of the invariant is the one [free_list] computes: a chain that misses the slots in use has no
      repetitions, so it fits into the fuel of the walk *)
  Lemma pool_intro cfg p H fl : chain (slots p) (hint p) fl ->
    (forall x, cnt fl x + cnt H x = if x <? length (slots p) then 1 else 0) ->
    length (slots p) = cK cfg + list_sum (blocks p) -> Forall (le 1) (blocks p) -> (cDyn cfg = false -> blocks p = []) ->
    PoolInv cfg p H /\ free_list p = fl.
  Proof.
    intros Hc Hn Ht Hb Hs. split; [split; eauto|].
    assert (Hnd : NoDup fl).
    { apply (NoDup_count_occ Nat.eq_dec). intros x. specialize (Hn x). destruct (x <? length (slots p)); lia. }
    apply chain_walk; [assumption|]. rewrite <- (seq_length (length (slots p)) 0). apply le_S, NoDup_incl_length; [assumption|].
    intros x Hx. apply in_seq. split; [lia|]. eapply chain_lt; eassumption.
  Qed.

  Lemma pool_free_list cfg p H : PoolInv cfg p H ->
    chain (slots p) (hint p) (free_list p) /\
    forall x, cnt (free_list p) x + cnt H x = if x <? length (slots p) then 1 else 0.
  Proof.
    intros [(fl & Hc & Hn) Ht Hb Hs]. destruct (pool_intro cfg p H fl Hc Hn Ht Hb Hs) as [_ ->]. split; assumption.
  Qed.

  Lemma pool_init cfg bs : 1 <= cK cfg -> Forall (le 1) bs -> (cDyn cfg = false -> bs = []) ->
    PoolInv cfg (@p_init A cfg bs) [].
  Proof.
    intros HK Hbs Hst.
    apply (pool_intro cfg (p_init cfg bs) [] (seq 0 (cK cfg) ++ blocks_chain (cK cfg) bs)); cbn [p_init slots hint blocks];
      try assumption; [apply init_slots_chain; assumption| |apply init_slots_length].
    intros x. rewrite init_slots_length, count_occ_app, cnt_seq, cnt_blocks_chain. cbn [count_occ]. case_bools.
  Qed.

  Lemma pool_used_once cfg p H i : PoolInv cfg p H -> cnt H i <= 1.
  Proof.
    intros [(fl & Hc & Hn) _ _ _]. specialize (Hn i). destruct (i <? length (slots p)); lia.
  Qed.

  Lemma pool_used_lt cfg p H i : PoolInv cfg p H -> In i H -> i < length (slots p).
  Proof.
    intros [(fl & Hc & Hn) _ _ _] Hin. apply cnt_In in Hin. specialize (Hn i).
    destruct (Nat.ltb_spec i (length (slots p))); [assumption|lia].
  Qed.

  Lemma pool_not_free cfg p H i : PoolInv cfg p H -> In i H -> ~ In i (free_list p).
  Proof.
    intros Hinv Hin. destruct (pool_free_list _ _ _ Hinv) as [_ Hn]. apply cnt_In in Hin. apply cnt_notIn.
    specialize (Hn i). destruct (i <? length (slots p)); lia.
  Qed.

  Lemma pool_perm cfg p H : PoolInv cfg p H -> Permutation (free_list p ++ H) (seq 0 (length (slots p))).
  Proof.
    intros Hinv. destruct (pool_free_list _ _ _ Hinv) as [_ Hn].
    apply (Permutation_count_occ Nat.eq_dec). intros x. rewrite count_occ_app, Hn, cnt_seq. case_bools.
  Qed.

  Lemma pool_used_length cfg p H : PoolInv cfg p H -> length (free_list p) + length H = length (slots p).
  Proof. intros Hinv. rewrite <- app_length, (Permutation_length (pool_perm _ _ _ Hinv)). apply seq_length. Qed.

  Lemma pool_static_total cfg p H : PoolInv cfg p H -> cDyn cfg = false -> length (slots p) = cK cfg.
  Proof. intros Hinv Hs. rewrite (pi_total _ _ _ Hinv), (pi_static _ _ _ Hinv Hs). apply Nat.add_0_r. Qed.

  Lemma pool_facts cfg p H : PoolInv cfg p H ->
    let fl := free_list p in
    let n := length (slots p) in
    (* 1 *) chain (slots p) (hint p) fl /\
    (* 2 *) NoDup fl /\
    (* 3 *) (forall i, In i fl <-> i < n /\ ~ In i H) /\
    (* 4 *) NoDup H /\
    (* 5 *) (forall i, In i H -> i < n) /\
    (* 6 *) Permutation (fl ++ H) (seq 0 n) /\
    (* 7 *) length H + length fl = n /\
    (* 8 *) n = cK cfg + list_sum (blocks p) /\
    (* 9 *) (cDyn cfg = false -> n = cK cfg).
  Proof.
    intros Hinv. destruct (pool_free_list _ _ _ Hinv) as [Hc Hn].
    assert (Hle : forall x, cnt (free_list p) x <= 1 /\ cnt H x <= 1).
    { intros x. specialize (Hn x). destruct (x <? length (slots p)); lia. }
    cbv zeta. repeat match goal with |- _ /\ _ => split end.
    - exact Hc.
    - apply (NoDup_count_occ Nat.eq_dec). apply Hle.
    - intros i. specialize (Hn i). rewrite !cnt_In. destruct (Nat.ltb_spec i (length (slots p))); lia.
    - apply (NoDup_count_occ Nat.eq_dec). apply Hle.
    - intros i. apply pool_used_lt with (cfg := cfg). assumption.
    - apply pool_perm with (cfg := cfg). assumption.
    - rewrite Nat.add_comm. apply pool_used_length with (cfg := cfg). assumption.
    - apply (pi_total _ _ _ Hinv).
    - apply pool_static_total with (H := H). assumption.
  Qed.

  (** ** release: the slot becomes the head of the free list *)
  Lemma pool_release cfg p H i : PoolInv cfg p (i :: H) ->
    PoolInv cfg (p_release i p) H /\ free_list (p_release i p) = i :: free_list p.
  Proof.
    intros Hinv. pose proof (pool_used_lt _ _ _ i Hinv (or_introl eq_refl)) as Hlt.
    pose proof (pool_not_free _ _ _ i Hinv (or_introl eq_refl)) as Hnf.
    destruct (pool_free_list _ _ _ Hinv) as [Hc Hn]. destruct Hinv as [_ Ht Hb Hs].
    apply pool_intro; cbn [p_release slots hint blocks]; rewrite ?set_nth_length; try assumption.
    - econstructor; [apply nth_error_set_nth_eq; assumption|apply chain_set_nth; assumption].
    - intros x. specialize (Hn x). rewrite cnt_cons in *. lia.
  Qed.

  (** ** writing the payload of a slot that is in use *)
  Lemma pool_set cfg p H i a : PoolInv cfg p H -> In i H ->
    PoolInv cfg (p_set i a p) H /\ free_list (p_set i a p) = free_list p.
  Proof.
    intros Hinv Hin. pose proof (pool_not_free _ _ _ i Hinv Hin) as Hnf.
    destruct (pool_free_list _ _ _ Hinv) as [Hc Hn]. destruct Hinv as [_ Ht Hb Hs].
    apply pool_intro; cbn [p_set slots hint blocks]; rewrite ?set_nth_length; try assumption.
    apply chain_set_nth; assumption.
  Qed.

  (** ** allocation: the head of the free list, or (dynamic strategy, free list empty) the first slot of a new
      block; static strategy with an empty free list: exhausted; [assert(is_link())] never fails *)
  Lemma pool_alloc cfg p H : 1 <= cK cfg -> PoolInv cfg p H ->
    match p_alloc cfg p with
    | AOk i p' =>
        PoolInv cfg p' (i :: H) /\ ~ In i H /\ i < length (slots p') /\ (exists ext, slots p' = slots p ++ ext) /\
        (slots p' = slots p /\ free_list p = i :: free_list p' \/
         cDyn cfg = true /\ free_list p = [] /\ i = length (slots p))
    | AExh => cDyn cfg = false /\ free_list p = []
    | ACorrupt => False
    end.
  Proof.
    intros HK Hinv. destruct (pool_free_list _ _ _ Hinv) as [Hc Hn]. destruct Hinv as [_ Ht Hb Hs].
    unfold p_alloc. remember (free_list p) as fl eqn:Hfl. remember (hint p) as h eqn:Hh. clear Hfl Hh.
    destruct Hc as [|j nx l Hj Hc'].
    - (* the free list is empty: every slot is in use *)
      cbn [count_occ Nat.add] in Hn. unfold need_more. destruct (cDyn cfg) eqn:Hd; [|split; reflexivity].
      set (total := length (slots p)) in *. set (hps := Nat.max (cK cfg) (total / 2)).
      assert (Hhps : 1 <= hps) by (unfold hps; lia). cbn [slots blocks hint].
      assert (Hblk : forall j, j < hps -> nth_error (slots p ++ mkblock total hps None) (total + j) = nth_error (mkblock total hps None) j).
      { intros j _. rewrite nth_error_app2 by (unfold total; lia). f_equal. unfold total. lia. }
      pose proof (block_chain hps _ total None [] Hhps Hblk (chain_nil _)) as Hcb. rewrite app_nil_r in Hcb.
      inversion Hcb as [|j' nx l Hj Hc' E Hl]; subst j'. rewrite Hj.
      destruct (pool_intro cfg {| slots := slots p ++ mkblock total hps None; hint := nx; blocks := blocks p ++ [hps] |}
                  (total :: H) l) as [Hinv' Hfl']; cbn [slots hint blocks]; try assumption.
      + intros x. rewrite app_length, mkblock_length. pose proof (cnt_seq hps total x) as Hs'. rewrite <- Hl in Hs'.
        rewrite cnt_cons in *. rewrite Hn. fold total. revert Hs'. case_bools.
      + rewrite app_length, mkblock_length, list_sum_app. change (list_sum [hps]) with (hps + 0). fold total. lia.
      + apply Forall_app. split; [assumption|]. constructor; [assumption|constructor].
      + congruence.
      + split; [assumption|]. split; [apply cnt_notIn; rewrite Hn; fold total; case_bools|].
        split; [rewrite app_length, mkblock_length; fold total; lia|]. split; [eexists; reflexivity|]. right. auto.
    - (* the head [j] of the free list *)
      rewrite Hj.
      destruct (pool_intro cfg {| slots := slots p; hint := nx; blocks := blocks p |} (j :: H) l) as [Hinv' Hfl']; try assumption.
      { intros x. specialize (Hn x). cbn [slots]. rewrite cnt_cons in *. lia. }
      rewrite Hfl'. split; [assumption|]. cbn [slots].
      split; [apply cnt_notIn; specialize (Hn j); rewrite cnt_cons, Nat.eqb_refl in Hn; destruct (j <? length (slots p)); lia|].
      split; [eapply nth_error_lt; eassumption|]. split; [exists []; symmetry; apply app_nil_r|]. left. split; reflexivity.
  Qed.

  Lemma pool_full cfg p H i : PoolInv cfg p H -> free_list p = [] -> i < length (slots p) -> In i H.
  Proof.
    intros Hinv Hfl Hlt. destruct (pool_free_list _ _ _ Hinv) as [_ Hn]. apply cnt_In. specialize (Hn i).
    rewrite Hfl in Hn. apply Nat.ltb_lt in Hlt. rewrite Hlt in Hn. cbn [count_occ] in Hn. lia.
  Qed.
End PoolInv.

(** * The guard layer *)
Definition hpl (g : guard) : list nat := match g_hp g with Some i => [i] | None => [] end.
(** the slots held by the guards, in guard order *)
Definition held (gs : list guard) : list nat := flat_map hpl gs.
Definition held_count (st : state) : nat := length (held (guards st)).

Lemma held_In gs i : In i (held gs) <-> exists g gd, nth_error gs g = Some gd /\ g_hp gd = Some i.
Proof.
  unfold held. rewrite in_flat_map. split.
  - intros (gd & Hin & Hi). apply In_nth_error in Hin. destruct Hin as [g Hg]. exists g, gd. split; [assumption|].
    unfold hpl in Hi. destruct (g_hp gd); [destruct Hi as [->|[]]; reflexivity|destruct Hi].
  - intros (g & gd & Hg & Hi). exists gd. split; [eapply nth_error_In; eassumption|].
    unfold hpl. rewrite Hi. left. reflexivity.
Qed.

Lemma held_all_empty gs : (forall g gd, nth_error gs g = Some gd -> gd = empty_guard) -> held gs = [].
Proof.
  intros Hall. destruct (held gs) as [|i l] eqn:E; [reflexivity|exfalso].
  destruct (proj1 (held_In gs i)) as (g & gd & Hg & Hi); [rewrite E; left; reflexivity|].
  rewrite (Hall g gd Hg) in Hi. discriminate.
Qed.

(** replacing one guard: up to order, its slot is exchanged for that of the new guard *)
Lemma held_put : forall gs g old new, nth_error gs g = Some old ->
  Permutation (hpl old ++ held (set_nth g new gs)) (hpl new ++ held gs).
Proof.
  induction gs as [|h t IH]; intros [|g] old new Hg; cbn [nth_error] in Hg; try discriminate; cbn [set_nth held flat_map].
  - inversion Hg; subst. fold (held t). rewrite !app_assoc. apply Permutation_app_tail, Permutation_app_comm.
  - fold (held t) (held (set_nth g new t)). rewrite (Permutation_app_swap_app (hpl new)), <- (IH g old new Hg).
    apply Permutation_app_swap_app.
Qed.

Lemma held_put_same gs g old new : nth_error gs g = Some old -> g_hp new = g_hp old ->
  Permutation (held (set_nth g new gs)) (held gs).
Proof. intros Hg E. apply (Permutation_app_inv_l (hpl old)). rewrite (held_put gs g old new Hg). unfold hpl. rewrite E. reflexivity. Qed.

Lemma held_put_take gs g old new i : nth_error gs g = Some old -> g_hp old = None -> g_hp new = Some i ->
  Permutation (held (set_nth g new gs)) (i :: held gs).
Proof. intros Hg Eo En. pose proof (held_put gs g old new Hg) as P. unfold hpl in P. rewrite Eo, En in P. exact P. Qed.

Lemma held_put_drop gs g old new i : nth_error gs g = Some old -> g_hp old = Some i -> g_hp new = None ->
  Permutation (i :: held (set_nth g new gs)) (held gs).
Proof. intros Hg Eo En. pose proof (held_put gs g old new Hg) as P. unfold hpl in P. rewrite Eo, En in P. exact P. Qed.

Lemma cnt_held_take gs g old new i y : nth_error gs g = Some old -> g_hp old = None -> g_hp new = Some i ->
  cnt (held (set_nth g new gs)) y = (if i =? y then 1 else 0) + cnt (held gs) y.
Proof.
  intros Hg Eo En. rewrite (proj1 (Permutation_count_occ Nat.eq_dec _ _) (held_put_take gs g old new i Hg Eo En)). apply cnt_cons.
Qed.

Lemma cnt_held_drop gs g old new i y : nth_error gs g = Some old -> g_hp old = Some i -> g_hp new = None ->
  cnt (held gs) y = (if i =? y then 1 else 0) + cnt (held (set_nth g new gs)) y.
Proof.
  intros Hg Eo En. rewrite <- (proj1 (Permutation_count_occ Nat.eq_dec _ _) (held_put_drop gs g old new i Hg Eo En)). apply cnt_cons.
Qed.

Lemma held_move gs dst src dd sd : dst <> src -> nth_error gs dst = Some dd -> nth_error gs src = Some sd ->
  Permutation (hpl dd ++ held (set_nth src empty_guard (set_nth dst sd gs))) (held gs).
Proof.
  intros Hne Hd Hs.
  assert (Hs' : nth_error (set_nth dst sd gs) src = Some sd) by (rewrite nth_error_set_nth_neq; assumption).
  pose proof (held_put gs dst dd sd Hd) as P1. pose proof (held_put _ src sd empty_guard Hs') as P2.
  apply (Permutation_app_inv_l (hpl sd)). rewrite Permutation_app_swap_app, P2. exact P1.
Qed.

Lemma held_swap gs a b ga gb : nth_error gs a = Some ga -> nth_error gs b = Some gb ->
  Permutation (held (set_nth b ga (set_nth a gb gs))) (held gs).
Proof.
  intros Ha Hb.
  assert (Hb' : nth_error (set_nth a gb gs) b = Some gb).
  { destruct (Nat.eq_dec a b) as [<-|N]; [apply nth_error_set_nth_eq; eapply nth_error_lt; eassumption|].
    rewrite nth_error_set_nth_neq; assumption. }
  pose proof (held_put gs a ga gb Ha) as P1. pose proof (held_put _ b gb ga Hb') as P2.
  apply (Permutation_app_inv_l (hpl ga ++ hpl gb)). rewrite <- !app_assoc, P2, P1. reflexivity.
Qed.

Record Inv (cfg : config) (st : state) : Prop := {
  inv_pool : PoolInv cfg (pl st) (held (guards st));
  inv_obj : forall g gd i, nth_error (guards st) g = Some gd -> g_hp gd = Some i ->
                           nth_error (slots (pl st)) i = Some (Obj (g_ptr gd));
  inv_null : forall g gd, nth_error (guards st) g = Some gd -> g_hp gd = None -> g_ptr gd = 0;
  (* a guard that holds a slot refers to an object: null and marked null guards hold no slot *)
  inv_nonnull : forall g gd i, nth_error (guards st) g = Some gd -> g_hp gd = Some i -> g_ptr gd <> 0;
  inv_len : length (guards st) = cG cfg
}.

(** what [Inv] says of one guard, given the slot array *)
Definition gwf (sl : list (slot nat)) (gd : guard) : Prop :=
  match g_hp gd with
  | Some i => nth_error sl i = Some (Obj (g_ptr gd)) /\ g_ptr gd <> 0
  | None => g_ptr gd = 0
  end.
Definition GWf (sl : list (slot nat)) (gs : list guard) : Prop := forall g gd, nth_error gs g = Some gd -> gwf sl gd.

Lemma inv_intro cfg p gs : PoolInv cfg p (held gs) -> GWf (slots p) gs -> length gs = cG cfg ->
  Inv cfg {| pl := p; guards := gs |}.
Proof.
  intros Hp Hw Hl. split; cbn [pl guards]; try assumption.
  - intros g gd i Hg Hi. specialize (Hw g gd Hg). unfold gwf in Hw. rewrite Hi in Hw. apply Hw.
  - intros g gd Hg Hi. specialize (Hw g gd Hg). unfold gwf in Hw. rewrite Hi in Hw. exact Hw.
  - intros g gd i Hg Hi. specialize (Hw g gd Hg). unfold gwf in Hw. rewrite Hi in Hw. apply Hw.
Qed.

Lemma inv_gwf cfg st : Inv cfg st -> GWf (slots (pl st)) (guards st).
Proof. intros [_ Ho Hn Hnn _] g gd Hg. unfold gwf. destruct (g_hp gd) eqn:Hi; eauto. Qed.

Lemma GWf_set_nth sl gs g x : GWf sl gs -> gwf sl x -> GWf sl (set_nth g x gs).
Proof. intros Hw Hx g' gd Hg. apply nth_error_set_nth_inv in Hg as [[_ ->]|[_ Hg]]; [assumption|eapply Hw; eassumption]. Qed.

(** the pool seen without guard [g]: its slot is in use beside those of the other guards *)
Lemma inv_pool_without cfg st g gd i : Inv cfg st -> nth_error (guards st) g = Some gd -> g_hp gd = Some i ->
  PoolInv cfg (pl st) (i :: held (set_nth g empty_guard (guards st))).
Proof.
  intros Hinv Hg Hi. apply PoolInv_perm with (held (guards st)); [symmetry; eapply held_put_drop; eauto|apply Hinv].
Qed.

Lemma inv_distinct cfg st g g' gd gd' i : Inv cfg st -> nth_error (guards st) g = Some gd -> g_hp gd = Some i ->
  nth_error (guards st) g' = Some gd' -> g_hp gd' = Some i -> g = g'.
Proof.
  intros Hinv Hg Hi Hg' Hi'. destruct (Nat.eq_dec g g') as [|Hne]; [assumption|exfalso].
  pose proof (pool_used_once _ _ _ i (inv_pool_without cfg st g gd i Hinv Hg Hi)) as Hle.
  assert (H1 : In i (held (set_nth g empty_guard (guards st)))).
  { apply held_In. exists g', gd'. split; [|assumption]. rewrite nth_error_set_nth_neq; assumption. }
  apply cnt_In in H1. rewrite cnt_cons, Nat.eqb_refl in Hle. lia.
Qed.

Lemma inv_init cfg : 1 <= cK cfg -> Inv cfg (init cfg).
Proof.
  intros HK. apply inv_intro; [|intros g gd Hg; apply nth_error_In, repeat_spec in Hg; subst gd; reflexivity|apply repeat_length].
  rewrite held_all_empty by (intros g gd Hg; apply nth_error_In, repeat_spec in Hg; assumption).
  apply pool_init; [assumption|constructor|reflexivity].
Qed.

(** guard [g] is replaced by [x] and the pool by [p']: it is enough that [p'] fits the new guard array, leaves the
    slots of the other guards alone and has in [x]'s slot what [x] refers to *)
Lemma inv_put cfg st p' g gd x : Inv cfg st -> get_g st g = Some gd ->
  PoolInv cfg p' (held (set_nth g x (guards st))) ->
  (forall j, In j (held (guards st)) -> g_hp gd <> Some j -> nth_error (slots p') j = nth_error (slots (pl st)) j) ->
  gwf (slots p') x ->
  Inv cfg {| pl := p'; guards := set_nth g x (guards st) |}.
Proof.
  intros Hinv Hg Hp' Hfr Hx. apply inv_intro; [assumption| |rewrite set_nth_length; apply (inv_len _ _ Hinv)].
  intros g' gd' Hg'. apply nth_error_set_nth_inv in Hg' as [[_ ->]|[Hne Hg']]; [assumption|].
  pose proof (inv_gwf _ _ Hinv g' gd' Hg') as Hw. unfold gwf in *. destruct (g_hp gd') as [j|] eqn:Hj; [|assumption].
  rewrite Hfr; [assumption|apply held_In; eauto|].
  intros Hgj. apply Hne. eapply inv_distinct; eassumption.
Qed.

(** only the guard array changes *)
Lemma inv_guards cfg st gs' : Inv cfg st -> length gs' = length (guards st) -> Permutation (held gs') (held (guards st)) ->
  GWf (slots (pl st)) gs' -> Inv cfg {| pl := pl st; guards := gs' |}.
Proof.
  intros Hinv Hl Hp Hw. apply inv_intro; [|assumption|rewrite Hl; apply (inv_len _ _ Hinv)].
  exact (PoolInv_perm _ _ _ _ (Permutation_sym Hp) (inv_pool _ _ Hinv)).
Qed.

(** ** reset *)
Lemma reset_guard_eq st g gd : get_g st g = Some gd ->
  reset_guard st g = {| pl := match g_hp gd with Some i => p_release i (pl st) | None => pl st end;
                        guards := set_nth g empty_guard (guards st) |}.
Proof. intros Hg. unfold reset_guard. rewrite Hg. destruct (g_hp gd); reflexivity. Qed.

Lemma reset_guard_none st g : get_g st g = None -> reset_guard st g = st.
Proof. intros Hg. unfold reset_guard. rewrite Hg. reflexivity. Qed.

Lemma inv_reset cfg st g : Inv cfg st -> Inv cfg (reset_guard st g).
Proof.
  intros Hinv. destruct (get_g st g) as [gd|] eqn:Hg; [|rewrite reset_guard_none; assumption].
  rewrite (reset_guard_eq st g gd Hg). apply (inv_put cfg st _ g gd); try assumption; [| |reflexivity].
  - destruct (g_hp gd) as [i|] eqn:Hi; [apply pool_release, inv_pool_without with (gd := gd); assumption|].
    apply PoolInv_perm with (held (guards st)); [symmetry; eapply held_put_same; eauto|apply Hinv].
  - intros j _ Hne. destruct (g_hp gd) as [i|]; [|reflexivity]. apply nth_error_set_nth_neq. congruence.
Qed.

(** ** taking (or reusing) a slot and protecting v *)
Lemma inv_protect cfg st g gd i p v m : 1 <= cK cfg -> Inv cfg st -> get_g st g = Some gd -> v <> 0 ->
  ensure_hp cfg st (g_hp gd) = AOk i p -> Inv cfg (protect st p g i v m).
Proof.
  intros HK Hinv Hg Hv He. pose proof (inv_pool _ _ Hinv) as Hp.
  destruct (g_hp gd) as [i0|] eqn:Hi; cbn [ensure_hp] in He.
  - (* the guard keeps its slot *)
    inversion He; subst i0 p. apply (inv_put cfg st (p_set i v (pl st)) g gd); try assumption; cbn [p_set slots].
    + apply PoolInv_perm with (held (guards st)); [symmetry; eapply held_put_same; eauto|].
      apply pool_set; [assumption|apply held_In; eauto].
    + intros j _ Hne. apply nth_error_set_nth_neq. congruence.
    + split; [|assumption]. apply nth_error_set_nth_eq. eapply nth_error_lt, (inv_obj _ _ Hinv); eassumption.
  - (* a new slot *)
    pose proof (pool_alloc cfg _ _ HK Hp) as Ha. rewrite He in Ha. destruct Ha as (Hp' & Hnin & Hlt & [ext Hext] & _).
    apply (inv_put cfg st (p_set i v p) g gd); try assumption; cbn [p_set slots].
    + apply PoolInv_perm with (i :: held (guards st)); [symmetry; eapply held_put_take; eauto|].
      apply pool_set; [assumption|left; reflexivity].
    + intros j Hin _. rewrite nth_error_set_nth_neq, Hext by congruence. apply nth_error_app1. eapply pool_used_lt; eassumption.
    + split; [|assumption]. apply nth_error_set_nth_eq. assumption.
Qed.

(** ** the guard array after [reset_guard] *)
Lemma reset_guard_get_same st g gd : get_g st g = Some gd -> get_g (reset_guard st g) g = Some empty_guard.
Proof. intros Hg. rewrite (reset_guard_eq st g gd Hg). apply nth_error_set_nth_eq. eapply nth_error_lt; eassumption. Qed.

Lemma reset_guard_get_other st g g' : g <> g' -> get_g (reset_guard st g) g' = get_g st g'.
Proof.
  intros Hne. destruct (get_g st g) as [gd|] eqn:Hg; [|rewrite reset_guard_none; trivial].
  rewrite (reset_guard_eq st g gd Hg). apply nth_error_set_nth_neq. assumption.
Qed.

Lemma reset_guard_length st g : length (guards (reset_guard st g)) = length (guards st).
Proof.
  destruct (get_g st g) as [gd|] eqn:Hg; [|rewrite reset_guard_none; trivial].
  rewrite (reset_guard_eq st g gd Hg). apply set_nth_length.
Qed.

(** ** the remaining state changes *)
Lemma inv_reset_put cfg st g gd x : Inv cfg st -> get_g st g = Some gd -> g_hp x = None -> g_ptr x = 0 ->
  Inv cfg (put_g (reset_guard st g) g x).
Proof.
  intros Hinv Hg Hx Hv. pose proof (inv_reset cfg st g Hinv) as Hinv0. pose proof (reset_guard_get_same st g gd Hg) as Hg0.
  apply (inv_put cfg _ _ g empty_guard x Hinv0 Hg0); [|reflexivity|unfold gwf; rewrite Hx; exact Hv].
  apply PoolInv_perm with (held (guards (reset_guard st g))); [symmetry; eapply held_put_same; eauto|apply Hinv0].
Qed.

Lemma inv_construct cfg st g gd v m o st' : 1 <= cK cfg -> Inv cfg st -> get_g st g = Some gd ->
  construct_from cfg (reset_guard st g) g v m = (o, st') -> Inv cfg st'.
Proof.
  intros HK Hinv Hg Hc. unfold construct_from in Hc. destruct (Nat.eqb_spec v 0) as [Hv|Hv].
  - inversion Hc; subst. eapply inv_reset_put; eauto.
  - pose proof (inv_reset cfg st g Hinv) as Hinv0.
    destruct (p_alloc cfg (pl (reset_guard st g))) as [i p| |] eqn:Ha; inversion Hc; subst; try assumption.
    eapply inv_protect; eauto using reset_guard_get_same.
Qed.

Lemma inv_move cfg st dst src dd sd : Inv cfg st -> dst <> src -> get_g st dst = Some dd -> get_g st src = Some sd ->
  Inv cfg (put_g (put_g (reset_guard st dst) dst sd) src empty_guard).
Proof.
  intros Hinv Hne Hd Hs. pose proof (inv_reset cfg st dst Hinv) as Hinv0.
  pose proof (reset_guard_get_same st dst dd Hd) as Hd0. rewrite <- (reset_guard_get_other st dst src Hne) in Hs.
  unfold put_g; cbn [pl guards]. apply (inv_guards cfg _ _ Hinv0); [rewrite !set_nth_length; reflexivity|exact (held_move _ dst src empty_guard sd Hne Hd0 Hs)|].
  pose proof (inv_gwf _ _ Hinv0) as Hw. apply GWf_set_nth; [apply GWf_set_nth; [assumption|exact (Hw src sd Hs)]|reflexivity].
Qed.

Lemma inv_swap cfg st a b ga gb : Inv cfg st -> get_g st a = Some ga -> get_g st b = Some gb ->
  Inv cfg (put_g (put_g st a gb) b ga).
Proof.
  intros Hinv Ha Hb. unfold put_g; cbn [pl guards]. apply (inv_guards cfg _ _ Hinv); [rewrite !set_nth_length; reflexivity|eapply held_swap; eauto|].
  pose proof (inv_gwf _ _ Hinv) as Hw. apply GWf_set_nth; [apply GWf_set_nth; [assumption|exact (Hw b gb Hb)]|exact (Hw a ga Ha)].
Qed.

Lemma inv_exit cfg st : 1 <= cK cfg -> Inv cfg st ->
  Inv cfg {| pl := p_init cfg (blocks (pl st)); guards := map (fun _ => empty_guard) (guards st) |}.
Proof.
  intros HK Hinv. pose proof (inv_pool _ _ Hinv) as Hp.
  assert (He : forall g gd, nth_error (map (fun _ => empty_guard) (guards st)) g = Some gd -> gd = empty_guard).
  { intros g gd Hg. apply nth_error_In, in_map_iff in Hg as (_ & E & _). congruence. }
  apply inv_intro; [|intros g gd Hg; rewrite (He g gd Hg); reflexivity|rewrite map_length; apply (inv_len _ _ Hinv)].
  rewrite (held_all_empty _ He). apply pool_init; [assumption|apply (pi_blocks _ _ _ Hp)|apply (pi_static _ _ _ Hp)].
Qed.

Definition outcome_of (cfg : config) (st : state) (op : gop) : outcome := fst (fst (step cfg st op)).
Definition state_after (cfg : config) (st : state) (op : gop) : state := snd (step cfg st op).

(** * Every operation preserves the invariant *)
Theorem step_inv cfg st op : 1 <= cK cfg -> Inv cfg st -> Inv cfg (state_after cfg st op).
Proof.
  intros HK Hinv. unfold state_after.
  assert (Hens : forall g gd v m b, get_g st g = Some gd -> v <> 0 ->
            Inv cfg (snd (match ensure_hp cfg st (g_hp gd) with
                          | AOk i p => (Ok, b, protect st p g i v m)
                          | AExh => (Exhausted, false, st)
                          | ACorrupt => (Invalid, false, st)
                          end))).
  { intros g gd v m b Hg Hv. destruct (ensure_hp cfg st (g_hp gd)) as [i p| |] eqn:He; [|assumption..].
    eapply inv_protect; eassumption. }
  destruct op as [g v m|g v m ev em|g|g v m|dst src|dst src|dst src|dst src|dst src|]; cbn [step].
  (* every operation first looks up its guards.
     Goals 1-4: acquire, acquire_if_equal, reset, guard_ptr(p) (one guard [g]); 5-9: copy constructor, move constructor,
     copy assignment, move assignment, swap (two guards [dst], [src]); 10: thread exit *)
  1-4: destruct (get_g st g) as [gd|] eqn:Hg; [|assumption].
  5-9: destruct (get_g st dst) as [dd|] eqn:Hd; [|assumption].
  5-9: destruct (get_g st src) as [sd|] eqn:Hs; [|assumption].
  - (* acquire *)
    destruct ((v =? g_ptr gd) && (m =? g_mark gd)); [assumption|].
    destruct (Nat.eqb_spec v 0) as [->|Hv]; [eapply inv_reset_put; eauto|apply Hens; assumption].
  - (* acquire_if_equal *)
    destruct (Nat.eqb_spec v 0) as [->|Hv]; destruct (_ && _); cbn [orb negb snd];
      [eapply inv_reset_put; eauto|apply inv_reset; assumption|apply Hens; assumption|apply inv_reset; assumption].
  - (* reset *)
    apply inv_reset; assumption.
  - (* guard_ptr(p) *)
    destruct (construct_from cfg (reset_guard st g) g v m) as [o st'] eqn:Hc. eapply inv_construct; eassumption.
  - (* copy constructor *)
    destruct (dst =? src); [assumption|].
    destruct (construct_from cfg (reset_guard st dst) dst (g_ptr sd) (g_mark sd)) as [o st'] eqn:Hc.
    exact (inv_construct cfg st dst dd _ _ o st' HK Hinv Hd Hc).
  - (* move constructor *)
    destruct (Nat.eqb_spec dst src); [assumption|eapply inv_move; eassumption].
  - (* copy assignment *)
    destruct (dst =? src); [assumption|].
    destruct (Nat.eqb_spec (g_ptr sd) 0) as [Hz|Hnz]; [eapply inv_reset_put; eauto|apply Hens; assumption].
  - (* move assignment *)
    destruct (Nat.eqb_spec dst src); [assumption|eapply inv_move; eassumption].
  - (* swap *)
    apply inv_swap; assumption.
  - (* thread exit *)
    apply inv_exit; assumption.
Qed.

Lemma run_from_cons cfg st op r :
  run_from cfg st (op :: r) =
  (observe (outcome_of cfg st op) (snd (fst (step cfg st op))) (state_after cfg st op) :: fst (run_from cfg (state_after cfg st op) r),
   snd (run_from cfg (state_after cfg st op) r)).
Proof.
  cbn [run_from]. unfold outcome_of, state_after. destruct (step cfg st op) as [[o b] st']. cbn [fst snd].
  destruct (run_from cfg st' r); reflexivity.
Qed.

Lemma run_from_inv cfg : 1 <= cK cfg -> forall ops st, Inv cfg st -> Inv cfg (snd (run_from cfg st ops)).
Proof.
  intros HK. induction ops as [|op r IH]; intros st Hinv; [assumption|].
  rewrite run_from_cons. apply IH, step_inv; assumption.
Qed.

Theorem run_inv cfg ops : 1 <= cK cfg -> Inv cfg (snd (run cfg ops)).
Proof. intros HK. apply run_from_inv; [assumption|apply inv_init; assumption]. Qed.

(** * Reading the invariant *)
Lemma gather_In {A} (sl : list (slot A)) i a : nth_error sl i = Some (Obj a) -> In a (gather sl).
Proof.
  intros Hn. unfold gather. apply in_flat_map. exists (Obj a). split; [eapply nth_error_In; eassumption|left; reflexivity].
Qed.

Definition Facts (cfg : config) (st : state) : Prop :=
  let fl := free_list (pl st) in
  let H := held (guards st) in
  let n := length (slots (pl st)) in
  (* 1: the list that starts at hint consists of link slots, ends in nullptr, ... *)
  chain (slots (pl st)) (hint (pl st)) fl /\
  (* 2, 3: ... is duplicate free and enumerates exactly the slots that no guard holds *)
  NoDup fl /\ (forall i, In i fl <-> i < n /\ ~ In i H) /\
  (* 4, 5, 6: the slots of different guards are different, and are slots *)
  NoDup H /\
  (forall g g' gd gd' i, nth_error (guards st) g = Some gd -> g_hp gd = Some i ->
                         nth_error (guards st) g' = Some gd' -> g_hp gd' = Some i -> g = g') /\
  (forall i, In i H -> i < n) /\
  (* 7, 8: held + free = all *)
  Permutation (fl ++ H) (seq 0 n) /\ length H + length fl = n /\
  (* 9: a held slot contains the guard's object, so a scan gathers it *)
  (forall g gd i, nth_error (guards st) g = Some gd -> g_hp gd = Some i ->
                  nth_error (slots (pl st)) i = Some (Obj (g_ptr gd)) /\ In (g_ptr gd) (gather (slots (pl st)))) /\
  (* 10: a guard that refers to an object holds a slot *)
  (forall g gd, nth_error (guards st) g = Some gd -> g_ptr gd <> 0 -> exists i, g_hp gd = Some i) /\
  (* 11: ... and only such a guard does: a guard on a null or marked null pointer holds no slot *)
  (forall g gd i, nth_error (guards st) g = Some gd -> g_hp gd = Some i -> g_ptr gd <> 0) /\
  (* 12, 13, 14: the number of slots, of guards *)
  n = cK cfg + list_sum (blocks (pl st)) /\ (cDyn cfg = false -> n = cK cfg) /\
  length (guards st) = cG cfg.

Lemma inv_facts cfg st : Inv cfg st -> Facts cfg st.
Proof.
  intros Hinv. pose proof Hinv as [Hp Ho Hn Hnn Hl].
  destruct (pool_facts _ _ _ Hp) as (Hc & Hndf & Hfree & HndH & Hlt & Hperm & Hlen & Htot & Hst).
  unfold Facts. repeat match goal with |- _ /\ _ => split end; try assumption.
  - intros g g' gd gd' i. apply inv_distinct with (cfg := cfg). assumption.
  - intros g gd i Hg Hi. split; [|eapply gather_In]; eapply Ho; eassumption.
  - intros g gd Hg Hnz. destruct (g_hp gd) as [i|] eqn:Hi; [eexists; reflexivity|].
    exfalso. apply Hnz. eapply Hn; eassumption.
Qed.

(** ** the invariant for every operation sequence *)
Theorem slots_invariant cfg ops : 1 <= cK cfg -> Facts cfg (snd (run cfg ops)).
Proof. intros HK. apply inv_facts, run_inv. assumption. Qed.

Example ex_slots_invariant :
  let cfg := {| cK := 3; cDyn := false; cG := 4 |} in
  let st := snd (run cfg [GAcquire 0 7 0; GAcquire 1 8 0; GCopyCtor 2 0; GReset 1; GMoveAssign 3 2]) in
  free_list (pl st) = [1] /\ held (guards st) = [0; 2] /\
  map g_hp (guards st) = [Some 0; None; None; Some 2] /\ gather (slots (pl st)) = [7; 7].
Proof. vm_compute. repeat split. Qed.

(** * Which operations take a new slot, and from which state *)
Definition target (op : gop) : nat :=
  match op with
  | GAcquire g _ _ | GAcquireIfEqual g _ _ _ _ | GReset g | GCtorPtr g _ _ => g
  | GCopyCtor d _ | GMoveCtor d _ | GCopyAssign d _ | GMoveAssign d _ => d
  | GSwap a _ => a
  | GExit => 0
  end.

(** [Some st0]: the operation calls alloc_hazard_pointer, and does so in state [st0] (for the constructors: after the
    old guard object was destroyed) *)
Definition alloc_site (st : state) (op : gop) : option state :=
  match op with
  | GAcquire g v m =>
      match get_g st g with
      | Some gd => if ((v =? g_ptr gd) && (m =? g_mark gd)) || (v =? 0) then None
                   else match g_hp gd with None => Some st | Some _ => None end
      | None => None
      end
  | GAcquireIfEqual g v m ev em =>
      match get_g st g with
      | Some gd => if (v =? 0) || negb ((v =? ev) && (m =? em)) then None
                   else match g_hp gd with None => Some st | Some _ => None end
      | None => None
      end
  | GCtorPtr g v m =>
      match get_g st g with
      | Some _ => if v =? 0 then None else Some (reset_guard st g)
      | None => None
      end
  | GCopyCtor dst src =>
      match get_g st dst, get_g st src with
      | Some _, Some sd => if (dst =? src) || (g_ptr sd =? 0) then None else Some (reset_guard st dst)
      | _, _ => None
      end
  | GCopyAssign dst src =>
      match get_g st dst, get_g st src with
      | Some dd, Some sd => if (dst =? src) || (g_ptr sd =? 0) then None
                            else match g_hp dd with None => Some st | Some _ => None end
      | _, _ => None
      end
  | _ => None
  end.

Definition valid_op (cfg : config) (op : gop) : Prop :=
  match op with
  | GAcquire g _ _ | GAcquireIfEqual g _ _ _ _ | GReset g | GCtorPtr g _ _ => g < cG cfg
  | GCopyCtor d s | GMoveCtor d s => d < cG cfg /\ s < cG cfg /\ d <> s
  | GCopyAssign d s | GMoveAssign d s | GSwap d s => d < cG cfg /\ s < cG cfg
  | GExit => True
  end.

(** An operation with an allocation site is valid, the guard [target op] has no slot there, and the result is decided
    by [alloc_hazard_pointer] alone.  An operation without one succeeds, unless it is not a valid operation (it names a
    guard that does not exist or constructs a guard from itself). *)
Lemma alloc_site_cases cfg st op :
  match alloc_site st op with
  | Some st0 =>
      (length (guards st) = cG cfg -> valid_op cfg op) /\ (st0 = st \/ st0 = reset_guard st (target op)) /\
      exists gd v m ret, get_g st0 (target op) = Some gd /\ g_hp gd = None /\
        step cfg st op = match p_alloc cfg (pl st0) with
                         | AOk i p => (Ok, ret, protect st0 p (target op) i v m)
                         | AExh => (Exhausted, false, st0)
                         | ACorrupt => (Invalid, false, st0)
                         end
  | None => outcome_of cfg st op = Ok \/ outcome_of cfg st op = Invalid /\ (length (guards st) = cG cfg -> ~ valid_op cfg op)
  end.
Proof.
  unfold outcome_of.
  assert (Hlt : forall g gd, get_g st g = Some gd -> length (guards st) = cG cfg -> g < cG cfg).
  { intros g gd Hg <-. eapply nth_error_lt. exact Hg. }
  assert (Hno : forall g, get_g st g = None -> length (guards st) = cG cfg -> ~ g < cG cfg).
  { intros g Hg <-. apply nth_error_None in Hg. lia. }
  destruct op as [g v m|g v m ev em|g|g v m|dst src|dst src|dst src|dst src|dst src|]; cbn [alloc_site step target valid_op].
  (* every operation first looks up its guards; without them it is not valid.
     Goals 1-4: acquire, acquire_if_equal, reset, guard_ptr(p) (one guard [g]); 5-9: copy constructor, move constructor,
     copy assignment, move assignment, swap (two guards [dst], [src]); 10: thread exit *)
  1-4: destruct (get_g st g) as [gd|] eqn:Hg; [|right; split; [reflexivity|auto]].
  5-9: destruct (get_g st dst) as [dd|] eqn:Hd; [|right; split; [reflexivity|pose proof (Hno _ Hd); tauto]].
  5-9: destruct (get_g st src) as [sd|] eqn:Hs; [|right; split; [reflexivity|pose proof (Hno _ Hs); tauto]].
  - (* acquire *)
    destruct ((v =? g_ptr gd) && (m =? g_mark gd)); cbn [orb]; [left; reflexivity|].
    destruct (v =? 0); [left; reflexivity|]. destruct (g_hp gd) eqn:Hi; cbn [ensure_hp]; [left; reflexivity|].
    split; [eauto|]. split; [left; reflexivity|]. exists gd, v, m, false. auto.
  - (* acquire_if_equal *)
    destruct ((v =? 0) || negb ((v =? ev) && (m =? em))); [left; reflexivity|].
    destruct (g_hp gd) eqn:Hi; cbn [ensure_hp]; [left; reflexivity|].
    split; [eauto|]. split; [left; reflexivity|]. exists gd, v, m, true. auto.
  - (* reset *)
    left; reflexivity.
  - (* guard_ptr(p) *)
    unfold construct_from. destruct (v =? 0); [left; reflexivity|].
    split; [eauto|]. split; [right; reflexivity|]. exists empty_guard, v, m, false.
    split; [eapply reset_guard_get_same; eassumption|]. split; [reflexivity|].
    destruct (p_alloc cfg (pl (reset_guard st g))); reflexivity.
  - (* copy constructor *)
    destruct (Nat.eqb_spec dst src); cbn [orb]; [right; split; [reflexivity|tauto]|].
    unfold construct_from. destruct (g_ptr sd =? 0); [left; reflexivity|].
    split; [eauto|]. split; [right; reflexivity|]. exists empty_guard, (g_ptr sd), (g_mark sd), false.
    split; [eapply reset_guard_get_same; eassumption|]. split; [reflexivity|].
    destruct (p_alloc cfg (pl (reset_guard st dst))); reflexivity.
  - (* move constructor *)
    destruct (Nat.eqb_spec dst src); [right; split; [reflexivity|tauto]|left; reflexivity].
  - (* copy assignment *)
    destruct (dst =? src); cbn [orb]; [left; reflexivity|]. destruct (g_ptr sd =? 0); [left; reflexivity|].
    destruct (g_hp dd) eqn:Hi; cbn [ensure_hp]; [left; reflexivity|].
    split; [eauto|]. split; [left; reflexivity|]. exists dd, (g_ptr sd), (g_mark sd), false. auto.
  - (* move assignment *)
    destruct (dst =? src); left; reflexivity.
  - (* swap *)
    left; reflexivity.
  - left; reflexivity.
Qed.

Lemma alloc_site_spec cfg st op st0 : alloc_site st op = Some st0 ->
  (st0 = st \/ st0 = reset_guard st (target op)) /\
  exists gd v m ret, get_g st0 (target op) = Some gd /\ g_hp gd = None /\
    step cfg st op = match p_alloc cfg (pl st0) with
                     | AOk i p => (Ok, ret, protect st0 p (target op) i v m)
                     | AExh => (Exhausted, false, st0)
                     | ACorrupt => (Invalid, false, st0)
                     end.
Proof.
  intros Ha. pose proof (alloc_site_cases cfg st op) as H. rewrite Ha in H. apply H.
Qed.

(** the allocating state is the state itself or the state after the old guard object was destroyed (no configuration
    enters: [alloc_site] does not allocate) *)
Lemma alloc_site_state st op st0 : alloc_site st op = Some st0 -> st0 = st \/ st0 = reset_guard st (target op).
Proof.
  destruct op as [g v m|g v m ev em|g|g v m|dst src|dst src|dst src|dst src|dst src|]; cbn [alloc_site target]; try discriminate.
  1-3: destruct (get_g st g) as [gd|]; [|discriminate].
  4-5: destruct (get_g st dst) as [dd|]; [|discriminate]; destruct (get_g st src) as [sd|]; [|discriminate].
  1-2,5: destruct (_ || _); [discriminate|]; destruct (g_hp _); [discriminate|]; intros E; inversion E; auto.
  - destruct (v =? 0); [discriminate|]. intros E; inversion E; auto.
  - destruct (_ || _); [discriminate|]. intros E; inversion E; auto.
Qed.

(** an operation without an allocation site never throws, and is [Invalid] only if it is not a valid operation *)
Lemma no_alloc_site cfg st op : length (guards st) = cG cfg -> alloc_site st op = None ->
  outcome_of cfg st op <> Exhausted /\ (valid_op cfg op -> outcome_of cfg st op = Ok).
Proof.
  intros Hl Ha. pose proof (alloc_site_cases cfg st op) as H. rewrite Ha in H.
  destruct H as [->|[-> Hnv]]; split; try discriminate; tauto.
Qed.

(** * Counting *)
Lemma held_count_put st p g gd x : get_g st g = Some gd ->
  held_count {| pl := p; guards := set_nth g x (guards st) |} + length (hpl gd) = held_count st + length (hpl x).
Proof.
  intros Hg. unfold held_count. cbn [guards]. pose proof (Permutation_length (held_put _ g gd x Hg)) as E.
  rewrite !app_length in E. lia.
Qed.

Lemma held_count_reset st g gd : get_g st g = Some gd ->
  held_count (reset_guard st g) + length (hpl gd) = held_count st.
Proof. intros Hg. rewrite (reset_guard_eq st g gd Hg), (held_count_put st _ g gd _ Hg). apply Nat.add_0_r. Qed.

Lemma held_count_reset_le st g : held_count (reset_guard st g) <= held_count st.
Proof.
  destruct (get_g st g) as [gd|] eqn:Hg; [|rewrite reset_guard_none; trivial].
  pose proof (held_count_reset st g gd Hg). lia.
Qed.

Lemma static_total cfg st : Inv cfg st -> cDyn cfg = false -> length (slots (pl st)) = cK cfg.
Proof. intros Hinv. apply (pool_static_total _ _ _ (inv_pool _ _ Hinv)). Qed.

(** alloc_hazard_pointer succeeds unless (static strategy) all K slots are held; then it throws *)
Lemma alloc_outcome cfg st : 1 <= cK cfg -> Inv cfg st ->
  match p_alloc cfg (pl st) with
  | AOk _ _ => cDyn cfg = true \/ held_count st < cK cfg
  | AExh => cDyn cfg = false /\ held_count st = cK cfg
  | ACorrupt => False
  end.
Proof.
  intros HK Hinv. pose proof (inv_pool _ _ Hinv) as Hp. pose proof (pool_alloc cfg _ _ HK Hp) as Ha.
  pose proof (pool_used_length _ _ _ Hp) as E. fold (held_count st) in E.
  destruct (p_alloc cfg (pl st)) as [i p| |]; [|destruct Ha as [Hs Hfl]|assumption].
  - destruct (cDyn cfg) eqn:Hd; [left; reflexivity|right]. rewrite (static_total _ _ Hinv Hd) in E.
    destruct Ha as (_ & _ & _ & _ & [[_ Hfl]|[? _]]); [|discriminate]. rewrite Hfl in E. cbn [length] in E. lia.
  - split; [assumption|]. rewrite (static_total _ _ Hinv Hs), Hfl in E. exact E.
Qed.

Lemma alloc_facts cfg st g gd i p v m : 1 <= cK cfg -> Inv cfg st -> get_g st g = Some gd -> g_hp gd = None ->
  p_alloc cfg (pl st) = AOk i p ->
  let st' := protect st p g i v m in
  get_g st' g = Some {| g_hp := Some i; g_ptr := v; g_mark := m |} /\
  (forall g', g' <> g -> get_g st' g' = get_g st g') /\
  ~ In i (held (guards st)) /\
  nth_error (slots (pl st')) i = Some (Obj v) /\
  held_count st' = S (held_count st) /\
  (cDyn cfg = false -> free_list (pl st) = i :: free_list (pl st')).
Proof.
  intros HK Hinv Hg Hi Ha st'. pose proof (pool_alloc cfg _ _ HK (inv_pool _ _ Hinv)) as Hal. rewrite Ha in Hal.
  destruct Hal as (Hp' & Hnin & Hlt & _ & Hcase).
  assert (Hgl : g < length (guards st)) by (eapply nth_error_lt; eassumption).
  subst st'. unfold protect, put_g, with_pool, get_g. cbn [pl guards p_set slots].
  split; [apply nth_error_set_nth_eq; assumption|].
  split; [intros g' Hne; apply nth_error_set_nth_neq; congruence|].
  split; [assumption|].
  split; [apply nth_error_set_nth_eq; assumption|].
  split.
  - pose proof (held_count_put st (p_set i v p) g gd {| g_hp := Some i; g_ptr := v; g_mark := m |} Hg) as E.
    unfold hpl in E. rewrite Hi in E. cbn [g_hp length] in E. lia.
  - intros Hs. destruct Hcase as [[_ Hfl]|[? _]]; [|congruence].
    rewrite Hfl. f_equal. symmetry. apply (pool_set cfg p (i :: held (guards st))); [assumption|left; reflexivity].
Qed.

(** * K slots are available, exhaustion is reported *)
Theorem static_alloc_succeeds_iff_inv cfg st op st0 : 1 <= cK cfg -> Inv cfg st -> cDyn cfg = false ->
  alloc_site st op = Some st0 ->
  let o := outcome_of cfg st op in
  let st' := state_after cfg st op in
  (o = Ok <-> held_count st0 < cK cfg) /\
  (o = Exhausted <-> held_count st0 = cK cfg) /\
  (o = Ok -> exists i gd, get_g st' (target op) = Some gd /\ g_hp gd = Some i /\
                          nth_error (slots (pl st')) i = Some (Obj (g_ptr gd)) /\
                          free_list (pl st0) = i :: free_list (pl st') /\
                          held_count st' = S (held_count st0)) /\
  (o = Exhausted -> st' = st0 /\ get_g st' (target op) <> None /\
                    forall gd, get_g st' (target op) = Some gd -> g_hp gd = None /\ g_ptr gd = 0).
Proof.
  intros HK Hinv Hs Ha o st'. subst o st'. unfold outcome_of, state_after.
  destruct (alloc_site_spec cfg st op st0 Ha) as (Hst0 & gd & v & m & ret & Hg & Hi & Hstep).
  assert (Hinv0 : Inv cfg st0) by (destruct Hst0 as [->| ->]; [assumption|apply inv_reset; assumption]).
  pose proof (alloc_outcome cfg st0 HK Hinv0) as Hout.
  rewrite Hstep. destruct (p_alloc cfg (pl st0)) as [i p| |] eqn:Hal; cbn [fst snd]; [| |contradiction].
  - destruct Hout as [?|Hlt]; [congruence|].
    destruct (alloc_facts cfg st0 (target op) gd i p v m HK Hinv0 Hg Hi Hal) as (Hget & _ & _ & Hobj & Hcnt & Hfl).
    split; [split; auto|]. split; [split; [discriminate|lia]|]. split; [|discriminate].
    intros _. exists i, {| g_hp := Some i; g_ptr := v; g_mark := m |}. auto 6.
  - destruct Hout as [_ Heq].
    split; [split; [discriminate|lia]|]. split; [split; auto|]. split; [discriminate|].
    intros _. split; [reflexivity|]. split; [congruence|]. intros gd' Hg'. assert (gd' = gd) by congruence. subst gd'.
    split; [assumption|]. eapply (inv_null _ _ Hinv0); eassumption.
Qed.

Example ex_static_alloc :
  let cfg := {| cK := 2; cDyn := false; cG := 3 |} in
  map o_res (fst (run cfg [GAcquire 0 1 0; GAcquire 1 2 0; GAcquire 2 3 0; GCopyCtor 2 0; GReset 0; GCopyCtor 2 1; GCopyAssign 0 1]))
  = [Ok; Ok; Exhausted; Exhausted; Ok; Ok; Exhausted].
Proof. vm_compute. reflexivity. Qed.

(** * An exhausted operation leaves the other guards alone, and the thread can go on *)
Lemma alloc_site_held_le st op st0 : alloc_site st op = Some st0 -> held_count st0 <= held_count st.
Proof. intros Ha. destruct (alloc_site_state st op st0 Ha) as [->| ->]; [lia|apply held_count_reset_le]. Qed.

Theorem exhausted_preserves_existing_inv cfg st op : 1 <= cK cfg -> Inv cfg st ->
  outcome_of cfg st op = Exhausted ->
  let st' := state_after cfg st op in
  cDyn cfg = false /\ valid_op cfg op /\
  (* every other guard keeps its slot and pointer, and the slot still contains the pointer *)
  (forall g, g <> target op -> get_g st' g = get_g st g) /\
  (forall g gd i, g <> target op -> get_g st g = Some gd -> g_hp gd = Some i ->
                  nth_error (slots (pl st')) i = Some (Obj (g_ptr gd))) /\
  (* the guard that asked holds no slot and refers to no object *)
  (forall gd, get_g st' (target op) = Some gd -> g_hp gd = None /\ g_ptr gd = 0) /\
  (* all K slots are held *)
  held_count st' = cK cfg /\
  (* after any one holding guard was reset the same operation succeeds *)
  (forall h gd, get_g st' h = Some gd -> g_hp gd <> None -> outcome_of cfg (reset_guard st' h) op = Ok).
Proof.
  intros HK Hinv Hexh st'. subst st'. pose proof (alloc_site_cases cfg st op) as Hcases.
  destruct (alloc_site st op) as [st0|] eqn:Ha; [|destruct Hcases as [E|[E _]]; congruence].
  destruct Hcases as (Hvalid & Hst0 & gd0 & v & m & ret & Hg0 & Hi0 & Hstep). specialize (Hvalid (inv_len _ _ Hinv)).
  assert (Hinv0 : Inv cfg st0) by (destruct Hst0 as [->| ->]; [assumption|apply inv_reset; assumption]).
  pose proof (alloc_outcome cfg st0 HK Hinv0) as Hout.
  unfold outcome_of, state_after in *. rewrite Hstep in *.
  destruct (p_alloc cfg (pl st0)) as [i p| |]; cbn [fst snd] in *; try discriminate. destruct Hout as [Hstatic Hfull].
  assert (Hother : forall g, g <> target op -> get_g st0 g = get_g st g).
  { intros g Hne. destruct Hst0 as [->| ->]; [reflexivity|]. apply reset_guard_get_other. congruence. }
  split; [assumption|]. split; [assumption|]. split; [assumption|]. split.
  { intros g gd i Hne Hg Hi. rewrite <- (Hother g Hne) in Hg. eapply (inv_obj _ _ Hinv0); eassumption. }
  split.
  { intros gd Hg. assert (gd = gd0) by congruence. subst gd. split; [assumption|].
    eapply (inv_null _ _ Hinv0); eassumption. }
  split; [assumption|].
  intros h gd Hh Hhp.
  assert (Hinv1 : Inv cfg (reset_guard st0 h)) by (apply inv_reset; assumption).
  assert (Hcnt1 : held_count (reset_guard st0 h) < cK cfg).
  { pose proof (held_count_reset st0 h gd Hh) as E. unfold hpl in E. destruct (g_hp gd); [|congruence]. cbn [length] in E. lia. }
  destruct (alloc_site (reset_guard st0 h) op) as [st1|] eqn:Ha1.
  - apply (static_alloc_succeeds_iff_inv cfg (reset_guard st0 h) op st1 HK Hinv1 Hstatic Ha1).
    pose proof (alloc_site_held_le _ _ _ Ha1). lia.
  - apply (no_alloc_site cfg _ op (inv_len _ _ Hinv1) Ha1). assumption.
Qed.

Example ex_exhausted_preserves :
  let cfg := {| cK := 2; cDyn := false; cG := 3 |} in
  map show_out (fst (run cfg [GAcquire 0 4 0; GCtorPtr 1 5 0; GCopyCtor 2 1; GReset 0; GCopyCtor 2 1]))
  = ["ok ret=0 g=[0:4.0,-:0.0,-:0.0] prot=[4] free=[1] total=2";
     "ok ret=0 g=[0:4.0,1:5.0,-:0.0] prot=[4,5] free=[] total=2";
     "exhausted ret=0 g=[0:4.0,1:5.0,-:0.0] prot=[4,5] free=[] total=2";
     "ok ret=0 g=[-:0.0,1:5.0,-:0.0] prot=[5] free=[0] total=2";
     "ok ret=0 g=[-:0.0,1:5.0,0:5.0] prot=[5,5] free=[] total=2"]%string.
Proof. vm_compute. reflexivity. Qed.

(** * reset / destruction returns the slot *)
Lemma reset_free_list cfg st g gd : Inv cfg st -> get_g st g = Some gd ->
  free_list (pl (reset_guard st g)) = hpl gd ++ free_list (pl st).
Proof.
  intros Hinv Hg. rewrite (reset_guard_eq st g gd Hg). unfold hpl. cbn [pl]. destruct (g_hp gd) as [i|] eqn:Hi; [|reflexivity].
  apply (pool_release cfg _ (held (set_nth g empty_guard (guards st)))), inv_pool_without with (gd := gd); assumption.
Qed.

Theorem reset_returns_slot_inv cfg st g gd i : 1 <= cK cfg -> Inv cfg st -> get_g st g = Some gd -> g_hp gd = Some i ->
  let st' := state_after cfg st (GReset g) in
  outcome_of cfg st (GReset g) = Ok /\
  get_g st' g = Some empty_guard /\ (forall g', g' <> g -> get_g st' g' = get_g st g') /\
  free_list (pl st') = i :: free_list (pl st) /\
  held_count st' + 1 = held_count st /\
  (exists p, p_alloc cfg (pl st') = AOk i p).      (* the next allocation gets exactly this slot *)
Proof.
  intros HK Hinv Hg Hi st'. subst st'. unfold outcome_of, state_after. cbn [step]. rewrite Hg. cbn [fst snd].
  split; [reflexivity|]. split; [eapply reset_guard_get_same; eassumption|].
  split; [intros g' Hne; apply reset_guard_get_other; congruence|].
  split; [rewrite (reset_free_list cfg st g gd Hinv Hg); unfold hpl; rewrite Hi; reflexivity|].
  split; [pose proof (held_count_reset st g gd Hg) as E; unfold hpl in E; rewrite Hi in E; exact E|].
  rewrite (reset_guard_eq st g gd Hg), Hi. unfold p_alloc. cbn [pl p_release hint slots blocks].
  rewrite nth_error_set_nth_eq; [eexists; reflexivity|].
  eapply nth_error_lt. eapply (inv_obj _ _ Hinv); eassumption.
Qed.

Example ex_reset_returns_slot :
  let cfg := {| cK := 3; cDyn := false; cG := 3 |} in
  let st := snd (run cfg [GAcquire 0 1 0; GAcquire 1 2 0; GAcquire 2 3 0]) in
  free_list (pl st) = [] /\ free_list (pl (state_after cfg st (GReset 1))) = [1] /\
  map g_hp (guards (state_after cfg (state_after cfg st (GReset 1)) (GAcquire 1 9 0))) = [Some 0; Some 1; Some 2].
Proof. vm_compute. repeat split. Qed.

(** * move: the slot goes to the destination, the source is empty, no slot is consumed *)
Theorem move_transfers_slot_inv cfg st op dst src dd sd : 1 <= cK cfg -> Inv cfg st ->
  op = GMoveCtor dst src \/ op = GMoveAssign dst src -> dst <> src ->
  get_g st dst = Some dd -> get_g st src = Some sd ->
  let st' := state_after cfg st op in
  outcome_of cfg st op = Ok /\
  get_g st' dst = Some sd /\ get_g st' src = Some empty_guard /\
  (forall g, g <> dst -> g <> src -> get_g st' g = get_g st g) /\
  free_list (pl st') = hpl dd ++ free_list (pl st) /\     (* the destination's old slot is returned, none is taken *)
  held_count st' + length (hpl dd) = held_count st.
Proof.
  intros HK Hinv Hop Hne Hd Hs st'. subst st'.
  assert (Hstep : step cfg st op = (Ok, false, put_g (put_g (reset_guard st dst) dst sd) src empty_guard)).
  { destruct Hop as [-> | ->]; cbn [step]; rewrite Hd, Hs; destruct (Nat.eqb_spec dst src); try contradiction; reflexivity. }
  unfold outcome_of, state_after. rewrite Hstep. cbn [fst snd].
  assert (Hgs : guards (put_g (put_g (reset_guard st dst) dst sd) src empty_guard)
                = set_nth src empty_guard (set_nth dst sd (guards st))).
  { rewrite (reset_guard_eq st dst dd Hd). cbn [put_g guards]. rewrite set_nth_set_nth_same. reflexivity. }
  unfold get_g in *. rewrite Hgs.
  assert (Hdl : dst < length (guards st)) by (eapply nth_error_lt; eassumption).
  assert (Hsl : src < length (guards st)) by (eapply nth_error_lt; eassumption).
  split; [reflexivity|].
  split; [rewrite nth_error_set_nth_neq by congruence; apply nth_error_set_nth_eq; assumption|].
  split; [apply nth_error_set_nth_eq; rewrite set_nth_length; assumption|].
  split; [intros g H1 H2; rewrite !nth_error_set_nth_neq by congruence; reflexivity|].
  split; [cbn [put_g pl]; apply (reset_free_list cfg st dst dd Hinv Hd)|].
  unfold held_count. rewrite Hgs, <- (Permutation_length (held_move _ dst src dd sd Hne Hd Hs)), app_length. lia.
Qed.

Example ex_move_transfers_slot :
  let cfg := {| cK := 2; cDyn := false; cG := 3 |} in
  map show_out (fst (run cfg [GAcquire 0 4 0; GAcquire 1 5 1; GMoveCtor 2 0; GMoveAssign 2 1; GMoveAssign 2 2]))
  = ["ok ret=0 g=[0:4.0,-:0.0,-:0.0] prot=[4] free=[1] total=2";
     "ok ret=0 g=[0:4.0,1:5.1,-:0.0] prot=[4,5] free=[] total=2";
     "ok ret=0 g=[-:0.0,1:5.1,0:4.0] prot=[4,5] free=[] total=2";
     "ok ret=0 g=[-:0.0,-:0.0,1:5.1] prot=[5] free=[0] total=2";
     "ok ret=0 g=[-:0.0,-:0.0,1:5.1] prot=[5] free=[0] total=2"]%string.
Proof. vm_compute. reflexivity. Qed.

(** * copy: the copy takes a slot of its own *)
Theorem copy_takes_new_slot_inv cfg st dst src dd sd i : 1 <= cK cfg -> Inv cfg st -> dst <> src ->
  get_g st dst = Some dd -> get_g st src = Some sd -> g_hp sd = Some i -> g_ptr sd <> 0 ->
  let st0 := reset_guard st dst in                      (* the old guard object at dst was destroyed *)
  let st' := state_after cfg st (GCopyCtor dst src) in
  alloc_site st (GCopyCtor dst src) = Some st0 /\
  (outcome_of cfg st (GCopyCtor dst src) = Ok ->
   exists j, get_g st' dst = Some {| g_hp := Some j; g_ptr := g_ptr sd; g_mark := g_mark sd |} /\
             j <> i /\ ~ In j (held (guards st0)) /\
             get_g st' src = Some sd /\
             nth_error (slots (pl st')) j = Some (Obj (g_ptr sd)) /\
             nth_error (slots (pl st')) i = Some (Obj (g_ptr sd)) /\
             held_count st' = S (held_count st0)).
Proof.
  intros HK Hinv Hne Hd Hs Hi Hnz st0 st'.
  assert (Ha : alloc_site st (GCopyCtor dst src) = Some st0).
  { cbn [alloc_site]. rewrite Hd, Hs. destruct (Nat.eqb_spec dst src); [contradiction|].
    destruct (Nat.eqb_spec (g_ptr sd) 0); [contradiction|]. reflexivity. }
  split; [assumption|]. subst st'.
  assert (Hinv0 : Inv cfg st0) by (apply inv_reset; assumption).
  pose proof (step_inv cfg st (GCopyCtor dst src) HK Hinv) as Hinv'.
  assert (Hg0 : get_g st0 dst = Some empty_guard) by (eapply reset_guard_get_same; eassumption).
  revert Hinv'. unfold outcome_of, state_after. cbn [step]. rewrite Hd, Hs.
  destruct (Nat.eqb_spec dst src); [contradiction|]. unfold construct_from.
  destruct (Nat.eqb_spec (g_ptr sd) 0); [contradiction|]. fold st0.
  destruct (p_alloc cfg (pl st0)) as [j p| |] eqn:Hal; cbn [fst snd]; intros Hinv' Hok; try discriminate.
  destruct (alloc_facts cfg st0 dst empty_guard j p (g_ptr sd) (g_mark sd) HK Hinv0 Hg0 eq_refl Hal)
    as (Hget & Hoth & Hnin & Hobj & Hcnt & _).
  assert (Hsrc0 : get_g st0 src = Some sd) by (subst st0; rewrite reset_guard_get_other; assumption).
  assert (Hsrc' : get_g (protect st0 p dst j (g_ptr sd) (g_mark sd)) src = Some sd) by (rewrite Hoth; [assumption|congruence]).
  exists j. split; [assumption|]. split.
  { intros ->. apply Hnin. apply held_In. exists src, sd. split; assumption. }
  split; [assumption|]. split; [assumption|]. split; [assumption|]. split; [|assumption].
  eapply (inv_obj _ _ Hinv'); eassumption.
Qed.

(** copy assignment onto a guard that already holds a slot re-uses that slot and can not throw *)
Theorem copy_assign_reuses_slot_inv cfg st dst src dd sd j : 1 <= cK cfg -> Inv cfg st -> dst <> src ->
  get_g st dst = Some dd -> get_g st src = Some sd -> g_hp dd = Some j -> g_ptr sd <> 0 ->
  let st' := state_after cfg st (GCopyAssign dst src) in
  outcome_of cfg st (GCopyAssign dst src) = Ok /\
  get_g st' dst = Some {| g_hp := Some j; g_ptr := g_ptr sd; g_mark := g_mark sd |} /\
  nth_error (slots (pl st')) j = Some (Obj (g_ptr sd)) /\
  free_list (pl st') = free_list (pl st) /\ held_count st' = held_count st.
Proof.
  intros HK Hinv Hne Hd Hs Hj Hnz st'. subst st'. unfold outcome_of, state_after. cbn [step]. rewrite Hd, Hs.
  destruct (Nat.eqb_spec dst src); [contradiction|]. destruct (Nat.eqb_spec (g_ptr sd) 0); [contradiction|].
  rewrite Hj. cbn [ensure_hp fst snd].
  assert (Hdl : dst < length (guards st)) by (eapply nth_error_lt; exact Hd).
  assert (Hjl : j < length (slots (pl st))) by (eapply nth_error_lt; exact (inv_obj _ _ Hinv dst dd j Hd Hj)).
  split; [reflexivity|]. unfold protect, put_g, with_pool, get_g. cbn [pl guards p_set slots].
  split; [apply nth_error_set_nth_eq; assumption|]. split; [apply nth_error_set_nth_eq; assumption|].
  split.
  - apply (pool_set cfg (pl st) (held (guards st))); [apply Hinv|]. apply held_In. eauto.
  - pose proof (held_count_put st (p_set j (g_ptr sd) (pl st)) dst dd {| g_hp := Some j; g_ptr := g_ptr sd; g_mark := g_mark sd |} Hd) as E.
    unfold hpl in E. rewrite Hj in E. cbn [g_hp length] in E. lia.
Qed.

Example ex_copy_takes_new_slot :
  let cfg := {| cK := 3; cDyn := false; cG := 3 |} in
  map show_out (fst (run cfg [GAcquire 0 4 0; GCopyCtor 1 0; GCopyAssign 2 0; GAcquire 0 6 0; GCopyAssign 1 0; GCopyAssign 1 1]))
  = ["ok ret=0 g=[0:4.0,-:0.0,-:0.0] prot=[4] free=[1,2] total=3";
     "ok ret=0 g=[0:4.0,1:4.0,-:0.0] prot=[4,4] free=[2] total=3";
     "ok ret=0 g=[0:4.0,1:4.0,2:4.0] prot=[4,4,4] free=[] total=3";
     "ok ret=0 g=[0:6.0,1:4.0,2:4.0] prot=[4,4,6] free=[] total=3";
     "ok ret=0 g=[0:6.0,1:6.0,2:4.0] prot=[4,6,6] free=[] total=3";
     "ok ret=0 g=[0:6.0,1:6.0,2:4.0] prot=[4,6,6] free=[] total=3"]%string.
Proof. vm_compute. reflexivity. Qed.

(** * no leak *)
Lemma run_from_Forall cfg (Q : gop -> Prop) (P : outcome -> Prop) : 1 <= cK cfg ->
  (forall st op, Inv cfg st -> Q op -> P (outcome_of cfg st op)) ->
  forall ops st, Inv cfg st -> Forall Q ops -> Forall (fun o => P (o_res o)) (fst (run_from cfg st ops)).
Proof.
  intros HK Hstep. induction ops as [|op r IH]; intros st Hinv HQ; [constructor|].
  rewrite run_from_cons. cbn [fst]. inversion HQ; subst. constructor.
  - cbn [observe o_res]. apply Hstep; assumption.
  - apply IH; [|assumption]. apply step_inv; assumption.
Qed.

Definition reset_all (cfg : config) : list gop := map GReset (seq 0 (cG cfg)).

(** resetting the guards of a list: they are empty afterwards, the empty ones stay empty, the pool keeps its size *)
Lemma reset_list_spec cfg : forall L st, length (guards st) = cG cfg ->
  let st' := snd (run_from cfg st (map GReset L)) in
  (forall g, In g L -> g < cG cfg -> get_g st' g = Some empty_guard) /\
  (forall g, get_g st g = Some empty_guard -> get_g st' g = Some empty_guard) /\
  length (slots (pl st')) = length (slots (pl st)).
Proof.
  induction L as [|a L IH]; intros st Hl st'; subst st'; [cbn [map run_from snd]; split; [intros g []|auto]|].
  cbn [map]. rewrite run_from_cons. cbn [snd].
  assert (Hst : state_after cfg st (GReset a) = reset_guard st a).
  { unfold state_after. cbn [step]. destruct (get_g st a) eqn:E; [reflexivity|]. symmetry. apply reset_guard_none, E. }
  rewrite Hst. destruct (IH (reset_guard st a)) as (Hin & Hkeep & Hlen); [rewrite reset_guard_length; assumption|].
  split; [|split].
  - intros g [<-|HinL] Hlt; [|apply Hin; assumption]. apply Hkeep.
    destruct (get_g st a) as [gd|] eqn:Hgd; [eapply reset_guard_get_same; eassumption|].
    apply nth_error_None in Hgd. lia.
  - intros g Hg. apply Hkeep. destruct (Nat.eq_dec a g) as [<-|Hne]; [eapply reset_guard_get_same; eassumption|].
    rewrite reset_guard_get_other; assumption.
  - rewrite Hlen. destruct (get_g st a) as [gd|] eqn:Hgd; [|rewrite reset_guard_none; trivial].
    rewrite (reset_guard_eq st a gd Hgd). cbn [pl]. destruct (g_hp gd); [apply set_nth_length|reflexivity].
Qed.

(** resetting (destroying) all guards makes all slots available again *)
Theorem no_leak_inv cfg st : 1 <= cK cfg -> Inv cfg st ->
  let st' := snd (run_from cfg st (reset_all cfg)) in
  held (guards st') = [] /\
  length (slots (pl st')) = length (slots (pl st)) /\
  Permutation (free_list (pl st')) (seq 0 (length (slots (pl st')))) /\
  length (free_list (pl st')) = length (slots (pl st)).
Proof.
  intros HK Hinv st'. subst st'. unfold reset_all.
  destruct (reset_list_spec cfg (seq 0 (cG cfg)) st (inv_len _ _ Hinv)) as (Hin & _ & Hlen).
  pose proof (run_from_inv cfg HK (map GReset (seq 0 (cG cfg))) st Hinv) as Hi.
  set (st' := snd (run_from cfg st (map GReset (seq 0 (cG cfg))))) in *.
  assert (Hheld : held (guards st') = []).
  { apply held_all_empty. intros g gd Hg.
    assert (Hlt : g < cG cfg) by (rewrite <- (inv_len _ _ Hi); eapply nth_error_lt; eassumption).
    assert (E : get_g st' g = Some empty_guard) by (apply Hin; [apply in_seq; lia|assumption]).
    unfold get_g in E. congruence. }
  pose proof (pool_perm _ _ _ (inv_pool _ _ Hi)) as Hp. rewrite Hheld, app_nil_r in Hp.
  split; [assumption|]. split; [assumption|]. split; [assumption|].
  apply Permutation_length in Hp. rewrite seq_length in Hp. congruence.
Qed.

Example ex_no_leak :
  let cfg := {| cK := 3; cDyn := false; cG := 4 |} in
  let ops := [GAcquire 0 1 0; GCopyCtor 1 0; GCtorPtr 2 5 1; GMoveAssign 3 1; GSwap 0 3; GAcquire 1 2 0] in
  map o_res (fst (run cfg ops)) = [Ok; Ok; Ok; Ok; Ok; Exhausted] /\
  free_list (pl (snd (run cfg ops))) = [] /\
  free_list (pl (snd (run_from cfg (snd (run cfg ops)) (reset_all cfg)))) = [0; 2; 1].
Proof. vm_compute. repeat split. Qed.

(** ** repeated acquire/release never exhausts the slots *)
Theorem repeated_acquire_release_inv cfg g v m : 1 <= cK cfg -> v <> 0 ->
  forall n st, Inv cfg st -> get_g st g = Some empty_guard -> cDyn cfg = true \/ held_count st < cK cfg ->
  Forall (fun o => o_res o = Ok) (fst (run_from cfg st (concat (repeat [GAcquire g v m; GReset g] n)))).
Proof.
  intros HK Hnn. induction n as [|n IH]; intros st Hinv Hg Hor; [constructor|].
  cbn [repeat concat app]. rewrite run_from_cons. cbn [fst].
  assert (Ha : alloc_site st (GAcquire g v m) = Some st).
  { cbn [alloc_site]. rewrite Hg. cbn [g_ptr g_mark g_hp empty_guard]. destruct (Nat.eqb_spec v 0); [contradiction|]. reflexivity. }
  destruct (alloc_site_spec cfg st _ st Ha) as (_ & gd0 & v' & m' & ret & Hg0 & Hi0 & Hstep). cbn [target] in *.
  pose proof (alloc_outcome cfg st HK Hinv) as Hout.
  destruct (p_alloc cfg (pl st)) as [i p| |] eqn:Hal; [|destruct Hout as [? ?]; destruct Hor; [congruence|lia]|contradiction].
  pose proof (step_inv cfg st (GAcquire g v m) HK Hinv) as Hinv1.
  destruct (alloc_facts cfg st g gd0 i p v' m' HK Hinv Hg0 Hi0 Hal) as (Hget & _ & _ & _ & Hcnt & _).
  unfold outcome_of at 1. unfold state_after in *. rewrite Hstep in *. cbn [fst snd] in *.
  constructor; [reflexivity|].
  set (st1 := protect st p g i v' m') in *.
  rewrite run_from_cons. cbn [fst].
  destruct (reset_returns_slot_inv cfg st1 g _ i HK Hinv1 Hget eq_refl) as (Hok & Hge & _ & _ & Hc2 & _).
  constructor; [exact Hok|].
  apply IH; [apply step_inv; assumption|exact Hge|].
  destruct Hor as [Hd|Hlt]; [left; assumption|right]. lia.
Qed.

Example ex_repeated :
  let cfg := {| cK := 1; cDyn := false; cG := 2 |} in
  map o_res (fst (run cfg (concat (repeat [GAcquire 1 3 0; GReset 1] 50)))) = repeat Ok 100.
Proof. vm_compute. reflexivity. Qed.

(** * the dynamic strategy never throws *)
Lemma dynamic_step cfg st op : 1 <= cK cfg -> cDyn cfg = true -> Inv cfg st ->
  outcome_of cfg st op <> Exhausted /\ (valid_op cfg op -> outcome_of cfg st op = Ok).
Proof.
  intros HK Hd Hinv. destruct (alloc_site st op) as [st0|] eqn:Ha; [|apply no_alloc_site; [apply (inv_len _ _ Hinv)|assumption]].
  destruct (alloc_site_spec cfg st op st0 Ha) as (Hst0 & gd0 & v & m & ret & Hg0 & Hi0 & Hstep).
  assert (Hinv0 : Inv cfg st0) by (destruct Hst0 as [->| ->]; [assumption|apply inv_reset; assumption]).
  pose proof (alloc_outcome cfg st0 HK Hinv0) as Hout. unfold outcome_of. rewrite Hstep.
  destruct (p_alloc cfg (pl st0)); [split; [discriminate|reflexivity]|destruct Hout; congruence|contradiction].
Qed.

Theorem dynamic_never_exhausted cfg ops : 1 <= cK cfg -> cDyn cfg = true ->
  Forall (fun o => o_res o <> Exhausted) (fst (run cfg ops)) /\
  (Forall (valid_op cfg) ops -> Forall (fun o => o_res o = Ok) (fst (run cfg ops))).
Proof.
  intros HK Hd. split.
  - apply (run_from_Forall cfg (fun _ => True) (fun o => o <> Exhausted) HK).
    + intros st op Hinv _. apply (dynamic_step cfg st op HK Hd Hinv).
    + apply inv_init; assumption.
    + apply Forall_forall. trivial.
  - apply (run_from_Forall cfg (valid_op cfg) (fun o => o = Ok) HK).
    + intros st op Hinv Hv. apply (dynamic_step cfg st op HK Hd Hinv). assumption.
    + apply inv_init; assumption.
Qed.

(** growth rule: K=1: the pool grows 1, 2, 3, 4, 6, 9 (a new block has max(K, total/2) slots) *)
Example ex_dynamic :
  let cfg := {| cK := 1; cDyn := true; cG := 8 |} in
  let r := run cfg [GAcquire 0 1 0; GAcquire 1 1 0; GAcquire 2 1 0; GAcquire 3 1 0; GAcquire 4 1 0; GAcquire 5 1 0;
                    GAcquire 6 1 0; GAcquire 7 1 0] in
  map o_res (fst r) = repeat Ok 8 /\ map o_total (fst r) = [1; 2; 3; 4; 6; 6; 9; 9] /\
  blocks (pl (snd r)) = [1; 1; 1; 2; 3] /\ free_list (pl (snd r)) = [8].
Proof. vm_compute. repeat split. Qed.

(** * K PROTECTING guards are available *)
(** (repaired code: acquire / acquire_if_equal test [p.get() == nullptr]; a guard on a null or marked null pointer is reset
    and holds no hazard pointer.  Before the repair K=1, [GAcquire 0 0 1; GAcquire 1 5 0] was [Ok; Exhausted].) *)
Definition protecting (g : guard) : bool := negb (g_ptr g =? 0).
Definition protecting_count (st : state) : nat := length (filter protecting (guards st)).

Lemma protecting_count_held cfg st : Inv cfg st -> protecting_count st = held_count st.
Proof.
  intros Hinv. pose proof (inv_gwf _ _ Hinv) as Hw. unfold protecting_count, held_count. revert Hw. generalize (slots (pl st)).
  induction (guards st) as [|h t IH]; intros sl Hw; [reflexivity|].
  cbn [filter held flat_map]. fold (held t). rewrite app_length, <- (IH sl) by (intros g; apply (Hw (S g))).
  specialize (Hw 0 h eq_refl). unfold gwf, protecting, hpl in *. destruct (g_hp h).
  - destruct (Nat.eqb_spec (g_ptr h) 0); [tauto|reflexivity].
  - rewrite Hw. reflexivity.
Qed.

(** the allocation theorem in terms of protecting guards *)
Theorem static_alloc_succeeds_iff_protecting cfg ops op st0 : 1 <= cK cfg -> cDyn cfg = false ->
  let st := snd (run cfg ops) in
  alloc_site st op = Some st0 ->
  (outcome_of cfg st op = Ok <-> protecting_count st0 < cK cfg) /\
  (outcome_of cfg st op = Exhausted <-> protecting_count st0 = cK cfg).
Proof.
  intros HK Hs st Ha. pose proof (run_inv cfg ops HK) as Hinv. fold st in Hinv.
  assert (Hinv0 : Inv cfg st0).
  { destruct (alloc_site_spec cfg st op st0 Ha) as ([->| ->] & _); [assumption|apply inv_reset; assumption]. }
  rewrite (protecting_count_held cfg st0 Hinv0).
  destruct (static_alloc_succeeds_iff_inv cfg st op st0 HK Hinv Hs Ha) as (H1 & H2 & _). split; assumption.
Qed.

(** an acquisition throws only if all K slots are held by guards whose pointer is non-null *)
Theorem K_protecting_guards_inv cfg st op : 1 <= cK cfg -> Inv cfg st ->
  outcome_of cfg st op = Exhausted ->
  let st' := state_after cfg st op in
  cDyn cfg = false /\
  protecting_count st' = cK cfg /\ held_count st' = cK cfg /\
  (forall s, s < cK cfg -> exists g gd, get_g st' g = Some gd /\ g_hp gd = Some s /\ g_ptr gd <> 0 /\
                                        nth_error (slots (pl st')) s = Some (Obj (g_ptr gd))) /\
  (forall g gd, get_g st' g = Some gd -> g_ptr gd = 0 -> g_hp gd = None) /\
  (forall g, g <> target op -> get_g st' g = get_g st g).
Proof.
  intros HK Hinv Hexh st'.
  destruct (exhausted_preserves_existing_inv cfg st op HK Hinv Hexh) as (Hs & _ & Hoth & _ & _ & Hfull & _).
  fold st' in Hoth, Hfull.
  pose proof (step_inv cfg st op HK Hinv) as Hinv'. fold st' in Hinv'. pose proof (inv_pool _ _ Hinv') as Hp.
  split; [assumption|]. split; [rewrite (protecting_count_held cfg st' Hinv'); assumption|]. split; [assumption|].
  split; [|split; [|assumption]].
  - intros s Hlt. pose proof (pool_used_length _ _ _ Hp) as Hlen.
    fold (held_count st') in Hlen. rewrite Hfull, (static_total _ _ Hinv' Hs) in Hlen.
    assert (Hnil : free_list (pl st') = []) by (apply length_zero_iff_nil; lia).
    rewrite <- (static_total _ _ Hinv' Hs) in Hlt.
    apply (pool_full _ _ _ s Hp Hnil), held_In in Hlt. destruct Hlt as (g & gd & Hg & Hi). exists g, gd.
    split; [assumption|]. split; [assumption|].
    split; [eapply (inv_nonnull _ _ Hinv'); eassumption|eapply (inv_obj _ _ Hinv'); eassumption].
  - intros g gd Hg Hz. destruct (g_hp gd) as [i|] eqn:Hi; [|reflexivity]. exfalso.
    eapply (inv_nonnull _ _ Hinv'); eassumption.
Qed.

(** the sequence that was [Ok; Exhausted] before the repair, continued: the guard on the marked null pointer holds no slot,
    the second guard gets the slot *)
Example ex_K_protecting_guards :
  let cfg := {| cK := 1; cDyn := false; cG := 2 |} in
  map show_out (fst (run cfg [GAcquire 0 0 1; GAcquire 1 5 0; GAcquireIfEqual 0 0 1 0 1; GCopyCtor 0 1]))
  = ["ok ret=0 g=[-:0.1,-:0.0] prot=[] free=[0] total=1";
     "ok ret=0 g=[-:0.1,0:5.0] prot=[5] free=[] total=1";
     "ok ret=1 g=[-:0.1,0:5.0] prot=[5] free=[] total=1";
     "exhausted ret=0 g=[-:0.0,0:5.0] prot=[5] free=[] total=1"]%string.
Proof. vm_compute. reflexivity. Qed.
