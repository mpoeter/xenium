(** vyukov_hash_map bucket model with iterators (Model/VhmItDefs.v): step inversion, lock discipline.
    Generic lemmas come from Proof/VhmBase.v.  pc_bst, pc_wf, xlocked_pc and Lk extend the definitions of the same names there
    to the program points and the state record of Model/VhmItDefs.v (a different record, so they cannot be shared). *)
From Coq Require Import NArith List Bool Lia PeanoNat.
From XV Require Import Base.Word Conc.Lts Conc.Ev gen.BucketStateGen Proof.BucketState Proof.VhmBase Model.VhmItDefs.
Import ListNotations.
Local Open Scope N_scope.

(** the word [bucket.state] holds while a thread that owns the bucket lock is at [p] *)
Definition pc_bst (p : pc) : option N :=
  match p with
  | IK _ _ _ s _ | IV _ _ _ s _ | IUold _ _ _ s _ | ISK _ _ _ s | ISV _ _ _ s | IUnew _ _ _ s | IH _ _ _ s
  | IXK _ _ _ s _ | IXV _ _ _ s _ | IXN _ _ _ s _ | Grow s
  | A1 _ _ _ s _ | A2 _ _ _ s _ | A3 _ _ _ s _ | A4 _ _ _ s _ | A4u _ _ _ s _ | A5 _ _ _ s _ | A6 _ _ _ s _ _ | A7 _ _ _ s _
  | IXSK _ _ _ s _ | IXSV _ _ _ s _ | IXH _ _ _ s _ | IXSN _ _ _ s _ _ | IXSH _ _ _ s _ | IUnew2 _ _ _ s
  | XK _ _ s _ | XV _ _ s _ | XH _ _ s _ _ | XA1 _ _ s _ _ _ | XB1 _ _ s _ _ | XHH _ _ s
  | XXK _ _ s _ _ | XXV _ _ s _ _ | XXN _ _ s _ _ _ | XXP _ _ s _ _ _ _ | XXU _ _ s _ _ | XXM _ _ s _ | XU _ _ s
  | ItIdle (It s _ _ _) | BeginI _ (It s _ _ _) | SK _ _ (It s _ _ _) | SV _ _ (It s _ _ _) _
  | FK _ s _ | FH _ s | FXK _ s _ _ | FXN _ s _ | FU _ s
  | N1 _ (It s _ _ _) | N2 _ (It s _ _ _) | EK (It s _ _ _) | EV (It s _ _ _) _
  | EX1 (It s _ _ _) _ _ | EX2 (It s _ _ _) _ _ _ | EX3 (It s _ _ _) _ _ _ | EA0 (It s _ _ _) _ _ | EA1 (It s _ _ _) _ _ _
  | EB1 (It s _ _ _) _ _ | EB7 (It s _ _ _) _
  | IF1 (It s _ _ _) _ _ _ | IF2 (It s _ _ _) _ _ _ | IF3 (It s _ _ _) _ _ _ | IF4 (It s _ _ _) _ _ _ _ | IF5 (It s _ _ _) _ _ _
  | IF6 (It s _ _ _) _ _ _ | R1 (It s _ _ _) =>
    Some (bs_locked s)
  | MN1 _ _ b s => if b =? 7 then Some (bs_locked s) else None
  | MN2 _ _ b s _ => if b =? 7 then Some (bs_locked s) else None
  | MN3 _ _ b s s1 => if b =? 7 then Some (bs_locked s) else if b + 1 =? 7 then Some (bs_locked s1) else None
  | EA2 (It s i _ _) _ _ _ | EA3 (It s i _ _) _ _ _ _ | EA4 (It s i _ _) _ _ _ _ _ | EA5 (It s i _ _) _ _ _ _ | EA6 (It s i _ _) _ _ _
  | EB2 (It s i _ _) _ _ | EB3 (It s i _ _) _ _ _ | EB4 (It s i _ _) _ _ _ _ | EB5 (It s i _ _) _ _ _ => Some (mark s i)
  | EB6 (It s i _ _) _ _ => Some (if i =? bs_item_count s - 1 then bs_locked s else mark s i)
  | EA7 (It s _ _ _) _ _ _ | EA8 (It s _ _ _) _ _ _ _ | EA9 (It s _ _ _) _ _ _ => Some (bs_new_version (bs_locked s))
  | XA2 _ _ s i _ _ | XA3 _ _ s i _ _ _ | XA4 _ _ s i _ _ _ _ | XA5 _ _ s i _ _ _ | XA6 _ _ s i _ _
  | XB2 _ _ s i _ | XB3 _ _ s i _ _ | XB4 _ _ s i _ _ _ | XB5 _ _ s i _ _ => Some (mark s i)
  | XB6 _ _ s i _ => Some (if i =? bs_item_count s - 1 then bs_locked s else mark s i)
  | XA7 _ _ s _ _ _ | XA8 _ _ s _ _ _ _ | XA9 _ _ s _ _ => Some (bs_new_version (bs_locked s))
  | _ => None
  end.

Definition it_wf (i : itpos) : Prop :=
  match i with It s idx x p => wf_s s /\ idx <= bs_item_count s /\ (x <> 0 -> idx = bs_item_count s) end.
(** the iterator is on an element *)
Definition it_elem (i : itpos) : Prop := match i with It s idx x p => x = 0 -> idx < bs_item_count s end.

(** local facts about the state word [s] a thread has read, and its array index *)
Definition pc_wf (p : pc) : Prop :=
  match p with
  | L3 _ _ _ s => bs_is_locked s = false
  | X3 _ _ s => bs_is_locked s = false /\ bs_item_count s <> 0
  | IK _ _ _ s i | IV _ _ _ s i => wf_s s /\ i < bs_item_count s
  | IUold _ _ _ s _ => wf_s s
  | ISK _ _ _ s | ISV _ _ _ s | IUnew _ _ _ s => wf_s s /\ bs_item_count s < 3
  | IH _ _ _ s | IXK _ _ _ s _ | IXV _ _ _ s _ | IXN _ _ _ s _ | Grow s
  | A1 _ _ _ s _ | A2 _ _ _ s _ | A3 _ _ _ s _ | A4 _ _ _ s _ | A4u _ _ _ s _ | A5 _ _ _ s _ | A6 _ _ _ s _ _ | A7 _ _ _ s _
  | IXSK _ _ _ s _ | IXSV _ _ _ s _ | IXH _ _ _ s _ | IXSN _ _ _ s _ _ | IXSH _ _ _ s _ | IUnew2 _ _ _ s =>
    wf_s s /\ bs_item_count s = 3
  | XK _ _ s i | XV _ _ s i | XH _ _ s i _ | XA1 _ _ s i _ _ | XA2 _ _ s i _ _ | XA3 _ _ s i _ _ _ | XA4 _ _ s i _ _ _ _
  | XA5 _ _ s i _ _ _ | XA6 _ _ s i _ _ | XA7 _ _ s i _ _ | XA8 _ _ s i _ _ _ | XB6 _ _ s i _ =>
    wf_s s /\ i < bs_item_count s
  | XB1 _ _ s i _ | XB2 _ _ s i _ | XB3 _ _ s i _ _ | XB4 _ _ s i _ _ _ | XB5 _ _ s i _ _ =>
    wf_s s /\ i < bs_item_count s /\ i <> bs_item_count s - 1
  | XA9 _ _ s _ _ | XHH _ _ s | XXK _ _ s _ _ | XXV _ _ s _ _ | XXN _ _ s _ _ _ | XXP _ _ s _ _ _ _ | XXU _ _ s _ _
  | XXM _ _ s _ | XU _ _ s => wf_s s /\ bs_item_count s <> 0
  | FL3 _ s => bs_is_locked s = false
  | BL3 s => bs_is_locked s = false /\ s = 0
  | ItIdle i | BeginI _ i | SK _ _ i | SV _ _ i _ | EK i | EV i _ | R1 i => it_wf i /\ it_elem i
  | N1 _ (It s idx x p) => it_wf (It s idx x p) /\ x <> 0
  | N2 _ (It s idx x p) | EB7 (It s idx x p) _ => wf_s s /\ idx = bs_item_count s /\ x = 0
  | FK _ s i => wf_s s /\ i < bs_item_count s
  | FH _ s | FXN _ s _ | FU _ s => wf_s s
  | FXK _ s _ x => wf_s s /\ x <> 0
  | MN1 _ _ b s => (b = 7 -> wf_s s) /\ (b <> 7 -> s = 0)
  | MN2 _ _ b s s1 => (b = 7 -> wf_s s) /\ (b <> 7 -> s = 0) /\ bs_is_locked s1 = false /\ (b + 1 <> 7 -> s1 = 0)
  | MN3 _ _ b s s1 => (b = 7 -> wf_s s) /\ (b <> 7 -> s = 0) /\ (b + 1 = 7 -> wf_s s1) /\ (b + 1 <> 7 -> s1 = 0)
  | EX1 (It s idx x p) _ _ | EX2 (It s idx x p) _ _ _ | EX3 (It s idx x p) _ _ _ => it_wf (It s idx x p) /\ x <> 0
  | EA0 (It s idx x p) _ _ | EA1 (It s idx x p) _ _ _ | EA2 (It s idx x p) _ _ _ | EA3 (It s idx x p) _ _ _ _
  | EA4 (It s idx x p) _ _ _ _ _ | EA5 (It s idx x p) _ _ _ _ | EA6 (It s idx x p) _ _ _ | EA7 (It s idx x p) _ _ _
  | EA8 (It s idx x p) _ _ _ _ | EA9 (It s idx x p) _ _ _ | EB6 (It s idx x p) _ _ =>
    wf_s s /\ idx < bs_item_count s /\ x = 0
  | EB1 (It s idx x p) _ _ | EB2 (It s idx x p) _ _ | EB3 (It s idx x p) _ _ _ | EB4 (It s idx x p) _ _ _ _ | EB5 (It s idx x p) _ _ _ =>
    wf_s s /\ idx < bs_item_count s /\ x = 0 /\ idx <> bs_item_count s - 1
  | IF1 i _ _ mv | IF2 i _ _ mv | IF3 i _ _ mv | IF4 i _ _ mv _ | IF5 i _ _ mv | IF6 i _ _ mv => it_wf i /\ (mv = false -> it_elem i)
  | _ => True
  end.

Definition xlocked_pc (p : pc) : bool :=
  match p with
  | A4 _ _ _ _ _ | A4u _ _ _ _ _ | A5 _ _ _ _ _ | A6 _ _ _ _ _ _ | A7 _ _ _ _ _
  | F3 _ _ _ _ | F4 _ _ _ _ _ | F5 _ _ _ _ | F6 _ _ _ _
  | IF3 _ _ _ _ | IF4 _ _ _ _ _ | IF5 _ _ _ _ | IF6 _ _ _ _ => true
  | _ => false
  end.

(** the locks of the other buckets held during begin() / move_to_next_bucket *)
Definition ob_held (p : pc) (c : N) : Prop :=
  match p with
  | MN1 _ _ b _ | MN2 _ _ b _ _ => b = c /\ b <> 7
  | MN3 _ _ b _ _ => (b = c /\ b <> 7) \/ (b + 1 = c /\ b + 1 <> 7)
  | ME _ _ => c = last_bucket
  | _ => False
  end.

Record Lk (st : state) : Prop := mkLk {
  Lk_lt : bst st < 2 ^ 32;
  Lk_ic : bs_item_count (bst st) <= 3;
  Lk_ver : bs_version (bst st) = g_nver st mod 2 ^ 27;
  Lk_bit : bs_is_locked (bst st) = match g_owner st with Some _ => true | None => false end;
  Lk_mk : g_owner st = None -> bs_delete_marker (bst st) = 0;
  Lk_own : forall t, pc_bst (th st t) <> None -> g_owner st = Some t;
  Lk_pc : forall t, g_owner st = Some t -> pc_bst (th st t) = Some (bst st);
  Lk_wf : forall t, pc_wf (th st t);
  Lk_xbit : xlock st = match g_xowner st with Some _ => 1 | None => 0 end;
  Lk_xown : forall t, xlocked_pc (th st t) = true -> g_xowner st = Some t;
  Lk_xpc : forall t, g_xowner st = Some t -> xlocked_pc (th st t) = true;
  Lk_obit : forall b, obst st b = match g_ob st b with Some _ => 1 | None => 0 end;
  Lk_oown : forall t b, ob_held (th st t) b -> g_ob st b = Some t;
  Lk_opc : forall t b, g_ob st b = Some t -> ob_held (th st t) b
}.

(** * Step inversion (a tactic here, where the smaller models have a lemma: [step] has about 230 cases):
    one goal per transition, with the guards as [Ec*] (outcome) and [Ei*] (next program point) *)
Ltac step_inv H :=
  match type of H with
  | step _ ?st ?a = Some _ =>
    destruct a as [?t ?o | ?t]; cbn [step] in H; unfold g_next_slot in H;
    match type of H with
    | context [th st ?t] => destruct (th st t) eqn:?Epc; try discriminate H
    end;
    repeat match type of H with
    | (if ?c then _ else _) = Some _ => destruct c eqn:?Ec
    | (match ?o with _ => _ end) = Some _ => destruct o
    end;
    repeat match type of H with
    | context [if ?c then _ else _] => destruct c eqn:?Ei
    end;
    try discriminate H; injection H as <- <-;
    repeat match goal with i : itpos |- _ => destruct i end
  end.

Ltac st_simpl :=
  cbn [bst bhead akey aval xkey xval xnext xlock xhead th obst g_map g_owner g_xowner g_ob g_nver g_chain g_free g_dup g_limbo
       g_lp g_rv g_obs g_hist
       s_bst s_bhead s_akey s_aval s_xkey s_xval s_xnext s_xlock s_xhead s_th s_obst s_g_map s_g_owner s_g_xowner s_g_ob s_g_nver
       s_g_chain s_g_free s_g_dup s_g_limbo s_g_lp s_g_rv s_g_obs s_g_hist go obs lp ret reti bump] in *.

Ltac st_simpl_goal :=
  cbn [bst bhead akey aval xkey xval xnext xlock xhead th obst g_map g_owner g_xowner g_ob g_nver g_chain g_free g_dup g_limbo
       g_lp g_rv g_obs g_hist
       s_bst s_bhead s_akey s_aval s_xkey s_xval s_xnext s_xlock s_xhead s_th s_obst s_g_map s_g_owner s_g_xowner s_g_ob s_g_nver
       s_g_chain s_g_free s_g_dup s_g_limbo s_g_lp s_g_rv s_g_obs s_g_hist go obs lp ret reti bump].

Ltac rsplit := repeat match goal with |- _ /\ _ => split end.

(** the thread that moves *)
Definition tid (a : action) : nat := match a with Start t _ | Step t => t end.

(** * A lock with holder ghost [o] and "thread u is inside" predicate [h]: a step of thread [t] leaves it alone,
    acquires it or releases it *)
Definition lock_move (t : nat) (o o' : option nat) (h h' : Prop) : Prop :=
  (o' = o /\ (h' <-> h)) \/ (o = None /\ o' = Some t /\ h') \/ (h /\ o' = None /\ ~ h').

Lemma lock_step t (o o' : option nat) (h h' : nat -> Prop) :
  (forall u, h u -> o = Some u) -> (forall u, o = Some u -> h u) ->
  (forall u, u <> t -> (h' u <-> h u)) -> lock_move t o o' (h t) (h' t) ->
  (forall u, h' u -> o' = Some u) /\ (forall u, o' = Some u -> h' u).
Proof.
  intros Hown Hpc Hoth Hmv.
  assert (Ht : h t -> o = Some t) by apply Hown.
  split; intros u Hu; destruct (Nat.eq_dec u t) as [->|Hne].
  - destruct Hmv as [[-> Hh]|[(_ & -> & _)|(_ & _ & Hn)]]; [apply Hown; tauto | reflexivity | contradiction].
  - apply Hoth in Hu; [|exact Hne]. pose proof (Hown u Hu) as Hou.
    destruct Hmv as [[-> _]|[(Hn & _)|(Hh & _)]]; [exact Hou | congruence | specialize (Ht Hh); congruence].
  - destruct Hmv as [[-> Hh]|[(_ & _ & Hh)|(_ & Hn & _)]]; [apply Hh, Hpc, Hu | exact Hh | congruence].
  - apply Hoth; [exact Hne|]. apply Hpc.
    destruct Hmv as [[-> _]|[(_ & Hn & _)|(_ & Hn & _)]]; congruence.
Qed.

Lemma wf_nv s : wf_s s -> wf_s (bs_new_version s) /\ bs_item_count (bs_new_version s) = bs_item_count s.
Proof.
  intros Hw. pose proof (wf_W _ Hw) as Hs. pose proof (W_nv _ _ _ _ _ Hs) as (H1 & H2 & H3 & H4 & H5).
  destruct Hw as (_ & _ & _ & Hc). unfold wf_s. rewrite H3. tauto.
Qed.
Lemma wf_dec s : wf_s s -> 0 < bs_item_count s ->
  wf_s (bs_dec_item_count (bs_new_version s)) /\ bs_item_count (bs_dec_item_count (bs_new_version s)) = bs_item_count s - 1.
Proof.
  intros Hw Hp. pose proof (wf_W _ Hw) as Hs. pose proof (W_nv _ _ _ _ _ Hs) as Hv.
  pose proof (W_dec _ _ _ _ _ Hv Hp) as (H1 & H2 & H3 & H4 & H5).
  destruct Hw as (_ & _ & _ & Hc). unfold wf_s. rewrite H3. repeat split; try assumption. lia.
Qed.
Lemma locked_nv s : s < 2 ^ 32 -> bs_locked (bs_new_version s) = bs_new_version (bs_locked s).
Proof.
  intros Hs. pose proof (W_ex _ Hs) as H0.
  pose proof (W_locked _ _ _ _ _ (W_nv _ _ _ _ _ H0)) as H1. pose proof (W_nv _ _ _ _ _ (W_locked _ _ _ _ _ H0)) as H2.
  exact (W_eq _ _ _ _ _ _ H1 H2).
Qed.
Lemma locked_nv_nv s : wf_s s -> bs_locked (bs_new_version (bs_new_version s)) = bs_new_version (bs_new_version (bs_locked s)).
Proof.
  intros Hw. destruct (wf_nv _ Hw) as [Hn _]. rewrite (locked_nv (bs_new_version s)) by apply Hn.
  rewrite (locked_nv s) by apply Hw. reflexivity.
Qed.

Section VhmItBase.
  Variable xoff : N.
  Notation step := (step xoff).

  Lemma step_th st a st' es : step st a = Some (st', es) -> forall u, u <> tid a -> th st' u = th st u.
  Proof. intros H u Hu. step_inv H; st_simpl; apply upd_other; exact Hu. Qed.

  (** the other buckets' words are 0 or 1 *)
  Lemma obst_unlocked st c : Lk st -> bs_is_locked (obst st c) = false -> obst st c = 0 /\ g_ob st c = None.
  Proof. intros HI. rewrite (Lk_obit _ HI c). destruct (g_ob st c); [discriminate | auto]. Qed.

  Lemma step_ob st a st' es : Lk st -> step st a = Some (st', es) -> forall c,
    lock_move (tid a) (g_ob st c) (g_ob st' c) (ob_held (th st (tid a)) c) (ob_held (th st' (tid a)) c) /\
    obst st' c = match g_ob st' c with Some _ => 1 | None => 0 end.
  Proof.
    intros HI H c. pose proof (Lk_obit _ HI c) as Hbit.
    step_inv H; cbn [tid]; rewrite Epc; st_simpl; rewrite upd_same; cbn [ob_held].
    all: try (split; [left; split; reflexivity | exact Hbit]).
    all: pose proof (Lk_wf _ HI t) as Hwf; rewrite Epc in Hwf; cbn [pc_wf] in Hwf.
    all: try (split; [left; split; [reflexivity | tauto] | exact Hbit]).
    (* BL3, MN2, MN3, ME: the words of the other buckets are 0 when unlocked, so a bucket that is entered with
       a nonzero item count is bucket 7 *)
    all: b2p; unfold lock_move, last_bucket in *; assert (H0 : bs_item_count 0 = 0) by reflexivity.
    all: repeat match goal with Hw : _ /\ _ |- _ => destruct Hw end.
    all: try (destruct (N.eq_dec b 7) as [E7|E7]; [| assert (Es : s = 0) by tauto; rewrite Es in *]).
    all: try (destruct (N.eq_dec (b + 1) 7) as [E8|E8]; [| assert (Es1 : s1 = 0) by tauto; rewrite Es1 in *]).
    all: try match goal with |- context [VhmDefs.setf _ ?x _ ?y] =>
           pose proof (Lk_obit _ HI x) as Hbx;
           destruct (N.eq_dec y x) as [->|Hc]; [rewrite !setf_same | rewrite !setf_other by exact Hc] end.
    all: try (split; [left; split; [reflexivity | lia] | exact Hbit]).
    all: try (split; [right; right; rsplit; first [reflexivity | lia] | first [reflexivity | lia]]).
    all: destruct (g_ob st _); cbv iota in Hbx; [exfalso; lia | split; [right; left; rsplit; first [reflexivity | lia] | subst; rewrite ?Hbx; reflexivity]].
  Qed.


  Lemma step_x st a st' es : Lk st -> step st a = Some (st', es) ->
    lock_move (tid a) (g_xowner st) (g_xowner st') (xlocked_pc (th st (tid a)) = true) (xlocked_pc (th st' (tid a)) = true) /\
    xlock st' = match g_xowner st' with Some _ => 1 | None => 0 end.
  Proof.
    intros HI H. pose proof (Lk_xbit _ HI) as Hbit.
    step_inv H; cbn [tid]; rewrite Epc; st_simpl; rewrite upd_same; cbn [xlocked_pc].
    all: try (split; [left; split; reflexivity | exact Hbit]).
    (* release *)
    all: try (split; [right; right; rsplit; [reflexivity | reflexivity | discriminate] | reflexivity]).
    (* acquire: the exchange read 0 *)
    all: b2p; destruct (g_xowner st); [exfalso; lia | split; [right; left; rsplit; reflexivity | reflexivity]].
  Qed.


  Lemma unlocked_unowned st : Lk st -> bs_is_locked (bst st) = false -> g_owner st = None.
  Proof. intros HI. rewrite (Lk_bit _ HI). destruct (g_owner st); [discriminate | reflexivity]. Qed.

  (** decides which of the cases of [step_b] a transition is when that shows by computation: keep, release, rewrite *)
  Ltac bmove := first [ left; rsplit; reflexivity
                      | right; right; left; rsplit; [discriminate | reflexivity | reflexivity]
                      | right; right; right; rsplit; [discriminate | reflexivity | reflexivity] ].

  (** the bucket lock: besides leaving it alone, acquiring and releasing it, the holder rewrites the word *)
  Lemma step_b st a st' es : Lk st -> step st a = Some (st', es) ->
    let p := th st (tid a) in let p' := th st' (tid a) in
    (g_owner st' = g_owner st /\ bst st' = bst st /\ pc_bst p' = pc_bst p) \/
    (g_owner st = None /\ g_owner st' = Some (tid a) /\ pc_bst p' = Some (bst st')) \/
    (pc_bst p <> None /\ g_owner st' = None /\ pc_bst p' = None) \/
    (pc_bst p <> None /\ g_owner st' = g_owner st /\ pc_bst p' = Some (bst st')).
  Proof.
    intros HI H.
    step_inv H; cbn [tid]; rewrite Epc; st_simpl; rewrite upd_same; cbn [pc_bst]; unfold mark.
    all: try bmove.
    all: pose proof (Lk_wf _ HI t) as Hwf; rewrite Epc in Hwf; cbn [pc_wf it_wf it_elem] in Hwf.
    (* the remaining steps depend on a guard: CAS success, the last slot, bucket 7 in move_to_next_bucket *)
    all: b2p; assert (H0 : bs_item_count 0 = 0) by reflexivity.
    all: try (right; left; rsplit; [apply (unlocked_unowned _ HI); subst; tauto | reflexivity | reflexivity]).
    all: repeat match goal with |- context [if ?x =? ?y then _ else _] => destruct (N.eqb_spec x y) end.
    all: try (exfalso; unfold last_bucket in *; lia).
    all: try bmove.
    all: try (right; left; rsplit; [apply (unlocked_unowned _ HI); subst; tauto | reflexivity | reflexivity]).
    - exfalso. assert (Es : s1 = 0) by (apply Hwf; lia). rewrite Es in *. contradiction.
    - exfalso. assert (Es : s1 = 0) by (apply Hwf; lia). rewrite Es in *. contradiction.
    - rewrite locked_nv_nv by tauto. bmove.
  Qed.

  Lemma block_step t (o o' : option nat) (w w' : N) (pb pb' : nat -> option N) :
    (forall u, pb u <> None -> o = Some u) -> (forall u, o = Some u -> pb u = Some w) ->
    (forall u, u <> t -> pb' u = pb u) ->
    (o' = o /\ w' = w /\ pb' t = pb t) \/ (o = None /\ o' = Some t /\ pb' t = Some w') \/
    (pb t <> None /\ o' = None /\ pb' t = None) \/ (pb t <> None /\ o' = o /\ pb' t = Some w') ->
    (forall u, pb' u <> None -> o' = Some u) /\ (forall u, o' = Some u -> pb' u = Some w').
  Proof.
    intros Hown Hpc Hoth Hmv. pose proof (Hown t) as Ht.
    split; intros u Hu; (destruct (Nat.eq_dec u t) as [->|Hne]; [|rewrite (Hoth u Hne) in *; pose proof (Hown u) as Hou]).
    - destruct Hmv as [(-> & _ & E)|[(_ & -> & _)|[(_ & _ & E)|(Hh & -> & _)]]]; [rewrite E in Hu | | | ]; auto; contradiction.
    - destruct Hmv as [(-> & _)|[(E & _)|[(Hh & _)|(Hh & -> & _)]]]; auto; [rewrite E in Hou | rewrite Ht in Hou by exact Hh]; specialize (Hou Hu); congruence.
    - destruct Hmv as [(-> & -> & ->)|[(_ & _ & E)|[(_ & E & _)|(_ & _ & E)]]]; auto; congruence.
    - destruct Hmv as [(-> & -> & _)|[(_ & E & _)|[(_ & E & _)|(Hh & -> & _)]]]; auto; try congruence.
      specialize (Ht Hh). congruence.
  Qed.


  Lemma unowned_wf st : Lk st -> bs_is_locked (bst st) = false -> wf_s (bst st).
  Proof.
    intros HI Hl. pose proof (unlocked_unowned _ HI Hl) as Ho.
    exact (conj (Lk_lt _ HI) (conj Hl (conj (Lk_mk _ HI Ho) (Lk_ic _ HI)))).
  Qed.

  Lemma Lk_step_wf st a st' es : Lk st -> step st a = Some (st', es) -> forall t', pc_wf (th st' t').
  Proof.
    intros HI H t'. destruct (Nat.eq_dec t' (tid a)) as [->|Hne]; [|rewrite (step_th _ _ _ _ H t' Hne); apply (Lk_wf _ HI)].
    pose proof (Lk_wf _ HI (tid a)) as Hwf.
    step_inv H; cbn [tid] in *; rewrite Epc in *; st_simpl; rewrite upd_same; cbn [pc_wf it_wf it_elem] in *.
    all: try exact I.
    all: try exact Hwf.
    all: b2p; rewrite ?C_bic in *.
    all: try (unfold wf_s in *; tauto).
    all: try (unfold wf_s in *; lia).
    all: try (unfold wf_s in *; intuition lia).
    (* lock acquisition: the word read is the current one, and the bucket is not owned *)
    all: try (assert (Hw : wf_s s) by (subst s; apply (unowned_wf _ HI); tauto); unfold wf_s in *; intuition lia).
    (* EB6: the iterator carries the decremented item count *)
    all: try solve [destruct Hwf as (Hw & Hi1 & Hx); destruct (wf_dec _ Hw ltac:(lia)) as [Hd1 Hd2]; rewrite Hd2 in *;
                    rsplit; try tauto; intros; lia].
    - (* BL2 *) split; [exact Ei | apply (obst_unlocked _ _ HI Ei)].
    - (* MN1 *) rsplit; try tauto. intros _. apply (obst_unlocked _ _ HI Ei).
    - (* MN2: bucket 7 *) subst s1. rsplit; try tauto. intros _. apply (unowned_wf _ HI). tauto.
    - (* MN3: positioned on the first slot, which is in bucket 7 *)
      destruct (N.eq_dec (b + 1) 7) as [E7|E7]; [|exfalso; assert (Es : s1 = 0) by (apply Hwf; exact E7); rewrite Es in *; apply Ei0; reflexivity].
      assert (Hw : wf_s s1) by (apply Hwf; exact E7). rsplit; try tauto; lia.
    - destruct (N.eq_dec (b + 1) 7) as [E7|E7]; [|exfalso; assert (Es : s1 = 0) by (apply Hwf; exact E7); rewrite Es in *; apply Ei0; reflexivity].
      assert (Hw : wf_s s1) by (apply Hwf; exact E7). rsplit; try tauto; lia.
    - (* EX3: the iterator after a removal carries the new version *)
      destruct Hwf as [(Hw & Hi1 & Hi2) Hx]. destruct (wf_nv _ Hw) as [Hn1 Hn2]. rewrite Hn2.
      rsplit; try tauto. intros E1 E2. subst nx. discriminate E1.
    - (* EA9 *) destruct Hwf as (Hw & Hi1 & Hx). destruct (wf_nv _ Hw) as [Hn1 Hn2]. destruct (wf_nv _ Hn1) as [Hm1 Hm2].
      rewrite Hm2, Hn2. rsplit; try tauto; intros; lia.
  Qed.
  Ltac ifrw H := repeat match goal with E : ?c = _ |- _ => match type of H with context [if c then _ else _] => rewrite E in H end end.
  Ltac prep HI t Epc :=
    pose proof (Lk_wf _ HI t) as Hwf; rewrite Epc in Hwf; cbn [pc_wf it_wf it_elem] in Hwf;
    try (assert (Hown : g_owner _ = Some t) by
           (apply (Lk_own _ HI); rewrite Epc; cbn [pc_bst];
            repeat match goal with E : ?c = _ |- context [if ?c then _ else _] => rewrite E end; discriminate);
         pose proof (Lk_pc _ HI t Hown) as Hbst; rewrite Epc in Hbst; cbn [pc_bst] in Hbst; ifrw Hbst; injection Hbst as Hbst).

  (** the word clauses of [Lk] from the field tuple of the word *)
  Lemma word_clauses w l c d v n (o : option nat) : W w l c d v -> v = n mod 2 ^ 27 -> c <= 3 -> (o = None -> d = 0) ->
    w < 2 ^ 32 /\ bs_item_count w <= 3 /\ bs_version w = n mod 2 ^ 27 /\ bs_is_locked w = l /\
    (o = None -> bs_delete_marker w = 0).
  Proof. intros (H1 & H2 & H3 & H4 & H5) Hv Hc Hd. subst. tauto. Qed.

  (** the field tuple of a word built from [s] by the generated operations, [s] having one in the context *)
  Ltac wchain := first [ eassumption | eapply W_locked; wchain | eapply W_nv; wchain | eapply W_clear; wchain
                       | eapply W_mark; [wchain | lia] | eapply W_dec; [wchain | lia] | eapply W_inc; [wchain | lia] ].

  Lemma Lk_step_word st a st' es : Lk st -> step st a = Some (st', es) ->
    bst st' < 2 ^ 32 /\ bs_item_count (bst st') <= 3 /\ bs_version (bst st') = g_nver st' mod 2 ^ 27 /\
    bs_is_locked (bst st') = match g_owner st' with Some _ => true | None => false end /\
    (g_owner st' = None -> bs_delete_marker (bst st') = 0).
  Proof.
    intros HI H. step_inv H; st_simpl.
    all: try exact (conj (Lk_lt _ HI) (conj (Lk_ic _ HI) (conj (Lk_ver _ HI) (conj (Lk_bit _ HI) (Lk_mk _ HI))))).
    all: prep HI t Epc; pose proof (Lk_ver _ HI) as Hver; b2p; unfold mark in *.
    (* lock acquisition: the word read is the current one, of an unowned bucket *)
    all: try (match goal with E : bst _ = ?s |- _ => subst s end;
              assert (Hw : wf_s (bst st)) by (apply (unowned_wf _ HI); tauto); pose proof (wf_W _ Hw) as Hs;
              eapply word_clauses; [wchain | exact Hver | exact (Lk_ic _ HI) | discriminate]).
    (* the holder: its program point gives the current word in terms of [s], which fixes the version of [s] *)
    all: match type of Hwf with context [wf_s ?s] => assert (Hw : wf_s s) by tauto; pose proof (wf_W _ Hw) as Hs end; unfold wf_s in *.
    all: rewrite <- Hbst in Hver; match type of Hver with bs_version ?x = _ => eassert (HX : W x _ _ _ _) by wchain end.
    all: destruct HX as (_ & _ & _ & _ & Hvx); rewrite Hver in Hvx; rewrite ?Hown.
    all: eapply word_clauses; [wchain | rewrite <- ?Hvx; first [reflexivity | apply mod27_succ] | lia
                         | first [discriminate | intros _; reflexivity]].
  Qed.


  Lemma Lk_step st a st' es : Lk st -> step st a = Some (st', es) -> Lk st'.
  Proof.
    intros HI H. destruct (Lk_step_word _ _ _ _ HI H) as (H1 & H2 & H3 & H4 & H5).
    pose proof (step_th _ _ _ _ H) as Hth.
    assert (Hb := block_step (tid a) (g_owner st) _ (bst st) _ (fun u => pc_bst (th st u)) (fun u => pc_bst (th st' u))
                             (Lk_own _ HI) (Lk_pc _ HI) (fun u Hu => f_equal pc_bst (Hth u Hu)) (step_b _ _ _ _ HI H)).
    assert (Hx : forall u, u <> tid a -> xlocked_pc (th st' u) = true <-> xlocked_pc (th st u) = true) by (intros u Hu; rewrite (Hth u Hu); tauto).
    assert (Hx' := lock_step (tid a) (g_xowner st) _ (fun u => xlocked_pc (th st u) = true) (fun u => xlocked_pc (th st' u) = true)
                             (Lk_xown _ HI) (Lk_xpc _ HI) Hx (proj1 (step_x _ _ _ _ HI H))).
    assert (Ho : forall c, (forall u, ob_held (th st' u) c -> g_ob st' c = Some u) /\ (forall u, g_ob st' c = Some u -> ob_held (th st' u) c)).
    { intros c. apply (lock_step (tid a) (g_ob st c) _ (fun u => ob_held (th st u) c)).
      - intros u. apply (Lk_oown _ HI).
      - intros u. apply (Lk_opc _ HI).
      - intros u Hu. rewrite (Hth u Hu). tauto.
      - apply (step_ob _ _ _ _ HI H c). }
    constructor; try assumption; try apply Hb; try apply Hx'.
    - exact (Lk_step_wf _ _ _ _ HI H).
    - apply (step_x _ _ _ _ HI H).
    - intros c. apply (step_ob _ _ _ _ HI H c).
    - intros u c. apply Ho.
    - intros u c. apply Ho.
  Qed.

  Lemma Lk_init : Lk init.
  Proof.
    constructor; cbn; try (intros; discriminate); try reflexivity; try lia; try (intros; congruence); try (intros; contradiction).
  Qed.

  Theorem Lk_reach st : reach init step st -> Lk st.
  Proof. apply inv_rule; [exact Lk_init | intros s a s' es; apply Lk_step]. Qed.

  (** C11, exclusivity: at most one thread is between its lock acquisition and its unlocking store; a thread whose
      iterator is positioned ([ItIdle], also between operations) counts as such *)
  Theorem vhmit_mutex st t t' : reach init step st ->
    pc_bst (th st t) <> None -> pc_bst (th st t') <> None -> t = t'.
  Proof.
    intros Hr H1 H2. pose proof (Lk_reach _ Hr) as HI.
    pose proof (Lk_own _ HI t H1). pose proof (Lk_own _ HI t' H2). congruence.
  Qed.

End VhmItBase.
