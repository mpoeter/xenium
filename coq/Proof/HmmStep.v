(** The step function of Model/HmmDefs.v in elimination form: one constructor of [tstep] per branch of
    [step0], with the guard of the branch as a premise and the successor state written with the state
    transformers of the model; the last index lists the results the step returns (its [ERet] events, the
    only events the theorems speak of).  The returns of the internal [find] and the landings of an iterator
    stay applications of [find_ret] / [it_land]: what they do is analysed once per invariant, not once per
    caller.  All invariant layers of Proof/HmmInv.v and Proof/HmmItInv.v analyse a step through [step0_tstep]. *)
From Coq Require Import NArith List Bool.
From XV Require Import Base.Word Conc.Lts Conc.Ev Model.HmmDefs.
Import ListNotations.
Local Open Scope N_scope.

Definition rets (es : list ev) : list (nat * list N) :=
  flat_map (fun e => match e with ERet t r => [(t, r)] | _ => [] end) es.

Lemma in_rets u r es : In (ERet u r) es <-> In (u, r) (rets es).
Proof.
  unfold rets. rewrite in_flat_map. split.
  - intros H. exists (ERet u r). split; [exact H | left; reflexivity].
  - intros (e & He & Hin). destruct e; try (destruct Hin; fail). destruct Hin as [Hin | []]. injection Hin as -> ->. exact He.
Qed.

Lemma rets_app es es' : rets (es ++ es') = rets es ++ rets es'.
Proof. apply flat_map_app. Qed.

Section Step.
  Variable nb : N.
  Variable memo : bool.
  Variable lex : bool.
  Variable hf : N -> N.

  Notation bucket_of := (bucket_of nb hf).
  Notation nh := (nh memo hf).
  Notation gef := (gef memo lex).
  Notation step := (step nb memo lex hf).
  Notation step0 := (step0 nb memo lex hf).
  Notation m_alloc := (m_alloc hf).
  Notation find_ret := (find_ret nb memo hf).
  Notation it_land := (it_land nb).

  Section Rel.
  Variable s : state.
  (* the abbreviations of [step0] *)
  Notation m := (sm s).
  Notation ib t := (it_b (its s t)).
  Notation isv t := (it_sv (its s t)).
  Notation icur t := (it_cur (its s t)).

  Inductive tstep : action -> state -> list (nat * list N) -> Prop :=
  | ts_start t o (E : th s t = Idle) :
      tstep (Start t o) (set_pc s t (Begin o)) []
  | ts_ins t k v (E : th s t = Begin (OIns k v)) :
      tstep (Step t) (set_pc_lp (set_mem s (m_alloc m k v)) t (F1 (KIns (nalloc m) v) (bucket_of k) (nh (m_alloc m k v)
          (nalloc m)) k 0) None) []
  | ts_get t k v (E : th s t = Begin (OGet k v)) :
      tstep (Step t) (set_pc_lp s t (F1 (KGet 0 v) (bucket_of k) (hf k) k 0) None) []
  | ts_del t k (E : th s t = Begin (ODel k)) :
      tstep (Step t) (set_pc_lp s t (F1 KDel (bucket_of k) (hf k) k 0) None) []
  | ts_has t k (E : th s t = Begin (OHas k)) :
      tstep (Step t) (set_pc_lp s t (F1 KHas (bucket_of k) (hf k) k 0) None) []
  | ts_find t k (E : th s t = Begin (OFind k)) :
      tstep (Step t) (set_pc_lp s t (F1 KFind (bucket_of k) (hf k) k 0) None) []
  | ts_itb t (E : th s t = Begin OItB) :
      tstep (Step t) (start_trav s t (MB MBeg 0) None) []
  | ts_itf t k (E : th s t = Begin (OItF k)) :
      tstep (Step t) (start_trav s t (F1 KItF (bucket_of k) (hf k) k 0) (Some k)) []
  | ts_itn0 t (E : th s t = Begin OItN) (Hc : (icur t =? 0) = true) :
      tstep (Step t) (set_pc s t Idle) [(t, [7; 0])]
  | ts_itn t (E : th s t = Begin OItN) (Hc : (icur t =? 0) = false) :
      tstep (Step t) (set_pc s t N1) []
  | ts_itd t (E : th s t = Begin OItD) :
      tstep (Step t) (set_pc s t Idle) [(t, 8 :: pos_res m (icur t))]
  | ts_ite0 t (E : th s t = Begin OItE) (Hc : (icur t =? 0) = true) :
      tstep (Step t) (set_pc s t Idle) [(t, [9; 0])]
  | ts_ite t (E : th s t = Begin OItE) (Hc : (icur t =? 0) = false) :
      tstep (Step t) (set_pc s t X1) []
  | ts_itr t (E : th s t = Begin OItR) :
      tstep (Step t) (end_trav nb s t) [(t, [10])]
  | ts_f1m t c b h key start (E : th s t = F1 c b h key start) (Hc : pmark m start = true) :
      tstep (Step t) (set_pc s t (F1 c b h key 0)) []
  | ts_f1 t c b h key start (E : th s t = F1 c b h key start) (Hc : pmark m start = false) :
      tstep (Step t) (set_pc s t (F2 c b h key start start (pnext m b start))) []
  | ts_f2f t c b h key start sv nx (E : th s t = F2 c b h key start sv nx) (Hc : valid m b sv nx = false) :
      tstep (Step t) (set_pc s t (F1 c b h key start)) []
  | ts_f2r t c b h key start sv e s' es (E : th s t = F2 c b h key start sv 0) (Hc : valid m b sv 0 = true) (Hre : rets e = [])
      (Hr : find_ret s t c b h key sv 0 0 false false e = Some (s', es)) :
      tstep (Step t) s' (rets es)
  | ts_f2 t c b h key start sv nx (E : th s t = F2 c b h key start sv nx) (Hc : valid m b sv nx = true) (Hc0 : (nx =? 0) = false) :
      tstep (Step t) (set_pc s t (F3 c b h key start sv nx)) []
  | ts_f3m t c b h key start sv cur (E : th s t = F3 c b h key start sv cur) (Hc : nmark m cur = true) :
      tstep (Step t) (set_pc s t (F4 c b h key start sv cur)) []
  | ts_f3k t c b h key start sv cur (E : th s t = F3 c b h key start sv cur) (Hc : nmark m cur = false) (Hc0 :
      (nkey m cur =? key) && negb (is_del2 c) = true) :
      tstep (Step t) (set_pc_lp s t (F6 c b h key start sv cur (nnext m cur) (memk (nkey m cur) (g_abs m))) (Some (lookup key
          (g_abs m)))) []
  | ts_f3 t c b h key start sv cur (E : th s t = F3 c b h key start sv cur) (Hc : nmark m cur = false) (Hc0 :
      (nkey m cur =? key) && negb (is_del2 c) = false) :
      tstep (Step t) (set_pc s t (F6 c b h key start sv cur (nnext m cur) (memk (nkey m cur) (g_abs m)))) []
  | ts_f4 t c b h key start sv cur (E : th s t = F4 c b h key start sv cur) :
      tstep (Step t) (set_pc s t (F5 c b h key start sv cur (nnext m cur))) []
  | ts_f5 t c b h key start sv cur nx (E : th s t = F5 c b h key start sv cur nx) (Hc : valid m b sv cur = true) :
      tstep (Step t) (set_pc (set_mem s (m_unlink m b sv cur nx)) t (F2 c b h key start sv nx)) []
  | ts_f5f t c b h key start sv cur nx (E : th s t = F5 c b h key start sv cur nx) (Hc : valid m b sv cur = false) :
      tstep (Step t) (set_pc s t (F1 c b h key start)) []
  | ts_f6f t c b h key start sv cur nx w (E : th s t = F6 c b h key start sv cur nx w) (Hc : valid m b sv cur = false) :
      tstep (Step t) (set_pc s t (F1 c b h key start)) []
  | ts_f6r t c b h key start sv cur nx w e s' es (E : th s t = F6 c b h key start sv cur nx w) (Hc : valid m b sv cur = true)
      (Hc0 : gef m h key cur = true) (Hre : rets e = []) (Hr : find_ret s t c b h key sv cur nx (nkey m cur =? key) w e = Some (s', es)) :
      tstep (Step t) s' (rets es)
  | ts_f6 t c b h key start sv cur nx w (E : th s t = F6 c b h key start sv cur nx w) (Hc : valid m b sv cur = true)
      (Hc0 : gef m h key cur = false) :
      tstep (Step t) (set_pc s t (F2 c b h key start cur nx)) []
  | ts_e1 t g n v b h key sv cur (E : th s t = E1 g n v b h key sv cur) :
      tstep (Step t) (set_pc (set_mem s (m_store m n cur)) t (E2 g n v b h key sv cur)) []
  | ts_e2 t g n v b h key sv cur (E : th s t = E2 g n v b h key sv cur) (Hc : valid m b sv cur = true) :
      tstep (Step t) (ret_st (set_mem s (m_link m t b sv n)) t (if g then OGet key v else OIns key v) true
          (if g then nval m n else 0) (Some (lookup key (g_abs m)))) [(t, if g then [1; 1; key; nval m n] else [0; 1])]
  | ts_e2f t g n v b h key sv cur (E : th s t = E2 g n v b h key sv cur) (Hc : valid m b sv cur = false) :
      tstep (Step t) (set_pc s t (F1 (if g then KGet n v else KIns n v) b h key sv)) []
  | ts_d1 t b h key sv cur nx (E : th s t = D1 b h key sv cur nx) (Hc : (nnext m cur =? nx) && negb (nmark m cur) = true) :
      tstep (Step t) (set_pc_lp (set_mem s (m_mark m t cur false)) t (D2 b h key sv cur nx) (Some (lookup key (g_abs m)))) []
  | ts_d1f t b h key sv cur nx (E : th s t = D1 b h key sv cur nx) (Hc : (nnext m cur =? nx) && negb (nmark m cur) = false) :
      tstep (Step t) (set_pc s t (F1 KDel b h key sv)) []
  | ts_d2 t b h key sv cur nx (E : th s t = D2 b h key sv cur nx) (Hc : valid m b sv cur = true) :
      tstep (Step t) (ret_st (set_mem s (m_unlink m b sv cur nx)) t (ODel key) true 0 (g_lp s t)) [(t, [2; 1])]
  | ts_d2f t b h key sv cur nx (E : th s t = D2 b h key sv cur nx) (Hc : valid m b sv cur = false) :
      tstep (Step t) (set_pc s t (F1 KDel2 b h key sv)) []
  | ts_mb t c b e s' es (E : th s t = MB c b) (Hre : rets e = []) (Hr : it_land s t c b 0 (bhead m b) (memk (nkey m (bhead m b))
      (g_abs m)) e = Some (s', es)) :
      tstep (Step t) s' (rets es)
  | ts_n1m t (E : th s t = N1) (Hc : nmark m (icur t) = true) :
      tstep (Step t) (set_pc s t (F1 (KItN (icur t)) (ib t) (nh m (icur t)) (nkey m (icur t)) (isv t))) []
  | ts_n1 t (E : th s t = N1) (Hc : nmark m (icur t) = false) :
      tstep (Step t) (set_pc s t (N2 (nnext m (icur t)))) []
  | ts_n2 t nx e s' es (E : th s t = N2 nx) (Hc : (nnext m (icur t) =? nx) && negb (nmark m (icur t)) = true) (Hre : rets e = [])
      (Hr : it_land s t MNext (ib t) (icur t) nx (memk (nkey m nx) (g_abs m)) e = Some (s', es)) :
      tstep (Step t) s' (rets es)
  | ts_n2f t nx (E : th s t = N2 nx) (Hc : (nnext m (icur t) =? nx) && negb (nmark m (icur t)) = false) :
      tstep (Step t) (set_pc s t N1) []
  | ts_x1m t (E : th s t = X1) (Hc : nmark m (icur t) = true) :
      tstep (Step t) (set_pc s t (X3 (nnext m (icur t)))) []
  | ts_x1 t (E : th s t = X1) (Hc : nmark m (icur t) = false) :
      tstep (Step t) (set_pc s t (X2 (nnext m (icur t)))) []
  | ts_x2 t nx (E : th s t = X2 nx) (Hc : (nnext m (icur t) =? nx) && negb (nmark m (icur t)) = true) :
      tstep (Step t) (set_pc (set_mem s (m_mark m t (icur t) true)) t (X3 nx)) []
  | ts_x2m t nx (E : th s t = X2 nx) (Hc : nmark m (icur t) = true) :
      tstep (Step t) (set_pc s t (X3 (nnext m (icur t)))) []
  | ts_x2f t nx (E : th s t = X2 nx) (Hc : (nnext m (icur t) =? nx) = false) (Hc0 : nmark m (icur t) = false) :
      tstep (Step t) (set_pc s t (X2 (nnext m (icur t)))) []
  | ts_x3 t nx e s' es (E : th s t = X3 nx) (Hc : valid m (ib t) (isv t) (icur t) = true) (Hre : rets e = []) (Hr : it_land
      (set_mem s (m_unlink m (ib t) (isv t) (icur t) nx)) t (MErase (icur t)) (ib t) (isv t) nx (memk (nkey m nx)
          (g_abs m)) e = Some (s', es)) :
      tstep (Step t) s' (rets es)
  | ts_x3f t nx (E : th s t = X3 nx) (Hc : valid m (ib t) (isv t) (icur t) = false) :
      tstep (Step t) (set_pc s t (F1 (KItE (icur t)) (ib t) (nh m (icur t)) (nkey m (icur t)) (isv t))) [].
  End Rel.

  Lemma step0_tstep s a s' es : step0 s a = Some (s', es) -> tstep s a s' (rets es).
  Proof.
    unfold HmmDefs.step0. destruct a as [t o | t];
      destruct (th s t) as [|o'|c b h key start|c b h key start sv nx|c b h key start sv cur|c b h key start sv cur
                            |c b h key start sv cur nx|c b h key start sv cur nx w|g n v b h key sv cur|g n v b h key sv cur
                            |b h key sv cur nx|b h key sv cur nx|c b| |nx| |nx|nx] eqn:E; try discriminate; cbv beta iota zeta; intros Hst;
      try match type of Hst with context [match ?o with OIns _ _ => _ | _ => _ end] => destruct o end;
      repeat match type of Hst with
             | context [if negb ?b then _ else _] => destruct b eqn:?Hc; cbn [negb] in Hst
             | context [if ?b then _ else _] => destruct b eqn:?Hc
             end.
    all: try (injection Hst as <- <-; econstructor; eassumption).
    - match goal with H : (nx =? 0) = true |- _ => apply N.eqb_eq in H; subst nx end. eapply ts_f2r; try eassumption; reflexivity.
    - eapply ts_f6r; try eassumption; reflexivity.
    - injection Hst as <- <-. eapply (ts_e2 s t true); eassumption.
    - injection Hst as <- <-. eapply (ts_e2 s t false); eassumption.
    - injection Hst as <- <-. eapply (ts_e2f s t true); eassumption.
    - injection Hst as <- <-. eapply (ts_e2f s t false); eassumption.
    - eapply ts_mb; try eassumption; reflexivity.
    - eapply ts_n2; try eassumption; reflexivity.
    - injection Hst as <- <-. match goal with H : _ && negb false = false |- _ => rewrite andb_true_r in H end. eapply ts_x2f; eassumption.
    - eapply ts_x3; try eassumption; reflexivity.
  Qed.

  Lemma step_split s a s' es : step s a = Some (s', es) -> exists s1, step0 s a = Some (s1, es) /\ s' = refresh s1.
  Proof.
    unfold HmmDefs.step. destruct (step0 s a) as [[s1 e1]|]; [|discriminate]. intros H. injection H as <- <-. exists s1. auto.
  Qed.
End Step.

Arguments step0_tstep {nb memo lex hf} [s a s' es].
Arguments step_split {nb memo lex hf} [s a s' es].

(** projections of the transformed states *)
Ltac sprj := cbn [sm th its g_lp g_hist set_pc set_pc_lp set_mem ret_st move_it start_trav end_trav add_hist
                  HmmDefs.end_trav it_b it_sv it_cur g_yield g_lo g_trav g_start g_always].

(** all cases of an equation [find_ret .. = Some (s', es)] or [it_land .. = Some (s', es)] *)
Ltac ret_cases H :=
  unfold find_ret, it_land in H;
  repeat match type of H with
         | context [if ?b then _ else _] => destruct b eqn:?Hc
         | context [match ?k with KIns _ _ => _ | _ => _ end] => destruct k
         end;
  injection H as <- <-.

(** * What a step leaves alone *)

Definition actor (a : action) : nat := match a with Start t _ | Step t => t end.

Section Frame.
  Variable nb : N.
  Variable memo : bool.
  Variable lex : bool.
  Variable hf : N -> N.

  Lemma it_land_sm st t c b sv cur w e st' es : it_land nb st t c b sv cur w e = Some (st', es) -> sm st' = sm st.
  Proof. intros H. ret_cases H; reflexivity. Qed.

  Lemma it_land_hist st t c b sv cur w e st' es : it_land nb st t c b sv cur w e = Some (st', es) -> g_hist st' = g_hist st.
  Proof. intros H. ret_cases H; reflexivity. Qed.

  (** the only return of [find] that writes to the memory allocates the node of get_or_emplace *)
  Lemma find_ret_sm st t c b h key sv cur nx found w e st' es :
    find_ret nb memo hf st t c b h key sv cur nx found w e = Some (st', es) ->
    sm st' = sm st \/ exists v, sm st' = m_alloc hf (sm st) key v.
  Proof. intros H. ret_cases H; sprj; eauto. Qed.

  Lemma tstep_others s a s' rs u : tstep nb memo lex hf s a s' rs -> u <> actor a ->
    th s' u = th s u /\ its s' u = its s u /\ g_lp s' u = g_lp s u.
  Proof.
    intros H Hne. destruct H; try ret_cases Hr; cbn [actor] in Hne; sprj; rewrite ?upd_other by exact Hne; auto.
  Qed.
End Frame.

Arguments it_land_sm {nb} [st t c b sv cur w e st' es].
Arguments it_land_hist {nb} [st t c b sv cur w e st' es].
Arguments find_ret_sm {nb memo hf} [st t c b h key sv cur nx found w e st' es].
