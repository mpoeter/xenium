(** nikolaev_bounded_queue model, invariant layer 3: the values.
    [g_in] / [g_out] / [g_ok] / [g_ret] are lists of (ticket of the allocated ring, value): every ticket
    occurs at most once in each; what a try_pop takes at ticket H is what a try_push published at H
    (the cell is not touched in between); what try_pop returns is what it took; what try_push reports
    as accepted was published. *)
From Coq Require Import NArith List Bool Lia PeanoNat.
From XV Require Import Base.Word Conc.Lts Conc.Ev gen.ScqGen Model.NikbDefs Proof.NikbArith Proof.NikbBase Proof.NikbWf Proof.NikbOwn.
Import ListNotations.
Local Open Scope N_scope.

Set Default Proof Using "All".
Section L3.
  Variable k R : N.
  Hypothesis Hk : k <= 40.
  Notation cap := (2 ^ k).
  Notation step := (step cap R).
  Notation Inv1 := (Inv1 k).
  Notation Inv2 := (Inv2 k).

  (** fates [EPub] and [DTaken] are final *)
  Lemma fate_stable s a s' es : Inv1 s -> Inv2 s -> step s a = Some (s', es) ->
    (forall q T i, g_eq (rg s q) T = EPub i -> g_eq (rg s' q) T = EPub i) /\
    (forall q H i, g_dq (rg s q) H = DTaken i -> g_dq (rg s' q) H = DTaken i).
  Proof.
    intros H1 H2 Hst. pose proof H1 as [HW HT1]. pose proof H2 as (HR & HT & HO).
    unfold NikbDefs.step, step_gen in Hst. destruct a as [t o|t].
    - destruct (th s t) eqn:E; try discriminate. injection Hst as <- <-. sim. split; intros; assumption.
    - pose proof (HT t) as (Ta & Tb & Tc & Td).
      pose proof (ticket_fresh_dq k R Hk s) as Fd. pose proof (ticket_fresh_eq k R Hk s) as Fe.
      pc_cases (th s t); try discriminate;
        cbn [dtk etk hidx] in Ta, Tb, Tc.
      all: try (specialize (Ta _ _ eq_refl)); try (specialize (Tb _ _ eq_refl)).
      all: try (specialize (Fd q H1 H2)); try (specialize (Fe q H1 H2)).
      all: unfold mark_left, mark_skip in Hst.
      all: repeat match type of Hst with context [if ?c then _ else _] => destruct c end.
      all: try destruct q.
      all: injection Hst as <- <-; sim.
      all: split; [intros q' T i Hx|intros q' H i Hx]; try destruct q'; sim; try exact Hx.
      all: unfold setf.
      all: match goal with |- context [if ?a =? ?b then _ else _] => destruct (N.eqb_spec a b) as [Heq|Hneq]; [|exact Hx] end.
      all: exfalso; rewrite Heq in Hx; congruence.
  Qed.

  (** a dequeue ticket of the allocated ring becomes [DTaken] only by the fetch_or of a try_pop *)
  Lemma fate_back s a s' es : step s a = Some (s', es) ->
    forall H i, g_dq (ra s') H = DTaken i ->
    g_dq (ra s) H = DTaken i \/ (exists t x hd e, a = Step t /\ th s t = D3 RA x hd e /\ H = hd / 2).
  Proof.
    intros Hst. unfold NikbDefs.step, step_gen in Hst. destruct a as [t o|t].
    - destruct (th s t) eqn:E; try discriminate. injection Hst as <- <-. sim. intros; left; assumption.
    - pc_cases (th s t); try discriminate.
      all: unfold mark_left, mark_skip in Hst.
      all: repeat match type of Hst with context [if ?c then _ else _] => destruct c end.
      all: try destruct q.
      all: injection Hst as <- <-; sim.
      all: intros H i Hx; try (left; exact Hx).
      all: unfold setf in Hx.
      all: match type of Hx with context [if ?a =? ?b then _ else _] => destruct (N.eqb_spec a b) as [Heq|Hneq]; [|left; exact Hx] end.
      all: try discriminate Hx.
      all: right; exists t; do 3 eexists; ssplit; [reflexivity|exact E|exact Heq].
  Qed.

  Definition T3 (st : state) (t : nat) (p : pc) : Prop :=
    match p with
    | E2 RA x i gk _ | E3 RA x i gk _ _ | E4 RA x i gk _ _ => store st i = x
    | E5 RA x i gk | E6 RA x i gk => In (gk, x) (g_in st) /\ g_ebusy st gk = Some t
    | E1 RF x i gk => In (gk, store st i) (g_out st) /\ g_dbusy st gk = Some t
    | E2 RF x i gk _ | E3 RF x i gk _ _ | E4 RF x i gk _ _ =>
      In (gk, x) (g_out st) /\ g_dbusy st gk = Some t /\ store st i = x
    | E5 RF x i gk | E6 RF x i gk => In (gk, x) (g_out st) /\ g_dbusy st gk = Some t
    | _ => True
    end.

  Record Inv3 (st : state) : Prop := mkI3 {
    v1 : forall i T, i < cap -> g_own st i = OFull T -> In (T, store st i) (g_in st);
    v2 : forall T v, In (T, v) (g_in st) -> exists i, g_eq (ra st) T = EPub i;
    v2n : NoDup (map fst (g_in st));
    v3 : forall H v, In (H, v) (g_out st) -> In (H, v) (g_in st) /\ exists i, g_dq (ra st) H = DTaken i;
    v3n : NoDup (map fst (g_out st));
    v4 : forall H i, g_dq (ra st) H = DTaken i -> exists v, In (H, v) (g_out st);
    vok : forall T v, In (T, v) (g_ok st) -> In (T, v) (g_in st) /\ g_ebusy st T = None;
    vokn : NoDup (map fst (g_ok st));
    vret : forall H v, In (H, v) (g_ret st) -> In (H, v) (g_out st) /\ g_dbusy st H = None;
    vretn : NoDup (map fst (g_ret st));
    vb1 : forall T u, g_ebusy st T = Some u -> exists i, g_eq (ra st) T = EPub i;
    vb2 : forall H u, g_dbusy st H = Some u -> exists i, g_dq (ra st) H = DTaken i;
    vt : forall t, T3 st t (th st t) }.

  Lemma Inv3_init : Inv3 (init cap).
  Proof.
    constructor; cbn [init g_own g_in g_out g_ok g_ret g_ebusy g_dbusy th store rgs g_dq]; try (intros; contradiction); try constructor;
      try (intros; discriminate); try (intros t; exact I).
  Qed.

  Lemma NoDup_snocN (l : list N) n : NoDup l -> ~ In n l -> NoDup (l ++ [n]).
  Proof.
    induction l as [|a l IH]; cbn; intros Hnd Hni; [constructor; [intros []|constructor]|].
    inversion Hnd; subst. constructor.
    - rewrite in_app_iff. cbn. intuition.
    - apply IH; [assumption|intuition].
  Qed.

  Lemma nodup_snoc (l : list (N * N)) a v : NoDup (map fst l) -> (forall w, ~ In (a, w) l) -> NoDup (map fst (l ++ [(a, v)])).
  Proof.
    intros Hn Hni. rewrite map_app. cbn [map fst]. apply NoDup_snocN; [exact Hn|].
    intros Hin. apply in_map_iff in Hin. destruct Hin as ([a' w] & Ha & Hin). cbn in Ha. subst a'. apply (Hni w Hin).
  Qed.

  (** * the general update: each of the four lists grows by at most one pair *)
  Definition optl (o : option (N * N)) : list (N * N) := match o with Some p => [p] | None => [] end.

  Lemma in_optl p l o : In p (l ++ optl o) <-> In p l \/ o = Some p.
  Proof.
    rewrite in_app_iff. destruct o as [p'|]; cbn [optl In]; [|intuition discriminate].
    split; (intros [H|H]; [left; exact H|right]); [destruct H as [->|[]]; reflexivity|left; congruence].
  Qed.

  Lemma nodup_optl l o : NoDup (map fst l) -> (forall a v, o = Some (a, v) -> forall w, ~ In (a, w) l) -> NoDup (map fst (l ++ optl o)).
  Proof.
    intros Hn Hf. destruct o as [[a v]|]; cbn [optl]; [apply nodup_snoc; [exact Hn|apply (Hf a v eq_refl)]|rewrite app_nil_r; exact Hn].
  Qed.

  (** what another thread knows about its operation survives when the cell it holds is not written, the lists grow
      and its busy marks stay *)
  Lemma T3_mono s s' u p :
    (forall q i, hidx p = Some (q, i) -> store s' i = store s i) ->
    incl (g_in s) (g_in s') -> incl (g_out s) (g_out s') ->
    (forall gk, g_ebusy s gk = Some u -> g_ebusy s' gk = Some u) ->
    (forall gk, g_dbusy s gk = Some u -> g_dbusy s' gk = Some u) -> T3 s u p -> T3 s' u p.
  Proof.
    intros Hs Hi Ho He Hd. destruct p; cbn [T3]; try tauto; destruct q; cbn [hidx] in Hs; rewrite ?(Hs _ _ eq_refl);
      intuition auto.
  Qed.

  (** [din] .. [dret]: the pair appended to [g_in] .. [g_ret], if any.  The old pairs keep their properties because
      [EPub] and [DTaken] are final and a busy mark changes only where the side conditions say; the obligations are
      about the new pair, the cells that hold a value, and the marks *)
  Lemma Inv3_upd s s' t p' din dout dok dret :
    Inv3 s ->
    (forall T i, g_eq (ra s) T = EPub i -> g_eq (ra s') T = EPub i) ->
    (forall H i, g_dq (ra s) H = DTaken i -> g_dq (ra s') H = DTaken i) ->
    g_in s' = g_in s ++ optl din -> g_out s' = g_out s ++ optl dout ->
    g_ok s' = g_ok s ++ optl dok -> g_ret s' = g_ret s ++ optl dret ->
    (forall i T, i < cap -> g_own s' i = OFull T ->
       (g_own s i = OFull T /\ store s' i = store s i) \/ din = Some (T, store s' i)) ->
    (forall T v, din = Some (T, v) -> (forall w, ~ In (T, w) (g_in s)) /\ exists i, g_eq (ra s') T = EPub i) ->
    (forall H v, dout = Some (H, v) ->
       (forall w, ~ In (H, w) (g_out s)) /\ In (H, v) (g_in s) /\ exists i, g_dq (ra s') H = DTaken i) ->
    (forall T v, dok = Some (T, v) -> (forall w, ~ In (T, w) (g_ok s)) /\ In (T, v) (g_in s) /\ g_ebusy s' T = None) ->
    (forall H v, dret = Some (H, v) -> (forall w, ~ In (H, w) (g_ret s)) /\ In (H, v) (g_out s) /\ g_dbusy s' H = None) ->
    (forall H i, g_dq (ra s') H = DTaken i -> g_dq (ra s) H = DTaken i \/ exists v, dout = Some (H, v)) ->
    (forall T, g_ebusy s' T = g_ebusy s T \/ g_ebusy s' T = None \/
               ((forall v, ~ In (T, v) (g_in s)) /\ exists i, g_eq (ra s') T = EPub i)) ->
    (forall H, g_dbusy s' H = g_dbusy s H \/ g_dbusy s' H = None \/
               ((forall v, ~ In (H, v) (g_out s)) /\ exists i, g_dq (ra s') H = DTaken i)) ->
    th s' = upd (th s) t p' -> T3 s' t p' -> (forall u, u <> t -> T3 s u (th s u) -> T3 s' u (th s u)) -> Inv3 s'.
  Proof.
    intros [a1 a2 a2n a3 a3n a4 aok aokn aret aretn ab1 ab2 at_] Fe Fd Hi Ho Hok Hret O1 Nin Nout Nok Nret O4 Oe Od Hth Hp Hoth.
    assert (Pe : forall T, (exists i, g_eq (ra s) T = EPub i) -> exists i, g_eq (ra s') T = EPub i)
      by (intros T [i Hx]; exists i; apply Fe; exact Hx).
    assert (Pd : forall H, (exists i, g_dq (ra s) H = DTaken i) -> exists i, g_dq (ra s') H = DTaken i)
      by (intros H [i Hx]; exists i; apply Fd; exact Hx).
    constructor; rewrite ?Hi, ?Ho, ?Hok, ?Hret.
    - intros i T Hlt Hx. apply in_optl. destruct (O1 i T Hlt Hx) as [[Hy ->]|Hy]; [left; apply a1; assumption|right; exact Hy].
    - intros T v Hx. apply in_optl in Hx. destruct Hx as [Hx|Hx]; [apply Pe, (a2 T v Hx)|apply (Nin T v Hx)].
    - apply nodup_optl; [exact a2n|]. intros T v Hx. apply (Nin T v Hx).
    - intros H v Hx. apply in_optl in Hx. destruct Hx as [Hx|Hx].
      + destruct (a3 H v Hx) as [X Y]. split; [apply in_optl; left; exact X|apply Pd, Y].
      + destruct (Nout H v Hx) as (_ & X & Y). split; [apply in_optl; left; exact X|exact Y].
    - apply nodup_optl; [exact a3n|]. intros H v Hx. apply (Nout H v Hx).
    - intros H i Hx. destruct (O4 H i Hx) as [Hy|[v Hy]].
      + destruct (a4 H i Hy) as [v Hv]. exists v. apply in_optl. left. exact Hv.
      + exists v. apply in_optl. right. exact Hy.
    - intros T v Hx. apply in_optl in Hx. destruct Hx as [Hx|Hx].
      + destruct (aok T v Hx) as [X Y]. split; [apply in_optl; left; exact X|].
        destruct (Oe T) as [E|[E|[E _]]]; [rewrite E; exact Y|exact E|destruct (E v X)].
      + destruct (Nok T v Hx) as (_ & X & Y). split; [apply in_optl; left; exact X|exact Y].
    - apply nodup_optl; [exact aokn|]. intros T v Hx. apply (Nok T v Hx).
    - intros H v Hx. apply in_optl in Hx. destruct Hx as [Hx|Hx].
      + destruct (aret H v Hx) as [X Y]. split; [apply in_optl; left; exact X|].
        destruct (Od H) as [E|[E|[E _]]]; [rewrite E; exact Y|exact E|destruct (E v X)].
      + destruct (Nret H v Hx) as (_ & X & Y). split; [apply in_optl; left; exact X|exact Y].
    - apply nodup_optl; [exact aretn|]. intros H v Hx. apply (Nret H v Hx).
    - intros T u Hx. destruct (Oe T) as [E|[E|[_ E]]]; [rewrite E in Hx; apply Pe, (ab1 T u Hx)|congruence|exact E].
    - intros H u Hx. destruct (Od H) as [E|[E|[_ E]]]; [rewrite E in Hx; apply Pd, (ab2 H u Hx)|congruence|exact E].
    - intros u. rewrite Hth. destruct (Nat.eq_dec u t) as [->|Hne]; [rewrite upd_same; exact Hp|rewrite upd_other by exact Hne].
      apply (Hoth u Hne), at_.
  Qed.

  (** steps that touch nothing the values depend on *)
  Lemma Inv3_frame s s' t p' :
    Inv3 s ->
    (forall T i, g_eq (ra s) T = EPub i -> g_eq (ra s') T = EPub i) ->
    (forall H i, g_dq (ra s) H = DTaken i -> g_dq (ra s') H = DTaken i) ->
    (forall H i, g_dq (ra s') H = DTaken i -> g_dq (ra s) H = DTaken i) ->
    (forall i, store s' i = store s i) -> (forall i T, g_own s' i = OFull T -> g_own s i = OFull T) ->
    g_in s' = g_in s -> g_out s' = g_out s -> g_ok s' = g_ok s -> g_ret s' = g_ret s ->
    (forall T, g_ebusy s' T = g_ebusy s T) -> (forall H, g_dbusy s' H = g_dbusy s H) ->
    th s' = upd (th s) t p' -> T3 s' t p' -> Inv3 s'.
  Proof.
    intros H3 Fe Fd Fr Hs Hown Hi Ho Hok Hret Heb Hdb Hth Hp.
    apply (Inv3_upd s s' t p' None None None None H3 Fe Fd); cbn [optl]; rewrite ?app_nil_r; try assumption; try (intros; discriminate).
    - intros i T _ Hx. left. split; [apply Hown; exact Hx|apply Hs].
    - intros H i Hx. left. apply Fr. exact Hx.
    - intros T. left. apply Heb.
    - intros H. left. apply Hdb.
    - intros u _. apply T3_mono; [intros; apply Hs|rewrite Hi; apply incl_refl|rewrite Ho; apply incl_refl|intros gk; rewrite Heb; auto|intros gk; rewrite Hdb; auto].
  Qed.

  (** * try_pop takes ticket H0 of the allocated ring *)
  Lemma V_take s s' t x hd e :
    Inv1 s -> Inv2 s -> Inv3 s -> th s t = D3 RA x hd e ->
    (forall T i, g_eq (ra s) T = EPub i -> g_eq (ra s') T = EPub i) ->
    (forall H i, g_dq (ra s) H = DTaken i -> g_dq (ra s') H = DTaken i) ->
    g_dq (ra s') (hd / 2) = DTaken (eidx k e) ->
    (forall H i, g_dq (ra s') H = DTaken i -> g_dq (ra s) H = DTaken i \/ H = hd / 2) ->
    (forall i, store s' i = store s i) ->
    (forall i, g_own s' i = if i =? eidx k e then ORead t else g_own s i) ->
    g_in s' = g_in s -> g_out s' = g_out s ++ [(hd / 2, store s (eidx k e))] -> g_ok s' = g_ok s -> g_ret s' = g_ret s ->
    (forall T, g_ebusy s' T = g_ebusy s T) ->
    (forall H, g_dbusy s' H = if H =? hd / 2 then Some t else g_dbusy s H) ->
    th s' = upd (th s) t (E1 RF x (eidx k e) (hd / 2)) -> Inv3 s'.
  Proof.
    intros [HW HT1] (HR & HT & HO) H3 Et Fe Fd Hnew Fr Hs Hown Hi Ho Hok Hret Heb Hdb Hth.
    pose proof (HT1 t) as Ht1. rewrite Et in Ht1. cbn [T1] in Ht1. destruct Ht1 as ([Hhd2 Hhdlt] & _).
    pose proof (HT t) as (Ta & _ & _ & Td). rewrite Et in Ta, Td. specialize (Ta RA hd eq_refl). destruct Td as (Hidx & Hsi & Hsc).
    set (H0 := hd / 2) in *. set (idx := eidx k e) in *.
    assert (HH0 : 2 * H0 < 2 ^ 62) by (rewrite <- Hhd2; exact Hhdlt).
    rewrite Hhd2, (ecyc_tick k Hk) in Hsc. fold H0 in Hsc.
    destruct (HR RA) as [_ _ _ _ qs2 _ _ _ _].
    destruct (qs2 H0 HH0 ltac:(rewrite Hsi; exact Hidx) Hsc) as (_ & Hown0 & _). rewrite Hsi in Hown0. cbn [inring] in Hown0.
    assert (Hnh : forall H, (exists i, g_dq (ra s) H = DTaken i) -> H <> H0)
      by (intros H [i Hx] ->; rewrite Ta in Hx; discriminate).
    assert (Hfresh : forall v, ~ In (H0, v) (g_out s)) by (intros v Hin; apply (Hnh H0); [apply (v3 s H3 H0 v Hin)|reflexivity]).
    apply (Inv3_upd s s' t (E1 RF x idx H0) None (Some (H0, store s idx)) None None H3 Fe Fd); cbn [optl]; rewrite ?app_nil_r;
      try assumption; try (intros; discriminate).
    - intros i T Hlt. rewrite Hown. destruct (i =? idx); [discriminate|]. intros Hx. left. split; [exact Hx|apply Hs].
    - intros H v [= <- <-]. ssplit; [exact Hfresh|apply (v1 s H3); assumption|exists idx; exact Hnew].
    - intros H i Hx. destruct (Fr H i Hx) as [Hy| ->]; [left; exact Hy|right; exists (store s idx); reflexivity].
    - intros T. left. apply Heb.
    - intros H. rewrite Hdb. destruct (N.eqb_spec H H0) as [->|_]; [right; right; split; [exact Hfresh|exists idx; exact Hnew]|left; reflexivity].
    - cbn [T3]. rewrite Ho, Hs, Hdb, N.eqb_refl. split; [apply in_or_app; right; left; reflexivity|reflexivity].
    - intros u _. apply T3_mono; [intros; apply Hs|rewrite Hi; apply incl_refl|rewrite Ho; apply incl_appl, incl_refl|intros gk; rewrite Heb; auto|].
      intros gk Hx. rewrite Hdb. destruct (N.eqb_spec gk H0) as [->|_]; [destruct (Hnh H0 (vb2 s H3 H0 u Hx) eq_refl)|exact Hx].
  Qed.

  (** * try_push writes the cell it holds *)
  Lemma V_write s s' t x idx gk tl :
    Inv2 s -> Inv3 s -> th s t = E1 RA x idx gk ->
    (forall T i, g_eq (ra s) T = EPub i -> g_eq (ra s') T = EPub i) ->
    (forall H i, g_dq (ra s) H = DTaken i -> g_dq (ra s') H = DTaken i) ->
    (forall H i, g_dq (ra s') H = DTaken i -> g_dq (ra s) H = DTaken i) ->
    (forall i, store s' i = if i =? idx then x else store s i) ->
    (forall i, g_own s' i = g_own s i) ->
    g_in s' = g_in s -> g_out s' = g_out s -> g_ok s' = g_ok s -> g_ret s' = g_ret s ->
    (forall T, g_ebusy s' T = g_ebusy s T) -> (forall H, g_dbusy s' H = g_dbusy s H) ->
    th s' = upd (th s) t (E2 RA x idx gk tl) -> Inv3 s'.
  Proof.
    intros (HR & HT & HO) H3 Et Fe Fd Fr Hs Hown Hi Ho Hok Hret Heb Hdb Hth.
    pose proof (HT t) as (_ & _ & Tc & _). rewrite Et in Tc. destruct (Tc RA idx eq_refl) as [Hmine _]. cbn [held] in Hmine.
    apply (Inv3_upd s s' t (E2 RA x idx gk tl) None None None None H3 Fe Fd); cbn [optl]; rewrite ?app_nil_r;
      try assumption; try (intros; discriminate).
    - intros i T _. rewrite Hown, Hs. intros Hx. left. split; [exact Hx|]. destruct (N.eqb_spec i idx) as [->|_]; [congruence|reflexivity].
    - intros H i Hx. left. apply Fr. exact Hx.
    - intros T. left. apply Heb.
    - intros H. left. apply Hdb.
    - cbn [T3]. rewrite Hs, N.eqb_refl. reflexivity.
    - intros u Hne. apply T3_mono; [|rewrite Hi; apply incl_refl|rewrite Ho; apply incl_refl|intros g; rewrite Heb; auto|intros g; rewrite Hdb; auto].
      intros q i Hh. rewrite Hs. destruct (N.eqb_spec i idx) as [->|_]; [exfalso|reflexivity].
      pose proof (HT u) as (_ & _ & Tcu & _). destruct (Tcu q idx Hh) as [Hu _]. rewrite Hmine in Hu. destruct q; cbn [held] in Hu; congruence.
  Qed.

  (** * try_push publishes its index in the allocated ring *)
  Lemma V_pub s s' t x idx gk tl e :
    Inv1 s -> Inv2 s -> Inv3 s -> th s t = E4 RA x idx gk tl e ->
    (forall T i, g_eq (ra s) T = EPub i -> g_eq (ra s') T = EPub i) ->
    (forall H i, g_dq (ra s) H = DTaken i -> g_dq (ra s') H = DTaken i) ->
    (forall H i, g_dq (ra s') H = DTaken i -> g_dq (ra s) H = DTaken i) ->
    g_eq (ra s') (tl / 2) = EPub idx ->
    (forall i, store s' i = store s i) ->
    (forall i, g_own s' i = if i =? idx then OFull (tl / 2) else g_own s i) ->
    g_in s' = g_in s ++ [(tl / 2, x)] -> g_out s' = g_out s -> g_ok s' = g_ok s -> g_ret s' = g_ret s ->
    (forall T, g_ebusy s' T = if T =? tl / 2 then Some t else g_ebusy s T) ->
    (forall H, g_dbusy s' H = g_dbusy s H) ->
    th s' = upd (th s) t (E5 RA x idx (tl / 2)) -> Inv3 s'.
  Proof.
    intros [HW HT1] (HR & HT & HO) H3 Et Fe Fd Fr Hnew Hs Hown Hi Ho Hok Hret Heb Hdb Hth.
    pose proof (HT t) as (_ & Tb & _). rewrite Et in Tb. specialize (Tb RA tl eq_refl).
    pose proof (vt s H3 t) as Hst. rewrite Et in Hst. cbn [T3] in Hst.
    set (T0 := tl / 2) in *.
    assert (Hnp : forall T, (exists i, g_eq (ra s) T = EPub i) -> T <> T0)
      by (intros T [i Hx] ->; rewrite Tb in Hx; discriminate).
    assert (Hfresh : forall v, ~ In (T0, v) (g_in s)) by (intros v Hin; apply (Hnp T0); [apply (v2 s H3 T0 v Hin)|reflexivity]).
    apply (Inv3_upd s s' t (E5 RA x idx T0) (Some (T0, x)) None None None H3 Fe Fd); cbn [optl]; rewrite ?app_nil_r;
      try assumption; try (intros; discriminate).
    - intros i T _. rewrite Hown, Hs. destruct (N.eqb_spec i idx) as [->|_]; [intros [= <-]; right; rewrite Hst; reflexivity|].
      intros Hx. left. split; [exact Hx|reflexivity].
    - intros T v [= <- <-]. split; [exact Hfresh|exists idx; exact Hnew].
    - intros H i Hx. left. apply Fr. exact Hx.
    - intros T. rewrite Heb. destruct (N.eqb_spec T T0) as [->|_]; [right; right; split; [exact Hfresh|exists idx; exact Hnew]|left; reflexivity].
    - intros H. left. apply Hdb.
    - cbn [T3]. rewrite Hi, Heb, N.eqb_refl. split; [apply in_or_app; right; left; reflexivity|reflexivity].
    - intros u _. apply T3_mono; [intros; apply Hs|rewrite Hi; apply incl_appl, incl_refl|rewrite Ho; apply incl_refl| |intros g; rewrite Hdb; auto].
      intros g Hx. rewrite Heb. destruct (N.eqb_spec g T0) as [->|_]; [destruct (Hnp T0 (vb1 s H3 T0 u Hx) eq_refl)|exact Hx].
  Qed.

  (** * returns *)
  Lemma V_retA s s' t x gk :
    Inv3 s -> T3 s t (E5 RA x 0 gk) ->
    (forall T i, g_eq (ra s) T = EPub i -> g_eq (ra s') T = EPub i) ->
    (forall H i, g_dq (ra s) H = DTaken i -> g_dq (ra s') H = DTaken i) ->
    (forall H i, g_dq (ra s') H = DTaken i -> g_dq (ra s) H = DTaken i) ->
    (forall i, store s' i = store s i) -> (forall i, g_own s' i = g_own s i) ->
    g_in s' = g_in s -> g_out s' = g_out s -> g_ok s' = g_ok s ++ [(gk, x)] -> g_ret s' = g_ret s ->
    (forall T, g_ebusy s' T = if T =? gk then None else g_ebusy s T) ->
    (forall H, g_dbusy s' H = g_dbusy s H) ->
    th s' = upd (th s) t Idle -> Inv3 s'.
  Proof.
    intros H3 [Hin Hbusy] Fe Fd Fr Hs Hown Hi Ho Hok Hret Heb Hdb Hth.
    apply (Inv3_upd s s' t Idle None None (Some (gk, x)) None H3 Fe Fd); cbn [optl]; rewrite ?app_nil_r;
      try assumption; try (intros; discriminate); try exact I.
    - intros i T _. rewrite Hown. intros Hx. left. split; [exact Hx|apply Hs].
    - intros T v [= <- <-]. ssplit; [|exact Hin|rewrite Heb, N.eqb_refl; reflexivity].
      intros w Hx. destruct (vok s H3 gk w Hx) as [_ Y]. congruence.
    - intros H i Hx. left. apply Fr. exact Hx.
    - intros T. rewrite Heb. destruct (T =? gk); [right; left|left]; reflexivity.
    - intros H. left. apply Hdb.
    - intros u Hne. apply T3_mono; [intros; apply Hs|rewrite Hi; apply incl_refl|rewrite Ho; apply incl_refl| |intros g; rewrite Hdb; auto].
      intros g Hx. rewrite Heb. destruct (N.eqb_spec g gk) as [->|_]; [congruence|exact Hx].
  Qed.

  Lemma V_retF s s' t x gk :
    Inv3 s -> T3 s t (E5 RF x 0 gk) ->
    (forall T i, g_eq (ra s) T = EPub i -> g_eq (ra s') T = EPub i) ->
    (forall H i, g_dq (ra s) H = DTaken i -> g_dq (ra s') H = DTaken i) ->
    (forall H i, g_dq (ra s') H = DTaken i -> g_dq (ra s) H = DTaken i) ->
    (forall i, store s' i = store s i) -> (forall i, g_own s' i = g_own s i) ->
    g_in s' = g_in s -> g_out s' = g_out s -> g_ok s' = g_ok s -> g_ret s' = g_ret s ++ [(gk, x)] ->
    (forall T, g_ebusy s' T = g_ebusy s T) ->
    (forall H, g_dbusy s' H = if H =? gk then None else g_dbusy s H) ->
    th s' = upd (th s) t Idle -> Inv3 s'.
  Proof.
    intros H3 [Hin Hbusy] Fe Fd Fr Hs Hown Hi Ho Hok Hret Heb Hdb Hth.
    apply (Inv3_upd s s' t Idle None None None (Some (gk, x)) H3 Fe Fd); cbn [optl]; rewrite ?app_nil_r;
      try assumption; try (intros; discriminate); try exact I.
    - intros i T _. rewrite Hown. intros Hx. left. split; [exact Hx|apply Hs].
    - intros H v [= <- <-]. ssplit; [|exact Hin|rewrite Hdb, N.eqb_refl; reflexivity].
      intros w Hx. destruct (vret s H3 gk w Hx) as [_ Y]. congruence.
    - intros H i Hx. left. apply Fr. exact Hx.
    - intros T. left. apply Heb.
    - intros H. rewrite Hdb. destruct (H =? gk); [right; left|left]; reflexivity.
    - intros u Hne. apply T3_mono; [intros; apply Hs|rewrite Hi; apply incl_refl|rewrite Ho; apply incl_refl|intros g; rewrite Heb; auto|].
      intros g Hx. rewrite Hdb. destruct (N.eqb_spec g gk) as [->|_]; [congruence|exact Hx].
  Qed.

  (** for a concrete successor: [frame_hyps] proves the premises of [Inv3_frame] / [V_*] that say a field is unchanged or
      changed at one key (by computation after [sim]; for [g_own] by cases on the key);
      [frz] proves "this step is not the fetch_or of a try_pop" (premise of [Fr] in Inv3_step) from [E : th s t = ..];
      [t3_close Hme] proves [T3] of the new program point from [Hme], [T3] of the old one: the same facts, plus
      [store st i = x] rewritten where the point carries it *)
  Ltac frame_hyps :=
    sim; try reflexivity; try (intros; reflexivity); try (intros; assumption);
    try (intros ? ?; unfold setf; match goal with |- context [if ?a =? ?b then _ else _] => destruct (a =? b) end; [discriminate|auto]).

  Ltac t3_close Hme :=
    first [exact Hme | exact I
          | (let X := fresh in let Y := fresh in let Z := fresh in destruct Hme as (X & Y & Z); first [rewrite Z; split; assumption | split; assumption])
          | (let X := fresh in let Y := fresh in destruct Hme as [X Y]; ssplit; [exact X|exact Y|reflexivity])].

  Ltac frz := let t' := fresh in let Ea := fresh in intros t' ? ? ? Ea; try discriminate Ea; inversion Ea; subst t';
              match goal with E : th _ _ = _ |- _ => rewrite E; discriminate end.

  Lemma Inv3_step s a s' es : Inv1 s -> Inv2 s -> Inv3 s -> step s a = Some (s', es) -> Inv3 s'.
  Proof.
    intros H1 H2 H3 Hst. destruct (fate_stable s a s' es H1 H2 Hst) as [Fe0 Fd0].
    pose proof (Fe0 RA) as Fe. pose proof (Fd0 RA) as Fd. clear Fe0 Fd0.
    pose proof (fate_back s a s' es Hst) as Fb.
    assert (Fr : (forall t x hd e, a = Step t -> th s t <> D3 RA x hd e) -> forall H i, g_dq (ra s') H = DTaken i -> g_dq (ra s) H = DTaken i).
    { intros Hno H i Hx. destruct (Fb H i Hx) as [Hy|(t' & x' & hd' & e' & Ea & Et & _)]; [exact Hy|]. exfalso. apply (Hno t' x' hd' e' Ea Et). }
    unfold NikbDefs.step, step_gen in Hst. destruct a as [t o|t].
    - destruct (th s t) eqn:E; try discriminate. injection Hst as <- <-.
      eapply (Inv3_frame s _ t); [exact H3|exact Fe|exact Fd|apply Fr; frz|frame_hyps..|exact I].
    - pose proof (vt s H3 t) as Hme.
      pc_cases (th s t); try discriminate.
      + injection Hst as <- <-. eapply (Inv3_frame s _ t); [exact H3|exact Fe|exact Fd|apply Fr; frz|frame_hyps..|exact I].
      + injection Hst as <- <-. eapply (Inv3_frame s _ t); [exact H3|exact Fe|exact Fd|apply Fr; frz|frame_hyps..|exact I].
      + (* D0 *) destruct (lt0 _); injection Hst as <- <-;
        (eapply (Inv3_frame s _ t); [exact H3|exact Fe|exact Fd|apply Fr; frz|frame_hyps..|exact I]).
      + (* D1 *) injection Hst as <- <-. eapply (Inv3_frame s _ t); [exact H3|exact Fe|exact Fd|apply Fr; frz|frame_hyps..|exact I].
      + (* D2 *) injection Hst as <- <-. unfold mark_left in *. destruct (leaves _);
        (eapply (Inv3_frame s _ t); [exact H3|exact Fe|exact Fd|apply Fr; frz|frame_hyps..|]);
        (destruct (dq_eval_cases cap q x hd att (rdata (rg s q) (phys cap hd))) as [[C1 ->]|[C1 [[C2 [[C3 ->]|[C3 [[C4 ->]|[C4 ->]]]]]|[C2 ->]]]]; exact I).
      + (* D3 *) destruct q.
        * injection Hst as <- <-. rewrite (land_vmask k Hk) in *.
          eapply (V_take s _ t x hd e); [exact H1|exact H2|exact H3|exact E|exact Fe|exact Fd|sim; unfold setf; rewrite N.eqb_refl; reflexivity| |frame_hyps..].
          intros H i Hx. destruct (Fb H i Hx) as [Hy|(t' & x' & hd' & e' & Ea & Et & Eh)]; [left; exact Hy|right].
          inversion Ea; subst t'. rewrite E in Et. inversion Et; subst. reflexivity.
        * injection Hst as <- <-. eapply (Inv3_frame s _ t); [exact H3|exact Fe|exact Fd|apply Fr; frz|frame_hyps..|exact I].
      + (* D4 *) injection Hst as <- <-. unfold mark_left in *. destruct (leaves _);
        (eapply (Inv3_frame s _ t); [exact H3|exact Fe|exact Fd|apply Fr; frz|frame_hyps..|]);
        (destruct (gt0 _ && _); [exact I|destruct (lt0 _); exact I]).
      + (* D5 *) destruct (_ =? e); injection Hst as <- <-.
        * eapply (Inv3_frame s _ t); [exact H3|exact Fe|exact Fd|apply Fr; frz|frame_hyps..|exact I].
        * unfold mark_left in *. destruct (leaves _);
          (eapply (Inv3_frame s _ t); [exact H3|exact Fe|exact Fd|apply Fr; frz|frame_hyps..|]);
          (destruct (dq_eval_cases cap q x hd att (rdata (rg s q) (phys cap hd))) as [[C1 ->]|[C1 [[C2 [[C3 ->]|[C3 [[C4 ->]|[C4 ->]]]]]|[C2 ->]]]]; exact I).
      + (* D6 *) destruct (gt0 _); injection Hst as <- <-;
        (eapply (Inv3_frame s _ t); [exact H3|exact Fe|exact Fd|apply Fr; frz|frame_hyps..|exact I]).
      + (* D7 *) destruct (sle 64 _ 0); injection Hst as <- <-;
        (eapply (Inv3_frame s _ t); [exact H3|exact Fe|exact Fd|apply Fr; frz|frame_hyps..|exact I]).
      + (* C1 *) destruct (_ =? tl); injection Hst as <- <-;
        (eapply (Inv3_frame s _ t); [exact H3|exact Fe|exact Fd|apply Fr; frz|frame_hyps..|exact I]).
      + (* C2 *) destruct (lt0 _); injection Hst as <- <-;
        (eapply (Inv3_frame s _ t); [exact H3|exact Fe|exact Fd|apply Fr; frz|frame_hyps..|exact I]).
      + (* D8 *) injection Hst as <- <-;
        (eapply (Inv3_frame s _ t); [exact H3|exact Fe|exact Fd|apply Fr; frz|frame_hyps..|exact I]).
      + (* E1 *) destruct q; injection Hst as <- <-.
        * eapply (V_write s _ t x idx gk); [exact H2|exact H3|exact E|exact Fe|exact Fd|apply Fr; frz|frame_hyps..].
        * eapply (Inv3_frame s _ t); [exact H3|exact Fe|exact Fd|apply Fr; frz|frame_hyps..|]. cbn [T3] in *. sim. t3_close Hme.
      + (* E2 *) injection Hst as <- <-. unfold mark_skip in *. destruct (skips _);
        (eapply (Inv3_frame s _ t); [exact H3|exact Fe|exact Fd|apply Fr; frz|frame_hyps..|]);
        (destruct (en_eval_cases cap q x idx gk tl (rdata (rg s q) (phys cap tl))) as [(C1 & C2 & Ee)|[(C1 & C2 & C3 & Ee)|Ee]]; rewrite Ee; destruct q; cbn [T3] in *; sim; t3_close Hme).
      + (* E3 *) destruct (gt0 _); injection Hst as <- <-; unfold mark_skip in *; cbn [skips] in *;
        (eapply (Inv3_frame s _ t); [exact H3|exact Fe|exact Fd|apply Fr; frz|frame_hyps..|]); destruct q; cbn [T3] in *; sim; t3_close Hme.
      + (* E4 *) destruct (_ =? e).
        * destruct q; injection Hst as <- <-.
          -- eapply (V_pub s _ t x idx gk tl e); [exact H1|exact H2|exact H3|exact E|exact Fe|exact Fd|apply Fr; frz|sim; unfold setf; rewrite N.eqb_refl; reflexivity|frame_hyps..].
          -- eapply (Inv3_frame s _ t); [exact H3|exact Fe|exact Fd|apply Fr; frz|frame_hyps..|]. cbn [T3] in *. sim. t3_close Hme.
        * injection Hst as <- <-. unfold mark_skip in *. destruct (skips _);
          (eapply (Inv3_frame s _ t); [exact H3|exact Fe|exact Fd|apply Fr; frz|frame_hyps..|]);
          (destruct (en_eval_cases cap q x idx gk tl (rdata (rg s q) (phys cap tl))) as [(C1 & C2 & Ee)|[(C1 & C2 & C3 & Ee)|Ee]]; rewrite Ee; destruct q; cbn [T3] in *; sim; t3_close Hme).
      + (* E5 *) destruct (_ =? thr_full cap); [destruct q|]; injection Hst as <- <-.
        * eapply (V_retA s _ t x gk); [exact H3|exact Hme|exact Fe|exact Fd|apply Fr; frz|frame_hyps..].
        * eapply (V_retF s _ t x gk); [exact H3|exact Hme|exact Fe|exact Fd|apply Fr; frz|frame_hyps..].
        * eapply (Inv3_frame s _ t); [exact H3|exact Fe|exact Fd|apply Fr; frz|frame_hyps..|]. destruct q; cbn [T3] in *; sim; t3_close Hme.
      + (* E6 *) destruct q; injection Hst as <- <-.
        * eapply (V_retA s _ t x gk); [exact H3|exact Hme|exact Fe|exact Fd|apply Fr; frz|frame_hyps..].
        * eapply (V_retF s _ t x gk); [exact H3|exact Hme|exact Fe|exact Fd|apply Fr; frz|frame_hyps..].
  Qed.

  Theorem Inv123_reach s : reach (init cap) step s -> g_ovf s = false -> Inv1 s /\ Inv2 s /\ Inv3 s.
  Proof.
    intros Hr. induction Hr as [|s a s' es Hr IH Hst]; intros Hov.
    - ssplit; [apply (Inv1_init k R Hk)|apply (Inv2_init k R Hk)|apply Inv3_init].
    - destruct IH as (I1 & I2 & I3); [eapply ovf_sticky; eauto|].
      ssplit; [eapply (Inv1_step k R Hk); eauto|eapply (Inv2_step k R Hk); eauto|eapply Inv3_step; eauto].
  Qed.
End L3.
