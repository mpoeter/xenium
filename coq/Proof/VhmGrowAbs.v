(** vyukov_hash_map with several buckets and grow: the abstract map [g_map] is exactly what the buckets of the
    current block hold, every key in the bucket its hash selects; what the holder of a bucket lock knows; the
    migration invariant of do_grow; results of the writers. *)
From Coq Require Import NArith List Bool Lia PeanoNat.
From XV Require Import Base.Word Conc.Lts Conc.Ev gen.BucketStateGen Proof.BucketState Model.VhmGrowDefs Proof.VhmGrowBase.
From XV Require Proof.VhmBase Proof.VhmAbs.
Import ListNotations.
Local Open Scope N_scope.

Definition ic (st : state) (b j : N) : N := bs_item_count (bst st b j).
Definition mk (st : state) (b j : N) : N := bs_delete_marker (bst st b j).
(** a valid array slot: below the item count and not the slot that is being removed / overwritten *)
Definition vslot (st : state) (b j i : N) : Prop := i < ic st b j /\ i + 1 <> mk st b j.
Definition slot_has (st : state) (b j k v : N) : Prop := exists i, vslot st b j i /\ akey st b j i = k /\ aval st b j i = v.
Definition absent (st : state) (k : N) : Prop := lookup k (g_map st) = None.

Lemma in_snoc_all {X} (P : X -> Prop) (l : list X) (x : X) : (forall h, In h l -> P h) -> P x -> forall h, In h (l ++ [x]) -> P h.
Proof. intros Hl Hx h Hh. apply in_app_or in Hh. destruct Hh as [Hh|[<-|[]]]; [apply Hl; exact Hh | exact Hx]. Qed.

Section VhmGrowAbs.
  Variable hash : N -> N.
  Notation step := (step hash).
  Notation Lk := (Lk hash).

  (** number of buckets of the current block, bucket of a key *)
  Definition nb_ (st : state) : N := bcnt st (db st).
  Definition hb (st : state) (k : N) : N := hash k mod nb_ st.

  (** [g_map] = the valid slots of the current block; every key sits in the bucket its hash selects, once *)
  Record G (st : state) : Prop := mkG {
    G_map : forall k v, lookup k (g_map st) = Some v <-> slot_has st (db st) (hb st k) k v;
    G_hash : forall j i, j < nb_ st -> vslot st (db st) j i -> hb st (akey st (db st) j i) = j;
    G_us : forall j i i', j < nb_ st -> vslot st (db st) j i -> vslot st (db st) j i' ->
           akey st (db st) j i = akey st (db st) j i' -> i = i'
  }.

  Lemma lookup_none_iff st k : G st -> (lookup k (g_map st) = None <-> forall v, ~ slot_has st (db st) (hb st k) k v).
  Proof.
    intros HG. split.
    - intros H v Hc. apply (G_map _ HG) in Hc. congruence.
    - intros H. destruct (lookup k (g_map st)) as [v|] eqn:E; [|reflexivity]. exfalso. apply (H v). apply (G_map _ HG). exact E.
  Qed.

  (** [G] only depends on the words and the valid slots of the current block *)
  Lemma G_ext st st' : G st -> db st' = db st -> bcnt st' (db st) = bcnt st (db st) -> g_map st' = g_map st ->
    (forall j, ic st' (db st) j = ic st (db st) j /\ mk st' (db st) j = mk st (db st) j) ->
    (forall j i, vslot st (db st) j i -> akey st' (db st) j i = akey st (db st) j i /\ aval st' (db st) j i = aval st (db st) j i) ->
    G st'.
  Proof.
    intros HG Ed Eb Em Hw Hs.
    assert (En : nb_ st' = nb_ st) by (unfold nb_; rewrite Ed, Eb; reflexivity).
    assert (Eh : forall k, hb st' k = hb st k) by (intros k; unfold hb; rewrite En; reflexivity).
    assert (Hv : forall j i, vslot st' (db st) j i <-> vslot st (db st) j i).
    { intros j i. unfold vslot. destruct (Hw j) as [-> ->]. tauto. }
    assert (Hsh : forall j k v, slot_has st' (db st) j k v <-> slot_has st (db st) j k v).
    { intros j k v. split; intros (i & H1 & H2 & H3); exists i.
      - apply Hv in H1. destruct (Hs j i H1) as [E1 E2]. rewrite <- E1, <- E2. tauto.
      - destruct (Hs j i H1) as [E1 E2]. rewrite E1, E2. apply Hv in H1. tauto. }
    constructor; rewrite ?Ed, ?En.
    - intros k v. rewrite Em, Eh, Hsh. apply (G_map _ HG).
    - intros j i Hj H1. apply Hv in H1. rewrite Eh. destruct (Hs j i H1) as [-> _]. apply (G_hash _ HG); assumption.
    - intros j i i' Hj H1 H2. apply Hv in H1. apply Hv in H2. destruct (Hs j i H1) as [-> _]. destruct (Hs j i' H2) as [-> _].
      apply (G_us _ HG); assumption.
  Qed.

  Lemma G_same st st' : G st -> db st' = db st -> bcnt st' = bcnt st -> bst st' = bst st -> akey st' = akey st -> aval st' = aval st ->
    g_map st' = g_map st -> G st'.
  Proof.
    intros HG Ed Eb Es Ea Ev Em.
    apply (G_ext st); try assumption; [rewrite Eb; reflexivity | intros; unfold ic, mk; rewrite Es; auto | intros; rewrite Ea, Ev; auto].
  Qed.

  (** a store to one state word that keeps item count and marker (or lies outside the current block) *)
  Lemma G_word st st' b j w : G st -> db st' = db st -> bcnt st' = bcnt st -> akey st' = akey st -> aval st' = aval st ->
    g_map st' = g_map st -> bst st' = setf2 (bst st) b j w ->
    (b = db st -> bs_item_count w = ic st b j /\ bs_delete_marker w = mk st b j) -> G st'.
  Proof.
    intros HG Ed Eb Ea Ev Em Es Hw. apply (G_ext st); try assumption; [rewrite Eb; reflexivity | | intros; rewrite Ea, Ev; auto].
    intros j'. unfold ic, mk. rewrite Es. destruct (bkt_dec (db st) j' b j) as [[E ->]|Hne]; [|rewrite setf2_other by exact Hne; auto].
    rewrite E, setf2_same. apply Hw. symmetry. exact E.
  Qed.

  (** a store to an array slot that is not valid (or lies outside the current block) *)
  Lemma G_slot st st' b j i : G st -> db st' = db st -> bcnt st' = bcnt st -> bst st' = bst st -> g_map st' = g_map st ->
    (forall b' j' i', b' <> b \/ j' <> j \/ i' <> i -> akey st' b' j' i' = akey st b' j' i' /\ aval st' b' j' i' = aval st b' j' i') ->
    (b = db st -> ~ vslot st b j i) -> G st'.
  Proof.
    intros HG Ed Eb Es Em Hs Hv. apply (G_ext st); try assumption; [rewrite Eb; reflexivity | intros; unfold ic, mk; rewrite Es; auto |].
    intros j' i' Hvs. apply Hs. destruct (N.eq_dec (db st) b) as [E|]; [|auto]. destruct (N.eq_dec j' j) as [->|]; [|auto].
    destruct (N.eq_dec i' i) as [->|]; [|auto]. destruct (Hv (eq_sym E)). rewrite <- E. exact Hvs.
  Qed.

  (** a step that only touches bucket [j0] of the current block *)
  Record only (st st' : state) (j0 : N) : Prop := mkOnly {
    o_db : db st' = db st;
    o_bc : bcnt st' (db st) = bcnt st (db st);
    o_w : forall j, j <> j0 -> ic st' (db st) j = ic st (db st) j /\ mk st' (db st) j = mk st (db st) j;
    o_s : forall j i, j <> j0 -> akey st' (db st) j i = akey st (db st) j i /\ aval st' (db st) j i = aval st (db st) j i
  }.

  Lemma only_other st st' j0 j k v : only st st' j0 -> j <> j0 -> (slot_has st' (db st) j k v <-> slot_has st (db st) j k v).
  Proof.
    intros HO Hne. destruct (o_w _ _ _ HO j Hne) as [E1 E2].
    split; intros (i & [H1 H2] & H3 & H4); exists i; destruct (o_s _ _ _ HO j i Hne) as [E3 E4]; unfold vslot in *.
    - rewrite <- E1, <- E2, <- E3, <- E4. tauto.
    - rewrite E1, E2, E3, E4. tauto.
  Qed.

  Lemma only_word st st' j w : db st' = db st -> bcnt st' = bcnt st -> akey st' = akey st -> aval st' = aval st ->
    bst st' = setf2 (bst st) (db st) j w -> only st st' j.
  Proof.
    intros Ed Eb Ea Ev Es. constructor; [exact Ed | rewrite Eb; reflexivity | | intros; rewrite Ea, Ev; auto].
    intros j' Hne. unfold ic, mk. rewrite Es, setf2_other by auto. auto.
  Qed.

  (** generic form: the obligations are local to bucket [j0] *)
  Lemma G_bucket st st' j0 : G st -> only st st' j0 -> j0 < nb_ st ->
    (forall k v, hb st k = j0 -> (lookup k (g_map st') = Some v <-> slot_has st' (db st) j0 k v)) ->
    (forall k, hb st k <> j0 -> lookup k (g_map st') = lookup k (g_map st)) ->
    (forall i, vslot st' (db st) j0 i -> hb st (akey st' (db st) j0 i) = j0) ->
    (forall i i', vslot st' (db st) j0 i -> vslot st' (db st) j0 i' -> akey st' (db st) j0 i = akey st' (db st) j0 i' -> i = i') ->
    G st'.
  Proof.
    intros HG HO Hj0 Hm Hm' Hh Hu.
    pose proof (o_db _ _ _ HO) as Ed. pose proof (o_bc _ _ _ HO) as Eb.
    assert (En : nb_ st' = nb_ st) by (unfold nb_; rewrite Ed, Eb; reflexivity).
    assert (Eh : forall k, hb st' k = hb st k) by (intros k'; unfold hb; rewrite En; reflexivity).
    constructor; rewrite ?Ed, ?En.
    - intros k v. rewrite Eh. destruct (N.eq_dec (hb st k) j0) as [E0|Hn0].
      + rewrite E0. apply Hm. exact E0.
      + rewrite (Hm' k Hn0), (G_map _ HG). symmetry. apply (only_other _ _ j0); assumption.
    - intros j i Hj H1. rewrite Eh. destruct (N.eq_dec j j0) as [->|Hne]; [apply Hh; exact H1|].
      destruct (o_s _ _ _ HO j i Hne) as [-> _]. apply (G_hash _ HG); [exact Hj|]. unfold vslot in *. destruct (o_w _ _ _ HO j Hne) as [<- <-]. exact H1.
    - intros j i i' Hj H1 H2. destruct (N.eq_dec j j0) as [->|Hne]; [apply Hu; assumption|].
      destruct (o_s _ _ _ HO j i Hne) as [-> _]. destruct (o_s _ _ _ HO j i' Hne) as [-> _].
      unfold vslot in *. destruct (o_w _ _ _ HO j Hne) as [E1 E2]. rewrite E1, E2 in H1, H2. apply (G_us _ HG); assumption.
  Qed.

  (** insertion into the array: the unlocking store publishes slot [c] of bucket [j0] *)
  Lemma G_ins_slot st st' j0 c k v : G st -> only st st' j0 -> j0 < nb_ st -> hb st k = j0 ->
    mk st (db st) j0 = 0 -> ic st (db st) j0 = c -> ic st' (db st) j0 = c + 1 -> mk st' (db st) j0 = 0 ->
    (forall i, akey st' (db st) j0 i = akey st (db st) j0 i /\ aval st' (db st) j0 i = aval st (db st) j0 i) ->
    akey st (db st) j0 c = k -> aval st (db st) j0 c = v -> lookup k (g_map st) = None -> g_map st' = (k, v) :: g_map st -> G st'.
  Proof.
    intros HG HO Hj0 Hk0 Hmk Hic Hic' Hmk' Hsl Hk Hv Habs Em.
    assert (Hvs : forall i, vslot st' (db st) j0 i <-> vslot st (db st) j0 i \/ i = c).
    { intros i. unfold vslot. rewrite Hic', Hmk', Hic, Hmk. lia. }
    assert (Hno : forall i, vslot st (db st) j0 i -> akey st (db st) j0 i <> k).
    { intros i Hi E. apply (proj1 (lookup_none_iff _ k HG) Habs (aval st (db st) j0 i)). rewrite Hk0. exists i. auto. }
    apply (G_bucket st st' j0); try assumption.
    - intros k0 v0 E0. rewrite Em, VhmBase.lookup_cons. destruct (N.eqb_spec k k0) as [<-|Hne].
      + split.
        * intros E. injection E as <-. exists c. rewrite Hvs. destruct (Hsl c) as [-> ->]. auto.
        * intros (i & H1 & H2 & H3). apply Hvs in H1. destruct (Hsl i) as [E1 E2]. rewrite E1 in H2. rewrite E2 in H3.
          destruct H1 as [H1| ->]; [destruct (Hno i H1 H2) | congruence].
      + rewrite (G_map _ HG), E0. split; intros (i & H1 & H2 & H3); exists i; destruct (Hsl i) as [E1 E2].
        * rewrite Hvs, E1, E2. tauto.
        * rewrite E1 in H2. rewrite E2 in H3. apply Hvs in H1. destruct H1 as [H1| ->]; [tauto | congruence].
    - intros k0 Hn0. rewrite Em, VhmBase.lookup_cons. destruct (N.eqb_spec k k0) as [<-|Hne]; [contradiction | reflexivity].
    - intros i H1. destruct (Hsl i) as [-> _]. apply Hvs in H1. destruct H1 as [H1| ->]; [apply (G_hash _ HG); assumption | congruence].
    - intros i i' H1 H2. destruct (Hsl i) as [-> _]. destruct (Hsl i') as [-> _]. apply Hvs in H1. apply Hvs in H2.
      destruct H1 as [H1| ->]; destruct H2 as [H2| ->]; intros E; try reflexivity.
      + apply (G_us _ HG j0); assumption.
      + destruct (Hno i H1). congruence.
      + destruct (Hno i' H2). congruence.
  Qed.

  (** slot [i], which holds key [k], leaves the valid slots of bucket [j0], and [k] leaves the map: the store of the
      delete marker, or the unlocking store of a removal of the last slot *)
  Lemma G_remove st st' j0 i k : G st -> only st st' j0 -> j0 < nb_ st -> hb st k = j0 -> vslot st (db st) j0 i ->
    (forall x, vslot st' (db st) j0 x <-> vslot st (db st) j0 x /\ x <> i) ->
    (forall x, akey st' (db st) j0 x = akey st (db st) j0 x /\ aval st' (db st) j0 x = aval st (db st) j0 x) ->
    akey st (db st) j0 i = k -> g_map st' = rem k (g_map st) -> G st'.
  Proof.
    intros HG HO Hj0 Hk0 Hvi Hvs Hsl Hk Em.
    apply (G_bucket st st' j0); try assumption.
    - intros k0 v0 E0. rewrite Em, VhmBase.lookup_rem. destruct (N.eqb_spec k0 k) as [->|Hne].
      + split; [discriminate|]. intros (x & H1 & H2 & H3). exfalso. apply Hvs in H1. destruct H1 as [H1 H1']. apply H1'.
        destruct (Hsl x) as [E1 _]. rewrite E1 in H2. apply (G_us _ HG j0); try assumption. congruence.
      + rewrite (G_map _ HG), E0. split; intros (x & H1 & H2 & H3); exists x; destruct (Hsl x) as [E1 E2].
        * rewrite Hvs, E1, E2. split; [split; [exact H1 | intros ->; congruence] | tauto].
        * rewrite E1 in H2. rewrite E2 in H3. apply Hvs in H1. tauto.
    - intros k0 Hn0. rewrite Em, VhmBase.lookup_rem. destruct (N.eqb_spec k0 k) as [->|Hne]; [contradiction | reflexivity].
    - intros x H1. apply Hvs in H1. destruct (Hsl x) as [-> _]. apply (G_hash _ HG); tauto.
    - intros x x' H1 H2. apply Hvs in H1. apply Hvs in H2. destruct (Hsl x) as [-> _]. destruct (Hsl x') as [-> _]. apply (G_us _ HG j0); tauto.
  Qed.

  (** unlocking store of a removal that back-filled slot [i] from the last slot *)
  Lemma G_dec_moved st st' j0 i : G st -> only st st' j0 -> j0 < nb_ st ->
    mk st (db st) j0 = i + 1 -> i < ic st (db st) j0 - 1 -> ic st' (db st) j0 = ic st (db st) j0 - 1 -> mk st' (db st) j0 = 0 ->
    (forall x, akey st' (db st) j0 x = akey st (db st) j0 x /\ aval st' (db st) j0 x = aval st (db st) j0 x) ->
    akey st (db st) j0 i = akey st (db st) j0 (ic st (db st) j0 - 1) ->
    aval st (db st) j0 i = aval st (db st) j0 (ic st (db st) j0 - 1) -> g_map st' = g_map st -> G st'.
  Proof.
    intros HG HO Hj0 Hmk Hi Hic Hmk' Hsl Hk Hv Em.
    set (c := ic st (db st) j0 - 1) in *.
    assert (Hvs : forall x, vslot st' (db st) j0 x <-> (vslot st (db st) j0 x /\ x <> c) \/ x = i).
    { intros x. unfold vslot. rewrite Hic, Hmk', Hmk. lia. }
    assert (Hvc : vslot st (db st) j0 c) by (unfold vslot; lia).
    apply (G_bucket st st' j0); try assumption.
    - intros k0 v0 E0. rewrite Em, (G_map _ HG), E0. split.
      + intros (x & H1 & H2 & H3). destruct (N.eq_dec x c) as [->|Hne].
        * exists i. rewrite Hvs. destruct (Hsl i) as [-> ->]. split; [right; reflexivity | split; congruence].
        * exists x. rewrite Hvs. destruct (Hsl x) as [-> ->]. tauto.
      + intros (x & H1 & H2 & H3). destruct (Hsl x) as [E1 E2]. rewrite E1 in H2. rewrite E2 in H3. apply Hvs in H1. destruct H1 as [[H1 _]| ->].
        * exists x. tauto.
        * exists c. split; [exact Hvc | split; congruence].
    - intros k0 _. rewrite Em. reflexivity.
    - intros x H1. apply Hvs in H1. destruct (Hsl x) as [-> _]. destruct H1 as [[H1 _]| ->]; [apply (G_hash _ HG); assumption|].
      rewrite Hk. apply (G_hash _ HG); assumption.
    - intros x x' H1 H2. apply Hvs in H1. apply Hvs in H2. destruct (Hsl x) as [-> _]. destruct (Hsl x') as [-> _].
      destruct H1 as [[H1 H1']| ->]; destruct H2 as [[H2 H2']| ->]; intros E; try reflexivity.
      + apply (G_us _ HG j0); assumption.
      + exfalso. apply H1'. apply (G_us _ HG j0); try assumption. congruence.
      + exfalso. apply H2'. apply (G_us _ HG j0); try assumption. congruence.
  Qed.

  (** * what the holder of a bucket lock knows *)
  Definition pc_abs (st : state) (t : nat) (p : pc) : Prop :=
    match p with
    | IK _ k _ b j _ i => forall i', i' < i -> akey st b j i' <> k
    | IV _ k _ b j _ i => akey st b j i = k
    | IUold a k _ _ _ _ r => exists r', lookup k (g_map st) = Some r' /\ (a = true -> r' = r)
    | ISK _ k _ _ _ _ => absent st k
    | ISV _ k _ b j s => absent st k /\ akey st b j (bs_item_count s) = k
    | IUnew _ k v b j s => absent st k /\ akey st b j (bs_item_count s) = k /\ aval st b j (bs_item_count s) = v
    | X1 _ _ | X2 _ _ _ _ | X3 _ _ _ _ _ => g_lp st t = None
    | XK _ k b j _ i => forall i', i' < i -> akey st b j i' <> k
    | XV _ k b j _ i => akey st b j i = k
    | XH _ k b j _ i r | XB1 _ k b j _ i r => akey st b j i = k /\ aval st b j i = r
    | XB2 _ _ _ _ _ _ r => g_lp st t = Some (Some r)
    | XB3 _ _ b j s _ r kk => g_lp st t = Some (Some r) /\ kk = akey st b j (bs_item_count s - 1)
    | XB4 _ _ b j s _ r kk vv =>
      g_lp st t = Some (Some r) /\ kk = akey st b j (bs_item_count s - 1) /\ vv = aval st b j (bs_item_count s - 1)
    | XB5 _ _ b j s i r vv =>
      g_lp st t = Some (Some r) /\ akey st b j i = akey st b j (bs_item_count s - 1) /\ vv = aval st b j (bs_item_count s - 1)
    | XB6 _ k b j s i r =>
      if i =? bs_item_count s - 1 then akey st b j i = k /\ aval st b j i = r
      else g_lp st t = Some (Some r) /\ akey st b j i = akey st b j (bs_item_count s - 1) /\
           aval st b j i = aval st b j (bs_item_count s - 1)
    | XHH _ k _ _ _ | XU _ k _ _ _ => absent st k
    | _ => True
    end.

  (** * the migration invariant of do_grow *)
  (** item [y] of old bucket [j] has been moved when the loop stands at item [x] of old bucket [i] *)
  Definition moved (i x j y : N) : Prop := j < i \/ (j = i /\ y < x).

  Record mig (st : state) (ob nb n i x : N) : Prop := mkMig {
    M_cnt : forall jn, jn < dbl n -> ic st nb jn <= (if jn mod n <? i then 3 else if jn mod n =? i then x else 0);
    M_fwd : forall j y, moved i x j y -> j < n -> y < ic st ob j ->
            exists z, z < ic st nb (hash (akey st ob j y) mod dbl n) /\
                      akey st nb (hash (akey st ob j y) mod dbl n) z = akey st ob j y /\
                      aval st nb (hash (akey st ob j y) mod dbl n) z = aval st ob j y;
    M_bwd : forall jn z, jn < dbl n -> z < ic st nb jn ->
            exists j y, moved i x j y /\ j < n /\ y < ic st ob j /\
                        akey st nb jn z = akey st ob j y /\ aval st nb jn z = aval st ob j y /\
                        hash (akey st nb jn z) mod dbl n = jn;
    M_us : forall jn z z', jn < dbl n -> z < ic st nb jn -> z' < ic st nb jn -> akey st nb jn z = akey st nb jn z' -> z = z'
  }.

  Definition pc_mig (st : state) (p : pc) : Prop :=
    match p with
    | DGL _ _ nb _ _ | DGC _ _ nb _ _ _ => forall jn, ic st nb jn = 0
    | DMS _ ob nb n i => mig st ob nb n i 0
    | DMK _ ob nb n i cn x => mig st ob nb n i x /\ cn = ic st ob i /\ x < cn
    | DMN _ ob nb n i cn x kk jn =>
      mig st ob nb n i x /\ cn = ic st ob i /\ x < cn /\ kk = akey st ob i x /\ jn = hash kk mod dbl n
    | DMV _ ob nb n i cn x kk jn ns =>
      mig st ob nb n i x /\ cn = ic st ob i /\ x < cn /\ kk = akey st ob i x /\ jn = hash kk mod dbl n /\ ns = bst st nb jn
    | DMSK _ ob nb n i cn x kk jn ns vv =>
      mig st ob nb n i x /\ cn = ic st ob i /\ x < cn /\ kk = akey st ob i x /\ jn = hash kk mod dbl n /\ ns = bst st nb jn /\
      vv = aval st ob i x
    | DMSV _ ob nb n i cn x jn ns vv =>
      mig st ob nb n i x /\ cn = ic st ob i /\ x < cn /\ jn = hash (akey st ob i x) mod dbl n /\ ns = bst st nb jn /\
      vv = aval st ob i x /\ akey st nb jn (bs_item_count ns) = akey st ob i x
    | DMSS _ ob nb n i cn x jn ns =>
      mig st ob nb n i x /\ cn = ic st ob i /\ x < cn /\ jn = hash (akey st ob i x) mod dbl n /\ ns = bst st nb jn /\
      akey st nb jn (bs_item_count ns) = akey st ob i x /\ aval st nb jn (bs_item_count ns) = aval st ob i x
    | DMH _ ob nb n i => mig st ob nb n (i + 1) 0
    | DP1 _ ob nb n => mig st ob nb n n 0
    | _ => True
    end.

  (** results of the completed writer calls against the value [g_map] gave the key at the linearization point;
      erase / extract that found item_count = 0 before taking the lock have no linearization point of their own
      ([h_wit] = None): they are covered like the readers, see Proof/VhmGrowInv.v *)
  Definition hist_ok_w (h : hrec) : Prop :=
    match h_op h with
    | OIns _ _ => (h_res h = [0; 1] /\ h_wit h = Some None) \/ (h_res h = [0; 0] /\ exists r, h_wit h = Some (Some r))
    | OGetIns _ v => (h_res h = [1; 1; v] /\ h_wit h = Some None) \/ (exists r, h_res h = [1; 0; r] /\ h_wit h = Some (Some r))
    | ODel _ => (h_res h = [2; 1] /\ exists r, h_wit h = Some (Some r)) \/ (h_res h = [2; 0] /\ (h_wit h = Some None \/ h_wit h = None))
    | OExt _ => (exists r, h_res h = [3; 1; r] /\ h_wit h = Some (Some r)) \/ (h_res h = [3; 0] /\ (h_wit h = Some None \/ h_wit h = None))
    | OGet _ => True
    end.

  Definition Abs (st : state) : Prop :=
    G st /\ (forall t, pc_abs st t (th st t)) /\ (forall t, pc_mig st (th st t)) /\ (forall h, In h (g_hist st) -> hist_ok_w h).

  Lemma mod_dbl a n : 0 < n -> (a mod dbl n) mod n = a mod n.
  Proof.
    intros Hn. unfold dbl. rewrite (N.mul_comm 2 n), N.mod_mul_r by lia.
    rewrite N.mul_comm, N.mod_add by lia. apply N.mod_mod. lia.
  Qed.

  (** the grower holds every bucket of the old block: markers are clear there *)
  Lemma grower_mk st t ob nb n j : Lk st -> pc_blocks (th st t) = Some (ob, nb, n) -> holds (th st t) ob j -> mk st ob j = 0.
  Proof.
    intros HI Hb Hh. apply (K_mk _ _ HI). intros u Hu. pose proof (K_hold _ _ HI _ _ _ Hh) as Ht.
    assert (u = t) by congruence. subst u. destruct (th st t); cbn [pc_blocks] in Hb; try discriminate Hb; reflexivity.
  Qed.

  (** the old bucket an item is moved out of determines the new bucket modulo the old bucket count *)
  Lemma mig_target st t ob nb n i x : Lk st -> G st -> pc_blocks (th st t) = Some (ob, nb, n) -> holds (th st t) ob i ->
    x < ic st ob i -> i < n -> (hash (akey st ob i x) mod dbl n) mod n = i /\ hash (akey st ob i x) mod dbl n < dbl n /\ 0 < n.
  Proof.
    intros HI HG Hb Hh Hx Hi. pose proof (K_gw _ _ HI t) as Hgw.
    assert (Hg : ob = db st /\ n = bcnt st ob).
    { destruct (th st t); cbn [pc_blocks] in Hb; try discriminate Hb; injection Hb as -> -> ->; cbn [pc_gw pc_blocks] in Hgw; tauto. }
    destruct Hg as [-> ->]. split; [|split; [apply N.mod_lt; unfold dbl; lia | lia]].
    rewrite mod_dbl by lia. apply (G_hash _ HG); [exact Hi|]. split; [exact Hx|].
    rewrite (grower_mk st t _ nb _ i HI Hb Hh). lia.
  Qed.

  Lemma MC_of st : Lk st -> G st -> (forall t, pc_mig st (th st t)) -> MC st.
  Proof.
    intros HI HG HM t c ob nb n i cn x jn ns Epc. pose proof (HM t) as Hm. rewrite Epc in Hm. cbn [pc_mig] in Hm.
    destruct Hm as (Hmig & -> & Hx & -> & -> & _). split; [reflexivity|].
    pose proof (K_wf _ _ HI t) as Hwf. rewrite Epc in Hwf. cbn [pc_wf] in Hwf.
    destruct (mig_target st t ob nb n i x HI HG) as (T1 & T2 & T3); [rewrite Epc; reflexivity | rewrite Epc; cbn [holds]; split; [reflexivity | exact Hwf] | exact Hx | exact Hwf |].
    pose proof (M_cnt _ _ _ _ _ _ Hmig _ T2) as Hc. rewrite T1, N.ltb_irrefl, N.eqb_refl in Hc.
    pose proof (K_ic _ _ HI ob i). unfold ic in *. lia.
  Qed.

  (** publication of the new block: it holds exactly the pairs of the old one, every key in its new bucket *)
  Lemma G_publish st st' ob nb n : G st -> ob = db st -> n = bcnt st ob -> 0 < n -> bcnt st nb = dbl n -> mig st ob nb n n 0 ->
    (forall j, j < n -> mk st ob j = 0) -> (forall jn, mk st nb jn = 0) ->
    db st' = nb -> bcnt st' = bcnt st -> bst st' = bst st -> akey st' = akey st -> aval st' = aval st -> g_map st' = g_map st -> G st'.
  Proof.
    intros HG -> -> Hn Hbn HM Hmo Hmn Ed Eb Es Ea Ev Em.
    assert (En : nb_ st' = dbl (bcnt st (db st))) by (unfold nb_; rewrite Ed, Eb; exact Hbn).
    assert (Eh : forall k, hb st' k = hash k mod dbl (bcnt st (db st))) by (intros k; unfold hb; rewrite En; reflexivity).
    assert (Hv : forall jn z, vslot st' nb jn z <-> z < ic st nb jn).
    { intros jn z. unfold vslot, ic, mk. rewrite Es. fold (mk st nb jn). rewrite Hmn. lia. }
    assert (Hvo : forall j y, j < bcnt st (db st) -> (vslot st (db st) j y <-> y < ic st (db st) j)).
    { intros j y Hj. unfold vslot. rewrite (Hmo j Hj). lia. }
    constructor; rewrite ?Ed, ?En.
    - intros k v. rewrite Em, Eh, (G_map _ HG). unfold slot_has. rewrite Ea, Ev.
      assert (Hj : hb st k < bcnt st (db st)) by (apply N.mod_lt; unfold nb_; lia). split.
      + intros (y & H1 & H2 & H3). apply (Hvo _ _ Hj) in H1.
        destruct (M_fwd _ _ _ _ _ _ HM (hb st k) y) as (z & Z1 & Z2 & Z3); [left; exact Hj | exact Hj | exact H1 |].
        rewrite H2 in Z1, Z2, Z3. exists z. rewrite Hv. split; [exact Z1 | split; congruence].
      + intros (z & H1 & H2 & H3). apply Hv in H1.
        destruct (M_bwd _ _ _ _ _ _ HM (hash k mod dbl (bcnt st (db st))) z) as (j & y & _ & B2 & B3 & B4 & B5 & _); [apply N.mod_lt; unfold dbl; lia | exact H1 |].
        assert (Hvs : vslot st (db st) j y) by (apply Hvo; assumption).
        pose proof (G_hash _ HG j y B2 Hvs) as Hh. rewrite <- B4, H2 in Hh. rewrite Hh. exists y. split; [exact Hvs | split; congruence].
    - intros jn z Hjn H1. apply Hv in H1. rewrite Eh, Ea.
      destruct (M_bwd _ _ _ _ _ _ HM jn z Hjn H1) as (j & y & _ & _ & _ & _ & _ & B6). exact B6.
    - intros jn z z' Hjn H1 H2. apply Hv in H1. apply Hv in H2. rewrite Ea. apply (M_us _ _ _ _ _ _ HM); assumption.
  Qed.

  Lemma G_step st a st' es : Lk st -> G st -> (forall t, pc_abs st t (th st t)) -> (forall t, pc_mig st (th st t)) ->
    step st a = Some (st', es) -> G st'.
  Proof.
    intros HI HG HA HM H. destruct (step_inv hash _ _ _ _ H) as [t o Epc | t p st1 p' Epc HL | t p st1 p' Epc HS].
    - apply (G_same st _ HG); reflexivity.
    - destruct (tlocal_ghost hash _ _ _ _ _ HL) as (l & r & o & h & ->). apply (G_same st _ HG); reflexivity.
    - pose proof (K_wf _ _ HI t) as Hwf. pose proof (K_gw _ _ HI t) as Hgw. pose proof (HA t) as Hab. pose proof (K_ref _ _ HI t) as Href.
      destruct HS; rewrite Epc in Hwf, Hgw, Hab, Href; cbn [pc_wf pc_gw pc_blocks pc_abs pc_ref] in Hwf, Hgw, Hab, Href;
        try (destruct (Href _ _ _ eq_refl) as [_ Hj]);
        try (destruct (holder_facts hash _ t _ _ _ HI ltac:(rewrite Epc; reflexivity) ltac:(rewrite Epc; reflexivity)) as (Hb & _ & Hcur & Hjlt & _));
        try (destruct (VhmAbs.wf_fields s ltac:(tauto)) as (FL1 & FL2 & FM & _ & _ & _ & _ & _ & _ & _ & FI & FD)).
      + (* L3 *) subst s. eapply (G_word st _ b j); [exact HG | reflexivity .. |]. intros _. split; [apply bs_locked_item_count | apply bs_locked_delete_marker].
      + (* IUold *) eapply (G_word st _ b j); [exact HG | reflexivity .. |]. intros _. unfold ic, mk. rewrite Hb, bs_locked_item_count, bs_locked_delete_marker. auto.
      + (* ISK *) eapply (G_slot st _ b j); [exact HG | reflexivity .. | |].
        * intros b' j' i' Hne. st_simpl_goal. rewrite setf3_other by exact Hne. auto.
        * intros _ [Hv _]. unfold ic in Hv. rewrite Hb, bs_locked_item_count in Hv. lia.
      + (* ISV *) eapply (G_slot st _ b j); [exact HG | reflexivity .. | |].
        * intros b' j' i' Hne. st_simpl_goal. rewrite setf3_other by exact Hne. auto.
        * intros _ [Hv _]. unfold ic in Hv. rewrite Hb, bs_locked_item_count in Hv. lia.
      + (* IUnew *) subst b. destruct Hab as (Hab1 & Hab2 & Hab3). destruct (FI (proj2 Hwf)) as [FI1 FI2].
        eapply (G_ins_slot st _ j (bs_item_count s) k v); [exact HG | eapply only_word; reflexivity | exact Hjlt | symmetry; exact Hj | ..];
          try assumption; try reflexivity; unfold ic, mk; st_simpl_goal; rewrite ?setf2_same, ?Hb; auto.
      + (* GR1 *) apply (G_same st _ HG); reflexivity.
      + (* GR2 *) eapply (G_word st _ b j); [exact HG | reflexivity .. |]. intros _. unfold ic, mk. rewrite Hb, bs_locked_item_count, bs_locked_delete_marker. auto.
      + (* DG1 *) pose proof (K_db _ _ HI) as (D1 & D2 & D3 & D4).
        apply (G_ext st); [exact HG | reflexivity | st_simpl_goal; apply setf1_other; lia | reflexivity | |].
        * intros j'. unfold ic, mk. st_simpl_goal. rewrite clr2_other by lia. split; reflexivity.
        * intros j' i' _. st_simpl_goal. rewrite !clr3_other by lia. split; reflexivity.
      + (* DGC *) subst s. eapply (G_word st _ ob i); [exact HG | reflexivity .. |]. intros _. split; [apply bs_locked_item_count | apply bs_locked_delete_marker].
      + (* DMSK *) destruct Hgw as (-> & _ & _ & Hnb & _). eapply (G_slot st _ nb jn); [exact HG | reflexivity .. | | contradiction].
        intros b' j' i' Hne. st_simpl_goal. rewrite setf3_other by exact Hne. auto.
      + (* DMSV *) destruct Hgw as (-> & _ & _ & Hnb & _). eapply (G_slot st _ nb jn); [exact HG | reflexivity .. | | contradiction].
        intros b' j' i' Hne. st_simpl_goal. rewrite setf3_other by exact Hne. auto.
      + (* DMSS *) destruct Hgw as (-> & _ & _ & Hnb & _). eapply (G_word st _ nb jn); [exact HG | reflexivity .. | contradiction].
      + (* DP1 *) destruct Hgw as (G1 & G2 & G3 & G4 & G5 & G6 & G7). pose proof (HM t) as Hmg. rewrite Epc in Hmg.
        apply (G_publish st _ ob nb n); try assumption; try reflexivity.
        * subst n ob. apply (K_db _ _ HI).
        * intros j' Hj'. apply (grower_mk st t ob nb n); [exact HI | rewrite Epc; reflexivity | rewrite Epc; cbn [holds]; auto].
        * intros jn. apply (K_mk _ _ HI). intros u Hu. destruct (own_cur hash _ _ _ _ HI Hu). congruence.
      + (* DP2 *) apply (G_same st _ HG); reflexivity.
      + (* X3 *) subst s. eapply (G_word st _ b j); [exact HG | reflexivity .. |]. intros _. split; [apply bs_locked_item_count | apply bs_locked_delete_marker].
      + (* XB1 *) subst b. destruct Hwf as (_ & Hi & _). destruct (FM i Hi) as [FM1 FM2]. destruct Hab as [Hab1 Hab2].
        eapply (G_remove st _ j i k); [exact HG | eapply only_word; reflexivity | exact Hjlt | symmetry; exact Hj | | | ..];
          try assumption; try reflexivity; try (intros x); unfold vslot, ic, mk; st_simpl_goal; rewrite ?setf2_same, ?Hb, ?FM1, ?FM2, ?FL1, ?FL2; auto; lia.
      + (* XB4 *) destruct Hwf as (_ & Hi & _). destruct (FM i Hi) as [_ FM2]. eapply (G_slot st _ b j); [exact HG | reflexivity .. | |].
        * intros b' j' i' Hne. st_simpl_goal. rewrite setf3_other by exact Hne. auto.
        * intros _ [_ Hv]. unfold mk in Hv. rewrite Hb in Hv. exact (Hv (eq_sym FM2)).
      + (* XB5 *) destruct Hwf as (_ & Hi & _). destruct (FM i Hi) as [_ FM2]. eapply (G_slot st _ b j); [exact HG | reflexivity .. | |].
        * intros b' j' i' Hne. st_simpl_goal. rewrite setf3_other by exact Hne. auto.
        * intros _ [_ Hv]. unfold mk in Hv. rewrite Hb in Hv. exact (Hv (eq_sym FM2)).
      + (* XB6 *) subst b. destruct Hwf as [_ Hi]. destruct (FD ltac:(lia)) as [FD1 FD2]. revert Hab Hb.
        destruct (N.eqb_spec i (bs_item_count s - 1)) as [Ei|Ei]; intros Hab Hb.
        * (* the last slot *) destruct Hab as [Hab1 Hab2].
          eapply (G_remove st _ j i k); [exact HG | eapply only_word; reflexivity | exact Hjlt | symmetry; exact Hj | | | ..];
            try assumption; try reflexivity; try (intros x); unfold vslot, ic, mk; st_simpl_goal; rewrite ?setf2_same, ?Hb, ?FD1, ?FD2, ?FL1, ?FL2; auto; lia.
        * (* a back-filled slot *) destruct Hab as (_ & Hab1 & Hab2). destruct (FM i Hi) as [FM1 FM2].
          eapply (G_dec_moved st _ j i); [exact HG | eapply only_word; reflexivity | exact Hjlt | ..];
            try reflexivity; unfold ic, mk; st_simpl_goal; rewrite ?setf2_same, ?Hb, ?FM1; auto; lia.
      + (* XU *) eapply (G_word st _ b j); [exact HG | reflexivity .. |]. intros _. unfold ic, mk. rewrite Hb, bs_locked_item_count, bs_locked_delete_marker. auto.
  Qed.

  (** * frames: what the steps of other threads leave alone *)
  Lemma rs_of_blocks p x : pc_blocks p = Some x -> rs_pc p = true.
  Proof. destruct p; cbn [pc_blocks rs_pc]; intros H; try discriminate H; reflexivity. Qed.

  (** a bucket another thread holds is not touched *)
  Lemma other_same st a st' es t' b j : Lk st -> step st a = Some (st', es) ->
    t' <> actor a -> holds (th st t') b j -> same_bkt st st' b j.
  Proof.
    intros HI Hs Hne Hh. pose proof (K_hold _ _ HI _ _ _ Hh) as Ho. destruct (K_cur _ _ HI _ _ _ Hh) as [Hb Hj].
    destruct (step_frame hash _ _ _ _ HI Hs b j) as [H|[(t0 & E & _ & _ & H)|[(t0 & ob & n & E & H)|(t0 & c & E & H1 & H2)]]]; [exact H | exfalso ..].
    - subst a. cbn [actor] in Hne. destruct H as [H|[H _]]; congruence.
    - pose proof (K_gw _ _ HI t0) as Hg. destruct (th st t0); cbn [pc_blocks] in H; try discriminate H; injection H as -> -> ->;
        cbn [pc_gw pc_blocks] in Hg; destruct Hg as (G1 & _ & _ & G4 & _); congruence.
    - pose proof (K_db _ _ HI). subst b. lia.
  Qed.

  (** the block do_grow is filling is not touched by anybody else *)
  Lemma other_new st a st' es t' ob nb n jn : Lk st -> step st a = Some (st', es) ->
    t' <> actor a -> pc_blocks (th st t') = Some (ob, nb, n) -> same_bkt st st' nb jn.
  Proof.
    intros HI Hs Hne Hb.
    assert (Hnb : nb <> db st).
    { pose proof (K_gw _ _ HI t') as Hg. destruct (th st t'); cbn [pc_blocks] in Hb; try discriminate Hb; injection Hb as -> -> ->;
        cbn [pc_gw pc_blocks] in Hg; destruct Hg as (G1 & _ & _ & G4 & _); congruence. }
    assert (Hrs : rs_pc (th st t') = true) by (eapply rs_of_blocks; exact Hb).
    destruct (step_frame hash _ _ _ _ HI Hs nb jn) as [H|[(t0 & _ & H & _)|[(t0 & ob0 & n0 & E & H)|(t0 & c & E & H1 & H2)]]]; [exact H | exfalso ..].
    - exact (Hnb H).
    - subst a. cbn [actor] in Hne. apply Hne. symmetry. apply (rs_unique hash st); [exact HI | eapply rs_of_blocks; exact H | exact Hrs].
    - subst a. cbn [actor] in Hne. apply Hne. symmetry. apply (rs_unique hash st); [exact HI | rewrite H1; reflexivity | exact Hrs].
  Qed.

  (** [g_map] changes only for a key whose bucket (in the current block) the stepping thread holds *)
  Lemma map_frame st a st' es : Lk st -> step st a = Some (st', es) -> forall k',
    lookup k' (g_map st') = lookup k' (g_map st) \/ exists t, a = Step t /\ g_own st (db st) (hb st k') = Some t.
  Proof.
    intros HI H k'. destruct (step_inv hash _ _ _ _ H) as [t o Epc | t p st1 p' Epc HL | t p st1 p' Epc HS]; [left; reflexivity | |].
    1: destruct (tlocal_ghost hash _ _ _ _ _ HL) as (l & r & o & h & ->); left; reflexivity.
    destruct HS; st_simpl_goal; try (left; reflexivity).
    all: destruct (holder_facts hash _ t _ _ _ HI ltac:(rewrite Epc; reflexivity) ltac:(rewrite Epc; reflexivity)) as (Hb & Ho & Hcur & Hjlt & Hfz).
    all: pose proof (K_ref _ _ HI t) as Href; rewrite Epc in Href; cbn [pc_ref] in Href; destruct (Href _ _ _ eq_refl) as [_ Hj]; subst b.
    all: try destruct (i =? bs_item_count s - 1).
    all: rewrite ?VhmBase.lookup_cons, ?VhmBase.lookup_rem.
    all: destruct (N.eq_dec k' k) as [->|Hne]; [right; exists t; split; [reflexivity|]; unfold hb, nb_; rewrite <- Hj; exact Ho | left].
    all: try reflexivity.
    all: try (destruct (N.eqb_spec k k'); [congruence | reflexivity]).
    all: try (destruct (N.eqb_spec k' k); [congruence | reflexivity]).
  Qed.

  Lemma abs_frame st st' t p : pc_abs st t p -> g_lp st' t = g_lp st t ->
    (forall b j k, pc_bkt p = Some (b, j) -> pc_ref p = Some (b, j, k) ->
       (forall i, akey st' b j i = akey st b j i /\ aval st' b j i = aval st b j i) /\ lookup k (g_map st') = lookup k (g_map st)) ->
    pc_abs st' t p.
  Proof.
    intros H El Hf.
    destruct p; cbn [pc_abs pc_bkt pc_ref] in *; unfold absent in *; rewrite ?El; try exact H.
    all: destruct (Hf _ _ _ eq_refl eq_refl) as [Hs Hm]; rewrite ?Hm.
    all: repeat match goal with |- context [akey ?s1 ?b ?j ?i] => rewrite (proj1 (Hs i)) end.
    all: repeat match goal with |- context [aval ?s1 ?b ?j ?i] => rewrite (proj2 (Hs i)) end.
    all: try exact H.
    all: intros i' Hi'; rewrite (proj1 (Hs i')); apply H; exact Hi'.
  Qed.

  Lemma step_other st a st' es : step st a = Some (st', es) ->
    forall t', t' <> actor a -> th st' t' = th st t' /\ g_lp st' t' = g_lp st t' /\ g_rv st' t' = g_rv st t'.
  Proof.
    intros H. destruct (step_inv hash _ _ _ _ H) as [t o Epc | t p st1 p' Epc HL | t p st1 p' Epc HS]; intros t' Hne; cbn [actor] in Hne.
    - st_simpl_goal. rewrite upd_other by exact Hne. auto.
    - destruct HL; st_simpl_goal; rewrite ?upd_other by exact Hne; auto.
    - destruct HS; st_simpl_goal; rewrite ?upd_other by exact Hne; auto.
      destruct (i =? bs_item_count s - 1); rewrite ?upd_other by exact Hne; auto.
  Qed.

  Lemma abs_other st a st' es t' : Lk st -> step st a = Some (st', es) ->
    t' <> actor a -> g_lp st' t' = g_lp st t' ->
    pc_abs st t' (th st t') -> pc_abs st' t' (th st t').
  Proof.
    intros HI Hs Hne El H. apply (abs_frame st); [exact H | exact El|].
    intros b j k Hb Hr. pose proof (holds_of_bkt _ _ _ Hb) as Hh. split.
    - exact (proj1 (proj2 (other_same _ _ _ _ t' b j HI Hs Hne Hh))).
    - destruct (map_frame _ _ _ _ HI Hs k) as [E|(t0 & E & Ho)]; [exact E | exfalso].
      subst a. cbn [actor] in Hne. destruct (K_cur _ _ HI _ _ _ Hh) as [-> _]. destruct (K_ref _ _ HI t' _ _ _ Hr) as [_ Hj].
      pose proof (K_hold _ _ HI _ _ _ Hh) as Ho'. unfold hb, nb_ in Ho. rewrite <- Hj in Ho. congruence.
  Qed.

  (** a key whose bucket holds no valid slot with it is absent; a valid slot of the own bucket is in [g_map] *)
  Lemma own_slot st j i k : G st -> j < nb_ st -> hb st k = j -> mk st (db st) j = 0 -> i < ic st (db st) j -> akey st (db st) j i = k ->
    lookup k (g_map st) = Some (aval st (db st) j i).
  Proof.
    intros HG Hj Hk Hmk Hi Ha. apply (G_map _ HG). rewrite Hk. exists i. unfold vslot. rewrite Hmk. split; [split; [exact Hi | lia] | split; [exact Ha | reflexivity]].
  Qed.
  Lemma own_absent st j k : G st -> hb st k = j -> (forall i, i < ic st (db st) j -> akey st (db st) j i <> k) -> lookup k (g_map st) = None.
  Proof.
    intros HG Hk Hs. apply (lookup_none_iff _ _ HG). rewrite Hk. intros v (i & [H1 _] & H2 & _). exact (Hs i H1 H2).
  Qed.

  (** the holder of the lock of its key's bucket, which read the word [s] before locking: slot [i] < item_count is in the map *)
  Lemma holder_slot st t b j k s i : Lk st -> G st -> pc_ref (th st t) = Some (b, j, k) -> pc_bkt (th st t) = Some (b, j) ->
    pc_bst (th st t) = Some (bs_locked s) -> wf_s s -> i < bs_item_count s -> akey st b j i = k ->
    lookup k (g_map st) = Some (aval st b j i).
  Proof.
    intros HI HG Hr Hk Hs Hwf Hi Ha. destruct (holder_facts hash _ _ _ _ _ HI Hk Hs) as (Hb & _ & -> & Hj & _).
    destruct (K_ref _ _ HI _ _ _ _ Hr) as [_ Hh]. destruct Hwf as (_ & _ & Hm & _).
    apply (own_slot st j); [exact HG | exact Hj | symmetry; exact Hh | | | exact Ha].
    - unfold mk. rewrite Hb, bs_locked_delete_marker. exact Hm.
    - unfold ic. rewrite Hb, bs_locked_item_count. exact Hi.
  Qed.

  Lemma abs_own st a st' es : Lk st -> G st -> (forall t, pc_abs st t (th st t)) ->
    step st a = Some (st', es) -> pc_abs st' (actor a) (th st' (actor a)).
  Proof.
    intros HI HG HA H.
    destruct (step_inv hash _ _ _ _ H) as [t o Epc | t p st1 p' Epc HL | t p st1 p' Epc HS]; [| destruct HL | destruct HS].
    all: st_simpl_goal; rewrite ?upd_same; cbn [pc_abs]; try exact I.
    all: unfold absent in *; st_simpl; rewrite ?upd_same.
    all: pose proof (K_wf _ _ HI t) as Hwf; rewrite Epc in Hwf; cbn [pc_wf] in Hwf.
    all: pose proof (HA t) as Hab; rewrite Epc in Hab; cbn [pc_abs] in Hab; unfold absent in Hab.
    all: try (destruct (holder_facts hash _ t _ _ _ HI ltac:(rewrite Epc; reflexivity) ltac:(rewrite Epc; reflexivity)) as (Hb & Ho & Hcur & Hjlt & Hfz)).
    all: try (pose proof (K_ref _ _ HI t) as Href; rewrite Epc in Href; cbn [pc_ref] in Href; destruct (Href _ _ _ eq_refl) as [_ Hj]; clear Href).
    all: try exact Hab; try tauto; try reflexivity; try congruence.
    all: rewrite ?setf3_same.
    all: try (assert (Hwfs : wf_s s) by tauto; destruct (VhmAbs.wf_fields s Hwfs) as (FL1 & FL2 & FM & _)).
    all: unfold VhmBase.mark in *.
    all: try (assert (Hicst : ic st b j = bs_item_count s /\ mk st b j = 0) by (unfold ic, mk; rewrite Hb; split; [exact FL1 | exact FL2]);
              destruct Hicst as [Hicst Hmk0]).
    all: try (subst b; assert (Hhb : hb st k = j) by (unfold hb, nb_; symmetry; exact Hj)).
    all: try (assert (Hjn : j < nb_ st) by exact Hjlt).
    all: try (match goal with |- pc_abs _ _ (if ?c then _ else _) => destruct c eqn:Ei end; cbn [pc_abs]; try exact I).
    - (* IK -> IUold *) exists (aval st (db st) j i). split; [|intros; discriminate]. apply own_slot; try assumption. rewrite Hicst. tauto.
    - (* IK next *) intros i' Hi'. destruct (N.eq_dec i' i) as [->|]; [assumption | apply Hab; lia].
    - (* IK -> ISK *) apply (own_absent st j); [exact HG | exact Hhb |]. intros i' Hi'. rewrite Hicst in Hi'.
      destruct (N.eq_dec i' i) as [->|]; [assumption | apply Hab; lia].
    - (* IV -> IUold *) exists (aval st (db st) j i). split; [|reflexivity]. apply own_slot; try assumption. rewrite Hicst. tauto.
    - (* XK next *) intros i' Hi'. destruct (N.eq_dec i' i) as [->|]; [assumption | apply Hab; lia].
    - (* XK -> XHH *) apply (own_absent st j); [exact HG | exact Hhb |]. intros i' Hi'. rewrite Hicst in Hi'.
      destruct (N.eq_dec i' i) as [->|]; [assumption | apply Hab; lia].
    - (* XH -> XB6 *) destruct (N.eqb_spec i (bs_item_count s - 1)); [exact Hab | contradiction].
    - (* L3 -> IK *) intros i' Hi'. lia.
    - (* L3 -> ISK *) subst s. destruct (acq_facts hash st t _ _ _ HI ltac:(rewrite Epc; reflexivity) Hwf) as (_ & -> & _).
      apply (own_absent st j); [exact HG | unfold hb, nb_; symmetry; exact Hj |]. intros i' Hi'. unfold ic in Hi'. b2p. lia.
    - (* ISK -> ISV *) split; [exact Hab | reflexivity].
    - (* ISV -> IUnew *) destruct Hab. auto.
    - (* X3 -> XK *) intros i' Hi'. lia.
    - (* XB1 -> XB2 *) f_equal. destruct Hab as [Hk Hv]. rewrite <- Hv. apply own_slot; try assumption. rewrite Hicst. tauto.
    - (* XB4 -> XB5 *) destruct Hab as (H1 & H2 & H3). rewrite setf3_other by (right; right; intros Hc; symmetry in Hc; tauto). auto.
    - (* XB5 -> XB6 *) destruct Hab as (H1 & H2 & H3). destruct (N.eqb_spec i (bs_item_count s - 1)); [tauto|].
      rewrite setf3_other by (right; right; intros Hc; symmetry in Hc; tauto). auto.
  Qed.

  Lemma hist_step st a st' es : Lk st -> G st -> (forall t, pc_abs st t (th st t)) ->
    (forall h, In h (g_hist st) -> hist_ok_w h) ->
    step st a = Some (st', es) -> forall h, In h (g_hist st') -> hist_ok_w h.
  Proof.
    intros HI HG HA HH H. unfold hist_ok_w.
    destruct (step_inv hash _ _ _ _ H) as [t o Epc | t p st1 p' Epc HL | t p st1 p' Epc HS]; [exact HH | |];
      pose proof (HA t) as Hab; rewrite Epc in Hab.
    - destruct HL; try exact HH; apply in_snoc_all; try exact HH; cbn [h_op h_res h_wit]; try exact I.
      (* X2: no linearization point *) destruct e; right; (split; [reflexivity | right; exact Hab]).
    - destruct HS; try exact HH; cbn [pc_abs] in Hab; apply in_snoc_all; try exact HH; cbn [h_op h_res h_wit]; st_simpl_goal; rewrite ?upd_same.
      + (* IUold *) destruct Hab as (r' & -> & Hr). destruct a; right; [exists r; rewrite (Hr eq_refl); auto | eauto].
      + (* IUnew *) destruct Hab as (Hk & _). unfold absent in Hk. rewrite Hk. destruct a; left; auto.
      + (* XB6 *) match goal with |- context [?f t] => assert (Hw : f t = Some (Some r)) end.
        { revert Hab. destruct (N.eqb_spec i (bs_item_count s - 1)) as [Ei|Ei]; [intros [Hk <-]; rewrite upd_same; do 2 f_equal | intros (Hl & _); exact Hl].
          pose proof (K_wf _ _ HI t) as Hwf. rewrite Epc in Hwf. destruct Hwf as [Hwf Hi].
          apply (holder_slot st t b j k s); try assumption; rewrite Epc; cbn [pc_ref pc_bkt pc_bst]; try reflexivity.
          rewrite (proj2 (N.eqb_eq _ _) Ei). reflexivity. }
        rewrite Hw. destruct e; left; [exists r; auto | eauto].
      + (* XU *) unfold absent in Hab. rewrite Hab. destruct e; right; auto.
  Qed.

  (** * the migration *)
  Lemma mig_ext st st' ob nb n i x : mig st ob nb n i x -> 0 < n ->
    (forall j, j < n -> ic st' ob j = ic st ob j /\
                        forall y, y < ic st ob j -> akey st' ob j y = akey st ob j y /\ aval st' ob j y = aval st ob j y) ->
    (forall jn, jn < dbl n -> ic st' nb jn = ic st nb jn /\
                              forall z, z < ic st nb jn -> akey st' nb jn z = akey st nb jn z /\ aval st' nb jn z = aval st nb jn z) ->
    mig st' ob nb n i x.
  Proof.
    intros HM Hn Ho Hw.
    assert (Hd : forall a, a mod dbl n < dbl n) by (intros a; apply N.mod_lt; unfold dbl; lia).
    constructor.
    - intros jn Hjn. rewrite (proj1 (Hw jn Hjn)). apply (M_cnt _ _ _ _ _ _ HM); exact Hjn.
    - intros j y Hmv Hj Hy. destruct (Ho j Hj) as [E1 E2]. rewrite E1 in Hy. destruct (E2 y Hy) as [-> ->].
      destruct (M_fwd _ _ _ _ _ _ HM j y Hmv Hj Hy) as (z & Z1 & Z2 & Z3).
      destruct (Hw _ (Hd (hash (akey st ob j y)))) as [E3 E4]. exists z. rewrite E3. destruct (E4 z Z1) as [-> ->]. auto.
    - intros jn z Hjn Hz. destruct (Hw jn Hjn) as [E3 E4]. rewrite E3 in Hz. destruct (E4 z Hz) as [-> ->].
      destruct (M_bwd _ _ _ _ _ _ HM jn z Hjn Hz) as (j & y & B1 & B2 & B3 & B4 & B5 & B6).
      destruct (Ho j B2) as [E1 E2]. destruct (E2 y B3) as [E5 E6]. exists j, y. rewrite E1, E5, E6. auto 7.
    - intros jn z z' Hjn Hz Hz'. destruct (Hw jn Hjn) as [E3 E4]. rewrite E3 in Hz, Hz'.
      destruct (E4 z Hz) as [-> _]. destruct (E4 z' Hz') as [-> _]. apply (M_us _ _ _ _ _ _ HM); assumption.
  Qed.

  Lemma mig_start st ob nb n : (forall jn, ic st nb jn = 0) -> mig st ob nb n 0 0.
  Proof.
    intros H. constructor.
    - intros jn _. rewrite H. lia.
    - intros j y [Hc|[_ Hc]]; lia.
    - intros jn z _ Hz. rewrite H in Hz. lia.
    - intros jn z z' _ Hz. rewrite H in Hz. lia.
  Qed.

  Lemma mig_next st ob nb n i x : mig st ob nb n i x -> ic st ob i <= x -> x <= 3 -> mig st ob nb n (i + 1) 0.
  Proof.
    intros HM Hx H3. constructor.
    - intros jn Hjn. pose proof (M_cnt _ _ _ _ _ _ HM jn Hjn) as Hc.
      destruct (N.ltb_spec (jn mod n) i); destruct (N.ltb_spec (jn mod n) (i + 1)); destruct (N.eqb_spec (jn mod n) i);
        destruct (N.eqb_spec (jn mod n) (i + 1)); lia.
    - intros j y Hmv Hj Hy. apply (M_fwd _ _ _ _ _ _ HM); try assumption. unfold moved in *.
      destruct (N.eq_dec j i) as [->|]; [right; split; [reflexivity | lia] | left; lia].
    - intros jn z Hjn Hz. destruct (M_bwd _ _ _ _ _ _ HM jn z Hjn Hz) as (j & y & B1 & B2). exists j, y. split; [|exact B2].
      unfold moved in *. left. lia.
    - apply (M_us _ _ _ _ _ _ HM).
  Qed.

  (** the store that increments the item count of the new bucket publishes item [x] of old bucket [i] there *)
  Lemma mig_ins st st' ob nb n i x jn : mig st ob nb n i x -> 0 < n -> i < n -> x < ic st ob i ->
    jn = hash (akey st ob i x) mod dbl n -> jn mod n = i ->
    (forall j y, j < n -> y < ic st ob j -> akey st ob j y = akey st ob i x -> j = i /\ y = x) ->
    akey st nb jn (ic st nb jn) = akey st ob i x -> aval st nb jn (ic st nb jn) = aval st ob i x ->
    ic st' nb jn = ic st nb jn + 1 ->
    (forall jn', jn' <> jn -> ic st' nb jn' = ic st nb jn') -> (forall j, ic st' ob j = ic st ob j) ->
    akey st' = akey st -> aval st' = aval st -> mig st' ob nb n i (x + 1).
  Proof.
    intros HM Hn Hi Hx Hjn Hjm Hu Hk Hv Hic Hic' Hico Ea Ev.
    assert (Hd : jn < dbl n) by (subst jn; apply N.mod_lt; unfold dbl; lia).
    assert (Hc0 : ic st nb jn <= x).
    { pose proof (M_cnt _ _ _ _ _ _ HM jn Hd) as Hc. rewrite Hjm, N.ltb_irrefl, N.eqb_refl in Hc. exact Hc. }
    constructor; rewrite ?Ea, ?Ev.
    - intros jn' Hjn'. destruct (N.eq_dec jn' jn) as [->|Hne].
      + rewrite Hic, Hjm, N.ltb_irrefl, N.eqb_refl. lia.
      + rewrite (Hic' jn' Hne). pose proof (M_cnt _ _ _ _ _ _ HM jn' Hjn') as Hc.
        destruct (jn' mod n <? i); [exact Hc|]. destruct (jn' mod n =? i); lia.
    - clear Hjm. intros j y Hmv Hj Hy. rewrite Hico in Hy. destruct Hmv as [Hmv|[Hji Hmv]]; [|subst j].
      + destruct (M_fwd _ _ _ _ _ _ HM j y (or_introl Hmv) Hj Hy) as (z & Z1 & Z2). exists z. split; [|exact Z2].
        destruct (N.eq_dec (hash (akey st ob j y) mod dbl n) jn) as [E|Hne]; [rewrite E in *; rewrite Hic; lia | rewrite (Hic' _ Hne); exact Z1].
      + destruct (N.eq_dec y x) as [->|Hne].
        * exists (ic st nb jn). rewrite <- Hjn. rewrite Hic. split; [lia | auto].
        * assert (Hm' : moved i x i y) by (right; split; [reflexivity | lia]).
          destruct (M_fwd _ _ _ _ _ _ HM i y Hm' Hj Hy) as (z & Z1 & Z2). exists z. split; [|exact Z2].
          destruct (N.eq_dec (hash (akey st ob i y) mod dbl n) jn) as [E|Hne']; [rewrite E in *; rewrite Hic; lia | rewrite (Hic' _ Hne'); exact Z1].
    - clear Hjm. intros jn' z Hjn' Hz. destruct (N.eq_dec jn' jn) as [->|Hne].
      + rewrite Hic in Hz. destruct (N.eq_dec z (ic st nb jn)) as [->|Hnz].
        * exists i, x. rewrite Hico, Hk, Hv. split; [right; split; [reflexivity | lia]|]. rewrite <- Hjn. auto 6.
        * destruct (M_bwd _ _ _ _ _ _ HM jn z Hd ltac:(lia)) as (j & y & B1 & B2). exists j, y. rewrite Hico. split; [|exact B2].
          destruct B1 as [B1|[-> B1]]; [left; exact B1 | right; split; [reflexivity | lia]].
      + rewrite (Hic' _ Hne) in Hz. destruct (M_bwd _ _ _ _ _ _ HM jn' z Hjn' Hz) as (j & y & B1 & B2). exists j, y. rewrite Hico. split; [|exact B2].
        destruct B1 as [B1|[-> B1]]; [left; exact B1 | right; split; [reflexivity | lia]].
    - clear Hjm Hjn. intros jn' z z' Hjn' Hz Hz'. destruct (N.eq_dec jn' jn) as [->|Hne].
      + rewrite Hic in Hz, Hz'.
        assert (Hold : forall w, w < ic st nb jn -> akey st nb jn w <> akey st ob i x).
        { intros w Hw E. destruct (M_bwd _ _ _ _ _ _ HM jn w Hd Hw) as (j & y & B1 & B2 & B3 & B4 & _).
          rewrite E in B4. destruct (Hu j y B2 B3 (eq_sym B4)) as [-> ->]. destruct B1 as [B1|[_ B1]]; lia. }
        destruct (N.eq_dec z (ic st nb jn)) as [->|Hnz]; destruct (N.eq_dec z' (ic st nb jn)) as [->|Hnz']; intros E; try reflexivity.
        * exfalso. apply (Hold z' ltac:(lia)). congruence.
        * exfalso. apply (Hold z ltac:(lia)). congruence.
        * apply (M_us _ _ _ _ _ _ HM jn); try assumption; lia.
      + rewrite (Hic' _ Hne) in Hz, Hz'. apply (M_us _ _ _ _ _ _ HM jn'); assumption.
  Qed.

  Lemma pc_mig_frame st st' p ob nb n : pc_blocks p = Some (ob, nb, n) -> 0 < n -> pc_wf p -> pc_mig st p ->
    (forall j, holds p ob j -> same_bkt st st' ob j) -> (forall jn, same_bkt st st' nb jn) -> pc_mig st' p.
  Proof.
    intros Hb Hn Hwf H Ho Hw.
    assert (Hicn : forall jn, ic st' nb jn = ic st nb jn) by (intros jn; unfold ic; rewrite (proj1 (Hw jn)); reflexivity).
    destruct p; cbn [pc_blocks] in Hb; try discriminate Hb; injection Hb as -> -> ->; cbn [pc_mig pc_wf holds] in *.
    1, 2: intros q; rewrite Hicn; apply H.
    all: assert (Hico : forall j, j < n -> ic st' ob j = ic st ob j) by
           (intros j1 Hj1; unfold ic; rewrite (proj1 (Ho j1 (conj eq_refl Hj1))); reflexivity).
    all: assert (Hext : forall i x, mig st ob nb n i x -> mig st' ob nb n i x) by
           (intros i0 x0 HM; apply (mig_ext st); [exact HM | exact Hn
            | intros j1 Hj1; split; [apply Hico; exact Hj1 | intros y1 _; apply (proj1 (proj2 (Ho j1 (conj eq_refl Hj1))))]
            | intros q1 _; split; [apply Hicn | intros z1 _; apply (proj1 (proj2 (Hw q1)))]]).
    all: repeat match goal with H0 : _ /\ _ |- _ => destruct H0 end; subst.
    all: rsplit; try (apply Hext; assumption); try assumption; try reflexivity.
    all: rewrite ?Hico by assumption; try reflexivity; try assumption.
    all: try (unfold ic in *; rewrite ?(proj1 (Hw _)); reflexivity).
    all: try reflexivity; try assumption.
    all: pose proof (proj1 (proj2 (Ho _ (conj eq_refl Hwf)))) as Hs.
    all: rewrite ?(proj1 (Hs _)), ?(proj2 (Hs _)).
    all: rewrite ?(proj1 (proj1 (proj2 (Hw _)) _)), ?(proj2 (proj1 (proj2 (Hw _)) _)).
    all: try reflexivity; try assumption.
  Qed.

  Lemma pc_mig_trivial st p : pc_blocks p = None -> pc_mig st p.
  Proof. destruct p; cbn [pc_blocks pc_mig]; intros H; try discriminate H; exact I. Qed.

  Lemma blocks_facts st t ob nb n : Lk st -> pc_blocks (th st t) = Some (ob, nb, n) ->
    ob = db st /\ n = bcnt st ob /\ nb < nalloc st /\ nb <> ob /\ g_frozen st nb = false /\ 1 <= nb /\ bcnt st nb = dbl n /\ 0 < n.
  Proof.
    intros HI Hb. pose proof (K_gw _ _ HI t) as Hg. pose proof (K_db _ _ HI) as (D1 & D2 & D3 & D4).
    destruct (th st t); cbn [pc_blocks] in Hb; try discriminate Hb; injection Hb as -> -> ->; cbn [pc_gw pc_blocks] in Hg;
      destruct Hg as (G1 & G2 & G3 & G4 & G5 & G6 & G7); subst; rsplit; auto.
  Qed.

  Lemma mig_other st a st' es t' : Lk st -> step st a = Some (st', es) ->
    t' <> actor a -> pc_mig st (th st t') -> pc_mig st' (th st t').
  Proof.
    intros HI Hs Hne H. destruct (pc_blocks (th st t')) as [[[ob nb] n]|] eqn:Hb; [|apply pc_mig_trivial; exact Hb].
    destruct (blocks_facts _ _ _ _ _ HI Hb) as (_ & _ & _ & _ & _ & _ & _ & Hn).
    apply (pc_mig_frame st st' _ ob nb n); try assumption.
    - apply (K_wf _ _ HI).
    - intros j Hh. exact (other_same _ _ _ _ t' ob j HI Hs Hne Hh).
    - intros jn. exact (other_new _ _ _ _ t' ob nb n jn HI Hs Hne Hb).
  Qed.

  Lemma mig_eq st st' ob nb n i x : 0 < n -> bst st' = bst st -> akey st' = akey st -> aval st' = aval st ->
    mig st ob nb n i x -> mig st' ob nb n i x.
  Proof.
    intros Hn Eb Ea Ev HM. apply (mig_ext st); [exact HM | exact Hn | |].
    - intros q _. unfold ic. rewrite Eb, Ea, Ev. split; [reflexivity|]. intros. split; reflexivity.
    - intros q _. unfold ic. rewrite Eb, Ea, Ev. split; [reflexivity|]. intros. split; reflexivity.
  Qed.

  (** keys of the old block are pairwise distinct (the grower holds all its buckets) *)
  Lemma old_unique st t ob nb n i x : Lk st -> G st -> pc_blocks (th st t) = Some (ob, nb, n) ->
    (forall j, j < n -> holds (th st t) ob j) -> i < n -> x < ic st ob i ->
    forall j y, j < n -> y < ic st ob j -> akey st ob j y = akey st ob i x -> j = i /\ y = x.
  Proof.
    intros HI HG Hb Hh Hi Hx j y Hj Hy E. destruct (blocks_facts _ _ _ _ _ HI Hb) as (-> & -> & _).
    assert (Hv : forall j' y', j' < bcnt st (db st) -> y' < ic st (db st) j' -> vslot st (db st) j' y').
    { intros j' y' Hj' Hy'. split; [exact Hy'|]. rewrite (grower_mk st t _ nb _ j' HI Hb (Hh j' Hj')). lia. }
    pose proof (G_hash _ HG j y Hj (Hv _ _ Hj Hy)) as H1. pose proof (G_hash _ HG i x Hi (Hv _ _ Hi Hx)) as H2.
    rewrite E, H2 in H1. subst j. split; [reflexivity|]. apply (G_us _ HG i); auto.
  Qed.

  (** the store to the state word of the new bucket ends the move of item [x] of old bucket [i] *)
  Lemma mig_store st t c ob nb n i cn x jn ns p' : Lk st -> G st -> (forall t, pc_mig st (th st t)) ->
    th st t = DMSS c ob nb n i cn x jn ns -> mig (go (wst st nb jn (bs_inc_item_count ns)) t p') ob nb n i (x + 1).
  Proof.
    intros HI HG HM Epc. pose proof (K_wf _ _ HI t) as Hwf. rewrite Epc in Hwf. cbn [pc_wf] in Hwf.
    pose proof (HM t) as Hmg. rewrite Epc in Hmg. destruct Hmg as (M1 & M2 & M3 & M4 & M5 & M6 & M7).
    destruct (blocks_facts st t _ _ _ HI ltac:(rewrite Epc; reflexivity)) as (B1 & B2 & B3 & B4 & B5 & B6 & B7 & B8).
    destruct (MC_of st HI HG HM _ _ _ _ _ _ _ _ _ _ Epc) as [_ Hc].
    assert (Hh : forall j, j < n -> holds (th st t) ob j) by (intros j0 Hj0; rewrite Epc; cbn [holds]; auto).
    destruct (mig_target st t ob nb n i x HI HG ltac:(rewrite Epc; reflexivity) (Hh i Hwf) ltac:(lia) Hwf) as (T1 & T2 & T3).
    apply (mig_ins st _ ob nb n i x jn); try assumption; try reflexivity.
    - lia.
    - rewrite M4. exact T1.
    - apply (old_unique st t ob nb n); try assumption; [rewrite Epc; reflexivity | lia].
    - subst ns. exact M6.
    - subst ns. exact M7.
    - unfold ic. st_simpl_goal. rewrite setf2_same. subst ns. apply bs_inc_item_count_item_count; [apply (K_lt _ _ HI) | exact Hc].
    - intros q Hq. unfold ic. st_simpl_goal. rewrite setf2_other by auto. reflexivity.
    - intros q. unfold ic. st_simpl_goal. rewrite setf2_other by auto. reflexivity.
  Qed.

  Lemma mig_own st a st' es : Lk st -> G st -> (forall t, pc_mig st (th st t)) ->
    step st a = Some (st', es) -> pc_mig st' (th st' (actor a)).
  Proof.
    intros HI HG HM H.
    destruct (step_inv hash _ _ _ _ H) as [t o Epc | t p st1 p' Epc HL | t p st1 p' Epc HS]; [| destruct HL | destruct HS].
    all: st_simpl_goal; rewrite ?upd_same; try (match goal with |- pc_mig _ (if ?c then _ else _) => destruct c eqn:Ei end); cbn [pc_mig]; try exact I.
    all: pose proof (K_wf _ _ HI t) as Hwf; rewrite Epc in Hwf; cbn [pc_wf] in Hwf.
    all: pose proof (HM t) as Hmg; rewrite Epc in Hmg; cbn [pc_mig] in Hmg.
    all: try (destruct (blocks_facts st t _ _ _ HI ltac:(rewrite Epc; reflexivity)) as (B1 & B2 & B3 & B4 & B5 & B6 & B7 & B8)).
    all: b2p.
    - exact Hmg.
    - exact Hmg.
    - exact Hmg.
    - (* DMS -> DMH *) apply (mig_eq st); try reflexivity; try assumption. apply (mig_next st _ _ _ i 0); [exact Hmg | unfold ic; lia | lia].
    - (* DMS -> DMK *) rsplit; [apply (mig_eq st); try reflexivity; assumption | reflexivity | lia].
    - (* DMK *) destruct Hmg as (M1 & M2 & M3). rsplit; try assumption; try reflexivity. apply (mig_eq st); try reflexivity; assumption.
    - (* DMN *) destruct Hmg as (M1 & M2 & M3 & M4 & M5). rsplit; try assumption; try reflexivity. apply (mig_eq st); try reflexivity; assumption.
    - (* DMV *) destruct Hmg as (M1 & M2 & M3 & M4 & M5 & M6). rsplit; try assumption; try reflexivity. apply (mig_eq st); try reflexivity; assumption.
    - (* DMH -> DP1 *) apply (mig_eq st); try reflexivity; try assumption. rewrite Ec in Hmg. exact Hmg.
    - (* DMH -> DMS *) apply (mig_eq st); try reflexivity; assumption.
    - (* DG1 *) intros q. unfold ic. st_simpl_goal. rewrite clr2_same. apply word0.
    - (* DGC -> DMS *) apply mig_start. intros q. unfold ic. st_simpl_goal. rewrite setf2_other by auto. apply Hmg.
    - intros q. unfold ic. st_simpl_goal. rewrite setf2_other by auto. apply Hmg.
    - (* DMSK *) destruct Hmg as (M1 & M2 & M3 & M4 & M5 & M6 & M7). st_simpl_goal. unfold ic. st_simpl_goal.
      rewrite setf3_same, setf3_other by auto. subst kk. rsplit; try assumption; try reflexivity.
      apply (mig_ext st); [exact M1 | exact B8 | |].
      + intros q _. unfold ic. st_simpl_goal. split; [reflexivity|]. intros y _. rewrite setf3_other by auto. split; reflexivity.
      + intros q _. unfold ic. st_simpl_goal. split; [reflexivity|]. intros z Hz. split; [|reflexivity]. apply setf3_other.
        destruct (N.eq_dec q jn) as [->|]; [|auto]. right. right. subst ns. lia.
    - (* DMSV *) destruct Hmg as (M1 & M2 & M3 & M4 & M5 & M6 & M7). st_simpl_goal. unfold ic. st_simpl_goal.
      rewrite setf3_same, setf3_other by auto. rsplit; try assumption; try reflexivity.
      apply (mig_ext st); [exact M1 | exact B8 | |].
      + intros q _. unfold ic. st_simpl_goal. split; [reflexivity|]. intros y _. rewrite setf3_other by auto. split; reflexivity.
      + intros q _. unfold ic. st_simpl_goal. split; [reflexivity|]. intros z Hz. split; [reflexivity|]. apply setf3_other.
        destruct (N.eq_dec q jn) as [->|]; [|auto]. right. right. subst ns. lia.
    - (* DMSS -> DMH *) apply (mig_next _ _ _ _ i (x + 1)); [apply (mig_store st t c ob nb n i cn x jn ns); assumption | |].
      + destruct Hmg as (_ & M2 & _). unfold ic. st_simpl_goal. rewrite setf2_other by auto. fold (ic st ob i). lia.
      + pose proof (K_ic _ _ HI ob i). destruct Hmg as (_ & M2 & _). unfold ic in *. lia.
    - (* DMSS -> DMK *) rsplit; [apply (mig_store st t c ob nb n i cn x jn ns); assumption | | lia].
      destruct Hmg as (_ & M2 & _). unfold ic. st_simpl_goal. rewrite setf2_other by auto. exact M2.
  Qed.

  (** * the invariant *)
  Definition Inv0 (st : state) : Prop := Lk st /\ Abs st.

  Lemma G_init cap : G (init cap).
  Proof.
    constructor; cbn.
    - intros k v. split; [discriminate|]. intros (i & [Hi _] & _). unfold ic in Hi. cbn in Hi. lia.
    - intros j i _ [Hi _]. unfold ic in Hi. cbn in Hi. lia.
    - intros j i i' _ [Hi _]. unfold ic in Hi. cbn in Hi. lia.
  Qed.

  Lemma Inv0_init cap : 0 < cap -> Inv0 (init cap).
  Proof.
    intros Hc. split; [apply Lk_init; exact Hc|]. split; [apply G_init|]. split; [intros t; exact I|]. split; [intros t; exact I | intros h []].
  Qed.

  Lemma Inv0_step st a st' es : Inv0 st -> step st a = Some (st', es) -> Inv0 st'.
  Proof.
    intros (HI & HG & HA & HM & HH) Hs.
    split; [exact (Lk_step_all hash _ _ _ _ HI (MC_of _ HI HG HM) Hs)|]. split; [exact (G_step _ _ _ _ HI HG HA HM Hs)|].
    pose proof (step_other _ _ _ _ Hs) as Hoth.
    split; [|split].
    - intros t'. destruct (Nat.eq_dec t' (actor a)) as [->|Hne].
      + exact (abs_own _ _ _ _ HI HG HA Hs).
      + destruct (Hoth t' Hne) as (E1 & E2 & _). rewrite E1. exact (abs_other _ _ _ _ t' HI Hs Hne E2 (HA t')).
    - intros t'. destruct (Nat.eq_dec t' (actor a)) as [->|Hne].
      + exact (mig_own _ _ _ _ HI HG HM Hs).
      + destruct (Hoth t' Hne) as (E1 & _). rewrite E1. exact (mig_other _ _ _ _ t' HI Hs Hne (HM t')).
    - exact (hist_step _ _ _ _ HI HG HA HH Hs).
  Qed.

  Theorem Inv0_reach cap st : 0 < cap -> reach (init cap) step st -> Inv0 st.
  Proof. intros Hc. apply inv_rule; [apply Inv0_init; exact Hc | intros s a s' es; apply Inv0_step]. Qed.
End VhmGrowAbs.
