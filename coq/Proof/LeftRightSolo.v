(** C16 for xenium::left_right: [read] is wait-free (7 solo steps including the START step, from every
    reachable state, whatever the writer and the other readers are doing); [update] is blocking:
    concrete reachable states in which an updater running alone never finishes (it waits for the
    mutex, or it spins on a read indicator held by a stopped reader).  No axioms, no admits. *)
From Coq Require Import NArith List Bool Lia PeanoNat.
From XV Require Import Base.Word Conc.Lts Conc.Ev Conc.Solo Model.LeftRightDefs.
Import ListNotations.
Local Open Scope N_scope.

Definition idle (s : state) (t : nat) : bool := match th s t with Idle => true | _ => false end.

(** remaining steps of a thread inside [read] (exact) *)
Definition read_mu (p : pc) : nat :=
  match p with
  | Begin ORead => 7 | R1 => 6 | R2 _ => 5 | R3 _ => 4 | R4 _ _ => 3 | R5 _ _ _ => 2 | R6 _ _ _ => 1
  | _ => 0
  end.

(** thread is idle or inside [read] *)
Definition read_pc (p : pc) : bool :=
  match p with
  | Idle | Begin ORead | R1 | R2 _ | R3 _ | R4 _ _ | R5 _ _ _ | R6 _ _ _ => true
  | _ => false
  end.

Definition lr_read_bound (s : state) (t : nat) : nat := read_mu (th s t).

Lemma lr_read_step s t :
  reach init step s /\ read_pc (th s t) = true -> idle s t = false ->
  exists s' es, step s (Step t) = Some (s', es) /\ (reach init step s' /\ read_pc (th s' t) = true) /\
                lr_read_bound s t = S (lr_read_bound s' t).
Proof.
  intros [Hr Hp] Hi. unfold idle in Hi. unfold lr_read_bound.
  assert (Hen : exists s' es, step s (Step t) = Some (s', es)).
  { cbn [step]. destruct (th s t) as [|[|]| | | | | | | | | | | | | | | | | | | | ]; try discriminate; eauto. }
  destruct Hen as (s' & es & Hst). exists s', es. split; [exact Hst|].
  assert (Hr' : reach init step s') by (eapply reach_step; eauto).
  cbn [step] in Hst.
  destruct (th s t) as [|[|]| | | | | | | | | | | | | | | | | | | | ] eqn:E; try discriminate;
    injection Hst as <- <-; cbn [th]; rewrite upd_same; cbn [read_pc read_mu]; auto.
Qed.

(** read finishes after exactly [lr_read_bound] solo steps: wait-free *)
Theorem lr_read_solo_exact s t :
  reach init step s -> read_pc (th s t) = true ->
  finishes_exactly step Step idle t (lr_read_bound s t) s.
Proof.
  intros Hr Hp.
  apply (finishes_by_exact_measure _ _ _ step Step idle
           (fun s => reach init step s /\ read_pc (th s t) = true) (fun s => lr_read_bound s t) t);
    [| |split; assumption].
  - intros s0 _ Hi. unfold idle in Hi. unfold lr_read_bound. destruct (th s0 t); try discriminate. reflexivity.
  - intros s0 HP Hi. destruct (lr_read_step s0 t HP Hi) as (s' & es & H1 & H2 & H3). eauto.
Qed.

Theorem lr_read_solo s t :
  reach init step s -> read_pc (th s t) = true ->
  finishes_within step Step idle t (lr_read_bound s t) s.
Proof. intros Hr Hp. apply finishes_exactly_within. apply lr_read_solo_exact; assumption. Qed.

Theorem lr_read_solo_7 s t :
  reach init step s -> read_pc (th s t) = true -> finishes_within step Step idle t 7 s.
Proof.
  intros Hr Hp. eapply finishes_within_mono; [|apply lr_read_solo; assumption].
  unfold lr_read_bound. destruct (th s t) as [|[|]| | | | | | | | | | | | | | | | | | | | ]; cbn [read_mu]; lia.
Qed.

Theorem lr_read_never_stuck s t :
  reach init step s -> read_pc (th s t) = true -> never_stuck step Step idle t s.
Proof. intros Hr Hp. eapply finishes_never_stuck. apply lr_read_solo; assumption. Qed.

(** a thread that is idle and starts a read: 7 steps *)
Theorem lr_read_solo_start s t s' es :
  reach init step s -> step s (Start t ORead) = Some (s', es) ->
  finishes_exactly step Step idle t 7 s'.
Proof.
  intros Hr Hst. assert (Hr' : reach init step s') by (eapply reach_step; eauto).
  cbn [step] in Hst. destruct (th s t); try discriminate. injection Hst as <- <-.
  match goal with |- finishes_exactly _ _ _ _ _ ?st => pose proof (lr_read_solo_exact st t Hr') as H end.
  unfold lr_read_bound in H. cbn [th] in H. rewrite upd_same in H. apply H. reflexivity.
Qed.

(** * update is blocking *)

(** (a) thread 1 holds the mutex (stopped after LOCK), thread 2 starts an update: its LOCK step is
    disabled *)
Definition lr_block_acts_a : list action :=
  [Start 1%nat (OUpdate 5); Step 1%nat; Step 1%nat; Start 2%nat (OUpdate 7)].
Definition lr_block_state_a : state := fst (fst (run step init lr_block_acts_a)).

Theorem lr_update_blocking_mutex :
  reach init step lr_block_state_a /\ th lr_block_state_a 2%nat = Begin (OUpdate 7) /\
  blocks step Step idle 2%nat lr_block_state_a.
Proof.
  split; [apply run_reach|]. split; [vm_compute; reflexivity|].
  destruct (step lr_block_state_a (Step 2%nat)) as [[s1 es]|] eqn:Hst; [|vm_compute in Hst; discriminate].
  apply (blocks_prefix _ _ _ step Step idle 2%nat 1 lr_block_state_a s1).
  - eapply solo_S; [vm_compute; reflexivity|exact Hst|constructor].
  - assert (H1 : th s1 2%nat = U0 7 /\ mutex (sh s1) = Some 1%nat).
    { vm_compute in Hst. inversion Hst; subst. split; vm_compute; reflexivity. }
    destruct H1 as [Hp Hm].
    apply disabled_blocks; [unfold idle; rewrite Hp; reflexivity|].
    cbn [step]. rewrite Hp, Hm. reflexivity.
Qed.

(** (b) thread 2 is a reader stopped inside its critical section (arrived on indicator 0), thread 1
    is the only updater, holds the mutex and runs alone: it spins on the indicator forever *)
Definition lr_block_acts_b : list action :=
  [Start 2%nat ORead; Step 2%nat; Step 2%nat; Step 2%nat; Start 1%nat (OUpdate 5)].
Definition lr_block_state_b : state := fst (fst (run step init lr_block_acts_b)).

Definition lr_spin_P (t : nat) (s : state) : Prop :=
  exists d l cv, (th s t = U8 d l cv \/ th s t = U8y d l cv) /\ get_ind (sh s) (N.land cv 1) <> 0.

Lemma lr_spin_closed t s : lr_spin_P t s ->
  idle s t = false /\ exists s' es, step s (Step t) = Some (s', es) /\ lr_spin_P t s'.
Proof.
  intros (d & l & cv & [Hp|Hp] & Hne); unfold idle; rewrite Hp; (split; [reflexivity|]);
    cbn [step]; rewrite Hp.
  - apply N.eqb_neq in Hne. rewrite Hne.
    eexists _, _. split; [reflexivity|]. exists d, l, cv. cbn [th sh]. rewrite upd_same.
    split; [right; reflexivity|]. apply N.eqb_neq. exact Hne.
  - eexists _, _. split; [reflexivity|]. exists d, l, cv. cbn [th sh]. rewrite upd_same.
    split; [left; reflexivity|exact Hne].
Qed.

Theorem lr_update_blocking_spin :
  reach init step lr_block_state_b /\ th lr_block_state_b 1%nat = Begin (OUpdate 5) /\
  (forall t, t <> 1%nat -> t <> 2%nat -> th lr_block_state_b t = Idle) /\
  mutex (sh lr_block_state_b) = None /\
  blocks step Step idle 1%nat lr_block_state_b.
Proof.
  split; [apply run_reach|]. split; [vm_compute; reflexivity|].
  split.
  { intros t H1 H2. unfold lr_block_state_b, lr_block_acts_b. cbn.
    unfold upd. destruct (Nat.eqb_spec t 1); [contradiction|]. destruct (Nat.eqb_spec t 2); [contradiction|]. reflexivity. }
  split; [vm_compute; reflexivity|].
  (* nine solo steps bring the updater to its second indicator wait *)
  remember (fst (fst (run step lr_block_state_b (repeat (Step 1%nat) 9)))) as s9 eqn:E9.
  assert (Hs : solo_steps step Step idle 1%nat 9 lr_block_state_b s9).
  { subst s9. unfold lr_block_state_b, lr_block_acts_b.
    repeat (eapply solo_S; [vm_compute; reflexivity|vm_compute; reflexivity|]). constructor. }
  apply (blocks_prefix _ _ _ step Step idle 1%nat 9 lr_block_state_b s9 Hs).
  apply spins_blocks. apply (spins_by_invariant _ _ _ step Step idle (lr_spin_P 1%nat) 1%nat (lr_spin_closed 1%nat)).
  subst s9. exists 5, 0, 0. split; [left; vm_compute; reflexivity|vm_compute; discriminate].
Qed.
