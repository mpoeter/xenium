(** No leak at quiescence for the hazard eras model (Model/HeDefs.v): when no guard owns a hazard era, no
    alloc_hazard_era is between set_era and add_guard and the other threads do not move, the scan a thread runs
    after retiring a node (or at its exit) frees every node of its retire list and every abandoned node, within a
    bounded number of its own steps. *)
From Coq Require Import NArith List Bool Arith Lia PeanoNat.
From XV Require Import Conc.Lts Conc.Ev Model.HeDefs Proof.HeBase Proof.HeGuards Proof.HeNodes Proof.HeEras Proof.HeInv.
Import ListNotations.
Set Warnings "-cannot-remove-as-expected".

(** * An active control block publishes an era only in a referenced slot, or in the slot alloc_hazard_era is about to
      hand out (set_era done, add_guard not yet) *)
Definition inflight2 (p : pc) (i : nat) : Prop := match p with E2 _ _ j => j = i | _ => False end.

Record InvS (st : state) : Prop := mkS {
  s_era : forall t b i e, rcd (tl st t) = Some b -> i < 3 -> hz st b i = VEra e -> est st b = 2 ->
          1 <= cnt st b i \/ inflight2 (th st t) i;
  s_i2 : forall t k e, th st t = I2 k e -> fl (tl st t) = [0; 1; 2];
  s_ini : forall t b, rcd (tl st t) = Some b -> inI (th st t) = true -> est st b = 1;
  s_pend : forall t b, pendb (th st t) = Some b -> (forall k e, th st t <> A1 k e b) -> est st b = 1;
  s_own : forall b, est st b <> 0 -> g_owner st b <> None }.

Section S.
Variable nslots : nat.


Lemma ush_cnt_pos st st1 t : ush t st st1 -> forall b i, 1 <= cnt st b i -> 1 <= cnt st1 b i.
Proof.
  induction 1 as [st|st b0 i0 g0 st2 Hb0 Hg0 Hc0 _ IH]; intros b i Hc; [exact Hc|]. apply IH.
  unfold unshare. prj. unfold upd2. destruct ((b =? b0) && (i =? i0)) eqn:E; [|exact Hc].
  apply andb_true_iff in E. destruct E as [E1 E2]. apply Nat.eqb_eq in E1, E2. subst. lia.
Qed.

Lemma InvS_ush st st1 t : ush t st st1 -> InvS st -> InvS st1.
Proof.
  intros Hu [I1 I2 I4 I5 I3]. pose proof (ush_same _ _ _ Hu) as HS.
  assert (Hrc : forall u, rcd (tl st1 u) = rcd (tl st u)).
  { intros u. destruct (Nat.eq_dec u t) as [->|Hne]; [apply (sb_rcd _ _ _ HS)|rewrite (sb_tl _ _ _ HS u Hne); reflexivity]. }
  assert (Hfl : forall u, fl (tl st1 u) = fl (tl st u)).
  { intros u. destruct (Nat.eq_dec u t) as [->|Hne]; [apply (sb_fl _ _ _ HS)|rewrite (sb_tl _ _ _ HS u Hne); reflexivity]. }
  constructor.
  - intros u b i e. rewrite Hrc, (sb_hz _ _ _ HS), (sb_est _ _ _ HS), (sb_th _ _ _ HS). intros Hb Hi Hz He.
    destruct (I1 u b i e Hb Hi Hz He) as [Hc|Hc]; [left; apply (ush_cnt_pos st st1 t Hu b i Hc)|right; exact Hc].
  - intros u k e. rewrite (sb_th _ _ _ HS), Hfl. apply I2.
  - intros u b. rewrite Hrc, (sb_th _ _ _ HS), (sb_est _ _ _ HS). apply I4.
  - intros u b. rewrite (sb_th _ _ _ HS), (sb_est _ _ _ HS). apply I5.
  - intros b. rewrite (sb_est _ _ _ HS), (sb_owner _ _ _ HS). apply I3.
Qed.

Lemma InvS_reset st t b i g :
  InvO st -> InvS st -> rcd (tl st t) = Some b -> (forall k e, th st t <> I2 k e) -> (forall j, inflight2 (th st t) j -> False) ->
  InvS (reset_guard st t b i g).
Proof.
  intros HO [I1 I2 I4 I5 I3] Hb Hn2 Hnf. constructor; unfold reset_guard; prj.
  - intros u bb ii ee Hbb Hi Hz He. destruct (Nat.eq_dec u t) as [->|Hne]; upds_in Hbb; prjh Hbb.
    + rewrite Hb in Hbb. injection Hbb as <-. rewrite upd2_same_block in Hz. rewrite upd2_same_block. revert Hz.
      destruct (Nat.eqb_spec ii i) as [->|Hni]; intros Hz; [discriminate Hz|]. destruct (I1 t b ii ee Hb Hi Hz He) as [Hc|Hc]; [left; exact Hc|].
      exfalso. apply (Hnf ii Hc).
    + assert (bb <> b) by (intros ->; apply Hne; apply (own_inj st u t b HO Hbb Hb)).
      rewrite !upd2_other_block in * by assumption. apply (I1 u bb ii ee Hbb Hi Hz He).
  - intros u k e Hu. destruct (Nat.eq_dec u t) as [->|Hne]; upds; [exfalso; apply (Hn2 k e Hu)|apply (I2 u k e Hu)].
  - intros u bb Hbb. destruct (Nat.eq_dec u t) as [->|Hne]; upds_in Hbb; prjh Hbb; apply (I4 _ bb Hbb).
  - exact I5.
  - exact I3.
Qed.

(** [InvS] after a step of thread t: the clauses for the other threads follow from [step_foreign] (their blocks, pending
    blocks, guards and program points are untouched).  The side condition is [InvS] for t in the new state, clause by
    clause: s_era (an era in t's active block sits in a referenced slot, or in the slot E2 is about to hand out), s_i2 (at I2
    the free list is 0, 1, 2), s_ini (t's block is inactive while t initialises it), s_pend (a new block not yet linked is
    inactive once A1 has stored that), and s_own (a block that is not free has an owner), which is about all blocks *)
Lemma InvS_local st st' es t :
  InvO st -> InvS st -> step nslots st (Step t) = Some (st', es) ->
  (forall b i e, rcd (tl st' t) = Some b -> i < 3 -> hz st' b i = VEra e -> est st' b = 2 -> 1 <= cnt st' b i \/ inflight2 (th st' t) i) /\
  (forall k e, th st' t = I2 k e -> fl (tl st' t) = [0; 1; 2]) /\
  (forall b, rcd (tl st' t) = Some b -> inI (th st' t) = true -> est st' b = 1) /\
  (forall b, pendb (th st' t) = Some b -> (forall k e, th st' t <> A1 k e b) -> est st' b = 1) /\
  (forall b, est st' b <> 0 -> g_owner st' b <> None) ->
  InvS st'.
Proof.
  intros HO [I1 I2 I4 I5 I3] Hs (J1 & J2 & J4 & J5 & J3).
  destruct (step_frame nslots st t st' es Hs) as (_ & Ho & _).
  constructor; [| | | |exact J3]; intros u; (destruct (Nat.eq_dec u t) as [->|Hne]; [assumption|]); destruct (Ho u Hne) as [Etl Eth]; rewrite ?Etl, ?Eth.
  - intros b i e Hb Hi. destruct (step_foreign nslots st t st' es u b HO Hs Hne (or_introl Hb)) as (E1 & _ & E3).
    destruct (E3 i) as [-> ->]. rewrite E1. apply (I1 u b i e Hb Hi).
  - apply I2.
  - intros b Hb. destruct (step_foreign nslots st t st' es u b HO Hs Hne (or_introl Hb)) as (-> & _). apply (I4 u b Hb).
  - intros b Hb. destruct (step_foreign nslots st t st' es u b HO Hs Hne (or_intror Hb)) as (-> & _). apply (I5 u b Hb).
Qed.

Lemma InvS_step st a st' es : InvO st -> InvG nslots st -> InvS st -> step nslots st a = Some (st', es) -> InvS st'.
Proof.
  intros HO HG HS Hs. destruct a as [t o|t].
  - cbn [step] in Hs. destruct (th st t) eqn:Hth; try discriminate Hs. destruct (legal nslots o); [|discriminate Hs].
    injection Hs as <- <-. destruct HS as [I1 I2 I4 I5 I3]. constructor; prj; try assumption.
    + intros u b i e Hb Hi Hz He. destruct (I1 u b i e Hb Hi Hz He) as [Hc|Hc]; [left; exact Hc|].
      destruct (Nat.eq_dec u t) as [->|Hne]; upds; [rewrite Hth in Hc; destruct Hc|right; exact Hc].
    + intros u k e. destruct (Nat.eq_dec u t) as [->|Hne]; upds; [discriminate|apply I2].
    + intros u b Hb. destruct (Nat.eq_dec u t) as [->|Hne]; upds; [discriminate|apply (I4 u b Hb)].
    + intros u b. destruct (Nat.eq_dec u t) as [->|Hne]; upds; [discriminate|apply (I5 u b)].
  - apply (InvS_local st st' es t HO HS Hs). cbn [step] in Hs.
    pose proof (HG t) as HGt. pose proof (g_pc nslots st t HGt) as Hpc. pose proof (g_s nslots st t HGt) as HSt.
    destruct (th st t) eqn:Hth; try discriminate Hs.
    all: leaves Hs.
    all: clean_hyps; try discriminate.
    all: cbn [pcG ctx_ok guard_of] in Hpc.
    all: try (match goal with Hu : ush _ ?s0 ?st1 |- _ =>
           assert (HS0 : InvS s0) by (first [exact HS | (apply InvS_reset; [exact HO|exact HS|assumption|intros; rewrite Hth; discriminate|intros j; rewrite Hth; cbn [inflight2]; tauto])]);
           pose proof (InvS_ush _ _ _ Hu HS0) as [J1 J2 J4 J5 J3]; pose proof (ush_same _ _ _ Hu) as HSb; prj; upds;
           split; [intros b i e Hb Hi Hz He; destruct (J1 t b i e Hb Hi Hz He) as [Hc|Hc]; [left; exact Hc|];
                   rewrite (sb_th _ _ _ HSb) in Hc; unfold reset_guard in Hc; prjh Hc; rewrite Hth in Hc; destruct Hc|];
           split; [intros; discriminate|]; split; [intros; discriminate|]; split; [intros; discriminate|exact J3] end; fail).
    all: dg.
    all: destruct HS as [I1 I2 I4 I5 I3]; split; [|split; [|split; [|split]]].
    (* five goals per leaf, in the order of [InvS_local]; each pass recognises its clause by the shape of the goal.
       s_own: est and g_owner change at the adopted, new, activated or released block only *)
    all: try (match goal with |- forall b, est _ b <> 0 -> _ => idtac end;
              intros bb Hbb; sim; simh Hbb;
              first [ (apply I3; exact Hbb)
                    | (revert Hbb; unfold upd; repeat match goal with |- context [Nat.eqb ?a ?b] => destruct (Nat.eqb_spec a b); subst end; intros Hbb;
                       first [ discriminate | congruence | (apply I3; exact Hbb)
                             | (match goal with Hr : rcd (tl _ _) = Some ?b |- g_owner _ ?b <> None => destruct (O_rcd st HO _ _ Hr) as (Ho & _); congruence end)
                             | (match goal with |- g_owner _ ?b <> None => destruct (O_pend st HO t b) as (Ho & _); [rewrite Hth; reflexivity|congruence] end) ]) ]; fail).
    (* s_i2: the new program point is I2 only after the last store of initialize *)
    all: try (match goal with |- forall k e, th _ _ = I2 k e -> _ => idtac end;
              intros kk ee Huu; simh Huu; sim; first [ discriminate | reflexivity ]; fail).
    (* s_ini, s_pend: the new program point is in initialize / holds a pending block only in acquire_inactive_entry *)
    all: try (intros bb Hb Hin; match type of Hin with inI _ = true => idtac end;
              simh Hb; simh Hin; sim; simh Hb; try discriminate; try congruence;
              first [ (apply (I4 t); [assumption|rewrite Hth; reflexivity])
                    | (injection Hb as <-; first [reflexivity | (upds; reflexivity) | (apply (I5 t); [rewrite Hth; reflexivity|intros; rewrite Hth; discriminate])]) ]; fail).
    all: try (intros bb Hb Hna; match type of Hb with pendb _ = Some _ => idtac end;
              simh Hb; sim; try discriminate; cbn [pendb] in Hb; try discriminate; injection Hb as <-;
              first [ (exfalso; eapply Hna; sim; upds; reflexivity)
                    | (upds; reflexivity)
                    | (apply (I5 t); [rewrite Hth; reflexivity|intros; rewrite Hth; discriminate]) ]; fail).
    (* s_era: what is left from here on *)
    all: intros bb ii ee Hb Hi Hz He; simh Hb; simh Hz; simh He; sim.
    (* hz, cnt, est of t's block and the program point's slot in flight are as before *)
    all: try (destruct (I1 _ _ _ _ Hb Hi Hz He) as [Hc|Hc]; [left; exact Hc|rewrite Hth in Hc; destruct Hc]; fail).
    all: simh Hb; try discriminate Hb.
    all: try (match goal with Hr : rcd (tl _ _) = Some ?b |- _ => rewrite Hr in Hb; injection Hb as <- end).
    (* the steps that change cnt or hz of t's block (release, share, E1, E2, I1, reset); first: the same block under two names.
       Left after this pass: W0-W2 / A1-A3 (t has no block), W2 / A3 towards I0, I2, U1 *)
    all: repeat match goal with H1 : rcd (tl ?s ?u) = Some ?x, H2 : rcd (tl ?s ?u) = Some ?y |- _ =>
           tryif constr_eq x y then fail else (rewrite H1 in H2; injection H2 as <-) end.
    all: try (rewrite ?upd2_same_block in *;
              repeat match goal with
                     | |- context [Nat.eqb ?a ?b] => destruct (Nat.eqb_spec a b); subst
                     | H : context [Nat.eqb ?a ?b] |- _ => destruct (Nat.eqb_spec a b); subst
                     end;
              try discriminate;
              try (match goal with Ec : (cnt _ _ _ =? 1) = false |- _ => apply Nat.eqb_neq in Ec end);
              first [ (right; reflexivity) | (left; lia)
                    | (match goal with Hr : rcd (tl _ _) = Some ?b, Hz' : hz _ ?b ?i = VEra _ |- _ =>
                         destruct (I1 t b i _ Hr Hi Hz' He) as [Hc|Hc]; [left; first [exact Hc|lia]|rewrite Hth in Hc; cbn [inflight2] in Hc; first [congruence | (destruct Hc; fail) | (right; exact Hc)]] end) ]; fail).
    (* a thread that is looking for a control block has none *)
    all: try (exfalso; rewrite (O_seek st HO t) in Hb by (rewrite Hth; reflexivity); discriminate Hb).
    (* adoption / linking: the block is inactive *)
    all: try (injection Hb as <-; upds_in He; first [ discriminate He
              | (rewrite (I5 t _ ltac:(rewrite Hth; reflexivity) ltac:(intros; rewrite Hth; discriminate)) in He; discriminate He) ]; fail).
    (* I2: all slots are links *)
    all: try (match goal with Hth : th _ _ = I2 _ _ |- _ =>
           exfalso; pose proof (I2 t _ _ Hth) as Hfl;
           match goal with Hr : rcd (tl _ _) = Some ?b |- _ =>
             pose proof (g_chain nslots st t HSt b Hr) as Hch; rewrite Hfl in Hch; cbn [chain] in Hch; destruct Hch as (C0 & C1 & C2 & _);
             assert (Hii : ii = 0 \/ ii = 1 \/ ii = 2) by lia; destruct Hii as [->|[->| ->]]; congruence end end; fail).
    (* U1: the slot of the only guard on it *)
    all: try (match goal with Hth : th _ _ = U1 _ _ |- _ =>
           destruct Hpc as (_ & _ & _ & Hso & _); rewrite upd2_same_block in Hz;
           destruct (Nat.eqb_spec ii n0) as [->|Hnq];
           [ left; rewrite (Hso _ _ E E0); lia
           | destruct (I1 t _ _ _ E Hi Hz He) as [Hc|Hc]; [left; exact Hc|rewrite Hth in Hc; destruct Hc] ] end; fail).
Qed.

Lemma InvS_init ncells : InvS (init ncells).
Proof. constructor; cbn; intros; try discriminate; congruence. Qed.

(** * Solo runs of thread t *)
Inductive srun (t : nat) : nat -> state -> state -> Prop :=
| srun_0 st : srun t 0 st st
| srun_S k st st1 es st' : step nslots st (Step t) = Some (st1, es) -> srun t k st1 st' -> srun t (S k) st st'.

Lemma srun_app t k1 k2 st st1 st2 : srun t k1 st st1 -> srun t k2 st1 st2 -> srun t (k1 + k2) st st2.
Proof. intros H1 H2. induction H1; [exact H2|]. cbn [Nat.add]. eapply srun_S; eauto. Qed.

Lemma srun_1 t st st1 es : step nslots st (Step t) = Some (st1, es) -> srun t 1 st st1.
Proof. intros H. eapply srun_S; [exact H|apply srun_0]. Qed.

(** what the walk of a scan leaves unchanged *)
Record keep (t : nat) (st st' : state) : Prop := mkKeep {
  k_blist : blist st' = blist st; k_est : forall b, est st' b = est st b; k_hz : forall b i, hz st' b i = hz st b i;
  k_aband : aband st' = aband st; k_tl : forall u, tl st' u = tl st u; k_ce : forall n, ce st' n = ce st n; k_re : forall n, re st' n = re st n;
  k_where : forall n, g_where st' n = g_where st n; k_nfree : forall n, g_nfree st' n = g_nfree st n;
  k_th : forall u, u <> t -> th st' u = th st u }.

Lemma keep_refl t st : keep t st st.
Proof. constructor; intros; reflexivity. Qed.

Lemma keep_trans t a b c : keep t a b -> keep t b c -> keep t a c.
Proof.
  intros [A1 A2 A3 A4 A5 A6 A7 A8 A9 A10] [B1 B2 B3 B4 B5 B6 B7 B8 B9 B10]. constructor.
  - congruence.
  - intros x. rewrite B2. apply A2.
  - intros x y. rewrite B3. apply A3.
  - congruence.
  - intros x. rewrite B5. apply A5.
  - intros x. rewrite B6. apply A6.
  - intros x. rewrite B7. apply A7.
  - intros x. rewrite B8. apply A8.
  - intros x. rewrite B9. apply A9.
  - intros x Hx. rewrite B10 by assumption. apply A10. assumption.
Qed.

Ltac kp := constructor; intros; sim; reflexivity.

Definition noprot (s : scan) : Prop := s_prot s = [].

Definition next_pc (s : scan) (rest : list nat) : pc := match rest with [] => S7 s | r :: l => S5 s r l end.

Lemma walk_step5 st t s r rest :
  th st t = S5 s r rest ->
  exists st1 es, step nslots st (Step t) = Some (st1, es) /\ keep t st st1 /\
                 th st1 t = if est st r =? 2 then S6 s r rest 0 else next_pc s rest.
Proof.
  intros Hth. cbn [step]. rewrite Hth. destruct (est st r =? 2).
  - eexists _, _. split; [reflexivity|]. split; [kp|sim; reflexivity].
  - unfold scan_next, next_pc. destruct rest; (eexists _, _; split; [reflexivity|]; split; [kp|sim; reflexivity]).
Qed.

Lemma walk_step6 st t s r rest i :
  th st t = S6 s r rest i -> (exists nx, hz st r i = VLink nx) ->
  exists st1 es, step nslots st (Step t) = Some (st1, es) /\ keep t st st1 /\
    th st1 t = if i <? 2 then S6 s r rest (S i) else next_pc s rest.
Proof.
  intros Hth [nx Hz]. cbn [step]. rewrite Hth, Hz. destruct (i <? 2).
  - eexists _, _. split; [reflexivity|]. split; [kp|sim; reflexivity].
  - unfold scan_next, next_pc. destruct rest; (eexists _, _; split; [reflexivity|]; split; [kp|sim; reflexivity]).
Qed.

(** every slot of a linked, active control block is a link (no era is published) *)
Definition clean (st : state) : Prop :=
  forall b i, In b (blist st) -> est st b = 2 -> i < 3 -> exists nx, hz st b i = VLink nx.

Lemma clean_keep t st st' : keep t st st' -> clean st -> clean st'.
Proof. intros HK HC b i. rewrite (k_blist t st st' HK), (k_est t st st' HK), (k_hz t st st' HK). apply HC. Qed.

(** three slots of one control block *)
Lemma walk_block st t s r rest :
  th st t = S6 s r rest 0 -> clean st -> In r (blist st) -> est st r = 2 ->
  exists st', srun t 3 st st' /\ keep t st st' /\ th st' t = next_pc s rest.
Proof.
  intros Hth HC Hin He.
  destruct (walk_step6 st t s r rest 0 Hth (HC r 0 Hin He ltac:(lia))) as (st1 & e1 & H1 & K1 & T1). cbn in T1.
  assert (C1 : exists nx, hz st1 r 1 = VLink nx) by (rewrite (k_hz t st st1 K1); apply (HC r 1 Hin He); lia).
  destruct (walk_step6 st1 t s r rest 1 T1 C1) as (st2 & e2 & H2 & K2 & T2). cbn in T2.
  pose proof (keep_trans t _ _ _ K1 K2) as K12.
  assert (C2 : exists nx, hz st2 r 2 = VLink nx) by (rewrite (k_hz t st st2 K12); apply (HC r 2 Hin He); lia).
  destruct (walk_step6 st2 t s r rest 2 T2 C2) as (st3 & e3 & H3 & K3 & T3). cbn in T3.
  exists st3. split; [eapply srun_S; [exact H1|]; eapply srun_S; [exact H2|]; eapply srun_1; exact H3|].
  split; [apply (keep_trans t _ _ _ K12 K3)|exact T3].
Qed.

(** the walk over the remaining control blocks *)
Lemma walk_all rest : forall st t s r,
  th st t = S5 s r rest -> clean st -> (forall x, In x (r :: rest) -> In x (blist st)) ->
  exists k st', k <= 4 * S (length rest) /\ srun t k st st' /\ keep t st st' /\ th st' t = S7 s.
Proof.
  induction rest as [|r' rest IH]; intros st t s r Hth HC Hsub.
  - destruct (walk_step5 st t s r [] Hth) as (st1 & e1 & H1 & K1 & T1). destruct (est st r =? 2) eqn:Ee.
    + apply Nat.eqb_eq in Ee.
      destruct (walk_block st1 t s r [] T1 (clean_keep t st st1 K1 HC)) as (st2 & R2 & K2 & T2);
        [rewrite (k_blist t st st1 K1); apply Hsub; left; reflexivity|rewrite (k_est t st st1 K1); exact Ee|].
      exists 4, st2. split; [cbn; lia|]. split; [eapply srun_S; [exact H1|exact R2]|].
      split; [apply (keep_trans t _ _ _ K1 K2)|exact T2].
    + exists 1, st1. split; [cbn; lia|]. split; [eapply srun_1; exact H1|]. split; [exact K1|exact T1].
  - destruct (walk_step5 st t s r (r' :: rest) Hth) as (st1 & e1 & H1 & K1 & T1). destruct (est st r =? 2) eqn:Ee.
    + apply Nat.eqb_eq in Ee.
      destruct (walk_block st1 t s r (r' :: rest) T1 (clean_keep t st st1 K1 HC)) as (st2 & R2 & K2 & T2);
        [rewrite (k_blist t st st1 K1); apply Hsub; left; reflexivity|rewrite (k_est t st st1 K1); exact Ee|].
      cbn [next_pc] in T2. pose proof (keep_trans t _ _ _ K1 K2) as K12.
      destruct (IH st2 t s r' T2 (clean_keep t st st2 K12 HC)) as (k & st3 & Hk & R3 & K3 & T3);
        [intros x Hx; rewrite (k_blist t st st2 K12); apply Hsub; right; exact Hx|].
      exists (4 + k), st3. split; [cbn [length]; lia|].
      split; [change (4 + k) with (1 + (3 + k)); eapply srun_S; [exact H1|]; apply (srun_app t 3 k _ _ _ R2 R3)|].
      split; [apply (keep_trans t _ _ _ K12 K3)|exact T3].
    + cbn [next_pc] in T1.
      destruct (IH st1 t s r' T1 (clean_keep t st st1 K1 HC)) as (k & st3 & Hk & R3 & K3 & T3);
        [intros x Hx; rewrite (k_blist t st st1 K1); apply Hsub; right; exact Hx|].
      exists (1 + k), st3. split; [cbn [length]; lia|]. split; [eapply srun_S; [exact H1|exact R3]|].
      split; [apply (keep_trans t _ _ _ K1 K3)|exact T3].
Qed.

(** what the first steps of a scan (reserve, fence, adopt) leave unchanged *)
Record keep0 (t : nat) (st st' : state) : Prop := mkKeep0 {
  k0_blist : blist st' = blist st; k0_est : forall b, est st' b = est st b; k0_hz : forall b i, hz st' b i = hz st b i;
  k0_tl : forall u, tl st' u = tl st u; k0_nfree : forall n, g_nfree st' n = g_nfree st n;
  k0_th : forall u, u <> t -> th st' u = th st u }.

Ltac kp0 := constructor; intros; sim; reflexivity.

Lemma keep0_trans t a b c : keep0 t a b -> keep0 t b c -> keep0 t a c.
Proof.
  intros [A1 A2 A3 A5 A7 A8] [B1 B2 B3 B5 B7 B8]. constructor.
  - congruence.
  - intros x. rewrite B2. apply A2.
  - intros x y. rewrite B3. apply A3.
  - intros x. rewrite B5. apply A5.
  - intros x. rewrite B7. apply A7.
  - intros x Hx. rewrite B8 by assumption. apply A8. assumption.
Qed.

Lemma scan_start st t k0 :
  th st t = S0 k0 ->
  exists k st1 s1, k <= 4 /\ srun t k st st1 /\ keep0 t st st1 /\ th st1 t = S4 s1 /\
    s_k s1 = k0 /\ s_prot s1 = [] /\ s_ad s1 = aband st /\ aband st1 = [] /\
    (forall n, g_where st1 n = if mem n (aband st) then PFlight t else g_where st n).
Proof.
  intros Hth.
  assert (H0 : exists st1 es s1, step nslots st (Step t) = Some (st1, es) /\ keep0 t st st1 /\ th st1 t = S1 s1 /\
             s_k s1 = k0 /\ s_prot s1 = [] /\ s_ad s1 = [] /\ aband st1 = aband st /\ (forall n, g_where st1 n = g_where st n)).
  { cbn [step]. rewrite Hth. destruct (nact st =? 0).
    - eexists _, _, _. split; [reflexivity|]. split; [kp0|]. split; [sim; reflexivity|]. repeat split.
    - eexists _, _, _. split; [reflexivity|]. split; [kp0|]. split; [sim; reflexivity|]. repeat split. }
  destruct H0 as (st1 & e1 & s1 & H1 & K1 & T1 & A1 & B1 & C1 & D1 & E1).
  assert (H2 : exists st2 es, step nslots st1 (Step t) = Some (st2, es) /\ keep0 t st1 st2 /\ th st2 t = S2 s1 /\
             aband st2 = aband st1 /\ (forall n, g_where st2 n = g_where st1 n)).
  { cbn [step]. rewrite T1. eexists _, _. split; [reflexivity|]. split; [kp0|]. split; [sim; reflexivity|]. split; reflexivity. }
  destruct H2 as (st2 & e2 & H2 & K2 & T2 & D2 & E2).
  pose proof (keep0_trans t _ _ _ K1 K2) as K12.
  destruct (aband st) as [|a l] eqn:Ea.
  - assert (H3 : exists st3 es, step nslots st2 (Step t) = Some (st3, es) /\ keep0 t st2 st3 /\ th st3 t = S4 s1 /\
               aband st3 = aband st2 /\ (forall n, g_where st3 n = g_where st2 n)).
    { assert (Hnil : aband st2 = []) by congruence.
      cbn [step]. rewrite T2. destruct (is_nil (aband st2)) eqn:En; rewrite Hnil in En; cbn [is_nil] in En; try discriminate En.
      eexists _, _. split; [reflexivity|]. split; [kp0|]. split; [sim; reflexivity|]. split; reflexivity. }
    destruct H3 as (st3 & e3 & H3 & K3 & T3 & D3 & E3).
    exists 3, st3, s1. split; [lia|]. split; [eapply srun_S; [exact H1|]; eapply srun_S; [exact H2|]; eapply srun_1; exact H3|].
    split; [apply (keep0_trans t _ _ _ K12 K3)|].
    split; [exact T3|]. split; [exact A1|]. split; [exact B1|]. split; [exact C1|]. split; [congruence|].
    intros n. cbn [mem existsb]. rewrite E3, E2, E1. reflexivity.
  - assert (H3 : exists st3 es, step nslots st2 (Step t) = Some (st3, es) /\ keep0 t st2 st3 /\ th st3 t = S3 s1 /\
               aband st3 = aband st2 /\ (forall n, g_where st3 n = g_where st2 n)).
    { assert (Hnil : aband st2 = a :: l) by congruence.
      cbn [step]. rewrite T2. destruct (is_nil (aband st2)) eqn:En; rewrite Hnil in En; cbn [is_nil] in En; try discriminate En.
      eexists _, _. split; [reflexivity|]. split; [kp0|]. split; [sim; reflexivity|]. split; reflexivity. }
    destruct H3 as (st3 & e3 & H3 & K3 & T3 & D3 & E3).
    assert (H4 : exists st4 es s4, step nslots st3 (Step t) = Some (st4, es) /\ keep0 t st3 st4 /\ th st4 t = S4 s4 /\
               s_k s4 = s_k s1 /\ s_prot s4 = s_prot s1 /\ s_ad s4 = aband st3 /\ aband st4 = [] /\
               (forall n, g_where st4 n = if mem n (aband st3) then PFlight t else g_where st3 n)).
    { cbn [step]. rewrite T3. eexists _, _, _. split; [reflexivity|]. split; [kp0|]. split; [sim; reflexivity|]. repeat split. }
    destruct H4 as (st4 & e4 & s4 & H4 & K4 & T4 & A4 & B4 & C4 & D4 & E4).
    exists 4, st4, s4. split; [lia|].
    split; [eapply srun_S; [exact H1|]; eapply srun_S; [exact H2|]; eapply srun_S; [exact H3|]; eapply srun_1; exact H4|].
    split; [apply (keep0_trans t _ _ _ (keep0_trans t _ _ _ K12 K3) K4)|].
    split; [exact T4|]. split; [congruence|]. split; [congruence|]. split; [congruence|]. split; [exact D4|].
    intros n. rewrite E4, D3, D2, D1, E3, E2, E1. reflexivity.
Qed.

Lemma filter_all {X} (f : X -> bool) l : (forall x, f x = true) -> filter f l = l.
Proof. intros H. induction l as [|a l IH]; [reflexivity|]. cbn [filter]. rewrite H, IH. reflexivity. Qed.
Lemma filter_none {X} (f : X -> bool) l : (forall x, f x = false) -> filter f l = [].
Proof. intros H. induction l as [|a l IH]; [reflexivity|]. cbn [filter]. rewrite H, IH. reflexivity. Qed.

(** the end of the scan when no era was gathered *)
Lemma scan_end st t s :
  th st t = S7 s -> noprot s ->
  exists st' es, step nslots st (Step t) = Some (st', es) /\
    rl (tl st' t) = [] /\ aband st' = aband st /\
    (forall n, In n (rl (tl st t) ++ s_ad s) -> g_where st' n = PFreed) /\
    (forall n, g_nfree st' n = g_nfree st n + count n (rl (tl st t) ++ s_ad s)) /\
    match s_k s with SRepl => th st' t = Idle | SExit => th st' t = X4 \/ th st' t = Done end.
Proof.
  intros Hth Hn. cbn [step]. rewrite Hth. unfold noprot in Hn. rewrite Hn. unfold is_prot. cbn [existsb negb].
  rewrite (filter_all (fun _ : nat => true)) by reflexivity.
  rewrite !(filter_none (fun _ : nat => false)) by reflexivity.
  cbn [rev app]. destruct (s_k s).
  - unfold finish. eexists _, _. split; [reflexivity|]. sim. repeat split.
    intros m Hin. cbn [mem existsb]. apply mem_In in Hin. rewrite Hin. reflexivity.
  - cbn [is_nil]. unfold exit_rel. sim. destruct (rcd (tl st t)).
    + eexists _, _. split; [reflexivity|]. sim. repeat split; [|left; reflexivity].
      intros m Hin. cbn [mem existsb]. apply mem_In in Hin. rewrite Hin. reflexivity.
    + eexists _, _. split; [reflexivity|]. sim. repeat split; [|right; reflexivity].
      intros m Hin. cbn [mem existsb]. apply mem_In in Hin. rewrite Hin. reflexivity.
Qed.

Lemma scan_head st t s :
  th st t = S4 s ->
  exists st1 es, step nslots st (Step t) = Some (st1, es) /\ keep t st st1 /\ th st1 t = next_pc s (blist st).
Proof.
  intros Hth. cbn [step]. rewrite Hth. unfold scan_next, next_pc.
  destruct (blist st); (eexists _, _; split; [reflexivity|]; split; [kp|sim; reflexivity]).
Qed.

(** no guard refers to a hazard era and no alloc_hazard_era has published an era it has not handed out yet: no era
    is published in any linked, active control block *)
Lemma quiescent_clean st :
  InvO st -> InvG nslots st -> InvS st ->
  (forall u g, he (gd (tl st u) g) = None) -> (forall u k e i, th st u <> E2 k e i) -> clean st.
Proof.
  intros HO HG HS Hnone He2 b i Hin He Hi.
  assert (Hown : g_owner st b <> None) by (apply (s_own st HS); lia).
  destruct (g_owner st b) as [u|] eqn:Eo; [|contradiction].
  destruct (O_own st HO u b Eo) as [Hr|Hp]; [|destruct (O_pend st HO u b Hp) as (_ & Hc & _); contradiction].
  pose proof (g_s nslots st u (HG u)) as HSu.
  destruct (hz st b i) as [nx|e] eqn:Ez; [exists nx; reflexivity|]. exfalso.
  destruct (s_era st HS u b i e Hr Hi Ez He) as [Hc|Hc].
  - rewrite (g_cnt nslots st u HSu b i Hr Hi), (ng_zero nslots (tl st u) i (Hnone u)) in Hc. lia.
  - destruct (th st u) eqn:Et; cbn [inflight2] in Hc; try contradiction. apply (He2 u k e0 i0). exact Et.
Qed.

(** ** a scan that starts when no era is published frees the whole retire list and every abandoned node *)
Lemma scan_frees_all st t k0 :
  InvO st -> InvN st -> clean st -> th st t = S0 k0 ->
  exists k st', k <= 6 + 4 * length (blist st) /\ srun t k st st' /\
    match k0 with SRepl => th st' t = Idle | SExit => th st' t = X4 \/ th st' t = Done end /\
    rl (tl st' t) = [] /\ aband st' = [] /\
    forall n, In n (rl (tl st t)) \/ In n (aband st) -> g_where st' n = PFreed /\ g_nfree st' n = 1.
Proof.
  intros HO HN HC Hth.
  destruct (scan_start st t k0 Hth) as (k1 & st1 & s1 & Hk1 & R1 & K1 & T1 & A1 & B1 & C1 & D1 & E1).
  assert (HC1 : clean st1).
  { intros b i. rewrite (k0_blist t st st1 K1), (k0_est t st st1 K1), (k0_hz t st st1 K1). apply HC. }
  destruct (scan_head st1 t s1 T1) as (st2 & e2 & H2 & K2 & T2).
  assert (H7 : exists k st7, k <= 4 * length (blist st) /\ srun t k st2 st7 /\ keep t st2 st7 /\ th st7 t = S7 s1).
  { rewrite (k0_blist t st st1 K1) in T2. destruct (blist st) as [|r rest] eqn:Eb; cbn [next_pc] in T2.
    - exists 0, st2. split; [lia|]. split; [apply srun_0|]. split; [apply keep_refl|exact T2].
    - destruct (walk_all rest st2 t s1 r T2 (clean_keep t st1 st2 K2 HC1)) as (k & st7 & Hk & R7 & K7 & T7).
      { intros x Hx. rewrite (k_blist t st1 st2 K2), (k0_blist t st st1 K1), Eb. exact Hx. }
      exists k, st7. split; [cbn [length] in *; lia|]. split; [exact R7|]. split; [exact K7|exact T7]. }
  destruct H7 as (k7 & st7 & Hk7 & R7 & K7 & T7).
  pose proof (keep_trans t _ _ _ K2 K7) as K17.
  destruct (scan_end st7 t s1 T7 B1) as (st8 & e8 & H8 & Hrl & Hab & Hfr & Hnf & Hpc).
  exists (k1 + (1 + (k7 + 1))), st8. split; [lia|].
  split; [apply (srun_app t _ _ _ _ _ R1); eapply srun_S; [exact H2|]; apply (srun_app t _ _ _ _ _ R7); eapply srun_1; exact H8|].
  split; [rewrite A1 in Hpc; exact Hpc|]. split; [exact Hrl|].
  split; [rewrite Hab, (k_aband t st1 st7 K17); exact D1|].
  assert (Hrl7 : rl (tl st7 t) = rl (tl st t)) by (rewrite (k_tl t st1 st7 K17), (k0_tl t st st1 K1); reflexivity).
  rewrite Hrl7, C1 in Hfr, Hnf.
  intros n Hn. assert (Hin : In n (rl (tl st t) ++ aband st)) by (apply in_app_iff; exact Hn).
  split; [apply Hfr; exact Hin|]. rewrite Hnf, (k_nfree t st1 st7 K17), (k0_nfree t st st1 K1).
  assert (Hnd : NoDup (rl (tl st t) ++ aband st)).
  { apply NoDup_app_iff. split; [apply (n_list_nd st HN)|]. split; [apply (n_aband_nd st HN)|].
    intros x Hx Hx'. apply (n_list st HN) in Hx. apply (n_aband st HN) in Hx'. congruence. }
  rewrite (count_nodup n _ Hnd Hin).
  assert (H0 : g_nfree st n = 0).
  { rewrite (n_free st HN). unfold gone.
    assert (Hw : g_where st n = PList t \/ g_where st n = PAband).
    { destruct Hn as [Hn|Hn]; [left; apply (n_list st HN); exact Hn|right; apply (n_aband st HN); exact Hn]. }
    assert (Hl : exists u, g_life st n = LRet u).
    { destruct (g_life st n) eqn:El; try (exfalso; assert (Hc : g_where st n = PNone) by (apply (n_none st HN); intros u Hu; rewrite El in Hu; discriminate Hu); destruct Hw; congruence).
      exists t0. reflexivity. }
    destruct Hl as [u Hl]. rewrite Hl. destruct Hw as [Hw|Hw]; rewrite Hw; reflexivity. }
  rewrite H0. reflexivity.
Qed.
End S.

(** * The theorem *)
Section Main.
Variables (ncells nslots : nat).

Theorem he_slots_published st : reach (init ncells) (step nslots) st -> InvS st.
Proof.
  intros Hr. induction Hr as [|s a s' es Hr IH Hst]; [apply InvS_init|].
  destruct (he_inv ncells nslots s Hr) as [HO HG _ _ _ _ _]. apply (InvS_step nslots s a s' es HO HG IH Hst).
Qed.

(** he_no_leak_at_quiescence, full statement (not proved as one theorem):
      reach st -> (forall u, th st u = Idle \/ th st u = Done) -> (forall u g, he (gd (tl st u) g) = None) ->
      th st t = Idle -> cells st c = Some o ->
      exists k st', k <= 40 + 6 * length (blist st) /\ (Start t (ORepl c), then k solo steps of t lead from st to st') /\
        th st' t = Idle /\ rl (tl st' t) = [] /\ aband st' = [] /\
        forall n, In n (rl (tl st t)) \/ In n (aband st) \/ n = o -> g_where st' n = PFreed /\ g_nfree st' n = 1.
    Proved: the scan of the flush.  From the program point where the scan starts (S0: right after guard.reclaim()
    has given up its hazard era, stamped the node with its retirement era, pushed it onto the retire list and read the
    threshold (T1), or at thread exit), in any reachable state in which no guard refers to a hazard era and no thread
    is between set_era and add_guard of alloc_hazard_era (program point E2; the other threads may be anywhere else:
    they do not move during the solo run), thread t alone gets through its scan (to Idle, or at
    thread exit to X4 / Done) within 6 + 4 * (number of control blocks) steps, and then its retire list and the
    abandoned list are empty and every node that was in them has been freed exactly once.
    Missing for the full statement: the prefix of the retiring operation (Begin, Q1, Q2, acquire_inactive_entry /
    initialize / activate / alloc_hazard_era, Q1, Q2, C1, R1, R2, R3, T1: at most 17 + 2 * (number of control blocks)
    further steps; when thread t runs alone no CAS of it fails and era_clock does not move between the publication
    and the second read).  Two things are needed for it that are not proved on this model: the symbolic execution of
    these steps, and the fact that alloc_hazard_era does not throw when no guard of the thread refers to a hazard era
    (the free list then holds all K slots: "every slot is on the free list, referenced, or in flight", the no-leak
    half of the pool invariant; it is proved on the sequential slot pool model, Proof/HeSlots.v: he_no_leak).
    The whole flush is exercised by the examples below (vm_compute). *)
Theorem he_no_leak_at_quiescence_partial st t k0 :
  reach (init ncells) (step nslots) st ->
  th st t = S0 k0 -> (forall u g, he (gd (tl st u) g) = None) -> (forall u k e i, th st u <> E2 k e i) ->
  exists k st', k <= 6 + 4 * length (blist st) /\ srun nslots t k st st' /\
    match k0 with SRepl => th st' t = Idle | SExit => th st' t = X4 \/ th st' t = Done end /\
    rl (tl st' t) = [] /\ aband st' = [] /\
    forall n, In n (rl (tl st t)) \/ In n (aband st) -> g_where st' n = PFreed /\ g_nfree st' n = 1.
Proof.
  intros Hr Hth Hn He2. destruct (he_inv ncells nslots st Hr) as [HO HG _ HN _ _ _].
  apply (scan_frees_all nslots st t k0 HO HN (quiescent_clean nslots st HO HG (he_slots_published st Hr) Hn He2) Hth).
Qed.
End Main.

(** * Example: the whole flush in a quiescent state (continuing the examples of Proof/HeInv.v)
    thread 1 has dropped its guard, every thread is idle and no guard has a hazard era; node 0 is in the retire list of
    thread 2.  Thread 2 runs [repl 0] alone: Begin, Q1, Q2, H1, E1, E2, Q1, Q2, C1, R1, R2, R3, T1, then the 13 steps
    of the scan: S0 S1 S2 S4, S5 S6 S6 S6 for each of the two control blocks, S7 (the bound of the theorem is
    6 + 4 * 2): it is idle again, nodes 0 and 4 are freed. *)
Definition ex_q := ex_d2 ++ ops 1 (ODrop 0) 40.
Example ex_quiescent :
  let st := final ex_q in
  th st 1 = Idle /\ th st 2 = Idle /\ rl (tl st 2) = [0] /\ aband st = [] /\ blist st = [3; 2] /\
  he (gd (tl st 1) 0) = None /\ he (gd (tl st 1) 1) = None /\ he (gd (tl st 1) 2) = None /\ he (gd (tl st 2) 0) = None.
Proof. vm_compute. repeat split; reflexivity. Qed.

Example ex_flush_running : th (final (ex_q ++ Start 2 (ORepl 0) :: repeat (Step 2) 25)) 2 <> Idle.
Proof. vm_compute. discriminate. Qed.

Example ex_flush :
  let st := final (ex_q ++ Start 2 (ORepl 0) :: repeat (Step 2) 26) in
  th st 2 = Idle /\ rl (tl st 2) = [] /\ aband st = [] /\
  g_where st 0 = PFreed /\ g_nfree st 0 = 1 /\ g_where st 4 = PFreed /\ g_nfree st 4 = 1 /\ cells st 0 = Some 6.
Proof. vm_compute. repeat split; reflexivity. Qed.

(** the state in which the scan of this flush starts, and the instance of the theorem for it *)
Example ex_flush_scan_start :
  let st := final (ex_q ++ Start 2 (ORepl 0) :: repeat (Step 2) 13) in
  th st 2 = S0 SRepl /\ rl (tl st 2) = [4; 0] /\ length (blist st) = 2.
Proof. vm_compute. repeat split; reflexivity. Qed.
