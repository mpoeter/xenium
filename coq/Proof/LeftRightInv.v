(** Safety of the Left-Right technique (xenium::left_right) on the step-level model of
    Model/LeftRightDefs.v.  No axioms, no admits.

    Writer-side results ([lr_mutex], [lr_twice]) hold for every state in [reach init step]: any
    program, any schedule, any number of threads.

    Reader-side results ([lr_exclusion], [lr_read_consistent], [lr_read_value]) are FALSE without a
    bound on the number of threads that are simultaneously inside a read: with 2^64 readers arrived on
    one indicator the 64-bit counter wraps to 0 and the writer proceeds.  They are therefore stated
    for [reach init (bstep n)] with [N.of_nat n < 2 ^ 64], where [bstep n] is [step] restricted to
    actions of threads with id < n ([breach_reach]: such states are reachable in the unrestricted
    model; [run_breach]: every executable run whose actions only name threads < n ends in such a
    state).  Under that bound the indicators are exactly the number of readers at R3..R6 ([CInv]).

    Invariant structure: [J] (mutex <-> writer pc, writer data invariant [Winv] indexed by the pc of
    the mutex holder, locals are 0/1), [CInv] (indicator = count), [RAll] (per reader [Rinv], indexed
    by the pc of the mutex holder: a reader may use the instance [lr] does not designate only while
    the writer is between its lr store and the second drain ([old_ok])).  The version variable plays
    no role for safety, only that the two drained indices (cv+1)&1 and cv&1 are different. *)
From Coq Require Import NArith List Bool Lia PeanoNat.
From XV Require Import Base.Word Conc.Lts Conc.Ev Model.LeftRightDefs.
Import ListNotations.
Local Open Scope N_scope.

(** * 1. Small facts *)

Definition bit (x : N) : Prop := x = 0 \/ x = 1.

Lemma bit_land1 x : bit (N.land x 1).
Proof. destruct x as [|[p|p|]]; cbn; unfold bit; auto. Qed.

Lemma bit_other l : bit (other l).
Proof. unfold other, bit. destruct (l =? 0); auto. Qed.

Lemma other_neq l : other l <> l.
Proof. unfold other. destruct (N.eqb_spec l 0); subst; [discriminate|auto]. Qed.

Lemma bit_cases i l : bit i -> bit l -> i = l \/ i = other l.
Proof. intros [->| ->] [->| ->]; cbn; auto. Qed.

(** the two indices a writer drains are different *)
Lemma bit_next v cv : bit v -> bit cv -> v <> N.land (wadd 32 cv 1) 1 -> v = N.land cv 1.
Proof. intros [->| ->] [->| ->]; cbn; congruence. Qed.

Definition sumw (g : list N) : N := fold_left (wadd 64) g 0.

Lemma sumw_snoc g d : sumw (g ++ [d]) = wadd 64 (sumw g) d.
Proof. unfold sumw. rewrite fold_left_app. reflexivity. Qed.

(** * 2. The two instances *)

Definition four (s : shared) (v : N) : Prop := lx s = v /\ ly s = v /\ rx s = v /\ ry s = v.

(** instance [i] holds (a,b), instance [j] holds (c,d) *)
Definition insts (s : shared) (i a b j c d : N) : Prop :=
  get_x s i = a /\ get_y s i = b /\ get_x s j = c /\ get_y s j = d.

(** [l] and [other l] name different instances whatever [l] is: no case analysis on indices is
    needed below, only these laws *)
Lemma other_eqb l : (other l =? 0) = negb (l =? 0).
Proof. unfold other. destruct (l =? 0); reflexivity. Qed.

Lemma four_insts s l v : four s v <-> insts s (other l) v v l v v.
Proof. unfold four, insts, get_x, get_y. rewrite other_eqb. destruct (l =? 0); cbn [negb]; tauto. Qed.

Lemma four_get s v i : four s v -> get_x s i = v /\ get_y s i = v.
Proof. unfold four, get_x, get_y. destruct (i =? 0); tauto. Qed.

Lemma insts_set_x_o s l a b c d v :
  insts s (other l) a b l c d -> insts (set_x s (other l) v) (other l) v b l c d.
Proof.
  unfold insts, get_x, get_y, set_x. rewrite other_eqb. destruct (l =? 0); cbn [negb lx ly rx ry]; tauto.
Qed.

Lemma insts_set_x_l s l a b c d v :
  insts s (other l) a b l c d -> insts (set_x s l v) (other l) a b l v d.
Proof.
  unfold insts, get_x, get_y, set_x. rewrite other_eqb. destruct (l =? 0); cbn [negb lx ly rx ry]; tauto.
Qed.

Lemma insts_set_y_o s l a b c d v :
  insts s (other l) a b l c d -> insts (set_y s (other l) v) (other l) a v l c d.
Proof.
  unfold insts, get_x, get_y, set_y. rewrite other_eqb. destruct (l =? 0); cbn [negb lx ly rx ry]; tauto.
Qed.

Lemma insts_set_y_l s l a b c d v :
  insts s (other l) a b l c d -> insts (set_y s l v) (other l) a b l c v.
Proof.
  unfold insts, get_x, get_y, set_y. rewrite other_eqb. destruct (l =? 0); cbn [negb lx ly rx ry]; tauto.
Qed.

Lemma get_x_set_x s l v :
  get_x (set_x s (other l) v) l = get_x s l /\ get_x (set_x s l v) (other l) = get_x s (other l).
Proof. unfold get_x, set_x. rewrite other_eqb. destruct (l =? 0); split; reflexivity. Qed.

Lemma get_x_set_y s i j v : get_x (set_y s j v) i = get_x s i.
Proof. unfold get_x, set_y. destruct (j =? 0); reflexivity. Qed.

(** writes to an instance or an indicator leave the control variables alone *)
Definition same_ctl (s s' : shared) : Prop :=
  mutex s' = mutex s /\ lr s' = lr s /\ version s' = version s.

Lemma ctl_refl s : same_ctl s s.
Proof. repeat split. Qed.
Lemma ctl_set_x s i v : same_ctl s (set_x s i v).
Proof. unfold set_x. destruct (i =? 0); repeat split. Qed.
Lemma ctl_set_y s i v : same_ctl s (set_y s i v).
Proof. unfold set_y. destruct (i =? 0); repeat split. Qed.
Lemma lr_set_x s i v : lr (set_x s i v) = lr s.
Proof. apply ctl_set_x. Qed.
Lemma lr_set_y s i v : lr (set_y s i v) = lr s.
Proof. apply ctl_set_y. Qed.
Lemma ctl_set_ind s i v : same_ctl s (set_ind s i v).
Proof. unfold set_ind. destruct (i =? 0); repeat split. Qed.

(** * 3. Program-counter classes and the writer-side invariant [J] *)

Definition wpc (p : pc) : bool :=
  match p with
  | U1 _ | U2 _ _ | U3 _ _ | U4 _ _ | U5 _ _ | U6 _ _ _ | U6y _ _ _ | U7 _ _ _ | U8 _ _ _ | U8y _ _ _
  | U9 _ _ | U10 _ _ | U11 => true
  | _ => false
  end.

(** the pc of the mutex holder ([Idle] when the mutex is free) *)
Definition wphase (st : state) : pc :=
  match mutex (sh st) with None => Idle | Some w => th st w end.

(** writer data invariant, indexed by the pc of the mutex holder.  The proofs take the conjuncts by
    position: before the lr store (U2..U4) (1) [l = lr], (2) the contents; after it (U5..U10)
    (1) [lr = other l], (2) [bit l], (3) [S = P + d], (4) the contents, (5, U6..U8y only) [bit cv]. *)
Definition Winv (s : shared) (g : list N) (q : pc) : Prop :=
  let S := sumw g in
  let P := sumw (removelast g) in
  match q with
  | Idle | U1 _ | U11 => four s S
  | U2 d l => l = lr s /\ four s S
  | U3 d l => l = lr s /\ insts s (other l) (wadd 64 S d) S l S S
  | U4 d l => l = lr s /\ insts s (other l) (wadd 64 S d) (wadd 64 S d) l S S
  | U5 d l | U9 d l => lr s = other l /\ bit l /\ S = wadd 64 P d /\ insts s (other l) S S l P P
  | U6 d l cv | U6y d l cv | U7 d l cv | U8 d l cv | U8y d l cv =>
    lr s = other l /\ bit l /\ S = wadd 64 P d /\ insts s (other l) S S l P P /\ bit cv
  | U10 d l => lr s = other l /\ bit l /\ S = wadd 64 P d /\ insts s (other l) S S l S P
  | _ => False
  end.

(** locals of readers are indices/instances *)
Definition rbits (p : pc) : Prop :=
  match p with
  | R2 v | R3 v | R6 v _ _ => bit v
  | R4 v i | R5 v i _ => bit v /\ bit i
  | _ => True
  end.

Record J (st : state) : Prop := mkJ {
  j_mut1 : forall w, wpc (th st w) = true -> mutex (sh st) = Some w;
  j_mut2 : forall w, mutex (sh st) = Some w -> wpc (th st w) = true;
  j_lr : bit (lr (sh st));
  j_ver : bit (version (sh st));
  j_w : Winv (sh st) (g_updates st) (wphase st);
  j_rb : forall t, rbits (th st t) }.

Ltac prj := cbn [sh th g_updates mutex version lr ind0 ind1 lx ly rx ry] in *.
Ltac cmp := cbn [get_x get_y set_x set_y get_ind set_ind set_lr set_mutex set_version other
                 N.eqb Pos.eqb sh th g_updates mutex version lr ind0 ind1 lx ly rx ry] in *.

Lemma wphase_holder st t : mutex (sh st) = Some t -> wphase st = th st t.
Proof. unfold wphase. intros ->. reflexivity. Qed.

Lemma wphase_new_holder s f g t p : mutex s = Some t -> wphase (mkSt s (upd f t p) g) = p.
Proof. unfold wphase. prj. intros ->. apply upd_same. Qed.

Lemma wphase_free st : mutex (sh st) = None -> wphase st = Idle.
Proof. unfold wphase. intros ->. reflexivity. Qed.

Lemma wphase_other st s' t p g' :
  mutex (sh st) <> Some t -> mutex s' = mutex (sh st) ->
  wphase (mkSt s' (upd (th st) t p) g') = wphase st.
Proof.
  unfold wphase. prj. intros Hn ->. destruct (mutex (sh st)) as [w|]; [|reflexivity].
  apply upd_other. congruence.
Qed.

Lemma Winv_set_ind s g q i v : Winv (set_ind s i v) g q <-> Winv s g q.
Proof. unfold set_ind. destruct (i =? 0); destruct q; reflexivity. Qed.

Lemma J_init : J init.
Proof.
  constructor; unfold init; prj; unfold bit; auto; try discriminate.
  - unfold wphase, Winv, four; prj. auto.
  - intros _. exact I.
Qed.

(** the clause [j_rb] when thread [t] moves to [p] *)
Lemma rbits_upd st t p : J st -> rbits p -> forall r, rbits (upd (th st) t p r).
Proof.
  intros HJ Hb r. destruct (Nat.eq_dec r t) as [->|Hne].
  - rewrite upd_same. exact Hb.
  - rewrite upd_other by exact Hne. apply (j_rb _ HJ).
Qed.

(** a non-writer thread [t] moves, shared state changes at most in the indicators *)
Lemma J_nonwriter st t q p s' :
  J st -> th st t = q -> wpc q = false -> wpc p = false -> rbits p ->
  (s' = sh st \/ exists i v, s' = set_ind (sh st) i v) ->
  J (mkSt s' (upd (th st) t p) (g_updates st)).
Proof.
  intros HJ <- Hw Hp Hb Hs.
  assert (Hc : same_ctl (sh st) s' /\ (Winv s' (g_updates st) (wphase st) <-> Winv (sh st) (g_updates st) (wphase st))).
  { destruct Hs as [->|(i & v & ->)]; [split; [apply ctl_refl|reflexivity]|split; [apply ctl_set_ind|apply Winv_set_ind]]. }
  destruct Hc as [(Hm & Hl & Hv) HW].
  assert (Hnt : mutex (sh st) <> Some t).
  { intros E. apply (j_mut2 _ HJ) in E. congruence. }
  constructor; prj.
  - intros w. destruct (Nat.eq_dec w t) as [->|Hne].
    + rewrite upd_same. congruence.
    + rewrite upd_other by exact Hne. rewrite Hm. apply (j_mut1 _ HJ).
  - intros w. rewrite Hm. intros E. destruct (Nat.eq_dec w t) as [->|Hne]; [contradiction|].
    rewrite upd_other by exact Hne. apply (j_mut2 _ HJ); exact E.
  - rewrite Hl. apply (j_lr _ HJ).
  - rewrite Hv. apply (j_ver _ HJ).
  - rewrite wphase_other by assumption. apply HW, (j_w _ HJ).
  - apply rbits_upd; assumption.
Qed.

(** the mutex holder [t] moves to another writer pc *)
Lemma J_writer st t p s' g' :
  J st -> mutex (sh st) = Some t -> wpc p = true ->
  mutex s' = mutex (sh st) -> bit (lr s') -> bit (version s') ->
  Winv s' g' p ->
  J (mkSt s' (upd (th st) t p) g').
Proof.
  intros HJ Ht Hp Hm Hl Hv HW.
  constructor; prj.
  - intros w. destruct (Nat.eq_dec w t) as [->|Hne].
    + congruence.
    + rewrite upd_other by exact Hne. rewrite Hm. apply (j_mut1 _ HJ).
  - intros w. rewrite Hm. intros E. assert (w = t) by congruence. subst w. rewrite upd_same. exact Hp.
  - exact Hl.
  - exact Hv.
  - rewrite wphase_new_holder by congruence. exact HW.
  - apply rbits_upd; [exact HJ|]. destruct p; try discriminate; exact I.
Qed.

(** ... leaving the control variables alone *)
Lemma J_writer_data st t p s' :
  J st -> mutex (sh st) = Some t -> wpc p = true -> same_ctl (sh st) s' ->
  Winv s' (g_updates st) p ->
  J (mkSt s' (upd (th st) t p) (g_updates st)).
Proof.
  intros HJ Ht Hp (Hm & Hl & Hv). apply J_writer; try assumption.
  - rewrite Hl. apply (j_lr _ HJ).
  - rewrite Hv. apply (j_ver _ HJ).
Qed.

Lemma J_step st a st' es : J st -> step st a = Some (st', es) -> J st'.
Proof.
  intros HJ H. destruct a as [t o|t]; cbn [step] in H.
  { destruct (th st t) eqn:Hp; try discriminate. injection H as <- <-.
    eapply J_nonwriter; eauto. exact I. }
  assert (HL := j_lr _ HJ). assert (HV := j_ver _ HJ).
  assert (HRB := j_rb _ HJ t). assert (HW := j_w _ HJ).
  destruct (th st t) eqn:Hp; try discriminate;
    try (assert (Ht : mutex (sh st) = Some t) by (apply (j_mut1 _ HJ); rewrite Hp; reflexivity);
         rewrite (wphase_holder _ _ Ht), Hp in HW; cbn [Winv] in HW);
    cbn [rbits] in HRB; cbv beta iota zeta in H; try (injection H as <- <-).
  - (* Begin *) destruct o; injection H as <- <-; eapply J_nonwriter; eauto; exact I.
  - (* R1 *) eapply J_nonwriter; eauto. apply bit_land1.
  - (* R2 *) eapply J_nonwriter; eauto.
  - (* R3 *) eapply J_nonwriter; eauto. split; assumption.
  - (* R4 *) eapply J_nonwriter; eauto.
  - (* R5 *) eapply J_nonwriter; eauto. apply HRB.
  - (* R6 *) eapply J_nonwriter; eauto. exact I.
  - (* U0: lock *)
    destruct (mutex (sh st)) eqn:Hm; try discriminate. injection H as <- <-.
    rewrite (wphase_free _ Hm) in HW.
    constructor; prj; unfold set_mutex; prj; [| |exact HL|exact HV| |].
    + intros w. destruct (Nat.eq_dec w t) as [->|Hne]; [reflexivity|].
      rewrite upd_other by exact Hne. intros E. apply (j_mut1 _ HJ) in E. congruence.
    + intros w E. assert (w = t) by congruence. subst w. rewrite upd_same. reflexivity.
    + unfold wphase; prj. rewrite upd_same. exact HW.
    + apply rbits_upd; [exact HJ|exact I].
  - (* U1 *) apply J_writer_data; auto using ctl_refl. split; [reflexivity|exact HW].
  - (* U2 *) destruct HW as [Hl H4]. apply (four_insts _ l) in H4.
    apply J_writer_data; auto using ctl_set_x. split; [rewrite lr_set_x; exact Hl|]. rewrite (proj1 H4). eapply insts_set_x_o, H4.
  - (* U3 *) destruct HW as [Hl Hi].
    apply J_writer_data; auto using ctl_set_y. split; [rewrite lr_set_y; exact Hl|].
    rewrite (proj1 (proj2 Hi)). eapply insts_set_y_o, Hi.
  - (* U4: the update becomes visible *) destruct HW as [-> Hi].
    apply J_writer; auto; [apply bit_other|]. unfold Winv. rewrite removelast_last, sumw_snoc.
    split; [reflexivity|]. split; [exact HL|]. split; [reflexivity|exact Hi].
  - (* U5 *) apply J_writer_data; auto using ctl_refl. cbn [Winv]. tauto.
  - (* U6 *) apply J_writer_data; auto using ctl_refl; destruct (_ =? 0); try reflexivity; exact HW.
  - (* U6y *) apply J_writer_data; auto using ctl_refl.
  - (* U7 *) apply J_writer; auto. apply bit_land1.
  - (* U8 *) apply J_writer_data; auto using ctl_refl; destruct (_ =? 0); try reflexivity; [|exact HW].
    cbn [Winv]. tauto.
  - (* U8y *) apply J_writer_data; auto using ctl_refl.
  - (* U9 *) destruct HW as (H1 & H2 & H3 & Hi).
    apply J_writer_data; auto using ctl_set_x. cbn [Winv]. rewrite lr_set_x, (proj1 (proj2 (proj2 Hi))), <- H3.
    split; [exact H1|]. split; [exact H2|]. split; [reflexivity|]. eapply insts_set_x_l, Hi.
  - (* U10 *) destruct HW as (H1 & H2 & H3 & Hi).
    apply J_writer_data; auto using ctl_set_y. cbn [Winv]. rewrite (proj2 (proj2 (proj2 Hi))), <- H3.
    apply (four_insts _ l). eapply insts_set_y_l, Hi.
  - (* U11: unlock *)
    constructor; prj; unfold set_mutex; prj; [| |exact HL|exact HV| |].
    + intros w. destruct (Nat.eq_dec w t) as [->|Hne]; [rewrite upd_same; discriminate|].
      rewrite upd_other by exact Hne. intros E. apply (j_mut1 _ HJ) in E. congruence.
    + discriminate.
    + unfold wphase; prj. exact HW.
    + apply rbits_upd; [exact HJ|exact I].
Qed.

Theorem J_reach st : reach init step st -> J st.
Proof. apply inv_rule; [exact J_init|]. intros s a s' es HJ H. eapply J_step; eauto. Qed.

(** * 4. Writer mutual exclusion and "every update applied exactly once to each instance" *)

(** [wpc p = true] iff [p] is one of the writer pcs U1..U11 (the mutex is held) *)
Theorem lr_mutex st : reach init step st ->
  (forall w, mutex (sh st) = Some w <-> wpc (th st w) = true) /\
  (forall w1 w2, wpc (th st w1) = true -> wpc (th st w2) = true -> w1 = w2).
Proof.
  intros Hr. apply J_reach in Hr. split.
  - intros w; split; [apply (j_mut2 _ Hr)|apply (j_mut1 _ Hr)].
  - intros w1 w2 H1 H2. apply (j_mut1 _ Hr) in H1. apply (j_mut1 _ Hr) in H2. congruence.
Qed.

Theorem lr_twice st : reach init step st -> mutex (sh st) = None ->
  lx (sh st) = sumw (g_updates st) /\ ly (sh st) = sumw (g_updates st) /\
  rx (sh st) = sumw (g_updates st) /\ ry (sh st) = sumw (g_updates st).
Proof.
  intros Hr Hm. apply J_reach in Hr. assert (HW := j_w _ Hr).
  rewrite (wphase_free _ Hm) in HW. exact HW.
Qed.

(** * 5. Bounded set of threads: only threads with id < n ever act *)

Definition tid (a : action) : nat := match a with Start t _ => t | Step t => t end.

Definition bstep (n : nat) (st : state) (a : action) : option (state * list ev) :=
  if (tid a <? n)%nat then step st a else None.

Lemma bstep_step n st a r : bstep n st a = Some r -> step st a = Some r /\ (tid a < n)%nat.
Proof.
  unfold bstep. destruct (Nat.ltb_spec (tid a) n); [auto|discriminate].
Qed.

Lemma breach_reach n st : reach init (bstep n) st -> reach init step st.
Proof.
  induction 1 as [|s a s' es Hr IH Hst]; [apply reach_init|].
  apply bstep_step in Hst. eapply reach_step; [exact IH|apply Hst].
Qed.

Fixpoint cnt (p : pc -> bool) (f : nat -> pc) (n : nat) : nat :=
  match n with
  | O => O
  | S k => ((if p (f k) then 1 else 0) + cnt p f k)%nat
  end.

Lemma cnt_le p f n : (cnt p f n <= n)%nat.
Proof. induction n; cbn [cnt]; [lia|]. destruct (p (f n)); lia. Qed.

Lemma cnt_upd_ge p f t v n : (n <= t)%nat -> cnt p (upd f t v) n = cnt p f n.
Proof.
  induction n; intros H; cbn [cnt]; [reflexivity|].
  rewrite upd_other by lia. rewrite IHn by lia. reflexivity.
Qed.

Lemma cnt_upd p f t v n : (t < n)%nat ->
  (cnt p (upd f t v) n + (if p (f t) then 1 else 0) = cnt p f n + (if p v then 1 else 0))%nat.
Proof.
  induction n; intros H; [lia|]. cbn [cnt].
  destruct (Nat.eq_dec t n) as [->|Hne].
  - rewrite upd_same. rewrite cnt_upd_ge by lia. destruct (p (f n)), (p v); lia.
  - rewrite upd_other by lia. assert (Ht : (t < n)%nat) by lia. specialize (IHn Ht).
    destruct (p (f n)), (p (f t)), (p v); lia.
Qed.

Lemma cnt_zero p f n : cnt p f n = O -> forall t, (t < n)%nat -> p (f t) = false.
Proof.
  induction n; intros H t Ht; [lia|]. cbn [cnt] in H.
  destruct (p (f n)) eqn:E; [lia|].
  destruct (Nat.eq_dec t n) as [->|Hne]; [exact E|]. apply IHn; lia.
Qed.

(** reader that has arrived on indicator [j] and not yet departed *)
Definition inR (j : N) (p : pc) : bool :=
  match p with
  | R3 v | R4 v _ | R5 v _ _ | R6 v _ _ => v =? j
  | _ => false
  end.

Record CInv (n : nat) (st : state) : Prop := mkC {
  c_idle : forall t, (n <= t)%nat -> th st t = Idle;
  c_0 : ind0 (sh st) = N.of_nat (cnt (inR 0) (th st) n);
  c_1 : ind1 (sh st) = N.of_nat (cnt (inR 1) (th st) n) }.

Lemma C_init n : CInv n init.
Proof.
  constructor; unfold init; prj; auto.
  - induction n; cbn [cnt inR]; [reflexivity|exact IHn].
  - induction n; cbn [cnt inR]; [reflexivity|exact IHn].
Qed.

Lemma C_same n st t p s' g' :
  CInv n st -> (t < n)%nat ->
  inR 0 p = inR 0 (th st t) -> inR 1 p = inR 1 (th st t) ->
  ind0 s' = ind0 (sh st) -> ind1 s' = ind1 (sh st) ->
  CInv n (mkSt s' (upd (th st) t p) g').
Proof.
  intros HC Ht H0 H1 E0 E1. constructor; prj.
  - intros t0 Hle. rewrite upd_other by lia. apply (c_idle _ _ HC); exact Hle.
  - rewrite E0, (c_0 _ _ HC). f_equal.
    assert (X := cnt_upd (inR 0) (th st) t p n Ht). rewrite H0 in X. destruct (inR 0 (th st t)); lia.
  - rewrite E1, (c_1 _ _ HC). f_equal.
    assert (X := cnt_upd (inR 1) (th st) t p n Ht). rewrite H1 in X. destruct (inR 1 (th st t)); lia.
Qed.

Ltac fld := unfold set_x, set_y, set_ind, set_lr, set_mutex, set_version; try destruct (_ =? 0); reflexivity.

Lemma pow2_64 : 2 ^ 64 = 18446744073709551616.
Proof. reflexivity. Qed.

Lemma C_step n st a st' es :
  N.of_nat n < 2 ^ 64 ->
  J st -> CInv n st -> bstep n st a = Some (st', es) -> CInv n st'.
Proof.
  intros Hn HJ HC H. apply bstep_step in H. destruct H as [H Ht].
  destruct a as [t o|t]; cbn [step] in H; cbn [tid] in Ht.
  { destruct (th st t) eqn:Hp; try discriminate. injection H as <- <-.
    apply C_same; auto; rewrite Hp; reflexivity. }
  assert (HRB := j_rb _ HJ t).
  destruct (th st t) eqn:Hp; try discriminate; cbn [rbits] in HRB; cbv beta iota zeta in H.
  (* goals in constructor order of [pc]: Begin, R1, R2, ..; [Hp] names the program point, and the
     blocks below fail if it is not the one they say *)
  3: { (* R2: arrive *) injection H as <- <-.
    assert (X0 := cnt_upd (inR 0) (th st) t (R3 v) n Ht).
    assert (X1 := cnt_upd (inR 1) (th st) t (R3 v) n Ht).
    assert (L0 := cnt_le (inR 0) (upd (th st) t (R3 v)) n).
    assert (L1 := cnt_le (inR 1) (upd (th st) t (R3 v)) n).
    rewrite Hp in X0, X1. cbn [inR] in X0, X1.
    constructor; prj.
    - intros t0 Hle. rewrite upd_other by lia. apply (c_idle _ _ HC); exact Hle.
    - destruct HRB as [->| ->]; cmp; rewrite (c_0 _ _ HC).
      + rewrite wadd_small by lia. lia.
      + lia.
    - destruct HRB as [->| ->]; cmp; rewrite (c_1 _ _ HC).
      + lia.
      + rewrite wadd_small by lia. lia. }
  6: { (* R6: depart *) injection H as <- <-.
    assert (X0 := cnt_upd (inR 0) (th st) t Idle n Ht).
    assert (X1 := cnt_upd (inR 1) (th st) t Idle n Ht).
    assert (L0 := cnt_le (inR 0) (th st) n).
    assert (L1 := cnt_le (inR 1) (th st) n).
    rewrite Hp in X0, X1. cbn [inR] in X0, X1.
    constructor; prj.
    - intros t0 Hle. rewrite upd_other by lia. apply (c_idle _ _ HC); exact Hle.
    - destruct HRB as [->| ->]; cmp; rewrite (c_0 _ _ HC).
      + rewrite wsub_small by lia. lia.
      + lia.
    - destruct HRB as [->| ->]; cmp; rewrite (c_1 _ _ HC).
      + lia.
      + rewrite wsub_small by lia. lia. }
  (* every other step keeps the thread on the same side of R3..R6 and the indicators as they are *)
  all: try (destruct o); try (destruct (mutex (sh st)); [discriminate|]); injection H as <- <-;
    try (destruct (_ =? 0));
    (apply C_same; [exact HC|exact Ht|rewrite Hp; reflexivity|rewrite Hp; reflexivity|fld|fld]).
Qed.

(** * 6. The reader-side invariant *)

(** in writer phase [q] a reader that arrived on indicator [v] may still use the instance
    that [lr] no longer designates *)
Definition old_ok (q : pc) (v : N) : Prop :=
  match q with
  | U5 _ _ | U6 _ _ _ | U6y _ _ _ => True
  | U7 _ _ cv | U8 _ _ cv | U8y _ _ cv => v = N.land cv 1
  | _ => False
  end.

(** a reader that arrived on indicator [v] may be using instance [i] *)
Definition may_use (s : shared) (q : pc) (v i : N) : Prop := i = lr s \/ old_ok q v.

Definition Rinv (s : shared) (g : list N) (q r : pc) : Prop :=
  match r with
  | R4 v i => may_use s q v i
  | R5 v i x => may_use s q v i /\ x = get_x s i
  | R6 v x y => x = y /\ (x = sumw g \/ (old_ok q v /\ x = sumw (removelast g)))
  | _ => True
  end.

(** The instance a reader may use is not being written: its two fields agree, and hold the sum of
    all published updates, or of all but the last one while the writer still waits for old readers. *)
Lemma may_use_inst s g q v i :
  bit (lr s) -> Winv s g q -> bit i -> may_use s q v i ->
  get_y s i = get_x s i /\
  (get_x s i = sumw g \/ (old_ok q v /\ get_x s i = sumw (removelast g))).
Proof.
  intros HL HW Hi Hu.
  (* after the lr store: [other l] = [lr] holds the new pair, [l] the previous one *)
  assert (Hpost : forall l, lr s = other l -> bit l ->
            insts s (other l) (sumw g) (sumw g) l (sumw (removelast g)) (sumw (removelast g)) ->
            get_y s i = get_x s i /\
            (get_x s i = sumw g \/ (old_ok q v /\ get_x s i = sumw (removelast g)))).
  { intros l Hl Hb (Ha & Hb' & Hc & Hd). destruct Hu as [->|Ho].
    - rewrite Hl, Ha, Hb'. auto.
    - destruct (bit_cases i l Hi Hb) as [->| ->]; [rewrite Hc, Hd|rewrite Ha, Hb']; auto. }
  destruct q; cbn [Winv] in HW; try contradiction; unfold may_use in Hu; cbn [old_ok] in Hu.
  (* the writer phases are left, in constructor order: Idle, U1 .. U11 *)
  1,2,14: (* Idle, U1, U11 *) destruct (four_get _ _ i HW) as [-> ->]; auto.
  4-10: (* U5 .. U9 *) apply (Hpost l); apply HW.
  - (* U2 *) destruct (four_get _ _ i (proj2 HW)) as [-> ->]. auto.
  - (* U3 *) destruct HW as (-> & _ & _ & Hc & Hd). destruct Hu as [->|[]]. rewrite Hc, Hd. auto.
  - (* U4 *) destruct HW as (-> & _ & _ & Hc & Hd). destruct Hu as [->|[]]. rewrite Hc, Hd. auto.
  - (* U10 *) destruct HW as (Hl & _ & _ & Ha & Hb & _). destruct Hu as [->|[]]. rewrite Hl, Ha, Hb. auto.
Qed.

Lemma Rinv_set_ind s g q r i v : Rinv (set_ind s i v) g q r <-> Rinv s g q r.
Proof. unfold set_ind. destruct (i =? 0); destruct r; reflexivity. Qed.

Lemma Rinv_wpc s g q p : wpc p = true -> Rinv s g q p.
Proof. destruct p; try discriminate; intros _; exact I. Qed.

(** The writer moves from phase [q] to [q'] without publishing: [Rinv] reads [lr], [old_ok] at the
    reader's own indicator and the x field of an instance the reader may use. *)
Lemma Rinv_frame s g q s' q' r :
  lr s' = lr s ->
  (forall v, inR v r = true -> old_ok q v -> old_ok q' v) ->
  (forall v i, may_use s q v i -> get_x s' i = get_x s i) ->
  Rinv s g q r -> Rinv s' g q' r.
Proof.
  intros Hl Ho Hx.
  assert (Hu : forall v i, inR v r = true -> may_use s q v i -> may_use s' q' v i).
  { intros v i Hv [->|H]; [left; symmetry; exact Hl|right; apply Ho; assumption]. }
  destruct r; cbn [Rinv inR] in *; try exact (fun H => H).
  - intros H. apply Hu; [apply N.eqb_refl|exact H].
  - intros [H ->]. split; [apply Hu; [apply N.eqb_refl|exact H]|symmetry; apply (Hx v); exact H].
  - intros [E [H|[H1 H2]]]; (split; [exact E|]); [left; exact H|right].
    split; [apply Ho; [apply N.eqb_refl|exact H1]|exact H2].
Qed.

(** The lr store publishes update [d]: what was the sum of all updates is now the previous sum, and
    every reader inside is an old reader. *)
Lemma Rinv_publish s g d l r :
  Rinv s g (U4 d l) r -> Rinv (set_lr s (other l)) (g ++ [d]) (U5 d l) r.
Proof.
  destruct r; cbn [Rinv]; try exact (fun H => H).
  - intros _. right. exact I.
  - intros [_ ->]. split; [right; exact I|reflexivity].
  - intros [E [->|[[] _]]]. split; [exact E|]. right. rewrite removelast_last. split; [exact I|reflexivity].
Qed.

Lemma inR_bit r v : rbits r -> inR v r = true -> bit v.
Proof.
  destruct r; cbn [rbits inR]; try discriminate; intros Hb E; apply N.eqb_eq in E; subst; tauto.
Qed.

Lemma no_reader n st j :
  CInv n st -> bit j -> get_ind (sh st) j = 0 -> forall r, inR j (th st r) = false.
Proof.
  intros HC Hj H0 r. destruct (Nat.lt_ge_cases r n) as [Hlt|Hge].
  - assert (X0 := c_0 _ _ HC). assert (X1 := c_1 _ _ HC).
    destruct Hj; subst j; cmp; (eapply cnt_zero; [|exact Hlt]); lia.
  - rewrite (c_idle _ _ HC r Hge). reflexivity.
Qed.

Definition RAll (st : state) : Prop :=
  forall r, Rinv (sh st) (g_updates st) (wphase st) (th st r).

Lemma R_nonwriter st t q p s' :
  J st -> RAll st -> th st t = q -> wpc q = false ->
  (s' = sh st \/ exists i v, s' = set_ind (sh st) i v) ->
  Rinv (sh st) (g_updates st) (wphase st) p ->
  RAll (mkSt s' (upd (th st) t p) (g_updates st)).
Proof.
  intros HJ HR <- Hw Hs Hp r. prj.
  assert (Hm : mutex s' = mutex (sh st)) by (destruct Hs as [->|(i & v & ->)]; [reflexivity|apply ctl_set_ind]).
  assert (Hnt : mutex (sh st) <> Some t).
  { intros E. apply (j_mut2 _ HJ) in E. congruence. }
  rewrite wphase_other by assumption.
  assert (X : Rinv (sh st) (g_updates st) (wphase st) (upd (th st) t p r)).
  { destruct (Nat.eq_dec r t) as [->|Hne]; [rewrite upd_same; exact Hp|rewrite upd_other by exact Hne; apply HR]. }
  destruct Hs as [->|(i & v & ->)]; [exact X|apply Rinv_set_ind; exact X].
Qed.

Lemma R_writer st t q p s' g' :
  J st -> RAll st -> th st t = q -> wpc q = true -> wpc p = true -> mutex s' = mutex (sh st) ->
  (forall r, Rinv (sh st) (g_updates st) q (th st r) -> Rinv s' g' p (th st r)) ->
  RAll (mkSt s' (upd (th st) t p) g').
Proof.
  intros HJ HR <- Hw Hp Hm Hstep r. prj.
  assert (Ht : mutex (sh st) = Some t) by (apply (j_mut1 _ HJ); exact Hw).
  rewrite wphase_new_holder by congruence.
  destruct (Nat.eq_dec r t) as [->|Hne].
  - rewrite upd_same. apply Rinv_wpc; exact Hp.
  - rewrite upd_other by exact Hne. apply Hstep.
    specialize (HR r). rewrite (wphase_holder _ _ Ht) in HR. exact HR.
Qed.

Lemma R_init : RAll init.
Proof. intros r. exact I. Qed.

Lemma R_step n st a st' es :
  J st -> CInv n st -> RAll st -> bstep n st a = Some (st', es) -> RAll st'.
Proof.
  intros HJ HC HR H. apply bstep_step in H. destruct H as [H _].
  destruct a as [t o|t]; cbn [step] in H.
  { destruct (th st t) eqn:Hp; try discriminate. injection H as <- <-.
    eapply R_nonwriter; eauto. exact I. }
  assert (HL := j_lr _ HJ). assert (HRB := j_rb _ HJ t). assert (HRt := HR t). assert (HW := j_w _ HJ).
  destruct (th st t) eqn:Hp; try discriminate;
    try (assert (Ht : mutex (sh st) = Some t) by (apply (j_mut1 _ HJ); rewrite Hp; reflexivity);
         rewrite (wphase_holder _ _ Ht), Hp in HW; cbn [Winv] in HW);
    cbn [rbits Rinv] in HRB, HRt; cbv beta iota zeta in H; try (injection H as <- <-).
  - (* Begin *) destruct o; injection H as <- <-; eapply R_nonwriter; eauto.
  - (* R1 *) eapply R_nonwriter; eauto.
  - (* R2 *) eapply R_nonwriter; eauto.
  - (* R3 *) eapply R_nonwriter; eauto. left. reflexivity.
  - (* R4 *) eapply R_nonwriter; eauto. split; [exact HRt|reflexivity].
  - (* R5 *) eapply R_nonwriter; eauto. destruct HRt as [Hu ->].
    destruct (may_use_inst _ _ _ v i HL HW (proj2 HRB) Hu) as [Hy Hx]. split; [symmetry; exact Hy|exact Hx].
  - (* R6 *) eapply R_nonwriter; eauto. exact I.
  - (* U0: lock *)
    destruct (mutex (sh st)) eqn:Hm; try discriminate. injection H as <- <-.
    intros r. unfold wphase; prj. unfold set_mutex; prj. rewrite upd_same.
    destruct (Nat.eq_dec r t) as [->|Hne]; [rewrite upd_same; exact I|].
    rewrite upd_other by exact Hne. specialize (HR r). rewrite (wphase_free _ Hm) in HR. exact HR.
  - (* U1 *) eapply R_writer; eauto.
  - (* U2 *) destruct HW as [-> _]. eapply R_writer; eauto; [apply ctl_set_x|].
    intros r. apply Rinv_frame; [apply lr_set_x|intros v _ Hf; exact Hf|].
    intros v i [->|[]]. apply get_x_set_x.
  - (* U3 *) eapply R_writer; eauto; [apply ctl_set_y|].
    intros r. apply Rinv_frame; [apply lr_set_y|intros v _ Hf; exact Hf|]. intros v i _. apply get_x_set_y.
  - (* U4 *) eapply R_writer; eauto. intros r. apply Rinv_publish.
  - (* U5 *) eapply R_writer; eauto.
  - (* U6: no reader is left on the other indicator *)
    destruct (get_ind (sh st) (N.land (wadd 32 cv 1) 1) =? 0) eqn:E; eapply R_writer; eauto.
    apply N.eqb_eq in E. intros r. apply Rinv_frame; [reflexivity| |reflexivity].
    intros v Hv _. apply bit_next; [apply (inR_bit (th st r)); [apply (j_rb _ HJ)|exact Hv]|apply HW|].
    intros ->. rewrite (no_reader _ _ _ HC (bit_land1 _) E) in Hv. discriminate.
  - (* U6y *) eapply R_writer; eauto.
  - (* U7 *) eapply R_writer; eauto.
  - (* U8: no reader is left on the first indicator either *)
    destruct (get_ind (sh st) (N.land cv 1) =? 0) eqn:E; eapply R_writer; eauto.
    apply N.eqb_eq in E. intros r. apply Rinv_frame; [reflexivity| |reflexivity].
    intros v Hv ->. rewrite (no_reader _ _ _ HC (bit_land1 _) E) in Hv. discriminate.
  - (* U8y *) eapply R_writer; eauto.
  - (* U9 *) eapply R_writer; eauto; [apply ctl_set_x|].
    intros r. apply Rinv_frame; [apply lr_set_x|intros v _ Hf; exact Hf|].
    intros v i [->|[]]. rewrite (proj1 HW). apply get_x_set_x.
  - (* U10 *) eapply R_writer; eauto; [apply ctl_set_y|].
    intros r. apply Rinv_frame; [apply lr_set_y|intros v _ Hf; exact Hf|]. intros v i _. apply get_x_set_y.
  - (* U11: unlock *)
    intros r. unfold wphase; prj. unfold set_mutex; prj.
    destruct (Nat.eq_dec r t) as [->|Hne]; [rewrite upd_same; exact I|].
    rewrite upd_other by exact Hne. specialize (HR r). rewrite (wphase_holder _ _ Ht), Hp in HR. exact HR.
Qed.

(** * 7. The combined invariant on runs in which only threads with id < n act, n < 2^64 *)

Theorem inv_breach n st : N.of_nat n < 2 ^ 64 -> reach init (bstep n) st -> J st /\ CInv n st /\ RAll st.
Proof.
  intros Hn. revert st. apply (inv_rule _ _ _ init (bstep n) (fun st => J st /\ CInv n st /\ RAll st)).
  - split; [exact J_init|split; [apply C_init|exact R_init]].
  - intros s a s' es (HJ & HC & HR) H. split; [|split].
    + apply bstep_step in H. eapply J_step; [exact HJ|apply H].
    + eapply C_step; eauto.
    + eapply R_step; eauto.
Qed.

(** runs of the unrestricted model whose actions only name threads below [n] are bounded runs *)
Lemma run_bstep n acts : Forall (fun a => (tid a < n)%nat) acts ->
  forall s, run (bstep n) s acts = run step s acts.
Proof.
  induction 1 as [|a acts Ha _ IH]; intros s; cbn [run]; [reflexivity|].
  unfold bstep at 1. destruct (Nat.ltb_spec (tid a) n); [|lia].
  destruct (step s a) as [[s' es]|]; rewrite IH; reflexivity.
Qed.

Lemma run_breach n acts : Forall (fun a => (tid a < n)%nat) acts ->
  reach init (bstep n) (fst (fst (run step init acts))).
Proof. intros H. rewrite <- (run_bstep n acts H). apply run_reach. Qed.

(** * 8. Readers never use the instance an update functor is modifying *)

Theorem lr_exclusion n st : N.of_nat n < 2 ^ 64 -> reach init (bstep n) st ->
  forall r w v i, (th st r = R4 v i \/ exists x, th st r = R5 v i x) ->
  forall d l, ((th st w = U2 d l \/ th st w = U3 d l) -> other l <> i) /\
              ((th st w = U9 d l \/ th st w = U10 d l) -> l <> i).
Proof.
  intros Hn Hr r w v i Hrd d l. destruct (inv_breach _ _ Hn Hr) as (HJ & HC & HR).
  assert (HW := j_w _ HJ). specialize (HR r).
  assert (Hi : may_use (sh st) (wphase st) v i).
  { destruct Hrd as [E|[x E]]; rewrite E in HR; [exact HR|apply HR]. }
  clear HR Hrd.
  assert (Hph : forall p, th st w = p -> wpc p = true -> wphase st = p).
  { intros p E Hp. rewrite <- E in Hp. apply (j_mut1 _ HJ) in Hp. rewrite (wphase_holder _ _ Hp). exact E. }
  split; intros [E|E]; rewrite (Hph _ E eq_refl) in *; destruct HW as [E1 _]; destruct Hi as [->|[]].
  - rewrite <- E1. apply other_neq.
  - rewrite <- E1. apply other_neq.
  - rewrite E1. intros E2. symmetry in E2. exact (other_neq _ E2).
  - rewrite E1. intros E2. symmetry in E2. exact (other_neq _ E2).
Qed.

(** * 9. A read never returns a mixture *)

Theorem lr_read_consistent n st : N.of_nat n < 2 ^ 64 -> reach init (bstep n) st ->
  forall r v x y, th st r = R6 v x y -> x = y.
Proof.
  intros Hn Hr r v x y E. destruct (inv_breach _ _ Hn Hr) as (HJ & HC & HR).
  specialize (HR r). rewrite E in HR. apply HR.
Qed.

(** * 10. The value a read sees is the sum of a prefix of the update history that misses at most
    the last update *)

Definition recent (g : list N) (x : N) : Prop :=
  exists k, (length g - 1 <= k <= length g)%nat /\ x = sumw (firstn k g).

Lemma recent_all g : recent g (sumw g).
Proof. exists (length g). split; [lia|]. rewrite firstn_all. reflexivity. Qed.

Lemma recent_prev g : recent g (sumw (removelast g)).
Proof.
  exists (pred (length g)). split; [lia|]. rewrite removelast_firstn_len. reflexivity.
Qed.

Theorem lr_read_value n st : N.of_nat n < 2 ^ 64 -> reach init (bstep n) st ->
  forall r,
  match th st r with
  | R4 v i => recent (g_updates st) (get_x (sh st) i)
  | R5 v i x => x = get_x (sh st) i /\ recent (g_updates st) x
  | R6 v x y => recent (g_updates st) x /\ y = x
  | _ => True
  end.
Proof.
  intros Hn Hr r. destruct (inv_breach _ _ Hn Hr) as (HJ & HC & HR).
  specialize (HR r). assert (Hb := j_rb _ HJ r). assert (HL := j_lr _ HJ). assert (HW := j_w _ HJ).
  destruct (th st r); try exact I; cbn [Rinv rbits] in *.
  - destruct (may_use_inst _ _ _ v i HL HW (proj2 Hb) HR) as [_ [->|[_ ->]]];
      [apply recent_all|apply recent_prev].
  - destruct HR as [HR ->]. split; [reflexivity|].
    destruct (may_use_inst _ _ _ v i HL HW (proj2 Hb) HR) as [_ [->|[_ ->]]];
      [apply recent_all|apply recent_prev].
  - destruct HR as [<- [->|[_ ->]]]; (split; [|reflexivity]); [apply recent_all|apply recent_prev].
Qed.

(** the same on executable runs of the unrestricted model *)
Corollary lr_exclusion_run n acts : N.of_nat n < 2 ^ 64 -> Forall (fun a => (tid a < n)%nat) acts ->
  let st := fst (fst (run step init acts)) in
  forall r w v i, (th st r = R4 v i \/ exists x, th st r = R5 v i x) ->
  forall d l, ((th st w = U2 d l \/ th st w = U3 d l) -> other l <> i) /\
              ((th st w = U9 d l \/ th st w = U10 d l) -> l <> i).
Proof. intros Hn Ha. apply (lr_exclusion n); [exact Hn|apply run_breach; exact Ha]. Qed.
