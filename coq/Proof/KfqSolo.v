(** kirsch_kfifo_queue (C06, unbounded): a pop that runs alone from a state in which every other thread is between
    operations terminates, within (distance of the head and tail segment numbers + 1) * (k + 12) steps, for every
    way of choosing the random start offsets; together with Proof/KfqSeq.v this gives the sequential clause of
    C06 ("'empty' exactly when the queue is empty if no operation runs concurrently").  No axioms, no admits. *)
From Coq Require Import NArith List Bool Lia PeanoNat Arith ZifyBool ZifyNat ZifyN.
From XV Require Import Base.Word Conc.Lts Conc.Ev Model.KfqDefs.
From XV Require Import Proof.KfqStep Proof.KfqWf Proof.KfqOwn Proof.KfqRegion Proof.KfqSeg Proof.KfqCons Proof.KfqCall Proof.KfqSeq.
Import ListNotations.
Local Open Scope N_scope.

Lemma iw_eqb_refl w : iw_eqb w w = true.
Proof. destruct (iw_eqb_spec w w); congruence. Qed.

Set Default Proof Using "All".
Section Solo.
  Variable k : N.
  Hypothesis Hk : 1 <= k.
  Notation step := (step k).
  Variable u : nat.
  Notation K := (N.to_nat k).

  (** the local values of the pop are up to date (nobody else moves) *)
  Definition curk (s : state) (c : cont) : Prop :=
    match c with KPop hd j q tg => slot s (fst hd) j = (q, tg) | KPush _ => False end.
  Definition cur (s : state) (p : pc) : Prop :=
    match p with
    | Idle | Begin OPop | D1 => True
    | D1f hd | D2n hd | D3n hd => hd = head s
    | DF hd ri i => hd = head s /\ i < k
    | D2 hd j q tg | D3 hd j q tg => hd = head s /\ slot s (fst hd) j = (q, tg)
    | D4 hd j q tg => slot s (fst hd) j = (q, tg)
    | DE hd tl => hd = head s /\ tl = tail s
    | H1 hd tl | H2 hd tl _ => hd = head s /\ fst hd <> fst tl
    | H6 hd _ | H7 hd _ => hd = head s
    | A1 c tl => tl = tail s /\ curk s c
    | A2 c tl nx => tl = tail s /\ nx = nxt s (fst tl) /\ curk s c
    | A4 c tl nx n => nxt s (fst tl) = nx /\ curk s c
    | A3 c tl nx | A5 c tl nx => curk s c
    | _ => False
    end.

  Definition W : nat := (K + 12)%nat.
  Definition dist (s : state) : nat := N.to_nat (fst (tail s) - fst (head s)).
  Definition mu (s : state) : nat :=
    match th s u with
    | Begin _ => dist s * W + K + 11
    | D1 => dist s * W + K + 10
    | D1f _ => dist s * W + K + 9
    | DF _ _ i => dist s * W + N.to_nat (k - i) + 8
    | D2 _ _ _ _ => 8
    | D3 _ _ _ _ => 7
    | A1 _ _ => 6
    | A2 _ _ _ => 5
    | A4 _ _ _ _ => 3
    | A3 _ _ _ | A5 _ _ _ => 2
    | D4 _ _ _ _ | DE _ _ => 1
    | D2n _ => dist s * W + 7
    | D3n _ => dist s * W + 6
    | H1 _ _ => dist s * W + 5
    | H2 _ _ _ => dist s * W + 4
    | H6 _ _ => dist s * W + 3
    | H7 _ _ => dist s * W + 2
    | _ => 0
    end%nat.

  Definition PS (s : state) : Prop := reach init step s /\ (forall t, t <> u -> th s t = Idle) /\ cur s (th s u).

  Lemma solo_progress s : PS s -> th s u <> Idle ->
    forall r, exists s' es, step s (Step u r) = Some (s', es) /\ PS s' /\ (mu s' < mu s)%nat.
  Proof.
    intros (Hr & Hq & Hc) Hni r.
    pose proof (InvA_reach k Hk s Hr) as IA. pose proof (a_th k s IA u) as Hme.
    assert (Hgoal : exists s' es, step s (Step u r) = Some (s', es) /\ (forall t, t <> u -> th s' t = Idle) /\ cur s' (th s' u) /\ (mu s' < mu s)%nat).
    { unfold mu at 2. unfold KfqDefs.step.
      destruct (th s u) eqn:E; try contradiction; try (match goal with o : op |- _ => destruct o end); cbn [cur curk] in Hc; try contradiction;
        try (destruct c; cbn [curk] in Hc; try tauto); cbn [TA] in Hme.
      all: repeat match goal with
        | |- context [if iw_eqb ?a ?b then _ else _] => destruct (iw_eqb_spec a b)
        | |- context [if sw_eqb ?a ?b then _ else _] => destruct (sw_eqb_spec a b)
        | |- context [if negb (?a =? ?b) then _ else _] => destruct (N.eqb_spec a b); cbn [negb]
        | |- context [if ?a =? ?b then _ else _] => destruct (N.eqb_spec a b)
        | |- context [if ?a <? ?b then _ else _] => destruct (N.ltb_spec a b)
        end.
      all: eexists _, _; (split; [reflexivity|]); (split; [intros t0 Ht0; sim; rewrite upd_other by exact Ht0; apply Hq; exact Ht0|]).
      all: unfold mu, dist, W; sim; rewrite upd_same; cbn [cur curk kpc]; sim.
      all: try (split; [|lia]).
      all: try tauto.
      all: try (exfalso; intuition congruence; fail).
      - destruct Hc as (A & B & C). split; [symmetry; exact B|exact C].
      - split; [exact Hc|lia].
      - destruct Hc as [A B]. split; [split; [exact A|destruct (slot s (fst hd) (fidx k ri i)); reflexivity]|nia].
      - split; [split; [exact Hc|reflexivity]|nia].
      - split; [exact Logic.I|]. destruct Hme as ((A & B & C & D & D') & F). subst hd.
        destruct (head_succ k Hk s IA C) as (n & Q & _ & (Hlt & Hle) & _). rewrite D, Q. cbn [fst].
        assert (N.to_nat (fst (tail s) - n) < N.to_nat (fst (tail s) - fst (head s)))%nat by lia. nia. }
    destruct Hgoal as (s' & es & Hst & A & B & C). exists s', es. split; [exact Hst|]. split; [|exact C].
    split; [eapply reach_step; eauto|]. split; assumption.
  Qed.

  (** [solof f n s0 s]: s is reached from s0 by n steps of u, the random start offsets chosen by f *)
  Inductive solof (f : state -> N) (s0 : state) : nat -> state -> Prop :=
  | sf_refl : solof f s0 0 s0
  | sf_step n s s' es : solof f s0 n s -> th s u <> Idle -> step s (Step u (f s)) = Some (s', es) -> solof f s0 (S n) s'.

  Lemma solof_solo f s0 n s : solof f s0 n s -> solo k u s0 s.
  Proof. induction 1; [apply solo_refl|eapply solo_step; eauto]. Qed.

  Lemma solo_terminates f s0 : forall m s n0, (mu s <= m)%nat -> PS s -> solof f s0 n0 s ->
    exists n s', (n <= n0 + m)%nat /\ solof f s0 n s' /\ th s' u = Idle.
  Proof.
    assert (Hdec : forall p : pc, p = Idle \/ p <> Idle) by (intros p; destruct p; auto; right; discriminate).
    induction m as [|m IH]; intros s n0 Hm HP Hs.
    - destruct (Hdec (th s u)) as [E|E]; [exists n0, s; split; [lia|split; [exact Hs|exact E]]|].
      exfalso. destruct (solo_progress s HP E 0) as (s' & es & _ & _ & Hlt). lia.
    - destruct (Hdec (th s u)) as [E|E]; [exists n0, s; split; [lia|split; [exact Hs|exact E]]|].
      destruct (solo_progress s HP E (f s)) as (s' & es & Hst & HP' & Hlt).
      assert (Hs' : solof f s0 (S n0) s') by (eapply sf_step; eauto).
      destruct (IH s' (S n0) ltac:(lia) HP' Hs') as (n & s2 & A & B & C).
      exists n, s2. split; [lia|split; assumption].
  Qed.

  Definition kfq_pop_bound (s0 : state) : nat := ((N.to_nat (fst (tail s0) - fst (head s0)) + 1) * (K + 12))%nat.

  (** termination of a pop that runs alone *)
  Theorem kfq_solo_pop_terminates s0 f : reach init step s0 -> th s0 u = Begin OPop -> (forall t, t <> u -> th s0 t = Idle) ->
    exists n s, (n <= kfq_pop_bound s0)%nat /\ solof f s0 n s /\ th s u = Idle.
  Proof.
    intros Hr Hb Hq.
    assert (HP : PS s0) by (split; [exact Hr|split; [exact Hq|rewrite Hb; exact Logic.I]]).
    destruct (solo_terminates f s0 (mu s0) s0 0%nat (le_n _) HP (sf_refl f s0)) as (n & s & A & B & C).
    exists n, s. split; [|split; assumption]. unfold kfq_pop_bound. unfold mu, dist, W in A. rewrite Hb in A. lia.
  Qed.

  (** The sequential clause of C06: a pop that runs alone from a state in which every other thread is between operations
      returns within [kfq_pop_bound] steps, and it answers 'empty' if and only if no committed value is in the queue. *)
  Theorem kfq_sequential_pop s0 f : reach init step s0 -> th s0 u = Begin OPop -> (forall t, t <> u -> th s0 t = Idle) ->
    exists n s s' es res, (n < kfq_pop_bound s0)%nat /\ solof f s0 n s /\ step s (Step u (f s)) = Some (s', es) /\
      th s' u = Idle /\ In (ERet u res) es /\ (res = [2] <-> empty_at s0).
  Proof.
    intros Hr Hb Hq. destruct (kfq_solo_pop_terminates s0 f Hr Hb Hq) as (n & s' & Hn & Hs & Hi).
    inversion Hs as [|n' s s2 es Hs' Hni Hst]; subst.
    - rewrite Hb in Hi. discriminate.
    - assert (Hso : solo k u s0 s) by (eapply solof_solo; eauto).
      destruct (solo_inv k Hk u s0 s Hb Hq Hso) as [Q|(_ & B & _)]; [contradiction|].
      destruct (pop_step_frame k Hk u s (f s) s' es Hst B) as [(res & R1 & _)|(_ & P1 & _)]; [|rewrite Hi in P1; contradiction].
      exists n', s, s', es, res. split; [lia|]. split; [exact Hs'|]. split; [exact Hst|]. split; [exact Hi|]. split; [exact R1|].
      exact (kfq_solo_pop_verdict k Hk u s0 s (f s) s' es res Hr Hb Hq Hso Hst R1).
  Qed.
End Solo.
