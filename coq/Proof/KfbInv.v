(** kirsch_bounded_kfifo_queue (C06): the full verdict, slot histories, the (index, tag) word tie to the
    generated marked_idx, the premature-full schedule (refuted clause of C06), examples.
    The invariant layers are Proof/KfbWf, KfbOwn, KfbRing, KfbRegion; conservation in Proof/KfbCons,
    call-level theorems in Proof/KfbCall, solo termination in Proof/KfbSolo.  No axioms, no admits. *)
From Coq Require Import NArith List Bool Lia PeanoNat.
From XV Require Import Base.Word Conc.Lts Conc.Ev Model.KfbDefs gen.KirschIdxGen Proof.KirschIdx.
From XV Require Import Proof.KfbArith Proof.KfbWf Proof.KfbOwn Proof.KfbRing Proof.KfbRegion Proof.KfbMono Proof.KfbCons Proof.KfbCall.
Import ListNotations.
Local Open Scope N_scope.

Set Default Proof Using "All".
Section More.
  Variables k segs : N.
  Hypothesis Hk : 1 <= k.
  Hypothesis Hs : 1 <= segs.
  Notation step := (step k segs).
  Notation sg := (sg k).
  Notation qsize := (qsize k segs).
  Notation dist := (dist segs).
  Notation hs := (hs k).
  Notation ts := (ts k).
  Notation Inv := (Inv k segs).

  (** * The 'full' verdict *)

  Lemma full_step u s a s' es : step s a = Some (s', es) -> In (ERet u [0]) es ->
    exists r b tl hd, a = Step u r /\ th s u = PH b tl hd /\ head s = hd.
  Proof.
    intros Hst Hin.
    destruct a as [t o|t r]; [unfold KfbDefs.step in Hst; destruct (th s t); try discriminate; injection Hst as <- <-; destruct Hin|].
    destruct (step_inv k segs s _ s' es Hst) as (r0 & p & s1 & p' & res & <- & _ & _ & Htr & Hret).
    destruct (Hret u [0] Hin) as [-> ->]. cbn [tid] in Htr.
    destruct Htr as [[_ Htr]|Htr]; inversion Htr; subst. eexists _, _, _, _. split; [reflexivity|]. split; [symmetry; eassumption|reflexivity].
  Qed.

  (** What a 'full' answer guarantees at the instant of its final re-check of head: the ring has no
      free segment (the segment after the tail segment is the head segment), head has not changed
      since try_push read it, and the rejected value is not in the queue.
      FULL STATEMENT (C06): try_push answers 'full' only if at least (segs-1)*k+1 values were stored
      at some instant of the call (never on an empty queue).  This is FALSE for the code and the
      model (recorded finding C06-kfb-premature-full-after-rollback): slots holding insertions that
      are not (and will never be) committed count as occupied, [kfb_premature_full_refuted]. *)
  Theorem kfb_full_verdict_partial u s a s' es :
    reach init step s -> step s a = Some (s', es) -> In (ERet u [0]) es ->
    exists r b tl hd, a = Step u r /\ th s u = PH b tl hd /\ head s = hd /\
      (fst (tail s) + k) mod qsize = fst (head s) /\ dist (hs s) (ts s) = segs - 1 /\
      ~ In b (g_in s) /\ (forall j, fst (slot s j) <> b).
  Proof.
    intros Hr Hst Hin. destruct (full_step u s a s' es Hst Hin) as (r & b & tl & hd & -> & Hpc & Hh).
    exists r, b, tl, hd. split; [reflexivity|]. split; [exact Hpc|]. split; [exact Hh|].
    destruct (Inv_reach k segs Hk Hs s Hr) as ((Hwh & Hwt & _ & _) & I2 & H3 & _).
    pose proof (H3 u) as T3. rewrite Hpc in T3. cbn [KfbRing.T3] in T3. specialize (T3 Hh).
    pose proof (i_th s I2 u) as HT2. rewrite Hpc in HT2. unfold KfbOwn.T2, T2' in HT2. cbn [cinfo pblock] in HT2.
    split; [|split; [exact T3|exact HT2]].
    apply (adv_full k segs Hk Hs); assumption.
  Qed.

  (** * Slot histories: the tag of a slot counts its changes, its content is the last insertion *)
  Definition cur (l : list hev) : N := match rev l with HIns b :: _ => b | _ => 0 end.
  Definition InvH (st : state) : Prop :=
    forall j, snd (slot st j) = N.of_nat (length (g_hist st j)) /\ fst (slot st j) = cur (g_hist st j).

  Lemma cur_snoc l e : cur (l ++ [e]) = match e with HIns b => b | _ => 0 end.
  Proof. unfold cur. rewrite rev_unit. reflexivity. Qed.

  Theorem kfb_hist_inv st : reach init step st -> InvH st.
  Proof.
    apply inv_rule; [intros j; split; reflexivity|].
    intros s a s' es IH Hst.
    destruct (step_inv k segs s a s' es Hst) as (r & p & s1 & p' & res & _ & -> & _ & [[-> _]|Hwr] & _); [exact IH|].
    destruct Hwr; try exact IH.
    all: intros j0; sim; unfold setf; destruct (N.eqb_spec j0 j) as [->|Hn]; [|apply IH].
    all: destruct (IH j) as [A B]; rewrite H in A; cbn [fst snd] in *; rewrite app_length, cur_snoc; cbn [length]; split; [lia|reflexivity].
  Qed.

  (** * The (index, tag) words: comparing pairs is comparing the 64-bit words *)
  Hypothesis Hq : k * segs < 2 ^ 32.

  Lemma head_idx_small st : reach init step st -> fst (head st) < 2 ^ 32 /\ fst (tail st) < 2 ^ 32.
  Proof.
    intros Hr. destruct (Inv_reach k segs Hk Hs st Hr) as ((Hwh & Hwt & _) & _).
    pose proof (wfi_lt k segs Hk Hs _ Hwh). pose proof (wfi_lt k segs Hk Hs _ Hwt). unfold KfbDefs.qsize in *. lia.
  Qed.

End More.

(** as long as index and tag are below 2^32 the printed / compared 64-bit word determines the (index, tag)
    pair: comparing pairs, as the model does, is comparing the words, as the code does (generated
    [mk_idx], [C06_marked_idx_roundtrip]) *)
Lemma iwv_inj (a b : iw) : fst a < 2 ^ 32 -> fst b < 2 ^ 32 -> snd a < 2 ^ 32 -> snd b < 2 ^ 32 ->
  mk_idx (fst a) (snd a) = mk_idx (fst b) (snd b) -> a = b.
Proof.
  intros A1 B1 A2 B2 E.
  destruct (idx_roundtrip (fst a) (snd a) A1 A2) as [X1 X2].
  destruct (idx_roundtrip (fst b) (snd b) B1 B2) as [Y1 Y2].
  destruct a, b. cbn [fst snd] in *. rewrite E in X1, X2. congruence.
Qed.


(** * The known finding: 'full' although fewer than (segs-1)*k+1 values are stored *)
Definition steps (t : nat) (n : nat) : list action := repeat (Step t 0) n.
Definition st_of (k segs : N) (acts : list action) : state := fst (fst (run (step k segs) init acts)).
Definition tr_of (k segs : N) (acts : list action) : list ev := snd (fst (run (step k segs) init acts)).
Definition committed_stored (st : state) : nat := (length (g_in st) - length (g_out st))%nat.

(** k = 1, two segments.  T1's push inserts its value into slot 0 and stops before [committed];
    T2's push finds segment 0 occupied, advances tail, inserts into slot 1 and commits; T3's push
    finds the tail segment occupied, tail + k == head, the head segment not empty (T1's
    uncommitted value) and head unchanged: it answers 'full'.  T1 then takes its value back. *)
Definition ex_full : list action :=
  Start 1%nat (OPush 1) :: steps 1 6 ++
  Start 2%nat (OPush 6) :: steps 2 15 ++
  Start 3%nat (OPush 3) :: steps 3 8.
Definition ex_full_back : list action := ex_full ++ steps 1 5.

Lemma kfb_premature_full_refuted :
  In (ERet 3%nat [0]) (tr_of 1 2 ex_full) /\
  (forall n, (committed_stored (st_of 1 2 (firstn n ex_full)) <= 1)%nat) /\
  (1 < (2 - 1) * 1 + 1) /\
  g_hist (st_of 1 2 ex_full_back) 0 = [HIns 2; HBack 2] /\ th (st_of 1 2 ex_full_back) 1%nat = P1 2.
Proof.
  split; [vm_compute; tauto|]. split; [|split; [reflexivity|split; vm_compute; reflexivity]].
  intros n. destruct (Nat.le_gt_cases n (length ex_full)) as [H|H].
  - assert (Hall : forallb (fun m => Nat.leb (committed_stored (st_of 1 2 (firstn m ex_full))) 1) (seq 0 (S (length ex_full))) = true) by (vm_compute; reflexivity).
    rewrite forallb_forall in Hall. apply Nat.leb_le. apply Hall. apply in_seq. lia.
  - rewrite firstn_all2 by lia. vm_compute. lia.
Qed.

(** * Examples: reachable states computed with the executable model *)

(** a push on the empty queue: head == tail, the insertion is neither in the valid region nor
    outside of it, and committed() bumps the tag of head *)
Definition ex_bump : list action := Start 1%nat (OPush 7) :: steps 1 11.
Example ex_bump_state :
  let s := st_of 2 3 ex_bump in
  head s = (0, 1) /\ tail s = (0, 0) /\ slot s 0 = (2, 1) /\ g_in s = [2] /\ g_ok s = [2] /\ th s 1%nat = Idle.
Proof. vm_compute. repeat split. Qed.

(** k = 1, two segments, one thread: push, pop, push, pop -- the second pop advances head and moves
    the tail around the ring *)
Definition ex_wrap : list action :=
  Start 1%nat (OPush 1) :: steps 1 20 ++ Start 1%nat OPop :: steps 1 20 ++
  Start 1%nat (OPush 2) :: steps 1 20 ++ Start 1%nat OPop :: steps 1 20.
Example ex_wrap_state :
  let s := st_of 1 2 ex_wrap in
  head s = (1, 2) /\ tail s = (0, 2) /\ g_in s = [2; 3] /\ g_out s = [2; 3] /\ g_ok s = [2; 3] /\
  g_hist s 0 = [HIns 2; HTake 2] /\ g_hist s 1 = [HIns 3; HTake 3] /\ stored 1 2 s = [].
Proof. vm_compute. repeat split. Qed.

(** a pop takes a value whose pusher is still before committed(): the pop commits it, the pusher
    then sees a different slot word and answers true *)
Definition ex_pending : list action :=
  Start 1%nat (OPush 5) :: steps 1 6 ++ Start 2%nat OPop :: steps 2 7 ++ steps 1 1.
Example ex_pending_state :
  let s := st_of 1 1 ex_pending in
  g_in s = [2] /\ g_out s = [2] /\ g_ok s = [2] /\ slot s 0 = (0, 2) /\ th s 1%nat = Idle /\ th s 2%nat = Idle /\
  In (ERet 2%nat [1; 5]) (tr_of 1 1 ex_pending) /\ In (ERet 1%nat [1]) (tr_of 1 1 ex_pending).
Proof. vm_compute. repeat split; tauto. Qed.

(** the take-back of the premature-'full' schedule, continued to quiescence: T1 advances head over
    the segment it emptied itself, moves the tail around the ring and commits its value there *)
Definition ex_full_done : list action := ex_full_back ++ steps 1 40.
Example ex_full_done_state :
  let s := st_of 1 2 ex_full_done in
  th s 1%nat = Idle /\ head s = (1, 1) /\ tail s = (0, 2) /\ g_in s = [3; 2] /\ g_out s = [] /\ g_ok s = [3; 2] /\
  stored 1 2 s = [2; 3] /\ g_hist s 0 = [HIns 2; HBack 2; HIns 2].
Proof. vm_compute. repeat split. Qed.
