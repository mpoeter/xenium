(** vyukov_hash_map bucket model (Model/VhmDefs.v): the transitions of [step], listed once.
    A step of thread [t] at program point [p] is a load of a writer ([wload]: only [t]'s program point
    changes), a store or read-modify-write of a writer ([wstore]) or a step of try_get_value ([rstep]).
    The invariant layers analyse a step through [step_cases]. *)
From Coq Require Import NArith List Bool.
From XV Require Import Base.Word Conc.Lts Conc.Ev gen.BucketStateGen Model.VhmDefs.
Import ListNotations.
Local Open Scope N_scope.

(** loads, and the CAS / exchange that finds the lock taken *)
Inductive wload (st : state) : pc -> pc -> Prop :=
| ld_L1 a k v : wload st (L1 a k v) (L2 a k v)
| ld_L2 a k v : wload st (L2 a k v) (if bs_is_locked (bst st) then L1 a k v else L3 a k v (bst st))
| ld_L3 a k v s (Hcas : bst st <> s) : wload st (L3 a k v s) (L1 a k v)
| ld_IK a k v s i :
    wload st (IK a k v s i)
      (if akey st i =? k then (if a then IV a k v s i else IUold a k v s 0)
       else if i + 1 <? bs_item_count s then IK a k v s (i + 1)
       else if bs_item_count s <? C_bucket_item_count then ISK a k v s else IH a k v s)
| ld_IV a k v s i : wload st (IV a k v s i) (IUold a k v s (aval st i))
| ld_IH a k v s : wload st (IH a k v s) (if bhead st =? 0 then A1 a k v s false else IXK a k v s (bhead st))
| ld_IXK a k v s x :
    wload st (IXK a k v s x)
      (if xkey st x =? k then (if a then IXV a k v s x else IUold a k v s 0) else IXN a k v s x)
| ld_IXV a k v s x : wload st (IXV a k v s x) (IUold a k v s (xval st x))
| ld_IXN a k v s x :
    wload st (IXN a k v s x) (if xnext st x =? 0 then A1 a k v s false else IXK a k v s (xnext st x))
| ld_A1 a k v s it :
    wload st (A1 a k v s it) (if xhead st =? 0 then (if it then Grow s else A1 a k v s true) else A2 a k v s it)
| ld_A2 a k v s it : wload st (A2 a k v s it) (if xlock st =? 0 then A3 a k v s it else A2 a k v s it)
| ld_A3 a k v s it (Hxl : xlock st <> 0) : wload st (A3 a k v s it) (A2 a k v s it)
| ld_A4 a k v s it : wload st (A4 a k v s it) (if xhead st =? 0 then A4u a k v s it else A5 a k v s (xhead st))
| ld_A5 a k v s n : wload st (A5 a k v s n) (A6 a k v s n (xnext st n))
| ld_IXH a k v s n : wload st (IXH a k v s n) (IXSN a k v s n (bhead st))
| ld_X1 e k : wload st (X1 e k) (X2 e k)
| ld_X2 e k (Hic0 : bs_item_count (bst st) <> 0) :
    wload st (X2 e k) (if bs_is_locked (bst st) then X1 e k else X3 e k (bst st))
| ld_X3 e k s (Hcas : bst st <> s) : wload st (X3 e k s) (X1 e k)
| ld_XK e k s i :
    wload st (XK e k s i)
      (if akey st i =? k then XV e k s i else if i + 1 <? bs_item_count s then XK e k s (i + 1) else XHH e k s)
| ld_XV e k s i : wload st (XV e k s i) (XH e k s i (aval st i))
| ld_XH e k s i r :
    wload st (XH e k s i r)
      (if negb (bhead st =? 0) then XA1 e k s i r (bhead st)
       else if negb (i =? bs_item_count s - 1) then XB1 e k s i r else XB6 e k s i r)
| ld_XA2 e k s i r x : wload st (XA2 e k s i r x) (XA3 e k s i r x (xkey st x))
| ld_XA3 e k s i r x kk : wload st (XA3 e k s i r x kk) (XA4 e k s i r x kk (xval st x))
| ld_XA7 e k s i r x : wload st (XA7 e k s i r x) (XA8 e k s i r x (xnext st x))
| ld_XB2 e k s i r : wload st (XB2 e k s i r) (XB3 e k s i r (akey st (bs_item_count s - 1)))
| ld_XB3 e k s i r kk : wload st (XB3 e k s i r kk) (XB4 e k s i r kk (aval st (bs_item_count s - 1)))
| ld_XHH e k s : wload st (XHH e k s) (if bhead st =? 0 then XU e k s else XXK e k s 0 (bhead st))
| ld_XXK e k s p x : wload st (XXK e k s p x) (if xkey st x =? k then XXV e k s p x else XXM e k s x)
| ld_XXV e k s p x : wload st (XXV e k s p x) (XXN e k s p x (xval st x))
| ld_XXN e k s p x r : wload st (XXN e k s p x r) (XXP e k s p x r (xnext st x))
| ld_XXM e k s x : wload st (XXM e k s x) (if xnext st x =? 0 then XU e k s else XXK e k s x (xnext st x))
| ld_F1 e k r x : wload st (F1 e k r x) (if xlock st =? 0 then F2 e k r x else F1 e k r x)
| ld_F2 e k r x (Hxl : xlock st <> 0) : wload st (F2 e k r x) (F1 e k r x)
| ld_F3 e k r x : wload st (F3 e k r x) (F4 e k r x (xhead st)).

(** the beginning of a call, stores, successful CAS / exchange, and the load of erase that finds the array
    empty and returns *)
Inductive wstore (st : state) (t : nat) : pc -> state -> Prop :=
| st_BeginIns k v : wstore st t (Begin (OIns k v)) (go (s_g_lp st (upd (g_lp st) t None)) t (L1 false k v))
| st_BeginGetIns k v : wstore st t (Begin (OGetIns k v)) (go (s_g_lp st (upd (g_lp st) t None)) t (L1 true k v))
| st_BeginDel k : wstore st t (Begin (ODel k)) (go (s_g_lp st (upd (g_lp st) t None)) t (X1 false k))
| st_BeginExt k : wstore st t (Begin (OExt k)) (go (s_g_lp st (upd (g_lp st) t None)) t (X1 true k))
| st_BeginGet k : wstore st t (Begin (OGet k)) (go (s_g_obs st (upd (g_obs st) t [])) t (G1 k))
| st_L3 a k v s (Hcas : bst st = s) :
    wstore st t (L3 a k v s)
      (go (s_g_owner (s_bst st (bs_locked s)) (Some t)) t (if 0 <? bs_item_count s then IK a k v s 0 else ISK a k v s))
| st_IUold a k v s r :
    wstore st t (IUold a k v s r) (ret (lp (s_g_owner (s_bst st s) None) t k) t (ins_op a k v) (ins_res a false r))
| st_ISK a k v s : wstore st t (ISK a k v s) (go (s_akey st (setf (akey st) (bs_item_count s) k)) t (ISV a k v s))
| st_ISV a k v s : wstore st t (ISV a k v s) (go (s_aval st (setf (aval st) (bs_item_count s) v)) t (IUnew a k v s))
| st_IUnew a k v s :
    wstore st t (IUnew a k v s)
      (ret (s_g_map (lp (s_g_owner (s_bst st (bs_inc_item_count s)) None) t k) ((k, v) :: g_map st)) t
           (ins_op a k v) (ins_res a true v))
| st_A3 a k v s it (Hxl : xlock st = 0) :
    wstore st t (A3 a k v s it) (go (s_g_xowner (s_xlock st 1) (Some t)) t (A4 a k v s it))
| st_A4u a k v s it :
    wstore st t (A4u a k v s it) (go (s_g_xowner (s_xlock st 0) None) t (if it then Grow s else A1 a k v s true))
| st_A6 a k v s n nx :
    wstore st t (A6 a k v s n nx) (go (s_g_free (s_xhead st nx) (tl (g_free st))) t (A7 a k v s n))
| st_A7 a k v s n : wstore st t (A7 a k v s n) (go (s_g_xowner (s_xlock st 0) None) t (IXSK a k v s n))
| st_IXSK a k v s n : wstore st t (IXSK a k v s n) (go (s_xkey st (setf (xkey st) n k)) t (IXSV a k v s n))
| st_IXSV a k v s n : wstore st t (IXSV a k v s n) (go (s_xval st (setf (xval st) n v)) t (IXH a k v s n))
| st_IXSN a k v s n h : wstore st t (IXSN a k v s n h) (go (s_xnext st (setf (xnext st) n h)) t (IXSH a k v s n))
| st_IXSH a k v s n :
    wstore st t (IXSH a k v s n)
      (go (s_g_map (lp (s_g_chain (s_bhead st n) (n :: g_chain st)) t k) ((k, v) :: g_map st)) t (IUnew2 a k v s))
| st_IUnew2 a k v s :
    wstore st t (IUnew2 a k v s) (ret (s_g_owner (s_bst st s) None) t (ins_op a k v) (ins_res a true v))
| st_X2 e k (Hic0 : bs_item_count (bst st) = 0) :
    wstore st t (X2 e k) (ret (lp st t k) t (del_op e k) (del_res e false 0))
| st_X3 e k s (Hcas : bst st = s) :
    wstore st t (X3 e k s) (go (s_g_owner (s_bst st (bs_locked s)) (Some t)) t (XK e k s 0))
| st_XA1 e k s i r x :
    wstore st t (XA1 e k s i r x)
      (go (s_g_map (lp (s_bst st (bs_set_delete_marker (bs_locked s) (i + 1))) t k) (rem k (g_map st))) t
          (XA2 e k s i r x))
| st_XA4 e k s i r x kk vv :
    wstore st t (XA4 e k s i r x kk vv) (go (s_akey st (setf (akey st) i kk)) t (XA5 e k s i r x vv))
| st_XA5 e k s i r x vv :
    wstore st t (XA5 e k s i r x vv) (go (s_aval st (setf (aval st) i vv)) t (XA6 e k s i r x))
| st_XA6 e k s i r x :
    wstore st t (XA6 e k s i r x)
      (go (s_g_dup (bump (s_bst st (bs_new_version (bs_locked s)))) true) t (XA7 e k s i r x))
| st_XA8 e k s i r x nx :
    wstore st t (XA8 e k s i r x nx)
      (go (s_g_limbo (s_g_dup (s_g_chain (s_bhead st nx) (tl (g_chain st))) false) x) t (XA9 e k s r x))
| st_XA9 e k s r x :
    wstore st t (XA9 e k s r x)
      (go (s_g_limbo (s_g_owner (bump (s_bst st (bs_clear_lock (bs_new_version (bs_new_version (bs_locked s)))))) None) 0)
          t (F1 e k r x))
| st_XB1 e k s i r :
    wstore st t (XB1 e k s i r)
      (go (s_g_map (lp (s_bst st (bs_set_delete_marker (bs_locked s) (i + 1))) t k) (rem k (g_map st))) t
          (XB2 e k s i r))
| st_XB4 e k s i r kk vv :
    wstore st t (XB4 e k s i r kk vv) (go (s_akey st (setf (akey st) i kk)) t (XB5 e k s i r vv))
| st_XB5 e k s i r vv :
    wstore st t (XB5 e k s i r vv) (go (s_aval st (setf (aval st) i vv)) t (XB6 e k s i r))
| st_XB6_last e k s i r (Hlast : i = bs_item_count s - 1) :
    wstore st t (XB6 e k s i r)
      (ret (s_g_map (lp (s_g_owner (bump (s_bst st (bs_dec_item_count (bs_new_version s)))) None) t k) (rem k (g_map st)))
           t (del_op e k) (del_res e true r))
| st_XB6_moved e k s i r (Hlast : i <> bs_item_count s - 1) :
    wstore st t (XB6 e k s i r)
      (ret (s_g_owner (bump (s_bst st (bs_dec_item_count (bs_new_version s)))) None) t (del_op e k) (del_res e true r))
| st_XXP_head e k s x r nx :
    wstore st t (XXP e k s 0 x r nx)
      (go (s_g_limbo (s_g_map (lp (s_g_chain (s_bhead st nx) (remx x (g_chain st))) t k) (rem k (g_map st))) x) t
          (XXU e k s x r))
| st_XXP_item e k s p x r nx (Hpz : p <> 0) :
    wstore st t (XXP e k s p x r nx)
      (go (s_g_limbo (s_g_map (lp (s_g_chain (s_xnext st (setf (xnext st) p nx)) (remx x (g_chain st))) t k)
                              (rem k (g_map st))) x) t (XXU e k s x r))
| st_XXU e k s x r :
    wstore st t (XXU e k s x r)
      (go (s_g_limbo (s_g_owner (bump (s_bst st (bs_new_version s))) None) 0) t (F1 e k r x))
| st_XU e k s :
    wstore st t (XU e k s) (ret (lp (s_g_owner (s_bst st s) None) t k) t (del_op e k) (del_res e false 0))
| st_F2 e k r x (Hxl : xlock st = 0) : wstore st t (F2 e k r x) (go (s_g_xowner (s_xlock st 1) (Some t)) t (F3 e k r x))
| st_F4 e k r x h : wstore st t (F4 e k r x h) (go (s_xnext st (setf (xnext st) x h)) t (F5 e k r x))
| st_F5 e k r x : wstore st t (F5 e k r x) (go (s_g_free (s_xhead st x) (x :: g_free st)) t (F6 e k r x))
| st_F6 e k r x :
    wstore st t (F6 e k r x) (ret (s_g_xowner (s_xlock st 0) None) t (del_op e k) (del_res e true r)).

(** try_get_value: every step records an observation; [G2] also records the version count; the validating
    loads of the state return, retry or continue *)
Inductive rstep (st : state) (t : nat) : pc -> state -> Prop :=
| rd_G1 k : rstep st t (G1 k) (go (obs st t k) t (G2 k))
| rd_G2 k :
    rstep st t (G2 k)
      (go (s_g_rv (obs st t k) (upd (g_rv st) t (g_nver st))) t
          (if 0 <? bs_item_count (bst st) then GK k (bst st) 0 else GH k (bst st)))
| rd_GK k s i : rstep st t (GK k s i) (go (obs st t k) t (if akey st i =? k then GV k s i else g_next_slot k s i))
| rd_GV k s i : rstep st t (GV k s i) (go (obs st t k) t (GD k s i (aval st i)))
| rd_GD k s i v : rstep st t (GD k s i v) (go (obs st t k) t (GS k s i v))
| rd_GS_retry k s i v (Hver : bs_version s <> bs_version (bst st)) : rstep st t (GS k s i v) (go (obs st t k) t (G2 k))
| rd_GS_marked k s i v (Hver : bs_version s = bs_version (bst st)) (Hdm : bs_delete_marker (bst st) = i + 1) :
    rstep st t (GS k s i v) (go (obs st t k) t (g_next_slot k s i))
| rd_GS_ret k s i v (Hver : bs_version s = bs_version (bst st)) (Hdm : bs_delete_marker (bst st) <> i + 1) :
    rstep st t (GS k s i v) (ret (obs st t k) t (OGet k) [4; 1; v])
| rd_GH k s : rstep st t (GH k s) (go (obs st t k) t (if bhead st =? 0 then GE k s else GXK k s (bhead st)))
| rd_GXK k s x : rstep st t (GXK k s x) (go (obs st t k) t (if xkey st x =? k then GXV k s x else GXN k s x))
| rd_GXV k s x : rstep st t (GXV k s x) (go (obs st t k) t (GXD k s x (xval st x)))
| rd_GXD k s x v : rstep st t (GXD k s x v) (go (obs st t k) t (GXS k s x v))
| rd_GXS_retry k s x v (Hver : bs_version s <> bs_version (bst st)) : rstep st t (GXS k s x v) (go (obs st t k) t (G2 k))
| rd_GXS_ret k s x v (Hver : bs_version s = bs_version (bst st)) :
    rstep st t (GXS k s x v) (ret (obs st t k) t (OGet k) [4; 1; v])
| rd_GXN k s x : rstep st t (GXN k s x) (go (obs st t k) t (GXC k s (xnext st x)))
| rd_GXC k s x :
    rstep st t (GXC k s x)
      (go (obs st t k) t (if negb (bs_version s =? bs_version (bst st)) then G2 k
                          else if x =? 0 then GE k s else GXK k s x))
| rd_GE_retry k s (Hver : bs_version s <> bs_version (bst st)) : rstep st t (GE k s) (go (obs st t k) t (G2 k))
| rd_GE_ret k s (Hver : bs_version s = bs_version (bst st)) : rstep st t (GE k s) (ret (obs st t k) t (OGet k) [4; 0]).

Inductive step_case (st : state) : action -> state -> Prop :=
| sc_start t o : th st t = Idle -> step_case st (Start t o) (go st t (Begin o))
| sc_load t p p' : th st t = p -> wload st p p' -> step_case st (Step t) (go st t p')
| sc_store t p st' : th st t = p -> wstore st t p st' -> step_case st (Step t) st'
| sc_read t p st' : th st t = p -> rstep st t p st' -> step_case st (Step t) st'.

Lemma step_cases xoff st a st' es : step xoff st a = Some (st', es) -> step_case st a st'.
Proof.
  intros H. destruct a as [t o|t]; cbn [step] in H; destruct (th st t) eqn:Epc; try discriminate H.
  1: injection H as <- _; constructor; exact Epc.
  all: repeat match type of H with
       | (if negb (?a =? ?b) then _ else _) = Some _ => destruct (N.eqb_spec a b); cbn [negb] in H
       | (if ?a =? ?b then _ else _) = Some _ => destruct (N.eqb_spec a b)
       | (match ?o with _ => _ end) = Some _ => destruct o
       end.
  all: try match type of H with
            context [if ?a =? ?b then _ else s_g_owner _ _] => destruct (N.eqb_spec a b)
          | context [if ?a =? ?b then s_bhead _ _ else _] => destruct (N.eqb_spec a b); [subst a|]
          end.
  all: injection H as <- _.
  all: first [ eapply sc_load; [exact Epc | constructor; assumption]
             | eapply sc_store; [exact Epc | constructor; assumption]
             | eapply sc_read; [exact Epc | constructor; assumption] ].
Qed.

Lemma step_Step xoff st t st' es : step xoff st (Step t) = Some (st', es) ->
  exists p, th st t = p /\ ((exists p', wload st p p' /\ st' = go st t p') \/ wstore st t p st' \/ rstep st t p st').
Proof. intros H. apply step_cases in H. inversion H; subst; eauto 6. Qed.

Lemma step_Start xoff st t o st' es : step xoff st (Start t o) = Some (st', es) -> th st t = Idle /\ st' = go st t (Begin o).
Proof. intros H. apply step_cases in H. inversion H; subst; auto. Qed.
