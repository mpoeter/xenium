(** The epoch argument of the generalised epoch based reclamation model (Model/GebrDefs.v), for every configuration:
    [P1]  for every thread that owns a control block: its local epoch is never ahead of the global epoch, the epoch
          it carries through do_enter_critical / scan / update_global_epoch / update_local_epoch is consistent with
          both, and (the heart of C01) WHILE IT IS SYNCHRONISED - inside a critical region with a validated epoch
          ([ve]: the validated epoch of a thread) - THE GLOBAL EPOCH IS AT MOST ONE AHEAD of that epoch;
    [PB]  the scan invariant that makes [P1] inductive: while the global epoch still is the scanner's epoch e, every
          control block the scan iterator has already passed (or that was inserted after the scan began) belongs to no
          synchronised thread with a validated epoch below e.  For scan::n_threads / scan::one_thread (DEBRA) the scan
          state is the persistent thread_iterator: it survives the scanner's critical regions and is only reset when the
          scanner's local epoch changes.
    Both hold in every reachable state ([EI_reach]).  No axioms. *)
From Coq Require Import NArith List Bool Arith Lia PeanoNat.
From XV Require Import Conc.Lts Conc.Ev Model.GebrDefs Proof.GebrBase Proof.GebrShape Proof.GebrOwn.
Import ListNotations.
Local Open Scope N_scope.

(** * Epochs *)
Definition ve (p : pc) (x : tls) (le : N) : option N :=
  match p with
  | E4 _ e | S1 _ e | S2 _ e _ | S3 _ e _ | G1 _ e | G2 _ e | G3 _ e | G4 _ e | G5 _ e _ => Some e
  | G6 _ e _ | G7 _ e _ _ => Some (e + 1)
  | U1 _ new | U2 _ new _ => Some new
  | _ => if sync x then Some le else None
  end.
(** the epoch a program point carries (read from global_epoch, or the value it advances to) against the published local
    epoch le and the global epoch g *)
Definition epc (p : pc) (le g : N) : Prop :=
  match p with
  | C8 _ e => e <= g
  | E4 _ e => le <= e /\ e <= g
  | S1 _ e | S2 _ e _ | S3 _ e _ | G1 _ e | G2 _ e | G3 _ e | G4 _ e | G5 _ e _ => le = e /\ e <= g
  | G6 _ e _ | G7 _ e _ _ => le = e /\ e + 1 <= g
  | U1 _ new => le < new /\ new <= g
  | U2 _ new old => old = le /\ le < new /\ new <= g
  | _ => True
  end.
Definition has_loc (p : pc) : bool := match p with C7 _ | C8 _ _ => false | _ => true end.
(** the scan a thread is performing: its epoch and the control blocks it still has to look at *)
Definition scan_of (cfg : config) (p : pc) (x : tls) (le : N) : option (N * list N) :=
  if scan_is_n cfg then
    match p with C7 _ | C8 _ _ | C9 _ | U3 _ => None | _ => Some (le, sit x) end
  else
    match p with
    | S2 _ e _ | S3 _ e _ | G1 _ e | G2 _ e | G3 _ e | G4 _ e | G5 _ e _ => Some (e, sit x)
    | _ => None
    end.

(** thread u, if it owns a control block b: local epoch <= global epoch and lidx = local epoch mod 3 (once both are written),
    the epoch carried by its pc is consistent ([epc]), and the global epoch is at most one ahead of its validated epoch ([ve]) *)
Definition P1 (s : state) (u : nat) : Prop :=
  forall b, cb (tl s u) = Some b ->
    (has_loc (th s u) = true -> blocal s b <= gep s /\ lidx (tl s u) = blocal s b mod 3) /\
    epc (th s u) (blocal s b) (gep s) /\
    (forall v, ve (th s u) (tl s u) (blocal s b) = Some v -> gep s <= v + 1).
(** scanner w with scan epoch e = global epoch and entries [rem] still to visit: a block outside [rem] belongs to no
    thread with a validated epoch below e *)
Definition PB (cfg : config) (s : state) : Prop :=
  forall w bw u b e rem v, cb (tl s w) = Some bw -> scan_of cfg (th s w) (tl s w) (blocal s bw) = Some (e, rem) -> gep s = e ->
    cb (tl s u) = Some b -> ~ In b rem -> ve (th s u) (tl s u) (blocal s b) = Some v -> e <= v.

Ltac efn := cbn [ve epc has_loc].
Ltac efn_in H := cbn [ve epc has_loc] in H.

Lemma step_gep cfg ns s t s' es : step cfg ns s (Step t) = Some (s', es) ->
  gep s' = gep s \/ (exists a l, th s t = G5 a (gep s) l /\ gep s' = gep s + 1).
Proof.
  intros H. unfold_step H. cbv zeta in H. step_split H. all: bool_eqs; prj; try (left; reflexivity).
  right. subst. eauto.
Qed.

(** the validated epoch is never behind the local epoch, and a thread with a validated epoch has its flag set *)
Lemma ve_ge p x le g v : epc p le g -> ve p x le = Some v -> le <= v.
Proof. destruct p; cbn; intros H E; try (destruct (sync x); [|discriminate]); inversion E; subst; lia. Qed.
Lemma ve_fon cfg p x le v : ve p x le = Some v -> fon cfg p x = true.
Proof.
  unfold fon. destruct p; cbn; intros E; try (destruct (sync x); [reflexivity|discriminate]); rewrite ?orb_true_r; reflexivity.
Qed.

Lemma uslots_nonempty new old : old < new -> is_nil (uslots new old) = false.
Proof.
  intros H. unfold uslots. destruct (N.eqb_spec (N.min 3 (new - old)) 0) as [E|E]; [lia|].
  repeat match goal with |- context [if ?c then _ else _] => destruct c end; reflexivity.
Qed.

(* two equations for the control block of the same thread: identify the blocks, or close the goal if one says None *)
Ltac same_cb :=
  repeat match goal with
  | E : cb ?x = Some ?n, H : cb ?x = Some ?b |- _ =>
    lazymatch b with n => fail | _ => rewrite E in H; injection H as <- end
  | E : cb ?x = None, H : cb ?x = Some _ |- _ => rewrite E in H; discriminate H
  end.

Lemma P1_other cfg ns s t s' es u : O0 cfg s -> (forall x, P1 s x) -> PB cfg s -> T0 cfg ns s -> step cfg ns s (Step t) = Some (s', es) -> u <> t -> P1 s' u.
Proof.
  intros O I B T H Hne b Hb. pose proof (step_others _ _ _ _ _ _ H) as Fth. pose proof (step_untouched _ _ _ _ _ _ H) as Fb. pose proof (step_gep_mono _ _ _ _ _ _ H) as Hmono.
  destruct (Fth u Hne) as [Eth Etl]. rewrite Eth, Etl in *.
  destruct (o_own cfg s O u b Hb) as [Ho _].
  destruct (Fb b (owner_untouched _ _ _ _ _ O Ho Hne)) as (_ & Ef & El & _). rewrite El.
  destruct (I u b Hb) as (I1 & I2 & I3). split; [|split].
  - intros Hl. destruct (I1 Hl). split; [lia|assumption].
  - destruct (th s u); cbn in *; try exact I; lia.
  - intros v Hv. destruct (step_gep _ _ _ _ _ _ H) as [->|(a & l & Hpc & ->)]; [auto|].
    assert (gep s <= v); [|lia].
    destruct (cb (tl s t)) as [bt|] eqn:Ebt.
    2:{ exfalso. apply (ts_need _ _ _ _ (T t)); [rewrite Hpc; reflexivity|exact Ebt]. }
    destruct (I t bt Ebt) as (_ & It2 & _). rewrite Hpc in It2. cbn in It2. destruct It2 as [Ele _].
    eapply (B t bt u b (gep s) [] v); try eassumption; [|reflexivity|intros []].
    unfold scan_of. rewrite Hpc. rewrite (ts_g _ _ _ _ (T t)) by (rewrite Hpc; reflexivity).
    destruct (scan_is_n cfg); [rewrite Ele|]; reflexivity.
Qed.

Ltac sync_rw := repeat match goal with Hs : sync ?x = ?v |- context [sync ?x] => rewrite Hs end.

Lemma P1_self cfg ns s t s' es : O0 cfg s -> tshape cfg ns (th s t) (tl s t) -> P1 s t -> step cfg ns s (Step t) = Some (s', es) -> P1 s' t.
Proof.
  intros O T I H. unfold_step H. cbv zeta in H. step_split H.
  all: bool_eqs; unfold P1; prj; rewrite ?upd_same; prj.
  all: unfold P1 in I; try match goal with E : th _ _ = _ |- _ => try rewrite E in I; try rewrite E in T end.
  all: intros b0 Hb0; same_cb.
  all: try (match goal with E : cb (tl _ _) = Some ?n |- _ => pose proof (I n E) as (I1 & I2 & I3); efn_in I1; efn_in I2; efn_in I3 end).
  all: try solve [inj_some; sel; efn; split_updN_all; cleanup; repeat split; intros; inj_some; first [assumption | discriminate | lia | congruence | auto]].
  all: destruct T as [Tneed Tno Tfresh Tcnt Trent Tslot Thi Tc Te Tlv Tx Tsync Tg Tinit].
  all: fn_in Tneed; fn_in Tno; fn_in Tcnt; fn_in Tslot; fn_in Tc; fn_in Te; fn_in Tlv; fn_in Tx; fn_in Tsync; fn_in Tg; fn_in Tinit.
  all: try solve [exfalso; cleanup; congruence].
  all: try (assert (Hsy : sync (tl s t) = true) by (cleanup; apply Tsync; [lia|reflexivity])).
  all: try solve [inj_some; cleanup; sel; efn; prj; sync_rw; efn; split_updN_all; cleanup; repeat split; intros; inj_some; subst;
                  first [assumption | discriminate | lia | congruence | auto
                        | match goal with H : uslots ?a ?b = [] |- _ => pose proof (uslots_nonempty a b); rewrite H in *; cbn [is_nil] in *; exfalso; intuition (discriminate || lia) end]].
  exfalso. destruct I2 as (-> & Hlt & _). pose proof (uslots_nonempty new _ Hlt) as X.
  match goal with H : uslots _ _ = [] |- _ => rewrite H in X end. discriminate.
Qed.

(** ** the scan invariant *)
Lemma scan_le cfg p x le g e rem : (has_loc p = true -> le <= g) -> epc p le g -> scan_of cfg p x le = Some (e, rem) -> e <= g /\ le = e.
Proof.
  unfold scan_of. intros Hl He Hs. destruct (scan_is_n cfg).
  - destruct p; cbn in Hs, Hl; try discriminate Hs; injection Hs as <- <-; (split; [apply Hl|]; reflexivity).
  - destruct p; cbn in Hs, He; try discriminate Hs; injection Hs as <- <-; destruct He as [H1 H2]; split; assumption.
Qed.

(** a thread is never in the way of its own scan *)
Lemma PB_same cfg s w bw e rem v : P1 s w -> cb (tl s w) = Some bw ->
  scan_of cfg (th s w) (tl s w) (blocal s bw) = Some (e, rem) -> ve (th s w) (tl s w) (blocal s bw) = Some v -> e <= v.
Proof.
  intros I Hb Hs Hv. destruct (I bw Hb) as (I1 & I2 & _).
  assert (Hl : has_loc (th s w) = true -> blocal s bw <= gep s) by (intros X; apply I1; exact X).
  destruct (scan_le _ _ _ _ _ _ _ Hl I2 Hs) as [_ <-]. eapply ve_ge; eauto.
Qed.

Lemma PB_frame cfg ns s t s' es w u : O0 cfg s -> T0 cfg ns s -> (forall x, P1 s x) -> PB cfg s -> step cfg ns s (Step t) = Some (s', es) ->
  w <> t -> u <> t ->
  forall bw b e rem v, cb (tl s' w) = Some bw -> scan_of cfg (th s' w) (tl s' w) (blocal s' bw) = Some (e, rem) -> gep s' = e ->
    cb (tl s' u) = Some b -> ~ In b rem -> ve (th s' u) (tl s' u) (blocal s' b) = Some v -> e <= v.
Proof.
  intros O T I B H Hw Hu bw b e rem v Hbw Hs Hg Hb Hn Hv.
  pose proof (step_others _ _ _ _ _ _ H) as Fth. pose proof (step_untouched _ _ _ _ _ _ H) as Fb.
  destruct (Fth w Hw) as [Ew Etw]. destruct (Fth u Hu) as [Eu Etl]. rewrite Ew, Etw in *. rewrite Eu, Etl in *.
  destruct (o_own cfg s O u b Hb) as [Ho _]. destruct (o_own cfg s O w bw Hbw) as [How _].
  destruct (Fb b (owner_untouched _ _ _ _ _ O Ho Hu)) as (_ & _ & El & _). rewrite El in Hv.
  destruct (Fb bw (owner_untouched _ _ _ _ _ O How Hw)) as (_ & _ & Elw & _). rewrite Elw in Hs.
  destruct (step_gep _ _ _ _ _ _ H) as [Eg|(a & l & Hpc & Eg)]; rewrite Eg in Hg.
  - exact (B w bw u b e rem v Hbw Hs Hg Hb Hn Hv).
  - exfalso. destruct (I w bw Hbw) as (I1 & I2 & _).
    assert (Hl : has_loc (th s w) = true -> blocal s bw <= gep s) by (intros X; apply I1; exact X).
    destruct (scan_le _ _ _ _ _ _ _ Hl I2 Hs). lia.
Qed.

(* the scan invariant of the stepping thread, applied with the hypotheses at hand *)
Ltac pbw_same :=
  match goal with
  | Bt : forall bw u b e rem v, _ -> _ -> _ -> _ -> _ -> _ -> e <= v |- _ =>
    eapply Bt; [first [reflexivity | eassumption] | eassumption | first [eassumption | reflexivity] | eassumption | eassumption | eassumption]
  end.

Lemma PB_w cfg ns s t s' es : O0 cfg s -> T0 cfg ns s -> (forall x, P1 s x) -> PB cfg s -> step cfg ns s (Step t) = Some (s', es) ->
  forall u bw b e rem v, u <> t -> cb (tl s' t) = Some bw -> scan_of cfg (th s' t) (tl s' t) (blocal s' bw) = Some (e, rem) -> gep s' = e ->
    cb (tl s u) = Some b -> ~ In b rem -> ve (th s u) (tl s u) (blocal s b) = Some v -> e <= v.
Proof.
  intros O T I B H u bw b0 e0 rem0 v0 Hut.
  pose proof (B t) as Bt. pose proof (I t) as It. unfold P1 in It. pose proof (T t) as Tt.
  unfold_step H. cbv zeta in H. step_split H.
  all: bool_eqs; prj; rewrite ?upd_same; prj.
  all: try match goal with E : th _ _ = _ |- _ => try rewrite E in Bt; try rewrite E in It; try rewrite E in Tt end.
  all: intros Hbw Hs Hg Hb Hn Hv.
  all: pose proof (proj2 (o_own cfg s O u b0 Hb)) as Hin.
  all: unfold scan_of in Hs, Bt; destruct (scan_is_n cfg) eqn:Sn; rewrite ?Sn in Hs, Bt.
  all: try congruence.
  all: prj_in Hs; same_cb.
  all: try discriminate Hs.
  all: try solve [sel; discriminate Hs].
  all: try solve [exact (Bt _ _ _ _ _ _ Hbw Hs Hg Hb Hn Hv)].
  all: try solve [sel; first [discriminate Hs | exact (Bt _ _ _ _ _ _ Hbw Hs Hg Hb Hn Hv)]].
  all: try solve [injection Hs as <- <-; exfalso; apply Hn; exact Hin].
  all: try solve [sel; cbv beta iota in Hs; first [discriminate Hs | congruence | pbw_same]].
  all: try solve [sel; cbv beta iota in Hs; injection Hs as <- <-; exfalso; apply Hn; exact Hin].
  all: try solve [exfalso; pose proof (ts_no _ _ _ _ Tt eq_refl); congruence].
  all: try solve [exfalso; match goal with Ecb : cb (tl _ _) = Some ?n |- _ => destruct (It n Ecb) as (_ & (Hle & _) & _) end; injection Hs as <- <-; lia].
  (* the entry under the iterator is passed *)
  all: match goal with Ecb : cb (tl _ _) = Some ?n |- _ => destruct (It n Ecb) as (_ & (Hle & _) & _) end.
  all: sel; cbv beta iota in Hs; try discriminate Hs; injection Hs as <- <-.
  all: match goal with Es : sit (tl _ _) = ?p :: ?l |- _ =>
         destruct (N.eq_dec b0 p) as [->|Hne];
         [ first [ exfalso; pose proof (o_flag cfg s O u p Hb (ve_fon cfg _ _ _ _ Hv)); congruence
                 | destruct (I u p Hb) as (_ & I2 & _); pose proof (ve_ge _ _ _ _ _ I2 Hv); lia ]
         | eapply Bt; [first [reflexivity | eassumption] | rewrite Es; reflexivity | first [eassumption | congruence | lia] | exact Hb
                      | intros [X|X]; [congruence|contradiction] | exact Hv ] ] end.
Qed.

Lemma PB_u cfg ns s t s' es : O0 cfg s -> T0 cfg ns s -> (forall x, P1 s x) -> PB cfg s -> step cfg ns s (Step t) = Some (s', es) ->
  forall w bw b e rem v, w <> t -> cb (tl s w) = Some bw -> scan_of cfg (th s w) (tl s w) (blocal s bw) = Some (e, rem) -> gep s' = e ->
    cb (tl s' t) = Some b -> ~ In b rem -> ve (th s' t) (tl s' t) (blocal s' b) = Some v -> e <= v.
Proof.
  intros O T I B H w bw b0 e0 rem0 v0 Hw Hbw Hs.
  assert (Hle : e0 <= gep s).
  { destruct (I w bw Hbw) as (I1 & I2 & _).
    assert (Hl : has_loc (th s w) = true -> blocal s bw <= gep s) by (intros X; apply I1; exact X).
    destruct (scan_le _ _ _ _ _ _ _ Hl I2 Hs). assumption. }
  pose proof (B w bw t) as X. specialize (T t). pose proof (I t) as It. unfold P1 in It.
  unfold_step H. cbv zeta in H. step_split H.
  all: bool_eqs; prj; rewrite ?upd_same; prj.
  all: try match goal with E : th _ _ = _ |- _ => try rewrite E in X; try rewrite E in T; try rewrite E in It end.
  all: intros Hg Hb Hn Hv; same_cb.
  all: destruct T as [Tneed Tno Tfresh Tcnt Trent Tslot Thi Tc Te Tlv Tx Tsync Tg Tinit].
  all: fn_in Tneed; fn_in Tno; fn_in Tcnt; fn_in Tslot; fn_in Tc; fn_in Te; fn_in Tlv; fn_in Tx; fn_in Tsync; fn_in Tg; fn_in Tinit.
  all: try solve [exfalso; cleanup; congruence].
  all: try solve [exfalso; lia].
  all: try solve [inj_some; cleanup; sel; efn_in Hv; prj_in Hv; efn_in X; split_updN_all;
                  repeat match goal with Hs : sync ?x = _ |- _ => rewrite Hs in * end;
                  first [ discriminate Hv
                        | inj_some; lia
                        | eapply X; solve [eauto | congruence] ]].
  all: try (assert (Hsy : sync (tl s t) = true) by (cleanup; apply Tsync; [lia|reflexivity])).
  all: destruct (It b0 Hb) as (_ & I2 & _); efn_in I2.
  all: efn_in X; pose proof (X b0 e0 rem0 _ Hbw Hs Hg Hb Hn eq_refl) as X0.
  all: sel; efn_in Hv; prj_in Hv; rewrite ?Hsy in Hv; inj_some; lia.
Qed.

Definition EI (cfg : config) (s : state) : Prop := (forall x, P1 s x) /\ PB cfg s.

Definition start_like (p : pc) : bool := match p with Idle | Begin _ | LV _ | X1 _ | X3 => true | _ => false end.
Lemma start_like_facts cfg p x x' le : start_like p = true -> sync x' = sync x -> sit x' = sit x ->
  ve p x' le = ve Idle x le /\ (forall g, epc p le g) /\ has_loc p = true /\ scan_of cfg p x' le = scan_of cfg Idle x le.
Proof.
  intros H Hs Hi. unfold scan_of. destruct p; try discriminate H; cbn; rewrite Hs, Hi; repeat split; auto.
Qed.

Lemma start_pc cfg ns s t o s' es : step cfg ns s (Start t o) = Some (s', es) ->
  th s t = Idle /\ th s' = upd (th s) t (th s' t) /\ start_like (th s' t) = true /\
  (forall u, cb (tl s' u) = cb (tl s u) /\ sync (tl s' u) = sync (tl s u) /\ sit (tl s' u) = sit (tl s u) /\ lidx (tl s' u) = lidx (tl s u) /\ rl (tl s' u) = rl (tl s u)) /\
  gep s' = gep s /\ bflag s' = bflag s /\ blocal s' = blocal s /\ blist s' = blist s /\
  g_where s' = g_where s /\ g_life s' = g_life s /\ g_nfree s' = g_nfree s /\ orph s' = orph s /\ cells s' = cells s /\ nalloc s' = nalloc s /\ g_uaf s' = g_uaf s.
Proof.
  intros H. unfold step in H. step_split H. all: prj; rewrite ?upd_same.
  all: repeat split; try reflexivity; try assumption.
  all: try solve [destruct (upd_cases (tl s) t (wt_rg None (wt_rent 0 (wt_nest 0 (wt_gs (fun _ : nat => None) (tl s t))))) u) as [[-> ->]|[_ ->]]; reflexivity].
  all: destruct (xnext_cases (rl (tl s t)) 0) as [Ex|[Ex|[Ex|Ex]]]; rewrite Ex; reflexivity.
Qed.

Section ReachE.
Variables (cfg : config) (ns : nat) (nc : N).

Lemma EI_init : EI cfg (init nc).
Proof. split; [intros x b Hb; cbn in Hb; discriminate|intros w bw u b e rem v Hs; cbn in Hs; discriminate]. Qed.

Lemma EI_start s t o s' es : EI cfg s -> step cfg ns s (Start t o) = Some (s', es) -> EI cfg s'.
Proof.
  intros [I B] H. destruct (start_pc _ _ _ _ _ _ _ H) as (Hidle & Eth & Hsl & Etl & Eg & Ef & El & _).
  assert (Hf : forall u le, ve (th s' u) (tl s' u) le = ve (th s u) (tl s u) le /\ (forall g, epc (th s u) le g -> epc (th s' u) le g) /\
                            has_loc (th s' u) = has_loc (th s u) /\ scan_of cfg (th s' u) (tl s' u) le = scan_of cfg (th s u) (tl s u) le).
  { intros u le. destruct (Etl u) as (E1 & E2 & E3 & _).
    destruct (Nat.eq_dec u t) as [->|Hne].
    - destruct (start_like_facts cfg (th s' t) (tl s t) (tl s' t) le Hsl E2 E3) as (F1 & F2 & F3 & F4).
      rewrite Hidle. repeat split; auto.
    - rewrite Eth, upd_other by exact Hne. unfold scan_of.
      destruct (th s u); cbn; rewrite ?E2, ?E3; (split; [reflexivity|split; [intros ? X; exact X|split; reflexivity]]). }
  split.
  - intros u b Hb. destruct (Etl u) as (E1 & E2 & E3 & E4 & _). rewrite E1 in Hb. destruct (I u b Hb) as (I1 & I2 & I3).
    destruct (Hf u (blocal s b)) as (F1 & F2 & F3 & F4). rewrite Eg, El, E4, F1, F3.
    split; [exact I1|]. split; [apply F2; exact I2|exact I3].
  - intros w bw u b e rem v Hbw Hs Hg Hb Hn Hv.
    destruct (Etl u) as (E1 & _). destruct (Etl w) as (E1w & _). rewrite E1 in Hb. rewrite E1w in Hbw. rewrite El in Hs, Hv. rewrite Eg in Hg.
    destruct (Hf u (blocal s b)) as (F1 & _). destruct (Hf w (blocal s bw)) as (_ & _ & _ & F4). rewrite F1 in Hv. rewrite F4 in Hs.
    exact (B w bw u b e rem v Hbw Hs Hg Hb Hn Hv).
Qed.

Lemma EI_step s a s' es : T0 cfg ns s -> O0 cfg s -> T0 cfg ns s' -> O0 cfg s' -> EI cfg s -> step cfg ns s a = Some (s', es) -> EI cfg s'.
Proof.
  intros T O T' O' [I B] H. destruct a as [t o|t]; [eapply EI_start; eauto; split; assumption|].
  assert (I' : forall x, P1 s' x).
  { intros u. destruct (Nat.eq_dec u t) as [->|Hne]; [exact (P1_self _ _ _ _ _ _ O (T t) (I t) H) | exact (P1_other _ _ _ _ _ _ u O I B T H Hne)]. }
  split; [exact I'|].
  intros w bw u b e rem v Hbw Hs Hg Hb Hn Hv.
  pose proof (step_others _ _ _ _ _ _ H) as Fth. pose proof (step_untouched _ _ _ _ _ _ H) as Fb.
  destruct (Nat.eq_dec w t) as [->|Hw].
  - destruct (Nat.eq_dec u t) as [->|Hu].
    + assert (b = bw) by congruence. subst b. exact (PB_same cfg s' t bw e rem v (I' t) Hbw Hs Hv).
    + destruct (Fth u Hu) as [Eu Etl]. rewrite Eu, Etl in *.
      destruct (o_own cfg s O u b Hb) as [Ho _].
      destruct (Fb b (owner_untouched _ _ _ _ _ O Ho Hu)) as (_ & _ & El & _). rewrite El in Hv.
      exact (PB_w _ _ _ _ _ _ O T I B H u bw b e rem v Hu Hbw Hs Hg Hb Hn Hv).
  - destruct (Nat.eq_dec u t) as [->|Hu].
    + destruct (Fth w Hw) as [Ew Etw]. rewrite Ew, Etw in *.
      destruct (o_own cfg s O w bw Hbw) as [How _].
      destruct (Fb bw (owner_untouched _ _ _ _ _ O How Hw)) as (_ & _ & Elw & _). rewrite Elw in Hs.
      exact (PB_u _ _ _ _ _ _ O T I B H w bw b e rem v Hw Hbw Hs Hg Hb Hn Hv).
    + exact (PB_frame _ _ _ _ _ _ w u O T I B H Hw Hu bw b e rem v Hbw Hs Hg Hb Hn Hv).
Qed.

Lemma EI_reach s : reachable cfg ns nc s -> EI cfg s.
Proof.
  apply (inv_rule_aux _ _ _ _ _ (fun s => T0 cfg ns s /\ O0 cfg s) (EI cfg)).
  - intros s0 Hr. split; [apply (T0_reach cfg ns nc); exact Hr|apply (O0_reach cfg ns nc); exact Hr].
  - exact EI_init.
  - intros s0 a s1 es [J1 J2] [J3 J4] I H. exact (EI_step s0 a s1 es J1 J2 J3 J4 I H).
Qed.
End ReachE.
