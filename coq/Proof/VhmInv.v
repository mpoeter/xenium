(** vyukov_hash_map bucket model: the lock-free reader (try_get_value) and the final theorems. *)
From Coq Require Import NArith List Bool Lia PeanoNat.
From XV Require Import Base.Word Conc.Lts Conc.Ev gen.BucketStateGen Proof.BucketState Model.VhmDefs
  Proof.VhmStep Proof.VhmBase Proof.VhmMem Proof.VhmAbs.
Import ListNotations.
Local Open Scope N_scope.

(** the version counter did not wrap around: fewer than 2^27 removals so far *)
Definition Bnd (st : state) : Prop := g_nver st < 2 ^ 27.

(** no version increment since the reader's last load of the state *)
Definition Cur (st : state) (t : nat) : Prop := g_rv st t = g_nver st.
(** a removal is past its linearization point and its version increment has not been stored yet *)
Definition pend (st : state) : Prop := mk st <> 0 \/ g_limbo st <> 0.
(** where a reader can stand: on an item of the chain or on the item that was just unlinked *)
Definition POS (st : state) (x : N) : Prop := In x (g_chain st) \/ (x <> 0 /\ x = g_limbo st).

(** the reader may answer 'absent': it has observed [k] absent, or [k] is absent now and a removal is pending
    (so the version will change before the reader can validate) *)
Definition esc (st : state) (t : nat) (k : N) : Prop :=
  In None (g_obs st t) \/ (lookup k (g_map st) = None /\ pend st).
(** witnesses that the scan will still meet [k]: a valid slot at or after [i], an item of the logical chain,
    an item of the chain behind [x] *)
Definition slotw (st : state) (s k i : N) : Prop :=
  exists j, i <= j /\ j < bs_item_count s /\ j + 1 <> mk st /\ akey st j = k.
Definition chainw (st : state) (k : N) : Prop := exists y, In y (lchain st) /\ xkey st y = k.
Definition succw (st : state) (k x : N) : Prop :=
  exists y, In y (from (xnext st x) (g_chain st)) /\ In y (lchain st) /\ xkey st y = k.
(** if the item the reader stands on carries [k], its value has been observed *)
Definition J (st : state) (t : nat) (k x : N) : Prop := xkey st x = k -> In (Some (xval st x)) (g_obs st t).

(** the state word [s] the reader loaded: its version is the one counted in [g_rv] *)
Definition RB (st : state) (t : nat) (s : N) : Prop :=
  g_rv st t <= g_nver st /\ bs_version s = g_rv st t mod 2 ^ 27 /\ bs_item_count s <= 3.

(** the reader's invariant [RI] at program point [p], in two parts.  [RU]: what holds whatever the writers do *)
Definition RU (st : state) (t : nat) (p : pc) : Prop :=
  match p with
  | GK _ s i | GV _ s i | GD _ s i _ | GS _ s i _ => RB st t s /\ i < bs_item_count s
  | GH _ s | GXV _ s _ | GXD _ s _ _ | GXS _ s _ _ | GXC _ s _ | GE _ s => RB st t s
  | GXK _ s x | GXN _ s x => RB st t s /\ x <> 0
  | _ => True
  end.
(** [RK]: what holds as long as the version has not changed since the reader loaded the state ([Cur]): the scan
    has not passed [k] without observing it *)
Definition RK (st : state) (t : nat) (p : pc) : Prop :=
  match p with
  | GK k s i => bs_item_count s <= ic st /\ (esc st t k \/ slotw st s k i \/ chainw st k)
  | GV k s i => bs_item_count s <= ic st /\ (esc st t k \/ slotw st s k i \/ chainw st k) /\
                (mk st = i + 1 \/ akey st i = k)
  | GD k s i v | GS k s i v =>
    bs_item_count s <= ic st /\ (esc st t k \/ slotw st s k i \/ chainw st k) /\
    (mk st = i + 1 \/ (akey st i = k /\ aval st i = v))
  | GH k s => esc st t k \/ chainw st k
  | GXK k s x => POS st x /\ J st t k x /\ (esc st t k \/ xkey st x = k \/ succw st k x)
  | GXV k s x => POS st x /\ In (Some (xval st x)) (g_obs st t)
  | GXD k s x v | GXS k s x v => In (Some v) (g_obs st t)
  | GXN k s x => POS st x /\ (esc st t k \/ succw st k x)
  | GXC k s y => (y = 0 /\ esc st t k) \/
                 (y <> 0 /\ POS st y /\ J st t k y /\ (esc st t k \/ xkey st y = k \/ succw st k y))
  | GE k s => esc st t k
  | _ => True
  end.
Definition RI (st : state) (t : nat) (p : pc) : Prop := RU st t p /\ (Cur st t -> RK st t p).

(** the unlinked item keeps pointing into the chain *)
Definition Lim (st : state) : Prop :=
  g_limbo st <> 0 -> ~ In (g_limbo st) (g_chain st) /\
                     (xnext st (g_limbo st) = 0 \/ In (xnext st (g_limbo st)) (g_chain st)).

(** results of the completed reader calls: the value returned (or 'absent') is what [g_map] associated
    with the key at one of the steps of the call *)
Definition hist_ok_r (h : hrec) : Prop :=
  match h_op h with
  | OGet _ => (exists v, h_res h = [4; 1; v] /\ In (Some v) (h_obs h)) \/ (h_res h = [4; 0] /\ In None (h_obs h))
  | _ => True
  end.


Lemma nil_not_0 st : Mem st -> ~ In 0 (g_chain st).
Proof. intros HM Hc. apply (M_cok _ HM) in Hc. unfold item_ok in Hc. lia. Qed.



(** * what the steps of the other threads guarantee to a reader as long as the version does not change *)
Record Env (st st' : state) : Prop := mkEnv {
  En_ic : ic st <= ic st';
  En_slot : forall j, j < ic st -> j + 1 <> mk st -> j + 1 <> mk st' ->
            akey st' j = akey st j /\ aval st' j = aval st j;
  En_mk : mk st <> 0 -> mk st' = mk st;
  En_mk_lp : forall j, j < ic st -> j + 1 <> mk st -> j + 1 = mk st' -> lookup (akey st j) (g_map st') = None;
  En_pend : pend st -> pend st' /\ forall k, lookup k (g_map st) = None -> lookup k (g_map st') = None;
  En_pos : forall x, POS st x -> POS st' x /\ xkey st' x = xkey st x /\ xval st' x = xval st x;
  En_lch : forall y, In y (lchain st) -> In y (lchain st') \/ (lookup (xkey st y) (g_map st') = None /\ pend st');
  En_succ : forall x y, POS st x -> In y (from (xnext st x) (g_chain st)) -> In y (lchain st') ->
            In y (from (xnext st' x) (g_chain st'))
}.

Lemma RK_env st st' t p : Env st st' -> g_obs st' t = g_obs st t -> RU st t p -> RK st t p -> RK st' t p.
Proof.
  intros HE Eo HU HK.
  assert (Hesc : forall k, esc st t k -> esc st' t k).
  { intros k [H|[H1 H2]]; [left; rewrite Eo; exact H | right]. destruct (En_pend _ _ HE H2) as [H3 H4]. auto. }
  assert (Hmkpend : forall j, j + 1 = mk st' -> pend st') by (intros j Hj; left; lia).
  assert (Hslot : forall s k i, bs_item_count s <= ic st -> slotw st s k i -> esc st' t k \/ slotw st' s k i).
  { intros s k i Hic (j & H1 & H2 & H3 & H4). destruct (N.eq_dec (j + 1) (mk st')) as [E|E].
    - left. right. split; [|eapply Hmkpend; exact E]. rewrite <- H4. apply (En_mk_lp _ _ HE); [lia | exact H3 | exact E].
    - right. exists j. destruct (En_slot _ _ HE j ltac:(lia) H3 E) as [E1 _]. rewrite E1. auto. }
  assert (Hch : forall k, chainw st k -> esc st' t k \/ chainw st' k).
  { intros k (y & H1 & H2). destruct (En_lch _ _ HE y H1) as [H|[H3 H4]].
    - right. exists y. split; [exact H|]. destruct (En_pos _ _ HE y (or_introl (lchain_sub _ _ H1))) as (_ & -> & _). exact H2.
    - left. right. rewrite <- H2. auto. }
  assert (Hsu : forall k x, POS st x -> succw st k x -> esc st' t k \/ succw st' k x).
  { intros k x Hx (y & H1 & H2 & H3). destruct (En_lch _ _ HE y H2) as [H|[H4 H5]].
    - right. exists y. split; [apply (En_succ _ _ HE x y Hx H1 H)|]. split; [exact H|].
      destruct (En_pos _ _ HE y (or_introl (lchain_sub _ _ H2))) as (_ & -> & _). exact H3.
    - left. right. rewrite <- H3. auto. }
  assert (Hfa : forall i k (P : Prop), i < ic st -> (mk st = i + 1 \/ (akey st i = k /\ P)) ->
                 (mk st' = i + 1 \/ (akey st i = k /\ P /\ i + 1 <> mk st /\ i + 1 <> mk st'))).
  { intros i k P Hi [H|[H1 H2]].
    - left. rewrite (En_mk _ _ HE); [exact H | lia].
    - destruct (N.eq_dec (mk st) (i + 1)) as [E|E]; [left; rewrite (En_mk _ _ HE); [exact E | lia]|].
      destruct (N.eq_dec (mk st') (i + 1)) as [E'|E']; [left; exact E'|]. right. repeat split; auto. }
  assert (Hscan : forall s k i, bs_item_count s <= ic st -> esc st t k \/ slotw st s k i \/ chainw st k ->
                    esc st' t k \/ slotw st' s k i \/ chainw st' k).
  { intros s k i H1 [H|[H|H]]; [auto | destruct (Hslot _ _ _ H1 H); auto | destruct (Hch _ H); auto]. }
  assert (Hitem : forall k x, POS st x -> J st t k x -> esc st t k \/ xkey st x = k \/ succw st k x ->
                    POS st' x /\ J st' t k x /\ (esc st' t k \/ xkey st' x = k \/ succw st' k x)).
  { intros k x H1 H2 H3. destruct (En_pos _ _ HE x H1) as (P1 & P2 & P3). split; [exact P1|]. split.
    - unfold J in *. rewrite P2, P3, Eo. exact H2.
    - rewrite P2. destruct H3 as [H|[H|H]]; [auto | auto | destruct (Hsu _ _ H1 H); auto]. }
  pose proof (En_ic _ _ HE) as Hic.
  destruct p; cbn [RK RU] in *; try exact I.
  - (* GK *) destruct HK as [H1 H2]. split; [lia | exact (Hscan _ _ _ H1 H2)].
  - (* GV *) destruct HK as (H1 & H2 & H3). destruct HU as [_ Hi]. split; [lia|]. split.
    + exact (Hscan _ _ _ H1 H2).
    + assert (H3' : mk st = i + 1 \/ (akey st i = k /\ True)) by tauto.
      destruct (Hfa i k True ltac:(lia) H3') as [H|(H4 & _ & H5 & H6)]; [left; exact H|right].
      destruct (En_slot _ _ HE i ltac:(lia) H5 H6) as [-> _]. exact H4.
  - (* GD *) destruct HK as (H1 & H2 & H3). destruct HU as [_ Hi]. split; [lia|]. split.
    + exact (Hscan _ _ _ H1 H2).
    + destruct (Hfa i k (aval st i = v) ltac:(lia) H3) as [H|(H4 & H7 & H5 & H6)]; [left; exact H|right].
      destruct (En_slot _ _ HE i ltac:(lia) H5 H6) as [-> ->]. auto.
  - (* GS *) destruct HK as (H1 & H2 & H3). destruct HU as [_ Hi]. split; [lia|]. split.
    + exact (Hscan _ _ _ H1 H2).
    + destruct (Hfa i k (aval st i = v) ltac:(lia) H3) as [H|(H4 & H7 & H5 & H6)]; [left; exact H|right].
      destruct (En_slot _ _ HE i ltac:(lia) H5 H6) as [-> ->]. auto.
  - (* GH *) destruct HK as [H|H]; [auto | destruct (Hch _ H); auto].
  - (* GXK *) destruct HK as (H1 & H2 & H3). exact (Hitem _ _ H1 H2 H3).
  - (* GXV *) destruct HK as (H1 & H2). destruct (En_pos _ _ HE x H1) as (P1 & P2 & P3). split; [exact P1|]. rewrite P3, Eo. exact H2.
  - (* GXD *) rewrite Eo. exact HK.
  - (* GXS *) rewrite Eo. exact HK.
  - (* GXN *) destruct HK as (H1 & H2). destruct (En_pos _ _ HE x H1) as (P1 & P2 & P3). split; [exact P1|].
    destruct H2 as [H|H]; [auto | destruct (Hsu _ _ H1 H); auto].
  - (* GXC *) destruct HK as [[H0 H]|(H0 & H1 & H2 & H3)]; [left; auto | right; split; [exact H0 | exact (Hitem _ _ H1 H2 H3)]].
  - (* GE *) auto.
Qed.

Lemma pend_eq st st' : mk st' = mk st -> g_limbo st' = g_limbo st -> (pend st' <-> pend st).
Proof. unfold pend. intros -> ->. tauto. Qed.

(** steps that leave the logical content alone *)
Lemma Env_same st st' : ic st' = ic st -> mk st' = mk st -> g_map st' = g_map st -> g_chain st' = g_chain st ->
  g_dup st' = g_dup st -> g_limbo st' = g_limbo st ->
  (forall j, j < ic st -> j + 1 <> mk st -> akey st' j = akey st j /\ aval st' j = aval st j) ->
  (forall x, POS st x -> xkey st' x = xkey st x /\ xval st' x = xval st x /\ xnext st' x = xnext st x) -> Env st st'.
Proof.
  intros Eic Emk Em Ec Ed El Hs Hx.
  assert (Hl : lchain st' = lchain st) by (unfold lchain; rewrite Ed, Ec; reflexivity).
  constructor.
  - lia.
  - intros j H1 H2 _. apply Hs; assumption.
  - intros _. exact Emk.
  - intros j _ H1 H2. congruence.
  - intros H. split; [apply (pend_eq _ _ Emk El); exact H | intros k; rewrite Em; tauto].
  - intros x H. destruct (Hx x H) as (H1 & H2 & _). split; [|tauto]. unfold POS in *. rewrite Ec, El. exact H.
  - intros y H. left. rewrite Hl. exact H.
  - intros x y H1 H2 _. destruct (Hx x H1) as (_ & _ & ->). rewrite Ec. exact H2.
Qed.





Lemma next_ne_self nx l x : NoDup l -> ~ In 0 l -> linksto nx l 0 -> In x l -> nx x <> x.
Proof.
  intros Hnd H0 HL Hx E. pose proof (from_next nx l x Hnd H0 HL Hx) as Hf. rewrite E in Hf.
  destruct (from_in x l Hx) as [r Hr]. rewrite Hr in Hf. cbn [tl] in Hf.
  assert (Hlen : length (x :: r) = length r) by (rewrite Hf at 1; reflexivity). cbn [length] in Hlen. lia.
Qed.


Lemma pred_unique nx l a b : NoDup l -> ~ In 0 l -> linksto nx l 0 -> In a l -> In b l ->
  nx a = nx b -> nx a <> 0 -> a = b.
Proof.
  induction l as [|c r IH]; intros Hnd H0 HL Ha Hb E Hnz; [destruct Ha|].
  inversion Hnd as [|c' r' Hnc Hnd']; subst. cbn [linksto] in HL. destruct HL as [Hc HL].
  assert (H0' : ~ In 0 r) by (intros H; apply H0; right; exact H).
  destruct Ha as [<-|Ha]; destruct Hb as [<-|Hb]; try reflexivity.
  - exfalso. apply (next_not_hd nx r b Hnd' HL H0' Hb). congruence.
  - exfalso. apply (next_not_hd nx r a Hnd' HL H0' Ha). congruence.
  - apply IH; assumption.
Qed.


(** every step either increments the version or keeps the reader's environment *)
Lemma Env_leff st st' : Mem st -> leff st st' -> g_nver st' = g_nver st + 1 \/ (g_nver st' = g_nver st /\ Env st st').
Proof.
  intros HM [Eic Emk Em Ec Ed Hn Hs Hx Hxn
            |c k v Ekv Exn Ever Hmk Hl Hic Hc Hic' Hmk' Ec Ed Hd El Hk Hv Habs Em
            |n k v Ekv Exn Ever Eic Emk Hmk Hl H3 Ec Hn Hnz Ed' Ed El Hk Hv Habs Em
            |i k Ekv Exn Ever Eic Hmk Hl Hi Emk Ec Ed Hd El Hk Em
            |i x r _ Ever _ _ _ _ _ _ _ _ _ _ _ _
            |e r Ekv Exn Ever Eic Emk Hmk Hl Ec Ec' Ed Ed' El Em
            |i _ Ever _ _ _ _ _ _ _ _ _ _
            |i k _ Ever _ _ _ _ _ _ _ _ _ _
            |p x k Ekv Ever Eic Emk Hmk Hl Hx Hlk Exn Ec Ed Ed' El Hk Em];
    try (left; exact Ever); try injection Ekv as Ea Eb Exk Exv.
  - destruct Hn as [[El Ever]|Ever]; [right; split; [exact Ever|] | left; exact Ever].
    apply Env_same; try assumption.
    + intros j H1 H2. apply Hs. split; assumption.
    + intros y H. destruct (Hx y (or_introl H)). rewrite (Hxn y H). auto.
  - right. split; [exact Ever|]. assert (Eic : ic st' = ic st + 1) by congruence. assert (Emk : mk st' = mk st) by congruence.
    {
      assert (Hlc : lchain st' = lchain st) by (unfold lchain; rewrite Ed, Ec; reflexivity).
      assert (Hnp : ~ pend st) by (unfold pend; lia).
      constructor.
      - lia.
      - intros j _ _ _. rewrite Ea, Eb. tauto.
      - intros _. exact Emk.
      - intros j _ _ H. lia.
      - intros H. contradiction.
      - intros x H. rewrite Exk, Exv. split; [|tauto]. unfold POS in *. rewrite Ec, El. exact H.
      - intros y H. left. rewrite Hlc. exact H.
      - intros x y _ H _. rewrite Exn, Ec. exact H.
    }
  - right. split; [exact Ever|].
    {
      assert (Hnp : ~ pend st) by (unfold pend; lia).
      constructor.
      - lia.
      - intros j _ _ _. rewrite Ea, Eb. tauto.
      - intros _. exact Emk.
      - intros j _ _ H. lia.
      - intros H. contradiction.
      - intros x H. rewrite Exk, Exv. split; [|tauto]. unfold POS in *. rewrite Ec, El. destruct H as [H|H]; [left; right; exact H | right; exact H].
      - intros y H. left. rewrite lchain_nodup in * by assumption. rewrite Ec. right. exact H.
      - intros x y Hx H _. rewrite Exn, Ec. rewrite from_cons_ne; [exact H|].
        destruct Hx as [Hx|[Hx1 Hx2]]; [|congruence]. intros E.
        destruct (N.eq_dec (xnext st x) 0) as [E0|E0]; [congruence|].
        apply Hn. rewrite E. apply linksto_next_in; [apply nil_not_0; exact HM | exact (M_clk _ HM) | exact Hx | exact E0].
    }
  - right. split; [exact Ever|]. subst k.
    {
      assert (Hlc : lchain st' = lchain st) by (unfold lchain; rewrite Ed, Ec; reflexivity).
      assert (Hnp : ~ pend st) by (unfold pend; lia).
      constructor.
      - lia.
      - intros j _ _ _. rewrite Ea, Eb. tauto.
      - intros H. contradiction.
      - intros j _ _ H. assert (j = i) by lia. subst j. rewrite Em, lookup_rem, N.eqb_refl. reflexivity.
      - intros H. contradiction.
      - intros x H. rewrite Exk, Exv. split; [|tauto]. unfold POS in *. rewrite Ec, El. exact H.
      - intros y H. left. rewrite Hlc. exact H.
      - intros x y _ H _. rewrite Exn, Ec. exact H.
    }
  - right. split; [exact Ever|].
    {
      assert (Hlc : lchain st' = lchain st) by (unfold lchain; rewrite Ed, Ed', Ec, Ec'; reflexivity).
      assert (Hnp : ~ pend st) by (unfold pend; lia).
      assert (He : e <> 0) by (intros ->; apply (nil_not_0 _ HM); rewrite Ec; left; reflexivity).
      constructor.
      - lia.
      - intros j _ _ _. rewrite Ea, Eb. tauto.
      - intros _. exact Emk.
      - intros j _ _ H. lia.
      - intros H. contradiction.
      - intros x H. rewrite Exk, Exv. split; [|tauto]. unfold POS in *. rewrite Ec', El. rewrite Ec, Hl in H.
        destruct H as [[<-|H]|[H1 H2]]; [right; auto | left; exact H | congruence].
      - intros y H. left. rewrite Hlc. exact H.
      - intros x y Hx H _. rewrite Exn, Ec'. rewrite Ec in H. rewrite from_cons_ne in H; [exact H|].
        destruct Hx as [Hx|[Hx1 Hx2]]; [|congruence]. intros E.
        apply (next_not_hd (xnext st) (g_chain st) x); [exact (M_cnd _ HM) | exact (M_clk _ HM) | apply nil_not_0; exact HM | exact Hx |].
        rewrite Ec. cbn [hd]. symmetry. exact E.
    }
  - right. split; [exact Ever|]. subst k.
    {
      assert (Hnp : ~ pend st) by (unfold pend; lia).
      pose proof (nil_not_0 _ HM) as H0. pose proof (M_cnd _ HM) as Hnd. pose proof (M_clk _ HM) as HL.
      assert (Hxz : x <> 0) by (intros ->; contradiction).
      assert (Hpend' : pend st') by (right; rewrite El; exact Hxz).
      assert (Hfx : from x (g_chain st) = x :: from (xnext st x) (g_chain st)).
      { destruct (from_in _ _ Hx) as [r Hr]. rewrite (from_next _ _ _ Hnd H0 HL Hx), Hr. reflexivity. }
      assert (Hnx : xnext st x <> x).
      { intros E. assert (Hd : NoDup (from x (g_chain st))).
        { clear -Hnd. induction (g_chain st) as [|a l IH]; cbn [from]; [constructor|]. destruct (a =? x); [exact Hnd|].
          apply IH. inversion Hnd; assumption. }
        rewrite Hfx in Hd. inversion Hd as [|? ? Hni _]; subst. apply Hni. rewrite E.
        destruct (from_in _ _ Hx) as [r Hr]. rewrite Hr. left. reflexivity. }
      constructor.
      - lia.
      - intros j _ _ _. rewrite Ea, Eb. tauto.
      - intros _. exact Emk.
      - intros j _ _ H. lia.
      - intros H. contradiction.
      - intros y H. rewrite Exk, Exv. split; [|tauto]. unfold POS in *. rewrite Ec, El.
        destruct H as [H|[H1 H2]]; [|congruence]. destruct (N.eq_dec y x) as [->|Hne]; [right; auto | left; apply in_remx; auto].
      - intros y H. rewrite lchain_nodup in * by assumption. rewrite Ec. destruct (N.eq_dec y x) as [->|Hne].
        + right. split; [|exact Hpend']. rewrite Em, lookup_rem, N.eqb_refl. reflexivity.
        + left. apply in_remx. auto.
      - intros y0 z Hy0 Hz Hz'. rewrite lchain_nodup in Hz' by assumption. rewrite Ec in *. apply in_remx in Hz'. destruct Hz' as [Hz1 Hz2].
        destruct Hy0 as [Hy0|[Hy1 Hy2]]; [|congruence].
        assert (Hcase : (p <> 0 /\ y0 = p) \/ xnext st' y0 = xnext st y0).
        { rewrite Exn. destruct (N.eqb_spec p 0) as [Ep|Ep]; [right; reflexivity|].
          destruct (N.eq_dec y0 p) as [->|Hne]; [left; auto | right; apply setf_other; exact Hne]. }
        destruct Hcase as [[Hp ->]|En].
        + (* the predecessor: its link now skips x *)
          destruct Hlk as [[Hp0 _]|(_ & Hpc & Hpx)]; [contradiction|].
          rewrite Exn. destruct (N.eqb_spec p 0) as [Ep|_]; [contradiction|]. rewrite setf_same.
          rewrite Hpx, Hfx in Hz. destruct Hz as [Hz|Hz]; [congruence|].
          rewrite from_remx by exact Hnx. apply in_remx. auto.
        + rewrite En. assert (Hw : xnext st y0 <> x).
          { intros E. destruct Hlk as [[Hp0 Hh]|(Hp0 & Hpc & Hpx)].
            - apply (next_not_hd (xnext st) (g_chain st) y0 Hnd HL H0 Hy0). rewrite <- (M_chd _ HM). congruence.
            - assert (y0 = p) by (apply (pred_unique (xnext st) (g_chain st)); try assumption; congruence).
              subst y0. rewrite Exn in En. destruct (N.eqb_spec p 0) as [Ep|_]; [contradiction|]. rewrite setf_same in En. congruence. }
          rewrite from_remx by exact Hw. apply in_remx. auto.
    }
Qed.

Lemma lookup_wit st k v : G st -> lookup k (g_map st) = Some v ->
  (exists j, vslot st j /\ akey st j = k /\ aval st j = v) \/ (exists y, In y (lchain st) /\ xkey st y = k /\ xval st y = v).
Proof. intros HG H. apply (G_map _ HG) in H. exact H. Qed.

(** every item of the physical chain (also a head that is a copy of a slot) carries a pair of [g_map] *)
Lemma item_lookup st y : G st -> In y (g_chain st) -> lookup (xkey st y) (g_map st) = Some (xval st y).
Proof.
  intros HG Hy. apply (G_map _ HG). unfold item_has, lchain. destruct (g_dup st) eqn:Ed.
  - destruct (g_chain st) as [|e r] eqn:Ec; [destruct Hy|]. destruct Hy as [<-|Hy].
    + left. destruct (G_dup _ HG Ed) as (j & J1 & J2 & J3). rewrite Ec in J2, J3. cbn [hd] in *. exists j. split; [exact J1 | split; assumption].
    + right. exists y. cbn [tl]. split; [exact Hy | split; reflexivity].
  - right. exists y. split; [exact Hy | split; reflexivity].
Qed.

Lemma succw_next st k x : Mem st -> succw st k x ->
  In (xnext st x) (g_chain st) /\ (xkey st (xnext st x) = k \/ succw st k (xnext st x)).
Proof.
  intros HM (w & H1 & H2 & H3). set (y := xnext st x) in *.
  destruct (in_dec N.eq_dec y (g_chain st)) as [Hy|Hy]; [|rewrite (from_notin _ _ Hy) in H1; destruct H1].
  split; [exact Hy|]. destruct (from_in _ _ Hy) as [r Hr].
  pose proof (from_next (xnext st) (g_chain st) y (M_cnd _ HM) (nil_not_0 _ HM) (M_clk _ HM) Hy) as Hf.
  rewrite Hr in H1, Hf. cbn [tl] in Hf. destruct H1 as [<-|H1]; [left; exact H3|right].
  exists w. rewrite Hf. auto.
Qed.

Lemma from_hd0 (l : list N) x : x = hd 0 l -> In x l -> from x l = l.
Proof. destruct l as [|a l]; [intros _ []|]. cbn [hd]. intros -> _. apply from_hd. Qed.

Lemma chainw_hd st k : Mem st -> chainw st k -> bhead st <> 0 ->
  xkey st (bhead st) = k \/ succw st k (bhead st).
Proof.
  intros HM (w & H1 & H2) Hnz. pose proof (M_chd _ HM) as Hh.
  assert (Hb : In (bhead st) (g_chain st)) by (apply hd_in; assumption).
  pose proof (from_next (xnext st) (g_chain st) (bhead st) (M_cnd _ HM) (nil_not_0 _ HM) (M_clk _ HM) Hb) as Hf.
  pose proof (lchain_sub _ _ H1) as Hw. rewrite (from_hd0 _ _ Hh Hb) in Hf.
  destruct (g_chain st) as [|e r] eqn:Ec; [destruct Hb|]. cbn [hd tl] in *.
  destruct Hw as [Hw|Hw]; [left; congruence|right].
  exists w. unfold succw. rewrite Ec, Hf. auto.
Qed.

Section VhmInv.
  Variable xoff : N.
  Notation step := (step xoff).

  Lemma step_env st a st' es : Lk st -> Mem st -> Abs st -> step st a = Some (st', es) ->
    g_nver st' = g_nver st + 1 \/ (g_nver st' = g_nver st /\ Env st st').
  Proof. intros HI HM (HG & HA & _) H. exact (Env_leff _ _ HM (step_leff _ _ _ _ _ HI HM HG HA H)). Qed.

  Lemma step_other st a st' es : step st a = Some (st', es) ->
    exists t, (forall t', t' <> t -> th st' t' = th st t' /\ g_obs st' t' = g_obs st t' /\ g_rv st' t' = g_rv st t') /\
              (a = Step t \/ exists o, a = Start t o).
  Proof.
    intros H. destruct (step_cases _ _ _ _ _ H) as [t o Ep|t p p' Ep Hl|t p st' Ep Hs|t p st' Ep Hr];
      exists t; (split; [|eauto]); [ | | destruct Hs | destruct Hr];
      intros t' Hne; st_simpl_goal; rewrite ?upd_other by exact Hne; auto.
  Qed.

  Lemma nver_mono st a st' es : step st a = Some (st', es) -> g_nver st <= g_nver st'.
  Proof.
    intros H. destruct (step_cases _ _ _ _ _ H) as [t o Ep|t p p' Ep Hl|t p st' Ep Hs|t p st' Ep Hr];
      [ | | destruct Hs | destruct Hr]; st_simpl_goal; lia.
  Qed.

  Lemma Lim_step st a st' es : Lk st -> Mem st -> Lim st -> step st a = Some (st', es) -> Lim st'.
  Proof.
    intros HI HM HL H. unfold Lim in *. step_split H t.
    all: try exact HL.
    all: try (intros Hc; exfalso; apply Hc; reflexivity).
    all: pose proof (M_ch _ HM t) as Hch; rewrite Epc in Hch; cbn [pc_ch] in Hch.
    all: pose proof (M_cnd _ HM) as Hcnd; pose proof (M_chd _ HM) as Hchd; pose proof (M_clk _ HM) as Hclk;
         pose proof (nil_not_0 _ HM) as H0.
    - (* IXSN *) intros Hc. exfalso. apply Hc.
      assert (Hown : g_owner st = Some t) by (apply (Lk_own _ HI); rewrite Epc; discriminate).
      destruct (M_fl _ HM t Hown) as [_ Hl]. rewrite Epc in Hl. exact Hl.
    - (* IXSH *) intros Hc. exfalso. apply Hc.
      assert (Hown : g_owner st = Some t) by (apply (Lk_own _ HI); rewrite Epc; discriminate).
      destruct (M_fl _ HM t Hown) as [_ Hl]. rewrite Epc in Hl. exact Hl.
    - (* XA8 *) intros _. destruct Hch as (Hx & Hnz & Hnx). destruct (g_chain st) as [|x' rr] eqn:Ec; cbn [hd] in Hchd; [congruence|].
      assert (x' = x) by congruence. subst x'. cbn [tl linksto] in *. destruct Hclk as [Hn Hclk]. inversion Hcnd; subst.
      split; [assumption|]. rewrite Hn. destruct rr as [|y rr']; [left; reflexivity | right; left; reflexivity].
    - (* XXP head *) intros _. destruct Hch as (Hx & [(_ & Hh)|(Hc & _)] & Hnx); [|exfalso; apply Hc; reflexivity].
      destruct (g_chain st) as [|x' rr] eqn:Ec; [destruct Hx|]. cbn [hd] in Hchd. assert (x' = x) by congruence. subst x'.
      cbn [linksto] in Hclk. destruct Hclk as [Hn Hclk]. inversion Hcnd; subst. rewrite remx_hd by assumption.
      split; [assumption|]. rewrite Hn. destruct rr as [|y rr']; [left; reflexivity | right; left; reflexivity].
    - (* XXP item *) intros _. b2p. destruct Hch as (Hx & [(Hc & _)|(_ & Hp & Hpx)] & Hnx); [contradiction|].
      assert (Hne : xnext st x <> x) by (apply (next_ne_self (xnext st) (g_chain st)); assumption).
      assert (Hxp : x <> p) by (intros ->; contradiction).
      rewrite setf_other by exact Hxp. split; [rewrite in_remx; tauto|].
      destruct (N.eq_dec (xnext st x) 0) as [E|E]; [left; exact E|right]. apply in_remx. split; [|exact Hne].
      apply linksto_next_in; assumption.
    - (* F4 *) intros Hl. destruct (limbo_owned _ HI HM Hl) as (u & Ho & Hpo & Hpb).
      assert (Hne : g_limbo st <> x).
      { intros E. apply (M_inj _ HM t u x); [|rewrite Epc; reflexivity | rewrite <- E; exact Hpo].
        intros ->. rewrite Epc in Hpb. apply Hpb. reflexivity. }
      rewrite setf_other by exact Hne. exact (HL Hl).
  Qed.

  Theorem Lim_reach st : reach init step st -> Lim st.
  Proof.
    apply (inv_rule_aux _ _ _ init step (fun s => Lk s /\ Mem s) Lim).
    - intros s Hr. split; [apply (Lk_reach xoff); exact Hr | apply (Mem_reach xoff); exact Hr].
    - intros H. cbn in H. contradiction.
    - intros s a s' es [HI HM] _ HL Hs. exact (Lim_step _ _ _ _ HI HM HL Hs).
  Qed.

  Lemma RU_mono st st' t p : g_rv st' t = g_rv st t -> g_nver st <= g_nver st' -> RU st t p -> RU st' t p.
  Proof. intros E1 E2 H. destruct p; cbn [RU] in *; unfold RB in *; rewrite ?E1; try exact H; intuition lia. Qed.

  Lemma RI_other st a st' es t' : Lk st -> Mem st -> Abs st -> step st a = Some (st', es) ->
    th st' t' = th st t' -> g_obs st' t' = g_obs st t' -> g_rv st' t' = g_rv st t' ->
    RI st t' (th st t') -> RI st' t' (th st' t').
  Proof.
    intros HI HM HA Hs Eth Eo Er [HU HK]. rewrite Eth. pose proof (nver_mono _ _ _ _ Hs) as Hmono.
    split; [apply (RU_mono st); assumption|]. intros HC. unfold Cur in *.
    destruct (step_env _ _ _ _ HI HM HA Hs) as [Hb|[Hv HE]].
    - rewrite Er, Hb in HC. destruct (th st t'); cbn [RK]; try exact I; exfalso; cbn [RU] in HU; unfold RB in HU; intuition lia.
    - apply (RK_env st); try assumption. apply HK. congruence.
  Qed.

  Lemma RI_own st a st' es t : Lk st -> Mem st -> Abs st -> Lim st -> (a = Step t \/ exists o, a = Start t o) ->
    RI st t (th st t) -> step st a = Some (st', es) -> RI st' t (th st' t).
  Proof.
    intros HI HM (HG & HA & _) HL Ha HR H.
    assert (Ht : forall u, (a = Step u \/ exists o, a = Start u o) -> u = t) by (intros u [->|[o ->]]; destruct Ha as [E|[o' E]]; congruence).
    clear Ha.
    step_split H t0.
    all: assert (t0 = t) by (apply Ht; eauto); subst t0; clear Ht.
    all: rewrite ?upd_same.
    all: try (split; [exact I | intros _; exact I]).
    all: rewrite Epc in HR; destruct HR as [HU HK]; cbn [RU RK] in HU, HK.
    all: unfold RI, Cur in *; cbn [RU RK]; unfold RB, esc, J in *; st_simpl; rewrite ?upd_same; b2p.
    all: match goal with HG0 : G ?s0 |- _ => repeat match goal with
         | |- context [ic ?x] => lazymatch x with s0 => fail | _ => change (ic x) with (ic s0) end
         | |- context [mk ?x] => lazymatch x with s0 => fail | _ => change (mk x) with (mk s0) end
         | |- context [pend ?x] => lazymatch x with s0 => fail | _ => change (pend x) with (pend s0) end
         | |- context [slotw ?x] => lazymatch x with s0 => fail | _ => change (slotw x) with (slotw s0) end
         | |- context [chainw ?x] => lazymatch x with s0 => fail | _ => change (chainw x) with (chainw s0) end
         | |- context [succw ?x] => lazymatch x with s0 => fail | _ => change (succw x) with (succw s0) end
         | |- context [POS ?x] => lazymatch x with s0 => fail | _ => change (POS x) with (POS s0) end
         end end.
    all: (split; [try solve [intuition lia]|]).
    all: try (intros HC; specialize (HK HC)).
    - (* G2 -> GK 0 *) rsplit; try lia; first [exact (Lk_ver _ HI) | exact (Lk_ic _ HI)].
    - unfold ic. split; [lia|]. destruct (lookup k (g_map st)) as [v0|] eqn:EL; [|left; left; apply in_snoc; auto].
      right. destruct (lookup_wit _ _ _ HG EL) as [(j & [J1 J2] & J3 & _)|(y & Y1 & Y2 & _)]; [left | right; exists y; auto].
      exists j. unfold ic in J1. rsplit; try assumption; lia.
    - (* G2 -> GH *) rsplit; try lia; first [exact (Lk_ver _ HI) | exact (Lk_ic _ HI)].
    - destruct (lookup k (g_map st)) as [v0|] eqn:EL; [|left; left; apply in_snoc; auto].
      right. destruct (lookup_wit _ _ _ HG EL) as [(j & [J1 J2] & J3 & _)|(y & Y1 & Y2 & _)]; [unfold ic in J1; lia | exists y; auto].
    - (* GK match *) destruct HK as (H1 & H2). rsplit; [exact H1 | | right; assumption].
      destruct H2 as [[H|H]|H]; [left; left; apply in_snoc; auto | left; right; exact H | right; exact H].
    - (* GK next slot *) destruct HK as (H1 & H2). split; [exact H1|].
      destruct H2 as [[H|H]|[(j & J1 & J2 & J3 & J4)|H]]; [left; left; apply in_snoc; auto | left; right; exact H | | right; right; exact H].
      right. left. exists j. rsplit; try assumption. assert (j <> i) by (intros ->; contradiction). lia.
    - (* GK -> GH *) destruct HK as (H1 & H2).
      destruct H2 as [[H|H]|[(j & J1 & J2 & J3 & J4)|H]]; [left; left; apply in_snoc; auto | left; right; exact H | | right; exact H].
      exfalso. assert (j = i) by lia. subst j. contradiction.
    - (* GV *) destruct HK as (H1 & H2 & H3). rsplit; [exact H1 | | tauto].
      destruct H2 as [[H|H]|H]; [left; left; apply in_snoc; auto | left; right; exact H | right; exact H].
    - (* GD *) destruct HK as (H1 & H2 & H3). rsplit; [exact H1 | | tauto].
      destruct H2 as [[H|H]|H]; [left; left; apply in_snoc; auto | left; right; exact H | right; exact H].
    - (* GS continue -> GK *) destruct HK as (H1 & H2 & H3). split; [exact H1|].
      destruct H2 as [[H|H]|[(j & J1 & J2 & J3 & J4)|H]]; [left; left; apply in_snoc; auto | left; right; exact H | | right; right; exact H].
      right. left. exists j. rsplit; try assumption. unfold mk in J3. assert (j <> i) by lia. lia.
    - (* GS continue -> GH *) destruct HK as (H1 & H2 & H3).
      destruct H2 as [[H|H]|[(j & J1 & J2 & J3 & J4)|H]]; [left; left; apply in_snoc; auto | left; right; exact H | | right; exact H].
      exfalso. unfold mk in J3. lia.
    - (* GH -> GE *) destruct HK as [[H|H]|(y & Y1 & _)]; [left; apply in_snoc; auto | right; exact H |].
      exfalso. apply lchain_sub in Y1. rewrite (chain_nil _ HM ltac:(assumption)) in Y1. destruct Y1.
    - (* GH -> GXK *) assert (Hb : In (bhead st) (g_chain st)) by (apply hd_in; [exact (M_chd _ HM) | assumption]).
      rsplit; [left; exact Hb | |].
      + intros Hk. apply in_snoc. right. rewrite <- Hk. symmetry. apply item_lookup; assumption.
      + destruct HK as [[H|H]|H]; [left; left; apply in_snoc; auto | left; right; exact H | right].
        apply chainw_hd; assumption.
    - (* GXK match *) destruct HK as (H1 & H2 & H3). split; [exact H1|]. apply in_snoc. left. apply H2. assumption.
    - (* GXK no match *) destruct HK as (H1 & H2 & H3). split; [exact H1|].
      destruct H3 as [[H|H]|[H|H]]; [left; left; apply in_snoc; auto | left; right; exact H | contradiction | right; exact H].
    - (* GXV *) destruct HK as (H1 & H2). apply in_snoc. left. exact H2.
    - (* GXD *) apply in_snoc. left. exact HK.
    - (* GXN -> GXC *) destruct HK as (H1 & H2). destruct HU as [_ Hxz].
      assert (Hy : xnext st x = 0 \/ In (xnext st x) (g_chain st)).
      { destruct H1 as [H1|[_ H1]].
        - destruct (N.eq_dec (xnext st x) 0) as [E|E]; [left; exact E|right].
          apply linksto_next_in; [apply nil_not_0; exact HM | exact (M_clk _ HM) | exact H1 | exact E].
        - subst x. apply HL. exact Hxz. }
      destruct (N.eq_dec (xnext st x) 0) as [E|E].
      + left. split; [exact E|]. destruct H2 as [[H|H]|H]; [left; apply in_snoc; auto | right; exact H |].
        exfalso. destruct (succw_next _ _ _ HM H) as [Hc _]. rewrite E in Hc. exact (nil_not_0 _ HM Hc).
      + right. destruct Hy as [Hy|Hy]; [contradiction|]. rsplit; [exact E | left; exact Hy | |].
        * intros Hk. apply in_snoc. right. rewrite <- Hk. symmetry. apply item_lookup; assumption.
        * destruct H2 as [[H|H]|H]; [left; left; apply in_snoc; auto | left; right; exact H | right].
          apply succw_next; assumption.
    - (* GXC -> GE *) destruct HK as [[_ H]|(H & _)]; [|contradiction].
      destruct H as [H|H]; [left; apply in_snoc; auto | right; exact H].
    - (* GXC -> GXK *) destruct HK as [[H _]|(_ & H1 & H2 & H3)]; [contradiction|]. rsplit; [exact H1 | |].
      + intros Hk. apply in_snoc. left. apply H2. exact Hk.
      + destruct H3 as [[H|H]|H]; [left; left; apply in_snoc; auto | left; right; exact H | right; exact H].
  Qed.

  Definition Inv0 (st : state) : Prop := Lk st /\ Mem st /\ Abs st /\ Lim st.

  Lemma Inv0_reach st : reach init step st -> Inv0 st.
  Proof.
    intros Hr. split; [apply (Lk_reach xoff); exact Hr|]. split; [apply (Mem_reach xoff); exact Hr|].
    split; [apply (Abs_reach xoff); exact Hr | apply Lim_reach; exact Hr].
  Qed.

  Theorem RI_reach st : reach init step st -> forall t, RI st t (th st t).
  Proof.
    apply (inv_rule_aux _ _ _ init step Inv0 (fun s => forall t, RI s t (th s t))).
    - exact Inv0_reach.
    - intros t. cbn. split; [exact I | intros _; exact I].
    - intros s a s' es (HI & HM & HA & HL) _ HR Hs t'.
      destruct (step_other _ _ _ _ Hs) as (t & Ho & Ha).
      destruct (Nat.eq_dec t' t) as [->|Hne].
      + exact (RI_own _ _ _ _ t HI HM HA HL Ha (HR t) Hs).
      + destruct (Ho t' Hne) as (E1 & E2 & E3). exact (RI_other _ _ _ _ t' HI HM HA Hs E1 E2 E3 (HR t')).
  Qed.

  Lemma cur_of_version st t s : Lk st -> Bnd st -> RB st t s -> bs_version s = bs_version (bst st) -> Cur st t.
  Proof.
    intros HI HB (H1 & H2 & _) E. unfold Cur, Bnd in *. rewrite H2, (Lk_ver _ HI) in E.
    rewrite !N.mod_small in E by lia. exact E.
  Qed.

  Lemma hist_r_step st a st' es : Inv0 st -> (forall t, RI st t (th st t)) ->
    (Bnd st -> forall h, In h (g_hist st) -> hist_ok_r h) ->
    step st a = Some (st', es) -> Bnd st' -> forall h, In h (g_hist st') -> hist_ok_r h.
  Proof.
    intros (HI & HM & (HG & HA & _) & HL) HR HH H HB'.
    assert (HB : Bnd st) by (pose proof (nver_mono _ _ _ _ H); unfold Bnd in *; lia). specialize (HH HB). clear HB'.
    destruct (step_cases _ _ _ _ _ H) as [t o Ep|t p p' Ep Hl|t p st' Ep Hs|t p st' Ep Hr];
      [ | | destruct Hs | destruct Hr]; try exact HH.
    (* the returns: a writer's record satisfies [hist_ok_r] trivially *)
    all: st_simpl_goal; intros h Hh; apply in_snoc in Hh; destruct Hh as [Hh| ->]; [apply HH; exact Hh|].
    all: unfold hist_ok_r, ins_op, del_op; cbn [h_op h_res h_obs]; try (destruct a; exact I); try (destruct e; exact I).
    all: rewrite upd_same.
    all: pose proof (HR t) as [HU HK]; rewrite Ep in HU, HK; cbn [RU RK] in HU, HK.
    - (* GS returns v *) destruct HU as [HU Hi]. pose proof (cur_of_version _ _ _ HI HB HU ltac:(assumption)) as HC.
      destruct (HK HC) as (_ & _ & [K3|[K3 K4]]); [unfold mk in K3; contradiction|].
      left. exists v. split; [reflexivity|]. apply in_snoc. right. symmetry. apply (G_map _ HG). left. exists i.
      unfold vslot, mk. split; [split; [lia | intros E; symmetry in E; contradiction] | auto].
    - (* GXS returns v *) pose proof (cur_of_version _ _ _ HI HB HU ltac:(assumption)) as HC.
      left. exists v. split; [reflexivity|]. apply in_snoc. left. exact (HK HC).
    - (* GE returns absent *) pose proof (cur_of_version _ _ _ HI HB HU ltac:(assumption)) as HC.
      right. split; [reflexivity|]. apply in_snoc. destruct (HK HC) as [K|[K _]]; [left; exact K | right; symmetry; exact K].
  Qed.

  Theorem hist_r_reach st : reach init step st -> Bnd st -> forall h, In h (g_hist st) -> hist_ok_r h.
  Proof.
    apply (inv_rule_aux _ _ _ init step (fun s => Inv0 s /\ forall t, RI s t (th s t))
             (fun s => Bnd s -> forall h, In h (g_hist s) -> hist_ok_r h)).
    - intros s Hr. split; [apply Inv0_reach; exact Hr | apply RI_reach; exact Hr].
    - intros _ h [].
    - intros s a s' es [H0 HR] _ HH Hs. exact (hist_r_step _ _ _ _ H0 HR HH Hs).
  Qed.

  (** * Final statements *)

  (** ** structure *)
  Definition slots (n : N) : list N := map N.of_nat (seq 0 (N.to_nat n)).
  Lemma in_slots n j : In j (slots n) <-> j < n.
  Proof.
    unfold slots. rewrite in_map_iff. split.
    - intros (i & <- & Hi). apply in_seq in Hi. lia.
    - intros H. exists (N.to_nat j). split; [apply Nnat.N2Nat.id | apply in_seq; lia].
  Qed.
  (** the pairs the bucket holds: array slots below item_count, then the extension chain *)
  Definition pairs (st : state) : list (N * N) :=
    map (fun j => (akey st j, aval st j)) (slots (ic st)) ++ map (fun x => (xkey st x, xval st x)) (g_chain st).

  (** When nobody holds the bucket lock: lock bit and delete marker are clear, [g_map] associates exactly the
      pairs of the slots [0, item_count) and of the chain, and no key occurs at two places. *)
  Theorem vhm_structure st : reach init step st -> g_owner st = None ->
    bs_is_locked (bst st) = false /\ bs_delete_marker (bst st) = 0 /\
    (forall k v, lookup k (g_map st) = Some v <-> In (k, v) (pairs st)) /\
    (forall j j', j < ic st -> j' < ic st -> akey st j = akey st j' -> j = j') /\
    (forall x x', In x (g_chain st) -> In x' (g_chain st) -> xkey st x = xkey st x' -> x = x') /\
    (forall j x, j < ic st -> In x (g_chain st) -> akey st j <> xkey st x) /\
    (g_chain st <> [] -> ic st = 3).
  Proof.
    intros Hr Ho. destruct (Inv0_reach _ Hr) as (HI & HM & (HG & _) & _).
    pose proof (Lk_bit _ HI) as Hb. rewrite Ho in Hb. pose proof (Lk_mk _ HI Ho) as Hmk.
    destruct (M_fl0 _ HM Ho) as [Hd _]. pose proof (lchain_nodup _ Hd) as Hl.
    assert (Hv : forall j, vslot st j <-> j < ic st) by (intros j; unfold vslot, mk; rewrite Hmk; lia).
    rsplit; try assumption.
    - intros k v. rewrite (G_map _ HG). unfold pairs, slot_has, item_has. rewrite in_app_iff, !in_map_iff, Hl. split.
      + intros [(j & H1 & H2 & H3)|(x & H1 & H2 & H3)].
        * left. exists j. split; [congruence|]. apply in_slots. apply (proj1 (Hv j)). exact H1.
        * right. exists x. split; [congruence | exact H1].
      + intros [(j & H1 & H2)|(x & H1 & H2)].
        * left. exists j. injection H1 as <- <-. apply in_slots in H2. apply (proj2 (Hv j)) in H2. auto.
        * right. exists x. injection H1 as <- <-. auto.
    - intros j j' H1 H2. apply (G_us _ HG); apply Hv; assumption.
    - rewrite <- Hl. apply (G_ux _ HG).
    - rewrite <- Hl. intros j x H1. apply (G_usx _ HG). apply Hv. exact H1.
    - apply (G_full _ HG).
  Qed.

  (** the chain of the bucket and the free list are the duplicate-free lists [g_chain] / [g_free] linked through
      the next fields from bucket.head / the extension bucket's head, they are disjoint, and an item that a
      thread has popped or unlinked (and not yet linked / pushed) is in neither of them *)
  Theorem vhm_lists st : reach init step st ->
    bhead st = hd 0 (g_chain st) /\ linksto (xnext st) (g_chain st) 0 /\ NoDup (g_chain st) /\
    xhead st = hd 0 (g_free st) /\ linksto (xnext st) (g_free st) 0 /\ NoDup (g_free st) /\
    (forall x, In x (g_chain st) -> In x (g_free st) -> False) /\
    (forall x, In x (g_chain st) \/ In x (g_free st) -> 1 <= x <= 10) /\
    (forall t x, pc_own (th st t) = Some x -> ~ In x (g_chain st) /\ ~ In x (g_free st)).
  Proof.
    intros Hr. destruct (Inv0_reach _ Hr) as (_ & HM & _).
    rsplit; try apply HM.
    all: try (intros x [H|H]; [apply (M_cok _ HM) | apply (M_fok _ HM)]; exact H).
    all: try (intros t x H; apply (M_own _ HM) in H; tauto).
  Qed.

  (** the lock: the lock bit is set iff a thread is between its acquire-CAS and its unlocking store, there is at
      most one such thread, and the version field counts the version increments *)
  Theorem vhm_lock st : reach init step st ->
    (bs_is_locked (bst st) = true <-> exists t, pc_bst (th st t) <> None) /\
    (forall t t', pc_bst (th st t) <> None -> pc_bst (th st t') <> None -> t = t') /\
    bs_version (bst st) = g_nver st mod 2 ^ 27.
  Proof.
    intros Hr. pose proof (Lk_reach xoff _ Hr) as HI. rsplit.
    - rewrite (Lk_bit _ HI). split.
      + destruct (g_owner st) as [t|] eqn:Eo; [|discriminate]. intros _. exists t. rewrite (Lk_pc _ HI t Eo). discriminate.
      + intros [t Ht]. rewrite (Lk_own _ HI t Ht). reflexivity.
    - intros t t'. apply (vhm_mutex xoff); exact Hr.
    - exact (Lk_ver _ HI).
  Qed.

  (** ** the version rule: what may change without a version increment
      Every step either increments the version (and [g_nver]) or satisfies [Env]:
      the item count does not decrease; a valid slot (below the item count, not marked) keeps key and value unless
      this step marks it, and marking it removes its key from [g_map]; the marker stays;
      an item of the chain (or the item that was just unlinked) keeps key and value and stays chain-or-unlinked
      (it is not pushed to the free list or reused); an item leaves the chain only together with its key leaving
      [g_map]; what a reader could reach from its position through next links stays reachable. *)
  Theorem vhm_version_rule st a st' es : reach init step st -> step st a = Some (st', es) ->
    g_nver st' = g_nver st + 1 \/ (g_nver st' = g_nver st /\ Env st st').
  Proof. intros Hr Hs. destruct (Inv0_reach _ Hr) as (HI & HM & HA & _). exact (step_env _ _ _ _ HI HM HA Hs). Qed.

  (** ** writers *)
  (** [g_map] changes only at a step of a writer that records in [g_lp] what [g_map] associated with its key just
      before, and the step either prepends a pair for that key or removes the key (the linearization points) *)
  Theorem vhm_lp_step st a st' es : step st a = Some (st', es) ->
    g_map st' = g_map st \/
    exists t k, a = Step t /\ g_lp st' t = Some (lookup k (g_map st)) /\
      ((exists v, g_map st' = (k, v) :: g_map st) \/ g_map st' = rem k (g_map st)).
  Proof.
    intros H. destruct (step_cases _ _ _ _ _ H) as [t o Ep|t p p' Ep Hl|t p st' Ep Hs|t p st' Ep Hr];
      [ | | destruct Hs | destruct Hr]; try (left; reflexivity).
    all: right; exists t, k; st_simpl_goal; rewrite upd_same; eauto.
  Qed.

  (** emplace / get_or_emplace return 'new' iff the key was absent at the linearization point (else the value
      found, for get_or_emplace), erase / extract return 'ok' iff it was present, extract returns its value *)
  Theorem vhm_writers st : reach init step st -> forall h, In h (g_hist st) -> hist_ok_w h.
  Proof. intros Hr. destruct (Inv0_reach _ Hr) as (_ & _ & (_ & _ & HH) & _). exact HH. Qed.

  (** ** readers *)
  (** [g_obs t] is: what [g_map] associated with the key at every step of t's current try_get_value call *)
  Definition get_key (p : pc) : option N :=
    match p with
    | G1 k | G2 k | GK k _ _ | GV k _ _ | GD k _ _ _ | GS k _ _ _ | GH k _ | GXK k _ _ | GXV k _ _ | GXD k _ _ _
    | GXS k _ _ _ | GXN k _ _ | GXC k _ _ | GE k _ => Some k
    | _ => None
    end.
  Lemma wload_get_key st p p' : wload st p p' -> get_key p = None /\ get_key p' = None.
  Proof. destruct 1; repeat match goal with |- context [if ?c then _ else _] => destruct c end; split; reflexivity. Qed.

  Theorem vhm_obs_step st a st' es t : step st a = Some (st', es) ->
    match get_key (th st t) with
    | Some k => a = Step t /\ g_obs st' t = g_obs st t ++ [lookup k (g_map st)] \/ (a <> Step t /\ g_obs st' t = g_obs st t)
    | None => g_obs st' t = g_obs st t \/ (g_obs st' t = [] /\ exists k, th st t = Begin (OGet k))
    end.
  Proof.
    intros H. destruct (step_other _ _ _ _ H) as (u & Hu & Ha). destruct (Nat.eq_dec t u) as [->|Hne].
    2: { destruct (Hu t Hne) as (_ & -> & _).
         destruct (get_key (th st t)); [right; split; [destruct Ha as [->|[o ->]]; congruence | reflexivity] | left; reflexivity]. }
    destruct Ha as [->|[o ->]].
    - destruct (step_Step _ _ _ _ _ H) as (p & Ep & [(p' & Hl & ->)|[Hs|Hr]]); rewrite Ep.
      + rewrite (proj1 (wload_get_key _ _ _ Hl)). left. reflexivity.
      + destruct Hs; cbn [get_key]; st_simpl_goal; rewrite ?upd_same;
          first [left; reflexivity | right; split; [reflexivity | eexists; reflexivity]].
      + destruct Hr; cbn [get_key]; left; (split; [reflexivity | st_simpl_goal; apply upd_same]).
    - destruct (step_Start _ _ _ _ _ _ H) as [-> ->]. left. reflexivity.
  Qed.

  (** C10, readers: a completed try_get_value(k) that returned v observed [g_map k = v] at one of its steps, one
      that returned 'absent' observed k absent at one of its steps (as long as the 27-bit version counter has
      not wrapped around: fewer than 2^27 removals) *)
  Theorem vhm_readers st : reach init step st -> Bnd st ->
    forall h k, In h (g_hist st) -> h_op h = OGet k ->
    (exists v, h_res h = [4; 1; v] /\ In (Some v) (h_obs h)) \/ (h_res h = [4; 0] /\ In None (h_obs h)).
  Proof.
    intros Hr HB h k Hh Ho. pose proof (hist_r_reach _ Hr HB h Hh) as H. unfold hist_ok_r in H. rewrite Ho in H. exact H.
  Qed.

  (** ** the reader statement over executions (independent of the ghost [g_obs]) *)
  (** [exec s h]: [s] is reachable and [h] lists the states visited before, most recent first *)
  Inductive exec : state -> list state -> Prop :=
  | exec_init : exec init []
  | exec_step : forall s h a s' es, exec s h -> step s a = Some (s', es) -> exec s' (s :: h).

  Lemma exec_reach s h : exec s h -> reach init step s.
  Proof. induction 1 as [|s h a s' es _ IH Hs]; [apply reach_init | eapply reach_step; eauto]. Qed.

  (** own steps of a reader keep the key *)
  Lemma get_key_step st a t st' es k : step st a = Some (st', es) -> a = Step t -> get_key (th st' t) = Some k ->
    th st t = Begin (OGet k) \/ get_key (th st t) = Some k.
  Proof.
    intros H ->. destruct (step_Step _ _ _ _ _ H) as (p & Ep & [(p' & Hl & ->)|[Hs|Hr]]); rewrite Ep.
    - st_simpl_goal. rewrite upd_same, (proj2 (wload_get_key _ _ _ Hl)). discriminate.
    - destruct Hs; st_simpl_goal; rewrite upd_same; repeat match goal with |- context [if ?c then _ else _] => destruct c end;
        cbn [get_key]; try discriminate. intros E. injection E as <-. left. reflexivity.
    - destruct Hr; st_simpl_goal; rewrite upd_same; unfold g_next_slot;
        repeat match goal with |- context [if ?c then _ else _] => destruct c end; cbn [get_key]; try discriminate; auto.
  Qed.

  Lemma begin_get_obs st a t st' es k : step st a = Some (st', es) -> a = Step t -> th st t = Begin (OGet k) -> g_obs st' t = [].
  Proof.
    intros H -> Eb. destruct (step_Step _ _ _ _ _ H) as (p & Ep & [(p' & Hl & ->)|[Hs|Hr]]); rewrite Eb in Ep; subst p.
    - inversion Hl.
    - inversion Hs. apply upd_same.
    - inversion Hr.
  Qed.

  Lemma start_pc st a t o st' es : step st a = Some (st', es) -> a = Start t o -> th st' t = Begin o.
  Proof. intros H ->. destruct (step_Start _ _ _ _ _ _ H) as [_ ->]. apply upd_same. Qed.

  (** every recorded observation is the association of the key in a state of the execution at which (and since
      which) the thread has been inside this call *)
  Definition obs_ok (s : state) (h : list state) : Prop :=
    forall t k, get_key (th s t) = Some k -> forall o, In o (g_obs s t) ->
    exists m, (m < length h)%nat /\ lookup k (g_map (nth m h s)) = o /\
              forall m', (m' <= m)%nat -> get_key (th (nth m' h s) t) = Some k.

  Lemma obs_ok_exec s h : exec s h -> obs_ok s h.
  Proof.
    induction 1 as [|s h a s' es He IH Hs].
    - intros t k Hk. cbn in Hk. discriminate.
    - intros t k Hk o Ho.
      assert (Hshift : forall o0, get_key (th s t) = Some k -> In o0 (g_obs s t) ->
                exists m, (m < length (s :: h))%nat /\ lookup k (g_map (nth m (s :: h) s')) = o0 /\
                          forall m', (m' <= m)%nat -> get_key (th (nth m' (s :: h) s') t) = Some k).
      { intros o0 Hk0 Ho0. destruct (IH t k Hk0 o0 Ho0) as (m & M1 & M2 & M3). exists (S m). cbn [length nth].
        split; [lia|]. split; [rewrite (nth_indep h s' s) by exact M1; exact M2|].
        intros [|m'] Hm'; [exact Hk0|]. rewrite (nth_indep h s' s) by lia. apply M3. lia. }
      pose proof (vhm_obs_step _ _ _ _ t Hs) as Hobs.
      destruct (step_other _ _ _ _ Hs) as (u & Hu & Ha).
      destruct (Nat.eq_dec t u) as [->|Hne].
      + destruct Ha as [->|[o' ->]].
        * destruct (get_key_step _ _ _ _ _ _ Hs eq_refl Hk) as [Hb|Hk0].
          -- rewrite (begin_get_obs _ _ _ _ _ _ Hs eq_refl Hb) in Ho. destruct Ho.
          -- rewrite Hk0 in Hobs. destruct Hobs as [[_ Hobs]|[Hc _]]; [|congruence]. rewrite Hobs in Ho.
             apply in_snoc in Ho. destruct Ho as [Ho| ->]; [apply Hshift; assumption|].
             exists 0%nat. cbn [length nth]. split; [lia|]. split; [reflexivity|]. intros m' Hm'. assert (m' = 0)%nat by lia. subst m'. exact Hk0.
        * (* a Start action of this thread: it was idle *)
          rewrite (start_pc _ _ _ _ _ _ Hs eq_refl) in Hk. discriminate.
      + destruct (Hu t Hne) as (E1 & E2 & _). rewrite E1 in Hk. rewrite E2 in Ho. apply Hshift; assumption.
  Qed.

  Lemma ret_hist st a t st' es k r : step st a = Some (st', es) -> a = Step t -> get_key (th st t) = Some k ->
    In (ERet t r) es ->
    exists w, In (mkH t (OGet k) r w (g_obs st t ++ [lookup k (g_map st)])) (g_hist st').
  Proof.
    intros H -> Hk. cbn [VhmDefs.step] in H. destruct (th st t); try discriminate Hk; injection Hk as ->.
    all: repeat match type of H with (if ?c then _ else _) = Some _ => destruct c end; injection H as <- <-.
    all: cbn [In app]; intros Hr; repeat (destruct Hr as [Hr|Hr]; try discriminate Hr); try contradiction.
    all: injection Hr as <-; st_simpl_goal; rewrite ?upd_same; eexists; apply in_snoc; right; reflexivity.
  Qed.

  (** C10, the main theorem: in every execution, a try_get_value(k) call of thread t that returns r at the step
      s -> s' has a state [sm] of the execution, at which and since which t has been inside this call, where
      [g_map] associated k with the returned value (r = [4;1;v]), resp. where k was absent (r = [4;0]) *)
  Theorem vhm_try_get_value_linearizable s h a t k s' es r :
    exec s h -> step s a = Some (s', es) -> a = Step t -> get_key (th s t) = Some k -> In (ERet t r) es -> Bnd s' ->
    exists m, (m <= length h)%nat /\
      (forall m', (m' <= m)%nat -> get_key (th (nth m' (s :: h) s) t) = Some k) /\
      ((exists v, r = [4; 1; v] /\ lookup k (g_map (nth m (s :: h) s)) = Some v) \/
       (r = [4; 0] /\ lookup k (g_map (nth m (s :: h) s)) = None)).
  Proof.
    intros He Hs Ea Hk Hr HB.
    destruct (ret_hist _ _ _ _ _ _ _ Hs Ea Hk Hr) as [w Hh].
    assert (Hreach : reach init step s') by (eapply reach_step; [apply (exec_reach _ _ He) | exact Hs]).
    pose proof (vhm_readers _ Hreach HB _ k Hh eq_refl) as Hres. cbn [h_res h_obs] in Hres.
    assert (Hwit : forall o, In o (g_obs s t ++ [lookup k (g_map s)]) ->
              exists m, (m <= length h)%nat /\ (forall m', (m' <= m)%nat -> get_key (th (nth m' (s :: h) s) t) = Some k) /\
                        lookup k (g_map (nth m (s :: h) s)) = o).
    { intros o Ho. apply in_snoc in Ho. destruct Ho as [Ho| ->].
      - destruct (obs_ok_exec _ _ He t k Hk o Ho) as (m & M1 & M2 & M3). exists (S m). cbn [nth]. split; [lia|]. split; [|exact M2].
        intros [|m'] Hm'; [exact Hk | apply M3; lia].
      - exists 0%nat. cbn [nth]. split; [lia|]. split; [|reflexivity]. intros m' Hm'. assert (m' = 0)%nat by lia. subst m'. exact Hk. }
    destruct Hres as [(v & E & Hin)|[E Hin]]; destruct (Hwit _ Hin) as (m & M1 & M2 & M3); exists m; (split; [exact M1|]); (split; [exact M2|]).
    - left. exists v. auto.
    - right. auto.
  Qed.
End VhmInv.
(** C10, corollaries in the words of the property: never 'absent' for a key that is present throughout the call,
    never a value the key was not associated with at an instant of the call (so no value of another key, no torn
    value) *)
Corollary vhm_never_absent_if_present xoff s h a t k s' es :
  exec xoff s h -> step xoff s a = Some (s', es) -> a = Step t -> get_key (th s t) = Some k -> Bnd s' ->
  (forall m, (m <= length h)%nat -> get_key (th (nth m (s :: h) s) t) = Some k ->
             lookup k (g_map (nth m (s :: h) s)) <> None) ->
  ~ In (ERet t [4; 0]) es.
Proof.
  intros He Hs Ea Hk HB Hp Hr.
  destruct (vhm_try_get_value_linearizable xoff _ _ _ _ _ _ _ _ He Hs Ea Hk Hr HB) as (m & M1 & M2 & [(v & E & _)|[_ M3]]); [discriminate|].
  apply (Hp m M1); [apply M2; lia | exact M3].
Qed.

Corollary vhm_value_was_associated xoff s h a t k s' es v :
  exec xoff s h -> step xoff s a = Some (s', es) -> a = Step t -> get_key (th s t) = Some k -> Bnd s' ->
  In (ERet t [4; 1; v]) es ->
  exists m, (m <= length h)%nat /\ get_key (th (nth m (s :: h) s) t) = Some k /\
            lookup k (g_map (nth m (s :: h) s)) = Some v.
Proof.
  intros He Hs Ea Hk HB Hr.
  destruct (vhm_try_get_value_linearizable xoff _ _ _ _ _ _ _ _ He Hs Ea Hk Hr HB) as (m & M1 & M2 & [(v' & E & M3)|[E _]]); [|discriminate].
  injection E as <-. exists m. split; [exact M1|]. split; [apply M2; lia | exact M3].
Qed.

(** * Examples (run + vm_compute) on reachable states *)
Module VhmExamples.
  Definition steps (t : nat) (n : nat) : list action := repeat (Step t) n.
  Definition ins0 (k : N) : list action := Start 0%nat (OIns k (10 * k)) :: steps 0 30.
  (** thread 0 inserts 1..5: array 1 2 3, chain 5 (item 9) -> 4 (item 10) *)
  Definition setup : list action := ins0 1 ++ ins0 2 ++ ins0 3 ++ ins0 4 ++ ins0 5.
  Definition stof (acts : list action) : state := fst (fst (run (step 8256) init acts)).

  (** thread 1 calls try_get_value(4) and is stopped when it stands on item 10 (key 4), before it reads the key *)
  Definition a1 := setup ++ [Start 1%nat (OGet 4)] ++ steps 1 10.
  Example ex_reader_on_item :
    (th (stof a1) 1%nat, g_chain (stof a1), g_free (stof a1), g_map (stof a1), bst (stof a1)) =
    (GXK 4 6 10, [9; 10], [8; 7; 6; 5; 4; 3; 2; 1], [(5, 50); (4, 40); (3, 30); (2, 20); (1, 10)], 6).
  Proof. vm_compute. reflexivity. Qed.

  (** thread 2 erases key 4: item 10 is unlinked and pushed onto the free list, the version goes from 0 to 1 *)
  Definition a2 := a1 ++ [Start 2%nat (ODel 4)] ++ steps 2 40.
  Example ex_item_freed_under_reader :
    (th (stof a2) 1%nat, th (stof a2) 2%nat, g_chain (stof a2), g_free (stof a2), g_map (stof a2), bst (stof a2)) =
    (GXK 4 6 10, Idle, [9], [10; 8; 7; 6; 5; 4; 3; 2; 1], [(5, 50); (3, 30); (2, 20); (1, 10)], 38).
  Proof. vm_compute. reflexivity. Qed.

  (** the reader continues on the freed item: it still reads key 4 and value 40 there, the validation sees the
      new version, the reader retries and returns 'absent' (4 was observed absent during the call) *)
  Definition a3 := a2 ++ steps 1 40.
  Example ex_reader_retries :
    (th (stof a3) 1%nat, map (fun h => (h_t h, h_op h, h_res h)) (g_hist (stof a3)),
     existsb (fun h => match h_op h with OGet _ => existsb (fun o => match o with None => true | _ => false end) (h_obs h) | _ => false end)
             (g_hist (stof a3))) =
    (Idle, [(0%nat, OIns 1 10, [0; 1]); (0%nat, OIns 2 20, [0; 1]); (0%nat, OIns 3 30, [0; 1]); (0%nat, OIns 4 40, [0; 1]);
            (0%nat, OIns 5 50, [0; 1]); (2%nat, ODel 4, [2; 1]); (1%nat, OGet 4, [4; 0])], true).
  Proof. vm_compute. reflexivity. Qed.

  (** variant: before the reader continues, thread 2 also inserts key 6, which reuses item 10 and links it at the
      head of the chain; the reader reads key 6 on "its" item, moves on, sees the new version and starts over *)
  Definition b2 := a2 ++ [Start 2%nat (OIns 6 60)] ++ steps 2 40.
  Example ex_item_reused_under_reader :
    (th (stof b2) 1%nat, g_chain (stof b2), xkey (stof b2) 10, g_map (stof b2)) =
    (GXK 4 6 10, [10; 9], 6, [(6, 60); (5, 50); (3, 30); (2, 20); (1, 10)]).
  Proof. vm_compute. reflexivity. Qed.
  Example ex_reader_restarts : th (stof (b2 ++ steps 1 4)) 1%nat = GK 4 38 0.
  Proof. vm_compute. reflexivity. Qed.
  Example ex_reader_absent_after_reuse :
    map (fun h => (h_op h, h_res h)) (filter (fun h => Nat.eqb (h_t h) 1) (g_hist (stof (b2 ++ steps 1 40)))) = [(OGet 4, [4; 0])].
  Proof. vm_compute. reflexivity. Qed.

  (** a removal from the array that back-fills from the chain: erase(2) moves (5,50) from item 9 into slot 1;
      a reader of key 5 that already passed slot 1 finds the chain without 5 and must not answer 'absent' *)
  Definition c1 := setup ++ [Start 1%nat (OGet 5)] ++ steps 1 6.            (* passed the array, about to load head *)
  Definition c2 := c1 ++ [Start 2%nat (ODel 2)] ++ steps 2 40.
  Example ex_backfill_state :
    (th (stof c2) 1%nat, akey (stof c2) 1, aval (stof c2) 1, g_chain (stof c2), g_map (stof c2), bst (stof c2)) =
    (GH 5 6, 5, 50, [10], [(5, 50); (4, 40); (3, 30); (1, 10)], 70).
  Proof. vm_compute. reflexivity. Qed.
  Example ex_backfill_reader :
    map (fun h => (h_op h, h_res h)) (filter (fun h => Nat.eqb (h_t h) 1) (g_hist (stof (c2 ++ steps 1 40)))) = [(OGet 5, [4; 1; 50])].
  Proof. vm_compute. reflexivity. Qed.
End VhmExamples.
