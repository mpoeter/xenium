(** vyukov_hash_map bucket model: the abstract map [g_map] is exactly what the bucket holds ([G]);
    what a step does to the logical content of the bucket ([leff], which Proof/VhmInv.v turns into what a
    reader may rely on); what the holder of the bucket lock knows ([pc_abs]); results of the writers. *)
From Coq Require Import NArith List Bool Lia PeanoNat.
From XV Require Import Base.Word Conc.Lts Conc.Ev gen.BucketStateGen Proof.BucketState Model.VhmDefs Proof.VhmStep Proof.VhmBase Proof.VhmMem.
Import ListNotations.
Local Open Scope N_scope.

Definition ic (st : state) : N := bs_item_count (bst st).
Definition mk (st : state) : N := bs_delete_marker (bst st).
(** the chain without the head item while that item is a copy of an array slot *)
Definition lchain (st : state) : list N := if g_dup st then tl (g_chain st) else g_chain st.
(** a valid array slot: below the item count and not the slot that is being removed / overwritten *)
Definition vslot (st : state) (j : N) : Prop := j < ic st /\ j + 1 <> mk st.
Definition slot_has (st : state) (k v : N) : Prop := exists j, vslot st j /\ akey st j = k /\ aval st j = v.
Definition item_has (st : state) (k v : N) : Prop := exists x, In x (lchain st) /\ xkey st x = k /\ xval st x = v.

(** the global part: [g_map] = valid slots + chain, all keys pairwise distinct *)
Record G (st : state) : Prop := mkG {
  G_map : forall k v, lookup k (g_map st) = Some v <-> slot_has st k v \/ item_has st k v;
  G_us : forall j j', vslot st j -> vslot st j' -> akey st j = akey st j' -> j = j';
  G_ux : forall x x', In x (lchain st) -> In x' (lchain st) -> xkey st x = xkey st x' -> x = x';
  G_usx : forall j x, vslot st j -> In x (lchain st) -> akey st j <> xkey st x;
  G_full : g_chain st <> [] -> ic st = 3;
  G_dup : g_dup st = true -> exists j, vslot st j /\ akey st j = xkey st (hd 0 (g_chain st)) /\
                                       aval st j = xval st (hd 0 (g_chain st))
}.

Lemma lookup_none_iff st k : G st -> (lookup k (g_map st) = None <-> forall v, ~ (slot_has st k v \/ item_has st k v)).
Proof.
  intros HG. split.
  - intros H v Hc. apply (G_map _ HG) in Hc. congruence.
  - intros H. destruct (lookup k (g_map st)) as [v|] eqn:E; [|reflexivity]. exfalso. apply (H v). apply (G_map _ HG). exact E.
Qed.

(** [G] only depends on the item count, the marker, the valid slots, the logical chain and its items *)
Lemma G_ext st st' : G st -> ic st' = ic st -> mk st' = mk st ->
  (forall j, vslot st j -> akey st' j = akey st j /\ aval st' j = aval st j) ->
  lchain st' = lchain st ->
  (forall x, In x (lchain st) -> xkey st' x = xkey st x /\ xval st' x = xval st x) ->
  g_map st' = g_map st -> (g_chain st' <> [] -> g_chain st <> []) ->
  (g_dup st' = true -> g_dup st = true /\ hd 0 (g_chain st') = hd 0 (g_chain st) /\
     xkey st' (hd 0 (g_chain st)) = xkey st (hd 0 (g_chain st)) /\ xval st' (hd 0 (g_chain st)) = xval st (hd 0 (g_chain st))) ->
  G st'.
Proof.
  intros HG Eic Emk Hs El Hx Em Hc Hd.
  assert (Hv : forall j, vslot st' j <-> vslot st j) by (intros j; unfold vslot; rewrite Eic, Emk; tauto).
  assert (Hsh : forall k v, slot_has st' k v <-> slot_has st k v).
  { intros k v. split; intros (j & H1 & H2 & H3); exists j.
    - apply Hv in H1. destruct (Hs j H1) as [E1 E2]. rewrite <- E1, <- E2. tauto.
    - destruct (Hs j H1) as [E1 E2]. rewrite E1, E2. apply Hv in H1. tauto. }
  assert (Hih : forall k v, item_has st' k v <-> item_has st k v).
  { intros k v. unfold item_has. rewrite El. split; intros (x & H1 & H2 & H3); exists x; destruct (Hx x H1) as [E1 E2].
    - rewrite <- E1, <- E2. tauto.
    - rewrite E1, E2. tauto. }
  constructor.
  - intros k v. rewrite Em, Hsh, Hih. apply (G_map _ HG).
  - intros j j' H1 H2. apply Hv in H1. apply Hv in H2. destruct (Hs j H1) as [-> _]. destruct (Hs j' H2) as [-> _].
    apply (G_us _ HG); assumption.
  - rewrite El. intros x x' H1 H2. destruct (Hx x H1) as [-> _]. destruct (Hx x' H2) as [-> _]. apply (G_ux _ HG); assumption.
  - rewrite El. intros j x H1 H2. apply Hv in H1. destruct (Hs j H1) as [-> _]. destruct (Hx x H2) as [-> _].
    apply (G_usx _ HG); assumption.
  - intros H. rewrite Eic. apply (G_full _ HG). apply Hc. exact H.
  - intros H. destruct (Hd H) as (H1 & H2 & H3 & H4). destruct (G_dup _ HG H1) as (j & J1 & J2 & J3).
    exists j. rewrite H2, H3, H4. destruct (Hs j J1) as [-> ->]. apply Hv in J1. tauto.
Qed.

Lemma lchain_nodup st : g_dup st = false -> lchain st = g_chain st.
Proof. unfold lchain. intros ->. reflexivity. Qed.

Lemma lchain_sub st y : In y (lchain st) -> In y (g_chain st).
Proof. unfold lchain. destruct (g_dup st); [|tauto]. destruct (g_chain st); [tauto|]. cbn [tl]. intros H. right. exact H. Qed.

Definition kv_same (st st' : state) : Prop :=
  (akey st', aval st', xkey st', xval st') = (akey st, aval st, xkey st, xval st).

(** what a step does to the logical content of the bucket (item count, marker, slots, chain, [g_map]):
    nothing that a reader or [G] can see ([le_quiet]: only invalid slots, unlinked items or the state word's
    lock bit / version change), or one of the linearization points and version increments of the writers *)
Inductive leff (st st' : state) : Prop :=
| le_quiet : ic st' = ic st -> mk st' = mk st -> g_map st' = g_map st -> g_chain st' = g_chain st ->
    g_dup st' = g_dup st -> (g_limbo st' = g_limbo st /\ g_nver st' = g_nver st) \/ g_nver st' = g_nver st + 1 ->
    (forall j, vslot st j -> akey st' j = akey st j /\ aval st' j = aval st j) ->
    (forall x, (In x (g_chain st) \/ (x <> 0 /\ x = g_limbo st)) \/ g_dup st = true ->
               xkey st' x = xkey st x /\ xval st' x = xval st x) ->
    (forall x, In x (g_chain st) \/ (x <> 0 /\ x = g_limbo st) -> xnext st' x = xnext st x) -> leff st st'
(* insertion into the array: the unlocking store publishes slot [c] *)
| le_ins_slot c k v : kv_same st st' -> xnext st' = xnext st -> g_nver st' = g_nver st -> mk st = 0 -> g_limbo st = 0 ->
    ic st = c -> c < 3 -> ic st' = c + 1 -> mk st' = 0 -> g_chain st' = g_chain st -> g_dup st' = g_dup st ->
    g_dup st = false -> g_limbo st' = g_limbo st -> akey st c = k -> aval st c = v ->
    lookup k (g_map st) = None -> g_map st' = (k, v) :: g_map st -> leff st st'
(* insertion of an extension item: the store to head publishes item [n] *)
| le_ins_item n k v : kv_same st st' -> xnext st' = xnext st -> g_nver st' = g_nver st -> ic st' = ic st ->
    mk st' = mk st -> mk st = 0 -> g_limbo st = 0 -> ic st = 3 -> g_chain st' = n :: g_chain st ->
    ~ In n (g_chain st) -> n <> 0 -> g_dup st' = false -> g_dup st = false -> g_limbo st' = g_limbo st ->
    xkey st n = k -> xval st n = v -> lookup k (g_map st) = None -> g_map st' = (k, v) :: g_map st -> leff st st'
(* removal from the array: the store of the delete marker hides slot [i] *)
| le_mark i k : kv_same st st' -> xnext st' = xnext st -> g_nver st' = g_nver st -> ic st' = ic st -> mk st = 0 ->
    g_limbo st = 0 -> i < ic st -> mk st' = i + 1 -> g_chain st' = g_chain st -> g_dup st' = g_dup st ->
    g_dup st = false -> g_limbo st' = g_limbo st -> akey st i = k -> g_map st' = rem k (g_map st) -> leff st st'
(* first version increment of a removal that back-filled slot [i] from the head item [x]: the marker is
   cleared, slot [i] is valid again and the head item becomes a copy *)
| le_dupon i x r : kv_same st st' -> g_nver st' = g_nver st + 1 -> NoDup (g_chain st) -> mk st = i + 1 -> i < ic st ->
    mk st' = 0 -> ic st' = ic st -> g_chain st' = g_chain st -> g_chain st = x :: r -> g_dup st = false ->
    g_dup st' = true -> akey st i = xkey st x -> aval st i = xval st x -> g_map st' = g_map st -> leff st st'
(* that removal unlinks the copied head item [e] *)
| le_xa8 e r : kv_same st st' -> xnext st' = xnext st -> g_nver st' = g_nver st -> ic st' = ic st -> mk st' = mk st ->
    mk st = 0 -> g_limbo st = 0 -> g_chain st = e :: r -> g_chain st' = r -> g_dup st = true -> g_dup st' = false ->
    g_limbo st' = e -> g_map st' = g_map st -> leff st st'
(* unlocking store of a removal that back-filled slot [i] from the last slot *)
| le_dec_moved i : kv_same st st' -> g_nver st' = g_nver st + 1 -> mk st = i + 1 -> i < ic st - 1 ->
    ic st' = ic st - 1 -> mk st' = 0 -> g_chain st' = g_chain st -> g_chain st = [] -> g_dup st' = false ->
    akey st i = akey st (ic st - 1) -> aval st i = aval st (ic st - 1) -> g_map st' = g_map st -> leff st st'
(* unlocking store of a removal of the last slot *)
| le_dec_last i k : kv_same st st' -> g_nver st' = g_nver st + 1 -> mk st = 0 -> 0 < ic st -> i = ic st - 1 ->
    ic st' = ic st - 1 -> mk st' = 0 -> g_chain st' = g_chain st -> g_chain st = [] -> g_dup st' = false ->
    akey st i = k -> g_map st' = rem k (g_map st) -> leff st st'
(* removal of the extension item [x]: the store to the link of its predecessor [p] *)
| le_unlink p x k : kv_same st st' -> g_nver st' = g_nver st -> ic st' = ic st -> mk st' = mk st -> mk st = 0 ->
    g_limbo st = 0 -> In x (g_chain st) -> link_ok st p x ->
    xnext st' = (if p =? 0 then xnext st else setf (xnext st) p (xnext st x)) ->
    g_chain st' = remx x (g_chain st) -> g_dup st = false -> g_dup st' = false -> g_limbo st' = x ->
    xkey st x = k -> g_map st' = rem k (g_map st) -> leff st st'.

Lemma G_leff st st' : G st -> leff st st' -> G st'.
Proof.
  intros HG [Eic Emk Em Ec Ed _ Hs Hx _
            |c k v Ekv _ _ Hmk _ Hic Hc Hic' Hmk' Ech Ed Hd _ Hk Hv Habs Em
            |n k v Ekv _ _ Hic Hmk _ _ H3 Ech _ _ Ed' Ed _ Hk Hv Habs Em
            |i k Ekv _ _ Hic Hmk _ Hi Hmk' Ech Ed Hd _ Hk Em
            |i x r Ekv _ Hnd Hmk Hi Hmk' Hic Ech Ec Hd Hd' Hk Hv Em
            |e r Ekv _ _ Eic Emk _ _ Ec Ec' Ed Ed' _ Em
            |i Ekv _ Hmk Hi Hic Hmk' Ech Ec Hd Hk Hv Em
            |i k Ekv _ Hmk Hpos Hi Hic Hmk' Ech Ec Hd Hk Em
            |p x k Ekv _ Hic Hmk _ _ Hx _ _ Ech Hd Hd' _ Hk Em];
    try injection Ekv as Ea Eb Exk Exv.
  - apply (G_ext st); try assumption.
    + unfold lchain. rewrite Ed, Ec. reflexivity.
    + intros x H. apply Hx. left. left. apply lchain_sub. exact H.
    + rewrite Ec. auto.
    + rewrite Ed, Ec. intros H. destruct (Hx (hd 0 (g_chain st)) (or_intror H)). auto.
  - {
      assert (Hl : lchain st' = lchain st) by (unfold lchain; rewrite Ed, Ech; reflexivity).
      assert (Hvs : forall j, vslot st' j <-> vslot st j \/ j = c).
      { intros j. unfold vslot. rewrite Hic', Hmk', Hic, Hmk. lia. }
      assert (Hnv : ~ vslot st c) by (unfold vslot; lia).
      pose proof (proj1 (lookup_none_iff _ k HG) Habs) as Hno.
      constructor.
      - intros k0 v0. rewrite Em, lookup_cons. unfold slot_has, item_has. rewrite Hl, Ea, Eb, Exk, Exv.
        destruct (N.eqb_spec k k0) as [<-|Hne].
        + split.
          * intros E. injection E as <-. left. exists c. rewrite Hvs. tauto.
          * intros [(j & H1 & H2 & H3)|H].
            -- apply Hvs in H1. destruct H1 as [H1| ->]; [|congruence]. exfalso. apply (Hno v0). left. exists j. tauto.
            -- exfalso. apply (Hno v0). right. exact H.
        + rewrite (G_map _ HG). unfold slot_has, item_has. split.
          * intros [(j & H1 & H2 & H3)|H]; [left; exists j; rewrite Hvs; tauto | right; exact H].
          * intros [(j & H1 & H2 & H3)|H]; [|right; exact H]. apply Hvs in H1. destruct H1 as [H1| ->]; [left; exists j; tauto | congruence].
      - intros j j'. rewrite !Hvs, Ea. intros [H1| ->] [H2| ->] E; try reflexivity.
        + apply (G_us _ HG); assumption.
        + exfalso. apply (Hno (aval st j)). left. exists j. rewrite E, Hk. tauto.
        + exfalso. apply (Hno (aval st j')). left. exists j'. rewrite <- E, Hk. tauto.
      - rewrite Hl, Exk. apply (G_ux _ HG).
      - rewrite Hl, Exk, Ea. intros j x. rewrite Hvs. intros [H1| ->] H2; [apply (G_usx _ HG); assumption|].
        intros E. apply (Hno (xval st x)). right. exists x. rewrite <- E, Hk. tauto.
      - rewrite Ech. intros H. apply (G_full _ HG) in H. lia.
      - rewrite Ed, Hd. discriminate.
    }
  - {
      assert (Hl : lchain st = g_chain st) by (apply lchain_nodup; exact Ed).
      assert (Hl' : lchain st' = n :: g_chain st) by (rewrite lchain_nodup by exact Ed'; exact Ech).
      assert (Hvs : forall j, vslot st' j <-> vslot st j) by (intros j; unfold vslot; rewrite Hic, Hmk; tauto).
      pose proof (proj1 (lookup_none_iff _ k HG) Habs) as Hno.
      constructor.
      - intros k0 v0. rewrite Em, lookup_cons. unfold slot_has, item_has. rewrite Hl', Ea, Eb, Exk, Exv.
        destruct (N.eqb_spec k k0) as [<-|Hne].
        + split.
          * intros E. injection E as <-. right. exists n. split; [left; reflexivity | tauto].
          * intros [(j & H1 & H2 & H4)|(x & [<-|H1] & H2 & H4)].
            -- apply Hvs in H1. exfalso. apply (Hno v0). left. exists j. tauto.
            -- congruence.
            -- exfalso. apply (Hno v0). right. exists x. rewrite Hl. tauto.
        + rewrite (G_map _ HG). unfold slot_has, item_has. rewrite Hl. split.
          * intros [(j & H1 & H2 & H4)|(x & H1 & H2 & H4)]; [left; exists j; rewrite Hvs; tauto | right; exists x; split; [right; exact H1|tauto]].
          * intros [(j & H1 & H2 & H4)|(x & [<-|H1] & H2 & H4)]; [left; exists j; rewrite <- Hvs; tauto | congruence | right; exists x; tauto].
      - intros j j'. rewrite !Hvs, Ea. apply (G_us _ HG).
      - rewrite Hl', Exk. intros x x' [<-|H1] [<-|H2] E; try reflexivity.
        + exfalso. apply (Hno (xval st x')). right. exists x'. rewrite Hl, <- E, Hk. tauto.
        + exfalso. apply (Hno (xval st x)). right. exists x. rewrite Hl, E, Hk. tauto.
        + apply (G_ux _ HG); rewrite ?Hl; assumption.
      - rewrite Hl', Exk, Ea. intros j x. rewrite Hvs. intros H1 [<-|H2].
        + intros E. apply (Hno (aval st j)). left. exists j. rewrite E, Hk. tauto.
        + apply (G_usx _ HG); rewrite ?Hl; assumption.
      - intros _. rewrite Hic. exact H3.
      - rewrite Ed'. discriminate.
    }
  - {
      assert (Hl : lchain st' = lchain st) by (unfold lchain; rewrite Ed, Ech; reflexivity).
      assert (Hvs : forall j, vslot st' j <-> vslot st j /\ j <> i).
      { intros j. unfold vslot. rewrite Hic, Hmk', Hmk. lia. }
      assert (Hvi : vslot st i) by (unfold vslot; lia).
      constructor.
      - intros k0 v0. rewrite Em, lookup_rem. unfold slot_has, item_has. rewrite Hl, Ea, Eb, Exk, Exv.
        destruct (N.eqb_spec k0 k) as [->|Hne].
        + split; [discriminate|]. intros [(j & H1 & H2 & H3)|(x & H1 & H2 & H3)]; exfalso.
          * apply Hvs in H1. destruct H1 as [H1 H1']. apply H1'. apply (G_us _ HG); congruence.
          * apply (G_usx _ HG i x Hvi H1). congruence.
        + rewrite (G_map _ HG). unfold slot_has, item_has. split.
          * intros [(j & H1 & H2 & H3)|H]; [|right; exact H]. left. exists j. rewrite Hvs. split; [split; [exact H1 | intros ->; congruence] | tauto].
          * intros [(j & H1 & H2 & H3)|H]; [|right; exact H]. left. exists j. apply Hvs in H1. tauto.
      - intros j j'. rewrite !Hvs, Ea. intros [H1 _] [H2 _]. apply (G_us _ HG); assumption.
      - rewrite Hl, Exk. apply (G_ux _ HG).
      - rewrite Hl, Exk, Ea. intros j x. rewrite Hvs. intros [H1 _]. apply (G_usx _ HG). exact H1.
      - rewrite Ech, Hic. apply (G_full _ HG).
      - rewrite Ed, Hd. discriminate.
    }
  - {
      assert (Hl : lchain st = x :: r) by (rewrite lchain_nodup by exact Hd; exact Ec).
      assert (Hl' : lchain st' = r) by (unfold lchain; rewrite Hd', Ech, Ec; reflexivity).
      assert (Hvs : forall j, vslot st' j <-> vslot st j \/ j = i).
      { intros j. unfold vslot. rewrite Hic, Hmk', Hmk. lia. }
      assert (Hnv : ~ vslot st i) by (unfold vslot; lia).
      assert (Hxl : In x (lchain st)) by (rewrite Hl; left; reflexivity).
      assert (Hrl : forall y, In y r -> In y (lchain st)) by (intros y Hy; rewrite Hl; right; exact Hy).
      assert (Hxr : ~ In x r) by (rewrite Ec in Hnd; inversion Hnd; assumption).
      constructor.
      - intros k0 v0. rewrite Em, (G_map _ HG). unfold slot_has, item_has. rewrite Hl, Hl', Ea, Eb, Exk, Exv. split.
        + intros [(j & H1 & H2 & H3)|(y & [<-|H1] & H2 & H3)].
          * left. exists j. rewrite Hvs. tauto.
          * left. exists i. rewrite Hvs. split; [right; reflexivity | split; congruence].
          * right. exists y. tauto.
        + intros [(j & H1 & H2 & H3)|(y & H1 & H2 & H3)].
          * apply Hvs in H1. destruct H1 as [H1| ->]; [left; exists j; tauto|]. right. exists x. split; [left; reflexivity | split; congruence].
          * right. exists y. split; [right; exact H1 | tauto].
      - intros j j'. rewrite !Hvs, Ea. intros [H1| ->] [H2| ->] E; try reflexivity.
        + apply (G_us _ HG); assumption.
        + exfalso. apply (G_usx _ HG j x H1 Hxl). congruence.
        + exfalso. apply (G_usx _ HG j' x H2 Hxl). congruence.
      - rewrite Hl', Exk. intros y y' H1 H2. apply (G_ux _ HG); auto.
      - rewrite Hl', Exk, Ea. intros j y. rewrite Hvs. intros [H1| ->] H2; [apply (G_usx _ HG); auto|].
        rewrite Hk. intros E. assert (x = y) by (apply (G_ux _ HG); auto). subst y. contradiction.
      - rewrite Ech, Hic. apply (G_full _ HG).
      - intros _. exists i. rewrite Hvs, Ea, Eb, Exk, Exv, Ech, Ec. cbn [hd]. tauto.
    }
  - apply (G_ext st); try assumption; rewrite ?Ea, ?Eb, ?Exk, ?Exv; try (intros; split; reflexivity).
    + unfold lchain. rewrite Ed, Ed', Ec, Ec'. reflexivity.
    + rewrite Ec. discriminate.
    + rewrite Ed'. discriminate.
  - {
      assert (Hl : lchain st = []) by (unfold lchain; rewrite Ec; destruct (g_dup st); reflexivity).
      assert (Hl' : lchain st' = []) by (unfold lchain; rewrite Ech, Ec; destruct (g_dup st'); reflexivity).
      set (c := ic st - 1) in *.
      assert (Hvs : forall j, vslot st' j <-> (vslot st j /\ j <> c) \/ j = i).
      { intros j. unfold vslot. rewrite Hic, Hmk', Hmk. lia. }
      assert (Hvc : vslot st c) by (unfold vslot; lia).
      constructor.
      - intros k0 v0. rewrite Em, (G_map _ HG). unfold slot_has, item_has. rewrite Hl, Hl', Ea, Eb. split.
        + intros [(j & H1 & H2 & H3)|(y & [] & _)]. left. destruct (N.eq_dec j c) as [->|Hne].
          * exists i. rewrite Hvs. split; [right; reflexivity | split; congruence].
          * exists j. rewrite Hvs. tauto.
        + intros [(j & H1 & H2 & H3)|(y & [] & _)]. left. apply Hvs in H1. destruct H1 as [[H1 _]| ->].
          * exists j. tauto.
          * exists c. split; [exact Hvc | split; congruence].
      - intros j j'. rewrite !Hvs, Ea. intros [[H1 H1']| ->] [[H2 H2']| ->] E; try reflexivity.
        + apply (G_us _ HG); assumption.
        + exfalso. apply H1'. apply (G_us _ HG); congruence.
        + exfalso. apply H2'. apply (G_us _ HG); congruence.
      - rewrite Hl'. intros y y' [].
      - rewrite Hl'. intros j y _ [].
      - rewrite Ech, Ec. intros H. contradiction.
      - rewrite Hd. discriminate.
    }
  - {
      assert (Hl : lchain st = []) by (unfold lchain; rewrite Ec; destruct (g_dup st); reflexivity).
      assert (Hl' : lchain st' = []) by (unfold lchain; rewrite Ech, Ec; destruct (g_dup st'); reflexivity).
      assert (Hvs : forall j, vslot st' j <-> vslot st j /\ j <> i).
      { intros j. unfold vslot. rewrite Hic, Hmk', Hmk. lia. }
      assert (Hvi : vslot st i) by (unfold vslot; lia).
      constructor.
      - intros k0 v0. rewrite Em, lookup_rem. unfold slot_has, item_has. rewrite Hl', Ea, Eb.
        destruct (N.eqb_spec k0 k) as [->|Hne].
        + split; [discriminate|]. intros [(j & H1 & H2 & H3)|(x & [] & _)]. exfalso.
          apply Hvs in H1. destruct H1 as [H1 H1']. apply H1'. apply (G_us _ HG); congruence.
        + rewrite (G_map _ HG). unfold slot_has, item_has. rewrite Hl. split.
          * intros [(j & H1 & H2 & H3)|(x & [] & _)]. left. exists j. rewrite Hvs. split; [split; [exact H1 | intros ->; congruence] | tauto].
          * intros [(j & H1 & H2 & H3)|(x & [] & _)]. left. exists j. apply Hvs in H1. tauto.
      - intros j j'. rewrite !Hvs, Ea. intros [H1 _] [H2 _]. apply (G_us _ HG); assumption.
      - rewrite Hl'. intros y y' [].
      - rewrite Hl'. intros j y _ [].
      - rewrite Ech, Ec. intros H. contradiction.
      - rewrite Hd. discriminate.
    }
  - {
      assert (Hl : lchain st = g_chain st) by (apply lchain_nodup; exact Hd).
      assert (Hl' : lchain st' = remx x (g_chain st)) by (rewrite lchain_nodup by exact Hd'; exact Ech).
      assert (Hvs : forall j, vslot st' j <-> vslot st j) by (intros j; unfold vslot; rewrite Hic, Hmk; tauto).
      assert (Hxl : In x (lchain st)) by (rewrite Hl; exact Hx).
      constructor.
      - intros k0 v0. rewrite Em, lookup_rem. unfold slot_has, item_has. rewrite Hl', Ea, Eb, Exk, Exv.
        destruct (N.eqb_spec k0 k) as [->|Hne].
        + split; [discriminate|]. intros [(j & H1 & H2 & H3)|(y & H1 & H2 & H3)]; exfalso.
          * apply Hvs in H1. apply (G_usx _ HG j x H1 Hxl). congruence.
          * apply in_remx in H1. destruct H1 as [H1 H1']. apply H1'. apply (G_ux _ HG); rewrite ?Hl; congruence.
        + rewrite (G_map _ HG). unfold slot_has, item_has. rewrite Hl. split.
          * intros [(j & H1 & H2 & H3)|(y & H1 & H2 & H3)]; [left; exists j; rewrite Hvs; tauto|].
            right. exists y. rewrite in_remx. split; [split; [exact H1 | intros ->; congruence] | tauto].
          * intros [(j & H1 & H2 & H3)|(y & H1 & H2 & H3)]; [left; exists j; rewrite <- Hvs; tauto|].
            right. exists y. apply in_remx in H1. tauto.
      - intros j j'. rewrite !Hvs, Ea. apply (G_us _ HG).
      - rewrite Hl', Exk. intros y y' H1 H2. apply in_remx in H1. apply in_remx in H2. apply (G_ux _ HG); rewrite Hl; tauto.
      - rewrite Hl', Exk, Ea. intros j y. rewrite Hvs. intros H1 H2. apply in_remx in H2. apply (G_usx _ HG); rewrite ?Hl; tauto.
      - rewrite Hic. intros _. apply (G_full _ HG). intros E. rewrite E in Hx. destruct Hx.
      - rewrite Hd'. discriminate.
    }
Qed.

(** * what the holder of the bucket lock knows *)
Definition noslot (st : state) (s k : N) : Prop := forall j, j < bs_item_count s -> akey st j <> k.
Definition ahead (st : state) (k x : N) : Prop :=
  forall y, In y (g_chain st) -> xkey st y = k -> In y (from x (g_chain st)).
Definition ahead' (st : state) (k x : N) : Prop :=
  forall y, In y (g_chain st) -> xkey st y = k -> In y (tl (from x (g_chain st))).
Definition absent (st : state) (k : N) : Prop := lookup k (g_map st) = None.

Definition pc_abs (st : state) (t : nat) (p : pc) : Prop :=
  match p with
  | IK _ k _ _ i => forall j, j < i -> akey st j <> k
  | IV _ k _ _ i => akey st i = k
  | IUold a k _ _ r => exists r', lookup k (g_map st) = Some r' /\ (a = true -> r' = r)
  | ISK _ k _ _ => absent st k
  | ISV _ k _ s => absent st k /\ akey st (bs_item_count s) = k
  | IUnew _ k v s => absent st k /\ akey st (bs_item_count s) = k /\ aval st (bs_item_count s) = v
  | IH _ k _ s => noslot st s k
  | IXK _ k _ s x => noslot st s k /\ ahead st k x
  | IXV _ k _ _ x => xkey st x = k
  | IXN _ k _ s x => noslot st s k /\ ahead' st k x
  | A1 _ k _ _ _ | A2 _ k _ _ _ | A3 _ k _ _ _ | A4 _ k _ _ _ | A4u _ k _ _ _ | A5 _ k _ _ _ | A6 _ k _ _ _ _
  | A7 _ k _ _ _ | IXSK _ k _ _ _ => absent st k
  | IXSV _ k _ _ n => absent st k /\ xkey st n = k
  | IXH _ k v _ n | IXSN _ k v _ n _ | IXSH _ k v _ n => absent st k /\ xkey st n = k /\ xval st n = v
  | IUnew2 _ _ _ _ => g_lp st t = Some None
  | XK _ k _ i => forall j, j < i -> akey st j <> k
  | XV _ k _ i => akey st i = k
  | XH _ k _ i r | XA1 _ k _ i r _ | XB1 _ k _ i r => akey st i = k /\ aval st i = r
  | XA2 _ _ _ _ r _ => g_lp st t = Some (Some r)
  | XA3 _ _ _ _ r x kk => g_lp st t = Some (Some r) /\ kk = xkey st x
  | XA4 _ _ _ _ r x kk vv => g_lp st t = Some (Some r) /\ kk = xkey st x /\ vv = xval st x
  | XA5 _ _ _ i r x vv => g_lp st t = Some (Some r) /\ akey st i = xkey st x /\ vv = xval st x
  | XA6 _ _ _ i r x | XA7 _ _ _ i r x | XA8 _ _ _ i r x _ =>
    g_lp st t = Some (Some r) /\ akey st i = xkey st x /\ aval st i = xval st x
  | XA9 _ _ _ r _ => g_lp st t = Some (Some r)
  | XB2 _ _ _ _ r => g_lp st t = Some (Some r)
  | XB3 _ _ s _ r kk => g_lp st t = Some (Some r) /\ kk = akey st (bs_item_count s - 1)
  | XB4 _ _ s _ r kk vv =>
    g_lp st t = Some (Some r) /\ kk = akey st (bs_item_count s - 1) /\ vv = aval st (bs_item_count s - 1)
  | XB5 _ _ s i r vv =>
    g_lp st t = Some (Some r) /\ akey st i = akey st (bs_item_count s - 1) /\ vv = aval st (bs_item_count s - 1)
  | XB6 _ k s i r =>
    if i =? bs_item_count s - 1 then akey st i = k /\ aval st i = r
    else g_lp st t = Some (Some r) /\ akey st i = akey st (bs_item_count s - 1) /\
         aval st i = aval st (bs_item_count s - 1)
  | XHH _ k s => noslot st s k
  | XXK _ k s _ x => noslot st s k /\ ahead st k x
  | XXV _ k _ _ x => xkey st x = k
  | XXN _ k _ _ x r | XXP _ k _ _ x r _ => xkey st x = k /\ xval st x = r
  | XXU _ _ _ _ r => g_lp st t = Some (Some r)
  | XXM _ k s x => noslot st s k /\ ahead' st k x
  | XU _ k _ => absent st k
  | F1 _ _ r _ | F2 _ _ r _ | F3 _ _ r _ | F4 _ _ r _ _ | F5 _ _ r _ | F6 _ _ r _ => g_lp st t = Some (Some r)
  | _ => True
  end.

(** results of the completed writer calls against the value [g_map] gave the key at the linearization point *)
Definition hist_ok_w (h : hrec) : Prop :=
  match h_op h with
  | OIns _ _ => (h_res h = [0; 1] /\ h_wit h = Some None) \/ (h_res h = [0; 0] /\ exists r, h_wit h = Some (Some r))
  | OGetIns _ v => (h_res h = [1; 1; v] /\ h_wit h = Some None) \/ (exists r, h_res h = [1; 0; r] /\ h_wit h = Some (Some r))
  | ODel _ => (h_res h = [2; 1] /\ exists r, h_wit h = Some (Some r)) \/ (h_res h = [2; 0] /\ h_wit h = Some None)
  | OExt _ => (exists r, h_res h = [3; 1; r] /\ h_wit h = Some (Some r)) \/ (h_res h = [3; 0] /\ h_wit h = Some None)
  | OGet _ => True
  end.

(** the four shapes of a writer's record *)
Lemma hist_ins_new t a k v w obs : w = Some None -> hist_ok_w (mkH t (ins_op a k v) (ins_res a true v) w obs).
Proof. intros ->. destruct a; left; split; reflexivity. Qed.
Lemma hist_ins_old t a k v r r' w obs : w = Some (Some r') -> (a = true -> r' = r) ->
  hist_ok_w (mkH t (ins_op a k v) (ins_res a false r) w obs).
Proof.
  intros -> Hr. destruct a; right; [exists r'; rewrite <- (Hr eq_refl) | split; [|exists r']]; repeat split.
Qed.
Lemma hist_del_ok t e k r w obs : w = Some (Some r) -> hist_ok_w (mkH t (del_op e k) (del_res e true r) w obs).
Proof. intros ->. destruct e; left; [exists r | split; [|exists r]]; repeat split. Qed.
Lemma hist_del_no t e k w obs : w = Some None -> hist_ok_w (mkH t (del_op e k) (del_res e false 0) w obs).
Proof. intros ->. destruct e; right; split; reflexivity. Qed.

Lemma abs_frame st st' t p : pc_abs st t p ->
  akey st' = akey st -> aval st' = aval st -> xkey st' = xkey st -> xval st' = xval st ->
  g_chain st' = g_chain st -> g_map st' = g_map st -> g_lp st' t = g_lp st t -> pc_abs st' t p.
Proof.
  intros H E1 E2 E3 E4 E5 E6 E7.
  destruct p; cbn [pc_abs] in *; unfold noslot, ahead, ahead', absent in *; rewrite ?E1, ?E2, ?E3, ?E4, ?E5, ?E6, ?E7; exact H.
Qed.

(** program points outside the bucket lock only refer to the thread's own [g_lp] *)
Lemma abs_unlocked st st' t p : pc_bst p = None -> pc_abs st t p -> g_lp st' t = g_lp st t -> pc_abs st' t p.
Proof. intros Hb H E. destruct p; cbn [pc_bst pc_abs] in *; try discriminate; rewrite ?E; exact H. Qed.

Lemma ic_locked s : bs_item_count (bs_locked s) = bs_item_count s.
Proof. apply bs_locked_item_count. Qed.
Lemma mk_locked s : bs_delete_marker (bs_locked s) = bs_delete_marker s.
Proof. apply bs_locked_delete_marker. Qed.

Lemma wf_fields s : wf_s s ->
  bs_item_count (bs_locked s) = bs_item_count s /\ bs_delete_marker (bs_locked s) = 0 /\
  (forall i, i < bs_item_count s -> bs_item_count (mark s i) = bs_item_count s /\ bs_delete_marker (mark s i) = i + 1) /\
  bs_item_count (bs_new_version (bs_locked s)) = bs_item_count s /\ bs_delete_marker (bs_new_version (bs_locked s)) = 0 /\
  bs_item_count (bs_clear_lock (bs_new_version (bs_new_version (bs_locked s)))) = bs_item_count s /\
  bs_delete_marker (bs_clear_lock (bs_new_version (bs_new_version (bs_locked s)))) = 0 /\
  bs_item_count (bs_new_version s) = bs_item_count s /\ bs_delete_marker (bs_new_version s) = 0 /\
  bs_delete_marker s = 0 /\
  (bs_item_count s < 3 -> bs_item_count (bs_inc_item_count s) = bs_item_count s + 1 /\ bs_delete_marker (bs_inc_item_count s) = 0) /\
  (0 < bs_item_count s -> bs_item_count (bs_dec_item_count (bs_new_version s)) = bs_item_count s - 1 /\
                          bs_delete_marker (bs_dec_item_count (bs_new_version s)) = 0).
Proof.
  intros Hwf. pose proof (wf_W _ Hwf) as Hs. destruct Hwf as (Hw1 & Hw2 & Hw3 & Hw4).
  pose proof (W_locked _ _ _ _ _ Hs) as HWl. pose proof (W_nv _ _ _ _ _ HWl) as HWn. pose proof (W_nv _ _ _ _ _ HWn) as HWnn.
  pose proof (W_clear _ _ _ _ HWnn) as HWc. pose proof (W_nv _ _ _ _ _ Hs) as HWv.
  repeat match goal with |- _ /\ _ => split end; try (unfold W in *; tauto).
  - intros i Hi. unfold mark. pose proof (W_mark _ _ _ _ (i + 1) HWl ltac:(lia)) as HWm. unfold W in HWm. tauto.
  - intros Hc. pose proof (W_inc _ _ _ _ _ Hs Hc) as HWi. unfold W in HWi. tauto.
  - intros Hc. pose proof (W_dec _ _ _ _ _ HWv Hc) as HWd. unfold W in HWd. tauto.
Qed.

Lemma chain_nil st : Mem st -> bhead st = 0 -> g_chain st = [].
Proof.
  intros HM H0. pose proof (M_chd _ HM) as Hchd. pose proof (M_cok _ HM) as Hcok.
  destruct (g_chain st) as [|n l]; [reflexivity|]. cbn [hd] in Hchd.
  assert (Hin : item_ok n) by (apply Hcok; left; reflexivity). unfold item_ok in Hin. lia.
Qed.

Lemma own_slot st j k : G st -> mk st = 0 -> j < ic st -> akey st j = k -> lookup k (g_map st) = Some (aval st j).
Proof.
  intros HG Hmk Hj Hk. apply (G_map _ HG). left. exists j. unfold vslot. rewrite Hmk. split; [split; [exact Hj | lia] | split; [exact Hk | reflexivity]].
Qed.
Lemma own_item st x k : G st -> g_dup st = false -> In x (g_chain st) -> xkey st x = k ->
  lookup k (g_map st) = Some (xval st x).
Proof.
  intros HG Hd Hx Hk. apply (G_map _ HG). right. exists x. rewrite lchain_nodup by exact Hd. tauto.
Qed.
Lemma own_absent st k : G st -> g_dup st = false ->
  (forall j, j < ic st -> akey st j <> k) -> (forall y, In y (g_chain st) -> xkey st y <> k) ->
  lookup k (g_map st) = None.
Proof.
  intros HG Hd Hs Hc. apply (lookup_none_iff _ _ HG). intros v [(j & [H1 _] & H2 & _)|(x & H1 & H2 & _)].
  - exact (Hs j H1 H2).
  - rewrite lchain_nodup in H1 by exact Hd. exact (Hc x H1 H2).
Qed.

Lemma ahead_hd st k : bhead st = hd 0 (g_chain st) -> ahead st k (bhead st).
Proof.
  intros Hh y Hy _. rewrite Hh. destruct (g_chain st) as [|a l]; [destruct Hy|]. cbn [hd]. rewrite from_hd. exact Hy.
Qed.
Lemma ahead_tl st k x : ahead st k x -> xkey st x <> k -> ahead' st k x.
Proof.
  intros Ha Hne y Hy Hk. specialize (Ha y Hy Hk).
  destruct (in_dec N.eq_dec x (g_chain st)) as [Hx|Hx].
  - destruct (from_in _ _ Hx) as [r Hr]. rewrite Hr in *. cbn [tl]. destruct Ha as [<-|Ha]; [contradiction|exact Ha].
  - rewrite (from_notin _ _ Hx) in Ha. destruct Ha.
Qed.
Lemma ahead_next st k x : Mem st -> In x (g_chain st) -> ahead' st k x -> ahead st k (xnext st x).
Proof.
  intros HM Hx Ha y Hy Hk. rewrite (from_next (xnext st) (g_chain st) x); [apply Ha; assumption | exact (M_cnd _ HM) | | exact (M_clk _ HM) | exact Hx].
  intros Hc. apply (M_cok _ HM) in Hc. unfold item_ok in Hc. lia.
Qed.
Lemma ahead_end st k x : Mem st -> In x (g_chain st) -> ahead' st k x -> xnext st x = 0 ->
  forall y, In y (g_chain st) -> xkey st y <> k.
Proof.
  intros HM Hx Ha Hn y Hy Hk. pose proof (ahead_next st k x HM Hx Ha y Hy Hk) as Hc. rewrite Hn in Hc.
  assert (H0 : ~ In 0 (g_chain st)) by (intros H0; apply (M_cok _ HM) in H0; unfold item_ok in H0; lia).
  rewrite (from_notin _ _ H0) in Hc. destruct Hc.
Qed.

(** facts about the stepping thread *)
Ltac prep2 HI HM HA t Epc :=
  pose proof (Lk_wf _ HI t) as Hwf; rewrite Epc in Hwf; cbn [pc_wf] in Hwf;
  pose proof (M_ch _ HM t) as Hch; rewrite Epc in Hch; cbn [pc_ch] in Hch;
  pose proof (HA t) as Hab; rewrite Epc in Hab; cbn [pc_abs] in Hab;
  try (assert (Hown : g_owner _ = Some t) by (apply (Lk_own _ HI); rewrite Epc; discriminate);
       pose proof (Lk_pc _ HI t Hown) as Hbst; rewrite Epc in Hbst; cbn [pc_bst] in Hbst; injection Hbst as Hbst;
       pose proof (M_fl _ HM t Hown) as Hfl; rewrite Epc in Hfl; cbn [pc_dup pc_limbo] in Hfl; destruct Hfl as [Hdup Hlimbo]).

(** closes a goal about [ic] / [mk] of the new state: unfolds them, replaces the program-point word by
    [bucket.state] ([Hbst]) and leaves the field facts of [wf_fields] to [congruence] *)
Ltac icmk := unfold ic, mk; st_simpl_goal;
  try match goal with Hb : _ = bst _ |- _ => rewrite <- ?Hb end; try congruence.

(** the item an eraser has unlinked is not owned by anybody else *)
Lemma limbo_owned st : Lk st -> Mem st -> g_limbo st <> 0 ->
  exists u, g_owner st = Some u /\ pc_own (th st u) = Some (g_limbo st) /\ pc_bst (th st u) <> None.
Proof.
  intros HI HM Hl. destruct (g_owner st) as [u|] eqn:Eo; [|destruct (M_fl0 _ HM Eo) as [_ Hl0]; congruence].
  exists u. split; [reflexivity|]. destruct (M_fl _ HM u Eo) as [_ Hlu]. pose proof (Lk_pc _ HI u Eo) as Hb.
  rewrite Hlu in *. destruct (th st u); cbn [pc_limbo pc_own pc_bst] in *; try congruence; split; congruence.
Qed.

Section VhmAbs.
  Variable xoff : N.
  Notation step := (step xoff).

  (** [le_quiet], leaving as goals the item count and the marker of the new state word ([lq0]), also the clause
      about the valid slots ([lq1]) resp. the two clauses about the items a reader can stand on ([lq2]) *)
  Ltac lq0 :=
    apply le_quiet; [ | | reflexivity | reflexivity | reflexivity | first [left; split; reflexivity | right; reflexivity]
                    | intros; split; reflexivity | intros; split; reflexivity | intros; reflexivity].
  Ltac lq1 :=
    apply le_quiet; [ | | reflexivity | reflexivity | reflexivity | left; split; reflexivity
                    | | intros; split; reflexivity | intros; reflexivity].
  Ltac lq2 :=
    apply le_quiet; [ | | reflexivity | reflexivity | reflexivity | left; split; reflexivity
                    | intros; split; reflexivity | | ].

  Lemma step_leff st a st' es : Lk st -> Mem st -> G st -> (forall t, pc_abs st t (th st t)) ->
    step st a = Some (st', es) -> leff st st'.
  Proof.
    intros HI HM HG HA H.
    step_split H t.
    (* starts, loads, reader steps, and the stores to the extension bucket's lock and free list *)
    all: try solve [lq0; reflexivity].
    (* the other stores: what [t] knows at its program point; the fields of the words built from [s]
       (F?1/F?2 = item count / marker of: L locked, M marked, N new version, C cleared, V unlocked new version,
       I incremented, D decremented) *)
    all: prep2 HI HM HA t Epc.
    all: try (assert (Hwfs : wf_s s) by tauto;
              destruct (wf_fields s Hwfs) as (FL1 & FL2 & FM & FN1 & FN2 & FC1 & FC2 & FV1 & FV2 & FS & FI & FD)).
    all: try match type of Hbst with context [if ?c then _ else _] =>   (* XB6 *)
               destruct (N.eqb_spec i (bs_item_count s - 1)); try contradiction end.
    all: try (assert (Hicst : ic st = bs_item_count s) by
               (unfold ic; rewrite <- Hbst; first [exact FL1 | apply FM; tauto | exact FN1])).
    all: pose proof (M_cnd _ HM) as Hcnd; pose proof (M_chd _ HM) as Hchd.
    all: unfold mark in *.
    all: try (pose proof (M_own _ HM t) as Hown'; rewrite Epc in Hown'; destruct (Hown' _ eq_refl) as (Hok & Hnc & _)).
    - (* L3 *) subst s. lq0. apply ic_locked. apply mk_locked.
    - subst s. lq0. apply ic_locked. apply mk_locked.
    - (* IUold *) lq0; icmk.
    - (* ISK *) lq1; try icmk. intros j [Hj _]. st_simpl_goal. rewrite Hicst in Hj. rewrite setf_other by lia. split; reflexivity.
    - (* ISV *) lq1; try icmk. intros j [Hj _]. st_simpl_goal. rewrite Hicst in Hj. rewrite setf_other by lia. split; reflexivity.
    - (* IUnew *) destruct Hwf as [_ Hlt]. destruct (FI Hlt) as [FI1 FI2]. destruct Hab as (Hab1 & Hab2 & Hab3).
      apply (le_ins_slot st _ (bs_item_count s) k v); try reflexivity; try assumption; icmk.
    - (* IXSK *) lq2; [icmk | icmk | | intros; reflexivity]. intros y [Hy|Hy]; [|congruence]. st_simpl_goal.
      rewrite setf_other by (intros ->; destruct Hy as [Hy|[Hy1 Hy2]]; [contradiction | congruence]). split; reflexivity.
    - (* IXSV *) lq2; [icmk | icmk | | intros; reflexivity]. intros y [Hy|Hy]; [|congruence]. st_simpl_goal.
      rewrite setf_other by (intros ->; destruct Hy as [Hy|[Hy1 Hy2]]; [contradiction | congruence]). split; reflexivity.
    - (* IXSN *) lq2; [icmk | icmk | intros; split; reflexivity | ]. intros y Hy. st_simpl_goal.
      apply setf_other. intros ->. destruct Hy as [Hy|[Hy1 Hy2]]; [contradiction | congruence].
    - (* IXSH *) destruct Hwf as [_ H3]. destruct Hab as (Hab1 & Hab2 & Hab3).
      apply (le_ins_item st _ n k v); try reflexivity; try assumption; try icmk. unfold item_ok in Hok. lia.
    - (* IUnew2 *) lq0; icmk.
    - (* X3 *) subst s. lq0. apply ic_locked. apply mk_locked.
    - (* XA1 *) destruct Hwf as [_ Hi]. destruct (FM i Hi) as [FM1 FM2]. destruct Hab as [Hab1 Hab2].
      apply (le_mark st _ i k); try reflexivity; try assumption; icmk.
    - (* XA4 *) destruct Hwf as [_ Hi]. destruct (FM i Hi) as [FM1 FM2].
      lq1; try icmk. intros j [_ Hj]. unfold mk in Hj. rewrite <- Hbst, FM2 in Hj. st_simpl_goal.
      rewrite setf_other by lia. split; reflexivity.
    - (* XA5 *) destruct Hwf as [_ Hi]. destruct (FM i Hi) as [FM1 FM2].
      lq1; try icmk. intros j [_ Hj]. unfold mk in Hj. rewrite <- Hbst, FM2 in Hj. st_simpl_goal.
      rewrite setf_other by lia. split; reflexivity.
    - (* XA6 *) destruct Hwf as [_ Hi]. destruct (FM i Hi) as [FM1 FM2]. destruct Hab as (_ & Hab2 & Hab3).
      destruct Hch as [Hx Hnz]. destruct (g_chain st) as [|x' rr] eqn:Ec; cbn [hd] in Hchd; [congruence|].
      assert (x' = x) by congruence. subst x'.
      apply (le_dupon st _ i x rr); try reflexivity; try assumption; try icmk.
    - (* XA8 *) destruct Hch as (Hx & Hnz & Hnx). destruct (g_chain st) as [|x' rr] eqn:Ec; cbn [hd] in Hchd; [congruence|].
      assert (x' = x) by congruence. subst x'.
      apply (le_xa8 st _ x rr); try reflexivity; try assumption; try icmk.
    - (* XA9 *) lq0; icmk.
    - (* XB1 *) destruct Hwf as (_ & Hi & _). destruct (FM i Hi) as [FM1 FM2]. destruct Hab as [Hab1 Hab2].
      apply (le_mark st _ i k); try reflexivity; try assumption; icmk.
    - (* XB4 *) destruct Hwf as (_ & Hi & _). destruct (FM i Hi) as [FM1 FM2].
      lq1; try icmk. intros j [_ Hj]. unfold mk in Hj. rewrite <- Hbst, FM2 in Hj. st_simpl_goal.
      rewrite setf_other by lia. split; reflexivity.
    - (* XB5 *) destruct Hwf as (_ & Hi & _). destruct (FM i Hi) as [FM1 FM2].
      lq1; try icmk. intros j [_ Hj]. unfold mk in Hj. rewrite <- Hbst, FM2 in Hj. st_simpl_goal.
      rewrite setf_other by lia. split; reflexivity.
    - (* XB6, last slot *) destruct Hwf as [_ Hi]. destruct (FD ltac:(lia)) as [FD1 FD2]. destruct Hab as [Hab1 Hab2].
      assert (Ech : g_chain st = []) by (apply chain_nil; assumption).
      apply (le_dec_last st _ i k); try reflexivity; try assumption; try icmk; try lia.
    - (* XB6, back-filled slot *) destruct Hwf as [_ Hi]. destruct (FM i Hi) as [FM1 FM2]. destruct (FD ltac:(lia)) as [FD1 FD2].
      destruct Hab as (_ & Hab1 & Hab2).
      assert (Ech : g_chain st = []) by (apply chain_nil; assumption).
      apply (le_dec_moved st _ i); try reflexivity; try assumption; try icmk; try lia.
    - (* XXP, head *) destruct Hab as [Hab1 Hab2]. destruct Hch as (Hx & Hlk & ->).
      apply (le_unlink st _ 0 x k); try reflexivity; try assumption; icmk.
    - (* XXP, item *) destruct Hab as [Hab1 Hab2]. destruct Hch as (Hx & Hlk & ->).
      apply (le_unlink st _ p x k); try reflexivity; try assumption; try icmk.
      st_simpl_goal. destruct (N.eqb_spec p 0); [contradiction | reflexivity].
    - (* XXU *) lq0; icmk.
    - (* XU *) lq0; icmk.
    - (* F4: the item that is being freed is not the one a reader may still stand on *)
      lq2; [reflexivity | reflexivity | intros; split; reflexivity | ]. intros y Hy. st_simpl_goal. apply setf_other. intros ->.
      destruct Hy as [Hy|[Hy1 Hy2]]; [contradiction|].
      destruct (limbo_owned _ HI HM ltac:(congruence)) as (u & _ & Hpo & Hpb).
      apply (M_inj _ HM t u (g_limbo st)); [ | rewrite Epc, Hy2; reflexivity | exact Hpo].
      intros ->. rewrite Epc in Hpb. apply Hpb. reflexivity.
  Qed.

  Lemma G_step st a st' es : Lk st -> Mem st -> G st -> (forall t, pc_abs st t (th st t)) ->
    step st a = Some (st', es) -> G st'.
  Proof. intros HI HM HG HA H. exact (G_leff _ _ HG (step_leff _ _ _ _ HI HM HG HA H)). Qed.

  Lemma abs_step st a st' es : Lk st -> Mem st -> G st -> (forall t, pc_abs st t (th st t)) ->
    step st a = Some (st', es) -> forall t', pc_abs st' t' (th st' t').
  Proof.
    intros HI HM HG HA H.
    step_split H t.
    all: try match goal with Hg : _ = bs_item_count _ - 1 |- _ => apply N.eqb_eq in Hg
                           | Hg : _ <> bs_item_count _ - 1 |- _ => apply N.eqb_neq in Hg end.
    all: split_t' t'.
    all: try exact I.     (* the new program point claims nothing: L1-L3 X1-X3 F? G?, Idle *)
    (* another thread: if it holds the lock [t] does not and changes nothing it reads; else it only reads its [g_lp] *)
    all: try (destruct (pc_bst (th st t')) eqn:Eb;
              [ assert (Ho' : g_owner st = Some t') by (apply (Lk_own _ HI); rewrite Eb; discriminate);
                first [ assert (Hown : g_owner st = Some t) by (apply (Lk_own _ HI); rewrite Epc; discriminate); congruence
                      | apply (abs_frame st); [exact (HA t') | reflexivity | reflexivity | reflexivity | reflexivity | reflexivity | reflexivity |];
                        st_simpl_goal; rewrite ?upd_other by exact Hne; reflexivity ]
              | apply (abs_unlocked st); [exact Eb | exact (HA t') |]; st_simpl_goal; rewrite ?upd_other by exact Hne; reflexivity ]).
    all: prep2 HI HM HA t Epc.
    all: repeat match goal with E : ?c = _, H : context [if ?c then _ else _] |- _ => rewrite E in H end.
    all: cbn [pc_abs]; unfold absent, noslot, ahead, ahead' in *; st_simpl; rewrite ?upd_same; b2p.
    all: repeat match goal with E : ?c = _ |- context [if ?c then _ else _] => rewrite E end.
    (* the stepping thread.  Same claim, or a conjunct of it, or the value just stored (I?S? XA3-XA5 XB3-XB5 XA7) *)
    all: try exact Hab; try tauto; try reflexivity.
    all: rewrite ?setf_same.
    all: try (assert (Hwfs : wf_s s) by tauto; destruct (wf_fields s Hwfs) as (FL1 & FL2 & FM & _)).
    all: try (assert (Hicst : ic st = bs_item_count s /\ mk st = 0) by (unfold ic, mk; rewrite <- Hbst; split; [exact FL1 | exact FL2]);
              destruct Hicst as [Hicst Hmk0]).
    all: pose proof (M_chd _ HM) as Hchd.
    all: assert (Hfull : g_chain st <> [] -> ic st = 3) by apply (G_full _ HG).
    (* lock acquisition (L3 X3): nobody owns the lock, so no marker and no copy *)
    all: try (subst s; assert (Ho : g_owner st = None) by
               (pose proof (Lk_bit _ HI) as Hbit; destruct (g_owner st); [congruence | reflexivity]);
              pose proof (Lk_mk _ HI Ho) as Hmk0; destruct (M_fl0 _ HM Ho) as [Hdup _]).
    all: unfold wf_s in *; repeat match goal with H : _ /\ _ |- _ => destruct H end.
    all: rewrite ?C_bic in *.
    all: assert (Hnil : bhead st = 0 -> g_chain st = []) by (apply chain_nil; exact HM).
    (* scans of the array (IK XK, IV XV XH) *)
    all: try solve [intros j Hj; lia].
    all: try solve [intros j Hj; destruct (N.eq_dec j i) as [->|Hne]; [assumption | apply Hab; lia]].
    all: try solve [eexists; split; [eapply own_slot; [exact HG | exact Hmk0 | | eassumption]; lia | intros; try discriminate; reflexivity]].
    all: try solve [f_equal; match goal with Hv : aval _ ?i = ?r |- _ = Some ?r => rewrite <- Hv end;
                    eapply own_slot; [exact HG | exact Hmk0 | lia | assumption]].
    (* scans of the chain (IH IXK IXN XHH XXK XXM, IXV XXV XXN) *)
    all: try solve [eexists; split; [eapply own_item; [exact HG | exact Hdup | | eassumption]; assumption | intros; try discriminate; reflexivity]].
    all: try solve [f_equal; match goal with Hv : xval _ ?x = ?r |- _ = Some ?r => rewrite <- Hv end;
                    eapply own_item; [exact HG | exact Hdup | assumption | assumption]].
    all: try solve [split; [assumption | apply ahead_hd; exact Hchd]].
    all: try solve [split; [assumption | apply ahead_tl; assumption]].
    all: try solve [split; [assumption | apply ahead_next; assumption]].
    all: try solve [f_equal; assumption].
    (* the key is absent: the scan is over (to ISK, A1, XU) or the claim travels on (A? IXS? F?) *)
    all: try solve [rsplit; try assumption; try reflexivity; apply own_absent;
                    [exact HG | exact Hdup | intros j Hj; try (destruct (N.eq_dec j i) as [->|Hne]; [assumption|]); first [lia | apply Hab; lia | match goal with Hn : forall j, j < _ -> _ |- _ => apply Hn; lia end]
                    | first [ rewrite Hnil by assumption; intros y []
                            | destruct (g_chain st); [intros y [] | exfalso; assert (ic st = 3) by (apply Hfull; discriminate); unfold ic in *; lia]
                            | eapply ahead_end; eassumption ] ]].
    all: try solve [rsplit; first [assumption | reflexivity | congruence]].
    all: try solve [destruct (N.eqb_spec i (bs_item_count s - 1)); [split; assumption | contradiction]].
    all: try solve [rewrite setf_other by (intros Hc; symmetry in Hc; contradiction); rsplit; first [assumption | reflexivity | congruence]].
    all: try solve [destruct (N.eqb_spec i (bs_item_count s - 1)); [contradiction|];
                    rewrite setf_other by (intros Hc; symmetry in Hc; contradiction); rsplit; first [assumption | reflexivity | congruence]].
    all: try solve [apply own_absent; [exact HG | exact Hdup | unfold ic; intros j Hj; lia
                    | destruct (g_chain st); [intros y [] | exfalso; assert (ic st = 3) by (apply Hfull; discriminate); unfold ic in *; lia]]].
  Qed.

  Lemma hist_step st a st' es : Lk st -> Mem st -> G st -> (forall t, pc_abs st t (th st t)) ->
    (forall h, In h (g_hist st) -> hist_ok_w h) ->
    step st a = Some (st', es) -> forall h, In h (g_hist st') -> hist_ok_w h.
  Proof.
    intros HI HM HG HA HH H.
    step_split H t; try exact HH.
    all: intros h Hh; apply in_app_or in Hh; destruct Hh as [Hh|[<-|[]]]; [apply HH; exact Hh|]; rewrite ?upd_same.
    all: try exact I.     (* try_get_value *)
    all: prep2 HI HM HA t Epc.
    - (* IUold *) destruct Hab as (r' & Hl & Hr). apply hist_ins_old with r'; [f_equal; exact Hl | exact Hr].
    - (* IUnew *) apply hist_ins_new. f_equal. apply Hab.
    - (* IUnew2 *) apply hist_ins_new. exact Hab.
    - (* X2: the array is empty, so is the chain *) apply hist_del_no. f_equal. apply (lookup_none_iff _ _ HG).
      assert (Hc : g_chain st = []).
      { destruct (g_chain st) eqn:Ecc; [reflexivity|]. assert (ic st = 3) by (apply (G_full _ HG); rewrite Ecc; discriminate).
        unfold ic in *. lia. }
      intros v0 [(j & [Hj _] & _)|(y & Hy & _)]; [unfold ic in Hj; lia|].
      apply lchain_sub in Hy. rewrite Hc in Hy. destruct Hy.
    - (* XB6, last slot *) subst i. rewrite N.eqb_refl in Hab, Hbst. apply hist_del_ok. f_equal. destruct Hab as [Hk <-].
      destruct (wf_fields s (proj1 Hwf)) as (FL1 & FL2 & _).
      apply own_slot; [exact HG | unfold mk; rewrite <- Hbst; exact FL2 | unfold ic; rewrite <- Hbst, FL1; apply Hwf | exact Hk].
    - (* XB6, back-filled slot *) apply hist_del_ok. destruct (N.eqb_spec i (bs_item_count s - 1)); [contradiction | apply Hab].
    - (* XU *) apply hist_del_no. f_equal. exact Hab.
    - (* F6 *) apply hist_del_ok. exact Hab.
  Qed.

  (** * the invariant *)
  Definition Abs (st : state) : Prop :=
    G st /\ (forall t, pc_abs st t (th st t)) /\ (forall h, In h (g_hist st) -> hist_ok_w h).

  Lemma G_init : G init.
  Proof.
    constructor; cbn.
    - intros k v. split; [discriminate|]. intros [(j & [Hj _] & _)|(x & [] & _)]. unfold ic in Hj. cbn in Hj. lia.
    - intros j j' [Hj _]. unfold ic in Hj. cbn in Hj. lia.
    - intros x x' [].
    - intros j x _ [].
    - intros H. contradiction.
    - discriminate.
  Qed.

  Theorem Abs_reach st : reach init step st -> Abs st.
  Proof.
    apply (inv_rule_aux _ _ _ init step (fun s => Lk s /\ Mem s) Abs).
    - intros s Hr. split; [apply (Lk_reach xoff); exact Hr | apply (Mem_reach xoff); exact Hr].
    - split; [exact G_init | split; [intros t; exact I | intros h []]].
    - intros s a s' es [HI HM] _ (HG & HA & HH) Hs. split; [|split].
      + exact (G_step _ _ _ _ HI HM HG HA Hs).
      + exact (abs_step _ _ _ _ HI HM HG HA Hs).
      + exact (hist_step _ _ _ _ HI HM HG HA HH Hs).
  Qed.
End VhmAbs.