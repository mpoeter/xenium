(** The flush of the quiescent state based reclamation model (Model/QsbrDefs.v), the liveness half of C02 as a bounded
    solo run.  QSBR makes progress only when EVERY registered thread passes quiescent states: a thread that owns a
    control block and sits outside any region with an old local epoch blocks the epoch for ever (that is the scheme,
    see [qsbr_no_leak_idle_thread_refuted] in Proof/QsbrInv.v).  So the hypothesis is: every OTHER control block of the
    list is released (its thread has exited).  Then a thread that passes quiescent states again and again (the read
    operation: guard_ptr acquire = enter_region, reset = leave_region = quiescent_state) frees, within FOUR operations,
    every block that sits in one of its retire lists, in the global abandoned list, or inside an orphan of either
    ([qsbr_no_leak_at_quiescence]).  The proof executes the model symbolically, one evaluation of [step] per atomic step ([sstep]), the
    scan by induction over the thread block list, one lemma per operation ([round]: local epoch behind / current).
    No axioms. *)
From Coq Require Import NArith ZArith List Bool Arith Lia PeanoNat Setoid.
From XV Require Import Conc.Lts Conc.Ev Conc.Solo Model.QsbrDefs Proof.QsbrBase Proof.QsbrEpoch Proof.QsbrNodes Proof.QsbrTags Proof.QsbrGuards.
Import ListNotations.
Local Open Scope N_scope.

Definition idle (s : state) (t : nat) : bool := match th s t with Idle => true | _ => false end.

Section Flush.
Variables (ns : nat) (nc : N) (t : nat) (c : N).
Notation K := (KRead c).

Definition ssteps (n : nat) (s s' : state) : Prop := solo_steps (step ns) Step idle t n s s'.

Notation reachable := (reach (init nc) (step ns)).
Lemma ssteps_reach n s s' : ssteps n s s' -> reachable s -> reachable s'.
Proof. induction 1 as [|n s s1 es s' Hi Hst Hs IH]; intros Hr; [exact Hr|]. apply IH. eapply reach_step; eauto. Qed.

(** one solo step by evaluating [step] at the program counter of t; [tac] decides the guards the step branches on *)
Ltac sstep tac :=
  eapply solo_S;
  [ unfold idle; prj; rewrite ?upd_same; first [reflexivity | match goal with H : th _ _ = _ |- _ => rewrite H; reflexivity end]
  | unfold step, step_gen; cbv zeta; prj; rewrite ?upd_same; repeat match goal with H : th _ _ = _ |- _ => rewrite H end; prj; cbn [cell_of opcode fst snd]; tac; reflexivity
  | ].

(** what the phases of one operation keep *)
Record Keep (s s' : state) : Prop := {
  k_cb : cb (tl s' t) = cb (tl s t); k_nest : nest (tl s' t) = nest (tl s t); k_rl : rl (tl s' t) = rl (tl s t);
  k_gep : gep s' = gep s; k_blist : blist s' = blist s; k_bstate : bstate s' = bstate s; k_blocal : blocal s' = blocal s;
  k_aband : aband s' = aband s; k_otgt : otgt s' = otgt s; k_ocont : ocont s' = ocont s; k_cells : cells s' = cells s;
  k_where : g_where s' = g_where s }.

Lemma Keep_pc s p : Keep s (set_pc t p s).
Proof. constructor; reflexivity. Qed.
Lemma Keep_trans s1 s2 s3 : Keep s1 s2 -> Keep s2 s3 -> Keep s1 s3.
Proof. intros [] []. constructor; congruence. Qed.

(** the scan of the thread block list: the own block has the current epoch, every other block is released *)
Lemma ph_scan_l k e b s0 : blocal s0 b = e -> e < 3 ->
  forall l, (forall p, In p l -> p = b \/ bstate s0 p <> 2) -> forall s, Keep s0 s ->
  th s t = (match l with [] => G1 k e | p :: rest => S2 k e p rest end) ->
  exists n s', ssteps n s s' /\ th s' t = G1 k e /\ Keep s0 s'.
Proof.
  intros Hb He. induction l as [|p rest IH]; intros Hl s K Hpc.
  - exists O, s. split; [apply solo_O|]. split; [exact Hpc|exact K].
  - specialize (IH (fun q Hq => Hl q (or_intror Hq))).
    destruct (N.eq_dec (blocal s0 p) ((e + 2) mod 3)) as [Heq|Hne].
    + (* the local epoch of p is the old one: p is not the own block, and it is not active *)
      assert (Hst : bstate s0 p <> 2).
      { destruct (Hl p (or_introl eq_refl)) as [->|Hx]; [|exact Hx]. exfalso. rewrite Hb in Heq. clear - Heq He. mlia. }
      destruct (IH (set_pc t (match rest with [] => G1 k e | q :: r => S2 k e q r end) (set_pc t (S3 k e p rest) s))) as (n & s' & Hs & Hp).
      * eapply Keep_trans; [exact K|]. eapply Keep_trans; apply Keep_pc.
      * prj. apply upd_same.
      * exists (S (S n)), s'. split; [|exact Hp].
        destruct rest; (sstep ltac:(rewrite (k_blocal _ _ K), Heq, N.eqb_refl);
          sstep ltac:(rewrite (k_bstate _ _ K); destruct (N.eqb_spec (bstate s0 p) 2); [contradiction|]; unfold scan_next); exact Hs).
    + destruct (IH (set_pc t (match rest with [] => G1 k e | q :: r => S2 k e q r end) s)) as (n & s' & Hs & Hp).
      * eapply Keep_trans; [exact K|apply Keep_pc].
      * prj. apply upd_same.
      * exists (S n), s'. split; [|exact Hp].
        destruct rest; (sstep ltac:(rewrite (k_blocal _ _ K); destruct (N.eqb_spec (blocal s0 p) ((e + 2) mod 3)); [contradiction|]; unfold scan_next); exact Hs).
Qed.

(** start of the operation up to the load of the local epoch in quiescent_state: acquire = enter_region, the node is
    dereferenced, reset = leave_region: the outermost region is left *)
Lemma ph_enter s b n0 : th s t = Idle -> cb (tl s t) = Some b -> nest (tl s t) = O -> cells s c = Some n0 ->
  exists s1 s2 r, step ns s (Start t (ORead c)) = Some (s1, []) /\ ssteps 4 s1 s2 /\ th s2 t = Q2 (LFin r None) (gep s) /\ Keep s s2.
Proof.
  intros H H1 H2 H3. eexists _, _, _. split; [unfold step, step_gen; rewrite H; reflexivity|]. split.
  - sstep idtac.
    sstep ltac:(rewrite H3; unfold enter; prj; rewrite H1; unfold entered).
    sstep ltac:(rewrite H3; unfold leave; prj; rewrite ?upd_same; prj; rewrite H2; cbn [pred Nat.eqb]).
    sstep idtac. apply solo_O.
  - prj. rewrite !upd_same. prj. split; [reflexivity|]. constructor; prj; rewrite ?upd_same; prj; try reflexivity. symmetry. exact H2.
Qed.

(** one flush operation = one read of cell c, executed solo *)
Definition solo_op (s s' : state) : Prop :=
  exists s1 n, step ns s (Start t (ORead c)) = Some (s1, []) /\ ssteps n s1 s' /\ idle s' t = true.

(** t is between operations, owns control block b, is outside any region; every other control block is released *)
Record Quiet (s : state) (b : N) : Prop := {
  q_reach : reachable s;
  q_idle : th s t = Idle;
  q_cb : cb (tl s t) = Some b;
  q_nest : nest (tl s t) = O;
  q_others : forall p, In p (blist s) -> p = b \/ bstate s p <> 2;
  q_cell : exists n0, cells s c = Some n0 }.

Definition Effect (s s' : state) (b : N) : Prop :=
  otgt s' = otgt s /\
  ( (blocal s b <> gep s /\ gep s' = gep s /\ blocal s' b = gep s /\
     (forall n, g_where s' n = if memN n (expand (ocont s) (rl (tl s t) (gep s))) then PFreed else g_where s n))
  \/ (blocal s b = gep s /\ gep s' = (gep s + 1) mod 3 /\ blocal s' b = (gep s + 1) mod 3 /\
      (forall n, g_where s' n =
         if memN n (expand (ocont s) (adopt (otgt s) (aband s) (rl (tl s t)) ((gep s + 1) mod 3))) then PFreed
         else if memN n (aband s) then PList t (otgt s n) else g_where s n)) ).

Lemma round s b : Quiet s b -> exists s', solo_op s s' /\ Quiet s' b /\ Effect s s' b.
Proof.
  intros [Hr Hidle Hcb Hnest Hoth [n0 Hcell]].
  assert (Hg3 : gep s < 3).
  { destruct (qi_e _ _ (QI_reach ns nc s Hr)) as (E & _). unfold E0 in E. rewrite E. apply N.mod_lt. discriminate. }
  destruct (ph_enter s b n0 Hidle Hcb Hnest Hcell) as (s1 & s2 & r & Hst & Hs12 & Hpc2 & K2).
  assert (Hcb2 : cb (tl s2 t) = Some b) by (rewrite (k_cb _ _ K2); exact Hcb).
  (* the rest of the run ends the operation in a quiet state *)
  assert (Hfin : forall n s', ssteps n s2 s' -> th s' t = Idle -> cb (tl s' t) = Some b -> nest (tl s' t) = O ->
            blist s' = blist s -> bstate s' = bstate s -> cells s' = cells s -> solo_op s s' /\ Quiet s' b).
  { intros n s' Hs Hp C1 C2 C3 C4 C5. split; [exists s1, (4 + n)%nat; split; [exact Hst|split; [eapply solo_steps_app; eauto|unfold idle; rewrite Hp; reflexivity]]|].
    constructor; try assumption; [|rewrite C3, C4; exact Hoth|exists n0; rewrite C5; exact Hcell].
    eapply ssteps_reach; [exact Hs|]. eapply ssteps_reach; [exact Hs12|]. eapply reach_step; [exact Hr|exact Hst]. }
  destruct (N.eq_dec (blocal s b) (gep s)) as [Heq|Hne].
  - (* the local epoch is current: scan, advance, adopt, announce the new epoch *)
    destruct (ph_scan_l (LFin r None) (gep s) b s Heq Hg3 (blist s) Hoth
                (set_pc t (match blist s with [] => G1 (LFin r None) (gep s) | p :: rest => S2 (LFin r None) (gep s) p rest end)
                   (set_pc t (S1 (LFin r None) (gep s)) s2))) as (k4 & s4 & Hs34 & Hpc4 & []).
    { eapply Keep_trans; [exact K2|]. eapply Keep_trans; apply Keep_pc. } { prj. apply upd_same. }
    assert (Hcb4 : cb (tl s4 t) = Some b) by congruence.
    assert (Hs24 : forall n s', ssteps n s4 s' -> ssteps (S (S (k4 + n))) s2 s').
    { intros n s' Hs. sstep ltac:(rewrite Hcb2, (k_blocal _ _ K2), Heq, N.eqb_refl).
      destruct (blist s) eqn:Eb; (sstep ltac:(rewrite (k_blist _ _ K2), Eb; unfold scan_next); eapply solo_steps_app; eauto). }
    destruct (aband s4) as [|o l] eqn:Ea; eexists; apply and_assoc; (split; [eapply Hfin|]).
    1: (apply Hs24; sstep ltac:(rewrite k_gep0, N.eqb_refl); sstep idtac; sstep ltac:(rewrite k_gep0, N.eqb_refl); sstep ltac:(rewrite Ea);
        sstep ltac:(rewrite Hcb4; unfold do_cont, finish); apply solo_O).
    8: (apply Hs24; sstep ltac:(rewrite k_gep0, N.eqb_refl); sstep idtac; sstep ltac:(rewrite k_gep0, N.eqb_refl); sstep ltac:(rewrite Ea); sstep idtac;
        sstep ltac:(rewrite Hcb4; unfold do_cont, finish); apply solo_O).
    all: try unfold Effect; repeat (progress (prj; rewrite ?upd_same)); try congruence.
    all: (split; [congruence|]); right; (split; [exact Heq|]); (split; [reflexivity|]); (split; [apply updN_same|]); intros n.
    all: rewrite ?Ea, k_ocont0, k_rl0, ?k_otgt0, k_where0, <- k_aband0; reflexivity.
  - (* the local epoch is behind: announce the global epoch *)
    destruct K2. eexists. apply and_assoc. split; [eapply Hfin|].
    1: (sstep ltac:(rewrite Hcb2, k_blocal0; destruct (N.eqb_spec (blocal s b) (gep s)); [contradiction|]);
        sstep ltac:(rewrite Hcb2; unfold do_cont, finish); apply solo_O).
    all: try unfold Effect; repeat (progress (prj; rewrite ?upd_same)); try congruence.
    split; [congruence|]. left. split; [exact Hne|]. split; [congruence|]. split; [apply updN_same|]. intros n.
    rewrite k_ocont0, k_rl0, k_where0. reflexivity.
Qed.

(** ** what the flush has to free, and when *)
(** o is in retire list i of t, or an abandoned orphan with target epoch i *)
Definition top (s : state) (o i : N) : Prop := g_where s o = PList t i \/ (g_where s o = PAband /\ otgt s o = i).
(** n is freed when t deletes its retire list i (after adopting the abandoned orphans) *)
Definition due (s : state) (n i : N) : Prop := top s n i \/ exists o, g_where s n = PIn o /\ top s o i.
Definition Prog (s s' : state) : Prop :=
  (forall n, g_where s n = PFreed -> g_where s' n = PFreed) /\
  (forall n i, due s n i -> due s' n i \/ g_where s' n = PFreed).

Lemma Prog_trans s1 s2 s3 : Prog s1 s2 -> Prog s2 s3 -> Prog s1 s3.
Proof.
  intros (A1 & A2) (B1 & B2). split; [auto|]. intros n i H. destruct (A2 n i H) as [X|X]; [apply B2; exact X|right; apply B1; exact X].
Qed.

Lemma top_lt s o i : N0 s -> top s o i -> i < 3.
Proof.
  intros I [H|[_ H]]; [|rewrite <- H; apply (n_otgt s I)].
  destruct (N.lt_ge_cases i 3) as [Hl|Hg]; [exact Hl|]. apply (n_list s I) in H. rewrite (n_rl3 s I t i Hg) in H. destruct H.
Qed.

(** the orphans [ab] of the abandoned list are adopted, then retire list [e] is deleted *)
Lemma adopt_free_prog s s' ab e : N0 s -> otgt s' = otgt s -> (forall n, In n ab -> g_where s n = PAband) ->
  (forall n, g_where s' n =
     if memN n (expand (ocont s) (adopt (otgt s) ab (rl (tl s t)) e)) then PFreed
     else if memN n ab then PList t (otgt s n) else g_where s n) ->
  Prog s s' /\ ((forall n, g_where s n = PAband -> In n ab) -> forall n, due s n e -> g_where s' n = PFreed).
Proof.
  intros I Hot Hab Hw.
  set (L := adopt (otgt s) ab (rl (tl s t)) e) in *.
  assert (HL : forall o, In o L <-> (In o ab /\ otgt s o = e) \/ g_where s o = PList t e).
  { intros o. unfold L. rewrite adopt_in, (n_list s I). reflexivity. }
  assert (Hnab : forall n p, g_where s n = p -> p <> PAband -> memN n ab = false).
  { intros n p Hn Hp. apply memN_false. intros X. apply Hab in X. congruence. }
  assert (Htop : forall o i, top s o i -> g_where s' o = PFreed \/ top s' o i).
  { intros o i Ht. rewrite Hw. destruct (memN o (expand _ L)) eqn:M; [left; reflexivity|right]. unfold top. rewrite Hw, M, Hot.
    destruct (memN o ab) eqn:Ma.
    - apply memN_In, Hab in Ma. destruct Ht as [Ht|[_ Ht]]; [congruence|left; rewrite Ht; reflexivity].
    - exact Ht. }
  assert (Hin : forall o i, top s o i -> In o (expand (ocont s) L) -> In o L).
  { intros o i Ht Ho. apply expand_in in Ho. destruct Ho as [Ho|(x & _ & Ho)]; [exact Ho|].
    apply (n_in s I) in Ho. destruct Ht as [Ht|[Ht _]]; congruence. }
  split; [split|].
  - intros n Hn. rewrite Hw, (Hnab n _ Hn) by discriminate. destruct (memN n _); [reflexivity|exact Hn].
  - intros n i [Ht|(o & Hn & Ht)].
    + destruct (Htop n i Ht) as [X|X]; [right; exact X|left; left; exact X].
    + rewrite Hw. destruct (memN n (expand _ L)) eqn:M; [right; reflexivity|left; right].
      exists o. split; [rewrite Hw, M, (Hnab n _ Hn) by discriminate; exact Hn|].
      destruct (Htop o i Ht) as [X|X]; [|exact X].
      exfalso. apply memN_false in M. apply M. apply expand_in. right. exists o. split; [|apply (n_in s I); exact Hn].
      apply (Hin o i Ht). rewrite Hw in X. destruct (memN o (expand _ L)) eqn:Mo; [apply memN_In; exact Mo|].
      destruct (memN o ab); [discriminate X|]. destruct Ht as [Ht|[Ht _]]; congruence.
  - intros Hall n Hd. rewrite Hw. replace (memN n (expand (ocont s) L)) with true; [reflexivity|]. symmetry. apply memN_In, expand_in.
    assert (Ht : forall o, top s o e -> In o L).
    { intros o [Ht|[Ht1 Ht2]]; apply HL; [right; exact Ht|left; split; [apply Hall; exact Ht1|exact Ht2]]. }
    destruct Hd as [Hd|(o & Hn & Hd)]; [left; apply Ht; exact Hd|right; exists o; split; [apply Ht; exact Hd|apply (n_in s I); exact Hn]].
Qed.

Lemma effect_prog s s' b : N0 s -> Effect s s' b ->
  Prog s s' /\ (blocal s b = gep s -> forall n, due s n (gep s') -> g_where s' n = PFreed).
Proof.
  intros I (Hot & [(Hne & Hg & Hl & Hw)|(Heq & Hg & Hl & Hw)]).
  - destruct (adopt_free_prog s s' [] (gep s) I Hot (fun n (X : In n []) => match X with end) Hw) as (P & _).
    split; [exact P|intros X; contradiction].
  - destruct (adopt_free_prog s s' (aband s) _ I Hot (fun n => proj1 (n_aband s I n)) Hw) as (P & F).
    split; [exact P|]. intros _. rewrite Hg. apply F. intros n. apply (n_aband s I).
Qed.
(** one operation catches up with the global epoch; when the local epoch was current it advances the epoch and frees what is due *)
Lemma round_prog s b : Quiet s b ->
  exists s', solo_op s s' /\ Quiet s' b /\ blocal s' b = gep s' /\ Prog s s' /\
    (blocal s b = gep s -> gep s' = (gep s + 1) mod 3 /\ forall n, due s n (gep s') -> g_where s' n = PFreed).
Proof.
  intros Q. destruct (round s b Q) as (s' & Ho & Q' & Ef).
  destruct (effect_prog s s' b (qi_n _ _ (QI_reach ns nc s (q_reach _ _ Q))) Ef) as (P & F).
  exists s'. split; [exact Ho|]. split; [exact Q'|].
  destruct Ef as (_ & [(Hne & Hg & Hl & _)|(_ & Hg & Hl & _)]); (split; [congruence|]); (split; [exact P|]); intros Heq; [contradiction|].
  split; [exact Hg|exact (F Heq)].
Qed.

(** [flush k]: k flush operations one after the other, the thread running alone *)
Fixpoint flush (k : nat) (s s' : state) : Prop :=
  match k with O => s' = s | S m => exists s1, solo_op s s1 /\ flush m s1 s' end.

(** [qsbr_no_leak_at_quiescence] (C02, the liveness half as a bounded solo run): in a reachable state in which thread t is
    between operations, owns a control block and is outside any region, and every other control block of the list is
    released (all other threads have exited), FOUR flush operations of t - each one acquires a guard on cell c (entering
    a region) and releases it (leaving the region: a quiescent state) - free every block that sits in a retire list of t
    or in the global abandoned list (e.g. handed over by an exited thread), or inside an orphan of either, and keep freed
    what was freed.  Four = one quiescent state to catch up with the global epoch, then three that advance it: each of
    them adopts the abandoned orphans and deletes the retire list of the new epoch.  Every operation finishes when the
    thread runs alone. *)
Theorem qsbr_no_leak_at_quiescence s b : Quiet s b ->
  exists s', flush 4 s s' /\ Quiet s' b /\
    forall n, (g_where s n = PFreed \/ exists i, due s n i) -> g_where s' n = PFreed.
Proof.
  intros Q.
  destruct (round_prog s b Q) as (s1 & Ho1 & Q1 & Hl1 & P1 & _).
  destruct (round_prog s1 b Q1) as (s2 & Ho2 & Q2 & Hl2 & P2 & Y2). destruct (Y2 Hl1) as (Hg2 & F2).
  destruct (round_prog s2 b Q2) as (s3 & Ho3 & Q3 & Hl3 & P3 & Y3). destruct (Y3 Hl2) as (Hg3 & F3).
  destruct (round_prog s3 b Q3) as (s4 & Ho4 & Q4 & Hl4 & P4 & Y4). destruct (Y4 Hl3) as (Hg4 & F4).
  exists s4. split; [exists s1; split; [exact Ho1|]; exists s2; split; [exact Ho2|]; exists s3; split; [exact Ho3|]; exists s4; split; [exact Ho4|reflexivity]|].
  split; [exact Q4|].
  intros n [H|(i & H)].
  - apply (proj1 P4), (proj1 P3), (proj1 P2), (proj1 P1). exact H.
  - assert (Hi : i < 3).
    { pose proof (qi_n _ _ (QI_reach ns nc s (q_reach _ _ Q))) as I. destruct H as [H|(o & _ & H)]; eapply top_lt; eauto. }
    assert (Hg1 : gep s1 < 3).
    { destruct (qi_e _ _ (QI_reach ns nc s1 (q_reach _ _ Q1))) as (E & _). unfold E0 in E. rewrite E. apply N.mod_lt. discriminate. }
    assert (Hcases : i = gep s2 \/ i = gep s3 \/ i = gep s4).
    { rewrite Hg4, Hg3, Hg2. clear - Hi Hg1. mlia. }
    destruct (proj2 P1 n i H) as [D1|X1]; [|apply (proj1 P4), (proj1 P3), (proj1 P2); exact X1].
    destruct Hcases as [-> | [-> | ->]].
    + apply (proj1 P4), (proj1 P3). apply F2. exact D1.
    + destruct (proj2 P2 n _ D1) as [D2|X2]; [|apply (proj1 P4), (proj1 P3); exact X2].
      apply (proj1 P4). apply F3. exact D2.
    + destruct (proj2 P2 n _ D1) as [D2|X2]; [|apply (proj1 P4), (proj1 P3); exact X2].
      destruct (proj2 P3 n _ D2) as [D3|X3]; [|apply (proj1 P4); exact X3].
      apply F4. exact D3.
Qed.
End Flush.
