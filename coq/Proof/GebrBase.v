(** Groundwork for the proofs about the generalised epoch based reclamation model (Model/GebrDefs.v), for every
    configuration: the case analysis of one step ([step_split]), the frame of a step ([step_frame]), what a step does to
    the published local epochs ([local_eff]), the classes of program points and the number of non-empty guards
    ([cnt_held]) the thread-local shape is stated with, the program points the configuration-dependent selectors can
    yield ([xn], [sel]), the expected value of region_entries ([rent_exp]).  The shape itself is in Proof/GebrShape.v,
    ownership of control blocks in Proof/GebrOwn.v.  Used by all other Proof/Gebr*.v.  No axioms. *)
From Coq Require Import NArith List Bool Arith Lia PeanoNat.
From XV Require Import Conc.Lts Conc.Ev Model.GebrDefs.
Import ListNotations.
Local Open Scope N_scope.

(** * Function updates *)
Lemma updN_same {X} (f : N -> X) i v : updN f i v i = v.
Proof. unfold updN. rewrite N.eqb_refl. reflexivity. Qed.
Lemma updN_other {X} (f : N -> X) i v j : j <> i -> updN f i v j = f j.
Proof. unfold updN. intros H. destruct (N.eqb_spec j i); [contradiction|reflexivity]. Qed.
Lemma updN_cases {X} (f : N -> X) i v j : (j = i /\ updN f i v j = v) \/ (j <> i /\ updN f i v j = f j).
Proof. destruct (N.eq_dec j i) as [->|H]; [left; split; [reflexivity|apply updN_same] | right; split; [exact H|apply updN_other; exact H]]. Qed.
Lemma upd_cases {X} (f : nat -> X) i v j : (j = i /\ upd f i v j = v) \/ (j <> i /\ upd f i v j = f j).
Proof. destruct (Nat.eq_dec j i) as [->|H]; [left; split; [reflexivity|apply upd_same] | right; split; [exact H|apply upd_other; exact H]]. Qed.

Ltac prj := cbn [gep blist bstate bflag blocal orph cells nalloc nextid nid th tl g_owner g_life g_where g_nfree g_uaf
                 w_gep w_blist w_bstate w_bflag w_blocal w_orph w_cells w_nalloc w_nextid w_nid w_th w_tl w_g_owner w_g_life w_g_where w_g_nfree w_g_uaf
                 set_pc set_tl free_all move_all deref
                 cb nest rent rg ces lidx rl gs sit tinit sync
                 wt_cb wt_nest wt_rent wt_rg wt_ces wt_lidx wt_rl wt_gs wt_sit wt_tinit wt_sync tl0 enter_tls leave_tls leave_rg_tls].
Ltac prj_in H := cbn [gep blist bstate bflag blocal orph cells nalloc nextid nid th tl g_owner g_life g_where g_nfree g_uaf
                 w_gep w_blist w_bstate w_bflag w_blocal w_orph w_cells w_nalloc w_nextid w_nid w_th w_tl w_g_owner w_g_life w_g_where w_g_nfree w_g_uaf
                 set_pc set_tl free_all move_all deref
                 cb nest rent rg ces lidx rl gs sit tinit sync
                 wt_cb wt_nest wt_rent wt_rg wt_ces wt_lidx wt_rl wt_gs wt_sit wt_tinit wt_sync tl0 enter_tls leave_tls leave_rg_tls] in H.

Lemma oeqb_eq a b : oeqb a b = true <-> a = b.
Proof.
  destruct a as [x|], b as [y|]; cbn; split; intros H; try congruence; try discriminate.
  - apply N.eqb_eq in H. congruence.
  - inversion H. apply N.eqb_refl.
Qed.

Lemma memN_In n l : memN n l = true <-> In n l.
Proof.
  unfold memN. rewrite existsb_exists. split.
  - intros (x & Hx & E). apply N.eqb_eq in E. subst. exact Hx.
  - intros H. exists n. split; [exact H|apply N.eqb_refl].
Qed.
Lemma memN_false n l : memN n l = false <-> ~ In n l.
Proof. rewrite <- memN_In. destruct (memN n l); split; intros; congruence. Qed.

(** * Case analysis of one step *)

(** every way [step] can succeed yields one goal with the successor state in constructor form *)
Ltac inv_some H := injection H as <- <-.

Ltac step_split H :=
  repeat match type of H with
  | None = Some _ => discriminate H
  | context [match ?x with _ => _ end] =>
      let E := fresh "E" in destruct x eqn:E
  | Some _ = Some _ => inv_some H
  end.

Ltac unfold_step H :=
  unfold step, leave, leave_rg, enter, region_entered, crit_enter, ab_from, do_cont, to_cas, finish, walk, scan_pass in H.

(** the control blocks a step of t may write: its own, the one it is about to allocate, a free one its CAS at C3 takes,
    the new one whose state it stores at C4; every other block keeps state, flag, local epoch and owner ([step_frame]) *)
Definition touched (s : state) (t : nat) (b : N) : Prop :=
  cb (tl s t) = Some b \/ b = nalloc s \/ (exists k rest, th s t = C3 k b rest /\ bstate s b = 0) \/ (exists k, th s t = C4 k b).

Ltac split_updN_goal :=
  repeat match goal with
  | |- context [updN ?f ?i ?v ?i] => rewrite (updN_same f i v)
  | H : ?j <> ?i |- context [updN ?f ?i ?v ?j] => rewrite (updN_other f i v j H)
  | |- context [updN ?f ?i ?v ?j] => destruct (N.eq_dec j i); [subst j|]
  end.

Lemma is_nil_true l : is_nil l = true -> l = [].
Proof. destruct l; [reflexivity|discriminate]. Qed.
Lemma is_nil_false l : is_nil l = false -> l <> [].
Proof. destruct l; [discriminate|intros _ ?; discriminate]. Qed.
Lemma negb_eqb_true a b : negb (a =? b) = true -> a <> b.
Proof. destruct (N.eqb_spec a b); [discriminate|auto]. Qed.
Lemma negb_eqb_false a b : negb (a =? b) = false -> a = b.
Proof. destruct (N.eqb_spec a b); [auto|discriminate]. Qed.
Lemma oeqb_false a b : oeqb a b = false -> a <> b.
Proof. intros H E. apply oeqb_eq in E. congruence. Qed.

(* turn the boolean equations produced by the case analysis into propositions *)
Ltac bool_eqs :=
  repeat match goal with
  | H : negb (_ =? _) = true |- _ => apply negb_eqb_true in H
  | H : negb (_ =? _) = false |- _ => apply negb_eqb_false in H
  | H : (_ =? _) = true |- _ => apply N.eqb_eq in H
  | H : (_ =? _) = false |- _ => apply N.eqb_neq in H
  | H : (_ =? _)%nat = true |- _ => apply Nat.eqb_eq in H
  | H : (_ =? _)%nat = false |- _ => apply Nat.eqb_neq in H
  | H : (_ <? _)%nat = true |- _ => apply Nat.ltb_lt in H
  | H : (_ <? _)%nat = false |- _ => apply Nat.ltb_ge in H
  | H : oeqb _ _ = true |- _ => apply oeqb_eq in H
  | H : oeqb _ _ = false |- _ => apply oeqb_false in H
  | H : is_nil _ = true |- _ => apply is_nil_true in H
  | H : is_nil _ = false |- _ => apply is_nil_false in H
  end.

Lemma step_frame cfg ns s t s' es : step cfg ns s (Step t) = Some (s', es) ->
  (forall u, u <> t -> th s' u = th s u /\ tl s' u = tl s u) /\
  (forall b, ~ touched s t b -> bstate s' b = bstate s b /\ bflag s' b = bflag s b /\ blocal s' b = blocal s b /\ g_owner s' b = g_owner s b) /\
  (blist s' = blist s \/ exists k b h, th s t = C6 k b h /\ blist s' = b :: blist s) /\
  nalloc s <= nalloc s' /\ gep s <= gep s'.
Proof.
  intros H. unfold_step H. cbv zeta in H. step_split H.
  all: bool_eqs; prj.
  all: (split; [intros u Hu; rewrite ?upd_other by exact Hu; split; reflexivity|]).
  all: (split; [intros bb Hb; unfold touched in Hb|]).
  all: try solve [repeat split; reflexivity].
  all: try solve [repeat split; split_updN_goal; try reflexivity; exfalso; apply Hb; eauto 6].
  all: try solve [split; [left; congruence|split; lia]].
  all: try solve [split; [right; eauto|split; lia]].
  all: try solve [repeat split; split_updN_goal; try reflexivity; exfalso; apply Hb; right; right; left; eauto].
Qed.

Lemma step_others cfg ns s t s' es : step cfg ns s (Step t) = Some (s', es) -> forall u, u <> t -> th s' u = th s u /\ tl s' u = tl s u.
Proof. intros H. apply (step_frame _ _ _ _ _ _ H). Qed.
Lemma step_untouched cfg ns s t s' es : step cfg ns s (Step t) = Some (s', es) -> forall b, ~ touched s t b ->
  bstate s' b = bstate s b /\ bflag s' b = bflag s b /\ blocal s' b = blocal s b /\ g_owner s' b = g_owner s b.
Proof. intros H. apply (step_frame _ _ _ _ _ _ H). Qed.
Lemma step_blist cfg ns s t s' es : step cfg ns s (Step t) = Some (s', es) ->
  blist s' = blist s \/ exists k b h, th s t = C6 k b h /\ blist s' = b :: blist s.
Proof. intros H. apply (step_frame _ _ _ _ _ _ H). Qed.
Lemma step_gep_mono cfg ns s t s' es : step cfg ns s (Step t) = Some (s', es) -> gep s <= gep s'.
Proof. intros H. apply (step_frame _ _ _ _ _ _ H). Qed.

(** * Program points *)
Definition in_enter (p : pc) : bool :=
  match p with
  | E0 _ | E1 _ | E2 _ | E3 _ | E4 _ _ | S1 _ _ | S2 _ _ _ | S3 _ _ _ | G1 _ _ | G2 _ _ | G3 _ _ | G4 _ _
  | G5 _ _ _ | G6 _ _ _ | G7 _ _ _ _ | U1 _ _ | U2 _ _ _ | U3 _ => true
  | _ => false
  end.
Definition in_cphase (p : pc) : bool :=
  match p with T0 _ | C1 _ | C2 _ _ _ | C3 _ _ _ | C4 _ _ | C5 _ _ | C6 _ _ _ | C7 _ | C8 _ _ | C9 _ => true | _ => false end.
Definition in_xphase (p : pc) : bool := match p with X1 _ | X2 _ _ | X3 => true | _ => false end.
Definition in_lv (p : pc) : bool := match p with LV _ | B1 _ _ | B2 _ _ _ => true | _ => false end.
Definition in_gphase (p : pc) : bool := match p with G1 _ _ | G2 _ _ | G3 _ _ | G4 _ _ | G5 _ _ _ => true | _ => false end.
Definition in_c16 (p : pc) : bool := match p with C1 _ | C2 _ _ _ | C3 _ _ _ | C4 _ _ | C5 _ _ | C6 _ _ _ => true | _ => false end.
(** What a step of thread t does to the published local epochs. *)
Inductive local_eff (s : state) (t : nat) (s' : state) : Prop :=
| BE_same : blocal s' = blocal s -> local_eff s t s'
| BE_alloc : in_c16 (th s t) = true -> blocal s' = updN (blocal s) (nalloc s) 3 -> local_eff s t s'
| BE_init k e b : th s t = C8 k e -> cb (tl s t) = Some b -> blocal s' = updN (blocal s) b e -> local_eff s t s'
| BE_update a new old b : th s t = U2 a new old -> cb (tl s t) = Some b -> blocal s' = updN (blocal s) b new -> local_eff s t s'.

Lemma step_blocal cfg ns s t s' es : step cfg ns s (Step t) = Some (s', es) -> local_eff s t s'.
Proof.
  intros H. unfold_step H. cbv zeta in H. step_split H.
  all: first [ apply BE_same; reflexivity
             | apply BE_alloc; [rewrite E; reflexivity|reflexivity]
             | eapply BE_init; [exact E|eassumption|reflexivity]
             | eapply BE_update; [exact E|eassumption|reflexivity] ].
Qed.

Definition pre_sync (p : pc) : bool := match p with E0 _ | E1 _ | E2 _ | E3 _ | E4 _ _ | U1 _ _ | U2 _ _ _ => true | _ => false end.
Definition cblk (p : pc) : option N := match p with C4 _ b | C5 _ b | C6 _ b _ => Some b | _ => None end.
Definition kacq (k : ctx) : bool := match k with KAcq _ => true | KEnter _ => false end.
(** the guard of the running operation: 1 while an acquire / repl holds (or is about to hold) a critical region that no
    persistent guard slot accounts for yet, so that nested_critical_entries = #non-empty slots + [tmp] ([ts_cnt]) *)
Definition tmp (p : pc) (x : tls) : nat :=
  match p with
  | E1 k | E2 k => if kacq k then 1 else 0
  | A2 (KHold _ s) => if is_some (gs x s) then 0 else 1
  | A2 _ => 1
  | R3 _ (Some _) _ => 1
  | _ => if in_enter p then 1 else 0
  end%nat.
Definition needs_cb (p : pc) : bool :=
  in_enter p || in_xphase p || in_lv p ||
  match p with C7 _ | C8 _ _ | C9 _ | A2 _ | R3 _ (Some _) _ => true | _ => false end.
Definition no_cb (p : pc) : bool := match p with T0 _ | C1 _ | C2 _ _ _ | C3 _ _ _ | C4 _ _ | C5 _ _ | C6 _ _ _ => true | _ => false end.
Definition ctx_of (p : pc) : option ctx :=
  match p with
  | T0 k | C1 k | C2 k _ _ | C3 k _ _ | C4 k _ | C5 k _ | C6 k _ _ | C7 k | C8 k _ | C9 k | E1 k | E2 k => Some k
  | A1 a | E0 a | E3 a | E4 a _ | S1 a _ | S2 a _ _ | S3 a _ _ | G1 a _ | G2 a _ | G3 a _ | G4 a _ | G5 a _ _ | G6 a _ _ | G7 a _ _ _
  | U1 a _ | U2 a _ _ | U3 a | A2 a => Some (KAcq a)
  | _ => None
  end.
Definition slot_of (p : pc) : option nat :=
  match p with
  | Begin (OHold _ s) | Begin (ODrop s) | Begin (ODeref s) => Some s
  | _ => match ctx_of p with Some (KAcq (KHold _ s)) => Some s | _ => None end
  end.
Definition walk_of (p : pc) : list N := match p with C2 _ r rest | C3 _ r rest => r :: rest | _ => [] end.

(** number of non-empty guards among the slots 0..n-1 *)
Fixpoint cnt_held (g : nat -> option N) (n : nat) : nat :=
  match n with O => O | S m => ((if is_some (g m) then 1 else 0) + cnt_held g m)%nat end.

Lemma cnt_held_none n : cnt_held (fun _ => None) n = O.
Proof. induction n; cbn; [reflexivity|exact IHn]. Qed.
Lemma cnt_upd_hi g s v n : (n <= s)%nat -> cnt_held (upd g s v) n = cnt_held g n.
Proof.
  induction n as [|n IH]; intros H; cbn [cnt_held]; [reflexivity|].
  rewrite IH by lia. rewrite upd_other by lia. reflexivity.
Qed.
Lemma cnt_upd_some_none g s x n : g s = Some x -> (s < n)%nat -> cnt_held g n = S (cnt_held (upd g s None) n).
Proof.
  intros Hg. induction n as [|n IH]; intros H; [lia|]. cbn [cnt_held].
  destruct (Nat.eq_dec s n) as [->|Hne].
  - rewrite upd_same, Hg. cbn [is_some]. rewrite cnt_upd_hi by lia. reflexivity.
  - rewrite (upd_other _ _ _ n) by congruence. rewrite IH by lia. lia.
Qed.
Lemma cnt_upd_none_some g s x n : g s = None -> (s < n)%nat -> cnt_held (upd g s (Some x)) n = S (cnt_held g n).
Proof.
  intros Hg. induction n as [|n IH]; intros H; [lia|]. cbn [cnt_held].
  destruct (Nat.eq_dec s n) as [->|Hne].
  - rewrite upd_same, Hg. cbn [is_some]. rewrite cnt_upd_hi by lia. reflexivity.
  - rewrite (upd_other _ _ _ n) by congruence. rewrite IH by lia. lia.
Qed.
Lemma cnt_upd_same_kind g s v n : is_some (g s) = is_some v -> cnt_held (upd g s v) n = cnt_held g n.
Proof.
  intros Hg. induction n as [|n IH]; [reflexivity|]. cbn [cnt_held]. rewrite IH.
  destruct (Nat.eq_dec n s) as [->|Hne]; [rewrite upd_same, Hg; reflexivity|rewrite upd_other by exact Hne; reflexivity].
Qed.
Lemma cnt_zero_all g n : cnt_held g n = O -> forall s, (s < n)%nat -> g s = None.
Proof.
  induction n as [|n IH]; intros H s Hs; [lia|]. cbn [cnt_held] in H.
  destruct (g n) eqn:En; cbn [is_some] in H; [lia|].
  destruct (Nat.eq_dec s n) as [->|Hne]; [exact En|apply IH; lia].
Qed.
Lemma cnt_pos g n s x : g s = Some x -> (s < n)%nat -> (1 <= cnt_held g n)%nat.
Proof. intros Hg Hs. rewrite (cnt_upd_some_none g s x n Hg Hs). lia. Qed.

(** ** the program points the configuration-dependent selectors can yield *)
Lemma xnext_cases r i : xnext r i = X1 0 \/ xnext r i = X1 1 \/ xnext r i = X1 2 \/ xnext r i = X3.
Proof. unfold xnext. repeat match goal with |- context [if ?c then _ else _] => destruct c end; auto. Qed.
Lemma crit_pc_cases cfg a n :
  (crit_pc cfg a n = A2 a /\ n <> 1%nat) \/
  (n = 1%nat /\ ((crit_pc cfg a n = E1 (KAcq a) /\ rext cfg = RNone) \/ (crit_pc cfg a n = E3 a /\ rext cfg = REager) \/
                 (crit_pc cfg a n = E0 a /\ rext cfg = RLazy))).
Proof.
  unfold crit_pc. destruct (Nat.eqb_spec n 1) as [->|Hn]; [right; split; [reflexivity|]|left; split; [reflexivity|exact Hn]].
  destruct (rext cfg); auto.
Qed.
Lemma iter_next_cases n a e i : iter_next n a e i = S2 a e i \/ iter_next n a e i = A2 a.
Proof. unfold iter_next. destruct (Nat.ltb i n); auto. Qed.
Lemma scan_start_cases cfg a e :
  (scan_start cfg a e = S1 a e /\ scan_is_n cfg = false) \/
  (scan_is_n cfg = true /\ ((exists i, scan_start cfg a e = S2 a e i) \/ scan_start cfg a e = A2 a)).
Proof.
  unfold scan_start, scan_is_n. destruct (scan_strat cfg) as [|n]; [left; split; reflexivity|right; split; [reflexivity|]].
  destruct (iter_next_cases n a e 0) as [->| ->]; eauto.
Qed.
Lemma pass_pc_cases cfg a e i rest :
  (pass_pc cfg a e i rest = G1 a e /\ rest = []) \/
  (rest <> [] /\ ((exists i', pass_pc cfg a e i rest = S2 a e i') \/ pass_pc cfg a e i rest = A2 a)).
Proof.
  unfold pass_pc. destruct rest as [|p r]; [left; split; reflexivity|right; split; [discriminate|]]. cbn [is_nil].
  destruct (scan_strat cfg) as [|n]; [eauto|]. destruct (iter_next_cases n a e (S i)) as [->| ->]; eauto.
Qed.
Lemma scan_block_cases cfg a e i : (exists i', scan_block cfg a e i = S2 a e i') \/ scan_block cfg a e i = A2 a.
Proof.
  unfold scan_block. destruct (scan_strat cfg) as [|n]; [auto|]. destruct (iter_next_cases n a e (S i)) as [->| ->]; eauto.
Qed.
Lemma u2_pc_cases cfg a : (u2_pc cfg a = U3 a /\ scan_is_n cfg = true) \/ (u2_pc cfg a = A2 a /\ scan_is_n cfg = false).
Proof. unfold u2_pc. destruct (scan_is_n cfg); auto. Qed.

(** replace every selector by the program points it can yield *)
Ltac xn :=
  repeat match goal with
  | |- context [xnext ?r ?i] => let Ex := fresh "Ex" in destruct (xnext_cases r i) as [Ex|[Ex|[Ex|Ex]]]; rewrite Ex in *; clear Ex
  | H : context [xnext ?r ?i] |- _ => let Ex := fresh "Ex" in destruct (xnext_cases r i) as [Ex|[Ex|[Ex|Ex]]]; rewrite Ex in *; clear Ex
  end.
Ltac sel_crit c a n :=
  let Ex := fresh "Ex" in let Hn := fresh "Hn" in let Er := fresh "Er" in
  destruct (crit_pc_cases c a n) as [[Ex Hn]|[Hn [[Ex Er]|[[Ex Er]|[Ex Er]]]]]; rewrite Ex in *; clear Ex.
Ltac sel_start c a e :=
  let Ex := fresh "Ex" in let Hs := fresh "Hsn" in
  destruct (scan_start_cases c a e) as [[Ex Hs]|[Hs [[? Ex]|Ex]]]; rewrite Ex in *; clear Ex.
Ltac sel_pass c a e i r :=
  let Ex := fresh "Ex" in let Hr := fresh "Hr" in
  destruct (pass_pc_cases c a e i r) as [[Ex Hr]|[Hr [[? Ex]|Ex]]]; rewrite Ex in *; clear Ex.
Ltac sel_block c a e i :=
  let Ex := fresh "Ex" in destruct (scan_block_cases c a e i) as [[? Ex]|Ex]; rewrite Ex in *; clear Ex.
Ltac sel_u2 c a :=
  let Ex := fresh "Ex" in let Hs := fresh "Hs" in destruct (u2_pc_cases c a) as [[Ex Hs]|[Ex Hs]]; rewrite Ex in *; clear Ex.
Ltac sel :=
  xn;
  repeat match goal with
  | |- context [crit_pc ?c ?a ?n] => sel_crit c a n
  | H : context [crit_pc ?c ?a ?n] |- _ => sel_crit c a n
  | |- context [scan_start ?c ?a ?e] => sel_start c a e
  | H : context [scan_start ?c ?a ?e] |- _ => sel_start c a e
  | |- context [pass_pc ?c ?a ?e ?i ?r] => sel_pass c a e i r
  | H : context [pass_pc ?c ?a ?e ?i ?r] |- _ => sel_pass c a e i r
  | |- context [scan_block ?c ?a ?e ?i] => sel_block c a e i
  | H : context [scan_block ?c ?a ?e ?i] |- _ => sel_block c a e i
  | |- context [u2_pc ?c ?a] => sel_u2 c a
  | H : context [u2_pc ?c ?a] |- _ => sel_u2 c a
  end.

(** ** the counters *)
Definition rent_exp (cfg : config) (n : nat) (o : option N) : nat :=
  match rext cfg with RNone => O | _ => (n + (if is_some o then 1 else 0))%nat end.

Lemma rent_inc_exp cfg k n o : (kacq k = false -> o = None) ->
  rent_inc cfg (rent_exp cfg n o) = rent_exp cfg (nest_of k n) (rg_of k o).
Proof.
  intros H. unfold rent_inc, rent_exp. destruct (rext cfg); [reflexivity| |];
  (destruct k; cbn [nest_of rg_of kacq] in *; [reflexivity|rewrite (H eq_refl); cbn; lia]).
Qed.
Lemma rent_dec_exp cfg n o : (1 <= n)%nat -> rent_dec cfg (rent_exp cfg n o) = rent_exp cfg (pred n) o.
Proof. intros H. unfold rent_dec, rent_exp. destruct (rext cfg); [reflexivity|lia|lia]. Qed.
Lemma rent_dec_exp_rg cfg n r : rent_dec cfg (rent_exp cfg n (Some r)) = rent_exp cfg n None.
Proof. unfold rent_dec, rent_exp. destruct (rext cfg); cbn; [reflexivity|lia|lia]. Qed.
Lemma rent_exp_0 cfg : rent_exp cfg 0 None = O.
Proof. unfold rent_exp. destruct (rext cfg); reflexivity. Qed.
Lemma leave_last_true cfg x : leave_last cfg x = true -> rent x = rent_exp cfg (nest x) (rg x) -> (1 <= nest x)%nat ->
  pred (nest x) = O /\ rent_dec cfg (rent x) = O.
Proof.
  unfold leave_last, rent_exp, rent_dec. intros H E Hn. destruct (rext cfg); apply Nat.eqb_eq in H.
  - split; [exact H|exact E].
  - split; [destruct (rg x); cbn in E; lia|exact H].
  - split; [destruct (rg x); cbn in E; lia|exact H].
Qed.
Lemma leave_rg_last_true cfg x r : leave_rg_last cfg x = true -> rent x = rent_exp cfg (nest x) (Some r) ->
  nest x = O /\ rent_dec cfg (rent x) = O.
Proof.
  unfold leave_rg_last, rent_exp, rent_dec. intros H E. destruct (rext cfg); [discriminate| |]; apply Nat.eqb_eq in H; cbn in E; split; lia.
Qed.
Lemma eager_first_true cfg x : eager_first cfg x = true -> rent x = rent_exp cfg (nest x) (rg x) ->
  rext cfg = REager /\ rent x = O /\ nest x = O /\ rg x = None.
Proof.
  unfold eager_first, rent_exp. destruct (rext cfg); try discriminate. intros H E. apply Nat.eqb_eq in H.
  destruct (rg x); cbn in E; repeat split; try reflexivity; lia.
Qed.
Lemma needs_init_eq cfg x : needs_init cfg x = scan_is_n cfg && negb (tinit x).
Proof. reflexivity. Qed.
Lemma inside_false cfg x : inside cfg x = false -> rent x = rent_exp cfg (nest x) (rg x) -> nest x = O /\ rent x = O.
Proof.
  unfold inside, rent_exp. intros H E. destruct (rext cfg); apply negb_false_iff, Nat.eqb_eq in H.
  - split; [exact H|exact E].
  - split; [destruct (rg x); cbn in E; lia|exact H].
  - split; [destruct (rg x); cbn in E; lia|exact H].
Qed.
