(** C16 for xenium::nikolaev_bounded_queue: try_push and try_pop finish within an explicit number of
    solo steps from EVERY reachable wrap-free state (any number of other threads stopped anywhere inside
    their operations), provided the counters have head room for the run.

    Dequeue part (ring q): every pass through the loop that does not return costs a threshold decrement, and
    the threshold is at most 3*capacity - 1: at most [thn] + 1 passes of at most W = 2R + 14 steps.
    Enqueue part (ring q', the thread holds an index): an attempt with ticket T fails only if T is behind head
    or the slot of T holds another index; the thread holds one of the capacity indices, so of any capacity
    consecutive tickets at or beyond head at least one slot is empty (pigeonhole): at most
    (head - tail)/2 + capacity attempts of at most 10 steps. *)
From Coq Require Import NArith List Bool Lia PeanoNat.
From XV Require Import Base.Word Conc.Lts Conc.Ev Conc.Solo gen.ScqGen Proof.ScqIndex Model.NikbDefs
  Proof.NikbArith Proof.NikbBase Proof.NikbWf Proof.NikbOwn Proof.NikbVal Proof.NikbCons.
Import ListNotations.
Local Open Scope N_scope.

Set Default Proof Using "All".
Section Solo.
  Variable k R : N.
  Hypothesis Hk : k <= 40.
  Notation cap := (2 ^ k).
  Notation step := (step cap R).
  Notation good := (good k R).
  Notation slot := (slot k).
  Notation eidx := (eidx k).
  Notation ecyc := (ecyc k).
  Notation esafe := (esafe k).
  Notation bot := (bot k).
  Notation clt := (clt k).

  (** an enqueue attempt with ticket T that loads the entry now succeeds *)
  Definition esucc (s : state) (q : rid) (T : N) : bool :=
    let e := slot s q T in
    clt e (T / nn cap) && (eidx e =? bot) && (esafe e || negb (2 * T <? rhead (rg s q))).

  (** number of failing attempts from ticket T on (fuel n) *)
  Fixpoint psi (s : state) (q : rid) (T : N) (n : nat) : nat :=
    match n with
    | O => O
    | S n' => if esucc s q T then O else S (psi s q (T + 1) n')
    end.
  Definition fuel (s : state) (q : rid) (T : N) : nat := (N.to_nat (rhead (rg s q) / 2 - T) + N.to_nat cap)%nat.
  Definition iters (s : state) (q : rid) (T : N) : nat := psi s q T (fuel s q T).

  Lemma psi_le s q T n : (psi s q T n <= n)%nat.
  Proof. revert T. induction n as [|n IH]; intros T; cbn [psi]; [lia|]. destruct (esucc s q T); [lia|]. specialize (IH (T + 1)). lia. Qed.

  Lemma psi_more s q n : forall T m, (psi s q T n < n)%nat -> psi s q T (n + m) = psi s q T n.
  Proof.
    induction n as [|n IH]; intros T m Hlt; [lia|]. cbn [psi Nat.add] in *.
    destruct (esucc s q T); [reflexivity|]. f_equal. apply IH. lia.
  Qed.

  Lemma psi_found s q j : forall T n, (j < n)%nat -> esucc s q (T + N.of_nat j) = true -> (psi s q T n <= j)%nat.
  Proof.
    induction j as [|j IH]; intros T n Hlt Hs.
    - destruct n; [lia|]. cbn [psi]. rewrite N.add_0_r in Hs. rewrite Hs. lia.
    - destruct n; [lia|]. cbn [psi]. destruct (esucc s q T); [lia|].
      assert (H := IH (T + 1) n ltac:(lia)). replace (T + 1 + N.of_nat j) with (T + N.of_nat (S j)) in H by lia.
      specialize (H Hs). lia.
  Qed.

  (** ** an empty slot at or beyond head accepts the enqueue *)
  Lemma esucc_free s q T : good s -> 2 * T < 2 ^ 62 -> rhead (rg s q) <= 2 * T -> eidx (slot s q T) = bot -> esucc s q T = true.
  Proof.
    intros Hg HT Hh Hb. destruct (good_inv k R Hk s Hg) as ([HW _] & (HR & _) & _ & _).
    destruct (HW q) as (_ & _ & _ & Hd). set (e := slot s q T) in *.
    assert (Hcl : clt e (T / nn cap) = true).
    { assert (Hwe : wfe k e) by apply Hd. destruct Hwe as [[Hc|[Hc _]] _].
      2:{ unfold NikbArith.clt. rewrite Hc, N.eqb_refl. reflexivity. }
      unfold NikbArith.clt. apply orb_true_iff. right. apply N.ltb_lt.
      assert (Hn := nn_pos k Hk). assert (HM := M_CB k Hk).
      set (p := T mod nn cap). assert (Hp : p < nn cap) by (apply N.mod_lt; lia).
      set (T' := ecyc e * nn cap + p).
      assert (Hdiv : T' / nn cap = ecyc e) by (unfold T'; rewrite N.div_add_l by lia; rewrite N.div_small by exact Hp; lia).
      assert (Hmod : T' mod nn cap = p) by (unfold T'; rewrite N.add_comm, N.mod_add by lia; apply N.mod_small; exact Hp).
      assert (HT' : 2 * T' < 2 ^ 62) by (unfold T'; nia).
      assert (Hsl : slot s q T' = e) by (unfold NikbOwn.slot, e; rewrite (phys_same k Hk T' T); [reflexivity|exact Hmod]).
      destruct (HR q) as [a1 _ _ _ _ s3 _ _ _].
      assert (Hne : g_dq (rg s q) T' <> DNone).
      { destruct (s3 T' HT') as [[i Hi]|Hi]; rewrite ?Hsl; try assumption; try (symmetry; exact Hdiv); rewrite Hi; discriminate. }
      specialize (a1 T' Hne).
      assert (HTT : T' < T) by lia.
      destruct (N.lt_ge_cases (ecyc e) (T / nn cap)) as [Hlt|Hge]; [exact Hlt|exfalso].
      assert (E1 := N.div_mod T (nn cap) ltac:(lia)). fold p in E1. unfold T' in HTT. nia. }
    unfold esucc. cbv zeta. fold e. rewrite Hcl, Hb, N.eqb_refl.
    replace (2 * T <? rhead (rg s q)) with false by (symmetry; apply N.ltb_ge; exact Hh).
    destruct (esafe e); reflexivity.
  Qed.

  (** ** pigeonhole: a thread holds an index, so capacity consecutive tickets cannot all be occupied *)
  Lemma nodup_bound (l : list N) n : NoDup l -> (forall x, In x l -> x < N.of_nat n) -> (length l <= n)%nat.
  Proof.
    intros Hn Hb. rewrite <- (seq_length n 0), <- (map_length N.of_nat). apply NoDup_incl_length; [exact Hn|].
    intros x Hx. apply in_map_iff. exists (N.to_nat x). split; [lia|]. apply in_seq. specialize (Hb x Hx). lia.
  Qed.

  Lemma nodup_map_in {A B} (f : A -> B) (l : list A) :
    (forall a b, In a l -> In b l -> f a = f b -> a = b) -> NoDup l -> NoDup (map f l).
  Proof.
    induction l as [|x l IH]; intros Hinj Hn; cbn [map]; [constructor|]. inversion Hn as [|? ? Hni Hn']; subst. constructor.
    - intros Hin. apply in_map_iff in Hin. destruct Hin as (y & Hy & Hyl). assert (y = x) by (apply Hinj; [right; exact Hyl|left; reflexivity|exact Hy]).
      subst y. contradiction.
    - apply IH; [|exact Hn']. intros a b Ha Hb. apply Hinj; right; assumption.
  Qed.

  Lemma occupied_window s q u idx T0 : good s -> hidx (th s u) = Some (q, idx) -> 2 * (T0 + cap) < 2 ^ 62 ->
    exists j, j < cap /\ eidx (slot s q (T0 + j)) = bot.
  Proof.
    intros Hg Hh HT0. destruct (good_inv k R Hk s Hg) as ([HW _] & (HR & HT & _) & _ & _).
    destruct (HT u) as (_ & _ & C & _). destruct (C q idx Hh) as [Hown Hidx].
    assert (Hn := nn_pos k Hk). assert (Hcn := cap_lt_nn k R Hk).
    (* search for an empty slot *)
    assert (Hdec : forall n : nat, (exists j, j < N.of_nat n /\ eidx (slot s q (T0 + j)) = bot) \/
                                   (forall j, j < N.of_nat n -> eidx (slot s q (T0 + j)) < cap)).
    { induction n as [|n IH]; [right; intros j Hj; lia|].
      destruct IH as [(j & Hj & Hb)|IH]; [left; exists j; split; [lia|exact Hb]|].
      destruct (HW q) as (_ & _ & _ & Hd). destruct (Hd (phys cap (2 * (T0 + N.of_nat n)))) as [_ [Hi|Hi]].
      - right. intros j Hj. destruct (N.eq_dec j (N.of_nat n)) as [->|Hne]; [exact Hi|apply IH; lia].
      - left. exists (N.of_nat n). split; [lia|exact Hi]. }
    destruct (Hdec (N.to_nat cap)) as [(j & Hj & Hb)|Hall]; [exists j; split; [lia|exact Hb]|exfalso].
    rewrite N2Nat.id in Hall.
    set (f := fun j : nat => eidx (slot s q (T0 + N.of_nat j))).
    set (l := idx :: map f (seq 0 (N.to_nat cap))).
    assert (Hlen : length l = S (N.to_nat cap)) by (unfold l; cbn [length]; rewrite map_length, seq_length; reflexivity).
    assert (Hb : forall x, In x l -> x < N.of_nat (N.to_nat cap)).
    { rewrite N2Nat.id. intros x [<-|Hx]; [exact Hidx|]. apply in_map_iff in Hx. destruct Hx as (j & <- & Hj). apply in_seq in Hj. apply Hall. lia. }
    (* the owner of each occupied slot *)
    assert (Hown_j : forall j, (j < N.to_nat cap)%nat -> exists T', g_own s (f j) = inring q T' /\ T' mod nn cap = (T0 + N.of_nat j) mod nn cap).
    { intros j Hj. assert (Hi : f j < cap) by (apply Hall; lia).
      assert (Hph : phys cap (2 * (T0 + N.of_nat j)) < nn cap).
      { unfold phys. rewrite (nn_eq k Hk). apply remap_index_range; [lia|]. apply N.lt_trans with (2 ^ 62); [lia|reflexivity]. }
      destruct (nikb_array_entry_owner k R Hk s q _ Hg Hph Hi) as (T' & _ & Hp & Ho).
      exists T'. split; [exact Ho|]. apply (phys_inj k Hk). exact Hp. }
    assert (Hnd : NoDup l).
    { unfold l. constructor.
      - intros Hin. apply in_map_iff in Hin. destruct Hin as (j & Hj & Hjs). apply in_seq in Hjs.
        destruct (Hown_j j ltac:(lia)) as (T' & Ho & _). rewrite Hj, Hown in Ho. apply (inring_held _ _ _ _ (eq_sym Ho)).
      - apply nodup_map_in; [|apply seq_NoDup].
        intros a b Ha Hb' Hab. apply in_seq in Ha. apply in_seq in Hb'.
        destruct (Hown_j a ltac:(lia)) as (Ta & Hoa & Hma). destruct (Hown_j b ltac:(lia)) as (Tb & Hob & Hmb).
        rewrite Hab, Hob in Hoa. apply inring_inj in Hoa. destruct Hoa as [_ Hoa]. rewrite Hoa in Hmb. rewrite Hma in Hmb.
        (* (T0 + a) mod nn = (T0 + b) mod nn with |a - b| < cap < nn *)
        assert (Hab' : N.of_nat a = N.of_nat b); [|lia].
        destruct (Nat.le_ge_cases a b) as [Hle|Hle].
        + assert (E : (T0 + N.of_nat b) = (T0 + N.of_nat a) + (N.of_nat b - N.of_nat a)) by lia.
          rewrite E in Hmb. symmetry in Hmb.
          rewrite <- (N.add_mod_idemp_l) in Hmb by lia.
          set (r := (T0 + N.of_nat a) mod nn cap) in *. assert (Hr : r < nn cap) by (apply N.mod_lt; lia).
          set (d := N.of_nat b - N.of_nat a) in *. assert (Hd : d < cap) by lia.
          destruct (N.lt_ge_cases (r + d) (nn cap)) as [Hs|Hs].
          * rewrite N.mod_small in Hmb by exact Hs. lia.
          * assert (Hx : (r + d) mod nn cap = r + d - nn cap).
            { symmetry. apply (N.mod_unique (r + d) (nn cap) 1); lia. }
            rewrite Hx in Hmb. lia.
        + assert (E : (T0 + N.of_nat a) = (T0 + N.of_nat b) + (N.of_nat a - N.of_nat b)) by lia.
          rewrite E in Hmb.
          rewrite <- (N.add_mod_idemp_l) in Hmb by lia.
          set (r := (T0 + N.of_nat b) mod nn cap) in *. assert (Hr : r < nn cap) by (apply N.mod_lt; lia).
          set (d := N.of_nat a - N.of_nat b) in *. assert (Hd : d < cap) by lia.
          destruct (N.lt_ge_cases (r + d) (nn cap)) as [Hs|Hs].
          * rewrite N.mod_small in Hmb by exact Hs. lia.
          * assert (Hx : (r + d) mod nn cap = r + d - nn cap).
            { symmetry. apply (N.mod_unique (r + d) (nn cap) 1); lia. }
            rewrite Hx in Hmb. lia. }
    pose proof (nodup_bound l (N.to_nat cap) Hnd Hb). lia.
  Qed.

  (** ** a failing attempt is followed by one attempt less *)
  Lemma esucc_ext s s' q T : (forall j, rdata (rg s' q) j = rdata (rg s q) j) -> rhead (rg s' q) = rhead (rg s q) ->
    esucc s' q T = esucc s q T.
  Proof. intros Hd Hh. unfold esucc, NikbOwn.slot. rewrite Hd, Hh. reflexivity. Qed.

  Lemma psi_ext s s' q n : (forall T, esucc s' q T = esucc s q T) -> forall T, psi s' q T n = psi s q T n.
  Proof. intros He. induction n as [|n IH]; intros T; cbn [psi]; [reflexivity|]. rewrite He, IH. reflexivity. Qed.

  Lemma iters_ext s s' q T : (forall j, rdata (rg s' q) j = rdata (rg s q) j) -> rhead (rg s' q) = rhead (rg s q) ->
    iters s' q T = iters s q T.
  Proof.
    intros Hd Hh. unfold iters, fuel. rewrite Hh. apply psi_ext. intros T'. apply esucc_ext; assumption.
  Qed.

  Lemma iters_le s q T : (iters s q T <= N.to_nat (rhead (rg s q) / 2 - T) + N.to_nat cap)%nat.
  Proof. apply psi_le. Qed.

  Lemma iters_rec s q u idx T : good s -> hidx (th s u) = Some (q, idx) -> 2 * (T + cap + 1) < 2 ^ 62 ->
    esucc s q T = false -> iters s q T = S (iters s q (T + 1)).
  Proof.
    intros Hg Hh HT Hf. destruct (good_inv k R Hk s Hg) as ([HW _] & _). destruct (HW q) as ([Hh2 _] & _).
    assert (Hc := cap_pos k Hk).
    unfold iters. assert (Hfu : fuel s q T = S (fuel s q T - 1)) by (unfold fuel; lia).
    rewrite Hfu. cbn [psi]. rewrite Hf. f_equal.
    destruct (N.lt_ge_cases T (rhead (rg s q) / 2)) as [Hlt|Hge].
    - f_equal. unfold fuel. lia.
    - assert (Hfu1 : fuel s q (T + 1) = N.to_nat cap) by (unfold fuel; lia).
      assert (Hfu0 : (fuel s q T - 1 = N.to_nat cap - 1)%nat) by (unfold fuel; lia).
      rewrite Hfu1, Hfu0.
      assert (Hrh : rhead (rg s q) <= 2 * T) by lia.
      destruct (occupied_window s q u idx T Hg Hh ltac:(lia)) as (j & Hj & Hb).
      assert (Hj0 : j <> 0).
      { intros ->. rewrite N.add_0_r in Hb. rewrite (esucc_free s q T Hg ltac:(lia) Hrh Hb) in Hf. discriminate. }
      assert (Hs : esucc s q (T + 1 + N.of_nat (N.to_nat j - 1)) = true).
      { replace (T + 1 + N.of_nat (N.to_nat j - 1)) with (T + j) by lia. apply esucc_free; [exact Hg|lia|lia|exact Hb]. }
      assert (Hlt : (psi s q (T + 1) (N.to_nat cap - 1) < N.to_nat cap - 1)%nat).
      { assert (Hx := psi_found s q (N.to_nat j - 1) (T + 1) (N.to_nat cap - 1) ltac:(lia) Hs). lia. }
      replace (N.to_nat cap) with ((N.to_nat cap - 1) + 1)%nat at 2 by lia. symmetry. apply psi_more. exact Hlt.
  Qed.

  (** ** the measure *)
  Definition nR : nat := N.to_nat R.
  Definition W : nat := (2 * nR + 14)%nat.
  Definition thn (r : ring) : nat := if rthr r <? 2 ^ 63 then N.to_nat (rthr r) else O.
  Definition ar (att : N) : nat := (nR - N.to_nat att)%nat.
  Definition mE1 (s : state) (q : rid) : nat := (10 * iters s q (rtail (rg s q) / 2) + 9)%nat.

  (** [mu_pc s p]: a bound on the steps thread t still takes from p when it runs alone; every step lowers it by at least 1
      ([solo_dec_D], [solo_dec_E]).  How a constant is obtained: the value at p is 1 + the largest value among the
      successors of p, where running alone decides most branches from the state (is the slot word still the local copy [e],
      is tail still [tl], will this enqueue ticket succeed [esucc]): hence the two values at D4, D5, C1, C2, E2..E4.
      Dequeue = attempts: D7 restarts at D1 after lowering the threshold, so [W * thn] pays all later attempts and W must
      exceed the dearest attempt (D1 = 2R+11; a retry D4 -> D2 costs 2 per remaining retry [ar att]; +13 at D4 when the
      slot has changed under the copy); the tail D6 6, C1 4|2, C2 5|3, D8 1 is the catchup; a success (D3) is followed
      by the enqueue on the other ring, [mE1].  Enqueue: [mE1] = 10 steps for each ticket that will fail ([iters]) + 9 for
      the one that succeeds (E1, E2 5, E3 4, E4 3, E5 2, E6 1).  A new program point gets 1 + max of its successors; if
      that exceeds an existing predecessor's value, raise the predecessors (and W) along the path. *)
  Definition mu_pc (s : state) (p : pc) : nat :=
    match p with
    | Idle => 0
    | Begin (OPush _) => W * thn (rf s) + (2 * nR + 13) + mE1 s RA
    | Begin (OPop _) => W * thn (ra s) + (2 * nR + 13) + mE1 s RF
    | D0 q _ => W * thn (rg s q) + (2 * nR + 12) + mE1 s (other q)
    | D1 q _ => W * thn (rg s q) + (2 * nR + 11) + mE1 s (other q)
    | D2 q _ hd att => W * thn (rg s q) + (2 * ar att + 10) + mE1 s (other q)
    | D3 q _ _ _ => W * thn (rg s q) + 1 + mE1 s (other q)
    | D4 q _ hd att e => W * thn (rg s q) + (if N.eqb (rdata (rg s q) (phys cap hd)) e then 2 * ar att + 9 else 2 * ar att + 13) + mE1 s (other q)
    | D5 q _ hd att e _ => W * thn (rg s q) + (if N.eqb (rdata (rg s q) (phys cap hd)) e then 7 else 2 * ar att + 11) + mE1 s (other q)
    | D6 q _ _ => W * thn (rg s q) + 6 + mE1 s (other q)
    | D7 q _ => W * thn (rg s q) + 1 + mE1 s (other q)
    | NikbDefs.C1 q _ tl _ => if N.eqb (rtail (rg s q)) tl then 2 else 4
    | NikbDefs.C2 q _ tl => if N.eqb (rtail (rg s q)) tl then 3 else 5
    | D8 _ _ => 1
    | E1 q _ _ _ => mE1 s q
    | E2 q _ _ _ tl => if esucc s q (N.div tl 2) then 5 else mE1 s q + 6
    | E3 q _ _ _ tl e =>
      let fr := N.eqb (rdata (rg s q) (phys cap tl)) e in
      if fr && negb (gt0 (diff (rhead (rg s q)) tl)) then 4 else mE1 s q + (if fr then 5 else 9)
    | E4 q _ _ _ tl e => if N.eqb (rdata (rg s q) (phys cap tl)) e then 3 else mE1 s q + 8
    | E5 _ _ _ _ => 2
    | E6 _ _ _ _ => 1
    end%nat.
  Definition mu (u : nat) (s : state) : nat := mu_pc s (th s u).

  (** head room for B more steps: counters, thresholds and the window of capacity tickets beyond tail *)
  Definition room (s : state) (B : nat) : Prop :=
    forall q, rhead (rg s q) + 2 * N.of_nat B + 2 * cap + 4 < 2 ^ 62 /\
              rtail (rg s q) + 2 * N.of_nat B + 2 * cap + 4 < 2 ^ 62 /\
              (rthr (rg s q) < 2 ^ 63 \/ 2 ^ 64 - 2 ^ 62 + N.of_nat B <= rthr (rg s q)).

  Lemma mE1_frame s s' q : (forall j, rdata (rg s' q) j = rdata (rg s q) j) -> rhead (rg s' q) = rhead (rg s q) ->
    rtail (rg s' q) = rtail (rg s q) -> mE1 s' q = mE1 s q.
  Proof. intros Hd Hh Ht. unfold mE1. rewrite Ht, (iters_ext s s' q _ Hd Hh). reflexivity. Qed.

  Ltac mE1_norm s :=
    repeat match goal with |- context [mE1 ?s' ?q] =>
      lazymatch s' with s => fail | _ => rewrite (mE1_frame s s' q) by (intros; sim; reflexivity) end end.
  Ltac esucc_norm s :=
    repeat match goal with |- context [esucc ?s' ?q ?T] =>
      lazymatch s' with s => fail | _ => rewrite (esucc_ext s s' q T) by (intros; sim; reflexivity) end end.

  Ltac munorm s := cbn [mu_pc other]; sim; mE1_norm s; esucc_norm s; sim; unfold thn; sim.

  Lemma W_step t : (1 <= t)%nat -> (W * (t - 1) + (2 * nR + 11) < W * t + 1)%nat.
  Proof. intros Ht. unfold W. destruct t; [lia|]. replace (S t - 1)%nat with t by lia. nia. Qed.

  Lemma mE1_pos s q : (9 <= mE1 s q)%nat. Proof. unfold mE1. lia. Qed.

  (** the dequeue part: one step of u inside dequeue decreases the measure *)
  Lemma solo_dec_D s u s' es : good s -> room s 1 -> step s (Step u) = Some (s', es) ->
    match th s u with
    | Begin _ | D0 _ _ | D1 _ _ | D2 _ _ _ _ | D3 _ _ _ _ | D4 _ _ _ _ _ | D5 _ _ _ _ _ _ | D6 _ _ _ | D7 _ _
    | NikbDefs.C1 _ _ _ _ | NikbDefs.C2 _ _ _ | D8 _ _ => (mu u s' < mu u s)%nat
    | _ => True
    end.
  Proof.
    intros Hg Hroom Hst. destruct (good_inv k R Hk s Hg) as ([HW HT1] & (HR & HT & HO) & _ & _).
    pose proof (HT1 u) as Hme. unfold mu. unfold NikbDefs.step, step_gen in Hst.
    pc_cases (th s u); try exact I; cbn [T1] in Hme.
    - (* Begin push *) injection Hst as <- <-. sim. rewrite upd_same. munorm s. lia.
    - injection Hst as <- <-. sim. rewrite upd_same. munorm s. lia.
    - (* D0 *) destruct (lt0 _); destruct q; injection Hst as <- <-; sim; rewrite upd_same; munorm s; lia.
    - (* D1 *) destruct q; injection Hst as <- <-; sim; rewrite upd_same; munorm s;
        unfold thn; sim; unfold ar; rewrite ?Nat.sub_0_r; change (N.to_nat 0) with O; lia.
    - (* D2 *) injection Hst as <- <-.
      destruct (dq_eval_cases cap q x hd att (rdata (rg s q) (phys cap hd))) as [[C1 Ee]|[C1 [[C2 [[C3 Ee]|[C3 [[C4 Ee]|[C4 Ee]]]]]|[C2 Ee]]]]; rewrite Ee;
        unfold mark_left; cbn [leaves]; destruct q; sim; rewrite upd_same; munorm s; rewrite ?N.eqb_refl; lia.
    - (* D3 *) destruct q; injection Hst as <- <-; sim; rewrite upd_same; munorm s; lia.
    - (* D4 *) injection Hst as <- <-.
      destruct (gt0 _ && (att + 1 <=? R)) eqn:Hc.
      + apply andb_true_iff in Hc. destruct Hc as [_ Hc]. apply N.leb_le in Hc.
        unfold mark_left; cbn [leaves]; destruct q; sim; rewrite upd_same; munorm s;
          destruct (N.eqb _ e); unfold ar, nR in *; lia.
      + destruct (lt0 _); unfold mark_left; cbn [leaves]; destruct q; sim; rewrite upd_same; munorm s;
          destruct (N.eqb _ e); lia.
    - (* D5 *) destruct (N.eqb_spec (rdata (rg s q) (phys cap hd)) e) as [<-|Hcur]; injection Hst as <- <-.
      + destruct q; sim; rewrite upd_same; munorm s; rewrite ?N.eqb_refl; lia.
      + destruct (dq_eval_cases cap q x hd att (rdata (rg s q) (phys cap hd))) as [[C1 Ee]|[C1 [[C2 [[C3 Ee]|[C3 [[C4 Ee]|[C4 Ee]]]]]|[C2 Ee]]]]; rewrite Ee;
          unfold mark_left; cbn [leaves]; destruct q; sim; rewrite upd_same; munorm s; rewrite ?N.eqb_refl;
          repeat (match goal with |- context [N.eqb ?a e] => destruct (N.eqb_spec a e) as [Hx|_]; [contradiction|] end); lia.
    - (* D6 *) destruct (gt0 _); destruct q; injection Hst as <- <-; sim; rewrite upd_same; munorm s; rewrite ?N.eqb_refl; lia.
    - (* D7 *) destruct (HW q) as (_ & _ & Hthr & _).
      destruct (sle 64 (rthr (rg s q)) 0) eqn:Hsle.
      + destruct q; injection Hst as <- <-; sim; rewrite upd_same; munorm s; lia.
      + rewrite (thr_sle0 k Hk _ Hthr) in Hsle. apply orb_false_2 in Hsle. destruct Hsle as [Hnz Hpos].
        apply N.eqb_neq in Hnz. apply N.leb_gt in Hpos.
        assert (Hdec : wsub 64 (rthr (rg s q)) 1 = rthr (rg s q) - 1).
        { rewrite (thr_dec k Hk _ Hthr). destruct (N.eqb_spec (rthr (rg s q)) 0); [contradiction|reflexivity]. }
        assert (Hw := W_step (N.to_nat (rthr (rg s q))) ltac:(lia)).
        destruct q; injection Hst as <- <-; sim; rewrite upd_same; munorm s; rewrite Hdec;
          match goal with |- context [rthr (rgs s ?qq)] =>
            destruct (N.ltb_spec (rthr (rgs s qq)) (2 ^ 63)); [|lia];
            destruct (N.ltb_spec (rthr (rgs s qq) - 1) (2 ^ 63)); [|lia];
            replace (N.to_nat (rthr (rgs s qq) - 1)) with (N.to_nat (rthr (rgs s qq)) - 1)%nat by lia end;
          unfold ar; change (N.to_nat 0) with O; rewrite ?Nat.sub_0_r; lia.
    - (* C1 *) destruct (N.eqb_spec (rtail (rg s q)) tl) as [<-|Hne]; destruct q; injection Hst as <- <-; sim; rewrite upd_same; munorm s; rewrite ?N.eqb_refl; try lia;
      (match goal with |- context [N.eqb ?a ?b] => destruct (N.eqb_spec a b) end; [contradiction|lia]).
    - (* C2 *) destruct (lt0 _); destruct q; injection Hst as <- <-; sim; rewrite upd_same; munorm s; destruct (N.eqb _ tl); lia.
    - (* D8 *) destruct q; injection Hst as <- <-; sim; rewrite upd_same; munorm s; lia.
  Qed.

  (** a successful attempt is recognised by the loop body *)
  Lemma esucc_eval s q x idx gk tl : good s -> ctr tl -> esucc s q (tl / 2) = true ->
    let e := rdata (rg s q) (phys cap tl) in
    en_eval cap q x idx gk tl e = E4 q x idx gk tl e \/
    (en_eval cap q x idx gk tl e = E3 q x idx gk tl e /\ gt0 (diff (rhead (rg s q)) tl) = false).
  Proof.
    intros Hg [Htl2 Htllt] Hs. cbv zeta. destruct (good_inv k R Hk s Hg) as ([HW _] & _).
    destruct (HW q) as ([_ Hhlt] & _ & _ & Hd).
    unfold esucc in Hs. cbv zeta in Hs. unfold NikbOwn.slot in Hs. rewrite <- Htl2 in Hs.
    set (e := rdata (rg s q) (phys cap tl)) in *.
    apply andb_true_iff in Hs. destruct Hs as [Hs H3]. apply andb_true_iff in Hs. destruct Hs as [H1 H2].
    assert (Hcyc : ecyc tl = (tl / 2) / nn cap) by (rewrite Htl2 at 1; apply (ecyc_tick k Hk)).
    assert (Hlt : lt0 (diff (cyc cap e) (cyc cap tl)) = true).
    { rewrite (cyc_lt_diff k Hk); [rewrite Hcyc; exact H1|apply (wfe_cycle_ok k R Hk); apply Hd|exact Htllt]. }
    unfold en_eval. rewrite Hlt, (safe_bot_eqb k Hk), (unsafe_bot_eqb k Hk), H2. rewrite !andb_true_r.
    destruct (esafe e); cbn [negb orb] in *; [left; reflexivity|right; split; [reflexivity|]].
    rewrite diff_gt0 by assumption. apply negb_true_iff in H3. exact H3.
  Qed.

  Lemma solo_dec_E s u s' es : good s -> room s 1 -> step s (Step u) = Some (s', es) ->
    match th s u with
    | E1 _ _ _ _ | E2 _ _ _ _ _ | E3 _ _ _ _ _ _ | E4 _ _ _ _ _ _ | E5 _ _ _ _ | E6 _ _ _ _ => (mu u s' < mu u s)%nat
    | _ => True
    end.
  Proof.
    intros Hg Hroom Hst. destruct (good_inv k R Hk s Hg) as ([HW HT1] & (HR & HT & HO) & _ & _).
    pose proof (HT1 u) as Hme. unfold mu. unfold NikbDefs.step, step_gen in Hst.
    pc_cases (th s u); try exact I; cbn [T1] in Hme.
    - (* E1 *) destruct (HW q) as (_ & [Ht2 Htlt] & _). destruct (Hroom q) as (_ & Hrt & _).
      assert (Hw : wadd 64 (rtail (rg s q)) 2 = rtail (rg s q) + 2) by (apply wadd2_small; exact Htlt).
      assert (Hhalf : (rtail (rg s q) + 2) / 2 = rtail (rg s q) / 2 + 1).
      { replace (rtail (rg s q) + 2) with (rtail (rg s q) + 1 * 2) by lia. rewrite N.div_add by lia. reflexivity. }
      assert (Hrec : esucc s q (rtail (rg s q) / 2) = false -> iters s q (rtail (rg s q) / 2) = S (iters s q (rtail (rg s q) / 2 + 1))).
      { apply (iters_rec s q u idx); [exact Hg|rewrite E; reflexivity|lia]. }
      destruct q; injection Hst as <- <-; sim; rewrite upd_same; cbn [mu_pc]; sim; esucc_norm s;
        (destruct (esucc s _ _) eqn:Hs; [pose proof (mE1_pos s RA); pose proof (mE1_pos s RF); lia|]);
        specialize (Hrec eq_refl); unfold mE1; sim; rewrite Hw, Hhalf;
        match goal with |- context [iters ?s' ?qq ?T] =>
          lazymatch s' with s => fail | _ => rewrite (iters_ext s s' qq T) by (intros; sim; reflexivity) end end;
        rewrite Hrec; lia.
    - (* E2 *) injection Hst as <- <-. destruct Hme as (Hi & Hc & Htle).
      pose proof (esucc_eval s q x idx gk tl Hg Hc) as Hev. cbv zeta in Hev.
      pose proof (mE1_pos s q) as Hpos.
      destruct (en_eval_cases cap q x idx gk tl (rdata (rg s q) (phys cap tl))) as [(C1 & C2 & Ee)|[(C1 & C2 & C3 & Ee)|Ee]]; rewrite Ee in *;
        unfold mark_skip; cbn [skips].
      + destruct q; sim; rewrite upd_same; munorm s; rewrite ?N.eqb_refl; destruct (esucc s _ _); lia.
      + destruct (esucc s q (tl / 2)) eqn:Hs.
        * destruct (Hev eq_refl) as [Hx|[_ Hg0]]; [discriminate|].
          destruct q; sim; rewrite upd_same; munorm s; rewrite ?N.eqb_refl, Hs, Hg0; cbn [andb negb]; lia.
        * destruct q; sim; rewrite upd_same; munorm s; rewrite ?N.eqb_refl, Hs; cbn [andb]; destruct (negb _); lia.
      + destruct (esucc s q (tl / 2)) eqn:Hs.
        * destruct (Hev eq_refl) as [Hx|[Hx _]]; discriminate.
        * destruct q; sim; rewrite upd_same; munorm s; rewrite Hs; lia.
    - (* E3 *) pose proof (mE1_pos s q) as Hpos.
      destruct (gt0 (diff (rhead (rg s q)) tl)) eqn:Hg0; injection Hst as <- <-; unfold mark_skip; cbn [skips];
        destruct q; sim; rewrite upd_same; munorm s; rewrite Hg0; cbn [negb]; rewrite ?andb_false_r, ?andb_true_r;
        destruct (N.eqb _ e); lia.
    - (* E4 *) pose proof (mE1_pos s q) as Hpos. destruct Hme as (Hi & Hc & Htle & _).
      destruct (N.eqb_spec (rdata (rg s q) (phys cap tl)) e) as [<-|Hcur].
      + destruct q; injection Hst as <- <-; sim; rewrite upd_same; munorm s; rewrite ?N.eqb_refl; lia.
      + injection Hst as <- <-.
        destruct (en_eval_cases cap q x idx gk tl (rdata (rg s q) (phys cap tl))) as [(C1 & C2 & Ee)|[(C1 & C2 & C3 & Ee)|Ee]]; rewrite Ee in *;
          unfold mark_skip; cbn [skips]; destruct q; sim; rewrite upd_same; munorm s; rewrite ?N.eqb_refl;
          repeat (match goal with |- context [N.eqb ?a e] => destruct (N.eqb_spec a e) as [Hx|_]; [contradiction|] end);
          cbn [andb]; try (destruct (negb _)); lia.
    - (* E5 *) destruct (_ =? thr_full cap); [destruct q|]; injection Hst as <- <-; sim; rewrite upd_same; munorm s; lia.
    - (* E6 *) destruct q; injection Hst as <- <-; sim; rewrite upd_same; munorm s; lia.
  Qed.

  Lemma step_total s u : idle s u = false -> exists s' es, step s (Step u) = Some (s', es).
  Proof.
    unfold idle, NikbDefs.step, step_gen. intros Hi.
    pc_cases (th s u); try discriminate.
    all: repeat match goal with |- context [if ?c then _ else _] => destruct c end.
    all: try destruct q; eauto.
  Qed.

  Lemma thr_room_dec t B : thr_ok k t -> N.of_nat B < 2 ^ 62 -> (t < 2 ^ 63 \/ 2 ^ 64 - 2 ^ 62 + N.of_nat (S B) <= t) ->
    thr_ovf (wsub 64 t 1) = false /\ (wsub 64 t 1 < 2 ^ 63 \/ 2 ^ 64 - 2 ^ 62 + N.of_nat B <= wsub 64 t 1).
  Proof.
    intros Hok HB Hr. rewrite (thr_dec k Hk _ Hok). unfold thr_ovf.
    pose proof lit64 as E64.
    pose proof lit63 as E63.
    pose proof lit62 as E62.
    assert (Hc := cap3_small k Hk). unfold thr_ok in Hok.
    destruct (N.eqb_spec t 0) as [->|Hnz].
    - split; [reflexivity|]. right. unfold ones64. lia.
    - destruct Hr as [Hr|Hr].
      + split; [|left; lia]. apply andb_false_iff. left. apply N.leb_gt. lia.
      + split; [|right; lia]. apply andb_false_iff. right. apply N.ltb_ge. lia.
  Qed.

  (** one step of u keeps the no-wrap flag clear and uses up one unit of head room *)
  Lemma room_step s u s' es B : good s -> room s (S B) -> step s (Step u) = Some (s', es) -> g_ovf s' = false /\ room s' B.
  Proof.
    intros Hg Hroom Hst. destruct Hg as [Hr Ho]. destruct (good_inv k R Hk s (conj Hr Ho)) as ([HW HT1] & _).
    pose proof (HT1 u) as Hme. unfold NikbDefs.step, step_gen in Hst.
    pose proof lit62 as E62.
    assert (HBl : N.of_nat B < 2 ^ 62) by (destruct (Hroom RA) as (H1 & _); lia).
    assert (Hkeep : forall q, rhead (rg s q) + 2 * N.of_nat B + 2 * cap + 4 < 2 ^ 62 /\
              rtail (rg s q) + 2 * N.of_nat B + 2 * cap + 4 < 2 ^ 62 /\
              (rthr (rg s q) < 2 ^ 63 \/ 2 ^ 64 - 2 ^ 62 + N.of_nat B <= rthr (rg s q))).
    { intros q. destruct (Hroom q) as (A & B' & C). ssplit; [lia|lia|destruct C; [left; assumption|right; lia]]. }
    pose proof (Hkeep RA) as (KA1 & KA2 & KA3). pose proof (Hkeep RF) as (KF1 & KF2 & KF3).
    assert (Hc3 := cap3_small k Hk). pose proof lit63 as E63.
    pc_cases (th s u); try discriminate; cbn [T1] in Hme.
    all: try (destruct (HW q) as ([Hh2 Hhlt] & [Ht2 Htlt] & Hthr & _)); try (destruct (Hroom q) as (Rh & Rt & Rthr)).
    all: try (destruct (thr_room_dec _ B Hthr HBl Rthr) as [Tov Troom]).
    all: unfold mark_left, mark_skip in Hst.
    all: repeat match type of Hst with context [if ?c then _ else _] => destruct c end.
    all: try destruct q.
    all: injection Hst as <- <-; sim; rewrite ?Ho; cbn [orb].
    all: rewrite ?wadd2_small by assumption.
    all: try (destruct Hme as (Hct & Hch & Hle & Hhr); rewrite (ctr_land1 _ Hct), N.lor_0_r).
    all: split; [first [reflexivity | exact Tov | (unfold ctr_ovf; apply N.leb_gt; lia)]|].
    all: intros q'; destruct q'; sim; ssplit; try assumption; try lia; try exact Troom.
    all: left; unfold thr_full, nn; lia.
  Qed.


  Lemma room_mono s B B' : (B' <= B)%nat -> room s B -> room s B'.
  Proof. intros Hle Hr q. destruct (Hr q) as (A & B0 & C). ssplit; [lia|lia|destruct C; [left; assumption|right; lia]]. Qed.

  Lemma mu_pos s u : idle s u = false -> (1 <= mu u s)%nat.
  Proof.
    unfold idle, mu. pose proof (mE1_pos s RA). pose proof (mE1_pos s RF).
    destruct (th s u) as [|[v|tp]| | | | | | | | | | | | | | | | | ]; try discriminate; intros _; cbn [mu_pc];
      repeat match goal with |- context [if ?c then _ else _] => destruct c end; try destruct q; cbn [other]; lia.
  Qed.

  Definition PS (u : nat) (s : state) : Prop := good s /\ room s (mu u s).

  Lemma solo_step u s : PS u s -> idle s u = false ->
    exists s' es, step s (Step u) = Some (s', es) /\ PS u s' /\ (mu u s' < mu u s)%nat.
  Proof.
    intros [Hg Hroom] Hi. destruct (step_total s u Hi) as (s' & es & Hst). exists s', es. split; [exact Hst|].
    pose proof (mu_pos s u Hi) as Hpos.
    assert (Hr1 : room s 1) by (apply (room_mono s (mu u s)); [lia|exact Hroom]).
    assert (Hdec : (mu u s' < mu u s)%nat).
    { pose proof (solo_dec_D s u s' es Hg Hr1 Hst) as HD. pose proof (solo_dec_E s u s' es Hg Hr1 Hst) as HE.
      unfold idle in Hi. destruct (th s u); try discriminate Hi; try exact HD; exact HE. }
    split; [|exact Hdec].
    destruct (room_step s u s' es (mu u s - 1) Hg) as [Ho' Hroom']; [replace (S (mu u s - 1)) with (mu u s) by lia; exact Hroom|exact Hst|].
    split; [split; [eapply reach_step; [apply Hg|exact Hst]|exact Ho']|apply (room_mono s' (mu u s - 1)); [lia|exact Hroom']].
  Qed.

  (** SOLO TERMINATION: from every reachable wrap-free state with head room, thread u finishes its operation
      within [mu u s] of its own steps *)
  Theorem nikb_solo u s : good s -> room s (mu u s) -> finishes_within step Step idle u (mu u s) s.
  Proof.
    intros Hg Hroom. apply (finishes_by_measure _ _ _ step Step idle (PS u) (mu u) u).
    - intros s0 HP Hi. destruct (solo_step u s0 HP Hi) as (s' & es & H1 & H2 & H3). exists s', es. auto.
    - split; assumption.
  Qed.

  (** ** the explicit bound *)
  Definition gap (s : state) (q : rid) : nat := N.to_nat (rhead (rg s q) / 2 - rtail (rg s q) / 2).
  Definition nikb_bound (s : state) : nat :=
    (W * (3 * N.to_nat cap) + 10 * (gap s RA + gap s RF + N.to_nat cap) + 18)%nat.

  Lemma thn_le s q : good s -> (thn (rg s q) + 1 <= 3 * N.to_nat cap)%nat.
  Proof.
    intros Hg. destruct (good_inv k R Hk s Hg) as ([HW _] & _). destruct (HW q) as (_ & _ & Hthr & _).
    unfold thn. assert (Hp := cap_pos k Hk). destruct (N.ltb_spec (rthr (rg s q)) (2 ^ 63)) as [Hlt|Hge]; [|lia].
    pose proof lit64 as E64.
    pose proof lit63 as E63.
    pose proof lit62 as E62.
    destruct Hthr as [H|H]; lia.
  Qed.

  Lemma mE1_le s q : (mE1 s q <= 10 * (gap s q + N.to_nat cap) + 9)%nat.
  Proof. unfold mE1, gap. pose proof (iters_le s q (rtail (rg s q) / 2)). lia. Qed.

  Lemma mu_le_bound s u : good s -> (mu u s <= nikb_bound s)%nat.
  Proof.
    intros Hg. unfold mu, nikb_bound.
    pose proof (thn_le s RA Hg) as TA. pose proof (thn_le s RF Hg) as TF.
    pose proof (mE1_le s RA) as EA. pose proof (mE1_le s RF) as EF.
    assert (HW : forall t, (t + 1 <= 3 * N.to_nat cap)%nat -> (W * t + W <= W * (3 * N.to_nat cap))%nat) by (intros t Ht; nia).
    pose proof (HW _ TA) as WA. pose proof (HW _ TF) as WF.
    assert (Hw : W = (2 * nR + 14)%nat) by reflexivity.
    assert (Har : forall att, (ar att <= nR)%nat) by (intros att; unfold ar; lia).
    pc_cases (th s u); cbn [mu_pc];
      try (pose proof (Har att));
      repeat match goal with |- context [if ?c then _ else _] => destruct c end; try destruct q; cbn [other]; lia.
  Qed.

  Theorem nikb_solo_bound u s : good s -> room s (nikb_bound s) -> finishes_within step Step idle u (nikb_bound s) s.
  Proof.
    intros Hg Hroom. pose proof (mu_le_bound s u Hg) as Hle.
    apply (finishes_within_mono _ _ _ step Step idle u (mu u s)); [exact Hle|].
    apply nikb_solo; [exact Hg|apply (room_mono s (nikb_bound s)); assumption].
  Qed.

  Lemma nikb_bound_value s :
    nikb_bound s = ((2 * N.to_nat R + 14) * (3 * N.to_nat cap) + 10 * (gap s RA + gap s RF + N.to_nat cap) + 18)%nat.
  Proof. reflexivity. Qed.
End Solo.

(** closed statements for Properties/Properties_C05_nikb.v *)
Theorem nikb_solo_thm k R : k <= 40 -> forall u s, reach (init (2 ^ k)) (step (2 ^ k) R) s -> g_ovf s = false ->
  room k s (mu k R u s) -> finishes_within (step (2 ^ k) R) Step idle u (mu k R u s) s.
Proof. intros Hk u s Hr Ho. apply (nikb_solo k R Hk u s (conj Hr Ho)). Qed.

Theorem nikb_solo_bound_thm k R : k <= 40 -> forall u s, reach (init (2 ^ k)) (step (2 ^ k) R) s -> g_ovf s = false ->
  room k s (nikb_bound k R s) -> finishes_within (step (2 ^ k) R) Step idle u (nikb_bound k R s) s.
Proof. intros Hk u s Hr Ho. apply (nikb_solo_bound k R Hk u s (conj Hr Ho)). Qed.

(** * solo runs (executable) *)
Definition st_of' (cap R : N) (acts : list action) : state := fst (fst (run (step cap R) (init cap) acts)).

(** a push and a pop running alone on the fresh queue: 10 and 9 steps *)
Example solo_push_fresh : exists s, solo_run (step 2 0) Step idle 1 100 0 (st_of' 2 0 [Start 1%nat (OPush 7)]) = Done s 10.
Proof. eexists. vm_compute. reflexivity. Qed.

Example solo_pop_empty_fresh : exists s, solo_run (step 2 0) Step idle 1 100 0 (st_of' 2 0 [Start 1%nat (OPop false)]) = Done s 2.
Proof. eexists. vm_compute. reflexivity. Qed.

(** a pop running alone against a stopped pusher that holds enqueue ticket 1 (capacity 2, R = 2): it re-reads the
    empty slot, marks it, runs catchup and answers 'empty' after 9 steps *)
Example solo_pop_stalled_pusher :
  exists s, solo_run (step 2 2) Step idle 2 100 0
              (st_of' 2 2 ([Start 1%nat (OPush 7)] ++ repeat (Step 1%nat) 10 ++ [Start 1%nat (OPop false)] ++ repeat (Step 1%nat) 9 ++
                           [Start 1%nat (OPush 8)] ++ repeat (Step 1%nat) 6 ++ [Start 2%nat (OPop false)])) = Done s 9.
Proof. eexists. vm_compute. reflexivity. Qed.
