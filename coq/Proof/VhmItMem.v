(** vyukov_hash_map bucket model with iterators: the extension chain, the free list and item ownership.
    Generic lemmas come from Proof/VhmBase.v and Proof/VhmMem.v.  pc_own, link_ok, pc_ch, pc_fr, pc_dup, pc_limbo, Mem, ch_frame,
    fr_frame mirror the definitions of the same names in Proof/VhmMem.v over the state record and the program points of
    Model/VhmItDefs.v (a different record, so they cannot be shared) and add the iterator cases. *)
From Coq Require Import NArith List Bool Lia PeanoNat.
From XV Require Import Base.Word Conc.Lts Conc.Ev gen.BucketStateGen Proof.BucketState.
From XV Require Import Proof.VhmBase Proof.VhmMem Proof.VhmItBase Model.VhmItDefs.
Import ListNotations.
Local Open Scope N_scope.

(** the extension item a thread owns exclusively: popped from the free list and not yet linked into the
    chain, or unlinked from the chain and not yet pushed onto the free list *)
Definition pc_own (p : pc) : option N :=
  match p with
  | A7 _ _ _ _ n | IXSK _ _ _ _ n | IXSV _ _ _ _ n | IXH _ _ _ _ n | IXSN _ _ _ _ n _ | IXSH _ _ _ _ n => Some n
  | XA9 _ _ _ _ x | XXU _ _ _ x _ | F1 _ _ _ x | F2 _ _ _ x | F3 _ _ _ x | F4 _ _ _ x _ | F5 _ _ _ x
  | EX3 (It _ _ x _) _ _ _ | EA9 _ _ _ x
  | IF1 _ _ x _ | IF2 _ _ x _ | IF3 _ _ x _ | IF4 _ _ x _ _ | IF5 _ _ x _ => Some x
  | _ => None
  end.

(** the predecessor link of do_extract *)
Definition link_ok (st : state) (p x : N) : Prop :=
  (p = 0 /\ bhead st = x) \/ (p <> 0 /\ In p (g_chain st) /\ xnext st p = x).

(** facts of the holder of the bucket lock about the chain *)
Definition pc_ch (st : state) (p : pc) : Prop :=
  match p with
  | IXK _ _ _ _ x | IXV _ _ _ _ x | IXN _ _ _ _ x | XXM _ _ _ x => In x (g_chain st)
  | IXSN _ _ _ _ _ h => h = bhead st
  | IXSH _ _ _ _ n => xnext st n = bhead st
  | XA1 _ _ _ _ _ x | XA2 _ _ _ _ _ x | XA3 _ _ _ _ _ x _ | XA4 _ _ _ _ _ x _ _ | XA5 _ _ _ _ _ x _ | XA6 _ _ _ _ _ x
  | XA7 _ _ _ _ _ x => x = bhead st /\ x <> 0
  | XA8 _ _ _ _ _ x nx => x = bhead st /\ x <> 0 /\ nx = xnext st x
  | XB1 _ _ _ _ _ | XB2 _ _ _ _ _ | XB3 _ _ _ _ _ _ | XB4 _ _ _ _ _ _ _ | XB5 _ _ _ _ _ _ | XB6 _ _ _ _ _ => bhead st = 0
  | XXK _ _ _ p x | XXV _ _ _ p x | XXN _ _ _ p x _ => In x (g_chain st) /\ link_ok st p x
  | XXP _ _ _ p x _ nx => In x (g_chain st) /\ link_ok st p x /\ nx = xnext st x
  | ItIdle (It _ _ x p) | BeginI _ (It _ _ x p) | SK _ _ (It _ _ x p) | SV _ _ (It _ _ x p) _ | EK (It _ _ x p) | EV (It _ _ x p) _
  | R1 (It _ _ x p) | N1 _ (It _ _ x p) | EX1 (It _ _ x p) _ _
  | IF1 (It _ _ x p) _ _ _ | IF2 (It _ _ x p) _ _ _ | IF3 (It _ _ x p) _ _ _ | IF4 (It _ _ x p) _ _ _ _ | IF5 (It _ _ x p) _ _ _
  | IF6 (It _ _ x p) _ _ _ => x <> 0 -> In x (g_chain st) /\ link_ok st p x
  | EX2 (It _ _ x p) _ _ nx => In x (g_chain st) /\ link_ok st p x /\ nx = xnext st x
  | EX3 (It _ _ _ p) _ _ nx => nx <> 0 -> In nx (g_chain st) /\ link_ok st p nx
  | FXK _ _ p x => In x (g_chain st) /\ link_ok st p x
  | FXN _ _ x => In x (g_chain st)
  | EA1 _ _ _ h | EA2 _ _ _ h | EA3 _ _ _ h _ | EA4 _ _ _ h _ _ | EA5 _ _ _ h _ | EA6 _ _ _ h | EA7 _ _ _ h => h = bhead st /\ h <> 0
  | EA8 _ _ _ h nx => h = bhead st /\ h <> 0 /\ nx = xnext st h
  | EB1 _ _ _ | EB2 _ _ _ | EB3 _ _ _ _ | EB4 _ _ _ _ _ | EB5 _ _ _ _ | EB6 _ _ _ => bhead st = 0
  | _ => True
  end.

(** facts of the holder of the extension bucket's lock about the free list *)
Definition pc_fr (st : state) (p : pc) : Prop :=
  match p with
  | A5 _ _ _ _ n => n = xhead st /\ n <> 0
  | A6 _ _ _ _ n nx => n = xhead st /\ n <> 0 /\ nx = xnext st n
  | F4 _ _ _ _ h => h = xhead st
  | F5 _ _ _ x => xnext st x = xhead st
  | IF4 _ _ _ _ h => h = xhead st
  | IF5 _ _ x _ => xnext st x = xhead st
  | _ => True
  end.

Definition pc_dup (p : pc) : bool := match p with XA7 _ _ _ _ _ _ | XA8 _ _ _ _ _ _ _ | EA7 _ _ _ _ | EA8 _ _ _ _ _ => true | _ => false end.
Definition pc_limbo (p : pc) : N := match p with XA9 _ _ _ _ x | XXU _ _ _ x _ | EX3 (It _ _ x _) _ _ _ | EA9 _ _ _ x => x | _ => 0 end.

Record Mem (st : state) : Prop := mkMem {
  M_chd : bhead st = hd 0 (g_chain st);
  M_clk : linksto (xnext st) (g_chain st) 0;
  M_cnd : NoDup (g_chain st);
  M_cok : forall x, In x (g_chain st) -> item_ok x;
  M_fhd : xhead st = hd 0 (g_free st);
  M_flk : linksto (xnext st) (g_free st) 0;
  M_fnd : NoDup (g_free st);
  M_fok : forall x, In x (g_free st) -> item_ok x;
  M_disj : forall x, In x (g_chain st) -> In x (g_free st) -> False;
  M_own : forall t x, pc_own (th st t) = Some x -> item_ok x /\ ~ In x (g_chain st) /\ ~ In x (g_free st);
  M_inj : forall t t' x, t <> t' -> pc_own (th st t) = Some x -> pc_own (th st t') = Some x -> False;
  M_fl0 : g_owner st = None -> g_dup st = false /\ g_limbo st = 0;
  M_fl : forall t, g_owner st = Some t -> g_dup st = pc_dup (th st t) /\ g_limbo st = pc_limbo (th st t);
  M_ch : forall t, pc_ch st (th st t);
  M_fr : forall t, pc_fr st (th st t)
}.

Lemma ch_unlocked p : pc_bst p = None -> forall st, pc_ch st p.
Proof. destruct p; repeat match goal with i : itpos |- _ => destruct i end; cbn [pc_bst pc_ch]; try discriminate; intros; exact I. Qed.
Lemma fr_unlocked p : xlocked_pc p = false -> forall st, pc_fr st p.
Proof. destruct p; repeat match goal with i : itpos |- _ => destruct i end; cbn [xlocked_pc pc_fr]; try discriminate; intros; exact I. Qed.

Lemma ch_frame st st' p : pc_ch st p -> bhead st = hd 0 (g_chain st) ->
  bhead st' = bhead st -> g_chain st' = g_chain st ->
  (forall y, In y (g_chain st) \/ pc_own p = Some y -> xnext st' y = xnext st y) -> pc_ch st' p.
Proof.
  intros H E0 E1 E2 E3.
  assert (Hc : forall y, In y (g_chain st) -> xnext st' y = xnext st y) by (intros y Hy; apply E3; left; exact Hy).
  assert (Hl : forall q x, link_ok st q x -> link_ok st' q x).
  { intros q x [H1|(H1 & H2 & H3)]; [left; rewrite E1; exact H1|right]. rewrite E2, Hc by exact H2. tauto. }
  destruct p; repeat match goal with i : itpos |- _ => destruct i end; cbn [pc_ch pc_own] in *; rewrite ?E1, ?E2; try exact H.
  all: try (intros Hx; specialize (H Hx)).
  all: repeat match goal with H0 : _ /\ _ |- _ => destruct H0 end.
  all: subst; rsplit; auto.
  all: try (rewrite E3 by (right; reflexivity); assumption).
  all: try (rewrite Hc by (first [assumption | apply hd_in; congruence]); auto; congruence).
Qed.

Lemma fr_frame st st' p : pc_fr st p -> xhead st' = xhead st ->
  (forall y, (y = xhead st /\ y <> 0) \/ pc_own p = Some y -> xnext st' y = xnext st y) -> pc_fr st' p.
Proof.
  intros H E1 E3. destruct p; repeat match goal with i : itpos |- _ => destruct i end; cbn [pc_fr pc_own] in *; rewrite ?E1; try exact H.
  all: repeat match goal with H0 : _ /\ _ |- _ => destruct H0 end.
  all: subst; rsplit; auto.
  all: try (rewrite E3 by (right; reflexivity); assumption).
  all: try (rewrite E3 by (left; tauto); reflexivity).
Qed.

Lemma Mem_init : Mem init.
Proof.
  constructor; cbn; try reflexivity; try (intros; discriminate); try tauto; try (intros; exact I).
  - constructor.
  - repeat constructor; cbn; intuition discriminate.
  - unfold item_ok. intros x H. repeat (destruct H as [<-|H]; [lia|]). destruct H.
Qed.

Lemma hd_cons (l : list N) h : h = hd 0 l -> h <> 0 -> exists r, l = h :: r.
Proof. destruct l as [|x r]; cbn [hd]; intros -> H; [contradiction | exists r; reflexivity]. Qed.

Lemma next_ne_self nx l x : NoDup l -> ~ In 0 l -> linksto nx l 0 -> In x l -> nx x <> x.
Proof.
  intros Hnd H0 HL Hx E. pose proof (from_next nx l x Hnd H0 HL Hx) as Hf. rewrite E in Hf.
  destruct (from_in x l Hx) as [r Hr]. rewrite Hr in Hf. cbn [tl] in Hf.
  assert (Hlen : length (x :: r) = length r) by (rewrite Hf at 1; reflexivity). cbn [length] in Hlen. lia.
Qed.

(** * The two lists of extension items and the items the threads own, over variables *)
Definition Lists (nx : N -> N) (bh : N) (ch : list N) (xh : N) (fr : list N) (own : nat -> option N) : Prop :=
  bh = hd 0 ch /\ linksto nx ch 0 /\ NoDup ch /\ (forall x, In x ch -> item_ok x) /\
  xh = hd 0 fr /\ linksto nx fr 0 /\ NoDup fr /\ (forall x, In x fr -> item_ok x) /\
  (forall x, In x ch -> In x fr -> False) /\
  (forall t x, own t = Some x -> item_ok x /\ ~ In x ch /\ ~ In x fr) /\
  (forall t t' x, t <> t' -> own t = Some x -> own t' = Some x -> False).

(** the memory steps of a thread that owns item [o] (or none): a store to the next field of its item, linking it at the
    head of the chain, pushing it onto the free list, taking the head of either list, unlinking the successor of [p] *)
Inductive mstep (nx : N -> N) (bh : N) (ch : list N) (xh : N) (fr : list N) (o : option N) :
  (N -> N) -> N -> list N -> N -> list N -> option N -> Prop :=
| ms_keep : mstep nx bh ch xh fr o nx bh ch xh fr o
| ms_store n h : o = Some n -> mstep nx bh ch xh fr o (setf nx n h) bh ch xh fr o
| ms_link n : o = Some n -> nx n = bh -> mstep nx bh ch xh fr o nx n (n :: ch) xh fr None
| ms_push n : o = Some n -> nx n = xh -> mstep nx bh ch xh fr o nx bh ch n (n :: fr) None
| ms_popc : o = None -> bh <> 0 -> mstep nx bh ch xh fr o nx (nx bh) (tl ch) xh fr (Some bh)
| ms_popf : o = None -> xh <> 0 -> mstep nx bh ch xh fr o nx bh ch (nx xh) (tl fr) (Some xh)
| ms_unlink p : o = None -> In p ch -> nx p <> 0 ->
    mstep nx bh ch xh fr o (setf nx p (nx (nx p))) bh (remx (nx p) ch) xh fr (Some (nx p)).

Lemma Lists_sym nx bh ch xh fr own : Lists nx bh ch xh fr own -> Lists nx xh fr bh ch own.
Proof.
  intros (H1 & H2 & H3 & H4 & H5 & H6 & H7 & H8 & H9 & H10 & H11). unfold Lists. rsplit; try assumption.
  - intros x Hx Hx'. exact (H9 x Hx' Hx).
  - intros t x Hx. destruct (H10 t x Hx) as (? & ? & ?). auto.
Qed.

Lemma Lists_link t nx bh ch xh fr own own' n : Lists nx bh ch xh fr own -> (forall u, u <> t -> own' u = own u) ->
  own t = Some n -> own' t = None -> nx n = bh -> Lists nx n (n :: ch) xh fr own'.
Proof.
  intros (H1 & H2 & H3 & H4 & H5 & H6 & H7 & H8 & H9 & H10 & H11) Hoth Ho Ho' Hn.
  destruct (H10 t n Ho) as (Hok & Hnc & Hnf).
  assert (Hu : forall u x, own' u = Some x -> u <> t /\ own u = Some x).
  { intros u x Hx. destruct (Nat.eq_dec u t) as [->|Hne]; [congruence | rewrite Hoth in Hx by exact Hne; auto]. }
  unfold Lists. rsplit; try assumption.
  - reflexivity.
  - split; [rewrite Hn; exact H1 | exact H2].
  - constructor; assumption.
  - intros y [<-|Hy]; auto.
  - intros y [<-|Hy] Hy'; [contradiction | exact (H9 y Hy Hy')].
  - intros u x Hx. destruct (Hu u x Hx) as [Hne Hx']. destruct (H10 u x Hx') as (? & ? & ?). rsplit; try assumption.
    intros [<-|Hc]; [exact (H11 t u n (fun E => Hne (eq_sym E)) Ho Hx') | contradiction].
  - intros u u' x Hne Hx Hx'. destruct (Hu u x Hx) as [_ E]. destruct (Hu u' x Hx') as [_ E']. exact (H11 u u' x Hne E E').
Qed.

Lemma Lists_pop t nx bh ch xh fr own own' : Lists nx bh ch xh fr own -> (forall u, u <> t -> own' u = own u) ->
  own t = None -> own' t = Some bh -> bh <> 0 -> Lists nx (nx bh) (tl ch) xh fr own'.
Proof.
  intros (H1 & H2 & H3 & H4 & H5 & H6 & H7 & H8 & H9 & H10 & H11) Hoth Ho Ho' Hnz.
  destruct (hd_cons _ _ H1 Hnz) as [r ->]. cbn [tl linksto] in *. destruct H2 as [Hn H2]. inversion H3; subst.
  assert (Hu : forall u x, own' u = Some x -> (u = t /\ x = bh) \/ (u <> t /\ own u = Some x)).
  { intros u x Hx. destruct (Nat.eq_dec u t) as [->|Hne]; [left; split; congruence | right; rewrite Hoth in Hx by exact Hne; auto]. }
  assert (Hin : forall v, own v = Some bh -> False) by (intros v Hv; destruct (H10 v bh Hv) as (_ & Hc & _); apply Hc; left; reflexivity).
  unfold Lists. rsplit; try assumption; try reflexivity.
  - intros y Hy. apply H4. right. exact Hy.
  - intros y Hy. apply H9. right. exact Hy.
  - intros u x Hx. destruct (Hu u x Hx) as [[-> ->]|[_ Hx']].
    + rsplit; [apply H4; left; reflexivity | assumption | intros Hc; apply (H9 bh); [left; reflexivity | exact Hc]].
    + destruct (H10 u x Hx') as (? & Hc & ?). rsplit; try assumption. intros Hy. apply Hc. right. exact Hy.
  - intros u u' x Hne Hx Hx'.
    destruct (Hu u x Hx) as [[Eu Ex]|[_ E]]; destruct (Hu u' x Hx') as [[Eu' Ex']|[_ E']]; subst; eauto; congruence.
Qed.

Lemma Lists_step t nx bh ch xh fr own nx' bh' ch' xh' fr' own' : Lists nx bh ch xh fr own ->
  (forall u, u <> t -> own' u = own u) ->
  mstep nx bh ch xh fr (own t) nx' bh' ch' xh' fr' (own' t) -> Lists nx' bh' ch' xh' fr' own'.
Proof.
  intros HL Hoth Hm.
  destruct (HL) as (H1 & H2 & H3 & H4 & H5 & H6 & H7 & H8 & H9 & H10 & H11).
  assert (Hsame : own' t = own t -> forall u, own' u = own u) by (intros E u; destruct (Nat.eq_dec u t) as [->|Hne]; auto).
  inversion Hm as [|n h Ho|n Ho Hn|n Ho Hn|Ho Hnz|Ho Hnz|p Ho Hp Hnz]; subst.
  - (* keep *) unfold Lists. rsplit; try assumption; intros *; rewrite ?Hsame by congruence; eauto.
  - (* a store to the owned item, which is in neither list *)
    destruct (H10 t n Ho) as (_ & Hnc & Hnf). unfold Lists.
    rsplit; try assumption; try (intros *; rewrite ?Hsame by congruence; eauto).
    all: (eapply linksto_ext; [|eassumption]); intros y Hy; apply setf_other; intros ->; contradiction.
  - apply (Lists_link t _ _ _ _ _ own own' _ HL Hoth); congruence.
  - apply Lists_sym, (Lists_link t _ _ _ _ _ own own' _ (Lists_sym _ _ _ _ _ _ HL) Hoth); congruence.
  - apply (Lists_pop t _ _ _ _ _ own own' HL Hoth); congruence.
  - apply Lists_sym, (Lists_pop t _ _ _ _ _ own own' (Lists_sym _ _ _ _ _ _ HL) Hoth); congruence.
  - (* unlinking x, the successor of p: x goes from the chain to its new owner *)
    set (x := nx p) in *. assert (H0 : ~ In 0 ch) by (intros Hc; apply H4 in Hc; unfold item_ok in Hc; lia).
    assert (Hx : In x ch) by (apply linksto_next_in; assumption).
    destruct (unlink_mid nx ch p H3 H0 H2 Hp Hnz) as [U1 U2].
    assert (Hu : forall u y, own' u = Some y -> (u = t /\ y = x) \/ (u <> t /\ own u = Some y)).
    { intros u y Hy. destruct (Nat.eq_dec u t) as [->|Hne]; [left; split; congruence | right; rewrite Hoth in Hy by exact Hne; auto]. }
    unfold Lists. rsplit; try assumption; try reflexivity.
    + symmetry. exact U2.
    + apply NoDup_remx. exact H3.
    + intros y Hy. apply in_remx in Hy. apply H4. tauto.
    + eapply linksto_ext; [|exact H6]. intros y Hy. apply setf_other. intros ->. exact (H9 p Hp Hy).
    + intros y Hy Hy'. apply in_remx in Hy. apply (H9 y); tauto.
    + intros u y Hy. rewrite in_remx. destruct (Hu u y Hy) as [[-> ->]|[_ Hy']].
      * rsplit; [apply H4; exact Hx | tauto | intros Hc; exact (H9 x Hx Hc)].
      * destruct (H10 u y Hy') as (? & ? & ?). tauto.
    + intros u u' y Hne Hy Hy'.
      assert (Hin : forall v, own v = Some x -> False) by (intros v Hv; destruct (H10 v x Hv) as (_ & Hc & _); exact (Hc Hx)).
      destruct (Hu u y Hy) as [[Eu Ex]|[_ E]]; destruct (Hu u' y Hy') as [[Eu' Ex']|[_ E']]; subst; eauto; congruence.
Qed.

(** an item of the chain is neither the head of the free list nor owned by a thread *)
Lemma chain_not_free st t' p : Mem st -> In p (g_chain st) ->
  (p = xhead st /\ p <> 0) \/ pc_own (th st t') = Some p -> False.
Proof.
  intros HM Hp [[Hy Hnz]|Hy].
  - apply (M_disj _ HM p Hp). apply hd_in; [rewrite <- (M_fhd _ HM); exact Hy | exact Hnz].
  - destruct (M_own _ HM t' p Hy) as (_ & Hc & _). contradiction.
Qed.

(** the thread that moved, or another one *)
Ltac split_t' t' :=
  intros t'; match goal with |- context [upd ?f ?t ?p t'] => destruct (upd_cases f t p t') as [[-> E]|[Hne E]]; rewrite E; clear E end.

Section VhmItMem.
  Variable xoff : N.
  Notation step := (step xoff).

  (** the store to the predecessor's link in do_extract and erase(iterator), as a memory step *)
  Lemma unlink_head st x nx xh fr : Mem st -> In x (g_chain st) -> link_ok st 0 x -> nx = xnext st x ->
    mstep (xnext st) (bhead st) (g_chain st) xh fr None (xnext st) nx (remx x (g_chain st)) xh fr (Some x).
  Proof.
    intros HM Hx [(_ & <-)|(Hc & _)] ->; [|contradiction].
    assert (Hnz : bhead st <> 0) by (apply (M_cok _ HM) in Hx; unfold item_ok in Hx; lia).
    pose proof (M_cnd _ HM) as Hnd. destruct (hd_cons _ _ (M_chd _ HM) Hnz) as [r Ec]. rewrite Ec in *.
    rewrite remx_hd by (inversion Hnd; assumption). apply ms_popc; [reflexivity | exact Hnz].
  Qed.
  Lemma unlink_mid_step st p x nx xh fr : Mem st -> p <> 0 -> In x (g_chain st) -> link_ok st p x -> nx = xnext st x ->
    mstep (xnext st) (bhead st) (g_chain st) xh fr None
          (setf (xnext st) p nx) (bhead st) (remx x (g_chain st)) xh fr (Some x).
  Proof.
    intros HM Hp0 Hx [(Hc & _)|(_ & Hp & <-)] ->; [contradiction|].
    apply ms_unlink; [reflexivity | exact Hp |]. intros E. rewrite E in Hx. apply (M_cok _ HM) in Hx. unfold item_ok in Hx. lia.
  Qed.

  Lemma step_mem st a st' es : Mem st -> step st a = Some (st', es) ->
    mstep (xnext st) (bhead st) (g_chain st) (xhead st) (g_free st) (pc_own (th st (tid a)))
          (xnext st') (bhead st') (g_chain st') (xhead st') (g_free st') (pc_own (th st' (tid a))).
  Proof.
    intros HM H. step_inv H; cbn [tid]; rewrite Epc; st_simpl; rewrite upd_same; cbn [pc_own].
    all: try apply ms_keep.
    all: pose proof (M_ch _ HM t) as Hch; rewrite Epc in Hch; cbn [pc_ch] in Hch.
    all: pose proof (M_fr _ HM t) as Hfr; rewrite Epc in Hfr; cbn [pc_fr] in Hfr.
    all: b2p.
    - (* A6 *) destruct Hfr as (-> & Hnz & ->). apply ms_popf; [reflexivity | exact Hnz].
    - (* IXSN *) apply ms_store. reflexivity.
    - (* IXSH *) apply ms_link; [reflexivity | exact Hch].
    - (* XA8 *) destruct Hch as (-> & Hnz & ->). apply ms_popc; [reflexivity | exact Hnz].
    - (* XXP *) subst p. apply unlink_head; tauto.
    - apply unlink_mid_step; tauto.
    - (* F4 *) apply ms_store. reflexivity.
    - (* F5 *) apply ms_push; [reflexivity | exact Hfr].
    - (* EX2 *) subst p. apply unlink_head; tauto.
    - apply unlink_mid_step; tauto.
    - (* EA8 *) destruct Hch as (-> & Hnz & ->). apply ms_popc; [reflexivity | exact Hnz].
    - (* IF4 *) apply ms_store. reflexivity.
    - (* IF5 *) apply ms_push; [reflexivity | exact Hfr].
  Qed.


  Lemma Mem_step_fl st a st' es : Lk st -> Mem st -> step st a = Some (st', es) ->
    (g_owner st' = None -> g_dup st' = false /\ g_limbo st' = 0) /\
    (forall t', g_owner st' = Some t' -> g_dup st' = pc_dup (th st' t') /\ g_limbo st' = pc_limbo (th st' t')).
  Proof.
    intros HI HM H. step_inv H; st_simpl.
    all: split; [|split_t' t'].
    all: try exact (M_fl0 _ HM); try exact (M_fl _ HM t').
    all: try discriminate.
    all: try (intros _; split; reflexivity).
    all: try (intros Ho; injection Ho as Ho; congruence).
    all: try (intros Ho; pose proof (M_fl _ HM t Ho) as Hf; rewrite Epc in Hf; cbn [pc_dup pc_limbo] in *; exact Hf).
    all: try (assert (Hown : g_owner st = Some t) by
               (apply (Lk_own _ HI); rewrite Epc; cbn [pc_bst];
                repeat match goal with E : ?c = _ |- context [if ?c then _ else _] => rewrite E end; discriminate)).
    all: try (intros Ho; congruence).
    all: try (pose proof (M_fl _ HM t Hown) as Hf; rewrite Epc in Hf; cbn [pc_dup pc_limbo] in *; intros _; tauto).
    all: try (intros Ho; pose proof (M_fl _ HM t Ho) as Hf; rewrite Epc in Hf; cbn [pc_dup pc_limbo] in *; tauto).
    all: intros _; cbn [pc_dup pc_limbo]; apply (M_fl0 _ HM).
    all: pose proof (Lk_bit _ HI) as Hbit; pose proof (Lk_wf _ HI t) as Hwf; rewrite Epc in Hwf; cbn [pc_wf] in Hwf.
    all: b2p; match goal with E : bst _ = ?x |- _ => subst x end; destruct (g_owner st); [intuition congruence | reflexivity].
  Qed.

  Lemma Mem_step_ch st a st' es : Lk st -> Mem st -> step st a = Some (st', es) -> forall t', pc_ch st' (th st' t').
  Proof.
    intros HI HM H. step_inv H; st_simpl.
    all: split_t' t'.
    all: try exact I.
    (* another thread *)
    all: try (destruct (pc_bst (th st t')) eqn:Eb; [|apply ch_unlocked; exact Eb];
              assert (Ho' : g_owner st = Some t') by (apply (Lk_own _ HI); rewrite Eb; discriminate);
              first [ assert (Hown : g_owner st = Some t) by (apply (Lk_own _ HI); rewrite Epc; discriminate); congruence
                    | apply (ch_frame st); [exact (M_ch _ HM t') | exact (M_chd _ HM) | reflexivity | reflexivity |]; st_simpl;
                      try (intros; reflexivity) ]).
    all: pose proof (M_ch _ HM t) as Hch; rewrite Epc in Hch; cbn [pc_ch] in Hch.
    all: pose proof (M_chd _ HM) as Hchd; pose proof (M_clk _ HM) as Hclk; pose proof (M_cnd _ HM) as Hcnd;
         pose proof (M_cok _ HM) as Hcok.
    all: assert (H0 : ~ In 0 (g_chain st)) by (intros Hc; apply Hcok in Hc; unfold item_ok in Hc; lia).
    all: cbn [pc_ch]; unfold link_ok in *; st_simpl; b2p.
    all: try tauto.
    all: try (apply hd_in; assumption).
    all: try (apply linksto_next_in; assumption).
    all: pose proof (Lk_wf _ HI t) as Hwf; rewrite Epc in Hwf; cbn [pc_wf it_wf it_elem] in Hwf.
    all: try solve [intros Hx; exfalso; tauto].
    - rewrite setf_same. exact Hch.
    - split; [apply hd_in; assumption | left; split; reflexivity].
    - split; [apply linksto_next_in; assumption | right].
      assert (x <> 0) by (intros ->; tauto). tauto.
    - (* F4 by another thread while t' holds the bucket lock *)
      intros y Hy. apply setf_other. intros ->.
      pose proof (M_own _ HM t x) as Hx. rewrite Epc in Hx. destruct (Hx eq_refl) as (_ & Hxc & _).
      destruct Hy as [Hy|Hy]; [contradiction|].
      apply (M_inj _ HM t t' x); [congruence | rewrite Epc; reflexivity | exact Hy].
    - (* FH *) split; [apply hd_in; assumption | left; split; reflexivity].
    - (* FXN *) split; [apply linksto_next_in; assumption | right].
      assert (x <> 0) by (intros ->; tauto). tauto.
    - (* N1 *) intros Hnz. destruct Hwf as [_ Hx]. destruct (Hch Hx) as [Hxc _].
      split; [apply linksto_next_in; assumption | right; tauto].
    - (* N2 *) intros Hnz. split; [apply hd_in; assumption | left; split; reflexivity].
    - (* EX1 *) destruct Hwf as [_ Hx]. destruct (Hch Hx) as [Hxc Hl]. tauto.
    - (* EX2, head *) intros Hnz. subst p. destruct Hch as (Hx & _ & ->).
      assert (Hne : xnext st x <> x) by (apply (next_ne_self (xnext st) (g_chain st)); assumption).
      split; [apply in_remx; split; [apply linksto_next_in; assumption | exact Hne] | left; split; reflexivity].
    - (* EX2, item *) intros Hnz. destruct Hch as (Hx & [(Hc & _)|(_ & Hp & Hpx)] & ->); [contradiction|].
      assert (Hne : xnext st x <> x) by (apply (next_ne_self (xnext st) (g_chain st)); assumption).
      assert (Hxp : p <> x) by (intros ->; apply Hne; exact Hpx).
      split; [apply in_remx; split; [apply linksto_next_in; assumption | exact Hne] | right].
      rewrite setf_same. rsplit; [assumption | apply in_remx; tauto | reflexivity].
    - (* EB7 *) intros Hnz. split; [apply hd_in; assumption | left; split; reflexivity].
    - (* IF4 by the lock holder *) intros Hx. destruct (Hch Hx) as [Hxc [Hl|(Hp & Hpc & Hpx)]]; (split; [exact Hxc|]); [left; exact Hl | right].
      pose proof (M_own _ HM t fx) as Ho. rewrite Epc in Ho. destruct (Ho eq_refl) as (_ & Hfc & _).
      rewrite setf_other by (intros ->; contradiction). tauto.
  Qed.

  Lemma Mem_step_fr st a st' es : Lk st -> Mem st -> step st a = Some (st', es) -> forall t', pc_fr st' (th st' t').
  Proof.
    intros HI HM H. step_inv H; st_simpl.
    all: split_t' t'.
    all: try exact I.
    (* another thread *)
    all: try (destruct (xlocked_pc (th st t')) eqn:Eb; [|apply fr_unlocked; exact Eb];
              assert (Ho' : g_xowner st = Some t') by (apply (Lk_xown _ HI); exact Eb);
              first [ assert (Hown : g_xowner st = Some t) by (apply (Lk_xown _ HI); rewrite Epc; reflexivity); congruence
                    | apply (fr_frame st); [exact (M_fr _ HM t') | reflexivity |]; st_simpl;
                      try (intros; reflexivity) ]).
    all: pose proof (M_fr _ HM t) as Hfr; rewrite Epc in Hfr; cbn [pc_fr] in Hfr.
    all: pose proof (M_fhd _ HM) as Hfhd.
    all: cbn [pc_fr]; st_simpl; b2p.
    all: try tauto; try reflexivity; try (rewrite setf_same; exact Hfr).
    (* stores to a next field while t' holds the free-list lock: not to the head of the free list, not to t''s item *)
    all: intros y Hy; apply setf_other; intros ->; exfalso.
    all: pose proof (M_ch _ HM t) as Hch; rewrite Epc in Hch; cbn [pc_ch] in Hch.
    - (* IXSN: the new item is owned by this thread only *)
      pose proof (M_own _ HM t n) as Hx. rewrite Epc in Hx. destruct (Hx eq_refl) as (_ & _ & Hxf).
      destruct Hy as [[Hy Hnz]|Hy]; [apply Hxf; apply hd_in; congruence|].
      apply (M_inj _ HM t t' n); [congruence | rewrite Epc; reflexivity | exact Hy].
    - (* XXP *) destruct Hch as (_ & [(Hc & _)|(_ & Hp & _)] & _); [contradiction|]. exact (chain_not_free st t' p HM Hp Hy).
    - (* EX2 *) destruct Hch as (_ & [(Hc & _)|(_ & Hp & _)] & _); [contradiction|]. exact (chain_not_free st t' p HM Hp Hy).
  Qed.

  Lemma Mem_step st a st' es : Lk st -> Mem st -> step st a = Some (st', es) -> Mem st'.
  Proof.
    intros HI HM H.
    assert (HL : Lists (xnext st) (bhead st) (g_chain st) (xhead st) (g_free st) (fun u => pc_own (th st u))).
    { unfold Lists. rsplit; apply HM. }
    destruct (Lists_step (tid a) _ _ _ _ _ _ _ _ _ _ _ (fun u => pc_own (th st' u)) HL
                (fun u Hu => f_equal pc_own (step_th xoff _ _ _ _ H u Hu)) (step_mem _ _ _ _ HM H))
      as (H1 & H2 & H3 & H4 & H5 & H6 & H7 & H8 & H9 & H10 & H11).
    destruct (Mem_step_fl _ _ _ _ HI HM H) as (H12 & H13).
    constructor; try assumption.
    - exact (Mem_step_ch _ _ _ _ HI HM H).
    - exact (Mem_step_fr _ _ _ _ HI HM H).
  Qed.

  Theorem Mem_reach st : reach init step st -> Mem st.
  Proof.
    apply (inv_rule_aux _ _ _ init step Lk Mem).
    - apply Lk_reach.
    - exact Mem_init.
    - intros s a s' es HJ _ HM Hs. exact (Mem_step _ _ _ _ HJ HM Hs).
  Qed.
End VhmItMem.
