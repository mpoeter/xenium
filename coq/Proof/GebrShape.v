(** Thread-local shape of every program point of the generalised epoch based reclamation model (Model/GebrDefs.v), for
    every configuration ([tshape], [T0_reach]).  No axioms. *)
From Coq Require Import NArith List Bool Arith Lia PeanoNat.
From XV Require Import Conc.Lts Conc.Ev Model.GebrDefs Proof.GebrBase.
Import ListNotations.
Local Open Scope N_scope.

Ltac fn := cbn [walk_of ctx_of slot_of in_enter in_cphase in_xphase in_lv in_gphase in_c16 pre_sync cblk kacq tmp needs_cb no_cb orb andb negb is_some cell_of nest_of rg_of].
Ltac fn_in H := cbn [walk_of ctx_of slot_of in_enter in_cphase in_xphase in_lv in_gphase in_c16 pre_sync cblk kacq tmp needs_cb no_cb orb andb negb is_some cell_of nest_of rg_of] in H.

Record tshape (cfg : config) (ns : nat) (p : pc) (x : tls) : Prop := {
  ts_need : needs_cb p = true -> cb x <> None;
  ts_no : no_cb p = true -> cb x = None;
  ts_fresh : cb x = None -> nest x = O /\ (forall s, gs x s = None) /\ sync x = false /\ rg x = None;
  ts_cnt : nest x = (cnt_held (gs x) ns + tmp p x)%nat;
  ts_rent : rent x = rent_exp cfg (nest x) (rg x);
  ts_slot : forall s, slot_of p = Some s -> (s < ns)%nat;
  ts_hi : forall s, (ns <= s)%nat -> gs x s = None;
  ts_c : in_cphase p = true -> nest x = O /\ sync x = false /\ rg x = None;
  ts_e : in_enter p = true -> nest x = tmp p x;
  ts_lv : in_lv p = true -> nest x = O /\ rent x = O;
  ts_x : in_xphase p = true -> nest x = O /\ rent x = O /\ (forall s, gs x s = None);
  ts_sync : (1 <= nest x)%nat -> pre_sync p = false -> sync x = true;
  ts_g : in_gphase p = true -> sit x = [];
  ts_init : scan_is_n cfg && negb (tinit x) = true -> cb x = None /\ in_c16 p = false }.

Ltac cleanup :=
  repeat match goal with
  | H : false = true -> _ |- _ => clear H
  | H : true = true -> _ |- _ => specialize (H eq_refl)
  | H : true = false -> _ |- _ => clear H
  | H : false = false -> _ |- _ => specialize (H eq_refl)
  | H : forall s, None = Some s -> _ |- _ => clear H
  | H : forall s, Some ?a = Some s -> _ |- _ => specialize (H a eq_refl)
  | H : ?a = ?b -> _, H2 : ?a = ?b |- _ => specialize (H H2)
  | H : _ /\ _ |- _ => destruct H
  end.

Ltac cnt_tac :=
  repeat match goal with
  | |- context [cnt_held (fun _ => None) ?n] => rewrite (cnt_held_none n)
  | E : ?g ?s0 = Some ?x, L : (?s0 < ?n)%nat |- context [cnt_held (upd ?g ?s0 None) ?n] =>
      rewrite (cnt_upd_some_none g s0 x n E L) in *
  | E : ?g ?s0 = None, L : (?s0 < ?n)%nat |- context [cnt_held (upd ?g ?s0 (Some ?x)) ?n] =>
      rewrite (cnt_upd_none_some g s0 x n E L)
  | E : ?g ?s0 = Some ?y |- context [cnt_held (upd ?g ?s0 (Some ?x)) ?n] =>
      rewrite (cnt_upd_same_kind g s0 (Some x) n) by (rewrite E; reflexivity)
  | E : ?g ?s0 = None |- context [cnt_held (upd ?g ?s0 None) ?n] =>
      rewrite (cnt_upd_same_kind g s0 None n) by (rewrite E; reflexivity)
  end.

Ltac prj_hyps := repeat match goal with H : _ |- _ => progress prj_in H end.

(* the counter facts produced by the boolean tests of the step *)
Ltac cnt_facts :=
  repeat match goal with
  | H : leave_last ?c ?y = true |- _ =>
    let X := fresh "LL" in pose proof (leave_last_true c y H) as X; prj_in X; clear H
  | H : leave_rg_last ?c ?y = true |- _ =>
    let X := fresh "LL" in pose proof (fun r => leave_rg_last_true c y r H) as X; prj_in X; clear H
  | H : eager_first ?c ?y = true |- _ =>
    let X := fresh "EF" in pose proof (eager_first_true c y H) as X; prj_in X; clear H
  | H : needs_init ?c ?y = _ |- _ => rewrite needs_init_eq in H; prj_in H
  | H : inside ?c ?y = false |- _ =>
    let X := fresh "IS" in pose proof (inside_false c y H) as X; prj_in X; clear H
  end.

(* instantiate the facts about the last leave / first enter *)
Ltac use_ll :=
  repeat match goal with
  | LL : forall r, rent ?x = rent_exp _ _ (Some r) -> _, Irent : rent ?x = rent_exp _ _ (rg ?x), E : rg ?x = Some ?n |- _ =>
    let X := fresh "Ir" in pose proof Irent as X; rewrite E in X; specialize (LL n X); destruct LL
  | LL : rent ?x = rent_exp _ _ _ -> (1 <= nest ?x)%nat -> _, Irent : rent ?x = rent_exp _ _ _ |- _ =>
    let X := fresh in assert (X : (1 <= nest x)%nat) by lia; specialize (LL Irent X); destruct LL
  | EF : rent ?x = rent_exp _ _ _ -> _ /\ _, Irent : rent ?x = rent_exp _ _ _ |- _ =>
    specialize (EF Irent); destruct EF as (? & ? & ? & ?)
  | IS : rent ?x = rent_exp _ _ _ -> _ /\ _, Irent : rent ?x = rent_exp _ _ _ |- _ =>
    specialize (IS Irent); destruct IS
  end.

Ltac rent_tac :=
  try match goal with Irent : rent ?x = rent_exp _ _ _ |- _ => rewrite Irent end;
  repeat match goal with E : rg ?x = _ |- _ => rewrite E end;
  first [ apply rent_dec_exp; lia
        | apply rent_dec_exp_rg
        | apply rent_inc_exp; intros; first [assumption | discriminate | reflexivity]
        | exact (rent_inc_exp _ (KAcq (KRead 0)) _ _ ltac:(discriminate))
        | match goal with |- _ = rent_exp _ _ (Some ?r) => exact (rent_inc_exp _ (KEnter r) _ None (fun _ => eq_refl)) end
        | symmetry; apply rent_exp_0 | apply rent_exp_0 ].

(* closes one clause of [tshape] for the successor of one transition (after the selectors are split by [sel]): counter
   arithmetic over [cnt_held] / [rent_exp], the last-leave / first-enter facts, and clauses discharged by the old shape *)
Ltac tfin :=
  try (let X := fresh "X" in intros X);
  cleanup; bool_eqs;
  repeat match goal with
  | |- context [match ?k with KRepl _ _ => _ | _ => _ end] => destruct k
  | H : context [match ?k with KRepl _ _ => _ | _ => _ end] |- _ => destruct k
  | |- context [match ?k with KAcq _ => _ | _ => _ end] => destruct k
  | H : context [match ?k with KAcq _ => _ | _ => _ end] |- _ => destruct k
  end; fn; repeat match goal with H : slot_of _ = _ |- _ => progress fn_in H end; prj; cleanup;
  repeat match goal with
  | |- context [is_some (?g ?s0)] => let E := fresh "Eg" in destruct (g s0) eqn:E; cbn [is_some] in *
  | H : context [is_some (?g ?s0)] |- _ => let E := fresh "Eg" in destruct (g s0) eqn:E; cbn [is_some] in *
  end; prj;
  repeat match goal with
  | |- context [upd ?f ?a ?v ?b] => destruct (upd_cases f a v b) as [[? ->]|[? ->]]; try subst
  end;
  repeat match goal with
  | H : forall s, ?g s = None, E : ?g ?s0 = Some _ |- _ => rewrite H in E; discriminate E
  end;
  repeat match goal with
  | E : ?g ?s0 = Some ?x, L : (?s0 < ?ns)%nat |- _ =>
    lazymatch goal with | _ : (1 <= cnt_held g ns)%nat |- _ => fail | _ => pose proof (cnt_pos _ _ _ _ E L) end
  end;
  use_ll;
  cnt_tac;
  first [ assumption | reflexivity | discriminate | congruence | lia | exfalso; congruence | exfalso; lia | solve [auto]
        | split; first [assumption | lia | congruence | solve [auto]]
        | rent_tac
        | repeat split; try assumption; try lia;
          match goal with Ihi : forall s, (?ns <= s)%nat -> ?g s = None |- forall s, ?g s = None =>
            let s0 := fresh "s0" in intros s0; destruct (le_lt_dec ns s0); [apply Ihi; lia | eapply cnt_zero_all; [|eassumption]; lia] end
        | match goal with Hn : nest ?x = O, Hr : rent ?x = O |- rent ?x = rent_exp _ (nest ?x) None => rewrite Hn, Hr; symmetry; apply rent_exp_0 end
        | match goal with Isync : _ -> _ -> sync ?x = true |- sync ?x = true => apply Isync; [lia | reflexivity] end ].

Lemma tshape_step cfg ns s t s' es : step cfg ns s (Step t) = Some (s', es) ->
  tshape cfg ns (th s t) (tl s t) -> tshape cfg ns (th s' t) (tl s' t).
Proof.
  intros H I. unfold_step H. cbv zeta in H. step_split H.
  all: bool_eqs; prj; rewrite ?upd_same; prj; prj_hyps; rewrite ?upd_same in *; prj_hyps.
  all: try match goal with E : th _ _ = _ |- _ => rewrite E in I end.
  all: destruct I as [Ineed Ino Ifresh Icnt Irent Islot Ihi Ic Ie Ilv Ix Isync Ig Iinit].
  all: fn_in Ineed; fn_in Ino; fn_in Icnt; fn_in Islot; fn_in Ic; fn_in Ie; fn_in Ilv; fn_in Ix; fn_in Isync; fn_in Ig; fn_in Iinit.
  all: cnt_facts.
  all: constructor; prj; fn; intros.
  all: try solve [first [assumption | reflexivity | discriminate | congruence | lia | auto]].
  all: try solve [sel; tfin].
Qed.

Lemma tshape_start cfg ns s t o s' es : step cfg ns s (Start t o) = Some (s', es) ->
  tshape cfg ns (th s t) (tl s t) -> tshape cfg ns (th s' t) (tl s' t).
Proof.
  intros H I. unfold step in H. step_split H.
  all: bool_eqs; prj; rewrite ?upd_same; prj; prj_hyps.
  all: try match goal with E : th _ _ = _ |- _ => rewrite E in I end.
  all: destruct I as [Ineed Ino Ifresh Icnt Irent Islot Ihi Ic Ie Ilv Ix Isync Ig Iinit].
  all: fn_in Ineed; fn_in Ino; fn_in Icnt; fn_in Islot; fn_in Ic; fn_in Ie; fn_in Ilv; fn_in Ix; fn_in Isync; fn_in Ig; fn_in Iinit.
  all: cnt_facts.
  all: constructor; prj; fn; intros.
  all: try solve [first [assumption | reflexivity | discriminate | congruence | lia | auto]].
  all: solve [sel; tfin].
Qed.

(** ** the thread-local shape holds for every thread of every reachable state *)
Section Reach.
Variables (cfg : config) (ns : nat) (nc : N).
Definition reachable (st : state) : Prop := reach (init nc) (step cfg ns) st.

Lemma step_other_thread s a s' es u : step cfg ns s a = Some (s', es) ->
  (match a with Start t _ => t | Step t => t end) <> u -> th s' u = th s u /\ tl s' u = tl s u.
Proof.
  intros H Hne. destruct a as [t o|t].
  - unfold step in H. step_split H. all: prj; rewrite ?upd_other by congruence; split; reflexivity.
  - pose proof (step_others _ _ _ _ _ _ H) as F. apply F. congruence.
Qed.

Definition T0 (st : state) : Prop := forall u, tshape cfg ns (th st u) (tl st u).

Lemma T0_init : T0 (init nc).
Proof.
  intros u. constructor; cbn; intros; try congruence; try discriminate; try (repeat split; intros; reflexivity); try reflexivity.
  - rewrite cnt_held_none. reflexivity.
  - symmetry. apply rent_exp_0.
  - lia.
Qed.

Lemma T0_step s a s' es : T0 s -> step cfg ns s a = Some (s', es) -> T0 s'.
Proof.
  intros I H u. destruct (Nat.eq_dec (match a with Start t _ => t | Step t => t end) u) as [<-|Hne].
  - destruct a as [t o|t]; [eapply tshape_start|eapply tshape_step]; eauto.
  - destruct (step_other_thread _ _ _ _ u H Hne) as [-> ->]. apply I.
Qed.

Lemma T0_reach s : reachable s -> T0 s.
Proof. apply inv_rule; [exact T0_init|exact T0_step]. Qed.
End Reach.

