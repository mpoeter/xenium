(** nikolaev_queue model, ring layer: the state of EVERY node satisfies the invariant layers of the bounded queue
    (Proof/NikbWf.v [Inv1] words, NikbOwn.v [Inv2] tickets / slots / index ownership, NikbSafe.v [Inv4] the is_safe flag
    and no stranding inside a ring, NikbCons.v [A3] tickets below head are handed out) in every reachable state of the
    queue in which no counter has wrapped.  The steps of the ring code are steps of the bounded model (the step lemmas
    of those files apply); proved here: the node built by push (first_used_tag / first_empty_tag), entering a ring
    operation, set_threshold, the four accesses to the finalized tail word, the finalized enqueue. *)
From Coq Require Import NArith List Bool Lia PeanoNat.
From XV Require Import Base.Word Conc.Lts Conc.Ev gen.ScqGen Model.NikbDefs Model.NikqDefs.
From XV Require Import Proof.NikbArith Proof.NikbBase Proof.NikbWf Proof.NikbOwn Proof.NikbVal Proof.NikbSafe Proof.NikbCons Proof.NikqBase.
Import ListNotations.
Local Open Scope N_scope.

Set Default Proof Using "All".
Section Ring.
  Variable k R : N.
  Hypothesis Hk : k <= 40.
  Notation cap := (2 ^ k).
  Notation step := (NikbDefs.step cap R).
  Notation ecyc := (ecyc k).
  Notation eidx := (eidx k).
  Notation esafe := (esafe k).
  Notation bot := (bot k).
  Notation Inv1 := (Inv1 k).
  Notation Inv2 := (Inv2 k).
  Notation Inv4 := (Inv4 k).
  Notation slot := (slot k).
  Notation wfe := (wfe k).

  Definition RingInv (sg : state) : Prop := Inv1 sg /\ Inv2 sg /\ Inv4 sg /\ A3 sg.

  (** * the node built by push *)
  (** as NikbWf.free_data_spec, for the indices 1 .. cap-1 the constructor puts into the free ring *)
  Lemma used_free_spec j : used_free_data cap j = ones64 \/ exists i, i < cap /\ used_free_data cap j = nn cap + i.
  Proof.
    unfold used_free_data.
    assert (G : forall l f, (forall j, f j = ones64 \/ exists i, i < cap /\ f j = nn cap + i) ->
                (forall i, In i l -> N.of_nat i < cap) ->
                forall j, fold_left (fun f i => setf f (phys cap (2 * N.of_nat i)) (nn cap + N.of_nat i)) l f j = ones64 \/
                          exists i, i < cap /\ fold_left (fun f i => setf f (phys cap (2 * N.of_nat i)) (nn cap + N.of_nat i)) l f j = nn cap + i).
    { induction l as [|a l IH]; intros f Hf Hl j0; cbn [fold_left]; [apply Hf|].
      apply IH.
      - intros j1. unfold setf. destruct (j1 =? _); [right; exists (N.of_nat a); split; [apply Hl; left; reflexivity|reflexivity]|apply Hf].
      - intros i Hi. apply Hl. right. exact Hi. }
    apply G.
    - intros; left; reflexivity.
    - intros i Hi. apply in_seq in Hi. lia.
  Qed.

  Lemma used_free_at p : p < nn cap -> used_free_data cap (phys cap (2 * p)) = if (1 <=? p) && (p <? cap) then nn cap + p else ones64.
  Proof.
    intros Hp. unfold used_free_data. rewrite (free_data_fold k R Hk); [|exact Hp|].
    - destruct (N.leb_spec 1 p) as [H1|H1], (N.ltb_spec p cap) as [Hlt|Hge]; cbn [andb].
      1: { replace (existsb _ _) with true; [reflexivity|]. symmetry. apply existsb_exists.
           exists (N.to_nat p). split; [apply in_seq; lia|apply N.eqb_eq; lia]. }
      all: replace (existsb _ _) with false; [reflexivity|]; symmetry; apply not_true_is_false; intros H;
        apply existsb_exists in H; destruct H as (i & Hi & He); apply in_seq in Hi; apply N.eqb_eq in He; lia.
    - intros i Hi. apply in_seq in Hi. unfold nn. lia.
  Qed.

  Lemma slot_used_RF v T : slot (used_init cap v) RF T =
    if (1 <=? T mod nn cap) && (T mod nn cap <? cap) then nn cap + T mod nn cap else ones64.
  Proof.
    unfold NikbOwn.slot. cbn [used_init rgs rdata]. rewrite (phys_tick k Hk). apply used_free_at. apply N.mod_lt.
    assert (H := nn_pos k Hk). lia.
  Qed.

  Lemma slot_used_RA v T : slot (used_init cap v) RA T = if T mod nn cap =? 0 then nn cap else ones64.
  Proof.
    unfold NikbOwn.slot. cbn [used_init rgs rdata]. unfold used_alloc_data, setf. assert (Hn := nn_pos k Hk).
    replace (phys cap 0) with (phys cap (2 * 0)) by reflexivity.
    destruct (N.eqb_spec (T mod nn cap) 0) as [Hz|Hz].
    - rewrite (phys_tick k Hk T), Hz. rewrite N.eqb_refl. reflexivity.
    - destruct (N.eqb_spec (phys cap (2 * T)) (phys cap (2 * 0))) as [Hp|Hp]; [|reflexivity].
      exfalso. apply Hz. apply (phys_inj k Hk) in Hp. rewrite Hp. apply N.mod_0_l. lia.
  Qed.

  Lemma thr_full_ok : thr_ok k (thr_full cap).
  Proof. left. unfold thr_full, nn. assert (Hp := cap_pos k Hk). lia. Qed.

  Lemma wfe_nn : wfe (nn cap).
  Proof. replace (nn cap) with (nn cap + 0) by lia. apply (wfe_nn_i k R Hk). apply (cap_pos k Hk). Qed.

  Lemma Inv1_used v : Inv1 (used_init cap v).
  Proof.
    assert (Hc := cap3_small k Hk). assert (Hp := cap_pos k Hk).
    split; [|intros t; exact I].
    intros [|]; cbn [used_init rgs]; unfold RW; cbn [rhead rtail rthr rdata].
    - split; [apply ctr_0|]. split; [apply (ctr_double 1); lia|]. split; [apply thr_full_ok|].
      intros j. unfold used_alloc_data, setf. destruct (j =? _); [apply wfe_nn|apply (wfe_ones64 k R Hk)].
    - split; [apply (ctr_double 1); lia|]. split; [apply ctr_double; lia|]. split; [apply thr_full_ok|].
      intros j. destruct (used_free_spec j) as [->|(i & Hi & ->)]; [apply (wfe_ones64 k R Hk)|apply (wfe_nn_i k R Hk); exact Hi].
  Qed.

  Lemma f_nn0 : ecyc (nn cap) = 0 /\ eidx (nn cap) = 0.
  Proof. replace (nn cap) with (nn cap + 0) by lia. apply (f_nn_i k R Hk). apply (cap_pos k Hk). Qed.

  Lemma Inv2_used v : Inv2 (used_init cap v).
  Proof.
    assert (Hn := nn_pos k Hk). assert (Hcn := cap_lt_nn k R Hk). assert (Hb := cap_lt_bot k Hk). assert (Hp := cap_pos k Hk).
    destruct f_nn0 as [Fc Fi].
    split; [|split].
    - intros [|].
      + (* RA *) constructor; cbn [used_init rgs g_dq g_eq rhead rtail th g_own].
        * intros H Hx. congruence.
        * intros T. destruct (N.eqb_spec T 0) as [->|]; [intros _; lia|congruence].
        * intros H u Hx. discriminate.
        * intros T u. destruct (T =? 0); discriminate.
        * intros T HT. rewrite slot_used_RA. destruct (N.eqb_spec (T mod nn cap) 0) as [Hz|Hz].
          -- rewrite Fc, Fi. intros _ Hc.
             assert (HT0 : T = 0). { symmetry in Hc. apply N.div_small_iff in Hc; [|lia]. rewrite N.mod_small in Hz by exact Hc. exact Hz. }
             subst T. cbn [N.eqb]. ssplit; [reflexivity|reflexivity|intros; discriminate].
          -- rewrite (eidx_ones64 k Hk). lia.
        * intros T HT. rewrite slot_used_RA. destruct (N.eqb_spec (T mod nn cap) 0) as [Hz|Hz].
          -- rewrite Fi. lia.
          -- rewrite (ecyc_ones64 k Hk). intros _ Hc. exfalso. apply (cyc_small_ne_cmax k R Hk T HT). symmetry. exact Hc.
        * intros i T Hi. cbn [inring]. destruct (N.eqb_spec i 0) as [->|]; [|discriminate]. intros Ho. inversion Ho; subst T.
          split; [reflexivity|]. rewrite slot_used_RA. rewrite N.mod_0_l by lia. cbn [N.eqb]. rewrite Fc, Fi.
          split; [reflexivity|]. symmetry. apply N.div_0_l. lia.
        * intros T i. destruct (N.eqb_spec T 0) as [->|]; [|discriminate]. intros Hx. inversion Hx; subst i.
          split; [exact Hp|]. right. split; [intros; discriminate|]. rewrite slot_used_RA. rewrite N.mod_0_l by lia. cbn [N.eqb].
          rewrite Fc, Fi. split; [reflexivity|]. symmetry. apply N.div_0_l. lia.
        * intros H i Hx. discriminate.
      + (* RF *) constructor; cbn [used_init rgs g_dq g_eq rhead rtail th g_own].
        * intros H. destruct (N.eqb_spec H 0) as [->|]; [intros _; lia|congruence].
        * intros T. destruct (N.ltb_spec T cap); [intros _; lia|congruence].
        * intros H u. destruct (H =? 0); discriminate.
        * intros T u. destruct (T <? cap); discriminate.
        * intros T HT. rewrite slot_used_RF.
          destruct (N.leb_spec 1 (T mod nn cap)) as [H1|H1], (N.ltb_spec (T mod nn cap) cap) as [Hlt|Hge]; cbn [andb];
            try (rewrite (eidx_ones64 k Hk); lia).
          destruct (f_nn_i k R Hk _ Hlt) as [A C]. rewrite A, C. intros _ Hc.
          assert (HT0 : T < nn cap). { symmetry in Hc. apply N.div_small_iff in Hc; lia. }
          rewrite N.mod_small in * by exact HT0.
          destruct (N.ltb_spec T cap); [|lia]. destruct (N.eqb_spec T 0); [lia|].
          ssplit; [reflexivity|reflexivity|intros; discriminate].
        * intros T HT. rewrite slot_used_RF.
          destruct (N.leb_spec 1 (T mod nn cap)) as [H1|H1], (N.ltb_spec (T mod nn cap) cap) as [Hlt|Hge]; cbn [andb];
            try (rewrite (ecyc_ones64 k Hk); intros _ Hc; exfalso; apply (cyc_small_ne_cmax k R Hk T HT); symmetry; exact Hc).
          destruct (f_nn_i k R Hk _ Hlt) as [A C]. rewrite C. lia.
        * intros i T Hi. cbn [inring]. destruct (N.eqb_spec i 0) as [->|Hi0]; [discriminate|]. intros Ho. inversion Ho; subst T.
          assert (E62 : 2 ^ 62 = 4611686018427387904) by reflexivity.
          assert (Hc := cap3_small k Hk). split; [lia|]. rewrite slot_used_RF.
          rewrite N.mod_small by lia. destruct (N.leb_spec 1 i); [|lia]. destruct (N.ltb_spec i cap); [|lia]. cbn [andb].
          destruct (f_nn_i k R Hk _ Hi) as [A C]. rewrite A, C. split; [reflexivity|]. symmetry. apply N.div_small. lia.
        * intros T i. destruct (N.ltb_spec T cap) as [Hlt|]; [|discriminate]. intros Hx. inversion Hx; subst i.
          split; [exact Hlt|]. destruct (N.eqb_spec T 0) as [->|HT0]; [left; reflexivity|].
          right. split; [intros; discriminate|]. rewrite slot_used_RF.
          rewrite N.mod_small by lia. destruct (N.leb_spec 1 T); [|lia]. destruct (N.ltb_spec T cap); [|lia]. cbn [andb].
          destruct (f_nn_i k R Hk _ Hlt) as [A C]. rewrite A, C. split; [reflexivity|]. symmetry. apply N.div_small. lia.
        * intros H i. destruct (N.eqb_spec H 0) as [->|]; [|discriminate]. intros Hx. inversion Hx; subst i.
          destruct (N.ltb_spec 0 cap); [reflexivity|lia].
    - intros t. cbn [used_init th]. unfold T2. cbn [dtk etk hidx]. ssplit; try (intros; discriminate). exact I.
    - intros i u q. cbn [used_init g_own]. destruct q, (i =? 0); discriminate.
  Qed.

  Lemma Inv4_used v : Inv4 (used_init cap v).
  Proof.
    constructor.
    - intros t. exact I.
    - intros q H. destruct q; cbn [used_init rgs g_dq]; [discriminate|destruct (H =? 0); discriminate].
    - intros q H i. destruct q; cbn [used_init rgs g_dq]; [discriminate|destruct (H =? 0); discriminate].
  Qed.

  Lemma A3_used v : A3 (used_init cap v).
  Proof.
    intros q H. destruct q; cbn [used_init rgs rhead g_dq]; [lia|].
    destruct (N.eqb_spec H 0); [discriminate|lia].
  Qed.

  Lemma RingInv_used v : RingInv (used_init cap v).
  Proof. split; [apply Inv1_used|split; [apply Inv2_used|split; [apply Inv4_used|apply A3_used]]]. Qed.

  Lemma RingInv_init : RingInv (init cap).
  Proof.
    split; [apply (Inv1_init k R Hk)|split; [apply (Inv2_init k R Hk)|split; [apply (Inv4_init k R Hk)|]]].
    intros q H. destruct q; cbn [init rgs rhead]; lia.
  Qed.

  (** * transitions that change only the program point of t (and possibly a threshold / the tail counter) *)
  Lemma RingInv_pc s s' t p :
    RingInv s -> (forall q, RW k (rg s' q)) -> same_core s s' -> (forall q, rhead (rg s' q) = rhead (rg s q)) ->
    th s' = upd (th s) t p ->
    dtk p = dtk (th s t) -> etk p = etk (th s t) -> hidx p = hidx (th s t) ->
    T1 k s' p -> T4 k s' p -> match p with D3 _ _ _ _ => False | _ => True end ->
    RingInv s'.
  Proof.
    intros (I1 & I2 & I4 & I3) HW Hc Hrh Hth Hd He Hh Hp1 Hp4 Hn3. pose proof Hc as [Hq Ho].
    assert (Hsl : forall q T, slot s' q T = slot s q T).
    { intros q T. apply (slot_same k R Hk). apply (Hq q). }
    split; [|split; [|split]].
    - eapply (Inv1_intro k R Hk s s' t p); [exact I1|exact HW| |exact Hth|exact Hp1].
      intros q. destruct (Hq q) as (_ & _ & _ & A & B). split; assumption.
    - eapply (Inv2_pc_only k R Hk s s' t p); [exact I2|exact Hc|exact Hth|exact Hd|exact He|exact Hh|].
      destruct p; try exact I. contradiction.
    - eapply (F4_pure k R Hk s s' t p); [exact I4|exact Hsl| | | |exact Hth|exact Hp4].
      + intros q H. destruct (Hq q) as (_ & _ & A & _). rewrite A. auto.
      + intros q T i. destruct (Hq q) as (_ & A & _). rewrite A. auto.
      + intros q H. destruct (Hq q) as (_ & _ & A & _). rewrite A. auto.
    - intros q H. destruct (Hq q) as (_ & _ & A & _). rewrite A, Hrh. apply I3.
  Qed.

  (* the same tactic as the section-local NikbOwn.core_tac: [same_core] of a state that differs in rings / program points only *)
  Ltac core_tac :=
    split; [let q' := fresh "q'" in intros q'; sim;
            try (match goal with |- context [rid_eqb q' ?q] => destruct (rid_eqb_spec q' q) as [->|?] end); sim;
            ssplit; intros; try reflexivity; try lia
           |intros; sim; reflexivity].

  Lemma RW_all s : Inv1 s -> forall q, RW k (rg s q).
  Proof. intros [H _]. exact H. Qed.

  (** entering a ring operation *)
  Lemma RingInv_enter sg t q x : RingInv sg -> th sg t = Idle -> RingInv (enter sg t (D0 q x)).
  Proof.
    intros HI Ht. pose proof HI as (I1 & _). unfold enter.
    eapply (RingInv_pc sg _ t (D0 q x)); [exact HI|exact (RW_all sg I1)|core_tac|reflexivity|reflexivity| | | |exact I|exact I|exact I];
      rewrite Ht; reflexivity.
  Qed.

  (** set_threshold and entering the second dequeue *)
  Lemma RingInv_thr sg t : RingInv sg -> th sg t = Idle -> RingInv (enter (w_rg sg RA (r_thr (ra sg) (thr_full cap))) t (D0 RA 0)).
  Proof.
    intros HI Ht. pose proof HI as (I1 & _). unfold enter.
    eapply (RingInv_pc sg _ t (D0 RA 0)); [exact HI| |core_tac| |reflexivity| | | |exact I|exact I|exact I]; try (rewrite Ht; reflexivity).
    - intros q. sim. destruct q; sim; [|apply (RW_all sg I1)].
      destruct (RW_all sg I1 RA) as (A & B & C & D). unfold RW. sim. ssplit; try assumption. apply thr_full_ok.
    - intros q. sim. destruct q; reflexivity.
  Qed.

  (** * the accesses to the finalized tail word *)
  Lemma lor1_even w : ctr w -> N.lor w 1 = w + 1.
  Proof.
    intros Hc. assert (Hd : N.land w 1 = 0) by (apply ctr_land1; exact Hc).
    rewrite <- N.lxor_lor by exact Hd. rewrite <- N.add_nocarry_lxor by exact Hd. reflexivity.
  Qed.

  Lemma bitw_bound w b : ctr w -> w <= bitw w b /\ bitw w b <= w + 1 /\ bitw w b < 2 ^ 62.
  Proof.
    intros Hc. unfold bitw. destruct b; [rewrite (lor1_even w Hc)|]; destruct Hc as [He Hl];
      assert (E62 : 2 ^ 62 = 4611686018427387904) by reflexivity; lia.
  Qed.

  (** D4 on RA *)
  Lemma RingInv_d4 sg t x hd att e b :
    RingInv sg -> th sg t = D4 RA x hd att e ->
    RingInv (w_th (mark_left sg RA hd (d4p cap x hd att e b)) (upd (th (mark_left sg RA hd (d4p cap x hd att e b))) t (d4p cap x hd att e b))).
  Proof.
    intros HI E. pose proof HI as (H1 & H2 & H4 & H3). pose proof H1 as [HW HT1]. pose proof H2 as (HR & HT & HO).
    pose proof (HT1 t) as Hme. pose proof (i4t k sg H4 t) as Hme4. rewrite E in Hme, Hme4. cbn [T1] in Hme. cbn [T4] in Hme4.
    destruct (ticket_of_pc k R Hk sg t RA hd H1 H2 ltac:(rewrite E; reflexivity)) as (Hhd2 & Hhdlt & Hheld & Hcyc).
    destruct Hme as (Hc & Hh & Hwe & Hb).
    unfold d4p. destruct b; [|destruct (lt0 (diff (cyc cap e) (cyc cap hd))) eqn:Hlt].
    - (* retry *) rewrite (mark_left_core k R Hk) by reflexivity.
      eapply (RingInv_pc sg _ t); [exact HI|exact (RW_all sg H1)|core_tac|reflexivity|sim; reflexivity| | | | |exact I|exact I];
        try (rewrite E; reflexivity). cbn [T1]. sim. split; assumption.
    - (* CAS next *) rewrite (mark_left_core k R Hk) by reflexivity.
      eapply (RingInv_pc sg _ t); [exact HI|exact (RW_all sg H1)|core_tac|reflexivity|sim; reflexivity| | | | | |exact I];
        try (rewrite E; reflexivity).
      + cbn [T1]. sim. ssplit; try assumption.
        * rewrite (cyc_lt_diff k Hk) in Hlt; [exact Hlt|apply (wfe_cycle_ok k R Hk); exact Hwe|apply Hc].
        * right. split; [reflexivity|exact Hb].
      + cbn [T4]. unfold NikbOwn.slot in *. sim. exact Hme4.
    - (* the ticket is given up *)
      assert (HH0 : 2 * (hd / 2) < 2 ^ 62) by (rewrite <- Hhd2; exact Hhdlt).
      split; [|split; [|split]].
      + eapply (Inv1_intro k R Hk sg _ t _ H1).
        * sim. apply (RW_mark k R Hk). exact HW.
        * sim. apply (mono_mark k R Hk).
        * sim. rewrite (th_mark_left k R Hk). reflexivity.
        * eapply (T1_stable k R Hk) with (st := sg); [intros q'; sim; rewrite (rhead_mark k R Hk), (rtail_mark k R Hk); split; lia|].
          cbn [T1]. split; assumption.
      + eapply (K_dq k R Hk sg _ t RA (hd / 2) DLeft); [exact H1|exact H2|exact HH0| | |unfold mark_left; cbn [leaves]; sim; reflexivity|reflexivity|rewrite E; reflexivity|reflexivity|rewrite E; reflexivity| | |exact I].
        * intros q'. unfold mark_left; cbn [leaves]; sim. destruct (rid_eqb_spec q' RA) as [->|Hnq]; sim; cbn [andb]; ssplit; intros; try reflexivity; try lia.
          -- left. unfold NikbOwn.slot. sim. split; reflexivity.
          -- left. unfold NikbOwn.slot. sim. destruct (rid_eqb_spec q' RA); [contradiction|]. split; reflexivity.
        * intros i. unfold mark_left; cbn [leaves]; sim. reflexivity.
        * unfold mark_left; cbn [leaves]; sim. lia.
        * right. pose proof (HT t) as (Ta & _). rewrite E in Ta. ssplit; [apply Ta; reflexivity|rewrite E; cbn [dtk]; rewrite <- Hhd2; reflexivity|reflexivity|reflexivity].
      + rewrite (cyc_lt_diff k Hk) in Hlt; [|apply (wfe_cycle_ok k R Hk); exact Hwe|exact Hhdlt].
        rewrite Hcyc, (clt_rk k R Hk) in Hlt. apply N.leb_gt in Hlt.
        assert (Hrs : hd / 2 / nn cap < rk k (slot sg RA (hd / 2))) by (destruct Hme4 as [X|[X _]]; lia).
        eapply (F4_leave k R Hk sg _ t RA (hd / 2)); [exact H1|exact H4| | | |exact Hheld|exact HH0|unfold mark_left; cbn [leaves]; sim; reflexivity|exact I| | |].
        * intros q' T. unfold mark_left; cbn [leaves]. unfold NikbOwn.slot; sim. destruct q'; sim; reflexivity.
        * intros q' H. unfold mark_left; cbn [leaves]; sim. destruct q'; sim; cbn [andb]; reflexivity.
        * intros q' T. unfold mark_left; cbn [leaves]; sim. destruct q'; sim; reflexivity.
        * intros [_ Hcc]. rewrite (clt_rk k R Hk) in Hcc. apply N.leb_le in Hcc. lia.
        * intros Hcc. rewrite (clt_rk k R Hk) in Hcc. apply N.leb_le in Hcc. lia.
        * apply (not_published_if_cycle_differs k R Hk sg t RA hd H1 H2 ltac:(rewrite E; reflexivity)).
          destruct Hme4 as [X|[X X']]; [left|right; apply X'; exact Hb].
          intros Hcc. rewrite (rk_of_cycle k R Hk _ _ (tick_cycle_lt_cmax k R Hk _ HH0) Hcc) in X. lia.
      + intros q' H. unfold mark_left; cbn [leaves]; sim. destruct q'; sim; [|apply H3].
        unfold setf. destruct (H =? hd / 2); [intros; discriminate|apply H3].
  Qed.

  Lemma T1_at sg t p : Inv1 sg -> th sg t = p -> T1 k sg p.
  Proof. intros [_ H] <-. apply H. Qed.

  (** D6 on RA: the final check of tail (the real word w) against the ticket *)
  Lemma RingInv_d6 sg f t x hd :
    RingInv sg -> th sg t = D6 RA x hd ->
    RingInv (w_th sg (upd (th sg) t (if gt0 (diff (bitw (rtail (ra sg)) f) (wadd 64 hd 2)) then D7 RA x else C1 RA x (rtail (ra sg)) (wadd 64 hd 2)))).
  Proof.
    intros HI E. pose proof HI as (H1 & _). pose proof (T1_at sg t _ H1 E) as Hme. cbn [T1] in Hme. destruct Hme as [Hc Hh].
    destruct (RW_all sg H1 RA) as (Hhd & Htl & _).
    assert (Hlt : hd + 2 < 2 ^ 62) by (destruct Hhd; lia).
    rewrite (wadd2_small hd (proj2 Hc)).
    destruct (bitw_bound (rtail (ra sg)) f Htl) as (B1 & B2 & B3).
    destruct (gt0 (diff (bitw (rtail (ra sg)) f) (hd + 2))) eqn:Hg;
      (eapply (RingInv_pc sg _ t); [exact HI|exact (RW_all sg H1)|core_tac|reflexivity|sim; reflexivity| | | | |exact I|exact I]);
      try (rewrite E; reflexivity); cbn [T1]; try exact I.
    rewrite diff_gt0 in Hg by (try exact B3; lia). apply N.ltb_ge in Hg. sim.
    ssplit; [exact Htl|apply ctr_add2; assumption|lia|exact Hh].
  Qed.

  (** C1 on RA: the CAS of catchup succeeds iff the even part and the finalized bit are the expected ones *)
  Lemma RingInv_c1_ok sg t x tl hd o :
    RingInv sg -> th sg t = C1 RA x tl hd -> rtail (ra sg) = tl -> o = false ->
    RingInv (w_th (w_ovf (w_rg sg RA (r_tail (ra sg) hd)) o) (upd (th sg) t (D8 RA x))).
  Proof.
    intros HI E Ht Ho. pose proof HI as (H1 & _). pose proof (T1_at sg t _ H1 E) as Hme. cbn [T1] in Hme. destruct Hme as (Hct & Hch & Hle & Hhr).
    eapply (RingInv_pc sg _ t); [exact HI| |core_tac| |sim; reflexivity| | | |exact I|exact I|exact I]; try (rewrite E; reflexivity).
    - intros q. sim. destruct q; sim; [|apply (RW_all sg H1)].
      destruct (RW_all sg H1 RA) as (A & B & C & D). unfold RW. sim. ssplit; assumption.
    - intros q. sim. destruct q; reflexivity.
  Qed.

  Lemma RingInv_c1_fail sg t x tl hd :
    RingInv sg -> th sg t = C1 RA x tl hd -> RingInv (w_th sg (upd (th sg) t (C2 RA x (rtail (ra sg))))).
  Proof.
    intros HI E. pose proof HI as (H1 & _). destruct (RW_all sg H1 RA) as (_ & Htl & _).
    eapply (RingInv_pc sg _ t); [exact HI|exact (RW_all sg H1)|core_tac|reflexivity|sim; reflexivity| | | | |exact I|exact I];
      try (rewrite E; reflexivity). exact Htl.
  Qed.

  Lemma RingInv_c2 sg t x tl lb :
    RingInv sg -> th sg t = C2 RA x tl ->
    RingInv (w_th sg (upd (th sg) t (if lt0 (diff (bitw tl lb) (rhead (ra sg))) then C1 RA x tl (rhead (ra sg)) else D8 RA x))).
  Proof.
    intros HI E. pose proof HI as (H1 & _). pose proof (T1_at sg t _ H1 E) as Hme. cbn [T1] in Hme.
    destruct (RW_all sg H1 RA) as (Hhd & _). destruct (bitw_bound tl lb Hme) as (B1 & B2 & B3).
    destruct (lt0 (diff (bitw tl lb) (rhead (ra sg)))) eqn:Hl;
      (eapply (RingInv_pc sg _ t); [exact HI|exact (RW_all sg H1)|core_tac|reflexivity|sim; reflexivity| | | | |exact I|exact I]);
      try (rewrite E; reflexivity); cbn [T1]; try exact I.
    rewrite diff_lt0 in Hl by (try exact B3; apply Hhd). apply N.ltb_lt in Hl. sim.
    ssplit; [exact Hme|exact Hhd|lia|lia].
  Qed.

  (** * one access inside the ring code *)
  Lemma ctr_ovf_even hd b : ctr hd -> ctr_ovf (bitw hd b) = ctr_ovf hd.
  Proof.
    intros Hc. unfold bitw. destruct b; [|reflexivity]. rewrite (lor1_even hd Hc). unfold ctr_ovf.
    destruct Hc as [He _]. assert (E62 : 2 ^ 62 = 2 * 2305843009213693952) by reflexivity.
    destruct (N.leb_spec (2 ^ 62) (hd + 1)), (N.leb_spec (2 ^ 62) hd); try reflexivity; lia.
  Qed.

  Lemma RingInv_native sg t sg' es : RingInv sg -> step sg (Step t) = Some (sg', es) -> g_ovf sg' = false -> RingInv sg'.
  Proof.
    intros (I1 & I2 & I4 & I3) Hs Ho. split; [|split; [|split]].
    - eapply (Inv1_step k R Hk); eauto.
    - eapply (Inv2_step k R Hk); eauto.
    - eapply (Inv4_step k R Hk); eauto.
    - eapply (A3_step k R Hk); eauto.
  Qed.

  Lemma istep_ovf sg f lb t sg' es lb' : istep cap R sg f lb t = Some (sg', es, lb') -> g_ovf sg' = false -> g_ovf sg = false.
  Proof.
    intros H. destruct (istep_inv cap R _ _ _ _ _ _ _ H) as [Hs|[(x & hd & att & e & b & _ & ->)|[(x & hd & _ & ->)|[(x & tl & hd & _ & [[_ ->]| ->])|(x & tl & _ & ->)]]]];
      [apply (ovf_sticky cap R _ _ _ _ Hs)|sim; rewrite ?mark_left_ovf; auto..].
    intros Ho. apply orb_false_2 in Ho. tauto.
  Qed.

  Lemma RingInv_istep sg f lb t sg' es lb' :
    RingInv sg -> istep cap R sg f lb t = Some (sg', es, lb') -> g_ovf sg' = false -> RingInv sg'.
  Proof.
    intros HI H Ho.
    destruct (istep_inv cap R _ _ _ _ _ _ _ H) as [Hs|[(x & hd & att & e & b & E & ->)|[(x & hd & E & ->)|[(x & tl & hd & E & [[Ht ->]| ->])|(x & tl & E & ->)]]]].
    - eapply RingInv_native; eauto.
    - apply (RingInv_d4 sg t x hd att e b HI E).
    - apply (RingInv_d6 sg f t x hd HI E).
    - apply (RingInv_c1_ok sg t x tl hd _ HI E Ht). exact Ho.
    - apply (RingInv_c1_fail sg t x tl hd HI E).
    - apply (RingInv_c2 sg t x tl lb HI E).
  Qed.

  (** * the finalized enqueue: the ticket is given up, the index is turned round *)
  Lemma RingInv_skip s t q tl p' :
    RingInv s -> etk (th s t) = Some (q, tl) -> dtk (th s t) = None -> skips p' = true -> hidx p' = hidx (th s t) -> T1 k s p' ->
    RingInv (w_th (mark_skip s q tl p') (upd (th (mark_skip s q tl p')) t p')).
  Proof.
    intros (I1 & I2 & I4 & I3) He Hd Hsk Hh Hp1. pose proof I1 as [HW HT1].
    assert (Hp' : dtk p' = None /\ etk p' = None /\ T4 k (mark_skip s q tl p') p')
      by (destruct p'; try discriminate; ssplit; try reflexivity; exact I).
    destruct Hp' as (Hdp & Hep & Hp4).
    split; [|split; [|split]].
    - eapply (Inv1_intro k R Hk s _ t _ I1); sim; [apply (RW_skip k R Hk); exact HW|apply (mono_skip k R Hk)|rewrite (th_mark_skip k R Hk); reflexivity|].
      eapply (T1_stable k R Hk); [|exact Hp1]. intros q'. sim. rewrite (rhead_skip k R Hk), (rtail_skip k R Hk). split; lia.
    - eapply (skip_step k R Hk s _ t q tl p'); [exact I1|exact I2|exact He|exact Hd|exact Hsk|exact Hh|reflexivity].
    - unfold mark_skip. rewrite Hsk. eapply (F4_pure k R Hk s _ t p'); [exact I4| | | | |sim; reflexivity|unfold mark_skip in Hp4; rewrite Hsk in Hp4; exact Hp4].
      + intros q' T. unfold NikbOwn.slot. sim. destruct (rid_eqb_spec q' q) as [->|?]; sim; reflexivity.
      + intros q' H. sim. destruct (rid_eqb_spec q' q) as [->|?]; sim; auto.
      + intros q' T i. sim. destruct (rid_eqb_spec q' q) as [->|?]; sim; [|auto]. unfold setf. destruct (T =? tl / 2); [discriminate|auto].
      + intros q' H. sim. destruct (rid_eqb_spec q' q) as [->|?]; sim; auto.
    - intros q' H. unfold mark_skip. rewrite Hsk. sim. destruct (rid_eqb_spec q' q) as [->|?]; sim; apply I3.
  Qed.

  Lemma Inv2_turn s t x idx gk :
    Inv2 s -> th s t = E1 RA x idx gk ->
    Inv2 (w_th (w_own s (setf (g_own s) idx (ORead t))) (upd (th s) t (E1 RF x idx gk))).
  Proof.
    intros (HR & HT & HO) E.
    pose proof (HT t) as (_ & _ & Tc & _). rewrite E in Tc. destruct (Tc RA idx eq_refl) as [Hown Hidx]. cbn [held] in Hown.
    set (s' := w_th (w_own s (setf (g_own s) idx (ORead t))) (upd (th s) t (E1 RF x idx gk))).
    assert (Hrg : forall q, rg s' q = rg s q) by reflexivity.
    assert (Hsl : forall q T, slot s' q T = slot s q T) by reflexivity.
    assert (Hth : forall u, u <> t -> th s' u = th s u) by (intros u Hne; unfold s'; sim; apply upd_other; exact Hne).
    assert (Htt : th s' t = E1 RF x idx gk) by (unfold s'; sim; apply upd_same).
    assert (Hoi : forall i, i <> idx -> g_own s' i = g_own s i) by (intros i Hne; unfold s'; sim; apply setf_other; exact Hne).
    assert (Hox : g_own s' idx = ORead t) by (unfold s'; sim; apply setf_same).
    split; [|split].
    - intros q. destruct (HR q) as [a1 a2 c1 c2 s2 s3 s4 s5 s6]. constructor; rewrite ?Hrg.
      + exact a1.
      + exact a2.
      + intros H u Hx. specialize (c1 H u Hx). destruct (Nat.eq_dec u t) as [->|Hne]; [rewrite E in c1; discriminate|rewrite (Hth u Hne); exact c1].
      + intros T u Hx. specialize (c2 T u Hx). destruct (Nat.eq_dec u t) as [->|Hne]; [rewrite E in c2; discriminate|rewrite (Hth u Hne); exact c2].
      + intros T HT2. rewrite Hsl. intros A B. destruct (s2 T HT2 A B) as (X & Y & Z). ssplit; [exact X| |exact Z].
        rewrite Hoi; [exact Y|]. intros Heq. rewrite Heq, Hown in Y. destruct q; discriminate.
      + intros T HT2. rewrite Hsl. apply s3. exact HT2.
      + intros i T Hi Hx. rewrite Hsl. apply s4; [exact Hi|]. destruct (N.eq_dec i idx) as [->|Hne]; [rewrite Hox in Hx; destruct q; discriminate|].
        rewrite <- (Hoi i Hne). exact Hx.
      + intros T i. rewrite Hsl. apply s5.
      + exact s6.
    - intros u. destruct (Nat.eq_dec u t) as [->|Hne].
      + rewrite Htt. unfold T2. cbn [dtk etk hidx]. ssplit; try (intros; discriminate); [|exact I].
        intros q i Hx. inversion Hx; subst. split; [exact Hox|exact Hidx].
      + rewrite (Hth u Hne). destruct (HT u) as (A & B & C & D). unfold T2. ssplit.
        * intros q hd Hx. rewrite Hrg. apply A. exact Hx.
        * intros q tl Hx. rewrite Hrg. apply B. exact Hx.
        * intros q i Hx. destruct (C q i Hx) as [C1 C2]. split; [|exact C2]. rewrite Hoi; [exact C1|].
          intros Heq. rewrite Heq, Hown in C1. destruct q; inversion C1; congruence.
        * destruct (th s u); try exact I. rewrite Hsl. exact D.
    - intros i u q Hx. destruct (N.eq_dec i idx) as [->|Hne].
      + rewrite Hox in Hx. destruct q; inversion Hx; subst. rewrite Htt. reflexivity.
      + rewrite (Hoi i Hne) in Hx. specialize (HO i u q Hx). destruct (Nat.eq_dec u t) as [->|Hnu].
        * rewrite E in HO. cbn [hidx] in HO. inversion HO; congruence.
        * rewrite (Hth u Hnu). exact HO.
  Qed.

  Lemma RingInv_turn s t x idx gk :
    RingInv s -> th s t = E1 RA x idx gk ->
    RingInv (w_th (w_own s (setf (g_own s) idx (ORead t))) (upd (th s) t (E1 RF x idx gk))).
  Proof.
    intros (I1 & I2 & I4 & I3) E. pose proof (T1_at s t _ I1 E) as Hme. cbn [T1] in Hme.
    split; [|split; [|split]].
    - eapply (Inv1_intro k R Hk s _ t _ I1); sim; [exact (RW_all s I1)|apply (mono_refl k R Hk)|reflexivity|exact Hme].
    - apply Inv2_turn; assumption.
    - eapply (F4_pure k R Hk s _ t); [exact I4| | | | |sim; reflexivity|exact I]; intros; sim; auto.
    - exact I3.
  Qed.

  Lemma fin_enq_ovf sg t x idx gk sg' es : fin_enq cap R sg t x idx gk = Some (sg', es) -> g_ovf sg' = false -> g_ovf sg = false.
  Proof.
    intros H Ho. unfold fin_enq in H. destruct (step sg (Step t)) as [[s1 e1]|] eqn:Es; [|discriminate].
    injection H as Hs _. rewrite <- Hs in *. clear Hs. sim. rewrite mark_skip_ovf in Ho. eapply (ovf_sticky cap R); eauto.
  Qed.

  Lemma RingInv_fin sg t x idx gk sg' es :
    RingInv sg -> th sg t = E1 RA x idx gk -> fin_enq cap R sg t x idx gk = Some (sg', es) -> g_ovf sg' = false -> RingInv sg'.
  Proof.
    intros HI E H Ho. unfold fin_enq in H. destruct (step sg (Step t)) as [[s1 e1]|] eqn:Es; [|discriminate].
    injection H as Hs _. rewrite <- Hs in *. clear Hs. sim.
    assert (Ho1 : g_ovf s1 = false) by (rewrite mark_skip_ovf in Ho; exact Ho).
    pose proof (RingInv_native sg t s1 e1 HI Es Ho1) as H1.
    assert (Et1 : th s1 t = E2 RA x idx gk (rtail (ra sg))).
    { unfold NikbDefs.step, step_gen in Es. rewrite E in Es. injection Es as Hs _. rewrite <- Hs. sim. apply upd_same. }
    pose proof H1 as (I1 & _). pose proof (T1_at s1 t _ I1 Et1) as Hme. cbn [T1] in Hme.
    assert (H2 := RingInv_skip s1 t RA (rtail (ra sg)) (E1 RA x idx gk) H1 ltac:(rewrite Et1; reflexivity) ltac:(rewrite Et1; reflexivity)
                                eq_refl ltac:(rewrite Et1; reflexivity) (proj1 Hme)).
    cbn [mark_skip skips] in H2. sim.
    match type of H2 with RingInv ?s2 => apply (RingInv_turn s2 t x idx gk H2) end. sim. apply upd_same.
  Qed.

  (** * every node state, in every reachable state *)
  Lemma RingInv_xs ai t a b : xs cap R ai t a b -> g_ovf b = false -> RingInv b \/ (g_ovf a = false /\ (RingInv a -> RingInv b)).
  Proof.
    intros Hx. induction Hx as [sg|sg f lb sg' es lb' Hi|sg sg' es Hs|a sg q x H1 IH1 Hi|sg Hi|sg x idx gk sg' es Hp Hf|sg v Hai]; intros Ho.
    - right. split; [exact Ho|auto].
    - right. split; [eapply istep_ovf; eauto|intros HI; eapply RingInv_istep; eauto].
    - right. split; [eapply (ovf_sticky cap R); eauto|intros HI; eapply RingInv_native; eauto].
    - destruct (IH1 Ho) as [Hb|[Hoa Hab]]; [left|right; split; [exact Hoa|intros HI]]; apply RingInv_enter; auto.
    - right. split; [exact Ho|intros HI; apply RingInv_thr; assumption].
    - right. split; [eapply fin_enq_ovf; eauto|intros HI; eapply RingInv_fin; eauto].
    - left. apply RingInv_used.
  Qed.

  (** a wrapped counter stays wrapped (nodes that are not being constructed) *)
  Lemma xs_ovf t a b : xs cap R false t a b -> g_ovf b = false -> g_ovf a = false.
  Proof.
    intros Hx. induction Hx as [sg|sg f lb sg' es lb' Hi|sg sg' es Hs|a sg q x H1 IH1 Hi|sg Hi|sg x idx gk sg' es Hp Hf|sg v Hai]; intros Ho; auto.
    - eapply istep_ovf; eauto.
    - eapply (ovf_sticky cap R); eauto.
    - eapply fin_enq_ovf; eauto.
    - discriminate.
  Qed.

  Theorem ring_reach : forall s, reach (qinit cap) (qstep cap R) s -> forall n, g_ovf (nd s n) = false -> RingInv (nd s n).
  Proof.
    apply (inv_rule_aux _ _ _ (qinit cap) (qstep cap R) Coh (fun s => forall n, g_ovf (nd s n) = false -> RingInv (nd s n))).
    - apply Coh_reach.
    - intros n _. apply RingInv_init.
    - intros s a s' es Hc _ IH Hst n Ho.
      destruct (RingInv_xs _ _ _ _ (qstep_xs cap R true s a s' es Hc Hst n (or_introl eq_refl)) Ho) as [Hb|[Hoa Hab]]; [exact Hb|apply Hab; apply IH; exact Hoa].
  Qed.
End Ring.
