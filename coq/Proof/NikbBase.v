(** nikolaev_bounded_queue model: simplification tactics, function-update lemmas, the case analysis of
    the two loop bodies ([dq_eval], [en_eval]) and monotonicity of the no-wrap flag.

    Names in the Nikb files.  Layer n (1 NikbWf, 2 NikbOwn, 3 NikbVal, 4 NikbSafe) has an invariant [Invn] made of
    clauses about the rings / lists and a per-thread clause [Tn st (th st t)] (what the program point of t promises).
    [Invn_step] goes through the program points and hands each transition to an effect lemma of the layer, stated for an
    abstract successor s' described field by field: layer 2 [K_*] (K_dq / K_eq: a ticket changes its fate, K_take / K_pub:
    an index leaves / enters a slot), layer 3 [V_*] (instances of [Inv3_upd]), layer 4 [F4_*] with [T4_write] for the
    per-thread clause under a slot write; [*_frame] / [*_pc_only] / [F4_pure] are the effect lemmas of steps that
    touch nothing the layer reads.
    Every section sets [Default Proof Using "All"], so each lemma takes k, R and Hk : k <= 40 whether or not it uses
    them: hence the runs of [k R Hk] and underscores in calls from other files. *)
From Coq Require Import NArith List Bool Lia PeanoNat.
From XV Require Import Base.Word Conc.Lts Conc.Ev gen.ScqGen Model.NikbDefs Proof.NikbArith.
Import ListNotations.
Local Open Scope N_scope.

Ltac sim := cbn [rgs store th g_own g_in g_out g_ok g_ret g_ebusy g_dbusy g_ovf rhead rthr rtail rdata g_eq g_dq
                 w_rg w_store w_th w_own w_in w_out w_ok w_ret w_ebusy w_dbusy w_ovf
                 r_head r_thr r_tail r_data r_eq r_dq rid_eqb other fst snd] in *.

(** case analysis on a program point, with the names the proofs use for its arguments; [E] records which point it is *)
Ltac pc_cases p :=
  destruct p as [|[v|tp]|q x|q x|q x hd att|q x hd e|q x hd att e|q x hd att e enew|q x hd|q x|q x tl hd|q x tl|q x
                |q x idx gk|q x idx gk tl|q x idx gk tl e|q x idx gk tl e|q x idx gk|q x idx gk] eqn:E.

(** split syntactic conjunctions only (no unfolding) *)
Ltac ssplit := repeat match goal with |- _ /\ _ => split end.

Lemma setf_same {X} (f : N -> X) i v : setf f i v i = v.
Proof. unfold setf. rewrite N.eqb_refl. reflexivity. Qed.
Lemma setf_other {X} (f : N -> X) i v j : j <> i -> setf f i v j = f j.
Proof. unfold setf. intros H. destruct (N.eqb_spec j i); [contradiction|reflexivity]. Qed.

Lemma rid_eqb_spec a b : reflect (a = b) (rid_eqb a b).
Proof. destruct a, b; cbn; constructor; congruence. Qed.
Lemma rid_eqb_refl a : rid_eqb a a = true. Proof. destruct a; reflexivity. Qed.
Lemma other_neq q : other q <> q. Proof. destruct q; discriminate. Qed.
Lemma other_other q : other (other q) = q. Proof. destruct q; reflexivity. Qed.
Lemma neq_other q q' : q' <> q -> q' = other q. Proof. destruct q, q'; intros H; try reflexivity; exfalso; apply H; reflexivity. Qed.

Definition idle (s : state) (t : nat) : bool := match th s t with Idle => true | _ => false end.

Section Base.
  Variable cap R : N.

  (** the outcomes of the do-loop body of dequeue for an entry e *)
  Lemma dq_eval_cases q x hd att e :
    (cyc cap e =? cyc cap hd) = true /\ dq_eval cap q x hd att e = D3 q x hd e \/
    (cyc cap e =? cyc cap hd) = false /\
      ((N.lor e (nn cap) =? cyc cap e) = false /\
         ((e =? N.ldiff e (nn cap)) = true /\ dq_eval cap q x hd att e = D6 q x hd \/
          (e =? N.ldiff e (nn cap)) = false /\
             (lt0 (diff (cyc cap e) (cyc cap hd)) = true /\ dq_eval cap q x hd att e = D5 q x hd att e (N.ldiff e (nn cap)) \/
              lt0 (diff (cyc cap e) (cyc cap hd)) = false /\ dq_eval cap q x hd att e = D6 q x hd)) \/
       (N.lor e (nn cap) =? cyc cap e) = true /\ dq_eval cap q x hd att e = D4 q x hd att e).
  Proof.
    unfold dq_eval. destruct (cyc cap e =? cyc cap hd); [left; split; reflexivity|right; split; [reflexivity|]].
    destruct (N.lor e (nn cap) =? cyc cap e); cbn [negb]; [right; split; reflexivity|left; split; [reflexivity|]].
    destruct (e =? N.ldiff e (nn cap)); [left; split; reflexivity|right; split; [reflexivity|]].
    destruct (lt0 (diff (cyc cap e) (cyc cap hd))); [left|right]; split; reflexivity.
  Qed.

  Lemma en_eval_cases q x idx gk tl e :
    lt0 (diff (cyc cap e) (cyc cap tl)) = true /\ (e =? cyc cap e) = true /\ en_eval cap q x idx gk tl e = E4 q x idx gk tl e \/
    lt0 (diff (cyc cap e) (cyc cap tl)) = true /\ (e =? cyc cap e) = false /\ (e =? N.lxor (cyc cap e) (nn cap)) = true /\
       en_eval cap q x idx gk tl e = E3 q x idx gk tl e \/
    en_eval cap q x idx gk tl e = E1 q x idx gk.
  Proof.
    unfold en_eval. destruct (lt0 (diff (cyc cap e) (cyc cap tl))); [|right; right; reflexivity].
    destruct (e =? cyc cap e); [left; repeat split; reflexivity|].
    destruct (e =? N.lxor (cyc cap e) (nn cap)); [right; left; repeat split; reflexivity|right; right; reflexivity].
  Qed.

  Lemma orb_false_2 a b : a || b = false -> a = false /\ b = false.
  Proof. destruct a, b; cbn; intros; try discriminate; split; reflexivity. Qed.

  Lemma mark_left_ovf st q hd p : g_ovf (mark_left st q hd p) = g_ovf st.
  Proof. unfold mark_left. destruct (leaves p); reflexivity. Qed.

  Lemma mark_skip_ovf st q tl p : g_ovf (mark_skip st q tl p) = g_ovf st.
  Proof. unfold mark_skip. destruct (skips p); reflexivity. Qed.

  Lemma ovf_sticky s a s' es : step cap R s a = Some (s', es) -> g_ovf s' = false -> g_ovf s = false.
  Proof.
    unfold step, step_gen. destruct a as [t o|t].
    - destruct (th s t); try discriminate. intros H; inversion H; subst. sim. auto.
    - pc_cases (th s t); try discriminate.
      all: repeat match goal with |- context [if ?c then _ else _] => destruct c end.
      all: try destruct q.
      all: intros H; injection H as <- <-; sim; rewrite ?mark_left_ovf, ?mark_skip_ovf; intros Ho; try exact Ho.
      all: apply orb_false_2 in Ho; tauto.
  Qed.
End Base.
