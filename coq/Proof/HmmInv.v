(** Correctness invariants of the Harris-Michael hash map model (Model/HmmDefs.v), for every bucket count,
    both memoization modes and every hash function: structure of the bucket chains (finite, acyclic, ordered
    by the predicate [greater_or_equal] the code uses, every node in the bucket its hash selects, marks are
    permanent, retired = unlinked), abstraction ([g_abs] = key/value pairs of the unmarked reachable nodes,
    union over the buckets), linearization (results of the completed operations agree with [g_abs] at their
    linearization points).  All theorems hold for every reachable state (any number of threads, any program,
    any schedule).  The generic list lemmas of Proof/HmlInv.v are reused. *)
From Coq Require Import NArith List Bool Lia ZifyBool PeanoNat Sorted FinFun.
From XV Require Import Base.Word Conc.Lts Conc.Ev Model.HmmDefs Proof.HmmStep.
From XV Require Proof.HmlInv.
Import ListNotations.
Local Open Scope N_scope.

Notation linksto := HmlInv.linksto.
Notation linksto_app := HmlInv.linksto_app.
Notation linksto_ext := HmlInv.linksto_ext.
Notation SS_app_inv := HmlInv.SS_app_inv.
Notation SS_app := HmlInv.SS_app.
Notation SS_cons_inv := HmlInv.SS_cons_inv.
Notation SS_cons := HmlInv.SS_cons.
Notation SS_NoDup := HmlInv.SS_NoDup.
Notation SS_ext := HmlInv.SS_ext.
Notation NoDup_snoc := HmlInv.NoDup_snoc.
Notation eq_comm_iff := HmlInv.eq_comm_iff.
Notation bounded_nodup_length := HmlInv.bounded_nodup_length.

(** * Generic lemmas *)

Lemma setf_same {X} (f : N -> X) i v : setf f i v i = v.
Proof. unfold setf. rewrite N.eqb_refl. reflexivity. Qed.
Lemma setf_other {X} (f : N -> X) i v j : j <> i -> setf f i v j = f j.
Proof. unfold setf. intros H. destruct (N.eqb_spec j i); [contradiction|reflexivity]. Qed.

Lemma threads_upd {X} (P : nat -> X -> Prop) f t p :
  (forall t', t' <> t -> P t' (f t')) -> P t p -> forall t', P t' (upd f t p t').
Proof.
  intros Ho Hp t'. destruct (Nat.eq_dec t' t) as [->|Hne].
  - rewrite upd_same. exact Hp.
  - rewrite upd_other by exact Hne. apply Ho. exact Hne.
Qed.

(** the prefix of [c] up to and including [sv] *)
Fixpoint upto (sv : N) (c : list N) : list N :=
  match c with
  | [] => []
  | a :: r => if a =? sv then [a] else a :: upto sv r
  end.

Lemma upto_app_in sv c1 c2 : In sv c1 -> upto sv (c1 ++ c2) = upto sv c1.
Proof.
  induction c1 as [|a c1 IH]; intros Hin; [destruct Hin|]. cbn [app upto].
  destruct (N.eqb_spec a sv) as [_|Hne]; [reflexivity|]. f_equal. apply IH.
  destruct Hin as [Hin | Hin]; [contradiction | exact Hin].
Qed.
Lemma upto_app_notin sv c1 c2 : ~ In sv c1 -> upto sv (c1 ++ c2) = c1 ++ upto sv c2.
Proof.
  induction c1 as [|a c1 IH]; intros Hn; [reflexivity|]. cbn [app upto].
  destruct (N.eqb_spec a sv) as [He|Hne]; [exfalso; apply Hn; left; exact He|]. f_equal. apply IH.
  intros Hc. apply Hn. right. exact Hc.
Qed.
Lemma upto_head sv a r : In a (upto sv (a :: r)).
Proof. cbn [upto]. destruct (a =? sv); left; reflexivity. Qed.
Lemma upto_incl sv c : incl (upto sv c) c.
Proof.
  induction c as [|a c IH]; intros x Hx; [exact Hx|]. cbn [upto] in Hx. destruct (a =? sv).
  - destruct Hx as [<- | []]. left. reflexivity.
  - destruct Hx as [<- | Hx]; [left; reflexivity | right; apply IH; exact Hx].
Qed.
Lemma upto_self sv c : In sv c -> In sv (upto sv c).
Proof.
  induction c as [|a c IH]; intros Hin; [destruct Hin|]. cbn [upto]. destruct (N.eqb_spec a sv) as [->|Hne].
  - left. reflexivity.
  - right. apply IH. destruct Hin as [Hin | Hin]; [contradiction | exact Hin].
Qed.

Lemma lookup_in k v l : lookup k l = Some v -> In (k, v) l.
Proof.
  induction l as [|[k' v'] l IH]; cbn [lookup]; [discriminate|].
  destruct (N.eqb_spec k' k) as [->|Hne]; intros H; [injection H as ->; left; reflexivity | right; apply IH; exact H].
Qed.
Lemma lookup_none k l : lookup k l = None <-> ~ In k (keys l).
Proof.
  unfold keys. induction l as [|[k' v'] l IH]; cbn [lookup map In fst]; [tauto|].
  destruct (N.eqb_spec k' k) as [->|Hne]; [split; [discriminate | intros H; exfalso; apply H; left; reflexivity]|].
  rewrite IH. tauto.
Qed.
Lemma lookup_nodup k v l : NoDup (keys l) -> In (k, v) l -> lookup k l = Some v.
Proof.
  unfold keys. induction l as [|[k' v'] l IH]; cbn [lookup map In fst]; intros Hnd Hin; [destruct Hin|].
  inversion Hnd as [|a r Ha Hr]; subst. destruct Hin as [Hin | Hin].
  - injection Hin as -> ->. rewrite N.eqb_refl. reflexivity.
  - destruct (N.eqb_spec k' k) as [->|Hne]; [|apply IH; assumption].
    exfalso. apply Ha. apply in_map_iff. exists (k, v). split; [reflexivity | exact Hin].
Qed.
Lemma in_keys k l : In k (keys l) <-> exists v, In (k, v) l.
Proof.
  unfold keys. rewrite in_map_iff. split.
  - intros ([k' v] & E & Hin). cbn [fst] in E. subst k'. exists v. exact Hin.
  - intros (v & Hin). exists (k, v). split; [reflexivity | exact Hin].
Qed.
Lemma memk_true k l : memk k l = true <-> In k (keys l).
Proof.
  unfold memk. destruct (lookup k l) as [v|] eqn:E.
  - split; [intros _|reflexivity]. apply in_keys. exists v. apply lookup_in. exact E.
  - apply lookup_none in E. split; [discriminate | contradiction].
Qed.
Lemma in_remk k p l : In p (remk k l) <-> In p l /\ fst p <> k.
Proof.
  unfold remk. rewrite filter_In. split; intros [H1 H2]; (split; [exact H1|]).
  - intros E. rewrite E, N.eqb_refl in H2. discriminate.
  - destruct (N.eqb_spec (fst p) k); [contradiction|reflexivity].
Qed.
Lemma keys_remk k l : keys (remk k l) = filter (fun j => negb (j =? k)) (keys l).
Proof.
  unfold keys, remk. induction l as [|[k' v'] l IH]; [reflexivity|]. cbn [filter map fst].
  destruct (k' =? k); cbn [negb map fst]; rewrite IH; reflexivity.
Qed.
Lemma memb_true k l : memb k l = true <-> In k l.
Proof.
  unfold memb. rewrite existsb_exists. split.
  - intros (x & Hx & He). apply N.eqb_eq in He. subst. exact Hx.
  - intros H. exists k. split; [exact H | apply N.eqb_refl].
Qed.
Lemma apply_lin_snoc l e : apply_lin (l ++ [e]) = apply_lev (apply_lin l) e.
Proof. unfold apply_lin. rewrite fold_left_app. reflexivity. Qed.

Definition ins_nodes (l : list lev) : list N :=
  flat_map (fun e => match e with LIns _ _ _ n => [n] | LDel _ _ _ _ => [] end) l.
Definition del_nodes (l : list lev) : list N :=
  flat_map (fun e => match e with LDel _ _ n _ => [n] | LIns _ _ _ _ => [] end) l.
Lemma ins_nodes_in l n : In n (ins_nodes l) <-> exists t k v, In (LIns t k v n) l.
Proof.
  unfold ins_nodes. rewrite in_flat_map. split.
  - intros (e & He & Hn). destruct e as [t k v n' | t k n' i]; [|destruct Hn].
    destruct Hn as [<- | []]. exists t, k, v. exact He.
  - intros (t & k & v & H). exists (LIns t k v n). split; [exact H | left; reflexivity].
Qed.
Lemma del_nodes_in l n : In n (del_nodes l) <-> exists t k i, In (LDel t k n i) l.
Proof.
  unfold del_nodes. rewrite in_flat_map. split.
  - intros (e & He & Hn). destruct e as [t k v n' | t k n' i]; [destruct Hn|].
    destruct Hn as [<- | []]. exists t, k, i. exact He.
  - intros (t & k & i & H). exists (LDel t k n i). split; [exact H | left; reflexivity].
Qed.
Lemma ins_nodes_app l1 l2 : ins_nodes (l1 ++ l2) = ins_nodes l1 ++ ins_nodes l2.
Proof. apply flat_map_app. Qed.
Lemma del_nodes_app l1 l2 : del_nodes (l1 ++ l2) = del_nodes l1 ++ del_nodes l2.
Proof. apply flat_map_app. Qed.

Section Inv.
  Variable nb : N.
  Variable memo : bool.
  Variable lex : bool.
  Variable hf : N -> N.

  Notation bucket_of := (bucket_of nb hf).
  Notation nh := (nh memo hf).
  Notation gef := (gef memo lex).
  Notation step := (step nb memo lex hf).
  Notation step0 := (step0 nb memo lex hf).
  Notation init := (init nb).
  Notation m_alloc := (m_alloc hf).

  (** bucket of a node *)
  Definition bk (m : mem) (x : N) : N := bucket_of (nkey m x).
  (** [x <= y] in the order used by the code: y.greater_or_equal(hash of x, key of x) *)
  Definition le2 (m : mem) (x y : N) : bool := gef m (nh m x) (nkey m x) y.

  Lemma gef_refl m x : le2 m x x = true.
  Proof. unfold le2, HmmDefs.gef, HmmDefs.nh. destruct memo, lex; rewrite ?N.eqb_refl; lia. Qed.
  Lemma gef_trans m h k x y : gef m h k x = true -> le2 m x y = true -> gef m h k y = true.
  Proof.
    unfold le2, HmmDefs.gef, HmmDefs.nh. destruct memo, lex; try lia.
    destruct (N.eqb_spec (nhash m x) h), (N.eqb_spec (nhash m y) (nhash m x)), (N.eqb_spec (nhash m y) h); lia.
  Qed.
  (** two nodes that are [<=] each other carry the same key *)
  Lemma gef_antisym m x y : le2 m x y = true -> le2 m y x = true -> nkey m x = nkey m y.
  Proof.
    unfold le2, HmmDefs.gef, HmmDefs.nh. destruct memo, lex; try lia.
    destruct (N.eqb_spec (nhash m y) (nhash m x)), (N.eqb_spec (nhash m x) (nhash m y)); lia.
  Qed.
  Lemma gef_frame m m' h k x : nkey m' x = nkey m x -> nhash m' x = nhash m x -> gef m' h k x = gef m h k x.
  Proof. unfold HmmDefs.gef. intros -> ->. reflexivity. Qed.
  Lemma nh_frame m m' x : nkey m' x = nkey m x -> nhash m' x = nhash m x -> nh m' x = nh m x.
  Proof. unfold HmmDefs.nh. intros -> ->. reflexivity. Qed.
  (** a node whose key is the searched one (with its hash) is greater or equal *)
  Lemma gef_key m k x : nkey m x = k -> nhash m x = hf k -> gef m (hf k) k x = true.
  Proof. unfold HmmDefs.gef. intros -> ->. destruct memo, lex; rewrite ?N.eqb_refl; lia. Qed.

  (** order of a bucket chain: the sentinel 0 comes first; a later node is not [<=] an earlier one *)
  Definition R (m : mem) (x y : N) : Prop := y <> 0 /\ (x = 0 \/ le2 m y x = false).

  Lemma R_irr m x : ~ R m x x.
  Proof. intros [H1 [H2 | H2]]; [contradiction | rewrite gef_refl in H2; discriminate]. Qed.

  (** nodes that are or were linked: in the chain of their bucket, or retired *)
  Definition known (m : mem) (cs : N -> list N) (x : N) : Prop := In x (cs (bk m x)) \/ In x (g_retired m).

  (** all nodes of the chain up to [sv] are below (h, k): not greater_or_equal *)
  Definition pre (m : mem) (c : list N) (h k sv : N) : Prop :=
    In sv c -> forall x, In x (upto sv c) -> x <> 0 -> gef m h k x = false.

  (** global part, relative to the chains [cs b] = the nodes reachable from [buckets[b]] *)
  Record G (m : mem) (cs : N -> list N) : Prop := mkG {
    G_links : forall b, linksto (pnext m b) (0 :: cs b) 0;
    G_sorted : forall b, StronglySorted (R m) (0 :: cs b);
    G_bk : forall b x, In x (cs b) -> bk m x = b;
    G_ret_nodup : NoDup (g_retired m);
    G_ret_nz : ~ In 0 (g_retired m);
    G_disj : forall b x, In x (cs b) -> In x (g_retired m) -> False;
    G_bound : forall x, known m cs x -> x < nalloc m;
    G_pos : 0 < nalloc m;
    G_marked_known : forall x, nmark m x = true -> known m cs x;
    G_ret_marked : forall x, In x (g_retired m) -> nmark m x = true;
    G_closed : forall x, known m cs x -> nnext m x = 0 \/ (known m cs (nnext m x) /\ bk m (nnext m x) = bk m x);
    G_hash : forall x, x <> 0 -> x < nalloc m -> nhash m x = hf (nkey m x);
    G_abs_nodup : NoDup (keys (g_abs m));
    G_abs : forall k v, In (k, v) (g_abs m) <->
              exists x, In x (cs (bucket_of k)) /\ nmark m x = false /\ nkey m x = k /\ nval m x = v;
    G_fold : g_abs m = apply_lin (g_lin m);
    G_lins : forall t k v n, In (LIns t k v n) (g_lin m) -> known m cs n /\ nkey m n = k /\ nval m n = v;
    G_ldel : forall t k n i, In (LDel t k n i) (g_lin m) -> nmark m n = true /\ nkey m n = k;
    G_lins_nodup : NoDup (ins_nodes (g_lin m));
    G_ldel_nodup : NoDup (del_nodes (g_lin m));
    G_marked_del : forall x, nmark m x = true -> In x (del_nodes (g_lin m));
    G_known_ins : forall x, known m cs x -> In x (ins_nodes (g_lin m))
  }.

  (** [sv] stands for a [prev] pointer of a thread working in bucket [b] on (h, k) *)
  Definition okref (m : mem) (cs : N -> list N) (b sv : N) : Prop := sv = 0 \/ (known m cs sv /\ bk m sv = b).
  Definition okprev (m : mem) (cs : N -> list N) (b h k sv : N) : Prop :=
    okref m cs b sv /\ pre m (0 :: cs b) h k sv.
  Definition oknode (m : mem) (cs : N -> list N) (b x : N) : Prop := x <> 0 /\ known m cs x /\ bk m x = b.
  Definition oknx (m : mem) (cs : N -> list N) (b x : N) : Prop := x = 0 \/ oknode m cs b x.
  (** the node an inserting thread owns and has not linked yet *)
  Definition fresh (m : mem) (cs : N -> list N) (key n : N) : Prop :=
    n <> 0 /\ n < nalloc m /\ ~ known m cs n /\ nkey m n = key.

  Definition is_some2 (w : option (option N)) : Prop := exists v, w = Some (Some v).

  (** the iterator variable (b, sv, cur) of a thread *)
  Definition IT0 (m : mem) (cs : N -> list N) (ib isv icur : N) : Prop :=
    okref m cs ib isv /\
    (icur <> 0 -> pre m (0 :: cs ib) (nh m icur) (nkey m icur) isv /\ oknode m cs ib icur).

  Definition cont_ok (m : mem) (cs : N -> list N) (w : option (option N)) (ib icur : N) (c : fk) (b h key : N) : Prop :=
    match c with
    | KIns n v => fresh m cs key n /\ nval m n = v
    | KGet n v => n = 0 \/ (fresh m cs key n /\ nval m n = v)
    | KDel2 => is_some2 w
    | KItN o | KItE o => icur = o /\ o <> 0 /\ nmark m o = true /\ key = nkey m o /\ b = ib
    | _ => True
    end.
  Definition fcom (m : mem) (cs : N -> list N) (w : option (option N)) (ib icur : N) (c : fk) (b h key : N) : Prop :=
    h = hf key /\ b = bucket_of key /\ cont_ok m cs w ib icur c b h key.

  (** per-thread part; [w] is the thread's [g_lp], (ib, isv, icur) its iterator variable *)
  Definition Tw (m : mem) (cs : N -> list N) (w : option (option N)) (ib isv icur : N) (p : pc) : Prop :=
    match p with
    | Idle | Begin _ | MB _ _ => True
    | F1 c b h key start => fcom m cs w ib icur c b h key /\ okprev m cs b h key start
    | F2 c b h key start sv nx =>
      fcom m cs w ib icur c b h key /\ okprev m cs b h key start /\ okprev m cs b h key sv /\ oknx m cs b nx
    | F3 c b h key start sv cur =>
      fcom m cs w ib icur c b h key /\ okprev m cs b h key start /\ okprev m cs b h key sv /\ oknode m cs b cur
    | F4 c b h key start sv cur =>
      fcom m cs w ib icur c b h key /\ okprev m cs b h key start /\ okprev m cs b h key sv /\ oknode m cs b cur /\
      nmark m cur = true
    | F5 c b h key start sv cur nx =>
      fcom m cs w ib icur c b h key /\ okprev m cs b h key start /\ okprev m cs b h key sv /\ oknode m cs b cur /\
      nmark m cur = true /\ nnext m cur = nx
    | F6 c b h key start sv cur nx _ =>
      fcom m cs w ib icur c b h key /\ okprev m cs b h key start /\ okprev m cs b h key sv /\ oknode m cs b cur /\
      (is_del2 c = false -> nkey m cur = key -> exists v, w = Some (Some v) /\ v = nval m cur) /\ oknx m cs b nx
    | E1 g n v b h key sv cur =>
      (fresh m cs key n /\ nval m n = v) /\ h = hf key /\ b = bucket_of key /\ okprev m cs b h key sv /\
      (cur <> 0 -> oknode m cs b cur /\ gef m h key cur = true /\ nkey m cur <> key)
    | E2 g n v b h key sv cur =>
      (fresh m cs key n /\ nval m n = v) /\ h = hf key /\ b = bucket_of key /\ okprev m cs b h key sv /\
      (cur <> 0 -> oknode m cs b cur /\ gef m h key cur = true /\ nkey m cur <> key) /\ nnext m n = cur
    | D1 b h key sv cur nx =>
      h = hf key /\ b = bucket_of key /\ okprev m cs b h key sv /\ oknode m cs b cur /\ nkey m cur = key /\ oknx m cs b nx
    | D2 b h key sv cur nx =>
      h = hf key /\ b = bucket_of key /\ okprev m cs b h key sv /\ oknode m cs b cur /\ nkey m cur = key /\
      nmark m cur = true /\ nnext m cur = nx /\ is_some2 w
    | N1 | X1 => icur <> 0
    | N2 nx | X2 nx => icur <> 0 /\ oknx m cs ib nx
    | X3 nx => icur <> 0 /\ nmark m icur = true /\ nnext m icur = nx
    end.

  Definition T (st : state) (cs : N -> list N) (t : nat) : Prop :=
    let i := its st t in
    Tw (sm st) cs (g_lp st t) (it_b i) (it_sv i) (it_cur i) (th st t) /\ IT0 (sm st) cs (it_b i) (it_sv i) (it_cur i).

  Definition fresh_of_k (c : fk) : option N :=
    match c with KIns n _ => Some n | KGet n _ => if n =? 0 then None else Some n | _ => None end.
  Definition fresh_of (p : pc) : option N :=
    match p with
    | F1 c _ _ _ _ | F2 c _ _ _ _ _ _ | F3 c _ _ _ _ _ _ | F4 c _ _ _ _ _ _ | F5 c _ _ _ _ _ _ _ | F6 c _ _ _ _ _ _ _ _ => fresh_of_k c
    | E1 _ n _ _ _ _ _ _ | E2 _ n _ _ _ _ _ _ => Some n
    | _ => None
    end.

  (** unlinked new nodes of different threads are different *)
  Definition U (f : nat -> pc) : Prop :=
    forall t t' n, t <> t' -> fresh_of (f t) = Some n -> fresh_of (f t') = Some n -> False.

  Definition Inv (st : state) : Prop :=
    exists cs, G (sm st) cs /\ (forall t, T st cs t) /\ U (th st).

  Lemma U_upd f t p : U f ->
    (forall n, fresh_of p = Some n -> forall t', t' <> t -> fresh_of (f t') <> Some n) ->
    U (upd f t p).
  Proof.
    intros HU Hp a b n Hab Ha Hb.
    destruct (Nat.eq_dec a t) as [->|Ha']; destruct (Nat.eq_dec b t) as [->|Hb'].
    - congruence.
    - rewrite upd_same in Ha. rewrite upd_other in Hb by exact Hb'. exact (Hp n Ha b Hb' Hb).
    - rewrite upd_same in Hb. rewrite upd_other in Ha by exact Ha'. exact (Hp n Hb a Ha' Ha).
    - rewrite upd_other in Ha by assumption. rewrite upd_other in Hb by assumption.
      exact (HU a b n Hab Ha Hb).
  Qed.

  Lemma U_upd_same f t p : U f -> (fresh_of p = None \/ fresh_of p = fresh_of (f t)) -> U (upd f t p).
  Proof.
    intros HU Hp. apply U_upd; [exact HU|]. intros n Hn t' Hne Hc.
    destruct Hp as [Hp|Hp]; [congruence|]. rewrite Hp in Hn. exact (HU t' t n Hne Hc Hn).
  Qed.

  (** ** monotonicity of the memory between two states (with chains [cs], [cs']);
      [sp] is a node excepted from the preservation of unlinked new nodes (0 if none) *)
  Record mono (m : mem) (cs : N -> list N) (m' : mem) (cs' : N -> list N) (sp : N) : Prop := mkMono {
    M_known : forall x, known m cs x -> known m' cs' x;
    M_key : forall x, x < nalloc m -> nkey m' x = nkey m x /\ nval m' x = nval m x /\ nhash m' x = nhash m x;
    M_mark : forall x, nmark m x = true -> nmark m' x = true /\ nnext m' x = nnext m x;
    M_alloc : nalloc m <= nalloc m';
    M_fresh : forall n, n < nalloc m -> ~ known m cs n -> n <> sp ->
              ~ known m' cs' n /\ nnext m' n = nnext m n;
    M_pre : forall b h k sv, okref m cs b sv -> pre m (0 :: cs b) h k sv -> pre m' (0 :: cs' b) h k sv
  }.

  Section Stable.
    Variables (m : mem) (cs : N -> list N) (m' : mem) (cs' : N -> list N) (sp : N).
    Hypothesis HG : G m cs.
    Hypothesis HM : mono m cs m' cs' sp.

    Lemma st_key x : known m cs x -> nkey m' x = nkey m x /\ nval m' x = nval m x /\ nhash m' x = nhash m x.
    Proof. intros Hk. apply (M_key _ _ _ _ _ HM). apply (G_bound _ _ HG). exact Hk. Qed.
    Lemma st_bk x : known m cs x -> bk m' x = bk m x.
    Proof. intros Hk. unfold bk. rewrite (proj1 (st_key x Hk)). reflexivity. Qed.
    Lemma st_gef h k x : known m cs x -> gef m' h k x = gef m h k x.
    Proof. intros Hk. destruct (st_key x Hk) as (H1 & _ & H3). apply gef_frame; assumption. Qed.
    Lemma st_nh x : known m cs x -> nh m' x = nh m x.
    Proof. intros Hk. destruct (st_key x Hk) as (H1 & _ & H3). apply nh_frame; assumption. Qed.

    Lemma okref_mono b sv : okref m cs b sv -> okref m' cs' b sv.
    Proof.
      intros [H | [H1 H2]]; [left; exact H | right]. split; [apply (M_known _ _ _ _ _ HM); exact H1|].
      rewrite st_bk; assumption.
    Qed.
    Lemma okprev_mono b h k sv : okprev m cs b h k sv -> okprev m' cs' b h k sv.
    Proof. intros [H1 H2]. split; [apply okref_mono; exact H1 | apply (M_pre _ _ _ _ _ HM); assumption]. Qed.
    Lemma oknode_mono b x : oknode m cs b x -> oknode m' cs' b x.
    Proof.
      intros (H0 & H1 & H2). split; [exact H0|]. split; [apply (M_known _ _ _ _ _ HM); exact H1|].
      rewrite st_bk; assumption.
    Qed.
    Lemma oknx_mono b x : oknx m cs b x -> oknx m' cs' b x.
    Proof. intros [H | H]; [left; exact H | right; apply oknode_mono; exact H]. Qed.
    Lemma fresh_mono key n : n <> sp -> fresh m cs key n ->
      fresh m' cs' key n /\ nnext m' n = nnext m n /\ nval m' n = nval m n.
    Proof.
      intros Hsp (Hnz & Hlt & Hnk & Hkey).
      destruct (M_fresh _ _ _ _ _ HM n Hlt Hnk Hsp) as [Hnk' Hnx].
      destruct (M_key _ _ _ _ _ HM n Hlt) as (H1 & H2 & _).
      split; [|split; assumption]. split; [exact Hnz|]. split; [pose proof (M_alloc _ _ _ _ _ HM); lia|].
      split; [exact Hnk' | congruence].
    Qed.
    Lemma curc_mono b h key cur : (cur <> 0 -> oknode m cs b cur /\ gef m h key cur = true /\ nkey m cur <> key) ->
      cur <> 0 -> oknode m' cs' b cur /\ gef m' h key cur = true /\ nkey m' cur <> key.
    Proof.
      intros H Hnz. destruct (H Hnz) as (H1 & H2 & H3). split; [apply oknode_mono; exact H1|].
      destruct H1 as (_ & Hk & _). rewrite st_gef by exact Hk. rewrite (proj1 (st_key _ Hk)). auto.
    Qed.
    Lemma IT0_mono ib isv icur : IT0 m cs ib isv icur -> IT0 m' cs' ib isv icur.
    Proof.
      intros [H1 H2]. split; [apply okref_mono; exact H1|]. intros Hnz. destruct (H2 Hnz) as [H3 H4].
      split; [|apply oknode_mono; exact H4]. destruct H4 as (_ & H5 & _).
      rewrite st_nh, (proj1 (st_key _ H5)) by exact H5. apply (M_pre _ _ _ _ _ HM); assumption.
    Qed.

    Lemma cont_ok_mono w ib icur c b h key :
      (forall n, fresh_of_k c = Some n -> n <> sp) ->
      cont_ok m cs w ib icur c b h key -> (icur <> 0 -> known m cs icur) -> cont_ok m' cs' w ib icur c b h key.
    Proof.
      intros Hsp H Hic. destruct c as [n v|n v| | | | | |o|o]; cbn [cont_ok fresh_of_k] in *; try exact I; try exact H.
      - destruct H as [H1 H2]. destruct (fresh_mono key n (Hsp _ eq_refl) H1) as (H3 & _ & H4). split; [exact H3 | congruence].
      - destruct H as [H | [H1 H2]]; [left; exact H | right].
        assert (Hne : n <> sp). { apply Hsp. destruct (N.eqb_spec n 0) as [->|_]; [destruct H1 as [H1 _]; contradiction | reflexivity]. }
        destruct (fresh_mono key n Hne H1) as (H3 & _ & H4). split; [exact H3 | congruence].
      - destruct H as (H1 & H2 & H3 & H4 & H5). subst o. specialize (Hic H2).
        repeat split; try assumption; [apply (M_mark _ _ _ _ _ HM); exact H3 | rewrite (proj1 (st_key _ Hic)); exact H4].
      - destruct H as (H1 & H2 & H3 & H4 & H5). subst o. specialize (Hic H2).
        repeat split; try assumption; [apply (M_mark _ _ _ _ _ HM); exact H3 | rewrite (proj1 (st_key _ Hic)); exact H4].
    Qed.

    (** generic stability of the per-thread part *)
    Lemma Tw_stable w ib isv icur p :
      (forall n, fresh_of p = Some n -> n <> sp) -> (icur <> 0 -> known m cs icur) ->
      Tw m cs w ib isv icur p -> Tw m' cs' w ib isv icur p.
    Proof.
      intros Hsp Hic HT.
      assert (Hfc : forall c b h key, (forall n, fresh_of_k c = Some n -> n <> sp) ->
                fcom m cs w ib icur c b h key -> fcom m' cs' w ib icur c b h key).
      { intros c b h key Hs (H1 & H2 & H3). split; [exact H1|]. split; [exact H2|]. eapply cont_ok_mono; eauto. }
      assert (Hkey : forall b x, oknode m cs b x -> nkey m' x = nkey m x /\ nval m' x = nval m x).
      { intros b x (_ & Hk & _). destruct (st_key x Hk) as (H1 & H2 & _). auto. }
      pose proof curc_mono as Hcur.
      assert (Hmk : forall x, nmark m x = true -> nmark m' x = true) by (intros x Hx; exact (proj1 (M_mark _ _ _ _ _ HM x Hx))).
      assert (Hmn : forall x y, nmark m x = true -> nnext m x = y -> nnext m' x = y)
        by (intros x y Hx <-; exact (proj2 (M_mark _ _ _ _ _ HM x Hx))).
      pose proof okprev_mono as Hop. pose proof oknode_mono as Hon. pose proof oknx_mono as Hnx.
      destruct p; cbn [Tw fresh_of] in *; try exact I; try exact HT.
      7: { (* E1 *) destruct HT as ((H1 & H1v) & H2 & H3 & H4 & H5).
           destruct (fresh_mono key n (Hsp _ eq_refl) H1) as (H6 & _ & H6v).
           split; [split; [exact H6 | congruence]|]. eauto 8. }
      7: { (* E2 *) destruct HT as ((H1 & H1v) & H2 & H3 & H4 & H5 & H7).
           destruct (fresh_mono key n (Hsp _ eq_refl) H1) as (H6 & H8 & H6v).
           split; [split; [exact H6 | congruence]|]. split; [exact H2|]. split; [exact H3|]. split; [auto|]. split; [eauto | congruence]. }
      (* the other program points: each conjunct moves by one of the facts above; keys and values of [cur] are those of [m] *)
      all: repeat match goal with H : _ /\ _ |- _ => destruct H end;
        try match goal with H : oknode m cs _ _ |- _ => destruct (Hkey _ _ H) as [Hk1 Hk2]; rewrite ?Hk1, ?Hk2 end;
        repeat (split; [solve [eauto]|]); eauto.
    Qed.
  End Stable.

  Lemma mono_refl m cs : mono m cs m cs 0.
  Proof. constructor; auto. lia. Qed.

  (** what a step does to the memory: [G] holds again, for chains [cs'], the memory moved monotonically, [l] are the
      new linearization events (used by the step cases here and by Proof/HmmItInv.v) *)
  Definition ext (m : mem) (cs : N -> list N) (m' : mem) (cs' : N -> list N) (sp : N) (l : list lev) : Prop :=
    G m' cs' /\ mono m cs m' cs' sp /\ g_lin m' = g_lin m ++ l /\ (forall x, In x (g_retired m) -> In x (g_retired m')).

  Lemma ext_refl m cs : G m cs -> ext m cs m cs 0 [].
  Proof. intros HG. split; [exact HG|]. split; [apply mono_refl|]. split; [rewrite app_nil_r; reflexivity | auto]. Qed.

  (** * Facts about the chains *)

  Lemma split_facts (nx : N -> N) (Rel : N -> N -> Prop) c sv :
    linksto nx c 0 -> StronglySorted Rel c -> NoDup c -> In sv c ->
    exists c1 c2, c = c1 ++ sv :: c2 /\ nx sv = hd 0 c2 /\
      linksto nx c1 sv /\ linksto nx c2 0 /\
      StronglySorted Rel c1 /\ StronglySorted Rel c2 /\
      (forall x, In x c1 -> Rel x sv) /\ (forall y, In y c2 -> Rel sv y) /\
      (forall x y, In x c1 -> In y c2 -> Rel x y) /\
      ~ In sv c1 /\ ~ In sv c2.
  Proof.
    intros HL HS HN Hin. destruct (in_split _ _ Hin) as (c1 & c2 & E). exists c1, c2.
    rewrite E in HL, HS, HN. apply linksto_app in HL. cbn [hd HmlInv.linksto] in HL. destruct HL as (HL1 & HL2 & HL3).
    apply SS_app_inv in HS. destruct HS as (HS1 & HS2 & HS3).
    apply SS_cons_inv in HS2. destruct HS2 as [HS2 HS4].
    apply NoDup_remove_2 in HN.
    split; [exact E|]. split; [exact HL2|]. split; [exact HL1|]. split; [exact HL3|].
    split; [exact HS1|]. split; [exact HS2|].
    split; [intros x Hx; apply HS3; [exact Hx | left; reflexivity]|].
    split; [exact HS4|].
    split; [intros x y Hx Hy; apply HS3; [exact Hx | right; exact Hy]|].
    split; intros Hc; apply HN; apply in_or_app; [left | right]; exact Hc.
  Qed.

  Lemma G_nodup m cs b : G m cs -> NoDup (0 :: cs b).
  Proof. intros HG. eapply SS_NoDup; [apply (R_irr m) | exact (G_sorted _ _ HG b)]. Qed.

  Lemma chain_nz m cs b x : G m cs -> In x (cs b) -> x <> 0.
  Proof.
    intros HG Hx. pose proof (G_sorted _ _ HG b) as HS. apply SS_cons_inv in HS. destruct HS as [_ HS].
    exact (proj1 (HS _ Hx)).
  Qed.

  Lemma known_chain m cs b x : G m cs -> In x (cs b) -> known m cs x.
  Proof. intros HG Hx. left. rewrite (G_bk _ _ HG b x Hx). exact Hx. Qed.

  Lemma known_nz m cs x : G m cs -> known m cs x -> x <> 0.
  Proof.
    intros HG [H | H]; [eapply chain_nz; eassumption|]. intros ->. exact (G_ret_nz _ _ HG H).
  Qed.

  Lemma chain_bound m cs b x : G m cs -> In x (cs b) -> x < nalloc m.
  Proof. intros HG Hx. apply (G_bound _ _ HG). eapply known_chain; eassumption. Qed.

  Lemma unmarked_in_chain m cs x : G m cs -> known m cs x -> nmark m x = false -> In x (cs (bk m x)).
  Proof.
    intros HG [Hk | Hk] Hm; [exact Hk|]. rewrite (G_ret_marked _ _ HG _ Hk) in Hm. discriminate.
  Qed.

  Lemma pmark_nz m x : x <> 0 -> pmark m x = nmark m x.
  Proof. intros H. unfold pmark. destruct (N.eqb_spec x 0); [contradiction | reflexivity]. Qed.
  Lemma pnext_nz m b x : x <> 0 -> pnext m b x = nnext m x.
  Proof. intros H. unfold pnext. destruct (N.eqb_spec x 0); [contradiction | reflexivity]. Qed.

  Lemma ref_in_chain m cs b sv : G m cs -> okref m cs b sv -> pmark m sv = false -> In sv (0 :: cs b).
  Proof.
    intros HG [-> | [Hk Hb]] Hm; [left; reflexivity|]. right. rewrite <- Hb.
    apply unmarked_in_chain; [exact HG | exact Hk|]. rewrite <- pmark_nz; [exact Hm | eapply known_nz; eassumption].
  Qed.

  Lemma valid_true m b sv x : valid m b sv x = true -> pnext m b sv = x /\ pmark m sv = false.
  Proof.
    unfold valid. intros H. apply andb_prop in H. destruct H as [H1 H2]. apply N.eqb_eq in H1.
    destruct (pmark m sv); [discriminate | auto].
  Qed.
  (** a successful validation of [prev]: the node [sv] is still in its chain and points to [x] *)
  Lemma valid_chain m cs b sv x : G m cs -> okref m cs b sv -> valid m b sv x = true ->
    In sv (0 :: cs b) /\ pnext m b sv = x /\ pmark m sv = false.
  Proof.
    intros HG Hr Hv. apply valid_true in Hv. destruct Hv as [Hn Hm].
    split; [exact (ref_in_chain _ _ _ _ HG Hr Hm) | split; assumption].
  Qed.

  Lemma node_in_chain m cs b x : G m cs -> oknode m cs b x -> nmark m x = false -> In x (cs b).
  Proof. intros HG (_ & Hk & Hb) Hm. rewrite <- Hb. apply unmarked_in_chain; assumption. Qed.

  Lemma okref_chain m cs b sv : G m cs -> In sv (0 :: cs b) -> okref m cs b sv.
  Proof.
    intros HG [<- | H]; [left; reflexivity | right]. split; [eapply known_chain; eassumption | exact (G_bk _ _ HG b sv H)].
  Qed.
  Lemma oknode_chain m cs b x : G m cs -> In x (cs b) -> oknode m cs b x.
  Proof.
    intros HG H. split; [eapply chain_nz; eassumption|]. split; [eapply known_chain; eassumption | exact (G_bk _ _ HG b x H)].
  Qed.

  Lemma chain_split m cs b sv : G m cs -> In sv (0 :: cs b) ->
    exists c1 c2, 0 :: cs b = c1 ++ sv :: c2 /\ pnext m b sv = hd 0 c2 /\
      linksto (pnext m b) c1 sv /\ linksto (pnext m b) c2 0 /\
      StronglySorted (R m) c1 /\ StronglySorted (R m) c2 /\
      (forall x, In x c1 -> R m x sv) /\ (forall y, In y c2 -> R m sv y) /\
      (forall x y, In x c1 -> In y c2 -> R m x y) /\
      ~ In sv c1 /\ ~ In sv c2.
  Proof.
    intros HG Hin. apply split_facts; [exact (G_links _ _ HG b) | exact (G_sorted _ _ HG b) | exact (G_nodup _ _ b HG) | exact Hin].
  Qed.

  Lemma chain_next_in m cs b x : G m cs -> In x (0 :: cs b) -> pnext m b x <> 0 -> In (pnext m b x) (cs b).
  Proof.
    intros HG Hin Hnz. destruct (chain_split _ _ _ _ HG Hin) as (c1 & c2 & E & Hn & _).
    destruct c2 as [|y r]; cbn [hd] in Hn; [contradiction|].
    assert (H : In y (0 :: cs b)) by (rewrite E; apply in_or_app; right; right; left; reflexivity).
    rewrite Hn. destruct H as [H | H]; [congruence | exact H].
  Qed.

  (** the successor of a linked or retired node is null or a node of the same bucket *)
  Lemma closed_nx m cs b x : G m cs -> oknode m cs b x -> oknx m cs b (nnext m x).
  Proof.
    intros HG (Hnz & Hk & Hb). destruct (G_closed _ _ HG x Hk) as [H | [H1 H2]]; [left; exact H | right].
    split; [eapply known_nz; eassumption|]. split; [exact H1 | congruence].
  Qed.
  Lemma closed_ref m cs b sv : G m cs -> okref m cs b sv -> pmark m sv = false -> oknx m cs b (pnext m b sv).
  Proof.
    intros HG Hr Hm. pose proof (ref_in_chain _ _ _ _ HG Hr Hm) as Hin.
    destruct (N.eq_dec (pnext m b sv) 0) as [Hz|Hz]; [left; exact Hz | right].
    apply oknode_chain; [exact HG|]. apply chain_next_in; assumption.
  Qed.

  Lemma chain_key_inj m cs b x y : G m cs -> In x (cs b) -> In y (cs b) -> nkey m x = nkey m y -> x = y.
  Proof.
    intros HG Hx Hy Hk.
    assert (Hle : forall a c, In a (cs b) -> In c (cs b) -> nkey m a = nkey m c -> le2 m a c = true).
    { intros a c Ha Hc E. unfold le2, HmmDefs.nh, HmmDefs.gef.
      rewrite (G_hash _ _ HG a), (G_hash _ _ HG c), E;
        try (eapply chain_nz; eassumption); try (eapply chain_bound; eassumption). destruct memo, lex; rewrite ?N.eqb_refl; lia. }
    destruct (chain_split _ _ _ _ HG (or_intror Hx)) as (c1 & c2 & E & _ & _ & _ & _ & _ & HR1 & HR2 & _).
    assert (Hy' : In y (c1 ++ x :: c2)) by (rewrite <- E; right; exact Hy).
    apply in_app_or in Hy'. destruct Hy' as [Hy' | [Hy' | Hy']].
    - destruct (HR1 _ Hy') as [_ [H0 | Hlt]]; [exfalso; exact (chain_nz _ _ _ _ HG Hy H0)|].
      rewrite Hle in Hlt; [discriminate | assumption | assumption | exact Hk].
    - exact Hy'.
    - destruct (HR2 _ Hy') as [_ [H0 | Hlt]]; [exfalso; exact (chain_nz _ _ _ _ HG Hx H0)|].
      rewrite Hle in Hlt; [discriminate | assumption | assumption | symmetry; exact Hk].
  Qed.

  (** the searched key is not in the chain when the prefix up to [sv] is below it and the successor of [sv]
      is null or greater *)
  Lemma not_in_chain m cs b sv cur key : G m cs -> In sv (0 :: cs b) -> pnext m b sv = cur ->
    pre m (0 :: cs b) (hf key) key sv -> (cur <> 0 -> gef m (hf key) key cur = true /\ nkey m cur <> key) ->
    forall x, In x (cs b) -> nkey m x <> key.
  Proof.
    intros HG Hin Hn Hpre Hhi x Hx Hxk.
    assert (Hxnz : x <> 0) by (eapply chain_nz; eassumption).
    assert (Hge : gef m (hf key) key x = true).
    { apply gef_key; [exact Hxk|]. rewrite (G_hash _ _ HG x Hxnz), Hxk; [reflexivity | eapply chain_bound; eassumption]. }
    destruct (chain_split _ _ _ _ HG Hin) as (c1 & c2 & E & Hn' & _ & _ & _ & HS2 & _ & HR2 & _ & Hsv1 & _).
    specialize (Hpre Hin). rewrite E, (upto_app_notin _ _ _ Hsv1) in Hpre. cbn [upto] in Hpre. rewrite N.eqb_refl in Hpre.
    assert (Hx' : In x (c1 ++ sv :: c2)) by (rewrite <- E; right; exact Hx).
    apply in_app_or in Hx'. destruct Hx' as [Hx' | [Hx' | Hx']].
    - rewrite Hpre in Hge; [discriminate | apply in_or_app; left; exact Hx' | exact Hxnz].
    - rewrite Hpre in Hge; [discriminate | apply in_or_app; right; left; exact Hx' | exact Hxnz].
    - destruct c2 as [|y r]; [destruct Hx'|]. cbn [hd] in Hn'. rewrite Hn in Hn'. subst y.
      destruct (HR2 cur (or_introl eq_refl)) as [Hcnz _]. destruct (Hhi Hcnz) as [Hc1 Hc2].
      destruct Hx' as [<- | Hx']; [contradiction|].
      apply SS_cons_inv in HS2. destruct HS2 as [_ HS2]. destruct (HS2 _ Hx') as [_ [H0 | Hlt]]; [contradiction|].
      (* x <= cur would follow from (h,k) <= cur and x carrying (h,k) *)
      unfold le2 in Hlt. replace (nh m x) with (hf key) in Hlt.
      + rewrite Hxk, Hc1 in Hlt. discriminate.
      + unfold HmmDefs.nh. rewrite Hxk. destruct memo; [|reflexivity].
        rewrite (G_hash _ _ HG x Hxnz), Hxk; [reflexivity | eapply chain_bound; eassumption].
  Qed.

  Lemma abs_in m cs x : G m cs -> In x (cs (bk m x)) -> nmark m x = false -> In (nkey m x, nval m x) (g_abs m).
  Proof. intros HG H1 H3. apply (G_abs _ _ HG). exists x. auto. Qed.

  Lemma abs_lookup m cs x : G m cs -> In x (cs (bk m x)) -> nmark m x = false -> lookup (nkey m x) (g_abs m) = Some (nval m x).
  Proof. intros HG H1 H3. apply lookup_nodup; [exact (G_abs_nodup _ _ HG) | eapply abs_in; eassumption]. Qed.

  Lemma absent m cs b sv cur key : G m cs -> b = bucket_of key -> In sv (0 :: cs b) -> pnext m b sv = cur ->
    pre m (0 :: cs b) (hf key) key sv -> (cur <> 0 -> gef m (hf key) key cur = true /\ nkey m cur <> key) ->
    lookup key (g_abs m) = None.
  Proof.
    intros HG -> Hsv Hn Hpre Hhi. apply lookup_none. intros Hc. apply in_keys in Hc. destruct Hc as (v & Hc).
    apply (G_abs _ _ HG) in Hc. destruct Hc as (x & H1 & _ & H4 & _).
    exact (not_in_chain _ _ _ _ _ _ HG Hsv Hn Hpre Hhi x H1 H4).
  Qed.

  Lemma absent_prev m cs b sv cur key : G m cs -> b = bucket_of key -> okprev m cs b (hf key) key sv ->
    valid m b sv cur = true -> (cur <> 0 -> gef m (hf key) key cur = true /\ nkey m cur <> key) ->
    lookup key (g_abs m) = None.
  Proof.
    intros HG Hb [Hr Hpre] Hv Hhi. destruct (valid_chain _ _ _ _ _ HG Hr Hv) as (Hsv & Hn & _).
    exact (absent m cs b sv cur key HG Hb Hsv Hn Hpre Hhi).
  Qed.

  (** sortedness gives the prefix property for every node of the chain behind [sv] *)
  Lemma pre_sorted m cs b sv y : G m cs -> In sv (0 :: cs b) -> In y (cs b) ->
    (forall c1 c2, 0 :: cs b = c1 ++ sv :: c2 -> In y c2) -> pre m (0 :: cs b) (nh m y) (nkey m y) sv.
  Proof.
    intros HG Hsv Hy Hafter _ x Hx Hxnz.
    destruct (chain_split _ _ _ _ HG Hsv) as (c1 & c2 & E & _ & _ & _ & _ & _ & _ & HR2 & HR3 & Hsv1 & _).
    specialize (Hafter _ _ E). rewrite E, (upto_app_notin _ _ _ Hsv1) in Hx. cbn [upto] in Hx. rewrite N.eqb_refl in Hx.
    apply in_app_or in Hx. destruct Hx as [Hx | [<- | []]].
    - destruct (HR3 _ _ Hx Hafter) as [_ [H0 | H]]; [contradiction | exact H].
    - destruct (HR2 _ Hafter) as [_ [H0 | H]]; [contradiction | exact H].
  Qed.

  (** * Fields of the transformed memories *)

  Lemma sp_nkey m b sv v : nkey (set_prev m b sv v) = nkey m.
  Proof. unfold set_prev. destruct (sv =? 0); reflexivity. Qed.
  Lemma sp_nval m b sv v : nval (set_prev m b sv v) = nval m.
  Proof. unfold set_prev. destruct (sv =? 0); reflexivity. Qed.
  Lemma sp_nhash m b sv v : nhash (set_prev m b sv v) = nhash m.
  Proof. unfold set_prev. destruct (sv =? 0); reflexivity. Qed.
  Lemma sp_nmark m b sv v : nmark (set_prev m b sv v) = nmark m.
  Proof. unfold set_prev. destruct (sv =? 0); reflexivity. Qed.
  Lemma sp_nalloc m b sv v : nalloc (set_prev m b sv v) = nalloc m.
  Proof. unfold set_prev. destruct (sv =? 0); reflexivity. Qed.
  Lemma sp_nnext_other m b sv v x : (sv <> 0 -> x <> sv) -> nnext (set_prev m b sv v) x = nnext m x.
  Proof.
    intros H. unfold set_prev. destruct (N.eqb_spec sv 0) as [_|Hz]; [reflexivity|]. apply setf_other. exact (H Hz).
  Qed.
  Lemma sp_pnext_same m b sv v : pnext (set_prev m b sv v) b sv = v.
  Proof.
    unfold pnext, set_prev. destruct (N.eqb_spec sv 0) as [->|H]; cbn [bhead nnext]; apply setf_same.
  Qed.
  Lemma sp_pnext_other m b sv v b' x : (x <> sv \/ (sv = 0 /\ b' <> b)) -> pnext (set_prev m b sv v) b' x = pnext m b' x.
  Proof.
    intros H. unfold pnext, set_prev. destruct (N.eqb_spec sv 0) as [->|Hsv]; cbn [bhead nnext].
    - destruct (N.eqb_spec x 0) as [->|Hx]; [|reflexivity]. apply setf_other. destruct H as [H | [_ H]]; [contradiction | exact H].
    - destruct (N.eqb_spec x 0) as [->|Hx]; [reflexivity|]. apply setf_other. destruct H as [H | [H _]]; [exact H | contradiction].
  Qed.

  (** [R], [bk], [gef], [pre] depend on keys and hashes only *)
  Lemma R_ext m m' : nkey m' = nkey m -> nhash m' = nhash m -> forall x y, R m' x y <-> R m x y.
  Proof. intros E1 E2 x y. unfold R, le2, HmmDefs.nh, HmmDefs.gef. rewrite E1, E2. tauto. Qed.
  Lemma bk_ext m m' : nkey m' = nkey m -> forall x, bk m' x = bk m x.
  Proof. intros E x. unfold bk. rewrite E. reflexivity. Qed.
  Lemma pre_ext m m' c h k sv : nkey m' = nkey m -> nhash m' = nhash m -> pre m' c h k sv <-> pre m c h k sv.
  Proof. intros E1 E2. unfold pre, HmmDefs.gef. rewrite E1, E2. tauto. Qed.
  Lemma known_ext m m' cs : nkey m' = nkey m -> g_retired m' = g_retired m -> forall x, known m' cs x <-> known m cs x.
  Proof. intros E1 E2 x. unfold known, bk. rewrite E1, E2. tauto. Qed.

  Lemma hd_zero_cons (c1 : list N) sv c2 l mid : c1 ++ sv :: c2 = 0 :: l -> c1 ++ sv :: mid = 0 :: tl (c1 ++ sv :: mid).
  Proof. destruct c1 as [|a c1]; cbn [app tl]; intros E; injection E as -> _; reflexivity. Qed.

  (** * Preservation of the global part by the memory-changing steps *)

  (** steps that leave the allocated nodes alone, except for the next field of the unlinked node [sp] *)
  Lemma frame_step m cs m' sp : G m cs -> nalloc m <= nalloc m' -> bhead m' = bhead m ->
    (forall x, x < nalloc m -> nkey m' x = nkey m x /\ nval m' x = nval m x /\ nhash m' x = nhash m x) ->
    (forall x, nmark m' x = nmark m x) ->
    (forall x, x < nalloc m -> known m cs x \/ x <> sp -> nnext m' x = nnext m x) ->
    (forall x, x <> 0 -> nalloc m <= x -> x < nalloc m' -> nhash m' x = hf (nkey m' x)) ->
    g_abs m' = g_abs m -> g_lin m' = g_lin m -> g_retired m' = g_retired m -> ext m cs m' cs sp [].
  Proof.
    intros HG Ha Eb Hf Hmk Hn Hh Eabs Elin Eret.
    pose proof (G_bound _ _ HG) as Hb.
    assert (Hk : forall x, known m cs x -> nkey m' x = nkey m x) by (intros x Hx; apply Hf, Hb, Hx).
    assert (Hv : forall x, known m cs x -> nval m' x = nval m x) by (intros x Hx; apply Hf, Hb, Hx).
    assert (Hbk : forall x, known m cs x -> bk m' x = bk m x) by (intros x Hx; unfold bk; rewrite Hk by exact Hx; reflexivity).
    assert (Hkn : forall x, known m' cs x <-> known m cs x).
    { intros x. unfold known. rewrite Eret. split; (intros [H | H]; [|right; exact H]).
      - eapply known_chain; eassumption.
      - left. rewrite Hbk by (left; exact H). exact H. }
    assert (Hnx : forall x, known m cs x -> nnext m' x = nnext m x) by (intros x Hx; apply Hn; [apply Hb, Hx | left; exact Hx]).
    assert (Hlt : forall b x, In x (0 :: cs b) -> x < nalloc m).
    { intros b x [<- | Hx]; [exact (G_pos _ _ HG) | eapply chain_bound; eassumption]. }
    assert (Hgef : forall h k x, x < nalloc m -> gef m' h k x = gef m h k x).
    { intros h k x Hx. destruct (Hf x Hx) as (H1 & _ & H3). apply gef_frame; assumption. }
    split; [|split; [|split; [rewrite Elin, app_nil_r; reflexivity | rewrite Eret; auto]]]; constructor.
    - intros b. eapply linksto_ext; [|exact (G_links _ _ HG b)]. intros x Hx. unfold pnext. rewrite Eb.
      destruct (N.eqb_spec x 0) as [_|Hz]; [reflexivity|]. apply Hnx.
      destruct Hx as [Hx | Hx]; [congruence | eapply known_chain; eassumption].
    - intros b. eapply SS_ext; [|exact (G_sorted _ _ HG b)]. intros x y Hx Hy [H1 H2]. split; [exact H1|].
      destruct H2 as [H2 | H2]; [left; exact H2 | right]. unfold le2.
      destruct (Hf y (Hlt b y Hy)) as (E1 & _ & E3). rewrite (nh_frame m m' y E1 E3), E1, Hgef by exact (Hlt b x Hx). exact H2.
    - intros b x Hx. rewrite Hbk by (eapply known_chain; eassumption). exact (G_bk _ _ HG b x Hx).
    - rewrite Eret. exact (G_ret_nodup _ _ HG).
    - rewrite Eret. exact (G_ret_nz _ _ HG).
    - rewrite Eret. exact (G_disj _ _ HG).
    - intros x Hx. apply Hkn, Hb in Hx. lia.
    - pose proof (G_pos _ _ HG). lia.
    - intros x Hx. rewrite Hmk in Hx. apply Hkn, (G_marked_known _ _ HG), Hx.
    - intros x Hx. rewrite Eret in Hx. rewrite Hmk. exact (G_ret_marked _ _ HG x Hx).
    - intros x Hx. apply Hkn in Hx. rewrite Hnx by exact Hx.
      destruct (G_closed _ _ HG x Hx) as [H | [H1 H2]]; [left; exact H | right].
      split; [apply Hkn; exact H1|]. rewrite !Hbk by assumption. exact H2.
    - intros x Hnz Hx. destruct (N.lt_ge_cases x (nalloc m)) as [Hl | Hg]; [|apply Hh; assumption].
      destruct (Hf x Hl) as (-> & _ & ->). apply (G_hash _ _ HG); assumption.
    - rewrite Eabs. exact (G_abs_nodup _ _ HG).
    - intros k v. rewrite Eabs, (G_abs _ _ HG). split; intros (x & H1 & H2 & H3 & H4); exists x;
        pose proof (known_chain _ _ _ _ HG H1) as Hx; rewrite Hmk, (Hk x Hx), (Hv x Hx) in *; auto.
    - rewrite Eabs, Elin. exact (G_fold _ _ HG).
    - intros t k v n Hi. rewrite Elin in Hi. destruct (G_lins _ _ HG _ _ _ _ Hi) as (H1 & H2 & H3).
      rewrite Hk, Hv by exact H1. split; [apply Hkn; exact H1 | auto].
    - intros t k n i Hi. rewrite Elin in Hi. destruct (G_ldel _ _ HG _ _ _ _ Hi) as [H1 H2].
      rewrite Hmk, Hk by (apply (G_marked_known _ _ HG); exact H1). auto.
    - rewrite Elin. exact (G_lins_nodup _ _ HG).
    - rewrite Elin. exact (G_ldel_nodup _ _ HG).
    - intros x Hx. rewrite Elin. rewrite Hmk in Hx. exact (G_marked_del _ _ HG x Hx).
    - intros x Hx. rewrite Elin. apply (G_known_ins _ _ HG), Hkn, Hx.
    - intros x Hx. apply Hkn. exact Hx.
    - exact Hf.
    - intros x Hx. rewrite Hmk. split; [exact Hx|]. apply Hnx, (G_marked_known _ _ HG), Hx.
    - exact Ha.
    - intros n Hl Hnk Hne. split; [rewrite Hkn; exact Hnk | apply Hn; [exact Hl | right; exact Hne]].
    - intros b h k sv _ Hpre Hin x Hxin Hxnz. rewrite Hgef; [apply Hpre; assumption|].
      apply (Hlt b), (upto_incl sv), Hxin.
  Qed.

  (** new node(hash, key, value) *)
  Lemma alloc_step m cs k v : G m cs -> ext m cs (m_alloc m k v) cs 0 [].
  Proof.
    intros HG.
    assert (Hnm : nmark m (nalloc m) = false).
    { destruct (nmark m (nalloc m)) eqn:Hm; [|reflexivity]. apply (G_marked_known _ _ HG), (G_bound _ _ HG) in Hm. lia. }
    apply frame_step; cbn [HmmDefs.m_alloc bhead nkey nval nhash nnext nmark nalloc g_abs g_lin g_retired]; auto.
    - lia.
    - intros x Hx. rewrite !setf_other by lia. auto.
    - intros x. unfold setf. destruct (N.eqb_spec x (nalloc m)) as [->|_]; [symmetry; exact Hnm | reflexivity].
    - intros x Hx _. apply setf_other. lia.
    - intros x _ H1 H2. assert (x = nalloc m) by lia. subst x. rewrite !setf_same. reflexivity.
  Qed.

  (** store to the next field of an unlinked new node *)
  Lemma store_step m cs n v : G m cs -> ~ known m cs n -> ext m cs (m_store m n v) cs n [].
  Proof.
    intros HG Hnk. apply frame_step; cbn [m_store bhead nkey nval nhash nnext nmark nalloc g_abs g_lin g_retired]; auto.
    - apply N.le_refl.
    - intros x _ Hx. apply setf_other. intros ->. destruct Hx as [Hx | Hx]; [exact (Hnk Hx) | exact (Hx eq_refl)].
    - intros x _ H1 H2. lia.
  Qed.

  Lemma upto_insert (c1 : list N) sv n c2 sv0 x : sv0 <> n -> In sv0 (c1 ++ sv :: c2) ->
    In x (upto sv0 (c1 ++ sv :: n :: c2)) ->
    In x (upto sv0 (c1 ++ sv :: c2)) \/
    (x = n /\ exists a r, c2 = a :: r /\ In a (upto sv0 (c1 ++ sv :: c2))).
  Proof.
    intros Hne Hin Hx. destruct (in_dec N.eq_dec sv0 c1) as [H1 | H1].
    - left. rewrite upto_app_in in * by exact H1. exact Hx.
    - rewrite upto_app_notin in * by exact H1. cbn [upto] in *.
      destruct (N.eqb_spec sv sv0) as [E | E]; [left; exact Hx|].
      cbn [upto] in Hx. destruct (N.eqb_spec n sv0) as [E2 | _]; [exfalso; apply Hne; symmetry; exact E2|].
      apply in_app_or in Hx. destruct Hx as [Hx | [Hx | [Hx | Hx]]].
      + left. apply in_or_app. left. exact Hx.
      + left. apply in_or_app. right. left. exact Hx.
      + right. split; [symmetry; exact Hx|].
        apply in_app_or in Hin. destruct Hin as [Hin | [Hin | Hin]]; [contradiction | contradiction|].
        destruct c2 as [|a r]; [destruct Hin|]. exists a, r. split; [reflexivity|].
        apply in_or_app. right. right. apply upto_head.
      + left. apply in_or_app. right. right. exact Hx.
  Qed.

  Lemma upto_remove (c1 : list N) sv d c3 sv0 x : sv0 <> d ->
    In x (upto sv0 (c1 ++ sv :: c3)) -> In x (upto sv0 (c1 ++ sv :: d :: c3)).
  Proof.
    intros Hne Hx. destruct (in_dec N.eq_dec sv0 c1) as [H1 | H1].
    - rewrite upto_app_in in * by exact H1. exact Hx.
    - rewrite upto_app_notin in * by exact H1. cbn [upto] in *.
      destruct (N.eqb_spec sv sv0) as [E | E]; [exact Hx|].
      cbn [upto]. destruct (N.eqb_spec d sv0) as [E2 | _]; [exfalso; apply Hne; symmetry; exact E2|].
      apply in_app_or in Hx. apply in_or_app. destruct Hx as [Hx | [Hx | Hx]]; [left; exact Hx | right; left; exact Hx | right; right; right; exact Hx].
  Qed.

  Lemma tl_in_ins (c1 : list N) sv c2 l n x : c1 ++ sv :: c2 = 0 :: l ->
    (In x (tl (c1 ++ sv :: n :: c2)) <-> x = n \/ In x l).
  Proof.
    destruct c1 as [|a c1]; cbn [app tl]; intros E; injection E as -> <-.
    - cbn [In]. rewrite (eq_comm_iff n x). tauto.
    - rewrite !in_app_iff. cbn [In]. rewrite (eq_comm_iff n x). tauto.
  Qed.
  Lemma tl_in_del (c1 : list N) sv d c3 l x : c1 ++ sv :: d :: c3 = 0 :: l ->
    (In x l <-> x = d \/ In x (tl (c1 ++ sv :: c3))).
  Proof.
    destruct c1 as [|a c1]; cbn [app tl]; intros E; injection E as -> <-.
    - cbn [In]. rewrite (eq_comm_iff d x). tauto.
    - rewrite !in_app_iff. cbn [In]. rewrite (eq_comm_iff d x). tauto.
  Qed.

  (** a write to the prev pointer (b, sv) does not touch the chains of the other buckets *)
  Lemma sp_other_bucket m cs b sv v b' x : G m cs -> In sv (0 :: cs b) -> b' <> b -> In x (0 :: cs b') ->
    pnext (set_prev m b sv v) b' x = pnext m b' x.
  Proof.
    intros HG Hsv Hb Hx. apply sp_pnext_other. destruct (N.eq_dec sv 0) as [Hz|Hz]; [right; auto | left].
    intros ->. destruct Hsv as [Hsv | Hsv]; [congruence|]. destruct Hx as [Hx | Hx]; [congruence|].
    apply Hb. rewrite <- (G_bk _ _ HG _ _ Hx). exact (G_bk _ _ HG _ _ Hsv).
  Qed.

  Lemma nh_hash m cs x : G m cs -> x <> 0 -> x < nalloc m -> nh m x = hf (nkey m x).
  Proof. intros HG H1 H2. unfold HmmDefs.nh. destruct memo; [apply (G_hash _ _ HG); assumption | reflexivity]. Qed.

  (** the successful link CAS of emplace_or_get / get_or_emplace (linearization point of a successful insert) *)
  Lemma link_step m cs t b sv n cur key :
    G m cs -> fresh m cs key n -> bucket_of key = b -> nnext m n = cur ->
    okprev m cs b (hf key) key sv -> valid m b sv cur = true ->
    (cur <> 0 -> oknode m cs b cur /\ gef m (hf key) key cur = true /\ nkey m cur <> key) ->
    lookup key (g_abs m) = None /\
    exists cs', ext m cs (m_link m t b sv n) cs' n [LIns t (nkey m n) (nval m n) n].
  Proof.
    intros HG (Hnnz & Hnlt & Hnk & Hnkey) Hb Hnn Hprev Hv Hcurc.
    assert (Hhi : cur <> 0 -> gef m (hf key) key cur = true /\ nkey m cur <> key) by (intros Hz; exact (proj2 (Hcurc Hz))).
    assert (Habsent : lookup key (g_abs m) = None) by exact (absent_prev m cs b sv cur key HG (eq_sym Hb) Hprev Hv Hhi).
    destruct Hprev as [Hsvr Hpre]. destruct (valid_chain _ _ _ _ _ HG Hsvr Hv) as (Hsv & Hsvn & Hsvm). clear Hcurc Hv Hsvr.
    split; [exact Habsent|].
    set (m' := m_link m t b sv n).
    assert (El : g_lin m' = g_lin m ++ [LIns t (nkey m n) (nval m n) n]) by reflexivity.
    assert (Eab : g_abs m' = (nkey m n, nval m n) :: g_abs m) by reflexivity.
    destruct (chain_split _ _ _ _ HG Hsv) as (c1 & c2 & E & Hn' & HL1 & HL2 & HS1 & HS2 & HR1 & HR2 & HR3 & Hsv1 & Hsv2).
    rewrite Hsvn in Hn'.
    set (newc := c1 ++ sv :: n :: c2).
    assert (E' : newc = 0 :: tl newc) by (symmetry in E; exact (hd_zero_cons _ _ _ _ (n :: c2) E)).
    set (cs' := setf cs b (tl newc)).
    exists cs'.
    assert (Hbkn : bk m n = b) by (unfold bk; rewrite Hnkey; exact Hb).
    assert (Hnhn : nh m n = hf key) by (rewrite (nh_hash _ _ _ HG Hnnz Hnlt), Hnkey; reflexivity).
    assert (Hnc : forall b', ~ In n (cs b')) by (intros b' Hc; apply Hnk; eapply known_chain; eassumption).
    assert (Hnc0 : ~ In n (0 :: cs b)) by (intros [Hc | Hc]; [apply Hnnz; symmetry; exact Hc | exact (Hnc _ Hc)]).
    assert (Hnsv : n <> sv) by (intros ->; contradiction).
    assert (Hcsb : 0 :: cs' b = newc) by (subst cs'; rewrite setf_same; symmetry; exact E').
    assert (Hcso : forall b', b' <> b -> cs' b' = cs b') by (intros b' Hne; subst cs'; apply setf_other; exact Hne).
    assert (Hin : forall b' x, In x (cs' b') <-> (b' = b /\ x = n) \/ In x (cs b')).
    { intros b' x. destruct (N.eq_dec b' b) as [->|Hne].
      - subst cs'. rewrite setf_same. subst newc. rewrite (tl_in_ins c1 sv c2 (cs b) n x (eq_sym E)). tauto.
      - rewrite Hcso by exact Hne. split; [auto | intros [[H _] | H]; [contradiction | exact H]]. }
    assert (Ek : nkey m' = nkey m) by apply sp_nkey.
    assert (Ev : nval m' = nval m) by apply sp_nval.
    assert (Eh : nhash m' = nhash m) by apply sp_nhash.
    assert (Em : nmark m' = nmark m) by apply sp_nmark.
    assert (Ea : nalloc m' = nalloc m) by apply sp_nalloc.
    assert (Hbk : forall x, bk m' x = bk m x) by (apply bk_ext; exact Ek).
    assert (Hkn : forall x, known m' cs' x <-> x = n \/ known m cs x).
    { intros x. unfold known. rewrite Hbk. change (g_retired m') with (g_retired m). rewrite Hin. split.
      - intros [[[_ H] | H] | H]; auto.
      - intros [-> | [H | H]]; auto. }
    assert (Hsvm' : sv <> 0 -> nmark m sv = false) by (intros H; rewrite <- pmark_nz by exact H; exact Hsvm).
    assert (Hnx : forall x, (sv <> 0 -> x <> sv) -> nnext m' x = nnext m x)
      by (intros x Hx; exact (sp_nnext_other m b sv n x Hx)).
    assert (Hpsame : pnext m' b sv = n) by exact (sp_pnext_same m b sv n).
    assert (Hpo : forall x, x <> sv -> pnext m' b x = pnext m b x)
      by (intros x Hx; exact (sp_pnext_other m b sv n b x (or_introl Hx))).
    assert (Hc2 : forall y, In y c2 -> y <> 0 /\ le2 m y n = false).
    { intros y Hy. destruct (HR2 _ Hy) as [Hynz _]. split; [exact Hynz|].
      destruct c2 as [|y0 r]; [destruct Hy|]. cbn [hd] in Hn'. subst y0.
      destruct (HR2 cur (or_introl eq_refl)) as [Hcnz _]. destruct (Hhi Hcnz) as [Hge Hkne].
      assert (Hncur : le2 m n cur = true) by (unfold le2; rewrite Hnhn, Hnkey; exact Hge).
      destruct (le2 m y n) eqn:Hyn; [exfalso | reflexivity].
      destruct Hy as [<- | Hy].
      - apply Hkne. rewrite <- Hnkey. exact (gef_antisym m cur n Hyn Hncur).
      - apply SS_cons_inv in HS2. destruct HS2 as [_ HS2]. destruct (HS2 _ Hy) as [_ [H0 | Hlt]]; [contradiction|].
        unfold le2 in Hlt. rewrite (gef_trans m _ _ n cur Hyn Hncur) in Hlt. discriminate. }
    assert (Hupn : forall x, In x c1 \/ x = sv -> x <> 0 -> le2 m n x = false).
    { intros x Hx Hxnz. unfold le2. rewrite Hnhn, Hnkey. apply (Hpre Hsv); [|exact Hxnz].
      rewrite E, (upto_app_notin _ _ _ Hsv1). cbn [upto]. rewrite N.eqb_refl. apply in_or_app.
      destruct Hx as [Hx | ->]; [left; exact Hx | right; left; reflexivity]. }
    assert (HRe : forall x y, R m x y -> R m' x y) by (intros x y; apply R_ext; assumption).
    split; [|split; [|split; [exact El | auto]]].
    - constructor.
      + intros b'. destruct (N.eq_dec b' b) as [->|Hne].
        * rewrite Hcsb. subst newc. apply linksto_app. cbn [hd HmlInv.linksto]. split; [|split; [|split]].
          -- eapply linksto_ext; [|exact HL1]. intros x Hx. apply Hpo. intros ->. contradiction.
          -- exact Hpsame.
          -- rewrite (pnext_nz m' b n Hnnz), Hnx by (intros _; exact Hnsv). congruence.
          -- eapply linksto_ext; [|exact HL2]. intros x Hx. apply Hpo. intros ->. contradiction.
        * rewrite Hcso by exact Hne. eapply linksto_ext; [|exact (G_links _ _ HG b')]. intros x Hx.
          exact (sp_other_bucket m cs b sv n b' x HG Hsv Hne Hx).
      + intros b'. destruct (N.eq_dec b' b) as [->|Hne].
        * rewrite Hcsb. subst newc. eapply SS_ext; [intros x y _ _; apply HRe|].
          assert (Hsvn' : R m sv n).
          { split; [exact Hnnz|]. destruct (N.eq_dec sv 0) as [H0 | H0]; [left; exact H0 | right; apply Hupn; auto]. }
          apply SS_app; [exact HS1 | |].
          -- apply SS_cons; [apply SS_cons; [exact HS2|]|].
             ++ intros y Hy. destruct (Hc2 _ Hy) as [H1 H2]. split; [exact H1 | right; exact H2].
             ++ intros y [<- | Hy]; [exact Hsvn' | apply HR2; exact Hy].
          -- intros x y Hx [<- | [<- | Hy]]; [apply HR1; exact Hx | | apply HR3; assumption].
             split; [exact Hnnz|]. destruct (N.eq_dec x 0) as [H0 | H0]; [left; exact H0 | right; apply Hupn; auto].
        * rewrite Hcso by exact Hne. eapply SS_ext; [intros x y _ _; apply HRe | exact (G_sorted _ _ HG b')].
      + intros b' x Hx. rewrite Hbk. apply Hin in Hx. destruct Hx as [[-> ->] | Hx]; [exact Hbkn | exact (G_bk _ _ HG _ _ Hx)].
      + exact (G_ret_nodup _ _ HG).
      + exact (G_ret_nz _ _ HG).
      + intros b' x Hx Hr. apply Hin in Hx. destruct Hx as [[_ ->] | Hx].
        * apply Hnk. right. exact Hr.
        * exact (G_disj _ _ HG _ _ Hx Hr).
      + intros x Hx. apply Hkn in Hx. rewrite Ea. destruct Hx as [-> | Hx]; [exact Hnlt | apply (G_bound _ _ HG); exact Hx].
      + rewrite Ea. exact (G_pos _ _ HG).
      + intros x Hx. rewrite Em in Hx. apply Hkn. right. apply (G_marked_known _ _ HG). exact Hx.
      + intros x Hx. rewrite Em. apply (G_ret_marked _ _ HG). exact Hx.
      + assert (Hold : forall x, x = n \/ known m cs x ->
                  nnext m x = 0 \/ (known m' cs' (nnext m x) /\ bk m (nnext m x) = bk m x)).
        { intros x [-> | Hx].
          - rewrite Hnn. destruct (N.eq_dec cur 0) as [Hz|Hz]; [left; exact Hz | right].
            assert (Hcin : In cur (cs b)) by (rewrite <- Hsvn; apply chain_next_in; [exact HG | exact Hsv | congruence]).
            split; [apply Hkn; right; eapply known_chain; eassumption|]. rewrite Hbkn. exact (G_bk _ _ HG _ _ Hcin).
          - destruct (G_closed _ _ HG x Hx) as [H | [H1 H2]]; [left; exact H | right]. split; [apply Hkn; right; exact H1 | exact H2]. }
        intros x Hx. rewrite !Hbk. apply Hkn in Hx.
        destruct (N.eq_dec sv 0) as [Hsz | Hsz]; [|destruct (N.eq_dec x sv) as [->|Hxsv]].
        * rewrite Hnx by (intros H; contradiction). exact (Hold x Hx).
        * right. replace (nnext m' sv) with n by (rewrite <- (pnext_nz m' b sv Hsz); symmetry; exact Hpsame).
          split; [apply Hkn; left; reflexivity|]. rewrite Hbkn. symmetry. destruct Hsv as [Hsv | Hsv]; [congruence | exact (G_bk _ _ HG _ _ Hsv)].
        * rewrite Hnx by (intros _; exact Hxsv). exact (Hold x Hx).
      + intros x H1 H2. rewrite Eh, Ek. rewrite Ea in H2. apply (G_hash _ _ HG); assumption.
      + rewrite Eab; cbn [keys map fst]. constructor; [|exact (G_abs_nodup _ _ HG)].
        rewrite Hnkey. apply lookup_none. exact Habsent.
      + intros k0 v0. rewrite Eab. cbn [In]. rewrite (G_abs _ _ HG), Em, Ek, Ev. split.
        * intros [Hp | (x & H1 & H2 & H3 & H4)].
          -- injection Hp as <- <-. exists n. split; [apply Hin; left; split; [rewrite Hnkey; exact Hb | reflexivity]|].
             split; [|auto]. destruct (nmark m n) eqn:Hm; [|reflexivity]. exfalso. apply Hnk. apply (G_marked_known _ _ HG). exact Hm.
          -- exists x. split; [apply Hin; right; exact H1 | auto].
        * intros (x & H1 & H2 & H3 & H4). apply Hin in H1. destruct H1 as [[_ ->] | H1].
          -- left. congruence.
          -- right. exists x. auto.
      + rewrite Eab. rewrite El.
        rewrite apply_lin_snoc. cbn [apply_lev]. f_equal. exact (G_fold _ _ HG).
      + intros t0 k0 v0 n0 Hi. rewrite El in Hi.
        apply in_app_or in Hi. rewrite Ek, Ev. destruct Hi as [Hi | [Hi | []]].
        * destruct (G_lins _ _ HG _ _ _ _ Hi) as (H1 & H2 & H3). split; [apply Hkn; right; exact H1 | auto].
        * injection Hi as <- <- <- <-. split; [apply Hkn; left; reflexivity | auto].
      + intros t0 k0 n0 i Hi. rewrite El in Hi.
        apply in_app_or in Hi. rewrite Em, Ek. destruct Hi as [Hi | [Hi | []]]; [exact (G_ldel _ _ HG _ _ _ _ Hi) | discriminate Hi].
      + rewrite El. rewrite ins_nodes_app. cbn [ins_nodes flat_map app].
        apply NoDup_snoc; [exact (G_lins_nodup _ _ HG)|]. intros Hc. apply ins_nodes_in in Hc. destruct Hc as (t0 & k0 & v0 & Hc).
        apply Hnk. exact (proj1 (G_lins _ _ HG _ _ _ _ Hc)).
      + rewrite El. rewrite del_nodes_app. cbn [del_nodes flat_map app].
        rewrite app_nil_r. exact (G_ldel_nodup _ _ HG).
      + intros x Hx. rewrite Em in Hx. rewrite El. rewrite del_nodes_app.
        apply in_or_app. left. apply (G_marked_del _ _ HG). exact Hx.
      + intros x Hx. rewrite El. rewrite ins_nodes_app. apply in_or_app.
        apply Hkn in Hx. destruct Hx as [-> | Hx]; [right; left; reflexivity | left; apply (G_known_ins _ _ HG); exact Hx].
    - constructor.
      + intros x Hx. apply Hkn. right. exact Hx.
      + intros x _. rewrite Ek, Ev, Eh. auto.
      + intros x Hx. rewrite Em. split; [exact Hx|]. apply Hnx. intros Hz ->. rewrite (Hsvm' Hz) in Hx. discriminate.
      + rewrite Ea. lia.
      + intros n0 _ Hn0 Hne. split.
        * intros Hc. apply Hkn in Hc. destruct Hc as [Hc | Hc]; contradiction.
        * apply Hnx. intros Hz ->. apply Hn0. destruct Hsv as [Hsv | Hsv]; [congruence | eapply known_chain; eassumption].
      + intros b' h k sv0 Href Hp. destruct (N.eq_dec b' b) as [->|Hne].
        * rewrite Hcsb. apply (pre_ext m m'); [exact Ek | exact Eh|]. intros Hin0 x Hx Hxnz.
          assert (Hsv0n : sv0 <> n).
          { intros ->. destruct Href as [H | [H _]]; [contradiction | contradiction]. }
          assert (Hsv0c : In sv0 (c1 ++ sv :: c2)).
          { subst newc. rewrite in_app_iff in *. cbn [In] in *. destruct Hin0 as [H | [H | [H | H]]]; auto.
            exfalso. apply Hsv0n. symmetry. exact H. }
          subst newc. destruct (upto_insert _ _ _ _ _ _ Hsv0n Hsv0c Hx) as [Hold | (-> & a & r & Ec2 & Ha)].
          -- rewrite <- E in Hold, Hsv0c. exact (Hp Hsv0c x Hold Hxnz).
          -- rewrite <- E in Ha, Hsv0c. subst c2. cbn [hd] in Hn'. subst a.
             destruct (HR2 cur (or_introl eq_refl)) as [Hcnz _]. destruct (Hhi Hcnz) as [Hge _].
             assert (Hncur : le2 m n cur = true) by (unfold le2; rewrite Hnhn, Hnkey; exact Hge).
             pose proof (Hp Hsv0c cur Ha Hcnz) as Hf.
             destruct (gef m h k n) eqn:Hg; [|reflexivity]. rewrite (gef_trans m h k n cur Hg Hncur) in Hf. discriminate.
        * rewrite Hcso by exact Hne. apply (pre_ext m m'); assumption.
  Qed.

  (** the successful mark CAS of erase(key) / erase(iterator) (linearization point of a successful erase) *)
  Lemma mark_step m cs t cur it : G m cs -> known m cs cur -> nmark m cur = false ->
    ext m cs (m_mark m t cur it) cs 0 [LDel t (nkey m cur) cur it] /\
    lookup (nkey m cur) (g_abs m) = Some (nval m cur).
  Proof.
    intros HG Hck Hcm. set (m' := m_mark m t cur it).
    assert (Hcur : In cur (cs (bk m cur))) by (apply unmarked_in_chain; assumption).
    assert (El : g_lin m' = g_lin m ++ [LDel t (nkey m cur) cur it]) by reflexivity.
    assert (Eab : g_abs m' = remk (nkey m cur) (g_abs m)) by reflexivity.
    assert (Hcnz : cur <> 0) by (eapply chain_nz; eassumption).
    assert (Hmk : forall x, nmark m' x = true <-> x = cur \/ nmark m x = true).
    { intros x. subst m'; cbn [m_mark nmark]. unfold setf. destruct (N.eqb_spec x cur); [tauto|]. split; [auto|]. intros [H | H]; [contradiction | exact H]. }
    assert (Hmf : forall x, nmark m' x = false <-> x <> cur /\ nmark m x = false).
    { intros x. subst m'; cbn [m_mark nmark]. unfold setf. destruct (N.eqb_spec x cur) as [->|Hne]; [split; [discriminate | intros [H _]; contradiction] | tauto]. }
    assert (Hkn : forall x, known m' cs x <-> known m cs x) by (intros x; reflexivity).
    split; [split; [|split; [|split; [exact El | auto]]]|].
    - constructor.
      + exact (G_links _ _ HG).
      + exact (G_sorted _ _ HG).
      + exact (G_bk _ _ HG).
      + exact (G_ret_nodup _ _ HG).
      + exact (G_ret_nz _ _ HG).
      + exact (G_disj _ _ HG).
      + exact (G_bound _ _ HG).
      + exact (G_pos _ _ HG).
      + intros x Hx. apply Hmk in Hx. destruct Hx as [-> | Hx]; [left; exact Hcur | apply (G_marked_known _ _ HG); exact Hx].
      + intros x Hx. apply Hmk. right. apply (G_ret_marked _ _ HG). exact Hx.
      + exact (G_closed _ _ HG).
      + exact (G_hash _ _ HG).
      + rewrite Eab. rewrite keys_remk. apply NoDup_filter. exact (G_abs_nodup _ _ HG).
      + intros k0 v0. rewrite Eab. rewrite in_remk, (G_abs _ _ HG). cbn [fst].
        change (nkey m') with (nkey m). change (nval m') with (nval m). split.
        * intros [(x & H1 & H2 & H3 & H4) Hne]. exists x. split; [exact H1|]. split; [|auto].
          apply Hmf. split; [congruence | exact H2].
        * intros (x & H1 & H2 & H3 & H4). apply Hmf in H2. destruct H2 as [Hxc H2]. split; [exists x; auto|].
          intros ->. apply Hxc. apply (chain_key_inj m cs (bucket_of (nkey m cur))); [exact HG | exact H1 | exact Hcur | exact H3].
      + rewrite Eab. rewrite El.
        rewrite apply_lin_snoc. cbn [apply_lev]. f_equal. exact (G_fold _ _ HG).
      + intros t0 k0 v0 n0 Hi. rewrite El in Hi.
        apply in_app_or in Hi. destruct Hi as [Hi | [Hi | []]]; [exact (G_lins _ _ HG _ _ _ _ Hi) | discriminate Hi].
      + intros t0 k0 n0 i Hi. rewrite El in Hi.
        apply in_app_or in Hi. destruct Hi as [Hi | [Hi | []]].
        * destruct (G_ldel _ _ HG _ _ _ _ Hi) as [H1 H2]. split; [apply Hmk; right; exact H1 | exact H2].
        * injection Hi as <- <- <- <-. split; [apply Hmk; left; reflexivity | reflexivity].
      + rewrite El. rewrite ins_nodes_app. cbn [ins_nodes flat_map app].
        rewrite app_nil_r. exact (G_lins_nodup _ _ HG).
      + rewrite El. rewrite del_nodes_app. cbn [del_nodes flat_map app].
        apply NoDup_snoc; [exact (G_ldel_nodup _ _ HG)|]. intros Hc. apply del_nodes_in in Hc. destruct Hc as (t0 & k0 & i0 & Hc).
        rewrite (proj1 (G_ldel _ _ HG _ _ _ _ Hc)) in Hcm. discriminate.
      + intros x Hx. rewrite El. rewrite del_nodes_app. apply in_or_app.
        apply Hmk in Hx. destruct Hx as [-> | Hx]; [right; left; reflexivity | left; apply (G_marked_del _ _ HG); exact Hx].
      + intros x Hx. rewrite El. rewrite ins_nodes_app. apply in_or_app.
        left. apply (G_known_ins _ _ HG). exact Hx.
    - constructor.
      + intros x Hx. exact Hx.
      + intros x _. auto.
      + intros x Hx. split; [apply Hmk; right; exact Hx | reflexivity].
      + change (nalloc m') with (nalloc m). lia.
      + intros n0 _ Hn0 _. split; [exact Hn0 | reflexivity].
      + intros b h k sv _ Hp. exact Hp.
    - eapply abs_lookup; eassumption.
  Qed.

  (** a successful unlink CAS (by the erasing thread, by a helping find or by erase(iterator)) followed by reclaim *)
  Lemma unlink_step m cs b sv cur nx : G m cs -> okref m cs b sv -> valid m b sv cur = true ->
    cur <> 0 -> nmark m cur = true -> nnext m cur = nx ->
    exists cs', ext m cs (m_unlink m b sv cur nx) cs' 0 [] /\
      (forall x, In x (cs' b) -> In x (cs b)) /\ pnext (m_unlink m b sv cur nx) b sv = nx /\ In sv (0 :: cs' b).
  Proof.
    intros HG Href Hv Hcnz Hcm Hcn. destruct (valid_chain _ _ _ _ _ HG Href Hv) as (Hsv & Hsvn & Hsvm).
    set (m' := m_unlink m b sv cur nx).
    assert (Er : g_retired m' = g_retired m ++ [cur]) by reflexivity.
    destruct (chain_split _ _ _ _ HG Hsv) as (c1 & c2 & E & Hn' & HL1 & HL2 & HS1 & HS2 & HR1 & HR2 & HR3 & Hsv1 & Hsv2).
    rewrite Hsvn in Hn'. destruct c2 as [|y c3]; cbn [hd] in Hn'; [contradiction|]. subst y.
    cbn [HmlInv.linksto] in HL2. destruct HL2 as [HL2 HL3]. rewrite (pnext_nz m b cur Hcnz), Hcn in HL2.
    pose proof (G_nodup _ _ b HG) as HN. rewrite E in HN.
    assert (Hc1 : ~ In cur c1 /\ cur <> sv /\ ~ In cur c3).
    { change (c1 ++ sv :: cur :: c3) with (c1 ++ [sv] ++ cur :: c3) in HN. rewrite app_assoc in HN.
      apply NoDup_remove_2 in HN. rewrite !in_app_iff in HN. cbn [In] in HN. repeat split; intros Hc; apply HN; auto. }
    destruct Hc1 as (Hcc1 & Hcsv & Hcc3).
    assert (Hcin : In cur (cs b)).
    { assert (H : In cur (0 :: cs b)) by (rewrite E; apply in_or_app; right; right; left; reflexivity).
      destruct H as [H | H]; [exfalso; apply Hcnz; symmetry; exact H | exact H]. }
    assert (Hcr : ~ In cur (g_retired m)) by (intros Hc; exact (G_disj _ _ HG _ _ Hcin Hc)).
    set (newc := c1 ++ sv :: c3).
    assert (E' : newc = 0 :: tl newc) by (symmetry in E; exact (hd_zero_cons _ _ _ _ c3 E)).
    set (cs' := setf cs b (tl newc)). exists cs'.
    assert (Hcsb : 0 :: cs' b = newc) by (subst cs'; rewrite setf_same; symmetry; exact E').
    assert (Hcso : forall b', b' <> b -> cs' b' = cs b') by (intros b' Hne; subst cs'; apply setf_other; exact Hne).
    assert (Hin : forall b' x, In x (cs b') <-> (b' = b /\ x = cur) \/ In x (cs' b')).
    { intros b' x. destruct (N.eq_dec b' b) as [->|Hne].
      - subst cs'. rewrite setf_same. subst newc. rewrite (tl_in_del c1 sv cur c3 (cs b) x (eq_sym E)). tauto.
      - rewrite Hcso by exact Hne. split; [auto | intros [[H _] | H]; [contradiction | exact H]]. }
    assert (Hnin : ~ In cur (cs' b)).
    { intros Hc. assert (H : In cur newc) by (rewrite <- Hcsb; right; exact Hc). subst newc.
      apply in_app_or in H. destruct H as [H | [H | H]]; [contradiction | apply Hcsv; symmetry; exact H | contradiction]. }
    assert (Ek : nkey m' = nkey m) by apply sp_nkey.
    assert (Ev : nval m' = nval m) by apply sp_nval.
    assert (Eh : nhash m' = nhash m) by apply sp_nhash.
    assert (Em : nmark m' = nmark m) by apply sp_nmark.
    assert (Ea : nalloc m' = nalloc m) by apply sp_nalloc.
    assert (Hbk : forall x, bk m' x = bk m x) by (apply bk_ext; exact Ek).
    assert (Hbkc : bk m cur = b) by exact (G_bk _ _ HG _ _ Hcin).
    assert (Hkn : forall x, known m' cs' x <-> known m cs x).
    { intros x. unfold known. rewrite Hbk. rewrite Er. rewrite (Hin (bk m x) x), in_app_iff. cbn [In].
      split.
      - intros [H | [H | [H | []]]]; auto. subst x. left. left. auto.
      - intros [[[_ H] | H] | H]; auto. }
    assert (Hsvm' : sv <> 0 -> nmark m sv = false) by (intros H; rewrite <- pmark_nz by exact H; exact Hsvm).
    assert (Hnx : forall x, (sv <> 0 -> x <> sv) -> nnext m' x = nnext m x)
      by (intros x Hx; exact (sp_nnext_other m b sv nx x Hx)).
    assert (Hpsame : pnext m' b sv = nx) by exact (sp_pnext_same m b sv nx).
    assert (Hpo : forall x, x <> sv -> pnext m' b x = pnext m b x)
      by (intros x Hx; exact (sp_pnext_other m b sv nx b x (or_introl Hx))).
    assert (HRe : forall x y, R m x y -> R m' x y) by (intros x y; apply R_ext; assumption).
    split; [split; [|split; [|split; [symmetry; apply app_nil_r | intros x Hx; rewrite Er; apply in_or_app; left; exact Hx]]]
           |split; [intros x Hx; apply Hin; right; exact Hx | split; [exact Hpsame | rewrite Hcsb; apply in_or_app; right; left; reflexivity]]].
    - constructor.
      + intros b'. destruct (N.eq_dec b' b) as [->|Hne].
        * rewrite Hcsb. subst newc. apply linksto_app. cbn [hd HmlInv.linksto]. split; [|split].
          -- eapply linksto_ext; [|exact HL1]. intros x Hx. apply Hpo. intros ->. contradiction.
          -- rewrite Hpsame. exact HL2.
          -- eapply linksto_ext; [|exact HL3]. intros x Hx. apply Hpo. intros ->. apply Hsv2. right. exact Hx.
        * rewrite Hcso by exact Hne. eapply linksto_ext; [|exact (G_links _ _ HG b')]. intros x Hx.
          exact (sp_other_bucket m cs b sv nx b' x HG Hsv Hne Hx).
      + intros b'. destruct (N.eq_dec b' b) as [->|Hne].
        * rewrite Hcsb. subst newc. eapply SS_ext; [intros x y _ _; apply HRe|].
          apply SS_cons_inv in HS2. destruct HS2 as [HS2 _].
          apply SS_app; [exact HS1 | |].
          -- apply SS_cons; [exact HS2|]. intros y Hy. apply HR2. right. exact Hy.
          -- intros x y Hx [<- | Hy]; [apply HR1; exact Hx | apply HR3; [exact Hx | right; exact Hy]].
        * rewrite Hcso by exact Hne. eapply SS_ext; [intros x y _ _; apply HRe | exact (G_sorted _ _ HG b')].
      + intros b' x Hx. rewrite Hbk. apply (G_bk _ _ HG). apply Hin. right. exact Hx.
      + rewrite Er. apply NoDup_snoc; [exact (G_ret_nodup _ _ HG) | exact Hcr].
      + rewrite Er. intros Hc. apply in_app_or in Hc. destruct Hc as [Hc | [Hc | []]].
        * exact (G_ret_nz _ _ HG Hc).
        * apply Hcnz. exact Hc.
      + intros b' x Hx Hr. rewrite Er in Hr. apply in_app_or in Hr.
        assert (Hx' : In x (cs b')) by (apply Hin; right; exact Hx).
        destruct Hr as [Hr | [<- | []]]; [exact (G_disj _ _ HG _ _ Hx' Hr)|].
        assert (b' = b) by (rewrite <- (G_bk _ _ HG _ _ Hx'); exact Hbkc). subst b'. contradiction.
      + intros x Hx. rewrite Ea. apply (G_bound _ _ HG). apply Hkn. exact Hx.
      + rewrite Ea. exact (G_pos _ _ HG).
      + intros x Hx. rewrite Em in Hx. apply Hkn. apply (G_marked_known _ _ HG). exact Hx.
      + intros x Hx. rewrite Er in Hx. rewrite Em. apply in_app_or in Hx.
        destruct Hx as [Hx | [<- | []]]; [apply (G_ret_marked _ _ HG); exact Hx | exact Hcm].
      + intros x Hx. apply Hkn in Hx. rewrite !Hbk. destruct (N.eq_dec sv 0) as [Hsz | Hsz]; [|destruct (N.eq_dec x sv) as [->|Hxsv]].
        * rewrite Hnx by (intros H; contradiction).
          destruct (G_closed _ _ HG x Hx) as [H | [H1 H2]]; [left; exact H | right; split; [apply Hkn; exact H1 | exact H2]].
        * replace (nnext m' sv) with nx by (rewrite <- (pnext_nz m' b sv Hsz); symmetry; exact Hpsame). rewrite <- Hcn.
          destruct (G_closed _ _ HG cur (known_chain _ _ _ _ HG Hcin)) as [H | [H1 H2]]; [left; exact H | right].
          split; [apply Hkn; exact H1|]. rewrite H2, Hbkc. symmetry. destruct Hsv as [Hsv | Hsv]; [congruence | exact (G_bk _ _ HG _ _ Hsv)].
        * rewrite Hnx by (intros _; exact Hxsv).
          destruct (G_closed _ _ HG x Hx) as [H | [H1 H2]]; [left; exact H | right; split; [apply Hkn; exact H1 | exact H2]].
      + intros x H1 H2. rewrite Eh, Ek. rewrite Ea in H2. apply (G_hash _ _ HG); assumption.
      + exact (G_abs_nodup _ _ HG).
      + intros k0 v0. change (g_abs m') with (g_abs m). rewrite (G_abs _ _ HG), Em, Ek, Ev. split; intros (x & H1 & H2 & H3 & H4); exists x.
        * split; [|auto]. apply Hin in H1. destruct H1 as [[_ ->] | H1]; [congruence | exact H1].
        * split; [apply Hin; right; exact H1 | auto].
      + exact (G_fold _ _ HG).
      + intros t0 k0 v0 n0 Hi. change (g_lin m') with (g_lin m) in Hi. rewrite Ek, Ev. destruct (G_lins _ _ HG _ _ _ _ Hi) as (H1 & H2).
        split; [apply Hkn; exact H1 | exact H2].
      + intros t0 k0 n0 i Hi. change (g_lin m') with (g_lin m) in Hi. rewrite Ek, Em. exact (G_ldel _ _ HG _ _ _ _ Hi).
      + exact (G_lins_nodup _ _ HG).
      + exact (G_ldel_nodup _ _ HG).
      + intros x Hx. rewrite Em in Hx. exact (G_marked_del _ _ HG x Hx).
      + intros x Hx. apply Hkn in Hx. exact (G_known_ins _ _ HG x Hx).
    - constructor.
      + intros x Hx. apply Hkn. exact Hx.
      + intros x _. rewrite Ek, Ev, Eh. auto.
      + intros x Hx. rewrite Em. split; [exact Hx|]. apply Hnx. intros Hz ->. rewrite (Hsvm' Hz) in Hx. discriminate.
      + rewrite Ea. lia.
      + intros n0 _ Hn0 _. split; [rewrite Hkn; exact Hn0|]. apply Hnx. intros Hz ->. apply Hn0.
        destruct Hsv as [Hsv | Hsv]; [congruence | eapply known_chain; eassumption].
      + intros b' h k sv0 _ Hp. destruct (N.eq_dec b' b) as [->|Hne].
        * rewrite Hcsb. apply (pre_ext m m'); [exact Ek | exact Eh|]. intros Hin0 x Hx Hxnz.
          assert (Hsv0c : sv0 <> cur).
          { intros ->. subst newc. apply in_app_or in Hin0. destruct Hin0 as [H | [H | H]]; [contradiction | apply Hcsv; symmetry; exact H | contradiction]. }
          subst newc. apply (upto_remove c1 sv cur c3 sv0 x Hsv0c) in Hx. rewrite <- E in Hx. apply Hp; [|exact Hx | exact Hxnz].
          rewrite E. rewrite in_app_iff in *. cbn [In] in *. destruct Hin0 as [H | [H | H]]; auto.
        * rewrite Hcso by exact Hne. apply (pre_ext m m'); assumption.
  Qed.

  (** * Assembling the invariant *)

  Lemma pre_zero m c h k : pre m (0 :: c) h k 0.
  Proof. intros _ x Hx Hnz. cbn [upto] in Hx. rewrite N.eqb_refl in Hx. destruct Hx as [<- | []]. contradiction. Qed.
  Lemma okprev_zero m cs b h k : okprev m cs b h k 0.
  Proof. split; [left; reflexivity | apply pre_zero]. Qed.

  (** the walk of [find] passes a node that is not greater or equal *)
  Lemma pre_advance m cs b h k sv cur : G m cs -> In sv (0 :: cs b) -> pnext m b sv = cur -> cur <> 0 ->
    pre m (0 :: cs b) h k sv -> gef m h k cur = false -> pre m (0 :: cs b) h k cur.
  Proof.
    intros HG Hsv Hn Hcnz Hpre Hge _ x Hx Hxnz.
    destruct (chain_split _ _ _ _ HG Hsv) as (c1 & c2 & E & Hn' & _ & _ & _ & _ & _ & _ & _ & Hsv1 & Hsv2).
    rewrite Hn in Hn'. destruct c2 as [|y r]; cbn [hd] in Hn'; [contradiction|]. subst y.
    pose proof (G_nodup _ _ b HG) as HN. rewrite E in HN.
    assert (Hc1 : ~ In cur c1 /\ cur <> sv).
    { change (c1 ++ sv :: cur :: r) with (c1 ++ [sv] ++ cur :: r) in HN. rewrite app_assoc in HN.
      apply NoDup_remove_2 in HN. rewrite !in_app_iff in HN. cbn [In] in HN. split; intros Hc; apply HN; auto. }
    destruct Hc1 as [Hc1 Hcsv].
    specialize (Hpre Hsv). rewrite E, (upto_app_notin _ _ _ Hsv1) in Hpre. cbn [upto] in Hpre. rewrite N.eqb_refl in Hpre.
    rewrite E, (upto_app_notin _ _ _ Hc1) in Hx. cbn [upto] in Hx.
    destruct (N.eqb_spec sv cur) as [Hc|_]; [exfalso; apply Hcsv; symmetry; exact Hc|]. rewrite N.eqb_refl in Hx.
    apply in_app_or in Hx. destruct Hx as [Hx | [Hx | [Hx | []]]].
    - apply Hpre; [apply in_or_app; left; exact Hx | exact Hxnz].
    - apply Hpre; [apply in_or_app; right; left; exact Hx | exact Hxnz].
    - subst x. exact Hge.
  Qed.

  (** the prefix up to [sv] is below the successor of [sv] (sortedness) *)
  Lemma pre_next m cs b sv cur : G m cs -> In sv (0 :: cs b) -> pnext m b sv = cur -> cur <> 0 ->
    pre m (0 :: cs b) (nh m cur) (nkey m cur) sv.
  Proof.
    intros HG Hsv Hn Hcnz _ x Hx Hxnz.
    destruct (chain_split _ _ _ _ HG Hsv) as (c1 & c2 & E & Hn' & _ & _ & _ & _ & _ & HR2 & HR3 & Hsv1 & _).
    rewrite Hn in Hn'. destruct c2 as [|y r]; cbn [hd] in Hn'; [contradiction|]. subst y.
    rewrite E, (upto_app_notin _ _ _ Hsv1) in Hx. cbn [upto] in Hx. rewrite N.eqb_refl in Hx.
    apply in_app_or in Hx. destruct Hx as [Hx | [<- | []]].
    - destruct (HR3 x cur Hx (or_introl eq_refl)) as [_ [H0 | H]]; [contradiction | exact H].
    - destruct (HR2 cur (or_introl eq_refl)) as [_ [H0 | H]]; [contradiction | exact H].
  Qed.

  (** an iterator lands on the successor [cur] of [sv] (bucket b) *)
  Lemma IT0_land m cs b sv cur : G m cs -> In sv (0 :: cs b) -> pnext m b sv = cur -> IT0 m cs b sv cur.
  Proof.
    intros HG Hsv Hn. split; [apply okref_chain; assumption|]. intros Hcnz.
    split; [eapply pre_next; eassumption|]. apply oknode_chain; [exact HG|]. rewrite <- Hn. apply chain_next_in; [exact HG | exact Hsv | congruence].
  Qed.
  Lemma IT0_end m cs b : IT0 m cs b 0 0.
  Proof. split; [left; reflexivity | intros H; contradiction]. Qed.

  Lemma alloc_fresh m cs k v : G m cs ->
    fresh (m_alloc m k v) cs k (nalloc m) /\ nval (m_alloc m k v) (nalloc m) = v /\ nh (m_alloc m k v) (nalloc m) = hf k.
  Proof.
    intros HG. destruct (alloc_step m cs k v HG) as [HG' _].
    split; [|split].
    - split; [pose proof (G_pos _ _ HG); lia|]. split; [cbn [HmmDefs.m_alloc nalloc]; lia|]. split; [|cbn [HmmDefs.m_alloc nkey]; apply setf_same].
      intros Hc. apply (G_known_ins _ _ HG') in Hc. change (g_lin (m_alloc m k v)) with (g_lin m) in Hc.
      apply ins_nodes_in in Hc. destruct Hc as (t0 & k0 & v0 & Hc). pose proof (G_bound _ _ HG _ (proj1 (G_lins _ _ HG _ _ _ _ Hc))). lia.
    - cbn [HmmDefs.m_alloc nval]. apply setf_same.
    - unfold HmmDefs.nh. cbn [HmmDefs.m_alloc nhash nkey]. rewrite !setf_same. destruct memo; reflexivity.
  Qed.

  Lemma Tw_fresh m cs w ib isv icur p n : Tw m cs w ib isv icur p -> fresh_of p = Some n -> exists key, fresh m cs key n.
  Proof.
    assert (Hk : forall c b h key, fcom m cs w ib icur c b h key -> fresh_of_k c = Some n -> exists key, fresh m cs key n).
    { intros c b h key (_ & _ & Hc) E. destruct c as [n0 v|n0 v| | | | | |o|o]; cbn [fresh_of_k cont_ok] in *; try discriminate E.
      - injection E as <-. exists key. exact (proj1 Hc).
      - destruct (N.eqb_spec n0 0) as [_|Hnz]; [discriminate|]. injection E as <-. destruct Hc as [Hc | [Hc _]]; [contradiction|].
        exists key. exact Hc. }
    destruct p; cbn [Tw fresh_of]; intros H E; try discriminate E; try (eapply Hk; [exact (proj1 H) | exact E]);
      injection E as <-; exists key; exact (proj1 (proj1 H)).
  Qed.

  Definition oth (st st' : state) (t : nat) : Prop :=
    forall t', t' <> t -> its st' t' = its st t' /\ g_lp st' t' = g_lp st t'.

  Lemma sp_zero st cs : (forall t', T st cs t') -> forall t' n, fresh_of (th st t') = Some n -> n <> 0.
  Proof. intros HT t' n E. destruct (Tw_fresh _ _ _ _ _ _ _ _ (proj1 (HT t')) E) as [key (H & _)]. exact H. Qed.

  Lemma sp_own st t n : U (th st) -> fresh_of (th st t) = Some n ->
    forall t' n', t' <> t -> fresh_of (th st t') = Some n' -> n' <> n.
  Proof. intros HU E t' n' Hne E' ->. exact (HU t' t n Hne E' E). Qed.

  Lemma Inv_intro st cs st' cs' sp t p :
    G (sm st) cs -> (forall t', T st cs t') ->
    G (sm st') cs' -> mono (sm st) cs (sm st') cs' sp ->
    th st' = upd (th st) t p -> oth st st' t ->
    (forall t' n, t' <> t -> fresh_of (th st t') = Some n -> n <> sp) ->
    T st' cs' t -> U (upd (th st) t p) -> Inv st'.
  Proof.
    intros HG HT HG' HM Eth Ho Hsp Ht HU'. exists cs'. split; [exact HG'|]. split; [|rewrite Eth; exact HU'].
    intros t'. destruct (Nat.eq_dec t' t) as [->|Hne]; [exact Ht|].
    destruct (Ho t' Hne) as [E1 E2]. destruct (HT t') as [H1 H2]. unfold T. rewrite Eth, upd_other, E1, E2 by exact Hne.
    split.
    - eapply Tw_stable; [exact HG | exact HM | intros n Hn; eapply Hsp; eauto | | exact H1].
      intros Hnz. destruct H2 as [_ H2]. destruct (H2 Hnz) as [_ (_ & Hk & _)]. exact Hk.
    - exact (IT0_mono _ _ _ _ _ HG HM _ _ _ H2).
  Qed.

  (** steps that do not change the memory *)
  Lemma step_same st cs st' t p :
    G (sm st) cs -> (forall t', T st cs t') -> U (th st) ->
    sm st' = sm st -> th st' = upd (th st) t p -> oth st st' t ->
    T st' cs t -> (fresh_of p = None \/ fresh_of p = fresh_of (th st t)) -> Inv st'.
  Proof.
    intros HG HT HU Em Eth Ho Ht Hf.
    eapply (Inv_intro st cs st' cs 0 t p); try eassumption.
    - rewrite Em. exact HG.
    - rewrite Em. apply mono_refl.
    - intros t' n _ Hn. eapply sp_zero; eassumption.
    - apply U_upd_same; assumption.
  Qed.

  (** closes [oth st st' t] when [st'] is a state transformer applied to [st]: the other threads' iterator and [g_lp] are untouched *)
  Ltac oth_tac := let t' := fresh "t'" in let Hne := fresh "Hne" in
    intros t' Hne; sprj; rewrite ?upd_other by exact Hne; split; reflexivity.

  (** the step allocates the node of thread t's insertion *)
  Lemma step_alloc st cs t k v p w :
    G (sm st) cs -> (forall t', T st cs t') -> U (th st) -> fresh_of p = Some (nalloc (sm st)) ->
    Tw (m_alloc (sm st) k v) cs w (it_b (its st t)) (it_sv (its st t)) (it_cur (its st t)) p ->
    Inv (set_pc_lp (set_mem st (m_alloc (sm st) k v)) t p w).
  Proof.
    intros HG HT HU Hf Hp. destruct (alloc_step (sm st) cs k v HG) as (HG' & HM & _).
    apply (Inv_intro st cs _ cs 0 t p); try assumption; try reflexivity; [oth_tac | | |].
    - intros t' n0 _ Hn. eapply sp_zero; eassumption.
    - unfold T. sprj. rewrite !upd_same. split; [exact Hp | exact (IT0_mono _ _ _ _ _ HG HM _ _ _ (proj2 (HT t)))].
    - apply U_upd; [exact HU|]. rewrite Hf. intros n0 E0 t' Hne Hc. injection E0 as <-.
      destruct (Tw_fresh _ _ _ _ _ _ _ _ (proj1 (HT t')) Hc) as [key' (_ & Hlt & _)]. lia.
  Qed.

  (** a step of thread t that changes the memory monotonically and leaves t's iterator variable alone;
      [sp] is 0 or the unlinked new node of t *)
  Lemma step_mem st cs st' cs' sp l t p :
    G (sm st) cs -> (forall t', T st cs t') -> U (th st) ->
    ext (sm st) cs (sm st') cs' sp l -> (sp = 0 \/ fresh_of (th st t) = Some sp) ->
    th st' = upd (th st) t p -> oth st st' t -> its st' t = its st t ->
    Tw (sm st') cs' (g_lp st' t) (it_b (its st t)) (it_sv (its st t)) (it_cur (its st t)) p ->
    (fresh_of p = None \/ fresh_of p = fresh_of (th st t)) -> Inv st'.
  Proof.
    intros HG HT HU (HG' & HM & _) Hsp Eth Ho Eit Hp Hf.
    eapply (Inv_intro st cs st' cs' sp t p); try eassumption.
    - intros t' n Hne Hn. destruct Hsp as [-> | Hsp]; [eapply sp_zero; eassumption | exact (sp_own st t sp HU Hsp t' n Hne Hn)].
    - destruct (HT t) as [_ HI]. unfold T. rewrite Eth, upd_same, Eit. split; [exact Hp | exact (IT0_mono _ _ _ _ _ HG HM _ _ _ HI)].
    - apply U_upd_same; assumption.
  Qed.

  (** a step whose memory effect is a successful unlink CAS + reclaim; [Tw] of the new program point is
      given for the old memory *)
  Lemma step_unlink st cs st' t p b sv cur nx :
    G (sm st) cs -> (forall t', T st cs t') -> U (th st) ->
    okref (sm st) cs b sv -> valid (sm st) b sv cur = true ->
    oknode (sm st) cs b cur -> nmark (sm st) cur = true -> nnext (sm st) cur = nx ->
    sm st' = m_unlink (sm st) b sv cur nx -> th st' = upd (th st) t p -> oth st st' t ->
    its st' t = its st t ->
    Tw (sm st) cs (g_lp st' t) (it_b (its st t)) (it_sv (its st t)) (it_cur (its st t)) p ->
    (fresh_of p = None \/ fresh_of p = fresh_of (th st t)) -> Inv st'.
  Proof.
    intros HG HT HU Hsvk Hv Hcur Hcm Hcn Em Eth Ho Eit Hp Hf.
    destruct (unlink_step _ cs b sv cur nx HG Hsvk Hv (proj1 Hcur) Hcm Hcn) as (cs' & HE & _).
    rewrite <- Em in HE. pose proof (proj1 (proj2 HE)) as HM.
    apply (step_mem st cs st' cs' 0 [] t p HG HT HU HE); try assumption; [left; reflexivity|].
    eapply Tw_stable; [exact HG | exact HM | | | exact Hp].
    - intros n Hn. destruct (Tw_fresh _ _ _ _ _ _ _ _ Hp Hn) as [key (H & _)]. exact H.
    - intros Hnz. destruct (proj2 (proj2 (HT t)) Hnz) as [_ (_ & Hk & _)]. exact Hk.
  Qed.

  Lemma step_go_lp st cs t p w :
    G (sm st) cs -> (forall t', T st cs t') -> U (th st) ->
    Tw (sm st) cs w (it_b (its st t)) (it_sv (its st t)) (it_cur (its st t)) p ->
    (fresh_of p = None \/ fresh_of p = fresh_of (th st t)) -> Inv (set_pc_lp st t p w).
  Proof.
    intros HG HT HU Hp Hf. apply (step_same st cs _ t p); try assumption; try reflexivity; [oth_tac|].
    unfold T. sprj. rewrite !upd_same. split; [exact Hp | exact (proj2 (HT t))].
  Qed.
  Lemma step_go st cs t p :
    G (sm st) cs -> (forall t', T st cs t') -> U (th st) ->
    Tw (sm st) cs (g_lp st t) (it_b (its st t)) (it_sv (its st t)) (it_cur (its st t)) p ->
    (fresh_of p = None \/ fresh_of p = fresh_of (th st t)) -> Inv (set_pc st t p).
  Proof.
    intros HG HT HU Hp Hf. apply (step_same st cs _ t p); try assumption; try reflexivity; [oth_tac|].
    unfold T. sprj. rewrite !upd_same. split; [exact Hp | exact (proj2 (HT t))].
  Qed.
  Lemma step_ret st cs t o r v w :
    G (sm st) cs -> (forall t', T st cs t') -> U (th st) -> Inv (ret_st st t o r v w).
  Proof.
    intros HG HT HU. apply (step_same st cs _ t Idle); try assumption; try reflexivity; [oth_tac | | left; reflexivity].
    unfold T. sprj. rewrite !upd_same. split; [exact I | exact (proj2 (HT t))].
  Qed.
  Lemma step_move st cs t b sv cur w :
    G (sm st) cs -> (forall t', T st cs t') -> U (th st) -> IT0 (sm st) cs b sv cur -> Inv (move_it st t b sv cur w).
  Proof.
    intros HG HT HU Hi. apply (step_same st cs _ t Idle); try assumption; try reflexivity; [oth_tac | | left; reflexivity].
    unfold T. sprj. rewrite !upd_same. sprj. split; [exact I | exact Hi].
  Qed.
  Lemma step_start st cs t p lo :
    G (sm st) cs -> (forall t', T st cs t') -> U (th st) ->
    Tw (sm st) cs None 0 0 0 p -> fresh_of p = None -> Inv (start_trav st t p lo).
  Proof.
    intros HG HT HU Hp Hf. apply (step_same st cs _ t p); try assumption; try reflexivity; [oth_tac | | left; exact Hf].
    unfold T. sprj. rewrite !upd_same. sprj. split; [exact Hp | apply IT0_end].
  Qed.
  Lemma step_end st cs t :
    G (sm st) cs -> (forall t', T st cs t') -> U (th st) -> Inv (end_trav nb st t).
  Proof.
    intros HG HT HU. apply (step_same st cs _ t Idle); try assumption; try reflexivity.
    - intros t' Hne. unfold HmmDefs.end_trav. sprj. rewrite ?upd_other by exact Hne. split; reflexivity.
    - unfold T, HmmDefs.end_trav. sprj. rewrite !upd_same. sprj. split; [exact I | apply IT0_end].
    - left. reflexivity.
  Qed.
  Lemma Inv_add_hist st t o r v w : Inv st -> th st t = Idle -> Inv (add_hist st t o r v w).
  Proof.
    intros (cs & HG & HT & HU) Hi. exists cs. split; [exact HG|]. split; [|exact HU].
    intros t'. destruct (HT t') as [H1 H2]. unfold T. sprj. split; [|exact H2].
    destruct (Nat.eq_dec t' t) as [->|Hne]; [rewrite Hi; exact I | rewrite upd_other by exact Hne; exact H1].
  Qed.

  Lemma it_land_inv st cs t c b sv cur w e st' es :
    G (sm st) cs -> (forall t', T st cs t') -> U (th st) ->
    In sv (0 :: cs b) -> pnext (sm st) b sv = cur ->
    it_land nb st t c b sv cur w e = Some (st', es) -> Inv st'.
  Proof.
    intros HG HT HU Hsv Hn Hst. unfold it_land in Hst.
    destruct (N.eqb_spec cur 0) as [Hz|Hz]; [destruct (b + 1 <? nb)|]; injection Hst as <- <-.
    - apply (step_go st cs); try assumption; [exact I | left; reflexivity].
    - apply (step_move st cs); try assumption. apply IT0_end.
    - apply (step_move st cs); try assumption. apply IT0_land; assumption.
  Qed.

  Lemma cont_ok_lp m cs w w' ib icur c b h key : is_del2 c = false ->
    cont_ok m cs w ib icur c b h key -> cont_ok m cs w' ib icur c b h key.
  Proof. destruct c; cbn [cont_ok is_del2]; intros Hd H; try exact H. discriminate. Qed.
  Lemma fcom_lp m cs w w' ib icur c b h key : is_del2 c = false ->
    fcom m cs w ib icur c b h key -> fcom m cs w' ib icur c b h key.
  Proof. intros Hd (H1 & H2 & H3). split; [exact H1|]. split; [exact H2|]. eapply cont_ok_lp; eassumption. Qed.

  (** return of the internal find *)
  Lemma find_ret_inv st cs t c b h key sv cur nx found w e st' es :
    G (sm st) cs -> (forall t', T st cs t') -> U (th st) ->
    fresh_of (th st t) = fresh_of_k c ->
    fcom (sm st) cs (g_lp st t) (it_b (its st t)) (it_cur (its st t)) c b h key ->
    okprev (sm st) cs b h key sv -> valid (sm st) b sv cur = true ->
    (found = true -> oknode (sm st) cs b cur /\ nkey (sm st) cur = key) ->
    (found = false -> cur <> 0 -> oknode (sm st) cs b cur /\ gef (sm st) h key cur = true /\ nkey (sm st) cur <> key) ->
    oknx (sm st) cs b nx ->
    find_ret nb memo hf st t c b h key sv cur nx found w e = Some (st', es) -> Inv st'.
  Proof.
    intros HG HT HU Hfr (Hh & Hb & Hco) Hsv Hv Hyes Hno Hnxk Hst. unfold find_ret in Hst.
    destruct (valid_chain _ _ _ _ _ HG (proj1 Hsv) Hv) as (Hsvc & Hsvn & Hsvm).
    destruct c as [n v|n v| | | | | |o|o]; cbn [cont_ok] in Hco.
    - (* KIns *) destruct found; injection Hst as <- <-; [apply (step_ret st cs); assumption|].
      apply (step_go_lp st cs); try assumption; [|right; rewrite Hfr; reflexivity].
      cbn [Tw]. split; [exact Hco|]. split; [exact Hh|]. split; [exact Hb|]. split; [exact Hsv|]. apply Hno. reflexivity.
    - (* KGet *) destruct found; [injection Hst as <- <-; apply (step_ret st cs); assumption|].
      destruct (N.eqb_spec n 0) as [Hnz|Hnz]; injection Hst as <- <-.
      + (* the node is allocated now *)
        destruct (alloc_step (sm st) cs key v HG) as (HG' & HM & _). destruct (alloc_fresh (sm st) cs key v HG) as (Hf1 & Hf2 & Hf3).
        apply (step_alloc st cs t key v _ _ HG HT HU); [reflexivity|].
        cbn [Tw]. split; [split; assumption|]. split; [exact Hh|]. split; [exact Hb|].
        split; [exact (okprev_mono _ _ _ _ _ HG HM _ _ _ _ Hsv) | exact (curc_mono _ _ _ _ _ HG HM _ _ _ _ (Hno eq_refl))].
      + apply (step_go_lp st cs); try assumption.
        * destruct Hco as [Hco | Hco]; [contradiction|]. cbn [Tw]. split; [exact Hco|]. split; [exact Hh|]. split; [exact Hb|].
          split; [exact Hsv|]. apply Hno. reflexivity.
        * right. rewrite Hfr. cbn [fresh_of fresh_of_k]. destruct (N.eqb_spec n 0); [contradiction | reflexivity].
    - (* KDel *) destruct found; injection Hst as <- <-; [|apply (step_ret st cs); assumption].
      apply (step_go st cs); try assumption; [|left; reflexivity].
      cbn [Tw]. destruct (Hyes eq_refl) as [H1 H2]. auto 8.
    - (* KDel2 *) injection Hst as <- <-. apply (step_ret st cs); assumption.
    - (* KHas *) injection Hst as <- <-. apply (step_ret st cs); assumption.
    - (* KFind *) destruct found; injection Hst as <- <-; apply (step_ret st cs); assumption.
    - (* KItF *) destruct found; injection Hst as <- <-.
      + apply Inv_add_hist; [|sprj; apply upd_same]. apply (step_move st cs); try assumption. apply IT0_land; assumption.
      + apply Inv_add_hist; [|unfold HmmDefs.end_trav; sprj; apply upd_same]. apply (step_end st cs); assumption.
    - (* KItN *) eapply it_land_inv; eassumption.
    - (* KItE *) eapply it_land_inv; eassumption.
  Qed.

  Lemma Inv_init : Inv init.
  Proof.
    exists (fun _ => []). split; [|split].
    - (* no node, no event: every clause is vacuous *)
      constructor; unfold known; cbn; try (constructor; constructor; fail); try (constructor; fail);
        intros; try tauto; try discriminate; try lia; firstorder.
    - intros t. split; [exact I|]. cbn. apply IT0_end.
    - intros t t' n _ Hc. discriminate.
  Qed.

  Lemma cond_true (a b : N) (mk : bool) : (a =? b) && negb mk = true -> a = b /\ mk = false.
  Proof.
    intros H. apply andb_prop in H. destruct H as [H1 H2]. apply N.eqb_eq in H1.
    destruct mk; [discriminate | auto].
  Qed.

  Lemma T_set_mem st cs m' cs' :
    G (sm st) cs -> (forall t', T st cs t') -> mono (sm st) cs m' cs' 0 -> forall t', T (set_mem st m') cs' t'.
  Proof.
    intros HG HT HM t'. destruct (HT t') as [H1 H2]. unfold T. sprj. split; [|exact (IT0_mono _ _ _ _ _ HG HM _ _ _ H2)].
    eapply Tw_stable; [exact HG | exact HM | | | exact H1].
    - intros n Hn. eapply sp_zero; eassumption.
    - intros Hnz. destruct H2 as [_ H2]. destruct (H2 Hnz) as [_ (_ & Hk & _)]. exact Hk.
  Qed.

  (** the find started by operator++ / erase(iterator) on the marked node of the iterator *)
  Lemma it_find_ok st cs t (c : fk) : G (sm st) cs -> IT0 (sm st) cs (it_b (its st t)) (it_sv (its st t)) (it_cur (its st t)) ->
    it_cur (its st t) <> 0 -> nmark (sm st) (it_cur (its st t)) = true ->
    (c = KItN (it_cur (its st t)) \/ c = KItE (it_cur (its st t))) ->
    Tw (sm st) cs (g_lp st t) (it_b (its st t)) (it_sv (its st t)) (it_cur (its st t))
       (F1 c (it_b (its st t)) (nh (sm st) (it_cur (its st t))) (nkey (sm st) (it_cur (its st t))) (it_sv (its st t))).
  Proof.
    intros HG [Hi1 Hi2] Hnz Hm Hc. destruct (Hi2 Hnz) as [Hpre Hon]. cbn [Tw]. split; [|split; assumption].
    split; [|split].
    - apply (nh_hash _ cs); [exact HG | exact Hnz|]. apply (G_bound _ _ HG). exact (proj1 (proj2 Hon)).
    - symmetry. exact (proj2 (proj2 Hon)).
    - destruct Hc as [-> | ->]; cbn [cont_ok]; auto.
  Qed.

  Lemma Tw_begin m cs w ib isv icur c k :
    cont_ok m cs w ib icur c (bucket_of k) (hf k) k -> Tw m cs w ib isv icur (F1 c (bucket_of k) (hf k) k 0).
  Proof. intros H. split; [split; [reflexivity | split; [reflexivity | exact H]] | apply okprev_zero]. Qed.

  (** splits off the leading conjuncts of the goal that are hypotheses *)
  Ltac peel := repeat (split; [assumption|]).

  Lemma Inv_step0 s a s' es : Inv s -> step0 s a = Some (s', es) -> Inv s'.
  Proof.
    intros [cs (HG & HT & HU)] Hst. apply step0_tstep in Hst.
    destruct Hst; destruct (HT t) as [Ht Hit]; rewrite E in Ht; cbn [Tw] in Ht;
      pose proof (fun p Hp => step_go s cs t p HG HT HU Hp) as Hgo; rewrite E in Hgo; cbn [fresh_of] in Hgo.
    - apply Hgo; [exact I | auto].
    - (* emplace: allocation of the new node *)
      destruct (alloc_fresh (sm s) cs k v HG) as (Hf1 & Hf2 & Hf3).
      apply (step_alloc s cs t k v _ None HG HT HU); [reflexivity|]. rewrite Hf3. apply Tw_begin. split; assumption.
    - apply (step_go_lp s cs t _ _ HG HT HU); [apply Tw_begin; left; reflexivity | auto].
    - apply (step_go_lp s cs t _ _ HG HT HU); [apply Tw_begin; exact I | auto].
    - apply (step_go_lp s cs t _ _ HG HT HU); [apply Tw_begin; exact I | auto].
    - apply (step_go_lp s cs t _ _ HG HT HU); [apply Tw_begin; exact I | auto].
    - apply (step_start s cs t _ _ HG HT HU); [exact I | reflexivity].
    - apply (step_start s cs t _ _ HG HT HU); [apply Tw_begin; exact I | reflexivity].
    - apply Hgo; [exact I | auto].
    - apply Hgo; [apply N.eqb_neq; exact Hc | auto].
    - apply Hgo; [exact I | auto].
    - apply Hgo; [exact I | auto].
    - apply Hgo; [apply N.eqb_neq; exact Hc | auto].
    - apply (step_end s cs t HG HT HU).
    - (* F1 *) destruct Ht as (Hco & Hstart). apply Hgo; [split; [exact Hco | apply okprev_zero] | auto].
    - destruct Ht as (Hco & Hstart). apply Hgo; [peel | auto]. apply closed_ref; [exact HG | exact (proj1 Hstart) | exact Hc].
    - (* F2 *) destruct Ht as (Hco & Hstart & Hsv & Hnxk). apply Hgo; [peel; assumption | auto].
    - destruct Ht as (Hco & Hstart & Hsv & Hnxk).
      eapply (find_ret_inv s cs t c b h key sv 0 0 false); try eassumption;
        [rewrite E; reflexivity | discriminate | intros _ Hz; contradiction].
    - destruct Ht as (Hco & Hstart & Hsv & Hnxk). apply Hgo; [peel | auto].
      apply N.eqb_neq in Hc0. destruct Hnxk as [Hnxk | Hnxk]; [contradiction | exact Hnxk].
    - (* F3 *) destruct Ht as (Hco & Hstart & Hsv & Hcur). apply Hgo; [peel; assumption | auto].
    - destruct Ht as (Hco & Hstart & Hsv & Hcur). apply andb_prop in Hc0. destruct Hc0 as [Hk Hd]. apply N.eqb_eq in Hk.
      apply negb_true_iff in Hd.
      apply (step_go_lp s cs t _ _ HG HT HU); [|rewrite E; auto].
      split; [eapply fcom_lp; eassumption|]. peel. split; [|apply closed_nx; assumption].
      intros _ _. exists (nval (sm s) cur). split; [|reflexivity]. f_equal. rewrite <- Hk.
      apply (abs_lookup _ cs); [exact HG | | exact Hc]. apply unmarked_in_chain; [exact HG | exact (proj1 (proj2 Hcur)) | exact Hc].
    - destruct Ht as (Hco & Hstart & Hsv & Hcur). apply Hgo; [peel | auto]. split; [|apply closed_nx; assumption].
      intros Hd Hk. exfalso. apply N.eqb_eq in Hk. rewrite Hk, Hd in Hc0. discriminate.
    - (* F4 *) destruct Ht as (Hco & Hstart & Hsv & Hcur & Hm). apply Hgo; [peel; reflexivity | auto].
    - (* F5 *) destruct Ht as (Hco & Hstart & Hsv & Hcur & Hm & Hn).
      apply (step_unlink s cs _ t (F2 c b h key start sv nx) b sv cur nx); try assumption; try reflexivity;
        [exact (proj1 Hsv) | oth_tac | | rewrite E; auto].
      peel. rewrite <- Hn. apply closed_nx; assumption.
    - destruct Ht as (Hco & Hstart & Hsv & Hcur & Hm & Hn). apply Hgo; [peel; assumption | auto].
    - (* F6 *) destruct Ht as (Hco & Hstart & Hsv & Hcur & Hlp & Hnxk). apply Hgo; [peel; assumption | auto].
    - destruct Ht as (Hco & Hstart & Hsv & Hcur & Hlp & Hnxk).
      eapply (find_ret_inv s cs t c b h key sv cur nx (nkey (sm s) cur =? key)); try eassumption.
      + rewrite E. reflexivity.
      + intros Hf. apply N.eqb_eq in Hf. split; [exact Hcur | exact Hf].
      + intros Hf _. apply N.eqb_neq in Hf. auto.
    - destruct Ht as (Hco & Hstart & Hsv & Hcur & Hlp & Hnxk).
      destruct (valid_chain _ _ _ _ _ HG (proj1 Hsv) Hc) as (Hsvc & Hnx & Hm).
      apply Hgo; [peel | auto]. split; [|exact Hnxk]. split; [right; exact (proj2 Hcur)|].
      exact (pre_advance _ _ _ _ _ _ _ HG Hsvc Hnx (proj1 Hcur) (proj2 Hsv) Hc0).
    - (* E1 *) destruct Ht as ((Hfr & Hnv) & Hh & Hb & Hsv & Hcurc).
      eapply (step_mem s cs _ cs n _ t (E2 g n v b h key sv cur) HG HT HU); try reflexivity;
        [exact (store_step (sm s) cs n cur HG (proj1 (proj2 (proj2 Hfr)))) | right; rewrite E; reflexivity | oth_tac |
         | right; rewrite E; reflexivity].
      cbn [Tw]. split; [split; assumption|]. peel. cbn [m_store nnext]. apply setf_same.
    - (* E2 *) destruct Ht as ((Hfr & Hnv) & -> & Hb & Hsv & Hcurc & Hnn).
      destruct (link_step (sm s) cs t b sv n cur key HG Hfr (eq_sym Hb) Hnn Hsv Hc Hcurc) as (_ & cs' & HE).
      eapply (step_mem s cs _ cs' n _ t Idle HG HT HU); try reflexivity;
        [exact HE | right; rewrite E; reflexivity | oth_tac | left; reflexivity].
    - destruct Ht as ((Hfr & Hnv) & Hh & Hb & Hsv & Hcurc & Hnn). apply Hgo.
      + split; [|exact Hsv]. peel. destruct g; cbn [cont_ok]; [right|]; split; assumption.
      + right. destruct g; cbn [fresh_of fresh_of_k]; [|reflexivity].
        destruct (N.eqb_spec n 0) as [Hz|_]; [exfalso; exact (proj1 Hfr Hz) | reflexivity].
    - (* D1 *) destruct Ht as (Hh & Hb & Hsv & Hcur & Hck & Hnxk). apply cond_true in Hc. destruct Hc as [Hnx Hcm].
      destruct (mark_step (sm s) cs t cur false HG (proj1 (proj2 Hcur)) Hcm) as (HE & Hlk).
      eapply (step_mem s cs _ cs 0 _ t (D2 b h key sv cur nx) HG HT HU); try reflexivity;
        [exact HE | left; reflexivity | oth_tac | | left; reflexivity].
      sprj. rewrite upd_same. cbn [Tw]. peel. split; [cbn [m_mark nmark]; apply setf_same|]. split; [exact Hnx|].
      exists (nval (sm s) cur). rewrite <- Hck, Hlk. reflexivity.
    - destruct Ht as (Hh & Hb & Hsv & Hcur & Hck & Hnxk). apply Hgo; [|auto].
      split; [|exact Hsv]. peel. exact I.
    - (* D2 *) destruct Ht as (Hh & Hb & Hsv & Hcur & Hck & Hm & Hn & Hlp).
      apply (step_unlink s cs _ t Idle b sv cur nx); try assumption; try reflexivity;
        first [exact (proj1 Hsv) | oth_tac | exact I | left; reflexivity].
    - destruct Ht as (Hh & Hb & Hsv & Hcur & Hck & Hm & Hn & Hlp). apply Hgo; [|auto].
      split; [|exact Hsv]. peel. exact Hlp.
    - (* MB *) eapply (it_land_inv s cs t c b 0 (bhead (sm s) b)); try eassumption; [left; reflexivity | reflexivity].
    - (* N1 *) apply Hgo; [|auto]. apply it_find_ok; auto.
    - apply Hgo; [|auto]. split; [exact Ht|]. apply closed_nx; [exact HG|]. exact (proj2 (proj2 Hit Ht)).
    - (* N2 *) destruct Ht as [Hnz Hnxk]. apply cond_true in Hc. destruct Hc as [Hnx Hcm].
      eapply (it_land_inv s cs t MNext (it_b (its s t)) (it_cur (its s t)) nx); try eassumption.
      + right. apply (node_in_chain (sm s)); [exact HG | exact (proj2 (proj2 Hit Hnz)) | exact Hcm].
      + rewrite pnext_nz by exact Hnz. exact Hnx.
    - apply Hgo; [exact (proj1 Ht) | auto].
    - (* X1 *) apply Hgo; [cbn [Tw]; auto | auto].
    - apply Hgo; [|auto]. split; [exact Ht|]. apply closed_nx; [exact HG|]. exact (proj2 (proj2 Hit Ht)).
    - (* X2 *) destruct Ht as [Hnz Hnxk]. apply cond_true in Hc. destruct Hc as [Hnx Hcm].
      destruct (proj2 Hit Hnz) as [_ Hon].
      destruct (mark_step (sm s) cs t (it_cur (its s t)) true HG (proj1 (proj2 Hon)) Hcm) as (HE & _).
      eapply (step_mem s cs _ cs 0 _ t (X3 nx) HG HT HU); try reflexivity;
        [exact HE | left; reflexivity | oth_tac | | left; reflexivity].
      cbn [Tw]. split; [exact Hnz|]. split; [cbn [m_mark nmark]; apply setf_same | exact Hnx].
    - destruct Ht as [Hnz Hnxk]. apply Hgo; [cbn [Tw]; auto | auto].
    - destruct Ht as [Hnz Hnxk]. apply Hgo; [|auto]. split; [exact Hnz|]. apply closed_nx; [exact HG|]. exact (proj2 (proj2 Hit Hnz)).
    - (* X3 *) destruct Ht as (Hnz & Hm & Hn).
      destruct (unlink_step (sm s) cs _ _ _ nx HG (proj1 Hit) Hc Hnz Hm Hn) as (cs' & (HG' & HM & _) & _ & Hps & Hsvc).
      eapply (it_land_inv (set_mem s (m_unlink (sm s) (it_b (its s t)) (it_sv (its s t)) (it_cur (its s t)) nx)) cs' t);
        [exact HG' | apply (T_set_mem s cs); assumption | exact HU | exact Hsvc | exact Hps | exact Hr].
    - destruct Ht as (Hnz & Hm & Hn). apply Hgo; [|auto]. apply it_find_ok; auto.
  Qed.

  Lemma Inv_refresh st : Inv st -> Inv (refresh st).
  Proof. intros (cs & HG & HT & HU). exists cs. split; [exact HG|]. split; [|exact HU]. intros t. exact (HT t). Qed.

  Lemma Inv_step s a s' es : Inv s -> step s a = Some (s', es) -> Inv s'.
  Proof.
    intros HI Hst. unfold HmmDefs.step in Hst. destruct (step0 s a) as [[s1 e1]|] eqn:E0; [|discriminate].
    injection Hst as <- <-. apply Inv_refresh. eapply Inv_step0; eassumption.
  Qed.

  Theorem Inv_reach st : reach init step st -> Inv st.
  Proof. apply inv_rule; [exact Inv_init | exact Inv_step]. Qed.

  (** * The chains as a computable function of the memory *)

  Lemma walk_links nx l : forall a fuel, linksto nx (a :: l) 0 -> (forall x, In x l -> x <> 0) ->
    (length l <= fuel)%nat -> walk nx fuel a = l.
  Proof.
    induction l as [|b r IH]; intros a fuel HL Hnz Hlen; cbn [HmlInv.linksto hd] in HL.
    - destruct HL as [Hz _]. destruct fuel; cbn [walk]; [reflexivity|]. rewrite Hz. reflexivity.
    - destruct HL as [Hb HL]. destruct fuel as [|f]; [cbn [length] in Hlen; lia|]. cbn [walk]. rewrite Hb.
      destruct (N.eqb_spec b 0) as [Hz|Hz]; [exfalso; apply (Hnz b); [left; reflexivity | exact Hz]|].
      f_equal. apply IH; [exact HL | intros x Hx; apply Hnz; right; exact Hx | cbn [length] in Hlen; lia].
  Qed.

  Lemma chain_eq m cs b : G m cs -> cs b = chain m b.
  Proof.
    intros HG. symmetry. unfold chain. apply walk_links.
    - exact (G_links _ _ HG b).
    - intros x Hx. eapply chain_nz; eassumption.
    - assert (H : (length (N0 :: cs b) <= N.to_nat (nalloc m))%nat).
      { apply bounded_nodup_length; [exact (G_nodup _ _ b HG)|]. intros x [<- | Hx]; [exact (G_pos _ _ HG) | eapply chain_bound; eassumption]. }
      cbn [length] in H. lia.
  Qed.

  Lemma Inv_chain st : Inv st ->
    exists cs, (forall b, cs b = chain (sm st) b) /\ G (sm st) cs /\ (forall t, T st cs t) /\ U (th st).
  Proof. intros [cs (HG & HT & HU)]. exists cs. split; [intros b; eapply chain_eq; eassumption | auto]. Qed.

  (** * Linearization: results of the completed operations *)

  Definition is_some (o : option N) : bool := match o with Some _ => true | None => false end.
  (** sequential specification: result flag and value seen of operation [o] when the lookup of its key in the
      map gives [mo] *)
  Definition res_for (o : op) (mo : option N) : bool * N :=
    match o with
    | OIns _ _ => (negb (is_some mo), 0)
    | OGet _ v => (negb (is_some mo), match mo with Some v' => v' | None => v end)
    | ODel _ | OHas _ => (is_some mo, 0)
    | OFind _ | OItF _ => (is_some mo, match mo with Some v' => v' | None => 0 end)
    | _ => (false, 0)
    end.

  Definition hist_ok (h : hrec) : Prop :=
    exists mo, h_wit h = Some mo /\ (h_res h, h_val h) = res_for (h_op h) mo.

  Definition Hist (st : state) : Prop := forall h, In h (g_hist st) -> hist_ok h.

  Lemma Hist_snoc st st' h : Hist st -> g_hist st' = g_hist st ++ [h] -> hist_ok h -> Hist st'.
  Proof.
    intros HH E Hh h' Hin. rewrite E in Hin. apply in_app_or in Hin.
    destruct Hin as [Hin | [<- | []]]; [apply HH; exact Hin | exact Hh].
  Qed.
  Lemma Hist_same st st' : Hist st -> g_hist st' = g_hist st -> Hist st'.
  Proof. intros HH E h Hin. rewrite E in Hin. apply HH. exact Hin. Qed.

  Lemma find_ret_hist st t c b h key sv cur nx found w e st' es :
    Hist st ->
    (found = true -> is_del2 c = false -> g_lp st t = Some (Some (nval (sm st) cur))) ->
    (found = false -> lookup key (g_abs (sm st)) = None) ->
    (is_del2 c = true -> is_some2 (g_lp st t)) ->
    find_ret nb memo hf st t c b h key sv cur nx found w e = Some (st', es) -> Hist st'.
  Proof.
    intros HH Hyes Hno Hd2 Hst. unfold find_ret in Hst.
    destruct c as [n v|n v| | | | | |o|o]; cbn [is_del2] in *;
      try (eapply Hist_same; [exact HH | exact (it_land_hist Hst)]);
      try (destruct (Hd2 eq_refl) as [v0 Hv0]);
      destruct found; try rewrite (Hyes eq_refl eq_refl) in Hst; try rewrite (Hno eq_refl) in Hst;
      try (destruct (n =? 0));
      injection Hst as <- <-; try exact HH;
      (eapply Hist_snoc; [exact HH | reflexivity |]);
      unfold hist_ok; cbn [h_op h_wit h_res h_val res_for];
      first [ eexists; split; [reflexivity | reflexivity]
            | exists (Some v0); split; [exact Hv0 | reflexivity] ].
  Qed.

  Lemma Hist_step0 s a s' es : Inv s -> Hist s -> step0 s a = Some (s', es) -> Hist s'.
  Proof.
    intros [cs (HG & HT & HU)] HH Hst. apply step0_tstep in Hst.
    (* only the returns of map operations and the landings of an iterator remain *)
    destruct Hst; try exact HH; try (eapply Hist_same; [exact HH | exact (it_land_hist Hr)]);
      destruct (HT t) as [Ht Hit]; rewrite E in Ht; cbn [Tw] in Ht.
    - (* F2 *) destruct Ht as ((-> & Hb & Hco) & Hstart & Hsv & Hnxk).
      eapply (find_ret_hist s t c b _ key sv 0 0 false); [exact HH | discriminate | | | exact Hr].
      + intros _. apply (absent_prev (sm s) cs b sv 0 key HG Hb Hsv Hc). intros Hz. contradiction.
      + intros Hd. destruct c; try discriminate. exact Hco.
    - (* F6 *) destruct Ht as ((-> & Hb & Hco) & Hstart & Hsv & Hcur & Hlp & Hnxk).
      eapply (find_ret_hist s t c b _ key sv cur nx (nkey (sm s) cur =? key)); [exact HH | | | | exact Hr].
      + intros Hf Hd. apply N.eqb_eq in Hf. destruct (Hlp Hd Hf) as (v0 & H1 & H2). rewrite H1, H2. reflexivity.
      + intros Hf. apply N.eqb_neq in Hf. apply (absent_prev (sm s) cs b sv cur key HG Hb Hsv Hc). auto.
      + intros Hd. destruct c; try discriminate. exact Hco.
    - (* E2 *) destruct Ht as ((Hfr & Hnv) & -> & Hb & Hsv & Hcurc & Hnn).
      pose proof (absent_prev (sm s) cs b sv cur key HG Hb Hsv Hc (fun Hz => proj2 (Hcurc Hz))) as Habs.
      eapply Hist_snoc; [exact HH | reflexivity |]. exists None. split; [cbn [h_wit]; f_equal; exact Habs|].
      destruct g; cbn [h_op h_res h_val res_for is_some negb]; rewrite ?Hnv; reflexivity.
    - (* D2 *) destruct Ht as (Hh & Hb & Hsv & Hcur & Hck & Hm & Hn & (v0 & Hlp)).
      eapply Hist_snoc; [exact HH | reflexivity|]. exists (Some v0). split; [exact Hlp | reflexivity].
  Qed.

  Theorem Hist_reach st : reach init step st -> Hist st.
  Proof.
    apply (inv_rule_aux _ _ _ init step Inv Hist Inv_reach).
    - intros h [].
    - intros s a s' es HI _ HH Hst. destruct (step_split Hst) as (s1 & H0 & ->).
      eapply Hist_same; [eapply Hist_step0; eassumption | reflexivity].
  Qed.

  (** * The linearization order and the completed operations, thread by thread *)

  (** successful mutating map operations *)
  Inductive mop := MI (k v : N) | MD (k : N).

  Definition lev_op (t : nat) (e : lev) : list mop :=
    match e with
    | LIns t' k v _ => if Nat.eqb t' t then [MI k v] else []
    | LDel t' k _ it => if Nat.eqb t' t && negb it then [MD k] else []
    end.
  (** successful emplace / get_or_emplace / erase(key) of thread [t] in linearization order *)
  Definition proj_lin (t : nat) (l : list lev) : list mop := flat_map (lev_op t) l.

  Definition hrec_op (t : nat) (h : hrec) : list mop :=
    if Nat.eqb (h_t h) t && h_res h then
      match h_op h with OIns k v | OGet k v => [MI k v] | ODel k => [MD k] | _ => [] end
    else [].
  (** completed successful emplace / get_or_emplace / erase(key) of thread [t] in order of return *)
  Definition proj_hist (t : nat) (l : list hrec) : list mop := flat_map (hrec_op t) l.

  Definition pend_k (c : fk) (key : N) : list mop := if is_del2 c then [MD key] else [].
  (** an erase(key) that has marked its node and has not returned yet *)
  Definition pending (p : pc) : list mop :=
    match p with
    | D2 _ _ key _ _ _ => [MD key]
    | F1 c _ _ key _ | F2 c _ _ key _ _ _ | F3 c _ _ key _ _ _ | F4 c _ _ key _ _ _ | F5 c _ _ key _ _ _ _
    | F6 c _ _ key _ _ _ _ _ => pend_k c key
    | _ => []
    end.

  Definition Pend (st : state) : Prop :=
    forall t, proj_lin t (g_lin (sm st)) = proj_hist t (g_hist st) ++ pending (th st t).

  Definition lev_t (e : lev) : nat := match e with LIns t _ _ _ | LDel t _ _ _ => t end.

  Lemma proj_lin_other t t' dl : (forall e, In e dl -> lev_t e = t) -> t' <> t -> proj_lin t' dl = [].
  Proof.
    intros H Hne. induction dl as [|e dl IH]; [reflexivity|]. unfold proj_lin in *. cbn [flat_map].
    rewrite IH by (intros e' He'; apply H; right; exact He'). rewrite app_nil_r.
    pose proof (H e (or_introl eq_refl)) as He. destruct e as [t0 k v n | t0 k n i]; cbn [lev_t lev_op] in *; subst t0;
      (destruct (Nat.eqb_spec t t'); [congruence | reflexivity]).
  Qed.

  Lemma proj_hist_other t t' dh : (forall h, In h dh -> h_t h = t) -> t' <> t -> proj_hist t' dh = [].
  Proof.
    intros H Hne. induction dh as [|h dh IH]; [reflexivity|]. unfold proj_hist in *. cbn [flat_map].
    rewrite IH by (intros h' Hh'; apply H; right; exact Hh'). rewrite app_nil_r.
    pose proof (H h (or_introl eq_refl)) as Hh. unfold hrec_op. rewrite Hh.
    destruct (Nat.eqb_spec t t'); [congruence | reflexivity].
  Qed.

  Lemma Pend_intro st st' t p dl dh :
    Pend st -> th st' = upd (th st) t p -> g_lin (sm st') = g_lin (sm st) ++ dl -> g_hist st' = g_hist st ++ dh ->
    (forall e, In e dl -> lev_t e = t) -> (forall h, In h dh -> h_t h = t) ->
    pending (th st t) ++ proj_lin t dl = proj_hist t dh ++ pending p ->
    Pend st'.
  Proof.
    intros HP Eth Elin Ehist Hdl Hdh Heq t'. rewrite Eth, Elin, Ehist. unfold proj_lin, proj_hist.
    rewrite !flat_map_app. fold (proj_lin t' (g_lin (sm st))) (proj_lin t' dl) (proj_hist t' (g_hist st)) (proj_hist t' dh).
    rewrite (HP t'). destruct (Nat.eq_dec t' t) as [->|Hne].
    - rewrite upd_same, <- !app_assoc. f_equal. exact Heq.
    - rewrite upd_other by exact Hne. rewrite (proj_lin_other t t' dl Hdl Hne), (proj_hist_other t t' dh Hdh Hne).
      rewrite !app_nil_r. reflexivity.
  Qed.

  Lemma Pend_same st st' t p :
    Pend st -> th st' = upd (th st) t p -> g_lin (sm st') = g_lin (sm st) -> g_hist st' = g_hist st ->
    pending (th st t) = pending p -> Pend st'.
  Proof.
    intros HP Eth Elin Ehist Heq. apply (Pend_intro st st' t p [] []); try assumption.
    - rewrite Elin, app_nil_r. reflexivity.
    - rewrite Ehist, app_nil_r. reflexivity.
    - intros e [].
    - intros h [].
    - cbn. rewrite app_nil_r. exact Heq.
  Qed.

  Lemma Pend_ret st st' t h :
    Pend st -> th st' = upd (th st) t Idle -> g_lin (sm st') = g_lin (sm st) -> g_hist st' = g_hist st ++ [h] ->
    h_t h = t -> pending (th st t) = hrec_op t h -> Pend st'.
  Proof.
    intros HP Eth Elin Ehist Ht Heq. apply (Pend_intro st st' t Idle [] [h]); try assumption.
    - rewrite Elin, app_nil_r. reflexivity.
    - intros e [].
    - intros h' [<- | []]. exact Ht.
    - unfold proj_hist. cbn [flat_map proj_lin pending]. rewrite !app_nil_r. exact Heq.
  Qed.

  Lemma Pend_step0 s a s' es : Inv s -> Pend s -> step0 s a = Some (s', es) -> Pend s'.
  Proof.
    intros [cs (HG & HT & HU)] HP Hst. apply step0_tstep in Hst.
    (* [g_lin] grows at E2, D1, X2; the other steps keep [pending], or return what was pending *)
    destruct Hst; try ret_cases Hr;
      try (eapply Pend_same; [exact HP | reflexivity | reflexivity | reflexivity | rewrite E; try destruct g; reflexivity]);
      try (eapply Pend_ret; [exact HP | reflexivity | reflexivity | reflexivity | reflexivity |
                             rewrite E; unfold hrec_op; cbn [h_t h_res h_op pending pend_k is_del2]; rewrite ?Nat.eqb_refl; reflexivity]);
      destruct (HT t) as [Ht _]; rewrite E in Ht; cbn [Tw] in Ht.
    - (* E2 *) destruct Ht as (((_ & _ & _ & Hnk) & Hnv) & _).
      eapply (Pend_intro s _ t Idle [LIns t (nkey (sm s) n) (nval (sm s) n) n] [mkH t (if g then OGet key v else OIns key v) true _ _]);
        [exact HP | reflexivity | reflexivity | reflexivity | | |].
      + intros e [<- | []]. reflexivity.
      + intros h0 [<- | []]. reflexivity.
      + rewrite E, Hnk, Hnv. unfold proj_lin, proj_hist, hrec_op. cbn [flat_map lev_op pending h_t h_res h_op app].
        rewrite Nat.eqb_refl. destruct g; reflexivity.
    - (* D1 *) destruct Ht as (_ & _ & _ & _ & Hck & _).
      eapply (Pend_intro s _ t (D2 b h key sv cur nx) [LDel t (nkey (sm s) cur) cur false] []);
        [exact HP | reflexivity | reflexivity | | | |].
      + sprj. rewrite app_nil_r. reflexivity.
      + intros e [<- | []]. reflexivity.
      + intros h0 [].
      + rewrite E, Hck. unfold proj_lin, proj_hist. cbn [flat_map lev_op pending app negb andb].
        rewrite Nat.eqb_refl. reflexivity.
    - (* X2 *)
      eapply (Pend_intro s _ t (X3 nx) [LDel t (nkey (sm s) (it_cur (its s t))) (it_cur (its s t)) true] []);
        [exact HP | reflexivity | reflexivity | | | |].
      + sprj. rewrite app_nil_r. reflexivity.
      + intros e [<- | []]. reflexivity.
      + intros h0 [].
      + rewrite E. unfold proj_lin, proj_hist. cbn [flat_map lev_op pending app negb andb].
        rewrite Bool.andb_false_r. reflexivity.
  Qed.

  Theorem Pend_reach st : reach init step st -> Pend st.
  Proof.
    apply (inv_rule_aux _ _ _ init step Inv Pend Inv_reach).
    - intros t. reflexivity.
    - intros s a s' es HI _ HP Hst. destruct (step_split Hst) as (s1 & H0 & ->).
      intros t. exact (Pend_step0 _ _ _ _ HI HP H0 t).
  Qed.

  Lemma step0_ext s a s' es cs : G (sm s) cs -> (forall t, T s cs t) -> step0 s a = Some (s', es) ->
    exists cs' sp l, ext (sm s) cs (sm s') cs' sp l.
  Proof.
    intros HG HT Hst. apply step0_tstep in Hst.
    destruct Hst; sprj; try (exists cs, 0, []; apply ext_refl; exact HG);
      destruct (HT t) as [Ht Hit]; rewrite E in Ht; cbn [Tw] in Ht.
    - exists cs, 0, []. apply alloc_step. exact HG.
    - destruct (find_ret_sm Hr) as [-> | [v0 ->]]; exists cs, 0, []; [apply ext_refl | apply alloc_step]; exact HG.
    - (* F5 *) destruct Ht as (_ & _ & Hsv & Hcur & Hm & Hn).
      destruct (unlink_step (sm s) cs b sv cur nx HG (proj1 Hsv) Hc (proj1 Hcur) Hm Hn) as (cs' & He & _). exists cs', 0, []. exact He.
    - destruct (find_ret_sm Hr) as [-> | [v0 ->]]; exists cs, 0, []; [apply ext_refl | apply alloc_step]; exact HG.
    - (* E1 *) destruct Ht as ((Hfr & _) & _). exists cs, n, []. apply store_step; [exact HG | exact (proj1 (proj2 (proj2 Hfr)))].
    - (* E2 *) destruct Ht as ((Hfr & _) & -> & Hb & Hsv & Hcurc & Hnn).
      destruct (link_step (sm s) cs t b sv n cur key HG Hfr (eq_sym Hb) Hnn Hsv Hc Hcurc) as (_ & cs' & He). exists cs', n. eexists. exact He.
    - (* D1 *) destruct Ht as (_ & _ & _ & Hcur & _). apply cond_true in Hc. destruct Hc as [_ Hcm].
      exists cs, 0. eexists. exact (proj1 (mark_step (sm s) cs t cur false HG (proj1 (proj2 Hcur)) Hcm)).
    - (* D2 *) destruct Ht as (_ & _ & Hsv & Hcur & _ & Hm & Hn & _).
      destruct (unlink_step (sm s) cs b sv cur nx HG (proj1 Hsv) Hc (proj1 Hcur) Hm Hn) as (cs' & He & _). exists cs', 0, []. exact He.
    - (* MB *) rewrite (it_land_sm Hr). exists cs, 0, []. apply ext_refl. exact HG.
    - (* N2 *) rewrite (it_land_sm Hr). exists cs, 0, []. apply ext_refl. exact HG.
    - (* X2 *) destruct Ht as [Hnz _]. apply cond_true in Hc. destruct Hc as [_ Hcm].
      exists cs, 0. eexists. exact (proj1 (mark_step (sm s) cs t _ true HG (proj1 (proj2 (proj2 (proj2 Hit Hnz)))) Hcm)).
    - (* X3 *) destruct Ht as (Hnz & Hm & Hn). rewrite (it_land_sm Hr). sprj.
      destruct (unlink_step (sm s) cs _ _ _ nx HG (proj1 Hit) Hc Hnz Hm Hn) as (cs' & He & _). exists cs', 0, []. exact He.
  Qed.

  (** * Theorems *)

  (** the order of the chains in plain words, for the three ordering predicates *)
  Lemma le2_nomemo m x y : memo = false -> (le2 m y x = false <-> nkey m x < nkey m y).
  Proof. intros H. unfold le2, HmmDefs.gef. rewrite H. lia. Qed.
  Lemma le2_lex m x y : memo = true -> lex = true ->
    (le2 m y x = false <-> nhash m x < nhash m y \/ (nhash m x = nhash m y /\ nkey m x < nkey m y)).
  Proof. intros H1 H2. unfold le2, HmmDefs.gef, HmmDefs.nh. rewrite H1, H2. destruct (N.eqb_spec (nhash m x) (nhash m y)); lia. Qed.
  Lemma le2_conj m x y : memo = true -> lex = false ->
    (le2 m y x = false <-> nhash m x < nhash m y \/ nkey m x < nkey m y).
  Proof. intros H1 H2. unfold le2, HmmDefs.gef, HmmDefs.nh. rewrite H1, H2. lia. Qed.

  Section Theorems.
    Variable st : state.
    Hypothesis Hreach : reach init step st.

    Let HI := Inv_chain st (Inv_reach st Hreach).

    (** 1a. structure of every bucket chain: [buckets[b]] points to its first node, every node to the following
        one, the last one to null; ordered by the predicate the code uses ([le2 y x = false]: the later node is
        not [<=] the earlier one); duplicate-free (acyclic); all nodes allocated, in the bucket their hash
        selects, and their stored hash is the hash of their key *)
    Theorem hmm_structure b :
      linksto (pnext (sm st) b) (0 :: chain (sm st) b) 0 /\
      StronglySorted (fun x y => le2 (sm st) y x = false) (chain (sm st) b) /\
      NoDup (chain (sm st) b) /\
      (forall x, In x (chain (sm st) b) ->
         x <> 0 /\ x < nalloc (sm st) /\ bucket_of (nkey (sm st) x) = b /\ nhash (sm st) x = hf (nkey (sm st) x)).
    Proof.
      destruct HI as (cs & Hext & HG & _ & _). rewrite <- Hext.
      split; [exact (G_links _ _ HG b)|].
      pose proof (G_sorted _ _ HG b) as HS. apply SS_cons_inv in HS. destruct HS as [HS HS0].
      pose proof (G_nodup _ _ b HG) as HN. inversion HN as [|a l Hn0 HN']; subst.
      split; [|split; [exact HN'|]].
      - eapply SS_ext; [|exact HS]. intros x y Hx Hy [_ [H0 | Hlt]]; [|exact Hlt].
        exfalso. exact (chain_nz _ _ _ _ HG Hx H0).
      - intros x Hx. assert (Hxnz : x <> 0) by (eapply chain_nz; eassumption).
        assert (Hlt : x < nalloc (sm st)) by (eapply chain_bound; eassumption).
        split; [exact Hxnz|]. split; [exact Hlt|]. split; [exact (G_bk _ _ HG _ _ Hx) | exact (G_hash _ _ HG x Hxnz Hlt)].
    Qed.

    (** the chains of different buckets are disjoint *)
    Theorem hmm_buckets_disjoint b b' x : In x (chain (sm st) b) -> In x (chain (sm st) b') -> b = b'.
    Proof.
      destruct HI as (cs & Hext & HG & _ & _). rewrite <- !Hext. intros H1 H2.
      rewrite <- (G_bk _ _ HG _ _ H1). exact (G_bk _ _ HG _ _ H2).
    Qed.

    (** 1b. retired nodes: each node is retired at most once, retired nodes are not reachable, are marked and
        allocated; marked nodes are reachable or retired; a node that was linked and is unmarked is reachable
        in the bucket of its key *)
    Theorem hmm_retired :
      NoDup (g_retired (sm st)) /\
      (forall x, In x (g_retired (sm st)) ->
         (forall b, ~ In x (chain (sm st) b)) /\ nmark (sm st) x = true /\ x <> 0 /\ x < nalloc (sm st)) /\
      (forall x, nmark (sm st) x = true -> (exists b, In x (chain (sm st) b)) \/ In x (g_retired (sm st))) /\
      (forall t k v n, In (LIns t k v n) (g_lin (sm st)) -> nmark (sm st) n = false -> In n (chain (sm st) (bucket_of k))).
    Proof.
      destruct HI as (cs & Hext & HG & _ & _).
      split; [exact (G_ret_nodup _ _ HG)|]. split; [|split].
      - intros x Hx. split; [|split; [exact (G_ret_marked _ _ HG x Hx)|split]].
        + intros b Hc. rewrite <- Hext in Hc. exact (G_disj _ _ HG _ _ Hc Hx).
        + intros ->. exact (G_ret_nz _ _ HG Hx).
        + apply (G_bound _ _ HG). right. exact Hx.
      - intros x Hx. destruct (G_marked_known _ _ HG x Hx) as [Hk | Hk]; [left | right; exact Hk].
        exists (bk (sm st) x). rewrite <- Hext. exact Hk.
      - intros t k v n Hin Hm. destruct (G_lins _ _ HG _ _ _ _ Hin) as (H1 & H2 & _). rewrite <- Hext, <- H2.
        apply unmarked_in_chain; assumption.
    Qed.

    (** 2. abstraction: [g_abs] is, as a map with unique keys, the set of key/value pairs of the unmarked nodes
        reachable from the bucket heads - a key is looked for in the bucket its hash selects, and the union
        over all buckets gives the same map; it is the result of applying the successful mutating operations
        in the order of their linearization points *)
    Theorem hmm_abs :
      NoDup (keys (g_abs (sm st))) /\
      (forall k v, In (k, v) (g_abs (sm st)) <->
         exists x, In x (chain (sm st) (bucket_of k)) /\ nmark (sm st) x = false /\ nkey (sm st) x = k /\ nval (sm st) x = v) /\
      (forall k v, In (k, v) (g_abs (sm st)) <->
         exists b x, In x (chain (sm st) b) /\ nmark (sm st) x = false /\ nkey (sm st) x = k /\ nval (sm st) x = v) /\
      g_abs (sm st) = apply_lin (g_lin (sm st)).
    Proof.
      destruct HI as (cs & Hext & HG & _ & _).
      split; [exact (G_abs_nodup _ _ HG)|]. split; [|split; [|exact (G_fold _ _ HG)]].
      - intros k v. rewrite (G_abs _ _ HG), Hext. tauto.
      - intros k v. rewrite (G_abs _ _ HG). split.
        + intros (x & H). exists (bucket_of k), x. rewrite <- Hext. exact H.
        + intros (b & x & H1 & H2 & H3 & H4). exists x. rewrite <- Hext in H1.
          rewrite <- H3. change (bucket_of (nkey (sm st) x)) with (bk (sm st) x). rewrite (G_bk _ _ HG _ _ H1). auto.
    Qed.

    (** 3a. linearization of the completed operations: for every completed map operation the recorded witness
        is [Some mo], where [mo] is the lookup of the key in [g_abs] at the operation's linearization point, and
        result and value seen are those of the sequential map: an insertion succeeds iff the key was absent
        (get_or_emplace then sees its own value, otherwise the stored one), an erase succeeds iff it was
        present, contains / find return the membership (and the stored value) *)
    Theorem hmm_hist h : In h (g_hist st) -> hist_ok h.
    Proof. apply (Hist_reach st Hreach). Qed.

    (** 3b. the successful mutators: each [LDel t k n it] is the successful mark CAS of thread t on node n with
        key k, and no node is marked by two of them (of several racing erases of the same node exactly one
        succeeds); each [LIns t k v n] linked a distinct node carrying key k and value v *)
    Theorem hmm_lin_nodes :
      (forall t k n i, In (LDel t k n i) (g_lin (sm st)) -> nmark (sm st) n = true /\ nkey (sm st) n = k) /\
      NoDup (del_nodes (g_lin (sm st))) /\
      (forall t k v n, In (LIns t k v n) (g_lin (sm st)) ->
         ((exists b, In n (chain (sm st) b)) \/ In n (g_retired (sm st))) /\ n <> 0 /\ nkey (sm st) n = k /\ nval (sm st) n = v) /\
      NoDup (ins_nodes (g_lin (sm st))) /\
      (forall x, nmark (sm st) x = true -> In x (del_nodes (g_lin (sm st)))) /\
      (forall b x, In x (chain (sm st) b) -> In x (ins_nodes (g_lin (sm st)))).
    Proof.
      destruct HI as (cs & Hext & HG & _ & _).
      split; [exact (G_ldel _ _ HG)|]. split; [exact (G_ldel_nodup _ _ HG)|]. split; [|split; [exact (G_lins_nodup _ _ HG)|split]].
      - intros t k v n Hin. destruct (G_lins _ _ HG _ _ _ _ Hin) as (H1 & H2 & H3).
        split; [|split; [eapply known_nz; eassumption | auto]].
        destruct H1 as [H1 | H1]; [left; exists (bk (sm st) n); rewrite <- Hext; exact H1 | right; exact H1].
      - exact (G_marked_del _ _ HG).
      - intros b x Hx. rewrite <- Hext in Hx. apply (G_known_ins _ _ HG). eapply known_chain; eassumption.
    Qed.

    (** 3c. per thread, the successful map mutators in linearization order are exactly the thread's completed
        successful emplace / get_or_emplace / erase(key) calls, followed by the erase that has marked its node and
        not yet returned (if any): an erase returns ok iff it performed a successful mark CAS *)
    Theorem hmm_pending t : proj_lin t (g_lin (sm st)) = proj_hist t (g_hist st) ++ pending (th st t).
    Proof. apply (Pend_reach st Hreach). Qed.

    (** 4. conservation: at quiescence the map in the buckets is the result of applying the successful
        operations (in linearization order, which preserves the order of each thread's completed successful
        operations) to the empty map *)
    Corollary hmm_quiescent : (forall t, th st t = Idle) ->
      g_abs (sm st) = apply_lin (g_lin (sm st)) /\
      (forall t, proj_lin t (g_lin (sm st)) = proj_hist t (g_hist st)).
    Proof.
      intros Hq. destruct hmm_abs as (_ & _ & _ & Hfold). split; [exact Hfold|].
      intros t. rewrite (hmm_pending t), (Hq t). cbn [pending]. apply app_nil_r.
    Qed.
  End Theorems.

  (** * Step-level theorems *)

  (** 3d. the abstract map changes exactly at the linearization points of the mutators: the successful link CAS
      (program point E2) adds a key that was absent with the value of the call; the successful mark CAS of
      erase(key) (D1) or erase(iterator) (X2) on an unmarked reachable node removes its key, which was present *)
  Theorem hmm_abs_step s a s' es : reach init step s -> step s a = Some (s', es) ->
    (g_abs (sm s') = g_abs (sm s) /\ g_lin (sm s') = g_lin (sm s)) \/
    (exists t g n v b h key sv cur, a = Step t /\ th s t = E2 g n v b h key sv cur /\
       lookup key (g_abs (sm s)) = None /\ g_abs (sm s') = (key, v) :: g_abs (sm s) /\
       g_lin (sm s') = g_lin (sm s) ++ [LIns t key v n]) \/
    (exists t cur it, a = Step t /\
       ((exists b h key sv nx, th s t = D1 b h key sv cur nx /\ it = false) \/ (exists nx, th s t = X2 nx /\ cur = it_cur (its s t) /\ it = true)) /\
       nmark (sm s) cur = false /\ nmark (sm s') cur = true /\ In cur (chain (sm s) (bk (sm s) cur)) /\
       lookup (nkey (sm s) cur) (g_abs (sm s)) = Some (nval (sm s) cur) /\
       g_abs (sm s') = remk (nkey (sm s) cur) (g_abs (sm s)) /\
       g_lin (sm s') = g_lin (sm s) ++ [LDel t (nkey (sm s) cur) cur it]).
  Proof.
    intros HR Hst. destruct (Inv_chain s (Inv_reach s HR)) as (cs & Hext & HG & HT & HU).
    destruct (step_split Hst) as (s1 & H0 & ->). clear Hst. apply step0_tstep in H0. cbn [refresh sm].
    destruct H0; first [rewrite (it_land_sm Hr) | destruct (find_ret_sm Hr) as [-> | [v0 ->]] | idtac]; sprj;
      try (left; split; reflexivity); destruct (HT t) as [Ht Hit]; rewrite E in Ht; cbn [Tw] in Ht.
    - (* E2 *) right. left. destruct Ht as (((_ & _ & _ & Hnk) & Hnv) & Hh & Hb & Hsv & Hcurc & Hnn).
      exists t, g, n, v, b, h, key, sv, cur. split; [reflexivity|]. split; [exact E|]. cbn [m_link g_abs g_lin]. rewrite Hnk, Hnv.
      split; [|split; reflexivity].
      subst h. exact (absent_prev (sm s) cs b sv cur key HG Hb Hsv Hc (fun Hz => proj2 (Hcurc Hz))).
    - (* D1 *) right. right. destruct Ht as (_ & _ & _ & Hcur & _). apply cond_true in Hc. destruct Hc as [_ Hcm].
      assert (Hcc : In cur (cs (bk (sm s) cur))) by (apply unmarked_in_chain; [exact HG | exact (proj1 (proj2 Hcur)) | exact Hcm]).
      exists t, cur, false. split; [reflexivity|]. split; [left; eauto 8|]. split; [exact Hcm|]. split; [apply setf_same|].
      split; [rewrite <- Hext; exact Hcc|]. split; [apply (abs_lookup _ cs); assumption | split; reflexivity].
    - (* X2 *) right. right. destruct Ht as [Hnz _]. apply cond_true in Hc. destruct Hc as [_ Hcm].
      destruct (proj2 Hit Hnz) as [_ Hon].
      assert (Hcc : In (it_cur (its s t)) (cs (bk (sm s) (it_cur (its s t)))))
        by (apply unmarked_in_chain; [exact HG | exact (proj1 (proj2 Hon)) | exact Hcm]).
      exists t, (it_cur (its s t)), true. split; [reflexivity|]. split; [right; eauto|]. split; [exact Hcm|]. split; [apply setf_same|].
      split; [rewrite <- Hext; exact Hcc|]. split; [apply (abs_lookup _ cs); assumption | split; reflexivity].
  Qed.

  (** 1d. keys, values and stored hashes never change, a marked node is never unmarked and its next pointer never
      changes, retired nodes stay retired, allocation only grows *)
  Theorem hmm_frozen_step s a s' es : reach init step s -> step s a = Some (s', es) ->
    nalloc (sm s) <= nalloc (sm s') /\
    (forall x, In x (g_retired (sm s)) -> In x (g_retired (sm s'))) /\
    forall x, (x < nalloc (sm s) -> nkey (sm s') x = nkey (sm s) x /\ nval (sm s') x = nval (sm s) x /\ nhash (sm s') x = nhash (sm s) x) /\
              (nmark (sm s) x = true -> nmark (sm s') x = true /\ nnext (sm s') x = nnext (sm s) x).
  Proof.
    intros Hr Hst. destruct (Inv_reach s Hr) as (cs & HG & HT & HU).
    destruct (step_split Hst) as (s1 & H0 & ->).
    destruct (step0_ext _ _ _ _ cs HG HT H0) as (cs' & sp & l & _ & HM & _ & Hret).
    cbn [refresh sm]. split; [exact (M_alloc _ _ _ _ _ HM)|]. split; [exact Hret|].
    intros x. split; [apply (M_key _ _ _ _ _ HM) | apply (M_mark _ _ _ _ _ HM)].
  Qed.

  (** ** the ghosts [g_lp], [g_hist] and the calls *)

  Definition op_of (c : fk) (key : N) : op :=
    match c with
    | KIns _ v => OIns key v | KGet _ v => OGet key v | KDel | KDel2 => ODel key | KHas => OHas key
    | KFind => OFind key | KItF => OItF key | KItN _ => OItN | KItE _ => OItE
    end.
  Definition mk_op (c : mk) : op := match c with MBeg => OItB | MNext => OItN | MErase _ => OItE end.
  (** the operation a thread is executing *)
  Definition cur_op (p : pc) : option op :=
    match p with
    | Idle => None
    | Begin o => Some o
    | F1 c _ _ key _ | F2 c _ _ key _ _ _ | F3 c _ _ key _ _ _ | F4 c _ _ key _ _ _ | F5 c _ _ key _ _ _ _
    | F6 c _ _ key _ _ _ _ _ => Some (op_of c key)
    | E1 g _ v _ _ key _ _ | E2 g _ v _ _ key _ _ => Some (if g then OGet key v else OIns key v)
    | D1 _ _ key _ _ _ | D2 _ _ key _ _ _ => Some (ODel key)
    | MB c _ => Some (mk_op c)
    | N1 | N2 _ => Some OItN
    | X1 | X2 _ | X3 _ => Some OItE
    end.
  Definition op_key (o : op) : N :=
    match o with OIns k _ | OGet k _ | ODel k | OHas k | OFind k | OItF k => k | _ => 0 end.
  (** the operations of the map specification (the others only move an iterator) *)
  Definition map_op (o : op) : bool :=
    match o with OIns _ _ | OGet _ _ | ODel _ | OHas _ | OFind _ | OItF _ => true | _ => false end.
  (** the printed result of a map operation with result flag [b] and value seen [v] *)
  Definition ret_enc (o : op) (b : bool) (v : N) : list N :=
    match o with
    | OIns _ _ => [0; b2n b] | OGet k _ => [1; b2n b; k; v] | ODel _ => [2; b2n b] | OHas _ => [3; b2n b]
    | OFind k => 4 :: (if b then [1; k] else [0]) | OItF k => 6 :: (if b then [1; k] else [0])
    | _ => []
    end.

  Lemma it_land_op st t c b sv cur w e st' es : it_land nb st t c b sv cur w e = Some (st', es) ->
    th st' t = Idle \/ cur_op (th st' t) = Some (mk_op c).
  Proof. intros H. ret_cases H; sprj; rewrite upd_same; auto. Qed.
  Lemma find_ret_op st t c b h key sv cur nx found w e st' es :
    find_ret nb memo hf st t c b h key sv cur nx found w e = Some (st', es) ->
    th st' t = Idle \/ cur_op (th st' t) = Some (op_of c key).
  Proof. intros H. ret_cases H; sprj; rewrite upd_same; auto. Qed.

  (** the operation of a call does not change until the call returns *)
  Theorem hmm_op_step s a s' es u o : step s a = Some (s', es) -> cur_op (th s u) = Some o ->
    th s' u = Idle \/ cur_op (th s' u) = Some o.
  Proof.
    intros Hst Hop. destruct (step_split Hst) as (s1 & H0 & ->). clear Hst. cbn [refresh th]. apply step0_tstep in H0.
    destruct (Nat.eq_dec u (actor a)) as [->|Hne]; [|right; rewrite (proj1 (tstep_others _ _ _ _ _ _ _ _ u H0 Hne)); exact Hop].
    destruct H0; cbn [actor] in Hop; rewrite E in Hop; cbn [cur_op] in Hop; try discriminate Hop; injection Hop as <-;
      first [exact (find_ret_op _ _ _ _ _ _ _ _ _ _ _ _ _ _ Hr) | exact (it_land_op _ _ _ _ _ _ _ _ _ _ Hr)
            | sprj; rewrite upd_same; try destruct g; auto].
  Qed.

  Lemma it_land_lp st t c b sv cur w e st' es : it_land nb st t c b sv cur w e = Some (st', es) -> g_lp st' = g_lp st.
  Proof. intros H. ret_cases H; reflexivity. Qed.
  Lemma find_ret_lp st t c b h key sv cur nx found w e st' es :
    find_ret nb memo hf st t c b h key sv cur nx found w e = Some (st', es) ->
    g_lp st' t = g_lp st t \/ g_lp st' t = Some (lookup key (g_abs (sm st))).
  Proof. intros H. ret_cases H; sprj; rewrite ?upd_same; auto. Qed.

  (** [g_lp u] is changed only by steps of thread u itself: reset at the first step of a call, otherwise (map
      operations) set to the lookup of the call's key in the abstract map of the state in which the step is
      taken (an instant inside the call) *)
  Theorem hmm_lp_step s a s' es u o : step s a = Some (s', es) -> cur_op (th s u) = Some o -> map_op o = true ->
    g_lp s' u = g_lp s u \/
    (a = Step u /\ ((th s u = Begin o /\ g_lp s' u = None) \/ g_lp s' u = Some (lookup (op_key o) (g_abs (sm s))))).
  Proof.
    intros Hst Hop Hmo. destruct (step_split Hst) as (s1 & H0 & ->). clear Hst. cbn [refresh g_lp]. apply step0_tstep in H0.
    destruct (Nat.eq_dec u (actor a)) as [->|Hne]; [|left; exact (proj2 (proj2 (tstep_others _ _ _ _ _ _ _ _ u H0 Hne)))].
    assert (Hk : forall c key, map_op (op_of c key) = true -> op_key (op_of c key) = key) by (intros [] key H; try discriminate H; reflexivity).
    destruct H0; cbn [actor] in *; rewrite E in Hop; cbn [cur_op] in Hop; try discriminate Hop; injection Hop as <-;
      cbn [map_op] in Hmo; try discriminate Hmo; try rewrite (Hk _ _ Hmo).
    all: try (rewrite (it_land_lp _ _ _ _ _ _ _ _ _ _ Hr); left; reflexivity).
    all: try (destruct (find_ret_lp _ _ _ _ _ _ _ _ _ _ _ _ _ _ Hr) as [-> | ->]; [left; reflexivity | right; split; [reflexivity | right; reflexivity]]).
    all: sprj; rewrite ?upd_same;
      first [ left; reflexivity
            | right; split; [reflexivity|]; first [left; split; [exact E | reflexivity] | right; try destruct g; reflexivity] ].
  Qed.

  Lemma it_land_ret st t c b sv cur w e st' es u r : it_land nb st t c b sv cur w e = Some (st', es) -> rets e = [] ->
    In (u, r) (rets es) -> u = t /\ th st' t = Idle.
  Proof.
    intros H He Hin. ret_cases H; rewrite ?rets_app, He in Hin; try (destruct Hin; fail);
      destruct Hin as [Hin | []]; injection Hin as <- _; (split; [reflexivity | sprj; apply upd_same]).
  Qed.

  (** a map operation that returns from [find] records its result in [g_hist]; a found node carries the key *)
  Lemma find_ret_ret st t c b h key sv cur nx found w e st' es u r :
    find_ret nb memo hf st t c b h key sv cur nx found w e = Some (st', es) -> rets e = [] -> In (u, r) (rets es) ->
    u = t /\ th st' t = Idle /\
    (map_op (op_of c key) = true -> (found = true -> cur <> 0 /\ nkey (sm st) cur = key) ->
     exists bb v, r = ret_enc (op_of c key) bb v /\ g_hist st' = g_hist st ++ [mkH t (op_of c key) bb v (g_lp st' t)]).
  Proof.
    intros H He Hin. ret_cases H; rewrite ?rets_app, He in Hin; try (destruct Hin; fail);
      destruct Hin as [Hin | []]; injection Hin as <- <-; (split; [reflexivity|]); sprj; rewrite ?upd_same;
      (split; [reflexivity|]); intros Hmo Hf; try discriminate Hmo; eexists _, _; (split; [|reflexivity]); cbn [ret_enc b2n op_of];
      try reflexivity;
      destruct (Hf eq_refl) as [Hz Hk]; unfold pos_res; (destruct (N.eqb_spec cur 0); [contradiction | rewrite Hk; reflexivity]).
  Qed.

  Arguments it_land_ret [st t c b sv cur w e st' es u r].
  Arguments find_ret_ret [st t c b h key sv cur nx found w e st' es u r].

  (** a result of a map operation is returned exactly by the last step of the call; the step records the
      operation, the result, the value seen and the current [g_lp] of the thread in [g_hist] *)
  Theorem hmm_ret_step s a s' es u r : reach init step s -> step s a = Some (s', es) -> In (ERet u r) es ->
    exists o, a = Step u /\ cur_op (th s u) = Some o /\ th s' u = Idle /\
      (map_op o = true -> exists b v, r = ret_enc o b v /\ g_hist s' = g_hist s ++ [mkH u o b v (g_lp s' u)]).
  Proof.
    intros HR Hst Hin. destruct (Inv_reach s HR) as (cs & HG & HT & HU).
    destruct (step_split Hst) as (s1 & H0 & ->). clear Hst. cbn [refresh th g_hist g_lp].
    apply in_rets in Hin. apply step0_tstep in H0. remember (rets es) as rs eqn:Ers. clear Ers.
    destruct H0; try (destruct Hin; fail).
    (* the returns without a find: ++ / erase on end(), *it, reset, the link CAS, the unlink CAS of erase(key) *)
    1-4, 7-8: destruct Hin as [Hin | []]; injection Hin as <- <-; eexists; (split; [reflexivity|]); (split; [rewrite E; reflexivity|]);
      sprj; rewrite ?upd_same; (split; [reflexivity|]); intros Hmo; try discriminate Hmo;
      try destruct g; eexists _, _; (split; [|reflexivity]); reflexivity.
    - (* F2 *) destruct (find_ret_ret Hr Hre Hin) as (-> & Hi & Hrec).
      exists (op_of c key). rewrite E. split; [reflexivity|]. split; [reflexivity|]. split; [exact Hi|].
      intros Hmo. apply (Hrec Hmo). discriminate.
    - (* F6 *) destruct (find_ret_ret Hr Hre Hin) as (-> & Hi & Hrec).
      exists (op_of c key). rewrite E. split; [reflexivity|]. split; [reflexivity|]. split; [exact Hi|].
      intros Hmo. apply (Hrec Hmo). intros Hf. apply N.eqb_eq in Hf.
      destruct (HT t) as [Ht _]. rewrite E in Ht. cbn [Tw] in Ht. destruct Ht as (_ & _ & _ & (Hcnz & _) & _). auto.
    - destruct (it_land_ret Hr Hre Hin) as [-> Hi].
      eexists. rewrite E. split; [reflexivity|]. split; [reflexivity|]. split; [exact Hi|]. intros Hmo. destruct c; discriminate Hmo.
    - destruct (it_land_ret Hr Hre Hin) as [-> Hi].
      eexists. rewrite E. split; [reflexivity|]. split; [reflexivity|]. split; [exact Hi|]. intros Hmo. discriminate Hmo.
    - destruct (it_land_ret Hr Hre Hin) as [-> Hi].
      eexists. rewrite E. split; [reflexivity|]. split; [reflexivity|]. split; [exact Hi|]. intros Hmo. discriminate Hmo.
  Qed.

  Lemma find_ret_grow st t c b h key sv cur nx found w e st' es :
    find_ret nb memo hf st t c b h key sv cur nx found w e = Some (st', es) ->
    g_hist st' = g_hist st \/ exists r h0, In (ERet t r) es /\ g_hist st' = g_hist st ++ [h0] /\ h_t h0 = t.
  Proof.
    intros H. ret_cases H; sprj; try (left; reflexivity); right; eexists _, _; (split; [|split; reflexivity]);
      rewrite ?in_app_iff; cbn [In]; eauto 8.
  Qed.

  (** steps that return nothing for a map operation leave [g_hist] unchanged *)
  Theorem hmm_hist_step s a s' es : step s a = Some (s', es) ->
    g_hist s' = g_hist s \/ exists t r h, In (ERet t r) es /\ g_hist s' = g_hist s ++ [h] /\ h_t h = t.
  Proof.
    intros Hst. destruct (step_split Hst) as (s1 & H0 & ->). clear Hst. cbn [refresh g_hist]. apply step0_tstep in H0.
    remember (rets es) as rs eqn:Ers. destruct H0; try (left; reflexivity); try (left; exact (it_land_hist Hr)).
    (* the two returns of find; then the link CAS and the unlink CAS of erase(key) *)
    1-2: destruct (find_ret_grow _ _ _ _ _ _ _ _ _ _ _ _ _ _ Hr) as [-> | (r & h0 & Hin & -> & Ht)]; [left; reflexivity | right];
      exists t, r, h0; (split; [apply in_rets; rewrite <- Ers; apply in_rets; exact Hin | auto]).
    all: right; eexists t, _, _; (split; [apply in_rets; rewrite <- Ers; left; reflexivity | split; reflexivity]).
  Qed.

  (** ** trace-level form: the linearization instant lies inside the call *)

  (** [in_call u o s0 s]: thread u took the first step of a call of [o] from [s0], and [s] is a later state of
      the execution up to and including the state right after the call's return *)
  Inductive in_call (u : nat) (o : op) (s0 : state) : state -> Prop :=
  | ic_first s1 es : th s0 u = Begin o -> step s0 (Step u) = Some (s1, es) -> in_call u o s0 s1
  | ic_next s a s' es : in_call u o s0 s -> th s u <> Idle -> step s a = Some (s', es) -> in_call u o s0 s'.

  Lemma in_call_reach u o s0 s : reach init step s0 -> in_call u o s0 s -> reach init step s.
  Proof. intros Hr H. induction H; eapply reach_step; eauto. Qed.

  Lemma begin_lp u o s0 s1 es : th s0 u = Begin o -> map_op o = true -> step s0 (Step u) = Some (s1, es) -> g_lp s1 u = None.
  Proof.
    intros Hb Hmo Hst. destruct (step_split Hst) as (s2 & H0 & ->). unfold HmmDefs.step0 in H0. rewrite Hb in H0.
    cbn [refresh g_lp]. destruct o; try discriminate Hmo; injection H0 as <- _; sprj; apply upd_same.
  Qed.

  Lemma in_call_lp u o s0 s : map_op o = true -> in_call u o s0 s ->
    (th s u = Idle \/ cur_op (th s u) = Some o) /\
    (g_lp s u = None \/
     exists s1, in_call u o s0 s1 /\ reach_from step s1 s /\ g_lp s u = Some (lookup (op_key o) (g_abs (sm s1)))).
  Proof.
    intros Hmo. induction 1 as [s1 es Hb Hst | s a s' es Hic IH Hni Hst].
    - split; [eapply hmm_op_step; [exact Hst | rewrite Hb; reflexivity]|]. left. eapply begin_lp; eassumption.
    - destruct IH as [[Hidle | Hop] Hlp]; [contradiction|].
      split; [eapply hmm_op_step; eassumption|].
      destruct (hmm_lp_step s a s' es u o Hst Hop Hmo) as [Heq | (-> & [[Hbeg Hn] | Hset])].
      + rewrite Heq. destruct Hlp as [Hn | (s1 & H1 & H2 & H3)]; [left; exact Hn | right].
        exists s1. split; [exact H1|]. split; [eapply rf_step; eassumption | exact H3].
      + left. exact Hn.
      + right. exists s. split; [exact Hic|]. split; [eapply rf_step; [apply rf_refl | exact Hst] | exact Hset].
  Qed.

  (** 3e. MAIN THEOREM (linearizability of every call of a map operation).  Take any execution, any call of a map
      operation [o] (emplace, get_or_emplace, erase(key), contains, find) by a thread [u] (first step taken from
      [s0]) and the step that returns its result [r].  Then there is a state [s1] strictly inside the call - after
      the call's first step, not later than the returning step - such that [r] encodes the answer of the
      sequential map specification [res_for] for the lookup of the key in the abstract map [g_abs (sm s1)].
      ([g_abs] itself changes only at the linearization points of the successful insertions / erasures,
      [hmm_abs_step], and equals the map stored in the buckets, [hmm_abs]; [res_for] does not depend on the bucket
      count, the memoization mode, the ordering predicate or the hash function.) *)
  Theorem hmm_call_linearizable u o s0 s a s' es r :
    reach init step s0 -> map_op o = true -> in_call u o s0 s -> step s a = Some (s', es) -> In (ERet u r) es ->
    exists b v s1, r = ret_enc o b v /\ in_call u o s0 s1 /\ reach_from step s1 s' /\
      (b, v) = res_for o (lookup (op_key o) (g_abs (sm s1))).
  Proof.
    intros Hr Hmo Hic Hst Hin.
    assert (Hrs : reach init step s) by exact (in_call_reach _ _ _ _ Hr Hic).
    destruct (hmm_ret_step s a s' es u r Hrs Hst Hin) as (o' & -> & Hop & Hidle & Hrec).
    destruct (in_call_lp u o s0 s Hmo Hic) as [[Hi | Hop'] _]; [rewrite Hi in Hop; discriminate|].
    assert (o' = o) by congruence. subst o'.
    destruct (Hrec Hmo) as (b & v & -> & Hh).
    assert (Hni : th s u <> Idle) by (intros Hc; rewrite Hc in Hop; discriminate).
    assert (Hic' : in_call u o s0 s') by (eapply ic_next; eassumption).
    assert (Hr' : reach init step s') by exact (in_call_reach _ _ _ _ Hr Hic').
    assert (Hok : hist_ok (mkH u o b v (g_lp s' u))).
    { apply (Hist_reach s' Hr'). rewrite Hh. apply in_or_app. right. left. reflexivity. }
    destruct Hok as (mo & Hw & Hres). cbn [h_wit h_res h_val h_op] in Hw, Hres.
    destruct (in_call_lp u o s0 s' Hmo Hic') as [_ [Hn | (s1 & H1 & H2 & H3)]]; [rewrite Hn in Hw; discriminate|].
    exists b, v, s1. split; [reflexivity|]. split; [exact H1|]. split; [exact H2|].
    rewrite H3 in Hw. injection Hw as <-. exact Hres.
  Qed.
End Inv.

(** * The options do not change the behaviour *)

(** the effect of a linearization event on the abstract map: it depends on the key (and the value) only *)
Definition lev_eff (e : lev) : (N * N) + N := match e with LIns _ k v _ => inl (k, v) | LDel _ k _ _ => inr k end.
Definition apply_eff (s : list (N * N)) (x : (N * N) + N) : list (N * N) :=
  match x with inl p => p :: s | inr k => remk k s end.

Lemma apply_lin_eff l : apply_lin l = fold_left apply_eff (map lev_eff l) [].
Proof.
  unfold apply_lin. generalize (@nil (N * N)). induction l as [|e l IH]; intros acc; [reflexivity|].
  cbn [fold_left map]. rewrite IH. destruct e; reflexivity.
Qed.

(** 5. "Key ordering / hash memoization options do not change this behaviour": the abstract map is the same function
    of the sequence of successful insertions and erasures for every bucket count, both memoization modes, both
    ordering predicates and every hash function; and the result of every operation is [res_for] of the lookup
    in that map ([hmm_call_linearizable], [hmm_hist]), a function that does not mention the options *)
Theorem hmm_options_irrelevant nb memo lex hf nb' memo' lex' hf' s s' :
  reach (init nb) (step nb memo lex hf) s -> reach (init nb') (step nb' memo' lex' hf') s' ->
  map lev_eff (g_lin (sm s)) = map lev_eff (g_lin (sm s')) -> g_abs (sm s) = g_abs (sm s').
Proof.
  intros Hr Hr' He.
  destruct (hmm_abs nb memo lex hf s Hr) as (_ & _ & _ & H1). destruct (hmm_abs nb' memo' lex' hf' s' Hr') as (_ & _ & _ & H2).
  rewrite H1, H2, !apply_lin_eff, He. reflexivity.
Qed.

(** * Examples: reachable states computed with the executable model *)

Definition steps (t : nat) (n : nat) : list action := repeat (Step t) n.
(** run a call to completion: the surplus steps of an idle thread are skipped by [run] *)
Definition call (t : nat) (o : op) : list action := Start t o :: steps t 40.
Definition st_of nb memo lex hf (acts : list action) : state := fst (fst (run (step nb memo lex hf) (init nb) acts)).

Lemma st_of_reach nb memo lex hf acts : reach (init nb) (step nb memo lex hf) (st_of nb memo lex hf acts).
Proof. apply (run_reach _ _ _ (init nb) (step nb memo lex hf) acts). Qed.

(** T1: emplace(10,100); emplace(15,150); emplace(20,200) (nodes 1, 2, 3) *)
Definition ex_ins : list action := call 1 (OIns 10 100) ++ call 1 (OIns 15 150) ++ call 1 (OIns 20 200).

(** (hmm_structure, hmm_abs) two buckets, memoized hash k mod 2: keys 10 and 20 live in bucket 0, key 15 in
    bucket 1; the abstract map is the union *)
Example ex_ins_buckets :
  let st := st_of 2 true true hf_mod2 ex_ins in
  chain (sm st) 0 = [1; 3] /\ chain (sm st) 1 = [2] /\ g_abs (sm st) = [(20, 200); (15, 150); (10, 100)] /\
  g_lin (sm st) = [LIns 1 10 100 1; LIns 1 15 150 2; LIns 1 20 200 3].
Proof. vm_compute. repeat split. Qed.

(** (hmm_structure, le2_lex, le2_conj) one bucket, memoized hash 1000 - k: the code orders the chain by (hash, key),
    i.e. by decreasing key; the former predicate [hash >= h && key >= k] leaves the insertion order; the
    abstract map is the same (hmm_options_irrelevant) *)
Example ex_ins_order :
  let st := st_of 1 true true hf_rev ex_ins in let st' := st_of 1 true false hf_rev ex_ins in
  map (nkey (sm st)) (chain (sm st) 0) = [20; 15; 10] /\ map (nkey (sm st')) (chain (sm st') 0) = [10; 15; 20] /\
  g_abs (sm st) = g_abs (sm st') /\ g_abs (sm st) = g_abs (sm (st_of 4 false true hf_id ex_ins)).
Proof. vm_compute. repeat split. Qed.

(** T2: erase(20), preempted between its mark CAS and its unlink CAS *)
Definition ex_marked : list action := ex_ins ++ Start 2 (ODel 20) :: steps 2 9.

(** (hmm_structure, hmm_abs, hmm_pending) node 3 (key 20) is marked and still reachable; the erase is pending *)
Example ex_marked_state :
  let st := st_of 2 true true hf_mod2 ex_marked in
  chain (sm st) 0 = [1; 3] /\ map (nmark (sm st)) (chain (sm st) 0) = [false; true] /\
  g_abs (sm st) = [(15, 150); (10, 100)] /\ g_retired (sm st) = [] /\
  th st 2%nat = D2 0 0 20 1 3 0 /\ pending (th st 2%nat) = [MD 20] /\
  proj_lin 2 (g_lin (sm st)) = [MD 20] /\ proj_hist 2 (g_hist st) = [].
Proof. vm_compute. repeat split. Qed.

(** T3: contains(20) runs to completion: its find helps to unlink node 3 and retires it, the answer is no *)
Definition ex_helped : list action := ex_marked ++ call 3 (OHas 20).
Example ex_helped_state :
  let st := st_of 2 true true hf_mod2 ex_helped in
  chain (sm st) 0 = [1] /\ g_retired (sm st) = [3] /\ nmark (sm st) 3 = true /\
  th st 2%nat = D2 0 0 20 1 3 0 /\ th st 3%nat = Idle /\
  last (g_hist st) (mkH 0 OItR false 0 None) = mkH 3 (OHas 20) false 0 (Some None).
Proof. vm_compute. repeat split. Qed.

(** T2 resumes: its unlink CAS fails, it searches again and returns ok (hmm_quiescent, hmm_hist) *)
Definition ex_done : list action := ex_helped ++ steps 2 40.
Example ex_done_state :
  let st := st_of 2 true true hf_mod2 ex_done in
  (forall t, In t [1; 2; 3]%nat -> th st t = Idle) /\
  g_abs (sm st) = [(15, 150); (10, 100)] /\ apply_lin (g_lin (sm st)) = [(15, 150); (10, 100)] /\
  last (g_hist st) (mkH 0 OItR false 0 None) = mkH 2 (ODel 20) true 0 (Some (Some 200)) /\
  proj_lin 2 (g_lin (sm st)) = [MD 20] /\ proj_hist 2 (g_hist st) = [MD 20].
Proof. vm_compute. split; [intros t [<- | [<- | [<- | []]]]; reflexivity | repeat split]. Qed.

(** (hmm_lin_nodes, hmm_abs_step) two racing erases of the same node: T2 and T3 both reach the mark CAS of
    node 1; T2's CAS succeeds, T3's fails; T3 searches again and returns no, T2 returns ok: exactly one succeeded *)
Definition ex_race_del : list action :=
  call 1 (OIns 5 50) ++ Start 2 (ODel 5) :: steps 2 5 ++ Start 3 (ODel 5) :: steps 3 5 ++
  [Step 2%nat; Step 3%nat] ++ steps 3 40 ++ steps 2 40.
Example ex_race_del_state :
  let st := st_of 1 false true hf_id ex_race_del in
  chain (sm st) 0 = [] /\ g_abs (sm st) = [] /\ g_retired (sm st) = [1] /\
  g_lin (sm st) = [LIns 1 5 50 1; LDel 2 5 1 false] /\
  g_hist st = [mkH 1 (OIns 5 50) true 0 (Some None); mkH 3 (ODel 5) false 0 (Some None);
               mkH 2 (ODel 5) true 0 (Some (Some 50))].
Proof. vm_compute. repeat split. Qed.

(** (hmm_hist: values) get_or_emplace of a present key sees the value inserted with it, of an absent key its own
    value; find returns the stored value (4 buckets, memoized reversed hash) *)
Definition ex_getins : list action :=
  call 1 (OIns 10 100) ++ call 2 (OGet 10 999) ++ call 2 (OGet 20 200) ++ call 1 (OFind 20).
Example ex_getins_state :
  let st := st_of 4 true true hf_rev ex_getins in
  g_abs (sm st) = [(20, 200); (10, 100)] /\
  g_hist st = [mkH 1 (OIns 10 100) true 0 (Some None); mkH 2 (OGet 10 999) false 100 (Some (Some 100));
               mkH 2 (OGet 20 200) true 200 (Some None); mkH 1 (OFind 20) true 200 (Some (Some 200))].
Proof. vm_compute. repeat split. Qed.
