(** The order of the stamps in the stamp_it model (Model/StampDefs.v):  [Q0]  head->prev is never marked and every update
    of it advances its version tag, so a push whose compare-and-swap on head->prev succeeds has seen head->prev
    unchanged since it read it; therefore blocks are linked behind head in strictly increasing order of their stamps
    ([g_max] = the stamp of the block linked last, [link_order]), the stamp of every linked block is at most [g_max] and
    below head->stamp, and different linked blocks have different stamps.  Holds in every reachable state ([Q0_reach]).
    No axioms. *)
From Coq Require Import NArith List Bool Arith Lia PeanoNat ZArith ZifyBool ZifyNat ZifyN.
From XV Require Import Conc.Lts Conc.Ev Model.StampDefs Proof.StampBase Proof.StampStamps.
Import ListNotations.
Local Open Scope N_scope.

Definition hp_of (p : pc) : option mp :=
  match p with P4 _ hp | P5 _ hp | P6 _ hp _ | P7 _ hp _ | P8 _ hp _ | P9 _ hp _ _ | P10 _ hp _ _ => Some hp | _ => None end.
Definition pend_of (p : pc) : option (mp * N) :=
  match p with P6 _ hp s | P7 _ hp s | P8 _ hp s | P9 _ hp s _ | P10 _ hp s _ => Some (hp, s) | _ => None end.

Record Q0 (s : state) : Prop := {
  q_hm : marked (qprev s THead) = false;
  q_tag : forall u hp, hp_of (th s u) = Some hp -> snd hp <= snd (qprev s THead) /\ (snd hp = snd (qprev s THead) -> hp = qprev s THead);
  q_gm : g_max s mod 4 = 0 /\ g_max s + 4 <= qstamp s THead;
  q_vp : forall u hp v, pend_of (th s u) = Some (hp, v) -> hp = qprev s THead -> g_max s < v;
  q_lk : forall b, g_lk s b = true -> cst (qstamp s (TB b)) <= g_max s /\ b < nalloc s;
  q_dist : forall b b', b <> b' -> g_lk s b = true -> g_lk s b' = true -> cst (qstamp s (TB b)) <> cst (qstamp s (TB b')) }.

Lemma Q0_init nc : Q0 (init nc).
Proof. constructor; cbn; intros; try discriminate; try reflexivity. split; [reflexivity|unfold StampInc; lia]. Qed.

Lemma marked_false_even (a : mp) : marked a = false -> N.odd (snd a) = false.
Proof. intros H. exact H. Qed.

(** what one step does to head->prev and to the linking ghosts *)
Lemma step_owrites ns s t s' es : step ns s (Step t) = Some (s', es) ->
  (marked (qprev s' THead) = marked (qprev s THead) /\
   (qprev s' THead = qprev s THead \/ snd (qprev s THead) < snd (qprev s' THead))) /\
  ((* neither P6 nor a successful P10 *)
   (g_max s' = g_max s /\ g_lk s' = g_lk s /\ (forall k hp v, th s t <> P6 k hp v) /\
      (qprev s' THead = qprev s THead \/ forall k hp v my, th s t <> P10 k hp v my)) \/
   (* P6: the pending stamp belongs to a new incarnation, not linked yet *)
   (exists k hp v b, th s t = P6 k hp v /\ cb (tl s t) = Some b /\ g_max s' = g_max s /\ g_lk s' = updN (g_lk s) b false /\
      qprev s' THead = qprev s THead) \/
   (* P10 succeeds: the block is linked behind head *)
   (exists k hp v my b, th s t = P10 k hp v my /\ cb (tl s t) = Some b /\ qprev s THead = hp /\ g_max s' = v /\
      g_lk s' = updN (g_lk s) b true /\ snd (qprev s THead) < snd (qprev s' THead) /\ qstamp s' = qstamp s)).
Proof.
  intros H. unfold_step H. cbv zeta in H. step_split H.
  all: bool_eqs; mp_eqs; prj.
  all: split; [|try solve [left; split; [reflexivity|split; [reflexivity|split; [intros; discriminate|first [left; reflexivity | right; intros; discriminate]]]]]].
  all: try solve [split; [reflexivity|left; reflexivity]].
  all: try solve [match goal with |- context [updT ?f ?i ?v THead] => destruct (updT_cases f i v THead) as [[Hx ->]|[Hx ->]] end;
                  [|split; [reflexivity|left; reflexivity]];
                  try discriminate Hx; subst;
                  split; [rewrite marked_mk; congruence|right; unfold mk_marked; cbn [snd]; match goal with E : qprev _ THead = _ |- _ => rewrite E end; lia]].
  (* head->prev itself *)
  all: try solve [rewrite updT_same; split; [rewrite marked_mk; congruence|right; unfold mk_marked; cbn [snd]; match goal with E : qprev _ THead = _ |- _ => rewrite E end; lia]].
  (* P6 *)
  all: try solve [right; left; do 4 eexists; split; [reflexivity|]; split; [first [eassumption|reflexivity]|]; repeat split; reflexivity].
  (* P10 *)
  all: try solve [right; right; do 5 eexists; split; [reflexivity|]; split; [first [eassumption|reflexivity]|]; split; [first [assumption|congruence]|]; split; [reflexivity|]; split; [reflexivity|]; split; [|reflexivity];
    rewrite updT_same; unfold mk_marked; cbn [snd]; match goal with E : qprev _ THead = _ |- _ => rewrite E end; lia].
Qed.

(** the pusher itself *)
Lemma Q0_self ns s t s' es : Q0 s -> step ns s (Step t) = Some (s', es) ->
  (forall hp, hp_of (th s' t) = Some hp -> snd hp <= snd (qprev s' THead) /\ (snd hp = snd (qprev s' THead) -> hp = qprev s' THead)) /\
  (forall hp v, pend_of (th s' t) = Some (hp, v) -> hp = qprev s' THead -> g_max s' < v).
Proof.
  intros I H. pose proof (q_tag s I t) as Tg. pose proof (q_vp s I t) as Vp. destruct (q_gm s I) as [_ Gm].
  unfold_step H. cbv zeta in H. step_split H.
  all: bool_eqs; mp_eqs; prj; rewrite ?upd_same.
  all: try match goal with E : th _ _ = _ |- _ => rewrite E in Tg, Vp end; cbn [hp_of pend_of] in Tg, Vp.
  all: rmm; cbn [hp_of pend_of].
  all: split; [intros hp0 Hh|intros hp0 v0 Hh Hv]; try discriminate Hh.
  all: try (inversion Hh; subst; clear Hh).
  all: try solve [split; [lia|reflexivity]].
  all: try solve [apply (Tg _ eq_refl)].
  all: try solve [eapply Vp; [reflexivity|assumption]].
  all: try solve [eapply Vp; reflexivity].
  all: try solve [unfold StampInc in *; lia].
Qed.

(** the stamp of a linked block keeps its value *)
Lemma cst_keep ns s t s' es b : T0 ns s -> O0 s -> S0 s -> Q0 s -> step ns s (Step t) = Some (s', es) ->
  g_lk s b = true -> g_lk s' b = true -> cst (qstamp s' (TB b)) = cst (qstamp s (TB b)).
Proof.
  intros T O S Q H Hl Hl'.
  destruct (cst_step _ _ _ _ _ b (T t) S H) as [E|[(k & hp & v & Ef & Hb & _)|[-> _]]]; [exact E| |].
  - exfalso. destruct (step_owrites _ _ _ _ _ H) as (_ & [(_ & _ & N6 & _)|[(k' & hp' & v' & b' & Ef' & Hb' & _ & El & _)|(k' & hp' & v' & my' & b' & Ef' & _)]]).
    + eapply N6; eauto.
    + rewrite El in Hl'. assert (b' = b) by congruence. subst b'. rewrite updN_same in Hl'. discriminate.
    + congruence.
  - exfalso. destruct (q_lk s Q _ Hl) as [_ L]. lia.
Qed.

Lemma Q0_step ns s t s' es : T0 ns s -> O0 s -> S0 s -> Q0 s -> step ns s (Step t) = Some (s', es) -> Q0 s'.
Proof.
  intros T O S Q H.
  destruct (Q0_self _ _ _ _ _ Q H) as (St & Sv).
  destruct (step_owrites _ _ _ _ _ H) as ((Hm & Htg) & OW).
  destruct (step_frame _ _ _ _ _ H) as [Fth _ _ Hna _ _ _].
  destruct (head_stamp_step _ _ _ _ _ (T t) S H) as [HH _].
  destruct (q_gm s Q) as [Gm1 Gm2].
  assert (Htag : forall u hp, u <> t -> hp_of (th s u) = Some hp ->
            snd hp <= snd (qprev s' THead) /\ (snd hp = snd (qprev s' THead) -> hp = qprev s' THead /\ qprev s' THead = qprev s THead)).
  { intros u hp Hne Hh. destruct (q_tag s Q u hp Hh) as [A B]. destruct Htg as [E|E].
    - rewrite E. split; [exact A|]. intros X. split; [apply B; exact X|reflexivity].
    - split; [lia|]. intros X. lia. }
  assert (Hcase : (g_max s' = g_max s /\ (forall b, g_lk s' b = true -> g_lk s b = true)) \/
                  (exists k hp v my b, th s t = P10 k hp v my /\ cb (tl s t) = Some b /\ qprev s THead = hp /\ g_max s' = v /\
                     g_lk s' = updN (g_lk s) b true /\ snd (qprev s THead) < snd (qprev s' THead) /\ qstamp s' = qstamp s)).
  { destruct OW as [(E1 & E2 & _)|[(k & hp & v & b & _ & _ & E1 & E2 & _)|X]]; [left|left|right; exact X].
    - split; [exact E1|]. intros b Hb. rewrite E2 in Hb. exact Hb.
    - split; [exact E1|]. intros b0 Hb. rewrite E2 in Hb. destruct (updN_cases (g_lk s) b false b0) as [[-> X]|[_ X]]; rewrite X in Hb; [discriminate|exact Hb]. }
  (* in the linking step: the new stamp is above everything linked so far *)
  assert (Hlink : forall k hp v my b, th s t = P10 k hp v my -> cb (tl s t) = Some b -> qprev s THead = hp ->
            g_max s < v /\ cst (qstamp s (TB b)) = v /\ b < nalloc s).
  { intros k hp v my b Ef Hcb Ehp. split; [|split].
    - eapply (q_vp s Q t); [rewrite Ef; reflexivity|congruence].
    - destruct (s_own s S t b Hcb) as (F1 & _). rewrite Ef in F1. exact F1.
    - destruct (o_own s O t b Hcb) as [X _]. apply (o_rev s O) in X. apply X. }
  constructor.
  - rewrite Hm. apply (q_hm s Q).
  - intros u hp Hh. destruct (Nat.eq_dec u t) as [->|Hne]; [apply St; exact Hh|].
    destruct (Fth u Hne) as [Eth _]. rewrite Eth in Hh. destruct (Htag u hp Hne Hh) as [A B]. split; [exact A|]. intros X. apply B. exact X.
  - destruct Hcase as [[E _]|(k & hp & v & my & b & Ef & _ & _ & E & _)].
    + rewrite E. split; [exact Gm1|lia].
    + pose proof (s_pc s S t) as P. rewrite Ef in P. sfn_in P. rewrite E. split; [apply P|lia].
  - intros u hp v Hp Hv. destruct (Nat.eq_dec u t) as [->|Hne]; [eapply Sv; eauto|].
    destruct (Fth u Hne) as [Eth _]. rewrite Eth in Hp.
    assert (Hh : hp_of (th s u) = Some hp) by (destruct (th s u); cbn in *; try discriminate; inversion Hp; reflexivity).
    destruct (Htag u hp Hne Hh) as [_ B]. rewrite Hv in B. destruct (B eq_refl) as [_ Eq].
    assert (Hv0 : hp = qprev s THead) by congruence.
    pose proof (q_vp s Q u hp v Hp Hv0) as L.
    destruct Hcase as [[E _]|(k & hp' & v' & my & b & _ & _ & _ & _ & _ & Lt & _)]; [rewrite E; exact L|].
    rewrite Eq in Lt. lia.
  - intros b Hb. destruct Hcase as [[E Hl]|(k & hp & v & my & b0 & Ef & Hcb & Ehp & E & El & _ & Eq)].
    + pose proof (Hl b Hb) as Hb0. destruct (q_lk s Q b Hb0) as [A B].
      rewrite (cst_keep _ _ _ _ _ b T O S Q H Hb0 Hb), E. split; [exact A|lia].
    + destruct (Hlink _ _ _ _ _ Ef Hcb Ehp) as (L1 & L2 & L3). rewrite El in Hb. rewrite E, Eq.
      destruct (updN_cases (g_lk s) b0 true b) as [[-> X]|[_ X]]; rewrite X in Hb.
      * rewrite L2. split; lia.
      * destruct (q_lk s Q b Hb) as [A B]. split; lia.
  - intros b b' Hne Hb Hb'. destruct Hcase as [[E Hl]|(k & hp & v & my & b0 & Ef & Hcb & Ehp & E & El & _ & Eq)].
    + pose proof (Hl b Hb) as Hb0. pose proof (Hl b' Hb') as Hb0'.
      rewrite (cst_keep _ _ _ _ _ b T O S Q H Hb0 Hb), (cst_keep _ _ _ _ _ b' T O S Q H Hb0' Hb'). apply (q_dist s Q); assumption.
    + destruct (Hlink _ _ _ _ _ Ef Hcb Ehp) as (L1 & L2 & L3). rewrite El in Hb, Hb'. rewrite Eq.
      destruct (updN_cases (g_lk s) b0 true b) as [[-> X]|[N1 X]]; rewrite X in Hb;
      destruct (updN_cases (g_lk s) b0 true b') as [[-> X']|[N2 X']]; rewrite X' in Hb'.
      * congruence.
      * destruct (q_lk s Q b' Hb') as [A _]. lia.
      * destruct (q_lk s Q b Hb) as [A _]. lia.
      * apply (q_dist s Q); assumption.
Qed.

Lemma Q0_start ns s t o s' es : Q0 s -> step ns s (Start t o) = Some (s', es) -> Q0 s'.
Proof.
  intros I H. destruct (start_effect _ _ _ _ _ _ H) as (Eid & Es & Ep & Er & Fo & Ecb & Hc).
  assert (Eg : g_max s' = g_max s /\ g_lk s' = g_lk s /\ nalloc s' = nalloc s).
  { unfold step, step_gen in H. step_split H; prj; repeat split; reflexivity. }
  destruct Eg as (Eg1 & Eg2 & Eg3).
  assert (Hnp : hp_of (th s' t) = None /\ pend_of (th s' t) = None).
  { destruct Hc as [[-> _]|[[-> _]|(fr & -> & _)]]; split; reflexivity. }
  destruct I as [Ihm Itag Igm Ivp Ilk Idist].
  constructor; rewrite ?Es, ?Ep, ?Eg1, ?Eg2, ?Eg3; try assumption.
  - intros u hp Hh. destruct (Nat.eq_dec u t) as [->|Hne]; [destruct Hnp; congruence|].
    destruct (Fo u Hne) as [E _]. rewrite E in Hh. apply (Itag u); exact Hh.
  - intros u hp v Hp. destruct (Nat.eq_dec u t) as [->|Hne]; [destruct Hnp; congruence|].
    destruct (Fo u Hne) as [E _]. rewrite E in Hp. apply (Ivp u); exact Hp.
Qed.

Section ReachQ.
Variables (ns : nat) (nc : N).
Lemma Q0_reach s : reachable ns nc s -> Q0 s.
Proof.
  apply (inv_rule_aux _ _ _ _ _ (fun s => T0 ns s /\ O0 s /\ S0 s) Q0).
  - intros s0 Hr. split; [apply (T0_reach ns nc); exact Hr|split; [apply (O0_reach ns nc); exact Hr|apply (S0_reach ns nc); exact Hr]].
  - apply Q0_init.
  - intros s0 a s1 es (J1 & J2 & J3) _ I H. destruct a as [t o|t]; [eapply Q0_start; eauto|eapply Q0_step; eauto].
Qed.

(** blocks are linked behind head in strictly increasing order of their stamps: the compare-and-swap of push that
    links block b gives it the stamp v = the new [g_max], larger than the old one and than the stamp of every other
    linked block *)
Theorem link_order s t k hp v my b s' es : reachable ns nc s -> th s t = P10 k hp v my -> cb (tl s t) = Some b ->
  qprev s THead = hp -> step ns s (Step t) = Some (s', es) ->
  g_max s < v /\ g_max s' = v /\ cst (qstamp s' (TB b)) = v /\ g_lk s' b = true /\
  (forall b', b' <> b -> g_lk s' b' = true -> cst (qstamp s' (TB b')) < v).
Proof.
  intros Hr Ef Hcb Ehp H.
  pose proof (Q0_reach s Hr) as Q. pose proof (S0_reach ns nc s Hr) as S. pose proof (O0_reach ns nc s Hr) as O.
  assert (L1 : g_max s < v) by (eapply (q_vp s Q t); [rewrite Ef; reflexivity|congruence]).
  unfold step, step_gen in H. rewrite Ef, Hcb in H. cbv zeta in H.
  assert (Hm : mp_eqb (qprev s THead) hp = true) by (apply mp_eqb_eq; exact Ehp). rewrite Hm in H. injection H as <- _.
  prj. destruct (s_own s S t b Hcb) as (F1 & _). rewrite Ef in F1. sfn_in F1.
  split; [exact L1|]. split; [reflexivity|]. split; [exact F1|]. split; [apply updN_same|].
  intros b0 Hne Hb0. rewrite updN_other in Hb0 by exact Hne. destruct (q_lk s Q b0 Hb0) as [A _]. lia.
Qed.
End ReachQ.
