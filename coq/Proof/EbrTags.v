(** The epoch in which a retired node may be reclaimed (epoch based reclamation model, Model/EbrDefs.v):
    [tag_ok]  a node retired in local epoch r sits in retire-list slot r mod 3 of a thread whose local epoch is >= r,
    or in orphan list r mod 3 while the global epoch is >= r, or was adopted by update_global_epoch(e, e+1) with
    r mod 3 = (e+1) mod 3 and r <= global epoch; and WHEN IT IS FREED THE GLOBAL EPOCH IS >= r + 3.
    Holds in every reachable state ([tag_reach]).  No axioms. *)
From Coq Require Import NArith List Bool Arith Lia PeanoNat Setoid.
From XV Require Import Conc.Lts Conc.Ev Model.EbrDefs Proof.EbrBase Proof.EbrEpoch Proof.EbrNodes.
Import ListNotations.
Local Open Scope N_scope.

(** * The epoch in which a node was retired *)
(** what the place of a node retired in local epoch r says about r *)
Definition tagp (s : state) (p : place) (r : N) : Prop :=
  match p with
  | PNone => True
  | PList u i => exists e, lb s u = Some e /\ r mod 3 = i /\ r <= e
  | POrph i => r mod 3 = i /\ r <= gep s
  | PFlight u => exists e, flight_ep (th s u) = Some e /\ r mod 3 = (e + 1) mod 3 /\ r <= gep s
  | PFreed => r + 3 <= gep s
  end.
Definition tag_ok (s : state) (n : N) : Prop := forall t' r, g_life s n = LRet t' r -> tagp s (g_where s n) r.

Lemma mod3_gap r v : r < v -> r mod 3 = v mod 3 -> r + 3 <= v.
Proof. intros H E. pose proof (N.div_mod r 3 ltac:(discriminate)). pose proof (N.div_mod v 3 ltac:(discriminate)). lia. Qed.

Lemma uslots_gap new old i r : old < new -> In i (uslots new old) -> r <= old -> r mod 3 = i -> r + 3 <= new.
Proof.
  intros Hlt Hi Hr Hm. unfold uslots in Hi.
  destruct (N.eqb_spec (N.min 3 (new - old)) 0); [destruct Hi|].
  destruct (N.eqb_spec (N.min 3 (new - old)) 1).
  { destruct Hi as [<-|[]]. apply mod3_gap; [lia|exact Hm]. }
  destruct (N.eqb_spec (N.min 3 (new - old)) 2).
  { destruct Hi as [<-|[<-|[]]].
    - assert (r + 3 <= new - 1) by (apply mod3_gap; [lia|exact Hm]). lia.
    - apply mod3_gap; [lia|exact Hm]. }
  destruct Hi as [<-|[<-|[<-|[]]]].
  - assert (r + 3 <= new - 2) by (apply mod3_gap; [lia|exact Hm]). lia.
  - assert (r + 3 <= new - 1) by (apply mod3_gap; [lia|exact Hm]). lia.
  - apply mod3_gap; [lia|exact Hm].
Qed.


(** the bounds only grow *)
Lemma tagp_mono s s' p r : tagp s p r -> gep s <= gep s' ->
  (forall u i e, p = PList u i -> lb s u = Some e -> exists e', lb s' u = Some e' /\ e <= e') ->
  (forall u, p = PFlight u -> flight_ep (th s' u) = flight_ep (th s u)) -> tagp s' p r.
Proof.
  destruct p; cbn; intros H G Hl Hf.
  - exact Logic.I.
  - destruct H as (e & E & M & R). destruct (Hl _ _ _ eq_refl E) as (e' & E' & X). exists e'. repeat split; [exact E'|exact M|lia].
  - split; [apply H|lia].
  - destruct H as (e & E & M & R). exists e. rewrite (Hf _ eq_refl). repeat split; [assumption..|lia].
  - lia.
Qed.

(** the published epoch of another thread is not touched *)
Lemma lb_other ns s t s' es u : O0 s -> step ns s (Step t) = Some (s', es) -> u <> t -> lb s' u = lb s u.
Proof.
  intros O H Hu. destruct (step_frame _ _ _ _ _ H) as (Fth & Fb & _). destruct (Fth u Hu) as [_ Etl]. unfold lb. rewrite Etl.
  destruct (cb (tl s u)) as [b|] eqn:Eb; [|reflexivity]. destruct (o_own s O u b Eb) as [Ho _].
  destruct (Fb b (owner_untouched _ _ _ _ O Ho Hu)) as (_ & _ & -> & _). reflexivity.
Qed.

Lemma tag_step ns s t s' es : tshape ns (th s t) (tl s t) -> O0 s -> P1 s t -> N0 s -> (forall n, tag_ok s n) ->
  step ns s (Step t) = Some (s', es) -> forall n, tag_ok s' n.
Proof.
  intros T O P I G H.
  destruct (step_nodes _ _ _ _ _ H) as (st & Hn & (Hth & _ & _ & Hli & Hwh & _ & _ & Hg & _) & Hlb).
  destruct (step_frame _ _ _ _ _ H) as (Fth & _ & _ & _ & Fg).
  pose proof (n_shape s I t) as L.
  (* a node of t's retire lists: t is not acquiring a control block *)
  assert (Hl : forall n i, g_where s n = PList t i -> in_cphase (th s t) = false /\ th s t <> X3).
  { intros n i W. apply (n_list s I) in W. split.
    - destruct (in_cphase (th s t)) eqn:C; [|reflexivity]. rewrite (l_cempty _ _ L (or_introl C)) in W. destruct W.
    - intros X. pose proof (l_xdone _ _ L) as Y. rewrite X in Y. rewrite Y in W. destruct W. }
  (* a node that stays where it is *)
  assert (Stay : forall n t' r, g_life s n = LRet t' r ->
            (forall i e, g_where s n = PList t i -> lb s t = Some e -> exists e', lb st t = Some e' /\ e <= e') ->
            (g_where s n = PFlight t -> flight_ep (th s' t) = flight_ep (th s t)) -> tagp s' (g_where s n) r).
  { intros n t' r Lf Hlt Hft. apply (tagp_mono s); [exact (G n t' r Lf)|exact Fg| |].
    - intros u i e Wp E. destruct (Nat.eq_dec u t) as [->|Hu]; [|rewrite (lb_other _ _ _ _ _ u O H Hu); eauto using N.le_refl].
      rewrite (Hlb (proj1 (Hl n i Wp))). eauto.
    - intros u Wp. destruct (Nat.eq_dec u t) as [->|Hu]; [auto|]. destruct (Fth u Hu) as [-> _]. reflexivity. }
  assert (Hpub : forall c n0 n t' r, g_life (publish c n0 s) n = LRet t' r -> g_life s n = LRet t' r).
  { intros c n0 n t' r. unfold publish. destruct n0 as [n1|]; prj; [|auto]. destruct (updN_cases (g_life s) n1 (LPub c) n) as [[_ ->]|[_ ->]]; [discriminate|auto]. }
  assert (Hnf : forall n, g_where s n = PFlight t -> flight (th s t) = [] -> False).
  { intros n W X. apply (n_flight s I) in W. rewrite X in W. destruct W. }
  pose proof (fun b => P b) as Pt. unfold lb in Stay.
  intros n t' r Lf. rewrite Hli in Lf. rewrite Hwh, ?Hg. prj. prj_in Lf. clear Hli Hwh H.
  destruct Hn as [p' F1 F2 _|Hpc|c g _ F1|c g n0 p' Hpc Hc _|c g n0 p' Hpc _|k e Hpc i|k e l Hpc He|k e l h Hpc i|k new old b Hpc Hb x sl|i h Hpc x]; prj; prj_in Lf.
  - (* nothing moves *)
    apply (Stay n t' r Lf); [eauto using N.le_refl|]. intros W. apply F2. rewrite F1. intros X. exact (Hnf n W X).
  - apply (Stay n t' r Lf); [|intros W; exfalso; apply (Hnf n W); rewrite Hpc; reflexivity]. intros i e W. destruct (proj2 (Hl n i W) Hpc).
  - unfold alloc_node in *. prj_in Lf. prj.
    destruct (updN_cases (g_life s) (nalloc s) (LFresh t) n) as [[_ X]|[_ X]]; rewrite X in Lf; [discriminate|].
    apply (Stay n t' r Lf); [eauto using N.le_refl|intros W; destruct (Hnf n W F1)].
  - (* the CAS of repl/clear: the unlinked node is retired in the current local epoch *)
    assert (Pw : g_where (publish c n0 s) = g_where s /\ tl (publish c n0 s) = tl s /\ blocal (publish c n0 s) = blocal s)
      by (destruct n0; repeat split; reflexivity).
    destruct Pw as (Pw & Ptl & Pbl).
    assert (Hs : g_life s n = LRet t' r -> tagp s' (g_where s n) r).
    { intros X. apply (Stay n t' r X); [|intros W; exfalso; apply (Hnf n W); rewrite Hpc; reflexivity].
      intros i e _ E. exists e. split; [|apply N.le_refl]. destruct g; unfold retire; prj; rewrite ?upd_same, ?Ptl, ?Pbl; prj; exact E. }
    destruct g as [old|]; [|rewrite Pw; exact (Hs (Hpub _ _ _ _ _ Lf))].
    unfold retire in *. prj. prj_in Lf. rewrite Pw, Ptl, Pbl in *.
    destruct (N.eq_dec n old) as [->|Hne]; [|rewrite updN_other in Lf by exact Hne; rewrite updN_other by exact Hne; exact (Hs (Hpub _ _ _ _ _ Lf))].
    rewrite updN_same in Lf. rewrite updN_same. rewrite Hpc in T, Hlb. pose proof (ts_need _ _ _ T eq_refl) as Hcb.
    destruct (cb (tl s t)) as [b|] eqn:Hb; [|congruence]. injection Lf as _ <-.
    destruct (Pt b eq_refl) as (P1' & _). rewrite Hpc in P1'. destruct (P1' eq_refl) as [_ Plx].
    exists (blocal s b). rewrite (Hlb eq_refl). unfold lb. prj. rewrite upd_same. prj. rewrite ?Ptl, ?Pbl, Hb.
    repeat split; [symmetry; exact Plx|apply N.le_refl].
  - unfold drop in *. destruct n0 as [n1|]; prj_in Lf; prj.
    + destruct (updN_cases (g_life s) n1 LDropped n) as [[_ X]|[_ X]]; rewrite X in Lf; [discriminate|].
      apply (Stay n t' r Lf); [eauto using N.le_refl|intros W; exfalso; apply (Hnf n W); rewrite Hpc; reflexivity].
    + apply (Stay n t' r Lf); [eauto using N.le_refl|intros W; exfalso; apply (Hnf n W); rewrite Hpc; reflexivity].
  - (* G4: the orphans of slot (e+1) mod 3 are adopted *)
    destruct (memN n (orph s i)) eqn:M.
    + apply memN_In, (n_orph s I) in M. pose proof (G n t' r Lf) as X. rewrite M in X. destruct X as [X1 X2].
      exists e. rewrite Hth. prj. rewrite upd_same. repeat split; [exact X1|lia].
    + apply (Stay n t' r Lf); [eauto using N.le_refl|intros W; exfalso; apply (Hnf n W); rewrite Hpc; reflexivity].
  - (* G5: the epoch is advanced and the adopted nodes are freed *)
    destruct (memN n l) eqn:M.
    + apply memN_In in M. assert (W : g_where s n = PFlight t) by (apply (n_flight s I); rewrite Hpc; exact M).
      pose proof (G n t' r Lf) as X. rewrite W in X. destruct X as (e0 & X0 & X1 & X2). rewrite Hpc in X0. injection X0 as <-.
      cbn [tagp]. rewrite Hg. prj. apply mod3_gap; [lia|exact X1].
    + apply (Stay n t' r Lf); [eauto using N.le_refl|]. intros W. apply (n_flight s I) in W. rewrite Hpc in W. apply memN_false in M. contradiction.
  - (* G7: the adopted nodes go back to the orphan list *)
    destruct (memN n l) eqn:M.
    + apply memN_In in M. assert (W : g_where s n = PFlight t) by (apply (n_flight s I); rewrite Hpc; exact M).
      pose proof (G n t' r Lf) as X. rewrite W in X. destruct X as (e0 & X0 & X1 & X2). rewrite Hpc in X0. injection X0 as <-.
      split; [exact X1|lia].
    + apply (Stay n t' r Lf); [eauto using N.le_refl|]. intros W. apply (n_flight s I) in W. rewrite Hpc in W. apply memN_false in M. contradiction.
  - (* U2: the slots of the epochs passed are reclaimed *)
    subst x sl. destruct (Pt b Hb) as (_ & Pe & _). rewrite Hpc in Pe. destruct Pe as (Pold & Plt & Pnew).
    destruct (memN n (flat_map (rl (tl s t)) (uslots new old))) eqn:M.
    + apply memN_In, (flat_where s t (rl (tl s t)) (uslots new old) (n_list s I t)) in M. destruct M as (i0 & Hi0 & W).
      pose proof (G n t' r Lf) as X. rewrite W in X. destruct X as (e0 & X0 & X1 & X2). unfold lb in X0. rewrite Hb in X0. injection X0 as <-.
      cbn [tagp]. assert (r + 3 <= new) by (eapply (uslots_gap new old i0); eauto; lia). lia.
    + apply (Stay n t' r Lf); [|intros W; exfalso; apply (Hnf n W); rewrite Hpc; reflexivity].
      intros i0 e0 _ E. rewrite Hb in E. injection E as <-. exists new. prj. rewrite upd_same. prj. rewrite Hb, updN_same. split; [reflexivity|lia].
  - (* X2: a retire list is handed over to the orphan list of its slot *)
    subst x. destruct (memN n (rl (tl s t) i)) eqn:M.
    + apply memN_In, (n_list s I t) in M. pose proof (G n t' r Lf) as X. rewrite M in X. destruct X as (e0 & X0 & X1 & X2).
      unfold lb in X0. destruct (cb (tl s t)) as [b|] eqn:Hb; [|discriminate]. injection X0 as <-.
      destruct (Pt b eq_refl) as (P1' & _). rewrite Hpc in P1'. destruct (P1' eq_refl) as [Ple _]. split; [exact X1|lia].
    + apply (Stay n t' r Lf); [|intros W; exfalso; apply (Hnf n W); rewrite Hpc; reflexivity].
      intros i0 e0 _ E. exists e0. prj. rewrite upd_same. prj. split; [exact E|apply N.le_refl].
Qed.

Lemma tag_start ns s t o s' es : (forall n, tag_ok s n) -> step ns s (Start t o) = Some (s', es) -> forall n, tag_ok s' n.
Proof.
  intros G H. destruct (start_pc _ _ _ _ _ _ H) as (Hidle & Eth & Etl & Eg & _ & El & Hp).
  assert (Ew : g_where s' = g_where s /\ g_life s' = g_life s) by (unfold step in H; step_split H; prj; split; reflexivity).
  destruct Ew as [Ew Elf]. intros n t' r Lf. rewrite Ew. rewrite Elf in Lf. apply (tagp_mono s); [exact (G n t' r Lf)|lia| |].
  - intros u i e _ E. exists e. split; [|apply N.le_refl]. unfold lb. rewrite Etl, El. exact E.
  - intros u _. rewrite Eth. destruct (upd_cases (th s) t (th s' t) u) as [[-> ->]|[_ ->]]; [|reflexivity]. rewrite Hidle.
    destruct Hp as [->|[Hp|[o' ->]]]; [reflexivity| |reflexivity]. destruct (th s' t); try discriminate; reflexivity.
Qed.

Section ReachT.
Variables (ns : nat) (nc : N).
Lemma tag_reach s : reachable ns nc s -> forall n, tag_ok s n.
Proof.
  apply (inv_rule_aux _ _ _ _ _ (fun s => T0 ns s /\ O0 s /\ EI s /\ N0 s) (fun s => forall n, tag_ok s n)).
  - intros s0 Hr. split; [apply (T0_reach ns nc); exact Hr|]. split; [apply (O0_reach ns nc); exact Hr|]. split; [apply (EI_reach ns nc); exact Hr|apply (N0_reach ns nc); exact Hr].
  - intros n t' r L. exact Logic.I.
  - intros s0 a s1 es (J1 & J2 & [J3 _] & J4) _ I H. destruct a as [t o|t]; [eapply tag_start; eauto|eapply tag_step; eauto].
Qed.
End ReachT.
