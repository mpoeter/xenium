(** Correctness invariants of the Harris-Michael list-based set model (Model/HmlDefs.v):
    structure of the chain (finite, acyclic, strictly sorted, marks are permanent, retired = unlinked),
    abstraction ([g_abs] = keys of the unmarked reachable nodes), linearization (results of the
    completed operations agree with [g_abs] at their linearization points), conservation.
    All theorems hold for every reachable state (any number of threads, any program, any schedule).

    The invariant is [Inv] = global part [G] (relative to the chain) + per-thread part [T]/[Tw] + [U];
    [mstep] / [mstep_intro] say what a step does to the memory, [Inv_step_c] is the one case analysis of [step]
    for it, [Inv_reach] the result.  Main theorems, by topic:
    structure     [hml_structure], [hml_retired], [hml_locals], [hml_fresh_unique], [hml_frozen], [hml_retire_step]
                  (for any state with [Inv]: [Inv_structure], [Inv_retired], [Inv_abs], [Tw_held]);
    abstraction   [hml_abs], [hml_abs_step], [absent];
    linearization [hml_hist] ([Hist_reach]), [hml_lin_nodes], [hml_pending] ([Pend_reach]),
                  [hml_op_step], [hml_lp_step], [hml_ret_step], [hml_noret_step], [hml_call_linearizable];
    conservation  [hml_quiescent]. *)
From Coq Require Import NArith List Bool Lia ZifyBool PeanoNat Sorted FinFun.
From XV Require Import Base.Word Conc.Lts Conc.Ev Model.HmlDefs.
Import ListNotations.
Local Open Scope N_scope.

(** * Generic lemmas *)

Lemma setf_same {X} (f : N -> X) i v : setf f i v i = v.
Proof. unfold setf. rewrite N.eqb_refl. reflexivity. Qed.
Lemma setf_other {X} (f : N -> X) i v j : j <> i -> setf f i v j = f j.
Proof. unfold setf. intros H. destruct (N.eqb_spec j i); [contradiction|reflexivity]. Qed.

(** [linksto nx c b]: consecutive elements of [c] are linked by [nx], the last one links to [b] *)
Fixpoint linksto (nx : N -> N) (c : list N) (b : N) : Prop :=
  match c with
  | [] => True
  | a :: r => nx a = hd b r /\ linksto nx r b
  end.

Lemma hd_app (c1 c2 : list N) b : hd b (c1 ++ c2) = hd (hd b c2) c1.
Proof. destruct c1; reflexivity. Qed.

Lemma linksto_app nx c1 : forall c2 b,
  linksto nx (c1 ++ c2) b <-> linksto nx c1 (hd b c2) /\ linksto nx c2 b.
Proof.
  induction c1 as [|a c1 IH]; intros c2 b; cbn [app linksto].
  - tauto.
  - rewrite IH, hd_app. tauto.
Qed.

Lemma linksto_ext nx nx' c b : (forall x, In x c -> nx' x = nx x) -> linksto nx c b -> linksto nx' c b.
Proof.
  induction c as [|a c IH]; intros He H; cbn [linksto] in *; [exact I|].
  destruct H as [H1 H2]. split.
  - rewrite He; [exact H1 | left; reflexivity].
  - apply IH; [|exact H2]. intros x Hx. apply He. right. exact Hx.
Qed.

Section SS.
  Variable R : N -> N -> Prop.

  Lemma SS_app_inv (l1 : list N) : forall l2, StronglySorted R (l1 ++ l2) ->
    StronglySorted R l1 /\ StronglySorted R l2 /\ (forall x y, In x l1 -> In y l2 -> R x y).
  Proof.
    induction l1 as [|a l1 IH]; intros l2 H; cbn [app] in *.
    - split; [constructor|]. split; [exact H|]. intros x y [].
    - inversion H as [|a' l' Hs Hf]; subst. destruct (IH _ Hs) as (H1 & H2 & H3).
      rewrite Forall_forall in Hf. split; [|split; [exact H2|]].
      + constructor; [exact H1|]. rewrite Forall_forall. intros x Hx. apply Hf. apply in_or_app. left. exact Hx.
      + intros x y [<- | Hx] Hy; [apply Hf; apply in_or_app; right; exact Hy | apply H3; assumption].
  Qed.

  Lemma SS_app (l1 : list N) : forall l2, StronglySorted R l1 -> StronglySorted R l2 ->
    (forall x y, In x l1 -> In y l2 -> R x y) -> StronglySorted R (l1 ++ l2).
  Proof.
    induction l1 as [|a l1 IH]; intros l2 H1 H2 H3; cbn [app]; [exact H2|].
    inversion H1 as [|a' l' Hs Hf]; subst. rewrite Forall_forall in Hf. constructor.
    - apply IH; [exact Hs | exact H2 |]. intros x y Hx Hy. apply H3; [right; exact Hx | exact Hy].
    - rewrite Forall_forall. intros x Hx. apply in_app_or in Hx. destruct Hx as [Hx | Hx].
      + apply Hf. exact Hx.
      + apply H3; [left; reflexivity | exact Hx].
  Qed.

  Lemma SS_cons_inv a l : StronglySorted R (a :: l) -> StronglySorted R l /\ (forall y, In y l -> R a y).
  Proof. intros H. inversion H as [|a' l' Hs Hf]; subst. rewrite Forall_forall in Hf. auto. Qed.

  Lemma SS_cons a l : StronglySorted R l -> (forall y, In y l -> R a y) -> StronglySorted R (a :: l).
  Proof. intros Hs Hf. constructor; [exact Hs | rewrite Forall_forall; exact Hf]. Qed.

  Lemma SS_NoDup l : (forall x, ~ R x x) -> StronglySorted R l -> NoDup l.
  Proof.
    intros Hirr. induction 1 as [|a l Hs IH Hf]; constructor; [|exact IH].
    rewrite Forall_forall in Hf. intros Hc. exact (Hirr a (Hf a Hc)).
  Qed.
End SS.

Lemma SS_ext (R R' : N -> N -> Prop) l :
  (forall x y, In x l -> In y l -> R x y -> R' x y) -> StronglySorted R l -> StronglySorted R' l.
Proof.
  intros He H. induction H as [|a l Hs IH Hf]; constructor.
  - apply IH. intros x y Hx Hy. apply He; right; assumption.
  - rewrite Forall_forall in *. intros y Hy. apply He; [left; reflexivity | right; exact Hy | apply Hf; exact Hy].
Qed.

Lemma NoDup_snoc (l : list N) n : NoDup l -> ~ In n l -> NoDup (l ++ [n]).
Proof.
  induction 1 as [|a l Ha Hnd IH]; intros Hn; cbn [app].
  - constructor; [intros []|constructor].
  - constructor.
    + intros Hc. apply in_app_or in Hc. destruct Hc as [Hc | [<- | []]]; [contradiction|].
      apply Hn. left. reflexivity.
    + apply IH. intros Hc. apply Hn. right. exact Hc.
Qed.

Lemma eq_comm_iff (a b : N) : a = b <-> b = a.
Proof. split; intros H; symmetry; exact H. Qed.

Lemma memb_true k l : memb k l = true <-> In k l.
Proof.
  unfold memb. rewrite existsb_exists. split.
  - intros (x & Hx & He). apply N.eqb_eq in He. subst. exact Hx.
  - intros H. exists k. split; [exact H | apply N.eqb_refl].
Qed.
Lemma memb_false k l : memb k l = false <-> ~ In k l.
Proof.
  rewrite <- memb_true. destruct (memb k l); split; intros H; try reflexivity; try discriminate.
  exfalso. apply H. reflexivity.
Qed.

Lemma in_remk k j l : In j (remk k l) <-> In j l /\ j <> k.
Proof.
  unfold remk. rewrite filter_In. split; intros [H1 H2]; (split; [exact H1|]).
  - intros ->. rewrite N.eqb_refl in H2. discriminate.
  - destruct (N.eqb_spec j k); [contradiction|reflexivity].
Qed.

Lemma apply_lin_snoc l e : apply_lin (l ++ [e]) = apply_lev (apply_lin l) e.
Proof. unfold apply_lin. rewrite fold_left_app. reflexivity. Qed.

Lemma threads_upd (P : nat -> pc -> Prop) f t p :
  (forall t', t' <> t -> P t' (f t')) -> P t p -> forall t', P t' (upd f t p t').
Proof.
  intros Ho Hp t'. destruct (Nat.eq_dec t' t) as [->|Hne].
  - rewrite upd_same. exact Hp.
  - rewrite upd_other by exact Hne. apply Ho. exact Hne.
Qed.

(** * The invariant *)

(** order of the chain: the sentinel 0 comes first, the other nodes by strictly increasing key *)
Definition R (st : state) (x y : N) : Prop := y <> 0 /\ (x = 0 \/ nkey st x < nkey st y).

Lemma R_irr st x : ~ R st x x.
Proof. intros [H1 [H2 | H2]]; [contradiction | lia]. Qed.

Definition ins_nodes (l : list lev) : list N :=
  flat_map (fun e => match e with LIns _ _ n => [n] | LDel _ _ _ => [] end) l.
Definition del_nodes (l : list lev) : list N :=
  flat_map (fun e => match e with LDel _ _ n => [n] | LIns _ _ _ => [] end) l.

(** nodes that are or were linked: the chain [c] (sentinel first) and the retired nodes *)
Definition known (st : state) (c : list N) (x : N) : Prop := In x (c ++ g_retired st).

(** global part, relative to the chain [c] = sentinel 0 followed by the nodes reachable from [head] *)
Record G (st : state) (c : list N) : Prop := mkG {
  G_hd : exists l, c = 0 :: l;
  G_links : linksto (nnext st) c 0;
  G_sorted : StronglySorted (R st) c;
  G_ret_nodup : NoDup (g_retired st);
  G_disj : forall x, In x c -> In x (g_retired st) -> False;
  G_bound : forall x, known st c x -> x < nalloc st;
  G_mark0 : nmark st 0 = false;
  G_marked_known : forall x, nmark st x = true -> known st c x;
  G_ret_marked : forall x, In x (g_retired st) -> nmark st x = true;
  G_closed : forall x, known st c x -> nnext st x = 0 \/ known st c (nnext st x);
  G_abs_nodup : NoDup (g_abs st);
  G_abs : forall k, In k (g_abs st) <-> exists x, In x c /\ x <> 0 /\ nmark st x = false /\ nkey st x = k;
  G_fold : g_abs st = apply_lin (g_lin st);
  G_lins : forall t k n, In (LIns t k n) (g_lin st) -> (known st c n /\ n <> 0) /\ nkey st n = k;
  G_ldel : forall t k n, In (LDel t k n) (g_lin st) -> nmark st n = true /\ nkey st n = k;
  G_lins_nodup : NoDup (ins_nodes (g_lin st));
  G_ldel_nodup : NoDup (del_nodes (g_lin st))
}.

Definition okprev (st : state) (c : list N) (key sv : N) : Prop :=
  known st c sv /\ (sv <> 0 -> nkey st sv < key).
Definition oknode (st : state) (c : list N) (x : N) : Prop := known st c x /\ x <> 0.
Definition oknx (st : state) (c : list N) (x : N) : Prop := x = 0 \/ known st c x.
(** the node an inserting thread owns and has not linked yet *)
Definition fresh (st : state) (c : list N) (key n : N) : Prop :=
  n <> 0 /\ n < nalloc st /\ ~ known st c n /\ nkey st n = key.

Definition cont_ok (st : state) (c : list N) (w : option bool) (k : fk) (key : N) : Prop :=
  match k with
  | KIns n => fresh st c key n
  | KDel2 => w = Some true
  | _ => True
  end.

(** per-thread part; [w] is the thread's [g_lp] *)
Definition Tw (st : state) (c : list N) (w : option bool) (p : pc) : Prop :=
  match p with
  | Idle | Begin _ => True
  | F1 k key start => cont_ok st c w k key /\ okprev st c key start
  | F2 k key start sv nx => cont_ok st c w k key /\ okprev st c key start /\ okprev st c key sv /\ oknx st c nx
  | F3 k key start sv cur =>
    cont_ok st c w k key /\ okprev st c key start /\ okprev st c key sv /\ oknode st c cur
  | F4 k key start sv cur =>
    cont_ok st c w k key /\ okprev st c key start /\ okprev st c key sv /\ oknode st c cur /\
    nmark st cur = true
  | F5 k key start sv cur nx =>
    cont_ok st c w k key /\ okprev st c key start /\ okprev st c key sv /\ oknode st c cur /\
    nmark st cur = true /\ nnext st cur = nx
  | F6 k key start sv cur nx =>
    cont_ok st c w k key /\ okprev st c key start /\ okprev st c key sv /\ oknode st c cur /\
    (is_del2 k = false -> nkey st cur = key -> w = Some true) /\ oknx st c nx
  | E1 n key sv cur =>
    fresh st c key n /\ okprev st c key sv /\ (cur <> 0 -> known st c cur /\ key < nkey st cur)
  | E2 n key sv cur =>
    fresh st c key n /\ okprev st c key sv /\ (cur <> 0 -> known st c cur /\ key < nkey st cur) /\
    nnext st n = cur
  | D1 key sv cur nx => okprev st c key sv /\ oknode st c cur /\ nkey st cur = key /\ oknx st c nx
  | D2 key sv cur nx =>
    okprev st c key sv /\ oknode st c cur /\ nkey st cur = key /\
    nmark st cur = true /\ nnext st cur = nx /\ w = Some true
  end.

Definition T (st : state) (c : list N) (t : nat) (p : pc) : Prop := Tw st c (g_lp st t) p.

Definition fresh_of_k (k : fk) : option N := match k with KIns n => Some n | _ => None end.
Definition fresh_of (p : pc) : option N :=
  match p with
  | F1 k _ _ | F2 k _ _ _ _ | F3 k _ _ _ _ | F4 k _ _ _ _ | F5 k _ _ _ _ _ | F6 k _ _ _ _ _ => fresh_of_k k
  | E1 n _ _ _ | E2 n _ _ _ => Some n
  | _ => None
  end.

(** unlinked new nodes of different threads are different *)
Definition U (f : nat -> pc) : Prop :=
  forall t t' n, t <> t' -> fresh_of (f t) = Some n -> fresh_of (f t') = Some n -> False.

Definition Inv (st : state) : Prop :=
  exists c, G st c /\ (forall t, T st c t (th st t)) /\ U (th st).

Lemma U_upd f t p : U f ->
  (forall n, fresh_of p = Some n -> forall t', t' <> t -> fresh_of (f t') <> Some n) ->
  U (upd f t p).
Proof.
  intros HU Hp a b n Hab Ha Hb.
  destruct (Nat.eq_dec a t) as [->|Ha']; destruct (Nat.eq_dec b t) as [->|Hb'].
  - congruence.
  - rewrite upd_same in Ha. rewrite upd_other in Hb by exact Hb'. exact (Hp n Ha b Hb' Hb).
  - rewrite upd_same in Hb. rewrite upd_other in Ha by exact Ha'. exact (Hp n Hb a Ha' Ha).
  - rewrite upd_other in Ha by assumption. rewrite upd_other in Hb by assumption.
    exact (HU a b n Hab Ha Hb).
Qed.

Lemma U_upd_same f t p : U f -> (fresh_of p = None \/ fresh_of p = fresh_of (f t)) -> U (upd f t p).
Proof.
  intros HU Hp. apply U_upd; [exact HU|]. intros n Hn t' Hne Hc.
  destruct Hp as [Hp|Hp]; [congruence|]. rewrite Hp in Hn. exact (HU t' t n Hne Hc Hn).
Qed.

(** ** monotonicity of the memory between two states (with chains [c], [c']).
    [sp] is the one node excepted from [M_fresh]: the unlinked new node of the stepping thread when the step
    stores to it (E1) or links it (E2).  [sp = 0] stands for "no exception": 0 is the sentinel, it is always
    known and no thread's new node ([sp_zero]), so the side condition [n <> sp] of [Tw_stable] and
    [Inv_intro] is then free. *)
Record mono (st : state) (c : list N) (st' : state) (c' : list N) (sp : N) : Prop := mkMono {
  M_known : forall x, known st c x -> known st' c' x;
  M_key : forall x, x < nalloc st -> nkey st' x = nkey st x;
  M_mark : forall x, nmark st x = true -> nmark st' x = true /\ nnext st' x = nnext st x;
  M_alloc : nalloc st <= nalloc st';
  M_fresh : forall n, n < nalloc st -> ~ known st c n -> n <> sp ->
            ~ known st' c' n /\ nnext st' n = nnext st n
}.

Lemma okprev_mono st c st' c' sp key sv :
  G st c -> mono st c st' c' sp -> okprev st c key sv -> okprev st' c' key sv.
Proof.
  intros HG HM [Hk Hlt]. split; [apply (M_known _ _ _ _ _ HM); exact Hk|].
  intros Hnz. rewrite (M_key _ _ _ _ _ HM); [apply Hlt; exact Hnz | apply (G_bound _ _ HG); exact Hk].
Qed.

Lemma oknode_mono st c st' c' sp x :
  mono st c st' c' sp -> oknode st c x -> oknode st' c' x.
Proof. intros HM [Hk Hnz]. split; [apply (M_known _ _ _ _ _ HM); exact Hk | exact Hnz]. Qed.

Lemma fresh_mono st c st' c' sp key n :
  mono st c st' c' sp -> n <> sp -> fresh st c key n -> fresh st' c' key n /\ nnext st' n = nnext st n.
Proof.
  intros HM Hsp (Hnz & Hlt & Hnk & Hkey).
  destruct (M_fresh _ _ _ _ _ HM n Hlt Hnk Hsp) as [Hnk' Hnx].
  split; [|exact Hnx]. split; [exact Hnz|]. split; [pose proof (M_alloc _ _ _ _ _ HM); lia|].
  split; [exact Hnk'|]. rewrite (M_key _ _ _ _ _ HM); assumption.
Qed.

Lemma cont_ok_mono st c st' c' sp w k key :
  mono st c st' c' sp ->
  (forall n, fresh_of_k k = Some n -> n <> sp) ->
  cont_ok st c w k key -> cont_ok st' c' w k key.
Proof.
  intros HM Hsp H. destruct k; cbn [cont_ok] in *; try exact I; [|exact H].
  eapply fresh_mono; [exact HM | apply Hsp; reflexivity | exact H].
Qed.

(** generic stability of the per-thread part *)
Lemma Tw_stable st c st' c' sp w p :
  G st c -> mono st c st' c' sp ->
  (forall n, fresh_of p = Some n -> n <> sp) ->
  Tw st c w p -> Tw st' c' w p.
Proof.
  intros HG HM Hsp HT.
  assert (Hop : forall key sv, okprev st c key sv -> okprev st' c' key sv) by (intros; eapply okprev_mono; eauto).
  assert (Hon : forall x, oknode st c x -> oknode st' c' x) by (intros; eapply oknode_mono; eauto).
  assert (Hnx : forall x, oknx st c x -> oknx st' c' x).
  { intros x [Hx | Hx]; [left; exact Hx | right; apply (M_known _ _ _ _ _ HM); exact Hx]. }
  assert (Hkey : forall x, known st c x -> nkey st' x = nkey st x).
  { intros x Hk. apply (M_key _ _ _ _ _ HM), (G_bound _ _ HG), Hk. }
  assert (Hco : forall k key, (forall n, fresh_of_k k = Some n -> n <> sp) -> cont_ok st c w k key -> cont_ok st' c' w k key)
    by (intros; eapply cont_ok_mono; eauto).
  assert (Hfr : forall key n, n <> sp -> fresh st c key n -> fresh st' c' key n /\ nnext st' n = nnext st n)
    by (intros; eapply fresh_mono; eauto).
  assert (Hlk : forall key cur, (cur <> 0 -> known st c cur /\ key < nkey st cur) -> cur <> 0 -> known st' c' cur /\ key < nkey st' cur).
  { intros key cur H Hnz. destruct (H Hnz) as [H1 H2]. rewrite (Hkey _ H1). split; [apply (M_known _ _ _ _ _ HM), H1 | exact H2]. }
  pose proof (M_mark _ _ _ _ _ HM) as Hmk.
  (* every atom of [Tw] is transported by one of the facts above; keys of known nodes, and next fields of
     marked nodes and of the thread's own new node, are rewritten to their old values *)
  destruct p; cbn [Tw fresh_of] in *; try exact I;
    repeat match goal with
    | H : _ /\ _ |- _ => destruct H
    | H : nmark st ?x = true |- _ => destruct (Hmk x H) as [? Hn']; rewrite ?Hn'; clear H
    | H : oknode st c ?x |- _ => rewrite ?(Hkey x (proj1 H)); apply Hon in H
    | H : fresh st c _ ?n |- _ => destruct (Hfr _ n (Hsp n eq_refl) H) as [? Hn']; rewrite ?Hn'; clear H
    end; auto 10.
Qed.

(** * Facts about the chain *)

Lemma G_zero_in st c : G st c -> In 0 c.
Proof. intros HG. destruct (G_hd _ _ HG) as [l ->]. left. reflexivity. Qed.

Lemma G_nodup st c : G st c -> NoDup c.
Proof. intros HG. eapply SS_NoDup; [apply (R_irr st) | exact (G_sorted _ _ HG)]. Qed.

Lemma known_chain st c x : In x c -> known st c x.
Proof. intros H. apply in_or_app. left. exact H. Qed.

Lemma known_zero st c : G st c -> known st c 0.
Proof. intros HG. apply known_chain, (G_zero_in _ _ HG). Qed.

Lemma unmarked_in_chain st c x : G st c -> known st c x -> nmark st x = false -> In x c.
Proof.
  intros HG Hk Hm. apply in_app_or in Hk. destruct Hk as [Hk | Hk]; [exact Hk|].
  rewrite (G_ret_marked _ _ HG _ Hk) in Hm. discriminate.
Qed.

Lemma chain_split st c sv : G st c -> In sv c ->
  exists c1 c2, c = c1 ++ sv :: c2 /\ nnext st sv = hd 0 c2 /\
    linksto (nnext st) c1 sv /\ linksto (nnext st) c2 0 /\
    StronglySorted (R st) c1 /\ StronglySorted (R st) c2 /\
    (forall x, In x c1 -> R st x sv) /\ (forall y, In y c2 -> R st sv y) /\
    (forall x y, In x c1 -> In y c2 -> R st x y) /\
    ~ In sv c1 /\ ~ In sv c2.
Proof.
  intros HG Hin. destruct (in_split _ _ Hin) as (c1 & c2 & E). exists c1, c2.
  pose proof (G_links _ _ HG) as HL. pose proof (G_sorted _ _ HG) as HS. pose proof (G_nodup _ _ HG) as HN.
  rewrite E in HL, HS, HN. apply linksto_app in HL. cbn [hd linksto] in HL. destruct HL as (HL1 & HL2 & HL3).
  apply SS_app_inv in HS. destruct HS as (HS1 & HS2 & HS3).
  apply SS_cons_inv in HS2. destruct HS2 as [HS2 HS4].
  apply NoDup_remove_2 in HN.
  split; [exact E|]. split; [exact HL2|]. split; [exact HL1|]. split; [exact HL3|].
  split; [exact HS1|]. split; [exact HS2|].
  split; [intros x Hx; apply HS3; [exact Hx | left; reflexivity]|].
  split; [exact HS4|].
  split; [intros x y Hx Hy; apply HS3; [exact Hx | right; exact Hy]|].
  split; intros Hc; apply HN; apply in_or_app; [left | right]; exact Hc.
Qed.

Lemma chain_next_in st c x : G st c -> In x c -> nnext st x <> 0 -> In (nnext st x) c.
Proof.
  intros HG Hin Hnz. destruct (chain_split _ _ _ HG Hin) as (c1 & c2 & E & Hn & _).
  destruct c2 as [|y r]; cbn [hd] in Hn; [contradiction|].
  rewrite Hn, E. apply in_or_app. right. right. left. reflexivity.
Qed.

Lemma chain_nonzero st c sv y : G st c -> In sv c -> nnext st sv = y -> y <> 0 -> In y c /\ R st sv y.
Proof.
  intros HG Hin Hn Hnz. destruct (chain_split _ _ _ HG Hin) as (c1 & c2 & E & Hn' & _ & _ & _ & _ & _ & HR & _).
  destruct c2 as [|y' r]; cbn [hd] in Hn'; [congruence|].
  rewrite Hn in Hn'. subst y'. split; [|apply HR; left; reflexivity].
  rewrite E. apply in_or_app. right. right. left. reflexivity.
Qed.

Lemma next_oknode st c sv nx : G st c -> known st c sv -> nmark st sv = false -> nnext st sv = nx -> nx <> 0 ->
  oknode st c nx.
Proof.
  intros HG Hk Hm Hn Hnz. split; [|exact Hnz]. apply known_chain.
  exact (proj1 (chain_nonzero st c sv nx HG (unmarked_in_chain _ _ _ HG Hk Hm) Hn Hnz)).
Qed.

(** a key strictly between the keys of two adjacent nodes of the chain is not in the chain *)
Lemma not_in_chain st c sv cur key : G st c -> In sv c -> nnext st sv = cur ->
  (sv <> 0 -> nkey st sv < key) -> (cur <> 0 -> key < nkey st cur) ->
  forall x, In x c -> x <> 0 -> nkey st x <> key.
Proof.
  intros HG Hin Hn Hlo Hhi x Hx Hxnz.
  destruct (chain_split _ _ _ HG Hin) as (c1 & c2 & E & Hn' & _ & _ & _ & HS2 & HR1 & HR2 & _).
  rewrite E in Hx. apply in_app_or in Hx. destruct Hx as [Hx | [<- | Hx]].
  - destruct (HR1 _ Hx) as [Hsv [H0 | Hlt]]; [contradiction|]. specialize (Hlo Hsv). lia.
  - specialize (Hlo Hxnz). lia.
  - destruct c2 as [|y r]; [destruct Hx|]. cbn [hd] in Hn'. rewrite Hn in Hn'. subst y.
    destruct (HR2 cur (or_introl eq_refl)) as [Hcnz _]. specialize (Hhi Hcnz).
    destruct Hx as [<- | Hx]; [lia|].
    apply SS_cons_inv in HS2. destruct HS2 as [_ HS2]. destruct (HS2 _ Hx) as [_ [H0 | Hlt]]; [contradiction | lia].
Qed.

Lemma chain_key_inj st c x y : G st c -> In x c -> In y c -> x <> 0 -> y <> 0 -> nkey st x = nkey st y -> x = y.
Proof.
  intros HG Hx Hy Hxnz Hynz Hk.
  destruct (chain_split _ _ _ HG Hx) as (c1 & c2 & E & _ & _ & _ & _ & _ & HR1 & HR2 & _).
  rewrite E in Hy. apply in_app_or in Hy. destruct Hy as [Hy | [Hy | Hy]].
  - destruct (HR1 _ Hy) as [_ [H0 | Hlt]]; [contradiction | lia].
  - exact Hy.
  - destruct (HR2 _ Hy) as [_ [H0 | Hlt]]; [contradiction | lia].
Qed.

Lemma abs_in st c x : G st c -> In x c -> x <> 0 -> nmark st x = false -> In (nkey st x) (g_abs st).
Proof. intros HG H1 H2 H3. apply (G_abs _ _ HG). exists x. auto. Qed.

Lemma ins_nodes_in l n : In n (ins_nodes l) -> exists t k, In (LIns t k n) l.
Proof.
  unfold ins_nodes. rewrite in_flat_map. intros (e & He & Hn). destruct e as [t k n' | t k n']; [|destruct Hn].
  destruct Hn as [<- | []]. exists t, k. exact He.
Qed.
Lemma del_nodes_in l n : In n (del_nodes l) -> exists t k, In (LDel t k n) l.
Proof.
  unfold del_nodes. rewrite in_flat_map. intros (e & He & Hn). destruct e as [t k n' | t k n']; [destruct Hn|].
  destruct Hn as [<- | []]. exists t, k. exact He.
Qed.

(** the key is absent from the abstract set when it lies strictly between two adjacent nodes *)
Lemma absent st c sv cur key : G st c -> In sv c -> nnext st sv = cur ->
  (sv <> 0 -> nkey st sv < key) -> (cur <> 0 -> key < nkey st cur) -> memb key (g_abs st) = false.
Proof.
  intros HG Hsv Hn Hlo Hhi. apply memb_false. intros Hc. apply (G_abs _ _ HG) in Hc.
  destruct Hc as (x & H1 & H2 & _ & H4). exact (not_in_chain st c sv cur key HG Hsv Hn Hlo Hhi x H1 H2 H4).
Qed.

(** * Preservation of the global part by the memory-changing steps *)

(** summary of what a step does to the memory: [G] holds again for a chain [c'], the memory moved
    monotonically, and the new linearization events [l] account for every new mark and every newly
    linked node *)
Record mstep (st : state) (c : list N) (st' : state) (c' : list N) (sp : N) (l : list lev) : Prop := mkMS {
  MS_G : G st' c';
  MS_mono : mono st c st' c' sp;
  MS_lin : g_lin st' = g_lin st ++ l;
  MS_marks : forall x, nmark st' x = true -> nmark st x = true \/ In x (del_nodes l);
  MS_known : forall x, known st' c' x -> known st c x \/ In x (ins_nodes l)
}.

Lemma ins_nodes_intro t k n l : In (LIns t k n) l -> In n (ins_nodes l).
Proof. intros H. apply in_flat_map. exists (LIns t k n). split; [exact H | left; reflexivity]. Qed.
Lemma del_nodes_intro t k n l : In (LDel t k n) l -> In n (del_nodes l).
Proof. intros H. apply in_flat_map. exists (LDel t k n). split; [exact H | left; reflexivity]. Qed.

(** steps that change at most the next field of the unmarked chain node [sv] (and of the unlinked node [sp], about
    which nothing is claimed), marks and ghosts, and leave the keys of the allocated nodes alone.  What is
    specific to the step is the shape of the new chain [c'], the retired list and the abstract set; the
    clauses of [G] about bounds, marks, closure and the linearization, [mono] and the provenance follow from
    the description of the (at most one) new linearization event [l]. *)
Lemma mstep_intro st c st' c' sv sp l
  (HG : G st c) (Hsv : In sv c) (Hsvm : nmark st sv = false)
  (Halloc : nalloc st <= nalloc st')
  (Hkeys : forall x, x < nalloc st -> nkey st' x = nkey st x)
  (Hnext : forall x, x < nalloc st -> x <> sv -> x <> sp \/ known st c x \/ In x (ins_nodes l) ->
           nnext st' x = nnext st x)
  (Hhd : exists l0, c' = 0 :: l0) (Hlinks : linksto (nnext st') c' 0) (Hsorted : StronglySorted (R st) c')
  (Hsvnext : oknx st' c' (nnext st' sv))
  (Hret_nodup : NoDup (g_retired st')) (Hret_disj : forall x, In x c' -> In x (g_retired st') -> False)
  (Hret_marked : forall x, In x (g_retired st') -> nmark st' x = true)
  (Hknown : forall x, known st' c' x <-> known st c x \/ In x (ins_nodes l))
  (Hmarks : forall x, nmark st' x = true <-> nmark st x = true \/ In x (del_nodes l))
  (Habs_nodup : NoDup (g_abs st'))
  (Habs : forall k, In k (g_abs st') <-> exists x, In x c' /\ x <> 0 /\ nmark st' x = false /\ nkey st x = k)
  (Hlin : g_lin st' = g_lin st ++ l) (Hlen : (length l <= 1)%nat)
  (Hfold : g_abs st' = fold_left apply_lev l (g_abs st))
  (Hins : forall t k n, In (LIns t k n) l -> n = sp /\ fresh st c k n /\ oknx st c (nnext st n))
  (Hdel : forall t k n, In (LDel t k n) l -> known st c n /\ n <> 0 /\ nmark st n = false /\ nkey st n = k) :
  mstep st c st' c' sp l.
Proof.
  rename Halloc into Ha, Hkeys into Hk, Hnext into Hn, Hlinks into Hlk, Hsorted into Hso, Hsvnext into Hsvn, Hret_nodup into Hrn,
    Hret_disj into Hrd, Hret_marked into Hrm, Hknown into Hkn, Hmarks into Hmk, Habs_nodup into Han, Habs into Hab, Hlin into Elin,
    Hfold into Efold.
  assert (Hnew : forall x, In x (ins_nodes l) -> x = sp /\ (exists k, fresh st c k x) /\ oknx st c (nnext st x)).
  { intros x Hx. apply ins_nodes_in in Hx. destruct Hx as (t & k & Hx). destruct (Hins _ _ _ Hx) as (H1 & H2 & H3). eauto. }
  assert (Hlt : forall x, known st' c' x -> x < nalloc st).
  { intros x Hx. apply Hkn in Hx. destruct Hx as [Hx | Hx]; [exact (G_bound _ _ HG x Hx)|].
    destruct (Hnew x Hx) as (_ & (k & Hf) & _). exact (proj1 (proj2 Hf)). }
  assert (Hkk : forall x, known st c x -> nkey st' x = nkey st x) by (intros x Hx; apply Hk, (G_bound _ _ HG), Hx).
  assert (Hnk : forall x, known st c x -> x <> sv -> nnext st' x = nnext st x).
  { intros x Hx Hne. apply Hn; [apply (G_bound _ _ HG), Hx | exact Hne | auto]. }
  assert (Hox : forall x, oknx st c x -> oknx st' c' x).
  { intros x [Hx | Hx]; [left; exact Hx | right; apply Hkn; left; exact Hx]. }
  constructor; [constructor | constructor | ..].
  - exact Hhd.
  - exact Hlk.
  - eapply SS_ext; [|exact Hso]. intros x y Hx Hy. unfold R. rewrite !Hk by (apply Hlt, known_chain; assumption). tauto.
  - exact Hrn.
  - exact Hrd.
  - intros x Hx. apply Hlt in Hx. lia.
  - destruct (nmark st' 0) eqn:Hm; [|reflexivity]. apply Hmk in Hm. destruct Hm as [Hm | Hm].
    + rewrite (G_mark0 _ _ HG) in Hm. discriminate.
    + apply del_nodes_in in Hm. destruct Hm as (t & k & Hm). exfalso. exact (proj1 (proj2 (Hdel _ _ _ Hm)) eq_refl).
  - intros x Hx. apply Hkn. left. apply Hmk in Hx. destruct Hx as [Hx | Hx]; [exact (G_marked_known _ _ HG x Hx)|].
    apply del_nodes_in in Hx. destruct Hx as (t & k & Hx). exact (proj1 (Hdel _ _ _ Hx)).
  - exact Hrm.
  - intros x Hx. destruct (N.eq_dec x sv) as [->|Hne]; [exact Hsvn|]. pose proof (Hlt x Hx) as Hl. apply Hkn in Hx.
    rewrite (Hn x Hl Hne) by tauto. apply Hox.
    destruct Hx as [Hx | Hx]; [exact (G_closed _ _ HG x Hx) | exact (proj2 (proj2 (Hnew x Hx)))].
  - exact Han.
  - intros k. rewrite Hab. split; intros (x & H1 & H2 & H3 & H4); exists x;
      [rewrite Hk | rewrite Hk in H4]; auto; apply Hlt, known_chain, H1.
  - rewrite Efold, Elin. unfold apply_lin. rewrite fold_left_app. f_equal. exact (G_fold _ _ HG).
  - intros t k n Hi. rewrite Elin in Hi. apply in_app_or in Hi. destruct Hi as [Hi | Hi].
    + destruct (G_lins _ _ HG _ _ _ Hi) as [[H1 H0] H2]. rewrite (Hkk n H1).
      split; [split; [apply Hkn; left; exact H1 | exact H0] | exact H2].
    + destruct (Hins _ _ _ Hi) as (_ & (H0 & Hl & _ & H2) & _). rewrite (Hk n Hl).
      split; [split; [apply Hkn; right; exact (ins_nodes_intro _ _ _ _ Hi) | exact H0] | exact H2].
  - intros t k n Hi. rewrite Elin in Hi. apply in_app_or in Hi. destruct Hi as [Hi | Hi].
    + destruct (G_ldel _ _ HG _ _ _ Hi) as [H1 H2]. rewrite (Hkk n (G_marked_known _ _ HG n H1)).
      split; [apply Hmk; left; exact H1 | exact H2].
    + destruct (Hdel _ _ _ Hi) as (H1 & _ & _ & H2). rewrite (Hkk n H1).
      split; [apply Hmk; right; exact (del_nodes_intro _ _ _ _ Hi) | exact H2].
  - rewrite Elin. unfold ins_nodes. rewrite flat_map_app. destruct l as [|[t k n | t k n] [|e l]]; cbn [flat_map app length] in *;
      rewrite ?app_nil_r; try exact (G_lins_nodup _ _ HG); try (exfalso; clear -Hlen; lia).
    apply NoDup_snoc; [exact (G_lins_nodup _ _ HG)|]. intros Hc. apply ins_nodes_in in Hc. destruct Hc as (t0 & k0 & Hc).
    destruct (Hins t k n (or_introl eq_refl)) as (_ & (_ & _ & Hnk' & _) & _). exact (Hnk' (proj1 (proj1 (G_lins _ _ HG _ _ _ Hc)))).
  - rewrite Elin. unfold del_nodes. rewrite flat_map_app. destruct l as [|[t k n | t k n] [|e l]]; cbn [flat_map app length] in *;
      rewrite ?app_nil_r; try exact (G_ldel_nodup _ _ HG); try (exfalso; clear -Hlen; lia).
    apply NoDup_snoc; [exact (G_ldel_nodup _ _ HG)|]. intros Hc. apply del_nodes_in in Hc. destruct Hc as (t0 & k0 & Hc).
    destruct (Hdel t k n (or_introl eq_refl)) as (_ & _ & Hm & _). rewrite (proj1 (G_ldel _ _ HG _ _ _ Hc)) in Hm. discriminate.
  - intros x Hx. apply Hkn. left. exact Hx.
  - exact Hk.
  - intros x Hx. split; [apply Hmk; left; exact Hx|]. apply Hnk; [exact (G_marked_known _ _ HG x Hx) | congruence].
  - exact Ha.
  - intros n0 Hl Hn0 Hne. split; [|apply Hn; [exact Hl | intros ->; apply Hn0, known_chain, Hsv | left; exact Hne]].
    intros Hc. apply Hkn in Hc. destruct Hc as [Hc | Hc]; [exact (Hn0 Hc) | exact (Hne (proj1 (Hnew _ Hc)))].
  - exact Elin.
  - intros x Hx. apply Hmk. exact Hx.
  - intros x Hx. apply Hkn. exact Hx.
Qed.

(** steps that leave the allocated nodes alone, except for the next field of the unlinked node [sp] *)
Lemma mstep_frame st c st' sp : G st c -> nalloc st <= nalloc st' ->
  (forall x, x < nalloc st -> nkey st' x = nkey st x /\ nmark st' x = nmark st x) ->
  (forall x, nmark st' x = true -> nmark st x = true) ->
  (forall x, x < nalloc st -> known st c x \/ x <> sp -> nnext st' x = nnext st x) ->
  g_abs st' = g_abs st -> g_lin st' = g_lin st -> g_retired st' = g_retired st ->
  mstep st c st' c sp [].
Proof.
  intros HG Ha Hkm Hm Hn Eabs Elin Eret. pose proof (G_bound _ _ HG) as Hb. pose proof (known_chain st c) as Hc.
  assert (Hmk : forall x, known st c x -> nmark st' x = nmark st x) by (intros x Hx; apply Hkm, Hb, Hx).
  assert (Hnx : forall x, known st c x -> nnext st' x = nnext st x) by (intros x Hx; apply Hn; [apply Hb, Hx | left; exact Hx]).
  apply (mstep_intro st c st' c 0 sp [] HG (G_zero_in _ _ HG) (G_mark0 _ _ HG) Ha);
    unfold oknx, known; rewrite ?Eret, ?Eabs, ?Elin, ?app_nil_r; try reflexivity.
  - (* Hkeys *) intros x Hx. apply Hkm, Hx.
  - (* Hnext *) intros x Hx _ [H | [H | []]]; apply Hn; auto.
  - (* Hhd *) exact (G_hd _ _ HG).
  - (* Hlinks *) eapply linksto_ext; [|exact (G_links _ _ HG)]. intros x Hx. apply Hnx, Hc, Hx.
  - (* Hsorted *) exact (G_sorted _ _ HG).
  - (* Hsvnext *) rewrite Hnx by (apply known_zero, HG). exact (G_closed _ _ HG 0 (known_zero _ _ HG)).
  - (* Hret_nodup *) exact (G_ret_nodup _ _ HG).
  - (* Hret_disj *) exact (G_disj _ _ HG).
  - (* Hret_marked *) intros x Hx. rewrite Hmk by (apply in_or_app; right; exact Hx). exact (G_ret_marked _ _ HG x Hx).
  - (* Hknown *) intros x. cbn. tauto.
  - (* Hmarks *) intros x. cbn. split; [intros H; left; apply Hm, H | intros [H | []]].
    rewrite Hmk by (apply (G_marked_known _ _ HG), H). exact H.
  - (* Habs_nodup *) exact (G_abs_nodup _ _ HG).
  - (* Habs *) intros k. rewrite (G_abs _ _ HG). split; intros (x & H1 & H2 & H3 & H4); exists x;
      rewrite (Hmk x (Hc x H1)) in *; auto.
  - (* Hlen *) apply Nat.le_0_l.
  - (* Hins *) intros t k n [].
  - (* Hdel *) intros t k n [].
Qed.

(** steps that do not change the memory *)
Lemma mstep_same st c st' : G st c ->
  nkey st' = nkey st -> nnext st' = nnext st -> nmark st' = nmark st -> nalloc st' = nalloc st ->
  g_abs st' = g_abs st -> g_lin st' = g_lin st -> g_retired st' = g_retired st -> mstep st c st' c 0 [].
Proof. intros HG Ek Enx Em Ea. apply mstep_frame; rewrite ?Ek, ?Enx, ?Em, ?Ea; auto. apply N.le_refl. Qed.

(** allocation of node [nalloc st] *)
Lemma alloc_step st c st' k : G st c ->
  nkey st' = setf (nkey st) (nalloc st) k -> nnext st' = setf (nnext st) (nalloc st) 0 ->
  nmark st' = setf (nmark st) (nalloc st) false -> nalloc st' = nalloc st + 1 ->
  g_abs st' = g_abs st -> g_lin st' = g_lin st -> g_retired st' = g_retired st -> mstep st c st' c 0 [].
Proof.
  intros HG Ek Enx Em Ea. apply mstep_frame; rewrite ?Ek, ?Enx, ?Em, ?Ea; auto; [lia | | |].
  - intros x Hx. rewrite !setf_other by lia. auto.
  - intros x. unfold setf. destruct (x =? nalloc st); [discriminate | auto].
  - intros x Hx _. apply setf_other. lia.
Qed.

(** store to the next field of an unlinked new node *)
Lemma store_step st c st' n v : G st c -> ~ known st c n ->
  nkey st' = nkey st -> nnext st' = setf (nnext st) n v -> nmark st' = nmark st -> nalloc st' = nalloc st ->
  g_abs st' = g_abs st -> g_lin st' = g_lin st -> g_retired st' = g_retired st -> mstep st c st' c n [].
Proof.
  intros HG Hnk Ek Enx Em Ea. apply mstep_frame; rewrite ?Ek, ?Enx, ?Em, ?Ea; auto; [apply N.le_refl|].
  intros x _ Hx. apply setf_other. intros ->. destruct Hx as [Hx | Hx]; [exact (Hnk Hx) | exact (Hx eq_refl)].
Qed.

Lemma chain_hd_split st c c1 sv c2 : G st c -> c = c1 ++ sv :: c2 -> forall c3, exists l0, c1 ++ sv :: c3 = 0 :: l0.
Proof.
  intros HG E c3. destruct (G_hd _ _ HG) as [l El]. rewrite E in El.
  destruct c1 as [|a c1]; cbn [app] in *; injection El as -> _; eexists; reflexivity.
Qed.

(** the successful link CAS of emplace_or_get (linearization point of a successful insert) *)
Lemma link_step st c st' t n key sv cur : G st c -> fresh st c key n -> nnext st n = cur ->
  known st c sv -> nmark st sv = false -> nnext st sv = cur ->
  (sv <> 0 -> nkey st sv < key) -> (cur <> 0 -> key < nkey st cur) ->
  nkey st' = nkey st -> nnext st' = setf (nnext st) sv n -> nmark st' = nmark st -> nalloc st' = nalloc st ->
  g_abs st' = key :: g_abs st -> g_lin st' = g_lin st ++ [LIns t key n] -> g_retired st' = g_retired st ->
  exists c', mstep st c st' c' n [LIns t key n].
Proof.
  intros HG Hfr Hnn Hsvk Hsvm Hsvn Hlo Hhi Ek Enx Em Ea Eabs Elin Eret. pose proof Hfr as (Hnnz & Hnlt & Hnk & Hnkey).
  pose proof (unmarked_in_chain _ _ _ HG Hsvk Hsvm) as Hsv.
  assert (Habsent : ~ In key (g_abs st)) by (apply memb_false, (absent st c sv cur); assumption).
  destruct (chain_split _ _ _ HG Hsv) as (c1 & c2 & E & Hn' & HL1 & HL2 & HS1 & HS2 & HR1 & HR2 & HR3 & Hsv1 & Hsv2).
  rewrite Hsvn in Hn'.
  assert (Hnc : ~ In n c) by (intros Hc; apply Hnk; apply known_chain; exact Hc).
  assert (Hnsv : n <> sv) by (intros ->; contradiction).
  exists (c1 ++ sv :: n :: c2).
  assert (Hin : forall x, In x (c1 ++ sv :: n :: c2) <-> x = n \/ In x c).
  { intros x. rewrite E, !in_app_iff. cbn [In]. split; intros H; repeat destruct H as [H | H]; auto. }
  assert (Hc2nz : forall y, In y c2 -> y <> 0 /\ key < nkey st y).
  { intros y Hy. destruct (HR2 _ Hy) as [Hynz _]. split; [exact Hynz|].
    destruct c2 as [|y0 r]; [destruct Hy|]. cbn [hd] in Hn'. subst y0.
    destruct (HR2 cur (or_introl eq_refl)) as [Hcnz _]. specialize (Hhi Hcnz).
    destruct Hy as [<- | Hy]; [exact Hhi|].
    apply SS_cons_inv in HS2. destruct HS2 as [_ HS2]. destruct (HS2 _ Hy) as [_ [H0 | Hlt]]; [contradiction | lia]. }
  assert (Hcur : oknx st c cur).
  { destruct (N.eq_dec cur 0) as [Hz|Hz]; [left; exact Hz | right]. apply known_chain. rewrite <- Hsvn.
    apply (chain_next_in st c); [exact HG | exact Hsv | congruence]. }
  apply (mstep_intro st c st' _ sv n [LIns t key n] HG Hsv Hsvm); rewrite ?Eret, ?Em, ?Enx, ?Ek, ?Ea; try assumption; try reflexivity.
  - (* Hnext *) intros x _ Hx _. apply setf_other, Hx.
  - (* Hhd *) exact (chain_hd_split _ _ _ _ _ HG E _).
  - (* Hlinks *) apply linksto_app. cbn [hd linksto]. split; [|split; [|split]].
    + eapply linksto_ext; [|exact HL1]. intros x Hx. apply setf_other. intros ->. contradiction.
    + apply setf_same.
    + rewrite setf_other by exact Hnsv. congruence.
    + eapply linksto_ext; [|exact HL2]. intros x Hx. apply setf_other. intros ->. contradiction.
  - (* Hsorted *) assert (Hsvn' : R st sv n).
    { split; [exact Hnnz|]. destruct (N.eq_dec sv 0) as [H0 | H0]; [left; exact H0 | right; rewrite Hnkey; apply Hlo; exact H0]. }
    apply SS_app; [exact HS1 | |].
    + apply SS_cons; [apply SS_cons; [exact HS2|]|].
      * intros y Hy. destruct (Hc2nz _ Hy) as [H1 H2]. split; [exact H1 | right; lia].
      * intros y [<- | Hy]; [exact Hsvn' | apply HR2; exact Hy].
    + intros x y Hx [<- | [<- | Hy]]; [apply HR1; exact Hx | | apply HR3; assumption].
      destruct (HR1 _ Hx) as [Hsvnz Hor]. split; [exact Hnnz|].
      destruct Hor as [H0 | Hlt]; [left; exact H0 | right]. specialize (Hlo Hsvnz). lia.
  - (* Hsvnext *) rewrite setf_same. right. apply in_or_app. left. apply (proj2 (Hin n)). left. reflexivity.
  - (* Hret_nodup *) exact (G_ret_nodup _ _ HG).
  - (* Hret_disj *) intros x Hx Hr. apply Hin in Hx. destruct Hx as [-> | Hx]; [apply Hnk, in_or_app; right; exact Hr | exact (G_disj _ _ HG x Hx Hr)].
  - (* Hret_marked *) exact (G_ret_marked _ _ HG).
  - (* Hknown *) intros x. unfold known. rewrite Eret, (in_app_iff (c1 ++ sv :: n :: c2)), Hin, (in_app_iff c). cbn. rewrite (eq_comm_iff n x). tauto.
  - (* Hmarks *) intros x. cbn. tauto.
  - (* Habs_nodup *) rewrite Eabs. constructor; [exact Habsent | exact (G_abs_nodup _ _ HG)].
  - (* Habs *) intros k0. rewrite Eabs. cbn [In]. rewrite (G_abs _ _ HG). split.
    + intros [<- | (x & H1 & H2 & H3 & H4)].
      * exists n. split; [apply Hin; left; reflexivity|]. split; [exact Hnnz|]. split; [|exact Hnkey].
        destruct (nmark st n) eqn:Hm; [|reflexivity]. exfalso. apply Hnk. apply (G_marked_known _ _ HG). exact Hm.
      * exists x. split; [apply Hin; right; exact H1 | auto].
    + intros (x & H1 & H2 & H3 & H4). apply Hin in H1. destruct H1 as [-> | H1]; [left; congruence | right; exists x; auto].
  - (* Hins *) intros t0 k0 n0 [Hi | []]. injection Hi as <- <- <-. rewrite Hnn. auto.
  - (* Hdel *) intros t0 k0 n0 [Hi | []]. discriminate Hi.
Qed.

(** the successful mark CAS of erase (linearization point of a successful erase) *)
Lemma mark_step st c st' t key cur : G st c -> known st c cur -> cur <> 0 -> nmark st cur = false -> nkey st cur = key ->
  nkey st' = nkey st -> nnext st' = nnext st -> nmark st' = setf (nmark st) cur true -> nalloc st' = nalloc st ->
  g_abs st' = remk key (g_abs st) -> g_lin st' = g_lin st ++ [LDel t key cur] -> g_retired st' = g_retired st ->
  mstep st c st' c 0 [LDel t key cur].
Proof.
  intros HG Hck' Hcnz Hcm Hck Ek Enx Em Ea Eabs Elin Eret.
  pose proof (unmarked_in_chain _ _ _ HG Hck' Hcm) as Hcur.
  assert (Hmk : forall x, nmark st' x = true <-> nmark st x = true \/ In x (del_nodes [LDel t key cur])).
  { intros x. rewrite Em. unfold setf. cbn. destruct (N.eqb_spec x cur) as [->|Hne]; [tauto|].
    split; [auto|]. intros [H | [H | []]]; [exact H | congruence]. }
  apply (mstep_intro st c st' c 0 0 [LDel t key cur] HG (G_zero_in _ _ HG) (G_mark0 _ _ HG));
    unfold oknx, known; rewrite ?Eret, ?Enx, ?Ek, ?Ea; try assumption; try reflexivity.
  - (* Hhd *) exact (G_hd _ _ HG).
  - (* Hlinks *) exact (G_links _ _ HG).
  - (* Hsorted *) exact (G_sorted _ _ HG).
  - (* Hsvnext *) exact (G_closed _ _ HG 0 (known_zero _ _ HG)).
  - (* Hret_nodup *) exact (G_ret_nodup _ _ HG).
  - (* Hret_disj *) exact (G_disj _ _ HG).
  - (* Hret_marked *) intros x Hx. apply Hmk. left. exact (G_ret_marked _ _ HG x Hx).
  - (* Hknown *) intros x. cbn. tauto.
  - (* Habs_nodup *) rewrite Eabs. apply NoDup_filter. exact (G_abs_nodup _ _ HG).
  - (* Habs *) intros k0. rewrite Eabs, in_remk, (G_abs _ _ HG). split.
    + intros [(x & H1 & H2 & H3 & H4) Hne]. exists x. split; [exact H1|]. split; [exact H2|]. split; [|exact H4].
      rewrite Em, setf_other; [exact H3 | congruence].
    + intros (x & H1 & H2 & H3 & H4).
      assert (Hxc : x <> cur). { intros ->. rewrite Em, setf_same in H3. discriminate. }
      rewrite Em, setf_other in H3 by exact Hxc. split; [exists x; auto|].
      intros ->. apply Hxc. apply (chain_key_inj st c); try assumption. congruence.
  - (* Hins *) intros t0 k0 n0 [Hi | []]. discriminate Hi.
  - (* Hdel *) intros t0 k0 n0 [Hi | []]. injection Hi as <- <- <-. auto.
Qed.

(** a successful unlink CAS (by the erasing thread, or by a helping find) followed by reclaim *)
Lemma unlink_step st c st' sv cur nx : G st c -> known st c sv -> nmark st sv = false -> nnext st sv = cur ->
  cur <> 0 -> nmark st cur = true -> nnext st cur = nx ->
  nkey st' = nkey st -> nnext st' = setf (nnext st) sv nx -> nmark st' = nmark st -> nalloc st' = nalloc st ->
  g_abs st' = g_abs st -> g_lin st' = g_lin st -> g_retired st' = g_retired st ++ [cur] ->
  exists c', mstep st c st' c' 0 [] /\ In cur c /\ ~ In cur c' /\ ~ In cur (g_retired st) /\
             (forall x, In x c <-> x = cur \/ In x c').
Proof.
  intros HG Hsvk Hsvm Hsvn Hcnz Hcm Hcn Ek Enx Em Ea Eabs Elin Eret.
  pose proof (unmarked_in_chain _ _ _ HG Hsvk Hsvm) as Hsv.
  destruct (chain_split _ _ _ HG Hsv) as (c1 & c2 & E & Hn' & HL1 & HL2 & HS1 & HS2 & HR1 & HR2 & HR3 & Hsv1 & Hsv2).
  rewrite Hsvn in Hn'. destruct c2 as [|y c3]; cbn [hd] in Hn'; [contradiction|]. subst y.
  cbn [linksto] in HL2. destruct HL2 as [HL2 HL3]. rewrite Hcn in HL2.
  pose proof (G_nodup _ _ HG) as HN. rewrite E in HN.
  assert (Hc1 : ~ In cur c1 /\ cur <> sv /\ ~ In cur c3).
  { change (c1 ++ sv :: cur :: c3) with (c1 ++ [sv] ++ cur :: c3) in HN. rewrite app_assoc in HN.
    apply NoDup_remove_2 in HN. rewrite !in_app_iff in HN. cbn [In] in HN. repeat split; intros Hc; apply HN; auto. }
  destruct Hc1 as (Hcc1 & Hcsv & Hcc3).
  assert (Hcin : In cur c) by (rewrite E; apply in_or_app; right; right; left; reflexivity).
  assert (Hcr : ~ In cur (g_retired st)) by (intros Hc; exact (G_disj _ _ HG cur Hcin Hc)).
  exists (c1 ++ sv :: c3).
  assert (Hin : forall x, In x c <-> x = cur \/ In x (c1 ++ sv :: c3)).
  { intros x. rewrite E, !in_app_iff. cbn [In]. rewrite (eq_comm_iff cur x). tauto. }
  assert (Hnin : ~ In cur (c1 ++ sv :: c3)).
  { rewrite in_app_iff. cbn [In]. intros [H | [H | H]]; [contradiction | apply Hcsv; symmetry; exact H | contradiction]. }
  assert (Hkn : forall x, known st' (c1 ++ sv :: c3) x <-> known st c x).
  { intros x. unfold known. rewrite Eret, (in_app_iff (c1 ++ sv :: c3)), (in_app_iff (g_retired st)), (in_app_iff c), Hin.
    cbn [In]. rewrite (eq_comm_iff cur x). tauto. }
  split; [|split; [exact Hcin | split; [exact Hnin | split; [exact Hcr | exact Hin]]]].
  apply (mstep_intro st c st' _ sv 0 [] HG Hsv Hsvm); rewrite ?Em, ?Enx, ?Eabs, ?Ek, ?Ea, ?app_nil_r; try assumption; try reflexivity.
  - (* Hnext *) intros x _ Hx _. apply setf_other, Hx.
  - (* Hhd *) exact (chain_hd_split _ _ _ _ _ HG E _).
  - (* Hlinks *) apply linksto_app. cbn [hd linksto]. split; [|split].
    + eapply linksto_ext; [|exact HL1]. intros x Hx. apply setf_other. intros ->. contradiction.
    + rewrite setf_same. exact HL2.
    + eapply linksto_ext; [|exact HL3]. intros x Hx. apply setf_other. intros ->. apply Hsv2. right. exact Hx.
  - (* Hsorted *) apply SS_cons_inv in HS2. destruct HS2 as [HS2 _]. apply SS_app; [exact HS1 | |].
    + apply SS_cons; [exact HS2|]. intros y Hy. apply HR2. right. exact Hy.
    + intros x y Hx [<- | Hy]; [apply HR1; exact Hx | apply HR3; [exact Hx | right; exact Hy]].
  - (* Hsvnext *) rewrite setf_same, <- Hcn.
    destruct (G_closed _ _ HG cur (known_chain _ _ _ Hcin)) as [H | H]; [left; exact H | right; apply Hkn; exact H].
  - (* Hret_nodup *) rewrite Eret. apply NoDup_snoc; [exact (G_ret_nodup _ _ HG) | exact Hcr].
  - (* Hret_disj *) rewrite Eret. intros x Hx Hr. apply in_app_or in Hr. destruct Hr as [Hr | [<- | []]]; [|contradiction].
    apply (G_disj _ _ HG x); [apply Hin; right; exact Hx | exact Hr].
  - (* Hret_marked *) rewrite Eret. intros x Hx. apply in_app_or in Hx. destruct Hx as [Hx | [<- | []]]; [apply (G_ret_marked _ _ HG); exact Hx | exact Hcm].
  - (* Hknown *) intros x. rewrite Hkn. cbn. tauto.
  - (* Hmarks *) intros x. cbn. tauto.
  - (* Habs_nodup *) exact (G_abs_nodup _ _ HG).
  - (* Habs *) intros k0. rewrite (G_abs _ _ HG). split; intros (x & H1 & H2 & H3 & H4); exists x.
    + split; [|auto]. apply Hin in H1. destruct H1 as [-> | H1]; [congruence | exact H1].
    + split; [apply Hin; right; exact H1 | auto].
  - (* Hlen *) apply Nat.le_0_l.
  - (* Hins *) intros t k n [].
  - (* Hdel *) intros t k n [].
Qed.

(** * Assembling the invariant *)

Lemma Tw_fresh st c w p n : Tw st c w p -> fresh_of p = Some n -> exists key, fresh st c key n.
Proof.
  destruct p as [|o|k key start|k key start sv nx|k key start sv cur|k key start sv cur|k key start sv cur nx
                 |k key start sv cur nx|n0 key sv cur|n0 key sv cur|key sv cur nx|key sv cur nx];
    cbn [Tw fresh_of]; intros H E; try discriminate E;
    try (destruct k; cbn [fresh_of_k] in E; try discriminate E; injection E as <-; exists key; exact (proj1 H));
    injection E as <-; exists key; exact (proj1 H).
Qed.

Lemma sp_zero st c : (forall t', T st c t' (th st t')) -> forall t' n, fresh_of (th st t') = Some n -> n <> 0.
Proof. intros HT t' n E. destruct (Tw_fresh _ _ _ _ _ (HT t') E) as [key (H & _)]. exact H. Qed.

Lemma sp_own st t n : U (th st) -> fresh_of (th st t) = Some n ->
  forall t' n', t' <> t -> fresh_of (th st t') = Some n' -> n' <> n.
Proof. intros HU E t' n' Hne E' ->. exact (HU t' t n Hne E' E). Qed.

(** [st'] is a successor of a state with chain [c]: the memory made an [mstep] and the per-thread parts
    hold again *)
Definition Inv_to (st : state) (c : list N) (st' : state) : Prop :=
  exists c' sp l, mstep st c st' c' sp l /\ (forall t, T st' c' t (th st' t)) /\ U (th st').

Lemma Inv_intro st c st' c' sp l t p :
  G st c -> (forall t', T st c t' (th st t')) -> mstep st c st' c' sp l ->
  th st' = upd (th st) t p ->
  (forall t', t' <> t -> g_lp st' t' = g_lp st t') ->
  (forall t' n, t' <> t -> fresh_of (th st t') = Some n -> n <> sp) ->
  Tw st' c' (g_lp st' t) p ->
  U (upd (th st) t p) ->
  Inv_to st c st'.
Proof.
  intros HG HT HM Eth Hlp Hsp Hp HU'. exists c', sp, l. split; [exact HM|]. rewrite Eth. split; [|exact HU'].
  apply (threads_upd (T st' c')); [|exact Hp]. intros t' Hne. unfold T. rewrite (Hlp _ Hne).
  eapply Tw_stable; [exact HG | exact (MS_mono _ _ _ _ _ _ HM) | intros n Hn; eapply Hsp; eauto | apply HT].
Qed.

(** thread [t] (at [p0]) moves to [p], which holds only nodes known before and no new unlinked node; the
    memory step leaves every unlinked new node alone *)
Lemma Inv_move st c st' c' l t p0 p :
  G st c -> (forall t', T st c t' (th st t')) -> U (th st) -> th st t = p0 ->
  mstep st c st' c' 0 l ->
  th st' = upd (th st) t p -> (forall t', t' <> t -> g_lp st' t' = g_lp st t') ->
  Tw st c (g_lp st' t) p -> (fresh_of p = None \/ fresh_of p = fresh_of p0) -> Inv_to st c st'.
Proof.
  intros HG HT HU <- HM Eth Hlp Hp Hf.
  eapply (Inv_intro st c st' c' 0 l t p); try eassumption.
  - intros t' n _ Hn. eapply sp_zero; eassumption.
  - eapply Tw_stable; [exact HG | exact (MS_mono _ _ _ _ _ _ HM) | | exact Hp].
    intros n Hn. destruct (Tw_fresh _ _ _ _ _ Hp Hn) as [key (H & _)]. exact H.
  - apply U_upd_same; assumption.
Qed.

Lemma step_go st c t p0 p :
  G st c -> (forall t', T st c t' (th st t')) -> U (th st) -> th st t = p0 ->
  Tw st c (g_lp st t) p -> (fresh_of p = None \/ fresh_of p = fresh_of p0) -> Inv_to st c (set_pc st t p).
Proof.
  intros HG HT HU E Hp Hf. apply (Inv_move st c _ c [] t p0 p); try assumption; try reflexivity.
  apply mstep_same; auto.
Qed.

Lemma step_go_lp st c t p0 p w :
  G st c -> (forall t', T st c t' (th st t')) -> U (th st) -> th st t = p0 ->
  Tw st c w p -> (fresh_of p = None \/ fresh_of p = fresh_of p0) -> Inv_to st c (set_pc_lp st t p w).
Proof.
  intros HG HT HU E Hp Hf. apply (Inv_move st c _ c [] t p0 p); try assumption; try reflexivity.
  - apply mstep_same; auto.
  - intros t' Hne. cbn [g_lp set_pc_lp]. apply upd_other. exact Hne.
  - cbn [g_lp set_pc_lp]. rewrite upd_same. exact Hp.
Qed.

Lemma step_ret st c t o r w :
  G st c -> (forall t', T st c t' (th st t')) -> U (th st) -> Inv_to st c (ret_st st t o r w).
Proof.
  intros HG HT HU. apply (Inv_move st c _ c [] t _ Idle HG HT HU eq_refl); try reflexivity.
  - apply mstep_same; auto.
  - intros t' Hne. cbn [g_lp ret_st]. apply upd_other. exact Hne.
  - left. reflexivity.
Qed.

(** a step whose memory effect is a successful unlink CAS + reclaim *)
Lemma step_unlink st c st' t p0 p sv cur nx :
  G st c -> (forall t', T st c t' (th st t')) -> U (th st) -> th st t = p0 ->
  known st c sv -> nmark st sv = false -> nnext st sv = cur ->
  cur <> 0 -> nmark st cur = true -> nnext st cur = nx ->
  nkey st' = nkey st -> nnext st' = setf (nnext st) sv nx -> nmark st' = nmark st -> nalloc st' = nalloc st ->
  g_abs st' = g_abs st -> g_lin st' = g_lin st -> g_retired st' = g_retired st ++ [cur] ->
  th st' = upd (th st) t p -> (forall t', t' <> t -> g_lp st' t' = g_lp st t') ->
  Tw st c (g_lp st' t) p -> (fresh_of p = None \/ fresh_of p = fresh_of p0) -> Inv_to st c st'.
Proof.
  intros HG HT HU E Hsvk Hsvm Hsvn Hcnz Hcm Hcn Ek Enx Em Ea Eabs Elin Eret Eth Hlp Hp Hf.
  destruct (unlink_step st c st' sv cur nx HG Hsvk Hsvm Hsvn Hcnz Hcm Hcn Ek Enx Em Ea Eabs Elin Eret)
    as (c' & HM & _).
  eapply Inv_move; eassumption.
Qed.

Lemma okprev_zero st c key : G st c -> okprev st c key 0.
Proof. intros HG. split; [apply known_zero; exact HG | intros H; contradiction]. Qed.

(** return of the internal find *)
Lemma find_ret_inv st c t k key sv cur nx found e st' es :
  G st c -> (forall t', T st c t' (th st t')) -> U (th st) ->
  fresh_of (th st t) = fresh_of_k k ->
  cont_ok st c (g_lp st t) k key -> okprev st c key sv ->
  (found = true -> oknode st c cur /\ nkey st cur = key) ->
  (found = false -> cur <> 0 -> known st c cur /\ key < nkey st cur) ->
  oknx st c nx ->
  find_ret st t k key sv cur nx found e = Some (st', es) -> Inv_to st c st'.
Proof.
  intros HG HT HU Hfr Hco Hsv Hyes Hno Hnxk Hst. unfold find_ret in Hst.
  destruct k as [n| | |]; [destruct found | destruct found | |]; injection Hst as <- <-;
    try (apply (step_ret st c); assumption).
  - (* KIns, not found *)
    apply (step_go_lp st c t _ _ _ HG HT HU eq_refl); [|right; rewrite Hfr; reflexivity].
    cbn [Tw]. cbn [cont_ok] in Hco. split; [exact Hco|]. split; [exact Hsv|]. apply Hno. reflexivity.
  - (* KDel, found *)
    apply (step_go st c t _ _ HG HT HU eq_refl); [|left; reflexivity].
    cbn [Tw]. destruct (Hyes eq_refl) as [H1 H2]. auto.
Qed.

Lemma Inv_init : Inv init.
Proof.
  exists [0]. split; [|split].
  - constructor; unfold init, known; cbn [nkey nnext nmark nalloc g_abs g_lin g_retired app].
    + exists []. reflexivity.
    + cbn. auto.
    + constructor; [constructor | constructor].
    + constructor.
    + intros x _ [].
    + intros x [<- | []]. reflexivity.
    + reflexivity.
    + intros x Hx. discriminate.
    + intros x [].
    + intros x _. left. reflexivity.
    + constructor.
    + intros k. split; [intros [] | intros (x & [<- | []] & H & _); contradiction].
    + reflexivity.
    + intros t k n [].
    + intros t k n [].
    + constructor.
    + constructor.
  - intros t. exact I.
  - intros t t' n _ Hc. discriminate.
Qed.

(** the fields of a successor state written with [mkSt], [set_pc], [set_pc_lp], [ret_st] or [unlink_st] *)
Ltac prj2 := cbn [nkey nnext nmark nalloc th g_abs g_lin g_lp g_hist g_retired set_pc set_pc_lp ret_st unlink_st].

Lemma cond_true (a b : N) (m : bool) : (a =? b) && negb m = true -> a = b /\ m = false.
Proof.
  intros H. apply andb_prop in H. destruct H as [H1 H2]. apply N.eqb_eq in H1.
  destruct m; [discriminate | auto].
Qed.

(** one step from a state with chain [c]; the successor chain and the [mstep] are what the iterator
    extension (Proof/HmlItInv.v) builds on *)
Lemma Inv_step_c s c a s' es :
  G s c -> (forall t, T s c t (th s t)) -> U (th s) -> step s a = Some (s', es) -> Inv_to s c s'.
Proof.
  intros HG HT HU Hst. unfold step in Hst. destruct a as [t o | t].
  - destruct (th s t) eqn:E; try discriminate. injection Hst as <- <-.
    apply (step_go s c t _ _ HG HT HU E); [exact I | auto].
  - pose proof (HT t) as Ht. unfold T in Ht.
    (* below, [auto n] only splits the conjunction [Tw] of the new program point; every atom is a conjunct of
       [Ht], [Hz] with [HG] (the sentinel as predecessor), or the fact posed just before the call *)
    pose proof (okprev_zero s c) as Hz. pose proof (G_closed _ _ HG) as Hcl.
    destruct (th s t) as [|o|k key start|k key start sv nx|k key start sv cur|k key start sv cur|k key start sv cur nx
                          |k key start sv cur nx|n key sv cur|n key sv cur|key sv cur nx|key sv cur nx] eqn:E;
      cbn [Tw] in Ht; cbv beta iota zeta in Hst; try discriminate.
    + (* Begin *) destruct o as [k|k|k]; injection Hst as <- <-.
      * (* allocation of the new node *)
        set (n := nalloc s). set (st' := mkSt _ _ _ _ _ _ _ _ _ _).
        assert (HM : mstep s c st' c 0 []) by (apply (alloc_step s c st' k HG); reflexivity).
        assert (Hn0 : n <> 0). { pose proof (G_bound _ _ HG 0 (known_zero _ _ HG)). subst n. lia. }
        apply (Inv_intro s c st' c 0 [] t (F1 (KIns n) k 0)); try assumption; try reflexivity.
        -- intros t' Hne. subst st'; prj2. apply upd_other; exact Hne.
        -- intros t' n0 _ Hn. eapply sp_zero; eassumption.
        -- cbn [Tw cont_ok]. split; [|apply okprev_zero; exact (MS_G _ _ _ _ _ _ HM)].
           split; [exact Hn0|]. split; [subst st'; prj2; lia|]. split.
           ++ intros Hc. apply (G_bound _ _ HG) in Hc. subst n. lia.
           ++ subst st'; prj2. apply setf_same.
        -- apply U_upd; [exact HU|]. cbn [fresh_of fresh_of_k]. intros n0 E0 t' Hne Hc. injection E0 as <-.
           destruct (Tw_fresh _ _ _ _ _ (HT t') Hc) as [key (_ & Hlt & _)]. subst n. lia.
      * apply (step_go_lp s c t _ _ _ HG HT HU E); cbn [Tw cont_ok]; auto.
      * apply (step_go_lp s c t _ _ _ HG HT HU E); cbn [Tw cont_ok]; auto.
    + (* F1 *) destruct Ht as (Hco & Hstart).
      destruct (nmark s start) eqn:Hm; injection Hst as <- <-; apply (step_go s c t _ _ HG HT HU E); cbn [Tw]; auto.
      pose proof (Hcl start (proj1 Hstart)). auto 6.
    + (* F2 *) destruct Ht as (Hco & Hstart & Hsv & Hnxk).
      destruct ((nnext s sv =? nx) && negb (nmark s sv)) eqn:Hc; cbn [negb] in Hst.
      * apply cond_true in Hc. destruct Hc as [Hnx Hm].
        pose proof (unmarked_in_chain _ _ _ HG (proj1 Hsv) Hm) as Hsvc.
        destruct (N.eqb_spec nx 0) as [Hz0|Hz0].
        -- eapply (find_ret_inv s c t k key sv 0 0 false); try eassumption.
           ++ rewrite E. reflexivity.
           ++ intros Hc. discriminate.
           ++ intros _ Hc. contradiction.
           ++ left. reflexivity.
        -- injection Hst as <- <-. apply (step_go s c t _ _ HG HT HU E); cbn [Tw]; auto.
           pose proof (next_oknode _ _ _ _ HG (proj1 Hsv) Hm Hnx Hz0). auto 6.
      * injection Hst as <- <-. apply (step_go s c t _ _ HG HT HU E); cbn [Tw]; auto.
    + (* F3 *) destruct Ht as (Hco & Hstart & Hsv & Hcur). pose proof (Hcl cur (proj1 Hcur)) as Hnxk.
      destruct (nmark s cur) eqn:Hm.
      * injection Hst as <- <-. apply (step_go s c t _ _ HG HT HU E); cbn [Tw]; auto 6.
      * destruct ((nkey s cur =? key) && negb (is_del2 k)) eqn:Hc; injection Hst as <- <-.
        -- apply andb_prop in Hc. destruct Hc as [Hk Hd]. apply N.eqb_eq in Hk.
           apply (step_go_lp s c t _ _ _ HG HT HU E); cbn [Tw]; auto.
           split; [|split; [exact Hstart | split; [exact Hsv | split; [exact Hcur | split; [|exact Hnxk]]]]].
           ++ destruct k; cbn [cont_ok is_del2 negb] in *; try exact I; [exact Hco | discriminate].
           ++ intros _ _. f_equal. apply memb_true. rewrite <- Hk.
              apply (abs_in s c); [exact HG | | exact (proj2 Hcur) | exact Hm].
              eapply unmarked_in_chain; [exact HG | exact (proj1 Hcur) | exact Hm].
        -- apply (step_go s c t _ _ HG HT HU E); cbn [Tw]; auto.
           assert (is_del2 k = false -> nkey s cur = key -> g_lp s t = Some true); [|auto 8].
           intros Hd Hk. exfalso. apply N.eqb_eq in Hk. rewrite Hk, Hd in Hc. discriminate.
    + (* F4 *) destruct Ht as (Hco & Hstart & Hsv & Hcur & Hm). injection Hst as <- <-.
      apply (step_go s c t _ _ HG HT HU E); cbn [Tw]; auto 8.
    + (* F5 *) destruct Ht as (Hco & Hstart & Hsv & Hcur & Hm & Hn).
      destruct ((nnext s sv =? cur) && negb (nmark s sv)) eqn:Hc; injection Hst as <- <-.
      * apply cond_true in Hc. destruct Hc as [Hnx Hsvm].
        apply (step_unlink s c _ t _ (F2 k key start sv nx) sv cur nx HG HT HU E (proj1 Hsv) Hsvm Hnx (proj2 Hcur) Hm Hn);
          try reflexivity; [|auto].
        cbn [Tw]. rewrite <- Hn. pose proof (Hcl cur (proj1 Hcur)). auto 6.
      * apply (step_go s c t _ _ HG HT HU E); cbn [Tw]; auto.
    + (* F6 *) destruct Ht as (Hco & Hstart & Hsv & Hcur & Hlp & Hnxk).
      destruct ((nnext s sv =? cur) && negb (nmark s sv)) eqn:Hc; cbn [negb] in Hst.
      * destruct (N.ltb_spec (nkey s cur) key) as [Hlt|Hge].
        -- injection Hst as <- <-. apply (step_go s c t _ _ HG HT HU E); cbn [Tw]; auto.
           assert (okprev s c key cur) by (split; [exact (proj1 Hcur) | intros _; exact Hlt]). auto 6.
        -- eapply (find_ret_inv s c t k key sv cur nx (nkey s cur =? key)); try eassumption.
           ++ rewrite E. reflexivity.
           ++ intros Hf. apply N.eqb_eq in Hf. split; [exact Hcur | exact Hf].
           ++ intros Hf _. apply N.eqb_neq in Hf. split; [exact (proj1 Hcur) | lia].
      * injection Hst as <- <-. apply (step_go s c t _ _ HG HT HU E); cbn [Tw]; auto.
    + (* E1 *) destruct Ht as (Hfr & Hsv & Hcurc). injection Hst as <- <-.
      set (st' := mkSt _ _ _ _ _ _ _ _ _ _).
      pose proof Hfr as (Hn0 & Hnlt & Hnk & Hnkey).
      assert (HM : mstep s c st' c n []) by (apply (store_step s c st' n cur HG Hnk); reflexivity).
      apply (Inv_intro s c st' c n [] t (E2 n key sv cur)); try assumption; try reflexivity.
      -- apply (sp_own s t n HU). rewrite E. reflexivity.
      -- cbn [Tw]. split; [exact Hfr|]. split; [exact Hsv|]. split; [exact Hcurc|]. subst st'; prj2. apply setf_same.
      -- apply U_upd_same; [exact HU|]. right. rewrite E. reflexivity.
    + (* E2 *) destruct Ht as (Hfr & Hsv & Hcurc & Hnn).
      destruct ((nnext s sv =? cur) && negb (nmark s sv)) eqn:Hc; injection Hst as <- <-.
      * apply cond_true in Hc. destruct Hc as [Hnx Hsvm].
        set (st' := mkSt _ _ _ _ _ _ _ _ _ _).
        destruct (link_step s c st' t n key sv cur HG Hfr Hnn (proj1 Hsv) Hsvm Hnx (proj2 Hsv) (fun H => proj2 (Hcurc H))
                    eq_refl eq_refl eq_refl eq_refl eq_refl eq_refl eq_refl) as (c' & HM).
        apply (Inv_intro s c st' c' n _ t Idle HG HT HM); try reflexivity.
        -- intros t' Hne. subst st'; prj2. apply upd_other; exact Hne.
        -- apply (sp_own s t n HU). rewrite E. reflexivity.
        -- apply U_upd_same; [exact HU|]. left. reflexivity.
      * apply (step_go s c t _ _ HG HT HU E); cbn [Tw cont_ok]; auto.
    + (* D1 *) destruct Ht as (Hsv & Hcur & Hck & Hnxk).
      destruct ((nnext s cur =? nx) && negb (nmark s cur)) eqn:Hc; injection Hst as <- <-.
      * apply cond_true in Hc. destruct Hc as [Hnx Hcm].
        set (st' := mkSt _ _ _ _ _ _ _ _ _ _).
        assert (HM : mstep s c st' c 0 [LDel t key cur])
          by (apply (mark_step s c st' t key cur HG (proj1 Hcur) (proj2 Hcur) Hcm Hck); reflexivity).
        pose proof (MS_mono _ _ _ _ _ _ HM) as HMo.
        apply (Inv_intro s c st' c 0 _ t (D2 key sv cur nx) HG HT HM); try reflexivity.
        -- intros t' Hne. subst st'; prj2. apply upd_other; exact Hne.
        -- intros t' n0 _ Hn. eapply sp_zero; eassumption.
        -- cbn [Tw]. split; [exact (okprev_mono _ _ _ _ _ _ _ HG HMo Hsv)|]. split; [exact (oknode_mono _ _ _ _ _ _ HMo Hcur)|].
           split; [exact Hck|]. subst st'; prj2. split; [apply setf_same|]. split; [exact Hnx|].
           rewrite upd_same. f_equal. apply memb_true. rewrite <- Hck.
           apply (abs_in s c cur HG (unmarked_in_chain _ _ _ HG (proj1 Hcur) Hcm) (proj2 Hcur) Hcm).
        -- apply U_upd_same; [exact HU|]. left. reflexivity.
      * apply (step_go s c t _ _ HG HT HU E); cbn [Tw cont_ok]; auto.
    + (* D2 *) destruct Ht as (Hsv & Hcur & Hck & Hm & Hn & Hlp).
      destruct ((nnext s sv =? cur) && negb (nmark s sv)) eqn:Hc; injection Hst as <- <-.
      * apply cond_true in Hc. destruct Hc as [Hnx Hsvm].
        apply (step_unlink s c _ t _ Idle sv cur nx HG HT HU E (proj1 Hsv) Hsvm Hnx (proj2 Hcur) Hm Hn);
          try reflexivity; [|auto].
        intros t' Hne. cbn [ret_st unlink_st g_lp]. apply upd_other; exact Hne.
      * apply (step_go s c t _ _ HG HT HU E); cbn [Tw cont_ok]; auto.
Qed.

Lemma Inv_step s a s' es : Inv s -> step s a = Some (s', es) -> Inv s'.
Proof.
  intros [c (HG & HT & HU)] Hst. destruct (Inv_step_c s c a s' es HG HT HU Hst) as (c' & sp & l & HM & HT' & HU').
  exists c'. split; [exact (MS_G _ _ _ _ _ _ HM) | auto].
Qed.

Theorem Inv_reach st : reach init step st -> Inv st.
Proof. apply inv_rule; [exact Inv_init | exact Inv_step]. Qed.

(** * The chain as a computable function of the state *)

Fixpoint walk (nx : N -> N) (fuel : nat) (a : N) : list N :=
  match fuel with
  | O => []
  | S f => if nx a =? 0 then [] else nx a :: walk nx f (nx a)
  end.

(** the nodes reachable from [head] (without the sentinel), in list order *)
Definition chain (st : state) : list N := walk (nnext st) (N.to_nat (nalloc st)) 0.

(** keys of the unmarked nodes of the chain: the set represented by the list *)
Definition abs_keys (st : state) : list N :=
  map (nkey st) (filter (fun x => negb (nmark st x)) (chain st)).

Lemma walk_links nx l : forall a fuel, linksto nx (a :: l) 0 -> (forall x, In x l -> x <> 0) ->
  (length l <= fuel)%nat -> walk nx fuel a = l.
Proof.
  induction l as [|b r IH]; intros a fuel HL Hnz Hlen; cbn [linksto hd] in HL.
  - destruct HL as [Hz _]. destruct fuel; cbn [walk]; [reflexivity|]. rewrite Hz. reflexivity.
  - destruct HL as [Hb HL]. destruct fuel as [|f]; [cbn [length] in Hlen; lia|]. cbn [walk]. rewrite Hb.
    destruct (N.eqb_spec b 0) as [Hz|Hz]; [exfalso; apply (Hnz b); [left; reflexivity | exact Hz]|].
    f_equal. apply IH; [exact HL | intros x Hx; apply Hnz; right; exact Hx | cbn [length] in Hlen; lia].
Qed.

Lemma bounded_nodup_length (l : list N) n : NoDup l -> (forall x, In x l -> x < n) -> (length l <= N.to_nat n)%nat.
Proof.
  intros Hnd Hlt. rewrite <- (map_length N.to_nat l), <- (seq_length (N.to_nat n) 0).
  apply NoDup_incl_length.
  - apply FinFun.Injective_map_NoDup; [|exact Hnd]. intros x y Hxy. apply N2Nat.inj. exact Hxy.
  - intros y Hy. apply in_map_iff in Hy. destruct Hy as (x & <- & Hx). apply in_seq. apply Hlt in Hx. lia.
Qed.

Lemma G_tail_nonzero st c x : G st c -> In x (tl c) -> x <> 0.
Proof.
  intros HG Hx. pose proof (G_sorted _ _ HG) as HS. destruct (G_hd _ _ HG) as [l ->]. cbn [tl] in Hx.
  apply SS_cons_inv in HS. destruct HS as [_ HS]. exact (proj1 (HS _ Hx)).
Qed.

Lemma chain_eq st c : G st c -> c = 0 :: chain st.
Proof.
  intros HG. destruct (G_hd _ _ HG) as [l E]. rewrite E. f_equal. symmetry. unfold chain. apply walk_links.
  - rewrite <- E. exact (G_links _ _ HG).
  - intros x Hx. apply (G_tail_nonzero st c); [exact HG | rewrite E; exact Hx].
  - assert (length c <= N.to_nat (nalloc st))%nat.
    { apply bounded_nodup_length; [exact (G_nodup _ _ HG)|]. intros x Hx. apply (G_bound _ _ HG), known_chain, Hx. }
    rewrite E in H. cbn [length] in H. lia.
Qed.

Lemma Inv_chain st : Inv st ->
  G st (0 :: chain st) /\ (forall t, T st (0 :: chain st) t (th st t)) /\ U (th st).
Proof. intros [c (HG & HT & HU)]. rewrite <- (chain_eq _ _ HG). auto. Qed.

(** the chain after the successful unlink CAS of [cur] behind [sv] *)
Lemma unlink_chain s sv cur nx : G s (0 :: chain s) -> known s (0 :: chain s) sv -> nmark s sv = false ->
  nnext s sv = cur -> cur <> 0 -> nmark s cur = true -> nnext s cur = nx ->
  let s1 := unlink_st s sv cur nx in
  G s1 (0 :: chain s1) /\ In cur (chain s) /\ ~ In cur (chain s1) /\ ~ In cur (g_retired s) /\
  (forall y, In y (chain s) <-> y = cur \/ In y (chain s1)).
Proof.
  intros HG Hsvk Hsvm Hsvn Hcnz Hcm Hcn s1.
  destruct (unlink_step s _ s1 sv cur nx HG Hsvk Hsvm Hsvn Hcnz Hcm Hcn eq_refl eq_refl eq_refl eq_refl eq_refl eq_refl eq_refl)
    as (c' & HM & H1 & H2 & H3 & H4).
  pose proof (MS_G _ _ _ _ _ _ HM) as HG'. pose proof (chain_eq _ _ HG') as Ec. subst c'.
  assert (Hz : forall y, In y (chain s) -> y <> 0) by (intros y; apply (G_tail_nonzero _ _ y HG)).
  assert (Hz1 : forall y, In y (chain s1) -> y <> 0) by (intros y; apply (G_tail_nonzero _ _ y HG')).
  assert (Hc : In cur (chain s)) by (destruct H1 as [H1 | H1]; [congruence | exact H1]).
  split; [exact HG'|]. split; [exact Hc|]. split; [intros Hx; apply H2; right; exact Hx|]. split; [exact H3|].
  intros y. split.
  - intros Hy. destruct (proj1 (H4 y) (or_intror Hy)) as [H | [H | H]]; auto. subst y. exfalso. exact (Hz 0 Hy eq_refl).
  - intros [-> | Hy]; [exact Hc|]. destruct (proj2 (H4 y) (or_intror (or_intror Hy))) as [H | H]; [|exact H].
    subst y. exfalso. exact (Hz1 0 Hy eq_refl).
Qed.

(** * Case analysis of a step *)

(** all transitions of [step], with the successor state substituted.  [step_cases0] leaves the return of
    the internal [find] as [Hst : find_ret ... = Some (s', es)]; [step_cases] splits it as well. *)
Ltac step_cases0 Hst s :=
  unfold step in Hst;
  match type of Hst with
  | context [match ?a with Start _ _ => _ | Step _ => _ end] => destruct a as [?t ?o | ?t]
  end;
  match type of Hst with
  | context [th s ?t] =>
    destruct (th s t) as [|?o|?k ?key ?start|?k ?key ?start ?sv ?nx|?k ?key ?start ?sv ?cur|?k ?key ?start ?sv ?cur
                          |?k ?key ?start ?sv ?cur ?nx|?k ?key ?start ?sv ?cur ?nx|?n ?key ?sv ?cur|?n ?key ?sv ?cur
                          |?key ?sv ?cur ?nx|?key ?sv ?cur ?nx] eqn:?E
  end;
  cbv beta iota zeta in Hst; try discriminate Hst;
  try match type of Hst with context [match ?o with OIns _ => _ | ODel _ => _ | OHas _ => _ end] => destruct o end;
  repeat match type of Hst with context [if ?b then _ else _] => destruct b eqn:?Hc end;
  try (injection Hst as <- <-).

Ltac step_cases Hst s :=
  step_cases0 Hst s;
  try match goal with H : find_ret _ _ _ _ _ _ _ _ _ = Some _ |- _ =>
    unfold find_ret in H; cbv beta iota zeta in H;
    repeat match type of H with
    | context [if ?b then _ else _] => destruct b eqn:?Hc
    | context [match ?k with KIns _ => _ | KDel => _ | KDel2 => _ | KHas => _ end] => destruct k
    end;
    injection H as <- <-
  end.

Lemma cond_false (a b : N) (m : bool) : negb ((a =? b) && negb m) = false -> a = b /\ m = false.
Proof. intros H. apply negb_false_iff in H. exact (cond_true a b m H). Qed.

(** * Linearization: results of the completed operations *)

(** result vs. membership of the key in [g_abs] at the linearization point *)
Definition hist_ok (h : hrec) : Prop :=
  match h_op h with
  | OIns _ => h_wit h = Some (negb (h_res h))
  | ODel _ | OHas _ => h_wit h = Some (h_res h)
  end.

Definition Hist (st : state) : Prop := forall h, In h (g_hist st) -> hist_ok h.

Lemma Hist_snoc st st' h : Hist st -> g_hist st' = g_hist st ++ [h] -> hist_ok h -> Hist st'.
Proof.
  intros HH E Hh h' Hin. rewrite E in Hin. apply in_app_or in Hin.
  destruct Hin as [Hin | [<- | []]]; [apply HH; exact Hin | exact Hh].
Qed.

Lemma find_ret_hist st t k key sv cur nx found e st' es :
  Hist st ->
  (found = true -> is_del2 k = false -> g_lp st t = Some true) ->
  (found = false -> is_del2 k = false -> memb key (g_abs st) = false) ->
  (is_del2 k = true -> g_lp st t = Some true) ->
  find_ret st t k key sv cur nx found e = Some (st', es) -> Hist st'.
Proof.
  intros HH Hyes Hno Hd2 Hst. unfold find_ret in Hst.
  destruct k as [n| | |]; cbn [is_del2] in *; destruct found; injection Hst as <- <-; try exact HH;
    (eapply Hist_snoc; [exact HH | reflexivity | unfold hist_ok; cbn [h_op h_wit h_res negb]]);
    auto; f_equal; auto.
Qed.

Lemma Hist_step s a s' es : Inv s -> Hist s -> step s a = Some (s', es) -> Hist s'.
Proof.
  intros [c (HG & HT & HU)] HH Hst.
  step_cases0 Hst s; try exact HH; pose proof (HT t) as Ht; unfold T in Ht; rewrite E in Ht; cbn [Tw] in Ht.
  - (* F2: find returns at the end of the list *)
    destruct Ht as (Hco & _ & Hsv & _). apply cond_false in Hc. destruct Hc as [Hnx Hm]. apply N.eqb_eq in Hc0.
    pose proof (unmarked_in_chain _ _ _ HG (proj1 Hsv) Hm) as Hsvc.
    eapply (find_ret_hist s t k key sv 0 0 false); [exact HH | | | | exact Hst].
    + intros Hc. discriminate.
    + intros _ _. apply (absent s c sv 0 key HG Hsvc); [congruence | exact (proj2 Hsv) | intros Hc; contradiction].
    + intros Hd. destruct k; try discriminate. exact Hco.
  - (* F6: find returns at [cur] *)
    destruct Ht as (Hco & _ & Hsv & _ & Hlp & _). apply cond_false in Hc. destruct Hc as [Hnx Hm]. apply N.ltb_ge in Hc0.
    pose proof (unmarked_in_chain _ _ _ HG (proj1 Hsv) Hm) as Hsvc.
    eapply (find_ret_hist s t k key sv cur nx (nkey s cur =? key)); [exact HH | | | | exact Hst].
    + intros Hf Hd. apply N.eqb_eq in Hf. apply Hlp; assumption.
    + intros Hf _. apply N.eqb_neq in Hf. apply (absent s c sv cur key HG Hsvc Hnx (proj2 Hsv)). intros _. lia.
    + intros Hd. destruct k; try discriminate. exact Hco.
  - (* E2: the link CAS succeeds *)
    destruct Ht as (_ & Hsv & Hcurc & _). apply cond_true in Hc. destruct Hc as [Hnx Hm].
    pose proof (unmarked_in_chain _ _ _ HG (proj1 Hsv) Hm) as Hsvc.
    eapply Hist_snoc; [exact HH | reflexivity|]. unfold hist_ok; cbn [h_op h_wit h_res negb]. f_equal.
    apply (absent s c sv cur key HG Hsvc Hnx (proj2 Hsv)). intros H. exact (proj2 (Hcurc H)).
  - (* D2: erase returns *)
    eapply Hist_snoc; [exact HH | reflexivity|]. unfold hist_ok; cbn [h_op h_wit h_res]. apply Ht.
Qed.

Theorem Hist_reach st : reach init step st -> Hist st.
Proof.
  apply (inv_rule_aux _ _ _ init step Inv Hist Inv_reach).
  - intros h [].
  - intros s a s' es HI _ HH Hst. exact (Hist_step s a s' es HI HH Hst).
Qed.

(** * The linearization order and the completed operations, thread by thread *)

Definition lev_op (t : nat) (e : lev) : list op :=
  match e with
  | LIns t' k _ => if Nat.eqb t' t then [OIns k] else []
  | LDel t' k _ => if Nat.eqb t' t then [ODel k] else []
  end.
(** successful mutating operations of thread [t] in linearization order *)
Definition proj_lin (t : nat) (l : list lev) : list op := flat_map (lev_op t) l.

Definition hrec_op (t : nat) (h : hrec) : list op :=
  if Nat.eqb (h_t h) t && h_res h then match h_op h with OHas _ => [] | o => [o] end else [].
(** completed successful mutating operations of thread [t] in order of return *)
Definition proj_hist (t : nat) (l : list hrec) : list op := flat_map (hrec_op t) l.

Definition pend_k (k : fk) (key : N) : list op := if is_del2 k then [ODel key] else [].
(** an erase that has marked its node and has not returned yet *)
Definition pending (p : pc) : list op :=
  match p with
  | D2 key _ _ _ => [ODel key]
  | F1 k key _ | F2 k key _ _ _ | F3 k key _ _ _ | F4 k key _ _ _ | F5 k key _ _ _ _ | F6 k key _ _ _ _ => pend_k k key
  | _ => []
  end.

Definition Pend (st : state) : Prop :=
  forall t, proj_lin t (g_lin st) = proj_hist t (g_hist st) ++ pending (th st t).

Definition lev_t (e : lev) : nat := match e with LIns t _ _ | LDel t _ _ => t end.

Lemma proj_lin_other t t' dl : (forall e, In e dl -> lev_t e = t) -> t' <> t -> proj_lin t' dl = [].
Proof.
  intros H Hne. induction dl as [|e dl IH]; [reflexivity|]. unfold proj_lin in *. cbn [flat_map].
  rewrite IH by (intros e' He'; apply H; right; exact He'). rewrite app_nil_r.
  pose proof (H e (or_introl eq_refl)) as He. destruct e as [t0 k n | t0 k n]; cbn [lev_t lev_op] in *; subst t0;
    (destruct (Nat.eqb_spec t t'); [congruence | reflexivity]).
Qed.

Lemma proj_hist_other t t' dh : (forall h, In h dh -> h_t h = t) -> t' <> t -> proj_hist t' dh = [].
Proof.
  intros H Hne. induction dh as [|h dh IH]; [reflexivity|]. unfold proj_hist in *. cbn [flat_map].
  rewrite IH by (intros h' Hh'; apply H; right; exact Hh'). rewrite app_nil_r.
  pose proof (H h (or_introl eq_refl)) as Hh. unfold hrec_op. rewrite Hh.
  destruct (Nat.eqb_spec t t'); [congruence | reflexivity].
Qed.

Lemma Pend_intro st st' t p dl dh :
  Pend st -> th st' = upd (th st) t p -> g_lin st' = g_lin st ++ dl -> g_hist st' = g_hist st ++ dh ->
  (forall e, In e dl -> lev_t e = t) -> (forall h, In h dh -> h_t h = t) ->
  pending (th st t) ++ proj_lin t dl = proj_hist t dh ++ pending p ->
  Pend st'.
Proof.
  intros HP Eth Elin Ehist Hdl Hdh Heq t'. rewrite Eth, Elin, Ehist. unfold proj_lin, proj_hist.
  rewrite !flat_map_app. fold (proj_lin t' (g_lin st)) (proj_lin t' dl) (proj_hist t' (g_hist st)) (proj_hist t' dh).
  rewrite (HP t'). destruct (Nat.eq_dec t' t) as [->|Hne].
  - rewrite upd_same, <- !app_assoc. f_equal. exact Heq.
  - rewrite upd_other by exact Hne. rewrite (proj_lin_other t t' dl Hdl Hne), (proj_hist_other t t' dh Hdh Hne).
    rewrite !app_nil_r. reflexivity.
Qed.

Lemma Pend_same st st' t p :
  Pend st -> th st' = upd (th st) t p -> g_lin st' = g_lin st -> g_hist st' = g_hist st ->
  pending (th st t) = pending p -> Pend st'.
Proof.
  intros HP Eth Elin Ehist Heq. apply (Pend_intro st st' t p [] []); try assumption.
  - rewrite Elin, app_nil_r. reflexivity.
  - rewrite Ehist, app_nil_r. reflexivity.
  - intros e [].
  - intros h [].
  - cbn. rewrite app_nil_r. exact Heq.
Qed.

Lemma Pend_ret st st' t o r w :
  Pend st -> th st' = upd (th st) t Idle -> g_lin st' = g_lin st -> g_hist st' = g_hist st ++ [mkH t o r w] ->
  pending (th st t) = hrec_op t (mkH t o r w) -> Pend st'.
Proof.
  intros HP Eth Elin Ehist Heq. apply (Pend_intro st st' t Idle [] [mkH t o r w]); try assumption.
  - rewrite Elin, app_nil_r. reflexivity.
  - intros e [].
  - intros h [<- | []]. reflexivity.
  - unfold proj_hist. cbn [flat_map proj_lin pending]. rewrite !app_nil_r. exact Heq.
Qed.

Lemma find_ret_pend st t k key sv cur nx found e st' es :
  Pend st -> pending (th st t) = pend_k k key ->
  find_ret st t k key sv cur nx found e = Some (st', es) -> Pend st'.
Proof.
  intros HP Hpe Hst. unfold find_ret in Hst.
  destruct k as [n| | |]; cbn [pend_k is_del2] in Hpe; destruct found; injection Hst as <- <-;
    try (eapply Pend_ret; [exact HP | reflexivity | reflexivity | reflexivity |];
         rewrite Hpe; unfold hrec_op; cbn [h_t h_res h_op]; rewrite Nat.eqb_refl; reflexivity);
    (eapply Pend_same; [exact HP | reflexivity | reflexivity | reflexivity | rewrite Hpe; reflexivity]).
Qed.

Lemma Pend_step s a s' es : Pend s -> step s a = Some (s', es) -> Pend s'.
Proof.
  intros HP Hst.
  (* the returns of find; then the steps that leave [g_lin], [g_hist] and [pending] of the thread alone *)
  step_cases0 Hst s;
    try (eapply find_ret_pend; [exact HP | rewrite E; reflexivity | exact Hst]);
    try (eapply Pend_same; [exact HP | reflexivity | reflexivity | reflexivity | rewrite E; reflexivity]).
  - (* E2: the link CAS succeeds *)
    eapply (Pend_intro s _ t Idle [LIns t key n] [mkH t (OIns key) true _]); [exact HP | reflexivity | reflexivity | reflexivity | | |].
    + intros e [<- | []]. reflexivity.
    + intros h [<- | []]. reflexivity.
    + rewrite E. unfold proj_lin, proj_hist, hrec_op. cbn [flat_map lev_op pending h_t h_res h_op app].
      rewrite Nat.eqb_refl. reflexivity.
  - (* D1: the mark CAS succeeds *)
    eapply (Pend_intro s _ t (D2 key sv cur nx) [LDel t key cur] []); [exact HP | reflexivity | reflexivity | | | |].
    + cbn [g_hist]. rewrite app_nil_r. reflexivity.
    + intros e [<- | []]. reflexivity.
    + intros h [].
    + rewrite E. unfold proj_lin, proj_hist. cbn [flat_map lev_op pending app]. rewrite Nat.eqb_refl. reflexivity.
  - (* D2: erase returns *)
    eapply Pend_ret; [exact HP | reflexivity | reflexivity | reflexivity |].
    rewrite E. unfold hrec_op; cbn [h_t h_res h_op pending]. rewrite Nat.eqb_refl. reflexivity.
Qed.

Theorem Pend_reach st : reach init step st -> Pend st.
Proof. apply inv_rule; [intros t; reflexivity | exact Pend_step]. Qed.

(** * Theorems *)

Lemma NoDup_map_inj (f : N -> N) (l : list N) :
  NoDup l -> (forall x y, In x l -> In y l -> f x = f y -> x = y) -> NoDup (map f l).
Proof.
  induction 1 as [|a l Ha Hnd IH]; intros Hinj; cbn [map]; constructor.
  - intros Hc. apply in_map_iff in Hc. destruct Hc as (y & Hy & Hin).
    assert (y = a) by (apply Hinj; [right; exact Hin | left; reflexivity | exact Hy]). subst y. contradiction.
  - apply IH. intros x y Hx Hy. apply Hinj; right; assumption.
Qed.

(** node variables of a program point (0 = null / &head) *)
Definition held_k (k : fk) : list N := match k with KIns n => [n] | _ => [] end.
Definition held (p : pc) : list N :=
  match p with
  | Idle | Begin _ => []
  | F1 k _ start => held_k k ++ [start]
  | F2 k _ start sv nx => held_k k ++ [start; sv; nx]
  | F3 k _ start sv cur | F4 k _ start sv cur => held_k k ++ [start; sv; cur]
  | F5 k _ start sv cur nx | F6 k _ start sv cur nx => held_k k ++ [start; sv; cur; nx]
  | E1 n _ sv cur | E2 n _ sv cur => [n; sv; cur]
  | D1 _ sv cur nx | D2 _ sv cur nx => [sv; cur; nx]
  end.

(** structure of the chain: [head] points to its first node, every node points to the following one,
    the last one to null; strictly sorted by key; duplicate-free (acyclic); all nodes allocated; the
    head pointer is never marked *)
Lemma Inv_structure st : Inv st ->
  head st = hd 0 (chain st) /\
  linksto (nnext st) (chain st) 0 /\
  StronglySorted (fun x y => nkey st x < nkey st y) (chain st) /\
  NoDup (chain st) /\
  (forall x, In x (chain st) -> x <> 0 /\ x < nalloc st) /\
  nmark st 0 = false.
Proof.
  intros HI. destruct (Inv_chain st HI) as (HG & _ & _).
  pose proof (G_links _ _ HG) as HL. cbn [linksto] in HL. destruct HL as [HL1 HL2].
  pose proof (G_sorted _ _ HG) as HS. apply SS_cons_inv in HS. destruct HS as [HS HS0].
  pose proof (G_nodup _ _ HG) as HN. inversion HN as [|a l Hn0 HN']; subst.
  split; [exact HL1|]. split; [exact HL2|]. split; [|split; [exact HN'|split; [|exact (G_mark0 _ _ HG)]]].
  - eapply SS_ext; [|exact HS]. intros x y Hx Hy [_ [H0 | Hlt]]; [|exact Hlt].
    exfalso. subst x. contradiction.
  - intros x Hx. split; [exact (proj1 (HS0 _ Hx))|]. apply (G_bound _ _ HG). apply known_chain. right. exact Hx.
Qed.

(** retired nodes: each node is retired at most once, retired nodes are not reachable, are marked and
    allocated; marked nodes are reachable or retired; a node that was linked and is unmarked is reachable
    (i.e. unlinked nodes are marked) *)
Lemma Inv_retired st : Inv st ->
  NoDup (g_retired st) /\
  (forall x, In x (g_retired st) -> ~ In x (chain st) /\ nmark st x = true /\ x <> 0 /\ x < nalloc st) /\
  (forall x, nmark st x = true -> In x (chain st) \/ In x (g_retired st)) /\
  (forall t k n, In (LIns t k n) (g_lin st) -> nmark st n = false -> In n (chain st)).
Proof.
  intros HI. destruct (Inv_chain st HI) as (HG & _ & _).
  split; [exact (G_ret_nodup _ _ HG)|]. split; [|split].
  - intros x Hx. split; [|split; [exact (G_ret_marked _ _ HG x Hx)|split]].
    + intros Hc. apply (G_disj _ _ HG x); [right; exact Hc | exact Hx].
    + intros ->. apply (G_disj _ _ HG 0); [left; reflexivity | exact Hx].
    + apply (G_bound _ _ HG). apply in_or_app. right. exact Hx.
  - intros x Hx. pose proof (G_marked_known _ _ HG x Hx) as Hk. apply in_app_or in Hk.
    destruct Hk as [[<- | Hk] | Hk]; [|left; exact Hk | right; exact Hk].
    rewrite (G_mark0 _ _ HG) in Hx. discriminate.
  - intros t k n Hin Hm. destruct (G_lins _ _ HG _ _ _ Hin) as [[H1 H0] _].
    destruct (unmarked_in_chain _ _ _ HG H1 Hm) as [Hc | Hc]; [congruence | exact Hc].
Qed.

(** abstraction: [g_abs] is, as a duplicate-free set, the set of keys of the unmarked nodes reachable
    from [head]; it is the result of applying the successful mutating operations in the order of their
    linearization points *)
Lemma Inv_abs st : Inv st ->
  NoDup (g_abs st) /\ NoDup (abs_keys st) /\
  (forall k, In k (g_abs st) <-> In k (abs_keys st)) /\
  g_abs st = apply_lin (g_lin st).
Proof.
  intros HI. destruct (Inv_chain st HI) as (HG & _ & _).
  assert (Hnz : forall x, In x (chain st) -> x <> 0) by (intros x Hx; apply (G_tail_nonzero _ _ _ HG); exact Hx).
  split; [exact (G_abs_nodup _ _ HG)|]. split; [|split; [|exact (G_fold _ _ HG)]].
  - unfold abs_keys. apply NoDup_map_inj.
    + apply NoDup_filter. pose proof (G_nodup _ _ HG) as HN. inversion HN; assumption.
    + intros x y Hx Hy Hk. apply filter_In in Hx, Hy. destruct Hx as [Hx _]. destruct Hy as [Hy _].
      apply (chain_key_inj st _ x y HG); auto; right; assumption.
  - intros k. rewrite (G_abs _ _ HG). unfold abs_keys. rewrite in_map_iff. split.
    + intros (x & [Hx | Hx] & Hxz & Hm & Hk); [congruence|]. exists x. split; [exact Hk|].
      apply filter_In. split; [exact Hx | rewrite Hm; reflexivity].
    + intros (x & Hk & Hx). apply filter_In in Hx. destruct Hx as [Hx Hm]. exists x.
      split; [right; exact Hx|]. split; [apply Hnz; exact Hx|]. split; [|exact Hk].
      destruct (nmark st x); [discriminate | reflexivity].
Qed.

Lemma oknx_safe st x : G st (0 :: chain st) -> oknx st (0 :: chain st) x ->
  x < nalloc st /\ (x = 0 \/ In x (chain st) \/ In x (g_retired st)).
Proof.
  intros HG [-> | Hk]; [split; [apply (G_bound _ _ HG), known_zero, HG | auto]|].
  split; [apply (G_bound _ _ HG), Hk|]. apply in_app_or in Hk. destruct Hk as [[<- | Hk] | Hk]; auto.
Qed.

(** every node variable of a thread at [p] is null / the sentinel, a known node, or the thread's own
    unlinked new node *)
Lemma Tw_held st c w p x : G st c -> Tw st c w p -> In x (held p) ->
  oknx st c x \/ (fresh_of p = Some x /\ x < nalloc st).
Proof.
  intros HG HT Hin.
  assert (Hp : forall key y, okprev st c key y -> oknx st c y) by (intros key y H; right; exact (proj1 H)).
  assert (Hn : forall y, oknode st c y -> oknx st c y) by (intros y H; right; exact (proj1 H)).
  assert (Hcl : forall y, oknode st c y -> oknx st c (nnext st y)) by (intros y H; exact (G_closed _ _ HG y (proj1 H))).
  assert (Hl : forall key y, (y <> 0 -> known st c y /\ key < nkey st y) -> oknx st c y).
  { intros key y H. destruct (N.eq_dec y 0) as [Hz|Hz]; [left; exact Hz | right; exact (proj1 (H Hz))]. }
  assert (Hf : forall key n, fresh st c key n -> n < nalloc st) by (intros key n H; exact (proj1 (proj2 H))).
  destruct p as [|o|k key start|k key start sv nx|k key start sv cur|k key start sv cur|k key start sv cur nx
                 |k key start sv cur nx|n key sv cur|n key sv cur|key sv cur nx|key sv cur nx];
    cbn [Tw held fresh_of] in *; try contradiction;
    try (apply in_app_or in Hin; destruct Hin as [Hin | Hin];
         [destruct k as [n| | |]; cbn [held_k] in Hin; try contradiction; destruct Hin as [<- | []];
          right; split; [reflexivity | exact (Hf _ _ (proj1 HT))] |]);
    cbn [In] in Hin; intuition (subst; eauto).
Qed.

Section Theorems.
  Variable st : state.
  Hypothesis Hreach : reach init step st.

  Let HI := Inv_reach st Hreach.

  (** 1a. structure of the chain *)
  Theorem hml_structure :
    head st = hd 0 (chain st) /\
    linksto (nnext st) (chain st) 0 /\
    StronglySorted (fun x y => nkey st x < nkey st y) (chain st) /\
    NoDup (chain st) /\
    (forall x, In x (chain st) -> x <> 0 /\ x < nalloc st) /\
    nmark st 0 = false.
  Proof. exact (Inv_structure st HI). Qed.

  (** 1b. retired nodes *)
  Theorem hml_retired :
    NoDup (g_retired st) /\
    (forall x, In x (g_retired st) -> ~ In x (chain st) /\ nmark st x = true /\ x <> 0 /\ x < nalloc st) /\
    (forall x, nmark st x = true -> In x (chain st) \/ In x (g_retired st)) /\
    (forall t k n, In (LIns t k n) (g_lin st) -> nmark st n = false -> In n (chain st)).
  Proof. exact (Inv_retired st HI). Qed.

  (** 1c. local variables of the threads: every node held by a thread was allocated, and is null /
      the head sentinel, reachable, retired, or the thread's own not yet linked new node *)
  Theorem hml_locals t x : In x (held (th st t)) ->
    x < nalloc st /\
    (x = 0 \/ In x (chain st) \/ In x (g_retired st) \/ fresh_of (th st t) = Some x).
  Proof.
    destruct (Inv_chain st HI) as (HG & HT & _). intros Hin.
    destruct (Tw_held _ _ _ _ x HG (HT t) Hin) as [Hk | [Hf Hlt]]; [|auto].
    destruct (oknx_safe st x HG Hk) as [Hlt [Hx | [Hx | Hx]]]; auto.
  Qed.

  (** the not yet linked new nodes of two different inserting threads are different *)
  Theorem hml_fresh_unique t t' n :
    t <> t' -> fresh_of (th st t) = Some n -> fresh_of (th st t') = Some n -> False.
  Proof. destruct HI as [c (_ & _ & HU)]. apply HU. Qed.

  (** 2. abstraction *)
  Theorem hml_abs :
    NoDup (g_abs st) /\ NoDup (abs_keys st) /\
    (forall k, In k (g_abs st) <-> In k (abs_keys st)) /\
    g_abs st = apply_lin (g_lin st).
  Proof. exact (Inv_abs st HI). Qed.

  (** 3a. linearization of the completed operations: for every completed operation the recorded
      witness is [Some m], where [m] is the membership of the key in [g_abs] at the operation's
      linearization point, and the result is the one the sequential set gives for [m]:
      insert returns new iff the key was absent, erase returns ok iff it was present, contains
      returns the membership *)
  Theorem hml_hist h : In h (g_hist st) -> hist_ok h.
  Proof. apply (Hist_reach st Hreach). Qed.

  (** 3b. the successful mutators: each [LDel t k n] is the successful mark CAS of thread t on node n
      with key k, and no node is marked by two of them (of several racing erases of the same node
      exactly one succeeds); each [LIns t k n] linked a distinct node *)
  Theorem hml_lin_nodes :
    (forall t k n, In (LDel t k n) (g_lin st) -> nmark st n = true /\ nkey st n = k) /\
    NoDup (del_nodes (g_lin st)) /\
    (forall t k n, In (LIns t k n) (g_lin st) ->
       (In n (chain st) \/ In n (g_retired st)) /\ n <> 0 /\ nkey st n = k) /\
    NoDup (ins_nodes (g_lin st)).
  Proof.
    destruct (Inv_chain st HI) as (HG & _ & _).
    split; [exact (G_ldel _ _ HG)|]. split; [exact (G_ldel_nodup _ _ HG)|]. split; [|exact (G_lins_nodup _ _ HG)].
    intros t k n Hin. destruct (G_lins _ _ HG _ _ _ Hin) as [[H1 H0] H2]. split; [|split; assumption].
    apply in_app_or in H1. destruct H1 as [[H1 | H1] | H1]; [congruence | left; exact H1 | right; exact H1].
  Qed.

  (** 3c. per thread, the successful mutators in linearization order are exactly the thread's
      completed successful insert / erase operations, followed by the erase that has marked its node
      and not yet returned (if any): an erase returns ok iff it performed a successful mark CAS *)
  Theorem hml_pending t : proj_lin t (g_lin st) = proj_hist t (g_hist st) ++ pending (th st t).
  Proof. apply (Pend_reach st Hreach). Qed.

  (** 4. conservation: at quiescence the keys of the reachable unmarked nodes are the result of
      applying the successful operations (in linearization order, which preserves the order of each
      thread's completed successful operations) to the empty set *)
  Corollary hml_quiescent : (forall t, th st t = Idle) ->
    (forall k, In k (abs_keys st) <-> In k (apply_lin (g_lin st))) /\
    (forall t, proj_lin t (g_lin st) = proj_hist t (g_hist st)).
  Proof.
    intros Hq. destruct hml_abs as (_ & _ & Habs & Hfold). split.
    - intros k. rewrite <- Hfold. symmetry. apply Habs.
    - intros t. rewrite (hml_pending t), (Hq t). cbn [pending]. apply app_nil_r.
  Qed.
End Theorems.

(** * Step-level theorems *)

(** 3d. the abstract set changes exactly at the linearization points of the mutators:
    the successful link CAS (program point E2) adds a key that was absent, and the step returns new;
    the successful mark CAS (program point D1) of an unmarked reachable node removes its key, which was present *)
Theorem hml_abs_step s a s' es : reach init step s -> step s a = Some (s', es) ->
  (g_abs s' = g_abs s /\ g_lin s' = g_lin s) \/
  (exists t n key sv cur, a = Step t /\ th s t = E2 n key sv cur /\
     nnext s sv = cur /\ nmark s sv = false /\
     ~ In key (g_abs s) /\ g_abs s' = key :: g_abs s /\ g_lin s' = g_lin s ++ [LIns t key n] /\
     es = [ERmw t (L_next sv) mo_rel (vmp cur false) (vmp n false); ret_ev t (OIns key) true]) \/
  (exists t key sv cur nx, a = Step t /\ th s t = D1 key sv cur nx /\
     nnext s cur = nx /\ nmark s cur = false /\ nmark s' cur = true /\ nkey s cur = key /\ In cur (chain s) /\
     In key (g_abs s) /\ g_abs s' = remk key (g_abs s) /\ g_lin s' = g_lin s ++ [LDel t key cur] /\
     th s' t = D2 key sv cur nx).
Proof.
  intros Hr Hst. destruct (Inv_chain s (Inv_reach s Hr)) as (HG & HT & HU).
  step_cases Hst s; prj2; try (left; split; reflexivity).
  - (* E2 *) right. left. pose proof (HT t) as Ht. unfold T in Ht. rewrite E in Ht. cbn [Tw] in Ht.
    destruct Ht as (Hfr & Hsv & Hcurc & Hnn). apply cond_true in Hc. destruct Hc as [Hnx Hm].
    assert (Hsvc : In sv (0 :: chain s)) by (eapply unmarked_in_chain; [exact HG | exact (proj1 Hsv) | exact Hm]).
    exists t, n, key, sv, cur. repeat (split; [reflexivity || assumption|]). split; [|repeat split].
    apply memb_false. apply (absent s _ sv cur key HG Hsvc Hnx (proj2 Hsv)). intros H. exact (proj2 (Hcurc H)).
  - (* D1 *) right. right. pose proof (HT t) as Ht. unfold T in Ht. rewrite E in Ht. cbn [Tw] in Ht.
    destruct Ht as (Hsv & Hcur & Hck & _). apply cond_true in Hc. destruct Hc as [Hnx Hm].
    assert (Hcc : In cur (0 :: chain s)) by (eapply unmarked_in_chain; [exact HG | exact (proj1 Hcur) | exact Hm]).
    exists t, key, sv, cur, nx. split; [reflexivity|]. split; [exact E|]. split; [exact Hnx|]. split; [exact Hm|].
    split; [apply setf_same|]. split; [exact Hck|].
    split; [destruct Hcc as [Hcc | Hcc]; [exfalso; apply (proj2 Hcur); symmetry; exact Hcc | exact Hcc]|].
    split; [rewrite <- Hck; apply (abs_in s _ cur HG Hcc (proj2 Hcur) Hm)|].
    split; [reflexivity|]. split; [reflexivity | apply upd_same].
Qed.

(** 1d. keys never change, a marked node is never unmarked and its next pointer never changes: a step
    moves the memory monotonically ([mono]) *)
Corollary hml_frozen s s' : reach init step s -> reach_from step s s' ->
  nalloc s <= nalloc s' /\
  forall x, (x < nalloc s -> nkey s' x = nkey s x) /\
            (nmark s x = true -> nmark s' x = true /\ nnext s' x = nnext s x).
Proof.
  intros Hr Hf. induction Hf as [|s1 a s2 es Hf IH Hst].
  - split; [lia|]. intros x. split; [reflexivity | auto].
  - assert (Hr1 : reach init step s1) by (eapply reach_from_reach; eassumption).
    destruct (Inv_reach s1 Hr1) as [c (HG & HT & HU)].
    destruct (Inv_step_c s1 c a s2 es HG HT HU Hst) as (c' & sp & l & [_ HM _ _ _] & _).
    pose proof (M_alloc _ _ _ _ _ HM) as Ha1. destruct IH as [Ha IH]. split; [lia|].
    intros x. destruct (IH x) as [IH1 IH2]. split.
    + intros Hlt. rewrite (M_key _ _ _ _ _ HM) by lia. apply IH1. exact Hlt.
    + intros Hm. destruct (IH2 Hm) as [Hm1 Hn1]. destruct (M_mark _ _ _ _ _ HM x Hm1) as [Hm2 Hn2].
      split; [exact Hm2 | congruence].
Qed.

(** 1e. a node is retired in the very step that unlinks it (a successful unlink CAS of a marked node
    whose predecessor is unmarked), by the thread that performed the CAS; no other step retires *)
Theorem hml_retire_step s a s' es : reach init step s -> step s a = Some (s', es) ->
  g_retired s' = g_retired s \/
  exists t x, a = Step t /\ g_retired s' = g_retired s ++ [x] /\ In (ENote t 120 [x]) es /\
    In x (chain s) /\ ~ In x (chain s') /\ ~ In x (g_retired s) /\ nmark s x = true /\
    (forall y, In y (chain s) <-> y = x \/ In y (chain s')).
Proof.
  intros Hr Hst. destruct (Inv_chain s (Inv_reach s Hr)) as (HG & HT & HU).
  (* the two successful unlink CASes, of a helping find (F5) and of erase (D2) *)
  step_cases Hst s; try (left; reflexivity); right;
    pose proof (HT t) as Ht; unfold T in Ht; rewrite E in Ht; cbn [Tw] in Ht;
    apply cond_true in Hc; destruct Hc as [Hnx Hsvm]; exists t, cur;
    (split; [reflexivity|]); (split; [reflexivity|]); (split; [right; left; reflexivity|]).
  - destruct Ht as (_ & _ & Hsv & Hcur & Hm & Hn).
    destruct (unlink_chain s sv cur nx HG (proj1 Hsv) Hsvm Hnx (proj2 Hcur) Hm Hn) as (_ & H1 & H2 & H3 & H4).
    split; [exact H1|]. split; [exact H2|]. split; [exact H3|]. split; [exact Hm | exact H4].
  - destruct Ht as (Hsv & Hcur & _ & Hm & Hn & _).
    destruct (unlink_chain s sv cur nx HG (proj1 Hsv) Hsvm Hnx (proj2 Hcur) Hm Hn) as (_ & H1 & H2 & H3 & H4).
    split; [exact H1|]. split; [exact H2|]. split; [exact H3|]. split; [exact Hm | exact H4].
Qed.

(** ** the ghosts [g_lp], [g_hist] and the calls *)

(** the operation a thread is executing *)
Definition cur_op (p : pc) : option op :=
  match p with
  | Idle => None
  | Begin o => Some o
  | F1 k key _ | F2 k key _ _ _ | F3 k key _ _ _ | F4 k key _ _ _ | F5 k key _ _ _ _ | F6 k key _ _ _ _ => Some (op_of k key)
  | E1 _ key _ _ | E2 _ key _ _ => Some (OIns key)
  | D1 key _ _ _ | D2 key _ _ _ => Some (ODel key)
  end.
Definition op_key (o : op) : N := match o with OIns k | ODel k | OHas k => k end.

(** the operation of a call does not change until the call returns *)
Theorem hml_op_step s a s' es u o : step s a = Some (s', es) -> cur_op (th s u) = Some o ->
  th s' u = Idle \/ cur_op (th s' u) = Some o.
Proof.
  intros Hst Hop. step_cases Hst s; prj2;
    (destruct (Nat.eq_dec u t) as [->|Hne]; [|right; rewrite upd_other by exact Hne; exact Hop]);
    rewrite upd_same; rewrite E in Hop; cbn [cur_op] in Hop; try discriminate Hop; injection Hop as <-;
    first [left; reflexivity | right; reflexivity].
Qed.

(** [g_lp u] is changed only by steps of thread u itself: reset at the first step of a call,
    otherwise set to the membership of the call's key in the abstract set of the state in which the
    step is taken (an instant inside the call) *)
Theorem hml_lp_step s a s' es u : step s a = Some (s', es) ->
  g_lp s' u = g_lp s u \/
  (a = Step u /\ exists o, cur_op (th s u) = Some o /\
     ((th s u = Begin o /\ g_lp s' u = None) \/ g_lp s' u = Some (memb (op_key o) (g_abs s)))).
Proof.
  intros Hst. step_cases Hst s; prj2; try (left; reflexivity);
    (destruct (Nat.eq_dec u t) as [->|Hne]; [|left; apply upd_other; exact Hne]);
    rewrite upd_same;
    first [ left; reflexivity
          | right; split; [reflexivity|]; eexists; split; [rewrite E; reflexivity|];
            first [left; split; [exact E | reflexivity] | right; reflexivity | right; destruct k; reflexivity] ].
Qed.

Ltac in_crush H :=
  unfold ret_ev in H; cbn [In app] in H;
  repeat match type of H with _ \/ _ => destruct H as [H | H] end;
  try discriminate H; try contradiction.

(** a result is returned exactly by the last step of a call; the step records the operation, the
    result and the current [g_lp] of the thread in [g_hist] *)
Theorem hml_ret_step s a s' es t r : step s a = Some (s', es) -> In (ERet t r) es ->
  exists o b, a = Step t /\ cur_op (th s t) = Some o /\ r = [op_code o; b2n b] /\
    g_hist s' = g_hist s ++ [mkH t o b (g_lp s' t)] /\ th s' t = Idle.
Proof.
  intros Hst Hin. step_cases Hst s; in_crush Hin; injection Hin as <- <-;
    first [ eexists; exists true; (split; [reflexivity|]); (split; [rewrite E; reflexivity|]); (split; [reflexivity|]);
            prj2; rewrite !upd_same; split; reflexivity
          | eexists; exists false; (split; [reflexivity|]); (split; [rewrite E; reflexivity|]); (split; [reflexivity|]);
            prj2; rewrite !upd_same; split; reflexivity ].
Qed.

(** steps that return nothing leave [g_hist] unchanged *)
Theorem hml_noret_step s a s' es : step s a = Some (s', es) -> (forall t r, ~ In (ERet t r) es) ->
  g_hist s' = g_hist s.
Proof.
  intros Hst Hno. step_cases Hst s; prj2; try reflexivity;
    exfalso; eapply Hno; unfold ret_ev; cbn [In app]; eauto 6.
Qed.

(** ** trace-level form: the linearization instant lies inside the call *)

(** [in_call u o s0 s]: thread u took the first step of a call of [o] from [s0], and [s] is a later
    state of the execution up to and including the state right after the call's return *)
Inductive in_call (u : nat) (o : op) (s0 : state) : state -> Prop :=
| ic_first s1 es : th s0 u = Begin o -> step s0 (Step u) = Some (s1, es) -> in_call u o s0 s1
| ic_next s a s' es : in_call u o s0 s -> th s u <> Idle -> step s a = Some (s', es) -> in_call u o s0 s'.

Lemma in_call_reach u o s0 s : reach init step s0 -> in_call u o s0 s -> reach init step s.
Proof. intros Hr H. induction H; eapply reach_step; eauto. Qed.

(** sequential specification: result of operation [o] when the membership of its key is [m] *)
Definition res_for (o : op) (m : bool) : bool := match o with OIns _ => negb m | ODel _ | OHas _ => m end.

Lemma in_call_lp u o s0 s : in_call u o s0 s ->
  (th s u = Idle \/ cur_op (th s u) = Some o) /\
  (g_lp s u = None \/
   exists s1, in_call u o s0 s1 /\ reach_from step s1 s /\ g_lp s u = Some (memb (op_key o) (g_abs s1))).
Proof.
  induction 1 as [s1 es Hb Hst | s a s' es Hic IH Hni Hst].
  - split; [eapply hml_op_step; [exact Hst | rewrite Hb; reflexivity]|]. left.
    unfold step in Hst. rewrite Hb in Hst. destruct o; injection Hst as <- _; prj2; apply upd_same.
  - destruct IH as [[Hidle | Hop] Hlp]; [contradiction|].
    split; [eapply hml_op_step; eassumption|].
    destruct (hml_lp_step s a s' es u Hst) as [Heq | (-> & o' & Ho' & [[Hbeg Hn] | Hset])].
    + rewrite Heq. destruct Hlp as [Hn | (s1 & H1 & H2 & H3)]; [left; exact Hn | right].
      exists s1. split; [exact H1|]. split; [eapply rf_step; eassumption | exact H3].
    + left. exact Hn.
    + right. assert (o' = o) by congruence. subst o'. exists s. split; [exact Hic|].
      split; [eapply rf_step; [apply rf_refl | exact Hst] | exact Hset].
Qed.

(** 3e. MAIN THEOREM (linearizability of every call).  Take any execution, any call of an operation [o]
    by a thread [u] (first step taken from [s0]) and the step that returns its result [r].  Then there
    is a state [s1] strictly inside the call -- after the call's first step, not later than the
    returning step -- such that [r] is the answer of the sequential set specification for the
    membership of the key in the abstract set [g_abs s1]: insert returns new iff the key is absent,
    erase returns ok iff it is present, contains returns the membership.  ([g_abs] itself changes
    only at the linearization points of the successful insert / erase operations, [hml_abs_step],
    and equals the set of keys in the list, [hml_abs].) *)
Theorem hml_call_linearizable u o s0 s a s' es r :
  reach init step s0 -> in_call u o s0 s -> step s a = Some (s', es) -> In (ERet u r) es ->
  exists b s1, r = [op_code o; b2n b] /\ in_call u o s0 s1 /\ reach_from step s1 s' /\
    b = res_for o (memb (op_key o) (g_abs s1)).
Proof.
  intros Hr Hic Hst Hin.
  destruct (hml_ret_step s a s' es u r Hst Hin) as (o' & b & -> & Hop & -> & Hh & Hidle).
  destruct (in_call_lp u o s0 s Hic) as [[Hi | Hop'] _]; [rewrite Hi in Hop; discriminate|].
  assert (o' = o) by congruence. subst o'.
  assert (Hni : th s u <> Idle) by (intros Hc; rewrite Hc in Hop; discriminate).
  assert (Hic' : in_call u o s0 s') by (eapply ic_next; eassumption).
  assert (Hr' : reach init step s') by (eapply in_call_reach; eassumption).
  assert (Hok : hist_ok (mkH u o b (g_lp s' u))).
  { apply (Hist_reach s' Hr'). rewrite Hh. apply in_or_app. right. left. reflexivity. }
  destruct (in_call_lp u o s0 s' Hic') as [_ [Hn | (s1 & H1 & H2 & H3)]].
  - exfalso. unfold hist_ok in Hok. cbn [h_op h_wit h_res] in Hok. rewrite Hn in Hok. destruct o; discriminate.
  - exists b, s1. split; [reflexivity|]. split; [exact H1|]. split; [exact H2|].
    unfold hist_ok in Hok. cbn [h_op h_wit h_res] in Hok. rewrite H3 in Hok.
    destruct o; cbn [res_for op_key] in *; injection Hok as Hok; rewrite Hok; [|reflexivity|reflexivity].
    symmetry. apply negb_involutive.
Qed.

(** * Examples: reachable states computed with the executable model *)

Definition steps (t : nat) (n : nat) : list action := repeat (Step t) n.
Definition st_of (acts : list action) : state := fst (fst (run step init acts)).

Lemma st_of_reach acts : reach init step (st_of acts).
Proof. apply (run_reach _ _ _ init step acts). Qed.

(** T1: ins 2; ins 1 (nodes 1, 2).  T2: del 2, preempted between its mark CAS and its unlink CAS. *)
Definition ex_marked : list action :=
  Start 1%nat (OIns 2) :: steps 1 5 ++ Start 1%nat (OIns 1) :: steps 1 7 ++ Start 2%nat (ODel 2) :: steps 2 9.

(** (hml_structure, hml_abs, hml_pending) node 1 (key 2) is marked and still reachable: the chain is
    sorted, [abs_keys] = [g_abs] = {1}, the erase is pending *)
Example ex_marked_state :
  let st := st_of ex_marked in
  chain st = [2; 1] /\ map (nkey st) (chain st) = [1; 2] /\ map (nmark st) (chain st) = [false; true] /\
  abs_keys st = [1] /\ g_abs st = [1] /\ g_retired st = [] /\
  th st 2%nat = D2 2 2 1 0 /\ pending (th st 2%nat) = [ODel 2] /\
  g_lin st = [LIns 1 2 1; LIns 1 1 2; LDel 2 2 1] /\ proj_hist 2 (g_hist st) = [].
Proof. vm_compute. repeat split. Qed.

(** T3: has 2 runs to completion: its find helps to unlink node 1 and retires it, the answer is no *)
Definition ex_helped : list action := ex_marked ++ Start 3%nat (OHas 2) :: steps 3 10.

(** (hml_retired, hml_retire_step, hml_hist) the helper retired the node; the lookup answered no with
    witness [Some false] although the erasing thread has not returned yet *)
Example ex_helped_state :
  let st := st_of ex_helped in
  chain st = [2] /\ g_retired st = [1] /\ nmark st 1 = true /\ nnext st 1 = 0 /\ g_abs st = [1] /\
  th st 2%nat = D2 2 2 1 0 /\ th st 3%nat = Idle /\
  last (g_hist st) (mkH 0 (OHas 0) false None) = mkH 3 (OHas 2) false (Some false).
Proof. vm_compute. repeat split. Qed.

(** T2 resumes: its unlink CAS fails, it searches again and returns ok *)
Definition ex_done : list action := ex_helped ++ steps 2 3.

(** (hml_quiescent, hml_hist) all threads idle: keys of the list = fold of the successful operations;
    every completed operation is consistent with its witness *)
Example ex_done_state :
  let st := st_of ex_done in
  (forall t, In t [1; 2; 3]%nat -> th st t = Idle) /\
  abs_keys st = [1] /\ apply_lin (g_lin st) = [1] /\ g_retired st = [1] /\
  g_hist st = [mkH 1 (OIns 2) true (Some false); mkH 1 (OIns 1) true (Some false);
               mkH 3 (OHas 2) false (Some false); mkH 2 (ODel 2) true (Some true)] /\
  proj_lin 2 (g_lin st) = [ODel 2] /\ proj_hist 2 (g_hist st) = [ODel 2].
Proof. vm_compute. split; [intros t [<- | [<- | [<- | []]]]; reflexivity | repeat split]. Qed.

(** (hml_lin_nodes, hml_abs_step) two racing erases of the same node: T2 and T3 both reach the mark CAS
    of node 1; T2's CAS succeeds, T3's fails; T3 searches again (helping to unlink) and returns no,
    T2 returns ok: exactly one of them succeeded *)
Definition ex_race_del : list action :=
  Start 1%nat (OIns 5) :: steps 1 5 ++ Start 2%nat (ODel 5) :: steps 2 5 ++ Start 3%nat (ODel 5) :: steps 3 5 ++
  [Step 2%nat; Step 3%nat] ++ steps 3 6 ++ steps 2 3.
Example ex_race_del_state :
  let st := st_of ex_race_del in
  chain st = [] /\ g_abs st = [] /\ g_retired st = [1] /\ g_lin st = [LIns 1 5 1; LDel 2 5 1] /\
  g_hist st = [mkH 1 (OIns 5) true (Some false); mkH 3 (ODel 5) false (Some false); mkH 2 (ODel 5) true (Some true)].
Proof. vm_compute. repeat split. Qed.

(** (hml_hist, hml_fresh_unique) two racing inserts of the same key: T2 links its node 2 first; T1's
    link CAS fails, its second find sees node 2 unmarked (witness [Some true]), it frees its own
    node 1 and returns old *)
Definition ex_race_ins : list action :=
  Start 1%nat (OIns 7) :: steps 1 4 ++ Start 2%nat (OIns 7) :: steps 2 5 ++ steps 1 1.
Example ex_race_ins_mid :
  let st := st_of ex_race_ins in
  chain st = [2] /\ th st 1%nat = F1 (KIns 1) 7 0 /\ fresh_of (th st 1%nat) = Some 1 /\ g_abs st = [7].
Proof. vm_compute. repeat split. Qed.
Example ex_race_ins_state :
  let st := st_of (ex_race_ins ++ steps 1 4) in
  chain st = [2] /\ g_abs st = [7] /\ g_lin st = [LIns 2 7 2] /\
  g_hist st = [mkH 2 (OIns 7) true (Some false); mkH 1 (OIns 7) false (Some true)].
Proof. vm_compute. repeat split. Qed.
