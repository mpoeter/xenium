(** kirsch_bounded_kfifo_queue (C06), invariant layer 2 (ownership): every stored pointer is either committed and
    not yet popped, or the pending insertion of exactly one thread inside committed(); committed values that
    were not popped are in exactly one slot; pushers own distinct tokens.  One lemma per shared effect of a
    step (allocation, insertion, take-back, commit, take by a pop, return).  No axioms, no admits. *)
From Coq Require Import NArith List Bool Lia PeanoNat.
From XV Require Import Base.Word Conc.Lts Conc.Ev Model.KfbDefs.
From XV Require Import Proof.KfbArith Proof.KfbWf.
Import ListNotations.
Local Open Scope N_scope.

Definition pblock (p : pc) : option N :=
  match p with
  | P1 b | P2 b _ | PF b _ _ _ _ | P3 b _ _ _ | P3n b _ _ | P4 b _ _ _ | PQ b _ _ | PS b _ _ _ | PHC b _ _ | PH b _ _ | PT b _
  | C1 b _ _ _ | C2 b _ _ _ | C3 b _ _ _ _ | C4 b _ _ _ _ _ | C5 b _ _ _ _ | C6 b _ _ => Some b
  | _ => None
  end.
Definition cinfo (p : pc) : option (N * N * N) :=
  match p with
  | C1 b _ j tg | C2 b _ j tg | C3 b _ j tg _ | C4 b _ j tg _ _ | C5 b _ j tg _ | C6 b j tg => Some (b, j, tg)
  | _ => None
  end.

Lemma cinfo_pblock p b j tg : cinfo p = Some (b, j, tg) -> pblock p = Some b.
Proof. destruct p; cbn; intros H; inversion H; reflexivity. Qed.

(** thread invariant as a function of the abstract view (cinfo, pblock) *)
Definition T2' (st : state) (ci : option (N * N * N)) (pb : option N) : Prop :=
  match ci with
  | Some (b, j, tg) => (slot st j = (b, tg) /\ ~ In b (g_in st)) \/ (In b (g_in st) /\ In b (g_out st))
  | None => match pb with
            | Some b => ~ In b (g_in st) /\ forall j, fst (slot st j) <> b
            | None => True
            end
  end.
Definition T2 (st : state) (p : pc) : Prop := T2' st (cinfo p) (pblock p).

Record Inv2 (st : state) : Prop := {
  i_nalloc : 2 <= nalloc st;
  i_in_lt : forall b, In b (g_in st) -> 2 <= b < nalloc st;
  i_nd_in : NoDup (g_in st);
  i_nd_out : NoDup (g_out st);
  i_incl : incl (g_out st) (g_in st);
  i_slot : forall j b tg, slot st j = (b, tg) -> b <> 0 ->
           (In b (g_in st) /\ ~ In b (g_out st)) \/ (~ In b (g_in st) /\ exists t, cinfo (th st t) = Some (b, j, tg));
  i_pres : forall b, In b (g_in st) -> ~ In b (g_out st) -> exists j, fst (slot st j) = b;
  i_uniq : forall j j', fst (slot st j) = fst (slot st j') -> fst (slot st j) <> 0 -> j = j';
  i_own_lt : forall t b, pblock (th st t) = Some b -> 2 <= b < nalloc st;
  i_own_u : forall t t' b, pblock (th st t) = Some b -> pblock (th st t') = Some b -> t = t';
  i_th : forall t, T2 st (th st t);
  i_ok_in : forall b, In b (g_ok st) -> In b (g_in st);
  i_in_ok : forall b, In b (g_in st) -> In b (g_ok st) \/ exists t j tg, cinfo (th st t) = Some (b, j, tg) }.

Lemma Inv2_init : Inv2 init.
Proof.
  constructor; cbn [init g_in g_out g_ok slot th nalloc]; try easy; try apply NoDup_nil.
  intros j b tg H. inversion H. congruence.
Qed.

Lemma in_slot_known s : Inv2 s -> forall j, fst (slot s j) <> 0 -> 2 <= fst (slot s j) < nalloc s.
Proof.
  intros I j Hnz. destruct (slot s j) as [b tg] eqn:E. cbn [fst] in *.
  destruct (i_slot s I j b tg E Hnz) as [[A _]|[_ [t A]]].
  - apply (i_in_lt s I b A).
  - apply (i_own_lt s I t b). eapply cinfo_pblock; eauto.
Qed.

Lemma own_ne s t t0 b b0 : Inv2 s -> t0 <> t -> pblock (th s t) = Some b -> pblock (th s t0) = Some b0 -> b0 <> b.
Proof. intros I Hne A B ->. apply Hne. eapply (i_own_u s I); eauto. Qed.

Lemma popped_not_in_slot s b j tg : Inv2 s -> b <> 0 -> In b (g_out s) -> slot s j <> (b, tg).
Proof.
  intros I Hb Ho E. destruct (i_slot s I j b tg E Hb) as [[_ A]|[A _]]; [contradiction|].
  apply A. apply (i_incl s I). exact Ho.
Qed.

Lemma uniq_setf_null s j tg' : Inv2 s ->
  forall j1 j2, fst (setf (slot s) j (0, tg') j1) = fst (setf (slot s) j (0, tg') j2) -> fst (setf (slot s) j (0, tg') j1) <> 0 -> j1 = j2.
Proof.
  intros I j1 j2. unfold setf. destruct (N.eqb_spec j1 j) as [->|H1]; destruct (N.eqb_spec j2 j) as [->|H2]; cbn [fst]; try reflexivity; try congruence.
  apply (i_uniq s I).
Qed.

(** another thread's clause survives a write to slot j that is neither its pending insertion nor stores its token *)
Lemma T2'_write st j w e ci pb : T2' st ci pb ->
  (forall b tg, ci = Some (b, j, tg) -> slot st j <> (b, tg)) -> (forall b, pb = Some b -> fst w <> b) ->
  T2' (set_slot st j w e) ci pb.
Proof.
  unfold T2'. sim. destruct ci as [[[b j0] tg]|].
  - intros [[A B]|A] Hj _; [left|right; exact A]. split; [|exact B].
    rewrite setf_other; [exact A|]. intros ->. exact (Hj b tg eq_refl A).
  - destruct pb as [b|]; [|trivial]. intros [A B] _ Hw. split; [exact A|].
    intros j1. unfold setf. destruct (N.eqb_spec j1 j); [apply Hw; reflexivity|apply B].
Qed.

(** * The effects of a step on the invariant, one lemma per kind of write (allocation, insertion, take-back,
    commit, take by a pop, return); thread t moves to p' *)
Section Effect.
  Variables (s : state) (t : nat) (p' : pc).
  Hypothesis Iv : Inv2 s.
  Notation th' := (upd (th s) t p').

  (** a thread inside committed() is still there, unless it is t *)
  Lemma wit_keep c t0 : cinfo (th s t0) = Some c -> (t0 = t -> cinfo p' = Some c) -> cinfo (th' t0) = Some c.
  Proof. intros B H. unfold upd. destruct (Nat.eqb_spec t0 t); auto. Qed.

  (** ... so what the invariant says of a stored pointer, and of a committed one, carries over *)
  Lemma slot_keep j b tg : slot s j = (b, tg) -> b <> 0 -> (cinfo (th s t) = Some (b, j, tg) -> cinfo p' = Some (b, j, tg)) ->
    (In b (g_in s) /\ ~ In b (g_out s)) \/ (~ In b (g_in s) /\ exists t0, cinfo (th' t0) = Some (b, j, tg)).
  Proof.
    intros H Hb Hc. destruct (i_slot s Iv j b tg H Hb) as [A|[A [t0 B]]]; [left; exact A|right]. split; [exact A|].
    exists t0. apply wit_keep; [exact B|intros ->; auto].
  Qed.
  Lemma in_ok_keep b : In b (g_in s) -> (forall j tg, cinfo (th s t) = Some (b, j, tg) -> cinfo p' = Some (b, j, tg)) ->
    In b (g_ok s) \/ exists t0 j tg, cinfo (th' t0) = Some (b, j, tg).
  Proof.
    intros Hb Hc. destruct (i_in_ok s Iv b Hb) as [A|(t0 & j & tg & A)]; [left; exact A|right].
    exists t0, j, tg. apply wit_keep; [exact A|intros ->; auto].
  Qed.

  (** t keeps its token or drops it: the tokens held stay known and distinct *)
  Lemma own_keep : (forall b, pblock p' = Some b -> pblock (th s t) = Some b) ->
    (forall t0 b, pblock (th' t0) = Some b -> 2 <= b < nalloc s) /\
    (forall t0 t1 b, pblock (th' t0) = Some b -> pblock (th' t1) = Some b -> t0 = t1).
  Proof.
    intros Hp. assert (Hv : forall t0 b, pblock (th' t0) = Some b -> pblock (th s t0) = Some b).
    { intros t0 b. unfold upd. destruct (Nat.eqb_spec t0 t) as [->|_]; auto. }
    split; [intros t0 b H; apply (i_own_lt s Iv t0 b); auto|intros t0 t1 b A B; apply (i_own_u s Iv t0 t1 b); auto].
  Qed.

  (** t moves on without touching slots or ghosts; it may drop its token when it holds no insertion *)
  Lemma Inv2_pc : cinfo p' = cinfo (th s t) -> (forall b, pblock p' = Some b -> pblock (th s t) = Some b) ->
    Inv2 (set_th s t p').
  Proof.
    intros Hc Hp. destruct (own_keep Hp) as [O1 O2]. constructor; sim; try assumption; try apply Iv.
    - intros j b tg H Hb. apply slot_keep; [assumption..|congruence].
    - intros t0. unfold upd. destruct (Nat.eqb_spec t0 t) as [_|_]; [|apply (i_th s Iv t0)].
      pose proof (i_th s Iv t) as H. unfold T2, T2' in *. sim. rewrite Hc.
      destruct (cinfo (th s t)); [exact H|]. destruct (pblock p') as [b|] eqn:Eb; [|exact Logic.I]. rewrite (Hp b eq_refl) in H. exact H.
    - intros b Hb. apply in_ok_keep; [exact Hb|congruence].
  Qed.

  (** allocation of a token: [Begin (OPush v)] -> [P1 b] *)
  Lemma Inv2_alloc v : pblock (th s t) = None -> cinfo (th s t) = None -> p' = P1 (nalloc s) -> Inv2 (set_th (alloc s v) t p').
  Proof.
    intros Hp Hc Ep'. pose proof (i_nalloc s Iv) as Hna.
    constructor; sim; rewrite ?Ep'; try solve [apply Iv]; [lia|..].
    - intros b Hb. pose proof (i_in_lt s Iv b Hb). lia.
    - intros j b tg H Hb. rewrite <- Ep'. apply slot_keep; [assumption..|congruence].
    - intros t0 b. unfold upd. destruct (Nat.eqb_spec t0 t) as [_|_]; cbn [pblock]; intros H;
        [injection H as <-|pose proof (i_own_lt s Iv t0 b H)]; lia.
    - intros t0 t1 b. unfold upd. destruct (Nat.eqb_spec t0 t) as [->|_]; destruct (Nat.eqb_spec t1 t) as [->|_]; try reflexivity; cbn [pblock]; intros A B.
      + injection A as <-. pose proof (i_own_lt s Iv t1 _ B). lia.
      + injection B as <-. pose proof (i_own_lt s Iv t0 _ A). lia.
      + eapply (i_own_u s Iv); eauto.
    - intros t0. unfold upd. destruct (Nat.eqb_spec t0 t) as [_|_]; [|apply (i_th s Iv t0)].
      unfold T2, T2'. cbn [cinfo pblock]. sim. split.
      + intros Hin. pose proof (i_in_lt s Iv _ Hin). lia.
      + intros j Hj. assert (Hnz : fst (slot s j) <> 0) by lia. pose proof (in_slot_known s Iv j Hnz). lia.
    - intros b Hb. rewrite <- Ep'. apply in_ok_keep; [exact Hb|congruence].
  Qed.

  (** insertion CAS: [P4] -> [C1] *)
  Lemma Inv2_ins b j otag tg' :
    pblock (th s t) = Some b -> cinfo (th s t) = None -> slot s j = (0, otag) -> cinfo p' = Some (b, j, tg') ->
    Inv2 (set_th (set_slot s j (b, tg') (HIns b)) t p').
  Proof.
    intros Hp Hc Hsl Hc'.
    assert (Hp' : forall b0, pblock p' = Some b0 -> pblock (th s t) = Some b0) by (rewrite (cinfo_pblock _ _ _ _ Hc'), Hp; auto).
    destruct (own_keep Hp') as [O1 O2].
    pose proof (i_th s Iv t) as Ht. unfold T2, T2' in Ht. rewrite Hc, Hp in Ht. destruct Ht as [Hnin Hnsl].
    pose proof (i_own_lt s Iv t b Hp) as Hb2.
    constructor; sim; try assumption; try apply Iv.
    - intros j0 b0 tg0. unfold setf. destruct (N.eqb_spec j0 j) as [->|Hn].
      + intros H _. injection H as <- <-. right. split; [exact Hnin|]. exists t. rewrite upd_same. exact Hc'.
      + intros H Hb0. apply slot_keep; [assumption..|congruence].
    - intros b0 A B. destruct (i_pres s Iv b0 A B) as [j0 Hj0]. exists j0. rewrite setf_other; [exact Hj0|].
      intros ->. rewrite Hsl in Hj0. cbn in Hj0. pose proof (i_in_lt s Iv b0 A). lia.
    - intros j1 j2. unfold setf. destruct (N.eqb_spec j1 j) as [->|H1]; destruct (N.eqb_spec j2 j) as [->|H2]; cbn [fst]; try reflexivity.
      + intros H _. exfalso. apply (Hnsl j2). congruence.
      + intros H _. exfalso. apply (Hnsl j1). congruence.
      + apply (i_uniq s Iv).
    - intros t0. unfold upd. destruct (Nat.eqb_spec t0 t) as [_|Hne].
      + unfold T2, T2'. rewrite Hc'. left. sim. rewrite setf_same. split; [reflexivity|exact Hnin].
      + apply T2'_write; [apply (i_th s Iv t0)| |].
        * intros b0 tg0 Ec. rewrite Hsl. pose proof (i_own_lt s Iv t0 b0 (cinfo_pblock _ _ _ _ Ec)). intros Q. injection Q as Q _. lia.
        * intros b0 Eb. cbn [fst]. intros <-. exact (own_ne s t t0 b b Iv Hne Hp Eb eq_refl).
    - intros b0 Hb0. apply in_ok_keep; [exact Hb0|congruence].
  Qed.

  (** take-back CAS: [C6] -> [P1] *)
  Lemma Inv2_back b j tg tg' : cinfo (th s t) = Some (b, j, tg) -> slot s j = (b, tg) -> pblock p' = Some b -> cinfo p' = None ->
    Inv2 (set_th (set_slot s j (0, tg') (HBack b)) t p').
  Proof.
    intros Hc Hsl Hp' Hc'.
    pose proof (cinfo_pblock _ _ _ _ Hc) as Hp.
    pose proof (i_own_lt s Iv t b Hp) as Hb2.
    destruct (own_keep ltac:(rewrite Hp', Hp; auto)) as [O1 O2].
    pose proof (i_th s Iv t) as Ht. unfold T2, T2' in Ht. rewrite Hc in Ht. destruct Ht as [[_ Hnin]|[Hin Hout]].
    2:{ exfalso. eapply (popped_not_in_slot s b j tg); eauto. lia. }
    constructor; sim; try assumption; try apply Iv.
    - intros j0 b0 tg0. unfold setf. destruct (N.eqb_spec j0 j) as [->|Hn]; intros H Hb0; [injection H as <- _; congruence|].
      apply slot_keep; [assumption..|congruence].
    - intros b0 A B. destruct (i_pres s Iv b0 A B) as [j0 Hj0]. exists j0. rewrite setf_other; [exact Hj0|].
      intros ->. rewrite Hsl in Hj0. cbn in Hj0. subst. contradiction.
    - apply uniq_setf_null. exact Iv.
    - intros t0. unfold upd. destruct (Nat.eqb_spec t0 t) as [_|Hne].
      + unfold T2, T2'. rewrite Hc', Hp'. sim. split; [exact Hnin|].
        intros j1. unfold setf. destruct (N.eqb_spec j1 j) as [->|Hn]; cbn [fst]; [lia|].
        intros H. apply Hn. apply (i_uniq s Iv); [rewrite Hsl; exact H|rewrite H; lia].
      + apply T2'_write; [apply (i_th s Iv t0)| |].
        * intros b0 tg0 Ec. rewrite Hsl. intros Q. injection Q as <- _. exact (own_ne s t t0 b b Iv Hne Hp (cinfo_pblock _ _ _ _ Ec) eq_refl).
        * intros b0 Eb. cbn [fst]. pose proof (i_own_lt s Iv t0 b0 Eb). lia.
    - intros b0 Hb0. apply in_ok_keep; [exact Hb0|congruence].
  Qed.

  (** [committed] returns true because the value is no longer in its slot: a pop took it *)
  Lemma Inv2_retok_popped b j tg : cinfo (th s t) = Some (b, j, tg) -> slot s j <> (b, tg) -> p' = Idle ->
    Inv2 (set_th (set_ok s (g_ok s ++ [b])) t p').
  Proof.
    intros Hc Hsl Ep'. destruct (own_keep ltac:(rewrite Ep'; discriminate)) as [O1 O2].
    pose proof (i_th s Iv t) as Ht. unfold T2, T2' in Ht. rewrite Hc in Ht. destruct Ht as [[A _]|[Hin Hout]]; [contradiction|].
    constructor; sim; try assumption; try apply Iv.
    - intros j0 b0 tg0 H Hb0. apply slot_keep; [assumption..|congruence].
    - intros t0. unfold upd. destruct (Nat.eqb_spec t0 t) as [_|_]; [rewrite Ep'; exact Logic.I|apply (i_th s Iv t0)].
    - intros b0. rewrite in_app_iff. cbn. intros [A|[<-|[]]]; [apply (i_ok_in s Iv); exact A|exact Hin].
    - intros b0 Hb0. rewrite in_app_iff. destruct (N.eq_dec b0 b) as [->|Hnb]; [left; right; left; reflexivity|].
      destruct (in_ok_keep b0 Hb0) as [A|A]; [congruence|left; left; exact A|right; exact A].
  Qed.

  (** [committed] decides true (valid region or successful head tag bump): the value is committed, unless a pop was faster *)
  Lemma Inv2_commit b j tg : cinfo (th s t) = Some (b, j, tg) -> p' = Idle ->
    Inv2 (set_th (set_ok (set_in s (commit b (g_in s))) (g_ok s ++ [b])) t p').
  Proof.
    intros Hc Ep'.
    pose proof (i_own_lt s Iv t b (cinfo_pblock _ _ _ _ Hc)) as Hb2.
    pose proof (i_th s Iv t) as Ht. unfold T2, T2' in Ht. rewrite Hc in Ht. destruct Ht as [[Hsl Hnin]|[Hin Hout]].
    2:{ rewrite (commit_old _ _ Hin). apply (Inv2_retok_popped b j tg Hc); [|exact Ep'].
        apply popped_not_in_slot; [exact Iv|lia|exact Hout]. }
    rewrite (commit_new _ _ Hnin). destruct (own_keep ltac:(rewrite Ep'; discriminate)) as [O1 O2].
    assert (Hnout : ~ In b (g_out s)) by (intros H; apply Hnin; apply (i_incl s Iv); exact H).
    constructor; sim; try assumption; try apply Iv.
    - intros b0. rewrite in_app_iff. cbn. intros [A|[<-|[]]]; [apply (i_in_lt s Iv); exact A|exact Hb2].
    - apply NoDup_snoc; [apply Iv|exact Hnin].
    - apply incl_appl. apply Iv.
    - intros j0 b0 tg0 H Hb0. rewrite in_app_iff. destruct (N.eq_dec b0 b) as [->|Hnb].
      + left. split; [right; left; reflexivity|exact Hnout].
      + destruct (slot_keep j0 b0 tg0 H Hb0) as [[A B]|[A B]]; [congruence|left; split; [left; exact A|exact B]|right].
        split; [cbn; intuition|exact B].
    - intros b0. rewrite in_app_iff. cbn. intros [A|[<-|[]]] B; [apply (i_pres s Iv); assumption|].
      exists j. rewrite Hsl. reflexivity.
    - intros t0. unfold upd. destruct (Nat.eqb_spec t0 t) as [_|Hne]; [rewrite Ep'; exact Logic.I|].
      pose proof (i_th s Iv t0) as H. unfold T2, T2' in *. sim.
      destruct (cinfo (th s t0)) as [[[b0 j0] tg0]|] eqn:Ec.
      + assert (b0 <> b) by (eapply (own_ne s t t0); eauto using cinfo_pblock).
        rewrite in_app_iff. cbn. destruct H as [[A B]|[A B]]; [left; split; [exact A|intuition]|right; auto].
      + destruct (pblock (th s t0)) as [b0|] eqn:Eb; [|exact Logic.I].
        assert (b0 <> b) by (eapply (own_ne s t t0); eauto using cinfo_pblock).
        rewrite in_app_iff. cbn. destruct H as [A B]. split; [intuition|exact B].
    - intros b0. rewrite !in_app_iff. cbn. intros [A|[<-|[]]]; [left; apply (i_ok_in s Iv); exact A|right; left; reflexivity].
    - intros b0. rewrite !in_app_iff. cbn. intros [Hb0|[<-|[]]]; [|left; right; left; reflexivity].
      destruct (N.eq_dec b0 b) as [->|Hnb]; [left; right; left; reflexivity|].
      destruct (in_ok_keep b0 Hb0) as [A|A]; [congruence|left; left; exact A|right; exact A].
  Qed.
End Effect.

(** the invariant does not read head, tail or the draw counter *)
Lemma Inv2_words s hd tl n : Inv2 s ->
  Inv2 (mkSt hd tl (slot s) (bval s) (nalloc s) (th s) (g_in s) (g_out s) (g_ok s) (g_hist s) n).
Proof. intros []. constructor; assumption. Qed.

(** a pop takes the value of slot j (its own program counter changes afterwards, [Inv2_pc]) *)
Lemma Inv2_take s p j tg tg' : Inv2 s -> slot s j = (p, tg) -> p <> 0 ->
  Inv2 (set_out (set_in (set_slot s j (0, tg') (HTake p)) (commit p (g_in s))) (g_out s ++ [p])).
Proof.
  intros Iv Hsl Hp.
  assert (Hp2 : 2 <= p < nalloc s) by (pose proof (in_slot_known s Iv j) as H; rewrite Hsl in H; apply H; exact Hp).
  assert (Hnout : ~ In p (g_out s)).
  { destruct (i_slot s Iv j p tg Hsl Hp) as [[_ A]|[A _]]; [exact A|]. intros H. apply A. apply (i_incl s Iv). exact H. }
  assert (Hother : forall j0, j0 <> j -> fst (slot s j0) <> p).
  { intros j0 Hn H. apply Hn. apply (i_uniq s Iv); [rewrite Hsl; exact H|rewrite H; exact Hp]. }
  constructor; sim; try apply Iv.
  - intros b0. rewrite commit_in. intros [A| ->]; [apply (i_in_lt s Iv); exact A|exact Hp2].
  - apply commit_nodup. apply Iv.
  - apply NoDup_snoc; [apply Iv|exact Hnout].
  - intros x. rewrite in_app_iff, commit_in. cbn. intros [A|[<-|[]]]; [left; apply (i_incl s Iv); exact A|right; reflexivity].
  - intros j0 b0 tg0. unfold setf. destruct (N.eqb_spec j0 j) as [->|Hn]; intros H Hb0; [injection H as <- _; congruence|].
    assert (Hbp : b0 <> p) by (intros ->; apply (Hother j0 Hn); rewrite H; reflexivity).
    rewrite commit_in, in_app_iff. cbn.
    destruct (i_slot s Iv j0 b0 tg0 H Hb0) as [[A B]|[A B]]; [left; split; [left; exact A|intuition]|right; split; [intuition|exact B]].
  - intros b0. rewrite commit_in, in_app_iff. cbn. intros A B.
    assert (Hbp : b0 <> p) by (intros ->; apply B; right; left; reflexivity).
    destruct A as [A|A]; [|contradiction]. destruct (i_pres s Iv b0 A ltac:(intuition)) as [j0 Hj0].
    exists j0. rewrite setf_other; [exact Hj0|]. intros ->. rewrite Hsl in Hj0. cbn in Hj0. congruence.
  - apply uniq_setf_null. exact Iv.
  - intros t0. pose proof (i_th s Iv t0) as H. unfold T2, T2' in *. sim.
    destruct (cinfo (th s t0)) as [[[b0 j0] tg0]|] eqn:Ec.
    + rewrite commit_in, in_app_iff. cbn. destruct H as [[A B]|[A B]]; [|right; auto].
      destruct (N.eq_dec j0 j) as [->|Hn].
      * rewrite Hsl in A. inversion A; subst. right. auto.
      * left. rewrite setf_other by exact Hn. split; [exact A|]. intros [C| ->]; [contradiction|].
        apply (Hother j0 Hn). rewrite A. reflexivity.
    + destruct (pblock (th s t0)) as [b0|] eqn:Eb; [|exact Logic.I]. rewrite commit_in. destruct H as [A B]. split.
      * intros [C| ->]; [contradiction|]. apply (B j). rewrite Hsl. reflexivity.
      * intros j1. unfold setf. destruct (N.eqb_spec j1 j) as [->|Hn]; [|apply B]. cbn [fst].
        pose proof (i_own_lt s Iv t0 b0 Eb). lia.
  - intros b0 A. rewrite commit_in. left. apply (i_ok_in s Iv). exact A.
  - intros b0. rewrite commit_in. intros [Hb0| ->]; [apply (i_in_ok s Iv); exact Hb0|].
    destruct (i_slot s Iv j p tg Hsl Hp) as [[A _]|[_ [t0 B]]]; [apply (i_in_ok s Iv); exact A|right; exists t0, j, tg; exact B].
Qed.

Set Default Proof Using "All".
Section L2.
  Variables k segs : N.
  Hypothesis Hk : 1 <= k.
  Hypothesis Hs : 1 <= segs.
  Notation step := (step k segs).

  Lemma Inv2_step s a s' es : Inv1 k segs s -> Inv2 s -> step s a = Some (s', es) -> Inv2 s'.
  Proof.
    intros (_ & _ & _ & Hall) Iv Hst. pose proof (Hall (tid a)) as Hme.
    destruct (step_inv k segs s a s' es Hst) as (r & p & s1 & p' & res & Ep & -> & Eth & [[-> Hrd]|Hwr] & _);
      rewrite Ep in Hme; [destruct Hrd|destruct Hwr]; cbn [T1] in Hme.
    all: try (apply (Inv2_pc s _ _ Iv); rewrite Ep; cbn; congruence).
    (* random draws, head and tail CASes *)
    all: try (apply (Inv2_pc _ _ _ (Inv2_words s _ _ _ Iv)); sim; rewrite Ep; cbn; congruence).
    - (* allocation *) apply (Inv2_alloc s _ _ Iv); rewrite ?Ep; reflexivity.
    - (* insertion *) apply (Inv2_ins s _ _ Iv b j otag); rewrite ?Ep; auto.
    - (* take-back *) apply (Inv2_back s _ _ Iv b j tg); rewrite ?Ep; auto.
    - (* take, then the pop returns *)
      apply (Inv2_pc (set_out _ _)); [apply (Inv2_take s p j tg); [assumption..|apply Hme]|sim; rewrite Ep; reflexivity|discriminate].
    - (* C1: the value is gone *) apply (Inv2_retok_popped s _ _ Iv b j tg); rewrite ?Ep; auto.
    - (* C6: the value is gone *) apply (Inv2_retok_popped s _ _ Iv b j tg); rewrite ?Ep; auto.
    - (* C4: valid region *) apply (Inv2_commit s _ _ Iv b j tg); rewrite ?Ep; auto.
    - (* C5: head tag bumped *) apply (Inv2_commit _ _ _ (Inv2_words s _ _ _ Iv) b j tg); sim; rewrite ?Ep; auto.
  Qed.

  Theorem Inv2_reach st : reach init step st -> Inv2 st.
  Proof.
    apply (inv_rule_aux _ _ _ init step (Inv1 k segs) Inv2).
    - apply Inv1_reach; assumption.
    - exact Inv2_init.
    - intros s a s' es J _ Iv Hst. eapply Inv2_step; eauto.
  Qed.
End L2.
