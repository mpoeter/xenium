(** C16 for xenium::ramalhete_queue: push and pop finish within an explicit number of solo steps from
    EVERY reachable wrap-free state (any number of other threads stopped anywhere inside their
    operations), provided the 32-bit counters have head room for the run.
    Measure: W * (number of times the thread can still jump back to the top of its loop) + position
    inside the loop.  A push running alone jumps back at most once to help a lagging tail and once
    per remaining ticket of the last node (tickets poisoned by stopped poppers); a pop once per
    remaining ticket of every node from head on (tickets whose pushers are stopped are poisoned)
    and once per node it unlinks (a hand-over iteration is 8 steps: (9) (10) push_idx (11) (12) and the
    two CASes (16) on _tail and (13) on _head; it fits into the loop weight W). *)
From Coq Require Import NArith List Bool Lia PeanoNat.
From XV Require Import Base.Word Conc.Lts Conc.Ev Conc.Solo gen.RamalheteNodeGen Proof.RamalheteNode Model.RamDefs
  Proof.RamBase Proof.RamTickets Proof.RamCons Proof.RamInv.
Import ListNotations.
Local Open Scope N_scope.

Definition idle (s : state) (t : nat) : bool := match th s t with Idle => true | _ => false end.

Section RamSolo.
  Variables E R : N.
  Hypothesis HE : 1 <= E.
  Hypothesis HM : C_step_size E * E < 2 ^ 32.
  Notation S := (SS E).
  Notation tk := (tick_of E).
  Notation pa := (pa E).
  Notation pd := (pd E).
  Notation reachable := (reach init (step E R)).
  Local Notation IA := (InvA_reach E R HE HM).

  Definition nE : nat := N.to_nat E.
  Definition nR : nat := N.to_nat R.
  Definition W : nat := (nE + nR + 14)%nat.
  Definition ne (a b : N) : nat := if a =? b then 0%nat else 1%nat.
  Definition nz (a : N) : nat := if a =? 0 then 0%nat else 1%nat.
  Definition lastn (s : state) : N := last (g_nodes s) 0.
  (** nodes behind head *)
  Definition after_head (s : state) : nat := (length (g_nodes s) - length (g_retired s) - 1)%nat.
  (** jumps back a push can still make from the top of its loop / a pop *)
  Definition Gp (s : state) : nat := (ne (tail s) (lastn s) + N.to_nat (E - N.min (pa s (lastn s)) E))%nat.
  Definition Gd (s : state) : nat := (N.to_nat (E - N.min (pd s (head s)) E) + (nE + 1) * after_head s)%nat.

  Definition mu_pc (s : state) (p : pc) : nat :=
    match p with
    | Idle => 0
    | Begin (OPush _) => W * (Gp s + 1)
    | Begin OPop => W * (Gd s + 1)
    | P1 _ => W * Gp s + (nE + 12)
    | P2 _ t => W * (Gp s + ne t (tail s)) + (nE + 11)
    | P3 _ t => W * (Gp s + ne t (tail s)) + (nE + 10)
    | P4 _ t => W * (Gp s + ne t (tail s)) + (nE + 9)
    | P5 _ t _ i => W * (Gp s + nz (nnext s t)) + (8 + (nE - N.to_nat i))
    | P6 _ t _ => W * (Gp s + nz (nnext s t)) + 7
    | P6a _ _ => W * (Gp s + 1) + 6
    | P6b _ _ => W * (Gp s + 1) + 5
    | P6c _ _ => W * (Gp s + 1) + 4
    | P9 _ t => W * (Gp s + ne t (tail s)) + 7
    | P10 _ t _ => W * (Gp s + ne t (tail s)) + 6
    | P8 _ _ _ => W * (Gp s + 1) + 5
    | P7 _ _ => 1
    | D1 => W * Gd s + (nR + 12)
    | D2 h => W * (Gd s + ne h (head s)) + (nR + 11)
    | D3 h _ => W * (Gd s + ne h (head s)) + (nR + 10)
    | D4 h => W * (Gd s + ne h (head s)) + (nR + 9)
    | D5 h => W * (Gd s + ne h (head s)) + (nR + 8)
    | D6 h => W * (Gd s + ne h (head s)) + 4
    | D6t h _ => W * (Gd s + ne h (head s)) + 3
    | D7 h _ => W * (Gd s + ne h (head s)) + 2
    | D9 _ _ c => W * (Gd s + 1) + (4 + (nR - N.to_nat c))
    | D11 _ _ => W * (Gd s + 1) + 2
    | D10 _ _ _ => 1
    end%nat.
  Definition mu (t : nat) (s : state) : nat := mu_pc s (th s t).

  (** head room of the 32-bit counters for B more fetch_adds *)
  Definition headroom (s : state) (B : nat) : Prop :=
    forall n, In n (g_nodes s) -> pushi s n + S * N.of_nat B < 2 ^ 32 /\ popi s n + S * N.of_nat B < 2 ^ 32.

  (** ** facts about the last node *)
  Lemma lastn_in s : InvA E s -> In (lastn s) (g_nodes s) /\ nnext s (lastn s) = 0.
  Proof using HE HM.
    intros HA. split.
    - apply last_in. destruct (nodes_nonempty E HE HM s (a_path _ _ HA)) as [x Hx]. intros Hc. rewrite Hc in Hx. destruct Hx.
    - apply MsqInv.lpath_last_null. exact (a_path _ _ HA).
  Qed.

  Lemma null_is_last s n : InvA E s -> In n (g_nodes s) -> nnext s n = 0 -> n = lastn s.
  Proof using HE HM.
    intros HA Hn Hz. destruct (MsqInv.lpath_last _ _ (a_path _ _ HA) n Hn Hz) as [l0 El]. unfold lastn. rewrite El, last_last. reflexivity.
  Qed.

  Lemma not_full_is_last s n : InvA E s -> In n (g_nodes s) -> pa s n < E -> n = lastn s.
  Proof using HE HM.
    intros HA Hn Hlt. apply null_is_last; [exact HA|exact Hn|].
    destruct (N.eq_dec (nnext s n) 0) as [e|e]; [exact e|]. pose proof (a_full _ _ HA n Hn e). lia.
  Qed.

  Lemma tail_next_last s nx : InvA E s -> nnext s (tail s) = nx -> nx <> 0 -> nx = lastn s /\ tail s <> lastn s.
  Proof using HE HM.
    intros HA Hn Hz. destruct (tail_lag E HE HM s nx (a_path _ _ HA) (a_tail _ _ HA) Hn Hz) as [l0 El].
    split.
    - unfold lastn. rewrite El. change (l0 ++ [tail s; nx]) with (l0 ++ [tail s] ++ [nx]). rewrite app_assoc, last_last. reflexivity.
    - intros Hc. destruct (lastn_in s HA) as [_ Hl]. rewrite <- Hc in Hl. congruence.
  Qed.

  Lemma Gd_eq s s' : head s' = head s -> g_nodes s' = g_nodes s -> g_retired s' = g_retired s ->
    popi s' (head s) = popi s (head s) -> Gd s' = Gd s.
  Proof using. intros H1 H2 H3 H4. unfold Gd, after_head, RamBase.pd in *. rewrite H1, H2, H3, H4. reflexivity. Qed.

  (** fetch_add on push_idx that yields a ticket: the node is the last one, one ticket less remains *)
  Lemma Gp_faa_ticket s s' t0 : InvA E s -> In t0 (g_nodes s) -> pa s t0 < E ->
    tail s' = tail s -> g_nodes s' = g_nodes s -> pushi s' = setf (pushi s) t0 (pushi s t0 + S) -> (Gp s' + 1 = Gp s)%nat.
  Proof using HE HM.
    intros HA Hin Hlt H1 H2 H3. pose proof (not_full_is_last s t0 HA Hin Hlt) as Hl.
    unfold Gp, lastn, RamBase.pa in *. rewrite H1, H2, H3. rewrite <- Hl. rewrite setf_same.
    destruct (aligned_step E HE HM _ (proj1 (a_al _ _ HA t0 Hin))) as [_ Hts]. rewrite Hts. rewrite !N.min_l by lia. lia.
  Qed.

  (** the tail is swung to its successor *)
  Lemma Gp_swing s s' nx : InvA E s -> nnext s (tail s) = nx -> nx <> 0 ->
    tail s' = nx -> g_nodes s' = g_nodes s -> pushi s' = pushi s -> (Gp s' + 1 = Gp s)%nat.
  Proof using HE HM.
    intros HA Hn Hz H1 H2 H3. destruct (tail_next_last s nx HA Hn Hz) as [Hl Hne].
    unfold Gp, lastn, RamBase.pa in *. rewrite H1, H2, H3. unfold ne.
    destruct (N.eqb_spec nx (last (g_nodes s) 0)); [|contradiction]. destruct (N.eqb_spec (tail s) (last (g_nodes s) 0)); [contradiction|]. lia.
  Qed.

  Lemma after_head_rest s rest : g_nodes s = g_retired s ++ head s :: rest -> after_head s = length rest.
  Proof using HE HM. intros He. unfold after_head. rewrite He, app_length. cbn [length]. lia. Qed.

  Lemma Gd_faa_ticket s s' h : InvA E s -> in_old s h -> pd s h < E ->
    head s' = head s -> g_nodes s' = g_nodes s -> g_retired s' = g_retired s -> popi s' = setf (popi s) h (popi s h + S) ->
    h = head s /\ (Gd s' + 1 = Gd s)%nat.
  Proof using HE HM.
    intros HA Hold Hlt H1 H2 H3 H4.
    assert (Hh : h = head s).
    { unfold in_old in Hold. apply in_app_or in Hold. destruct Hold as [Hc|[Hc|[]]]; [|symmetry; exact Hc].
      pose proof (a_ret _ _ HA h Hc). lia. }
    split; [exact Hh|]. subst h. pose proof (old_in_nodes E HE HM s _ (a_head _ _ HA) Hold) as Hin.
    unfold Gd, after_head, RamBase.pd in *. rewrite H1, H2, H3, H4. rewrite setf_same.
    destruct (aligned_step E HE HM _ (proj2 (a_al _ _ HA _ Hin))) as [_ Hts]. rewrite Hts. rewrite !N.min_l by lia. lia.
  Qed.

  (** the head is swung to its successor *)
  Lemma Gd_swing s s' nx : InvA E s -> E + 1 <= pd s (head s) -> nnext s (head s) = nx -> nx <> 0 ->
    head s' = nx -> g_nodes s' = g_nodes s -> g_retired s' = g_retired s ++ [head s] -> popi s' = popi s -> (Gd s' + 1 = Gd s)%nat.
  Proof using HE HM.
    intros HA Hcnt Hn Hz H1 H2 H3 H4. destruct (a_head _ _ HA) as (rest & He & Hr).
    pose proof (a_path _ _ HA) as Hp. rewrite He in Hp. apply MsqInv.lpath_suffix in Hp; [|discriminate].
    destruct (MsqInv.lpath_hd_next _ _ _ Hp ltac:(congruence)) as [r' Er]. rewrite Hn in Er. subst rest.
    unfold Gd, after_head, RamBase.pd in *. rewrite H1, H2, H3, H4. rewrite (Hr nx (or_introl eq_refl)), (tick_0 E HE HM).
    rewrite He, !app_length. cbn [length]. rewrite N.min_l by lia. rewrite N.min_r by lia. unfold nE. nia.
  Qed.

  Lemma step_total s t : idle s t = false -> exists s' es, step E R s (Step t) = Some (s', es).
  Proof using.
    unfold idle, step, step_gen. destruct (th s t); intros Hi; try discriminate Hi; cbv beta iota zeta;
      repeat match goal with |- context [match ?x with _ => _ end] => destruct x end; eexists; eexists; reflexivity.
  Qed.

  Lemma ne_cases a b : (a = b /\ ne a b = 0%nat) \/ (a <> b /\ ne a b = 1%nat).
  Proof using. unfold ne. destruct (N.eqb_spec a b); [left|right]; auto. Qed.
  Lemma nz_cases a : (a = 0 /\ nz a = 0%nat) \/ (a <> 0 /\ nz a = 1%nat).
  Proof using. unfold nz. destruct (N.eqb_spec a 0); [left|right]; auto. Qed.

  (* fold the jump counts of a state that differs from s in irrelevant fields, resolve the 0/1 flags, then arithmetic *)
  Ltac arith s :=
    repeat match goal with |- context [Gp ?y] => progress change (Gp y) with (Gp s) end;
    repeat match goal with |- context [Gd ?y] => progress change (Gd y) with (Gd s) end;
    repeat match goal with |- context [ne ?a ?b] => let e := fresh "e" in let e' := fresh "e" in destruct (ne_cases a b) as [[e e']|[e e']]; rewrite e' in * end;
    repeat match goal with |- context [nz ?a] => let e := fresh "e" in let e' := fresh "e" in destruct (nz_cases a) as [[e e']|[e e']]; rewrite e' in * end;
    unfold W, nE, nR in *; nia.

  (** a solo step is wrap free if there is head room for one fetch_add, and the measure decreases *)
  Lemma solo_mu s t s' es : reachable s -> g_ovf s = false -> headroom s 1 ->
    step E R s (Step t) = Some (s', es) -> g_ovf s' = false /\ (mu t s' < mu t s)%nat.
  Proof using HE HM.
    intros Hr Ho Hh H. pose proof (IA s Hr Ho) as HA. pose proof (a_thr _ _ HA t) as Hta.
    pose proof (fun h => old_in_nodes E HE HM s h (a_head _ _ HA)) as Hio.
    assert (Hroom : forall n, In n (g_nodes s) -> pushi s n + S < 2 ^ 32 /\ popi s n + S < 2 ^ 32).
    { intros n Hn. destruct (Hh n Hn). lia. }
    destruct (step_inv E R s _ s' es H) as (t' & u & p' & Hs & -> & [[Ht Hni]|[o [Ht _]]]); [injection Ht as <-|discriminate Ht].
    unfold mu; prj. rewrite upd_same. change (mu_pc (w_th u (upd (th s) t p')) p') with (mu_pc u p').
    remember (th s t) as p eqn:Hpc. destruct Hs as [p u p' Hq| | | | | | |]; cbn [TA] in Hta.
    (* the steps that end an operation or an iteration *)
    4-8: split; [exact Ho|]; cbn [mu_pc]; arith s.
    - (* no ticket handed out: the jump counts change only when _tail or _head is swung *)
      assert (Hov : g_ovf u = false).
      { destruct Hq; prj; try exact Ho; cbn [TA] in Hta;
          [destruct (faa_small E s _ (proj1 (Hroom tl Hta))) as [_ ->]|destruct (faa_small E s _ (proj2 (Hroom h (Hio h Hta)))) as [_ ->]]; exact Ho. }
      split; [exact Hov|]. destruct (qstep_quiet E R HE HM s p u p' HA Hta Hq Hov) as [[Hn _ _ _ _ _] _ _ Hc].
      destruct (lastn_in s HA) as [Hl _]. unfold lastn in Hl.
      assert (HGp : tail u = tail s -> Gp u = Gp s).
      { intros Ht. unfold Gp, lastn. rewrite Ht, Hn, (proj1 (Hc _ Hl)). reflexivity. }
      assert (HGd : head u = head s -> g_retired u = g_retired s -> Gd u = Gd s).
      { intros Hhd Hrt. unfold Gd, after_head. rewrite Hhd, Hn, Hrt, (proj2 (Hc _ (Hio _ (head_in_old E HE HM s)))). reflexivity. }
      destruct Hq as [p p' Hm| | | | |p tl nx p' Hsw| | | |]; cbn [TA mu_pc] in *; try rewrite (HGp eq_refl); try rewrite (HGd eq_refl eq_refl); prj;
        clear HGp HGd Hc Hn Hl Hroom Hh Hio.
      + (* loads and failed CASes *) destruct Hm; [congruence|..]; cbn [mu_pc]; arith s.
      + arith s.
      + arith s.
      + (* P4 *) pose proof (a_lt _ _ HA _ (proj1 Hta)). rewrite setf_other, H0 by lia. arith s.
      + (* P5 *) destruct (N.ltb_spec (i + 1) E); cbn [mu_pc]; prj; arith s.
      + (* swing *) destruct Hsw; rewrite <- H0 in *; cbn [TA mu_pc] in *; prj; try arith s.
        pose proof (Gp_swing s (w_tail s nx) nx HA (proj1 (proj2 Hta)) (proj2 (proj2 Hta)) eq_refl eq_refl eq_refl). arith s.
      + arith s.
      + arith s.
      + (* D7 *) subst h. pose proof (Gd_swing s (w_retired (w_head s nx) (g_retired s ++ [head s])) nx HA ltac:(tauto) ltac:(tauto) ltac:(tauto) eq_refl eq_refl eq_refl eq_refl). arith s.
      + arith s.
    - (* P2, a ticket *) destruct (a_al _ _ HA tl Hta) as [A1 _]. apply N.lt_nge in H0. rewrite (maxi_le E HE HM _ A1) in H0.
      destruct (faa_small E s _ (proj1 (Hroom tl Hta))) as [Hw Hf]. prj. rewrite Hw, Hf. split; [exact Ho|]. cbn [mu_pc]; prj.
      match goal with |- context [Gp ?y] => pose proof (Gp_faa_ticket s y tl HA Hta ltac:(unfold RamBase.pa; lia) eq_refl eq_refl eq_refl) end. arith s.
    - (* D5, a ticket *) pose proof (Hio h Hta) as Hin. destruct (a_al _ _ HA h Hin) as [_ A1]. apply N.lt_nge in H0. rewrite (maxi_le E HE HM _ A1) in H0.
      destruct (faa_small E s _ (proj2 (Hroom h Hin))) as [Hw Hf]. prj. rewrite Hw, Hf. split; [exact Ho|]. cbn [mu_pc]; prj.
      match goal with |- context [Gd ?y] => destruct (Gd_faa_ticket s y h HA Hta ltac:(unfold RamBase.pd; lia) eq_refl eq_refl eq_refl eq_refl) end. arith s.
  Qed.

  (** a wrap-free step uses up head room for at most one fetch_add *)
  Lemma headroom_step s t s' es B : InvA E s -> step E R s (Step t) = Some (s', es) -> g_ovf s' = false ->
    headroom s (Datatypes.S B) -> headroom s' B.
  Proof using HE HM.
    intros HA H Hov Hh. pose proof (a_thr _ _ HA t) as Hta.
    destruct (step_inv E R s _ s' es H) as (t' & u & p' & Hs & -> & [[Ht Hni]|[o [Ht _]]]); [injection Ht as <-|discriminate Ht].
    pose proof (tstep_ext E R HE HM s _ u p' HA Hta Hs Hov) as Hext.
    assert (Hd : S * N.of_nat (Datatypes.S B) = S * N.of_nat B + S) by lia.
    set (s' := w_th u (upd (th s) t p')) in *.
    assert (Hold : forall n, In n (g_nodes s) -> pushi s' n + S * N.of_nat B < 2 ^ 32 /\ popi s' n + S * N.of_nat B < 2 ^ 32).
    { intros n Hn. destruct (Hh n Hn). subst s'; prj. destruct (e_cnt E s u Hext n Hn) as ([e|e] & [e'|e'] & _); rewrite e, e'; lia. }
    intros m Hm. subst s'. prj_in Hm. tcases Hs; try exact (Hold m Hm).
    (* the linked node *) prj_in Hm. apply in_app_or in Hm. destruct Hm as [Hm|[<-|[]]]; [exact (Hold m Hm)|].
    cbn [TA] in Hta. destruct Hta as (T1 & _ & _ & _ & T5 & T6 & _). destruct (Hh _ T1) as [H1 _]. prj. rewrite T5, T6. rewrite Hd in H1.
    pose proof (SS_pos E HE HM) as Hp. clear - H1 Hp. split; lia.
  Qed.

  (** ** The solo run *)
  Definition PS (t : nat) (s : state) : Prop := reachable s /\ g_ovf s = false /\ headroom s (mu t s).

  Lemma headroom_mono s B B' : (B' <= B)%nat -> headroom s B -> headroom s B'.
  Proof using HE HM.
    intros Hle Hh n Hn. destruct (Hh n Hn) as [H1 H2].
    assert (S * N.of_nat B' <= S * N.of_nat B) by (apply N.mul_le_mono_l; lia). split; lia.
  Qed.

  Lemma solo_step t s : PS t s -> idle s t = false ->
    exists s' es, step E R s (Step t) = Some (s', es) /\ PS t s' /\ (mu t s' < mu t s)%nat.
  Proof using HE HM.
    intros (Hr & Ho & Hh) Hi. destruct (step_total s t Hi) as (s' & es & Hst). exists s', es. split; [exact Hst|].
    assert (Hpos : (1 <= mu t s)%nat).
    { unfold idle in Hi. unfold mu. destruct (th s t); try discriminate Hi; cbn [mu_pc]; unfold W; try destruct o; lia. }
    destruct (solo_mu s t s' es Hr Ho (headroom_mono _ _ _ Hpos Hh) Hst) as [Ho' Hlt].
    split; [|exact Hlt]. split; [eapply reach_step; eauto|]. split; [exact Ho'|].
    apply (headroom_step s t s' es _ (IA s Hr Ho) Hst Ho'). apply (headroom_mono s (mu t s)); [lia|exact Hh].
  Qed.

  (** SOLO TERMINATION: from every reachable wrap-free state with head room, thread t finishes its
      operation within [mu t s] of its own steps *)
  Theorem ram_solo t s : reachable s -> g_ovf s = false -> headroom s (mu t s) ->
    finishes_within (step E R) Step idle t (mu t s) s.
  Proof using HE HM.
    intros Hr Ho Hh. apply (finishes_by_measure _ _ _ (step E R) Step idle (PS t) (mu t) t).
    - intros s0 HP Hi. destruct (solo_step t s0 HP Hi) as (s' & es & H1 & H2 & H3). exists s', es. auto.
    - split; [exact Hr|split; [exact Ho|exact Hh]].
  Qed.

  (** the bounds: push in terms of E (and R through the common loop weight W = E + R + 14),
      pop in terms of E, R and the number of nodes from head on *)
  Lemma Gp_le s : (Gp s <= nE + 1)%nat.
  Proof using HE HM. unfold Gp, ne, nE. destruct (_ =? _); lia. Qed.

  Lemma Gd_le s : (Gd s <= (nE + 1) * (after_head s + 1))%nat.
  Proof using HE HM. unfold Gd, nE. nia. Qed.

  Definition is_push (p : pc) : bool :=
    match p with Begin (OPush _) | P1 _ | P2 _ _ | P3 _ _ | P4 _ _ | P5 _ _ _ _ | P6 _ _ _ | P7 _ _ | P6a _ _ | P6b _ _ | P6c _ _
               | P9 _ _ | P10 _ _ _ | P8 _ _ _ => true | _ => false end.

  Definition push_bound : nat := (W * (nE + 3))%nat.
  Definition pop_bound (s : state) : nat := (W * ((nE + 1) * (after_head s + 1) + 2))%nat.

  Lemma mu_push_le t s : is_push (th s t) = true -> (mu t s <= push_bound)%nat.
  Proof using HE HM.
    unfold mu, push_bound. pose proof (Gp_le s) as Hg. destruct (th s t) as [|o| | | | | | | | | | | | | | | | | | | | | | | |]; try destruct o; cbn [is_push mu_pc]; intros Hp; try discriminate Hp;
      repeat match goal with |- context [ne ?a ?b] => destruct (ne_cases a b) as [[_ e]|[_ e]]; rewrite e end;
      repeat match goal with |- context [nz ?a] => destruct (nz_cases a) as [[_ e]|[_ e]]; rewrite e end;
      unfold W, nE, nR in *; nia.
  Qed.

  Lemma mu_pop_le t s : is_push (th s t) = false -> (mu t s <= pop_bound s)%nat.
  Proof using HE HM.
    unfold mu, pop_bound. pose proof (Gd_le s) as Hg. destruct (th s t) as [|o| | | | | | | | | | | | | | | | | | | | | | | |]; try destruct o; cbn [is_push mu_pc]; intros Hp; try discriminate Hp;
      repeat match goal with |- context [ne ?a ?b] => destruct (ne_cases a b) as [[_ e]|[_ e]]; rewrite e end;
      unfold W, nE, nR in *; nia.
  Qed.

  (** C16, push: any push in progress (or just started) finishes solo within (E+R+14)*(E+3) steps *)
  Theorem ram_solo_push t s : reachable s -> g_ovf s = false -> is_push (th s t) = true -> headroom s push_bound ->
    finishes_within (step E R) Step idle t push_bound s.
  Proof using HE HM.
    intros Hr Ho Hp Hh. apply (finishes_within_mono _ _ _ (step E R) Step idle t (mu t s)); [apply mu_push_le; exact Hp|].
    apply ram_solo; try assumption. apply (headroom_mono s push_bound); [apply mu_push_le; exact Hp|exact Hh].
  Qed.

  (** C16, pop: any pop in progress finishes solo within (E+R+14)*((E+1)*(nodes from head on)+2) steps *)
  Theorem ram_solo_pop t s : reachable s -> g_ovf s = false -> is_push (th s t) = false -> headroom s (pop_bound s) ->
    finishes_within (step E R) Step idle t (pop_bound s) s.
  Proof using HE HM.
    intros Hr Ho Hp Hh. apply (finishes_within_mono _ _ _ (step E R) Step idle t (mu t s)); [apply mu_pop_le; exact Hp|].
    apply ram_solo; try assumption. apply (headroom_mono s (pop_bound s)); [apply mu_pop_le; exact Hp|exact Hh].
  Qed.
End RamSolo.
