(** The flush of the generalised epoch based reclamation model (Model/GebrDefs.v), the liveness half of C02 as a bounded
    solo run, for every configuration with scan::all_threads (any scan frequency F, any abandon strategy, any region
    extension - epoch_based, new_epoch_based, EBR0, GEBR_lazy, GEBR_aband, GEBR_thresh, GEBR_t0, EBR100): a thread that
    enters critical regions again and again (the repl operation of the harness' teardown) frees, within 3 F + 4 operations,
    every node that sits in an orphan list or in one of its own retire lists, provided no thread is inside a critical
    region ([gebr_no_leak_at_quiescence_all_threads]).  3 F + 4 = one operation to catch up with the global epoch, then
    three times (F operations without scan, one with a scan that advances the epoch).  The proof executes the model
    symbolically, one lemma per atomic step ([st_*]), one per phase ([ph_*]: enter - by cases on the region extension -,
    scan - by induction over the thread block list -, advance, update, finish, abandon - by induction over the retire lists),
    one per kind of operation ([op_update], [op_noscan], [op_advance], all ending in [op_tail]; [round] is the case split),
    and composes ([flush_all]).  With scan::n_threads<N> / one_thread the number of operations also
    depends on the number L of thread control blocks (1 + 3 (F + 1) ceil(L / N)): Proof/GebrFlushN.v, which reuses the phases of
    this file (everything before [Section AllThreads] holds for every configuration).
    No axioms. *)
From Coq Require Import NArith List Bool Arith Lia PeanoNat Setoid.
From XV Require Import Conc.Lts Conc.Ev Conc.Solo Model.GebrDefs Proof.GebrBase Proof.GebrShape Proof.GebrOwn Proof.GebrEpoch Proof.GebrNodes Proof.GebrTags Proof.GebrGuards.
Import ListNotations.
Local Open Scope N_scope.

Definition idle (s : state) (t : nat) : bool := match th s t with Idle => true | _ => false end.

Ltac sst L :=
  eapply solo_S; [ unfold idle; prj; rewrite ?upd_same; try match goal with H : th ?s ?t = _ |- context [th ?s ?t] => rewrite H end; reflexivity
                 | eapply L; prj; rewrite ?upd_same; prj; try eassumption; try reflexivity
                 | ].

Section Flush.
Variables (cfg : config) (ns : nat) (nc : N) (t : nat) (c : N).
Notation K := (KRepl c true).
Notation F := (scan_freq cfg).
Notation KF := (LFin r_ok None).

(** the individual steps of the solo run *)
Ltac stp := unfold step; cbv zeta;
  repeat match goal with H : th _ _ = _ |- _ => rewrite H end;
  repeat match goal with H : cb _ = _ |- _ => rewrite H end; cbn [cell_of opcode fst snd].

Lemma st_begin s : th s t = Begin (ORepl c) -> step cfg ns s (Step t) = Some (set_pc t (A1 K) s, [EStart t 0 [c]]).
Proof. intros H. stp. reflexivity. Qed.

Lemma st_A1 s n0 b : th s t = A1 K -> cells s c = Some n0 -> cb (tl s t) = Some b -> needs_init cfg (tl s t) = false ->
  step cfg ns s (Step t) =
  Some (set_pc t (if eager_first cfg (tl s t) then E1 (KAcq K) else crit_pc cfg K (S (nest (tl s t))))
          (set_tl t (enter_tls cfg (KAcq K) (tl s t)) s), [ELoad t (L_cell c) mo_rlx (vptr (Some n0))]).
Proof.
  intros H H1 H2 H3. stp. rewrite H1. unfold enter. rewrite H3, H2. unfold region_entered, crit_enter.
  destruct (eager_first cfg (tl s t)); [reflexivity|]. prj. rewrite upd_same. prj. reflexivity.
Qed.

Lemma st_E0 s a b : th s t = E0 a -> cb (tl s t) = Some b ->
  step cfg ns s (Step t) = Some (set_pc t (if bflag s b then E3 a else E1 (KAcq a)) s, [ELoad t (L_bflag b) mo_rlx (vbool (bflag s b))]).
Proof. intros H H1. stp. reflexivity. Qed.

Lemma st_E1 s k b : th s t = E1 k -> cb (tl s t) = Some b ->
  step cfg ns s (Step t) = Some (set_pc t (E2 k) (w_bflag (updN (bflag s) b true) s), [EStore t (L_bflag b) mo_rlx (VInt 1)]).
Proof. intros H H1. stp. reflexivity. Qed.

Lemma st_E2e s a : th s t = E2 (KAcq a) -> is_eager cfg = true ->
  step cfg ns s (Step t) = Some (set_pc t (crit_pc cfg a (nest (tl s t))) s, [EFence t mo_sc]).
Proof. intros H H1. stp. rewrite H1. reflexivity. Qed.

Lemma st_E2n s a : th s t = E2 (KAcq a) -> is_eager cfg = false ->
  step cfg ns s (Step t) = Some (set_pc t (E3 a) s, [EFence t mo_sc]).
Proof. intros H H1. stp. rewrite H1. reflexivity. Qed.

Lemma st_E3 s a : th s t = E3 a -> step cfg ns s (Step t) = Some (set_pc t (E4 a (gep s)) s, [ELoad t L_gep mo_acq (VInt (gep s))]).
Proof. intros H. stp. reflexivity. Qed.

Lemma st_E4a s b e : th s t = E4 K e -> cb (tl s t) = Some b -> blocal s b <> e ->
  step cfg ns s (Step t) = Some (set_pc t (U1 K e) (set_tl t (wt_ces O (tl s t)) s), [ELoad t (L_blocal b) mo_rlx (VInt (blocal s b))]).
Proof. intros H H1 H2. stp. destruct (N.eqb_spec (blocal s b) e); [contradiction|]. reflexivity. Qed.

Lemma st_E4b s b e : th s t = E4 K e -> cb (tl s t) = Some b -> blocal s b = e -> ces (tl s t) <> F ->
  step cfg ns s (Step t) = Some (set_pc t (A2 K) (set_tl t (wt_sync true (wt_ces (S (ces (tl s t))) (tl s t))) s), [ELoad t (L_blocal b) mo_rlx (VInt (blocal s b))]).
Proof. intros H H1 H2 H3. stp. rewrite H2, N.eqb_refl. cbn [negb]. destruct (Nat.eqb_spec (ces (tl s t)) F); [contradiction|]. reflexivity. Qed.

Lemma st_E4c s b e : th s t = E4 K e -> cb (tl s t) = Some b -> blocal s b = e -> ces (tl s t) = F ->
  step cfg ns s (Step t) = Some (set_pc t (scan_start cfg K e) (set_tl t (wt_sync true (wt_ces O (tl s t))) s), [ELoad t (L_blocal b) mo_rlx (VInt (blocal s b))]).
Proof. intros H H1 H2 H3. stp. rewrite H2, N.eqb_refl, H3, Nat.eqb_refl. cbn [negb]. reflexivity. Qed.

Lemma st_G1 s e : th s t = G1 K e -> gep s = e ->
  step cfg ns s (Step t) = Some (set_pc t (G2 K e) s, [ELoad t L_gep mo_rlx (VInt (gep s))]).
Proof. intros H H1. stp. rewrite H1, N.eqb_refl. reflexivity. Qed.

Lemma st_G2 s e : th s t = G2 K e -> step cfg ns s (Step t) = Some (set_pc t (G3 K e) s, [EFence t mo_acq]).
Proof. intros H. stp. reflexivity. Qed.

Lemma st_G3 s e : th s t = G3 K e ->
  step cfg ns s (Step t) = Some (set_pc t (if is_nil (orph s ((e + 1) mod 3)) then G5 K e [] else G4 K e) s,
                             [ELoad t (L_orph ((e + 1) mod 3)) mo_rlx (vptr (hd_opt (orph s ((e + 1) mod 3))))]).
Proof. intros H. stp. destruct (is_nil _); reflexivity. Qed.

Lemma st_G4 s e : th s t = G4 K e ->
  step cfg ns s (Step t) = Some (set_pc t (G5 K e (orph s ((e + 1) mod 3)))
      (move_all (orph s ((e + 1) mod 3)) (PFlight t) (w_orph (updN (orph s) ((e + 1) mod 3) []) s)),
      [ERmw t (L_orph ((e + 1) mod 3)) mo_acq (vptr (hd_opt (orph s ((e + 1) mod 3)))) (VInt 0)]).
Proof. intros H. stp. reflexivity. Qed.

Lemma st_G5 s e l : th s t = G5 K e l -> gep s = e ->
  step cfg ns s (Step t) = Some (set_pc t (U1 K (e + 1)) (free_all l (w_gep (e + 1) s)), ERmw t L_gep mo_rel (VInt e) (VInt (e + 1)) :: free_evs t l).
Proof. intros H H1. stp. rewrite H1, N.eqb_refl. reflexivity. Qed.

Lemma st_U1 s b new : th s t = U1 K new -> cb (tl s t) = Some b ->
  step cfg ns s (Step t) = Some (set_pc t (U2 K new (blocal s b)) s, [ELoad t (L_blocal b) mo_rlx (VInt (blocal s b))]).
Proof. intros H H1. stp. reflexivity. Qed.

Lemma st_U2 s b new old : th s t = U2 K new old -> cb (tl s t) = Some b ->
  step cfg ns s (Step t) =
  Some (set_pc t (u2_pc cfg K)
          (set_tl t (wt_sync true (wt_lidx (if is_nil (uslots new old) then lidx (tl s t) else new mod 3)
                       (wt_rl (fun i => if memN i (uslots new old) then [] else rl (tl s t) i) (tl s t))))
             (free_all (flat_map (rl (tl s t)) (uslots new old)) (w_blocal (updN (blocal s) b new) s))),
        EStore t (L_blocal b) mo_rlx (VInt new) :: free_evs t (flat_map (rl (tl s t)) (uslots new old))).
Proof. intros H H1. stp. reflexivity. Qed.

Lemma st_S1 s e : th s t = S1 K e ->
  step cfg ns s (Step t) = Some (set_pc t (if is_nil (blist s) then G1 K e else S2 K e O) (set_tl t (wt_sit (blist s) (tl s t)) s),
                             [ELoad t L_head mo_acq (vptr (hd_opt (blist s)))]).
Proof. intros H. stp. reflexivity. Qed.

Lemma st_S2f s e i p l : th s t = S2 K e i -> sit (tl s t) = p :: l -> bflag s p = false ->
  step cfg ns s (Step t) = Some (set_pc t (pass_pc cfg K e i l) (set_tl t (wt_sit l (tl s t)) s),
                             [ELoad t (L_bflag p) mo_rlx (vbool false)]).
Proof. intros H H0 H1. stp. rewrite H0, H1. unfold scan_pass. rewrite H0. cbn [List.tl]. reflexivity. Qed.

Lemma st_S2t s e i p l : th s t = S2 K e i -> sit (tl s t) = p :: l -> bflag s p = true ->
  step cfg ns s (Step t) = Some (set_pc t (S3 K e i) s, [ELoad t (L_bflag p) mo_rlx (vbool true)]).
Proof. intros H H0 H1. stp. rewrite H0, H1. reflexivity. Qed.

Lemma st_S3 s e i p l : th s t = S3 K e i -> sit (tl s t) = p :: l -> blocal s p = e ->
  step cfg ns s (Step t) = Some (set_pc t (pass_pc cfg K e i l) (set_tl t (wt_sit l (tl s t)) s),
                             [ELoad t (L_blocal p) mo_rlx (VInt (blocal s p))]).
Proof. intros H H0 H1. stp. rewrite H0, H1, N.eqb_refl. unfold scan_pass. rewrite H0. cbn [List.tl]. reflexivity. Qed.

Lemma st_U3 s a : th s t = U3 a ->
  step cfg ns s (Step t) = Some (set_pc t (A2 a) (set_tl t (wt_sit (blist s) (tl s t)) s), [ELoad t L_head mo_acq (vptr (hd_opt (blist s)))]).
Proof. intros H. stp. reflexivity. Qed.

Lemma st_A2 s n0 : th s t = A2 K -> cells s c = Some n0 ->
  step cfg ns s (Step t) =
  Some (set_pc t (R3 c (Some n0) (Some (nalloc s)))
          (w_nalloc (nalloc s + 1) (w_nextid (nextid s + 1) (w_nid (updN (nid s) (nalloc s) (nextid s))
             (w_g_life (updN (g_life s) (nalloc s) (LFresh t)) s)))),
        [ELoad t (L_cell c) mo_acq (vptr (Some n0))] ++ [EAlloc t (nalloc s) node_size]).
Proof. intros H H1. stp. rewrite H1. unfold to_cas. reflexivity. Qed.

Definition ssteps (n : nat) (s s' : state) : Prop := solo_steps (step cfg ns) Step idle t n s s'.


Notation reachable := (reach (init nc) (step cfg ns)).

Lemma ssteps_reach n s s' : ssteps n s s' -> reachable s -> reachable s'.
Proof. induction 1 as [|n s s1 es s' Hi Hst Hs IH]; intros Hr; [exact Hr|]. apply IH. eapply reach_step; eauto. Qed.

Lemma ssteps_app n m s s1 s2 : ssteps n s s1 -> ssteps m s1 s2 -> ssteps (n + m) s s2.
Proof. apply solo_steps_app. Qed.

(** start of the operation up to the load of the global epoch in do_enter_critical, for every region extension *)
Lemma crit_pc_1 a : crit_pc cfg a 1 = match rext cfg with RNone => E1 (KAcq a) | REager => E3 a | RLazy => E0 a end.
Proof. reflexivity. Qed.

Lemma ph_enter s b n0 : th s t = Idle -> cb (tl s t) = Some b -> nest (tl s t) = O -> rent (tl s t) = O -> bflag s b = false ->
  cells s c = Some n0 -> needs_init cfg (tl s t) = false ->
  exists s1 n s', step cfg ns s (Start t (ORepl c)) = Some (s1, []) /\ ssteps n s1 s' /\
    th s' t = E4 K (gep s) /\ tl s' t = enter_tls cfg (KAcq K) (tl s t) /\ bflag s' = updN (bflag s) b true /\
    gep s' = gep s /\ blist s' = blist s /\ blocal s' = blocal s /\ cells s' = cells s /\ g_where s' = g_where s.
Proof.
  intros H H1 H2 H2r H3 H4 Hni.
  assert (Hst : step cfg ns s (Start t (ORepl c)) = Some (set_pc t (Begin (ORepl c)) s, [])) by (unfold step; rewrite H; reflexivity).
  destruct (rext cfg) eqn:Er.
  - (* none: E1 E2 E3 *)
    assert (Hef : eager_first cfg (tl s t) = false) by (unfold eager_first; rewrite Er; reflexivity).
    assert (Hne : is_eager cfg = false) by (unfold is_eager; rewrite Er; reflexivity).
    eexists _, _, _. split; [exact Hst|]. split.
    + unfold ssteps. sst st_begin. sst st_A1. prj. rewrite Hef, H2, crit_pc_1, Er. sst st_E1. sst st_E2n. sst st_E3. apply solo_O.
    + prj. rewrite !upd_same. prj. repeat split; reflexivity.
  - (* eager: the first region entry sets the flag *)
    assert (Hef : eager_first cfg (tl s t) = true) by (unfold eager_first; rewrite Er, H2r; reflexivity).
    assert (Hne : is_eager cfg = true) by (unfold is_eager; rewrite Er; reflexivity).
    eexists _, _, _. split; [exact Hst|]. split.
    + unfold ssteps. sst st_begin. sst st_A1. prj. rewrite Hef. sst st_E1. sst st_E2e.
      prj. rewrite ?upd_same. prj. rewrite H2. cbn [nest_of]. rewrite crit_pc_1, Er. sst st_E3. apply solo_O.
    + prj. rewrite !upd_same. prj. repeat split; reflexivity.
  - (* lazy: the flag is looked at first *)
    assert (Hef : eager_first cfg (tl s t) = false) by (unfold eager_first; rewrite Er; reflexivity).
    assert (Hne : is_eager cfg = false) by (unfold is_eager; rewrite Er; reflexivity).
    eexists _, _, _. split; [exact Hst|]. split.
    + unfold ssteps. sst st_begin. sst st_A1. prj. rewrite Hef, H2, crit_pc_1, Er. sst st_E0. prj. rewrite H3. sst st_E1. sst st_E2n. sst st_E3. apply solo_O.
    + prj. rewrite !upd_same. prj. repeat split; reflexivity.
Qed.

(** what a phase leaves alone *)
Definition Same (s s' : state) : Prop :=
  gep s' = gep s /\ blist s' = blist s /\ bflag s' = bflag s /\ blocal s' = blocal s /\ cells s' = cells s /\ g_where s' = g_where s.

(** update_global_epoch(e, e+1): the orphans of slot (e+1) mod 3 are adopted and, the CAS succeeding, freed *)
Lemma ph_adv s e : th s t = G1 K e -> gep s = e ->
  exists n s', ssteps n s s' /\ th s' t = U1 K (e + 1) /\ gep s' = e + 1 /\ tl s' t = tl s t /\
    blist s' = blist s /\ bflag s' = bflag s /\ blocal s' = blocal s /\ cells s' = cells s /\
    (forall n, g_where s' n = if memN n (orph s ((e + 1) mod 3)) then PFreed else g_where s n).
Proof.
  intros Hpc Hg. destruct (is_nil (orph s ((e + 1) mod 3))) eqn:En.
  - apply is_nil_true in En. eexists _, _. split.
    + unfold ssteps. sst st_G1. sst st_G2. sst st_G3. prj. rewrite En. cbn [is_nil]. sst st_G5. apply solo_O.
    + prj. rewrite !upd_same. prj. repeat split; try reflexivity.
      intros n. rewrite En. reflexivity.
  - eexists _, _. split.
    + unfold ssteps. sst st_G1. sst st_G2. sst st_G3. prj. rewrite En. sst st_G4. sst st_G5. apply solo_O.
    + prj. rewrite !upd_same. prj. repeat split; try reflexivity.
      intros n; destruct (memN n (orph s ((e + 1) mod 3))); reflexivity.
Qed.

(** update_local_epoch(new) *)
Lemma ph_upd s b new : th s t = U1 K new -> cb (tl s t) = Some b ->
  exists s', ssteps 2 s s' /\ th s' t = u2_pc cfg K /\
    tl s' t = wt_sync true (wt_lidx (if is_nil (uslots new (blocal s b)) then lidx (tl s t) else new mod 3)
                (wt_rl (fun i => if memN i (uslots new (blocal s b)) then [] else rl (tl s t) i) (tl s t))) /\
    gep s' = gep s /\ blist s' = blist s /\ bflag s' = bflag s /\ blocal s' = updN (blocal s) b new /\ cells s' = cells s /\
    (forall n, g_where s' n = if memN n (flat_map (rl (tl s t)) (uslots new (blocal s b))) then PFreed else g_where s n).
Proof.
  intros Hpc Hcb. eexists. split.
  - unfold ssteps. sst st_U1. sst st_U2. apply solo_O.
  - prj. rewrite !upd_same. prj. repeat split; reflexivity.
Qed.

(** the rest of repl: second load of the cell, new node, CAS, retire, leave_critical up to clear_critical_region_flag *)
Lemma leave_last_one x : nest x = 1%nat -> rent x = rent_inc cfg 0 -> leave_last cfg x = true.
Proof. unfold leave_last, rent_inc. intros -> ->. destruct (rext cfg); reflexivity. Qed.

Lemma st_R3 s n0 n1 b : th s t = R3 c (Some n0) (Some n1) -> cells s c = Some n0 -> cb (tl s t) = Some b ->
  nest (tl s t) = 1%nat -> rent (tl s t) = rent_inc cfg 0 ->
  exists s', step cfg ns s (Step t) = Some (s', [ERmw t (L_cell c) mo_acqrel (vptr (Some n0)) (vptr (Some n1))]) /\
    th s' t = LV KF /\ tl s' t = leave_tls cfg (wt_rl (updN (rl (tl s t)) (lidx (tl s t)) (n0 :: rl (tl s t) (lidx (tl s t)))) (tl s t)) /\
    gep s' = gep s /\ blist s' = blist s /\ bflag s' = bflag s /\ blocal s' = blocal s /\
    cells s' c = Some n1 /\ g_where s' = updN (g_where s) n0 (PList t (lidx (tl s t))).
Proof.
  intros H H1 H2 H3 H4. eexists. split.
  - stp. rewrite H1. cbn [oeqb]. rewrite N.eqb_refl. unfold leave. prj. rewrite upd_same.
    rewrite leave_last_one by (prj; assumption). reflexivity.
  - prj. rewrite !upd_same. prj. repeat split; try reflexivity. apply updN_same.
Qed.

Lemma ph_fin s b n0 : th s t = A2 K -> cells s c = Some n0 -> cb (tl s t) = Some b -> nest (tl s t) = 1%nat -> rent (tl s t) = rent_inc cfg 0 ->
  exists s', ssteps 2 s s' /\ th s' t = LV KF /\
    tl s' t = leave_tls cfg (wt_rl (updN (rl (tl s t)) (lidx (tl s t)) (n0 :: rl (tl s t) (lidx (tl s t)))) (tl s t)) /\
    gep s' = gep s /\ blist s' = blist s /\ bflag s' = bflag s /\ blocal s' = blocal s /\
    cells s' c = Some (nalloc s) /\ g_where s' = updN (g_where s) n0 (PList t (lidx (tl s t))).
Proof.
  intros Hpc Hc Hcb Hn Hr.
  destruct (st_R3 (set_pc t (R3 c (Some n0) (Some (nalloc s)))
          (w_nalloc (nalloc s + 1) (w_nextid (nextid s + 1) (w_nid (updN (nid s) (nalloc s) (nextid s))
             (w_g_life (updN (g_life s) (nalloc s) (LFresh t)) s))))) n0 (nalloc s) b) as (s2 & Hst & H1 & H2 & H3 & H4 & H5 & H6 & H7 & H8).
  { prj. apply upd_same. } { exact Hc. } { exact Hcb. } { exact Hn. } { exact Hr. }
  prj_in H2. prj_in H3. prj_in H4. prj_in H5. prj_in H6. prj_in H8.
  exists s2. split.
  - unfold ssteps. sst st_A2.
    eapply solo_S; [unfold idle; prj; rewrite upd_same; reflexivity | exact Hst |]. apply solo_O.
  - repeat split; assumption.
Qed.

(** clear_critical_region_flag: the flag, then the abandon strategy applied to the three retire lists *)
Lemma bnext_ge a r i j : bnext a r i = Some j -> i <= j /\ j < 3.
Proof.
  unfold bnext. destruct (N.leb_spec i 0); cbn [andb]; [destruct (ab_need a (r 0)); [intros X; injection X as <-; lia|]|];
  (destruct (N.leb_spec i 1); cbn [andb]; [destruct (ab_need a (r 1)); [intros X; injection X as <-; lia|]|]);
  (destruct (N.leb_spec i 2); cbn [andb]; [destruct (ab_need a (r 2)); [intros X; injection X as <-; lia|]|]); discriminate.
Qed.

(** what the abandon loop leaves alone: it moves nodes of the thread's retire lists to the orphan lists *)
Definition AbRel (s s' : state) : Prop :=
  cb (tl s' t) = cb (tl s t) /\ nest (tl s' t) = nest (tl s t) /\ rent (tl s' t) = rent (tl s t) /\ rg (tl s' t) = rg (tl s t) /\
  ces (tl s' t) = ces (tl s t) /\ sit (tl s' t) = sit (tl s t) /\ gep s' = gep s /\ blist s' = blist s /\ bflag s' = bflag s /\ blocal s' = blocal s /\ cells s' = cells s /\
  (forall n, g_where s' n = g_where s n \/ exists j, g_where s n = PList t j /\ g_where s' n = POrph j).

Lemma AbRel_refl s : AbRel s s.
Proof. repeat split; auto. Qed.
Lemma AbRel_trans s1 s2 s3 : AbRel s1 s2 -> AbRel s2 s3 -> AbRel s1 s3.
Proof.
  intros (A1 & A2 & A3 & A4 & A5 & A5' & A6 & A7 & A8 & A9 & A10 & A11) (B1 & B2 & B3 & B4 & B5 & B5' & B6 & B7 & B8 & B9 & B10 & B11).
  repeat split; try congruence.
  intros n. destruct (A11 n) as [X|(j & X1 & X2)]; destruct (B11 n) as [Y|(j' & Y1 & Y2)].
  - left. congruence.
  - right. exists j'. split; congruence.
  - right. exists j. split; congruence.
  - congruence.
Qed.

Lemma st_B1 s k i : th s t = B1 k i ->
  step cfg ns s (Step t) = Some (set_pc t (B2 k i (hd_opt (orph s i))) s, [ELoad t (L_orph i) mo_rlx (vptr (hd_opt (orph s i)))]).
Proof. intros H. stp. reflexivity. Qed.

Lemma st_B2 s i : th s t = B2 KF i (hd_opt (orph s i)) -> (forall n, In n (rl (tl s t) i) -> g_where s n = PList t i) ->
  exists s' es, step cfg ns s (Step t) = Some (s', es) /\
    (th s' t = Idle \/ exists j, th s' t = B1 KF j /\ i + 1 <= j /\ j < 3) /\ AbRel s s'.
Proof.
  intros H Hl.
  assert (Hw : forall n, (if memN n (rl (tl s t) i) then POrph i else g_where s n) = g_where s n \/
                         exists j, g_where s n = PList t j /\ (if memN n (rl (tl s t) i) then POrph i else g_where s n) = POrph j).
  { intros n. destruct (memN n (rl (tl s t) i)) eqn:M; [right; exists i; split; [apply Hl; apply memN_In; exact M|reflexivity]|left; reflexivity]. }
  unfold step; cbv zeta. rewrite H. assert (Hoe : oeqb (hd_opt (orph s i)) (hd_opt (orph s i)) = true) by (apply oeqb_eq; reflexivity).
  rewrite Hoe. unfold ab_from. prj. rewrite upd_same. prj.
  destruct (bnext (aband cfg) (updN (rl (tl s t)) i []) (i + 1)) as [j|] eqn:Eb.
  - destruct (bnext_ge _ _ _ _ Eb) as [Hj1 Hj2]. eexists _, _. split; [reflexivity|]. split.
    + right. exists j. prj. rewrite upd_same. auto.
    + unfold AbRel. prj. rewrite !upd_same. prj. repeat split; try reflexivity. exact Hw.
  - unfold do_cont, finish. eexists _, _. split; [reflexivity|]. split.
    + left. prj. apply upd_same.
    + unfold AbRel. prj. rewrite !upd_same. prj. repeat split; try reflexivity. exact Hw.
Qed.

Lemma ph_B1 : forall m i s, (3 - N.to_nat i <= m)%nat -> i < 3 -> reachable s -> th s t = B1 KF i ->
  exists n s', ssteps n s s' /\ th s' t = Idle /\ AbRel s s'.
Proof.
  induction m as [|m IH]; intros i s Hm Hi Hr Hpc; [lia|].
  pose (s1 := set_pc t (B2 KF i (hd_opt (orph s i))) s).
  assert (Hst1 : step cfg ns s (Step t) = Some (s1, [ELoad t (L_orph i) mo_rlx (vptr (hd_opt (orph s i)))])) by (apply st_B1; exact Hpc).
  assert (Hr1 : reachable s1) by (eapply reach_step; eauto).
  destruct (st_B2 s1 i) as (s2 & es & Hst2 & Hnext & Hrel).
  { unfold s1. prj. apply upd_same. }
  { intros n Hn. apply (n_list s1 (N0_reach cfg ns nc s1 Hr1) t i n). exact Hn. }
  assert (Hrel01 : AbRel s s1) by (unfold s1, AbRel; prj; repeat split; auto).
  assert (Hi1 : idle s t = false) by (unfold idle; rewrite Hpc; reflexivity).
  assert (Hi2 : idle s1 t = false) by (unfold idle, s1; prj; rewrite upd_same; reflexivity).
  destruct Hnext as [Hid|(j & Hj & Hj1 & Hj2)].
  - exists 2%nat, s2. split; [|split; [exact Hid|exact (AbRel_trans _ _ _ Hrel01 Hrel)]].
    eapply solo_S; [exact Hi1|exact Hst1|]. eapply solo_S; [exact Hi2|exact Hst2|]. apply solo_O.
  - assert (Hr2 : reachable s2) by (eapply reach_step; eauto).
    destruct (IH j s2) as (n & s' & Hs & Hid & Hrel2); [lia|exact Hj2|exact Hr2|exact Hj|].
    exists (S (S n)), s'. split; [|split; [exact Hid|exact (AbRel_trans _ _ _ (AbRel_trans _ _ _ Hrel01 Hrel) Hrel2)]].
    eapply solo_S; [exact Hi1|exact Hst1|]. eapply solo_S; [exact Hi2|exact Hst2|]. exact Hs.
Qed.

(** LV: the flag is cleared, then the abandon loop *)
Lemma ph_lv s b : reachable s -> th s t = LV KF -> cb (tl s t) = Some b ->
  exists n s', ssteps n s s' /\ th s' t = Idle /\
    cb (tl s' t) = cb (tl s t) /\ nest (tl s' t) = nest (tl s t) /\ rent (tl s' t) = rent (tl s t) /\ rg (tl s' t) = rg (tl s t) /\
    ces (tl s' t) = ces (tl s t) /\ sit (tl s' t) = sit (tl s t) /\ gep s' = gep s /\ blist s' = blist s /\ bflag s' = updN (bflag s) b false /\ blocal s' = blocal s /\
    cells s' = cells s /\
    (forall n, g_where s' n = g_where s n \/ exists j, g_where s n = PList t j /\ g_where s' n = POrph j).
Proof.
  intros Hr Hpc Hcb.
  assert (Hi : idle s t = false) by (unfold idle; rewrite Hpc; reflexivity).
  pose (s0 := set_tl t (wt_sync false (tl s t)) (w_bflag (updN (bflag s) b false) s)).
  destruct (bnext (aband cfg) (rl (tl s t)) 0) as [j|] eqn:Eb.
  - destruct (bnext_ge _ _ _ _ Eb) as [_ Hj2].
    assert (Hst : step cfg ns s (Step t) = Some (set_pc t (B1 KF j) s0, [EStore t (L_bflag b) mo_rel (VInt 0)])).
    { stp. unfold ab_from. prj. rewrite upd_same. prj. rewrite Eb. reflexivity. }
    assert (Hr1 : reachable (set_pc t (B1 KF j) s0)) by (eapply reach_step; eauto).
    destruct (ph_B1 (3 - N.to_nat j) j (set_pc t (B1 KF j) s0)) as (n & s' & Hs & Hid & R); [lia|exact Hj2|exact Hr1|prj; apply upd_same|].
    destruct R as (R1 & R2 & R3 & R4 & R5 & R5' & R6 & R7 & R8 & R9 & R10 & R11).
    unfold s0 in R1, R2, R3, R4, R5, R5', R6, R7, R8, R9, R10, R11. prj_in R1. prj_in R2. prj_in R3. prj_in R4. prj_in R5. prj_in R5'. prj_in R6. prj_in R7. prj_in R8. prj_in R9. prj_in R10. prj_in R11.
    rewrite !upd_same in R1, R2, R3, R4, R5, R5'. prj_in R1. prj_in R2. prj_in R3. prj_in R4. prj_in R5. prj_in R5'.
    exists (S n), s'. split; [eapply solo_S; [exact Hi|exact Hst|exact Hs]|]. repeat split; assumption.
  - assert (Hst : step cfg ns s (Step t) = Some (set_pc t Idle s0, [EStore t (L_bflag b) mo_rel (VInt 0)] ++ free_opt t None ++ [ERet t r_ok])).
    { stp. unfold ab_from. prj. rewrite upd_same. prj. rewrite Eb. unfold do_cont, finish. rewrite <- app_assoc. reflexivity. }
    exists 1%nat, (set_pc t Idle s0). split; [eapply solo_S; [exact Hi|exact Hst|apply solo_O]|].
    unfold s0. prj. rewrite !upd_same. prj. repeat split; auto.
Qed.

Lemma rent_dec_inc0 : rent_dec cfg (rent_inc cfg 0) = O.
Proof. unfold rent_dec, rent_inc. destruct (rext cfg); reflexivity. Qed.

(** from the second load of the cell to the end of the operation *)
Lemma ph_tail s b n0 : reachable s -> th s t = A2 K -> cb (tl s t) = Some b -> nest (tl s t) = 1%nat -> rent (tl s t) = rent_inc cfg 0 ->
  cells s c = Some n0 -> g_where s n0 = PNone ->
  exists n s', ssteps n s s' /\ th s' t = Idle /\
    cb (tl s' t) = Some b /\ nest (tl s' t) = O /\ rent (tl s' t) = O /\ rg (tl s' t) = rg (tl s t) /\ ces (tl s' t) = ces (tl s t) /\
    sit (tl s' t) = sit (tl s t) /\
    gep s' = gep s /\ blist s' = blist s /\ bflag s' = updN (bflag s) b false /\ blocal s' = blocal s /\ (exists n1, cells s' c = Some n1) /\
    (forall n, g_where s n <> PNone -> g_where s' n = g_where s n \/ exists j, g_where s n = PList t j /\ g_where s' n = POrph j).
Proof.
  intros Hr Hpc Hcb Hn Hrent Hc Hw0.
  destruct (ph_fin s b n0 Hpc Hc Hcb Hn Hrent) as (s1 & Hs1 & Hpc1 & Htl1 & Hg1 & Hbl1 & Hbf1 & Hlo1 & Hce1 & Hwh1).
  assert (Hr1 : reachable s1) by (eapply ssteps_reach; eauto).
  assert (Hcb1 : cb (tl s1 t) = Some b) by (rewrite Htl1; prj; exact Hcb).
  destruct (ph_lv s1 b Hr1 Hpc1 Hcb1) as (n & s' & Hs & Hid & L1 & L2 & L3 & L4 & L5 & L5' & L6 & L7 & L8 & L9 & L10 & L11).
  exists (2 + n)%nat, s'. split; [eapply ssteps_app; eauto|]. split; [exact Hid|].
  rewrite Htl1 in L1, L2, L3, L4, L5, L5'. prj_in L1. prj_in L2. prj_in L3. prj_in L4. prj_in L5. prj_in L5'.
  split; [congruence|]. split; [rewrite L2, Hn; reflexivity|]. split; [rewrite L3, Hrent; apply rent_dec_inc0|].
  split; [exact L4|]. split; [exact L5|]. split; [exact L5'|]. split; [congruence|]. split; [congruence|]. split; [congruence|]. split; [congruence|].
  split; [exists (nalloc s); rewrite L10; exact Hce1|].
  intros m Hm. assert (Hmn : m <> n0) by (intros ->; contradiction).
  destruct (L11 m) as [X|(j & X1 & X2)]; rewrite Hwh1, updN_other in * by exact Hmn; [left; exact X|right; exists j; auto].
Qed.

(** one flush operation = one repl on cell c, executed solo *)
Definition solo_op (s s' : state) : Prop :=
  exists s1 n, step cfg ns s (Start t (ORepl c)) = Some (s1, []) /\ ssteps n s1 s' /\ idle s' t = true.

(** s is reachable, thread t is between operations, owns control block b, holds no guard and no region_guard, no control
    block of the list has its critical-region flag set, cell c is not null, and the scan counter is within its range *)
Record Quiet (s : state) (b : N) : Prop := {
  q_reach : reachable s;
  q_idle : th s t = Idle;
  q_cb : cb (tl s t) = Some b;
  q_nest : nest (tl s t) = O;
  q_rg : rg (tl s t) = None;
  q_flags : forall p, In p (blist s) -> bflag s p = false;
  q_cell : exists n0, cells s c = Some n0;
  q_ces : (ces (tl s t) <= F)%nat }.

(** nothing is lost: freed stays freed, an orphan stays or is freed, a node of t's retire list i stays, is abandoned to orphan
    list i, or is freed *)
Definition Keep (s s' : state) : Prop :=
  (forall n, g_where s n = PFreed -> g_where s' n = PFreed) /\
  (forall i n, g_where s n = POrph i -> g_where s' n = POrph i \/ g_where s' n = PFreed) /\
  (forall i n, g_where s n = PList t i -> g_where s' n = PList t i \/ g_where s' n = POrph i \/ g_where s' n = PFreed).
(** every node of epoch slot j (orphan list j, t's retire list j) is freed *)
Definition FreedSlot (j : N) (s s' : state) : Prop :=
  forall n, g_where s n = POrph j \/ g_where s n = PList t j -> g_where s' n = PFreed.

(** what one operation does: the thread was behind and catches up / is current and counts one more entry / is current with a
    scan due: the epoch advances and slot (epoch + 1) mod 3 is freed *)
Definition Summary (s s' : state) (b : N) : Prop :=
  Keep s s' /\
  ( (blocal s b <> gep s /\ gep s' = gep s /\ blocal s' b = gep s /\ ces (tl s' t) = O)
  \/ (blocal s b = gep s /\ ces (tl s t) <> F /\ gep s' = gep s /\ blocal s' b = gep s /\ ces (tl s' t) = S (ces (tl s t)))
  \/ (blocal s b = gep s /\ ces (tl s t) = F /\ gep s' = gep s + 1 /\ blocal s' b = gep s + 1 /\ ces (tl s' t) = O /\
      FreedSlot ((gep s + 1) mod 3) s s') ).

(** the published node of the cell is not retired *)
Lemma cell_where s n0 : reachable s -> cells s c = Some n0 -> g_where s n0 = PNone.
Proof.
  intros Hr Hc. pose proof (N0_reach cfg ns nc s Hr) as I. pose proof (n_cell s I c n0 Hc) as L.
  destruct (wh_not_ret _ _ _ (n_where s I n0)) as [W _]; [rewrite L; intros; discriminate|exact W].
Qed.

(** the part of an operation before the second load of the cell frees some retired nodes; the rest moves nodes from the
    thread's retire lists to the orphan lists at most *)
Lemma keep_compose s s6 s' :
  (forall n, g_where s6 n = g_where s n \/ (g_where s6 n = PFreed /\ exists i, g_where s n = POrph i \/ g_where s n = PList t i)) ->
  (forall n, g_where s6 n <> PNone -> g_where s' n = g_where s6 n \/ exists j, g_where s6 n = PList t j /\ g_where s' n = POrph j) ->
  Keep s s'.
Proof.
  intros H1 H2. repeat split.
  - intros n Hn. destruct (H1 n) as [X|[X _]]; (destruct (H2 n) as [Y|(j & Y1 & Y2)]; [congruence|congruence|congruence]).
  - intros i n Hn. destruct (H1 n) as [X|[X _]]; (destruct (H2 n) as [Y|(j & Y1 & Y2)]; [congruence| |]); try congruence.
    + left. congruence.
    + right. congruence.
  - intros i n Hn. destruct (H1 n) as [X|[X _]]; (destruct (H2 n) as [Y|(j & Y1 & Y2)]; [congruence| |]); try congruence.
    + left. congruence.
    + right. left. assert (j = i) by congruence. subst. exact Y2.
    + right. right. congruence.
Qed.


Lemma uslots_succ e : uslots (e + 1) e = [(e + 1) mod 3].
Proof. unfold uslots. replace (e + 1 - e) with 1 by lia. reflexivity. Qed.


(** ** one operation, for every scan strategy *)
Definition runs (s s' : state) : Prop := exists k, ssteps k s s'.
Lemma runs_trans s1 s2 s3 : runs s1 s2 -> runs s2 s3 -> runs s1 s3.
Proof. intros [k H] [m H']. exists (k + m)%nat. eapply ssteps_app; eauto. Qed.
Lemma runs_step s s' es : th s t <> Idle -> step cfg ns s (Step t) = Some (s', es) -> runs s s'.
Proof. intros Hi H. exists 1%nat. eapply solo_S; [unfold idle; destruct (th s t); congruence|exact H|apply solo_O]. Qed.

(** what the operation leaves alone between the load of the epoch in do_enter_critical and the second load of the cell *)
Definition Mid (s s' : state) : Prop :=
  cb (tl s' t) = cb (tl s t) /\ nest (tl s' t) = nest (tl s t) /\ rent (tl s' t) = rent (tl s t) /\ rg (tl s' t) = rg (tl s t) /\
  blist s' = blist s /\ bflag s' = bflag s /\ cells s' = cells s.
Lemma Mid_trans s1 s2 s3 : Mid s1 s2 -> Mid s2 s3 -> Mid s1 s3.
Proof. unfold Mid. intros (A1 & A2 & A3 & A4 & A5 & A6 & A7) (B1 & B2 & B3 & B4 & B5 & B6 & B7). repeat split; congruence. Qed.

(** the state in which the operation of a quiet thread has loaded the global epoch *)
Definition Entered (s s1 s2 : state) (b : N) : Prop :=
  step cfg ns s (Start t (ORepl c)) = Some (s1, []) /\ runs s1 s2 /\ th s2 t = E4 K (gep s) /\
  tl s2 t = enter_tls cfg (KAcq K) (tl s t) /\ bflag s2 = updN (bflag s) b true /\
  gep s2 = gep s /\ blist s2 = blist s /\ blocal s2 = blocal s /\ cells s2 = cells s /\ g_where s2 = g_where s.

(** the common end of the operation *)
Lemma op_tail s b s1 s2 s6 n0 cv : Quiet s b -> Entered s s1 s2 b -> runs s2 s6 -> Mid s2 s6 -> th s6 t = A2 K ->
  ces (tl s6 t) = cv -> (cv <= F)%nat -> cells s c = Some n0 ->
  (forall n, g_where s6 n = g_where s n \/ (g_where s6 n = PFreed /\ exists i, g_where s n = POrph i \/ g_where s n = PList t i)) ->
  exists s', solo_op s s' /\ Quiet s' b /\ Keep s s' /\ gep s' = gep s6 /\ blocal s' b = blocal s6 b /\ ces (tl s' t) = cv /\
    (forall n, g_where s6 n = PFreed -> g_where s' n = PFreed) /\ sit (tl s' t) = sit (tl s6 t) /\ blist s' = blist s.
Proof.
  intros Q (Hst & [k Hk] & _ & Htl2 & Hbf2 & _ & Hbl2 & _ & Hce2 & _) [k' Hk'] (M1 & M2 & M3 & M4 & M5 & M6 & M7) Hpc Hces Hcv Hc H1.
  pose proof Q as [Hr _ Hcb Hnest Hrg _ _ _].
  pose proof (ts_rent _ _ _ _ (T0_reach cfg ns nc s Hr t)) as Hrent. rewrite Hnest, Hrg, rent_exp_0 in Hrent.
  rewrite Htl2 in M1, M2, M3, M4. prj_in M1. prj_in M2. prj_in M3. prj_in M4. cbn [nest_of rg_of] in M2, M4.
  assert (Hs : ssteps (k + k') s1 s6) by (eapply ssteps_app; eauto).
  assert (Hr6 : reachable s6) by (eapply ssteps_reach; [exact Hs|eapply reach_step; eauto]).
  assert (Hw0 : g_where s6 n0 = PNone).
  { pose proof (cell_where s n0 Hr Hc) as W. destruct (H1 n0) as [X|[_ (i & [X|X])]]; congruence. }
  destruct (ph_tail s6 b n0 Hr6 Hpc) as (m & s' & Hs' & Hid & T1 & T2 & T3 & T4 & T5 & T5' & T6 & T7 & T8 & T9 & T10 & T11); try congruence.
  exists s'. split; [exists s1, (k + k' + m)%nat; split; [exact Hst|split; [eapply ssteps_app; eauto|unfold idle; rewrite Hid; reflexivity]]|].
  split; [|split; [exact (keep_compose s s6 s' H1 T11)|]].
  - constructor; try assumption; try congruence.
    + eapply ssteps_reach; eauto.
    + intros p Hp. rewrite T7, M5, Hbl2 in Hp. rewrite T8, M6, Hbf2.
      destruct (updN_cases (updN (bflag s) b true) b false p) as [[_ ->]|[Hpb ->]]; [reflexivity|].
      rewrite updN_other by exact Hpb. apply (q_flags _ _ Q). exact Hp.
  - split; [exact T6|]. split; [rewrite T9; reflexivity|]. split; [congruence|]. split; [|split; [exact T5'|congruence]].
    intros n Hn6. destruct (T11 n) as [X|(j & X1 & X2)]; congruence.
Qed.


Lemma op_enter s b : Quiet s b -> exists n0 s1 s2, cells s c = Some n0 /\ Entered s s1 s2 b.
Proof.
  intros [Hr Hidle Hcb Hnest Hrg Hfl [n0 Hcell] _]. pose proof (T0_reach cfg ns nc s Hr t) as T.
  assert (Hrent : rent (tl s t) = O) by (rewrite (ts_rent _ _ _ _ T), Hnest, Hrg; apply rent_exp_0).
  assert (Hni : needs_init cfg (tl s t) = false).
  { destruct (needs_init cfg (tl s t)) eqn:X; [|reflexivity]. rewrite needs_init_eq in X. destruct (ts_init _ _ _ _ T X). congruence. }
  destruct (o_own cfg s (O0_reach cfg ns nc s Hr) t b Hcb) as [_ Hbin].
  destruct (ph_enter s b n0 Hidle Hcb Hnest Hrent (Hfl b Hbin) Hcell Hni) as (s1 & k & s2 & Hst & Hs & X).
  exists n0, s1, s2. split; [exact Hcell|]. split; [exact Hst|]. split; [exists k; exact Hs|exact X].
Qed.

(** an operation that neither advances the epoch nor reclaims: from the second load of the cell on *)
Lemma op_plain s b s1 s2 s6 n0 : Quiet s b -> Entered s s1 s2 b -> cells s c = Some n0 -> blocal s b = gep s ->
  runs s2 s6 -> Mid s2 s6 -> th s6 t = A2 K -> (ces (tl s6 t) <= F)%nat -> Same s2 s6 ->
  exists s', solo_op s s' /\ Quiet s' b /\ Keep s s' /\ blist s' = blist s /\ gep s' = gep s /\ blocal s' b = gep s /\
    ces (tl s' t) = ces (tl s6 t) /\ sit (tl s' t) = sit (tl s6 t).
Proof.
  intros Q E Hc Heq R M Hpc Hces (Hg6 & _ & _ & Hlo6 & _ & Hwh6). pose proof E as (_ & _ & _ & _ & _ & Hg2 & _ & Hlo2 & _ & Hwh2).
  destruct (op_tail s b s1 s2 s6 n0 _ Q E R M Hpc eq_refl Hces Hc) as (s' & Hop & Q' & Kp & Gg & Gl & Gc & _ & Gs & Gb).
  { intros n. left. rewrite Hwh6, Hwh2. reflexivity. }
  exists s'. split; [exact Hop|]. split; [exact Q'|]. split; [exact Kp|]. split; [exact Gb|]. split; [rewrite Gg, Hg6; exact Hg2|].
  split; [rewrite Gl, Hlo6, Hlo2; exact Heq|]. split; [exact Gc|exact Gs].
Qed.

(** the epoch is current and no scan is due *)
Lemma op_noscan s b s1 s2 n0 : Quiet s b -> Entered s s1 s2 b -> cells s c = Some n0 -> blocal s b = gep s -> ces (tl s t) <> F ->
  exists s', solo_op s s' /\ Quiet s' b /\ Keep s s' /\ blist s' = blist s /\ gep s' = gep s /\ blocal s' b = gep s /\
    ces (tl s' t) = S (ces (tl s t)) /\ sit (tl s' t) = sit (tl s t).
Proof.
  intros Q E Hc Heq Ec. pose proof E as (_ & _ & Hpc2 & Htl2 & _ & _ & _ & Hlo2 & _).
  assert (Hcb2 : cb (tl s2 t) = Some b) by (rewrite Htl2; exact (q_cb _ _ Q)).
  pose (s3 := set_pc t (A2 K) (set_tl t (wt_sync true (wt_ces (S (ces (tl s2 t))) (tl s2 t))) s2)).
  assert (Hst3 : exists es, step cfg ns s2 (Step t) = Some (s3, es)).
  { eexists. eapply st_E4b; [exact Hpc2|exact Hcb2|rewrite Hlo2; exact Heq|rewrite Htl2; exact Ec]. }
  destruct Hst3 as [es Hst3].
  assert (Htl3 : tl s3 t = wt_sync true (wt_ces (S (ces (tl s t))) (tl s2 t))) by (unfold s3; prj; rewrite upd_same, Htl2; reflexivity).
  destruct (op_plain s b s1 s2 s3 n0 Q E Hc Heq) as (s' & X); [| | | |repeat split|].
  - eapply runs_step; [rewrite Hpc2; discriminate|exact Hst3].
  - unfold Mid. rewrite Htl3. repeat split; reflexivity.
  - unfold s3. prj. apply upd_same.
  - rewrite Htl3. pose proof (q_ces _ _ Q). prj. lia.
  - exists s'. rewrite Htl3 in X. prj_in X. rewrite Htl2 in X. exact X.
Qed.


(** update_local_epoch ends with the reset of the scan iterator (n_threads) or at once *)
Lemma ph_u2a s : th s t = u2_pc cfg K ->
  exists s', runs s s' /\ th s' t = A2 K /\ tl s' t = wt_sit (if scan_is_n cfg then blist s else sit (tl s t)) (tl s t) /\ Same s s'.
Proof.
  unfold u2_pc. destruct (scan_is_n cfg); intros Hpc.
  - eexists. split; [eapply runs_step; [rewrite Hpc; discriminate|apply st_U3; exact Hpc]|]. prj. rewrite !upd_same. repeat split; reflexivity.
  - exists s. split; [exists O; apply solo_O|]. split; [exact Hpc|]. split; [destruct (tl s t); reflexivity|repeat split; reflexivity].
Qed.

(** the local epoch is behind: update_local_epoch(global epoch) *)
Lemma op_update s b s1 s2 n0 : Quiet s b -> Entered s s1 s2 b -> cells s c = Some n0 -> blocal s b <> gep s ->
  exists s', solo_op s s' /\ Quiet s' b /\ Keep s s' /\ blist s' = blist s /\ gep s' = gep s /\ blocal s' b = gep s /\
    ces (tl s' t) = O /\ (scan_is_n cfg = true -> sit (tl s' t) = blist s).
Proof.
  intros Q E Hc Hne. pose proof E as (_ & _ & Hpc2 & Htl2 & Hbf2 & Hg2 & Hbl2 & Hlo2 & Hce2 & Hwh2).
  assert (Hcb2 : cb (tl s2 t) = Some b) by (rewrite Htl2; exact (q_cb _ _ Q)).
  pose (s3 := set_pc t (U1 K (gep s)) (set_tl t (wt_ces O (tl s2 t)) s2)).
  assert (Hst3 : exists es, step cfg ns s2 (Step t) = Some (s3, es)).
  { eexists. eapply st_E4a; [exact Hpc2|exact Hcb2|rewrite Hlo2; exact Hne]. }
  destruct Hst3 as [es Hst3].
  destruct (ph_upd s3 b (gep s)) as (s4 & Hs34 & Hpc4 & Htl4 & Hg4 & Hbl4 & Hbf4 & Hlo4 & Hce4 & Hwh4).
  { unfold s3. prj. apply upd_same. } { unfold s3. prj. rewrite upd_same. prj. exact Hcb2. }
  unfold s3 in Htl4, Hg4, Hbl4, Hbf4, Hlo4, Hce4, Hwh4. prj_in Htl4. prj_in Hg4. prj_in Hbl4. prj_in Hbf4. prj_in Hlo4. prj_in Hce4. prj_in Hwh4.
  rewrite !upd_same in Htl4. prj_in Htl4. rewrite !upd_same in Hwh4. prj_in Hwh4.
  destruct (ph_u2a s4 Hpc4) as (s5 & R45 & Hpc5 & Htl5 & Hg5 & Hbl5 & Hbf5 & Hlo5 & Hce5 & Hwh5).
  destruct (op_tail s b s1 s2 s5 n0 O Q E) as (s' & Hop & Q' & Kp & Gg & Gl & Gc & _ & Gs & Gb).
  - eapply runs_trans; [eapply runs_step; [rewrite Hpc2; discriminate|exact Hst3]|]. eapply runs_trans; [exists 2%nat; exact Hs34|exact R45].
  - unfold Mid. rewrite Htl5, Hbl5, Hbf5, Hce5, Htl4, Hbl4, Hbf4, Hce4. repeat split; reflexivity.
  - exact Hpc5.
  - rewrite Htl5, Htl4. reflexivity.
  - lia.
  - exact Hc.
  - intros n. rewrite Hwh5, Hwh4. destruct (memN n _) eqn:M; [|left; rewrite Hwh2; reflexivity].
    right. split; [reflexivity|]. apply memN_In in M. apply in_flat_map in M. destruct M as (i & _ & M). rewrite Htl2 in M. prj_in M.
    apply (n_list s (N0_reach cfg ns nc s (q_reach _ _ Q)) t i n) in M. exists i. right. exact M.
  - exists s'. split; [exact Hop|]. split; [exact Q'|]. split; [exact Kp|]. split; [exact Gb|]. split; [rewrite Gg, Hg5, Hg4; exact Hg2|].
    split; [rewrite Gl, Hlo5, Hlo4; apply updN_same|]. split; [exact Gc|]. intros Hn. rewrite Gs, Htl5, Hn, Hbl4. exact Hbl2.
Qed.


Lemma Same_trans s1 s2 s3 : Same s1 s2 -> Same s2 s3 -> Same s1 s3.
Proof. unfold Same. intros (A1 & A2 & A3 & A4 & A5 & A6) (B1 & B2 & B3 & B4 & B5 & B6). repeat split; congruence. Qed.

(** a scan is due: the state in which it begins *)
Lemma ph_E4c s b s1 s2 : Quiet s b -> Entered s s1 s2 b -> blocal s b = gep s -> ces (tl s t) = F ->
  exists s3, runs s2 s3 /\ th s3 t = scan_start cfg K (gep s) /\ tl s3 t = wt_sync true (wt_ces O (tl s2 t)) /\ Same s2 s3 /\
    bflag s3 b = true /\ blocal s3 b = gep s /\ (forall p, In p (blist s3) -> p = b \/ bflag s3 p = false).
Proof.
  intros Q (_ & _ & Hpc2 & Htl2 & Hbf2 & Hg2 & Hbl2 & Hlo2 & Hce2 & Hwh2) Heq Ec.
  assert (Hcb2 : cb (tl s2 t) = Some b) by (rewrite Htl2; exact (q_cb _ _ Q)).
  eexists. split; [eapply runs_step; [rewrite Hpc2; discriminate|eapply st_E4c; [exact Hpc2|exact Hcb2|rewrite Hlo2; exact Heq|rewrite Htl2; exact Ec]]|].
  prj. rewrite !upd_same. prj. rewrite Hbf2, Hlo2, Hbl2, updN_same. repeat split; try reflexivity; try exact Heq.
  intros p Hp. destruct (N.eq_dec p b) as [->|Hpb]; [left; reflexivity|right]. rewrite updN_other by exact Hpb. apply (q_flags _ _ Q), Hp.
Qed.

(** the scan has reached the end of the list: update_global_epoch, update_local_epoch, and the rest of the operation *)
Lemma op_advance s b s1 s2 s4 n0 l4 : Quiet s b -> Entered s s1 s2 b -> cells s c = Some n0 -> blocal s b = gep s ->
  runs s2 s4 -> th s4 t = G1 K (gep s) -> tl s4 t = wt_sit l4 (wt_sync true (wt_ces O (tl s2 t))) -> Same s2 s4 ->
  exists s', solo_op s s' /\ Quiet s' b /\ Keep s s' /\ blist s' = blist s /\ gep s' = gep s + 1 /\ blocal s' b = gep s + 1 /\
    ces (tl s' t) = O /\ (scan_is_n cfg = true -> sit (tl s' t) = blist s) /\ FreedSlot ((gep s + 1) mod 3) s s'.
Proof.
  intros Q E Hc Heq R24 Hpc4 Htl4 (Hg4 & Hbl4 & Hbf4 & Hlo4 & Hce4 & Hwh4).
  pose proof E as (Hst & R12 & Hpc2 & Htl2 & Hbf2 & Hg2 & Hbl2 & Hlo2 & Hce2 & Hwh2). pose proof (q_reach _ _ Q) as Hr.
  assert (Hr2 : reachable s2) by (destruct R12 as [k R12]; eapply ssteps_reach; [exact R12|eapply reach_step; eauto]).
  assert (Hr4 : reachable s4) by (destruct R24 as [k R24]; eapply ssteps_reach; eauto).
  destruct (ph_adv s4 (gep s)) as (k5 & s5 & Hs45 & Hpc5 & Hg5 & Htl5 & Hbl5 & Hbf5 & Hlo5 & Hce5 & Hwh5).
  { exact Hpc4. } { rewrite Hg4. exact Hg2. }
  assert (Hr5 : reachable s5) by (eapply ssteps_reach; eauto).
  assert (Hcb5 : cb (tl s5 t) = Some b) by (rewrite Htl5, Htl4; prj; rewrite Htl2; exact (q_cb _ _ Q)).
  destruct (ph_upd s5 b (gep s + 1)) as (s6 & Hs56 & Hpc6 & Htl6 & Hg6 & Hbl6 & Hbf6 & Hlo6 & Hce6 & Hwh6).
  { exact Hpc5. } { exact Hcb5. }
  assert (Hb5 : blocal s5 b = gep s) by (rewrite Hlo5, Hlo4, Hlo2; exact Heq).
  rewrite Hb5, uslots_succ in Htl6, Hwh6. cbn [is_nil flat_map] in Htl6, Hwh6. rewrite app_nil_r in Hwh6.
  destruct (ph_u2a s6 Hpc6) as (s7 & R67 & Hpc7 & Htl7 & Hg7 & Hbl7 & Hbf7 & Hlo7 & Hce7 & Hwh7).
  pose proof (N0_reach cfg ns nc s4 Hr4) as I4. pose proof (N0_reach cfg ns nc s5 Hr5) as I5.
  assert (Hw4 : g_where s4 = g_where s) by (rewrite Hwh4, Hwh2; reflexivity).
  assert (Hw5 : forall n, g_where s5 n = if memN n (orph s4 ((gep s + 1) mod 3)) then PFreed else g_where s n).
  { intros n. rewrite Hwh5, Hw4. reflexivity. }
  assert (H1 : forall n, g_where s7 n = g_where s n \/ (g_where s7 n = PFreed /\ exists i, g_where s n = POrph i \/ g_where s n = PList t i)).
  { intros n. rewrite Hwh7, Hwh6. destruct (memN n (rl (tl s5 t) ((gep s + 1) mod 3))) eqn:M1.
    - right. split; [reflexivity|]. apply memN_In in M1. apply (n_list s5 I5) in M1. rewrite Hw5 in M1.
      destruct (memN n (orph s4 ((gep s + 1) mod 3))); [discriminate M1|]. exists ((gep s + 1) mod 3). right. exact M1.
    - rewrite Hw5. destruct (memN n (orph s4 ((gep s + 1) mod 3))) eqn:M2; [|left; reflexivity].
      right. split; [reflexivity|]. apply memN_In in M2. apply (n_orph s4 I4) in M2. rewrite Hw4 in M2. exists ((gep s + 1) mod 3). left. exact M2. }
  destruct (op_tail s b s1 s2 s7 n0 O Q E) as (s' & Hop & Q' & Kp & Gg & Gl & Gc & Gf & Gs & Gb).
  - eapply runs_trans; [exact R24|]. eapply runs_trans; [exists k5; exact Hs45|]. eapply runs_trans; [exists 2%nat; exact Hs56|exact R67].
  - unfold Mid. rewrite Htl7, Hbl7, Hbf7, Hce7, Htl6, Hbl6, Hbf6, Hce6, Htl5, Hbl5, Hbf5, Hce5, Htl4, Hbl4, Hbf4, Hce4. repeat split; reflexivity.
  - exact Hpc7.
  - rewrite Htl7, Htl6, Htl5, Htl4. reflexivity.
  - lia.
  - exact Hc.
  - exact H1.
  - exists s'. split; [exact Hop|]. split; [exact Q'|]. split; [exact Kp|]. split; [exact Gb|]. split; [rewrite Gg, Hg7, Hg6, Hg5; reflexivity|].
    split; [rewrite Gl, Hlo7, Hlo6; apply updN_same|]. split; [exact Gc|].
    split; [intros Hn; rewrite Gs, Htl7, Hn, Hbl6, Hbl5, Hbl4; exact Hbl2|].
    intros n Hn. apply Gf. rewrite Hwh7, Hwh6. destruct (memN n (rl (tl s5 t) ((gep s + 1) mod 3))) eqn:M1; [reflexivity|].
    rewrite Hw5. destruct Hn as [Hn|Hn].
    + rewrite <- Hw4 in Hn. apply (n_orph s4 I4) in Hn. apply memN_In in Hn. rewrite Hn. reflexivity.
    + exfalso. apply memN_false in M1. apply M1. apply (n_list s5 I5). rewrite Hw5.
      destruct (memN n (orph s4 ((gep s + 1) mod 3))) eqn:M2; [|exact Hn].
      apply memN_In in M2. apply (n_orph s4 I4) in M2. rewrite Hw4 in M2. congruence.
Qed.



(** ** scan::all_threads *)
Section AllThreads.
Hypothesis Hall : scan_strat cfg = ScanAll.

Lemma scan_start_all a e : scan_start cfg a e = S1 a e.
Proof. unfold scan_start. rewrite Hall. reflexivity. Qed.
Lemma pass_all a e i l : pass_pc cfg a e i l = if is_nil l then G1 a e else S2 a e i.
Proof. unfold pass_pc. rewrite Hall. reflexivity. Qed.

(** the scan of the thread block list: every other thread is outside its critical region *)
Lemma ph_scan_l e b : forall l s, sit (tl s t) = l -> bflag s b = true -> blocal s b = e -> (forall p, In p l -> p = b \/ bflag s p = false) ->
  th s t = (if is_nil l then G1 K e else S2 K e O) ->
  exists n s' l', ssteps n s s' /\ th s' t = G1 K e /\ tl s' t = wt_sit l' (tl s t) /\ Same s s'.
Proof.
  induction l as [|p rest IH]; intros s Hsit Hb He Hl Hpc.
  - exists O, s, (sit (tl s t)). split; [apply solo_O|]. split; [exact Hpc|]. split; [destruct (tl s t); reflexivity|]. repeat split; reflexivity.
  - cbn [is_nil] in Hpc. destruct (Hl p (or_introl eq_refl)) as [->|Hf].
    + destruct (IH (set_pc t (if is_nil rest then G1 K e else S2 K e O) (set_tl t (wt_sit rest (tl s t)) (set_pc t (S3 K e O) s)))) as (n & s' & l' & Hs & Hp & Htl & Hsame).
      * prj. rewrite upd_same. reflexivity.
      * exact Hb.
      * exact He.
      * intros q Hq. apply Hl. right. exact Hq.
      * prj. apply upd_same.
      * exists (S (S n)), s', l'. split; [|split; [exact Hp|split]].
        -- unfold ssteps. sst st_S2t. sst st_S3. rewrite pass_all. exact Hs.
        -- rewrite Htl. prj. rewrite upd_same. reflexivity.
        -- exact Hsame.
    + destruct (IH (set_pc t (if is_nil rest then G1 K e else S2 K e O) (set_tl t (wt_sit rest (tl s t)) s))) as (n & s' & l' & Hs & Hp & Htl & Hsame).
      * prj. rewrite upd_same. reflexivity.
      * exact Hb.
      * exact He.
      * intros q Hq. apply Hl. right. exact Hq.
      * prj. apply upd_same.
      * exists (S n), s', l'. split; [|split; [exact Hp|split]].
        -- unfold ssteps. sst st_S2f. rewrite pass_all. exact Hs.
        -- rewrite Htl. prj. rewrite upd_same. reflexivity.
        -- exact Hsame.
Qed.

Lemma ph_scan s e b : th s t = S1 K e -> bflag s b = true -> blocal s b = e -> (forall p, In p (blist s) -> p = b \/ bflag s p = false) ->
  exists n s' l', ssteps n s s' /\ th s' t = G1 K e /\ tl s' t = wt_sit l' (tl s t) /\ Same s s'.
Proof.
  intros Hpc Hb He Hl.
  destruct (ph_scan_l e b (blist s) (set_pc t (if is_nil (blist s) then G1 K e else S2 K e O) (set_tl t (wt_sit (blist s) (tl s t)) s)))
    as (n & s' & l' & Hs & Hp & Htl & Hsame); try assumption.
  - prj. rewrite upd_same. reflexivity.
  - prj. apply upd_same.
  - exists (S n), s', l'. split; [|split; [exact Hp|split]].
    + unfold ssteps. sst st_S1. exact Hs.
    + rewrite Htl. prj. rewrite upd_same. reflexivity.
    + exact Hsame.
Qed.

Lemma round s b : Quiet s b -> exists s', solo_op s s' /\ Quiet s' b /\ Summary s s' b.
Proof.
  intros Q. destruct (op_enter s b Q) as (n0 & s1 & s2 & Hc & E).
  destruct (N.eq_dec (blocal s b) (gep s)) as [Heq|Hne]; [destruct (Nat.eq_dec (ces (tl s t)) F) as [Ec|Ec]|].
  - destruct (ph_E4c s b s1 s2 Q E Heq Ec) as (s3 & R23 & Hpc3 & Htl3 & S23 & Hb3 & Hl3 & Hf3). rewrite scan_start_all in Hpc3.
    destruct (ph_scan s3 (gep s) b Hpc3 Hb3 Hl3 Hf3) as (k4 & s4 & l4 & Hs34 & Hpc4 & Htl4 & S34).
    destruct (op_advance s b s1 s2 s4 n0 l4 Q E Hc Heq) as (s' & Hop & Q' & Kp & _ & Gg & Gl & Gc & _ & Gf).
    { eapply runs_trans; [exact R23|exists k4; exact Hs34]. } { exact Hpc4. } { rewrite Htl4, Htl3. reflexivity. } { exact (Same_trans _ _ _ S23 S34). }
    exists s'. split; [exact Hop|]. split; [exact Q'|]. split; [exact Kp|]. right. right. auto 7.
  - destruct (op_noscan s b s1 s2 n0 Q E Hc Heq Ec) as (s' & Hop & Q' & Kp & _ & Gg & Gl & Gc & _).
    exists s'. split; [exact Hop|]. split; [exact Q'|]. split; [exact Kp|]. right. left. auto 6.
  - destruct (op_update s b s1 s2 n0 Q E Hc Hne) as (s' & Hop & Q' & Kp & _ & Gg & Gl & Gc & _).
    exists s'. split; [exact Hop|]. split; [exact Q'|]. split; [exact Kp|]. left. auto.
Qed.

(** [flush k]: k flush operations one after the other, the thread running alone *)
Fixpoint flush (k : nat) (s s' : state) : Prop :=
  match k with O => s' = s | S m => exists s1, solo_op s s1 /\ flush m s1 s' end.

Lemma flush_app k m s s1 s2 : flush k s s1 -> flush m s1 s2 -> flush (k + m) s s2.
Proof. revert s. induction k as [|k IH]; intros s H1 H2; cbn in *; [subst; exact H2|]. destruct H1 as (x & Hx & H1). exists x. split; [exact Hx|]. eapply IH; eauto. Qed.

Lemma Keep_refl s : Keep s s.
Proof. repeat split; auto. Qed.
Lemma Keep_trans s1 s2 s3 : Keep s1 s2 -> Keep s2 s3 -> Keep s1 s3.
Proof.
  intros (A1 & A2 & A3) (B1 & B2 & B3). repeat split.
  - auto.
  - intros i n H. destruct (A2 i n H) as [X|X]; [apply B2; exact X|right; apply B1; exact X].
  - intros i n H. destruct (A3 i n H) as [X|[X|X]]; [apply B3; exact X| |right; right; apply B1; exact X].
    destruct (B2 i n X) as [Y|Y]; auto.
Qed.
(** what was freed (or is about to be) in an earlier part of the flush stays freed *)
Lemma FreedSlot_pre j s1 s2 s3 : Keep s1 s2 -> FreedSlot j s2 s3 -> Keep s2 s3 -> FreedSlot j s1 s3.
Proof.
  intros (A1 & A2 & A3) Fr (B1 & _). intros n [H|H].
  - destruct (A2 j n H) as [X|X]; [apply Fr; left; exact X|apply B1; exact X].
  - destruct (A3 j n H) as [X|[X|X]]; [apply Fr; right; exact X|apply Fr; left; exact X|apply B1; exact X].
Qed.
Lemma FreedSlot_post j s1 s2 s3 : FreedSlot j s1 s2 -> Keep s2 s3 -> FreedSlot j s1 s3.
Proof. intros Fr (B1 & _) n H. apply B1. apply Fr. exact H. Qed.

(** operations without a scan until one is due *)
Lemma wait_scan : forall k s b, Quiet s b -> blocal s b = gep s -> (F - ces (tl s t) = k)%nat ->
  exists s', flush k s s' /\ Quiet s' b /\ blocal s' b = gep s' /\ gep s' = gep s /\ ces (tl s' t) = F /\ Keep s s'.
Proof.
  induction k as [|k IH]; intros s b Q Hl Hk.
  - exists s. pose proof (q_ces _ _ Q). split; [reflexivity|split; [exact Q|split; [exact Hl|split; [reflexivity|split; [lia|apply Keep_refl]]]]].
  - destruct (round s b Q) as (s1 & Ho & Q1 & (K1 & [(X & _)|[(_ & Hc & Hg1 & Hl1 & Hc1)|(_ & X & _)]])); [contradiction| |lia].
    destruct (IH s1 b Q1) as (s' & Hf & Q' & Hl' & Hg' & Hc' & K'); [congruence|lia|].
    exists s'. split; [exists s1; split; assumption|]. split; [exact Q'|]. split; [exact Hl'|]. split; [congruence|]. split; [exact Hc'|].
    eapply Keep_trans; eauto.
Qed.

(** F - ces operations without a scan, then one that scans, advances the epoch and frees slot (e + 1) mod 3 *)
Lemma advance s b : Quiet s b -> blocal s b = gep s ->
  exists s', flush (F - ces (tl s t) + 1) s s' /\ Quiet s' b /\ blocal s' b = gep s' /\ gep s' = gep s + 1 /\ ces (tl s' t) = O /\
    Keep s s' /\ FreedSlot ((gep s + 1) mod 3) s s'.
Proof.
  intros Q Hl. destruct (wait_scan _ s b Q Hl eq_refl) as (s1 & Hf1 & Q1 & Hl1 & Hg1 & Hc1 & K1).
  destruct (round s1 b Q1) as (s2 & Ho & Q2 & (K2 & [(X & _)|[(_ & X & _)|(_ & _ & Hg2 & Hl2 & Hc2 & F2)]])); [contradiction|contradiction|].
  exists s2. split; [eapply flush_app; [exact Hf1|exists s2; split; [exact Ho|reflexivity]]|].
  split; [exact Q2|]. split; [congruence|]. split; [congruence|]. split; [exact Hc2|]. split; [eapply Keep_trans; eauto|].
  rewrite Hg1 in F2. exact (FreedSlot_pre _ _ _ _ K1 F2 K2).
Qed.

Lemma residues e i : i < 3 -> i = (e + 1) mod 3 \/ i = (e + 2) mod 3 \/ i = (e + 3) mod 3.
Proof.
  intros Hi. rewrite (N.add_mod e 1 3), (N.add_mod e 2 3), (N.add_mod e 3 3) by discriminate.
  pose proof (N.mod_lt e 3 ltac:(discriminate)) as H. set (m := e mod 3) in *.
  assert (Hm : m = 0 \/ m = 1 \/ m = 2) by lia. assert (Hi' : i = 0 \/ i = 1 \/ i = 2) by lia.
  destruct Hm as [-> | [-> | ->]], Hi' as [-> | [-> | ->]]; cbn; auto.
Qed.

(** given one operation (that catches up with the global epoch when the thread is behind) and three epochs within
    3 B operations, 1 + 3 B operations free everything; operations to spare keep it freed *)
Lemma flush_all (B : list N -> nat)
  (rnd : forall s b, Quiet s b -> exists s', solo_op s s' /\ Quiet s' b /\ Keep s s' /\ B (blist s') = B (blist s) /\
           (blocal s b <> gep s -> gep s' = gep s /\ blocal s' b = gep s))
  (thr : forall s b, Quiet s b -> blocal s b = gep s -> exists m s', (m <= 3 * B (blist s))%nat /\ flush m s s' /\ Quiet s' b /\ Keep s s' /\
           FreedSlot ((gep s + 1) mod 3) s s' /\ FreedSlot ((gep s + 2) mod 3) s s' /\ FreedSlot ((gep s + 3) mod 3) s s') s b :
  Quiet s b -> exists s', flush (1 + 3 * B (blist s)) s s' /\ Quiet s' b /\
    forall n, (g_where s n = PFreed \/ exists i, g_where s n = POrph i \/ g_where s n = PList t i) -> g_where s' n = PFreed.
Proof.
  intros Q.
  assert (pad : forall m s b, Quiet s b -> exists s', flush m s s' /\ Quiet s' b /\ Keep s s').
  { induction m as [|m IH]; intros x bx Qx; [exists x; split; [reflexivity|split; [exact Qx|apply Keep_refl]]|].
    destruct (rnd x bx Qx) as (x1 & Ho & Q1 & K1 & _). destruct (IH x1 bx Q1) as (x' & Hf & Q' & K').
    exists x'. split; [exists x1; split; assumption|]. split; [exact Q'|]. eapply Keep_trans; eauto. }
  assert (Hall' : forall s', Keep s s' -> FreedSlot ((gep s + 1) mod 3) s s' -> FreedSlot ((gep s + 2) mod 3) s s' -> FreedSlot ((gep s + 3) mod 3) s s' ->
                 forall n, (g_where s n = PFreed \/ exists i, g_where s n = POrph i \/ g_where s n = PList t i) -> g_where s' n = PFreed).
  { intros s' (K1 & _) F1 F2 F3 n [H|(i & H)]; [apply K1; exact H|].
    assert (Hi : i < 3).
    { pose proof (tag_reach cfg ns nc s (q_reach _ _ Q) n) as G. unfold tag_ok in G.
      destruct H as [H|H]; rewrite H in G; [destruct G as (t' & r & _ & <- & _)|destruct G as (b' & t' & r & _ & _ & <- & _)]; apply N.mod_lt; discriminate. }
    destruct (residues (gep s) i Hi) as [-> | [-> | ->]]; [apply F1|apply F2|apply F3]; exact H. }
  destruct (N.eq_dec (blocal s b) (gep s)) as [Hl|Hne].
  - destruct (thr s b Q Hl) as (m & s3 & Hm & Hf & Q3 & K3 & G1 & G2 & G3).
    destruct (pad (1 + 3 * B (blist s) - m)%nat s3 b Q3) as (s' & Hp & Q' & K').
    exists s'. split; [replace (1 + 3 * B (blist s))%nat with (m + (1 + 3 * B (blist s) - m))%nat by lia; exact (flush_app _ _ _ _ _ Hf Hp)|]. split; [exact Q'|].
    apply Hall'; [exact (Keep_trans _ _ _ K3 K')| | |]; eapply FreedSlot_post; eauto.
  - (* the local epoch is behind: one operation to catch up *)
    destruct (rnd s b Q) as (s1 & Ho & Q1 & K1 & Hb1 & Hc1). destruct (Hc1 Hne) as [Hg1 Hl1].
    destruct (thr s1 b Q1 ltac:(congruence)) as (m & s3 & Hm & Hf & Q3 & K3 & G1 & G2 & G3). rewrite Hb1 in Hm.
    destruct (pad (3 * B (blist s) - m)%nat s3 b Q3) as (s' & Hp & Q' & K').
    exists s'. split.
    { replace (1 + 3 * B (blist s))%nat with (S (m + (3 * B (blist s) - m)))%nat by lia. exists s1. split; [exact Ho|exact (flush_app _ _ _ _ _ Hf Hp)]. }
    split; [exact Q'|]. rewrite Hg1 in G1, G2, G3.
    apply Hall'; [exact (Keep_trans _ _ _ K1 (Keep_trans _ _ _ K3 K'))| | |];
      (eapply FreedSlot_post; [eapply FreedSlot_pre; [exact K1| |exact K3]|exact K']); assumption.
Qed.

(** three epochs: every slot comes around once *)
Lemma three s b : Quiet s b -> blocal s b = gep s ->
  exists m s', (m <= 3 * (F + 1))%nat /\ flush m s s' /\ Quiet s' b /\ Keep s s' /\
    FreedSlot ((gep s + 1) mod 3) s s' /\ FreedSlot ((gep s + 2) mod 3) s s' /\ FreedSlot ((gep s + 3) mod 3) s s'.
Proof.
  intros Q Hl.
  destruct (advance s b Q Hl) as (s1 & Hf1 & Q1 & Hl1 & Hg1 & Hc1 & K1 & F1).
  destruct (advance s1 b Q1 Hl1) as (s2 & Hf2 & Q2 & Hl2 & Hg2 & Hc2 & K2 & F2).
  destruct (advance s2 b Q2 Hl2) as (s3 & Hf3 & Q3 & Hl3 & Hg3 & Hc3 & K3 & F3).
  rewrite Hc1 in Hf2. rewrite Hc2 in Hf3.
  exists ((F - ces (tl s t) + 1) + ((F - 0 + 1) + (F - 0 + 1)))%nat, s3. split; [lia|].
  split; [exact (flush_app _ _ _ _ _ Hf1 (flush_app _ _ _ _ _ Hf2 Hf3))|]. split; [exact Q3|].
  pose proof (Keep_trans _ _ _ K1 K2) as K12. pose proof (Keep_trans _ _ _ K2 K3) as K23.
  split; [exact (Keep_trans _ _ _ K12 K3)|]. split; [|split].
  - exact (FreedSlot_post _ _ _ _ F1 K23).
  - replace (gep s + 2) with (gep s1 + 1) by lia. exact (FreedSlot_post _ _ _ _ (FreedSlot_pre _ _ _ _ K1 F2 K2) K3).
  - replace (gep s + 3) with (gep s2 + 1) by lia. exact (FreedSlot_pre _ _ _ _ K12 F3 K3).
Qed.

(** [gebr_no_leak_at_quiescence_all_threads] (C02, the liveness half as a bounded solo run, every configuration with
    scan::all_threads): in a reachable state in which thread t is between operations, holds no guard and no region_guard,
    and no thread is inside a critical region (every control block of the list has is_in_critical_region = false),
    3 F + 4 flush operations of t (F = scan_frequency) - each one acquires a guard on cell c (entering a critical region),
    replaces the node and retires the old one, exactly what the teardown of harness/h_recl.cpp does - free every node that
    sits in an orphan list (abandoned, handed over by an exited thread, put back) or in a retire list of t (and keep freed
    what was freed).  Every operation finishes when the thread runs alone. *)
Theorem gebr_no_leak_at_quiescence_all_threads s b : Quiet s b ->
  exists s', flush (3 * F + 4) s s' /\ Quiet s' b /\
    forall n, (g_where s n = PFreed \/ exists i, g_where s n = POrph i \/ g_where s n = PList t i) -> g_where s' n = PFreed.
Proof.
  replace (3 * F + 4)%nat with (1 + 3 * (F + 1))%nat by lia. apply (flush_all (fun _ => F + 1)%nat).
  - intros x bx Qx. destruct (round x bx Qx) as (x' & Ho & Q' & K & X). exists x'. split; [exact Ho|]. split; [exact Q'|]. split; [exact K|].
    split; [reflexivity|]. intros Hne. destruct X as [(_ & Hg & Hl & _)|[(X & _)|(X & _)]]; [|contradiction|contradiction]. split; congruence.
  - intros x bx Qx Hl. destruct (three x bx Qx Hl) as (m & x' & X). exists m, x'. exact X.
Qed.
End AllThreads.
End Flush.

(** * Examples: the hypotheses are satisfiable, and the flush on concrete states *)
Definition fsteps (t n : nat) : list action := repeat (Step t) n.
Definition fop (t : nat) (o : op) : list action := Start t o :: fsteps t 60.
Definition frun (cfg : config) (acts : list action) : state := fst (fst (run (step cfg 3) (init 2) acts)).

(** abandon::always: thread 1 has retired node 0 and abandoned it to orphan list 0; it is between operations, no thread is
    inside a critical region: a quiescent state with an orphan ... *)
Example ex_quiet : Quiet cfg_GEBR_aband 3 2 1 1 (frun cfg_GEBR_aband (fop 1 (ORepl 0))) 2.
Proof.
  constructor.
  - apply run_reach.
  - vm_compute; reflexivity.
  - vm_compute; reflexivity.
  - vm_compute; reflexivity.
  - vm_compute; reflexivity.
  - assert (Ebl : blist (frun cfg_GEBR_aband (fop 1 (ORepl 0))) = [2]) by (vm_compute; reflexivity).
    intros p Hp. rewrite Ebl in Hp. destruct Hp as [<-|[]]. vm_compute. reflexivity.
  - exists 1. vm_compute. reflexivity.
  - vm_compute. repeat constructor.
Qed.

(** ... 3 F + 4 = 7 flush operations (F = 1) free it; 4 do not *)
Example ex_flush_counts :
  let s0 := fop 1 (ORepl 0) in
  let s4 := frun cfg_GEBR_aband (s0 ++ concat (repeat (fop 1 (ORepl 1)) 4)) in
  let s7 := frun cfg_GEBR_aband (s0 ++ concat (repeat (fop 1 (ORepl 1)) 7)) in
  g_where (frun cfg_GEBR_aband s0) 0 = POrph 0 /\ g_where s4 0 = POrph 0 /\ g_where s7 0 = PFreed /\ g_nfree s7 0 = 1%nat.
Proof. vm_compute. repeat split; reflexivity. Qed.

(** debra (scan::one_thread, F = 1) with L = 2 thread control blocks: the scan looks at one control block per scan, the
    same job (an orphan left by an exited thread) takes up to 1 + 3 (F + 1) L = 13 operations; here 10 are not enough
    (scan::all_threads: 7) *)
Example ex_flush_debra :
  let s0 := fop 1 (ORead 1) ++ fop 2 (ORead 1) ++ fop 1 (ORepl 0) ++ fop 1 OExit ++ fop 2 OExit ++ fop 3 (ORead 1) in
  let s10 := frun cfg_DEBRA (s0 ++ concat (repeat (fop 3 (ORepl 1)) 10)) in
  let s13 := frun cfg_DEBRA (s0 ++ concat (repeat (fop 3 (ORepl 1)) 13)) in
  blist (frun cfg_DEBRA s0) = [3; 2] /\ g_where (frun cfg_DEBRA s0) 0 = POrph 1 /\ g_where s10 0 = POrph 1 /\ g_where s13 0 = PFreed.
Proof. vm_compute. repeat split; reflexivity. Qed.
