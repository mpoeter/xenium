(** kirsch_kfifo_queue (C06, unbounded), invariant layer 2 (ownership of the values): every stored pointer is
    either committed and not yet popped, or the pending insertion of exactly one thread inside committed();
    committed values that were not popped are in exactly one slot; pushers own distinct tokens.  Every
    shared effect of a step (allocation, insertion, take-back, commit, take by a pop) concerns one token, and the
    invariant is local to tokens ([Inv2_token]): one lemma per effect, about that token only.
    No axioms, no admits. *)
From Coq Require Import NArith List Bool Lia PeanoNat ZifyBool ZifyNat ZifyN.
From XV Require Import Base.Word Conc.Lts Conc.Ev Model.KfqDefs.
From XV Require Import Proof.KfqStep Proof.KfqWf.
Import ListNotations.
Local Open Scope N_scope.

Definition cblock (c : cont) : option N := match c with KPush b => Some b | KPop _ _ _ _ => None end.
Definition pblock (p : pc) : option N :=
  match p with
  | P1 b | PF b _ _ _ | P2 b _ _ _ | P2n b _ | P3 b _ _ _
  | C1 b _ _ _ | C2 b _ _ _ | C3 b _ _ _ | C4 b _ _ _ | C5 b _ _ _ _ | C7 b _ _ _ | C9 b _ _ _ => Some b
  | A1 c _ | A2 c _ _ | A3 c _ _ | A4 c _ _ _ | A5 c _ _ => cblock c
  | _ => None
  end.
(** (pointer, segment, slot, tag) of the pending insertion *)
Definition cinfo (p : pc) : option (N * N * N * N) :=
  match p with
  | C1 b tl j tg | C2 b tl j tg | C3 b tl j tg | C4 b tl j tg | C5 b tl j tg _ | C7 b tl j tg | C9 b tl j tg => Some (b, fst tl, j, tg)
  | _ => None
  end.

Lemma cinfo_pblock p b x j tg : cinfo p = Some (b, x, j, tg) -> pblock p = Some b.
Proof. destruct p; cbn; intros H; inversion H; reflexivity. Qed.
Lemma pblock_kpc c : pblock (kpc c) = cblock c.
Proof. destruct c; reflexivity. Qed.
Lemma cinfo_kpc c : cinfo (kpc c) = None.
Proof. destruct c; reflexivity. Qed.

Lemma mem_spec b l : mem b l = true <-> In b l.
Proof.
  unfold mem. rewrite existsb_exists. split.
  - intros (x & Hin & He). apply N.eqb_eq in He. subst. exact Hin.
  - intros H. exists b. split; [exact H|apply N.eqb_refl].
Qed.
Lemma commit_in b l x : In x (commit b l) <-> In x l \/ x = b.
Proof.
  unfold commit. destruct (mem b l) eqn:E.
  - apply mem_spec in E. split; [auto|intros [H| ->]; assumption].
  - rewrite in_app_iff. cbn. intuition.
Qed.
Lemma commit_old b l : In b l -> commit b l = l.
Proof. intros H. unfold commit. apply mem_spec in H. rewrite H. reflexivity. Qed.
Lemma commit_new b l : ~ In b l -> commit b l = l ++ [b].
Proof. intros H. unfold commit. destruct (mem b l) eqn:E; [apply mem_spec in E; contradiction|reflexivity]. Qed.
Lemma NoDup_snoc (l : list N) n : NoDup l -> ~ In n l -> NoDup (l ++ [n]).
Proof.
  induction l as [|a l IH]; cbn; intros Hnd Hni; [constructor; [intros []|constructor]|].
  inversion Hnd; subst. constructor.
  - rewrite in_app_iff. cbn. intuition.
  - apply IH; [assumption|intuition].
Qed.
Lemma commit_nodup b l : NoDup l -> NoDup (commit b l).
Proof. intros H. unfold commit. destruct (mem b l) eqn:E; [exact H|]. apply NoDup_snoc; [exact H|]. intros Hin. apply mem_spec in Hin. congruence. Qed.

Lemma setf2_cases {X} (f : N -> N -> X) s i v s' j :
  (s' = s /\ j = i /\ setf2 f s i v s' j = v) \/ ((s' <> s \/ j <> i) /\ setf2 f s i v s' j = f s' j).
Proof.
  unfold setf2, setf. destruct (N.eqb_spec s' s) as [->|H1]; [|right; auto].
  destruct (N.eqb_spec j i) as [->|H2]; [left; auto|right; auto].
Qed.

(** thread invariant as a function of the abstract view (cinfo, pblock) *)
Definition T2' (st : state) (ci : option (N * N * N * N)) (pb : option N) : Prop :=
  match ci with
  | Some (b, x, j, tg) => (slot st x j = (b, tg) /\ ~ In b (g_in st)) \/ (In b (g_in st) /\ In b (g_out st))
  | None => match pb with
            | Some b => ~ In b (g_in st) /\ forall x j, fst (slot st x j) <> b
            | None => True
            end
  end.
Definition T2 (st : state) (p : pc) : Prop := T2' st (cinfo p) (pblock p).

Record Inv2 (st : state) : Prop := {
  i_nalloc : 2 <= nalloc st;
  i_in_lt : forall b, In b (g_in st) -> 2 <= b < nalloc st;
  i_nd_in : NoDup (g_in st);
  i_nd_out : NoDup (g_out st);
  i_incl : incl (g_out st) (g_in st);
  i_slot : forall x j b tg, slot st x j = (b, tg) -> b <> 0 ->
           (In b (g_in st) /\ ~ In b (g_out st)) \/ (~ In b (g_in st) /\ exists t, cinfo (th st t) = Some (b, x, j, tg));
  i_pres : forall b, In b (g_in st) -> ~ In b (g_out st) -> exists x j, fst (slot st x j) = b;
  i_uniq : forall x j x' j', fst (slot st x j) = fst (slot st x' j') -> fst (slot st x j) <> 0 -> x = x' /\ j = j';
  i_own_lt : forall t b, pblock (th st t) = Some b -> 2 <= b < nalloc st;
  i_own_u : forall t t' b, pblock (th st t) = Some b -> pblock (th st t') = Some b -> t = t';
  i_th : forall t, T2 st (th st t);
  i_ok_in : forall b, In b (g_ok st) -> In b (g_in st);
  i_in_ok : forall b, In b (g_in st) -> In b (g_ok st) \/ exists t x j tg, cinfo (th st t) = Some (b, x, j, tg) }.

Lemma Inv2_init : Inv2 init.
Proof.
  constructor; cbn [init g_in g_out g_ok slot th nalloc].
  - lia.
  - intros b [].
  - constructor.
  - constructor.
  - intros b [].
  - intros x j b tg H. inversion H. congruence.
  - intros b [].
  - intros x j x' j' _ H. cbn in H. congruence.
  - intros t b H. discriminate.
  - intros t t' b H. discriminate.
  - intros t. exact I.
  - intros b [].
  - intros b [].
Qed.

Lemma upd_view {X} (f : pc -> X) s t p' : f p' = f (th s t) -> forall t0, f (upd (th s) t p' t0) = f (th s t0).
Proof. intros H t0. unfold upd. destruct (Nat.eqb_spec t0 t); [subst; exact H|reflexivity]. Qed.

(** the invariant sees the thread map only through [cinfo] and [pblock], and not the chain *)
Lemma Inv2_frame s sh t p' :
  Inv2 s -> slot sh = slot s -> g_in sh = g_in s -> g_out sh = g_out s -> g_ok sh = g_ok s -> nalloc s <= nalloc sh ->
  th sh = th s -> cinfo p' = cinfo (th s t) -> pblock p' = pblock (th s t) -> Inv2 (set_th sh t p').
Proof.
  intros I E1 E2 E3 E4 E5 Et Hc Hp. pose proof (upd_view cinfo s t p' Hc) as Ec. pose proof (upd_view pblock s t p' Hp) as Ep.
  destruct I. constructor; sim; rewrite ?E1, ?E2, ?E3, ?E4, ?Et; try assumption.
  - lia.
  - intros b Hb. specialize (i_in_lt0 b Hb). lia.
  - intros x j b tg H Hb. destruct (i_slot0 x j b tg H Hb) as [A|[A [u B]]]; [left; exact A|right]. split; [exact A|]. exists u. rewrite Ec. exact B.
  - intros u b. rewrite Ep. intros H. specialize (i_own_lt0 u b H). lia.
  - intros u u' b. rewrite !Ep. apply i_own_u0.
  - intros u. unfold T2. rewrite Ec, Ep. unfold T2'; sim. rewrite E1, E2, E3. apply (i_th0 u).
  - intros b Hb. destruct (i_in_ok0 b Hb) as [A|(u & x & j & tg & A)]; [left; exact A|right]. exists u, x, j, tg. rewrite Ec. exact A.
Qed.

Lemma in_slot_known s : Inv2 s -> forall x j, fst (slot s x j) <> 0 -> 2 <= fst (slot s x j) < nalloc s.
Proof.
  intros I x j Hnz. destruct (slot s x j) as [b tg] eqn:E. cbn [fst] in *.
  destruct (i_slot s I x j b tg E Hnz) as [[A _]|[_ [t A]]].
  - apply (i_in_lt s I b A).
  - apply (i_own_lt s I t b). eapply cinfo_pblock; eauto.
Qed.

Lemma popped_not_in_slot s b x j tg : Inv2 s -> b <> 0 -> In b (g_out s) -> slot s x j <> (b, tg).
Proof.
  intros I Hb Ho E. destruct (i_slot s I x j b tg E Hb) as [[_ A]|[A _]]; [contradiction|].
  apply A. apply (i_incl s I). exact Ho.
Qed.

Lemma own_nz s t b : Inv2 s -> pblock (th s t) = Some b -> b <> 0.
Proof. intros I Q. pose proof (i_own_lt s I t b Q). lia. Qed.

(** an insertion that is not committed yet sits in the slot its pusher remembers, and nowhere else *)
Lemma pending_at s t b x j tg : Inv2 s -> cinfo (th s t) = Some (b, x, j, tg) -> ~ In b (g_in s) ->
  slot s x j = (b, tg) /\ forall x0 j0, fst (slot s x0 j0) = b -> x0 = x /\ j0 = j.
Proof.
  intros I Hc Hn. pose proof (i_th s I t) as Ht. unfold T2, T2' in Ht. rewrite Hc in Ht. destruct Ht as [[Q _]|[Q _]]; [|contradiction].
  split; [exact Q|]. intros x0 j0 E. apply (i_uniq s I); rewrite E, ?Q; [reflexivity|]. exact (own_nz s t b I (cinfo_pblock _ _ _ _ _ Hc)).
Qed.

(** Locality.  A step whose effect concerns one token [bb] only -- the ghost lists change at most in [bb], slots
    change only between null and [bb], the thread that moves holds [bb] or nothing -- preserves the invariant if
    its clauses hold for [bb] in the new state: what is said about the other tokens carries over. *)
Lemma Inv2_token s sh t p' bb : let s' := set_th sh t p' in
  Inv2 s -> th sh = th s -> nalloc s <= nalloc s' ->
  (forall b, b <> bb -> (In b (g_in s') <-> In b (g_in s)) /\ (In b (g_out s') <-> In b (g_out s)) /\
                        (In b (g_ok s') <-> In b (g_ok s))) ->
  (forall x j, slot s' x j = slot s x j \/
               ((fst (slot s x j) = 0 \/ fst (slot s x j) = bb) /\ (fst (slot s' x j) = 0 \/ fst (slot s' x j) = bb))) ->
  (pblock (th s t) = Some bb \/ pblock (th s t) = None) -> (pblock p' = Some bb \/ pblock p' = None) ->
  NoDup (g_in s') -> NoDup (g_out s') ->
  (In bb (g_in s') -> 2 <= bb < nalloc s') ->
  (In bb (g_out s') -> In bb (g_in s')) ->
  (forall x j tg, slot s' x j = (bb, tg) -> bb <> 0 ->
     (In bb (g_in s') /\ ~ In bb (g_out s')) \/ (~ In bb (g_in s') /\ exists u, cinfo (th s' u) = Some (bb, x, j, tg))) ->
  (In bb (g_in s') -> ~ In bb (g_out s') -> exists x j, fst (slot s' x j) = bb) ->
  (bb <> 0 -> forall x j x' j', fst (slot s' x j) = bb -> fst (slot s' x' j') = bb -> x = x' /\ j = j') ->
  (pblock p' = Some bb -> 2 <= bb < nalloc s') -> T2 s' p' ->
  (forall u, u <> t -> pblock (th s u) = Some bb -> pblock p' = None /\ T2 s' (th s u)) ->
  (In bb (g_ok s') -> In bb (g_in s')) ->
  (In bb (g_in s') -> In bb (g_ok s') \/ exists u x j tg, cinfo (th s' u) = Some (bb, x, j, tg)) ->
  Inv2 s'.
Proof.
  intros s' I Et Hna G S Told Tnew Nin Nout Blt Bincl Bslot Bpres Buniq Bown Bme Both Bok Binok.
  assert (Hoth : forall u, u <> t -> th s' u = th s u) by (intros; cbn; rewrite Et; apply upd_other; assumption).
  assert (Hme : th s' t = p') by apply upd_same.
  (* a thread working on another token is not the one that moves *)
  assert (Hw : forall u b x j tg, b <> bb -> cinfo (th s u) = Some (b, x, j, tg) -> cinfo (th s' u) = Some (b, x, j, tg)).
  { intros u b x j tg Hb Q. rewrite Hoth; [exact Q|]. intros ->. apply cinfo_pblock in Q. destruct Told; congruence. }
  (* a slot holding another token is not written *)
  assert (Hsl : forall x j b, b <> 0 -> b <> bb -> fst (slot s x j) = b -> slot s' x j = slot s x j)
    by (intros x j b H0 Hn E; destruct (S x j) as [Q|[[Q|Q] _]]; [exact Q|congruence ..]).
  assert (Hsl' : forall x j b, b <> 0 -> b <> bb -> fst (slot s' x j) = b -> slot s' x j = slot s x j)
    by (intros x j b H0 Hn E; destruct (S x j) as [Q|[_ [Q|Q]]]; [exact Q|congruence ..]).
  pose proof (i_in_lt s I) as Hlt.
  constructor; try assumption.
  - pose proof (i_nalloc s I). lia.
  - intros b Hb. destruct (N.eq_dec b bb) as [->|Hn]; [auto|]. apply (G b Hn) in Hb. specialize (Hlt b Hb). lia.
  - intros b Hb. destruct (N.eq_dec b bb) as [->|Hn]; [auto|]. apply (G b Hn). apply (i_incl s I). apply (G b Hn). exact Hb.
  - intros x j b tg H Hb. destruct (N.eq_dec b bb) as [->|Hn]; [auto|].
    rewrite (Hsl' x j b Hb Hn) in H by (rewrite H; reflexivity). destruct (G b Hn) as (G1 & G2 & _). rewrite G1, G2.
    destruct (i_slot s I x j b tg H Hb) as [A|[A [u B]]]; [left; exact A|right]. split; [exact A|]. exists u. apply Hw; assumption.
  - intros b A B. destruct (N.eq_dec b bb) as [->|Hn]; [auto|]. destruct (G b Hn) as (G1 & G2 & _). rewrite G1 in A. rewrite G2 in B.
    destruct (i_pres s I b A B) as (x & j & Q). exists x, j. assert (b <> 0) by (specialize (Hlt b A); clear - Hlt; lia). rewrite (Hsl x j b) by assumption. exact Q.
  - intros x j x' j' E Hnz. destruct (N.eq_dec (fst (slot s' x j)) bb) as [Q|Hn]; [apply Buniq; congruence|].
    pose proof (Hsl' x j _ Hnz Hn eq_refl) as Q1. pose proof (Hsl' x' j' _ Hnz Hn (eq_sym E)) as Q2.
    rewrite Q1, Q2 in E. rewrite Q1 in Hnz. apply (i_uniq s I); assumption.
  - intros u b. destruct (Nat.eq_dec u t) as [->|Hu].
    + rewrite Hme. intros Q. assert (b = bb) by (destruct Tnew; congruence). subst b. exact (Bown Q).
    + rewrite Hoth by exact Hu. intros Q. pose proof (i_own_lt s I u b Q). lia.
  - intros u u' b. destruct (Nat.eq_dec u t) as [->|Hu], (Nat.eq_dec u' t) as [->|Hu']; try reflexivity;
      rewrite ?Hme, ?Hoth by assumption; intros A B.
    + assert (b = bb) by (destruct Tnew; congruence). subst b. destruct (Both u' Hu' B). congruence.
    + assert (b = bb) by (destruct Tnew; congruence). subst b. destruct (Both u Hu A). congruence.
    + eapply (i_own_u s I); eauto.
  - intros u. destruct (Nat.eq_dec u t) as [->|Hu]; [rewrite Hme; exact Bme|]. rewrite Hoth by exact Hu.
    pose proof (i_th s I u) as H. pose proof (i_own_lt s I u) as Hb2. unfold T2, T2' in *.
    destruct (pblock (th s u)) as [b|] eqn:Eb.
    2:{ destruct (cinfo (th s u)) as [[[[b x] j] tg]|] eqn:Ec; [|exact Logic.I]. rewrite (cinfo_pblock _ _ _ _ _ Ec) in Eb. discriminate. }
    destruct (N.eq_dec b bb) as [->|Hn]; [destruct (Both u Hu Eb) as [_ Q]; unfold T2, T2' in Q; rewrite Eb in Q; exact Q|].
    assert (Hb0 : b <> 0) by (specialize (Hb2 b eq_refl); clear - Hb2; lia). destruct (G b Hn) as (G1 & G2 & _).
    destruct (cinfo (th s u)) as [[[[b0 x] j] tg]|] eqn:Ec.
    + pose proof (cinfo_pblock _ _ _ _ _ Ec) as Q. rewrite Eb in Q. injection Q as <-. rewrite G1, G2.
      destruct H as [[A B]|A]; [left|right; exact A]. split; [|exact B]. rewrite (Hsl x j b Hb0 Hn) by (rewrite A; reflexivity). exact A.
    + rewrite G1. destruct H as [A B]. split; [exact A|]. intros x j Q. apply (B x j). rewrite <- (Hsl' x j b Hb0 Hn Q). exact Q.
  - intros b Hb. destruct (N.eq_dec b bb) as [->|Hn]; [auto|]. apply (G b Hn). apply (i_ok_in s I). apply (G b Hn). exact Hb.
  - intros b Hb. destruct (N.eq_dec b bb) as [->|Hn]; [auto|]. destruct (G b Hn) as (G1 & _ & G3). rewrite G3. rewrite G1 in Hb.
    destruct (i_in_ok s I b Hb) as [A|(u & x & j & tg & A)]; [left; exact A|right]. exists u, x, j, tg. apply Hw; assumption.
Qed.

(** allocation of a token: [Begin (OPush v)] -> [P1 b]; the token is new to the lists, the slots and the threads *)
Lemma Inv2_alloc s t v :
  Inv2 s -> pblock (th s t) = None -> Inv2 (set_th (alloc s v) t (P1 (nalloc s))).
Proof.
  intros I Hp. pose proof (i_nalloc s I).
  assert (F1 : ~ In (nalloc s) (g_in s)) by (intros Q; pose proof (i_in_lt s I _ Q); lia).
  assert (F2 : forall x j, fst (slot s x j) <> nalloc s) by (intros x j Q; pose proof (in_slot_known s I x j); lia).
  assert (F3 : forall u, pblock (th s u) <> Some (nalloc s)) by (intros u Q; pose proof (i_own_lt s I u _ Q); lia).
  apply Inv2_token with (s := s) (bb := nalloc s); sim; try apply I; try tauto.
  - lia.
  - intros x j tg Q. contradiction (F2 x j). rewrite Q. reflexivity.
  - intros _ x j x' j' Q. contradiction (F2 x j).
  - lia.
  - split; assumption.
  - intros u _ Q. contradiction (F3 u).
Qed.

Lemma setf2_only {X} (f : N -> N -> N * X) s i v s' j b :
  (forall s j, fst (f s j) <> b) -> fst (setf2 f s i v s' j) = b -> s' = s /\ j = i.
Proof. intros F. destruct (setf2_cases f s i v s' j) as [(-> & -> & _)|(_ & Q)]; [auto|]. rewrite Q. intros E. contradiction (F s' j). Qed.

Lemma own_only s t b : Inv2 s -> pblock (th s t) = Some b -> forall u, u <> t -> pblock (th s u) <> Some b.
Proof. intros I A u Hu B. apply Hu. apply (i_own_u s I u t b B A). Qed.

(** insertion CAS: [P3] -> [C1] *)
Lemma Inv2_ins s t b x j otag tg' p' :
  Inv2 s -> pblock (th s t) = Some b -> cinfo (th s t) = None -> slot s x j = (0, otag) ->
  cinfo p' = Some (b, x, j, tg') -> Inv2 (set_th (set_slot s x j (b, tg')) t p').
Proof.
  intros I Hp Hc Hsl Hc'. pose proof (cinfo_pblock _ _ _ _ _ Hc') as Hp'.
  pose proof (i_th s I t) as Ht. unfold T2, T2' in Ht. rewrite Hc, Hp in Ht. destruct Ht as [Hnin Hnsl].
  apply Inv2_token with (s := s) (bb := b); sim; try apply I; try apply N.le_refl; try tauto.
  - intros x0 j0. destruct (setf2_cases (slot s) x j (b, tg') x0 j0) as [(-> & -> & Q)|(_ & Q)]; rewrite Q; [right; rewrite Hsl|left]; auto.
  - intros x0 j0 tg0 Q _. destruct (setf2_only (slot s) x j (b, tg') x0 j0 b Hnsl (f_equal fst Q)) as [-> ->].
    rewrite setf2_same in Q. injection Q as <-. right. split; [exact Hnin|]. exists t. rewrite upd_same. exact Hc'.
  - intros _ x1 j1 x2 j2 Q1 Q2. destruct (setf2_only _ _ _ _ _ _ _ Hnsl Q1) as [-> ->], (setf2_only _ _ _ _ _ _ _ Hnsl Q2) as [-> ->]. auto.
  - intros _. apply (i_own_lt s I t b Hp).
  - unfold T2, T2'; sim. rewrite Hc'. left. rewrite setf2_same. auto.
  - intros u Hu Q. contradiction (own_only s t b I Hp u Hu).
Qed.

(** [committed] answers true: the value is committed, unless a pop was faster and has taken it *)
Lemma Inv2_commit s h t b x j tg :
  Inv2 s -> cinfo (th s t) = Some (b, x, j, tg) -> Inv2 (set_th (retok (set_head s h) b) t Idle).
Proof.
  intros I Hc. pose proof (cinfo_pblock _ _ _ _ _ Hc) as Hp. pose proof (i_own_lt s I t b Hp) as Hb2.
  pose proof (i_th s I t) as Ht. unfold T2, T2' in Ht. rewrite Hc in Ht.
  apply Inv2_token with (s := s) (bb := b); sim; try apply N.le_refl; try apply I; try discriminate; try exact Logic.I; auto.
  - intros b0 Hb0. rewrite commit_in, in_app_iff. cbn. intuition congruence.
  - apply commit_nodup. apply I.
  - intros _. apply commit_in. auto.
  - intros x0 j0 tg0 Q Hb. left. split; [apply commit_in; auto|]. intros Ho. exact (popped_not_in_slot s b x0 j0 tg0 I Hb Ho Q).
  - intros _ Ho. destruct Ht as [[Q _]|[_ Q]]; [|contradiction]. exists x, j. rewrite Q. reflexivity.
  - intros Hb x1 j1 x2 j2 Q1 Q2. apply (i_uniq s I); congruence.
  - intros u Hu Q. contradiction (own_only s t b I Hp u Hu).
  - intros _. apply commit_in. auto.
  - intros _. left. apply in_app_iff. cbn. auto.
Qed.

(** a value sits in one slot only: once that slot is emptied, no slot holds it *)
Lemma cleared s x j b tg tg' : Inv2 s -> slot s x j = (b, tg) -> b <> 0 ->
  forall x0 j0, fst (setf2 (slot s) x j (0, tg') x0 j0) <> b.
Proof.
  intros I Hsl Hb x0 j0. destruct (setf2_cases (slot s) x j (0, tg') x0 j0) as [(-> & -> & Q)|(Hn & Q)]; rewrite Q; [cbn; congruence|].
  intros H. destruct (i_uniq s I x0 j0 x j) as [-> ->]; [rewrite Hsl; exact H|rewrite H; exact Hb|]. destruct Hn; congruence.
Qed.

(** take-back CAS: [C9] -> [P1] *)
Lemma Inv2_back s t b x j tg tg' p' :
  Inv2 s -> cinfo (th s t) = Some (b, x, j, tg) -> slot s x j = (b, tg) -> pblock p' = Some b -> cinfo p' = None ->
  Inv2 (set_th (set_slot s x j (0, tg')) t p').
Proof.
  intros I Hc Hsl Hp' Hc'. pose proof (cinfo_pblock _ _ _ _ _ Hc) as Hp. pose proof (i_own_lt s I t b Hp) as Hb2.
  pose proof (i_th s I t) as Ht. unfold T2, T2' in Ht. rewrite Hc in Ht. destruct Ht as [[_ Hnin]|[Hin Hout]].
  2:{ exfalso. eapply (popped_not_in_slot s b x j tg); eauto. lia. }
  pose proof (cleared s x j b tg tg' I Hsl ltac:(lia)) as F2.
  apply Inv2_token with (s := s) (bb := b); sim; try apply I; try apply N.le_refl; try tauto.
  - intros x0 j0. destruct (setf2_cases (slot s) x j (0, tg') x0 j0) as [(-> & -> & Q)|(_ & Q)]; rewrite Q; [right; rewrite Hsl|left]; auto.
  - intros x0 j0 tg0 Q. contradiction (F2 x0 j0). rewrite Q. reflexivity.
  - intros _ x1 j1 x2 j2 Q. contradiction (F2 x1 j1).
  - unfold T2, T2'; sim. rewrite Hc', Hp'. auto.
  - intros u Hu Q. contradiction (own_only s t b I Hp u Hu).
Qed.

(** a pop takes the value of slot (x, j), which is committed at the latest now *)
Lemma Inv2_take s t p x j tg :
  Inv2 s -> pblock (th s t) = None -> slot s x j = (p, tg) -> p <> 0 -> Inv2 (set_th (take s x j p tg) t Idle).
Proof.
  intros I Hpb0 Hsl Hp.
  assert (Hc : forall c, cinfo (th s t) <> Some c) by (intros [[[b0 x0] j0] tg0] Q; rewrite (cinfo_pblock _ _ _ _ _ Q) in Hpb0; discriminate).
  assert (Hp2 : 2 <= p < nalloc s) by (pose proof (in_slot_known s I x j) as H; rewrite Hsl in H; apply H; exact Hp).
  assert (Hnout : ~ In p (g_out s)) by (intros Q; exact (popped_not_in_slot s p x j tg I Hp Q Hsl)).
  pose proof (cleared s x j p tg (tg + 1) I Hsl Hp) as F2.
  apply Inv2_token with (s := s) (bb := p); sim; try apply N.le_refl; try discriminate; try exact Logic.I; auto.
  - intros b0 Hb0. rewrite commit_in, in_app_iff. cbn. intuition congruence.
  - intros x0 j0. destruct (setf2_cases (slot s) x j (0, tg + 1) x0 j0) as [(-> & -> & Q)|(_ & Q)]; rewrite Q; [right; rewrite Hsl|left]; auto.
  - apply commit_nodup. apply I.
  - apply NoDup_snoc; [apply I|exact Hnout].
  - intros _. apply commit_in. auto.
  - intros x0 j0 tg0 Q. contradiction (F2 x0 j0). rewrite Q. reflexivity.
  - intros _ Q. contradiction Q. apply in_app_iff. cbn. auto.
  - intros _ x1 j1 x2 j2 Q. contradiction (F2 x1 j1).
  - (* the pusher of p, if still inside committed(), finds its value taken *)
    intros u Hu Q. split; [reflexivity|]. pose proof (i_th s I u) as H. unfold T2, T2' in *; sim. rewrite Q in *.
    destruct (cinfo (th s u)) as [[[[b0 x0] j0] tg0]|] eqn:Ec.
    + rewrite (cinfo_pblock _ _ _ _ _ Ec) in Q. injection Q as ->. right. rewrite commit_in, in_app_iff. cbn. auto.
    + destruct H as [_ H]. contradiction (H x j). rewrite Hsl. reflexivity.
  - intros Q. apply commit_in. left. apply (i_ok_in s I). exact Q.
  - intros _. destruct (i_slot s I x j p tg Hsl Hp) as [[A _]|[_ [u B]]].
    + destruct (i_in_ok s I p A) as [C|(u & x0 & j0 & tg0 & C)]; [left; exact C|right]. exists u, x0, j0, tg0.
      rewrite upd_other; [exact C|]. intros ->. exact (Hc _ C).
    + right. exists u, x, j, tg. rewrite upd_other; [exact B|]. intros ->. exact (Hc _ B).
Qed.

Set Default Proof Using "All".
Section L2.
  Variable k : N.
  Hypothesis Hk : 1 <= k.
  Notation step := (step k).

  Lemma lstep_own s p p' : lstep k s p p' -> cinfo p' = cinfo p /\ pblock p' = pblock p.
  Proof. destruct 1; cbn [cinfo pblock cblock]; rewrite ?pblock_kpc, ?cinfo_kpc; split; reflexivity. Qed.

  Lemma Inv2_step s a s' es : InvA k s -> Inv2 s -> step s a = Some (s', es) -> Inv2 s'.
  Proof.
    intros IA Iv Hst. destruct (step_inv k Hk s a s' es Hst) as (sh & p' & res & -> & [Hs|(Hl & -> & _)] & _).
    2:{ destruct (lstep_own _ _ _ Hl). apply (Inv2_frame s s _ _ Iv); try reflexivity; try apply N.le_refl; assumption. }
    set (t := actor a) in *. pose proof (a_th k s IA t) as Hme. remember (th s t) as p eqn:E. symmetry in E.
    destruct Hs; cbn [TA] in Hme;
      try (apply (Inv2_frame s _ _ _ Iv); sim; try reflexivity; try lia;
           rewrite E; cbn [cinfo pblock cblock]; rewrite ?pblock_kpc, ?cinfo_kpc; reflexivity).
    - apply (Inv2_alloc s t v Iv). rewrite E. reflexivity.
    - apply (Inv2_ins s t b (fst tl) j otag (otag + 1) _ Iv); first [rewrite E; reflexivity|reflexivity|assumption].
    - refine (Inv2_commit s (head s) t b (fst tl) j tg Iv _). rewrite E. reflexivity.
    - refine (Inv2_commit s _ t b (fst tl) j tg Iv _). rewrite E. reflexivity.
    - refine (Inv2_commit s (head s) t b (fst tl) j tg Iv _). rewrite E. reflexivity.
    - apply (Inv2_back s t b (fst tl) j tg (tg + 1) _ Iv); first [rewrite E; reflexivity|reflexivity|assumption].
    - refine (Inv2_commit s (head s) t b (fst tl) j tg Iv _). rewrite E. reflexivity.
    - apply (Inv2_take s t p (fst hd) j tg Iv); first [rewrite E; reflexivity|assumption|apply Hme].
  Qed.

  Theorem Inv2_reach st : reach init step st -> Inv2 st.
  Proof.
    apply (inv_rule_aux _ _ _ init step (InvA k) Inv2).
    - apply InvA_reach; assumption.
    - exact Inv2_init.
    - intros s a s' es J _ Iv Hst. eapply Inv2_step; eauto.
  Qed.
End L2.
