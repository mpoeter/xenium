(** vyukov_hash_map with several buckets and grow (Model/VhmGrowDefs.v): generic lemmas, step inversion, the
    structural invariant [Lk]: blocks, the resize lock, the bucket locks (also of replaced blocks) and the
    state words. *)
From Coq Require Import NArith List Bool Lia PeanoNat.
From XV Require Import Base.Word Conc.Lts Conc.Ev gen.BucketStateGen Proof.BucketState Model.VhmGrowDefs.
From XV Require Proof.VhmBase.
Import ListNotations.
Local Open Scope N_scope.

Notation W := VhmBase.W.
Notation wf_s := VhmBase.wf_s.
Notation mark := VhmBase.mark.

Definition isS {X : Type} (o : option X) : bool := match o with Some _ => true | None => false end.

Lemma setf2_same {X} (f : N -> N -> X) b j v : setf2 f b j v b j = v.
Proof. unfold setf2. rewrite !N.eqb_refl. reflexivity. Qed.
Lemma setf2_other {X} (f : N -> N -> X) b j v b' j' : b' <> b \/ j' <> j -> setf2 f b j v b' j' = f b' j'.
Proof.
  unfold setf2. intros H. destruct (N.eqb_spec b' b); destruct (N.eqb_spec j' j); cbn [andb]; try reflexivity.
  exfalso. tauto.
Qed.
Lemma setf3_same {X} (f : N -> N -> N -> X) b j i v : setf3 f b j i v b j i = v.
Proof. unfold setf3. rewrite !N.eqb_refl. reflexivity. Qed.
Lemma setf3_other {X} (f : N -> N -> N -> X) b j i v b' j' i' : b' <> b \/ j' <> j \/ i' <> i -> setf3 f b j i v b' j' i' = f b' j' i'.
Proof.
  unfold setf3. intros H. destruct (N.eqb_spec b' b); destruct (N.eqb_spec j' j); destruct (N.eqb_spec i' i); cbn [andb]; try reflexivity.
  exfalso. tauto.
Qed.
Lemma setf1_same {X} (f : N -> X) b v : setf1 f b v b = v.
Proof. unfold setf1. rewrite N.eqb_refl. reflexivity. Qed.
Lemma setf1_other {X} (f : N -> X) b v b' : b' <> b -> setf1 f b v b' = f b'.
Proof. unfold setf1. intros H. destruct (N.eqb_spec b' b); [contradiction|reflexivity]. Qed.
Lemma clr2_same {X} (f : N -> N -> X) b z j : clr2 f b z b j = z.
Proof. unfold clr2. rewrite N.eqb_refl. reflexivity. Qed.
Lemma clr2_other {X} (f : N -> N -> X) b z b' j : b' <> b -> clr2 f b z b' j = f b' j.
Proof. unfold clr2. intros H. destruct (N.eqb_spec b' b); [contradiction|reflexivity]. Qed.
Lemma clr3_same {X} (f : N -> N -> N -> X) b z j i : clr3 f b z b j i = z.
Proof. unfold clr3. rewrite N.eqb_refl. reflexivity. Qed.
Lemma clr3_other {X} (f : N -> N -> N -> X) b z b' j i : b' <> b -> clr3 f b z b' j i = f b' j i.
Proof. unfold clr3. intros H. destruct (N.eqb_spec b' b); [contradiction|reflexivity]. Qed.

(** * what a program point says about locks and blocks *)
(** the bucket whose lock a thread at [p] holds (lock_bucket / do_extract) *)
Definition pc_bkt (p : pc) : option (N * N) :=
  match p with
  | IK _ _ _ b j _ _ | IV _ _ _ b j _ _ | IUold _ _ _ b j _ _ | ISK _ _ _ b j _ | ISV _ _ _ b j _ | IUnew _ _ _ b j _
  | IH _ _ _ b j _ | GR1 _ _ _ b j _ | GR2 _ _ _ b j _ _
  | XK _ _ b j _ _ | XV _ _ b j _ _ | XH _ _ b j _ _ _ | XB1 _ _ b j _ _ _ | XB2 _ _ b j _ _ _ | XB3 _ _ b j _ _ _ _
  | XB4 _ _ b j _ _ _ _ _ | XB5 _ _ b j _ _ _ _ | XB6 _ _ b j _ _ _ | XHH _ _ b j _ | XU _ _ b j _ => Some (b, j)
  | _ => None
  end.
(** the word [bucket.state] holds meanwhile *)
Definition pc_bst (p : pc) : option N :=
  match p with
  | IK _ _ _ _ _ s _ | IV _ _ _ _ _ s _ | IUold _ _ _ _ _ s _ | ISK _ _ _ _ _ s | ISV _ _ _ _ _ s | IUnew _ _ _ _ _ s
  | IH _ _ _ _ _ s | GR1 _ _ _ _ _ s | GR2 _ _ _ _ _ s _
  | XK _ _ _ _ s _ | XV _ _ _ _ s _ | XH _ _ _ _ s _ _ | XB1 _ _ _ _ s _ _ | XHH _ _ _ _ s | XU _ _ _ _ s => Some (bs_locked s)
  | XB2 _ _ _ _ s i _ | XB3 _ _ _ _ s i _ _ | XB4 _ _ _ _ s i _ _ _ | XB5 _ _ _ _ s i _ _ => Some (mark s i)
  | XB6 _ _ _ _ s i _ => Some (if i =? bs_item_count s - 1 then bs_locked s else mark s i)
  | _ => None
  end.
(** the bucket locks a thread at [p] holds: one bucket, or (do_grow) the first buckets / all buckets of the old block *)
Definition holds (p : pc) (b j : N) : Prop :=
  match p with
  | DGL _ ob _ _ i | DGC _ ob _ _ i _ => b = ob /\ j < i
  | DMS _ ob _ n _ | DMK _ ob _ n _ _ _ | DMN _ ob _ n _ _ _ _ _ | DMV _ ob _ n _ _ _ _ _ _ | DMSK _ ob _ n _ _ _ _ _ _ _
  | DMSV _ ob _ n _ _ _ _ _ _ | DMSS _ ob _ n _ _ _ _ _ | DMH _ ob _ n _ | DP1 _ ob _ n => b = ob /\ j < n
  | _ => pc_bkt p = Some (b, j)
  end.
(** the bucket (of a block loaded from data_block) and the key a thread at [p] works on *)
Definition pc_ref (p : pc) : option (N * N * N) :=
  match p with
  | L2 _ k _ b j | L3 _ k _ b j _
  | IK _ k _ b j _ _ | IV _ k _ b j _ _ | IUold _ k _ b j _ _ | ISK _ k _ b j _ | ISV _ k _ b j _ | IUnew _ k _ b j _
  | IH _ k _ b j _ | GR1 _ k _ b j _ | GR2 _ k _ b j _ _
  | X2 _ k b j | X3 _ k b j _
  | XK _ k b j _ _ | XV _ k b j _ _ | XH _ k b j _ _ _ | XB1 _ k b j _ _ _ | XB2 _ k b j _ _ _ | XB3 _ k b j _ _ _ _
  | XB4 _ k b j _ _ _ _ _ | XB5 _ k b j _ _ _ _ | XB6 _ k b j _ _ _ | XHH _ k b j _ | XU _ k b j _
  | G2 k b j | GK k b j _ _ | GV k b j _ _ | GD k b j _ _ _ | GS k b j _ _ _ | GH k b j _ | GE k b j _ => Some (b, j, k)
  | _ => None
  end.
(** local facts about the state word [s] a thread has read, and its indices *)
Definition pc_wf (p : pc) : Prop :=
  match p with
  | L3 _ _ _ _ _ s => bs_is_locked s = false
  | X3 _ _ _ _ s => bs_is_locked s = false /\ bs_item_count s <> 0
  | IK _ _ _ _ _ s i | IV _ _ _ _ _ s i => wf_s s /\ i < bs_item_count s
  | IUold _ _ _ _ _ s _ => wf_s s
  | ISK _ _ _ _ _ s | ISV _ _ _ _ _ s | IUnew _ _ _ _ _ s => wf_s s /\ bs_item_count s < 3
  | IH _ _ _ _ _ s | GR1 _ _ _ _ _ s | GR2 _ _ _ _ _ s _ => wf_s s /\ bs_item_count s = 3
  | XK _ _ _ _ s i | XV _ _ _ _ s i | XH _ _ _ _ s i _ | XB6 _ _ _ _ s i _ => wf_s s /\ i < bs_item_count s
  | XB1 _ _ _ _ s i _ | XB2 _ _ _ _ s i _ | XB3 _ _ _ _ s i _ _ | XB4 _ _ _ _ s i _ _ _ | XB5 _ _ _ _ s i _ _ =>
    wf_s s /\ i < bs_item_count s /\ i <> bs_item_count s - 1
  | XHH _ _ _ _ s | XU _ _ _ _ s => wf_s s /\ bs_item_count s <> 0
  | DGL _ _ _ n i => i < n
  | DGC _ _ _ n i s => i < n /\ bs_is_locked s = false
  | DMS _ _ _ n i | DMH _ _ _ n i => i < n
  | DMK _ _ _ n i _ _ | DMN _ _ _ n i _ _ _ _ | DMV _ _ _ n i _ _ _ _ _ | DMSK _ _ _ n i _ _ _ _ _ _
  | DMSV _ _ _ n i _ _ _ _ _ | DMSS _ _ _ n i _ _ _ _ => i < n
  | _ => True
  end.
(** a thread between the successful exchange on resize_lock and the store that releases it *)
Definition rs_pc (p : pc) : bool :=
  match p with
  | GR2 _ _ _ _ _ _ ar => ar =? 0
  | DG1 _ | DGL _ _ _ _ _ | DGC _ _ _ _ _ _ | DMS _ _ _ _ _ | DMK _ _ _ _ _ _ _ | DMN _ _ _ _ _ _ _ _ _ | DMV _ _ _ _ _ _ _ _ _ _
  | DMSK _ _ _ _ _ _ _ _ _ _ _ | DMSV _ _ _ _ _ _ _ _ _ _ | DMSS _ _ _ _ _ _ _ _ _ | DMH _ _ _ _ _ | DP1 _ _ _ _ | DP2 _ _ _ => true
  | _ => false
  end.
(** old and new block of do_grow *)
Definition pc_blocks (p : pc) : option (N * N * N) :=
  match p with
  | DGL _ ob nb n _ | DGC _ ob nb n _ _ | DMS _ ob nb n _ | DMK _ ob nb n _ _ _ | DMN _ ob nb n _ _ _ _ _ | DMV _ ob nb n _ _ _ _ _ _
  | DMSK _ ob nb n _ _ _ _ _ _ _ | DMSV _ ob nb n _ _ _ _ _ _ | DMSS _ ob nb n _ _ _ _ _ | DMH _ ob nb n _ | DP1 _ ob nb n => Some (ob, nb, n)
  | _ => None
  end.

(** the thread that takes the step *)
Definition actor (a : action) : nat := match a with Start t _ | Step t => t end.

(** completion of a call: [ret st t o r] is [go (fin st t o r) t Idle] *)
Definition fin (st : state) (t : nat) (o : op) (r : list N) : state :=
  s_g_hist st (g_hist st ++ [mkH t o r (g_lp st t) (g_obs st t)]).

Ltac st_simpl :=
  cbn [db rlock nalloc bcnt bst akey aval th g_map g_own g_frozen g_rown g_nver g_lp g_rv g_obs g_hist g_retired
       s_db s_rlock s_nalloc s_bcnt s_bst s_akey s_aval s_th s_g_map s_g_own s_g_frozen s_g_rown s_g_nver s_g_lp s_g_rv
       s_g_obs s_g_hist s_g_retired go obs obs_all lp ret fin bump wst own actor] in *.
Ltac st_simpl_goal :=
  cbn [db rlock nalloc bcnt bst akey aval th g_map g_own g_frozen g_rown g_nver g_lp g_rv g_obs g_hist g_retired
       s_db s_rlock s_nalloc s_bcnt s_bst s_akey s_aval s_th s_g_map s_g_own s_g_frozen s_g_rown s_g_nver s_g_lp s_g_rv
       s_g_obs s_g_hist s_g_retired go obs obs_all lp ret fin bump wst own actor].

Ltac b2p := VhmBase.b2p.
Ltac rsplit := repeat match goal with |- _ /\ _ => split end.

Section VhmGrowBase.
  Variable hash : N -> N.
  Notation step := (step hash).

  (** * The transitions of thread [t] at program point [p], one constructor per branch of [step], guards as
      propositions: from [st] to [go st1 t p'].  [tlocal]: [st1] differs from [st] at most in the ghosts of the calls ([g_lp], [g_rv], [g_obs],
      [g_hist]); [tshared]: the accesses that write shared memory or move a lock. *)
  Inductive tlocal (st : state) (t : nat) : pc -> state -> pc -> Prop :=
  | TL_Bins k v : tlocal st t (Begin (OIns k v)) (s_g_lp st (upd (g_lp st) t None)) (L1 false k v)
  | TL_Bgins k v : tlocal st t (Begin (OGetIns k v)) (s_g_lp st (upd (g_lp st) t None)) (L1 true k v)
  | TL_Bdel k :
      tlocal st t (Begin (ODel k)) (s_g_obs (s_g_lp st (upd (g_lp st) t None)) (upd (g_obs st) t [])) (X1 false k)
  | TL_Bext k :
      tlocal st t (Begin (OExt k)) (s_g_obs (s_g_lp st (upd (g_lp st) t None)) (upd (g_obs st) t [])) (X1 true k)
  | TL_Bget k : tlocal st t (Begin (OGet k)) (s_g_obs st (upd (g_obs st) t [])) (G1 k)
  | TL_L1 a k v : tlocal st t (L1 a k v) st (L2 a k v (db st) (bix hash st (db st) k))
  | TL_L2l a k v b j (Ec : bs_is_locked (bst st b j) = true) : tlocal st t (L2 a k v b j) st (L1 a k v)
  | TL_L2 a k v b j (Ec : bs_is_locked (bst st b j) = false) :
      tlocal st t (L2 a k v b j) st (L3 a k v b j (bst st b j))
  | TL_L3f a k v b j s (Ec : bst st b j <> s) : tlocal st t (L3 a k v b j s) st (L1 a k v)
  | TL_IKv k v b j s i (Ek : akey st b j i = k) : tlocal st t (IK true k v b j s i) st (IV true k v b j s i)
  | TL_IKo k v b j s i (Ek : akey st b j i = k) :
      tlocal st t (IK false k v b j s i) st (IUold false k v b j s 0)
  | TL_IKn a k v b j s i (Ek : akey st b j i <> k) (Ei : i + 1 < bs_item_count s) :
      tlocal st t (IK a k v b j s i) st (IK a k v b j s (i + 1))
  | TL_IKs a k v b j s i (Ek : akey st b j i <> k) (Ei : bs_item_count s <= i + 1)
      (Ef : bs_item_count s < 3) : tlocal st t (IK a k v b j s i) st (ISK a k v b j s)
  | TL_IKh a k v b j s i (Ek : akey st b j i <> k) (Ei : bs_item_count s <= i + 1)
      (Ef : 3 <= bs_item_count s) : tlocal st t (IK a k v b j s i) st (IH a k v b j s)
  | TL_IV a k v b j s i : tlocal st t (IV a k v b j s i) st (IUold a k v b j s (aval st b j i))
  | TL_IH a k v b j s : tlocal st t (IH a k v b j s) st (GR1 a k v b j s)
  | TL_GRW c (Ec : rlock st = 0) : tlocal st t (GRW c) st (L1 (c_a c) (c_k c) (c_v c))
  | TL_GRWw c (Ec : rlock st <> 0) : tlocal st t (GRW c) st (GRW c)
  | TL_DGLl c ob nb n i (Ec : bs_is_locked (bst st ob i) = true) :
      tlocal st t (DGL c ob nb n i) st (DGL c ob nb n i)
  | TL_DGL c ob nb n i (Ec : bs_is_locked (bst st ob i) = false) :
      tlocal st t (DGL c ob nb n i) st (DGC c ob nb n i (bst st ob i))
  | TL_DGCf c ob nb n i s (Ec : bst st ob i <> s) : tlocal st t (DGC c ob nb n i s) st (DGL c ob nb n i)
  | TL_DMSe c ob nb n i (Ec : bs_item_count (bst st ob i) = 0) :
      tlocal st t (DMS c ob nb n i) st (DMH c ob nb n i)
  | TL_DMS c ob nb n i (Ec : bs_item_count (bst st ob i) <> 0) :
      tlocal st t (DMS c ob nb n i) st (DMK c ob nb n i (bs_item_count (bst st ob i)) 0)
  | TL_DMK c ob nb n i cn x :
      tlocal st t (DMK c ob nb n i cn x) st (DMN c ob nb n i cn x (akey st ob i x) (hash (akey st ob i x) mod dbl n))
  | TL_DMN c ob nb n i cn x kk jn :
      tlocal st t (DMN c ob nb n i cn x kk jn) st (DMV c ob nb n i cn x kk jn (bst st nb jn))
  | TL_DMV c ob nb n i cn x kk jn ns :
      tlocal st t (DMV c ob nb n i cn x kk jn ns) st (DMSK c ob nb n i cn x kk jn ns (aval st ob i x))
  | TL_DMHl c ob nb n i (Ec : i + 1 = n) : tlocal st t (DMH c ob nb n i) st (DP1 c ob nb n)
  | TL_DMH c ob nb n i (Ec : i + 1 <> n) : tlocal st t (DMH c ob nb n i) st (DMS c ob nb n (i + 1))
  | TL_X1 e k : tlocal st t (X1 e k) (obs st t k) (X2 e k (db st) (bix hash st (db st) k))
  | TL_X2e e k b j (Ec : bs_item_count (bst st b j) = 0) :
      tlocal st t (X2 e k b j) (fin (obs st t k) t (del_op e k) (del_res e false 0)) Idle
  | TL_X2l e k b j (Ec : bs_item_count (bst st b j) <> 0)
      (El : bs_is_locked (bst st b j) = true) : tlocal st t (X2 e k b j) (obs st t k) (X1 e k)
  | TL_X2 e k b j (Ec : bs_item_count (bst st b j) <> 0)
      (El : bs_is_locked (bst st b j) = false) : tlocal st t (X2 e k b j) (obs st t k) (X3 e k b j (bst st b j))
  | TL_X3f e k b j s (Ec : bst st b j <> s) : tlocal st t (X3 e k b j s) st (X1 e k)
  | TL_XKm e k b j s i (Ek : akey st b j i = k) : tlocal st t (XK e k b j s i) st (XV e k b j s i)
  | TL_XKn e k b j s i (Ek : akey st b j i <> k) (Ei : i + 1 < bs_item_count s) :
      tlocal st t (XK e k b j s i) st (XK e k b j s (i + 1))
  | TL_XKe e k b j s i (Ek : akey st b j i <> k) (Ei : bs_item_count s <= i + 1) :
      tlocal st t (XK e k b j s i) st (XHH e k b j s)
  | TL_XV e k b j s i : tlocal st t (XV e k b j s i) st (XH e k b j s i (aval st b j i))
  | TL_XHm e k b j s i r (Ei : i <> bs_item_count s - 1) :
      tlocal st t (XH e k b j s i r) st (XB1 e k b j s i r)
  | TL_XHl e k b j s i r (Ei : i = bs_item_count s - 1) :
      tlocal st t (XH e k b j s i r) st (XB6 e k b j s i r)
  | TL_XB2 e k b j s i r :
      tlocal st t (XB2 e k b j s i r) st (XB3 e k b j s i r (akey st b j (bs_item_count s - 1)))
  | TL_XB3 e k b j s i r kk :
      tlocal st t (XB3 e k b j s i r kk) st (XB4 e k b j s i r kk (aval st b j (bs_item_count s - 1)))
  | TL_XHH e k b j s : tlocal st t (XHH e k b j s) st (XU e k b j s)
  | TL_G1 k : tlocal st t (G1 k) (obs st t k) (G2 k (db st) (bix hash st (db st) k))
  | TL_G2 k b j (Ec : 0 < bs_item_count (bst st b j)) :
      tlocal st t (G2 k b j) (s_g_rv (obs st t k) (upd (g_rv st) t (g_nver st b j))) (GK k b j (bst st b j) 0)
  | TL_G2e k b j (Ec : bs_item_count (bst st b j) = 0) :
      tlocal st t (G2 k b j) (s_g_rv (obs st t k) (upd (g_rv st) t (g_nver st b j))) (GH k b j (bst st b j))
  | TL_GKm k b j s i (Ek : akey st b j i = k) : tlocal st t (GK k b j s i) (obs st t k) (GV k b j s i)
  | TL_GKn k b j s i (Ek : akey st b j i <> k) (Ei : i + 1 < bs_item_count s) :
      tlocal st t (GK k b j s i) (obs st t k) (GK k b j s (i + 1))
  | TL_GKe k b j s i (Ek : akey st b j i <> k) (Ei : bs_item_count s <= i + 1) :
      tlocal st t (GK k b j s i) (obs st t k) (GH k b j s)
  | TL_GV k b j s i : tlocal st t (GV k b j s i) (obs st t k) (GD k b j s i (aval st b j i))
  | TL_GD k b j s i v (Ec : db st = b) : tlocal st t (GD k b j s i v) (obs st t k) (GS k b j s i v)
  | TL_GDr k b j s i v (Ec : db st <> b) : tlocal st t (GD k b j s i v) (obs st t k) (G1 k)
  | TL_GSv k b j s i v (Ev : bs_version s <> bs_version (bst st b j)) :
      tlocal st t (GS k b j s i v) (obs st t k) (G2 k b j)
  | TL_GSn k b j s i v (Ev : bs_version s = bs_version (bst st b j))
      (Em : bs_delete_marker (bst st b j) = i + 1) (Ei : i + 1 < bs_item_count s) :
      tlocal st t (GS k b j s i v) (obs st t k) (GK k b j s (i + 1))
  | TL_GSe k b j s i v (Ev : bs_version s = bs_version (bst st b j))
      (Em : bs_delete_marker (bst st b j) = i + 1) (Ei : bs_item_count s <= i + 1) : tlocal st t (GS k b j s i v) (obs st t k) (GH k b j s)
  | TL_GSr k b j s i v (Ev : bs_version s = bs_version (bst st b j))
      (Em : bs_delete_marker (bst st b j) <> i + 1) : tlocal st t (GS k b j s i v) (fin (obs st t k) t (OGet k) [4; 1; v]) Idle
  | TL_GH k b j s : tlocal st t (GH k b j s) (obs st t k) (GE k b j s)
  | TL_GEv k b j s (Ev : bs_version s <> bs_version (bst st b j)) :
      tlocal st t (GE k b j s) (obs st t k) (G2 k b j)
  | TL_GEr k b j s (Ev : bs_version s = bs_version (bst st b j)) :
      tlocal st t (GE k b j s) (fin (obs st t k) t (OGet k) [4; 0]) Idle.

  Inductive tshared (st : state) (t : nat) : pc -> state -> pc -> Prop :=
  | TS_L3 a k v b j s (Ec : bst st b j = s) :
      tshared st t (L3 a k v b j s) (own (wst st b j (bs_locked s)) b j (Some t))
              (if 0 <? bs_item_count s then IK a k v b j s 0 else ISK a k v b j s)
  | TS_IUold a k v b j s r :
      tshared st t (IUold a k v b j s r) (fin (lp (own (wst st b j s) b j None) t k) t (ins_op a k v) (ins_res a false r)) Idle
  | TS_ISK a k v b j s :
      tshared st t (ISK a k v b j s) (s_akey st (setf3 (akey st) b j (bs_item_count s) k)) (ISV a k v b j s)
  | TS_ISV a k v b j s :
      tshared st t (ISV a k v b j s) (s_aval st (setf3 (aval st) b j (bs_item_count s) v)) (IUnew a k v b j s)
  | TS_IUnew a k v b j s :
      tshared st t (IUnew a k v b j s) (fin (s_g_map (lp (own (wst st b j (bs_inc_item_count s)) b j None) t k) ((k, v) :: g_map st)) t
                        (ins_op a k v) (ins_res a true v)) Idle
  | TS_GR1 a k v b j s :
      tshared st t (GR1 a k v b j s) (s_g_rown (s_rlock st 1) (if rlock st =? 0 then Some t else g_rown st)) (GR2 a k v b j s (rlock st))
  | TS_GR2 a k v b j s ar :
      tshared st t (GR2 a k v b j s ar) (own (wst st b j s) b j None) (if ar =? 0 then DG1 (mkIC a k v) else GRW (mkIC a k v))
  | TS_DG1 c (Ec : dbl (bcnt st (db st)) < max_buckets) :
      tshared st t (DG1 c) (s_g_nver (s_g_own (s_aval (s_akey (s_bst (s_bcnt (s_nalloc st (nalloc st + 1))
                      (setf1 (bcnt st) (nalloc st) (dbl (bcnt st (db st))))) (clr2 (bst st) (nalloc st) 0))
                      (clr3 (akey st) (nalloc st) 0)) (clr3 (aval st) (nalloc st) 0)) (clr2 (g_own st) (nalloc st) None))
                      (clr2 (g_nver st) (nalloc st) 0))
              (DGL c (db st) (nalloc st) (bcnt st (db st)) 0)
  | TS_DGC c ob nb n i s (Ec : bst st ob i = s) :
      tshared st t (DGC c ob nb n i s) (own (wst st ob i (bs_locked s)) ob i (Some t)) (if i + 1 =? n then DMS c ob nb n 0 else DGL c ob nb n (i + 1))
  | TS_DMSK c ob nb n i cn x kk jn ns vv :
      tshared st t (DMSK c ob nb n i cn x kk jn ns vv) (s_akey st (setf3 (akey st) nb jn (bs_item_count ns) kk)) (DMSV c ob nb n i cn x jn ns vv)
  | TS_DMSV c ob nb n i cn x jn ns vv :
      tshared st t (DMSV c ob nb n i cn x jn ns vv) (s_aval st (setf3 (aval st) nb jn (bs_item_count ns) vv)) (DMSS c ob nb n i cn x jn ns)
  | TS_DMSS c ob nb n i cn x jn ns :
      tshared st t (DMSS c ob nb n i cn x jn ns) (wst st nb jn (bs_inc_item_count ns)) (if x + 1 =? cn then DMH c ob nb n i else DMK c ob nb n i cn (x + 1))
  | TS_DP1 c ob nb n :
      tshared st t (DP1 c ob nb n) (s_g_own (s_g_frozen (s_db (obs_all st) nb) (setf1 (g_frozen st) ob true)) (clr2 (g_own st) ob None))
              (DP2 c ob nb)
  | TS_DP2 c ob nb :
      tshared st t (DP2 c ob nb) (s_g_rown (s_g_retired (s_rlock st 0) (g_retired st ++ [ob])) None) (L1 (c_a c) (c_k c) (c_v c))
  | TS_X3 e k b j s (Ec : bst st b j = s) :
      tshared st t (X3 e k b j s) (own (wst st b j (bs_locked s)) b j (Some t)) (XK e k b j s 0)
  | TS_XB1 e k b j s i r :
      tshared st t (XB1 e k b j s i r) (s_g_map (lp (wst st b j (mark s i)) t k) (rem k (g_map st))) (XB2 e k b j s i r)
  | TS_XB4 e k b j s i r kk vv :
      tshared st t (XB4 e k b j s i r kk vv) (s_akey st (setf3 (akey st) b j i kk)) (XB5 e k b j s i r vv)
  | TS_XB5 e k b j s i r vv :
      tshared st t (XB5 e k b j s i r vv) (s_aval st (setf3 (aval st) b j i vv)) (XB6 e k b j s i r)
  | TS_XB6 e k b j s i r :
      tshared st t (XB6 e k b j s i r) (fin (s_g_map (s_g_lp (own (bump (wst st b j (bs_dec_item_count (bs_new_version s))) b j) b j None)
                                         (if i =? bs_item_count s - 1 then upd (g_lp st) t (Some (lookup k (g_map st))) else g_lp st))
                                 (if i =? bs_item_count s - 1 then rem k (g_map st) else g_map st))
                        t (del_op e k) (del_res e true r)) Idle
  | TS_XU e k b j s :
      tshared st t (XU e k b j s) (fin (lp (own (wst st b j s) b j None) t k) t (del_op e k) (del_res e false 0)) Idle.

  Inductive step_case (st : state) : action -> state -> Prop :=
  | SC_start t o (Epc : th st t = Idle) : step_case st (Start t o) (go st t (Begin o))
  | SC_local t p st1 p' (Epc : th st t = p) (HL : tlocal st t p st1 p') : step_case st (Step t) (go st1 t p')
  | SC_shared t p st1 p' (Epc : th st t = p) (HS : tshared st t p st1 p') : step_case st (Step t) (go st1 t p').

  Lemma step_inv st a st' es : step st a = Some (st', es) -> step_case st a st'.
  Proof.
    assert (HL : forall t p st1 p', th st t = p -> tlocal st t p st1 p' -> st' = go st1 t p' -> step_case st (Step t) st')
      by (intros; subst; econstructor; [reflexivity | assumption]).
    assert (HS : forall t p st1 p', th st t = p -> tshared st t p st1 p' -> st' = go st1 t p' -> step_case st (Step t) st')
      by (intros; subst; econstructor; [reflexivity | assumption]).
    intros H. destruct a as [t o | t]; cbn [step] in H; unfold g_next_slot in H; destruct (th st t) eqn:Epc; try discriminate H.
    (* the conditions of [step] and of the successor pc, then as propositions *)
    all: repeat match type of H with
         | (if ?c then _ else _) = Some _ => destruct c eqn:?Ec
         | (match ?o with _ => _ end) = Some _ => destruct o
         end; try discriminate H.
    all: repeat match type of H with context [if ?c then _ else _] => destruct c eqn:?Ei end.
    all: injection H as <- _; b2p; try match goal with E : _ <= 0 |- _ => apply N.le_0_r in E end.
    all: first [ exact (SC_start _ _ _ Epc)
               | eapply HL; [exact Epc | econstructor; eassumption | reflexivity]
               | eapply HS; [exact Epc | econstructor; eassumption | reflexivity]
               | eapply HS; [exact Epc | econstructor; eassumption |];
                 match goal with |- context [if ?c then _ else _] => destruct c eqn:E end; b2p; first [reflexivity | lia] ].
  Qed.

  (** what do_grow knows about its blocks *)
  Definition pc_gw (st : state) (p : pc) : Prop :=
    match p with
    | DP2 _ ob nb => nb = db st /\ g_frozen st ob = true
    | _ => match pc_blocks p with
           | Some (ob, nb, n) => ob = db st /\ n = bcnt st ob /\ nb < nalloc st /\ nb <> ob /\ g_frozen st nb = false /\
                                 1 <= nb /\ bcnt st nb = dbl n
           | None => True
           end
    end.

  Record Lk (st : state) : Prop := mkLk {
    K_db : 1 <= db st /\ db st < nalloc st /\ 0 < bcnt st (db st) /\ g_frozen st (db st) = false;
    K_fr : forall b, g_frozen st b = true -> b < nalloc st /\ 0 < bcnt st b;
    K_lt : forall b j, bst st b j < 2 ^ 32;
    K_ic : forall b j, bs_item_count (bst st b j) <= 3;
    K_ver : forall b j, bs_version (bst st b j) = g_nver st b j mod 2 ^ 27;
    K_bit : forall b j, bs_is_locked (bst st b j) = (isS (g_own st b j) || (g_frozen st b && (j <? bcnt st b)));
    K_mk : forall b j, (forall t, g_own st b j = Some t -> pc_bst (th st t) = None) -> bs_delete_marker (bst st b j) = 0;
    K_hold : forall t b j, holds (th st t) b j -> g_own st b j = Some t;
    K_pc : forall t b j, g_own st b j = Some t -> holds (th st t) b j;
    K_cur : forall t b j, holds (th st t) b j -> b = db st /\ j < bcnt st b;
    K_bst : forall t b j w, pc_bkt (th st t) = Some (b, j) -> pc_bst (th st t) = Some w -> bst st b j = w;
    K_wf : forall t, pc_wf (th st t);
    K_ref : forall t b j k, pc_ref (th st t) = Some (b, j, k) -> (b = db st \/ g_frozen st b = true) /\ j = hash k mod bcnt st b;
    K_gw : forall t, pc_gw st (th st t);
    K_rl : rlock st = match g_rown st with Some _ => 1 | None => 0 end;
    K_rown : forall t, rs_pc (th st t) = true -> g_rown st = Some t;
    K_rpc : forall t, g_rown st = Some t -> rs_pc (th st t) = true
  }.

  Lemma Lk_init cap : 0 < cap -> Lk (init cap).
  Proof.
    intros cap_pos. constructor; cbn; try (intros; discriminate); try reflexivity; try lia; try (intros; congruence); try tauto.
  Qed.

  (** the capacity of the buckets of the new block during the migration (follows from the migration invariant,
      Proof/VhmGrowAbs.v) *)
  Definition MC (st : state) : Prop :=
    forall t c ob nb n i cn x jn ns, th st t = DMSS c ob nb n i cn x jn ns -> ns = bst st nb jn /\ bs_item_count ns < 3.

  (** ** consequences *)
  Lemma holds_of_bkt p b j : pc_bkt p = Some (b, j) -> holds p b j.
  Proof. destruct p; cbn [holds pc_bkt]; intros H; try discriminate H; exact H. Qed.

  Lemma unlocked_free st b j : Lk st -> bs_is_locked (bst st b j) = false ->
    g_own st b j = None /\ (g_frozen st b && (j <? bcnt st b)) = false /\ bs_delete_marker (bst st b j) = 0.
  Proof.
    intros HI H. rewrite (K_bit _ HI) in H. apply orb_false_iff in H. destruct H as [H1 H2].
    assert (Ho : g_own st b j = None) by (destruct (g_own st b j); [discriminate H1 | reflexivity]).
    split; [exact Ho|]. split; [exact H2|]. apply (K_mk _ HI). intros t Ht. congruence.
  Qed.

  Lemma rs_unique st t t' : Lk st -> rs_pc (th st t) = true -> rs_pc (th st t') = true -> t = t'.
  Proof. intros HI H1 H2. pose proof (K_rown _ HI _ H1). pose proof (K_rown _ HI _ H2). congruence. Qed.

  (** a thread that holds one bucket lock: its block is the current one, the word is the one its pc says *)
  Lemma holder_facts st t b j w : Lk st -> pc_bkt (th st t) = Some (b, j) -> pc_bst (th st t) = Some w ->
    bst st b j = w /\ g_own st b j = Some t /\ b = db st /\ j < bcnt st b /\ g_frozen st b = false.
  Proof.
    intros HI H1 H2. pose proof (holds_of_bkt _ _ _ H1) as Hh.
    destruct (K_cur _ HI t b j Hh) as [Hc1 Hc2]. rsplit; try assumption.
    - apply (K_bst _ HI t); assumption.
    - apply (K_hold _ HI); exact Hh.
    - subst b. apply (K_db _ HI).
  Qed.

  Lemma word0 : 0 < 2 ^ 32 /\ bs_item_count 0 = 0 /\ bs_version 0 = 0 /\ bs_is_locked 0 = false /\ bs_delete_marker 0 = 0.
  Proof. vm_compute. repeat split. Qed.

  Lemma not_frozen_fresh st b : Lk st -> nalloc st <= b -> g_frozen st b = false.
  Proof. intros HI H. destruct (g_frozen st b) eqn:E; [|reflexivity]. apply (K_fr _ HI) in E. lia. Qed.

  (** nobody holds a lock on a bucket outside the current block *)
  Lemma own_cur st t b j : Lk st -> g_own st b j = Some t -> b = db st /\ j < bcnt st b.
  Proof. intros HI H. apply (K_cur _ HI t). apply (K_pc _ HI). exact H. Qed.

  Lemma ref_lt st t b j k : Lk st -> pc_ref (th st t) = Some (b, j, k) -> j < bcnt st b.
  Proof.
    intros HI H. destruct (K_ref _ HI t b j k H) as [H1 ->]. apply N.mod_lt.
    destruct H1 as [->|H1]; [pose proof (K_db _ HI) | apply (K_fr _ HI) in H1]; lia.
  Qed.

  (** a successful CAS on the state word of a bucket reached through data_block: the block is still current *)
  Lemma acq_facts st t b j k : Lk st -> pc_ref (th st t) = Some (b, j, k) -> bs_is_locked (bst st b j) = false ->
    g_own st b j = None /\ b = db st /\ j < bcnt st b /\ bs_delete_marker (bst st b j) = 0.
  Proof.
    intros HI H Hl. pose proof (ref_lt _ _ _ _ _ HI H) as Hlt. destruct (unlocked_free _ _ _ HI Hl) as (H1 & H2 & H3).
    rsplit; try assumption. destruct (K_ref _ HI t b j k H) as [[->|Hf] _]; [reflexivity|].
    rewrite Hf in H2. apply N.ltb_lt in Hlt. rewrite Hlt in H2. discriminate H2.
  Qed.

  Definition word_ok (st : state) (b j : N) : Prop :=
    bst st b j < 2 ^ 32 /\ bs_item_count (bst st b j) <= 3 /\ bs_version (bst st b j) = g_nver st b j mod 2 ^ 27 /\
    bs_is_locked (bst st b j) = (isS (g_own st b j) || (g_frozen st b && (j <? bcnt st b))).

  Lemma word_ok_Lk st b j : Lk st -> word_ok st b j.
  Proof. intros HI. repeat split; [apply (K_lt _ HI) | apply (K_ic _ HI) | apply (K_ver _ HI) | apply (K_bit _ HI)]. Qed.

  Lemma word_ok_W st b j l c d v : W (bst st b j) l c d v -> c <= 3 -> v = g_nver st b j mod 2 ^ 27 ->
    l = (isS (g_own st b j) || (g_frozen st b && (j <? bcnt st b))) -> word_ok st b j.
  Proof. intros (H1 & <- & <- & _ & <-) H2 H3 H4. repeat split; assumption. Qed.

  (** [pc_gw] reads four fields of the state *)
  Lemma pc_gw_ext st st' p : db st' = db st -> nalloc st' = nalloc st -> bcnt st' = bcnt st -> g_frozen st' = g_frozen st ->
    pc_gw st p -> pc_gw st' p.
  Proof. destruct st, st'; cbn [VhmGrowDefs.db VhmGrowDefs.nalloc VhmGrowDefs.bcnt VhmGrowDefs.g_frozen]; intros -> -> -> -> H; exact H. Qed.

  (** case split on whether [u] is the thread that moved *)
  Ltac split_u u :=
    match goal with |- context [upd ?f ?t ?p u] => destruct (VhmBase.upd_cases f t p u) as [[-> E]|[Hne E]]; rewrite E; clear E end.

  (** ** The frame of [Lk]: a step of thread [t] that keeps the block fields.  Every bucket either keeps word, owner
      and version count ([bkt_same]), or is one whose lock nobody else holds, before or after, and the new word
      is accounted for ([bkt_new]). *)
  Definition bkt_same (st st' : state) (t : nat) (p' : pc) (b j : N) : Prop :=
    bst st' b j = bst st b j /\ g_own st' b j = g_own st b j /\ g_nver st' b j = g_nver st b j /\
    (g_own st b j = Some t -> pc_bst p' = None -> pc_bst (th st t) = None).
  Definition bkt_new (st st' : state) (t : nat) (p' : pc) (b j : N) : Prop :=
    word_ok st' b j /\ ((g_own st' b j = Some t -> pc_bst p' = None) -> bs_delete_marker (bst st' b j) = 0) /\
    (g_own st b j = None \/ g_own st b j = Some t) /\
    (g_own st' b j = None \/ g_own st' b j = Some t /\ b = db st /\ j < bcnt st b).

  Lemma Lk_frame st st' t p' : Lk st ->
    db st' = db st -> nalloc st' = nalloc st -> bcnt st' = bcnt st -> g_frozen st' = g_frozen st ->
    th st' = upd (th st) t p' ->
    rlock st' = match g_rown st' with Some _ => 1 | None => 0 end ->
    (forall u, g_rown st' = Some u <-> rs_pc (th st' u) = true) ->
    (forall b j, bkt_same st st' t p' b j \/ bkt_new st st' t p' b j) ->
    (forall b j, holds p' b j <-> g_own st' b j = Some t) ->
    (forall b j w, pc_bkt p' = Some (b, j) -> pc_bst p' = Some w -> bst st' b j = w) ->
    pc_wf p' ->
    (forall b j k, pc_ref p' = Some (b, j, k) -> (b = db st \/ g_frozen st b = true) /\ j = hash k mod bcnt st b) ->
    pc_gw st p' -> Lk st'.
  Proof.
    intros HI Ed En Eb Ef Et Hrl Hrs Hbk Hh Hbst Hwf Href Hgw.
    assert (Hoth : forall b j u, u <> t -> (g_own st' b j = Some u <-> g_own st b j = Some u)).
    { intros b j u Hne. destruct (Hbk b j) as [(_ & -> & _)|(_ & _ & [E|E] & [E'|(E' & _)])]; [reflexivity|..];
        rewrite E, E'; split; congruence. }
    assert (Hw : forall b j, word_ok st' b j).
    { intros b j. destruct (Hbk b j) as [(E1 & E2 & E3 & _)|(Hw & _)]; [|exact Hw].
      unfold word_ok. rewrite E1, E2, E3, Ef, Eb. apply word_ok_Lk. exact HI. }
    constructor; try (intros b j; apply Hw); rewrite ?Ed, ?En, ?Eb, ?Ef.
    - exact (K_db _ HI).
    - exact (K_fr _ HI).
    - intros b j Hp. destruct (Hbk b j) as [(E1 & E2 & _ & Hn)|(_ & Hm & _)].
      + rewrite E1. apply (K_mk _ HI). intros u Hu. specialize (Hp u). rewrite E2, Et in Hp. specialize (Hp Hu).
        destruct (VhmBase.upd_cases (th st) t p' u) as [[-> E]|[Hne E]]; rewrite E in Hp; [exact (Hn Hu Hp) | exact Hp].
      + apply Hm. intros Hu. specialize (Hp t Hu). rewrite Et, upd_same in Hp. exact Hp.
    - intros u b j. rewrite Et. split_u u; [apply Hh|].
      intros H. apply Hoth; [exact Hne|]. apply (K_hold _ HI). exact H.
    - intros u b j Hu. rewrite Et. split_u u; [apply Hh; exact Hu|].
      apply (K_pc _ HI). apply Hoth; assumption.
    - intros u b j. rewrite Et. split_u u; [|apply (K_cur _ HI)].
      intros H. apply Hh in H. destruct (Hbk b j) as [(_ & E2 & _)|(_ & _ & _ & [E'|(_ & H1 & H2)])].
      + rewrite E2 in H. exact (own_cur _ _ _ _ HI H).
      + congruence.
      + split; assumption.
    - intros u b j w. rewrite Et. split_u u; [apply Hbst|].
      intros H1 H2. pose proof (K_hold _ HI _ _ _ (holds_of_bkt _ _ _ H1)) as Ho.
      destruct (Hbk b j) as [(-> & _)|(_ & _ & [E'|E'] & _)]; [exact (K_bst _ HI u _ _ _ H1 H2) | congruence | congruence].
    - intros u. rewrite Et. split_u u; [exact Hwf | apply (K_wf _ HI)].
    - intros u. rewrite Et. split_u u; [exact Href | apply (K_ref _ HI)].
    - intros u. apply (pc_gw_ext st); try assumption. rewrite Et.
      split_u u; [exact Hgw | apply (K_gw _ HI)].
    - exact Hrl.
    - intros u Hu. apply Hrs. exact Hu.
    - intros u Hu. apply Hrs. exact Hu.
  Qed.


  Ltac pcs := cbn [holds pc_bkt pc_bst pc_wf pc_ref pc_gw pc_blocks rs_pc].

  Lemma pc_gw_nonrs st p : rs_pc p = false -> pc_gw st p.
  Proof. destruct p; pcs; intros H; try exact I; discriminate H. Qed.

  Lemma rs_same st st' t p' : Lk st -> g_rown st' = g_rown st -> th st' = upd (th st) t p' -> rs_pc p' = rs_pc (th st t) ->
    forall u, g_rown st' = Some u <-> rs_pc (th st' u) = true.
  Proof.
    intros HI Eg Et Er u. rewrite Eg, Et.
    destruct (VhmBase.upd_cases (th st) t p' u) as [[-> E]|[Hne E]]; rewrite E, ?Er;
      (split; [apply (K_rpc _ HI) | apply (K_rown _ HI)]).
  Qed.

  (** the thread moves, and maybe the resize lock: no other field that [Lk] reads changes *)
  Lemma Lk_move st st' t p' : Lk st ->
    db st' = db st -> nalloc st' = nalloc st -> bcnt st' = bcnt st -> g_frozen st' = g_frozen st ->
    bst st' = bst st -> g_own st' = g_own st -> g_nver st' = g_nver st -> th st' = upd (th st) t p' ->
    rlock st' = match g_rown st' with Some _ => 1 | None => 0 end ->
    (forall u, g_rown st' = Some u <-> rs_pc (th st' u) = true) ->
    pc_bkt p' = pc_bkt (th st t) -> pc_bst p' = pc_bst (th st t) -> (forall b j, holds p' b j <-> holds (th st t) b j) ->
    pc_wf p' ->
    (forall b j k, pc_ref p' = Some (b, j, k) -> pc_ref (th st t) = Some (b, j, k) \/ (b = db st /\ j = hash k mod bcnt st b)) ->
    pc_gw st p' -> Lk st'.
  Proof.
    intros HI Ed En Eb Ef Es Eo Ev Et Hrl Hrs Hk Hs Hh Hwf Href Hgw.
    apply (Lk_frame st st' t p'); try assumption.
    - intros b j. left. unfold bkt_same. rewrite Es, Eo, Ev, Hs. auto.
    - intros b j. rewrite Eo, Hh. split; [apply (K_hold _ HI) | apply (K_pc _ HI)].
    - intros b j w. rewrite Es, Hk, Hs. apply (K_bst _ HI).
    - intros b j k H. destruct (Href _ _ _ H) as [H1|[-> ->]]; [exact (K_ref _ HI t _ _ _ H1) | split; [left; reflexivity | reflexivity]].
  Qed.

  Lemma Lk_local st t p st1 p' : Lk st -> th st t = p -> tlocal st t p st1 p' -> Lk (go st1 t p').
  Proof.
    intros HI Epc HL. pose proof (K_wf _ HI t) as Hwf. pose proof (K_gw _ HI t) as Hgw.
    destruct HL; rewrite Epc in Hwf, Hgw; cbn [pc_wf] in Hwf;
      (eapply (Lk_move st _ t); [exact HI|..]; try exact (K_rl _ HI); try (eapply (rs_same st _ t); [exact HI|..]); rewrite ?Epc;
       try reflexivity; cbn [pc_wf pc_bst]).
    all: try (intros b0 j0 k0 E; first [left; exact E | right; injection E as <- <- <-; split; reflexivity | discriminate E]).
    all: try first [exact I | exact Hgw | tauto].
    all: try (intros b0 j0; reflexivity).
    - (* IK -> IH *) split; [apply Hwf|]. destruct Hwf as ((_ & _ & _ & Hc) & _). lia.
    - (* DMH -> DMS *) lia.
    - (* XK -> XHH *) split; [apply Hwf | lia].
    - (* XH -> XB6 *) rewrite (proj2 (N.eqb_eq _ _) Ei). reflexivity.
  Qed.


  Lemma bkt_holds p b j b0 j0 : pc_bkt p = Some (b, j) -> holds p b0 j0 -> b0 = b /\ j0 = j.
  Proof. destruct p; cbn [pc_bkt holds]; intros H1 H2; try discriminate H1; rewrite H1 in H2; injection H2 as -> ->; auto. Qed.

  (** a step that stores to the state word of bucket (b, j) and keeps the resize lock *)
  Lemma Lk_bucket st st' t p' b j : Lk st ->
    db st' = db st -> nalloc st' = nalloc st -> bcnt st' = bcnt st -> g_frozen st' = g_frozen st -> rlock st' = rlock st ->
    g_rown st' = g_rown st -> th st' = upd (th st) t p' ->
    (forall b0 j0, b0 <> b \/ j0 <> j ->
       bst st' b0 j0 = bst st b0 j0 /\ g_own st' b0 j0 = g_own st b0 j0 /\ g_nver st' b0 j0 = g_nver st b0 j0) ->
    bkt_new st st' t p' b j ->
    (pc_bst p' = None -> pc_bst (th st t) = None \/ pc_bkt (th st t) = Some (b, j)) ->
    (forall b0 j0, holds p' b0 j0 <->
       (holds (th st t) b0 j0 /\ (b0 <> b \/ j0 <> j)) \/ (b0 = b /\ j0 = j /\ g_own st' b j = Some t)) ->
    (forall b0 j0 w, pc_bkt p' = Some (b0, j0) -> pc_bst p' = Some w -> bst st' b0 j0 = w) ->
    pc_wf p' ->
    (forall b0 j0 k, pc_ref p' = Some (b0, j0, k) -> (b0 = db st \/ g_frozen st b0 = true) /\ j0 = hash k mod bcnt st b0) ->
    pc_gw st p' -> rs_pc p' = rs_pc (th st t) -> Lk st'.
  Proof.
    intros HI Ed En Eb Ef El Eg Et Hoth Hnew Hmk Hh Hbst Hwf Href Hgw Hrs.
    apply (Lk_frame st st' t p'); try assumption.
    - rewrite El, Eg. apply (K_rl _ HI).
    - apply (rs_same st st' t p'); assumption.
    - intros b0 j0. destruct (N.eq_dec b0 b) as [Eb0|Hb]; [destruct (N.eq_dec j0 j) as [Ej0|Hj]|]; [subst; right; exact Hnew | left ..].
      all: destruct (Hoth b0 j0 ltac:(auto)) as (E1 & E2 & E3); unfold bkt_same; rsplit; try assumption.
      all: intros Ho Hn; destruct (Hmk Hn) as [H|H]; [exact H | exfalso].
      all: destruct (bkt_holds _ _ _ _ _ H (K_pc _ HI _ _ _ Ho)); auto.
    - intros b0 j0. rewrite Hh. destruct (N.eq_dec b0 b) as [->|Hb]; [destruct (N.eq_dec j0 j) as [->|Hj]|].
      + split; [intros [[_ [H|H]]|(_ & _ & H)]; [contradiction.. | exact H] | auto].
      + destruct (Hoth b j0 ltac:(auto)) as (_ & -> & _). split.
        * intros [[H _]|(_ & H & _)]; [exact (K_hold _ HI _ _ _ H) | contradiction].
        * intros H. left. split; [exact (K_pc _ HI _ _ _ H) | auto].
      + destruct (Hoth b0 j0 ltac:(auto)) as (_ & -> & _). split.
        * intros [[H _]|(H & _)]; [exact (K_hold _ HI _ _ _ H) | contradiction].
        * intros H. left. split; [exact (K_pc _ HI _ _ _ H) | auto].
  Qed.

  Lemma unlocked_wf st b j : Lk st -> bs_is_locked (bst st b j) = false -> wf_s (bst st b j).
  Proof.
    intros HI Hl. destruct (unlocked_free _ _ _ HI Hl) as (_ & _ & Hm).
    repeat split; [apply (K_lt _ HI) | exact Hl | exact Hm | apply (K_ic _ HI)].
  Qed.

  (** a successful CAS on an unlocked word of the current block *)
  Lemma Lk_acquire st t b j p' : Lk st -> bs_is_locked (bst st b j) = false -> b = db st -> j < bcnt st b ->
    pc_bst (th st t) = None ->
    (forall b0 j0, holds p' b0 j0 <-> holds (th st t) b0 j0 \/ (b0 = b /\ j0 = j)) ->
    (forall b0 j0 w, pc_bkt p' = Some (b0, j0) -> pc_bst p' = Some w -> b0 = b /\ j0 = j /\ w = bs_locked (bst st b j)) ->
    pc_wf p' ->
    (forall b0 j0 k, pc_ref p' = Some (b0, j0, k) -> (b0 = db st \/ g_frozen st b0 = true) /\ j0 = hash k mod bcnt st b0) ->
    pc_gw st p' -> rs_pc p' = rs_pc (th st t) ->
    Lk (go (own (wst st b j (bs_locked (bst st b j))) b j (Some t)) t p').
  Proof.
    intros HI Hl Hb Hj Hn Hh Hbst Hwf Href Hgw Hrs. destruct (unlocked_free _ _ _ HI Hl) as (Ho & _ & Hm).
    apply (Lk_bucket st _ t p' b j); try assumption; try reflexivity; st_simpl_goal.
    - intros b0 j0 Hne. rewrite !setf2_other by exact Hne. auto.
    - unfold bkt_new. st_simpl_goal. rewrite !setf2_same. rsplit; auto.
      + apply (word_ok_W _ _ _ true (bs_item_count (bst st b j)) (bs_delete_marker (bst st b j)) (bs_version (bst st b j))); st_simpl_goal;
          rewrite ?setf2_same; [exact (VhmBase.W_locked _ _ _ _ _ (VhmBase.W_ex _ (K_lt _ HI b j))) | apply (K_ic _ HI) | apply (K_ver _ HI) | reflexivity].
      + intros _. rewrite bs_locked_delete_marker. exact Hm.
    - intros _. left. exact Hn.
    - intros b0 j0. rewrite Hh, setf2_same. split.
      + intros [H|[-> ->]]; [left; split; [exact H|] | auto].
        destruct (N.eq_dec b0 b) as [->|]; [|auto]. destruct (N.eq_dec j0 j) as [->|]; [|auto]. apply (K_hold _ HI) in H. congruence.
      + intros [[H _]|(H1 & H2 & _)]; auto.
    - intros b0 j0 w H1 H2. destruct (Hbst _ _ _ H1 H2) as (-> & -> & ->). apply setf2_same.
  Qed.

  (** what the holder of the lock of bucket (b, j) knows about the word [s] it read before locking *)
  Lemma holder_W st t b j s : Lk st -> pc_bkt (th st t) = Some (b, j) -> wf_s s ->
    (pc_bst (th st t) = Some (bs_locked s) \/ exists i, i < bs_item_count s /\ pc_bst (th st t) = Some (mark s i)) ->
    W s false (bs_item_count s) 0 (g_nver st b j mod 2 ^ 27) /\
    g_own st b j = Some t /\ b = db st /\ j < bcnt st b /\ g_frozen st b = false.
  Proof.
    intros HI Hk Hs Hw. pose proof (VhmBase.W_locked _ _ _ _ _ (VhmBase.wf_W _ Hs)) as Hl.
    assert (Hv : bs_version (bst st b j) = bs_version s).
    { destruct Hw as [Hw|(i & Hi & Hw)]; destruct (holder_facts _ _ _ _ _ HI Hk Hw) as (-> & _).
      - apply Hl.
      - destruct Hs as (_ & _ & _ & Hc). apply (VhmBase.W_mark _ _ _ _ (i + 1) Hl). lia. }
    assert (exists w, pc_bst (th st t) = Some w) as [w Hw'] by (destruct Hw as [Hw|(i & _ & Hw)]; eauto).
    destruct (holder_facts _ _ _ _ _ HI Hk Hw') as (_ & H2 & H3 & H4 & H5). rsplit; try assumption.
    rewrite <- (K_ver _ HI), Hv. apply VhmBase.wf_W. exact Hs.
  Qed.

  (** an unlocking store: the new word [w] is unlocked, without marker, and carries the version count *)
  Lemma Lk_release st st' t b j w c p' : Lk st -> pc_bkt (th st t) = Some (b, j) -> g_frozen st b = false ->
    db st' = db st -> nalloc st' = nalloc st -> bcnt st' = bcnt st -> g_frozen st' = g_frozen st -> rlock st' = rlock st ->
    g_rown st' = g_rown st -> th st' = upd (th st) t p' ->
    (forall b0 j0, b0 <> b \/ j0 <> j ->
       bst st' b0 j0 = bst st b0 j0 /\ g_own st' b0 j0 = g_own st b0 j0 /\ g_nver st' b0 j0 = g_nver st b0 j0) ->
    bst st' b j = w -> g_own st' b j = None -> W w false c 0 (g_nver st' b j mod 2 ^ 27) -> c <= 3 ->
    (forall b0 j0, ~ holds p' b0 j0) -> pc_bst p' = None -> pc_wf p' -> pc_ref p' = None -> pc_gw st p' ->
    rs_pc p' = rs_pc (th st t) -> Lk st'.
  Proof.
    intros HI Hk Hfz Ed En Eb Ef El Eg Et Hoth Ew Eo HW Hc Hh Hn Hwf Href Hgw Hrs.
    pose proof (K_hold _ HI _ _ _ (holds_of_bkt _ _ _ Hk)) as Ho.
    apply (Lk_bucket st st' t p' b j); try assumption.
    - unfold bkt_new. rewrite Ew, Eo. rsplit; auto.
      + apply (word_ok_W _ _ _ false c 0 (g_nver st' b j mod 2 ^ 27)); rewrite ?Ew, ?Eo, ?Ef, ?Hfz; auto.
      + intros _. apply HW.
    - intros _. right. exact Hk.
    - intros b0 j0. split; [intros H; destruct (Hh _ _ H)|].
      intros [[H Hne]|(_ & _ & H)]; [destruct (bkt_holds _ _ _ _ _ Hk H); tauto | congruence].
    - intros b0 j0 w0 H. destruct (Hh _ _ (holds_of_bkt _ _ _ H)).
    - intros b0 j0 k H. congruence.
  Qed.


  (** the threads other than the one that holds resize_lock know nothing about blocks *)
  Lemma gw_other st st' t u : Lk st -> rs_pc (th st t) = true -> u <> t -> pc_gw st' (th st u).
  Proof.
    intros HI Ht Hne. apply pc_gw_nonrs. destruct (rs_pc (th st u)) eqn:E; [|reflexivity].
    destruct (Hne (rs_unique st u t HI E Ht)).
  Qed.

  (** do_grow allocates the new block *)
  Lemma Lk_alloc st t c : Lk st -> th st t = DG1 c ->
    Lk (go (s_g_nver (s_g_own (s_aval (s_akey (s_bst (s_bcnt (s_nalloc st (nalloc st + 1))
              (setf1 (bcnt st) (nalloc st) (dbl (bcnt st (db st))))) (clr2 (bst st) (nalloc st) 0))
              (clr3 (akey st) (nalloc st) 0)) (clr3 (aval st) (nalloc st) 0)) (clr2 (g_own st) (nalloc st) None))
              (clr2 (g_nver st) (nalloc st) 0)) t (DGL c (db st) (nalloc st) (bcnt st (db st)) 0)).
  Proof.
    intros HI Epc. pose proof (K_db _ HI) as (D1 & D2 & D3 & D4). pose proof (K_fr _ HI) as Hfr.
    assert (Hcur : forall b j u, g_own st b j = Some u -> b <> nalloc st) by (intros b j u H; destruct (own_cur _ _ _ _ HI H); lia).
    destruct word0 as (Z1 & Z2 & Z3 & Z4 & Z5).
    constructor; st_simpl_goal.
    - rewrite setf1_other by lia. rsplit; try assumption; lia.
    - intros b Hb. destruct (Hfr b Hb) as [F1 F2]. rewrite setf1_other by lia. split; [lia | exact F2].
    - intros b j. destruct (N.eq_dec b (nalloc st)) as [->|Hb]; [rewrite clr2_same; exact Z1 | rewrite clr2_other by exact Hb; apply (K_lt _ HI)].
    - intros b j. destruct (N.eq_dec b (nalloc st)) as [->|Hb]; [rewrite clr2_same, Z2; lia | rewrite clr2_other by exact Hb; apply (K_ic _ HI)].
    - intros b j. destruct (N.eq_dec b (nalloc st)) as [->|Hb]; [rewrite !clr2_same; exact Z3 | rewrite !clr2_other by exact Hb; apply (K_ver _ HI)].
    - intros b j. destruct (N.eq_dec b (nalloc st)) as [->|Hb].
      + rewrite !clr2_same, Z4, (not_frozen_fresh st (nalloc st) HI) by lia. reflexivity.
      + rewrite !clr2_other, setf1_other by exact Hb. apply (K_bit _ HI).
    - intros b j Hp. destruct (N.eq_dec b (nalloc st)) as [->|Hb]; [rewrite clr2_same; exact Z5|].
      rewrite clr2_other by exact Hb. apply (K_mk _ HI). intros u Hu. specialize (Hp u). rewrite clr2_other in Hp by exact Hb. specialize (Hp Hu).
      destruct (VhmBase.upd_cases (th st) t (DGL c (db st) (nalloc st) (bcnt st (db st)) 0) u) as [[-> E]|[Hne E]]; rewrite E in Hp; [rewrite Epc; reflexivity | exact Hp].
    - intros u b j. destruct (VhmBase.upd_cases (th st) t (DGL c (db st) (nalloc st) (bcnt st (db st)) 0) u) as [[-> E]|[Hne E]]; rewrite E; [pcs; lia|].
      intros H. pose proof (K_hold _ HI _ _ _ H) as Ho. rewrite clr2_other by exact (Hcur _ _ _ Ho). exact Ho.
    - intros u b j. destruct (N.eq_dec b (nalloc st)) as [->|Hb]; [rewrite clr2_same; discriminate|]. rewrite clr2_other by exact Hb.
      intros Ho. pose proof (K_pc _ HI _ _ _ Ho) as H.
      destruct (VhmBase.upd_cases (th st) t (DGL c (db st) (nalloc st) (bcnt st (db st)) 0) u) as [[-> E]|[Hne E]]; rewrite E; [|exact H].
      rewrite Epc in H. discriminate H.
    - intros u b j. destruct (VhmBase.upd_cases (th st) t (DGL c (db st) (nalloc st) (bcnt st (db st)) 0) u) as [[-> E]|[Hne E]]; rewrite E; [pcs; lia|].
      intros H. destruct (K_cur _ HI _ _ _ H) as [-> Hlt]. rewrite setf1_other by lia. auto.
    - intros u b j w. destruct (VhmBase.upd_cases (th st) t (DGL c (db st) (nalloc st) (bcnt st (db st)) 0) u) as [[-> E]|[Hne E]]; rewrite E; [discriminate|].
      intros H1 H2. rewrite clr2_other; [exact (K_bst _ HI u _ _ _ H1 H2)|]. exact (Hcur _ _ _ (K_hold _ HI _ _ _ (holds_of_bkt _ _ _ H1))).
    - intros u. destruct (VhmBase.upd_cases (th st) t (DGL c (db st) (nalloc st) (bcnt st (db st)) 0) u) as [[-> E]|[Hne E]]; rewrite E; [exact D3 | apply (K_wf _ HI)].
    - intros u b j k. destruct (VhmBase.upd_cases (th st) t (DGL c (db st) (nalloc st) (bcnt st (db st)) 0) u) as [[-> E]|[Hne E]]; rewrite E; [discriminate|].
      intros H. destruct (K_ref _ HI u b j k H) as [H1 H2]. split; [exact H1|].
      rewrite setf1_other; [exact H2|]. destruct H1 as [->|H1]; [lia | apply Hfr in H1; lia].
    - intros u. destruct (VhmBase.upd_cases (th st) t (DGL c (db st) (nalloc st) (bcnt st (db st)) 0) u) as [[-> E]|[Hne E]]; rewrite E.
      + pcs. st_simpl_goal. rewrite setf1_same, setf1_other by lia. rsplit; try reflexivity; try lia.
        apply (not_frozen_fresh st); [exact HI | lia].
      + apply (gw_other st _ t); [exact HI | rewrite Epc; reflexivity | exact Hne].
    - exact (K_rl _ HI).
    - intros u. destruct (VhmBase.upd_cases (th st) t (DGL c (db st) (nalloc st) (bcnt st (db st)) 0) u) as [[-> E]|[Hne E]]; rewrite E; [|apply (K_rown _ HI)].
      intros _. apply (K_rown _ HI). rewrite Epc. reflexivity.
    - intros u Hu. destruct (VhmBase.upd_cases (th st) t (DGL c (db st) (nalloc st) (bcnt st (db st)) 0) u) as [[-> E]|[Hne E]]; rewrite E; [reflexivity | apply (K_rpc _ HI); exact Hu].
  Qed.

  (** do_grow publishes the new block: the old one is frozen, its locks pass from the grower to the block *)
  Lemma Lk_publish st t c ob nb n : Lk st -> th st t = DP1 c ob nb n ->
    Lk (go (s_g_own (s_g_frozen (s_db (obs_all st) nb) (setf1 (g_frozen st) ob true)) (clr2 (g_own st) ob None)) t (DP2 c ob nb)).
  Proof.
    intros HI Epc. pose proof (K_db _ HI) as (D1 & D2 & D3 & D4). pose proof (K_fr _ HI) as Hfr.
    pose proof (K_gw _ HI t) as Hgw. rewrite Epc in Hgw. destruct Hgw as (-> & -> & G3 & G4 & G5 & G6 & G7).
    assert (Hmine : forall j u, g_own st (db st) j = Some u -> u = t).
    { intros j u Hu. destruct (own_cur _ _ _ _ HI Hu) as [_ Hlt].
      assert (Ht : g_own st (db st) j = Some t) by (apply (K_hold _ HI); rewrite Epc; split; [reflexivity | exact Hlt]). congruence. }
    assert (Hno : forall u b j, u <> t -> ~ holds (th st u) b j).
    { intros u b j Hne H. destruct (K_cur _ HI _ _ _ H) as [-> _]. apply Hne. exact (Hmine _ _ (K_hold _ HI _ _ _ H)). }
    constructor; st_simpl_goal.
    - rewrite setf1_other by exact G4. unfold dbl in G7. rsplit; try assumption; lia.
    - intros b. unfold setf1. destruct (N.eqb_spec b (db st)) as [->|Hne]; [intros _; split; assumption | apply Hfr].
    - apply (K_lt _ HI).
    - apply (K_ic _ HI).
    - apply (K_ver _ HI).
    - intros b j. rewrite (K_bit _ HI). destruct (N.eq_dec b (db st)) as [->|Hne].
      + rewrite clr2_same, setf1_same, D4. cbn [isS orb andb]. rewrite orb_false_r.
        destruct (N.ltb_spec j (bcnt st (db st))) as [Hlt|Hge].
        * rewrite (K_hold _ HI t (db st) j); [reflexivity|]. rewrite Epc. split; [reflexivity | exact Hlt].
        * destruct (g_own st (db st) j) as [u|] eqn:Eo; [|reflexivity]. destruct (own_cur _ _ _ _ HI Eo). lia.
      + rewrite clr2_other, setf1_other by exact Hne. reflexivity.
    - intros b j Hp. apply (K_mk _ HI). intros u Hu. destruct (Nat.eq_dec u t) as [->|Hne]; [rewrite Epc; reflexivity|].
      assert (Hb : b <> db st) by (intros ->; exact (Hne (Hmine _ _ Hu))).
      specialize (Hp u). rewrite clr2_other, upd_other in Hp by assumption. exact (Hp Hu).
    - intros u b j. split_u u; [discriminate|].
      intros H. destruct (Hno _ _ _ Hne H).
    - intros u b j. destruct (N.eq_dec b (db st)) as [->|Hb]; [rewrite clr2_same; discriminate|]. rewrite clr2_other by exact Hb.
      intros H. destruct (own_cur _ _ _ _ HI H). contradiction.
    - intros u b j. split_u u; [discriminate|].
      intros H. destruct (Hno _ _ _ Hne H).
    - intros u b j w. split_u u; [discriminate|].
      intros H. destruct (Hno _ _ _ Hne (holds_of_bkt _ _ _ H)).
    - intros u. split_u u; [exact I | apply (K_wf _ HI)].
    - intros u b j k. split_u u; [discriminate|].
      intros H. destruct (K_ref _ HI u b j k H) as [H1 H2]. split; [|exact H2].
      right. unfold setf1. destruct (N.eqb_spec b (db st)); [reflexivity|]. destruct H1; [contradiction | assumption].
    - intros u. split_u u.
      + pcs. st_simpl_goal. rewrite setf1_same. split; reflexivity.
      + apply (gw_other st _ t); [exact HI | rewrite Epc; reflexivity | exact Hne].
    - exact (K_rl _ HI).
    - intros u. split_u u; [|apply (K_rown _ HI)].
      intros _. apply (K_rown _ HI). rewrite Epc. reflexivity.
    - intros u Hu. split_u u; [reflexivity | apply (K_rpc _ HI); exact Hu].
  Qed.

  Lemma Lk_shared st t p st1 p' : Lk st -> MC st -> th st t = p -> tshared st t p st1 p' -> Lk (go st1 t p').
  Proof.
    intros HI HMC Epc HS. pose proof (K_wf _ HI t) as Hwf. pose proof (K_gw _ HI t) as Hgw. pose proof (K_ref _ HI t) as Href.
    destruct HS; rewrite Epc in Hwf, Hgw, Href; cbn [pc_wf pc_ref] in Hwf, Href; try specialize (Href _ _ _ eq_refl).
    (* the stores to array slots (ISK, ISV, DMSK, DMSV, XB4): no field that [Lk] reads changes *)
    3, 4, 10, 11, 17: eapply (Lk_move st _ t); [exact HI|..]; try exact (K_rl _ HI); try (eapply (rs_same st _ t); [exact HI|..]); rewrite ?Epc;
      try reflexivity; pcs; first [exact I | exact Hgw | tauto].
    - (* L3 *) subst s. destruct (acq_facts st t b j k HI ltac:(rewrite Epc; reflexivity) Hwf) as (_ & Hb & Hj & _).
      pose proof (unlocked_wf _ _ _ HI Hwf) as Hs.
      apply Lk_acquire; try assumption; rewrite ?Epc; try reflexivity; destruct (N.ltb_spec 0 (bs_item_count (bst st b j))); pcs.
      all: try reflexivity; try exact I.
      1, 2: intros b0 j0; split; [intros E; injection E as <- <-; auto | intros [E|[-> ->]]; [discriminate E | reflexivity]].
      1, 2: intros b0 j0 w E1 E2; injection E1 as <- <-; injection E2 as <-; auto.
      1, 2: split; [exact Hs | lia].
      1, 2: intros b0 j0 k0 E; injection E as <- <- <-; exact Href.
    - (* IUold *) destruct (holder_W st t b j s HI) as (HW & _ & _ & _ & Hfz); [rewrite Epc; reflexivity | exact Hwf | left; rewrite Epc; reflexivity |].
      apply (Lk_release st _ t b j s (bs_item_count s) Idle HI); rewrite ?Epc; try reflexivity; try assumption; st_simpl_goal; rewrite ?setf2_same; pcs; try reflexivity; try exact I.
      + intros b0 j0 Hne. rewrite !setf2_other by exact Hne. auto.
      + apply Hwf.
      + intros b0 j0. discriminate.
    - (* IUnew *) destruct (holder_W st t b j s HI) as (HW & _ & _ & _ & Hfz); [rewrite Epc; reflexivity | apply Hwf | left; rewrite Epc; reflexivity |].
      apply (Lk_release st _ t b j (bs_inc_item_count s) (bs_item_count s + 1) Idle HI); rewrite ?Epc; try reflexivity; try assumption; st_simpl_goal; rewrite ?setf2_same; pcs; try reflexivity; try exact I.
      + intros b0 j0 Hne. rewrite !setf2_other by exact Hne. auto.
      + exact (VhmBase.W_inc _ _ _ _ _ HW (proj2 Hwf)).
      + lia.
      + intros b0 j0. discriminate.
    - (* GR1 *) pose proof (K_rl _ HI) as Hrl.
      eapply (Lk_move st _ t); [exact HI|..]; rewrite ?Epc; try reflexivity; st_simpl_goal; pcs; try exact I; try exact Hwf.
      + destruct (N.eqb_spec (rlock st) 0) as [E|E]; [reflexivity|]. destruct (g_rown st); [reflexivity | contradiction].
      + intros u. split_u u; pcs;
          destruct (N.eqb_spec (rlock st) 0) as [E0|E0].
        * tauto.
        * split; [|discriminate]. intros Hg. apply (K_rpc _ HI) in Hg. rewrite Epc in Hg. discriminate Hg.
        * split; [congruence|]. intros Hr. rewrite (K_rown _ HI _ Hr) in Hrl. congruence.
        * split; [apply (K_rpc _ HI) | apply (K_rown _ HI)].
      + intros b0 j0 k0 E. left. exact E.
    - (* GR2 *) destruct (holder_W st t b j s HI) as (HW & _ & _ & _ & Hfz); [rewrite Epc; reflexivity | apply Hwf | left; rewrite Epc; reflexivity |].
      eapply (Lk_release st _ t b j s (bs_item_count s)); [exact HI|..]; rewrite ?Epc; try reflexivity; try assumption; st_simpl_goal; rewrite ?setf2_same; try reflexivity.
      + intros b0 j0 Hne. rewrite !setf2_other by exact Hne. auto.
      + apply Hwf.
      + intros b0 j0. destruct (ar =? 0); discriminate.
      + destruct (ar =? 0); reflexivity.
      + destruct (ar =? 0); exact I.
      + destruct (ar =? 0); reflexivity.
      + destruct (ar =? 0); exact I.
      + pcs. destruct (ar =? 0); reflexivity.
    - (* DG1 *) apply Lk_alloc; assumption.
    - (* DGC *) subst s. destruct Hwf as [Hi Hl]. destruct Hgw as (-> & -> & Hg).
      apply Lk_acquire; try assumption; rewrite ?Epc; try reflexivity; destruct (N.eqb_spec (i + 1) (bcnt st (db st))); pcs; try discriminate; try lia.
      all: first [intros b0 j0; lia | tauto].
    - (* DMSS *) destruct (HMC _ _ _ _ _ _ _ _ _ _ Epc) as [-> Hc]. destruct Hgw as (-> & -> & G3 & G4 & Hg).
      assert (Ho : g_own st nb jn = None).
      { destruct (g_own st nb jn) as [u|] eqn:Eo; [|reflexivity]. destruct (own_cur _ _ _ _ HI Eo). contradiction. }
      pose proof (VhmBase.W_inc _ _ _ _ _ (VhmBase.W_ex _ (K_lt _ HI nb jn)) Hc) as HW.
      eapply (Lk_bucket st _ t _ nb jn); [exact HI|..]; rewrite ?Epc; try reflexivity; st_simpl_goal.
      + intros b0 j0 Hne. rewrite !setf2_other by exact Hne. auto.
      + unfold bkt_new. st_simpl_goal. rewrite setf2_same, Ho. rsplit; auto.
        * eapply word_ok_W; st_simpl_goal; rewrite ?setf2_same; [exact HW | pose proof (K_ic _ HI nb jn); lia | apply (K_ver _ HI) | apply (K_bit _ HI)].
        * intros _. destruct HW as (_ & _ & _ & -> & _). apply (K_mk _ HI). intros u Hu. congruence.
      + intros _. left. reflexivity.
      + intros b0 j0. rewrite Ho. destruct (x + 1 =? cn); pcs; (split; [intros [-> H]; left; auto | intros [[H _]|(_ & _ & H)]; [exact H | discriminate H]]).
      + destruct (x + 1 =? cn); pcs; discriminate.
      + destruct (x + 1 =? cn); exact Hwf.
      + destruct (x + 1 =? cn); pcs; discriminate.
      + destruct (x + 1 =? cn); pcs; auto.
      + destruct (x + 1 =? cn); reflexivity.
    - (* DP1 *) apply (Lk_publish st t c ob nb n); assumption.
    - (* DP2 *) eapply (Lk_move st _ t); [exact HI|..]; rewrite ?Epc; try reflexivity; st_simpl_goal; pcs; try exact I.
      + intros u. split; [discriminate|]. split_u u; [discriminate|].
        intros Hr. exfalso. apply Hne. apply (rs_unique st); [exact HI | exact Hr | rewrite Epc; reflexivity].
      + discriminate.
    - (* X3 *) subst s. destruct Hwf as [Hl Hc]. destruct (acq_facts st t b j k HI ltac:(rewrite Epc; reflexivity) Hl) as (_ & Hb & Hj & _).
      pose proof (unlocked_wf _ _ _ HI Hl) as Hs.
      apply Lk_acquire; try assumption; rewrite ?Epc; try reflexivity; pcs; try exact I.
      + intros b0 j0; split; [intros E; injection E as <- <-; auto | intros [E|[-> ->]]; [discriminate E | reflexivity]].
      + intros b0 j0 w E1 E2; injection E1 as <- <-; injection E2 as <-; auto.
      + split; [exact Hs | lia].
      + intros b0 j0 k0 E; injection E as <- <- <-; exact Href.
    - (* XB1 *) destruct Hwf as (Hs & Hi & Hil).
      destruct (holder_W st t b j s HI) as (HW & Ho & Hb & Hj & Hfz); [rewrite Epc; reflexivity | exact Hs | left; rewrite Epc; reflexivity |].
      eapply (Lk_bucket st _ t _ b j); [exact HI|..]; rewrite ?Epc; try reflexivity; st_simpl_goal; pcs; try exact I; try tauto.
      + intros b0 j0 Hne. rewrite !setf2_other by exact Hne. auto.
      + unfold bkt_new. st_simpl_goal. rewrite setf2_same, Ho. rsplit; auto.
        * eapply word_ok_W; st_simpl_goal; rewrite ?setf2_same, ?Ho; [| apply Hs | reflexivity | reflexivity].
          apply (VhmBase.W_mark _ _ _ _ (i + 1) (VhmBase.W_locked _ _ _ _ _ HW)). destruct Hs as (_ & _ & _ & Hc). lia.
        * intros Hc. specialize (Hc eq_refl). discriminate Hc.
      + intros b0 j0. split; [intros E; injection E as <- <-; right; auto | intros [[E _]|(-> & -> & _)]; [exact E | reflexivity]].
      + intros b0 j0 w E1 E2. injection E1 as <- <-. injection E2 as <-. apply setf2_same.
      + intros b0 j0 k0 E. injection E as <- <- <-. exact Href.
    - (* XB5 *) eapply (Lk_move st _ t); [exact HI|..]; try exact (K_rl _ HI); try (eapply (rs_same st _ t); [exact HI|..]); rewrite ?Epc; try reflexivity; pcs; try exact I; try tauto.
      destruct (N.eqb_spec i (bs_item_count s - 1)); [tauto | reflexivity].
    - (* XB6 *) destruct Hwf as [Hs Hi].
      destruct (holder_W st t b j s HI) as (HW & _ & _ & _ & Hfz); [rewrite Epc; reflexivity | exact Hs | |].
      { rewrite Epc. pcs. destruct (N.eqb_spec i (bs_item_count s - 1)); [left; reflexivity | right; exists i; auto]. }
      apply (Lk_release st _ t b j (bs_dec_item_count (bs_new_version s)) (bs_item_count s - 1) Idle HI); rewrite ?Epc; try reflexivity; try assumption;
        st_simpl_goal; rewrite ?setf2_same; pcs; try reflexivity; try exact I.
      + intros b0 j0 Hne. rewrite !setf2_other by exact Hne. auto.
      + rewrite <- VhmBase.mod27_succ. apply VhmBase.W_dec; [apply VhmBase.W_nv; exact HW | lia].
      + destruct Hs as (_ & _ & _ & Hc). lia.
      + intros b0 j0. discriminate.
    - (* XU *) destruct (holder_W st t b j s HI) as (HW & _ & _ & _ & Hfz); [rewrite Epc; reflexivity | apply Hwf | left; rewrite Epc; reflexivity |].
      apply (Lk_release st _ t b j s (bs_item_count s) Idle HI); rewrite ?Epc; try reflexivity; try assumption; st_simpl_goal; rewrite ?setf2_same; pcs; try reflexivity; try exact I.
      + intros b0 j0 Hne. rewrite !setf2_other by exact Hne. auto.
      + apply Hwf.
      + intros b0 j0. discriminate.
  Qed.

  Theorem Lk_step_all st a st' es : Lk st -> MC st -> step st a = Some (st', es) -> Lk st'.
  Proof.
    intros HI HMC H. destruct (step_inv _ _ _ _ H) as [t o Epc | t p st1 p' Epc HL | t p st1 p' Epc HS].
    - eapply (Lk_move st _ t); [exact HI|..]; try exact (K_rl _ HI); try (eapply (rs_same st _ t); [exact HI|..]); rewrite ?Epc;
        try reflexivity; pcs; try exact I. discriminate.
    - exact (Lk_local _ _ _ _ _ HI Epc HL).
    - exact (Lk_shared _ _ _ _ _ HI HMC Epc HS).
  Qed.

  (** a local transition changes nothing but the ghosts of the calls *)
  Lemma tlocal_ghost st t p st1 p' : tlocal st t p st1 p' ->
    exists l r o h, st1 = s_g_hist (s_g_obs (s_g_rv (s_g_lp st l) r) o) h.
  Proof. intros H. exists (g_lp st1), (g_rv st1), (g_obs st1), (g_hist st1). destruct st; destruct H; reflexivity. Qed.

  (** ** who writes where: a step changes (the word and the slots of) a bucket only if the stepping thread holds its
      lock before or takes it (it was free, and lies in the current block), or the bucket belongs to the block do_grow
      is filling / has just allocated *)
  Definition same_bkt (st st' : state) (b j : N) : Prop :=
    bst st' b j = bst st b j /\ (forall i, akey st' b j i = akey st b j i /\ aval st' b j i = aval st b j i) /\
    g_nver st' b j = g_nver st b j.

  Lemma bkt_dec (b j b1 j1 : N) : (b = b1 /\ j = j1) \/ (b <> b1 \/ j <> j1).
  Proof. destruct (N.eq_dec b b1); destruct (N.eq_dec j j1); auto. Qed.

  Lemma step_frame st a st' es : Lk st -> step st a = Some (st', es) -> forall b j,
    same_bkt st st' b j \/
    (exists t, a = Step t /\ b = db st /\ j < bcnt st b /\ (g_own st b j = Some t \/ g_own st b j = None /\ g_own st' b j = Some t)) \/
    (exists t ob n, a = Step t /\ pc_blocks (th st t) = Some (ob, b, n)) \/
    (exists t c, a = Step t /\ th st t = DG1 c /\ b = nalloc st).
  Proof.
    intros HI H b0 j0. unfold same_bkt.
    destruct (step_inv _ _ _ _ H) as [t o Epc | t p st1 p' Epc HL | t p st1 p' Epc HS].
    - left. repeat split.
    - destruct (tlocal_ghost _ _ _ _ _ HL) as (l & r & o & h & ->). left. repeat split.
    - destruct HS; st_simpl_goal.
      (* a bucket whose lock the stepping thread holds *)
      2-5, 7, 16-20: destruct (K_cur _ HI t b j ltac:(rewrite Epc; reflexivity)) as [Hc1 Hc2]; destruct (bkt_dec b0 j0 b j) as [[-> ->]|Hne];
        [right; left; exists t; rsplit; [reflexivity | exact Hc1 | exact Hc2 | left; apply (K_hold _ HI); rewrite Epc; reflexivity]
        | left; rewrite ?setf2_other by exact Hne; repeat split; rewrite ?setf3_other by tauto; reflexivity].
      (* L3, X3: or takes *)
      1, 10: pose proof (K_wf _ HI t) as Hwf; rewrite Epc in Hwf; subst s;
        destruct (acq_facts st t b j k HI ltac:(rewrite Epc; reflexivity) ltac:(apply Hwf)) as (Hn & Hc1 & Hc2 & _); destruct (bkt_dec b0 j0 b j) as [[-> ->]|Hne];
        [right; left; exists t; rsplit; [reflexivity | exact Hc1 | exact Hc2 | right; split; [exact Hn | apply setf2_same]]
        | left; rewrite ?setf2_other by exact Hne; repeat split].
      + (* GR1 *) left. repeat split.
      + (* DG1 *) destruct (N.eq_dec b0 (nalloc st)) as [->|Hne]; [right; right; right; exists t, c; auto|].
        left. rewrite !clr2_other by exact Hne. repeat split; rewrite clr3_other by exact Hne; reflexivity.
      + (* DGC *) pose proof (K_wf _ HI t) as Hwf. pose proof (K_gw _ HI t) as Hgw. rewrite Epc in Hwf, Hgw. destruct Hgw as (Hc1 & -> & _).
        destruct (bkt_dec b0 j0 ob i) as [[-> ->]|Hne]; [right; left; exists t; rsplit; [reflexivity | exact Hc1 | apply Hwf | right; split; [subst s; apply (unlocked_free _ _ _ HI), Hwf | apply setf2_same]]|].
        left. rewrite setf2_other by exact Hne. repeat split.
      + (* DMSK *) destruct (N.eq_dec b0 nb) as [->|Hne]; [right; right; left; exists t, ob, n; rewrite Epc; auto|].
        left. repeat split. apply setf3_other. auto.
      + (* DMSV *) destruct (N.eq_dec b0 nb) as [->|Hne]; [right; right; left; exists t, ob, n; rewrite Epc; auto|].
        left. repeat split. apply setf3_other. auto.
      + (* DMSS *) destruct (N.eq_dec b0 nb) as [->|Hne]; [right; right; left; exists t, ob, n; rewrite Epc; auto|].
        left. rewrite setf2_other by auto. repeat split.
      + (* DP1 *) left. repeat split.
      + (* DP2 *) left. repeat split.
  Qed.
End VhmGrowBase.
