(** kirsch_bounded_kfifo_queue (C06), invariant layer 4 (region): every committed value still stored lies in a
    segment between head and tail; the combined invariant [Inv] over [reach].  No axioms, no admits. *)
From Coq Require Import NArith List Bool Lia PeanoNat.
From XV Require Import Base.Word Conc.Lts Conc.Ev Model.KfbDefs.
From XV Require Import Proof.KfbArith Proof.KfbWf Proof.KfbOwn Proof.KfbRing.
Import ListNotations.
Local Open Scope N_scope.

Set Default Proof Using "All".
Section L4.
  Variables k segs : N.
  Hypothesis Hk : 1 <= k.
  Hypothesis Hs : 1 <= segs.
  Notation step := (step k segs).
  Notation sg := (sg k).
  Notation qsize := (qsize k segs).
  Notation dist := (dist segs).
  Notation succs := (succs segs).
  Notation wfw := (wfw k segs).
  Notation T1 := (T1 k segs).
  Notation T3 := (T3 k segs).
  Notation Inv1 := (Inv1 k segs).
  Notation Inv3 := (Inv3 k segs).
  Notation hs := (hs k).
  Notation ts := (ts k).
  Notation sgw := (sgw k).

  (** every committed value that is still stored lies in a segment between head and tail *)
  Definition inreg (st : state) (j : N) : Prop := dist (hs st) (sg j) <= dist (hs st) (ts st).
  Definition Inv4 (st : state) : Prop := forall j, In (fst (slot st j)) (g_in st) -> inreg st j.

  Lemma Inv4_init : Inv4 init.
  Proof. intros j H. cbn in H. contradiction. Qed.

  Ltac sim4 := unfold inreg, KfbRing.hs, KfbRing.ts in *; sim.

  Section Effects.
    Variable s : state.
    Hypothesis (Hh : wfw (head s)) (Ht : wfw (tail s)) (Hsl : forall j, fst (slot s j) <> 0 -> j < qsize).
    Hypothesis (Iv : Inv2 s) (H4 : Inv4 s).

    Lemma committed_sg j : In (fst (slot s j)) (g_in s) -> sg j < segs.
    Proof. intros Hj. apply (sg_lt k segs Hk Hs). apply Hsl. pose proof (i_in_lt s Iv _ Hj). lia. Qed.

    (** head leaves a segment that holds no committed value: every other segment comes one step closer *)
    Lemma Inv4_head_adv : segfree k segs s (hs s) -> Inv4 (set_head s (adv k segs (head s))).
    Proof.
      intros C j0 Hj. sim. pose proof (H4 j0 Hj) as Old. pose proof (committed_sg j0 Hj) as Xj.
      pose proof (wfw_lt k segs Hk Hs _ Hh : hs s < segs) as X3. pose proof (wfw_lt k segs Hk Hs _ Ht : ts s < segs) as X1.
      unfold inreg in *. unfold KfbRing.hs at 1 2, KfbRing.ts. sim. fold (ts s).
      rewrite (hs_adv k segs Hk Hs) by exact Hh.
      assert (Hne : sg j0 <> hs s) by (intros Q; apply (C j0); [apply Hsl; pose proof (i_in_lt s Iv _ Hj); lia|exact Q|exact Hj]).
      destruct (dist_succ_l k segs Hk Hs _ _ X3 Xj Hne) as [-> G].
      rewrite (dist_pred k segs Hk Hs _ _ X3 X1) by lia. lia.
    Qed.

    Lemma Inv4_tail_adv : tsafe k segs s -> Inv4 (set_tail s (adv k segs (tail s))).
    Proof.
      intros Sf j0 Hj. sim. pose proof (H4 j0 Hj) as Old. pose proof (committed_sg j0 Hj) as Xj.
      pose proof (wfw_lt k segs Hk Hs _ Hh : hs s < segs) as X3. pose proof (wfw_lt k segs Hk Hs _ Ht : ts s < segs) as X1.
      unfold inreg in *. unfold KfbRing.hs at 1 2, KfbRing.ts at 1. sim. fold (hs s). rewrite (ts_adv k segs Hk Hs) by exact Ht.
      destruct Sf as [S1|S2].
      - rewrite !(dist_one k segs Hk Hs) by (try assumption; apply (succs_lt k segs Hk Hs); assumption). lia.
      - rewrite (dist_succ_r k segs Hk Hs) by assumption. lia.
    Qed.

    (** the pusher of the value in slot j commits it *)
    Lemma Inv4_commit s' b j tg : 2 <= b -> T2' s (Some (b, j, tg)) None -> inreg s j ->
      hs s' = hs s -> ts s' = ts s -> slot s' = slot s -> g_in s' = commit b (g_in s) -> Inv4 s'.
    Proof.
      intros Hb Hme2 Hin Eh Et Es Eg j0. unfold inreg. rewrite Eh, Et, Es, Eg, commit_in. intros [Q|Q]; [apply H4; exact Q|].
      destruct Hme2 as [[A B]|[A _]]; [|apply H4; rewrite Q; exact A].
      assert (j0 = j) by (apply (i_uniq s Iv); [rewrite A; exact Q|rewrite Q; lia]). subst j0. exact Hin.
    Qed.
  End Effects.

  Lemma Inv4_step s a s' es : Inv1 s -> Inv2 s -> Inv3 s -> Inv4 s -> step s a = Some (s', es) -> Inv4 s'.
  Proof.
    intros (Hh & Ht & Hsl & Hall) Iv H3 H4 Hst.
    destruct (step_inv k segs s a s' es Hst) as (r & p & s1 & p' & res & Ep & -> & _ & [[-> _]|Hwr] & _); [exact H4|].
    pose proof (Hall (tid a)) as Hme. pose proof (H3 (tid a)) as Hme3. pose proof (i_th s Iv (tid a)) as Hme2.
    pose proof (fun b E => i_own_lt s Iv (tid a) b (eq_trans (f_equal pblock Ep) E)) as Hb2.
    rewrite Ep in Hme, Hme3, Hme2.
    destruct Hwr; subst; cbn [KfbWf.T1 KfbRing.T3] in Hme, Hme3; try exact H4.
    - (* insertion *) intros j0. sim4. unfold setf. destruct (N.eqb_spec j0 j) as [->|Hn]; [cbn [fst]; intros Q; exfalso; apply Hme2; exact Q|apply H4].
    - (* take-back *) intros j0. sim4. unfold setf. destruct (N.eqb_spec j0 j) as [->|Hn]; [cbn [fst]; intros Q; exfalso; apply (zero_notin k segs Hk Hs s Iv Q)|apply H4].
    - (* take *) intros j0. sim4. destruct Hme as (_ & _ & Hp & _). unfold setf. rewrite commit_in. destruct (N.eqb_spec j0 j) as [->|Hn]; cbn [fst].
      + intros [Q|Q]; [exfalso; apply (zero_notin k segs Hk Hs s Iv Q)|congruence].
      + intros [Q|Q]; [apply H4; exact Q|]. exfalso. apply Hn. apply (i_uniq s Iv); [rewrite H; exact Q|rewrite Q; exact Hp].
    - apply Inv4_head_adv; try assumption. apply (Hme3 eq_refl).
    - apply Inv4_head_adv; try assumption. apply (Hme3 eq_refl).
    - apply Inv4_tail_adv; try assumption. apply (Hme3 eq_refl).
    - apply Inv4_tail_adv; try assumption. specialize (Hme3 eq_refl). unfold tsafe. destruct (N.eq_dec segs 1); [left; assumption|right; lia].
    - (* committed() sees the slot's segment in the valid region *)
      apply (Inv4_commit s Hh Ht Hsl Iv H4 _ b j tg (proj1 (Hb2 b eq_refl)) Hme2); try reflexivity.
      destruct Hme as ([Etl Ltl] & [_ Sj] & [[Ehc Lhc] _] & [[Etc Ltc] _]).
      rewrite Etl, Etc, Ehc in H0. destruct (ivr_spec k segs Hk Hs _ _ _ Ltl Ltc Lhc H0) as [_ X].
      specialize (Hme3 eq_refl). unfold inreg, KfbRing.hs, KfbRing.ts, KfbRing.sgw in *. rewrite Sj. lia.
    - (* ... or in the head segment, and bumps the tag of head *)
      apply (Inv4_commit s Hh Ht Hsl Iv H4 _ b j tg (proj1 (Hb2 b eq_refl)) Hme2); try reflexivity.
      destruct Hme as (_ & [_ Sj] & _). unfold inreg, KfbRing.hs, KfbRing.sgw in *. rewrite Sj, Hme3, (dist_refl k segs Hk Hs). lia.
  Qed.

  Definition Inv (st : state) : Prop := Inv1 st /\ Inv2 st /\ Inv3 st /\ Inv4 st.

  Theorem Inv_reach st : reach init step st -> Inv st.
  Proof.
    apply inv_rule.
    - split; [apply Inv1_init; assumption|]. split; [apply Inv2_init|]. split; [apply Inv3_init; assumption|apply Inv4_init; assumption].
    - intros s a s' es (I1 & I2 & I3 & I4) Hst.
      split; [apply (Inv1_step k segs Hk Hs s a s' es I1 Hst)|]. split; [apply (Inv2_step k segs Hk Hs s a s' es I1 I2 Hst)|]. split; [apply (Inv3_step k segs Hk Hs s a s' es I1 I2 I3 Hst)|apply (Inv4_step s a s' es I1 I2 I3 I4 Hst)].
  Qed.
End L4.
