(** The epoch at which a retired block may be reclaimed (quiescent state based reclamation model, Model/QsbrDefs.v).
    [tagof]  a node retired while the global epoch (count) was g, and an orphan created while it was g, must not be
             freed before the global epoch reaches g + 2;
    [G0]     a block in retire list i of a thread whose (unbounded) local epoch is L satisfies [bound L i tag]: its tag is
             at most the next epoch > L that is congruent to i modulo 3 - the epoch whose announcement by that thread
             deletes list i; what an orphan carries has a tag that is at most the orphan's; the target epoch of an orphan
             created at g is (g + 2) mod 3; and WHEN A BLOCK IS FREED THE GLOBAL EPOCH IS >= ITS TAG.
    Holds in every reachable state ([QI_reach] in Proof/QsbrGuards.v).  No axioms.
    The target epoch is where this breaks for a wrong offset: with target (g + 1) mod 3 the clause [g_orph] would read
    otgt = (g + 1) mod 3 and the adoption case (G5) of [g_list] fails for an orphan created in the epoch just left
    (see qsbr_orphan_target_wrong_refuted in Proof/QsbrInv.v). *)
From Coq Require Import NArith ZArith List Bool Arith Lia PeanoNat Setoid.
From XV Require Import Conc.Lts Conc.Ev Model.QsbrDefs Proof.QsbrBase Proof.QsbrEpoch Proof.QsbrNodes.
Import ListNotations.
Local Open Scope N_scope.

Definition tagof (l : life) : N := match l with LRet _ _ g => g + 2 | LOrph _ g => g + 2 | _ => 0 end.
Definition bound (L i tg : N) : Prop := tg <= L + 3 /\ (i <> L mod 3 -> tg <= L + 2) /\ (i = (L + 1) mod 3 -> tg <= L + 1).

Record G0 (s : state) : Prop := {
  g_ret : forall n t r g, g_life s n = LRet t r g -> r <= g /\ g <= r + 1 /\ g <= g_gepc s;
  g_orph : forall n t g, g_life s n = LOrph t g -> g <= g_gepc s /\ otgt s n = (g + 2) mod 3;
  g_list : forall n u i, g_where s n = PList u i -> exists b, cb (tl s u) = Some b /\ bound (g_lepc s b) i (tagof (g_life s n));
  g_in : forall n o, g_where s n = PIn o -> tagof (g_life s n) <= tagof (g_life s o);
  g_freed : forall n, g_where s n = PFreed -> tagof (g_life s n) <= g_gepc s;
  g_ab : forall n, (g_where s n = PAband \/ exists u, g_where s n = PHand u) -> exists t g, g_life s n = LOrph t g }.

Lemma G0_init nc : G0 (init nc).
Proof. constructor; cbn; intros; try discriminate; try (destruct (n <? nc); discriminate). destruct H as [H|(u & H)]; discriminate. Qed.

Lemma tag_le_gepc s n : G0 s -> N0 s -> tagof (g_life s n) <= g_gepc s + 2.
Proof.
  intros G I. destruct (g_life s n) eqn:L; cbn; try lia.
  - destruct (g_ret s G n _ _ _ L) as (? & ? & ?). lia.
  - destruct (g_orph s G n _ _ L). lia.
Qed.

Lemma tagof_nonret l : retd l = false -> tagof l = 0.
Proof. destruct l; cbn; intros; try reflexivity; discriminate. Qed.
Lemma tagof_updN f x v n : retd (f x) = false -> retd v = false -> tagof (updN f x v n) = tagof (f n).
Proof.
  intros H1 H2. destruct (updN_cases f x v n) as [[-> ->]|[_ ->]]; [|reflexivity].
  rewrite (tagof_nonret _ H1), (tagof_nonret _ H2). reflexivity.
Qed.

Ltac tag_upd :=
  repeat match goal with
  | |- context [tagof (updN ?f ?x ?v ?n)] =>
    rewrite (tagof_updN f x v n) by (try reflexivity; split_updN_all; try reflexivity; match goal with H : _ ?x = _ |- _ => rewrite H; reflexivity end)
  end.

Lemma G0_step ns s t s' es : T0 ns s -> O0 s -> EI s -> N0 s -> G0 s -> step ns s (Step t) = Some (s', es) -> G0 s'.
Proof.
  intros T O (E0s & P & _) I G H.
  pose proof (fun n => tag_le_gepc s n G I) as Htl.
  destruct (step_frame _ _ _ _ _ H) as (Fth & Fb & _ & _ & Fg).
  unfold E0 in E0s. unfold_step H. cbv zeta in H. step_split H.
  all: bool_eqs; prj; rewrite ?upd_same; prj; prj_hyps; rewrite ?upd_same in *; prj_hyps.
  all: pose proof (T t) as Tt; pose proof (P t) as Pt; unfold P1 in Pt; try match goal with E : th _ _ = _ |- _ => rewrite E in Tt, Pt end.
  all: destruct G as [Gret Gorph Glist Gin Gfreed Gab].
  all: pose proof I as I0; destruct I as [Ilt Icell If1 If2 Iu1 Iu2 Iwh Ilist Iab Ihand Iin Iinlt Indl Inda Indi Irl3 Iotgt Ixd Ice].
  all: match goal with E : th ?s ?t = _ |- _ =>
         pose proof (If1 t) as If1t; pose proof (Iu1 t) as Iu1t; pose proof (Ihand t) as Ihandt; pose proof (Ixd t) as Ixdt; pose proof (Ice t) as Icet; pose proof (Ilist t) as Ilistt;
         rewrite E in If1t, Iu1t, Ihandt, Ixdt, Icet; nfn_in If1t; nfn_in Iu1t; nfn_in Ihandt; nfn_in Ixdt; nfn_in Icet end.
  all: constructor; prj; intros.
  all: try solve [assumption | eauto 2].
  (* the life cycle of a retired block does not change; the global epoch does not decrease *)
  all: try solve [nfacts; split_updN_all; try discriminate;
         first [ match goal with H : g_life _ _ = LRet _ _ _ |- _ => destruct (Gret _ _ _ _ H) as (? & ? & ?); repeat split; lia end
               | match goal with H : g_life _ _ = LOrph _ _ |- _ => destruct (Gorph _ _ _ H); split; first [lia | assumption] end
               | match goal with H : g_where _ _ = PFreed |- _ => pose proof (Gfreed _ H); first [lia | assumption] end
               | match goal with H : g_where _ _ = PIn _ |- _ => pose proof (Gin _ _ H); first [lia | assumption] end
               | apply Gab; assumption ]].
  (* the retire lists of the threads: control block and local epoch unchanged *)
  all: try solve [match goal with |- exists b, cb _ = Some b /\ _ => idtac end; nfacts; split_updN_all; try discriminate;
         match goal with H : g_where _ _ = PList _ _ |- _ => destruct (Glist _ _ _ H) as (bq & Hbq & Hbd) end;
         exists bq; split_upd_all; prj; (split; [assumption|]); split_updN_all; try assumption; try discriminate ].
  (* a block that is not retired changes its life cycle *)
  all: try solve [nfacts; tag_upd;
         first [ match goal with H : g_where _ _ = PFreed |- _ => pose proof (Gfreed _ H); first [lia | assumption] end
               | match goal with H : g_where _ _ = PIn _ |- _ => pose proof (Gin _ _ H); first [lia | assumption] end
               | match goal with H : g_where _ _ = PList _ _ |- _ => destruct (Glist _ _ _ H) as (bq & Hbq & Hbd) end;
                 exists bq; split_upd_all; prj; (split; [assumption|]); split_updN_all; try assumption; try discriminate
               | split_updN_all; first [apply Gab; assumption | exfalso; match goal with H : _ \/ _ |- _ => destruct H as [H|(uq & H)]; congruence end] ]].
  (* C3 / C6 / C9 / X4: the stepping thread has no retired blocks; the other threads are not touched *)
  all: try solve [match goal with H : g_where _ ?n = PList ?u ?i |- exists b, _ =>
         destruct (Nat.eq_dec u t) as [->|Hne];
         [ exfalso; apply Ilistt in H; first [rewrite Icet in H by (left; reflexivity) | rewrite (Ixdt eq_refl) in H]; destruct H
         | destruct (Glist _ _ _ H) as (bq & Hbq & Hbd); exists bq; rewrite ?upd_other by exact Hne; split; [exact Hbq|];
           destruct (o_own s O u bq Hbq) as [Ho _]; destruct (Fb bq (owner_untouched _ _ _ _ O Ho Hne)) as (_ & _ & El & _); prj_in El;
           first [rewrite El; exact Hbd | exact Hbd] ] end].
  (* X3 *)
  all: try solve [repeat match goal with Ihandt : forall n, Some ?o = Some n <-> _ |- _ => pose proof (proj1 (Ihandt o) eq_refl); clear Ihandt end;
                  split_updN_all; apply Gab; first [assumption | right; eexists; eassumption | match goal with H : _ \/ _ |- _ => destruct H as [H|(uq & H)]; [left; exact H|right; eexists; exact H] end]].
  (* R4: the unlinked node is retired into the list of the current local epoch *)
  all: try solve [match goal with E : th _ _ = R4 _ |- _ => idtac end; nfacts;
     match goal with E0 : cb (tl _ _) = Some ?b |- _ => destruct (Pt b E0) as (P1' & _); destruct (P1' eq_refl) as (A1 & A2 & A3 & _) end;
     first [ match goal with H : updN _ _ _ _ = LRet _ _ _ |- _ => split_updN_all; [injection H as <- <- <-; repeat split; lia | destruct (Gret _ _ _ _ H) as (? & ? & ?); repeat split; lia] end
           | match goal with H : updN (g_where _) ?old _ ?n0 = PList ?u ?i |- exists b, _ =>
               destruct (N.eq_dec n0 old) as [->|Hn0];
               [ rewrite updN_same in H; rewrite updN_same; injection H as <- <-; eexists; split_upd_all; prj; split; [eassumption|]; clear - A1 A2 A3; unfold bound; cbn [tagof]; mlia
               | rewrite updN_other in H by exact Hn0; rewrite updN_other by exact Hn0; destruct (Glist _ _ _ H) as (bq & Hbq & Hbd); exists bq; split_upd_all; prj; split; assumption ] end
           | match goal with H : updN (g_where _) ?old _ ?n0 = PIn ?o |- _ =>
               destruct (N.eq_dec n0 old) as [->|Hn0]; [rewrite updN_same in H; discriminate H|]; rewrite updN_other in H by exact Hn0; rewrite (updN_other _ _ _ n0) by exact Hn0;
               pose proof (Gin _ _ H); split_updN_all; [match goal with L : g_life _ old = _ |- _ => rewrite L in * end; cbn [tagof] in *; lia | assumption] end ]].
  (* G5: the abandoned orphans are adopted into the lists of their target epochs *)
  all: try solve [match goal with E : th _ _ = G5 _ _ |- _ => idtac end;
     destruct (cb (tl s t)) as [bt|] eqn:Ebt; [|exfalso; apply (ts_need _ _ _ Tt); [reflexivity|exact Ebt]];
     destruct (Pt bt eq_refl) as (P1' & _); destruct (P1' eq_refl) as (A1 & A2 & A3 & A4 & A5);
     mem_split;
     first [ match goal with M : In ?n (aband _), H : PList _ _ = PList _ _ |- exists b, _ =>
               apply Iab in M; destruct (Gab n (or_introl M)) as (tq & gq & Lq); destruct (Gorph _ _ _ Lq) as (Q1 & Q2);
               injection H as <- <-; exists bt; split_upd_all; prj; split; [exact Ebt|]; rewrite Lq; clear - Q1 Q2 A1 A2 A3 A4 A5; unfold bound; cbn [tagof]; mlia end
           | match goal with H : g_where _ _ = PList _ _ |- exists b, _ =>
               destruct (Glist _ _ _ H) as (bq & Hbq & Hbd); exists bq; split_upd_all; prj; split; assumption end
           | discriminate
           | match goal with H : g_where _ _ = PIn _ |- _ => exact (Gin _ _ H) end
           | match goal with H : g_where _ _ = PFreed |- _ => exact (Gfreed _ H) end
           | match goal with H : _ \/ _ |- _ => destruct H as [H|(uq & H)]; first [discriminate H | apply Gab; first [left; exact H | right; exists uq; exact H]] end ]].
  (* XC: the CAS of ~thread_data succeeded, the orphan is created; what it carries has a tag <= global epoch + 2 = the orphan's tag *)
  all: try solve [match goal with E : th _ _ = XC _ |- _ => idtac end; nfacts;
     first [ match goal with H : updN (g_life _) _ _ _ = LOrph _ _ |- _ => split_updN_all; [injection H as <- <-; split; [lia|clear - E0s E0; mlia] | exact (Gorph _ _ _ H)] end
           | match goal with H : _ \/ _ |- _ => destruct H as [H|(uq & H)] end;
             match goal with H : (if ?n =? _ then _ else _) = _ |- _ => destruct (N.eqb_spec n (nalloc s)) as [Hnn|Hnn]; [subst; rewrite updN_same; eauto|rewrite updN_other by exact Hnn] end; mem_split; try discriminate H;
             apply Gab; first [left; exact H | right; exists uq; exact H]
           | match goal with H : (if ?n =? _ then _ else _) = _ |- _ => destruct (N.eqb_spec n (nalloc s)) as [Hnn|Hnn]; [subst; discriminate H|] end; mem_split;
             first [ discriminate
                   | (* n is carried by the new orphan *)
                     match goal with H : PIn _ = PIn _ |- _ => injection H as <- end; rewrite updN_same, (updN_other _ _ _ n) by exact Hnn; cbn [tagof]; apply Htl
                   | match goal with H : g_where _ ?n = PIn ?o |- _ => pose proof (Iinlt _ _ H); rewrite !updN_other by (first [exact Hnn | lia]); exact (Gin _ _ H) end
                   | match goal with H : g_where _ ?n = PFreed |- _ => rewrite updN_other by exact Hnn; exact (Gfreed _ H) end
                   | match goal with H : g_where _ ?n = PList ?u ?i |- exists b, _ =>
                       destruct (Nat.eq_dec u t) as [->|Hne]; [exfalso; apply M; apply (ofl_in s t I0); left; eauto|];
                       destruct (Glist _ _ _ H) as (bq & Hbq & Hbd); exists bq; rewrite ?upd_other by exact Hne; rewrite updN_other by exact Hnn; split; assumption end ] ]].
  (* Q9: the new local epoch L + 1 = global epoch is announced, list (L + 1) mod 3 is deleted *)
  all: try solve [match goal with E : th _ _ = Q9 _ _ |- _ => idtac end; nfacts; tag_upd;
     match goal with E0 : cb (tl _ _) = Some ?b |- _ => destruct (Pt b E0) as (P1' & _); destruct (P1' eq_refl) as (A1 & A2 & A3 & A4 & A5) end;
     first [ match goal with H : _ \/ _ |- _ => destruct H as [H|(uq & H)] end; mem_split; try discriminate H; split_updN_all;
             first [ apply Gab; first [left; exact H | right; exists uq; exact H]
                   | exfalso; match goal with X : g_life ?s ?x = LNone, Y : g_where ?s ?x = _ |- _ => first [ assert (g_where s x = PAband \/ exists u, g_where s x = PHand u) as Z by (first [left; exact Y | right; exists uq; exact Y]); destruct (Gab _ Z) as (? & ? & Z2); congruence ] end ]
           | mem_split;
             first [ discriminate
                   | match goal with H : g_where _ _ = PIn _ |- _ => exact (Gin _ _ H) end
                   | match goal with H : g_where _ _ = PFreed |- _ => exact (Gfreed _ H) end
                   | (* freed now *)
                     match goal with M : In ?x (expand _ _) |- _ => apply (fl_in s t _ I0) in M; destruct M as [M|(oq & M1 & M2)] end;
                     [ destruct (Glist _ _ _ M) as (bq & Hbq & Hbd); same_cb; unfold bound in Hbd; lia
                     | destruct (Glist _ _ _ M1) as (bq & Hbq & Hbd); same_cb; pose proof (Gin _ _ M2); unfold bound in Hbd; lia ]
                   | match goal with M : ~ In ?x (expand _ _), H : g_where _ ?x = PList ?u ?i |- exists b, _ =>
                       destruct (Glist _ _ _ H) as (bq & Hbq & Hbd); exists bq;
                       destruct (Nat.eq_dec u t) as [->|Hne];
                       [ rewrite upd_same; prj; split; [exact Hbq|]; same_cb; rewrite updN_same;
                         assert (Hie : i <> e) by (intros ->; apply M; apply (fl_in s t _ I0); left; exact H); clear - Hbd A1 A2 A3 A4 A5 Hie; unfold bound in *; mlia
                       | rewrite upd_other by exact Hne; split; [exact Hbq|];
                         destruct (o_own s O u bq Hbq) as [Ho _]; destruct (Fb bq (owner_untouched _ _ _ _ O Ho Hne)) as (_ & _ & El & _); prj_in El; rewrite El; exact Hbd ] end ] ]].
Qed.

Lemma G0_start ns s t o s' es : G0 s -> step ns s (Start t o) = Some (s', es) -> G0 s'.
Proof.
  intros G H. destruct (start_same _ _ _ _ _ _ H) as (_ & -> & _). destruct G. constructor; prj; assumption.
Qed.

