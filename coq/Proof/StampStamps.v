(** Stamps and marks of the thread order queue in the stamp_it model (Model/StampDefs.v), as far as they are determined
    by the owner of a control block alone ([S0]): head->stamp is a multiple of StampInc and larger than every stamp
    handed out; what the stamp of a block looks like at every program point of its owner (pending / clean / NotInList);
    the prev pointer of a block is unmarked exactly while its owner is inside the critical region, and the ghost [g_reg]
    says the same; the tail stamp read by process_global_nodes is a lower bound of the current one (the tail stamp
    never decreases).  Holds in every reachable state ([S0_reach]).  No axioms. *)
From Coq Require Import NArith List Bool Arith Lia PeanoNat ZArith ZifyBool ZifyNat ZifyN.
From XV Require Import Conc.Lts Conc.Ev Model.StampDefs Proof.StampBase.
Import ListNotations.
Local Open Scope N_scope.

Ltac mlia := zify; Z.to_euclidean_division_equations; lia.

(** the stamp a block was given by fetch_add, whatever its flags *)
Definition cst (v : N) : N := ((v + 2) / 4) * 4.

Lemma odd_mod2 x : N.odd x = true <-> x mod 2 = 1.
Proof.
  rewrite <- N.bit0_odd. pose proof (N.bit0_mod x) as H. destruct (N.testbit x 0); cbn [N.b2n] in H; split; intros; try congruence; try discriminate.
Qed.
Lemma has_pending_spec v : has_pending v = true <-> (v mod 4 = 2 \/ v mod 4 = 3).
Proof. unfold has_pending. rewrite odd_mod2. mlia. Qed.
Lemma has_nil_spec v : has_nil v = true <-> v mod 2 = 1.
Proof. unfold has_nil. apply odd_mod2. Qed.
Lemma cst_pending v : has_pending v = true -> cst (v + 2) = cst v.
Proof. rewrite has_pending_spec. unfold cst. mlia. Qed.
Lemma cst_m4 v : v mod 4 = 0 -> cst v = v /\ cst (v + 1) = v /\ (4 <= v -> cst (v - 2) = v).
Proof. unfold cst. mlia. Qed.
Lemma pending_not_m4 v : has_pending v = true -> v mod 4 = 0 -> False.
Proof. rewrite has_pending_spec. lia. Qed.
Lemma cst_0 : cst 0 = 0.
Proof. reflexivity. Qed.

(** marked pointers *)
Lemma optr_eqb_eq a b : optr_eqb a b = true <-> a = b.
Proof.
  destruct a as [x|], b as [y|]; cbn; split; intros H; try congruence; try discriminate.
  - apply tcb_eqb_eq in H. congruence.
  - inversion H. apply tcb_eqb_eq. reflexivity.
Qed.
Lemma mp_eqb_eq (a b : mp) : mp_eqb a b = true <-> a = b.
Proof.
  destruct a as [p m], b as [q k]. unfold mp_eqb. cbn [fst snd]. rewrite andb_true_iff, optr_eqb_eq, N.eqb_eq.
  split; [intros [-> ->]; reflexivity|intros E; inversion E; auto].
Qed.
Lemma mp_eqb_neq (a b : mp) : mp_eqb a b = false <-> a <> b.
Proof. rewrite <- mp_eqb_eq. destruct (mp_eqb a b); split; congruence. Qed.
Lemma marked_mk p m : marked (mk_marked p m) = marked m.
Proof. unfold marked, mk_marked. cbn [snd]. rewrite N.odd_add. cbn. destruct (N.odd (snd m)); reflexivity. Qed.
Lemma marked_clean p m : marked (mk_clean p m) = false.
Proof.
  unfold marked, mk_clean. cbn [snd]. destruct (N.odd m) eqn:E; rewrite N.odd_add, E; reflexivity.
Qed.
Lemma marked_set_del a : marked (set_del a) = true.
Proof. unfold marked, set_del. cbn [snd]. destruct (N.odd (snd a)) eqn:E; [exact E|]. rewrite N.odd_add, E. reflexivity. Qed.

(** the thread is inside its critical region: its block is linked behind head and its prev pointer is not yet marked *)
Definition inreg (p : pc) (x : tls) : bool :=
  match p with
  | P11 _ _ _ | P12 _ _ | P13 _ _ _ | P14 _ _ _ => true
  | Rm R1 _ | Rm R2 _ => true
  | _ => negb (Nat.eqb (nest x) 0)
  end.
(** ... and at P10 the prev pointer is already clean (stored at P9) although the block is not linked yet: [inregx] is where the
    prev pointer is known to be unmarked, [inreg] where [g_reg] holds *)
Definition inregx (p : pc) (x : tls) : bool := match p with P10 _ _ _ _ => true | _ => inreg p x end.

(** the stamp of a block, by the program point of its owner; nothing is claimed at RM3: NotInList is set, the flags are no
    longer those of a block in the list *)
Definition sform (p : pc) (x : tls) (v : N) : Prop :=
  match p with
  | P7 _ _ s | P8 _ _ s | P9 _ _ s _ | P10 _ _ s _ | P11 _ s _ => cst v = s
  | Rm RM2 f => v = fnst f /\ v mod 4 = 0
  | Rm RM3 _ => True
  | Rm _ _ | P12 _ _ | P13 _ _ _ | P14 _ _ _ => v mod 4 = 0
  | _ => if Nat.eqb (nest x) 0 then True else v mod 4 = 0
  end.
(** a stamp taken from head->stamp *)
Definition pst_ok (p : pc) (h : N) : Prop :=
  match p with
  | P6 _ _ s | P7 _ _ s | P8 _ _ s | P9 _ _ s _ | P10 _ _ s _ | P11 _ s _ => s mod 4 = 0 /\ 4 <= s /\ s + 4 <= h
  | Rm SV2 f | Rm SV3 f => has_pending (fpst f) = true
  | UT7 _ v ts => ts < v
  | _ => True
  end.
(** a tail stamp read earlier *)
Definition ts_ok (p : pc) (tsnow : N) : Prop :=
  match p with PG2 _ ts | PG3 _ ts => ts <= tsnow | _ => True end.

Record S0 (s : state) : Prop := {
  s_h : qstamp s THead mod 4 = 0 /\ 4 <= qstamp s THead;
  s_sb : forall b, cst (qstamp s (TB b)) + 4 <= qstamp s THead;
  s_pc : forall u, pst_ok (th s u) (qstamp s THead);
  s_own : forall u b, cb (tl s u) = Some b ->
            sform (th s u) (tl s u) (qstamp s (TB b)) /\
            (inregx (th s u) (tl s u) = true -> marked (qprev s (TB b)) = false) /\
            g_reg s b = inreg (th s u) (tl s u);
  s_noown : forall b, g_reg s b = true -> exists u, cb (tl s u) = Some b;
  s_ts : forall u, ts_ok (th s u) (qstamp s TTail) }.

Lemma S0_init nc : S0 (init nc).
Proof.
  constructor; cbn; intros; try discriminate; try exact I.
  all: try (split; [reflexivity|unfold StampInc; lia]).
Qed.

Lemma sform_mid p f x v : midp p = true -> sform (Rm p f) x v = (v mod 4 = 0).
Proof. destruct p; cbn; intros; try discriminate; reflexivity. Qed.
Lemma inreg_mid p f x : midp p = true -> inreg (Rm p f) x = negb (Nat.eqb (nest x) 0) /\ inregx (Rm p f) x = negb (Nat.eqb (nest x) 0).
Proof. destruct p; cbn; intros; try discriminate; split; reflexivity. Qed.
Lemma ts_mid p f h : ts_ok (Rm p f) h = True.
Proof. reflexivity. Qed.
Lemma pst_mid p f h : midp p = true -> pst_ok (Rm p f) h = True.
Proof. destruct p; cbn; intros; try discriminate; reflexivity. Qed.

Ltac sfn := cbn [inreg inregx sform pst_ok ts_ok].
Ltac sfn_in H := cbn [inreg inregx sform pst_ok ts_ok] in H.

Ltac mp_eqs :=
  repeat match goal with
  | H : mp_eqb _ _ = true |- _ => apply mp_eqb_eq in H
  | H : mp_eqb _ _ = false |- _ => apply mp_eqb_neq in H
  end.

(** * what one step writes to the queue *)
Definition own (s : state) (t : nat) (x : tcb) : Prop := exists b, cb (tl s t) = Some b /\ x = TB b.
Definition fresh_blk (s : state) (x : tcb) : Prop := x = TB (nalloc s).

Lemma step_qwrites ns s t s' es : tshape ns (th s t) (tl s t) -> step ns s (Step t) = Some (s', es) ->
  (forall x, qstamp s' x = qstamp s x \/
             (* the owner: pending stamp (P6), clean stamp (P11), NotInList (RM2) *)
             (own s t x /\ ((exists k hp v, th s t = P6 k hp v /\ qstamp s' x = v - 2) \/ (exists k v my, th s t = P11 k v my /\ qstamp s' x = v) \/
                            (exists f, th s t = Rm RM2 f /\ qstamp s' x = fnst f + 1))) \/
             (* a new control block *)
             (fresh_blk s x /\ qstamp s' x = 0) \/
             (* fetch_add on head->stamp *)
             (x = THead /\ qstamp s' x = qstamp s x + 4 /\ exists k hp, th s t = P5 k hp) \/
             (* a helper clears PendingPush of the block it read *)
             (exists f, th s t = Rm SV3 f /\ qstamp s x = fpst f /\ qstamp s' x = fpst f + 2) \/
             (* update_tail_stamp *)
             (x = TTail /\ exists k v ts, th s t = UT7 k v ts /\ qstamp s x = ts /\ qstamp s' x = v)) /\
  (* prev pointers: the owner's own stores, a new block, or a compare-and-swap by a helper that keeps the mark *)
  (forall x, qprev s' x = qprev s x \/ own s t x \/ (fresh_blk s x /\ qprev s' x = null_mp) \/
             marked (qprev s' x) = marked (qprev s x)) /\
  (forall b, g_reg s' b = g_reg s b \/ cb (tl s t) = Some b) /\
  (forall b, cb (tl s t) = Some b -> cb (tl s' t) = Some b \/ (th s t = X1 /\ forall b', g_reg s' b' = g_reg s b')).
Proof.
  intros T H. unfold_step H. cbv zeta in H. step_split H.
  all: bool_eqs; mp_eqs; prj; rewrite ?upd_same; prj.
  all: try match goal with E : th _ _ = _ |- _ => rewrite E in T end.
  all: (split; [intros x|split; [intros x|split; [intros bb|intros bb Hbb]]]).
  all: try solve [left; reflexivity].
  all: try solve [left; first [assumption|congruence]].
  all: try solve [right; assumption].
  all: try solve [right; split; [reflexivity|intros; reflexivity]].
  all: try solve [exfalso; rewrite (ts_no _ _ _ T eq_refl) in Hbb; discriminate Hbb].
  all: try solve [match goal with |- context [updT ?f ?i ?v ?x] => destruct (updT_cases f i v x) as [[-> ->]|[Hx ->]] end;
                  [|left; reflexivity];
                  first [ right; left; split; [eexists; split; [eassumption|reflexivity]|];
                          first [ left; do 3 eexists; split; reflexivity | right; left; do 3 eexists; split; reflexivity | right; right; eexists; split; reflexivity ]
                        | right; left; eexists; split; [eassumption|reflexivity]
                        | right; right; left; split; reflexivity
                        | right; right; right; left; split; [reflexivity|split; [reflexivity|eauto]]
                        | right; right; right; right; left; eexists; split; [reflexivity|split; [congruence|reflexivity]]
                        | right; right; right; right; right; split; [reflexivity|do 3 eexists; split; [reflexivity|split; [congruence|reflexivity]]]
                        | right; right; right; rewrite ?marked_mk; congruence ]].
  all: try solve [match goal with |- context [updN ?f ?i ?v ?x] => destruct (updN_cases f i v x) as [[-> ->]|[Hx ->]] end;
                  [right; first [assumption|reflexivity|congruence]|left; reflexivity]].
Qed.


(** * the stepping thread *)
Definition self_ok (s' : state) (t : nat) : Prop :=
  pst_ok (th s' t) (qstamp s' THead) /\ ts_ok (th s' t) (qstamp s' TTail) /\
  (forall b, cb (tl s' t) = Some b ->
     sform (th s' t) (tl s' t) (qstamp s' (TB b)) /\
     (inregx (th s' t) (tl s' t) = true -> marked (qprev s' (TB b)) = false) /\
     g_reg s' b = inreg (th s' t) (tl s' t)).

Lemma nest_pos_eqb n : (1 <= n)%nat -> Nat.eqb n 0 = false.
Proof. destruct n; [lia|reflexivity]. Qed.

(* the arithmetic of stamps needed at the leaves of push / remove: [m4facts] adds what [cst] is on a clean or pending stamp,
   [self_last] normalises the updated maps and closes one clause of [self_ok] by assumption / lia, [midrw] evaluates the clause
   at a program point of remove known only to satisfy [midp] *)
Ltac m4facts :=
  repeat match goal with
  | H : ?v mod 4 = 0 |- _ => lazymatch goal with | _ : cst v = v /\ _ |- _ => fail | _ => pose proof (cst_m4 v H) end
  | H : has_pending ?v = true |- _ => lazymatch goal with | _ : cst (v + 2) = cst v |- _ => fail | _ => pose proof (cst_pending v H) end
  end.
Ltac self_last :=
  unfold StampInc, PendingPush, NotInList in *;
  rewrite ?updT_same, ?updN_same, ?marked_clean, ?marked_mk, ?marked_set_del;
  repeat match goal with |- context [updT ?f ?i ?v ?j] => rewrite (updT_other f i v j) by discriminate end;
  repeat match goal with H : _ /\ _ |- _ => destruct H end;
  m4facts;
  first [ assumption | exact I | reflexivity | discriminate | lia | congruence | (intros; assumption) | (intros; congruence) | (intros; discriminate)
        | repeat split; first [assumption | lia | congruence] ].
Ltac midrw :=
  repeat match goal with Mp : midp ?p = true |- _ => rewrite ?(sform_mid p _ _ _ Mp), ?(proj1 (inreg_mid p _ _ Mp)), ?(proj2 (inreg_mid p _ _ Mp)), ?(pst_mid p _ _ Mp), ?(ts_mid p _ _) in * end.
Lemma self_ok_intro s' t b x : tl s' t = x -> cb x = Some b ->
  pst_ok (th s' t) (qstamp s' THead) -> ts_ok (th s' t) (qstamp s' TTail) -> sform (th s' t) x (qstamp s' (TB b)) ->
  (inregx (th s' t) x = true -> marked (qprev s' (TB b)) = false) -> g_reg s' b = inreg (th s' t) x -> self_ok s' t.
Proof. intros <- Hb P1 P2 P3 P4 P5. split; [exact P1|split; [exact P2|]]. intros b0 Hb0. assert (b0 = b) by congruence. subst b0. auto. Qed.

(** push: the region counter is zero; the own stamp is written at P6 and P11, the own prev pointer at P9, the block is
    linked at P10 *)
Lemma S0_self_P ns s t s' es : tshape ns (th s t) (tl s t) -> O0 s -> S0 s -> step ns s (Step t) = Some (s', es) ->
  in_pphase (th s t) = true -> self_ok s' t.
Proof.
  intros T O I H Hph.
  assert (Hp0 : nest (tl s t) = 0%nat) by (apply (ts_p _ _ _ T); exact Hph).
  destruct (s_h s I) as [Ih1 Ih2]. pose proof (s_pc s I t) as Pc.
  destruct (cb (tl s t)) as [b|] eqn:Ecb.
  2: { exfalso. apply (ts_need _ _ _ T); [unfold needs_cb; rewrite Hph; reflexivity|exact Ecb]. }
  destruct (s_own s I t b Ecb) as (G1 & G2 & G3). pose proof (s_sb s I b) as Sb. clear T O I.
  unfold step, step_gen in H. destruct (th s t) eqn:Epc; try discriminate Hph; clear Hph; cbv beta iota zeta in H.
  all: rewrite ?Ecb in H; unfold push_check, entered, finish in H; cbv zeta in H; step_split H.
  all: bool_eqs; mp_eqs; sfn_in Pc; sfn_in G1; sfn_in G2; sfn_in G3; rewrite ?Hp0 in *; cbn [Nat.eqb negb] in *.
  all: eapply (self_ok_intro _ t b); [prj; rewrite ?upd_same; reflexivity|prj; exact Ecb|..]; prj; rewrite ?upd_same; sfn; prj; rewrite ?Hp0; cbn [Nat.eqb negb].
  all: solve [self_last].
Qed.

(** remove: the region counter is zero and the thread-local state stays as it is; the own stamp is written at RM2, the
    own prev pointer at R2 *)
Lemma S0_self_Rm ns s t s' es p f : tshape ns (th s t) (tl s t) -> O0 s -> S0 s -> step ns s (Step t) = Some (s', es) ->
  th s t = Rm p f -> self_ok s' t.
Proof.
  intros T O I H Epc.
  assert (Hl0 : nest (tl s t) = 0%nat) by (apply (ts_l _ _ _ T); rewrite Epc; reflexivity).
  destruct (s_h s I) as [Ih1 _]. pose proof (s_pc s I t) as Pc. rewrite Epc in Pc.
  unfold step, step_gen in H; rewrite Epc in H. destruct (cb (tl s t)) as [b|] eqn:Ecb; [|discriminate H].
  destruct (s_own s I t b Ecb) as (G1 & G2 & G3). rewrite Epc in G1, G2, G3. clear T O I Epc.
  unfold rm_step in H; cbv zeta in H; step_split H.
  all: bool_eqs; mp_eqs; sfn_in Pc; sfn_in G1; sfn_in G2; sfn_in G3; rewrite ?Hl0 in *; cbn [Nat.eqb negb] in *.
  all: rmm; apply (self_ok_intro _ t b (tl s t)); prj; rewrite ?upd_same; [reflexivity|exact Ecb|..].
  all: midrw; sfn; rewrite ?Hl0; cbn [Nat.eqb negb wf_pst wf_nst fpst fnst]; unfold NotInList.
  all: try solve [first [exact Logic.I | assumption | reflexivity | discriminate | (intros; discriminate) | (intros; assumption)
                        | apply G2; reflexivity | (split; [reflexivity|assumption]) | apply updN_same
                        | exfalso; specialize (G2 eq_refl); congruence ]].
  all: try solve [rewrite ?updT_same, ?marked_set_del, ?marked_mk; first [assumption | intros; discriminate | intros; apply G2; reflexivity | destruct G1; assumption]].
  (* a helper clears the PendingPush flag of some block: not the own one, whose stamp has no flag *)
  rewrite updT_other; [exact G1|]. intros <-. rewrite E1 in G1. exact (pending_not_m4 _ Pc G1).
Qed.

(** outside the queue code the stamp and the prev mark of the own block are determined by the region counter alone *)
Lemma dflt_pc p : plain p = true \/ queue_pc p = false -> forall x v,
  sform p x v = (if Nat.eqb (nest x) 0 then True else v mod 4 = 0) /\ inreg p x = negb (Nat.eqb (nest x) 0) /\
  inregx p x = negb (Nat.eqb (nest x) 0).
Proof. destruct p; cbn; intros [X|X]; try discriminate X; repeat split; reflexivity. Qed.

(** the stepping thread is outside the queue code: nothing of the queue is written, the region counter stays zero or
    non-zero, unless leave_region starts remove *)
Lemma S0_self_calm ns s t s' es : tshape ns (th s t) (tl s t) -> S0 s -> step ns s (Step t) = Some (s', es) ->
  queue_pc (th s t) = false -> self_ok s' t.
Proof.
  intros T I H Hq. pose proof (f_queue _ _ _ (step_frame _ _ _ _ _ H)) as Fq.
  destruct (Fq Hq) as (Es & Ep & _ & Er & _ & _ & Hc). unfold self_ok. rewrite Es, Ep, Er.
  assert (D : forall b, cb (tl s t) = Some b ->
            (nest (tl s t) <> O -> qstamp s (TB b) mod 4 = 0 /\ marked (qprev s (TB b)) = false) /\ g_reg s b = negb (Nat.eqb (nest (tl s t)) 0)).
  { intros b Hb. destruct (s_own s I t b Hb) as (G1 & G2 & G3).
    destruct (dflt_pc _ (or_intror Hq) (tl s t) (qstamp s (TB b))) as (D1 & D2 & D3). rewrite D1 in G1. rewrite D3 in G2. rewrite D2 in G3.
    split; [|exact G3]. intros Hn. apply Nat.eqb_neq in Hn. rewrite Hn in G1, G2. auto. }
  destruct Hc as [[Hp Hn]|((k & Ek) & Hn0 & Ecb & Ev)].
  - assert (Hd : plain (th s' t) = true \/ queue_pc (th s' t) = false).
    { destruct Hp as [Hp|[(k & ->)|(k & ts & _ & ->)]]; auto. }
    split; [|split].
    + destruct Hp as [Hp|[(k & ->)|(k & ts & _ & ->)]]; try exact Logic.I. destruct (th s' t); try discriminate Hp; exact Logic.I.
    + destruct Hp as [Hp|[(k & ->)|(k & ts & Ef & ->)]].
      * destruct (th s' t); try discriminate Hp; exact Logic.I.
      * cbn. lia.
      * pose proof (s_ts s I t) as X. rewrite Ef in X. exact X.
    + intros b Hb. destruct Hn as [[Hn Ecb]|Hnone]; [|congruence]. rewrite Ecb in Hb. destruct (D b Hb) as [D1 D2].
      destruct (dflt_pc _ Hd (tl s' t) (qstamp s (TB b))) as (-> & -> & ->). rewrite D2.
      destruct (Nat.eqb_spec (nest (tl s' t)) 0) as [Z|Z], (Nat.eqb_spec (nest (tl s t)) 0) as [Z'|Z']; try (exfalso; tauto); cbn.
      * repeat split. discriminate.
      * destruct (D1 Z'). auto.
  - rewrite Ek. cbn [pst_ok ts_ok sform inreg inregx]. split; [exact Logic.I|split; [exact Logic.I|]].
    intros b Hb. rewrite Ecb in Hb. destruct (D b Hb) as [D1 D2]. pose proof (tshape_nest_pos _ _ _ T Ev) as Hn.
    destruct (D1 Hn). apply Nat.eqb_neq in Hn. rewrite Hn in D2. auto.
Qed.

(** ensure_has_control_block and update_tail_stamp *)
Lemma S0_self_other ns s t s' es : tshape ns (th s t) (tl s t) -> O0 s -> S0 s -> step ns s (Step t) = Some (s', es) ->
  queue_pc (th s t) = true -> in_pphase (th s t) = false -> (forall p f, th s t <> Rm p f) -> self_ok s' t.
Proof.
  intros T O I H Hq Hph Hrm.
  assert (Hn0 : nest (tl s t) = 0%nat).
  { destruct (in_cphase (th s t)) eqn:Hc; [apply (ts_c _ _ _ T Hc)|apply (ts_l _ _ _ T)]. destruct (th s t); try discriminate; reflexivity. }
  assert (Hreg : forall b, (forall u, cb (tl s u) <> Some b) -> g_reg s b = false).
  { intros b0 Hb0. destruct (g_reg s b0) eqn:Er; [|reflexivity]. destruct (s_noown s I b0 Er) as (u & Hu). exfalso. eapply Hb0; eauto. }
  pose proof (s_pc s I t) as Pc. pose proof (s_own s I t) as Own. pose proof (ts_no _ _ _ T) as Tno. pose proof (o_ownC s O t) as OC.
  unfold step, step_gen in H. destruct (th s t) eqn:Epc; try discriminate Hq; try discriminate Hph; try (exfalso; eapply Hrm; reflexivity); clear Hq Hph Hrm; cbv beta iota zeta in H.
  all: unfold walk in H; step_split H; bool_eqs; mp_eqs; unfold self_ok; prj; rewrite ?upd_same; sfn; sfn_in Pc.
  all: (split; [first [exact Logic.I|assumption|lia]|split; [exact Logic.I|]]); intros b0 Hb0; prj_in Hb0.
  all: try solve [specialize (Tno eq_refl); congruence].
  all: try solve [destruct (Own b0 Hb0) as (G1 & G2 & G3); sfn_in G1; sfn_in G2; sfn_in G3; prj; rewrite ?Hn0 in *; cbn [Nat.eqb negb] in *;
                  repeat split; first [assumption | intros; discriminate]].
  (* a control block is adopted / registered: it was not in a region *)
  all: injection Hb0 as <-; prj; rewrite Hn0; cbn [Nat.eqb negb]; (split; [exact Logic.I|split; [discriminate|]]); apply Hreg; intros u Hu;
    destruct (o_own s O u _ Hu) as [Ho Hin].
  - destruct (o_rev s O r u Ho) as (_ & Hst & _). rewrite E in Hst. discriminate.
  - destruct (OC b eq_refl) as [_ Hni]. contradiction.
Qed.

Lemma sform_pending p x v : has_pending v = true -> sform p x v -> sform p x (v + 2).
Proof.
  intros Hp. pose proof (pending_not_m4 _ Hp) as Hc. pose proof (cst_pending _ Hp) as Hcs.
  destruct p; try match goal with q : rpt |- _ => destruct q end; cbn [sform]; intros F;
    try exact I; try (rewrite Hcs; exact F); try (exfalso; apply Hc; first [exact F | apply F]);
    try (destruct (Nat.eqb (nest x) 0); [exact I|exfalso; apply Hc; exact F]).
Qed.

Lemma rm_dec (p : pc) : (exists q f, p = Rm q f) \/ (forall q f, p <> Rm q f).
Proof. destruct p; try (right; intros; discriminate). left. eauto. Qed.

Lemma S0_self ns s t s' es : tshape ns (th s t) (tl s t) -> O0 s -> S0 s -> step ns s (Step t) = Some (s', es) -> self_ok s' t.
Proof.
  intros T O I H. destruct (queue_pc (th s t)) eqn:Hq; [|eapply S0_self_calm; eauto].
  destruct (in_pphase (th s t)) eqn:Hp; [eapply S0_self_P; eauto|].
  destruct (rm_dec (th s t)) as [(q & f & E)|Hn]; [eapply S0_self_Rm; eauto|eapply S0_self_other; eauto].
Qed.

(** head->stamp only grows, by StampInc; the stamp of tail never decreases *)
Lemma head_stamp_step ns s t s' es : tshape ns (th s t) (tl s t) -> S0 s -> step ns s (Step t) = Some (s', es) ->
  qstamp s THead <= qstamp s' THead /\ qstamp s' THead mod 4 = 0.
Proof.
  intros T I H. destruct (step_qwrites ns s t s' es T H) as (WA & _). pose proof (s_pc s I t) as Ipct. destruct (s_h s I) as [Ih1 Ih2].
  destruct (WA THead) as [E|[[(b & _ & X) _]|[[X _]|[(_ & E & _)|[(f & Ef & E1 & E2)|(X & _)]]]]]; try discriminate X.
  - rewrite E. split; [lia|exact Ih1].
  - rewrite E. split; [lia|]. rewrite N.add_mod, Ih1 by discriminate. reflexivity.
  - exfalso. rewrite Ef in Ipct. sfn_in Ipct. rewrite E1 in Ih1. eapply pending_not_m4; eauto.
Qed.
Lemma tail_stamp_mono ns s t s' es : tshape ns (th s t) (tl s t) -> S0 s -> step ns s (Step t) = Some (s', es) ->
  qstamp s TTail <= qstamp s' TTail.
Proof.
  intros T I H. destruct (step_qwrites ns s t s' es T H) as (WA & _). pose proof (s_pc s I t) as Ipct.
  destruct (WA TTail) as [E|[[(b & _ & X) _]|[[X _]|[(X & _)|[(f & Ef & E1 & E2)|(_ & k & v & ts & Ef & E1 & E2)]]]]]; try discriminate X.
  - rewrite E. lia.
  - rewrite E1, E2. lia.
  - rewrite Ef in Ipct. sfn_in Ipct. rewrite E1, E2. lia.
Qed.

(** one step leaves the stamp of a block as it is, up to its flags, unless the owner stores a new pending stamp (P6) or the
    block is created *)
Lemma cst_step ns s t s' es b : tshape ns (th s t) (tl s t) -> S0 s -> step ns s (Step t) = Some (s', es) ->
  cst (qstamp s' (TB b)) = cst (qstamp s (TB b)) \/
  (exists k hp v, th s t = P6 k hp v /\ cb (tl s t) = Some b /\ qstamp s' (TB b) = v - 2) \/
  (b = nalloc s /\ qstamp s' (TB b) = 0).
Proof.
  intros T S H. destruct (step_qwrites ns s t s' es T H) as (WA & _). pose proof (s_pc s S t) as P.
  destruct (WA (TB b)) as [E|[[(b0 & Hb0 & X) Hk]|[[X E]|[(X & _)|[(f & Ef & E1 & E2)|(X & _)]]]]]; try discriminate X.
  - left. rewrite E. reflexivity.
  - injection X as <-. destruct (s_own s S t b Hb0) as (F1 & _).
    destruct Hk as [(k & hp & v & Ef & E)|[(k & v & my & Ef & E)|(f & Ef & E)]]; rewrite Ef in F1, P; sfn_in F1; sfn_in P.
    + right. left. eauto 7.
    + left. destruct P as (P1 & _). rewrite E, F1. apply (cst_m4 v P1).
    + left. destruct F1 as [F1 F1']. rewrite E, <- F1. destruct (cst_m4 _ F1') as (C0 & C1 & _). rewrite C1, C0. reflexivity.
  - right. right. injection X as ->. auto.
  - left. rewrite Ef in P. sfn_in P. rewrite E2, <- E1. apply cst_pending. rewrite E1. exact P.
Qed.

Lemma pst_ok_mono p h h' : h <= h' -> pst_ok p h -> pst_ok p h'.
Proof. intros L. destruct p; cbn [pst_ok]; auto; intros (A & B & C); repeat split; try assumption; lia. Qed.
Lemma ts_ok_mono p a b : a <= b -> ts_ok p a -> ts_ok p b.
Proof. intros L. destruct p; cbn [ts_ok]; auto; lia. Qed.

Lemma S0_step ns s t s' es : T0 ns s -> O0 s -> S0 s -> step ns s (Step t) = Some (s', es) -> S0 s'.
Proof.
  intros T O I H.
  destruct (S0_self _ _ _ _ _ (T t) O I H) as (Sp & St & So).
  destruct (step_qwrites ns s t s' es (T t) H) as (WA & WB & WC & WD).
  destruct (step_frame _ _ _ _ _ H) as [Fth _ _ Hna _ _ _].
  pose proof I as [Ih Isb Ipc Iown Inoown Its].
  pose proof (Ipc t) as Ipct.
  destruct (head_stamp_step _ _ _ _ _ (T t) I H) as [HH1 HH2]. pose proof (tail_stamp_mono _ _ _ _ _ (T t) I H) as HT.
  assert (Hsb : forall b, cst (qstamp s' (TB b)) + 4 <= qstamp s' THead).
  { intros b. specialize (Isb b). destruct (cst_step _ _ _ _ _ b (T t) I H) as [E|[(k & hp & v & Ef & _ & E)|[_ E]]]; rewrite E; [lia| |unfold cst; cbn; lia].
    rewrite Ef in Ipct. sfn_in Ipct. destruct Ipct as (P1 & P2 & P3). destruct (cst_m4 v P1) as (_ & _ & C). rewrite (C P2). lia. }
  constructor.
  - split; [exact HH2|destruct Ih; lia].
  - exact Hsb.
  - intros u. destruct (Nat.eq_dec u t) as [->|Hne]; [exact Sp|].
    destruct (Fth u Hne) as [-> _]. apply (pst_ok_mono _ _ _ HH1), Ipc.
  - intros u b Hcb. destruct (Nat.eq_dec u t) as [->|Hne]; [apply So; exact Hcb|].
    destruct (Fth u Hne) as [Eth Etl]. rewrite Eth, Etl in *.
    destruct (Iown u b Hcb) as (F1 & F2 & F3).
    assert (Hnt : cb (tl s t) <> Some b).
    { intros X. destruct (o_own s O u b Hcb) as [X1 _]. destruct (o_own s O t b X) as [X2 _]. congruence. }
    assert (Hlt : b < nalloc s).
    { destruct (o_own s O u b Hcb) as [X1 _]. apply (o_rev s O) in X1. apply X1. }
    split; [|split].
    + destruct (WA (TB b)) as [E|[[(b0 & Hb0 & X) _]|[[X E]|[(X & _)|[(f & Ef & E1 & E2)|(X & _)]]]]]; try discriminate X.
      * rewrite E. exact F1.
      * injection X as ->. contradiction.
      * unfold fresh_blk in X. injection X as ->. lia.
      * rewrite Ef in Ipct. sfn_in Ipct. rewrite E2. rewrite E1 in F1.
        apply sform_pending; assumption.
    + intros Hi. specialize (F2 Hi).
      destruct (WB (TB b)) as [E|[(b0 & Hb0 & X)|[[X E]|E]]].
      * rewrite E. exact F2.
      * injection X as ->. contradiction.
      * unfold fresh_blk in X. injection X as ->. lia.
      * rewrite E. exact F2.
    + destruct (WC b) as [E|E]; [rewrite E; exact F3|contradiction].
  - intros b Hb. destruct (WC b) as [E|E].
    + rewrite E in Hb. destruct (Inoown b Hb) as (u & Hu). destruct (Nat.eq_dec u t) as [->|Hne].
      * destruct (WD b Hu) as [X|[X1 X2]]; [exists t; exact X|].
        exfalso. destruct (Iown t b Hu) as (_ & _ & G3). rewrite X1 in G3. sfn_in G3.
        pose proof (ts_l _ _ _ (T t)) as L. rewrite X1 in L. rewrite (L eq_refl) in G3. cbn in G3. congruence.
      * exists u. destruct (Fth u Hne) as [_ ->]. exact Hu.
    + destruct (WD b E) as [X|[X1 X2]]; [exists t; exact X|].
      exfalso. rewrite X2 in Hb. destruct (Iown t b E) as (_ & _ & G3). rewrite X1 in G3. sfn_in G3.
      pose proof (ts_l _ _ _ (T t)) as L. rewrite X1 in L. rewrite (L eq_refl) in G3. cbn in G3. congruence.
  - intros u. destruct (Nat.eq_dec u t) as [->|Hne]; [exact St|].
    destruct (Fth u Hne) as [-> _]. apply (ts_ok_mono _ _ _ HT), Its.
Qed.

Lemma start_effect ns s t o s' es : step ns s (Start t o) = Some (s', es) ->
  th s t = Idle /\ qstamp s' = qstamp s /\ qprev s' = qprev s /\ g_reg s' = g_reg s /\
  (forall u, u <> t -> th s' u = th s u /\ tl s' u = tl s u) /\ cb (tl s' t) = cb (tl s t) /\
  ((th s' t = Begin o /\ tl s' t = tl s t) \/ (th s' t = X1 /\ tl s' t = tl s t /\ nest (tl s t) = O) \/
   (exists fr, th s' t = Rm R1 (frame0 (LExit fr)) /\ nest (tl s t) <> O /\ nest (tl s' t) = O)).
Proof.
  intros H. unfold step, step_gen in H. step_split H.
  all: bool_eqs; prj; rewrite ?upd_same; prj.
  all: repeat split; try reflexivity; try assumption.
  all: try (intros u Hu; rewrite ?upd_other by exact Hu; split; reflexivity).
  all: try (intros; rewrite ?upd_other by assumption; reflexivity).
  all: try solve [left; split; reflexivity].
  all: try solve [right; left; repeat split; assumption].
  all: try solve [right; right; eexists; repeat split; assumption].
Qed.

Lemma S0_start ns s t o s' es : S0 s -> step ns s (Start t o) = Some (s', es) -> S0 s'.
Proof.
  intros I H. destruct (start_effect _ _ _ _ _ _ H) as (Eid & Es & Ep & Er & Fo & Ecb & Hc).
  destruct I as [Ih Isb Ipc Iown Inoown Its].
  assert (Hpc : forall u, u <> t -> th s' u = th s u) by (intros u Hu; apply Fo; exact Hu).
  assert (Hns : match th s' t with P6 _ _ _ | P7 _ _ _ | P8 _ _ _ | P9 _ _ _ _ | P10 _ _ _ _ | P11 _ _ _ | Rm SV2 _ | Rm SV3 _ | UT7 _ _ _ | PG2 _ _ | PG3 _ _ => False | _ => True end).
  { destruct Hc as [[-> _]|[[-> _]|(fr & -> & _)]]; exact I. }
  constructor; rewrite ?Es, ?Ep, ?Er.
  - exact Ih.
  - exact Isb.
  - intros u. destruct (Nat.eq_dec u t) as [->|Hne]; [|rewrite (Hpc u Hne); apply Ipc].
    destruct (th s' t); try exact I; try contradiction. destruct p; try exact I; contradiction.
  - intros u b Hcb. destruct (Nat.eq_dec u t) as [->|Hne].
    + rewrite Ecb in Hcb. specialize (Iown t b Hcb). rewrite Eid in Iown. sfn_in Iown. destruct Iown as (G1 & G2 & G3).
      destruct Hc as [[-> ->]|[[-> [-> Hn]]|(fr & -> & Hn & Hn')]]; sfn.
      * repeat split; assumption.
      * repeat split; assumption.
      * destruct (nest (tl s t)); [congruence|]. cbn in *. repeat split; auto.
    + destruct (Fo u Hne) as [-> Et]. rewrite Et in *. apply Iown. exact Hcb.
  - intros b Hb. destruct (Inoown b Hb) as (u & Hu). exists u.
    destruct (Nat.eq_dec u t) as [->|Hne]; [rewrite Ecb; exact Hu|]. destruct (Fo u Hne) as [_ ->]. exact Hu.
  - intros u. destruct (Nat.eq_dec u t) as [->|Hne]; [|rewrite (Hpc u Hne); apply Its].
    destruct (th s' t); try exact I; contradiction.
Qed.

Section ReachS.
Variables (ns : nat) (nc : N).
Lemma S0_reach s : reachable ns nc s -> S0 s.
Proof.
  apply (inv_rule_aux _ _ _ _ _ (fun s => T0 ns s /\ O0 s) S0).
  - intros s0 Hr. split; [apply (T0_reach ns nc); exact Hr|apply (O0_reach ns nc); exact Hr].
  - apply S0_init.
  - intros s0 a s1 es [J1 J2] _ I H. destruct a as [t o|t]; [eapply S0_start; eauto|eapply S0_step; eauto].
Qed.
End ReachS.
