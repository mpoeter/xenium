(** Bookkeeping of the nodes handed to guard_ptr::reclaim in the epoch based reclamation model
    (Model/EbrDefs.v), the safety half of C02:  [N0]  a node is in at most one place, and the ghost [g_where]
    says exactly where: a retired node is in the retire list of epoch slot i of exactly one thread, or in
    exactly one orphan list, or adopted by exactly one thread (in flight inside update_global_epoch), or freed;
    all these lists are duplicate free; a node is freed at most once ([g_nfree]) and only after it was retired;
    the hand-over at thread exit moves the three lists to the orphan lists and drops nothing.
    Holds in every reachable state ([N0_reach]).  No axioms. *)
From Coq Require Import NArith List Bool Arith Lia PeanoNat Setoid.
From XV Require Import Conc.Lts Conc.Ev Model.EbrDefs Proof.EbrBase Proof.EbrEpoch.
Import ListNotations.
Local Open Scope N_scope.

(** * Retired nodes: where they are *)
Definition flight (p : pc) : list N := match p with G5 _ _ l | G6 _ _ l | G7 _ _ l _ => l | _ => [] end.
Definition flight_ep (p : pc) : option N := match p with G5 _ e _ | G6 _ e _ | G7 _ e _ _ => Some e | _ => None end.
Definition fresh_of (p : pc) : option N := match p with R3 _ _ (Some n) => Some n | _ => None end.
Definition tmpg (p : pc) : option N := match p with R3 _ (Some g) _ => Some g | _ => None end.
Definition wh_ok (w : place) (l : life) (k : nat) : Prop :=
  match w with
  | PNone => (forall t r, l <> LRet t r) /\ k = O
  | PFreed => (exists t r, l = LRet t r) /\ k = 1%nat
  | _ => (exists t r, l = LRet t r) /\ k = O
  end.
Definition xdone (p : pc) (r : N -> list N) : Prop :=
  match p with
  | X1 i | X2 i _ => forall j, j < i -> r j = []
  | X3 => forall j, r j = []
  | _ => True
  end.

Lemma count_nodup n l : NoDup l -> length (filter (N.eqb n) l) = if memN n l then 1%nat else 0%nat.
Proof.
  induction 1 as [|a l Hni Hnd IH]; [reflexivity|]. cbn [filter memN existsb]. fold (memN n l).
  destruct (N.eqb_spec n a) as [->|Hne]; cbn [orb length].
  - rewrite IH. apply memN_false in Hni. rewrite Hni. reflexivity.
  - exact IH.
Qed.
Lemma NoDup_app_intro {A} (l1 l2 : list A) : NoDup l1 -> NoDup l2 -> (forall x, In x l1 -> ~ In x l2) -> NoDup (l1 ++ l2).
Proof.
  induction 1 as [|a l Hni Hnd IH]; intros H2 Hd; [exact H2|]. cbn [app]. constructor.
  - rewrite in_app_iff. intros [X|X]; [contradiction|]. apply (Hd a); [left; reflexivity|exact X].
  - apply IH; [exact H2|]. intros x Hx. apply Hd. right. exact Hx.
Qed.

Lemma wh_not_ret w l k : wh_ok w l k -> (forall t r, l <> LRet t r) -> w = PNone /\ k = O.
Proof. destruct w; cbn; intros [H1 H2] H; auto; destruct H1 as (t0 & r & E); exfalso; eapply H; eauto. Qed.
Lemma wh_ret_some w l k : wh_ok w l k -> w <> PNone -> exists t r, l = LRet t r.
Proof. destruct w; cbn; intros [H1 H2] H; auto; congruence. Qed.


(** * Places
    A retired node is in one place; the list-like places (a retire list, an orphan list, the nodes adopted by a
    thread) are lists [c p], and [places wh c] says that the lists and the ghost [wh] agree and that the lists are
    duplicate free.  The reclaimer only ever moves the WHOLE content of some places to another place, or pushes one
    node that was in no place. *)
Definition listed (p : place) : Prop := p <> PNone /\ p <> PFreed.

Lemma place_eq_dec (p q : place) : {p = q} + {p <> q}.
Proof. decide equality; first [apply Nat.eq_dec | apply N.eq_dec]. Qed.

Definition places (wh : N -> place) (c : place -> list N) : Prop :=
  forall p, listed p -> (forall n, In n (c p) <-> wh n = p) /\ NoDup (c p).

Lemma places_ext wh c c' : places wh c -> (forall p, c' p = c p) -> places wh c'.
Proof. intros P E p Lp. rewrite E. exact (P p Lp). Qed.

(** the content [l] of the places [S] moves to [B] (a list, to whose front it goes, or [PFreed]) *)
Lemma places_move wh c c' (S : place -> Prop) B l :
  places wh c -> (forall p, S p \/ ~ S p) -> ~ S B -> (forall n, In n l <-> S (wh n)) -> NoDup l ->
  (forall p, S p -> c' p = []) -> (listed B -> c' B = l ++ c B) -> (forall p, ~ S p -> p <> B -> c' p = c p) ->
  places (fun n => if memN n l then B else wh n) c'.
Proof.
  intros P Sd SB Hl Hnd HS HB Ho p Lp. destruct (Sd p) as [Sp|Sp].
  - rewrite (HS p Sp). split; [|constructor]. intros n. split; [intros []|]. intros E.
    destruct (memN n l) eqn:M; [subst p; contradiction|]. apply memN_false in M. apply M, Hl. rewrite E. exact Sp.
  - destruct (place_eq_dec p B) as [->|Hne].
    + rewrite (HB Lp). destruct (P B Lp) as [Pi Pn]. split.
      * intros n. rewrite in_app_iff, Pi. destruct (memN n l) eqn:M; [apply memN_In in M|apply memN_false in M]; tauto.
      * apply NoDup_app_intro; [exact Hnd|exact Pn|]. intros x Hx Hx'. apply Hl in Hx. apply Pi in Hx'. rewrite Hx' in Hx. contradiction.
    + rewrite (Ho p Sp Hne). destruct (P p Lp) as [Pi Pn]. split; [|exact Pn]. intros n. rewrite Pi.
      destruct (memN n l) eqn:M; [|reflexivity]. apply memN_In, Hl in M. split; intros E; [rewrite E in M; contradiction|congruence].
Qed.

(** a node that was in no place is pushed onto the list [A] *)
Lemma places_push wh c c' A n0 :
  places wh c -> wh n0 = PNone -> listed A -> c' A = n0 :: c A -> (forall p, p <> A -> c' p = c p) -> places (updN wh n0 A) c'.
Proof.
  intros P H0 LA HA Ho p Lp. destruct (place_eq_dec p A) as [->|Hne].
  - rewrite HA. destruct (P A Lp) as [Pi Pn]. split.
    + intros n. cbn [In]. rewrite Pi. destruct (updN_cases wh n0 A n) as [[-> ->]|[Hn ->]]; [tauto|]. split; [intros [X|X]; [congruence|exact X]|auto].
    + constructor; [|exact Pn]. rewrite Pi, H0. intros E. destruct LA. congruence.
  - rewrite (Ho p Hne). destruct (P p Lp) as [Pi Pn]. split; [|exact Pn]. intros n. rewrite Pi.
    destruct (updN_cases wh n0 A n) as [[-> ->]|[Hn ->]]; [|reflexivity]. split; intros E; [rewrite H0 in E; destruct Lp; congruence|congruence].
Qed.

(** [wh_ok] only distinguishes no place / a list / freed *)
Lemma wh_ok_listed w w' l k : wh_ok w l k -> listed w -> listed w' -> wh_ok w' l k.
Proof. intros H [A B] [A' B']. destruct w; try congruence; destruct w'; try congruence; exact H. Qed.
Lemma wh_ok_free w l : wh_ok w l 0 -> listed w -> wh_ok PFreed l 1.
Proof. intros H [A B]. destruct w; try congruence; cbn in *; tauto. Qed.
Lemma wh_ok_life w l l' k : wh_ok w l k -> (forall t r, l <> LRet t r) -> (forall t r, l' <> LRet t r) -> wh_ok w l' k.
Proof. intros H N N'. destruct (wh_not_ret _ _ _ H N) as [-> ->]. split; [exact N'|reflexivity]. Qed.
Lemma wh_listed_0 w l k : wh_ok w l k -> listed w -> k = O.
Proof. intros H [A B]. destruct w; try congruence; apply H. Qed.

Definition content (s : state) (p : place) : list N :=
  match p with PList u i => rl (tl s u) i | POrph i => orph s i | PFlight u => flight (th s u) | _ => [] end.

Lemma xnext_spec r i0 : (forall j, 3 <= j -> r j = []) ->
  match xnext r i0 with
  | X1 i => i0 <= i /\ i < 3 /\ (forall j, i0 <= j -> j < i -> r j = [])
  | X3 => forall j, i0 <= j -> r j = []
  | _ => False
  end.
Proof.
  intros H3. unfold xnext.
  assert (Hj : forall j, j = 0 \/ j = 1 \/ j = 2 \/ 3 <= j) by (intros; lia).
  destruct (N.leb_spec i0 0), (is_nil (r 0)) eqn:E0; cbn [andb negb];
  destruct (N.leb_spec i0 1), (is_nil (r 1)) eqn:E1; cbn [andb negb];
  destruct (N.leb_spec i0 2), (is_nil (r 2)) eqn:E2; cbn [andb negb];
  try apply is_nil_true in E0; try apply is_nil_true in E1; try apply is_nil_true in E2;
  try (repeat split; try lia; intros j Hj1 Hj2; destruct (Hj j) as [->|[->|[->|Hx]]]; try assumption; try lia);
  try (intros j Hj1; destruct (Hj j) as [->|[->|[->|Hx]]]; try assumption; try lia; apply H3; assumption).
Qed.

(* [xnext r i0] skips empty slots: if [r'] agrees with [r] from i0 on and is empty below i0, the slots passed are empty *)
Lemma xdone_xnext r r' i0 : (forall j, 3 <= j -> r j = []) -> (forall j, i0 <= j -> r' j = r j) -> (forall j, j < i0 -> r' j = []) ->
  xdone (xnext r i0) r'.
Proof.
  intros H3 Hhi Hlo. pose proof (xnext_spec r i0 H3) as X. destruct (xnext r i0); try contradiction; cbn [xdone].
  - intros j Hj. destruct (N.lt_ge_cases j i0); [apply Hlo; assumption|rewrite Hhi by assumption; apply X; assumption].
  - intros j. destruct (N.lt_ge_cases j i0); [apply Hlo; assumption|rewrite Hhi by assumption; apply X; assumption].
Qed.

Lemma mod3_succ_ne a : (a + 1) mod 3 <> a mod 3 /\ (a + 2) mod 3 <> a mod 3 /\ (a + 2) mod 3 <> (a + 1) mod 3.
Proof.
  rewrite (N.add_mod a 1 3), (N.add_mod a 2 3) by discriminate.
  pose proof (N.mod_lt a 3 ltac:(discriminate)) as H. set (m := a mod 3) in *.
  assert (Hm : m = 0 \/ m = 1 \/ m = 2) by lia. destruct Hm as [-> | [-> | ->]]; cbn; repeat split; discriminate.
Qed.

Lemma uslots_nodup new old : NoDup (uslots new old).
Proof.
  unfold uslots. destruct (N.eqb_spec (N.min 3 (new - old)) 0); [constructor|].
  destruct (N.eqb_spec (N.min 3 (new - old)) 1); [constructor; [intros []|constructor]|].
  destruct (N.eqb_spec (N.min 3 (new - old)) 2).
  - assert (Hn : new = (new - 1) + 1) by lia. destruct (mod3_succ_ne (new - 1)) as (H1 & _). rewrite <- Hn in H1.
    constructor; [intros [X|[]]; congruence|constructor; [intros []|constructor]].
  - assert (Hn : new - 1 = (new - 2) + 1) by lia. assert (Hn2 : new = (new - 2) + 2) by lia.
    destruct (mod3_succ_ne (new - 2)) as (H1 & H2 & H3). rewrite <- Hn in H1, H3. rewrite <- Hn2 in H2, H3.
    constructor; [intros [X|[X|[]]]; congruence|]. constructor; [intros [X|[]]; congruence|]. constructor; [intros []|constructor].
Qed.

Lemma uslots_lt new old i : In i (uslots new old) -> i < 3.
Proof.
  unfold uslots. repeat match goal with |- context [if ?c then _ else _] => destruct c end; cbn [In];
  intros H; repeat (destruct H as [<-|H]); try contradiction; apply N.mod_lt; discriminate.
Qed.

Section Flat.
  Variables (s : state) (t : nat) (r : N -> list N) (sl : list N).
  Hypothesis Hl : forall i n, In n (r i) <-> g_where s n = PList t i.
  Hypothesis Hnd : forall i, NoDup (r i).
  Lemma flat_where n : In n (flat_map r sl) <-> exists i, In i sl /\ g_where s n = PList t i.
  Proof.
    rewrite in_flat_map. split; intros (i & Hi & H); exists i; (split; [exact Hi|]); apply Hl; exact H.
  Qed.
  Lemma flat_nodup : NoDup sl -> NoDup (flat_map r sl).
  Proof.
    induction 1 as [|a l Hni Hnd' IH]; cbn [flat_map]; [constructor|].
    apply NoDup_app_intro; [apply Hnd|exact IH|].
    intros x Hx Hx'. apply Hl in Hx. apply in_flat_map in Hx'. destruct Hx' as (i & Hi & Hx').
    apply Hl in Hx'. assert (a = i) by congruence. subst. contradiction.
  Qed.
End Flat.

(** the part of [N0] that only reads a thread's own program point and thread-local data *)
Record lshape (p : pc) (x : tls) : Prop := {
  l_lidx : lidx x < 3;
  l_rl3 : forall i, 3 <= i -> rl x i = [];
  l_xdone : xdone p (rl x);
  l_cempty : in_cphase p = true \/ cb x = None -> forall i, rl x i = [] }.

Lemma lshape_step ns s t s' es : tshape ns (th s t) (tl s t) -> lshape (th s t) (tl s t) ->
  step ns s (Step t) = Some (s', es) -> lshape (th s' t) (tl s' t).
Proof.
  intros T [L1 L2 L3 L4] H. unfold_step H. cbv zeta in H. step_split H.
  all: bool_eqs; prj; rewrite ?upd_same; prj.
  all: cbn [xdone in_cphase] in L3, L4.
  all: try solve [constructor; prj; cbn [xdone in_cphase]; first [assumption | exact I | apply N.mod_lt; discriminate
        | intros [X|X]; first [discriminate X | congruence | solve [auto] | exfalso; apply (ts_need _ _ _ T eq_refl); exact X ] ]].
  all: constructor; prj; cbn [xdone in_cphase]; try first [assumption | exact I | apply N.mod_lt; discriminate].
  all: try solve [intros i Hi; first [destruct (memN i _); [reflexivity | apply L2; exact Hi] | rewrite updN_other by lia; apply L2; exact Hi]].
  all: try solve [intros [X|X]; [xn; discriminate X | first [congruence | exfalso; apply (ts_need _ _ _ T eq_refl); exact X]]].
  all: try solve [reflexivity].
  - apply xdone_xnext; [exact L2 | reflexivity | intros j Hj; lia].
  - intros j Hj. destruct (N.eq_dec j i) as [->|Hne]; [apply updN_same | rewrite updN_other by exact Hne; apply L2; exact Hj].
  - apply xdone_xnext; [exact L2 | intros j Hj; apply updN_other; lia |].
    intros j Hj. destruct (N.eq_dec j i) as [->|Hne]; [apply updN_same | rewrite updN_other by exact Hne; apply L3; lia].
Qed.


(** * The invariant *)
Record Ncore (s : state) : Prop := {
  c_lt : forall n, g_life s n <> LNone -> n < nalloc s;
  c_cell : forall c n, cells s c = Some n -> g_life s n = LPub c;
  c_fresh1 : forall u n, fresh_of (th s u) = Some n -> g_life s n = LFresh u;
  c_fresh2 : forall u n, g_life s n = LFresh u -> fresh_of (th s u) = Some n;
  c_where : forall n, wh_ok (g_where s n) (g_life s n) (g_nfree s n);
  c_places : places (g_where s) (content s) }.
Record N0 (s : state) : Prop := { n_core : Ncore s; n_shape : forall u, lshape (th s u) (tl s u) }.

Section N0facts.
Variables (s : state) (I : N0 s).
Lemma n_cell c n : cells s c = Some n -> g_life s n = LPub c.
Proof. apply (c_cell s (n_core s I)). Qed.
Lemma n_fresh1 u n : fresh_of (th s u) = Some n -> g_life s n = LFresh u.
Proof. apply (c_fresh1 s (n_core s I)). Qed.
Lemma n_where n : wh_ok (g_where s n) (g_life s n) (g_nfree s n).
Proof. apply (c_where s (n_core s I)). Qed.
Lemma n_list u i n : In n (rl (tl s u) i) <-> g_where s n = PList u i.
Proof. apply (c_places s (n_core s I) (PList u i)). split; discriminate. Qed.
Lemma n_orph i n : In n (orph s i) <-> g_where s n = POrph i.
Proof. apply (c_places s (n_core s I) (POrph i)). split; discriminate. Qed.
Lemma n_flight u n : In n (flight (th s u)) <-> g_where s n = PFlight u.
Proof. apply (c_places s (n_core s I) (PFlight u)). split; discriminate. Qed.
Lemma n_nd_list u i : NoDup (rl (tl s u) i).
Proof. apply (c_places s (n_core s I) (PList u i)). split; discriminate. Qed.
Lemma n_nd_orph i : NoDup (orph s i).
Proof. apply (c_places s (n_core s I) (POrph i)). split; discriminate. Qed.
Lemma n_nd_flight u : NoDup (flight (th s u)).
Proof. apply (c_places s (n_core s I) (PFlight u)). split; discriminate. Qed.
(** a node that is not retired is in no place: what is in a cell, the node of a pending CAS, an unallocated block *)
Lemma n_unret n : (forall t r, g_life s n <> LRet t r) -> g_where s n = PNone /\ g_nfree s n = O.
Proof. apply wh_not_ret, n_where. Qed.
End N0facts.

Lemma N0_init nc : N0 (init nc).
Proof.
  split; [split|]; cbn; intros; try discriminate.
  - destruct (N.ltb_spec n nc); [assumption|congruence].
  - destruct (N.ltb_spec c nc); [|discriminate]. inversion H; subst. destruct (N.ltb_spec n nc); [reflexivity|lia].
  - destruct (n <? nc); discriminate.
  - split; [|reflexivity]. intros t r. destruct (n <? nc); discriminate.
  - intros p [L1 L2]. destruct p; try congruence; cbn; (split; [split; [intros []|discriminate]|constructor]).
  - split; cbn; intros; [lia|reflexivity|exact Logic.I|reflexivity].
Qed.

(** * One step, seen from the retired nodes
    [step_nodes]: with respect to everything the node invariants read, a step of thread t is one of ten transitions,
    each written with the setters of the model.  [st] is that transition applied to s; the real successor s' agrees
    with it on all those observations ([neq]) and differs in what they do not read (nesting counter, flags, ...). *)
Definition alloc_node (t : nat) (s : state) : state :=
  w_nalloc (nalloc s + 1) (w_g_life (updN (g_life s) (nalloc s) (LFresh t)) s).
Definition publish (c : N) (n : option N) (s : state) : state :=
  let s1 := w_cells (updN (cells s) c n) s in
  match n with Some n' => w_g_life (updN (g_life s1) n' (LPub c)) s1 | None => s1 end.
Definition retire (t : nat) (old : N) (s : state) : state :=
  let x := tl s t in
  set_tl t (wt_rl (updN (rl x) (lidx x) (old :: rl x (lidx x))) x)
    (w_g_life (updN (g_life s) old (LRet t (match cb x with Some b => blocal s b | None => 0 end)))
       (w_g_where (updN (g_where s) old (PList t (lidx x))) s)).
Definition drop (n : option N) (s : state) : state :=
  match n with Some n' => w_g_life (updN (g_life s) n' LDropped) s | None => s end.

(** the published local epoch of a thread *)
Definition lb (s : state) (u : nat) : option N := match cb (tl s u) with Some b => Some (blocal s b) | None => None end.

Definition neq (s' st : state) : Prop :=
  th s' = th st /\ cells s' = cells st /\ orph s' = orph st /\ g_life s' = g_life st /\ g_where s' = g_where st /\
  g_nfree s' = g_nfree st /\ (forall u, rl (tl s' u) = rl (tl st u)) /\ gep s' = gep st /\ nalloc st <= nalloc s'.

Definition quiet (p : pc) : bool := match p with Idle | LV _ => true | _ => false end.

Inductive nstep (t : nat) (s : state) : pc -> state -> Prop :=
| ns_none p' : flight p' = flight (th s t) -> (flight p' <> [] -> flight_ep p' = flight_ep (th s t)) ->
    fresh_of p' = fresh_of (th s t) -> nstep t s p' s
| ns_exit : th s t = X3 -> nstep t s Idle (set_tl t tl0 s)
| ns_alloc c g : fresh_of (th s t) = None -> flight (th s t) = [] -> nstep t s (R3 c g (Some (nalloc s))) (alloc_node t s)
| ns_cas_ok c g n p' : th s t = R3 c g n -> cells s c = g -> quiet p' = true ->
    nstep t s p' (match g with Some old => retire t old (publish c n s) | None => publish c n s end)
| ns_cas_fail c g n p' : th s t = R3 c g n -> quiet p' = true -> nstep t s p' (drop n s)
| ns_adopt k e : th s t = G4 k e -> let i := (e + 1) mod 3 in
    nstep t s (G5 k e (orph s i)) (move_all (orph s i) (PFlight t) (w_orph (updN (orph s) i []) s))
| ns_free k e l : th s t = G5 k e l -> gep s = e -> nstep t s (U1 k (e + 1)) (free_all l (w_gep (e + 1) s))
| ns_giveback k e l h : th s t = G7 k e l h -> let i := (e + 1) mod 3 in
    nstep t s (U1 k (e + 1)) (move_all l (POrph i) (w_orph (updN (orph s) i (l ++ orph s i)) s))
| ns_reclaim k new old b : th s t = U2 k new old -> cb (tl s t) = Some b -> let x := tl s t in let sl := uslots new old in
    nstep t s (A2 k) (set_tl t (wt_lidx (if is_nil sl then lidx x else new mod 3) (wt_rl (fun i => if memN i sl then [] else rl x i) x))
                        (free_all (flat_map (rl x) sl) (w_blocal (updN (blocal s) b new) s)))
| ns_handover i h : th s t = X2 i h -> let x := tl s t in
    nstep t s (xnext (rl x) (i + 1)) (set_tl t (wt_rl (updN (rl x) i []) x)
                 (move_all (rl x i) (POrph i) (w_orph (updN (orph s) i (rl x i ++ orph s i)) s))).

Ltac nprj := unfold alloc_node, publish, retire, drop, lb; prj; rewrite ?upd_same; prj.

Lemma step_nodes ns s t s' es : step ns s (Step t) = Some (s', es) ->
  exists st, nstep t s (th s' t) st /\ neq s' (set_pc t (th s' t) st) /\ (in_cphase (th s t) = false -> lb s' t = lb st t).
Proof.
  intros H. unfold_step H. cbv zeta in H. step_split H.
  all: bool_eqs; try subst; prj; rewrite ?upd_same; eexists.
  all: solve [split; [econstructor; match goal with E : th _ _ = _ |- _ => rewrite ?E end; xn;
                      solve [eassumption | reflexivity | discriminate | intros X; first [reflexivity | destruct X; reflexivity]]
                     | split; [repeat split; nprj; try match goal with E : cb _ = _ |- _ => rewrite ?E end;
                               first [reflexivity | lia | intros u; unfold upd; destruct (Nat.eqb_spec u t) as [->|_]; reflexivity]
                              | nprj; repeat match goal with E : cb _ = _ |- _ => rewrite ?E end; match goal with E : th _ _ = _ |- _ => rewrite ?E end;
                                first [discriminate | reflexivity] ]]].
Qed.

Lemma Ncore_ext s' st : neq s' st -> Ncore st -> Ncore s'.
Proof.
  intros (Hth & Hce & Hor & Hli & Hwh & Hnf & Hrl & _ & Hna) [Ilt Icell If1 If2 Iwh Ipl].
  constructor; rewrite ?Hth, ?Hce, ?Hli, ?Hwh, ?Hnf; auto.
  - intros n Hn. apply Ilt in Hn. lia.
  - apply (places_ext _ (content st)); [exact Ipl|]. intros p. destruct p; cbn [content]; rewrite ?Hrl, ?Hor, ?Hth; reflexivity.
Qed.

(** ** each transition keeps [Ncore] *)

(* the four clauses about the life cycle are untouched when no life changes and t's new pc names the same fresh node *)
Lemma Ncore_same_life s s' t p' : Ncore s -> th s' = upd (th s) t p' -> fresh_of p' = fresh_of (th s t) ->
  cells s' = cells s -> g_life s' = g_life s -> nalloc s' = nalloc s ->
  (forall n, wh_ok (g_where s' n) (g_life s n) (g_nfree s' n)) -> places (g_where s') (content s') -> Ncore s'.
Proof.
  intros [Ilt Icell If1 If2 Iwh Ipl] Hth Hfr Hce Hli Hna W P.
  assert (Xfr : forall u, fresh_of (th s' u) = fresh_of (th s u)).
  { intros u. rewrite Hth. destruct (upd_cases (th s) t p' u) as [[-> ->]|[_ ->]]; [exact Hfr|reflexivity]. }
  constructor; try assumption; intros; rewrite ?Hce, ?Hli, ?Hna, ?Xfr in *; auto.
Qed.

(* [content] of an explicit successor at a place the transition does not touch *)
Ltac content_other :=
  let p := fresh "p" in let H1 := fresh in let H2 := fresh in
  intros p H1 H2; destruct p; cbn [content]; prj; try reflexivity;
  first [ rewrite upd_other by congruence; try reflexivity; rewrite updN_other by congruence; reflexivity
        | rewrite updN_other by congruence; reflexivity
        | destruct (upd_cases _ _ _ _) as [[-> ->]|[_ ->]]; prj; try reflexivity; rewrite updN_other by congruence; reflexivity ].

Section Moves.
Variables (s : state) (t : nat) (I : Ncore s).
Let Ipl := c_places s I.
Let Iwh := c_where s I.

Lemma Ncore_none p' : flight p' = flight (th s t) -> fresh_of p' = fresh_of (th s t) -> Ncore (set_pc t p' s).
Proof.
  intros Hfl Hfr. apply (Ncore_same_life s _ t p' I); try reflexivity; try assumption.
  apply (places_ext _ (content s)); [exact Ipl|]. intros p. destruct p; cbn [content]; prj; try reflexivity.
  destruct (upd_cases (th s) t p' t0) as [[-> ->]|[_ ->]]; [exact Hfl|reflexivity].
Qed.

Lemma Ncore_exit : th s t = X3 -> (forall j, rl (tl s t) j = []) -> Ncore (set_pc t Idle (set_tl t tl0 s)).
Proof.
  intros Hpc Hx. apply (Ncore_same_life s _ t Idle I); try reflexivity; try assumption; [rewrite Hpc; reflexivity|].
  apply (places_ext _ (content s)); [exact Ipl|]. intros p. destruct p; cbn [content]; prj; try reflexivity.
  - destruct (upd_cases (tl s) t tl0 t0) as [[-> ->]|[_ ->]]; [symmetry; apply Hx|reflexivity].
  - destruct (upd_cases (th s) t Idle t0) as [[-> ->]|[_ ->]]; [rewrite Hpc; reflexivity|reflexivity].
Qed.

(* the where-clause after a move of [l], all of whose nodes were in listed places, to a listed place / to PFreed *)
Lemma where_move l B : (forall n, In n l -> listed (g_where s n)) -> listed B ->
  forall n, wh_ok (if memN n l then B else g_where s n) (g_life s n) (g_nfree s n).
Proof.
  intros Hl LB n. destruct (memN n l) eqn:M; [|apply Iwh]. apply memN_In in M. exact (wh_ok_listed _ _ _ _ (Iwh n) (Hl n M) LB).
Qed.
Lemma where_free l : (forall n, In n l -> listed (g_where s n)) -> NoDup l ->
  forall n, wh_ok (if memN n l then PFreed else g_where s n) (g_life s n) (g_nfree s n + length (filter (N.eqb n) l))%nat.
Proof.
  intros Hl Hnd n. rewrite (count_nodup n l Hnd). destruct (memN n l) eqn:M; [|rewrite Nat.add_0_r; apply Iwh].
  apply memN_In in M. pose proof (Iwh n) as W. pose proof (wh_listed_0 _ _ _ W (Hl n M)) as Z. rewrite Z in *. exact (wh_ok_free _ _ W (Hl n M)).
Qed.

Lemma Ncore_adopt k e : th s t = G4 k e -> let i := (e + 1) mod 3 in
  Ncore (set_pc t (G5 k e (orph s i)) (move_all (orph s i) (PFlight t) (w_orph (updN (orph s) i []) s))).
Proof.
  intros Hpc i. assert (Li : listed (POrph i)) by (split; discriminate). destruct (Ipl _ Li) as [Pi Pn].
  eapply (Ncore_same_life s _ t); [exact I | reflexivity | rewrite Hpc; reflexivity | reflexivity | reflexivity | reflexivity | | ]; prj.
  - apply where_move; [|split; discriminate]. intros n Hn. apply Pi in Hn. rewrite Hn. exact Li.
  - apply (places_move _ (content s) _ (fun p => p = POrph i)); try assumption.
    + intros p. destruct (place_eq_dec p (POrph i)); auto.
    + discriminate.
    + intros p ->. cbn [content]; prj. apply updN_same.
    + intros _. cbn [content]; prj. rewrite upd_same, Hpc. cbn [flight]. symmetry. apply app_nil_r.
    + content_other.
Qed.

Lemma Ncore_giveback k e l h : th s t = G7 k e l h -> let i := (e + 1) mod 3 in
  Ncore (set_pc t (U1 k (e + 1)) (move_all l (POrph i) (w_orph (updN (orph s) i (l ++ orph s i)) s))).
Proof.
  intros Hpc i. assert (Lt : listed (PFlight t)) by (split; discriminate). destruct (Ipl _ Lt) as [Pi Pn].
  cbn [content] in Pi, Pn. rewrite Hpc in Pi, Pn. cbn [flight] in Pi, Pn.
  eapply (Ncore_same_life s _ t); [exact I | reflexivity | rewrite Hpc; reflexivity | reflexivity | reflexivity | reflexivity | | ]; prj.
  - apply where_move; [|split; discriminate]. intros n Hn. apply Pi in Hn. rewrite Hn. exact Lt.
  - apply (places_move _ (content s) _ (fun p => p = PFlight t)); try assumption.
    + intros p. destruct (place_eq_dec p (PFlight t)); auto.
    + discriminate.
    + intros p ->. cbn [content]; prj. rewrite upd_same. reflexivity.
    + intros _. cbn [content]; prj. apply updN_same.
    + content_other.
Qed.

Lemma Ncore_free k e l : th s t = G5 k e l -> Ncore (set_pc t (U1 k (e + 1)) (free_all l (w_gep (e + 1) s))).
Proof.
  intros Hpc. assert (Lt : listed (PFlight t)) by (split; discriminate). destruct (Ipl _ Lt) as [Pi Pn].
  cbn [content] in Pi, Pn. rewrite Hpc in Pi, Pn. cbn [flight] in Pi, Pn.
  eapply (Ncore_same_life s _ t); [exact I | reflexivity | rewrite Hpc; reflexivity | reflexivity | reflexivity | reflexivity | | ]; prj.
  - apply where_free; [|exact Pn]. intros n Hn. apply Pi in Hn. rewrite Hn. exact Lt.
  - apply (places_move _ (content s) _ (fun p => p = PFlight t)); try assumption.
    + intros p. destruct (place_eq_dec p (PFlight t)); auto.
    + discriminate.
    + intros p ->. cbn [content]; prj. rewrite upd_same. reflexivity.
    + intros [_ X]. congruence.
    + content_other.
Qed.

Lemma Ncore_handover i h : th s t = X2 i h -> let x := tl s t in
  Ncore (set_pc t (xnext (rl x) (i + 1)) (set_tl t (wt_rl (updN (rl x) i []) x)
           (move_all (rl x i) (POrph i) (w_orph (updN (orph s) i (rl x i ++ orph s i)) s)))).
Proof.
  intros Hpc x. assert (Lt : listed (PList t i)) by (split; discriminate). destruct (Ipl _ Lt) as [Pi Pn]. cbn [content] in Pi, Pn.
  assert (Hx : flight (xnext (rl x) (i + 1)) = [] /\ fresh_of (xnext (rl x) (i + 1)) = None) by (xn; split; reflexivity).
  eapply (Ncore_same_life s _ t); [exact I | reflexivity | rewrite Hpc; apply Hx | reflexivity | reflexivity | reflexivity | | ]; prj.
  - apply where_move; [|split; discriminate]. intros n Hn. apply Pi in Hn. rewrite Hn. exact Lt.
  - apply (places_move _ (content s) _ (fun p => p = PList t i)); try assumption.
    + intros p. destruct (place_eq_dec p (PList t i)); auto.
    + discriminate.
    + intros p ->. cbn [content]; prj. rewrite upd_same. prj. apply updN_same.
    + intros _. cbn [content]; prj. apply updN_same.
    + intros p H1 H2. destruct p; cbn [content]; prj; try reflexivity.
      * destruct (upd_cases (tl s) t (wt_rl (updN (rl x) i []) x) t0) as [[-> ->]|[_ ->]]; prj; [apply updN_other; congruence|reflexivity].
      * rewrite updN_other by congruence. reflexivity.
      * destruct (upd_cases (th s) t (xnext (rl x) (i + 1)) t0) as [[-> ->]|[_ ->]]; [rewrite Hpc; apply Hx|reflexivity].
Qed.

Lemma Ncore_reclaim k new old b : th s t = U2 k new old -> let x := tl s t in let sl := uslots new old in
  Ncore (set_pc t (A2 k) (set_tl t (wt_lidx (if is_nil sl then lidx x else new mod 3) (wt_rl (fun i => if memN i sl then [] else rl x i) x))
                            (free_all (flat_map (rl x) sl) (w_blocal (updN (blocal s) b new) s)))).
Proof.
  intros Hpc x sl.
  assert (Hl : forall i n, In n (rl x i) <-> g_where s n = PList t i) by (intros i n; apply (Ipl (PList t i)); split; discriminate).
  assert (Hnd : forall i, NoDup (rl x i)) by (intros i; apply (Ipl (PList t i)); split; discriminate).
  pose proof (flat_where s t (rl x) sl Hl) as Fw. pose proof (flat_nodup s t (rl x) sl Hl Hnd (uslots_nodup new old)) as Fn.
  eapply (Ncore_same_life s _ t); [exact I | reflexivity | rewrite Hpc; reflexivity | reflexivity | reflexivity | reflexivity | | ]; prj.
  - apply where_free; [|exact Fn]. intros n Hn. apply Fw in Hn. destruct Hn as (i & _ & ->). split; discriminate.
  - apply (places_move _ (content s) _ (fun p => exists i, In i sl /\ p = PList t i)); try assumption.
    + intros p. destruct p as [|u i| | |]; try (right; intros (i0 & _ & X); discriminate X).
      destruct (Nat.eq_dec u t) as [->|Hu]; [|right; intros (i0 & _ & X); congruence].
      destruct (in_dec N.eq_dec i sl) as [Hi|Hi]; [left; eauto|right; intros (i0 & Hi0 & X); congruence].
    + intros (i0 & _ & X). discriminate X.
    + intros p (i0 & Hi0 & ->). cbn [content]; prj. rewrite upd_same. prj. apply memN_In in Hi0. rewrite Hi0. reflexivity.
    + intros [_ X]. congruence.
    + intros p H1 H2. destruct p as [|u i| | |]; cbn [content]; prj; try reflexivity.
      * destruct (upd_cases (tl s) t (wt_lidx (if is_nil sl then lidx x else new mod 3) (wt_rl (fun i => if memN i sl then [] else rl x i) x)) u) as [[-> ->]|[_ ->]]; prj; [|reflexivity].
        destruct (memN i sl) eqn:M; [|reflexivity]. exfalso. apply H1. exists i. split; [apply memN_In; exact M|reflexivity].
      * destruct (upd_cases (th s) t (A2 k) t0) as [[-> ->]|[_ ->]]; [rewrite Hpc; reflexivity|reflexivity].
Qed.
End Moves.

Section Lives.
Variables (s : state) (t : nat) (I : Ncore s).
Let Ilt := c_lt s I.
Let Icell := c_cell s I.
Let If1 := c_fresh1 s I.
Let If2 := c_fresh2 s I.
Let Iwh := c_where s I.
Let Ipl := c_places s I.

(* the places do not change when only pcs without adopted nodes change *)
Lemma places_pc p' st : flight p' = flight (th s t) -> g_where st = g_where s -> tl st = tl s -> orph st = orph s -> th st = th s ->
  places (g_where (set_pc t p' st)) (content (set_pc t p' st)).
Proof.
  intros Hfl Hw Htl Ho Hth. prj. rewrite Hw. apply (places_ext _ (content s)); [exact Ipl|].
  intros p. destruct p; cbn [content]; prj; rewrite ?Htl, ?Ho, ?Hth; try reflexivity.
  destruct (upd_cases (th s) t p' t0) as [[-> ->]|[_ ->]]; [exact Hfl|reflexivity].
Qed.

Lemma nalloc_none : g_life s (nalloc s) = LNone.
Proof. destruct (g_life s (nalloc s)) eqn:X; try reflexivity; exfalso; assert (nalloc s < nalloc s) by (apply Ilt; rewrite X; discriminate); lia. Qed.

Lemma Ncore_alloc c g : fresh_of (th s t) = None -> flight (th s t) = [] -> Ncore (set_pc t (R3 c g (Some (nalloc s))) (alloc_node t s)).
Proof.
  intros Hfr Hfl. pose proof nalloc_none as Hn.
  assert (Hold : forall n, g_life s n <> LNone -> updN (g_life s) (nalloc s) (LFresh t) n = g_life s n).
  { intros n X. apply updN_other. intros ->. contradiction. }
  constructor; [| | | | |solve [apply places_pc; first [reflexivity | symmetry; assumption | rewrite Hpc; apply Hq']]]; unfold alloc_node; prj.
  - intros n X. destruct (updN_cases (g_life s) (nalloc s) (LFresh t) n) as [[-> _]|[_ E]]; [lia|]. rewrite E in X. apply Ilt in X. lia.
  - intros c0 n X. apply Icell in X. rewrite Hold; [exact X|rewrite X; discriminate].
  - intros u n X. destruct (upd_cases (th s) t (R3 c g (Some (nalloc s))) u) as [[-> E]|[_ E]]; rewrite E in X.
    + injection X as <-. apply updN_same.
    + apply If1 in X. rewrite Hold; [exact X|rewrite X; discriminate].
  - intros u n X. destruct (updN_cases (g_life s) (nalloc s) (LFresh t) n) as [[-> E]|[_ E]]; rewrite E in X.
    + injection X as <-. rewrite upd_same. reflexivity.
    + apply If2 in X. destruct (upd_cases (th s) t (R3 c g (Some (nalloc s))) u) as [[-> _]|[_ ->]]; [congruence|exact X].
  - intros n. destruct (updN_cases (g_life s) (nalloc s) (LFresh t) n) as [[-> ->]|[_ ->]]; [|apply Iwh].
    apply (wh_ok_life _ _ _ _ (Iwh (nalloc s))); [rewrite Hn|]; discriminate.
Qed.

(* the CAS failed: the thread deletes the node it had allocated *)
Lemma Ncore_drop c g n p' : th s t = R3 c g n -> quiet p' = true -> Ncore (set_pc t p' (drop n s)).
Proof.
  intros Hpc Hq. assert (Hq' : fresh_of p' = None /\ flight p' = []) by (destruct p'; try discriminate Hq; split; reflexivity).
  destruct n as [n1|]; unfold drop; [|apply Ncore_none; [exact I|rewrite Hpc; apply Hq'..]].
  assert (Hn1 : g_life s n1 = LFresh t) by (apply If1; rewrite Hpc; reflexivity).
  assert (Hold : forall n l, g_life s n = l -> l <> LFresh t -> updN (g_life s) n1 LDropped n = l).
  { intros n l X Y. rewrite updN_other; [exact X|]. intros ->. congruence. }
  constructor; [| | | | |solve [apply places_pc; first [reflexivity | symmetry; assumption | rewrite Hpc; apply Hq']]]; prj.
  - intros n X. destruct (updN_cases (g_life s) n1 LDropped n) as [[-> _]|[_ E]]; apply Ilt; [rewrite Hn1; discriminate|rewrite <- E; exact X].
  - intros c0 n X. apply (Hold _ _ (Icell _ _ X)). discriminate.
  - intros u n X. destruct (upd_cases (th s) t p' u) as [[-> E]|[Hu E]]; rewrite E in X; [destruct Hq'; congruence|].
    apply (Hold _ _ (If1 _ _ X)). congruence.
  - intros u n X. destruct (updN_cases (g_life s) n1 LDropped n) as [[-> E]|[Hn E]]; rewrite E in X; [discriminate|].
    pose proof (If2 _ _ X) as Y. destruct (upd_cases (th s) t p' u) as [[-> _]|[_ ->]]; [|exact Y]. rewrite Hpc in Y. injection Y as ->. contradiction.
  - intros n. destruct (updN_cases (g_life s) n1 LDropped n) as [[-> ->]|[_ ->]]; [|apply Iwh].
    apply (wh_ok_life _ _ _ _ (Iwh n1)); [rewrite Hn1|]; discriminate.
Qed.

(* the CAS succeeded: the new node, if any, is published *)
Lemma Ncore_publish c g n p' : th s t = R3 c g n -> quiet p' = true -> Ncore (set_pc t p' (publish c n s)).
Proof.
  intros Hpc Hq. assert (Hq' : fresh_of p' = None /\ flight p' = []) by (destruct p'; try discriminate Hq; split; reflexivity).
  destruct n as [n1|]; unfold publish; cbv zeta.
  - assert (Hn1 : g_life s n1 = LFresh t) by (apply If1; rewrite Hpc; reflexivity).
    assert (Hold : forall n l, g_life s n = l -> l <> LFresh t -> updN (g_life s) n1 (LPub c) n = l).
    { intros n l X Y. rewrite updN_other; [exact X|]. intros ->. congruence. }
    constructor; [| | | | |solve [apply places_pc; first [reflexivity | symmetry; assumption | rewrite Hpc; apply Hq']]]; prj.
    + intros n X. destruct (updN_cases (g_life s) n1 (LPub c) n) as [[-> _]|[_ E]]; apply Ilt; [rewrite Hn1; discriminate|rewrite <- E; exact X].
    + intros c0 n X. destruct (updN_cases (cells s) c (Some n1) c0) as [[-> E]|[_ E]]; rewrite E in X.
      * injection X as <-. apply updN_same.
      * apply (Hold _ _ (Icell _ _ X)). discriminate.
    + intros u n X. destruct (upd_cases (th s) t p' u) as [[-> E]|[Hu E]]; rewrite E in X; [destruct Hq'; congruence|].
      apply (Hold _ _ (If1 _ _ X)). congruence.
    + intros u n X. destruct (updN_cases (g_life s) n1 (LPub c) n) as [[-> E]|[Hn E]]; rewrite E in X; [discriminate|].
      pose proof (If2 _ _ X) as Y. destruct (upd_cases (th s) t p' u) as [[-> _]|[_ ->]]; [|exact Y]. rewrite Hpc in Y. injection Y as ->. contradiction.
    + intros n. destruct (updN_cases (g_life s) n1 (LPub c) n) as [[-> ->]|[_ ->]]; [|apply Iwh].
      apply (wh_ok_life _ _ _ _ (Iwh n1)); [rewrite Hn1|]; discriminate.
  - constructor; [exact Ilt| | | |exact Iwh|solve [apply places_pc; first [reflexivity | symmetry; assumption | rewrite Hpc; apply Hq']]]; prj.
    + intros c0 n X. destruct (updN_cases (cells s) c None c0) as [[-> E]|[_ E]]; rewrite E in X; [discriminate|exact (Icell _ _ X)].
    + intros u n X. destruct (upd_cases (th s) t p' u) as [[-> E]|[Hu E]]; rewrite E in X; [destruct Hq'; congruence|exact (If1 _ _ X)].
    + intros u n X. pose proof (If2 _ _ X) as Y. destruct (upd_cases (th s) t p' u) as [[-> _]|[_ ->]]; [|exact Y]. rewrite Hpc in Y. discriminate Y.
Qed.

(* guard.reclaim(): a published node goes to the front of the thread's current retire list *)
Lemma Ncore_retire old c : g_life s old = LPub c -> (forall c0, cells s c0 <> Some old) -> Ncore (retire t old s).
Proof.
  intros Hold Hcell. destruct (wh_not_ret _ _ _ (Iwh old)) as [Hw Hk]; [rewrite Hold; discriminate|].
  set (x := tl s t). set (r := match cb x with Some b => blocal s b | None => 0 end).
  assert (Hne : forall n l, g_life s n = l -> (forall c', l <> LPub c') -> updN (g_life s) old (LRet t r) n = l).
  { intros n l X Y. rewrite updN_other; [exact X|]. intros ->. rewrite Hold in X. apply (Y c). symmetry. exact X. }
  constructor; unfold retire; fold x; fold r; prj.
  - intros n X. destruct (updN_cases (g_life s) old (LRet t r) n) as [[-> _]|[_ E]]; apply Ilt; [rewrite Hold; discriminate|rewrite <- E; exact X].
  - intros c0 n X. rewrite updN_other; [exact (Icell _ _ X)|]. intros ->. exact (Hcell _ X).
  - intros u n X. apply (Hne _ _ (If1 _ _ X)). discriminate.
  - intros u n X. destruct (updN_cases (g_life s) old (LRet t r) n) as [[-> E]|[_ E]]; rewrite E in X; [discriminate|exact (If2 _ _ X)].
  - intros n. destruct (updN_cases (g_life s) old (LRet t r) n) as [[-> ->]|[Hn ->]]; [|rewrite updN_other by exact Hn; apply Iwh].
    rewrite updN_same, Hk. split; [eauto|reflexivity].
  - apply (places_push _ (content s) _ (PList t (lidx x))); [exact Ipl|exact Hw|split; discriminate| |].
    + cbn [content]; prj. rewrite upd_same. prj. apply updN_same.
    + intros p Hp. destruct p; cbn [content]; prj; try reflexivity.
      destruct (upd_cases (tl s) t (wt_rl (updN (rl x) (lidx x) (old :: rl x (lidx x))) x) t0) as [[-> ->]|[_ ->]]; prj; [|reflexivity].
      apply updN_other. congruence.
Qed.
End Lives.

Lemma Ncore_nstep t s p' st : Ncore s -> lshape (th s t) (tl s t) -> nstep t s p' st -> Ncore (set_pc t p' st).
Proof.
  intros I L Hn. destruct Hn.
  - apply Ncore_none; assumption.
  - apply Ncore_exit; [exact I|assumption|]. pose proof (l_xdone _ _ L) as X. rewrite H in X. exact X.
  - apply Ncore_alloc; assumption.
  - destruct g as [old|]; [|eapply Ncore_publish; eassumption].
    (* publish, then retire: the two setters commute with the change of pc *)
    change (Ncore (retire t old (set_pc t p' (publish c n s)))).
    pose proof (c_cell s I _ _ H0) as Ho.
    assert (Hn : forall n1, n = Some n1 -> n1 <> old).
    { intros n1 -> ->. pose proof (c_fresh1 s I t old) as X. rewrite H in X. specialize (X eq_refl). congruence. }
    apply (Ncore_retire _ t (Ncore_publish s t I c (Some old) n p' H H1) old c).
    + unfold publish; destruct n as [n1|]; prj; [rewrite updN_other by (intros E; exact (Hn n1 eq_refl (eq_sym E)))|]; exact Ho.
    + intros c0 X. assert (Y : updN (cells s) c n c0 = Some old) by (unfold publish in X; destruct n; exact X). clear X.
      destruct (updN_cases (cells s) c n c0) as [[-> E]|[Hc E]]; rewrite E in Y; [exact (Hn old Y eq_refl)|].
      apply (c_cell s I) in Y. congruence.
  - eapply Ncore_drop; eassumption.
  - eapply Ncore_adopt; eassumption.
  - eapply Ncore_free; eassumption.
  - eapply Ncore_giveback; eassumption.
  - eapply Ncore_reclaim; eassumption.
  - eapply Ncore_handover; eassumption.
Qed.

Lemma N0_step ns s t s' es : T0 ns s -> N0 s -> step ns s (Step t) = Some (s', es) -> N0 s'.
Proof.
  intros T [I L] H. destruct (step_nodes _ _ _ _ _ H) as (st & Hn & He & _). split.
  - exact (Ncore_ext _ _ He (Ncore_nstep _ _ _ _ I (L t) Hn)).
  - intros u. destruct (Nat.eq_dec u t) as [->|Hu]; [exact (lshape_step _ _ _ _ _ (T t) (L t) H)|].
    destruct (step_frame _ _ _ _ _ H) as (F & _). destruct (F u Hu) as [-> ->]. apply L.
Qed.

Lemma N0_start ns s t o s' es : N0 s -> step ns s (Start t o) = Some (s', es) -> N0 s'.
Proof.
  intros [I L] H. unfold step in H. step_split H.
  all: (split; [apply Ncore_none; [exact I | rewrite E; xn; reflexivity ..] | ]).
  all: intros u; prj; (destruct (Nat.eq_dec u t) as [->|Hu]; [rewrite upd_same | rewrite upd_other by exact Hu; apply L]).
  all: destruct (L t) as [L1 L2 L3 L4]; rewrite E in L4; (split; [exact L1 | exact L2 | | ]).
  all: try solve [exact Logic.I | intros [X|X]; [xn; discriminate X | apply L4; right; exact X]].
  apply xdone_xnext; [exact L2 | reflexivity | intros j Hj; lia].
Qed.

Section ReachN.
Variables (ns : nat) (nc : N).
Lemma N0_reach s : reachable ns nc s -> N0 s.
Proof.
  apply (inv_rule_aux _ _ _ _ _ (T0 ns) N0 (T0_reach ns nc) (N0_init nc)).
  intros s0 a s1 es J _ I H. destruct a as [t o|t]; [eapply N0_start; eauto|eapply N0_step; eauto].
Qed.
End ReachN.
