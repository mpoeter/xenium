(** Reference-count accounting of the lock-free reference counting model (Model/LfrcDefs.v): one step preserves
    [I_refs] (for every node: the ghost list of references has no duplicates, lists exactly the references that are
    held - cells, guards, owners - and ref_count = 2 * its length + claim bit).  Also the tactics shared by the other
    preservation proofs (Proof/LfrcNodes.v, LfrcOwn.v, LfrcFree.v).  No axioms. *)
From Coq Require Import NArith List Bool Arith Lia PeanoNat.
From XV Require Import Conc.Lts Conc.Ev Model.LfrcDefs Proof.LfrcBase Proof.LfrcStep.
Import ListNotations.

Lemma cbit_01 x : cbit x = 0 \/ cbit x = 1.
Proof. destruct x; cbn; auto. Qed.


(* [holds_fin]: [holds] before and after the step, by cases on the kind of reference and on whether its thread is the
   acting one;  [list_lemma]: the description (ND', LEN, IN') of the new list of references of a node, from [refs_del] /
   [refs_rep] / [refs_add] according to how the step changed it *)
Ltac thr_split u t :=
  destruct (Nat.eq_dec u t) as [->|?]; [rewrite ?upd_same | rewrite ?upd_other by assumption].

Ltac holds_fin E t :=
  let r := fresh "r" in intros r;
  destruct r as [c'|u g'|u]; cbn [holds]; prj;
  [ | thr_split u t | thr_split u t ];
  rewrite ?E; on; prj; upd_split; subst; on;
  try solve [tauto | intuition congruence];
  repeat match goal with Hx : gd _ _ = _ |- _ => rewrite Hx in * end; cbn [gnode] in *;
  try solve [discriminate | tauto | intuition congruence].


(* closes [holds s r n] or its negation for a reference of the acting thread, [E] its program point *)
Ltac side E := cbn [holds]; rewrite ?E; on; prj;
  repeat match goal with Hx : gd _ _ = _ |- _ => rewrite Hx end; cbn [gnode];
  try solve [intuition congruence].

Ltac list_lemma HI E :=
  match goal with
  | |- context [filter (fun x => negb (ref_eqb x ?r0)) (g_refs ?s ?n0)] =>
    change (filter (fun x => negb (ref_eqb x r0)) (g_refs s n0)) with (delr r0 (g_refs s n0));
    let NDn := fresh "NDn" in let INn := fresh "INn" in let RCn := fresh "RCn" in
    destruct (I_refs _ _ HI n0) as (NDn & INn & RCn);
    let HIn := fresh "HIn" in
    assert (HIn : In r0 (g_refs s n0)) by (apply INn; side E);
    let ND' := fresh "ND'" in let LEN := fresh "LEN" in let IN' := fresh "IN'" in
    destruct (refs_del (g_refs s n0) r0 NDn HIn) as (ND' & LEN & IN')
  | |- context [map (fun x => if ref_eqb x ?r0 then ?r1 else x) (g_refs ?s ?n0)] =>
    change (map (fun x => if ref_eqb x r0 then r1 else x) (g_refs s n0)) with (repr r0 r1 (g_refs s n0));
    let NDn := fresh "NDn" in let INn := fresh "INn" in let RCn := fresh "RCn" in
    destruct (I_refs _ _ HI n0) as (NDn & INn & RCn);
    let HIn := fresh "HIn" in let HNi := fresh "HNi" in
    assert (HIn : In r0 (g_refs s n0)) by (apply INn; side E);
    assert (HNi : ~ In r1 (g_refs s n0)) by (rewrite INn; side E);
    let ND' := fresh "ND'" in let LEN := fresh "LEN" in let IN' := fresh "IN'" in
    destruct (refs_rep (g_refs s n0) r0 r1 NDn HIn HNi) as (ND' & LEN & IN')
  | |- context [?r0 :: g_refs ?s ?n0] =>
    let NDn := fresh "NDn" in let INn := fresh "INn" in let RCn := fresh "RCn" in
    destruct (I_refs _ _ HI n0) as (NDn & INn & RCn);
    let HNi := fresh "HNi" in
    assert (HNi : ~ In r0 (g_refs s n0)) by (first [ match goal with Hnil : g_refs s n0 = [] |- _ => rewrite Hnil; intros [] end | rewrite INn; side E]);
    let ND' := fresh "ND'" in let LEN := fresh "LEN" in let IN' := fresh "IN'" in
    destruct (refs_add (g_refs s n0) r0 NDn HNi) as (ND' & LEN & IN')
  end.

Lemma fhead_free ns s p : Inv ns s -> fhead s = Some p -> g_ns s p = NFree.
Proof.
  intros HI H. destruct (I_fl _ _ HI) as (_ & F & Hh & _). apply F. rewrite Hh in H.
  destruct (g_fl s); cbn in H; [discriminate|]. injection H as ->. left. reflexivity.
Qed.

(** a move that keeps what the thread owns changes no reference *)
Lemma refs_pc ns s t p n : Inv ns s -> owned p = owned (th s t) ->
  NoDup (g_refs s n) /\ (forall r, In r (g_refs s n) <-> holds (set_pc t p s) r n) /\ rc s n = 2 * length (g_refs s n) + cbit (g_ns s n).
Proof.
  intros HI Ho. destruct (I_refs _ _ HI n) as (ND & IN & RC). split; [exact ND|split; [|exact RC]].
  intros r. rewrite IN. destruct r as [c|u g|u]; cbn [holds]; prj; try reflexivity.
  destruct (upd_cases (th s) t p u) as [[-> ->]|[_ ->]]; [rewrite Ho|]; reflexivity.
Qed.

Ltac ns_facts RC := repeat match goal with Hx : g_ns _ _ = _ |- _ => rewrite Hx in RC end.

Lemma P_refs_step ns s a s' es : Inv ns s -> step ns s a = Some (s', es) ->
  forall n, NoDup (g_refs s' n) /\ (forall r, In r (g_refs s' n) <-> holds s' r n) /\
            rc s' n = 2 * length (g_refs s' n) + cbit (g_ns s' n).
Proof.
  intros HI H. leaves HI H t.
  all: assert (Hna : g_ns s (nalloc s) = NNone) by (apply (I_alloc _ _ HI); lia).
  all: try match goal with Hx : fhead _ = Some _ |- _ => pose proof (fhead_free _ _ _ HI Hx) end.
  all: try solve [intros m; prj; apply (refs_pc _ _ _ _ _ HI); rewrite E; cbn [owned]; first [reflexivity | assumption]].
  all: intros m; destruct (I_refs _ _ HI m) as (ND & IN & RC); prj.
  all: repeat match goal with H : _ /\ _ |- _ => destruct H end; subst; cbn [guard_of] in *.
  (* the list of m does not change (in particular: nothing but the program counter changes) *)
  all: try solve [upd_split; subst; rewrite ?Hna in *; on; ns_facts RC; on_in RC;
                  (split; [exact ND|split; [|first [exact RC|lia]]]; intros rfx; rewrite IN; clear IN; revert rfx; holds_fin E t)].
  (* a node from the heap has no references yet; the published node is not the unlinked one *)
  all: try match goal with
       | Ho : g_ns ?s ?n = NNew _ |- _ =>
         let X := fresh "Hnil" in assert (X : g_refs s n = []) by (apply (I_new _ _ HI); rewrite Ho; exact I)
       | Ho : g_ns ?s ?n1 = NFresh _, E0 : cells ?s ?c = Some ?n0 |- _ =>
         let X := fresh "Hne" in
         assert (X : n0 <> n1) by (intros ->; pose proof (I_cell _ _ HI _ _ E0); congruence);
         rewrite (upd_other _ n1 _ n0 X)
       end.
  (* the list of one node changes *)
  all: try solve [list_lemma HI E; upd_split; subst; rewrite ?Hna in *; on;
    (split; [assumption | split;
    [ intros rfx; try rewrite IN'; rewrite IN; clear IN; revert rfx; holds_fin E t
    | ns_facts RC; on_in RC; try (match type of RC with context [cbit ?x] => pose proof (cbit_01 x) end); unfold dec_new in *;
      repeat match goal with |- context [if ?b then _ else _] => destruct b eqn:? end; bool_eqs;
      try match goal with Hnil : g_refs _ _ = [] |- _ => rewrite Hnil in * end; cbn [length] in *; lia ]]) ].
  all: try solve [list_lemma HI E; list_lemma HI E; upd_split; subst; rewrite ?Hna in *; on;
    (split; [assumption | split;
    [ intros rfx; try rewrite IN'; try rewrite IN'0; rewrite IN; clear IN; revert rfx; holds_fin E t
    | ns_facts RC; on_in RC; cbn [length] in *; lia ]]) ].
Qed.

