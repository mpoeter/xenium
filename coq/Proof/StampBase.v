(** Structural invariants of the stamp_it model (Model/StampDefs.v): the frame of a step, the thread-local shape of
    every program point ([tshape]: which program points own a control block, the region counter = number of non-empty
    guards of the thread + its region_guard), exclusive ownership of thread control blocks ([O0]).
    Used by the other Proof/Stamp*.v files.  No axioms. *)
From Coq Require Import NArith List Bool Arith Lia PeanoNat.
From XV Require Import Conc.Lts Conc.Ev Model.StampDefs.
Import ListNotations.
Local Open Scope N_scope.

(** * Function updates *)
Lemma updN_same {X} (f : N -> X) i v : updN f i v i = v.
Proof. unfold updN. rewrite N.eqb_refl. reflexivity. Qed.
Lemma updN_other {X} (f : N -> X) i v j : j <> i -> updN f i v j = f j.
Proof. unfold updN. intros H. destruct (N.eqb_spec j i); [contradiction|reflexivity]. Qed.
Lemma updN_cases {X} (f : N -> X) i v j : (j = i /\ updN f i v j = v) \/ (j <> i /\ updN f i v j = f j).
Proof. destruct (N.eq_dec j i) as [->|H]; [left; split; [reflexivity|apply updN_same] | right; split; [exact H|apply updN_other; exact H]]. Qed.
Lemma upd_cases {X} (f : nat -> X) i v j : (j = i /\ upd f i v j = v) \/ (j <> i /\ upd f i v j = f j).
Proof. destruct (Nat.eq_dec j i) as [->|H]; [left; split; [reflexivity|apply upd_same] | right; split; [exact H|apply upd_other; exact H]]. Qed.

Ltac prj := cbn [blist bstate qprev qnext qstamp gret nstamp cells nalloc nextid nid th tl g_owner g_reg g_lk g_max g_lo g_hi g_life g_where g_nfree g_uaf
                 w_blist w_bstate w_qprev w_qnext w_qstamp w_gret w_nstamp w_cells w_nalloc w_nextid w_nid w_th w_tl w_g_owner w_g_reg w_g_lk w_g_max w_g_lo w_g_hi w_g_life w_g_where w_g_nfree w_g_uaf
                 set_pc set_tl free_all move_all deref
                 cb nest rg rl gs hlo hgm wt_cb wt_nest wt_rg wt_rl wt_gs wt_hlo wt_hgm tl0].
Ltac prj_in H := cbn [blist bstate qprev qnext qstamp gret nstamp cells nalloc nextid nid th tl g_owner g_reg g_lk g_max g_lo g_hi g_life g_where g_nfree g_uaf
                 w_blist w_bstate w_qprev w_qnext w_qstamp w_gret w_nstamp w_cells w_nalloc w_nextid w_nid w_th w_tl w_g_owner w_g_reg w_g_lk w_g_max w_g_lo w_g_hi w_g_life w_g_where w_g_nfree w_g_uaf
                 set_pc set_tl free_all move_all deref
                 cb nest rg rl gs hlo hgm wt_cb wt_nest wt_rg wt_rl wt_gs wt_hlo wt_hgm tl0] in H.

Lemma oeqb_eq a b : oeqb a b = true <-> a = b.
Proof.
  destruct a as [x|], b as [y|]; cbn; split; intros H; try congruence; try discriminate.
  - apply N.eqb_eq in H. congruence.
  - inversion H. apply N.eqb_refl.
Qed.

Lemma memN_In n l : memN n l = true <-> In n l.
Proof.
  unfold memN. rewrite existsb_exists. split.
  - intros (x & Hx & E). apply N.eqb_eq in E. subst. exact Hx.
  - intros H. exists n. split; [exact H|apply N.eqb_refl].
Qed.
Lemma memN_false n l : memN n l = false <-> ~ In n l.
Proof. rewrite <- memN_In. destruct (memN n l); split; intros; congruence. Qed.

(** * Case analysis of one step *)
Ltac inv_some H := injection H as <- <-.

Ltac step_split H :=
  repeat match type of H with
  | None = Some _ => discriminate H
  | context [match ?x with _ => _ end] =>
      let E := fresh "E" in destruct x eqn:E
  | Some _ = Some _ => inv_some H
  end.

Ltac unfold_step H :=
  unfold step, step_gen, rm_step, pg_start, pg_round, leave, enter, push_check, entered, walk, ag_cont, do_cont, exited, to_cas, finish in H.


(** program points of remove between the marking of the own prev pointer and the NotInList store *)
Definition midp (p : rpt) : bool := match p with R1 | R2 | RM2 | RM3 | SV2 | SV3 => false | _ => true end.
Lemma rm_top_mid f : exists p, rm_top f = Rm p f /\ midp p = true.
Proof. unfold rm_top. repeat match goal with |- context [if ?c then _ else _] => destruct c end; eauto. Qed.
Lemma rm_back_mid f q : midp q = true -> exists p f', rm_back f q = Rm p f' /\ midp p = true.
Proof. intros Hq. unfold rm_back. destruct (fst (flast f)); [|eauto]. destruct (rm_top_mid (wf_last null_mp (wf_next (flast f) f))) as (p & E & M). eauto. Qed.
Lemma rm_skip_mid b f : exists p, rm_skip b f = Rm p f /\ midp p = true.
Proof. unfold rm_skip. repeat match goal with |- context [if ?c then _ else _] => destruct c | |- context [match ?c with Some _ => _ | None => _ end] => destruct c end; eauto. Qed.
Lemma rp_ret_mid w f : exists p f', rp_ret w f = Rm p f' /\ midp p = true.
Proof. unfold rp_ret. destruct w; eauto. Qed.
Lemma mn_ret_mid w r f : exists p f', mn_ret w r f = Rm p f' /\ midp p = true.
Proof.
  unfold mn_ret. destruct w, r; eauto using rp_ret_mid.
  destruct (rm_top_mid (wf_last null_mp (wf_next (flast f) f))) as (p & E & M). eauto.
Qed.
(* name the program point a helper of remove returns *)
Ltac rmm :=
  repeat match goal with
  | |- context [rm_top ?f] => let p := fresh "p" in let E := fresh "Er" in let M := fresh "Mp" in destruct (rm_top_mid f) as (p & E & M); rewrite E in *; clear E
  | |- context [rm_back ?f ?q] => let p := fresh "p" in let g := fresh "f" in let E := fresh "Er" in let M := fresh "Mp" in destruct (rm_back_mid f q eq_refl) as (p & g & E & M); rewrite E in *; clear E
  | |- context [rm_skip ?b ?f] => let p := fresh "p" in let E := fresh "Er" in let M := fresh "Mp" in destruct (rm_skip_mid b f) as (p & E & M); rewrite E in *; clear E
  | |- context [rp_ret ?w ?f] => let p := fresh "p" in let g := fresh "f" in let E := fresh "Er" in let M := fresh "Mp" in destruct (rp_ret_mid w f) as (p & g & E & M); rewrite E in *; clear E
  | |- context [mn_ret ?w ?r ?f] => let p := fresh "p" in let g := fresh "f" in let E := fresh "Er" in let M := fresh "Mp" in destruct (mn_ret_mid w r f) as (p & g & E & M); rewrite E in *; clear E
  end.
(** the control blocks whose state / owner a step of t may write: its own, the one it allocates ([nalloc s] is the next
    block), the free one it is about to adopt (C3), the one it has allocated and not yet registered (C4) *)
Definition touched (s : state) (t : nat) (b : N) : Prop :=
  cb (tl s t) = Some b \/ b = nalloc s \/ (exists k rest, th s t = C3 k b rest /\ bstate s b = 0) \/ (exists k, th s t = C4 k b).

Ltac split_updN_goal :=
  repeat match goal with
  | |- context [updN ?f ?i ?v ?i] => rewrite (updN_same f i v)
  | H : ?j <> ?i |- context [updN ?f ?i ?v ?j] => rewrite (updN_other f i v j H)
  | |- context [updN ?f ?i ?v ?j] => destruct (N.eq_dec j i); [subst j|]
  end.

Lemma is_nil_true {X} (l : list X) : is_nil l = true -> l = [].
Proof. destruct l; [reflexivity|discriminate]. Qed.
Lemma is_nil_false {X} (l : list X) : is_nil l = false -> l <> [].
Proof. destruct l; [discriminate|intros _ ?; discriminate]. Qed.
Lemma oeqb_false a b : oeqb a b = false -> a <> b.
Proof. intros H E. apply oeqb_eq in E. congruence. Qed.

(* turn the boolean equations produced by the case analysis into propositions *)
Ltac bool_eqs :=
  repeat match goal with
  | H : (_ =? _) = true |- _ => apply N.eqb_eq in H
  | H : (_ =? _) = false |- _ => apply N.eqb_neq in H
  | H : (_ =? _)%nat = true |- _ => apply Nat.eqb_eq in H
  | H : (_ =? _)%nat = false |- _ => apply Nat.eqb_neq in H
  | H : (_ <? _)%nat = true |- _ => apply Nat.ltb_lt in H
  | H : (_ <? _)%nat = false |- _ => apply Nat.ltb_ge in H
  | H : oeqb _ _ = true |- _ => apply oeqb_eq in H
  | H : oeqb _ _ = false |- _ => apply oeqb_false in H
  | H : is_nil _ = true |- _ => apply is_nil_true in H
  | H : is_nil _ = false |- _ => apply is_nil_false in H
  end.


(** * updates of the queue maps *)
Lemma tcb_eqb_eq a b : tcb_eqb a b = true <-> a = b.
Proof.
  destruct a, b; cbn; split; intros H; try congruence; try discriminate; try reflexivity.
  - apply N.eqb_eq in H. congruence.
  - inversion H. apply N.eqb_refl.
Qed.
Lemma tcb_eq_dec (a b : tcb) : {a = b} + {a <> b}.
Proof. decide equality. apply N.eq_dec. Defined.
Lemma updT_same {X} (f : tcb -> X) i v : updT f i v i = v.
Proof. unfold updT. destruct (tcb_eqb i i) eqn:E; [reflexivity|]. assert (tcb_eqb i i = true) by (apply tcb_eqb_eq; reflexivity). congruence. Qed.
Lemma updT_other {X} (f : tcb -> X) i v j : j <> i -> updT f i v j = f j.
Proof. unfold updT. intros H. destruct (tcb_eqb j i) eqn:E; [apply tcb_eqb_eq in E; contradiction|reflexivity]. Qed.
Lemma updT_cases {X} (f : tcb -> X) i v j : (j = i /\ updT f i v j = v) \/ (j <> i /\ updT f i v j = f j).
Proof. destruct (tcb_eq_dec j i) as [->|H]; [left; split; [reflexivity|apply updT_same] | right; split; [exact H|apply updT_other; exact H]]. Qed.

Definition in_cphase (p : pc) : bool :=
  match p with C1 _ | C2 _ _ _ | C3 _ _ _ | C4 _ _ | C5 _ _ | C6 _ _ _ => true | _ => false end.
Definition in_pphase (p : pc) : bool :=
  match p with
  | P1 _ | P2 _ _ | P3 _ | P4 _ _ | P5 _ _ | P6 _ _ _ | P7 _ _ _ | P8 _ _ _ | P9 _ _ _ _ | P10 _ _ _ _
  | P11 _ _ _ | P12 _ _ | P13 _ _ _ | P14 _ _ _ => true
  | _ => false
  end.
(** leave_region after the decrement of region_entries, with a control block *)
Definition in_lphase (p : pc) : bool :=
  match p with
  | Rm _ _ | UT1 _ _ | UT2 _ _ _ | UT3 _ _ _ _ | UT4 _ _ _ _ _ | UT5 _ _ _ _ | UT6 _ _ | UT7 _ _ _
  | PL1 (PLLeave _) | PG1 _ | PG2 _ _ | PG3 _ _ | PG4 _ _ _ | AG1 (AGK _) _ | AG2 (AGK _) _ _ | X1 => true
  | _ => false
  end.
(** ~thread_data after the control block was abandoned *)
Definition in_xphase (p : pc) : bool :=
  match p with PL1 PLExit | AG1 AGExit _ | AG2 AGExit _ _ => true | _ => false end.
Definition cblk (p : pc) : option N := match p with C4 _ b | C5 _ b | C6 _ b _ => Some b | _ => None end.
(** region entries that belong to no persistent guard and no region_guard: the temporary guard of repl / read / reclaim
    (1 while it protects something), or the slot guard that hold is about to fill *)
Definition tmp (p : pc) (x : tls) : nat :=
  match p with
  | A2 (KHold _ s) => if is_some (gs x s) then 0 else 1
  | A2 _ => 1
  | R3c _ (Some _) _ => 1
  | RT1 _ => 1
  | PL1 PLRetire => 1
  | _ => 0
  end%nat.
Definition needs_cb (p : pc) : bool :=
  in_pphase p || in_lphase p ||
  match p with A2 _ | R3c _ (Some _) _ | RT1 _ | PL1 PLRetire => true | _ => false end.
Definition no_cb (p : pc) : bool := in_cphase p || in_xphase p.
Definition ctx_of (p : pc) : option ctx :=
  match p with
  | A1 k | C1 k | C2 k _ _ | C3 k _ _ | C4 k _ | C5 k _ | C6 k _ _
  | P1 k | P2 k _ | P3 k | P4 k _ | P5 k _ | P6 k _ _ | P7 k _ _ | P8 k _ _ | P9 k _ _ _ | P10 k _ _ _
  | P11 k _ _ | P12 k _ | P13 k _ _ | P14 k _ _ | A2 k => Some k
  | _ => None
  end.
Definition slot_of (p : pc) : option nat :=
  match p with
  | Begin (OHold _ s) | Begin (ODrop s) | Begin (ODeref s) => Some s
  | _ => match ctx_of p with Some (KHold _ s) => Some s | _ => None end
  end.
Definition is_kenter (p : pc) : bool := match ctx_of p with Some (KEnter _) => true | _ => false end.
Definition walk_of (p : pc) : list N := match p with C2 _ r rest | C3 _ r rest => r :: rest | _ => [] end.
Definition rgc (x : tls) : nat := if is_some (rg x) then 1%nat else 0%nat.

(** program points of ensure_has_control_block and the abandoning store of ~thread_data: only there control blocks change hands *)
Definition block_pc (p : pc) : bool := in_cphase p || match p with X1 => true | _ => false end.

(** program points whose step reads or writes the bookkeeping of nodes (cells, life cycle, retire lists, the chunks a
    thread carries) *)
Definition node_pc (p : pc) : bool :=
  match p with
  | A1 _ | A2 _ | R3c _ _ _ | RT1 _ | PL1 _ | PG2 _ _ | PG3 _ _ | PG4 _ _ _ | AG1 _ _ | AG2 _ _ _ => true
  | _ => false
  end.

(** program points that work on the thread order queue (ensure_has_control_block creates its blocks): only there stamps, prev
    pointers and the region ghosts are written *)
Definition queue_pc (p : pc) : bool :=
  in_cphase p || in_pphase p ||
  match p with Rm _ _ | UT1 _ _ | UT2 _ _ _ | UT3 _ _ _ _ | UT4 _ _ _ _ _ | UT5 _ _ _ _ | UT6 _ _ | UT7 _ _ _ => true | _ => false end.
(** where a step from outside the queue may lead, apart from the first access of remove and the reads of process_global_nodes *)
Definition plain (p : pc) : bool :=
  match p with
  | Idle | Begin _ | A1 _ | A2 _ | R3c _ _ _ | RT1 _ | PL1 _ | PG1 _ | PG4 _ _ _ | AG1 _ _ | AG2 _ _ _ | X1 | C1 _ | P1 _ => true
  | _ => false
  end.

(** the thread holds a node that is in no list: the new node of repl, the unlinked node, the chunks in its hands *)
Definition carries (p : pc) : bool :=
  match p with R3c _ _ (Some _) | RT1 _ | PG4 _ _ _ | AG1 _ _ | AG2 _ _ _ => true | _ => false end.

(** what one step of thread t leaves alone *)
Record sframe (s : state) (t : nat) (s' : state) : Prop := {
  f_others : forall u, u <> t -> th s' u = th s u /\ tl s' u = tl s u;
  f_untouched : forall b, ~ touched s t b -> bstate s' b = bstate s b /\ g_owner s' b = g_owner s b;
  f_blist : blist s' = blist s \/ exists k b h, th s t = C6 k b h /\ blist s' = b :: blist s;
  f_nalloc : nalloc s <= nalloc s';
  f_nodes : node_pc (th s t) = false ->
     carries (th s' t) = false /\ rl (tl s' t) = rl (tl s t) /\ cells s' = cells s /\ g_life s' = g_life s /\
     g_where s' = g_where s /\ g_nfree s' = g_nfree s /\ nstamp s' = nstamp s /\ gret s' = gret s;
  f_blocks : block_pc (th s t) = false ->
     blist s' = blist s /\ bstate s' = bstate s /\ g_owner s' = g_owner s /\ cblk (th s' t) = None /\ walk_of (th s' t) = [] /\
     (cb (tl s' t) = cb (tl s t) \/ in_xphase (th s t) = true /\ cb (tl s' t) = None);
  (* outside the queue code: where the step leads, and whether the region counter stays zero / non-zero; the last case is
     leave_region starting remove, with what entitled the thread to leave *)
  f_queue : queue_pc (th s t) = false ->
     qstamp s' = qstamp s /\ qprev s' = qprev s /\ qnext s' = qnext s /\ g_reg s' = g_reg s /\ g_lk s' = g_lk s /\ g_max s' = g_max s /\
     ((plain (th s' t) = true \/ (exists k, th s' t = PG2 k (qstamp s TTail)) \/ (exists k ts, th s t = PG2 k ts /\ th s' t = PG3 k ts)) /\
        ((nest (tl s' t) = O <-> nest (tl s t) = O) /\ cb (tl s' t) = cb (tl s t) \/ cb (tl s' t) = None) \/
      (exists k, th s' t = Rm R1 (frame0 k)) /\ nest (tl s' t) = O /\ cb (tl s' t) = cb (tl s t) /\
        (tmp (th s t) (tl s t) = 1%nat \/ (exists i n, slot_of (th s t) = Some i /\ gs (tl s t) i = Some n) \/ rg (tl s t) <> None)) }.

Lemma step_frame ns s t s' es : step ns s (Step t) = Some (s', es) -> sframe s t s'.
Proof.
  intros H. unfold_step H. cbv zeta in H. step_split H.
  all: bool_eqs; prj.
  all: constructor; prj; try match goal with E : th _ _ = _ |- _ => rewrite ?E end; try lia.
  all: try solve [intros u Hu; rewrite ?upd_other by exact Hu; split; reflexivity].
  all: try (intros bb Hb; unfold touched in Hb).
  all: try solve [repeat split; reflexivity].
  all: try solve [repeat rewrite upd_same; cbn [queue_pc in_cphase in_pphase orb]; intros X; try discriminate X;
                  repeat match goal with E : context [nest] |- _ => progress (prj_in E; repeat rewrite upd_same in E; prj_in E) end;
                  do 6 (split; [reflexivity|]); prj; repeat rewrite upd_same; prj;
                  first [ right; split; [eexists; reflexivity|split; [first [reflexivity|assumption]|split; [first [reflexivity|assumption]|]]];
                          cbn [tmp slot_of ctx_of];
                          first [ left; reflexivity | right; left; do 2 eexists; split; [reflexivity|eassumption] | right; right; congruence
                                | match goal with |- context [is_some (?g ?i)] => destruct (g i) eqn:? end;
                                  [right; left; do 2 eexists; split; [reflexivity|eassumption]|left; reflexivity] ]
                        | left; split; [first [left; reflexivity | right; left; eexists; reflexivity | right; right; do 2 eexists; split; reflexivity]
                                       |cbn [nest cb]; first [right; reflexivity | left; split; [split; intros; first [assumption | reflexivity | lia | congruence]|first [reflexivity|assumption]]]] ]].
  all: try solve [repeat rewrite upd_same; cbn [node_pc block_pc in_cphase orb]; intros X;
                  first [discriminate X | rmm; repeat split; first [reflexivity | left; first [reflexivity|assumption] | right; split; first [reflexivity|assumption]]]].
  all: try solve [repeat split; split_updN_goal; try reflexivity; exfalso; apply Hb; eauto 6].
  all: try solve [left; congruence].
  all: try solve [right; eauto].
  all: try solve [repeat split; split_updN_goal; try reflexivity; exfalso; apply Hb; right; right; left; eauto].
Qed.

(** number of non-empty guards among the slots 0..n-1 *)
Fixpoint cnt_held (g : nat -> option N) (n : nat) : nat :=
  match n with O => O | S m => ((if is_some (g m) then 1 else 0) + cnt_held g m)%nat end.

Lemma cnt_held_none n : cnt_held (fun _ => None) n = O.
Proof. induction n; cbn; [reflexivity|exact IHn]. Qed.
Lemma cnt_upd_hi g s v n : (n <= s)%nat -> cnt_held (upd g s v) n = cnt_held g n.
Proof.
  induction n as [|n IH]; intros H; cbn [cnt_held]; [reflexivity|].
  rewrite IH by lia. rewrite upd_other by lia. reflexivity.
Qed.
Lemma cnt_upd_some_none g s x n : g s = Some x -> (s < n)%nat -> cnt_held g n = S (cnt_held (upd g s None) n).
Proof.
  intros Hg. induction n as [|n IH]; intros H; [lia|]. cbn [cnt_held].
  destruct (Nat.eq_dec s n) as [->|Hne].
  - rewrite upd_same, Hg. cbn [is_some]. rewrite cnt_upd_hi by lia. reflexivity.
  - rewrite (upd_other _ _ _ n) by congruence. rewrite IH by lia. lia.
Qed.
Lemma cnt_upd_none_some g s x n : g s = None -> (s < n)%nat -> cnt_held (upd g s (Some x)) n = S (cnt_held g n).
Proof.
  intros Hg. induction n as [|n IH]; intros H; [lia|]. cbn [cnt_held].
  destruct (Nat.eq_dec s n) as [->|Hne].
  - rewrite upd_same, Hg. cbn [is_some]. rewrite cnt_upd_hi by lia. reflexivity.
  - rewrite (upd_other _ _ _ n) by congruence. rewrite IH by lia. lia.
Qed.
Lemma cnt_upd_same_kind g s v n : is_some (g s) = is_some v -> cnt_held (upd g s v) n = cnt_held g n.
Proof.
  intros Hg. induction n as [|n IH]; [reflexivity|]. cbn [cnt_held]. rewrite IH.
  destruct (Nat.eq_dec n s) as [->|Hne]; [rewrite upd_same, Hg; reflexivity|rewrite upd_other by exact Hne; reflexivity].
Qed.
Lemma cnt_zero_all g n : cnt_held g n = O -> forall s, (s < n)%nat -> g s = None.
Proof.
  induction n as [|n IH]; intros H s Hs; [lia|]. cbn [cnt_held] in H.
  destruct (g n) eqn:En; cbn [is_some] in H; [lia|].
  destruct (Nat.eq_dec s n) as [->|Hne]; [exact En|apply IH; lia].
Qed.
Lemma cnt_pos g n s x : g s = Some x -> (s < n)%nat -> (1 <= cnt_held g n)%nat.
Proof. intros Hg Hs. rewrite (cnt_upd_some_none g s x n Hg Hs). lia. Qed.


Ltac fn := cbn [walk_of ctx_of slot_of is_kenter in_cphase in_pphase in_lphase in_xphase cblk tmp needs_cb no_cb orb andb negb is_some cell_of rgc rg].
Ltac fn_in H := cbn [walk_of ctx_of slot_of is_kenter in_cphase in_pphase in_lphase in_xphase cblk tmp needs_cb no_cb orb andb negb is_some cell_of rgc rg] in H.

Record tshape (ns : nat) (p : pc) (x : tls) : Prop := {
  ts_need : needs_cb p = true -> cb x <> None;
  ts_no : no_cb p = true -> cb x = None;
  ts_fresh : cb x = None -> nest x = O /\ (forall s, gs x s = None) /\ rg x = None;
  ts_cnt : nest x = (cnt_held (gs x) ns + tmp p x + rgc x)%nat;
  ts_slot : forall s, slot_of p = Some s -> (s < ns)%nat;
  ts_hi : forall s, (ns <= s)%nat -> gs x s = None;
  ts_c : in_cphase p = true -> nest x = O;
  ts_p : in_pphase p = true -> nest x = O;
  ts_l : in_lphase p = true -> nest x = O;
  ts_x : in_xphase p = true -> nest x = O;
  ts_ke : is_kenter p = true -> in_cphase p || in_pphase p = true }.

(** what lets a thread call leave_region: a guard it holds or is about to reset, its region_guard *)
Lemma tshape_nest_pos ns p x : tshape ns p x ->
  tmp p x = 1%nat \/ (exists i n, slot_of p = Some i /\ gs x i = Some n) \/ rg x <> None -> nest x <> O.
Proof.
  intros T [H|[(i & n & Hs & Hg)|H]]; rewrite (ts_cnt _ _ _ T).
  - lia.
  - pose proof (cnt_pos _ _ _ _ Hg (ts_slot _ _ _ T i Hs)). lia.
  - unfold rgc. destruct (rg x); [cbn; lia|congruence].
Qed.

Ltac cleanup :=
  repeat match goal with
  | H : false = true -> _ |- _ => clear H
  | H : true = true -> _ |- _ => specialize (H eq_refl)
  | H : forall s, None = Some s -> _ |- _ => clear H
  | H : forall s, Some ?a = Some s -> _ |- _ => specialize (H a eq_refl)
  | H : ?a = None -> _, H2 : ?a = None |- _ => specialize (H H2)
  | H : _ /\ _ |- _ => destruct H
  end.

Ltac cnt_tac :=
  repeat match goal with
  | |- context [cnt_held (fun _ => None) ?n] => rewrite (cnt_held_none n)
  | E : ?g ?s0 = Some ?x, L : (?s0 < ?n)%nat |- context [cnt_held (upd ?g ?s0 None) ?n] =>
      rewrite (cnt_upd_some_none g s0 x n E L) in *
  | E : ?g ?s0 = None, L : (?s0 < ?n)%nat |- context [cnt_held (upd ?g ?s0 (Some ?x)) ?n] =>
      rewrite (cnt_upd_none_some g s0 x n E L)
  | E : ?g ?s0 = Some ?y |- context [cnt_held (upd ?g ?s0 (Some ?x)) ?n] =>
      rewrite (cnt_upd_same_kind g s0 (Some x) n) by (rewrite E; reflexivity)
  | E : ?g ?s0 = None |- context [cnt_held (upd ?g ?s0 None) ?n] =>
      rewrite (cnt_upd_same_kind g s0 None n) by (rewrite E; reflexivity)
  end.

Ltac prj_hyps := repeat match goal with H : _ |- _ => progress prj_in H end.
(* closes one clause of [tshape] for the successor of one leaf of [step], given the clauses for the predecessor as hypotheses:
   the clauses are equations and inequalities over nest / cb / rg / the guard count, so after the case split on the context,
   on whether the guards and the region_guard are set, and the rewriting of [cnt_held] under [upd], lia / congruence decide them *)
Ltac tfin :=
  try (let X := fresh "X" in intros X);
  cleanup; bool_eqs;
  repeat match goal with
  | |- context [match ?k with KRepl _ _ => _ | _ => _ end] => destruct k
  | H : context [match ?k with KRepl _ _ => _ | _ => _ end] |- _ => destruct k
  end; fn; repeat match goal with H : _ |- _ => progress fn_in H end; prj; prj_hyps; cleanup;
  repeat match goal with
  | E : rg ?x = _ |- _ => rewrite E in *
  end; fn; repeat match goal with H : _ |- _ => progress fn_in H end;
  repeat match goal with
  | |- context [is_some (?g ?s0)] => let E := fresh "Eg" in destruct (g s0) eqn:E; cbn [is_some] in *
  | H : context [is_some (?g ?s0)] |- _ => let E := fresh "Eg" in destruct (g s0) eqn:E; cbn [is_some] in *
  | |- context [is_some (rg ?x)] => let E := fresh "Er" in destruct (rg x) eqn:E; cbn [is_some] in *
  | H : context [is_some (rg ?x)] |- _ => let E := fresh "Er" in destruct (rg x) eqn:E; cbn [is_some] in *
  end; prj;
  repeat match goal with
  | |- context [upd ?f ?a ?v ?b] => destruct (upd_cases f a v b) as [[? ->]|[? ->]]; try subst
  end;
  repeat match goal with
  | H : forall s, ?g s = None, E : ?g ?s0 = Some _ |- _ => rewrite H in E; discriminate E
  end;
  cnt_tac;
  repeat match goal with
  | E : ?g ?s0 = Some ?x, L : (?s0 < ?ns)%nat |- _ =>
    lazymatch goal with | _ : (1 <= cnt_held g ns)%nat |- _ => fail | _ => pose proof (cnt_pos _ _ _ _ E L) end
  end;
  first [ assumption | reflexivity | discriminate | congruence | lia | exfalso; congruence | exfalso; lia | solve [auto]
        | split; first [assumption | lia | congruence | solve [auto]] ].

Lemma tshape_step ns s t s' es : step ns s (Step t) = Some (s', es) ->
  tshape ns (th s t) (tl s t) -> tshape ns (th s' t) (tl s' t).
Proof.
  intros H I. unfold_step H. cbv zeta in H. step_split H.
  all: bool_eqs; prj; rewrite ?upd_same; prj; prj_hyps; rewrite ?upd_same in *; prj_hyps.
  all: try match goal with E : th _ _ = _ |- _ => rewrite E in I end.
  all: destruct I as [Ineed Ino Ifresh Icnt Islot Ihi Ic Ip Il Ix Ike].
  all: unfold rgc in *; fn_in Ineed; fn_in Ino; fn_in Icnt; fn_in Islot; fn_in Ic; fn_in Ip; fn_in Il; fn_in Ix; fn_in Ike.
  all: rmm.
  all: constructor; unfold rgc; prj; fn; intros.
  all: try solve [first [assumption | reflexivity | discriminate | congruence | lia | auto]].
  all: try solve [tfin].
  specialize (Il eq_refl). rewrite Il in Icnt.
  split; [exact Il|]. split.
  - intros s0. destruct (Nat.lt_ge_cases s0 ns) as [Hl|Hl]; [|apply Ihi; exact Hl].
    apply (cnt_zero_all (gs (tl s t)) ns); [lia|exact Hl].
  - destruct (rg (tl s t)); cbn [is_some] in Icnt; [lia|reflexivity].
Qed.

Lemma tshape_start ns s t o s' es : step ns s (Start t o) = Some (s', es) ->
  tshape ns (th s t) (tl s t) -> tshape ns (th s' t) (tl s' t).
Proof.
  intros H I. unfold_step H. cbv zeta in H. step_split H.
  all: bool_eqs; prj; rewrite ?upd_same; prj; prj_hyps.
  all: try match goal with E : th _ _ = _ |- _ => rewrite E in I end.
  all: destruct I as [Ineed Ino Ifresh Icnt Islot Ihi Ic Ip Il Ix Ike].
  all: unfold rgc in *; fn_in Ineed; fn_in Ino; fn_in Icnt; fn_in Islot; fn_in Ic; fn_in Ip; fn_in Il; fn_in Ix; fn_in Ike.
  all: constructor; unfold rgc; prj; fn; intros.
  all: try solve [first [assumption | reflexivity | discriminate | congruence | lia | auto]].
  all: solve [tfin].
Qed.

(** ** the thread-local shape holds for every thread of every reachable state *)
Section Reach.
Variables (ns : nat) (nc : N).
Definition reachable (st : state) : Prop := reach (init nc) (step ns) st.

Lemma step_other_thread s a s' es u : step ns s a = Some (s', es) ->
  (match a with Start t _ => t | Step t => t end) <> u -> th s' u = th s u /\ tl s' u = tl s u.
Proof.
  intros H Hne. destruct a as [t o|t].
  - unfold step, step_gen in H. step_split H. all: prj; rewrite ?upd_other by congruence; split; reflexivity.
  - apply (f_others _ _ _ (step_frame _ _ _ _ _ H)). congruence.
Qed.

Definition T0 (st : state) : Prop := forall u, tshape ns (th st u) (tl st u).

Lemma T0_init : T0 (init nc).
Proof.
  intros u. constructor; cbn; intros; try congruence; try discriminate; try (repeat split; intros; reflexivity); try reflexivity.
  rewrite cnt_held_none. reflexivity.
Qed.

Lemma T0_step s a s' es : T0 s -> step ns s a = Some (s', es) -> T0 s'.
Proof.
  intros I H u. destruct (Nat.eq_dec (match a with Start t _ => t | Step t => t end) u) as [<-|Hne].
  - destruct a as [t o|t]; [eapply tshape_start|eapply tshape_step]; eauto.
  - destruct (step_other_thread _ _ _ _ u H Hne) as [-> ->]. apply I.
Qed.

Lemma T0_reach s : reachable s -> T0 s.
Proof. apply inv_rule; [exact T0_init|exact T0_step]. Qed.
End Reach.

(** * Ownership of control blocks *)
Record O0 (s : state) : Prop := {
  o_own : forall u b, cb (tl s u) = Some b -> g_owner s b = Some u /\ In b (blist s);
  o_ownC : forall u b, cblk (th s u) = Some b -> g_owner s b = Some u /\ ~ In b (blist s);
  o_rev : forall b u, g_owner s b = Some u -> (cb (tl s u) = Some b \/ cblk (th s u) = Some b) /\ bstate s b = 2 /\ b < nalloc s;
  o_inlt : forall b, In b (blist s) -> b < nalloc s;
  o_walk : forall u b, In b (walk_of (th s u)) -> In b (blist s) }.

Lemma owner_untouched s t u b : O0 s -> g_owner s b = Some u -> u <> t -> ~ touched s t b.
Proof.
  intros I Ho Hne [H|[H|[(k & rest & H & H0)|(k & H)]]].
  - apply (o_own s I) in H. destruct H as [H _]. congruence.
  - apply (o_rev s I) in Ho. destruct Ho as (_ & _ & Hlt). subst b. lia.
  - apply (o_rev s I) in Ho. destruct Ho as (_ & Hst & _). rewrite Hst in H0. discriminate.
  - assert (Hc : cblk (th s t) = Some b) by (rewrite H; reflexivity).
    apply (o_ownC s I) in Hc. destruct Hc as [Hc _]. congruence.
Qed.

(** the other threads: nothing they rely on is touched *)
Lemma O0_other ns s t s' es u : O0 s -> step ns s (Step t) = Some (s', es) -> u <> t ->
  (forall b, cb (tl s' u) = Some b -> g_owner s' b = Some u /\ In b (blist s')) /\
  (forall b, cblk (th s' u) = Some b -> g_owner s' b = Some u /\ ~ In b (blist s')) /\
  (forall b, In b (walk_of (th s' u)) -> In b (blist s')).
Proof.
  intros I H Hne. destruct (step_frame _ _ _ _ _ H) as [Fth Fb Fl _ _ _ _].
  destruct (Fth u Hne) as [-> ->].
  assert (Hin : forall b, In b (blist s) -> In b (blist s')).
  { destruct Fl as [->|(k & b0 & h & _ & ->)]; intros b Hb; [exact Hb|right; exact Hb]. }
  repeat split.
  - apply (o_own s I) in H0. destruct H0 as [Ho _].
    destruct (Fb b (owner_untouched _ _ _ _ I Ho Hne)) as (_ & ->). exact Ho.
  - apply Hin. apply (o_own s I) in H0. apply H0.
  - apply (o_ownC s I) in H0. destruct H0 as [Ho _].
    destruct (Fb b (owner_untouched _ _ _ _ I Ho Hne)) as (_ & ->). exact Ho.
  - apply (o_ownC s I) in H0. destruct H0 as (Ho & Hni).
    destruct Fl as [->|(k & b0 & h & Hpc & ->)]; [exact Hni|].
    intros [->|Hi]; [|contradiction].
    assert (Hc : cblk (th s t) = Some b) by (rewrite Hpc; reflexivity).
    apply (o_ownC s I) in Hc. destruct Hc as [Hc _]. congruence.
  - intros b Hb. apply Hin. eapply (o_walk s I); eauto.
Qed.

Ltac split_upd_all :=
  repeat match goal with
  | |- context [upd ?f ?t ?v ?t] => rewrite (upd_same f t v)
  | H : context [upd ?f ?t ?v ?t] |- _ => rewrite (upd_same f t v) in H
  | H : ?u <> ?t |- context [upd ?f ?t ?v ?u] => rewrite (upd_other f t v u H)
  | H : ?u <> ?t, H2 : context [upd ?f ?t ?v ?u] |- _ => rewrite (upd_other f t v u H) in H2
  | |- context [upd ?f ?t ?v ?u] => destruct (Nat.eq_dec u t); [subst u|]
  | H2 : context [upd ?f ?t ?v ?u] |- _ => destruct (Nat.eq_dec u t); [subst u|]
  end.
Ltac split_updN_all :=
  repeat match goal with
  | |- context [updN ?f ?i ?v ?i] => rewrite (updN_same f i v)
  | H : context [updN ?f ?i ?v ?i] |- _ => rewrite (updN_same f i v) in H
  | H : ?j <> ?i |- context [updN ?f ?i ?v ?j] => rewrite (updN_other f i v j H)
  | H : ?j <> ?i, H2 : context [updN ?f ?i ?v ?j] |- _ => rewrite (updN_other f i v j H) in H2
  | |- context [updN ?f ?i ?v ?j] => destruct (N.eq_dec j i); [subst j|]
  | H2 : context [updN ?f ?i ?v ?j] |- _ => destruct (N.eq_dec j i); [subst j|]
  end.

Ltac use_pc :=
  repeat match goal with
  | E : th ?s ?t = _, H : context [th ?s ?t] |- _ => rewrite E in H
  end.
Ltac inj_some :=
  repeat match goal with
  | H : Some ?a = Some ?b |- _ => first [ is_var b; injection H as <- | is_var a; injection H as -> | injection H as H ]
  end.
Ltac ofacts :=
  repeat match goal with
  | Iown : forall u b, cb (tl ?s u) = Some b -> g_owner ?s b = Some u /\ In b (blist ?s), H : cb (tl ?s ?u) = Some ?b |- _ =>
    lazymatch goal with | _ : g_owner s b = Some u |- _ => fail | _ => let X := fresh in pose proof (Iown u b H) as X; destruct X as [? ?] end
  | IownC : forall u b, cblk (th ?s u) = Some b -> g_owner ?s b = Some u /\ ~ In b (blist ?s), H : cblk (th ?s ?u) = Some ?b |- _ =>
    lazymatch goal with | _ : g_owner s b = Some u |- _ => fail | _ => let X := fresh in pose proof (IownC u b H) as X; destruct X as (? & ?) end
  | IownCt : forall b, Some ?b0 = Some b -> _ |- _ =>
    let X := fresh in pose proof (IownCt b0 eq_refl) as X; destruct X as (? & ?); clear IownCt
  | Irev : forall b u, g_owner ?s b = Some u -> (cb (tl ?s u) = Some b \/ cblk (th ?s u) = Some b) /\ bstate ?s b = 2 /\ b < nalloc ?s, H : g_owner ?s ?b = Some ?u |- _ =>
    lazymatch goal with | _ : bstate s b = 2 |- _ => fail | _ => let X := fresh in pose proof (Irev b u H) as X; destruct X as (? & ? & ?) end
  | Iinlt : forall b, In b (blist ?s) -> b < nalloc ?s, H : In ?b (blist ?s) |- _ =>
    lazymatch goal with | _ : b < nalloc s |- _ => fail | _ => pose proof (Iinlt b H) end
  end.

(* closes one clause of [O0] for the successor of one leaf of [step] at a program point of ensure_has_control_block or at X1.
   It expects the clauses of [O0 s] as hypotheses (any names; [ofacts] finds them by their shape and instantiates them at the
   blocks and threads in sight); what remains after splitting the updates of th / tl / bstate / g_owner is propositional *)
Ltac ofin2 :=
  split_upd_all; prj; prj_hyps; split_updN_all; inj_some; cleanup; ofacts; use_pc;
  repeat match goal with H : _ |- _ => progress fn_in H end; fn;
  repeat match goal with H : _ |- _ => progress fn_in H end; bool_eqs; cleanup;
  repeat match goal with
  | H : _ \/ _ |- _ => destruct H
  | H : In _ (_ :: _) |- _ => destruct H; [subst|]
  | H : In _ [] |- _ => destruct H
  end; inj_some; try subst; ofacts;
  repeat match goal with
  | |- context [Nat.eqb ?a ?b] => destruct (Nat.eqb_spec a b)
  | H : context [Nat.eqb ?a ?b] |- _ => destruct (Nat.eqb_spec a b)
  end;
  first [ assumption | reflexivity | discriminate | congruence | lia | exfalso; congruence | exfalso; lia
        | solve [auto] | solve [eauto 2] | left; assumption | right; assumption | left; congruence | right; congruence
        | match goal with Iwalkt : forall b, In b _ -> In b (blist _) |- In _ (blist _) => apply Iwalkt; simpl; tauto end
        | match goal with Iinlt : forall b, In b (blist ?s) -> b < nalloc ?s |- ~ In _ (blist ?s) => let X := fresh in intros X; apply Iinlt in X; lia end
        | simpl; tauto ].

Lemma O0_self ns s t s' es : O0 s -> tshape ns (th s t) (tl s t) -> step ns s (Step t) = Some (s', es) ->
  (forall b, cb (tl s' t) = Some b -> g_owner s' b = Some t /\ In b (blist s')) /\
  (forall b, cblk (th s' t) = Some b -> g_owner s' b = Some t /\ ~ In b (blist s')) /\
  (forall b, In b (walk_of (th s' t)) -> In b (blist s')) /\
  (forall b u, g_owner s' b = Some u -> (cb (tl s' u) = Some b \/ cblk (th s' u) = Some b) /\ bstate s' b = 2 /\ b < nalloc s') /\
  (forall b, In b (blist s') -> b < nalloc s').
Proof.
  intros I T H. destruct (block_pc (th s t)) eqn:Hb.
  2: { (* no control block changes hands *)
    destruct (step_frame _ _ _ _ _ H) as [Fth _ _ Ha _ Fb _]. destruct (Fb Hb) as (B1 & B2 & B3 & B4 & B5 & B6).
    apply orb_false_elim in Hb. destruct Hb as [Hc _].
    assert (C1 : cblk (th s t) = None) by (destruct (th s t); try discriminate Hc; reflexivity).
    split; [|split; [|split; [|split]]].
    - intros b Hcb. rewrite B1, B3. destruct B6 as [E|[_ E]]; [rewrite E in Hcb; apply (o_own s I); exact Hcb|congruence].
    - rewrite B4. discriminate.
    - rewrite B5. intros b [].
    - intros b u Ho. rewrite B3 in Ho. rewrite B2. destruct (o_rev s I b u Ho) as (R1 & R2 & R3). split; [|split; [exact R2|lia]].
      destruct (Nat.eq_dec u t) as [->|Hu]; [|destruct (Fth u Hu) as [-> ->]; exact R1].
      destruct R1 as [R1|R1]; [|congruence]. left. destruct B6 as [E|[X E]]; [congruence|].
      exfalso. pose proof (ts_no _ _ _ T) as N. unfold no_cb in N. rewrite X, orb_true_r in N. rewrite (N eq_refl) in R1. discriminate.
    - intros b Hb'. rewrite B1 in Hb'. apply (o_inlt s I) in Hb'. lia. }
  destruct (th s t) eqn:Epc; try discriminate Hb; clear Hb; unfold step, step_gen in H; rewrite Epc in H.
  all: unfold_step H; cbv zeta in H; step_split H.
  all: bool_eqs; prj; rewrite ?upd_same; prj; prj_hyps; rewrite ?upd_same in *; prj_hyps.
  all: try match goal with E : th _ _ = _ |- _ => rewrite E in T end.
  all: destruct T as [Tneed Tno Tfresh Tcnt Tslot Thi Tc Tp Tl Tx Tke].
  all: fn_in Tneed; fn_in Tno; fn_in Tc; clear Tcnt Tke Tslot Tp Tl Tx.
  all: destruct I as [Iown IownC Irev Iinlt Iwalk].
  all: match goal with E : th ?s ?t = _ |- _ =>
         pose proof (Iown t) as Iownt; pose proof (IownC t) as IownCt; pose proof (Iwalk t) as Iwalkt;
         rewrite E in IownCt, Iwalkt; fn_in IownCt; fn_in Iwalkt end.
  all: repeat split; intros.
  all: try solve [ofin2].
  all: try solve [match goal with E0 : blist ?s = _ |- In _ (blist ?s) => rewrite E0; assumption end].
  split_updN_all; [apply Iinlt; apply Iwalkt; left; reflexivity | apply Irev in H; apply H].
Qed.

Section ReachO.
Variables (ns : nat) (nc : N).

Lemma O0_init : O0 (init nc).
Proof. constructor; cbn; intros; try congruence; try discriminate; try contradiction; try reflexivity. Qed.

Lemma O0_start s t o s' es : O0 s -> tshape ns (th s t) (tl s t) -> step ns s (Start t o) = Some (s', es) -> O0 s'.
Proof.
  intros I T H. unfold step, step_gen in H. step_split H.
  all: bool_eqs.
  all: try match goal with E : th _ _ = _ |- _ => rewrite E in T end.
  all: destruct T as [Tneed Tno Tfresh Tcnt Tslot Thi Tc Tp Tl Tx Tke].
  all: fn_in Tneed; fn_in Tno; fn_in Tslot; fn_in Tc; fn_in Tp; fn_in Tl; fn_in Tx; clear Tcnt Tke.
  all: destruct I as [Iown IownC Irev Iinlt Iwalk].
  all: match goal with E : th ?s ?t = _ |- _ =>
         pose proof (Iown t) as Iownt; pose proof (IownC t) as IownCt; pose proof (Iwalk t) as Iwalkt;
         rewrite E in IownCt, Iwalkt; fn_in IownCt; fn_in Iwalkt end.
  all: constructor; prj; intros.
  all: try solve [first [assumption | eauto 2]].
  all: try solve [ofin2].
Qed.

Lemma O0_step s a s' es : T0 ns s -> O0 s -> step ns s a = Some (s', es) -> O0 s'.
Proof.
  intros T I H. destruct a as [t o|t]; [eapply O0_start; eauto|].
  destruct (O0_self _ _ _ _ _ I (T t) H) as (S1 & S2 & S3 & S4 & S5).
  constructor; try assumption.
  - intros u b Hb. destruct (Nat.eq_dec u t) as [->|Hne]; [apply S1; exact Hb|].
    destruct (O0_other _ _ _ _ _ u I H Hne) as (X1 & _). apply X1; exact Hb.
  - intros u b Hb. destruct (Nat.eq_dec u t) as [->|Hne]; [apply S2; exact Hb|].
    destruct (O0_other _ _ _ _ _ u I H Hne) as (_ & X2 & _). apply X2; exact Hb.
  - intros u b Hb. destruct (Nat.eq_dec u t) as [->|Hne]; [apply S3; exact Hb|].
    destruct (O0_other _ _ _ _ _ u I H Hne) as (_ & _ & X3). apply X3; exact Hb.
Qed.

Lemma O0_reach s : reachable ns nc s -> O0 s.
Proof.
  apply (inv_rule_aux _ _ _ _ _ (T0 ns) O0 (T0_reach ns nc) O0_init).
  intros s0 a s1 es J _ I H. eapply O0_step; eauto.
Qed.
End ReachO.
