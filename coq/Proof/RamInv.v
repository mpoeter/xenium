(** Ramalhete queue model (Model/RamDefs.v): the theorems.
    E = entries_per_node (any E >= 1 with step_size * E < 2^32), R = pop_retries (any), any number of
    threads, any program, any schedule.  All statements are about reachable states in which no
    32-bit counter has wrapped ([g_ovf st = false]; the flag is set by the fetch_add that wraps and
    never cleared: a state without the flag has a wrap-free history).

    Vocabulary: a TICKET is (node n, k) with k < E; it uses entry [slot_of E (S * k)] of n, where
    S = C_step_size E is the GENERATED step ([slots_distinct]: different tickets, different entries).
    [all_tickets st]: the tickets of all nodes ever linked, in the GLOBAL TICKET ORDER (node order
    along the chain, ticket order inside a node).  Values are the token blocks (T = Tok pointer). *)
From Coq Require Import NArith List Bool Lia PeanoNat Permutation.
From XV Require Import Base.Word Conc.Lts Conc.Ev gen.RamalheteNodeGen Proof.RamalheteNode Model.RamDefs
  Proof.RamBase Proof.RamTickets Proof.RamCons.
Import ListNotations.
Local Open Scope N_scope.

Lemma NoDup_app_intro {A} (l1 l2 : list A) :
  NoDup l1 -> NoDup l2 -> (forall x, In x l1 -> ~ In x l2) -> NoDup (l1 ++ l2).
Proof.
  induction l1 as [|a l1 IH]; intros H1 H2 Hd; cbn [app]; [exact H2|].
  inversion H1 as [|a' l' Hna Hnd]; subst. constructor.
  - intros Hc. apply in_app_or in Hc. destruct Hc as [Hc|Hc]; [contradiction|]. exact (Hd a (or_introl eq_refl) Hc).
  - apply IH; [exact Hnd|exact H2|]. intros x Hx. apply Hd. right. exact Hx.
Qed.

Lemma NoDup_flat_map {A B} (f : A -> list B) (l : list A) :
  NoDup l -> (forall x, In x l -> NoDup (f x)) ->
  (forall x y b, In x l -> In y l -> In b (f x) -> In b (f y) -> x = y) ->
  NoDup (flat_map f l).
Proof.
  induction l as [|a l IH]; intros Hnd Hf Hd; cbn [flat_map]; [constructor|].
  inversion Hnd as [|a' l' Hna Hnd']; subst.
  apply NoDup_app_intro.
  - apply Hf. left. reflexivity.
  - apply IH; [exact Hnd'|intros x Hx; apply Hf; right; exact Hx|].
    intros x y b Hx Hy. apply Hd; right; assumption.
  - intros b Hb Hc. apply in_flat_map in Hc. destruct Hc as (y & Hy & Hby).
    assert (a = y) by (apply (Hd a y b); [left; reflexivity|right; exact Hy|exact Hb|exact Hby]).
    subst. contradiction.
Qed.

Lemma in_tks n m n' k : In (n', k) (tks n m) <-> n' = n /\ k < m.
Proof.
  unfold tks. rewrite in_map_iff. split.
  - intros (x & Hx & Hin). inversion Hx; subst. apply tickets_In in Hin. split; [reflexivity|lia].
  - intros [-> Hk]. exists k. split; [reflexivity|]. apply tickets_In. lia.
Qed.

Lemma NoDup_tks n m : NoDup (tks n m).
Proof.
  unfold tks. apply NoDup_map_inj_on; [|apply tickets_NoDup]. intros x y _ _ H. inversion H. reflexivity.
Qed.

Lemma tks_prefix n m e : m <= e -> tks n e = tks n m ++ map (pair n) (tickets m e).
Proof. intros H. unfold tks. rewrite (tickets_split 0 m e) by lia. apply map_app. Qed.

Lemma last_in (l : list N) d : l <> [] -> In (last l d) l.
Proof.
  induction l as [|a l IH]; intros H; [congruence|]. destruct l as [|b l]; [left; reflexivity|].
  right. apply IH. discriminate.
Qed.

(** [nreach nx a b]: node b is reached from node a along non-null next pointers *)
Inductive nreach (nx : N -> N) : N -> N -> Prop :=
| nr_here a : nreach nx a a
| nr_next a b : nx a <> 0 -> nreach nx (nx a) b -> nreach nx a b.

Section RamInv.
  Variables E R : N.
  Hypothesis HE : 1 <= E.
  Hypothesis HM : C_step_size E * E < 2 ^ 32.
  Notation S := (SS E).
  Notation tk := (tick_of E).
  Notation pa := (pa E).
  Notation pd := (pd E).
  Notation reachable := (reach init (step E R)).
  Notation all_tickets := (all_tickets E).
  Notation tks := tks.
  Local Notation IA := (InvA_reach E R HE HM).
  Local Notation IB := (InvB_reach E R HE HM).
  Local Notation IC := (InvC_reach E R HE HM).
  Local Notation ID := (InvD_reach E R HE HM).

  (** * The wrap flag
      [g_ovf] changes only when a fetch_add on a 32-bit counter wraps around, and then for good *)
  Theorem ram_ovf_meaning s a s' es : step E R s a = Some (s', es) ->
    g_ovf s' = g_ovf s \/
    (g_ovf s = false /\ g_ovf s' = true /\ exists t n,
       a = Step t /\ ((exists b, th s t = P2 b n /\ 2 ^ 32 <= pushi s n + S) \/ (th s t = D5 n /\ 2 ^ 32 <= popi s n + S))).
  Proof using HE HM.
    intros H. destruct (step_inv E R s a s' es H) as (t & u & p' & Hs & -> & Ha). prj.
    remember (th s t) as p eqn:Hpc. tcases Hs; try (left; reflexivity).
    all: destruct Ha as [[-> _]|(o & _ & Hi)]; [|congruence]; prj; unfold faa_ovf, faa.
    all: match goal with |- context [wadd 32 ?x _] =>
      destruct (N.lt_ge_cases (x + S) (2 ^ 32)) as [Hlt|Hge];
      [ left; rewrite (wadd_small 32 x S Hlt), N.eqb_refl; destruct (g_ovf s); reflexivity
      | destruct (g_ovf s) eqn:Eo; [left; reflexivity|];
        right; split; [reflexivity|]; split;
        [ cbn [orb]; apply negb_true_iff; apply N.eqb_neq; pose proof (wadd_lt 32 x S); lia
        | exists t; eexists; split; [reflexivity|]; rewrite <- Hpc; eauto ] ]
    end.
  Qed.

  (** * Structure *)

  (** the node chain: every node ever linked, from the initial one to the last; the retired nodes are
      a prefix, head follows them, tail is the last or the second-last node; counters are multiples
      of the step; a node with a successor has handed out more than E push tickets, a retired node
      more than E pop tickets, a node behind head none. *)
  Theorem ram_chain st : reachable st -> g_ovf st = false ->
    MsqInv.lpath (nnext st) (g_nodes st) /\ NoDup (g_nodes st) /\
    (forall n, In n (g_nodes st) -> n <> 0 /\ n < nalloc st) /\
    (exists rest, g_nodes st = g_retired st ++ head st :: rest /\ forall n, In n rest -> popi st n = 0) /\
    (exists l0, g_nodes st = l0 ++ [tail st] \/ exists x, g_nodes st = l0 ++ [tail st; x]) /\
    nnext st (last (g_nodes st) 0) = 0 /\
    (forall n, In n (g_nodes st) -> pushi st n = S * pa st n /\ popi st n = S * pd st n) /\
    (forall n, In n (g_nodes st) -> nnext st n <> 0 -> E + 1 <= pa st n) /\
    (forall n, In n (g_retired st) -> E + 1 <= pd st n).
  Proof using HE HM.
    intros Hr Ho. destruct (IA st Hr Ho) as [Hpath Hnd Hlt Hhead Htail Hal Hfull Hret Hthr Hpriv].
    repeat split; try assumption.
    - eapply MsqInv.lpath_nz; eauto.
    - apply Hlt. assumption.
    - apply MsqInv.lpath_last_null. exact Hpath.
    - apply (Hal n H).
    - apply (Hal n H).
  Qed.

  (** * Monotonicity (step level) *)

  (** for every node that is already linked: the ticket counters only grow, a non-null next pointer is
      final, the node stays in the chain; the chain only grows at the end, head and the retired list
      only advance *)
  Theorem ram_step_monotone st a st' es : reachable st -> step E R st a = Some (st', es) -> g_ovf st' = false ->
    (exists more, g_nodes st' = g_nodes st ++ more) /\
    (exists more, g_retired st' = g_retired st ++ more) /\
    (forall n, In n (g_nodes st) ->
       popi st n <= popi st' n /\ pushi st n <= pushi st' n /\ (nnext st n <> 0 -> nnext st' n = nnext st n)).
  Proof using HE HM.
    intros Hr H Hov. pose proof (ovf_sticky _ _ _ _ _ _ H Hov) as Hov0. pose proof (IA st Hr Hov0) as HA.
    destruct (step_inv E R st a st' es H) as (t & u & p' & Hs & -> & _).
    destruct (tstep_ext E R HE HM st _ u p' HA (a_thr _ _ HA t) Hs Hov) as [Hn Hrt Hc _ _ _].
    split; [exact Hn|]. split; [exact Hrt|]. intros n Hi. destruct (Hc n Hi) as (B1 & B2 & _ & B4).
    apply (bump_le E HE HM) in B1, B2. auto.
  Qed.

  (** * Tickets *)

  (** a ticket belongs to at most one pusher and to at most one popper; the holder's ticket is below E
      and below the counter it was taken from *)
  Theorem ram_ticket_owners st : reachable st -> g_ovf st = false ->
    (forall t1 t2 b1 b2 n idx, th st t1 = P8 b1 n idx -> th st t2 = P8 b2 n idx -> t1 = t2) /\
    (forall t1 t2 n idx, dtk2 (th st t1) = Some (n, idx) -> dtk2 (th st t2) = Some (n, idx) -> t1 = t2) /\
    (forall t b n idx, th st t = P8 b n idx -> In n (g_nodes st) /\ idx = S * tk idx /\ tk idx < E /\ tk idx < pa st n) /\
    (forall t n idx, dtk2 (th st t) = Some (n, idx) -> In n (g_nodes st) /\ idx = S * tk idx /\ tk idx < E /\ tk idx < pd st n).
  Proof using HE HM.
    intros Hr Ho. pose proof (IA st Hr Ho) as HA. pose proof (IB st Hr Ho) as HB.
    split; [|split; [|split]].
    - intros t1 t2 b1 b2 n idx H1 H2. apply (b_up _ _ HB t1 t2 (n, idx)); [rewrite H1|rewrite H2]; reflexivity.
    - intros t1 t2 n idx. apply (b_ud _ _ HB).
    - intros t b n idx H. pose proof (a_thr _ _ HA t) as Ha. pose proof (b_thr _ _ HB t) as Hb. rewrite H in Ha, Hb.
      cbn [TA TB] in Ha, Hb. tauto.
    - intros t n idx H. pose proof (a_thr _ _ HA t) as Ha. pose proof (b_thr _ _ HB t) as Hb.
      destruct (th st t); cbn [dtk2] in H; try discriminate H; inversion H; subst; cbn [TA TB] in Ha, Hb.
      + tauto.
      + destruct Hb as (H1 & H2 & H3). pose proof (b_tk _ _ HB n _ Ha H2) as Hk. unfold RamTickets.TK in Hk. rewrite H3 in Hk. tauto.
      + tauto.
  Qed.

  (** the entry of a ticket and its fate: FNone - null (and a claimed ticket has its claimant at work);
      FFilled b - holds b; FPoisoned - taken; FConsumed b - b or taken *)
  Theorem ram_ticket_state st n k : reachable st -> g_ovf st = false -> In n (g_nodes st) -> k < E ->
    match g_fate st n k with
    | FNone => ent st n (slot_of E (S * k)) = CNull /\ (k < pa st n -> powner E st n k) /\ (k < pd st n -> downer E st n k)
    | FFilled b => ent st n (slot_of E (S * k)) = CVal b /\ k < pa st n /\ (k < pd st n -> downer E st n k)
    | FPoisoned => ent st n (slot_of E (S * k)) = CTaken /\ k < pd st n
    | FConsumed b => (ent st n (slot_of E (S * k)) = CVal b \/ ent st n (slot_of E (S * k)) = CTaken) /\ k < pa st n /\ k < pd st n
    end.
  Proof using HE HM. intros Hr Ho Hn Hk. exact (b_tk _ _ (IB st Hr Ho) n k Hn Hk). Qed.

  (** an entry of a linked node goes null -> value -> taken or null -> taken, never back *)
  Theorem ram_entry_lifecycle st a st' es : reachable st -> step E R st a = Some (st', es) -> g_ovf st' = false ->
    forall n i, In n (g_nodes st) ->
      ent st' n i = ent st n i \/
      (ent st n i = CNull /\ exists b, ent st' n i = CVal b) \/
      (ent st n i = CNull /\ ent st' n i = CTaken) \/
      (exists b, ent st n i = CVal b /\ ent st' n i = CTaken).
  Proof using HE HM.
    intros Hr H Hov. pose proof (ovf_sticky _ _ _ _ _ _ H Hov) as Hov0. pose proof (IA st Hr Hov0) as HA.
    destruct (step_inv E R st a st' es H) as (t & u & p' & Hs & -> & _). pose proof (a_thr _ _ HA t) as Hta.
    intros n0 i0 Hn0. remember (th st t) as p eqn:Hpc. tcases Hs; prj; try (left; reflexivity); cbn [TA] in Hta.
    all: unfold setf2, setf; repeat match goal with |- context [?y =? ?x] => destruct (N.eqb_spec y x); subst end; try (left; reflexivity).
    - (* the constructor writes an unlinked node *) exfalso. apply Hta. assumption.
    - left. symmetry. assumption.
    - right; left. eauto.
    - right; right; left. auto.
    - right; right; right. eauto.
  Qed.

  (** the fate of a ticket goes none -> filled b -> consumed b or none -> poisoned, never back *)
  Theorem ram_fate_lifecycle st a st' es : reachable st -> step E R st a = Some (st', es) -> g_ovf st' = false ->
    forall n k, In n (g_nodes st) -> k < E ->
      g_fate st' n k = g_fate st n k \/
      (g_fate st n k = FNone /\ exists b, g_fate st' n k = FFilled b) \/
      (g_fate st n k = FNone /\ g_fate st' n k = FPoisoned) \/
      (exists b, g_fate st n k = FFilled b /\ g_fate st' n k = FConsumed b).
  Proof using HE HM.
    intros Hr H Hov. pose proof (ovf_sticky _ _ _ _ _ _ H Hov) as Hov0. pose proof (IA st Hr Hov0) as HA. pose proof (IB st Hr Hov0) as HB.
    destruct (step_inv E R st a st' es H) as (t & u & p' & Hs & -> & _). pose proof (a_thr _ _ HA t) as Hta. pose proof (b_thr _ _ HB t) as Ht.
    intros n0 k0 Hn0 Hk0. pose proof (a_lt _ _ HA n0 Hn0) as Hl0.
    remember (th st t) as p eqn:Hpc. tcases Hs; prj; try (left; reflexivity); cbn [TA TB] in Hta, Ht.
    1: destruct (N.eqb_spec n0 (nalloc st)); [lia|left; reflexivity].
    all: unfold setf2, setf; repeat match goal with |- context [?y =? ?x] => destruct (N.eqb_spec y x); subst end; try (left; reflexivity).
    3-5: destruct Ht as (Hal & HkE & _ & Hfa); pose proof (popper_entry E HE HM st h idx (b_tk _ _ HB h _ Hta HkE) Hal Hfa) as Hx; rewrite H0 in Hx.
    - (* the linked node was not linked before *) exfalso. apply Hta. assumption.
    - right; left. destruct Ht as (Hal & HkE & _). split; [|eauto].
      apply (ent_null_fate E HE HM); [apply (b_tk _ _ HB); assumption|rewrite <- Hal; assumption].
    - right; right; right. exists b. tauto.
    - right; right; left. auto.
    - right; right; right. exists b. tauto.
  Qed.

  (** * Conservation (C04 / C07) *)

  (** the values under a ticket, by fate *)
  Definition fl (st : state) (x : N * N) : list N := match g_fate st (fst x) (snd x) with FFilled b => [b] | _ => [] end.
  Definition cv (st : state) (x : N * N) : list N := match g_fate st (fst x) (snd x) with FConsumed b => [b] | _ => [] end.
  Definition fv (st : state) (x : N * N) : list N := match g_fate st (fst x) (snd x) with FFilled b | FConsumed b => [b] | _ => [] end.
  (** in the global ticket order: the values in the queue (filled, not consumed), the consumed values,
      all values that were stored *)
  Definition contents (st : state) : list N := flat_map (fl st) (all_tickets st).
  Definition consumed_seq (st : state) : list N := flat_map (cv st) (all_tickets st).
  Definition pushed_seq (st : state) : list N := flat_map (fv st) (all_tickets st).

  Lemma in_flat_tks (m : N -> N) l n k : In (n, k) (flat_map (fun n => tks n (m n)) l) <-> In n l /\ k < m n.
  Proof using.
    rewrite in_flat_map. split.
    - intros (n' & Hm & Hin). apply in_tks in Hin. destruct Hin as [-> Hk]. auto.
    - intros [Hn Hk]. exists n. split; [exact Hn|]. apply in_tks. auto.
  Qed.

  Lemma in_all_tickets st n k : In (n, k) (all_tickets st) <-> In n (g_nodes st) /\ k < E.
  Proof using. apply in_flat_tks. Qed.

  Lemma NoDup_all_tickets st : NoDup (g_nodes st) -> NoDup (all_tickets st).
  Proof using.
    intros Hnd. apply NoDup_flat_map; [exact Hnd|intros; apply NoDup_tks|].
    intros x y [n k] _ _ H1 H2. apply in_tks in H1, H2. destruct H1 as [-> _]. destruct H2 as [-> _]. reflexivity.
  Qed.

  (** [fl], [cv], [fv] select the value of a ticket by its fate: [sel f] lists the [b] with [P f b], at most
      one, and it is the value stored under the ticket *)
  Definition selects (sel : fate -> list N) (P : fate -> N -> Prop) : Prop :=
    forall f, (forall b, In b (sel f) <-> P f b) /\ NoDup (sel f) /\ forall b, P f b -> fval f = Some b.

  (* the four fates, and for each the three parts of [selects] *)
  Ltac selects_by_cases :=
    intros [|b'| |b']; cbn;
    (split; [intros b; split; intros H; [repeat destruct H as [H|H]; try destruct H; reflexivity|try discriminate H; injection H as <-; left; reflexivity]
            |split; [repeat constructor; intros []|intros b H; congruence]]).

  Lemma sel_fl : selects (fun f => match f with FFilled b => [b] | _ => [] end) (fun f b => f = FFilled b).
  Proof using. selects_by_cases. Qed.
  Lemma sel_cv : selects (fun f => match f with FConsumed b => [b] | _ => [] end) (fun f b => f = FConsumed b).
  Proof using. selects_by_cases. Qed.
  Lemma sel_fv : selects (fun f => match f with FFilled b | FConsumed b => [b] | _ => [] end) (fun f b => fval f = Some b).
  Proof using. selects_by_cases. Qed.

  Lemma in_sel sel P st b : selects sel P ->
    In b (flat_map (fun x => sel (g_fate st (fst x) (snd x))) (all_tickets st)) <->
    exists n k, In n (g_nodes st) /\ k < E /\ P (g_fate st n k) b.
  Proof using.
    intros Hs. rewrite in_flat_map. split.
    - intros ([n k] & Hx & Hb). apply in_all_tickets in Hx. exists n, k. apply (Hs _) in Hb. tauto.
    - intros (n & k & Hn & Hk & Hf). exists (n, k). split; [apply in_all_tickets; auto|]. apply (Hs _). exact Hf.
  Qed.

  (** different tickets hold different values: so does every selection *)
  Lemma NoDup_sel sel P st : selects sel P -> NoDup (g_nodes st) ->
    (forall n k n' k' b, In n (g_nodes st) -> k < E -> In n' (g_nodes st) -> k' < E ->
       fval (g_fate st n k) = Some b -> fval (g_fate st n' k') = Some b -> n = n' /\ k = k') ->
    NoDup (flat_map (fun x => sel (g_fate st (fst x) (snd x))) (all_tickets st)).
  Proof using.
    intros Hs Hnd Hinj. apply NoDup_flat_map; [apply NoDup_all_tickets; exact Hnd| |].
    - intros x _. apply Hs.
    - intros [n k] [n' k'] b Hx Hy H1 H2. apply in_all_tickets in Hx, Hy. apply (Hs _), (Hs _) in H1, H2.
      destruct (Hinj n k n' k' b) as [-> ->]; tauto.
  Qed.

  (** MAIN CONSERVATION RESULT: nothing is popped twice, nothing is popped that was not pushed, and the
      pushed values are exactly the popped values together with the values still stored under a
      filled ticket - in every reachable state, not only at quiescence *)
  Theorem ram_conservation st : reachable st -> g_ovf st = false ->
    NoDup (g_pushed st) /\ NoDup (g_popped st) /\ incl (g_popped st) (g_pushed st) /\
    NoDup (contents st) /\ (forall b, In b (g_popped st) -> ~ In b (contents st)) /\
    Permutation (g_pushed st) (g_popped st ++ contents st).
  Proof using HE HM.
    intros Hr Ho. pose proof (IA st Hr Ho) as HA. destruct (IC st Hr Ho) as [Hnd Hlt Hhold Hhu (Hf1 & Hf2 & Hinj) Hcp Hpnd].
    assert (Hincl : incl (g_popped st) (g_pushed st)).
    { intros b Hb. apply (Hcp b) in Hb. destruct Hb as (n & k & Hn & Hk & Hf). apply (Hf1 n k b Hn Hk). rewrite Hf. reflexivity. }
    assert (Hndc : NoDup (contents st)) by exact (NoDup_sel _ _ st sel_fl (a_nodup _ _ HA) Hinj).
    assert (Hdis : forall b, In b (g_popped st) -> ~ In b (contents st)).
    { intros b Hb Hc. apply (Hcp b) in Hb. apply (in_sel _ _ st b sel_fl) in Hc. destruct Hb as (n & k & Hn & Hk & Hf). destruct Hc as (n' & k' & Hn' & Hk' & Hf').
      destruct (Hinj n k n' k' b Hn Hk Hn' Hk') as [-> ->]; [rewrite Hf; reflexivity|rewrite Hf'; reflexivity|]. congruence. }
    repeat split; try assumption.
    apply NoDup_Permutation; [exact Hnd|apply NoDup_app_intro; assumption|].
    intros b. rewrite in_app_iff. split.
    - intros Hb. destruct (Hf2 b Hb) as (n & k & Hn & Hk & Hf). destruct (g_fate st n k) as [|b'| |b'] eqn:Ef; cbn [fval] in Hf; try discriminate Hf; inversion Hf; subst.
      + right. apply (in_sel _ _ st b sel_fl). exists n, k. auto.
      + left. apply (Hcp b). exists n, k. auto.
    - intros [Hb|Hb]; [apply Hincl; exact Hb|]. apply (in_sel _ _ st b sel_fl) in Hb. destruct Hb as (n & k & Hn & Hk & Hf).
      apply (Hf1 n k b Hn Hk). rewrite Hf. reflexivity.
  Qed.

  (** * Order (FIFO) *)

  (** a ticket has been handed to a pusher / a popper iff it is below the node's push / pop counter *)
  Theorem ram_claimed st n k : reachable st -> g_ovf st = false -> In n (g_nodes st) -> k < E ->
    (In (n, k) (g_ptk st) <-> k < pa st n) /\ (In (n, k) (g_dtk st) <-> k < pd st n).
  Proof using HE HM.
    intros Hr Ho Hn Hk. destruct (ID st Hr Ho) as [-> ->]. unfold ptks, dtks. rewrite !in_flat_tks. split; split; intros H; try (split; [exact Hn|]); lia.
  Qed.

  (** TICKETS ARE HANDED OUT IN THE GLOBAL TICKET ORDER WITHOUT GAPS, to pushers and to poppers alike:
      the lists of handed-out tickets (in the order of the fetch_adds) are prefixes of [all_tickets] *)
  Theorem ram_ticket_order st : reachable st -> g_ovf st = false ->
    (exists r, all_tickets st = g_ptk st ++ r) /\ (exists r, all_tickets st = g_dtk st ++ r).
  Proof using HE HM.
    intros Hr Ho. pose proof (IA st Hr Ho) as HA. destruct (ID st Hr Ho) as [-> ->]. split.
    - (* pushers: all nodes but the last are full *)
      destruct (MsqInv.lpath_last _ _ (a_path _ _ HA) (last (g_nodes st) 0)) as [l0 El].
      + apply last_in. destruct (nodes_nonempty E HE HM st (a_path _ _ HA)) as [x Hx]. intros Hc. rewrite Hc in Hx. destruct Hx.
      + apply MsqInv.lpath_last_null. exact (a_path _ _ HA).
      + set (z := last (g_nodes st) 0) in *.
        exists (map (pair z) (tickets (N.min (pa st z) E) E)).
        unfold RamCons.all_tickets, ptks. rewrite El, !flat_map_app. cbn [flat_map]. rewrite !app_nil_r, <- app_assoc. f_equal.
        * apply flat_map_ext_in. intros n Hn. f_equal.
          assert (Hnz : nnext st n <> 0).
          { pose proof (a_path _ _ HA) as Hp. rewrite El in Hp. apply (MsqInv.lpath_prefix_link _ _ _ Hp); [discriminate|exact Hn]. }
          assert (Hin : In n (g_nodes st)) by (rewrite El; apply in_or_app; left; exact Hn).
          pose proof (a_full _ _ HA n Hin Hnz). lia.
        * apply tks_prefix. lia.
    - (* poppers: retired nodes are drained, nodes behind head untouched *)
      destruct (a_head _ _ HA) as (rest & He & Hrest).
      exists (map (pair (head st)) (tickets (N.min (pd st (head st)) E) E) ++ flat_map (fun n => tks n E) rest).
      unfold RamCons.all_tickets, dtks. rewrite He, !flat_map_app. cbn [flat_map].
      rewrite (flat_map_nil (fun n => tks n (N.min (pd st n) E)) rest).
      + rewrite app_nil_r, <- !app_assoc. f_equal.
        * apply flat_map_ext_in. intros n Hn. f_equal. pose proof (a_ret _ _ HA n Hn). lia.
        * rewrite app_assoc. f_equal. apply tks_prefix. lia.
      + intros n Hn. unfold RamBase.pd. rewrite (Hrest n Hn), (tick_0 E HE HM). rewrite N.min_l by lia. reflexivity.
  Qed.

  (** a step hands out at most one push ticket and at most one pop ticket, to the stepping thread, and
      appends it to the list: by [ram_ticket_order] (in the new state) it is the first ticket of the
      global order that had not been handed out.  Hence a ticket obtained later is later in the global
      order: operations that do not overlap are ordered by their tickets as in real time. *)
  Theorem ram_issue_step s a s' es : step E R s a = Some (s', es) ->
    (g_ptk s' = g_ptk s \/
     exists t x, a = Step t /\ g_ptk s' = g_ptk s ++ [x] /\
       ((exists b idx, th s' t = P8 b (fst x) idx /\ snd x = tk idx) \/ (exists tl, th s' t = P7 tl (fst x) /\ snd x = 0))) /\
    (g_dtk s' = g_dtk s \/
     exists t x, a = Step t /\ g_dtk s' = g_dtk s ++ [x] /\ exists idx, th s' t = D9 (fst x) idx 0 /\ snd x = tk idx).
  Proof using.
    intros H. destruct (step_inv E R s a s' es H) as (t & u & p' & Hs & -> & Ha). prj.
    remember (th s t) as p eqn:Hpc. tcases Hs; prj; split; try (left; reflexivity).
    all: destruct Ha as [[-> _]|(o & _ & Hi)]; [|congruence]; right; eexists t, (_, _); (split; [reflexivity|]); (split; [reflexivity|]);
      rewrite upd_same; cbn [fst snd]; eauto.
  Qed.

  (** FIFO, general form.  The tickets claimed by poppers are a prefix [g_dtk st] of the global ticket
      order; behind the prefix nothing has left the queue (every ticket is untouched or filled); inside
      the prefix every ticket is poisoned, consumed, or its popper is still at work on it (and will
      return its value if it is or becomes filled before the exchange).  Together with
      [ram_ticket_order] for the pushers: the i-th value handed over in ticket order is the i-th value
      taken out in ticket order, poisoned tickets are skipped by both sides. *)
  Theorem ram_fifo st : reachable st -> g_ovf st = false ->
    exists r, all_tickets st = g_dtk st ++ r /\
      (forall n k, In (n, k) r -> g_fate st n k = FNone \/ exists b, g_fate st n k = FFilled b) /\
      (forall n k, In (n, k) (g_dtk st) ->
         g_fate st n k = FPoisoned \/ (exists b, g_fate st n k = FConsumed b) \/ downer E st n k).
  Proof using HE HM.
    intros Hr Ho. pose proof (IA st Hr Ho) as HA. pose proof (IB st Hr Ho) as HB.
    destruct (ram_ticket_order st Hr Ho) as [_ [r Er]]. exists r. split; [exact Er|].
    pose proof (NoDup_all_tickets st (a_nodup _ _ HA)) as Hnd. rewrite Er in Hnd.
    split.
    - intros n k Hin. assert (Hall : In (n, k) (all_tickets st)) by (rewrite Er; apply in_or_app; right; exact Hin).
      apply in_all_tickets in Hall. destruct Hall as [Hn Hk].
      assert (Hnc : ~ k < pd st n).
      { intros Hc. apply (ram_claimed st n k Hr Ho Hn Hk) in Hc. exact (NoDup_app_notin _ _ _ _ Hnd Hc Hin). }
      pose proof (b_tk _ _ HB n k Hn Hk) as Ht. unfold RamTickets.TK in Ht.
      destruct (g_fate st n k) as [|b| |b]; [left; reflexivity|right; eexists; reflexivity| |]; exfalso; apply Hnc; tauto.
    - intros n k Hin. assert (Hall : In (n, k) (all_tickets st)) by (rewrite Er; apply in_or_app; left; exact Hin).
      apply in_all_tickets in Hall. destruct Hall as [Hn Hk].
      apply (ram_claimed st n k Hr Ho Hn Hk) in Hin.
      pose proof (b_tk _ _ HB n k Hn Hk) as Ht. unfold RamTickets.TK in Ht.
      destruct (g_fate st n k) as [|b| |b]; [right; right; tauto|right; right; tauto|left; reflexivity|right; left; eexists; reflexivity].
  Qed.

  (** the two ghost lists are the stored / consumed values of the tickets, up to the order: the order
      in which the CASes and exchanges happen is NOT the ticket order (see [ram_cas_order_refuted]) *)
  Theorem ram_seq_perm st : reachable st -> g_ovf st = false ->
    Permutation (g_pushed st) (pushed_seq st) /\ Permutation (g_popped st) (consumed_seq st).
  Proof using HE HM.
    intros Hr Ho. pose proof (IA st Hr Ho) as HA. destruct (IC st Hr Ho) as [Hnd Hlt Hhold Hhu (Hf1 & Hf2 & Hinj) Hcp Hpnd].
    split.
    - apply NoDup_Permutation; [exact Hnd| |].
      + exact (NoDup_sel _ _ st sel_fv (a_nodup _ _ HA) Hinj).
      + intros b. split; [intros Hb; apply (in_sel _ _ st b sel_fv); apply Hf2; exact Hb|].
        intros Hb. apply (in_sel _ _ st b sel_fv) in Hb. destruct Hb as (n & k & Hn & Hk & Hf). eapply Hf1; eauto.
    - apply NoDup_Permutation; [exact Hpnd| |].
      + exact (NoDup_sel _ _ st sel_cv (a_nodup _ _ HA) Hinj).
      + intros b. rewrite (Hcp b). symmetry. apply (in_sel _ _ st b sel_cv).
  Qed.

  (** * Quiescence *)
  Definition quiescent (st : state) : Prop := forall t, th st t = Idle.

  Lemma quiescent_no_owner st n k : quiescent st -> ~ powner E st n k /\ ~ downer E st n k.
  Proof using.
    intros Hq. split; intros [t Ht]; unfold pown, down in Ht; rewrite (Hq t) in Ht; discriminate Ht.
  Qed.

  (** at quiescence the fate of a ticket is determined by the two counters of its node *)
  Theorem ram_quiescent_tickets st n k : reachable st -> g_ovf st = false -> quiescent st ->
    In n (g_nodes st) -> k < E ->
    (k < pd st n -> g_fate st n k = FPoisoned \/ exists b, g_fate st n k = FConsumed b) /\
    (pd st n <= k -> k < pa st n -> exists b, g_fate st n k = FFilled b /\ ent st n (slot_of E (S * k)) = CVal b) /\
    (pd st n <= k -> pa st n <= k -> g_fate st n k = FNone /\ ent st n (slot_of E (S * k)) = CNull).
  Proof using HE HM.
    intros Hr Ho Hq Hn Hk. pose proof (b_tk _ _ (IB st Hr Ho) n k Hn Hk) as Ht. unfold RamTickets.TK in Ht.
    destruct (quiescent_no_owner st n k Hq) as [Hnp Hnd].
    destruct (g_fate st n k) as [|b| |b].
    - destruct Ht as (H1 & H2 & H3). split; [intros Hc; exfalso; tauto|]. split; [intros _ Hc; exfalso; tauto|]. intros _ _. split; [reflexivity|exact H1].
    - destruct Ht as (H1 & H2 & H3). split; [intros Hc; exfalso; tauto|]. split; [intros _ _; exists b; split; [reflexivity|exact H1]|]. intros _ Hc. lia.
    - destruct Ht as (H1 & H2). split; [intros _; left; reflexivity|]. split; intros Hc; lia.
    - destruct Ht as (H1 & H2 & H3). split; [intros _; right; exists b; reflexivity|]. split; intros Hc; lia.
  Qed.

  (** FIFO AT QUIESCENCE: in the global ticket order, the stored values are the consumed values followed
      by the values still in the queue *)
  Theorem ram_fifo_quiescent st : reachable st -> g_ovf st = false -> quiescent st ->
    pushed_seq st = consumed_seq st ++ contents st /\
    Permutation (g_pushed st) (pushed_seq st) /\ Permutation (g_popped st) (consumed_seq st).
  Proof using HE HM.
    intros Hr Ho Hq. split; [|apply ram_seq_perm; assumption].
    destruct (ram_fifo st Hr Ho) as (r & Er & Hrest & Hcl).
    unfold pushed_seq, consumed_seq, contents. rewrite Er, !flat_map_app.
    assert (H1 : flat_map (fv st) (g_dtk st) = flat_map (cv st) (g_dtk st)).
    { apply flat_map_ext_in. intros [n k] Hx. unfold fv, cv. cbn [fst snd].
      destruct (Hcl n k Hx) as [Hf|[[b Hf]|Hd]]; try (rewrite Hf; reflexivity). exfalso. exact (proj2 (quiescent_no_owner st n k Hq) Hd). }
    assert (H2 : flat_map (fl st) (g_dtk st) = []).
    { apply flat_map_nil. intros [n k] Hx. unfold fl. cbn [fst snd].
      destruct (Hcl n k Hx) as [Hf|[[b Hf]|Hd]]; try (rewrite Hf; reflexivity). exfalso. exact (proj2 (quiescent_no_owner st n k Hq) Hd). }
    assert (H3 : flat_map (fv st) r = flat_map (fl st) r).
    { apply flat_map_ext_in. intros [n k] Hx. unfold fv, fl. cbn [fst snd]. destruct (Hrest n k Hx) as [Hf|[b Hf]]; rewrite Hf; reflexivity. }
    assert (H4 : flat_map (cv st) r = []).
    { apply flat_map_nil. intros [n k] Hx. unfold cv. cbn [fst snd]. destruct (Hrest n k Hx) as [Hf|[b Hf]]; rewrite Hf; reflexivity. }
    rewrite H1, H2, H3, H4, app_nil_r. reflexivity.
  Qed.

  (** C07 at destruction: the GENERATED node destructor run on a node of a quiescent state deletes
      exactly the tickets [pop_idx/S, min(push_idx/S, E)) - each once ([node_dtor_spec_gen]) - and
      these are exactly the filled tickets of the node, whose entries hold the values; a retired
      node (deleted by the reclaimer) deletes nothing *)
  Theorem ram_quiescent_dtor st n : reachable st -> g_ovf st = false -> quiescent st -> In n (g_nodes st) ->
    (forall fuel mem, (N.to_nat E < fuel)%nat ->
       node_dtor E fuel (popi st n) (pushi st n) mem
       = Some (fold_left (del_step E) (tickets (pd st n) (N.min (pa st n) E)) mem)) /\
    (forall k, k < E -> (pd st n <= k < N.min (pa st n) E <-> exists b, g_fate st n k = FFilled b)) /\
    (forall k b, k < E -> g_fate st n k = FFilled b -> ent st n (slot_of E (S * k)) = CVal b) /\
    (In n (g_retired st) -> tickets (pd st n) (N.min (pa st n) E) = []).
  Proof using HE HM.
    intros Hr Ho Hq Hn. pose proof (IA st Hr Ho) as HA. destruct (a_al _ _ HA n Hn) as [A1 A2].
    split; [|split; [|split]].
    - intros fuel mem Hf. unfold aligned in A1, A2. rewrite A1 at 1. rewrite A2 at 1. apply node_dtor_spec_gen; [exact HM|exact Hf].
    - intros k Hk. destruct (ram_quiescent_tickets st n k Hr Ho Hq Hn Hk) as (Q1 & Q2 & Q3). split.
      + intros Hrange. destruct (Q2 ltac:(lia) ltac:(lia)) as (b & Hb & _). exists b. exact Hb.
      + intros [b Hb]. destruct (N.lt_ge_cases k (pd st n)) as [Hc|Hc].
        * destruct (Q1 Hc) as [Hx|[b' Hx]]; congruence.
        * destruct (N.lt_ge_cases k (pa st n)) as [Hc'|Hc']; [lia|]. destruct (Q3 Hc Hc') as [Hx _]. congruence.
    - intros k b Hk Hb. pose proof (b_tk _ _ (IB st Hr Ho) n k Hn Hk) as Ht. unfold RamTickets.TK in Ht. rewrite Hb in Ht. tauto.
    - intros Hret. apply tickets_nil. pose proof (a_ret _ _ HA n Hret). lia.
  Qed.

  (** * Emptiness *)

  Definition by_other (t : nat) (a : action) : Prop :=
    match a with Start t' _ => t' <> t | Step t' => t' <> t end.

  Inductive run_others (t : nat) : state -> state -> Prop :=
  | ro_refl s : run_others t s s
  | ro_step s a s1 es s2 : by_other t a -> step E R s a = Some (s1, es) -> run_others t s1 s2 -> run_others t s s2.

  Lemma step_th_other t s a s' es : by_other t a -> step E R s a = Some (s', es) -> th s' t = th s t.
  Proof using.
    intros Hb H. destruct (step_inv E R s a s' es H) as (t' & u & p' & _ & -> & Ha). prj. apply upd_other.
    destruct Ha as [[-> _]|(o & -> & _)]; exact (not_eq_sym Hb).
  Qed.

  Lemma run_others_th t s0 s1 : run_others t s0 s1 -> th s1 t = th s0 t.
  Proof using.
    induction 1 as [|s a s1 es s2 Hb Hst Hr IH]; [reflexivity|]. rewrite IH. eapply step_th_other; eauto.
  Qed.

  Lemma run_others_from t s0 s1 : run_others t s0 s1 -> reach_from (step E R) s0 s1.
  Proof using.
    induction 1 as [|s a s1 es s2 Hb Hst Hr IH]; [apply rf_refl|].
    clear Hr. induction IH as [|x b y es' Hf IH' Hst']; [eapply rf_step; [apply rf_refl|exact Hst]|eapply rf_step; eauto].
  Qed.

  Lemma ovf_back s0 s1 : reach_from (step E R) s0 s1 -> g_ovf s1 = false -> g_ovf s0 = false.
  Proof using.
    induction 1 as [|s a s' es Hf IH Hst]; intros Ho; [exact Ho|]. apply IH. eapply ovf_sticky; eauto.
  Qed.

  (** along any execution: a linked node stays linked, its counters grow, a null next pointer was null before *)
  Lemma run_monotone s0 s1 h : reachable s0 -> reach_from (step E R) s0 s1 -> g_ovf s1 = false -> In h (g_nodes s0) ->
    In h (g_nodes s1) /\ popi s0 h <= popi s1 h /\ pushi s0 h <= pushi s1 h /\ (nnext s1 h = 0 -> nnext s0 h = 0).
  Proof using HE HM.
    intros Hr Hf. induction Hf as [|s a s' es Hf IH Hst]; intros Ho Hin.
    - repeat split; try apply N.le_refl; auto.
    - pose proof (ovf_sticky _ _ _ _ _ _ Hst Ho) as Ho0. destruct (IH Ho0 Hin) as (I1 & I2 & I3 & I4).
      pose proof (reach_from_reach _ _ _ _ _ _ _ Hr Hf) as Hrs.
      destruct (ram_step_monotone s a s' es Hrs Hst Ho) as ((more & Em) & _ & Hm). destruct (Hm h I1) as (M1 & M2 & M3).
      split; [rewrite Em; apply in_or_app; left; exact I1|]. split; [lia|]. split; [lia|].
      intros Hz. apply I4. destruct (N.eq_dec (nnext s h) 0) as [e|e]; [exact e|]. rewrite (M3 e) in Hz. contradiction.
  Qed.

  (** if the node loaded from head has no successor it is the head, the last node, and the retired
      nodes are all the others *)
  Lemma old_last_is_head st h : InvA E st -> in_old st h -> nnext st h = 0 ->
    head st = h /\ g_nodes st = g_retired st ++ [h].
  Proof using HE HM.
    intros HA Hold Hz. destruct (a_head _ _ HA) as (rest & He & _). pose proof (a_path _ _ HA) as Hp. rewrite He in Hp.
    unfold in_old in Hold. apply in_app_or in Hold. destruct Hold as [Hc|[Hc|[]]].
    - exfalso. apply (MsqInv.lpath_prefix_link _ _ _ Hp ltac:(discriminate) h Hc). exact Hz.
    - subst h. split; [reflexivity|]. apply MsqInv.lpath_suffix in Hp; [|discriminate].
      rewrite (MsqInv.lpath_hd_null _ _ _ Hp Hz) in He. exact He.
  Qed.

  (** no filled ticket is unclaimed: every value that was handed over is consumed or has its popper at work *)
  Definition all_filled_claimed (st : state) : Prop :=
    forall n k b, In n (g_nodes st) -> k < E -> g_fate st n k = FFilled b -> In (n, k) (g_dtk st).

  Lemma drained_claimed st h : reachable st -> g_ovf st = false -> in_old st h -> nnext st h = 0 -> pa st h <= pd st h \/ E <= pd st h ->
    all_filled_claimed st.
  Proof using HE HM.
    intros Hr Ho Hold Hz Hcnt. pose proof (IA st Hr Ho) as HA. destruct (old_last_is_head st h HA Hold Hz) as [Hh He].
    intros n k b Hn Hk Hf. apply (ram_claimed st n k Hr Ho Hn Hk).
    rewrite He in Hn. apply in_app_or in Hn. destruct Hn as [Hn|[<-|[]]].
    - pose proof (a_ret _ _ HA n Hn). lia.
    - assert (Hin : In h (g_nodes st)) by (rewrite He; apply in_or_app; right; left; reflexivity).
      pose proof (b_tk _ _ (IB st Hr Ho) h k Hin Hk) as Ht. unfold RamTickets.TK in Ht. rewrite Hf in Ht. lia.
  Qed.

  (** EMPTINESS, first exit (pop_idx >= push_idx and next == null).  The pop read pop_idx = p earlier;
      in the state s0 in which it reads push_idx (D3) it sees push_idx <= p; later (others run in
      between) it reads next == null and answers 'empty'.  Then IN s0: h is the head and the last node,
      pop_idx >= push_idx, next is null, and every filled ticket of the whole queue is claimed by a popper:
      the queue is empty once the pops that are already entitled to a value are counted as done.
      (The stronger reading "no filled, unconsumed ticket exists" is false: [ram_empty_naive_refuted].) *)
  Theorem ram_empty_lp1 t s0 sa s1 s2 ea eb h p :
    reachable s0 -> th s0 t = D3 h p ->
    step E R s0 (Step t) = Some (sa, ea) -> run_others t sa s1 ->
    step E R s1 (Step t) = Some (s2, eb) -> In (ERet t [0]) eb -> g_ovf s2 = false ->
    th sa t = D4 h /\ pushi s0 h <= p /\ p <= popi s0 h /\
    head s0 = h /\ nnext s0 h = 0 /\ g_nodes s0 = g_retired s0 ++ [h] /\ nnext s1 h = 0 /\
    all_filled_claimed s0.
  Proof using HE HM.
    intros Hr Hpc Hsa Hro Hsb Hret Ho2.
    pose proof (ovf_sticky _ _ _ _ _ _ Hsb Ho2) as Ho1.
    pose proof (run_others_from _ _ _ Hro) as Hf.
    pose proof (ovf_back _ _ Hf Ho1) as Hoa. pose proof (ovf_sticky _ _ _ _ _ _ Hsa Hoa) as Ho0.
    pose proof (IA s0 Hr Ho0) as HA. pose proof (IB s0 Hr Ho0) as HB.
    pose proof (a_thr _ _ HA t) as Hta. pose proof (b_thr _ _ HB t) as Htb. rewrite Hpc in Hta, Htb. cbn [TA TB] in Hta, Htb.
    (* the D3 step *)
    unfold step, step_gen in Hsa. rewrite Hpc in Hsa. cbv beta iota zeta in Hsa. inversion Hsa; subst sa ea; clear Hsa.
    pose proof (run_others_th _ _ _ Hro) as Hth1. prj_in Hth1. rewrite upd_same in Hth1.
    (* the last step *)
    unfold step, step_gen in Hsb. rewrite Hth1 in Hsb. cbv beta iota zeta in Hsb.
    destruct (pushi s0 h <=? p) eqn:Hq.
    - destruct (nnext s1 h =? 0) eqn:Hz; inversion Hsb; subst s2 eb; clear Hsb.
      + apply N.leb_le in Hq. apply N.eqb_eq in Hz.
        assert (Hrs : reachable (w_th s0 (upd (th s0) t (D4 h)))).
        { eapply reach_step with (a := Step t); [exact Hr|]. unfold step, step_gen. rewrite Hpc. cbv beta iota zeta. rewrite (proj2 (N.leb_le _ _) Hq). reflexivity. }
        pose proof (old_in_nodes E HE HM s0 h (a_head _ _ HA) Hta) as Hin.
        destruct (run_monotone _ s1 h Hrs Hf Ho1 Hin) as (_ & _ & _ & Hback). prj_in Hback. specialize (Hback Hz).
        destruct (old_last_is_head s0 h HA Hta Hback) as [Hh He].
        prj. rewrite upd_same. repeat split; try assumption.
        apply (drained_claimed s0 h Hr Ho0 Hta Hback). left. unfold RamBase.pa, RamBase.pd.
        apply (tick_mono E HE HM). lia.
      + exfalso. cbn [In] in Hret. destruct Hret as [Hc|[]]. discriminate Hc.
    - exfalso. destruct (MAXI E <=? popi s1 h); inversion Hsb; subst; cbn [In] in Hret; destruct Hret as [Hc|[]]; discriminate Hc.
  Qed.

  (** EMPTINESS, second exit (ticket beyond the node and next == null): in the state in which next is
      read, h is the head and the last node, all of its tickets are claimed, and again every filled
      ticket of the queue is claimed *)
  Theorem ram_empty_lp2 t s s' es h :
    reachable s -> th s t = D6 h -> step E R s (Step t) = Some (s', es) -> In (ERet t [0]) es -> g_ovf s' = false ->
    head s = h /\ nnext s h = 0 /\ g_nodes s = g_retired s ++ [h] /\ E + 1 <= pd s h /\ all_filled_claimed s.
  Proof using HE HM.
    intros Hr Hpc Hst Hret Ho'. pose proof (ovf_sticky _ _ _ _ _ _ Hst Ho') as Ho.
    pose proof (IA s Hr Ho) as HA. pose proof (a_thr _ _ HA t) as Hta. rewrite Hpc in Hta. cbn [TA] in Hta. destruct Hta as [Hold Hcnt].
    unfold step, step_gen in Hst. rewrite Hpc in Hst. cbv beta iota zeta in Hst.
    destruct (nnext s h =? 0) eqn:Hz; inversion Hst; subst s' es; clear Hst.
    - apply N.eqb_eq in Hz. destruct (old_last_is_head s h HA Hold Hz) as [Hh He]. repeat split; try assumption.
      apply (drained_claimed s h Hr Ho Hold Hz). right. lia.
    - exfalso. cbn [In] in Hret. destruct Hret as [Hc|[]]. discriminate Hc.
  Qed.

  (** which program counters end an operation, and with which answer *)
  Definition answers (s : state) (p : pc) (r : list N) : Prop :=
    match p with
    | P7 _ _ => r = [1]
    | P8 _ tl idx => r = [1] /\ ent s tl (slot_of E idx) = CNull
    | D4 h | D6 h => r = [0] /\ nnext s h = 0
    | D9 h idx _ => r = [2] /\ ent s h (slot_of E idx) = CTaken
    | D10 _ _ b => r = [1; tokv s b]
    | D11 h idx => (exists b, ent s h (slot_of E idx) = CVal b /\ r = [1; tokv s b]) \/ (r = [2] /\ ent s h (slot_of E idx) = CTaken)
    | _ => False
    end.

  Lemma step_ret s a s' es t r : step E R s a = Some (s', es) -> In (ERet t r) es -> a = Step t /\ answers s (th s t) r.
  Proof using.
    intros H Hret. unfold step, step_gen in H. cbv beta iota zeta in H. destruct a as [t' o|t'];
      repeat match type of H with context [match ?x with _ => _ end] => destruct x eqn:? end; try discriminate H;
      injection H as <- <-; cbn [In app] in Hret;
      repeat match goal with H : _ \/ _ |- _ => destruct H as [H|H] end; try discriminate; try contradiction;
      injection Hret as <- <-; (split; [reflexivity|]);
      match goal with Hpc : th _ _ = _ |- _ => rewrite Hpc end; cbn [answers]; hbs; eauto.
  Qed.

  (** 'empty' is answered only at these two exits *)
  Theorem ram_empty_exits t s a s' es :
    step E R s a = Some (s', es) -> In (ERet t [0]) es ->
    a = Step t /\ ((exists h, th s t = D4 h) \/ (exists h, th s t = D6 h)).
  Proof using.
    intros H Hret. destruct (step_ret s a s' es t [0] H Hret) as [-> Ha]. split; [reflexivity|].
    destruct (th s t); cbn [answers] in Ha; try contradiction; try discriminate Ha; try (apply proj1 in Ha; discriminate Ha); eauto.
    destruct Ha as [(b & _ & Hc)|[Hc _]]; discriminate Hc.
  Qed.

  (** * Results of the calls *)

  (** a pop that returns a value returns the value of a ticket that was handed to it (claimed), the
      ticket is consumed, the value is a pushed value and is recorded as popped; the printed number is
      the one stored with the value at its allocation *)
  Theorem ram_pop_result t s a s' es x :
    reachable s -> step E R s a = Some (s', es) -> In (ERet t [1; x]) es -> g_ovf s' = false ->
    a = Step t /\ exists h idx b,
      x = tokv s b /\ (th s t = D10 h idx b \/ th s t = D11 h idx) /\
      In h (g_nodes s) /\ tk idx < E /\ In (h, tk idx) (g_dtk s) /\
      g_fate s' h (tk idx) = FConsumed b /\ In b (g_popped s') /\ In b (g_pushed s').
  Proof using HE HM.
    intros Hr H Hret Ho'. pose proof (ovf_sticky _ _ _ _ _ _ H Ho') as Ho.
    pose proof (IA s Hr Ho) as HA. pose proof (IB s Hr Ho) as HB.
    assert (Hr' : reachable s') by (eapply reach_step; eauto).
    pose proof (IC s' Hr' Ho') as HC'. pose proof (IA s' Hr' Ho') as HA'.
    assert (Hfin : forall h k b, In h (g_nodes s') -> k < E -> g_fate s' h k = FConsumed b -> In b (g_popped s') /\ In b (g_pushed s')).
    { intros h k b Hh Hk Hf. split; [apply (c_cp _ _ HC' b); exists h, k; auto|].
      destruct (c_cf _ _ HC') as (Hf1 & _). apply (Hf1 h k b Hh Hk). rewrite Hf. reflexivity. }
    destruct (step_ret s a s' es t [1; x] H Hret) as [-> Ha]. split; [reflexivity|].
    destruct (step_inv E R s _ s' es H) as (t' & u & p' & Hs & -> & [[Ht' _]|(o & Ht' & _)]); [injection Ht' as <-|discriminate Ht'].
    pose proof (a_thr _ _ HA t) as Hta. pose proof (b_thr _ _ HB t) as Ht.
    destruct (th s t) eqn:Hpc; cbn [answers TA TB] in *; try contradiction; try discriminate Ha; try (apply proj1 in Ha; discriminate Ha).
    - (* D10: the value was seen by the load in D9 *) injection Ha as ->. destruct Ht as (Hal1 & HkE & Hf). exists h, idx, b.
      pose proof (b_tk _ _ HB h _ Hta HkE) as Hk. unfold RamTickets.TK in Hk. rewrite Hf in Hk.
      pose proof (tstep_D10 E R s h idx b u p' Hs) as ->.
      split; [reflexivity|]. split; [left; reflexivity|]. split; [exact Hta|]. split; [exact HkE|].
      split; [apply (ram_claimed s h _ Hr Ho Hta HkE); tauto|]. split; [exact Hf|]. apply (Hfin h (tk idx) b); [exact Hta|exact HkE|exact Hf].
    - (* D11: the exchange returns the value *) destruct Ha as [(b & He & Hc)|[Hc _]]; [injection Hc as ->|discriminate Hc].
      destruct Ht as (Hal1 & HkE & Hkp & Hfa). exists h, idx, b.
      destruct (tstep_D11 E R s h idx b u p' Hs He) as [Hn' Hf'].
      split; [reflexivity|]. split; [right; reflexivity|]. split; [exact Hta|]. split; [exact HkE|].
      split; [apply (ram_claimed s h _ Hr Ho Hta HkE); exact Hkp|].
      split; [exact Hf'|]. apply (Hfin h (tk idx) b); [prj; rewrite Hn'; exact Hta|exact HkE|exact Hf'].
  Qed.

  (** the impossible answer is impossible: a popper never reads "taken" from its own ticket *)
  Theorem ram_never_bogus t s a s' es :
    reachable s -> step E R s a = Some (s', es) -> g_ovf s' = false -> ~ In (ERet t [2]) es.
  Proof using HE HM.
    intros Hr H Ho' Hret. pose proof (ovf_sticky _ _ _ _ _ _ H Ho') as Ho.
    pose proof (IA s Hr Ho) as HA. pose proof (IB s Hr Ho) as HB.
    destruct (step_ret s a s' es t [2] H Hret) as [-> Ha]. pose proof (a_thr _ _ HA t) as Hta. pose proof (b_thr _ _ HB t) as Ht.
    assert (Hno : forall h idx, In h (g_nodes s) -> TB E s (D11 h idx) -> ent s h (slot_of E idx) <> CTaken).
    { intros h idx Hh (Hal & HkE & _ & Hfa) He.
      pose proof (popper_entry E HE HM s h idx (b_tk _ _ HB h _ Hh HkE) Hal Hfa) as Hx. rewrite He in Hx. exact Hx. }
    destruct (th s t); cbn [answers TA] in *; try contradiction; try discriminate Ha; try (apply proj1 in Ha; discriminate Ha).
    - exact (Hno h idx Hta Ht (proj2 Ha)).
    - destruct Ha as [(b & _ & Hc)|[_ He]]; [discriminate Hc|]. exact (Hno h idx Hta Ht He).
  Qed.

  (** the number printed for a value never changes after its allocation *)
  Theorem ram_tokv_stable s a s' es : step E R s a = Some (s', es) -> forall b, b < nalloc s -> tokv s' b = tokv s b.
  Proof using HE HM.
    intros H b Hb. destruct (step_inv E R s a s' es H) as (t & u & p' & Hs & -> & _). tcases Hs; prj; try reflexivity. apply setf_other. lia.
  Qed.

  (** a push hands its value over exactly once: [g_pushed] grows by the value the stepping thread holds,
      and the thread holds nothing afterwards *)
  Theorem ram_push_once s a s' es : step E R s a = Some (s', es) ->
    g_pushed s' = g_pushed s \/
    exists t b, a = Step t /\ g_pushed s' = g_pushed s ++ [b] /\ holds (th s t) = Some b /\ holds (th s' t) = None.
  Proof using.
    intros H. destruct (step_inv E R s a s' es H) as (t & u & p' & Hs & -> & Ha). prj.
    remember (th s t) as p eqn:Hpc. tcases Hs; prj; try (left; reflexivity).
    all: destruct Ha as [[-> _]|(o & _ & Hi)]; [|congruence]; right; exists t, b; rewrite upd_same, <- Hpc; cbn [holds]; auto.
  Qed.

  (** RECLAMATION SAFETY of the node hand-over (what the tail CAS (16) in pop is for): the node _tail points
      to is never a retired node.  False for the code before the repair
      (RamExamples.ram_tail_not_retired_old_refuted). *)
  Theorem ram_tail_not_retired st : reachable st -> g_ovf st = false -> forall n, In n (g_retired st) -> tail st <> n.
  Proof using HE HM.
    intros Hr Ho n Hn Heq. subst n. exact (a_tnr _ _ (IA st Hr Ho) Hn).
  Qed.

  (** no node that can be reached from _head or from _tail along next pointers is retired *)
  Theorem ram_live_not_retired st : reachable st -> g_ovf st = false ->
    forall n, nreach (nnext st) (head st) n \/ nreach (nnext st) (tail st) n -> ~ In n (g_retired st).
  Proof using HE HM.
    intros Hr Ho n Hn. pose proof (IA st Hr Ho) as HA. destruct (a_head _ _ HA) as (rest & He & _).
    assert (Hl : lpath (nnext st) (head st :: rest)).
    { pose proof (a_path _ _ HA) as Hp. rewrite He in Hp. eapply MsqInv.lpath_suffix; [exact Hp|discriminate]. }
    assert (Hcl : forall a b, nreach (nnext st) a b -> In a (head st :: rest) -> In b (head st :: rest)).
    { intros a b Hab. induction Hab as [a|a b Hz Hab IH]; intros Ha; [exact Ha|]. apply IH. apply MsqInv.lpath_next_in; assumption. }
    assert (Ht : In (tail st) (head st :: rest)).
    { pose proof (tail_in_nodes E HE HM st (a_tail _ _ HA)) as Hi. rewrite He in Hi. apply in_app_or in Hi.
      destruct Hi as [Hi|Hi]; [exfalso; exact (a_tnr _ _ HA Hi)|exact Hi]. }
    assert (Hin : In n (head st :: rest)).
    { destruct Hn as [Hn|Hn]; [apply (Hcl _ _ Hn); left; reflexivity|exact (Hcl _ _ Hn Ht)]. }
    intros Hc. pose proof (a_nodup _ _ HA) as Hnd. rewrite He in Hnd. exact (NoDup_app_notin _ _ _ n Hnd Hc Hin).
  Qed.

  (** the thread that is about to swing _head off a node (13) has seen to it that _tail is not on that node *)
  Theorem ram_head_cas_tail_off st t h nx : reachable st -> g_ovf st = false -> th st t = D7 h nx -> tail st <> h.
  Proof using HE HM.
    intros Hr Ho Hpc. pose proof (a_thr _ _ (IA st Hr Ho) t) as Ht. rewrite Hpc in Ht. cbn [TA] in Ht. tauto.
  Qed.
End RamInv.
