(** xenium::reclamation::epoch_based<> (generic_epoch_based, Model/EbrDefs.v): the theorems behind C01 and C02.

    The proofs are layered (each layer holds for every reachable state: any number of threads, any client
    program over the operations of the model, any schedule, any number of cells and guard slots):
      Proof/EbrBase.v    frame of a step, thread-local shape ([tshape]: nesting counter = number of non-empty
                         guards ...), exclusive ownership of thread control blocks, meaning of the flag ([O0])
      Proof/EbrEpoch.v   the epoch argument ([P1], [PB]): a thread inside a critical region with a validated
                         epoch v keeps global_epoch <= v + 1
      Proof/EbrNodes.v   where a retired node is ([N0]): exactly one place, no duplicates, freed at most once
      Proof/EbrTags.v    in which epoch a node may be freed ([tag_ok]): global_epoch >= r + 3
      Proof/EbrGuards.v  guards ([guard_ok], [guard_not_freed], [uaf_reach])
      Proof/EbrFlush.v   the flush as a bounded solo run ([ebr_no_leak_at_quiescence]: seven operations)
    This file states the results.  No axioms. *)
From Coq Require Import NArith List Bool Arith Lia PeanoNat Setoid.
From XV Require Import Conc.Lts Conc.Ev Model.EbrDefs Proof.EbrBase Proof.EbrEpoch Proof.EbrNodes Proof.EbrTags Proof.EbrGuards Proof.EbrFlush.
Import ListNotations.
Local Open Scope N_scope.

Section Theorems.
Variables (ns : nat) (nc : N).
Notation reachable := (reach (init nc) (step ns)).

(** * C01 *)

(** The epoch window: while thread [u] is inside a critical region (its is_in_critical_region flag is set) and has
    validated its epoch (it is past the load of global_epoch in do_enter_critical; [ve] is the epoch it carries:
    the value it loaded, the value it advanced the epoch to, or its published local_epoch), the global epoch is at
    most one ahead of that epoch - and never behind. *)
Theorem ebr_epoch_window st : reachable st ->
  forall u b v, cb (tl st u) = Some b -> bflag st b = true -> ve (th st u) (blocal st b) = Some v ->
    gep st <= v + 1.
Proof.
  intros Hr u b v Hb Hf Hv. destruct (EI_reach ns nc st Hr) as [P _].
  destruct (P u b Hb) as (_ & _ & PA). exact (PA Hf v Hv).
Qed.

(** A node retired in local epoch r is only freed when the global epoch is >= r + 3
    (= two epochs after the global epoch at the time of the retirement, which was r or r + 1). *)
Theorem ebr_free_epoch st : reachable st ->
  forall n t r, g_where st n = PFreed -> g_life st n = LRet t r -> r + 3 <= gep st.
Proof.
  intros Hr n t r W L. pose proof (tag_reach ns nc st Hr n t r L) as G. rewrite W in G. exact G.
Qed.

(** [ebr_safe] (C01): a node protected by a guard_ptr - a persistent guard of the client ([gs]) or the guard of the
    running repl/clear ([tmpg]), both acquired inside a critical region and validated against the cell - is not freed
    (and was not dropped by its creator); and no dereference ever hit a destroyed node ([g_uaf]). *)
Theorem ebr_safe st : reachable st ->
  (forall u n, holds st u n -> g_nfree st n = O /\ g_where st n <> PFreed /\ g_life st n <> LDropped) /\
  g_uaf st = false.
Proof.
  intros Hr. split; [|apply (uaf_reach ns nc); exact Hr].
  intros u n Hh.
  destruct (guard_not_freed ns st u n (T0_reach ns nc st Hr) (O0_reach ns nc st Hr) (EI_reach ns nc st Hr)
              (N0_reach ns nc st Hr) (tag_reach ns nc st Hr) (GI_reach ns nc st Hr u n Hh) Hh) as (H1 & H2 & H3).
  auto.
Qed.

(** * C02, safety half *)

(** [ebr_exactly_once]: a node is freed at most once and only after it was retired; a retired node is in exactly one
    place, which the ghost [g_where] names: retire list [i] of one thread, one orphan list, adopted by one thread
    inside update_global_epoch, or freed - and it is an element of that list (nothing is dropped, in particular not
    by the hand-over at thread exit) and of no other (nothing is duplicated); the lists are duplicate free. *)
Theorem ebr_exactly_once st : reachable st ->
  (forall n, (g_nfree st n <= 1)%nat) /\
  (forall n, g_nfree st n = 1%nat <-> g_where st n = PFreed) /\
  (forall n, g_where st n <> PNone <-> exists t r, g_life st n = LRet t r) /\
  (forall u i n, In n (rl (tl st u) i) <-> g_where st n = PList u i) /\
  (forall i n, In n (orph st i) <-> g_where st n = POrph i) /\
  (forall u n, In n (flight (th st u)) <-> g_where st n = PFlight u) /\
  (forall u i, NoDup (rl (tl st u) i)) /\ (forall i, NoDup (orph st i)) /\ (forall u, NoDup (flight (th st u))).
Proof.
  intros Hr. pose proof (N0_reach ns nc st Hr) as I.
  assert (W := n_where st I).
  split; [|split; [|split; [|split; [exact (n_list st I)|split; [exact (n_orph st I)|split; [exact (n_flight st I)|
    split; [exact (n_nd_list st I)|split; [exact (n_nd_orph st I)|exact (n_nd_flight st I)]]]]]]]].
  - intros n. specialize (W n). destruct (g_where st n); cbn in W; destruct W as [_ ->]; lia.
  - intros n. specialize (W n). split; intros H.
    + destruct (g_where st n); cbn in W; destruct W as [_ W]; try reflexivity; rewrite W in H; discriminate.
    + rewrite H in W. cbn in W. apply W.
  - intros n. specialize (W n). split.
    + intros H. destruct (g_where st n); cbn in W; destruct W as [W _]; try exact W. congruence.
    + intros (t & r & L) H. rewrite H in W. cbn in W. destruct W as [W _]. eapply W. exact L.
Qed.

(** the same at the level of the FREE events of one step: a FREE is the client's delete of its own never published node
    (lost CAS of repl), or the reclaimer's delete of a retired node that had not been freed before *)
Theorem ebr_free_event st a st' es : reachable st -> step ns st a = Some (st', es) ->
  forall t n, In (EFree t n) es ->
    (g_life st n = LFresh t /\ g_life st' n = LDropped) \/
    ((exists t' r, g_life st n = LRet t' r) /\ g_nfree st n = O /\ g_nfree st' n = 1%nat).
Proof.
  intros Hr H t0 n Hin.
  assert (Hr' : reachable st') by (eapply reach_step; eauto).
  pose proof (N0_reach ns nc st Hr) as I. pose proof (N0_reach ns nc st' Hr') as I'.
  assert (Hret : forall m, g_where st m <> PNone -> g_where st m <> PFreed -> g_where st' m = PFreed ->
                 (exists t' r, g_life st m = LRet t' r) /\ g_nfree st m = O /\ g_nfree st' m = 1%nat).
  { intros m H1 H2 H3. pose proof (n_where st I m) as W. pose proof (n_where st' I' m) as W'. rewrite H3 in W'. cbn in W'.
    destruct (g_where st m); cbn in W; try congruence; destruct W as [W1 W2]; destruct W' as [_ W2']; auto. }
  destruct a as [t o|t]; [unfold step in H; step_split H; destruct Hin|].
  unfold_step H. cbv zeta in H. step_split H.
  all: bool_eqs; cbn [In app free_evs map] in Hin; rewrite ?in_app_iff in Hin; cbn [In] in Hin.
  all: repeat match goal with H : _ \/ _ |- _ => destruct H end; try discriminate; try contradiction.
  all: try match goal with H : In (EFree _ _) (free_evs _ _) |- _ => unfold free_evs in H; apply in_map_iff in H; destruct H as (m & Hm & Hl); injection Hm as Ht0 Hn0; subst m; subst t0 end.
  all: try match goal with H : EFree _ _ = EFree _ _ |- _ => injection H as Ht0 Hn0; subst t0; try subst n end.
  all: try solve [left; split; [apply (n_fresh1 st I t); rewrite E; reflexivity | prj; rewrite ?updN_same; reflexivity]].
  all: try solve [left; split; [apply (n_fresh1 st I t); rewrite E; reflexivity | prj; destruct (g_life st n); reflexivity]].
  1: { (* G5: the adopted nodes *)
    right. assert (Hw : g_where st n = PFlight t) by (apply (n_flight st I t n); rewrite E; exact Hl).
    apply Hret; [congruence|congruence|]. prj. assert (M : memN n l = true) by (apply memN_In; exact Hl). rewrite M. reflexivity. }
  (* U2: the slots of the epochs passed *)
  all: right; apply in_flat_map in Hl; destruct Hl as (i & Hi & Hl);
    assert (Hw : g_where st n = PList t i) by (apply (n_list st I t i n); exact Hl);
    apply Hret; [congruence|congruence|]; prj;
    assert (M : memN n (flat_map (rl (tl st t)) (uslots new old)) = true) by (apply memN_In; apply in_flat_map; eauto);
    rewrite M; reflexivity.
Qed.

End Theorems.

(** * Examples (executable runs of the model; the same schedules were replayed on the real code, build/h_ebr) *)
Definition steps (t n : nat) : list action := repeat (Step t) n.
Definition run2 (acts : list action) : state := fst (fst (run (step 3) (init 2) acts)).
Definition skipped2 (acts : list action) : nat := snd (run (step 3) (init 2) acts).

(** thread 1 holds a guard on node 0 (cell 0); thread 2 replaces the node and retires it (local epoch 0), then enters
    critical regions again and again: the global epoch gets to 1 and stays there, node 0 stays in thread 2's retire
    list 0 ... *)
Definition ex1_before : list action :=
  ([Start 1 (OHold 0 0)] ++ steps 1 13 ++ [Start 2 (ORepl 0)] ++ steps 2 16 ++ [Start 2 (ORead 1)] ++ steps 2 19 ++
   [Start 2 (ORead 1)] ++ steps 2 8 ++ [Start 2 (ORead 1)] ++ steps 2 13 ++ [Start 2 (ORead 1)] ++ steps 2 8 ++
   [Start 2 (ORead 1)] ++ steps 2 13)%nat.
(** ... until thread 1 drops its guard (and exits): two more epochs, and node 0 is freed when thread 2 reaches epoch 3 *)
Definition ex1_after : list action :=
  ([Start 1 (ODrop 0)] ++ steps 1 2 ++ [Start 1 OExit] ++ steps 1 1 ++ [Start 2 (ORead 1)] ++ steps 2 8 ++
   [Start 2 (ORead 1)] ++ steps 2 18 ++ [Start 2 (ORead 1)] ++ steps 2 8 ++ [Start 2 (ORead 1)] ++ steps 2 18 ++
   [Start 2 (ORead 1)] ++ steps 2 8 ++ [Start 2 OExit] ++ steps 2 1)%nat.

Example ex1_guarded_node_survives :
  let st := run2 ex1_before in
  skipped2 ex1_before = O /\ gs (tl st 1%nat) 0%nat = Some 0 /\ g_life st 0 = LRet 2 0 /\ g_where st 0 = PList 2 0 /\
  gep st = 1 /\ g_nfree st 0 = O /\ g_uaf st = false.
Proof. vm_compute. repeat split; reflexivity. Qed.

Example ex1_freed_two_epochs_later :
  let st := run2 (ex1_before ++ ex1_after) in
  skipped2 (ex1_before ++ ex1_after) = O /\ g_where st 0 = PFreed /\ g_nfree st 0 = 1%nat /\ gep st = 3 /\ g_uaf st = false.
Proof. vm_compute. repeat split; reflexivity. Qed.

(** thread 1 retires node 0 and exits before reclamation was possible: the node is handed over to orphan list 0 ... *)
Definition ex2_before : list action := ([Start 1 (ORepl 0)] ++ steps 1 15 ++ [Start 1 OExit] ++ steps 1 3)%nat.
(** ... thread 2 adopts it when it advances the epoch from 2 to 3 and frees it *)
Definition ex2_after : list action :=
  ([Start 2 (ORead 1)] ++ steps 2 13 ++ [Start 2 (ORead 1)] ++ steps 2 17 ++ [Start 2 (ORead 1)] ++ steps 2 8 ++
   [Start 2 (ORead 1)] ++ steps 2 17 ++ [Start 2 (ORead 1)] ++ steps 2 8 ++ [Start 2 (ORead 1)] ++ steps 2 18 ++
   [Start 2 (ORead 1)] ++ steps 2 8 ++ [Start 2 (ORead 1)] ++ steps 2 17 ++ [Start 2 OExit] ++ steps 2 1)%nat.

Example ex2_handed_over_at_exit :
  let st := run2 ex2_before in
  skipped2 ex2_before = O /\ orph st 0 = [0] /\ g_where st 0 = POrph 0 /\ g_life st 0 = LRet 1 0 /\ cb (tl st 1%nat) = None /\ g_nfree st 0 = O.
Proof. vm_compute. repeat split; reflexivity. Qed.

Example ex2_freed_by_another_thread :
  let st := run2 (ex2_before ++ ex2_after) in
  skipped2 (ex2_before ++ ex2_after) = O /\ orph st 0 = [] /\ g_where st 0 = PFreed /\ g_nfree st 0 = 1%nat /\ gep st = 4.
Proof. vm_compute. repeat split; reflexivity. Qed.

(** * C02, liveness half as a bounded solo run: [EbrFlush.ebr_no_leak_at_quiescence]
    (stated and proved in Proof/EbrFlush.v; repeated in Properties/Properties_C01_ebr.v) *)
Check ebr_no_leak_at_quiescence.

(** the flush on a concrete state: after [ex2_before] (node 0 retired by thread 1, which exited: the node is an orphan)
    thread 2 acquires a control block (one read), then runs flush operations on cell 1 (each [Start] is followed by more
    [Step]s than the operation needs; [run] skips the surplus): node 0 is still an orphan after four of them and freed
    after seven *)
Definition flush_ops (k : nat) : list action := concat (repeat ([Start 2 (ORepl 1)] ++ steps 2 40) k).
Example ex3_flush :
  let st4 := run2 (ex2_before ++ [Start 2 (ORead 1)] ++ steps 2 20 ++ flush_ops 4) in
  let st7 := run2 (ex2_before ++ [Start 2 (ORead 1)] ++ steps 2 20 ++ flush_ops 7) in
  g_where st4 0 = POrph 0 /\ g_where st7 0 = PFreed /\ orph st7 0 = [] /\ g_nfree st7 0 = 1%nat /\ g_uaf st7 = false.
Proof. vm_compute. repeat split; reflexivity. Qed.

