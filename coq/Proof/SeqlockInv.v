(** Safety of the sequence lock (xenium::seqlock) on the step-level model of Model/SeqlockDefs.v:
    writer mutual exclusion and version counter (A), slot contents (B), loads never return a torn
    value (C), updates read the latest version under the lock (D).  No axioms, no admits.

    Counter wrap-around is excluded by the side condition [Bnd st]: fewer than 2^62 values have been
    published so far.  The number of published values only grows, so [Bnd st] also bounds every
    state on the way to [st]. *)
From Coq Require Import NArith ZArith List Bool Lia PeanoNat.
From XV Require Import Base.Word Conc.Lts Conc.Ev Model.SeqlockDefs.
Import ListNotations.
Local Open Scope N_scope.

(** * 1. Arithmetic *)

Lemma pow2_62 : 2 ^ 62 = 4611686018427387904.
Proof. reflexivity. Qed.
Lemma pow2_64 : 2 ^ 64 = 18446744073709551616.
Proof. reflexivity. Qed.
Lemma pow2_32 : 2 ^ 32 = 4294967296.
Proof. reflexivity. Qed.
Lemma pow2_30 : 2 ^ 30 = 1073741824.
Proof. reflexivity. Qed.

(** [lia] for goals with [/] and [mod] on [N] *)
Ltac divmod_lia := zify; Z.to_euclidean_division_equations; lia.

Lemma odd_mod2 q : odd q = negb (q mod 2 =? 0).
Proof.
  unfold odd. change 1 with (N.ones 1) at 1. rewrite N.land_ones. reflexivity.
Qed.

Lemma odd_false q : odd q = false <-> q mod 2 = 0.
Proof.
  rewrite odd_mod2. destruct (N.eqb_spec (q mod 2) 0); cbn; split; intros; congruence.
Qed.

Lemma odd_true q : odd q = true <-> q mod 2 = 1.
Proof.
  rewrite odd_mod2. assert (q mod 2 < 2) by (apply N.mod_lt; discriminate).
  destruct (N.eqb_spec (q mod 2) 0); cbn; split; intros; try congruence; divmod_lia.
Qed.

Lemma wshr_1 q : wshr q 1 = q / 2.
Proof. unfold wshr. rewrite N.shiftr_div_pow2. reflexivity. Qed.

Lemma wshl_1 s : s < 2 ^ 63 -> wshl 64 s 1 = 2 * s.
Proof.
  intros H. unfold wshl. rewrite N.shiftl_mul_pow2. change (2 ^ 1) with 2.
  rewrite N.mod_small; [lia|]. change (2 ^ 63) with 9223372036854775808 in H. rewrite pow2_64. lia.
Qed.

Lemma mod_neq_window c i b : c <> 0 -> i < b -> b < i + c -> i mod c <> b mod c.
Proof.
  intros Hc H1 H2 E.
  assert (Hi := N.div_mod i c Hc). assert (Hb := N.div_mod b c Hc).
  rewrite E in Hi. set (r := b mod c) in *. set (qi := i / c) in *. set (qb := b / c) in *.
  destruct (N.le_gt_cases qb qi) as [L|L]; nia.
Qed.

Lemma mod_sub_self c k : c <> 0 -> c <= k -> (k - c) mod c = k mod c.
Proof.
  intros Hc H. replace k with ((k - c) + 1 * c) at 2 by lia. rewrite N.mod_add by exact Hc. reflexivity.
Qed.

Lemma mod_succ c k : c <> 0 -> (k mod c + 1) mod c = (k + 1) mod c.
Proof. intros Hc. rewrite N.add_mod_idemp_l by exact Hc. reflexivity. Qed.

(** * 2. Lists *)

Definition normw (words : nat) (v : list N) : list N := map (fun i => nth i v 0) (List.seq 0 words).

Lemma normw_length words v : length (normw words v) = words.
Proof. unfold normw. rewrite map_length, seq_length. reflexivity. Qed.

Lemma normw_nth words v j : (j < words)%nat -> nth j (normw words v) 0 = nth j v 0.
Proof.
  intros H. unfold normw.
  rewrite (nth_indep _ 0 (nth 0 v 0)) by (now rewrite map_length, seq_length).
  change (nth 0 v 0) with ((fun i => nth i v 0) 0%nat). rewrite map_nth, seq_nth by exact H. reflexivity.
Qed.

Lemma eq_normw words buf v :
  length buf = words -> (forall j, (j < words)%nat -> nth j buf 0 = nth j v 0) -> buf = normw words v.
Proof.
  intros L H. apply (nth_ext _ _ 0 0).
  - now rewrite normw_length.
  - intros j Hj. rewrite L in Hj. rewrite normw_nth by exact Hj. now apply H.
Qed.

Lemma normw_id words v : length v = words -> normw words v = v.
Proof. intros L. symmetry. now apply eq_normw. Qed.

Lemma nth_snoc_lt (buf : list N) x j : (j < length buf)%nat -> nth j (buf ++ [x]) 0 = nth j buf 0.
Proof. intros H. apply app_nth1. exact H. Qed.

Lemma nth_snoc_eq (buf : list N) x : nth (length buf) (buf ++ [x]) 0 = x.
Proof. rewrite app_nth2 by lia. rewrite Nat.sub_diag. reflexivity. Qed.

(** * 3. The invariant *)

Section SeqlockInv.
  Variable slots : N.
  Variable words : nat.
  Variable func : N -> list N -> list N.
  Variable v0 : list N.
  Hypothesis slots_pos : 1 <= slots.
  Hypothesis slots_small : slots < 2 ^ 30.
  Hypothesis words_pos : (1 <= words)%nat.

  Notation step := (step slots words func).
  Notation init := (init v0).

  Definition lockq (p : pc) : option N :=
    match p with
    | StF q _ _ | StW q _ _ _ | Rel q _ | UpR q _ _ _ _ | UpF q _ _ _ => Some q
    | _ => None
    end.
  Definition is_locked (p : pc) : bool := match lockq p with Some _ => true | None => false end.

  (** number of words of the new version already written by the lock holder *)
  Definition wr (p : pc) : nat :=
    match p with StW _ _ i _ => i | Rel _ _ => words | _ => 0%nat end.

  Definition HN (h : list (list N)) : N := N.of_nat (length h).
  Definition ver (h : list (list N)) (k : N) : list N := nth (N.to_nat k) h [].

  Definition slot_ok (dt : N -> nat -> N) (h : list (list N)) (k : N) : Prop :=
    forall j, (j < words)%nat -> dt (k mod slots) j = nth j (ver h k) 0.

  (** lock holder: [q] is the even sequence value it replaced *)
  Definition lk (sq : N) (h : list (list N)) (q : N) : Prop := q + 2 = 2 * HN h /\ sq = q + 1.

  (** reader of version [q/2]: the words copied so far are those of that version, or the writers
      have come so far ([q + 2 * slots <= sq + 1]: the lock for version [q/2 + slots], which overwrites
      the slot, is taken) that the final check [seq2 - q < 2 * slots - 1] of load() must fail *)
  Definition rd (sq : N) (h : list (list N)) (q : N) (buf : list N) : Prop :=
    q mod 2 = 0 /\ q + 2 <= 2 * HN h /\
    ((forall j, (j < length buf)%nat -> nth j buf 0 = nth j (ver h (q / 2)) 0) \/ q + 2 * slots <= sq + 1).

  Definition pc_ok (sq : N) (dt : N -> nat -> N) (h : list (list N)) (p : pc) : Prop :=
    match p with
    | Idle | Begin _ | Ld1 | LdSpin => True
    | Aq1 o | AqSpin o => o <> OLoad
    | AqCas o q => o <> OLoad /\ q mod 2 = 0
    | LdW q idx i buf => rd sq h q buf /\ length buf = i /\ (i < words)%nat /\ idx = (q / 2) mod slots
    | LdF q buf | Ld3 q buf => rd sq h q buf /\ length buf = words
    | StF q idx v => lk sq h q /\ idx = HN h mod slots
    | StW q idx i v =>
      lk sq h q /\ idx = HN h mod slots /\ (i < words)%nat /\
      (forall j, (j < i)%nat -> dt idx j = nth j v 0) /\
      (forall j, (i <= j < words)%nat -> slots <= HN h -> dt idx j = nth j (ver h (HN h - slots)) 0)
    | Rel q v => lk sq h q /\ (forall j, (j < words)%nat -> dt (HN h mod slots) j = nth j v 0)
    | UpR q idx i buf d =>
      lk sq h q /\ idx = (HN h - 1) mod slots /\ length buf = i /\ (i < words)%nat /\
      (forall j, (j < i)%nat -> nth j buf 0 = nth j (ver h (HN h - 1)) 0)
    | UpF q idx buf d =>
      lk sq h q /\ idx = (HN h - 1) mod slots /\ length buf = words /\
      (forall j, (j < words)%nat -> nth j buf 0 = nth j (ver h (HN h - 1)) 0)
    end.

  Record Inv (st : state) : Prop := mkInv {
    i_h : 1 <= HN (g_hist st);
    i_seq : seq st + 2 = 2 * HN (g_hist st) \/ seq st + 1 = 2 * HN (g_hist st);
    i_pc : forall t, pc_ok (seq st) (data st) (g_hist st) (th st t);
    i_mx : forall t1 t2, is_locked (th st t1) = true -> is_locked (th st t2) = true -> t1 = t2;
    i_lk : seq st + 1 = 2 * HN (g_hist st) -> exists t, is_locked (th st t) = true;
    i_slot : forall k, k < HN (g_hist st) -> HN (g_hist st) <= k + slots ->
             (HN (g_hist st) = k + slots -> forall t, wr (th st t) = 0%nat) ->
             slot_ok (data st) (g_hist st) k
  }.

  Definition Bnd (st : state) : Prop := HN (g_hist st) < 2 ^ 62.

  Lemma slots_nz : slots <> 0.
  Proof. lia. Qed.

  Lemma unlocked_wr p : is_locked p = false -> wr p = 0%nat.
  Proof. destruct p; cbn; intros; congruence. Qed.

  Lemma locked_lk sq dt h p : is_locked p = true -> pc_ok sq dt h p -> exists q, lockq p = Some q /\ lk sq h q.
  Proof.
    destruct p; cbn; intros E H; try discriminate; eexists; (split; [reflexivity|]); tauto.
  Qed.

  Lemma even_seq_unlocked st : Inv st -> seq st + 2 = 2 * HN (g_hist st) -> forall t, is_locked (th st t) = false.
  Proof.
    intros HI E t. destruct (is_locked (th st t)) eqn:L; [|reflexivity].
    destruct (locked_lk _ _ _ _ L (i_pc st HI t)) as (q & _ & (E1 & E2)). lia.
  Qed.

  Lemma even_seq_nowr st : Inv st -> seq st + 2 = 2 * HN (g_hist st) -> forall t, wr (th st t) = 0%nat.
  Proof. intros HI E t. apply unlocked_wr. eapply even_seq_unlocked; eauto. Qed.

  Lemma holder_nowr st t : Inv st -> is_locked (th st t) = true -> wr (th st t) = 0%nat ->
    forall t', wr (th st t') = 0%nat.
  Proof.
    intros HI L W t'. destruct (is_locked (th st t')) eqn:L'.
    - rewrite (i_mx st HI t' t L' L). exact W.
    - apply unlocked_wr. exact L'.
  Qed.

  (** stability of the per-thread assertion of a thread that does not hold the lock *)
  Lemma pc_ok_mono sq dt h sq' dt' l p :
    is_locked p = false -> sq <= sq' -> pc_ok sq dt h p -> pc_ok sq' dt' (h ++ l) p.
  Proof.
    intros L Hs H.
    assert (Hrd : forall q buf, rd sq h q buf -> rd sq' (h ++ l) q buf).
    { intros q buf (E & Hq & D). unfold rd, HN in *. rewrite app_length. split; [exact E|]. split; [lia|].
      destruct D as [D|D]; [left|right; lia].
      intros j Hj. rewrite (D j Hj). unfold ver. f_equal.
      rewrite app_nth1; [reflexivity|]. divmod_lia. }
    destruct p; cbn in *; try discriminate; try exact H; try tauto.
    - destruct H as (? & ?). split; auto.
    - destruct H as (? & ?). split; auto.
    - destruct H as (? & ?). split; auto.
  Qed.

  Lemma inv_init : Inv init.
  Proof.
    constructor; cbn [SeqlockDefs.init seq data th g_hist]; unfold HN; cbn [length].
    - lia.
    - left. reflexivity.
    - intros t. exact I.
    - intros t1 t2 H. discriminate.
    - intros H. discriminate.
    - intros k H1 H2 _ j Hj. replace k with 0 by lia.
      rewrite N.mod_0_l by exact slots_nz. reflexivity.
  Qed.

  (** a property of every thread's program counter survives the update of one entry *)
  Lemma upd_forall (P : nat -> pc -> Prop) (f : nat -> pc) t p :
    P t p -> (forall x, x <> t -> P x (f x)) -> forall x, P x (upd f t p x).
  Proof.
    intros H1 H2 x. destruct (Nat.eq_dec x t) as [->|N]; [now rewrite upd_same|rewrite upd_other by exact N; auto].
  Qed.

  Lemma upd_locked (f : nat -> pc) t p x :
    is_locked p = is_locked (f t) -> is_locked (upd f t p x) = is_locked (f x).
  Proof. intros L. revert x. apply (upd_forall (fun x p => is_locked p = is_locked (f x))); auto. Qed.

  (** steps that change neither [seq], [data] nor the history *)
  Lemma inv_frame st t p :
    Inv st -> wr (th st t) = 0%nat -> is_locked p = is_locked (th st t) ->
    pc_ok (seq st) (data st) (g_hist st) p ->
    Inv (mkSt (seq st) (data st) (upd (th st) t p) (g_hist st)).
  Proof.
    intros HI W L P. constructor; cbn [seq data th g_hist]; try apply HI.
    - apply (upd_forall (fun _ => pc_ok (seq st) (data st) (g_hist st))); [exact P|intros; apply HI].
    - intros t1 t2. rewrite !upd_locked by exact L. apply HI.
    - intros E. destruct (i_lk st HI E) as (t0 & L0). exists t0. now rewrite upd_locked.
    - intros k H1 H2 H3. apply (i_slot st HI k H1 H2). intros E t'. specialize (H3 E t').
      destruct (Nat.eq_dec t' t) as [->|N]; [exact W|now rewrite upd_other in H3].
  Qed.

  Lemma seq_bound st : Inv st -> Bnd st -> seq st < 2 ^ 63.
  Proof.
    intros HI HB. unfold Bnd in HB. rewrite pow2_62 in HB. change (2 ^ 63) with 9223372036854775808.
    destruct (i_seq st HI); lia.
  Qed.

  Lemma ld_next_unlocked q : is_locked (ld_next slots q) = false.
  Proof. unfold ld_next. destruct (slots =? 1); [destruct (odd q)|]; reflexivity. Qed.

  Lemma aq_next_unlocked o q : is_locked (aq_next o q) = false.
  Proof. unfold aq_next. destruct (odd q); reflexivity. Qed.

  (** where a load continues from the sequence value [sq]: it waits (one slot, write pending), or
      copies version [sq / 2] from its slot *)
  Lemma ld_next_spec sq :
    sq < 2 ^ 63 ->
    (slots = 1 /\ ld_next slots sq = LdSpin) \/
    ld_next slots sq = LdW (2 * (sq / 2)) ((sq / 2) mod slots) 0 [].
  Proof.
    clear. intros HS. change (2 ^ 63) with 9223372036854775808 in HS.
    unfold ld_next. destruct (N.eqb_spec slots 1) as [E1|E1].
    - destruct (odd sq) eqn:Eo; [now left|right]. apply odd_false in Eo.
      rewrite E1, N.mod_1_r. f_equal. divmod_lia.
    - right. cbv zeta. rewrite wshr_1. rewrite wshl_1 by (change (2 ^ 63) with 9223372036854775808; divmod_lia).
      reflexivity.
  Qed.

  Lemma ld_next_ok st : Inv st -> Bnd st -> pc_ok (seq st) (data st) (g_hist st) (ld_next slots (seq st)).
  Proof.
    intros HI HB. pose proof (i_seq st HI) as Hq.
    destruct (ld_next_spec (seq st) (seq_bound st HI HB)) as [[_ ->]| ->]; [exact I|].
    cbn [pc_ok]. unfold rd. cbn [length].
    replace (2 * (seq st / 2) / 2) with (seq st / 2) by divmod_lia.
    repeat split; try lia; try divmod_lia. left. intros j Hj. lia.
  Qed.

  Lemma aq_next_ok sq dt h o q : o <> OLoad -> pc_ok sq dt h (aq_next o q).
  Proof.
    intros H. unfold aq_next. destruct (odd q) eqn:Eo; cbn [pc_ok]; [exact H|].
    split; [exact H|]. apply odd_false. exact Eo.
  Qed.

  (** a reader of version [k] reads one word of slot [k mod slots] *)
  Lemma read_word st k j :
    Inv st -> k < HN (g_hist st) -> (j < words)%nat ->
    data st (k mod slots) j = nth j (ver (g_hist st) k) 0 \/ 2 * k + 2 * slots <= seq st + 1.
  Proof.
    intros HI Hk Hj. pose proof (i_seq st HI) as Hq.
    destruct (N.le_gt_cases (HN (g_hist st)) (k + slots)) as [Hle|Hgt]; [|right; lia].
    destruct Hq as [Hq|Hq].
    - left. apply (i_slot st HI k Hk Hle); [|exact Hj]. intros _. apply even_seq_nowr; assumption.
    - destruct (N.eq_dec (HN (g_hist st)) (k + slots)) as [E|E]; [right; lia|].
      left. apply (i_slot st HI k Hk Hle); [|exact Hj]. intros E'. contradiction.
  Qed.

  Lemma rd_snoc st q buf :
    Inv st -> rd (seq st) (g_hist st) q buf -> (length buf < words)%nat ->
    rd (seq st) (g_hist st) q (buf ++ [data st ((q / 2) mod slots) (length buf)]).
  Proof.
    intros HI (E & Hq & D) Hl. split; [exact E|]. split; [exact Hq|].
    destruct D as [D|D]; [|right; exact D].
    destruct (read_word st (q / 2) (length buf) HI ltac:(divmod_lia) Hl) as [R|R]; [|right; divmod_lia].
    left. intros j Hj. rewrite app_length in Hj. cbn [length] in Hj.
    destruct (Nat.eq_dec j (length buf)) as [->|N].
    - rewrite nth_snoc_eq. exact R.
    - rewrite nth_snoc_lt by lia. apply D. lia.
  Qed.

  Lemma pc_ok_mono0 sq dt h sq' dt' p :
    is_locked p = false -> sq <= sq' -> pc_ok sq dt h p -> pc_ok sq' dt' h p.
  Proof. intros L Hs H. rewrite <- (app_nil_r h). eapply pc_ok_mono; eauto. Qed.

  Lemma ver_snoc_lt h v k : k < HN h -> ver (h ++ [v]) k = ver h k.
  Proof. intros H. unfold ver, HN in *. apply app_nth1. lia. Qed.

  Lemma ver_snoc_eq h v : ver (h ++ [v]) (HN h) = v.
  Proof. unfold ver, HN. rewrite Nat2N.id. rewrite app_nth2 by lia. rewrite Nat.sub_diag. reflexivity. Qed.

  Lemma locked_next_props o q : o <> OLoad -> is_locked (locked_next slots o q) = true /\ wr (locked_next slots o q) = 0%nat.
  Proof. intros H. destruct o; [contradiction| |]; split; reflexivity.
  Qed.

  Lemma locked_next_ok dt h o q :
    o <> OLoad -> 1 <= HN h -> HN h < 2 ^ 62 -> q + 2 = 2 * HN h -> pc_ok (q + 1) dt h (locked_next slots o q).
  Proof.
    intros Ho H1 HB Hq. rewrite pow2_62 in HB. unfold locked_next. cbv zeta.
    rewrite (wadd_small 64 q 1) by (rewrite pow2_64; lia). rewrite wshr_1.
    replace ((q + 1) / 2) with (HN h - 1) by divmod_lia.
    destruct o; [contradiction| |]; cbn [pc_ok]; unfold lk, wmod.
    - rewrite (wadd_small 64 (HN h - 1) 1) by (rewrite pow2_64; lia). replace (HN h - 1 + 1) with (HN h) by lia. auto.
    - cbn [length]. repeat split; try lia.
  Qed.

  (** ** One case analysis of [step]

      A step either only moves the stepping thread's program counter ([next]), or is one of the
      three writes: the successful CAS, a data store, the releasing store. *)

  (** [next sq dt p p']: a thread at [p] goes to [p'] when [_seq] holds [sq] and the data are [dt] *)
  Inductive next (sq : N) (dt : N -> nat -> N) : pc -> pc -> Prop :=
  | n_begin o : next sq dt (Begin o) (match o with OLoad => Ld1 | _ => Aq1 o end)
  | n_ld1 : next sq dt Ld1 (ld_next slots sq)
  | n_ldspin : next sq dt LdSpin (ld_next slots sq)
  | n_ldw q idx i buf :
      next sq dt (LdW q idx i buf)
           (if Nat.eqb (S i) words then LdF q (buf ++ [dt idx i]) else LdW q idx (S i) (buf ++ [dt idx i]))
  | n_ldf q buf : next sq dt (LdF q buf) (Ld3 q buf)
  | n_ld3_ret q buf : next sq dt (Ld3 q buf) Idle
  | n_ld3_retry q buf : next sq dt (Ld3 q buf) (ld_next slots sq)
  | n_aq1 o : next sq dt (Aq1 o) (aq_next o sq)
  | n_aqspin o : next sq dt (AqSpin o) (aq_next o sq)
  | n_cas_fail o q : next sq dt (AqCas o q) (aq_next o sq)
  | n_stf q idx v : next sq dt (StF q idx v) (StW q idx 0 v)
  | n_upr q idx i buf d :
      next sq dt (UpR q idx i buf d)
           (if Nat.eqb (S i) words then UpF q idx (buf ++ [dt idx i]) d else UpR q idx (S i) (buf ++ [dt idx i]) d)
  | n_upf q idx buf d : next sq dt (UpF q idx buf d) (StF q (wmod (wadd 64 idx 1) slots) (func d buf)).

  Inductive step_case (st : state) : action -> state -> Prop :=
  | sc_start t o : th st t = Idle ->
      step_case st (Start t o) (mkSt (seq st) (data st) (upd (th st) t (Begin o)) (g_hist st))
  | sc_next t p p' : th st t = p -> next (seq st) (data st) p p' ->
      step_case st (Step t) (mkSt (seq st) (data st) (upd (th st) t p') (g_hist st))
  | sc_cas t o : th st t = AqCas o (seq st) ->
      step_case st (Step t)
        (mkSt (wadd 64 (seq st) 1) (data st) (upd (th st) t (locked_next slots o (seq st))) (g_hist st))
  | sc_stw t q idx i v : th st t = StW q idx i v ->
      step_case st (Step t)
        (mkSt (seq st) (setd (data st) idx i (nth i v 0))
              (upd (th st) t (if Nat.eqb (S i) words then Rel q v else StW q idx (S i) v)) (g_hist st))
  | sc_rel t q v : th st t = Rel q v ->
      step_case st (Step t) (mkSt (wadd 64 q 2) (data st) (upd (th st) t Idle) (g_hist st ++ [v])).

  Lemma step_cases st a st' es : step st a = Some (st', es) -> step_case st a st'.
  Proof.
    unfold SeqlockDefs.step. destruct a as [t o|t]; destruct (th st t) eqn:Hpc; try discriminate;
      try (intros X; inversion X;
           first [now apply sc_start | now apply sc_stw with (1 := Hpc) | now apply sc_rel with (1 := Hpc)
                 | apply sc_next with (1 := Hpc); constructor]).
    - destruct o; intros X; inversion X; apply sc_next with (1 := Hpc); constructor.
    - destruct (_ <? _); intros X; inversion X; apply sc_next with (1 := Hpc); constructor.
    - destruct (N.eqb_spec (seq st) q) as [<-|_]; intros X; inversion X;
        [now apply sc_cas|apply sc_next with (1 := Hpc); constructor].
  Qed.

  Lemma hist_mono st a st' es : step st a = Some (st', es) -> HN (g_hist st) <= HN (g_hist st').
  Proof.
    intros Hs. destruct (step_cases _ _ _ _ Hs); cbn [g_hist]; try lia.
    unfold HN. rewrite app_length. lia.
  Qed.

  Lemma step_other st a st' es t :
    step st a = Some (st', es) -> (forall o, a <> Start t o) -> a <> Step t -> th st' t = th st t.
  Proof.
    intros Hs N1 N2. destruct (step_cases _ _ _ _ Hs); cbn [th]; apply upd_other; congruence.
  Qed.

  (** update(): [(idx + 1) % slots], line 196, is the slot of the version being written *)
  Lemma next_slot idx h : 1 <= HN h -> idx = (HN h - 1) mod slots -> wmod (wadd 64 idx 1) slots = HN h mod slots.
  Proof.
    intros H1 ->. assert ((HN h - 1) mod slots < slots) by (apply N.mod_lt, slots_nz).
    rewrite pow2_30 in slots_small. rewrite wadd_small by (rewrite pow2_64; lia).
    unfold wmod. rewrite mod_succ by apply slots_nz. f_equal. lia.
  Qed.

  Lemma next_locked sq dt p p' : next sq dt p p' -> wr p = 0%nat /\ is_locked p' = is_locked p.
  Proof.
    destruct 1 as [o| | |q idx i buf| | | | | | | |q idx i buf d| ]; (split; [reflexivity|]);
      try reflexivity; try apply ld_next_unlocked; try apply aq_next_unlocked.
    - destruct o; reflexivity.
    - destruct (Nat.eqb (S i) words); reflexivity.
    - destruct (Nat.eqb (S i) words); reflexivity.
  Qed.

  (** the assertion of the thread after a step that only moves its program counter *)
  Lemma next_pc_ok st t p p' :
    Inv st -> Bnd st -> th st t = p -> next (seq st) (data st) p p' ->
    pc_ok (seq st) (data st) (g_hist st) p'.
  Proof.
    intros HI HB Hpc N. pose proof (i_pc st HI t) as P. rewrite Hpc in P. pose proof (i_h st HI) as H1.
    assert (Lt : is_locked p = true -> forall t', wr (th st t') = 0%nat).
    { intros L. apply (holder_nowr st t HI); rewrite Hpc; [exact L|apply (next_locked _ _ _ _ N)]. }
    destruct N; cbn [pc_ok] in P |- *;
      try exact I; try (apply ld_next_ok; assumption); try (apply aq_next_ok; tauto).
    - destruct o; [exact I|discriminate..].
    - (* LdW *) destruct P as (R & <- & Hi & ->).
      pose proof (rd_snoc st q buf HI R Hi) as R'.
      destruct (Nat.eqb_spec (S (length buf)) words); cbn [pc_ok]; rewrite app_length; cbn [length];
        (split; [exact R'|]); repeat split; lia.
    - exact P.
    - (* StF: the slot still holds version [HN - slots] *)
      destruct P as (Pl & Pi). do 2 (split; [assumption|]). split; [lia|]. split; [intros j Hj; lia|].
      intros j Hj Hsl.
      assert (SO : slot_ok (data st) (g_hist st) (HN (g_hist st) - slots))
        by (apply (i_slot st HI); [lia|lia|intros _; now apply Lt]).
      rewrite <- (SO j) by lia. rewrite mod_sub_self by (try apply slots_nz; assumption). now rewrite Pi.
    - (* UpR: the word read is that of the current version *)
      destruct P as (Pl & Pi & <- & Pw & Pd).
      assert (SO : slot_ok (data st) (g_hist st) (HN (g_hist st) - 1))
        by (apply (i_slot st HI); [lia|lia|intros _; now apply Lt]).
      assert (D' : forall j, (j < S (length buf))%nat ->
                nth j (buf ++ [data st idx (length buf)]) 0 = nth j (ver (g_hist st) (HN (g_hist st) - 1)) 0).
      { intros j Hj. destruct (Nat.eq_dec j (length buf)) as [->|Nj].
        - rewrite nth_snoc_eq, Pi. now apply SO.
        - rewrite nth_snoc_lt by lia. apply Pd. lia. }
      destruct (Nat.eqb_spec (S (length buf)) words) as [E|E]; cbn [pc_ok]; rewrite app_length; cbn [length];
        repeat (split; [assumption || lia|]); [rewrite <- E|]; exact D'.
    - (* UpF: the next slot *)
      destruct P as (Pl & Pi & Pb & Pd). split; [exact Pl|].
      now apply next_slot.
  Qed.

  Lemma others_unlocked st t x : Inv st -> is_locked (th st t) = true -> x <> t -> is_locked (th st x) = false.
  Proof.
    intros HI L N. destruct (is_locked (th st x)) eqn:L'; [|reflexivity]. elim N. now apply (i_mx st HI).
  Qed.

  (** the CAS succeeds: the sequence value was even, so nobody held the lock *)
  Lemma cas_inv st t o :
    Inv st -> Bnd st -> th st t = AqCas o (seq st) ->
    Inv (mkSt (wadd 64 (seq st) 1) (data st) (upd (th st) t (locked_next slots o (seq st))) (g_hist st)).
  Proof.
    intros HI HB Hpc. pose proof (i_pc st HI t) as P. rewrite Hpc in P. destruct P as (Po & Pq).
    assert (Ev : seq st + 2 = 2 * HN (g_hist st)) by (destruct (i_seq st HI); [assumption|divmod_lia]).
    pose proof (even_seq_unlocked st HI Ev) as UL.
    pose proof (locked_next_props o (seq st) Po) as (LN & WN).
    assert (HB2 := HB). unfold Bnd in HB2. rewrite pow2_62 in HB2.
    rewrite (wadd_small 64 (seq st) 1) by (rewrite pow2_64; lia).
    constructor; cbn [seq data th g_hist].
    - apply HI.
    - right. lia.
    - apply (upd_forall (fun _ => pc_ok _ _ _)); [apply locked_next_ok; [exact Po|apply HI|exact HB|lia]|].
      intros x _. eapply pc_ok_mono0; [apply UL| |apply HI]. lia.
    - assert (X : forall x, is_locked (upd (th st) t (locked_next slots o (seq st)) x) = true -> x = t).
      { intros x. apply (upd_forall (fun x p => is_locked p = true -> x = t)); [reflexivity|].
        intros y _ Ly. rewrite UL in Ly. discriminate. }
      intros t1 t2 L1 L2. now rewrite (X t1 L1), (X t2 L2).
    - intros _. exists t. now rewrite upd_same.
    - intros k H1 H2 H3. apply (i_slot st HI k H1 H2). intros _. now apply even_seq_nowr.
  Qed.

  (** a data store of the lock holder touches only the slot of the version being written *)
  Lemma stw_inv st t q idx i v :
    Inv st -> th st t = StW q idx i v ->
    Inv (mkSt (seq st) (setd (data st) idx i (nth i v 0))
              (upd (th st) t (if Nat.eqb (S i) words then Rel q v else StW q idx (S i) v)) (g_hist st)).
  Proof.
    intros HI Hpc. pose proof (i_pc st HI t) as P. rewrite Hpc in P. destruct P as (Pl & Pi & Pw & Pd & Po).
    assert (Lt : is_locked (th st t) = true) by now rewrite Hpc.
    set (p' := if Nat.eqb (S i) words then Rel q v else StW q idx (S i) v).
    assert (Lp : is_locked p' = is_locked (th st t)) by (rewrite Lt; unfold p'; now destruct (Nat.eqb (S i) words)).
    assert (Wp : wr p' <> 0%nat) by (unfold p'; destruct (Nat.eqb (S i) words); cbn [wr]; lia).
    assert (Sd : forall j, setd (data st) idx i (nth i v 0) idx j = if Nat.eqb j i then nth i v 0 else data st idx j)
      by (intros j; unfold setd; now rewrite N.eqb_refl).
    constructor; cbn [seq data th g_hist]; try apply HI.
    - apply (upd_forall (fun _ => pc_ok _ _ _)).
      + unfold p'. destruct (Nat.eqb_spec (S i) words) as [E|E]; cbn [pc_ok].
        * split; [exact Pl|]. intros j Hj. rewrite <- Pi, Sd.
          destruct (Nat.eqb_spec j i) as [->|Nj]; [reflexivity|]. apply Pd. lia.
        * split; [exact Pl|]. split; [exact Pi|]. split; [lia|].
          split; intros j Hj; [|intros Hsl]; rewrite Sd; destruct (Nat.eqb_spec j i) as [->|Nj];
            try reflexivity; try lia; [apply Pd|apply Po]; trivial; lia.
      + intros x N. eapply pc_ok_mono0; [now apply (others_unlocked st t)| |apply HI]. lia.
    - intros t1 t2. rewrite !upd_locked by exact Lp. apply HI.
    - intros E. destruct (i_lk st HI E) as (t0 & L0). exists t0. now rewrite upd_locked.
    - intros k H1 H2 H3.
      destruct (N.eq_dec (HN (g_hist st)) (k + slots)) as [E|E].
      + specialize (H3 E t). rewrite upd_same in H3. contradiction.
      + intros j Hj. unfold setd.
        assert (Nk : k mod slots <> idx) by (rewrite Pi; apply mod_neq_window; [apply slots_nz|exact H1|lia]).
        apply N.eqb_neq in Nk. rewrite Nk. cbn [andb].
        apply (i_slot st HI k H1 H2); [|exact Hj]. intros E'. contradiction.
  Qed.

  (** the releasing store publishes [v], which the slot now holds *)
  Lemma rel_inv st t q v :
    Inv st -> Bnd st -> th st t = Rel q v ->
    Inv (mkSt (wadd 64 q 2) (data st) (upd (th st) t Idle) (g_hist st ++ [v])).
  Proof.
    intros HI HB Hpc. pose proof (i_pc st HI t) as P. rewrite Hpc in P. destruct P as ((Pq & Ps) & Pd).
    assert (Lt : is_locked (th st t) = true) by now rewrite Hpc.
    unfold Bnd in HB. rewrite pow2_62 in HB.
    rewrite (wadd_small 64 q 2) by (rewrite pow2_64; lia).
    pose proof (others_unlocked st t) as UL.
    assert (HH : HN (g_hist st ++ [v]) = HN (g_hist st) + 1) by (unfold HN; rewrite app_length; cbn [length]; lia).
    constructor; cbn [seq data th g_hist]; rewrite ?HH.
    - pose proof (i_h st HI). lia.
    - left. lia.
    - apply (upd_forall (fun _ => pc_ok _ _ _)); [exact I|]. intros x N. eapply pc_ok_mono; [now apply UL| |apply HI]. lia.
    - intros t1 t2 L1. exfalso. revert L1.
      apply (upd_forall (fun x p => is_locked p = true -> False)); [discriminate|].
      intros x N L. rewrite UL in L by assumption. discriminate.
    - intros E. lia.
    - intros k H1 H2 H3 j Hj.
      destruct (N.eq_dec k (HN (g_hist st))) as [->|Nk].
      + rewrite ver_snoc_eq. now apply Pd.
      + rewrite ver_snoc_lt by lia. apply (i_slot st HI k); [lia|lia| |exact Hj]. intros E. lia.
  Qed.

  Lemma step_inv st a st' es : Inv st -> Bnd st' -> step st a = Some (st', es) -> Inv st'.
  Proof.
    intros HI HB' Hs.
    assert (HB : Bnd st) by (pose proof (hist_mono _ _ _ _ Hs); unfold Bnd in *; lia).
    destruct (step_cases _ _ _ _ Hs) as [t o Hpc|t p p' Hpc N|t o Hpc|t q idx i v Hpc|t q v Hpc].
    - apply inv_frame; rewrite ?Hpc; [exact HI|reflexivity|reflexivity|exact I].
    - apply inv_frame; rewrite ?Hpc; [exact HI|apply (next_locked _ _ _ _ N)..|].
      now apply (next_pc_ok st t p).
    - now apply cas_inv.
    - now apply stw_inv.
    - now apply rel_inv.
  Qed.

  Theorem seqlock_inv st : reach init step st -> Bnd st -> Inv st.
  Proof.
    intros Hr. induction Hr as [|s a s' es Hr IH Hst]; intros HB.
    - apply inv_init.
    - eapply step_inv; [apply IH|exact HB|exact Hst].
      pose proof (hist_mono _ _ _ _ Hst). unfold Bnd in *. lia.
  Qed.

  (** * 4. Results *)

  (** index of the current (latest published) version *)
  Definition cur (st : state) : N := N.of_nat (length (g_hist st) - 1).

  Lemma cur_HN st : 1 <= HN (g_hist st) -> cur st = HN (g_hist st) - 1.
  Proof. unfold cur, HN. lia. Qed.

  Lemma reach_cur st :
    reach init step st -> Bnd st -> Inv st /\ 1 <= HN (g_hist st) /\ cur st = HN (g_hist st) - 1.
  Proof. intros Hr HB. pose proof (seqlock_inv st Hr HB) as HI. pose proof (i_h st HI). auto using cur_HN. Qed.

  (** A. version counter and writer mutual exclusion *)
  Theorem seqlock_version st :
    reach init step st -> Bnd st ->
    (((exists t, is_locked (th st t) = true) /\ seq st = 2 * cur st + 1) \/
     ((forall t, is_locked (th st t) = false) /\ seq st = 2 * cur st)) /\
    (forall t1 t2, is_locked (th st t1) = true -> is_locked (th st t2) = true -> t1 = t2) /\
    (forall t q, lockq (th st t) = Some q -> q = 2 * cur st) /\
    (forall t o q, th st t = AqCas o q -> q mod 2 = 0).
  Proof.
    intros Hr HB. destruct (reach_cur st Hr HB) as (HI & H1 & ->). split; [|split; [|split]].
    - destruct (i_seq st HI) as [E|E].
      + right. split; [apply even_seq_unlocked; assumption|lia].
      + left. split; [apply (i_lk st HI E)|lia].
    - apply HI.
    - intros t q Hq. assert (L : is_locked (th st t) = true) by (unfold is_locked; rewrite Hq; reflexivity).
      destruct (locked_lk _ _ _ _ L (i_pc st HI t)) as (q' & E1 & E2 & E3). rewrite Hq in E1. inversion E1; subst q'. lia.
    - intros t o q Hpc. pose proof (i_pc st HI t) as P. rewrite Hpc in P. apply P.
  Qed.

  (** B. contents of the slots: each of the last [slots] versions is intact in its slot, except the
      oldest of them while the lock holder has started to overwrite it *)
  Theorem seqlock_slot_content st k :
    reach init step st -> Bnd st ->
    k <= cur st -> cur st < k + slots ->
    (cur st + 1 = k + slots -> forall t, wr (th st t) = 0%nat) ->
    forall i, (i < words)%nat -> data st (k mod slots) i = nth i (nth (N.to_nat k) (g_hist st) []) 0.
  Proof.
    intros Hr HB. destruct (reach_cur st Hr HB) as (HI & H1 & ->). intros Hk1 Hk2 Hw.
    apply (i_slot st HI k); [lia|lia|]. intros E. apply Hw. lia.
  Qed.

  (** while no thread holds the lock, all of the last [slots] versions are intact *)
  Corollary seqlock_slot_content_unlocked st k :
    reach init step st -> Bnd st -> seq st mod 2 = 0 ->
    k <= cur st -> cur st < k + slots ->
    forall i, (i < words)%nat -> data st (k mod slots) i = nth i (nth (N.to_nat k) (g_hist st) []) 0.
  Proof.
    intros Hr HB Ev Hk1 Hk2. apply seqlock_slot_content; try assumption.
    pose proof (seqlock_inv st Hr HB) as HI. intros _. apply even_seq_nowr; [exact HI|].
    destruct (i_seq st HI); [assumption|divmod_lia].
  Qed.

  (** the writer of version [cur+1] at word [i]: the first [i] words of its slot are new, the rest
      still belong to version [cur+1-slots] *)
  Theorem seqlock_store_progress st t q idx i v :
    reach init step st -> Bnd st -> th st t = StW q idx i v ->
    idx = (cur st + 1) mod slots /\ (i < words)%nat /\
    (forall j, (j < i)%nat -> data st idx j = nth j v 0) /\
    (forall j, (i <= j < words)%nat -> slots <= cur st + 1 ->
       data st idx j = nth j (nth (N.to_nat (cur st + 1 - slots)) (g_hist st) []) 0).
  Proof.
    intros Hr HB Hpc. destruct (reach_cur st Hr HB) as (HI & H1 & ->). replace (HN (g_hist st) - 1 + 1) with (HN (g_hist st)) by lia.
    pose proof (i_pc st HI t) as P. rewrite Hpc in P. cbn [pc_ok] in P. tauto.
  Qed.

  Theorem seqlock_store_complete st t q v :
    reach init step st -> Bnd st -> th st t = Rel q v ->
    forall j, (j < words)%nat -> data st ((cur st + 1) mod slots) j = nth j v 0.
  Proof.
    intros Hr HB Hpc. destruct (reach_cur st Hr HB) as (HI & H1 & ->). replace (HN (g_hist st) - 1 + 1) with (HN (g_hist st)) by lia.
    pose proof (i_pc st HI t) as P. rewrite Hpc in P. cbn [pc_ok] in P. tauto.
  Qed.

  (** C. a load returns the complete value (all [words] words) of a published version *)
  Theorem seqlock_load_atomic st t q buf st' es r :
    reach init step st -> Bnd st ->
    th st t = Ld3 q buf -> step st (Step t) = Some (st', es) -> In (ERet t r) es ->
    q mod 2 = 0 /\ q / 2 <= cur st /\ r = normw words (nth (N.to_nat (q / 2)) (g_hist st) []).
  Proof.
    intros Hr HB Hpc Hs Hin. destruct (reach_cur st Hr HB) as (HI & H1 & ->).
    pose proof (i_pc st HI t) as P. rewrite Hpc in P. cbn [pc_ok] in P. destruct P as ((Ev & Hq & D) & Hl).
    split; [exact Ev|]. split; [divmod_lia|].
    unfold SeqlockDefs.step in Hs. rewrite Hpc in Hs.
    destruct (wsub 64 (seq st) q <? wsub 32 (wmul 32 2 slots) 1) eqn:T; inversion Hs; subst st' es; clear Hs.
    - cbn [app In] in Hin. destruct Hin as [X|[X|[]]]; [discriminate|]. inversion X; subst r.
      apply eq_normw; [exact Hl|]. rewrite <- Hl.
      destruct D as [D|D]; [exact D|exfalso].
      pose proof (seq_bound st HI HB) as HS. change (2 ^ 63) with 9223372036854775808 in HS.
      apply N.ltb_lt in T. unfold wmul in T. rewrite pow2_30 in slots_small.
      rewrite (N.mod_small (2 * slots)) in T by (rewrite pow2_32; lia).
      rewrite (wsub_small 32) in T by (try rewrite pow2_32; lia).
      pose proof (i_seq st HI) as Hsq.
      rewrite (wsub_small 64) in T by (try rewrite pow2_64; lia). lia.
    - cbn [In] in Hin. destruct Hin as [X|[]]. discriminate.
  Qed.

  Corollary seqlock_load_atomic_exact st t q buf st' es r :
    reach init step st -> Bnd st ->
    th st t = Ld3 q buf -> step st (Step t) = Some (st', es) -> In (ERet t r) es ->
    length (nth (N.to_nat (q / 2)) (g_hist st) []) = words ->
    r = nth (N.to_nat (q / 2)) (g_hist st) [].
  Proof.
    intros Hr HB Hpc Hs Hin Hl.
    destruct (seqlock_load_atomic _ _ _ _ _ _ _ Hr HB Hpc Hs Hin) as (_ & _ & E).
    rewrite E. apply normw_id. exact Hl.
  Qed.

  (** the reader invariant behind C *)
  Theorem seqlock_reader st t :
    reach init step st -> Bnd st ->
    forall q buf, (exists idx i, th st t = LdW q idx i buf) \/ th st t = LdF q buf \/ th st t = Ld3 q buf ->
    q mod 2 = 0 /\ q / 2 <= cur st /\
    ((forall j, (j < length buf)%nat -> nth j buf 0 = nth j (nth (N.to_nat (q / 2)) (g_hist st) []) 0) \/
     q + 2 * slots <= seq st + 1).
  Proof.
    intros Hr HB q buf Hpc. destruct (reach_cur st Hr HB) as (HI & H1 & ->). pose proof (i_pc st HI t) as P.
    assert (R : rd (seq st) (g_hist st) q buf).
    { destruct Hpc as [(idx & i & E)|[E|E]]; rewrite E in P; cbn [pc_ok] in P; tauto. }
    destruct R as (Ev & Hq & D). split; [exact Ev|]. split; [divmod_lia|exact D].
  Qed.

  (** D. an update reads the latest version under the lock *)
  Theorem seqlock_update_atomic st t q idx buf d :
    reach init step st -> Bnd st -> th st t = UpF q idx buf d ->
    buf = normw words (nth (length (g_hist st) - 1) (g_hist st) []).
  Proof.
    intros Hr HB Hpc. pose proof (seqlock_inv st Hr HB) as HI. pose proof (i_h st HI) as H1.
    pose proof (i_pc st HI t) as P. rewrite Hpc in P. cbn [pc_ok] in P. destruct P as (_ & _ & Hl & D).
    apply eq_normw; [exact Hl|]. intros j Hj. rewrite (D j Hj). unfold ver, HN. f_equal. f_equal. lia.
  Qed.

  (** ... and hands [func d latest] to store_data, still under the lock *)
  Theorem seqlock_update_publishes st t q idx buf d st' es :
    reach init step st -> Bnd st -> th st t = UpF q idx buf d -> step st (Step t) = Some (st', es) ->
    th st' t = StF q ((cur st + 1) mod slots) (func d (normw words (nth (length (g_hist st) - 1) (g_hist st) []))) /\
    g_hist st' = g_hist st.
  Proof.
    intros Hr HB Hpc Hs. rewrite <- (seqlock_update_atomic _ _ _ _ _ _ Hr HB Hpc).
    pose proof (seqlock_inv st Hr HB) as HI. pose proof (i_h st HI) as H1.
    pose proof (i_pc st HI t) as P. rewrite Hpc in P. cbn [pc_ok] in P. destruct P as (_ & Pi & _).
    unfold SeqlockDefs.step in Hs. rewrite Hpc in Hs. inversion Hs; subst st' es; clear Hs.
    cbn [th g_hist]. rewrite upd_same. split; [|reflexivity]. f_equal.
    rewrite (cur_HN st H1). replace (HN (g_hist st) - 1 + 1) with (HN (g_hist st)) by lia. now apply next_slot.
  Qed.

  (** while [t] holds the lock no other thread publishes a value or changes [t]'s program counter;
      the value [v] carried through StF/StW/Rel is appended to the history by [t]'s Rel step *)
  Theorem seqlock_lock_stable st t a st' es :
    reach init step st -> Bnd st -> is_locked (th st t) = true -> a <> Step t ->
    step st a = Some (st', es) -> g_hist st' = g_hist st /\ th st' t = th st t.
  Proof.
    intros Hr HB L Na Hs. pose proof (seqlock_inv st Hr HB) as HI.
    destruct (step_cases _ _ _ _ Hs) as [t' o Hpc|t' p p' Hpc N|t' o Hpc|t' q idx i v Hpc|t' q v Hpc];
      cbn [th g_hist].
    - split; [reflexivity|]. apply upd_other. intros ->. rewrite Hpc in L. discriminate.
    - split; [reflexivity|]. apply upd_other. congruence.
    - split; [reflexivity|]. apply upd_other. congruence.
    - split; [reflexivity|]. apply upd_other. congruence.
    - (* only the lock holder is at [Rel] *)
      elim Na. f_equal. apply (i_mx st HI); [now rewrite Hpc|exact L].
  Qed.

  Theorem seqlock_release_publishes st t q v st' es :
    th st t = Rel q v -> step st (Step t) = Some (st', es) -> g_hist st' = g_hist st ++ [v].
  Proof.
    intros Hpc Hs. unfold SeqlockDefs.step in Hs. rewrite Hpc in Hs. inversion Hs; subst. reflexivity.
  Qed.

  (** C'. which version a load returns: the sequence value [q] of a reader is fixed when it enters
      the copy loop, and at that moment [q/2] is the current version.  Together with
      [seqlock_load_atomic]: a load returns the version that was current at its last (successful)
      initial read of the sequence counter. *)
  Definition rd_q (p : pc) : option N :=
    match p with LdW q _ _ _ | LdF q _ | Ld3 q _ => Some q | _ => None end.

  Lemma ld_next_fresh st q :
    Inv st -> Bnd st -> rd_q (ld_next slots (seq st)) = Some q ->
    q / 2 = cur st /\ exists idx, ld_next slots (seq st) = LdW q idx 0 [].
  Proof.
    intros HI HB. pose proof (i_seq st HI) as Hq. rewrite (cur_HN st (i_h st HI)).
    destruct (ld_next_spec (seq st) (seq_bound st HI HB)) as [[_ ->]| ->]; cbn [rd_q]; [discriminate|].
    intros X. assert (Eq : q = 2 * (seq st / 2)) by congruence. subst q. split; [divmod_lia|]. eexists; reflexivity.
  Qed.

  Lemma next_rd_q sq dt p p' q :
    next sq dt p p' -> rd_q p' = Some q -> rd_q p = Some q \/ p' = ld_next slots sq.
  Proof.
    destruct 1 as [o| | |q0 idx i buf| | | |o|o|o q0| |q0 idx i buf d| ]; cbn [rd_q]; auto; try discriminate.
    - destruct o; discriminate.
    - destruct (Nat.eqb (S i) words); auto.
    - unfold aq_next. destruct (odd sq); discriminate.
    - unfold aq_next. destruct (odd sq); discriminate.
    - unfold aq_next. destruct (odd sq); discriminate.
    - destruct (Nat.eqb (S i) words); discriminate.
  Qed.

  Theorem seqlock_load_version st a st' es t q :
    reach init step st -> Bnd st -> step st a = Some (st', es) -> rd_q (th st' t) = Some q ->
    rd_q (th st t) = Some q \/
    (a = Step t /\ q / 2 = cur st /\ g_hist st' = g_hist st /\ exists idx, th st' t = LdW q idx 0 []).
  Proof.
    intros Hr HB Hs Hq. pose proof (seqlock_inv st Hr HB) as HI.
    destruct (step_cases _ _ _ _ Hs) as [t' o Hpc|t' p p' Hpc N|t' o Hpc|t' q' idx i v Hpc|t' q' v Hpc];
      cbn [th g_hist] in *;
      (destruct (Nat.eq_dec t t') as [<-|Nt]; [rewrite upd_same in *|rewrite upd_other in Hq by exact Nt; now left]).
    - discriminate.
    - destruct (next_rd_q _ _ _ _ _ N Hq) as [E| ->]; [left; now rewrite Hpc|].
      right. destruct (ld_next_fresh st q HI HB Hq) as (E & idx & E'). rewrite E'. eauto.
    - destruct o; discriminate.
    - destruct (Nat.eqb (S i) words); discriminate.
    - discriminate.
  Qed.

  (** * 5. Well-sized arguments: exact values

      [Start t (OStore id v)] accepts a [v] of any length; store_data then writes the first [words]
      words of [v] (zero padded) while the ghost history records [v] itself, hence the [normw] above.
      When every started store carries exactly [words] words, all published values have [words]
      words and [normw] disappears. *)
  Hypothesis v0_len : length v0 = words.
  Hypothesis func_len : forall d b, length (func d b) = words.

  Definition op_wf (o : op) : Prop := match o with OStore _ v => length v = words | _ => True end.
  Definition act_wf (a : action) : Prop := match a with Start _ o => op_wf o | Step _ => True end.

  Inductive reach_wf : state -> Prop :=
  | rw_init : reach_wf init
  | rw_step s a s' es : reach_wf s -> act_wf a -> step s a = Some (s', es) -> reach_wf s'.

  Lemma reach_wf_reach st : reach_wf st -> reach init step st.
  Proof. induction 1; [apply reach_init|eapply reach_step; eauto]. Qed.

  Definition pc_wf (p : pc) : Prop :=
    match p with
    | Begin o | Aq1 o | AqSpin o | AqCas o _ => op_wf o
    | StF _ _ v | StW _ _ _ v | Rel _ v => length v = words
    | _ => True
    end.

  Definition hist_wf (st : state) : Prop :=
    Forall (fun v => length v = words) (g_hist st) /\ forall t, pc_wf (th st t).

  Lemma wf_upd st sq dt h t p :
    (forall t', pc_wf (th st t')) -> pc_wf p -> forall t', pc_wf (th (mkSt sq dt (upd (th st) t p) h) t').
  Proof. intros H P. cbn [th]. apply (upd_forall (fun _ => pc_wf)); auto. Qed.

  Lemma ld_next_wf q : pc_wf (ld_next slots q).
  Proof. unfold ld_next. destruct (slots =? 1); [destruct (odd q)|]; exact I. Qed.

  Lemma aq_next_wf o q : op_wf o -> pc_wf (aq_next o q).
  Proof. intros H. unfold aq_next. destruct (odd q); exact H. Qed.

  Lemma next_wf sq dt p p' : next sq dt p p' -> pc_wf p -> pc_wf p'.
  Proof.
    destruct 1 as [o| | |q idx i buf| | | | | | | |q idx i buf d| ]; cbn [pc_wf]; intros P;
      try exact I; try exact P; try apply ld_next_wf; try (now apply aq_next_wf).
    - destruct o; [exact I|exact P..].
    - destruct (Nat.eqb (S i) words); exact I.
    - destruct (Nat.eqb (S i) words); exact I.
    - apply func_len.
  Qed.

  Lemma step_wf st a st' es : hist_wf st -> act_wf a -> step st a = Some (st', es) -> hist_wf st'.
  Proof.
    intros (H1 & H2) HA Hs.
    destruct (step_cases _ _ _ _ Hs) as [t o Hpc|t p p' Hpc N|t o Hpc|t q idx i v Hpc|t q v Hpc];
      (split; [|apply wf_upd; [exact H2|]]); cbn [g_hist]; try exact H1;
      try (pose proof (H2 t) as P; rewrite Hpc in P; cbn [pc_wf] in P).
    - exact HA.
    - now apply (next_wf _ _ _ _ N).
    - destruct o; cbn [locked_next pc_wf]; try exact I; exact P.
    - destruct (Nat.eqb (S i) words); exact P.
    - apply Forall_app. split; [exact H1|]. constructor; [exact P|constructor].
    - exact I.
  Qed.

  Theorem reach_wf_hist st : reach_wf st -> hist_wf st.
  Proof.
    induction 1 as [|s a s' es Hr IH Ha Hs].
    - split; cbn [SeqlockDefs.init g_hist th]; [constructor; [exact v0_len|constructor]|intros t; exact I].
    - eapply step_wf; eauto.
  Qed.

  Lemma hist_wf_nth st k : hist_wf st -> (k < length (g_hist st))%nat -> length (nth k (g_hist st) []) = words.
  Proof.
    intros (H & _) Hk. rewrite Forall_forall in H. apply H. apply nth_In. exact Hk.
  Qed.

  (** C, exact form: the load returns precisely version [q/2] *)
  Theorem seqlock_load_atomic_wf st t q buf st' es r :
    reach_wf st -> Bnd st ->
    th st t = Ld3 q buf -> step st (Step t) = Some (st', es) -> In (ERet t r) es ->
    q mod 2 = 0 /\ q / 2 <= cur st /\ r = nth (N.to_nat (q / 2)) (g_hist st) [].
  Proof.
    intros Hw HB Hpc Hs Hin. pose proof (reach_wf_reach st Hw) as Hr.
    destruct (seqlock_load_atomic _ _ _ _ _ _ _ Hr HB Hpc Hs Hin) as (E1 & E2 & E3).
    split; [exact E1|]. split; [exact E2|]. rewrite E3. apply normw_id.
    apply hist_wf_nth; [apply reach_wf_hist; exact Hw|].
    pose proof (i_h st (seqlock_inv st Hr HB)) as H1. unfold cur, HN in *. lia.
  Qed.

  (** D, exact form: the value the update hands to [func] is precisely the latest version *)
  Theorem seqlock_update_atomic_wf st t q idx buf d :
    reach_wf st -> Bnd st -> th st t = UpF q idx buf d ->
    buf = nth (length (g_hist st) - 1) (g_hist st) [].
  Proof.
    intros Hw HB Hpc. pose proof (reach_wf_reach st Hw) as Hr.
    rewrite (seqlock_update_atomic _ _ _ _ _ _ Hr HB Hpc). apply normw_id.
    apply hist_wf_nth; [apply reach_wf_hist; exact Hw|].
    pose proof (i_h st (seqlock_inv st Hr HB)) as H1. unfold HN in *. lia.
  Qed.

End SeqlockInv.
