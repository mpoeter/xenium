(** The flush of the generalised epoch based reclamation model (Model/GebrDefs.v) for the configurations with
    scan::n_threads<N> / scan::one_thread (debra, GEBR_n2), N >= 1, any scan frequency F, any abandon strategy, any region
    extension: a thread that enters critical regions again and again frees, within 1 + 3 (F + 1) ceil(L / N) operations
    (L = number of thread control blocks), every node that sits in an orphan list or in one of its own retire lists, provided
    no thread is inside a critical region ([gebr_no_leak_at_quiescence_n_threads]).  A scan looks at N control blocks; the
    iterator survives the operation; the epoch is advanced by the scan that reaches the end of the list.
    Two more invariants are needed: the scan iterator is a suffix of the thread block list ([sit_suffix]) and, outside
    scan / update, it is not at the end of the list ([sit_ne]).  No axioms. *)
From Coq Require Import NArith List Bool Arith Lia PeanoNat Setoid.
From XV Require Import Conc.Lts Conc.Ev Conc.Solo Model.GebrDefs Proof.GebrBase Proof.GebrShape Proof.GebrOwn Proof.GebrEpoch Proof.GebrNodes Proof.GebrTags Proof.GebrGuards Proof.GebrFlush.
Import ListNotations.
Local Open Scope N_scope.

(** * The scan iterator *)
Lemma sit_suffix_step cfg ns s t s' es : step cfg ns s (Step t) = Some (s', es) ->
  (exists pre, blist s = pre ++ sit (tl s t)) -> exists pre, blist s' = pre ++ sit (tl s' t).
Proof.
  intros H [pre Hp]. unfold_step H. cbv zeta in H. step_split H.
  all: bool_eqs; prj; rewrite ?upd_same; prj.
  all: try solve [exists pre; exact Hp].
  all: try solve [exists []; reflexivity].
  all: try solve [eexists; symmetry; apply app_nil_r].
  all: try solve [eexists (_ :: pre); cbn [app]; rewrite Hp; reflexivity].
  all: try solve [exists pre; congruence].
  all: try solve [match goal with E : sit _ = ?p :: ?l |- _ => try rewrite E in Hp; exists (pre ++ [p]); rewrite <- app_assoc; cbn [app]; congruence end].
Qed.

Lemma sit_suffix cfg ns nc s : reach (init nc) (step cfg ns) s -> forall u, exists pre, blist s = pre ++ sit (tl s u).
Proof.
  revert s. apply (inv_rule _ _ _ _ _ (fun s => forall u, exists pre, blist s = pre ++ sit (tl s u))).
  - intros u. exists []. reflexivity.
  - intros s a s' es I H u. destruct a as [t o|t].
    + destruct (start_pc _ _ _ _ _ _ _ H) as (_ & _ & _ & Etl & _ & _ & _ & Ebl & _).
      destruct (Etl u) as (_ & _ & -> & _). rewrite Ebl. apply I.
    + destruct (Nat.eq_dec u t) as [->|Hne]; [eapply sit_suffix_step; eauto|].
      pose proof (step_others _ _ _ _ _ _ H) as Fth. pose proof (step_untouched _ _ _ _ _ _ H) as _. pose proof (step_blist _ _ _ _ _ _ H) as Fl. destruct (Fth u Hne) as [_ ->].
      destruct (I u) as [pre Hp]. destruct Fl as [->|(k & b & h & _ & ->)]; [exists pre; exact Hp|exists (b :: pre); rewrite Hp; reflexivity].
Qed.

Definition sit_live (p : pc) : bool :=
  match p with
  | C7 _ | C8 _ _ | C9 _ | G1 _ _ | G2 _ _ | G3 _ _ | G4 _ _ | G5 _ _ _ | G6 _ _ _ | G7 _ _ _ _ | U1 _ _ | U2 _ _ _ | U3 _ => false
  | _ => true
  end.

Lemma sit_ne_step cfg ns s t s' es : scan_is_n cfg = true -> O0 cfg s -> tshape cfg ns (th s t) (tl s t) -> step cfg ns s (Step t) = Some (s', es) ->
  (cb (tl s t) <> None -> sit_live (th s t) = true -> sit (tl s t) <> []) ->
  cb (tl s' t) <> None -> sit_live (th s' t) = true -> sit (tl s' t) <> [].
Proof.
  intros Hn O T H I. pose proof (o_own cfg s O t) as Own.
  unfold_step H. cbv zeta in H. step_split H.
  all: bool_eqs; prj; rewrite ?upd_same; prj; prj_hyps.
  all: try match goal with E : th _ _ = _ |- _ => rewrite E in I end; cbn [sit_live] in I.
  all: intros Hcb Hlive; try discriminate Hlive; try congruence.
  all: try solve [apply I; [first [assumption | congruence]|reflexivity]].
  all: try solve [match goal with E : cb (tl _ _) = Some ?b |- _ => destruct (Own b E) as [_ Hin]; intros X; rewrite X in Hin; destruct Hin end].
  all: try solve [sel; cbn [sit_live] in Hlive; first [discriminate Hlive | assumption | apply I; [first [assumption | congruence]|reflexivity]]].
  all: try solve [sel; cbn [sit_live] in *; congruence].
  all: try solve [exfalso; apply Hcb; prj; match goal with E : th _ _ = _ |- _ => rewrite E in T end; apply (ts_no _ _ _ _ T); reflexivity].
  all: try solve [prj_in Hcb; destruct (cb (tl s t)) as [b0|] eqn:Eb; [|congruence]; destruct (Own b0 eq_refl) as [_ Hin]; intros X; rewrite X in Hin; destruct Hin].
Qed.

Lemma sit_ne cfg ns nc s : scan_is_n cfg = true -> reach (init nc) (step cfg ns) s ->
  forall u, cb (tl s u) <> None -> sit_live (th s u) = true -> sit (tl s u) <> [].
Proof.
  intros Hn. revert s.
  apply (inv_rule_aux _ _ _ _ _ (fun s => T0 cfg ns s /\ O0 cfg s) (fun s => forall u, cb (tl s u) <> None -> sit_live (th s u) = true -> sit (tl s u) <> [])).
  - intros s0 Hr. split; [apply (T0_reach cfg ns nc); exact Hr|apply (O0_reach cfg ns nc); exact Hr].
  - intros u H. cbn in H. congruence.
  - intros s a s' es [T O] _ I H u. destruct a as [t o|t].
    + destruct (start_pc _ _ _ _ _ _ _ H) as (Hidle & Eth & Hsl & Etl & _).
      destruct (Etl u) as (-> & _ & -> & _). intros Hcb Hlive. apply I; [exact Hcb|].
      destruct (Nat.eq_dec u t) as [->|Hne]; [rewrite Hidle; reflexivity|].
      rewrite Eth in Hlive. rewrite upd_other in Hlive by exact Hne. exact Hlive.
    + destruct (Nat.eq_dec u t) as [->|Hne]; [exact (sit_ne_step cfg ns s t s' es Hn O (T t) H (I t))|].
      pose proof (step_others _ _ _ _ _ _ H) as Fth. destruct (Fth u Hne) as [-> ->]. apply I.
Qed.


(** * The flush with scan::n_threads<N1> *)
(** K, F, reachable as in GebrFlush; ssteps, Quiet, Keep, FreedSlot, solo_op, flush are GebrFlush's notions at the section's
    cfg ns nc t c (the lemmas of GebrFlush take these five first, written _ _ _ _ _ where Q : Quiet s b determines them) *)
Section FlushN.
Variables (cfg : config) (ns : nat) (nc : N) (t : nat) (c : N) (N1 : nat).
Hypothesis HN : scan_strat cfg = ScanN N1.
Hypothesis HN1 : (1 <= N1)%nat.
Notation K := (KRepl c true).
Notation F := (scan_freq cfg).
Notation reachable := (reach (init nc) (step cfg ns)).
Notation ssteps := (ssteps cfg ns t).
Notation Quiet := (Quiet cfg ns nc t c).
Notation Keep := (Keep t).
Notation FreedSlot := (FreedSlot t).
Notation solo_op := (solo_op cfg ns t c).
Notation flush := (flush cfg ns t c).

Lemma is_n : scan_is_n cfg = true.
Proof. unfold scan_is_n. rewrite HN. reflexivity. Qed.
Lemma scan_start_n a e : scan_start cfg a e = S2 a e O.
Proof. unfold scan_start, iter_next. rewrite HN. destruct (Nat.ltb_spec 0 N1); [reflexivity|lia]. Qed.
Lemma pass_n a e i l : pass_pc cfg a e i l = if is_nil l then G1 a e else if Nat.ltb (S i) N1 then S2 a e (S i) else A2 a.
Proof. unfold pass_pc, iter_next. rewrite HN. reflexivity. Qed.


(** one scan: at most N1 - i more entries are looked at; all of them pass *)
Lemma ph_scan_n e b : forall k i l s, (N1 - i = k)%nat -> (i < N1)%nat -> sit (tl s t) = l -> l <> [] -> th s t = S2 K e i ->
  bflag s b = true -> blocal s b = e -> (forall p, In p l -> p = b \/ bflag s p = false) ->
  exists n s' l', GebrFlush.ssteps cfg ns t n s s' /\ tl s' t = wt_sit l' (tl s t) /\ Same s s' /\
    ((th s' t = G1 K e /\ l' = [] /\ (length l <= N1 - i)%nat) \/
     (th s' t = A2 K /\ l' <> [] /\ (length l' + (N1 - i) = length l)%nat /\ forall p, In p l' -> In p l)).
Proof.
  induction k as [|k IH]; intros i l s Hk Hi Hsit Hne Hpc Hb He Hl; [lia|].
  destruct l as [|p rest]; [congruence|].
  (* the state after the entry p has passed *)
  assert (Hpass : exists n s1, GebrFlush.ssteps cfg ns t n s s1 /\ th s1 t = pass_pc cfg K e i rest /\ tl s1 t = wt_sit rest (tl s t) /\ Same s s1).
  { destruct (Hl p (or_introl eq_refl)) as [->|Hf].
    - exists 2%nat. eexists. split; [unfold GebrFlush.ssteps; sst st_S2t; sst st_S3; apply solo_O|].
      prj. rewrite !upd_same. repeat split; reflexivity.
    - exists 1%nat. eexists. split; [unfold GebrFlush.ssteps; sst st_S2f; apply solo_O|].
      prj. rewrite !upd_same. repeat split; reflexivity. }
  destruct Hpass as (n1 & s1 & Hs1 & Hpc1 & Htl1 & (G1' & G2' & G3' & G4' & G5' & G6')).
  rewrite pass_n in Hpc1. destruct rest as [|q rest'].
  - cbn [is_nil] in Hpc1. exists n1, s1, []. split; [exact Hs1|]. split; [exact Htl1|]. split; [repeat split; assumption|].
    left. split; [exact Hpc1|]. split; [reflexivity|]. cbn [length]. lia.
  - cbn [is_nil] in Hpc1. destruct (Nat.ltb_spec (S i) N1) as [Hlt|Hge].
    + destruct (IH (S i) (q :: rest') s1) as (n2 & s2 & l2 & Hs2 & Htl2 & (H1' & H2' & H3' & H4' & H5' & H6') & Hres).
      { lia. } { exact Hlt. } { rewrite Htl1. reflexivity. } { discriminate. } { exact Hpc1. }
      { rewrite G3'. exact Hb. } { rewrite G4'. exact He. }
      { intros p0 Hp0. rewrite G3'. apply Hl. right. exact Hp0. }
      exists (n1 + n2)%nat, s2, l2. split; [eapply solo_steps_app; eauto|]. split; [rewrite Htl2, Htl1; reflexivity|].
      split; [repeat split; congruence|].
      destruct Hres as [(R1 & R2 & R3)|(R1 & R2 & R3 & R4)].
      * left. split; [exact R1|]. split; [exact R2|]. cbn [length] in *. lia.
      * right. split; [exact R1|]. split; [exact R2|]. split; [cbn [length] in *; lia|]. intros p0 Hp0. right. apply R4. exact Hp0.
    + exists n1, s1, (q :: rest'). split; [exact Hs1|]. split; [exact Htl1|]. split; [repeat split; assumption|].
      right. split; [exact Hpc1|]. split; [discriminate|]. split; [cbn [length]; lia|]. intros p0 Hp0. right. exact Hp0.
Qed.

(** what one operation does with scan::n_threads: [Summary] plus the scan iterator - reset to the whole list when the local
    epoch changes, unchanged without a scan, and a fourth case: the scan used up its N1 entries before the end of the list *)
Definition SummaryN (s s' : state) (b : N) : Prop :=
  Keep s s' /\ blist s' = blist s /\
  ( (blocal s b <> gep s /\ gep s' = gep s /\ blocal s' b = gep s /\ ces (tl s' t) = O /\ sit (tl s' t) = blist s)
  \/ (blocal s b = gep s /\ ces (tl s t) <> F /\ gep s' = gep s /\ blocal s' b = gep s /\ ces (tl s' t) = S (ces (tl s t)) /\ sit (tl s' t) = sit (tl s t))
  \/ (blocal s b = gep s /\ ces (tl s t) = F /\ (length (sit (tl s t)) <= N1)%nat /\ gep s' = gep s + 1 /\ blocal s' b = gep s + 1 /\
      ces (tl s' t) = O /\ sit (tl s' t) = blist s /\ FreedSlot ((gep s + 1) mod 3) s s')
  \/ (blocal s b = gep s /\ ces (tl s t) = F /\ (N1 < length (sit (tl s t)))%nat /\ gep s' = gep s /\ blocal s' b = gep s /\
      ces (tl s' t) = O /\ (length (sit (tl s' t)) + N1 = length (sit (tl s t)))%nat) ).

Lemma roundN s b : Quiet s b -> exists s', solo_op s s' /\ Quiet s' b /\ SummaryN s s' b.
Proof.
  intros Q. destruct (op_enter _ _ _ _ _ s b Q) as (n0 & s1 & s2 & Hc & E). pose proof (q_reach _ _ _ _ _ _ _ Q) as Hr.
  destruct (N.eq_dec (blocal s b) (gep s)) as [Heq|Hne]; [destruct (Nat.eq_dec (ces (tl s t)) F) as [Ec|Ec]|].
  - destruct (ph_E4c _ _ _ _ _ s b s1 s2 Q E Heq Ec) as (s3 & R23 & Hpc3 & Htl3 & S23 & Hb3 & Hl3 & Hf3). rewrite scan_start_n in Hpc3.
    pose proof E as (_ & _ & _ & Htl2 & _ & _ & Hbl2 & _). pose proof S23 as (_ & Hbl3 & _).
    assert (Hsit : sit (tl s3 t) = sit (tl s t)) by (rewrite Htl3; prj; rewrite Htl2; reflexivity).
    destruct (sit_suffix cfg ns nc s Hr t) as [pre Hpre].
    destruct (ph_scan_n (gep s) b N1 O (sit (tl s t)) s3) as (k4 & s4 & l4 & Hs34 & Htl4 & S34 & Hres); try assumption; try lia.
    { apply (sit_ne cfg ns nc s is_n Hr t); [rewrite (q_cb _ _ _ _ _ _ _ Q); discriminate|rewrite (q_idle _ _ _ _ _ _ _ Q); reflexivity]. }
    { intros p Hp. apply Hf3. rewrite Hbl3, Hbl2, Hpre. apply in_or_app. right. exact Hp. }
    assert (R24 : runs cfg ns t s2 s4) by (eapply runs_trans; [exact R23|exists k4; exact Hs34]).
    rewrite Htl3 in Htl4. pose proof (Same_trans _ _ _ S23 S34) as S24.
    destruct Hres as [(Hpc4 & El4 & Hlen)|(Hpc4 & Nl4 & Hlen & _)].
    + destruct (op_advance _ _ _ _ _ s b s1 s2 s4 n0 l4 Q E Hc Heq R24 Hpc4 Htl4 S24) as (s' & Hop & Q' & Kp & Gb & Gg & Gl & Gc & Gs & Gf).
      exists s'. split; [exact Hop|]. split; [exact Q'|]. split; [exact Kp|]. split; [exact Gb|]. right. right. left.
      split; [exact Heq|]. split; [exact Ec|]. split; [lia|]. specialize (Gs is_n). auto 6.
    + destruct (op_plain _ _ _ _ _ s b s1 s2 s4 n0 Q E Hc Heq R24) as (s' & Hop & Q' & Kp & Gb & Gg & Gl & Gc & Gs); try assumption.
      { pose proof S24 as (_ & X1 & X2 & _ & X3 & _). unfold Mid. rewrite Htl4, X1, X2, X3. repeat split; reflexivity. } { rewrite Htl4. prj. lia. }
      rewrite Htl4 in Gc, Gs. prj_in Gc. prj_in Gs.
      exists s'. split; [exact Hop|]. split; [exact Q'|]. split; [exact Kp|]. split; [exact Gb|]. right. right. right.
      assert (Hl4 : (1 <= length l4)%nat) by (destruct l4; [congruence|cbn [length]; lia]).
      split; [exact Heq|]. split; [exact Ec|]. split; [lia|]. split; [exact Gg|]. split; [exact Gl|]. split; [exact Gc|]. rewrite Gs. lia.
  - destruct (op_noscan _ _ _ _ _ s b s1 s2 n0 Q E Hc Heq Ec) as (s' & Hop & Q' & Kp & Gb & Gg & Gl & Gc & Gs).
    exists s'. split; [exact Hop|]. split; [exact Q'|]. split; [exact Kp|]. split; [exact Gb|]. right. left. auto 7.
  - destruct (op_update _ _ _ _ _ s b s1 s2 n0 Q E Hc Hne) as (s' & Hop & Q' & Kp & Gb & Gg & Gl & Gc & Gs).
    exists s'. split; [exact Hop|]. split; [exact Q'|]. split; [exact Kp|]. split; [exact Gb|]. left. specialize (Gs is_n). auto 6.
Qed.

(** operations without a scan until one is due (as GebrFlush.wait_scan, which [advance] needs with its exact count; here the
    iterator and the list are carried along) *)
Lemma wait_scanN : forall k s b, Quiet s b -> blocal s b = gep s -> (F - ces (tl s t) = k)%nat ->
  exists s', flush k s s' /\ Quiet s' b /\ blocal s' b = gep s' /\ gep s' = gep s /\ ces (tl s' t) = F /\ sit (tl s' t) = sit (tl s t) /\
    blist s' = blist s /\ Keep s s'.
Proof.
  induction k as [|k IH]; intros s b Q Hl Hk.
  - exists s. pose proof (q_ces _ _ _ _ _ _ _ Q). split; [reflexivity|split; [exact Q|split; [exact Hl|split; [reflexivity|split; [lia|split; [reflexivity|split; [reflexivity|apply Keep_refl]]]]]]].
  - destruct (roundN s b Q) as (s1 & Ho & Q1 & (K1 & Hb1 & [(X & _)|[(_ & Hc & Hg1 & Hl1 & Hc1 & Hs1)|[(_ & X & _)|(_ & X & _)]]])); [contradiction| |lia|lia].
    destruct (IH s1 b Q1) as (s' & Hf & Q' & Hl' & Hg' & Hc' & Hs' & Hb' & K'); [congruence|lia|].
    exists s'. split; [exists s1; split; assumption|]. split; [exact Q'|]. split; [exact Hl'|]. split; [congruence|]. split; [exact Hc'|].
    split; [congruence|]. split; [congruence|]. eapply Keep_trans; eauto.
Qed.

(** the number of scans that get an iterator with m entries left to the end of the list *)
Definition scans (m : nat) : nat := S ((m - 1) / N1).
Lemma scans_step m : (N1 < m)%nat -> scans m = S (scans (m - N1)).
Proof.
  intros H. unfold scans. f_equal. replace (m - 1)%nat with ((m - N1 - 1) + 1 * N1)%nat by lia.
  rewrite Nat.div_add by lia. lia.
Qed.
Lemma scans_mono a b : (a <= b)%nat -> (scans a <= scans b)%nat.
Proof. intros H. unfold scans. apply le_n_S. apply Nat.div_le_mono; lia. Qed.

(** scans until the iterator has reached the end of the list: the epoch is advanced and slot (e + 1) mod 3 is freed *)
Lemma advanceN : forall m s b, (length (sit (tl s t)) <= m)%nat -> Quiet s b -> blocal s b = gep s ->
  exists k s', (k <= (F + 1) * scans (length (sit (tl s t))))%nat /\ flush k s s' /\ Quiet s' b /\ blocal s' b = gep s' /\ gep s' = gep s + 1 /\
    ces (tl s' t) = O /\ sit (tl s' t) = blist s' /\ blist s' = blist s /\ Keep s s' /\ FreedSlot ((gep s + 1) mod 3) s s'.
Proof.
  induction m as [|m IH]; intros s b Hm Q Hl.
  - exfalso. assert (Hsne : sit (tl s t) <> []).
    { apply (sit_ne cfg ns nc s is_n (q_reach _ _ _ _ _ _ _ Q) t); [rewrite (q_cb _ _ _ _ _ _ _ Q); discriminate|rewrite (q_idle _ _ _ _ _ _ _ Q); reflexivity]. }
    destruct (sit (tl s t)); [congruence|cbn in Hm; lia].
  - destruct (wait_scanN _ s b Q Hl eq_refl) as (s1 & Hf1 & Q1 & Hl1 & Hg1 & Hc1 & Hs1 & Hb1 & K1).
    destruct (roundN s1 b Q1) as (s2 & Ho & Q2 & (K2 & Hb2 & [(X & _)|[(_ & X & _)|[(_ & _ & Hlen & Hg2 & Hl2 & Hc2 & Hs2 & F2)|(_ & _ & Hlen & Hg2 & Hl2 & Hc2 & Hs2)]]])); [contradiction|contradiction| |].
    + (* the scan reaches the end *)
      exists (F - ces (tl s t) + 1)%nat, s2. split.
      { unfold scans. assert (F - ces (tl s t) + 1 <= F + 1)%nat by lia. nia. }
      split; [eapply flush_app; [exact Hf1|exists s2; split; [exact Ho|reflexivity]]|].
      split; [exact Q2|]. split; [congruence|]. split; [congruence|]. split; [exact Hc2|]. split; [congruence|]. split; [congruence|].
      split; [eapply Keep_trans; eauto|]. rewrite Hg1 in F2. exact (FreedSlot_pre _ _ _ _ _ K1 F2 K2).
    + (* the scan gives up: N1 entries less to go *)
      rewrite Hs1 in Hlen, Hs2.
      destruct (IH s2 b) as (k3 & s3 & Hk3 & Hf3 & Q3 & Hl3 & Hg3 & Hc3 & Hs3 & Hb3 & K3 & F3); [lia|exact Q2|congruence|].
      exists ((F - ces (tl s t) + 1) + k3)%nat, s3. split.
      { rewrite (scans_step (length (sit (tl s t)))) by lia.
        replace (length (sit (tl s t)) - N1)%nat with (length (sit (tl s2 t))) by lia.
        assert (F - ces (tl s t) + 1 <= F + 1)%nat by lia. nia. }
      split; [eapply flush_app; [eapply flush_app; [exact Hf1|exists s2; split; [exact Ho|reflexivity]]|exact Hf3]|].
      split; [exact Q3|]. split; [exact Hl3|]. split; [congruence|]. split; [exact Hc3|]. split; [exact Hs3|]. split; [congruence|].
      pose proof (Keep_trans _ _ _ _ K1 K2) as K12.
      split; [exact (Keep_trans _ _ _ _ K12 K3)|].
      replace (gep s) with (gep s2) by congruence. exact (FreedSlot_pre _ _ _ _ _ K12 F3 K3).
Qed.

(** three epochs: every slot comes around once (as GebrFlush.three; the bound depends on the list, which must be shown unchanged) *)
Lemma threeN s b : Quiet s b -> blocal s b = gep s ->
  exists m s', (m <= 3 * ((F + 1) * scans (length (blist s))))%nat /\ flush m s s' /\ Quiet s' b /\ Keep s s' /\
    FreedSlot ((gep s + 1) mod 3) s s' /\ FreedSlot ((gep s + 2) mod 3) s s' /\ FreedSlot ((gep s + 3) mod 3) s s'.
Proof.
  intros Q Hl.
  assert (Hlen : (length (sit (tl s t)) <= length (blist s))%nat).
  { destruct (sit_suffix cfg ns nc s (q_reach _ _ _ _ _ _ _ Q) t) as [pre Hp]. rewrite Hp, app_length. lia. }
  destruct (advanceN _ s b (le_n _) Q Hl) as (k1 & s1 & Hk1 & Hf1 & Q1 & Hl1 & Hg1 & Hc1 & Hs1 & Hb1 & K1 & F1).
  destruct (advanceN _ s1 b (le_n _) Q1 Hl1) as (k2 & s2 & Hk2 & Hf2 & Q2 & Hl2 & Hg2 & Hc2 & Hs2 & Hb2 & K2 & F2).
  destruct (advanceN _ s2 b (le_n _) Q2 Hl2) as (k3 & s3 & Hk3 & Hf3 & Q3 & Hl3 & Hg3 & Hc3 & Hs3 & Hb3 & K3 & F3).
  rewrite Hs1, Hb1 in Hk2. rewrite Hs2, Hb2, Hb1 in Hk3.
  pose proof (scans_mono _ _ Hlen) as Hmono.
  exists (k1 + (k2 + k3))%nat, s3. split; [nia|].
  split; [exact (flush_app _ _ _ _ _ _ _ _ _ Hf1 (flush_app _ _ _ _ _ _ _ _ _ Hf2 Hf3))|]. split; [exact Q3|].
  pose proof (Keep_trans _ _ _ _ K1 K2) as K12. pose proof (Keep_trans _ _ _ _ K2 K3) as K23.
  split; [exact (Keep_trans _ _ _ _ K12 K3)|]. split; [|split].
  - exact (FreedSlot_post _ _ _ _ _ F1 K23).
  - replace (gep s + 2) with (gep s1 + 1) by lia. exact (FreedSlot_post _ _ _ _ _ (FreedSlot_pre _ _ _ _ _ K1 F2 K2) K3).
  - replace (gep s + 3) with (gep s2 + 1) by lia. exact (FreedSlot_pre _ _ _ _ _ K12 F3 K3).
Qed.

(** [gebr_no_leak_at_quiescence_n_threads] (C02, the liveness half as a bounded solo run, every configuration with
    scan::n_threads<N1>, N1 >= 1 - scan::one_thread / debra: N1 = 1): in a reachable state in which thread t is between
    operations, holds no guard and no region_guard, and no thread is inside a critical region, 1 + 3 (F + 1) ceil(L / N1)
    flush operations of t (F = scan_frequency, L = number of thread control blocks in the list, ceil(L / N1) =
    [scans L] = the number of scans that traverse the list) free every node that sits in an orphan list or in a retire
    list of t (and keep freed what was freed). *)
Theorem gebr_no_leak_at_quiescence_n_threads s b : Quiet s b ->
  exists s', flush (1 + 3 * ((F + 1) * scans (length (blist s)))) s s' /\ Quiet s' b /\
    forall n, (g_where s n = PFreed \/ exists i, g_where s n = POrph i \/ g_where s n = PList t i) -> g_where s' n = PFreed.
Proof.
  apply (flush_all cfg ns nc t c (fun l => (F + 1) * scans (length l))%nat).
  - intros x bx Qx. destruct (roundN x bx Qx) as (x' & Ho & Q' & K & Hb & X). exists x'. split; [exact Ho|]. split; [exact Q'|]. split; [exact K|].
    split; [rewrite Hb; reflexivity|]. intros Hne. destruct X as [(_ & Hg & Hl & _)|[(X & _)|[(X & _)|(X & _)]]]; try contradiction. split; congruence.
  - intros x bx Qx Hl. destruct (threeN x bx Qx Hl) as (m & x' & X). exists m, x'. exact X.
Qed.
End FlushN.

(** scan::one_thread looks at one entry per scan: a list of m entries takes m scans (debra in the harness, F = 1: 1 + 6 L operations) *)
Lemma scans_one m : (1 <= m)%nat -> scans 1 m = m.
Proof. intros H. unfold scans. rewrite Nat.div_1_r. lia. Qed.

(** * Every configuration: the number of flush operations *)
Definition flush_ops (cfg : config) (L : nat) : nat :=
  match scan_strat cfg with
  | ScanAll => 3 * scan_freq cfg + 4
  | ScanN n => 1 + 3 * ((scan_freq cfg + 1) * scans n L)
  end%nat.

(** [gebr_no_leak_at_quiescence]: every configuration of generic_epoch_based (n_threads<N> with N >= 1; n_threads<0> never
    advances the epoch): in a quiescent state [flush_ops cfg L] solo flush operations, L the number of thread control blocks,
    free every orphaned node and every node in the flushing thread's retire lists.  epoch_based / new_epoch_based with
    scan_frequency F: 3 F + 4 (default 100: 304; the harness aliases EBR / NEBR with F = 1: 7; EBR0: 4); debra with scan
    frequency F: 1 + 3 (F + 1) L (default 20: 1 + 63 L; the harness alias DEBRA with F = 1: 1 + 6 L);
    GEBR_n2 (F = 0, two threads per scan): 1 + 3 ceil(L / 2). *)
Theorem gebr_no_leak_at_quiescence cfg ns nc t c : (forall n, scan_strat cfg = ScanN n -> (1 <= n)%nat) ->
  forall s b, Quiet cfg ns nc t c s b ->
  exists s', flush cfg ns t c (flush_ops cfg (length (blist s))) s s' /\ Quiet cfg ns nc t c s' b /\
    forall n, (g_where s n = PFreed \/ exists i, g_where s n = POrph i \/ g_where s n = PList t i) -> g_where s' n = PFreed.
Proof.
  intros Hn s b Q. unfold flush_ops. destruct (scan_strat cfg) as [|n] eqn:E.
  - exact (gebr_no_leak_at_quiescence_all_threads cfg ns nc t c E s b Q).
  - exact (gebr_no_leak_at_quiescence_n_threads cfg ns nc t c n E (Hn n eq_refl) s b Q).
Qed.

Example flush_ops_named :
  flush_ops cfg_EBR 5 = 7%nat /\ flush_ops cfg_NEBR 5 = 7%nat /\ flush_ops cfg_EBR0 5 = 4%nat /\ flush_ops cfg_EBR100 5 = 304%nat /\
  flush_ops cfg_GEBR_lazy 5 = 7%nat /\ flush_ops cfg_GEBR_aband 5 = 7%nat /\ flush_ops cfg_GEBR_thresh 5 = 7%nat /\ flush_ops cfg_GEBR_t0 5 = 7%nat /\
  flush_ops cfg_DEBRA 5 = 31%nat /\ flush_ops (cfg_debra 20) 5 = 316%nat /\ flush_ops cfg_GEBR_n2 5 = 10%nat /\ flush_ops cfg_DEBRA 2 = 13%nat.
Proof. vm_compute. repeat split; reflexivity. Qed.
