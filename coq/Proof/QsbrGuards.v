(** Guards of the quiescent state based reclamation model (Model/QsbrDefs.v), the core of C01:
    [guard_ok]  a node held by a guard_ptr of thread u (a persistent guard of the client or the guard of the running
                repl / clear) is still published in its cell, or unlinked but not yet retired, or it was retired while
                the global epoch was g with  local_epoch(u) <= g  (u entered its region no later than epoch g);
    [guard_not_freed]  hence (with [P1]: the global epoch is at most one ahead of every registered thread, and [G0]:
                a node retired at g is freed only when the global epoch is >= g + 2) a guarded node is not freed;
    [uaf_step]  no dereference ever hits a destroyed node;
    [QI_reach]  all invariants of the layers hold in every reachable state.  No axioms. *)
From Coq Require Import NArith ZArith List Bool Arith Lia PeanoNat Setoid.
From XV Require Import Conc.Lts Conc.Ev Model.QsbrDefs Proof.QsbrBase Proof.QsbrEpoch Proof.QsbrNodes Proof.QsbrTags.
Import ListNotations.
Local Open Scope N_scope.

(** * Guards *)
Definition holds (s : state) (u : nat) (n : N) : Prop :=
  (exists sl, gs (tl s u) sl = Some n) \/ tmpg (th s u) = Some n.

Definition guard_ok (s : state) (u : nat) (n : N) : Prop :=
  (exists c, g_life s n = LPub c) \/ (exists t', g_life s n = LUnl t') \/
  (exists t' r g b, g_life s n = LRet t' r g /\ cb (tl s u) = Some b /\ g_lepc s b <= g).

(** a thread that holds a guard is inside a region: it owns a control block and has published its epoch *)
Lemma holds_shape ns p x n : tshape ns p x -> ((exists sl, gs x sl = Some n) \/ tmpg p = Some n) ->
  cb x <> None /\ (1 <= nest x)%nat /\ in_cphase p = false /\ in_qphase p = false /\ in_xphase p = false /\ synced p = true.
Proof.
  intros T Hh.
  assert (H1 : (1 <= nest x)%nat).
  { pose proof (ts_cnt _ _ _ T) as Hn. destruct Hh as [(sl & Hs)|Hp].
    - assert (Hlt : (sl < ns)%nat). { destruct (le_lt_dec ns sl) as [Hle|]; [|assumption]. rewrite (ts_hi _ _ _ T sl Hle) in Hs. discriminate. }
      pose proof (cnt_pos _ _ _ _ Hs Hlt). lia.
    - destruct p; cbn in Hp; try discriminate; [destruct g; [|discriminate]|]; cbn in Hn; lia. }
  assert (Hcb : cb x <> None). { intros E. destruct (ts_fresh _ _ _ T E) as [E0 _]. lia. }
  assert (Hc : in_cphase p = false). { destruct (in_cphase p) eqn:E; [|reflexivity]. pose proof (ts_c _ _ _ T E). lia. }
  assert (Hq : in_qphase p = false). { destruct (in_qphase p) eqn:E; [|reflexivity]. pose proof (ts_q _ _ _ T E). lia. }
  assert (Hx : in_xphase p = false). { destruct (in_xphase p) eqn:E; [|reflexivity]. pose proof (ts_x _ _ _ T E). lia. }
  repeat split; try assumption. destruct p; cbn in Hc |- *; try reflexivity; discriminate.
Qed.

Lemma guard_not_freed ns s u n : T0 ns s -> O0 s -> EI s -> N0 s -> G0 s -> guard_ok s u n -> holds s u n ->
  g_where s n <> PFreed /\ g_nfree s n = O /\ g_life s n <> LDropped.
Proof.
  intros T O (_ & P & _) I G Hg Hh.
  destruct (holds_shape _ _ _ _ (T u) Hh) as (_ & _ & _ & _ & _ & Hsy).
  pose proof (n_where s I n) as W.
  destruct Hg as [(c & L)|[(t' & L)|(t' & r & g & b & L & C & B)]].
  - destruct (wh_not_ret _ _ _ W) as [W1 W2]; [rewrite L; reflexivity|]. rewrite W1, L. repeat split; [discriminate|exact W2|discriminate].
  - destruct (wh_not_ret _ _ _ W) as [W1 W2]; [rewrite L; reflexivity|]. rewrite W1, L. repeat split; [discriminate|exact W2|discriminate].
  - assert (Hw : g_where s n <> PFreed).
    { intros Wf. pose proof (g_freed s G n Wf) as Hf. rewrite L in Hf. cbn in Hf.
      destruct (P u b C) as (P1' & _). destruct (P1' Hsy) as (A1 & A2 & _). lia. }
    split; [exact Hw|]. split; [|rewrite L; discriminate].
    rewrite L in W. destruct (g_where s n); cbn in W; first [congruence | destruct W as [W _]; discriminate W | destruct W as [_ W]; exact W].
Qed.

Ltac gfn := cbn [tmpg fresh_of unl_of].
Ltac gfn_in H := cbn [tmpg fresh_of unl_of] in H.

Lemma GI_quiet ns s t p' g : T0 ns s -> O0 s -> N0 s -> quiet s t p' g -> (forall u n, holds s u n -> guard_ok s u n) ->
  forall u n, holds (set_pc t p' g) u n -> guard_ok (set_pc t p' g) u n.
Proof.
  intros T O I Q G u n Hh. unfold holds in Hh. prj_in Hh. rewrite (q_th _ _ _ _ Q) in Hh.
  assert (Hold : holds s u n \/ exists c, cells s c = Some n).
  { destruct (Nat.eq_dec u t) as [->|Hne].
    - rewrite upd_same in Hh. destruct Hh as [(sl & Hs)|Hp].
      + destruct (q_gs _ _ _ _ Q sl n Hs) as [X|X]; [left; left; eauto|right; exact X].
      + destruct (q_tmpg _ _ _ _ Q n Hp) as [X|X]; [left; right; exact X|right; exact X].
    - rewrite upd_other, (q_tl _ _ _ _ Q u Hne) in Hh by exact Hne. left. exact Hh. }
  unfold guard_ok. prj. rewrite (q_life _ _ _ _ Q).
  destruct Hold as [Hold|(c & Hc)]; [|left; exists c; apply (n_cell s I); exact Hc].
  destruct (G u n Hold) as [X|[X|(t' & r & g0 & b & L & C & B)]]; [left; exact X|right; left; exact X|].
  right; right. exists t', r, g0, b. split; [exact L|].
  destruct (holds_shape _ _ _ _ (T u) Hold) as (_ & _ & Hc & _).
  assert (Hnc : u = t -> in_cphase (th s t) = true -> False) by (intros -> X; congruence).
  split.
  - destruct (Nat.eq_dec u t) as [->|Hne]; [|rewrite (q_tl _ _ _ _ Q u Hne); exact C].
    destruct (q_cb _ _ _ _ Q) as [X|X]; [congruence|destruct (Hnc eq_refl X)].
  - destruct (q_lepc _ _ _ _ Q b) as [->|[X Hbt]]; [exact B|exfalso].
    destruct (Nat.eq_dec u t) as [->|Hne]; [exact (Hnc eq_refl X)|].
    destruct (o_own s O u b C) as [Y _]. destruct (o_own s O t b Hbt) as [Z _]. congruence.
Qed.

Lemma GI_alloc t c g g1 : N0 (set_pc t (R3 c g None) g1) ->
  (forall u n, holds (set_pc t (R3 c g None) g1) u n -> guard_ok (set_pc t (R3 c g None) g1) u n) ->
  forall u n, holds (alloc_node t c g g1) u n -> guard_ok (alloc_node t c g g1) u n.
Proof.
  intros I G u n Hh. pose proof (next_unused _ I) as Hn. prj_in Hn.
  assert (Hold : holds (set_pc t (R3 c g None) g1) u n).
  { unfold holds, alloc_node in *. prj. prj_in Hh. rewrite (upd_pc2 tmpg _ t (R3 c g (Some (nalloc g1))) (R3 c g None) eq_refl) in Hh. exact Hh. }
  specialize (G u n Hold). unfold guard_ok, alloc_node in *. prj. prj_in G.
  assert (Hl : g_life g1 n <> LNone -> updN (g_life g1) (nalloc g1) (LFresh t) n = g_life g1 n).
  { intros X. apply updN_other. intros ->. contradiction. }
  destruct G as [(c0 & L)|[(t' & L)|(t' & r & g0 & b & L & C)]]; rewrite Hl by (rewrite L; discriminate); eauto 10.
Qed.

Lemma GI_step ns s t s' es : T0 ns s -> O0 s -> EI s -> N0 s -> (forall u n, holds s u n -> guard_ok s u n) ->
  step ns s (Step t) = Some (s', es) -> forall u n, holds s' u n -> guard_ok s' u n.
Proof.
  intros T O EIs I G H. pose proof EIs as (_ & P & _).
  destruct (step_frame _ _ _ _ _ H) as (Fth & Fb0 & _ & _ & Fg).
  destruct (step_view _ _ _ _ _ H) as (p' & g1 & V & Hs').
  assert (Fb : forall b, ~ touched s t b -> g_lepc g1 b = g_lepc s b).
  { intros b Hb. destruct (Fb0 b Hb) as (_ & _ & X & _). destruct Hs' as [->|(c & g & -> & ->)]; exact X. }
  assert (G1 : forall u n, holds (set_pc t p' g1) u n -> guard_ok (set_pc t p' g1) u n);
    [|destruct Hs' as [->|(c & g & -> & ->)]; [exact G1|apply GI_alloc; [eapply N0_view; eassumption|exact G1]]].
  clear Hs' H Fb0 Fth Fg EIs.
  pose proof (T t) as Tt. pose proof (P t) as Pt. unfold P1 in Pt.
  destruct V as [p' g Q|c g n U E E0|c g n p' g1 E E0 G' Hg Hp|old b kn p' E E0 Hp|k e E|k e b E E0|e E E0|o h E|b E E0];
    [apply (GI_quiet ns s); assumption|..].
  2: destruct Hg as [-> | (kn & ->)].
  all: repeat match goal with x := _ |- _ => subst x end.
  all: try (destruct Hp as [-> | ->]).
  1-5: (destruct g; destruct n).
  all: try destruct k.
  all: unfold cas_life, cont_pc; prj; rewrite ?upd_same; prj.
  all: try match goal with E : th _ _ = _ |- _ => try rewrite E in Tt; try rewrite E in Pt end.
  all: intros u nn Hh; unfold holds, guard_ok in *; prj; prj_in Hh.
  all: destruct (Nat.eq_dec u t) as [->|Hne]; [assert (Self : True) by exact Logic.I; rewrite ?upd_same in *; prj; prj_hyps; gfn_in Hh | rewrite ?upd_other in * by exact Hne].
  all: pose proof I as I0; destruct I as [Ilt Icell If1 If2 Iu1 Iu2 Iwh Ilist Iab Ihand Iin Iinlt Indl Inda Indi Irl3 Iotgt Ixd Ice].
  all: match goal with E : th ?s ?t = _ |- _ => pose proof (If1 t) as If1t; pose proof (Iu1 t) as Iu1t; rewrite E in If1t, Iu1t; nfn_in If1t; nfn_in Iu1t end.
  (* another thread: its guards, its control block and its local epoch are untouched *)
  all: try solve [match goal with Self : True |- _ => fail 1 | _ => idtac end; nfacts;
    destruct (G u nn Hh) as [(c0 & L)|[(tq & L)|(tq & rq & gq & bq & L & C & B)]];
    [ split_updN_all; first [ left; exists c0; congruence | right; left; eexists; reflexivity ]
    | (* R4: the unlinked node is retired *)
      destruct (holds_shape _ _ _ _ (T u) Hh) as (Hcb & _ & _ & _ & _ & Hsy);
      destruct (cb (tl s u)) as [bu|] eqn:Ebu; [|congruence];
      destruct (P u bu Ebu) as (PL & _); destruct (PL Hsy) as (PL1 & _);
      split_updN_all; first [ right; left; exists tq; congruence | right; right; eexists _, _, _, bu; repeat split; lia ]
    | right; right; exists tq, rq, gq, bq; destruct (o_own s O u bq C) as [Ho _];
      pose proof (Fb bq (owner_untouched _ _ _ _ O Ho Hne)) as El; prj_in El; try rewrite El;
      repeat split; (split_updN_all; congruence) ]].
  (* the stepping thread: a guard it holds afterwards was held before, or was just read from a cell *)
  all: try solve [match goal with Self : True |- _ => idtac end; nfacts;
    assert (Hold : ((exists sl, gs (tl s t) sl = Some nn) \/ tmpg (th s t) = Some nn) \/ (exists c, cells s c = Some nn));
    [ destruct Hh as [(sl & Hs)|Hp];
      [ try match type of Hs with upd ?g ?a ?v ?x = _ =>
              destruct (upd_cases g a v x) as [[-> Eu]|[Hsl Eu]]; rewrite Eu in Hs;
              [(injection Hs as <-; right; eexists; eassumption)|] end;
        first [discriminate Hs | left; left; exists sl; exact Hs]
      | xn; gfn_in Hp; first [discriminate Hp | left; right; rewrite E; exact Hp ] ]
    | destruct Hold as [Hold|(c0 & Hc0)];
      [ pose proof Hold as Hold'; rewrite E in Hold'; destruct (holds_shape _ _ _ _ Tt Hold') as (Hcb & Hn1 & Hc & Hq & Hx & Hsy); cbn in Hc, Hq, Hx;
        destruct (G t nn Hold) as [(c1 & L)|[(tq & L)|(tq & rq & gq & bq & L & C & B)]];
          [ split_updN_all; first [ left; exists c1; congruence | right; left; eexists; reflexivity ]
          | destruct (cb (tl s t)) as [bu|] eqn:Ebu; [|congruence]; inj_some;
            destruct (Pt _ eq_refl) as (PL & _); destruct (PL Hsy) as (PL1 & _);
            split_updN_all; first [ right; left; exists tq; congruence | right; right; eexists _, _, _, bu; repeat split; lia ]
          | right; right; exists tq, rq, gq, bq; repeat split; (split_updN_all; congruence) ]
      | pose proof (Icell _ _ Hc0); split_updN_all; first [left; exists c0; congruence | right; left; eexists; reflexivity ] ] ]].
Qed.

Lemma GI_start ns s t o s' es : T0 ns s -> O0 s -> N0 s -> (forall u n, holds s u n -> guard_ok s u n) ->
  step ns s (Start t o) = Some (s', es) -> forall u n, holds s' u n -> guard_ok s' u n.
Proof. intros T O I G H. destruct (start_quiet _ _ _ _ _ _ H) as (p' & -> & Q). exact (GI_quiet _ _ _ _ _ T O I Q G). Qed.


(** * No dereference of a destroyed node *)
Lemma dead_false s n : g_nfree s n = O -> g_life s n <> LDropped -> dead s n = false.
Proof. intros H1 H2. unfold dead. rewrite H1. cbn. destruct (g_life s n); try reflexivity. congruence. Qed.

Lemma uaf_step ns s a s' es : T0 ns s -> O0 s -> EI s -> N0 s -> G0 s -> (forall u n, holds s u n -> guard_ok s u n) ->
  g_uaf s = false -> step ns s a = Some (s', es) -> g_uaf s' = false.
Proof.
  intros T O EIs I Tg G U H. destruct a as [t o|t].
  { destruct (start_same _ _ _ _ _ _ H) as (_ & -> & _). prj. exact U. }
  assert (Hcell : forall c n, cells s c = Some n -> dead s n = false).
  { intros c n Hc. pose proof (n_cell s I c n Hc) as L. apply dead_false; [|rewrite L; discriminate].
    destruct (wh_not_ret _ _ _ (n_where s I n)) as [_ W]; [rewrite L; reflexivity|exact W]. }
  assert (Hslot : forall sl n, gs (tl s t) sl = Some n -> dead s n = false).
  { intros sl n Hs. assert (Hh : holds s t n) by (left; exists sl; exact Hs).
    destruct (guard_not_freed _ _ _ _ T O EIs I Tg (G t n Hh) Hh) as (_ & H1 & H2). apply dead_false; assumption. }
  unfold_step H. cbv zeta in H. step_split H.
  all: bool_eqs; prj; try exact U.
  all: rewrite U; cbn [orb]; unfold dead; prj.
  all: first [ eapply Hslot; eassumption | eapply Hcell; eassumption | idtac ].
  all: match goal with Ec : cells _ _ = Some ?n0 |- _ => pose proof (Hcell _ _ Ec) as Hd end; unfold dead in Hd; apply orb_false_iff in Hd; destruct Hd as [Hd1 Hd2]; rewrite Hd1; cbn [orb];
       match goal with |- context [updN ?f ?a ?v ?b] => destruct (updN_cases f a v b) as [[_ ->]|[_ ->]] end; [reflexivity|exact Hd2].
Qed.

(** * All layers together: every reachable state satisfies every invariant of Proof/Qsbr*.v *)
Record QI (ns : nat) (s : state) : Prop := {
  qi_t : T0 ns s; qi_o : O0 s; qi_e : EI s; qi_n : N0 s; qi_g : G0 s;
  qi_h : forall u n, holds s u n -> guard_ok s u n; qi_u : g_uaf s = false }.

Lemma QI_reach ns nc s : reachable ns nc s -> QI ns s.
Proof.
  apply inv_rule.
  - constructor; [apply T0_init|apply O0_init|apply EI_init|apply N0_init|apply G0_init| |reflexivity].
    intros u n [(sl & Hs)|Hp]; cbn in *; discriminate.
  - intros s0 a s1 es [T O E I G Hh U] H. constructor.
    + eapply T0_step; eauto.
    + eapply O0_step; eauto.
    + eapply EI_step; eauto.
    + destruct a; [eapply N0_start|eapply N0_step]; eauto.
    + destruct a; [eapply G0_start|eapply G0_step]; eauto.
    + destruct a; [eapply GI_start|eapply GI_step]; eauto.
    + eapply uaf_step; eauto.
Qed.
