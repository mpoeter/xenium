(** C16 for xenium::michael_scott_queue: push and pop finish within an explicit number of solo steps
    from EVERY reachable state (any number of other threads stopped anywhere inside their
    operations).  The retry loops end because a thread running alone fails a CAS only with a stale
    local value, and after the reload it either succeeds or helps the lagging tail exactly once
    (the proved invariant says the tail lags by at most one link, and that the successor of the
    head differs from the head).  Worst cases: push 9 steps (8 from the start of the operation),
    pop 12 steps (11 from the start).  No axioms, no admits. *)
From Coq Require Import NArith List Bool Lia PeanoNat.
From XV Require Import Base.Word Conc.Lts Conc.Ev Conc.Solo Model.MsqDefs Proof.MsqInv.
Import ListNotations.
Local Open Scope N_scope.

Definition idle (s : state) (t : nat) : bool := match th s t with Idle => true | _ => false end.

(** cost of the push loop from its top: 4 steps, plus 3 to help a lagging tail first *)
Definition m1' (tl : N) (nx : N -> N) : nat := if nx tl =? 0 then 4 else 7.
Definition m1 (s : state) : nat := m1' (tail s) (nnext s).
(** cost of the pop loop from its top: 3 steps if empty, 5 to take, plus 5 if the tail lags on the head *)
Definition d1' (h tl : N) (nx : N -> N) : nat :=
  if nx h =? 0 then 3 else if h =? tl then 10 else 5.
Definition d1 (s : state) : nat := d1' (head s) (tail s) (nnext s).

Definition msq_bound (s : state) (t : nat) : nat :=
  match th s t with
  | Idle => 0
  | Begin (OPush _) => 8
  | M1 _ => m1 s
  | M2 _ tl => if N.eqb tl (tail s) then (if N.eqb (nnext s tl) 0 then 3 else 6) else 9
  | M3 _ tl _ => if N.eqb (tail s) tl then 5 else 8
  | M4 _ tl => if N.eqb (nnext s tl) 0 then 2 else 8
  | M5 _ _ => 1
  | Begin OPop => S (d1 s)
  | D1 => d1 s
  | D2 h => if N.eqb h (head s) then d1 s - 1 else 12
  | D3 h nx => if N.eqb h (head s) then (if N.eqb nx 0 then 1 else if N.eqb (head s) (tail s) then 8 else 3) else 11
  | D4 h nx => if N.eqb h (head s) then (if N.eqb (head s) (tail s) then 7 else 2) else 12
  | D5 h nx tl => if N.eqb (tail s) tl && N.eqb h (head s) then 6 else 11
  | D6 h nx => if N.eqb (head s) h then 1 else 11
  end%nat.

Lemma m1_le tl nx : (m1' tl nx <= 7)%nat.
Proof. unfold m1'. destruct (_ =? _); lia. Qed.
Lemma d1_le h tl nx : (d1' h tl nx <= 10)%nat.
Proof. unfold d1'. destruct (_ =? _); [lia|]. destruct (_ =? _); lia. Qed.
Lemma d1_ge h tl nx : (3 <= d1' h tl nx)%nat.
Proof. unfold d1'. destruct (_ =? _); [lia|]. destruct (_ =? _); lia. Qed.

(** the successor of the head is not the head *)
Lemma head_next_neq st : reach init step st -> nnext st (head st) <> 0 -> nnext st (head st) <> head st.
Proof.
  intros Hr Hnz. destruct (Inv_chain st (Inv_reach st Hr)) as (HG & _ & _).
  pose proof (G_lpath _ _ HG) as Hl.
  destruct HG as (Hhd & Hpath & Hnd & _). destruct Hhd as [r Hc]. rewrite Hc in Hl.
  destruct (lpath_hd_next _ _ _ Hl Hnz) as [r' ->].
  rewrite Hc in Hnd. apply NoDup_app_r in Hnd. inversion Hnd as [|x l Hni _]; subst.
  intros E. apply Hni. rewrite E. left. reflexivity.
Qed.

(** helping thread in push: the node it swings the tail to is the last one *)
Lemma help_target_last st t n tl nx :
  reach init step st -> th st t = M3 n tl nx -> tail st = tl -> nnext st nx = 0.
Proof.
  intros Hr E Ht. pose proof (msq_locals st Hr t) as Hl. rewrite E in Hl.
  destruct Hl as (_ & _ & Hn & Hnz). destruct (msq_tail_lag st Hr) as [_ [Hz|Hz]].
  - rewrite Ht, Hn in Hz. contradiction.
  - rewrite Ht, Hn in Hz. exact Hz.
Qed.

Ltac done_step :=
  eexists _, _; split; [reflexivity|];
  unfold msq_bound, m1, d1; cbn [th head tail nnext]; rewrite ?upd_same.

Lemma msq_solo_step s t :
  reach init step s -> idle s t = false ->
  exists s' es, step s (Step t) = Some (s', es) /\ reach init step s' /\ (msq_bound s' t < msq_bound s t)%nat.
Proof.
  intros Hr Hi.
  assert (Hgoal : exists s' es, step s (Step t) = Some (s', es) /\ (msq_bound s' t < msq_bound s t)%nat).
  { unfold idle in Hi. unfold msq_bound at 2. unfold m1, d1. cbn [step].
    pose proof (msq_locals s Hr t) as Hloc.
    destruct (th s t) as [|[v|]|n|n tl|n tl nx|n tl|n tl| |h|h nx|h nx|h nx tl|h nx] eqn:E; try discriminate.
    - (* Begin push *) done_step. match goal with |- (m1' ?a ?b < _)%nat => pose proof (m1_le a b) end. lia.
    - (* Begin pop *) done_step. lia.
    - (* M1 *) done_step. rewrite N.eqb_refl. unfold m1'. destruct (nnext s (tail s) =? 0); lia.
    - (* M2 *)
      destruct (nnext s tl =? 0) eqn:Hz; done_step.
      + rewrite Hz. destruct (tl =? tail s); lia.
      + destruct (tl =? tail s) eqn:Ht.
        * apply N.eqb_eq in Ht. subst tl. rewrite N.eqb_refl. lia.
        * rewrite N.eqb_sym, Ht. lia.
    - (* M3 *)
      destruct (tail s =? tl) eqn:Ht; done_step.
      + apply N.eqb_eq in Ht. pose proof (help_target_last s t n tl nx Hr E Ht) as Hz.
        unfold m1'. rewrite Hz. cbn. lia.
      + match goal with |- (m1' ?a ?b < _)%nat => pose proof (m1_le a b) end. lia.
    - (* M4 *)
      destruct (nnext s tl =? 0) eqn:Hz; done_step; [lia|].
      match goal with |- (m1' ?a ?b < _)%nat => pose proof (m1_le a b) end. lia.
    - (* M5 *)
      destruct (tail s =? tl); done_step; lia.
    - (* D1 *) done_step. rewrite N.eqb_refl. pose proof (d1_ge (head s) (tail s) (nnext s)). lia.
    - (* D2 *)
      done_step. destruct (h =? head s) eqn:Hh; [|lia].
      apply N.eqb_eq in Hh. subst h. unfold d1'.
      destruct (nnext s (head s) =? 0); [lia|]. destruct (head s =? tail s); lia.
    - (* D3 *)
      destruct (h =? head s) eqn:Hh.
      + rewrite N.eqb_sym, Hh. cbn [negb]. destruct (nx =? 0) eqn:Hz; done_step; [lia|].
        rewrite Hh. destruct (head s =? tail s); lia.
      + rewrite N.eqb_sym, Hh. cbn [negb]. done_step. pose proof (d1_le (head s) (tail s) (nnext s)). lia.
    - (* D4 *)
      destruct (h =? tail s) eqn:Ht; done_step.
      + rewrite N.eqb_refl. cbn [andb]. destruct (h =? head s) eqn:Hh; [|lia].
        apply N.eqb_eq in Hh, Ht. rewrite <- Hh, <- Ht, N.eqb_refl. lia.
      + destruct (h =? head s) eqn:Hh; [|rewrite N.eqb_sym, Hh; lia].
        apply N.eqb_eq in Hh. subst h. rewrite Ht, N.eqb_refl. lia.
    - (* D5 *)
      destruct (tail s =? tl) eqn:Ht; cbn [andb]; done_step.
      + destruct (h =? head s) eqn:Hh.
        * apply N.eqb_eq in Hh, Ht. destruct Hloc as (_ & _ & Hnz & Hn & _). rewrite Hh in Hn.
          assert (Hne : nx <> head s) by (rewrite <- Hn; apply head_next_neq; [exact Hr|rewrite Hn; exact Hnz]).
          unfold d1'. rewrite Hn.
          apply N.eqb_neq in Hnz. rewrite Hnz.
          assert (Hx : head s =? nx = false) by (apply N.eqb_neq; congruence). rewrite Hx. lia.
        * match goal with |- (d1' ?a ?b ?c < _)%nat => pose proof (d1_le a b c) end. lia.
      + pose proof (d1_le (head s) (tail s) (nnext s)). lia.
    - (* D6 *)
      destruct (head s =? h) eqn:Hh; done_step; [lia|]. pose proof (d1_le (head s) (tail s) (nnext s)). lia. }
  destruct Hgoal as (s' & es & Hst & Hmu). exists s', es. split; [exact Hst|].
  split; [eapply reach_step; eauto|exact Hmu].
Qed.

Theorem msq_solo s t :
  reach init step s -> finishes_within step Step idle t (msq_bound s t) s.
Proof.
  intros Hr.
  apply (finishes_by_measure _ _ _ step Step idle (reach init step) (fun s => msq_bound s t) t); [|exact Hr].
  intros s0 Hr0 Hi0. exact (msq_solo_step s0 t Hr0 Hi0).
Qed.

(** constant bounds per operation *)
Definition msq_op_bound (p : pc) : nat :=
  match p with
  | Idle => 0
  | Begin (OPush _) => 8
  | M1 _ | M2 _ _ | M3 _ _ _ | M4 _ _ | M5 _ _ => 9
  | Begin OPop => 11
  | _ => 12
  end.

Lemma msq_bound_le s t : (msq_bound s t <= msq_op_bound (th s t))%nat.
Proof.
  unfold msq_bound, m1, d1. pose proof (m1_le (tail s) (nnext s)). pose proof (d1_le (head s) (tail s) (nnext s)).
  destruct (th s t); try destruct o; cbn [msq_op_bound]; try lia;
    repeat match goal with |- context [if ?c then _ else _] => destruct c end; lia.
Qed.

Theorem msq_solo_const s t :
  reach init step s -> finishes_within step Step idle t (msq_op_bound (th s t)) s.
Proof. intros Hr. eapply finishes_within_mono; [apply msq_bound_le|apply msq_solo; exact Hr]. Qed.

Corollary msq_solo_12 s t : reach init step s -> finishes_within step Step idle t 12 s.
Proof.
  intros Hr. eapply finishes_within_mono; [|apply msq_solo_const; exact Hr].
  destruct (th s t); try destruct o; cbn [msq_op_bound]; lia.
Qed.

Theorem msq_never_stuck s t : reach init step s -> never_stuck step Step idle t s.
Proof. intros Hr. eapply finishes_never_stuck. apply msq_solo. exact Hr. Qed.

(** an idle thread that starts push / pop: 8 / 11 steps *)
Theorem msq_solo_start s t o s' es :
  reach init step s -> step s (Start t o) = Some (s', es) ->
  finishes_within step Step idle t (match o with OPush _ => 8 | OPop => 11 end) s'.
Proof.
  intros Hr Hst. assert (Hr' : reach init step s') by (eapply reach_step; eauto).
  pose proof (msq_solo_const s' t Hr') as H.
  cbn [step] in Hst. destruct (th s t); try discriminate. inversion Hst; subst.
  cbn [th] in H. rewrite upd_same in H. destruct o; exact H.
Qed.
