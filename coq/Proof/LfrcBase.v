(** Definitions and structural lemmas for the lock-free reference counting model (Model/LfrcDefs.v): what a reference
    is ([holds]), the invariant [Inv] proved in Proof/LfrcRefs.v .. Proof/LfrcInv.v, the thread-local shape of every
    program point ([tsh]: which guard a program point works on and what it holds) with the tactics that prove it, and
    lists of references.  The transitions of a step are in Proof/LfrcStep.v.  No axioms. *)
From Coq Require Import NArith List Bool Arith Lia PeanoNat.
From XV Require Import Conc.Lts Conc.Ev Model.LfrcDefs.
Import ListNotations.

(** * Function updates, options, references *)
Lemma upd_cases {X} (f : nat -> X) i v j : (j = i /\ upd f i v j = v) \/ (j <> i /\ upd f i v j = f j).
Proof. destruct (Nat.eq_dec j i) as [->|H]; [left; split; [reflexivity|apply upd_same] | right; split; [exact H|apply upd_other; exact H]]. Qed.

Lemma oeqb_eq a b : oeqb a b = true <-> a = b.
Proof.
  destruct a as [x|], b as [y|]; cbn; split; intros H; try congruence; try discriminate.
  - apply Nat.eqb_eq in H. congruence.
  - inversion H. apply Nat.eqb_refl.
Qed.
Lemma oeqb_false a b : oeqb a b = false -> a <> b.
Proof. intros H E. apply oeqb_eq in E. congruence. Qed.

Lemma ref_eqb_eq a b : ref_eqb a b = true <-> a = b.
Proof.
  destruct a, b; cbn; split; intros H; try congruence; try discriminate.
  - apply Nat.eqb_eq in H. congruence.
  - inversion H. apply Nat.eqb_refl.
  - apply andb_true_iff in H. destruct H as [H1 H2]. apply Nat.eqb_eq in H1, H2. congruence.
  - inversion H. rewrite !Nat.eqb_refl. reflexivity.
  - apply Nat.eqb_eq in H. congruence.
  - inversion H. apply Nat.eqb_refl.
Qed.
Lemma ref_eqb_refl a : ref_eqb a a = true.
Proof. apply ref_eqb_eq. reflexivity. Qed.
Lemma ref_eqb_neq a b : ref_eqb a b = false <-> a <> b.
Proof. rewrite <- ref_eqb_eq. destruct (ref_eqb a b); split; intros; congruence. Qed.
Lemma ref_eq_dec (a b : ref) : {a = b} + {a <> b}.
Proof. decide equality; apply Nat.eq_dec. Qed.

Definition hd_opt (l : list nat) : option nat := match l with [] => None | x :: _ => Some x end.

(** the free list as a chain of next_free pointers *)
Fixpoint chain (nx : nat -> option nat) (l : list nat) : Prop :=
  match l with
  | [] => True
  | a :: r => nx a = hd_opt r /\ chain nx r
  end.

(** * References *)
(** the node whose initial reference (the one a new object starts with) the thread holds *)
Definition owned (p : pc) : option nat :=
  match p with
  | N3 _ n _ | R1 _ (Some n) | X1 n | D1 WOwn n _ | D2 WOwn n _ _ | R2 n => Some n
  | _ => None
  end.

(** [holds st r n]: r is a counted reference on node n *)
Definition holds (st : state) (r : ref) (n : nat) : Prop :=
  match r with
  | RCell c => cells st c = Some n
  | RG t g => gnode (gd (tl st t) g) = Some n
  | ROwn t => owned (th st t) = Some n
  end.

(** the claim bit *)
Definition cbit (s : nstate) : nat := match s with NClaimed _ | NFree | NPop _ => 1 | _ => 0 end.

(** * The thread-local shape *)
Definition popg (ns g : nat) : Prop := g = S ns \/ g = S (S ns).
Definition ctx_sh (ns : nat) (k : ctx) (gs : nat -> guard) : Prop :=
  match k with KHold _ g => g < ns /\ gs ns = GE | KPop _ g => popg ns g | _ => True end.
(** what must hold when the continuation of a release is taken *)
Definition rk_post (ns : nat) (k : rk) (gs : nat -> guard) : Prop :=
  match k with
  | RAcq k' => ctx_sh ns k' gs /\ gs (guard_of ns k') = GE
  | RFin _ => gs ns = GE
  | RMove _ g => popg ns g /\ gs (other ns g) = GE
  | RLost => True
  | RExit g => g < ns
  end.
Definition tshape (ns : nat) (p : pc) (gs : nat -> guard) : Prop :=
  match p with
  | Idle => gs ns = GE
  | Done => True
  | Begin o => legal ns o = true /\ gs ns = GE
  | A1 k | A2 k _ => ctx_sh ns k gs /\ gs (guard_of ns k) = GE
  | A3 k q => ctx_sh ns k gs /\ gs (guard_of ns k) = GU q
  | D1 (WG g) n k | D2 (WG g) n _ k => gnode (gs g) = Some n /\ rk_post ns k (upd gs g GE)
  | D1 WOwn _ k | D2 WOwn _ _ k => k = RLost
  | D3 _ k | D4 _ k | U1 _ k | U2 _ _ k | U3 _ _ k => rk_post ns k gs
  | P4 _ g q | P5 _ g q _ | P6 _ g q | P7 _ g q => popg ns g /\ gs g = GV q /\ gs (other ns g) = GE
  | R2 o => gs ns = GV o
  | N2 _ _ | N3 _ _ _ | R1 _ _ | X1 _ => True
  end.
(** a guard that is counted but not validated belongs to a running acquire *)
Definition gu_at (ns : nat) (p : pc) (g q : nat) : Prop :=
  match p with
  | A3 k q' => g = guard_of ns k /\ q' = q
  | D1 (WG g') n (RAcq _) | D2 (WG g') n _ (RAcq _) => g' = g /\ n = q
  | _ => False
  end.
(** the program points of free_list::pop: its two temporary guards are empty everywhere else *)
Definition popk (k : rk) : bool := match k with RMove _ _ | RAcq (KPop _ _) => true | _ => false end.
Definition inpop (p : pc) : bool :=
  match p with
  | A1 (KPop _ _) | A2 (KPop _ _) _ | A3 (KPop _ _) _ | P4 _ _ _ | P5 _ _ _ _ | P6 _ _ _ | P7 _ _ _ => true
  | D1 _ _ k | D2 _ _ _ k | D3 _ k | D4 _ k | U1 _ k | U2 _ _ k | U3 _ _ k => popk k
  | _ => false
  end.
Definition tsh (ns : nat) (p : pc) (gs : nat -> guard) : Prop :=
  tshape ns p gs /\ (forall g q, gs g = GU q -> gu_at ns p g q) /\
  (inpop p = false -> gs (S ns) = GE /\ gs (S (S ns)) = GE).

(** * Node states *)
Definition is_new (s : nstate) : Prop := match s with NNone | NNew _ => True | _ => False end.
Definition has_ref (s : nstate) : Prop := match s with NCons _ | NFresh _ | NPub | NDel => True | _ => False end.
Definition bad_q (s : nstate) : Prop := match s with NNone | NNew _ | NClaimed _ => True | _ => False end.
Definition live4 (s : nstate) : nat := match s with NFresh _ | NPub | NDel | NClaimed _ => 1 | _ => 0 end.
Definition isfree (s : nstate) : nat := match s with NFree => 1 | _ => 0 end.
Definition b2n (b : bool) : nat := if b then 1 else 0.

(** what a program point of thread t knows about the node it works on *)
Definition own_ok (st : state) (t : nat) (p : pc) : Prop :=
  match p with
  | N2 _ n => g_ns st n = NNew t
  | P6 _ _ n => g_ns st n = NPop t
  | P7 _ _ n | N3 _ n _ => g_ns st n = NCons t
  | R1 _ (Some n) | X1 n => g_ns st n = NFresh t
  | D1 WOwn n _ | D2 WOwn n _ _ => g_ns st n = NDel
  | R2 o => g_ns st o = NPub
  | D3 n _ => g_ns st n = NClaimed t
  | D4 n _ => g_ns st n = NClaimed t /\ g_alive st n = true
  | U1 n _ | U2 n _ _ => g_ns st n = NClaimed t /\ g_alive st n = false
  | U3 n h _ => g_ns st n = NClaimed t /\ g_alive st n = false /\ nxt st n = h
  | A2 _ q => ~ is_new (g_ns st q)
  | P5 _ _ q nx => g_ns st q = NFree -> nxt st q = nx
  | _ => True
  end.
(** the thread a node state names is at the matching program point *)
Definition ownr_ok (st : state) (n : nat) (s : nstate) : Prop :=
  match s with
  | NNew t => exists c, th st t = N2 c n
  | NPop t => exists c g, th st t = P6 c g n
  | NCons t => (exists c g, th st t = P7 c g n) \/ (exists c i, th st t = N3 c n i)
  | NClaimed t => (exists k, th st t = D3 n k) \/ (exists k, th st t = D4 n k) \/ (exists k, th st t = U1 n k) \/
                  (exists h k, th st t = U2 n h k) \/ (exists h k, th st t = U3 n h k)
  | _ => True
  end.
Definition alive_ok (s : nstate) (al d : bool) : Prop :=
  match s with
  | NFresh _ | NPub => al = true /\ d = false
  | NDel => al = false /\ d = true
  | NClaimed _ => d = negb al
  | _ => al = false
  end.

(** * The invariant *)
Record Inv (ns : nat) (st : state) : Prop := {
  I_sh : forall t, tsh ns (th st t) (gd (tl st t));
  I_refs : forall n, NoDup (g_refs st n) /\ (forall r, In r (g_refs st n) <-> holds st r n) /\
                     rc st n = 2 * length (g_refs st n) + cbit (g_ns st n);
  I_alloc : forall n, nalloc st <= n <-> g_ns st n = NNone;
  I_new : forall n, is_new (g_ns st n) -> g_refs st n = [];
  (* a constructed node that is not claimed has a reference *)
  I_held : forall n, has_ref (g_ns st n) -> g_refs st n <> [];
  (* a cell / a validated client guard (g <= ns) refers to a published node only *)
  I_cell : forall c n, cells st c = Some n -> g_ns st n = NPub;
  I_guard : forall t g n, gd (tl st t) g = GV n -> g <= ns -> g_ns st n = NPub;
  (* a validated guard of free_list::pop (g > ns) keeps its node from being allocated anew or claimed *)
  I_popg : forall t g n, gd (tl st t) g = GV n -> ns < g -> ~ bad_q (g_ns st n);
  I_own : forall t, own_ok st t (th st t);
  I_ownr : forall n, ownr_ok st n (g_ns st n);
  I_alive : forall n, alive_ok (g_ns st n) (g_alive st n) (dst st n);
  I_cnt : forall n, g_nd st n + b2n (g_alive st n) = g_inc st n /\
                    g_npush st n + live4 (g_ns st n) = g_inc st n /\
                    g_npop st n + live4 (g_ns st n) + isfree (g_ns st n) = g_inc st n;
  I_fl : NoDup (g_fl st) /\ (forall n, In n (g_fl st) <-> g_ns st n = NFree) /\ fhead st = hd_opt (g_fl st) /\ chain (nxt st) (g_fl st);
  I_uaf : g_uaf st = false }.

(** * Projections of updated states, case splitting *)
Ltac prj := cbn [cells fhead rc dst nxt nalloc nextid nid th tl g_ns g_inc g_nd g_npush g_npop g_alive g_refs g_fl g_uaf
                 w_cells w_fhead w_rc w_dst w_nxt w_nalloc w_nextid w_nid w_th w_tl w_g_ns w_g_inc w_g_nd w_g_npush w_g_npop w_g_alive w_g_refs w_g_fl w_g_uaf
                 set_pc set_gd add_ref del_ref rep_ref deref destroy gd].
Ltac prj_in H := cbn [cells fhead rc dst nxt nalloc nextid nid th tl g_ns g_inc g_nd g_npush g_npop g_alive g_refs g_fl g_uaf
                 w_cells w_fhead w_rc w_dst w_nxt w_nalloc w_nextid w_nid w_th w_tl w_g_ns w_g_inc w_g_nd w_g_npush w_g_npop w_g_alive w_g_refs w_g_fl w_g_uaf
                 set_pc set_gd add_ref del_ref rep_ref deref destroy gd] in H.
Ltac prj_hyps := repeat match goal with H : _ |- _ => progress prj_in H end.

Ltac inv_some H := injection H as <- <-.
Ltac step_split H :=
  repeat match type of H with
  | None = Some _ => discriminate H
  | context [match ?x with _ => _ end] =>
      let E := fresh "E" in destruct x eqn:E
  | Some _ = Some _ => inv_some H
  end.
Lemma odd_dec_new old : Nat.odd (old - dec_new old) = (old =? 2).
Proof.
  unfold dec_new. destruct (Nat.eqb_spec (old - 2) 0) as [E|E].
  - assert (old = 0 \/ old = 1 \/ old = 2) as [-> | [-> | ->]] by lia; reflexivity.
  - replace (old - (old - 2)) with 2 by lia. destruct (Nat.eqb_spec old 2); [lia|reflexivity].
Qed.

Ltac bool_eqs :=
  repeat match goal with
  | H : Nat.odd (_ - dec_new _) = _ |- _ => rewrite odd_dec_new in H
  | H : (_ =? _) = true |- _ => apply Nat.eqb_eq in H
  | H : (_ =? _) = false |- _ => apply Nat.eqb_neq in H
  | H : (_ <? _) = true |- _ => apply Nat.ltb_lt in H
  | H : (_ <? _) = false |- _ => apply Nat.ltb_ge in H
  | H : oeqb _ _ = true |- _ => apply oeqb_eq in H
  | H : oeqb _ _ = false |- _ => apply oeqb_false in H
  end.

(** * Guards of the free list's pop *)
Lemma other_popg ns g : popg ns g -> popg ns (other ns g) /\ other ns g <> g /\ other ns (other ns g) = g /\ ns < g.
Proof.
  unfold popg, other. intros [-> | ->].
  - rewrite Nat.eqb_refl. destruct (S (S ns) =? S ns) eqn:E; [apply Nat.eqb_eq in E; lia|]. repeat split; auto; lia.
  - destruct (S (S ns) =? S ns) eqn:E; [apply Nat.eqb_eq in E; lia|]. rewrite Nat.eqb_refl. repeat split; auto; lia.
Qed.

Lemma first_held_spec gs : forall fuel g g' p, first_held gs g fuel = Some (g', p) -> gnode (gs g') = Some p /\ g <= g' < g + fuel.
Proof.
  induction fuel as [|f IH]; intros g g' p H; cbn in H; [discriminate|].
  destruct (gnode (gs g)) eqn:E.
  - injection H as <- <-. split; [exact E|lia].
  - apply IH in H. destruct H as [H1 H2]. split; [exact H1|lia].
Qed.
Lemma first_held_none gs : forall fuel g, first_held gs g fuel = None -> forall g', g <= g' < g + fuel -> gnode (gs g') = None.
Proof.
  induction fuel as [|f IH]; intros g H g' Hg; [lia|]. cbn in H.
  destruct (gnode (gs g)) eqn:E; [discriminate|].
  destruct (Nat.eq_dec g' g) as [->|Hne]; [exact E|]. apply (IH (S g) H). lia.
Qed.

Lemma gnode_none x : gnode x = None -> x = GE.
Proof. destruct x; cbn; intros; congruence. Qed.

(** * Tactics for the thread-local shape *)
Ltac fn := cbn [tshape gu_at rk_post ctx_sh guard_of gnode legal inpop popk].
Ltac fn_in H := cbn [tshape gu_at rk_post ctx_sh guard_of gnode legal inpop popk] in H.

Ltac upd_split :=
  repeat match goal with
  | |- context [upd ?f ?a ?v ?b] => let Hu := fresh "Hu" in destruct (upd_cases f a v b) as [[? Hu]|[? Hu]]; rewrite Hu in *; clear Hu
  | H : context [upd ?f ?a ?v ?b] |- _ => let Hu := fresh "Hu" in destruct (upd_cases f a v b) as [[? Hu]|[? Hu]]; rewrite Hu in *; clear Hu
  end.

Lemma other_SS ns : other ns (S (S ns)) = S ns.
Proof. unfold other. destruct (Nat.eqb_spec (S (S ns)) (S ns)); [lia|reflexivity]. Qed.

(* case analysis of the guards whose node is known *)
Ltac guard_cases G :=
  repeat match goal with
  | H : gnode ?x = None |- _ => apply gnode_none in H
  | H : gnode (?gs ?g) = Some ?p |- _ =>
    let Eg := fresh "Eg" in destruct (gs g) eqn:Eg; cbn [gnode] in H;
    [discriminate H | exfalso; apply G in Eg; fn_in Eg; intuition congruence | injection H as ->]
  end.

Lemma popg_S ns : popg ns (S ns). Proof. left; reflexivity. Qed.
Lemma popg_SS ns : popg ns (S (S ns)). Proof. right; reflexivity. Qed.
Lemma other_S ns : other ns (S ns) = S (S ns). Proof. unfold other. rewrite Nat.eqb_refl. reflexivity. Qed.

Ltac fn_hyps := repeat match goal with H : _ |- _ => progress fn_in H end.
Ltac stuck :=
  repeat match goal with
  | H : context [match ?x with _ => _ end] |- _ => is_var x; destruct x
  | |- context [match ?x with _ => _ end] => is_var x; destruct x
  end.
Ltac easy_fin := first [assumption | reflexivity | lia | congruence | discriminate | apply popg_S | apply popg_SS | exfalso; lia | exfalso; congruence | solve [auto] | solve [intuition congruence]].
(* Closes one conjunct of [tsh ns p' gs'] for the successor of a step, given the three conjuncts of [tsh ns p gs] before
   it: the shape (any name, in the context), [G : forall g q, gs g = GU q -> gu_at ns p g q] and
   [P : inpop p = false -> gs (S ns) = GE /\ gs (S (S ns)) = GE], all with p in constructor form. *)
Ltac fin G P :=
  repeat match goal with H : _ /\ _ |- _ => destruct H end; subst;
  prj_hyps; rewrite ?upd_same in *; prj_hyps; bool_eqs; stuck; fn; fn_hyps;
  repeat match goal with H : _ /\ _ |- _ => destruct H end; subst;
  try discriminate;
  try (specialize (P eq_refl); destruct P);
  repeat match goal with H : popg ?ns ?g |- _ => is_var g; destruct H as [-> | ->] end; rewrite ?other_S, ?other_SS in *;
  repeat match goal with |- _ /\ _ => split end;
  try solve [easy_fin];
  repeat match goal with H : first_held _ _ _ = Some _ |- _ => apply first_held_spec in H; destruct H end;
  upd_split; subst; guard_cases G; upd_split; subst;
  try solve [easy_fin];
  try solve [match goal with Hx : _ = GU _ |- _ => apply G in Hx; fn_in Hx; stuck; fn_hyps; easy_fin end];
  try solve [repeat match goal with Hx : gd _ _ = _ |- _ => rewrite Hx in * end; cbn [gnode] in *; easy_fin].



Lemma tsh_init ns : tsh ns Idle (gd tl0).
Proof. repeat split; cbn; intros; discriminate. Qed.

(** * Lists of references *)
Lemma refs_add (L : list ref) r0 : NoDup L -> ~ In r0 L ->
  NoDup (r0 :: L) /\ length (r0 :: L) = S (length L) /\ (forall r, In r (r0 :: L) <-> r = r0 \/ In r L).
Proof.
  intros ND NI. split; [constructor; assumption|]. split; [reflexivity|].
  intros r. cbn. split; intros [H|H]; auto.
Qed.

Definition delr (r0 : ref) (L : list ref) := filter (fun x => negb (ref_eqb x r0)) L.
Lemma delr_in r0 L r : In r (delr r0 L) <-> r <> r0 /\ In r L.
Proof.
  unfold delr. rewrite filter_In. split.
  - intros [H1 H2]. split; [|exact H1]. apply negb_true_iff in H2. apply ref_eqb_neq in H2. exact H2.
  - intros [H1 H2]. split; [exact H2|]. apply negb_true_iff. apply ref_eqb_neq. exact H1.
Qed.
Lemma delr_cons r0 a L : delr r0 (a :: L) = if ref_eqb a r0 then delr r0 L else a :: delr r0 L.
Proof. unfold delr. cbn [filter]. destruct (ref_eqb a r0); reflexivity. Qed.
Lemma delr_notin r0 L : ~ In r0 L -> delr r0 L = L.
Proof.
  induction L as [|a L IH]; intros H; [reflexivity|]. rewrite delr_cons. destruct (ref_eqb a r0) eqn:E.
  - apply ref_eqb_eq in E. subst. exfalso. apply H. left. reflexivity.
  - f_equal. apply IH. intros X. apply H. right. exact X.
Qed.
Lemma delr_len r0 L : NoDup L -> In r0 L -> S (length (delr r0 L)) = length L.
Proof.
  induction L as [|a L IH]; intros ND HI; [destruct HI|].
  inversion ND as [|? ? Hn ND']; subst. rewrite delr_cons. destruct (ref_eqb a r0) eqn:E.
  - apply ref_eqb_eq in E. subst. rewrite (delr_notin _ _ Hn). reflexivity.
  - cbn [length]. f_equal. apply IH; [exact ND'|]. destruct HI as [->|HI]; [|exact HI]. rewrite ref_eqb_refl in E. discriminate.
Qed.
Lemma refs_del (L : list ref) r0 : NoDup L -> In r0 L ->
  NoDup (delr r0 L) /\ S (length (delr r0 L)) = length L /\ (forall r, In r (delr r0 L) <-> r <> r0 /\ In r L).
Proof.
  intros ND HI. split; [apply NoDup_filter; exact ND|]. split; [apply delr_len; assumption|]. intros r. apply delr_in.
Qed.

Definition repr (r0 r1 : ref) (L : list ref) := map (fun x => if ref_eqb x r0 then r1 else x) L.
Lemma repr_in r0 r1 L r : In r (repr r0 r1 L) <-> (r = r1 /\ In r0 L) \/ (r <> r0 /\ In r L).
Proof.
  unfold repr. rewrite in_map_iff. split.
  - intros (x & Hx & HI). destruct (ref_eqb x r0) eqn:E.
    + apply ref_eqb_eq in E. subst x. left. split; [symmetry; exact Hx|exact HI].
    + apply ref_eqb_neq in E. subst x. right. split; assumption.
  - intros [[Hr HI] | [Hn HI]].
    + exists r0. rewrite ref_eqb_refl. split; [symmetry; exact Hr|exact HI].
    + exists r. apply ref_eqb_neq in Hn. rewrite Hn. split; [reflexivity|exact HI].
Qed.
Lemma refs_rep (L : list ref) r0 r1 : NoDup L -> In r0 L -> ~ In r1 L ->
  NoDup (repr r0 r1 L) /\ length (repr r0 r1 L) = length L /\ (forall r, In r (repr r0 r1 L) <-> r = r1 \/ (r <> r0 /\ In r L)).
Proof.
  intros ND HI NI. assert (Hne : r0 <> r1) by (intros ->; contradiction).
  split; [|split; [apply map_length|]].
  - clear HI. induction L as [|a L IH]; [constructor|]. inversion ND as [|? ? Hn ND']; subst.
    change (repr r0 r1 (a :: L)) with ((if ref_eqb a r0 then r1 else a) :: repr r0 r1 L).
    constructor.
    + intros X. apply repr_in in X. destruct (ref_eqb a r0) eqn:E.
      * apply ref_eqb_eq in E. subst a. destruct X as [[_ X]|[_ X]]; [contradiction|]. apply NI. right. exact X.
      * apply ref_eqb_neq in E. destruct X as [[Ha X]|[_ X]]; [|contradiction]. apply NI. left. exact Ha.
    + apply IH; [exact ND'|]. intros X. apply NI. right. exact X.
  - intros r. rewrite repr_in. split.
    + intros [[Hr _]|[H1 H2]]; [left; exact Hr|right; split; assumption].
    + intros [Hr|[H1 H2]]; [left; split; [exact Hr|exact HI]|right; split; assumption].
Qed.

