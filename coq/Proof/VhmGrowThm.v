(** vyukov_hash_map with several buckets and grow: the final statements (C10), the reader theorem over executions,
    examples. *)
From Coq Require Import NArith List Bool Lia PeanoNat.
From XV Require Import Base.Word Conc.Lts Conc.Ev gen.BucketStateGen Proof.BucketState Model.VhmGrowDefs
  Proof.VhmGrowBase Proof.VhmGrowAbs Proof.VhmGrowInv.
From XV Require Proof.VhmBase.
Import ListNotations.
Local Open Scope N_scope.

(** the key of a lock-free call (try_get_value) or of an erase / extract call *)
Definition call_key (p : pc) : option N :=
  match p with
  | X1 _ k | X2 _ k _ _ | X3 _ k _ _ _ | XK _ k _ _ _ _ | XV _ k _ _ _ _ | XH _ k _ _ _ _ _ | XB1 _ k _ _ _ _ _ | XB2 _ k _ _ _ _ _
  | XB3 _ k _ _ _ _ _ _ | XB4 _ k _ _ _ _ _ _ _ | XB5 _ k _ _ _ _ _ _ | XB6 _ k _ _ _ _ _ | XHH _ k _ _ _ | XU _ k _ _ _
  | G1 k | G2 k _ _ | GK k _ _ _ _ | GV k _ _ _ _ | GD k _ _ _ _ _ | GS k _ _ _ _ _ | GH k _ _ _ | GE k _ _ _ => Some k
  | _ => None
  end.
(** ... of a try_get_value call *)
Definition get_key (p : pc) : option N :=
  match p with
  | G1 k | G2 k _ _ | GK k _ _ _ _ | GV k _ _ _ _ | GD k _ _ _ _ _ | GS k _ _ _ _ _ | GH k _ _ _ | GE k _ _ _ => Some k
  | _ => None
  end.
(** the program points of grow / do_grow *)
Definition grow_pc (p : pc) : bool :=
  match p with
  | GR1 _ _ _ _ _ _ | GR2 _ _ _ _ _ _ _ | GRW _ => true
  | _ => rs_pc p
  end.

Section VhmGrowThm.
  Variable hash : N -> N.
  Variable cap : N.
  Hypothesis cap_pos : 0 < cap.
  Notation step := (step hash).
  Notation init := (init cap).
  Notation Lk := (Lk hash).

  Lemma inv1 st : reach init step st -> Inv1 hash st.
  Proof. apply Inv1_reach. exact cap_pos. Qed.

  (** ** 1. lock discipline *)
  (** bucket locks: the lock bit of a bucket is set iff a thread holds it or the block has been replaced (then for
      ever); at most one holder; the version field counts the version increments (mod 2^27) *)
  Theorem vhmg_bucket_locks st : reach init step st -> forall b j,
    (bs_is_locked (bst st b j) = true <-> (exists t, holds (th st t) b j) \/ (g_frozen st b = true /\ j < bcnt st b)) /\
    (forall t t', holds (th st t) b j -> holds (th st t') b j -> t = t') /\
    (forall t, holds (th st t) b j -> b = db st /\ j < bcnt st b) /\
    bs_version (bst st b j) = g_nver st b j mod 2 ^ 27.
  Proof.
    intros Hr b j. destruct (inv1 _ Hr) as ((HI & _) & _). rsplit.
    - rewrite (K_bit _ _ HI). rewrite orb_true_iff, andb_true_iff, N.ltb_lt. split.
      + intros [H|H]; [left | right; exact H]. destruct (g_own st b j) as [t|] eqn:Eo; [|discriminate H]. exists t. apply (K_pc _ _ HI). exact Eo.
      + intros [[t H]|H]; [left | right; exact H]. rewrite (K_hold _ _ HI _ _ _ H). reflexivity.
    - intros t t' H1 H2. pose proof (K_hold _ _ HI _ _ _ H1). pose proof (K_hold _ _ HI _ _ _ H2). congruence.
    - intros t. apply (K_cur _ _ HI).
    - apply (K_ver _ _ HI).
  Qed.

  (** the resize lock: held iff a thread is between the successful exchange and the releasing store; at most one *)
  Theorem vhmg_resize_lock st : reach init step st ->
    (rlock st = 1 <-> exists t, rs_pc (th st t) = true) /\ (rlock st = 0 \/ rlock st = 1) /\
    (forall t t', rs_pc (th st t) = true -> rs_pc (th st t') = true -> t = t').
  Proof.
    intros Hr. destruct (inv1 _ Hr) as ((HI & _) & _). pose proof (K_rl _ _ HI) as Hl. rsplit.
    - split.
      + intros H. destruct (g_rown st) as [t|] eqn:Eo; [|rewrite H in Hl; discriminate]. exists t. apply (K_rpc _ _ HI). exact Eo.
      + intros [t H]. rewrite (K_rown _ _ HI _ H) in Hl. exact Hl.
    - destruct (g_rown st); auto.
    - intros t t'. apply (rs_unique hash st); exact HI.
  Qed.

  (** while do_grow holds all bucket locks of the old block (migration phase), no step of another thread changes a
      bucket of that block or the abstract map *)
  Theorem vhmg_grow_excludes_writers st t t' ob nb n st' es : reach init step st ->
    pc_blocks (th st t) = Some (ob, nb, n) -> (forall j, j < n -> holds (th st t) ob j) -> t' <> t ->
    step st (Step t') = Some (st', es) ->
    (forall j, same_bkt st st' ob j) /\ (forall j, same_bkt st st' nb j) /\ forall k, lookup k (g_map st') = lookup k (g_map st).
  Proof.
    intros Hr Hb Hh Hne Hs. destruct (inv1 _ Hr) as ((HI & _) & _).
    destruct (blocks_facts hash _ _ _ _ _ HI Hb) as (B1 & B2 & _).
    rsplit.
    - intros j. destruct (N.lt_ge_cases j n) as [Hj|Hj].
      + exact (other_same hash _ _ _ _ t ob j HI Hs ltac:(cbn [actor]; congruence) (Hh j Hj)).
      + (* not a bucket of the block: nobody ever writes there *)
        destruct (step_frame hash _ _ _ _ HI Hs ob j) as [H|[(t0 & _ & _ & H & _)|[(t0 & ob0 & n0 & E & H)|(t0 & c & E & H1 & H2)]]]; [exact H | exfalso ..].
        * subst n. lia.
        * injection E as <-. destruct (blocks_facts hash _ _ _ _ _ HI H) as (_ & _ & _ & C4 & _ & _).
          apply Hne. apply (rs_unique hash st); [exact HI | eapply rs_of_blocks; exact H | eapply rs_of_blocks; exact Hb].
        * injection E as <-. apply Hne. apply (rs_unique hash st); [exact HI | rewrite H1; reflexivity | eapply rs_of_blocks; exact Hb].
    - intros j. exact (other_new hash _ _ _ _ t ob nb n j HI Hs ltac:(cbn [actor]; congruence) Hb).
    - intros k. destruct (map_frame hash _ _ _ _ HI Hs k) as [E|(t0 & E & Ho)]; [exact E | exfalso]. injection E as <-.
      assert (Hj : hb hash st k < n) by (subst n ob; apply N.mod_lt; pose proof (K_db _ _ HI); unfold nb_; lia).
      pose proof (K_hold _ _ HI _ _ _ (Hh _ Hj)) as Ho'. subst ob. congruence.
  Qed.

  (** the version rule: a step either increments the version of a bucket (of the current or of a replaced block) or
      leaves it to the readers as [Env] says (Proof/VhmGrowInv.v); the buckets of a replaced block never change *)
  Theorem vhmg_version_rule st a st' es b j : reach init step st -> step st a = Some (st', es) ->
    b = db st \/ g_frozen st b = true ->
    g_nver st' b j = g_nver st b j + 1 \/ (g_nver st' b j = g_nver st b j /\ Env hash st st' b j).
  Proof. intros Hr Hs Hb. destruct (inv1 _ Hr) as ((HI & _ & HA & _) & _). exact (step_env hash _ _ _ _ b j HI HA Hs Hb). Qed.

  Theorem vhmg_replaced_block_frozen st a st' es b j : reach init step st -> step st a = Some (st', es) ->
    g_frozen st b = true -> same_bkt st st' b j /\ g_frozen st' b = true /\ bs_is_locked (bst st b j) = (j <? bcnt st b).
  Proof.
    intros Hr Hs Hf. destruct (inv1 _ Hr) as ((HI & _) & _).
    rsplit; [exact (frozen_same hash _ _ _ _ b j HI Hs Hf) | exact (frozen_mono hash _ _ _ _ _ Hs Hf) |].
    rewrite (K_bit _ _ HI), Hf. destruct (g_own st b j) as [u|] eqn:Eo; [|reflexivity].
    destruct (own_cur hash _ _ _ _ HI Eo) as [-> _]. pose proof (K_db _ _ HI). intuition congruence.
  Qed.

  (** ** 2. the abstraction *)
  (** [g_map] = the valid slots (below item_count, not the slot a removal has marked) of the buckets of the CURRENT
      block; every key sits in the bucket its hash selects for that block's mask, exactly once *)
  Theorem vhmg_structure st : reach init step st ->
    (forall k v, lookup k (g_map st) = Some v <->
                 exists i, vslot st (db st) (hash k mod bcnt st (db st)) i /\
                           akey st (db st) (hash k mod bcnt st (db st)) i = k /\ aval st (db st) (hash k mod bcnt st (db st)) i = v) /\
    (forall j i, j < bcnt st (db st) -> vslot st (db st) j i -> hash (akey st (db st) j i) mod bcnt st (db st) = j) /\
    (forall j i i', j < bcnt st (db st) -> vslot st (db st) j i -> vslot st (db st) j i' ->
                    akey st (db st) j i = akey st (db st) j i' -> i = i') /\
    (forall j, g_own st (db st) j = None -> mk st (db st) j = 0 /\ bs_is_locked (bst st (db st) j) = false).
  Proof.
    intros Hr. destruct (inv1 _ Hr) as ((HI & HG & _) & _). rsplit.
    - exact (G_map _ _ HG).
    - exact (G_hash _ _ HG).
    - exact (G_us _ _ HG).
    - intros j Ho. split.
      + apply (K_mk _ _ HI). intros t Ht. congruence.
      + rewrite (K_bit _ _ HI), Ho, (proj2 (proj2 (proj2 (K_db _ _ HI)))). reflexivity.
  Qed.

  (** no step of grow / do_grow changes the abstract map *)
  Theorem vhmg_grow_keeps_map st t st' es : grow_pc (th st t) = true -> step st (Step t) = Some (st', es) -> g_map st' = g_map st.
  Proof.
    intros Hp H. cbn [step] in H. destruct (th st t) eqn:Epc; cbn [grow_pc rs_pc] in Hp; try discriminate Hp; try discriminate H.
    all: repeat match type of H with (if ?c then _ else _) = Some _ => destruct c eqn:?Ec end; try discriminate H.
    all: injection H as <- _; st_simpl_goal; reflexivity.
  Qed.

  (** the publication: the new block holds exactly the pairs of the old one (every pair in the bucket its hash selects
      for the new mask, none lost, none duplicated): the abstraction holds before the store w.r.t. the old block and after
      it w.r.t. the new block, for the same [g_map] *)
  Theorem vhmg_publish st t c ob nb n st' es : reach init step st -> th st t = DP1 c ob nb n -> step st (Step t) = Some (st', es) ->
    db st = ob /\ db st' = nb /\ g_map st' = g_map st /\ bcnt st' nb = 2 * bcnt st ob /\ G hash st /\ G hash st' /\
    (forall j, same_bkt st st' ob j) /\ (forall j, same_bkt st st' nb j).
  Proof.
    intros Hr Epc Hs. destruct (inv1 _ Hr) as ((HI & HG & _) & _).
    assert (Hr' : reach init step st') by (eapply reach_step; eauto). destruct (inv1 _ Hr') as ((_ & HG' & _) & _).
    destruct (blocks_facts hash st t ob nb n HI ltac:(rewrite Epc; reflexivity)) as (B1 & B2 & _ & _ & _ & _ & B7 & _).
    cbn [step] in Hs. rewrite Epc in Hs. injection Hs as <- _. st_simpl_goal. unfold dbl in B7. subst n.
    rsplit; auto; intros j; (split; [reflexivity | split; [intros; split; reflexivity | reflexivity]]).
  Qed.

  (** ** 3. writers *)
  (** [g_map] changes only at a step of a writer that records in [g_lp] what [g_map] associated with its key just
      before (the linearization points): insertion of (k, v) or removal of k *)
  Theorem vhmg_lp_step st a st' es : step st a = Some (st', es) ->
    g_map st' = g_map st \/
    exists t k, a = Step t /\ g_lp st' t = Some (lookup k (g_map st)) /\
      ((exists v, g_map st' = (k, v) :: g_map st) \/ g_map st' = rem k (g_map st)).
  Proof.
    intros H. destruct (step_inv hash _ _ _ _ H) as [t0 o Epc | t0 p st1 p' Epc HL | t0 p st1 p' Epc HS]; [left; reflexivity | |].
    - destruct (tlocal_ghost hash _ _ _ _ _ HL) as (l & r & o & h & ->). left. reflexivity.
    - destruct HS; st_simpl_goal; try match goal with |- context [if ?c then _ else _] => destruct c end; try (left; reflexivity);
        right; exists t0, k; rewrite ?upd_same; (split; [reflexivity|]); (split; [reflexivity|]); eauto.
  Qed.

  (** emplace / get_or_emplace return 'new' iff the key was absent at the linearization point (else the value found,
      for get_or_emplace), erase / extract return 'ok' iff it was present, extract returns its value; erase / extract that
      return 'absent' without a linearization point of their own (item_count = 0 seen before locking) observed the key
      absent at one of the recorded instants of the call *)
  Theorem vhmg_writers st : reach init step st -> forall h, In h (g_hist st) ->
    hist_ok_w h /\ (Bnd st -> hist_ok_r h).
  Proof.
    intros Hr h Hh. destruct (inv1 _ Hr) as ((_ & _ & _ & _ & HW) & _ & _ & _ & HR). split; [apply HW; exact Hh | intros HB; apply HR; assumption].
  Qed.

  (** ** 5. retired blocks *)
  (** a block is handed to the reclaimer at most once; a retired block has been replaced: it is not the current block,
      (this holds in every reachable state and [g_retired] only grows, so data_block never points to it again);
      every replaced block is retired, or its do_grow is just before the retire *)
  Theorem vhmg_retired st : reach init step st ->
    NoDup (g_retired st) /\
    (forall b, In b (g_retired st) -> g_frozen st b = true /\ b <> db st /\ b < nalloc st) /\
    (forall b, g_frozen st b = true -> In b (g_retired st) \/ exists t c nb, th st t = DP2 c b nb) /\
    (forall a st' es, step st a = Some (st', es) -> exists l, g_retired st' = g_retired st ++ l).
  Proof.
    intros Hr. destruct (inv1 _ Hr) as ((HI & _) & _ & _ & HT & _). rsplit.
    - exact (R_nd _ HT).
    - intros b Hb. pose proof (R_fr _ HT b Hb) as Hf. pose proof (K_db _ _ HI) as (_ & _ & _ & D4). rsplit; [exact Hf | intros ->; congruence | apply (K_fr _ _ HI); exact Hf].
    - exact (R_all _ HT).
    - intros a st' es H. destruct (step_inv hash _ _ _ _ H) as [t0 o Epc | t0 p st1 p' Epc HL | t0 p st1 p' Epc HS]; [exists []; rewrite app_nil_r; reflexivity | |].
      + destruct (tlocal_ghost hash _ _ _ _ _ HL) as (l & r & o & h & ->). exists []. rewrite app_nil_r. reflexivity.
      + destruct HS; try (exists []; rewrite app_nil_r; reflexivity). exists [ob]. reflexivity.
  Qed.

  (** ** 4. readers *)
  (** in terms of the recorded observations: a completed try_get_value(k) that returned v observed [g_map k = v] at one
      of the recorded instants of the call, one that returned 'absent' observed k absent (as long as no 27-bit version
      counter has wrapped around) *)
  Theorem vhmg_readers st : reach init step st -> Bnd st ->
    forall h k, In h (g_hist st) -> h_op h = OGet k ->
    (exists v, h_res h = [4; 1; v] /\ In (Some v) (h_obs h)) \/ (h_res h = [4; 0] /\ In None (h_obs h)).
  Proof.
    intros Hr HB h k Hh Ho. destruct (inv1 _ Hr) as (_ & _ & _ & _ & HR). pose proof (HR HB h Hh) as H. unfold hist_ok_r in H. rewrite Ho in H. exact H.
  Qed.

  (** ** the reader statement over executions (independent of the ghost [g_obs]) *)
  (** [exec s h]: [s] is reachable and [h] lists the states visited before, most recent first *)
  Inductive exec : state -> list state -> Prop :=
  | exec_init : exec init []
  | exec_step : forall s h a s' es, exec s h -> step s a = Some (s', es) -> exec s' (s :: h).

  Lemma exec_reach s h : exec s h -> reach init step s.
  Proof. induction 1 as [|s h a s' es _ IH Hs]; [apply reach_init | eapply reach_step; eauto]. Qed.

  Lemma obs_call_key p k : obs_key p = Some k -> call_key p = Some k.
  Proof. destruct p; cbn [obs_key call_key]; intros E; try discriminate E; exact E. Qed.

  (** what a step does to the observations of thread t *)
  Lemma obs_step st a st' es t : step st a = Some (st', es) ->
    match call_key (th st t) with
    | Some k => g_obs st' t = g_obs st t \/ g_obs st' t = g_obs st t ++ [lookup k (g_map st)]
    | None => g_obs st' t = g_obs st t \/ (g_obs st' t = [] /\ a = Step t /\ exists o, th st t = Begin o)
    end.
  Proof.
    intros H. destruct (step_inv hash _ _ _ _ H) as [t0 o Epc | t0 p st1 p' Epc HL | t0 p st1 p' Epc HS]; [| destruct HL | destruct HS]; clear H; st_simpl_goal.
    all: try (destruct (call_key (th st t)); left; reflexivity).
    all: try (destruct (Nat.eq_dec t t0) as [->|Hne]; [rewrite ?upd_same, ?Epc; cbn [call_key]; first [right; reflexivity | right; split; [reflexivity | split; [reflexivity | eexists; reflexivity]]]
                                                      | rewrite ?upd_other by exact Hne; destruct (call_key (th st t)); left; reflexivity]).
    - (* DP1: every observing call records the association of its key *)
      destruct (obs_key (th st t)) as [k|] eqn:Ek.
      + rewrite (obs_call_key _ _ Ek). right. reflexivity.
      + destruct (call_key (th st t)); left; reflexivity.
  Qed.

  (** own steps keep the key of the call *)
  Lemma call_key_step st a t st' es k : step st a = Some (st', es) -> a = Step t -> call_key (th st' t) = Some k ->
    (exists o, th st t = Begin o) \/ call_key (th st t) = Some k.
  Proof.
    intros H Ea. destruct (step_inv hash _ _ _ _ H) as [t0 o Epc | t0 p st1 p' Epc HL | t0 p st1 p' Epc HS]; try discriminate Ea; injection Ea as ->;
      [destruct HL | destruct HS].
    all: st_simpl_goal; rewrite ?upd_same; try match goal with |- context [call_key (if ?c then _ else _)] => destruct c end;
      cbn [call_key]; try discriminate; intros E; try (injection E as <-).
    all: try (right; rewrite Epc; reflexivity).
    all: try (left; eexists; reflexivity).
    all: try (left; eexists; exact Epc).
  Qed.

  Lemma start_pc st a t o st' es : step st a = Some (st', es) -> a = Start t o -> th st' t = Begin o.
  Proof. intros H Ea. destruct (step_inv hash _ _ _ _ H) as [t0 o0 Epc | t0 p st1 p' Epc HL | t0 p st1 p' Epc HS]; try discriminate Ea. injection Ea as -> ->. st_simpl_goal. apply upd_same. Qed.

  Lemma begin_obs st t o st' es k : step st (Step t) = Some (st', es) -> th st t = Begin o -> call_key (th st' t) = Some k ->
    g_obs st' t = [].
  Proof.
    intros H Hb. cbn [step] in H. rewrite Hb in H. destruct o; injection H as <- _; st_simpl_goal; rewrite ?upd_same; cbn [call_key];
      try discriminate; intros; reflexivity.
  Qed.

  (** every recorded observation is the association of the key in a state of the execution at which (and since which)
      the thread has been inside this call *)
  Definition obs_ok (s : state) (h : list state) : Prop :=
    forall t k, call_key (th s t) = Some k -> forall o, In o (g_obs s t) ->
    exists m, (m < length h)%nat /\ lookup k (g_map (nth m h s)) = o /\
              forall m', (m' <= m)%nat -> call_key (th (nth m' h s) t) = Some k.

  Lemma obs_ok_exec s h : exec s h -> obs_ok s h.
  Proof.
    induction 1 as [|s h a s' es He IH Hs].
    - intros t k Hk. cbn in Hk. discriminate.
    - intros t k Hk o Ho.
      assert (Hshift : forall o0, call_key (th s t) = Some k -> In o0 (g_obs s t) ->
                exists m, (m < length (s :: h))%nat /\ lookup k (g_map (nth m (s :: h) s')) = o0 /\
                          forall m', (m' <= m)%nat -> call_key (th (nth m' (s :: h) s') t) = Some k).
      { intros o0 Hk0 Ho0. destruct (IH t k Hk0 o0 Ho0) as (m & M1 & M2 & M3). exists (S m). cbn [length nth].
        split; [lia|]. split; [rewrite (nth_indep h s' s) by exact M1; exact M2|].
        intros [|m'] Hm'; [exact Hk0|]. rewrite (nth_indep h s' s) by lia. apply M3. lia. }
      assert (Hnow : call_key (th s t) = Some k ->
                exists m, (m < length (s :: h))%nat /\ lookup k (g_map (nth m (s :: h) s')) = lookup k (g_map s) /\
                          forall m', (m' <= m)%nat -> call_key (th (nth m' (s :: h) s') t) = Some k).
      { intros Hk0. exists 0%nat. cbn [length nth]. split; [lia|]. split; [reflexivity|]. intros m' Hm'. assert (m' = 0)%nat by lia. subst m'. exact Hk0. }
      pose proof (obs_step _ _ _ _ t Hs) as Hobs.
      assert (Hk0 : call_key (th s t) = Some k \/ g_obs s' t = []).
      { destruct (Nat.eq_dec t (actor a)) as [->|Hne]; [|left; rewrite <- (proj1 (step_other hash _ _ _ _ Hs t Hne)); exact Hk].
        destruct a as [u o'|u]; cbn [actor] in *.
        - rewrite (start_pc _ _ _ _ _ _ Hs eq_refl) in Hk. discriminate.
        - destruct (call_key_step _ _ _ _ _ _ Hs eq_refl Hk) as [[o2 Hb]|H]; [right; exact (begin_obs _ _ _ _ _ _ Hs Hb Hk) | left; exact H]. }
      destruct Hk0 as [Hk0|Hnil]; [|rewrite Hnil in Ho; destruct Ho].
      rewrite Hk0 in Hobs. destruct Hobs as [Hobs|Hobs]; rewrite Hobs in Ho.
      + apply Hshift; assumption.
      + apply in_snoc in Ho. destruct Ho as [Ho| ->]; [apply Hshift; assumption | apply Hnow; exact Hk0].
  Qed.

  Lemma ret_hist st a t st' es k r : step st a = Some (st', es) -> a = Step t -> get_key (th st t) = Some k ->
    In (ERet t r) es ->
    exists w, In (mkH t (OGet k) r w (g_obs st t ++ [lookup k (g_map st)])) (g_hist st').
  Proof.
    intros H -> Hk. cbn [step] in H. destruct (th st t) eqn:Epc; cbn [get_key] in Hk; try discriminate Hk; injection Hk as <-.
    all: unfold g_next_slot in H; repeat match type of H with (if ?c then _ else _) = Some _ => destruct c end; injection H as <- <-.
    all: cbn [In app]; intros Hr; repeat (destruct Hr as [Hr|Hr]; try discriminate Hr); try contradiction.
    all: injection Hr as <-; st_simpl_goal; rewrite ?upd_same; eexists; apply in_snoc; right; reflexivity.
  Qed.

  Lemma ret_hist_x2 st t st' es e k b j r : step st (Step t) = Some (st', es) -> th st t = X2 e k b j -> In (ERet t r) es ->
    r = del_res e false 0 /\ In (mkH t (del_op e k) r (g_lp st t) (g_obs st t ++ [lookup k (g_map st)])) (g_hist st').
  Proof.
    intros H Epc. cbn [step] in H. rewrite Epc in H. destruct (bs_item_count (bst st b j) =? 0); injection H as <- <-.
    - cbn [In app]. intros Hr. repeat (destruct Hr as [Hr|Hr]; try discriminate Hr); try contradiction. injection Hr as <-.
      split; [reflexivity|]. st_simpl_goal. rewrite upd_same. apply in_snoc. right. reflexivity.
    - cbn [In]. intros [Hr|[]]. discriminate Hr.
  Qed.

  (** the states of an execution are linked by steps *)
  Lemma exec_nth s h : exec s h -> forall m, (m < length h)%nat ->
    exists a es, step (nth (S m) (s :: h) s) a = Some (nth m (s :: h) s, es).
  Proof.
    induction 1 as [|s h a s' es He IH Hs]; intros m Hm; [cbn in Hm; lia|].
    destruct m as [|m]; [exists a, es; exact Hs|]. cbn [length] in Hm.
    destruct (IH m ltac:(lia)) as (a0 & es0 & H0). exists a0, es0. cbn [nth] in *.
    rewrite (nth_indep h s' s) by lia. destruct m as [|m]; [exact H0|]. rewrite (nth_indep h s' s) by lia. exact H0.
  Qed.

  (** inside one call the kind of the call does not change *)
  Lemma get_key_back st a st' es t k : step st a = Some (st', es) -> call_key (th st t) = Some k -> get_key (th st' t) = Some k ->
    get_key (th st t) = Some k.
  Proof.
    intros H. destruct (Nat.eq_dec t (actor a)) as [->|Hne]; [|rewrite (proj1 (step_other hash _ _ _ _ H t Hne)); auto].
    destruct (step_inv hash _ _ _ _ H) as [t0 o Epc | t0 p st1 p' Epc HL | t0 p st1 p' Epc HS]; [| destruct HL | destruct HS]; st_simpl_goal.
    all: rewrite ?upd_same, ?Epc; try match goal with |- context [get_key (if ?c then _ else _)] => destruct c end; cbn [call_key get_key]; congruence.
  Qed.

  Lemma get_key_prefix s h t k m : exec s h -> (m <= length h)%nat -> get_key (th s t) = Some k ->
    (forall m', (m' <= m)%nat -> call_key (th (nth m' (s :: h) s) t) = Some k) ->
    forall m', (m' <= m)%nat -> get_key (th (nth m' (s :: h) s) t) = Some k.
  Proof.
    intros He Hm Hk Hc m'. induction m' as [|m' IH]; intros Hm'; [exact Hk|].
    destruct (exec_nth _ _ He m' ltac:(lia)) as (a & es & Hs).
    apply (get_key_back _ _ _ _ t k Hs); [apply Hc; lia | apply IH; lia].
  Qed.

  (** every recorded observation, and the association of the key now, is the association at a state of the execution
      since which the thread has been inside the call *)
  Lemma obs_witness s h t k : exec s h -> call_key (th s t) = Some k -> forall o, In o (g_obs s t ++ [lookup k (g_map s)]) ->
    exists m, (m <= length h)%nat /\ (forall m', (m' <= m)%nat -> call_key (th (nth m' (s :: h) s) t) = Some k) /\
              lookup k (g_map (nth m (s :: h) s)) = o.
  Proof.
    intros He Hck o Ho. apply in_snoc in Ho. destruct Ho as [Ho| ->].
    - destruct (obs_ok_exec _ _ He t k Hck o Ho) as (m & M1 & M2 & M3). exists (S m). cbn [nth]. split; [lia|]. split; [|exact M2].
      intros [|m'] Hm'; [exact Hck | apply M3; lia].
    - exists 0%nat. cbn [nth]. split; [lia|]. split; [|reflexivity]. intros m' Hm'. assert (m' = 0)%nat by lia. subst m'. exact Hck.
  Qed.

  (** C10, the main theorem: in every execution - with any number of grows - a try_get_value(k) call of thread t that
      returns r at the step s -> s' has a state [sm] of the execution, at which and since which t has been inside this
      call, where [g_map] associated k with the returned value (r = [4;1;v]), resp. where k was absent (r = [4;0]) *)
  Theorem vhmg_try_get_value_linearizable s h a t k s' es r :
    exec s h -> step s a = Some (s', es) -> a = Step t -> get_key (th s t) = Some k -> In (ERet t r) es -> Bnd s' ->
    exists m, (m <= length h)%nat /\
      (forall m', (m' <= m)%nat -> get_key (th (nth m' (s :: h) s) t) = Some k) /\
      ((exists v, r = [4; 1; v] /\ lookup k (g_map (nth m (s :: h) s)) = Some v) \/
       (r = [4; 0] /\ lookup k (g_map (nth m (s :: h) s)) = None)).
  Proof.
    intros He Hs Ea Hk Hr HB.
    destruct (ret_hist _ _ _ _ _ _ _ Hs Ea Hk Hr) as [w Hh].
    assert (Hreach : reach init step s') by (eapply reach_step; [apply (exec_reach _ _ He) | exact Hs]).
    pose proof (vhmg_readers _ Hreach HB _ k Hh eq_refl) as Hres. cbn [h_res h_obs] in Hres.
    assert (Hck : call_key (th s t) = Some k) by (destruct (th s t); cbn [get_key call_key] in *; congruence).
    destruct Hres as [(v & E & Hin)|[E Hin]]; destruct (obs_witness _ _ _ _ He Hck _ Hin) as (m & M1 & M2 & M3); exists m; (split; [exact M1|]);
      (split; [exact (get_key_prefix s h t k m He M1 Hk M2)|]).
    - left. exists v. auto.
    - right. auto.
  Qed.

  (** the lock-free exit of erase / extract (item_count = 0 seen before locking, possibly in a replaced block): the key
      was absent at a state of the execution inside the call *)
  Theorem vhmg_erase_empty_linearizable s h t e k b j s' es r :
    exec s h -> step s (Step t) = Some (s', es) -> th s t = X2 e k b j -> In (ERet t r) es -> Bnd s' ->
    r = del_res e false 0 /\
    exists m, (m <= length h)%nat /\
      (forall m', (m' <= m)%nat -> call_key (th (nth m' (s :: h) s) t) = Some k) /\
      lookup k (g_map (nth m (s :: h) s)) = None.
  Proof.
    intros He Hs Epc Hr HB. destruct (ret_hist_x2 _ _ _ _ _ _ _ _ _ Hs Epc Hr) as [Er Hh]. split; [exact Er|].
    assert (Hreach : reach init step s') by (eapply reach_step; [apply (exec_reach _ _ He) | exact Hs]).
    destruct (inv1 _ Hreach) as (_ & _ & _ & _ & HR). pose proof (HR HB _ Hh) as Hres. unfold hist_ok_r in Hres. cbn [h_op h_wit h_obs] in Hres.
    destruct (inv1 _ (exec_reach _ _ He)) as ((_ & _ & HA & _) & _). pose proof (HA t) as Hab. rewrite Epc in Hab. cbn [pc_abs] in Hab.
    assert (Hin : In None (g_obs s t ++ [lookup k (g_map s)])) by (unfold del_op in Hres; destruct e; apply Hres; exact Hab).
    assert (Hck : call_key (th s t) = Some k) by (rewrite Epc; reflexivity).
    exact (obs_witness _ _ _ _ He Hck None Hin).
  Qed.
End VhmGrowThm.

(** the bucket index: the code computes hash & mask with mask = bucket_count - 1; bucket counts are powers of two (the
    constructor rounds the initial capacity up to one, do_grow doubles), so this is the [mod] of the model *)
Lemma index_mask h e : N.land h (2 ^ e - 1) = h mod 2 ^ e.
Proof. rewrite <- N.pred_sub, <- N.ones_equiv. apply N.land_ones. Qed.

Theorem vhmg_bucket_count_pow2 hash e0 st : reach (init (2 ^ e0)) (step hash) st ->
  forall b, bcnt st b = 0 \/ exists e, bcnt st b = 2 ^ e.
Proof.
  intros Hr. assert (Hc : 0 < 2 ^ e0) by (apply N.neq_0_lt_0; apply N.pow_nonzero; discriminate).
  induction Hr as [|s a s' es Hr IH Hs].
  - intros b. cbn. destruct (b =? 1); [right; exists e0; reflexivity | left; reflexivity].
  - intros b. destruct (inv1 hash (2 ^ e0) Hc _ Hr) as ((HI & _) & _). pose proof (K_db _ _ HI) as (_ & _ & D3 & _).
    destruct (step_inv hash _ _ _ _ Hs) as [t0 o Epc | t0 p st1 p' Epc HL | t0 p st1 p' Epc HS]; [apply IH | |].
    1: destruct (tlocal_ghost hash _ _ _ _ _ HL) as (l & r & o & h & ->); apply IH.
    destruct HS; st_simpl_goal; try apply IH.
    unfold setf1. destruct (b =? nalloc s); [|apply IH]. right. destruct (IH (db s)) as [E|[e E]]; [lia|].
    exists (e + 1). unfold dbl. rewrite E, N.pow_add_r, N.pow_1_r. apply N.mul_comm.
Qed.

(** C10, corollaries in the words of the property: never 'absent' for a key that is present throughout the call, never
    a value the key was not associated with at an instant of the call (so no value of another key, no torn value) *)
Corollary vhmg_never_absent_if_present hash cap s h a t k s' es : 0 < cap ->
  exec hash cap s h -> step hash s a = Some (s', es) -> a = Step t -> get_key (th s t) = Some k -> Bnd s' ->
  (forall m, (m <= length h)%nat -> get_key (th (nth m (s :: h) s) t) = Some k ->
             lookup k (g_map (nth m (s :: h) s)) <> None) ->
  ~ In (ERet t [4; 0]) es.
Proof.
  intros Hc He Hs Ea Hk HB Hp Hr.
  destruct (vhmg_try_get_value_linearizable hash cap Hc _ _ _ _ _ _ _ _ He Hs Ea Hk Hr HB) as (m & M1 & M2 & [(v & E & _)|[_ M3]]); [discriminate|].
  apply (Hp m M1); [apply M2; lia | exact M3].
Qed.

Corollary vhmg_value_was_associated hash cap s h a t k s' es v : 0 < cap ->
  exec hash cap s h -> step hash s a = Some (s', es) -> a = Step t -> get_key (th s t) = Some k -> Bnd s' ->
  In (ERet t [4; 1; v]) es ->
  exists m, (m <= length h)%nat /\ get_key (th (nth m (s :: h) s) t) = Some k /\
            lookup k (g_map (nth m (s :: h) s)) = Some v.
Proof.
  intros Hc He Hs Ea Hk HB Hr.
  destruct (vhmg_try_get_value_linearizable hash cap Hc _ _ _ _ _ _ _ _ He Hs Ea Hk Hr HB) as (m & M1 & M2 & [(v' & E & M3)|[E _]]); [|discriminate].
  injection E as <-. exists m. split; [exact M1|]. split; [apply M2; lia | exact M3].
Qed.
