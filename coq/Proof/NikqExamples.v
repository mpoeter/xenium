(** nikolaev_queue model: executable examples (run + vm_compute) and the witnesses of the [_refuted] statements.
    Both schedules were replayed by the real code (harness h_uq, reclaimer GC, cfg q=nik elem=int epn=1 retries=0) with
    traces identical to the model's, line by line.

    [thr_pre] (4 threads): three pops that found the head node empty are delayed between catchup and the threshold
    decrement; a push publishes 7 and does not reset the threshold (it still has its maximum); the three decrements take
    it below zero: the state is quiescent, 7 is stored, and every later pop answers 'empty' after one load.  The real
    code reports "value 7 was accepted but never returned (lost)".

    [w2_pre] (5 threads): the same three delayed decrements hit between set_threshold and the second dequeue of a pop on a
    node that already has a successor: the pop advances the head and RETIRES node 1 while value 7 is stored in it and no
    pop holds its dequeue ticket; it then returns 8 (node 5) although 7 was pushed before 8.  (One of the three
    delayed pops later returns 7 from the retired node: the history stays linearizable only because that pop was pending.) *)
From Coq Require Import NArith List Bool Lia PeanoNat.
From XV Require Import Base.Word Conc.Lts Conc.Ev gen.ScqGen Model.NikbDefs Model.NikqDefs.
From XV Require Import Proof.NikbOwn Proof.NikqBase Proof.NikqRing Proof.NikqChain Proof.NikqVal Proof.NikqValStep Proof.NikqCons.
Import ListNotations.
Local Open Scope N_scope.

Definition steps (t : nat) (n : nat) : list action := repeat (Step t) n.
(** thread t starts operation o and takes n steps (the first one emits the invocation) *)
Definition opn (t : nat) (o : op) (n : nat) : list action := Start t o :: steps t n.
Definition qst (cap R : N) (acts : list action) : qstate := fst (fst (run (qstep cap R) (qinit cap) acts)).
Definition qtr (cap R : N) (acts : list action) : list ev := snd (fst (run (qstep cap R) (qinit cap) acts)).
Definition qsk (cap R : N) (acts : list action) : nat := snd (run (qstep cap R) (qinit cap) acts).
Definition rets (tr : list ev) : list (N * list N) :=
  flat_map (fun e => match e with ERet t r => [(N.of_nat t, r)] | _ => [] end) tr.
Definition pop := OPop false.

(** no counter of an allocated node has wrapped (checkable); the nodes that are not allocated are untouched *)
Definition noovfb (s : qstate) : bool :=
  forallb (fun i => negb (g_ovf (nd s (N.of_nat i)))) (seq 0 (N.to_nat (nalloc s))).

Lemma noovfb_ok cap R s : reach (qinit cap) (qstep cap R) s -> noovfb s = true -> noovf s.
Proof.
  intros Hr Hb n. pose proof (CI_reach cap R s Hr) as Hc. destruct (N.le_gt_cases (nalloc s) n) as [Hle|Hgt].
  - destruct (c_fresh cap s Hc n Hle) as [_ ->]. reflexivity.
  - unfold noovfb in Hb. rewrite forallb_forall in Hb. specialize (Hb (N.to_nat n)). rewrite N2Nat.id in Hb.
    apply negb_true_iff. apply Hb. apply in_seq. lia.
Qed.

Lemma good_run k R acts : noovfb (qst (2 ^ k) R acts) = true -> good k R (qst (2 ^ k) R acts).
Proof. intros H. split; [apply run_reach|]. eapply noovfb_ok; [apply run_reach|exact H]. Qed.

(** * threshold exhausted by delayed poppers: 'empty' although a value is stored and nothing is in progress *)
Definition thr_pre : list action :=
  opn 1 (OPush 1) 12 ++ opn 1 pop 10 ++ opn 1 (OPush 7) 1 ++ opn 2 pop 9 ++ opn 3 pop 9 ++ opn 4 pop 9 ++
  steps 1 10 ++ steps 2 2 ++ steps 3 2 ++ steps 4 2.
Definition thr_after : list action := opn 1 pop 4 ++ opn 2 pop 4.

Lemma thr_good : good 0 0 (qst 1 0 thr_pre).
Proof. apply (good_run 0 0 thr_pre). vm_compute. reflexivity. Qed.

Lemma thr_quiescent : quiescent (qst 1 0 thr_pre).
Proof.
  (* the run is evaluated once: the program points as a function of the thread *)
  intros t. remember (oth (qst 1 0 thr_pre)) as f eqn:E. vm_compute in E. subst f.
  do 5 (destruct t as [|t]; [reflexivity|]). reflexivity.
Qed.

Lemma nikq_threshold_empty_refuted :
  let s1 := qst 1 0 thr_pre in
  let r := run (qstep 1 0) s1 thr_after in
  good 0 0 s1 /\ qsk 1 0 thr_pre = 0%nat /\ quiescent s1 /\
  q_ok s1 = [(1, 0, 1); (1, 4, 7)] /\ q_out s1 = [(1, 0, 1)] /\ q_nodes s1 = [1] /\ q_retired s1 = [] /\ stored 0 s1 = [(1, 4, 7)] /\
  g_eq (ra (nd s1 1)) 4 = EPub 0 /\ g_dq (ra (nd s1 1)) 4 = DNone /\ rhead (ra (nd s1 1)) = 8 /\ rtail (ra (nd s1 1)) = 10 /\
  rthr (ra (nd s1 1)) = ones64 /\
  snd r = 0%nat /\ rets (snd (fst r)) = [(1, [0]); (2, [0])] /\ q_out (fst (fst r)) = q_out s1.
Proof.
  intros s1 r. split; [exact thr_good|]. split; [vm_compute; reflexivity|]. split; [exact thr_quiescent|].
  vm_compute. repeat split; reflexivity.
Qed.

(** the statement "a pop that answers 'empty' in a state where nothing else is in progress finds nothing stored" is false *)
Lemma nikq_empty_verdict_refuted :
  ~ (forall s u s' es, good 0 0 s -> (forall t, oth s t = OIdle \/ t = u) -> qstep 1 0 s (Step u) = Some (s', es) ->
       In (ERet u [0]) es -> stored 0 s = []).
Proof.
  intros H.
  set (s2 := qst 1 0 (thr_pre ++ opn 1 pop 3)).
  assert (Hg : good 0 0 s2) by (apply (good_run 0 0 (thr_pre ++ opn 1 pop 3)); vm_compute; reflexivity).
  assert (Hq : forall t, oth s2 t = OIdle \/ t = 1%nat).
  { intros t. remember (oth s2) as f eqn:E. vm_compute in E. subst f.
    destruct t as [|[|t]]; [left; reflexivity|right; reflexivity|left]. do 4 (destruct t as [|t]; [reflexivity|]). reflexivity. }
  assert (Hev : option_map snd (qstep 1 0 s2 (Step 1)) = Some [ELoad 1 (LHeap 1 576) 0 (VInt 0); ERet 1 [0]]) by (vm_compute; reflexivity).
  destruct (qstep 1 0 s2 (Step 1)) as [[s' es]|] eqn:E; [|discriminate Hev].
  cbn [option_map snd] in Hev. injection Hev as Hev.
  assert (Hne : stored 0 s2 <> []) by (vm_compute; discriminate).
  apply Hne. apply (H s2 1%nat s' es Hg Hq E). rewrite Hev. right. left. reflexivity.
Qed.

(** * a node is retired while a value is stored in it; the value of the next node leaves first *)
Definition w2_pre : list action :=
  opn 2 (OPush 1) 12 ++ opn 1 pop 10 ++ opn 3 pop 9 ++ opn 4 pop 9 ++ opn 5 pop 9 ++ opn 1 pop 10 ++
  opn 2 (OPush 7) 12 ++ opn 2 (OPush 8) 18 ++
  steps 1 2 ++ steps 3 1 ++ steps 4 1 ++ steps 5 1 ++ steps 1 12.
Definition w2_after : list action := steps 3 11 ++ steps 4 22 ++ steps 5 22 ++ opn 1 pop 11.

Lemma w2_good : good 0 0 (qst 1 0 w2_pre).
Proof. apply (good_run 0 0 w2_pre). vm_compute. reflexivity. Qed.

Lemma nikq_retired_with_value_state :
  let s1 := qst 1 0 w2_pre in
  let r := run (qstep 1 0) s1 w2_after in
  good 0 0 s1 /\ qsk 1 0 w2_pre = 0%nat /\
  q_nodes s1 = [1; 5] /\ q_retired s1 = [1] /\ qhead s1 = 5 /\ qtail s1 = 5 /\
  q_ok s1 = [(1, 0, 1); (1, 5, 7); (5, 0, 8)] /\ q_ret s1 = [(1, 0, 1); (5, 0, 8)] /\ q_out s1 = [(1, 0, 1); (5, 0, 8)] /\
  stored 0 s1 = [(1, 5, 7)] /\ g_dq (ra (nd s1 1)) 5 = DNone /\
  map (oth s1) [1; 2; 3; 4; 5]%nat = [OIdle; OIdle; Q2 1; Q2 1; Q2 1] /\
  snd r = 0%nat /\ rets (snd (fst r)) = [(3, [1; 7]); (4, [0]); (5, [0]); (1, [0])] /\ stored 0 (fst (fst r)) = [].
Proof.
  intros s1 r. split; [exact w2_good|]. vm_compute. repeat split; reflexivity.
Qed.

(** * the hypotheses of the theorems are satisfiable: [w2_good] is a good state with two linked nodes, one of them
    retired, three published and two taken values, one stored value, three pops in progress *)
Example nikq_example_conservation :
  let s := qst 1 0 w2_pre in
  q_in s = [(1, 0, 1); (1, 5, 7); (5, 0, 8)] /\ q_out s ++ stored 0 s = [(1, 0, 1); (5, 0, 8); (1, 5, 7)] /\
  fin s 1 = true /\ nxt s 1 = 5 /\ nxt s 5 = 0 /\ fin s 5 = false.
Proof. vm_compute. repeat split; reflexivity. Qed.

(** "a retired node is drained (every value published in it has been taken or a pop in progress holds its dequeue ticket)" is false *)
Lemma w2_counter_example : let s := qst 1 0 w2_pre in
  In 1 (q_retired s) /\ q_nodes s = [1; 5] /\ In (1, 5, 7) (q_in s) /\ In (5, 0, 8) (q_out s) /\
  ~ In (1, 5, 7) (q_out s) /\ forall u, g_dq (ra (nd s 1)) 5 <> DHeld u.
Proof.
  destruct nikq_retired_with_value_state as (_ & _ & En & Er & _ & _ & _ & _ & Eo & _ & Ed & _). destruct nikq_example_conservation as (Ei & _).
  cbv zeta. rewrite En, Er, Ei, Eo, Ed. repeat apply conj; [left; reflexivity|reflexivity|right; left; reflexivity|right; left; reflexivity| |discriminate].
  intros [H|[H|[]]]; discriminate H.
Qed.

Lemma nikq_retired_drained_refuted :
  ~ (forall s n T v, good 0 0 s -> In n (q_retired s) -> In (n, T, v) (q_in s) ->
       In (n, T, v) (q_out s) \/ exists u, g_dq (ra (nd s n)) T = DHeld u).
Proof.
  intros H. destruct w2_counter_example as (Hr & _ & Hi & _ & Hnt & Hnh).
  destruct (H (qst 1 0 w2_pre) 1 5 7 w2_good Hr Hi) as [Hx|[u Hx]]; [exact (Hnt Hx)|exact (Hnh u Hx)].
Qed.

(** "values of an earlier node are taken (or being taken) before a value of a later node is taken" is false *)
Lemma nikq_cross_node_order_refuted :
  ~ (forall s n1 T1 v1 n2 T2 v2 l1 l2 l3, good 0 0 s -> q_nodes s = l1 ++ n1 :: l2 ++ n2 :: l3 ->
       In (n1, T1, v1) (q_in s) -> In (n2, T2, v2) (q_out s) ->
       In (n1, T1, v1) (q_out s) \/ exists u, g_dq (ra (nd s n1)) T1 = DHeld u).
Proof.
  intros H. destruct w2_counter_example as (_ & Hn & Hi & Ho & Hnt & Hnh).
  destruct (H (qst 1 0 w2_pre) 1 5 7 5 0 8 [] [] [] w2_good Hn Hi Ho) as [Hx|[u Hx]]; [exact (Hnt Hx)|exact (Hnh u Hx)].
Qed.

(** a state in which a pop is inside the final check of a finalized node (thread 1 at D6 of its first dequeue on node 1
    after the push of 8 linked node 5): the hypotheses of [nikq_final_check] hold *)
Definition fc_acts : list action :=
  opn 2 (OPush 1) 12 ++ opn 2 (OPush 8) 18 ++ opn 1 pop 11 ++ opn 1 pop 7.
Example nikq_example_final_check :
  let s := qst 1 0 fc_acts in
  good 0 0 s /\ th (nd s 1) 1%nat = D6 RA 0 2 /\ fin s 1 = true /\ rtail (ra (nd s 1)) = 2 /\
  gt0 (ScqGen.diff (bitw (rtail (ra (nd s 1))) (fin s 1)) (wadd 64 2 2)) = false.
Proof.
  intros s. split; [apply (good_run 0 0 fc_acts); vm_compute; reflexivity|]. vm_compute. repeat split; reflexivity.
Qed.

(** the finalized node 1 of [w2_pre] and one of its tickets that was never handed out *)
Example nikq_example_finalized :
  let s := qst 1 0 w2_pre in fin s 1 = true /\ 1 < nalloc s /\ g_eq (ra (nd s 1)) 9 = ENone.
Proof. vm_compute. repeat split; reflexivity. Qed.

(** entries_per_node 2: two values in one node, taken in ticket order *)
Definition two_acts : list action := opn 1 (OPush 1) 20 ++ opn 1 (OPush 2) 20 ++ opn 2 pop 20 ++ opn 2 pop 20.
Example nikq_example_fifo :
  let s := qst 2 0 two_acts in
  good 1 0 s /\ q_in s = [(1, 0, 1); (1, 1, 2)] /\ q_out s = [(1, 0, 1); (1, 1, 2)] /\ q_ret s = q_out s /\ stored 1 s = [].
Proof.
  intros s. split; [apply (good_run 1 0 two_acts); vm_compute; reflexivity|]. vm_compute. repeat split; reflexivity.
Qed.
