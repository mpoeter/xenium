(** xenium::reclamation::generic_epoch_based<Traits> for EVERY configuration of its traits (Model/GebrDefs.v: scan
    frequency, scan strategy all_threads / one_thread / n_threads<N>, abandon strategy never / always /
    when_exceeds_threshold<T>, region extension none / eager / lazy): the theorems behind C01 and C02.

    The proofs are layered (each layer holds for every configuration and every reachable state: any number of threads, any
    client program over the operations of the model, any schedule, any number of cells and guard slots):
      Proof/GebrBase.v    frame of a step, the program points the configuration-dependent selectors can yield
      Proof/GebrShape.v   thread-local shape ([tshape]: nested_critical_entries = number of non-empty guards,
                          region_entries = nested_critical_entries + the region_guard, a thread with a guard is [sync])
      Proof/GebrOwn.v     exclusive ownership of thread control blocks, when the critical-region flag is set ([O0])
      Proof/GebrEpoch.v   the epoch argument ([P1], [PB]): a synchronised thread with validated epoch v keeps
                          global_epoch <= v + 1; the scan invariant covers the persistent iterator of n_threads / DEBRA
      Proof/GebrNodes.v   where a retired node is ([N0]): exactly one place, no duplicates, freed at most once
      Proof/GebrTags.v    in which epoch a node may be freed ([tag_ok]): global_epoch >= r + 3
      Proof/GebrGuards.v  guards ([guard_ok], [guard_not_freed], [uaf_reach])
      Proof/GebrFlush.v, Proof/GebrFlushN.v  (not used below) the liveness half of C02 as a bounded solo run of flush
                          operations in a quiescent state ([gebr_no_leak_at_quiescence])
    This file states the results.  No axioms. *)
From Coq Require Import NArith List Bool Arith Lia PeanoNat Setoid.
From XV Require Import Conc.Lts Conc.Ev Model.GebrDefs Proof.GebrBase Proof.GebrShape Proof.GebrOwn Proof.GebrEpoch Proof.GebrNodes Proof.GebrTags Proof.GebrGuards.
Import ListNotations.
Local Open Scope N_scope.

Section Theorems.
Variables (cfg : config) (ns : nat) (nc : N).
Notation reachable := (reach (init nc) (step cfg ns)).

(** * C01 *)

(** [gebr_safe] (C01): a node protected by a guard_ptr - a persistent guard of the client ([gs]) or the guard of the
    running repl/clear ([tmpg]) - is not freed (and was not dropped by its creator); and no dereference ever hit a
    destroyed node ([g_uaf]). *)
Theorem gebr_safe st : reachable st ->
  (forall u n, holds st u n -> g_nfree st n = O /\ g_where st n <> PFreed /\ g_life st n <> LDropped) /\
  g_uaf st = false.
Proof.
  intros Hr. split; [|apply (uaf_reach cfg ns nc); exact Hr].
  intros u n Hh.
  destruct (guard_not_freed cfg ns st u n (T0_reach cfg ns nc st Hr) (O0_reach cfg ns nc st Hr) (EI_reach cfg ns nc st Hr)
              (N0_reach cfg ns nc st Hr) (tag_reach cfg ns nc st Hr) (GI_reach cfg ns nc st Hr u n Hh) Hh) as (H1 & H2 & H3).
  auto.
Qed.

(** The epoch window.  [ve p x le] is the validated epoch of a thread at program point p with thread-local state x and
    published local epoch le: the epoch it carries through do_enter_critical after the load of global_epoch (the value it
    loaded, the value it advanced the epoch to), or its local_epoch once it is synchronised ([sync]: it compared its
    local epoch with the global epoch it loaded AFTER its flag was set, in the current critical region) - and nothing
    otherwise.  A thread with a validated epoch v has its flag set and keeps v <= global_epoch <= v + 1, for every scan
    strategy (also DEBRA's one-thread-at-a-time scan, whose iterator survives the scanner's critical regions) and every
    region extension.  With region_extension::eager / lazy the thread stays synchronised after its last guard_ptr is gone
    until the region_guard is destroyed; with region_extension::eager the flag is set by the region_guard constructor
    WITHOUT validation: flag set does not imply the window ([nebr_flag_without_validation_refuted] below). *)
Theorem gebr_epoch_window st : reachable st ->
  forall u b v, cb (tl st u) = Some b -> ve (th st u) (tl st u) (blocal st b) = Some v ->
    bflag st b = true /\ blocal st b <= v /\ v <= gep st /\ gep st <= v + 1.
Proof.
  intros Hr u b v Hb Hv. destruct (EI_reach cfg ns nc st Hr) as [P _].
  destruct (P u b Hb) as (P1a & P1b & P1c).
  split; [exact (o_flag cfg st (O0_reach cfg ns nc st Hr) u b Hb (ve_fon cfg _ _ _ _ Hv))|].
  split; [exact (ve_ge _ _ _ _ _ P1b Hv)|]. split; [|exact (P1c v Hv)].
  pose proof (T0_reach cfg ns nc st Hr u) as T.
  destruct (th st u) eqn:E; cbn in Hv, P1a, P1b; try (destruct (sync (tl st u)) eqn:Es; [|discriminate Hv]); injection Hv as <-;
    try lia; try (apply P1a; reflexivity).
  all: exfalso; destruct (ts_c _ _ _ _ T eq_refl) as (_ & X & _); congruence.
Qed.

(** in particular: a thread that holds a guard_ptr is synchronised, and the global epoch is its local epoch or one more *)
Theorem gebr_guard_window st : reachable st ->
  forall u n b, holds st u n -> cb (tl st u) = Some b ->
    sync (tl st u) = true /\ bflag st b = true /\ blocal st b <= gep st /\ gep st <= blocal st b + 1.
Proof.
  intros Hr u n b Hh Hb.
  destruct (holds_shape cfg ns _ _ _ (T0_reach cfg ns nc st Hr u) Hh) as (_ & _ & _ & _ & _ & Hve & Hsy).
  destruct (gebr_epoch_window st Hr u b _ Hb (Hve _)) as (H1 & _ & H3 & H4). auto.
Qed.

(** the scan invariant behind the window, for every scan strategy: while the global epoch still is the scanner's epoch e,
    a control block that is not among those the scan iterator still has to visit ([rem]) belongs to no thread with a
    validated epoch below e.  [scan_of]: scan::all_threads - the scan exists inside scan() and update_global_epoch only;
    scan::n_threads<N> / one_thread (DEBRA) - the iterator is thread-local state, valid at EVERY program point of the
    scanner (also between its operations and outside its critical regions) except while a reset is pending. *)
Theorem gebr_scan_invariant st : reachable st ->
  forall w bw u b e rem v, cb (tl st w) = Some bw -> scan_of cfg (th st w) (tl st w) (blocal st bw) = Some (e, rem) -> gep st = e ->
    cb (tl st u) = Some b -> ~ In b rem -> ve (th st u) (tl st u) (blocal st b) = Some v -> e <= v.
Proof. intros Hr. destruct (EI_reach cfg ns nc st Hr) as [_ B]. exact B. Qed.

(** A node retired in local epoch r is only freed when the global epoch is >= r + 3, whatever way it took: the
    retire list of its thread, an orphan list (abandoned on leaving a critical region, handed over at thread exit, put back
    after a lost race for the epoch), adoption by another thread. *)
Theorem gebr_free_epoch st : reachable st ->
  forall n t r, g_where st n = PFreed -> g_life st n = LRet t r -> r + 3 <= gep st.
Proof.
  intros Hr n t r W L. pose proof (tag_reach cfg ns nc st Hr n) as G. unfold tag_ok in G. rewrite W in G.
  destruct G as (t' & r' & L' & H). rewrite L in L'. injection L' as <- <-. exact H.
Qed.

(** * C02, safety half *)

(** [gebr_exactly_once]: a node is freed at most once and only after it was retired; a retired node is in exactly one
    place, which the ghost [g_where] names: retire list [i] of one thread, one orphan list, adopted by one thread
    inside update_global_epoch, or freed - and it is an element of that list (nothing is dropped: not by abandoning a
    list, not by the hand-over at thread exit, not by putting adopted nodes back) and of no other (nothing is
    duplicated); the lists are duplicate free. *)
Theorem gebr_exactly_once st : reachable st ->
  (forall n, (g_nfree st n <= 1)%nat) /\
  (forall n, g_nfree st n = 1%nat <-> g_where st n = PFreed) /\
  (forall n, g_where st n <> PNone <-> exists t r, g_life st n = LRet t r) /\
  (forall u i n, In n (rl (tl st u) i) <-> g_where st n = PList u i) /\
  (forall i n, In n (orph st i) <-> g_where st n = POrph i) /\
  (forall u n, In n (flight (th st u)) <-> g_where st n = PFlight u) /\
  (forall u i, NoDup (rl (tl st u) i)) /\ (forall i, NoDup (orph st i)) /\ (forall u, NoDup (flight (th st u))).
Proof.
  intros Hr. pose proof (N0_reach cfg ns nc st Hr) as I.
  assert (W := n_where st I).
  split; [|split; [|split; [|split; [|split; [|split; [|split; [|split]]]]]]]; try apply I.
  - intros n. specialize (W n). destruct (g_where st n); cbn in W; destruct W as [_ ->]; lia.
  - intros n. specialize (W n). split; intros H.
    + destruct (g_where st n); cbn in W; destruct W as [_ W]; try reflexivity; rewrite W in H; discriminate.
    + rewrite H in W. cbn in W. apply W.
  - intros n. specialize (W n). split.
    + intros H. destruct (g_where st n); cbn in W; destruct W as [W _]; try exact W. congruence.
    + intros (t & r & L) H. rewrite H in W. cbn in W. destruct W as [W _]. eapply W. exact L.
Qed.

(** the same at the level of the FREE events of one step: a FREE is the client's delete of its own never published node
    (lost CAS of repl), the harness' delete of a region_guard object, or the reclaimer's delete of a retired node that had
    not been freed before *)
Definition is_rg_free (st : state) (t : nat) (n : N) : Prop :=
  rg (tl st t) = Some n \/ (exists r, th st t = LV (LFin r (Some n))) \/ (exists r i, th st t = B1 (LFin r (Some n)) i) \/
  (exists r i h, th st t = B2 (LFin r (Some n)) i h) \/ th st t = LV (LExit (Some n)) \/ (exists i, th st t = B1 (LExit (Some n)) i) \/
  (exists i h, th st t = B2 (LExit (Some n)) i h).

Theorem gebr_free_event st a st' es : reachable st -> step cfg ns st a = Some (st', es) ->
  forall t n, In (EFree t n) es ->
    (g_life st n = LFresh t /\ g_life st' n = LDropped) \/
    is_rg_free st t n \/
    ((exists t' r, g_life st n = LRet t' r) /\ g_nfree st n = O /\ g_nfree st' n = 1%nat).
Proof.
  intros Hr H t0 n Hin.
  assert (Hr' : reachable st') by (eapply reach_step; eauto).
  pose proof (N0_reach cfg ns nc st Hr) as I. pose proof (N0_reach cfg ns nc st' Hr') as I'.
  assert (Hret : forall m, g_where st m <> PNone -> g_where st m <> PFreed -> g_where st' m = PFreed ->
                 (exists t' r, g_life st m = LRet t' r) /\ g_nfree st m = O /\ g_nfree st' m = 1%nat).
  { intros m H1 H2 H3. pose proof (n_where st I m) as W. pose proof (n_where st' I' m) as W'. rewrite H3 in W'. cbn in W'.
    destruct (g_where st m); cbn in W; try congruence; destruct W as [W1 W2]; destruct W' as [_ W2']; auto. }
  destruct a as [t o|t]; [unfold step in H; step_split H; destruct Hin|].
  unfold_step H. cbv zeta in H. step_split H.
  all: bool_eqs; cbn [In app free_evs free_opt map] in Hin; rewrite ?in_app_iff in Hin; cbn [In] in Hin.
  all: repeat match goal with H : _ \/ _ |- _ => destruct H end; try discriminate; try contradiction.
  all: try match goal with H : In (EFree _ _) (free_evs _ _) |- _ => unfold free_evs in H; apply in_map_iff in H; destruct H as (m & Hm & Hl); injection Hm as Ht0 Hn0; subst m; subst t0 end.
  all: try match goal with H : In (EFree _ _) (free_opt _ ?o) |- _ => let Eo := fresh "Eo" in destruct o eqn:Eo; cbn [free_opt In] in H; [destruct H as [H|[]]|destruct H] end.
  all: try match goal with H : EFree _ _ = EFree _ _ |- _ => injection H as Ht0 Hn0; subst t0; try subst n end.
  all: try solve [left; split; [apply (n_fresh1 st I t); rewrite E; reflexivity | prj; rewrite ?updN_same; reflexivity]].
  all: try solve [left; split; [apply (n_fresh1 st I t); rewrite E; reflexivity | prj; destruct (g_life st n); reflexivity]].
  all: try solve [right; left; unfold is_rg_free; rewrite E; eauto 10].
  all: try solve [right; left; unfold is_rg_free; left; assumption].
  1: { (* G5: the adopted nodes *)
    right; right. assert (Hw : g_where st n = PFlight t) by (apply (n_flight st I t n); rewrite E; exact Hl).
    apply Hret; [congruence|congruence|]. prj. assert (M : memN n l = true) by (apply memN_In; exact Hl). rewrite M. reflexivity. }
  (* U2: the slots of the epochs passed *)
  all: right; right; apply in_flat_map in Hl; destruct Hl as (i & Hi & Hl);
    assert (Hw : g_where st n = PList t i) by (apply (n_list st I t i n); exact Hl);
    apply Hret; [congruence|congruence|]; prj;
    assert (M : memN n (flat_map (rl (tl st t)) (uslots new old)) = true) by (apply memN_In; apply in_flat_map; eauto);
    rewrite M; reflexivity.
Qed.
End Theorems.

(** * Examples (executable runs of the model; [op t o] starts operation o of thread t and gives it more steps than it
    needs - [run] skips the surplus) *)
Definition steps (t n : nat) : list action := repeat (Step t) n.
Definition op (t : nat) (o : op) : list action := Start t o :: steps t 60.
Definition run2 (cfg : config) (acts : list action) : state := fst (fst (run (step cfg 3) (init 2) acts)).

(** new_epoch_based (eager region extension): thread 1 opens a region_guard and holds a guard on node 0 (cell 0); thread 2
    replaces the node and retires it (local epoch 0), then enters critical regions again and again: the global epoch gets
    to 1 and stays there (thread 1 is synchronised with epoch 0), node 0 stays in thread 2's retire list 0 ... *)
Definition ex1_before : list action :=
  op 1 OEnter ++ op 1 (OHold 0 0) ++ op 2 (ORepl 0) ++ op 2 (ORead 1) ++ op 2 (ORead 1) ++ op 2 (ORead 1) ++ op 2 (ORead 1) ++ op 2 (ORead 1).
(** ... until thread 1 drops its guard, closes the region and exits: three more epochs, and node 0 is freed *)
Definition ex1_after : list action :=
  op 1 (ODrop 0) ++ op 1 OLeave ++ op 1 OExit ++ op 2 (ORead 1) ++ op 2 (ORead 1) ++ op 2 (ORead 1) ++ op 2 (ORead 1) ++ op 2 (ORead 1) ++ op 2 (ORead 1).

Example ex1_guarded_node_survives :
  let st := run2 cfg_NEBR ex1_before in
  gs (tl st 1%nat) 0%nat = Some 0 /\ sync (tl st 1%nat) = true /\ rent (tl st 1%nat) = 2%nat /\ g_life st 0 = LRet 2 0 /\
  g_where st 0 = PList 2 0 /\ gep st = 1 /\ g_nfree st 0 = O /\ g_uaf st = false.
Proof. vm_compute. repeat split; reflexivity. Qed.

Example ex1_freed_later :
  let st := run2 cfg_NEBR (ex1_before ++ ex1_after) in
  g_where st 0 = PFreed /\ g_nfree st 0 = 1%nat /\ gep st = 4 /\ g_uaf st = false.
Proof. vm_compute. repeat split; reflexivity. Qed.

(** abandon::always: thread 1 retires node 0 and abandons it to orphan list 0 when it leaves its critical region (it stays
    alive) ... *)
Definition ex2_before : list action := op 1 (ORepl 0).
(** ... thread 2 adopts it when it advances the epoch to 3 and frees it *)
Definition ex2_after : list action :=
  op 2 (ORead 1) ++ op 2 (ORead 1) ++ op 2 (ORead 1) ++ op 2 (ORead 1) ++ op 2 (ORead 1) ++ op 2 (ORead 1) ++ op 2 (ORead 1) ++ op 2 (ORead 1).

Example ex2_abandoned :
  let st := run2 cfg_GEBR_aband ex2_before in
  orph st 0 = [0] /\ g_where st 0 = POrph 0 /\ g_life st 0 = LRet 1 0 /\ cb (tl st 1%nat) = Some 2 /\ rl (tl st 1%nat) 0 = [] /\ g_nfree st 0 = O.
Proof. vm_compute. repeat split; reflexivity. Qed.

Example ex2_adopted_and_freed :
  let st := run2 cfg_GEBR_aband (ex2_before ++ ex2_after) in
  orph st 0 = [] /\ g_where st 0 = PFreed /\ g_nfree st 0 = 1%nat /\ gep st = 4.
Proof. vm_compute. repeat split; reflexivity. Qed.

(** debra (one thread per scan): thread 1 holds a guard on node 0, thread 2 retires it; thread 2's scan iterator has passed
    its own control block 3 only by looking at one entry per scan, and is stuck at thread 1's control block 2 (the list is
    [3; 2]): the epoch stays at 1 ... *)
Definition ex3_before : list action := op 1 (OHold 0 0) ++ op 2 (ORepl 0) ++ op 2 (ORead 1) ++ op 2 (ORead 1) ++ op 2 (ORead 1) ++ op 2 (ORead 1) ++ op 2 (ORead 1).
Definition ex3_after : list action :=
  op 1 (ODrop 0) ++ concat (repeat (op 2 (ORead 1)) 14).

Example ex3_debra_scan_blocked :
  let st := run2 cfg_DEBRA ex3_before in
  blist st = [3; 2] /\ sit (tl st 2%nat) = [2] /\ gs (tl st 1%nat) 0%nat = Some 0 /\ g_where st 0 = PList 2 0 /\ gep st = 1 /\ g_nfree st 0 = O.
Proof. vm_compute. repeat split; reflexivity. Qed.

Example ex3_debra_freed_later :
  let st := run2 cfg_DEBRA (ex3_before ++ ex3_after) in
  g_where st 0 = PFreed /\ g_nfree st 0 = 1%nat /\ gep st = 5 /\ g_uaf st = false.
Proof. vm_compute. repeat split; reflexivity. Qed.

(** lazy region extension: the region_guard alone does not set the flag; the first guard_ptr does, and the flag (and the
    validated epoch) stays until the region_guard is destroyed *)
Example ex5_lazy_region :
  let s1 := run2 cfg_GEBR_lazy (op 1 OEnter) in
  let s2 := run2 cfg_GEBR_lazy (op 1 OEnter ++ op 1 (ORead 0)) in
  let s3 := run2 cfg_GEBR_lazy (op 1 OEnter ++ op 1 (ORead 0) ++ op 1 OLeave) in
  (bflag s1 3 = false /\ sync (tl s1 1%nat) = false /\ rent (tl s1 1%nat) = 1%nat) /\
  (bflag s2 3 = true /\ sync (tl s2 1%nat) = true /\ nest (tl s2 1%nat) = O /\ th s2 1%nat = Idle) /\
  (bflag s3 3 = false /\ sync (tl s3 1%nat) = false).
Proof. vm_compute. repeat split; reflexivity. Qed.

(** * Refuted: "the critical-region flag is set => the global epoch is at most one ahead of the thread's local epoch".
    With region_extension::eager the region_guard constructor sets the flag and does not look at the epoch: thread 1 has
    registered in epoch 0, thread 2 advances the global epoch to 3, then thread 1 opens a region_guard - it is between
    two operations, its flag is set, its local epoch is 0 and the global epoch is 3.  (It holds no guard_ptr, is not
    synchronised, and from now on the epoch cannot advance until it enters a critical section: this is safe.)  The same
    holds at the program points between set_critical_region_flag and the comparison of the epochs in every configuration;
    the window theorem therefore speaks about VALIDATED epochs. *)
Definition ex4 : list action :=
  op 1 (ORead 0) ++ concat (repeat (op 2 (ORead 1)) 6) ++ op 1 OEnter.
Theorem nebr_flag_without_validation_refuted :
  exists st u b, reach (init 2) (step cfg_NEBR 3) st /\ th st u = Idle /\ cb (tl st u) = Some b /\ bflag st b = true /\
    sync (tl st u) = false /\ blocal st b + 1 < gep st.
Proof.
  exists (run2 cfg_NEBR ex4), 1%nat, 2. split; [apply run_reach|]. vm_compute. repeat split; reflexivity.
Qed.
