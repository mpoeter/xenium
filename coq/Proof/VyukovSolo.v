(** C16 for xenium::vyukov_bounded_queue.
    - The WEAK try_push / try_pop are lock-free: from every reachable state a thread inside one of
      them (or in the final store of any push/pop) finishes within 5 solo steps.  The reason is the
      proved cell invariant: the sequence of the cell at a FRESHLY read position is never ahead of
      that position, so the only backward edge of the weak loop (sequence > position: reload) is
      taken at most once, with a stale position, when the thread runs alone.
    - The STRONG try_push / try_pop are blocking: concrete reachable states (capacity 2) from which
      a thread running alone spins forever, waiting for a stopped thread to release a cell.
    Counter wrap-around is excluded as in Proof/VyukovInv.v.  No axioms, no admits. *)
From Coq Require Import NArith ZArith List Bool Lia PeanoNat.
From XV Require Import Base.Word Conc.Lts Conc.Ev Conc.Solo Model.VyukovDefs Proof.VyukovInv.
Import ListNotations.
Local Open Scope N_scope.

Definition idle (s : state) (t : nat) : bool := match th s t with Idle => true | _ => false end.

(** thread is idle, inside a weak operation, or at the final store of an operation *)
Definition weak_pc (p : pc) : bool :=
  match p with
  | Idle | Begin (OPush true _) | Begin (OPop true) | P1 true _ | P1w _ | P2 true _ _ | P3 true _ _ | P6 _ _
  | Q1 true | Q1w | Q2 true _ | Q3 true _ | Q6 _ => true
  | _ => false
  end.

(** remaining solo steps (upper bound): a position is fresh when it equals the shared counter *)
Definition vyu_weak_bound (s : state) (t : nat) : nat :=
  match th s t with
  | Begin (OPush true _) | Begin (OPop true) => 5
  | P1 true _ | P1w _ | Q1 true | Q1w => 4
  | P2 true _ pos => if pos =? enq s then 3 else 5
  | P3 true _ pos => if pos =? enq s then 2 else 4
  | Q2 true pos => if pos =? deq s then 3 else 5
  | Q3 true pos => if pos =? deq s then 2 else 4
  | P6 _ _ | Q6 _ => 1
  | _ => 0
  end.

(** the thread may still append one value to [g_in] *)
Definition pending (p : pc) : N := match p with Idle | P6 _ _ | Q6 _ => 0 | _ => 1 end.

Lemma vyu_weak_bound_le5 s t : (vyu_weak_bound s t <= 5)%nat.
Proof.
  unfold vyu_weak_bound.
  destruct (th s t) as [|[[|] v|[|]]|[|] v|[|] v pos|[|] v pos|v pos|v pos|v|v pos|[|]|[|] pos|[|] pos|pos|pos| |pos];
    try lia; match goal with |- context [if ?c then _ else _] => destruct c end; lia.
Qed.

Section VyukovSolo.
  Variables cap k : N.
  Hypothesis Hk1 : 1 <= k.
  Hypothesis Hk30 : k <= 30.
  Hypothesis Hcap : cap = 2 ^ k.

  Let vinv := vyu_inv cap k Hk1 Hk30 Hcap.
  Let cge2 := cap_ge2 cap k Hk1 Hk30 Hcap.

  (** the cell at the current enqueue position is never ahead of it *)
  Lemma fresh_enq_cell st : Inv cap st -> cseq st (cell cap (enq st)) <= enq st.
  Proof.
    intros HI. pose proof (i_le1 _ _ HI). pose proof (i_le2 _ _ HI). pose proof cge2.
    destruct (N.eq_dec (enq st) (deq st + cap)) as [e|ne].
    - rewrite e, (cell_add_cap cap k Hk1 Hk30 Hcap).
      destruct (i_winA _ _ HI (deq st)) as [[? _]|[? _]]; lia.
    - destruct (i_winB _ _ HI (enq st)) as [?|(q & t0 & ? & ? & _)]; lia.
  Qed.

  (** the cell at the current dequeue position is never ahead of "filled for this lap" *)
  Lemma fresh_deq_cell st : Inv cap st -> cseq st (cell cap (deq st)) <= deq st + 1.
  Proof.
    intros HI. pose proof (i_le1 _ _ HI). pose proof (i_le2 _ _ HI). pose proof cge2.
    destruct (N.eq_dec (deq st) (enq st)) as [e|ne].
    - rewrite e. destruct (i_winB _ _ HI (enq st)) as [?|(q & t0 & ? & ? & _)]; lia.
    - destruct (i_winA _ _ HI (deq st)) as [[? _]|[? _]]; lia.
  Qed.

  Definition P (t : nat) (s : state) : Prop :=
    reach init (step cap) s /\ weak_pc (th s t) = true /\ nn (g_in s) + pending (th s t) < 2 ^ 62.

  (* split the tests of the step function and of the measure *)
  Ltac tests :=
    repeat match goal with
    | |- context [?a =? ?b] => destruct (N.eqb_spec a b)
    | |- context [?a <? ?b] => destruct (N.ltb_spec a b)
    end.

  Lemma vyu_weak_step s t : P t s -> idle s t = false ->
    exists s' es, step cap s (Step t) = Some (s', es) /\ P t s' /\ (vyu_weak_bound s' t < vyu_weak_bound s t)%nat.
  Proof.
    intros (Hr & Hw & Hb) Hi.
    assert (HB : Bnd s) by (unfold Bnd; lia).
    pose proof (vinv s Hr HB) as HI.
    pose proof (i_loc _ _ HI t) as Hl.
    pose proof (bnd_enq cap s HI HB) as He. unfold B62 in He.
    pose proof (i_le1 _ _ HI) as Hle1. pose proof (i_le2 _ _ HI) as Hle2.
    pose proof (fresh_enq_cell s HI) as Hfe. pose proof (fresh_deq_cell s HI) as Hfd.
    rewrite pow2_62 in Hb. unfold B62 in Hb.
    assert (Hgoal : exists s' es, step cap s (Step t) = Some (s', es) /\
              (weak_pc (th s' t) = true /\ nn (g_in s') + pending (th s' t) < 4611686018427387904) /\
              (vyu_weak_bound s' t < vyu_weak_bound s t)%nat).
    { (* once the tests are decided the step is determined; the branch back to [P1w] / [Q1w] from a
         fresh position contradicts [Hfe] / [Hfd]; [lia] comes last, for the leaves that need it: it is
         dear in this context *)
      unfold idle in Hi. unfold vyu_weak_bound. cbn [step].
      destruct (th s t) as [|[[|] v|[|]]|[|] v|[|] v pos|[|] v pos|v pos|v pos|v|v pos|[|]|[|] pos|[|] pos|pos|pos| |pos] eqn:E;
        try discriminate; cbn [L pending] in *;
        rewrite ?(wadd1 cap k Hk1 Hk30 Hcap) by (unfold B62; lia); tests; try subst pos;
        (eexists _, _; split; [reflexivity|]);
        cbn [th enq deq g_in]; rewrite ?upd_same; cbn [weak_pc pending]; rewrite ?nn_app, ?N.eqb_refl;
        tests; try contradiction;
        (split; [split; [reflexivity|first [exact Hb|lia]]|first [solve [repeat constructor]|lia]]). }
    destruct Hgoal as (s' & es & Hst & [Hw' Hb'] & Hmu). exists s', es.
    split; [exact Hst|]. split; [|exact Hmu].
    split; [eapply reach_step; eauto|]. split; [exact Hw'|]. rewrite pow2_62. exact Hb'.
  Qed.

  (** * Weak operations finish within [vyu_weak_bound s t] <= 5 solo steps *)
  Theorem vyu_weak_solo s t :
    reach init (step cap) s -> nn (g_in s) + 1 < 2 ^ 62 -> weak_pc (th s t) = true ->
    finishes_within (step cap) Step idle t (vyu_weak_bound s t) s.
  Proof.
    intros Hr Hb Hw.
    apply (finishes_by_measure _ _ _ (step cap) Step idle (P t) (fun s => vyu_weak_bound s t) t).
    - intros s0 HP Hi. exact (vyu_weak_step s0 t HP Hi).
    - split; [exact Hr|]. split; [exact Hw|]. destruct (th s t); cbn [pending]; lia.
  Qed.

  Theorem vyu_weak_solo_5 s t :
    reach init (step cap) s -> nn (g_in s) + 1 < 2 ^ 62 -> weak_pc (th s t) = true ->
    finishes_within (step cap) Step idle t 5 s.
  Proof.
    intros Hr Hb Hw. eapply finishes_within_mono; [apply vyu_weak_bound_le5|]. apply vyu_weak_solo; assumption.
  Qed.

  Theorem vyu_weak_never_stuck s t :
    reach init (step cap) s -> nn (g_in s) + 1 < 2 ^ 62 -> weak_pc (th s t) = true ->
    never_stuck (step cap) Step idle t s.
  Proof. intros Hr Hb Hw. eapply finishes_never_stuck. apply vyu_weak_solo; eassumption. Qed.

  (** an idle thread that starts a weak operation: 5 steps *)
  Theorem vyu_weak_solo_start s t o s' es :
    reach init (step cap) s -> nn (g_in s) + 1 < 2 ^ 62 ->
    (match o with OPush w _ => w | OPop w => w end) = true ->
    step cap s (Start t o) = Some (s', es) ->
    finishes_within (step cap) Step idle t 5 s'.
  Proof.
    intros Hr Hb Ho Hst. assert (Hr' : reach init (step cap) s') by (eapply reach_step; eauto).
    cbn [step] in Hst. destruct (th s t); try discriminate. injection Hst as Hs Hes; subst s' es.
    apply vyu_weak_solo_5; [exact Hr'|exact Hb|]. cbn [th]. rewrite upd_same.
    destruct o as [[|] ?|[|]]; try discriminate; reflexivity.
  Qed.
End VyukovSolo.

(** * The strong operations block (capacity 2) *)

(** a thread blocks in [s] if [n] solo steps take it to a state with a property that its steps
    preserve and that excludes being idle *)
Lemma spin_blocks (P : state -> Prop) t n s s1 :
  (forall s, P s -> idle s t = false /\ exists s' es, step 2 s (Step t) = Some (s', es) /\ P s') ->
  solo_steps (step 2) Step idle t n s s1 -> P s1 -> blocks (step 2) Step idle t s.
Proof.
  intros Hc Hs Hp. apply (blocks_prefix _ _ _ (step 2) Step idle t n _ s1 Hs), spins_blocks.
  apply (spins_by_invariant _ _ _ (step 2) Step idle P t Hc). exact Hp.
Qed.

(** thread 1 fills the queue, thread 2 (strong pop) takes ticket 0 and is stopped before it releases
    cell 0; thread 1 then starts a strong push: cell 0 is neither free nor is the queue full. *)
Definition vyu_block_acts_push : list action :=
  [Start 1%nat (OPush false 10)] ++ repeat (Step 1%nat) 5 ++
  [Start 1%nat (OPush false 11)] ++ repeat (Step 1%nat) 5 ++
  [Start 2%nat (OPop false)] ++ repeat (Step 2%nat) 4 ++
  [Start 1%nat (OPush false 12)].
Definition vyu_block_state_push : state := fst (fst (run (step 2) init vyu_block_acts_push)).

Definition push_spin_P (t : nat) (s : state) : Prop :=
  exists v pos, (th s t = P2 false v pos \/ th s t = P4 v pos \/ th s t = P5 v pos) /\
    enq s = pos /\ cseq s (cell 2 pos) <> pos /\ wadd 64 (wadd 64 (deq s) (mask 2)) 1 <> pos.

Lemma push_spin_closed t s : push_spin_P t s ->
  idle s t = false /\ exists s' es, step 2 s (Step t) = Some (s', es) /\ push_spin_P t s'.
Proof.
  intros (v & pos & [Hp|[Hp|Hp]] & He & Hc & Hd); unfold idle; rewrite Hp; (split; [reflexivity|]);
    cbn [step]; rewrite Hp.
  - apply N.eqb_neq in Hc. rewrite Hc. eexists _, _. split; [reflexivity|].
    exists v, pos. cbn [th enq deq cseq]. rewrite upd_same. apply N.eqb_neq in Hc. auto.
  - rewrite He, N.eqb_refl. eexists _, _. split; [reflexivity|].
    exists v, pos. cbn [th enq deq cseq]. rewrite upd_same. auto.
  - apply N.eqb_neq in Hd. rewrite Hd. eexists _, _. split; [reflexivity|].
    exists v, pos. cbn [th enq deq cseq]. rewrite upd_same. apply N.eqb_neq in Hd. auto.
Qed.

Theorem vyu_strong_push_blocking :
  reach init (step 2) vyu_block_state_push /\
  th vyu_block_state_push 1%nat = Begin (OPush false 12) /\
  blocks (step 2) Step idle 1%nat vyu_block_state_push.
Proof.
  split; [apply run_reach|]. split; [vm_compute; reflexivity|].
  remember (fst (fst (run (step 2) vyu_block_state_push (repeat (Step 1%nat) 2)))) as s2 eqn:E2.
  apply (spin_blocks (push_spin_P 1%nat) 1%nat 2 _ s2 (push_spin_closed 1%nat)); subst s2.
  { repeat (eapply solo_S; [vm_compute; reflexivity|vm_compute; reflexivity|]). constructor. }
  exists 12, 2. split; [left; vm_compute; reflexivity|].
  split; [vm_compute; reflexivity|]. split; vm_compute; discriminate.
Qed.

(** thread 1 (strong push) takes ticket 0 and is stopped before it publishes the element; thread 2
    starts a strong pop: the queue is not empty (enq = 1) but cell 0 is not filled. *)
Definition vyu_block_acts_pop : list action :=
  [Start 1%nat (OPush false 10)] ++ repeat (Step 1%nat) 4 ++ [Start 2%nat (OPop false)].
Definition vyu_block_state_pop : state := fst (fst (run (step 2) init vyu_block_acts_pop)).

Definition pop_spin_P (t : nat) (s : state) : Prop :=
  exists pos, (th s t = Q2 false pos \/ th s t = Q4 pos \/ th s t = Q5 pos) /\
    deq s = pos /\ cseq s (cell 2 pos) <> wadd 64 pos 1 /\ enq s <> pos.

Lemma pop_spin_closed t s : pop_spin_P t s ->
  idle s t = false /\ exists s' es, step 2 s (Step t) = Some (s', es) /\ pop_spin_P t s'.
Proof.
  intros (pos & [Hp|[Hp|Hp]] & He & Hc & Hd); unfold idle; rewrite Hp; (split; [reflexivity|]);
    cbn [step]; rewrite Hp.
  - apply N.eqb_neq in Hc. rewrite Hc. eexists _, _. split; [reflexivity|].
    exists pos. cbn [th enq deq cseq]. rewrite upd_same. apply N.eqb_neq in Hc. auto.
  - rewrite He, N.eqb_refl. eexists _, _. split; [reflexivity|].
    exists pos. cbn [th enq deq cseq]. rewrite upd_same. auto.
  - apply N.eqb_neq in Hd. rewrite Hd. eexists _, _. split; [reflexivity|].
    exists pos. cbn [th enq deq cseq]. rewrite upd_same. apply N.eqb_neq in Hd. auto.
Qed.

Theorem vyu_strong_pop_blocking :
  reach init (step 2) vyu_block_state_pop /\
  th vyu_block_state_pop 2%nat = Begin (OPop false) /\
  blocks (step 2) Step idle 2%nat vyu_block_state_pop.
Proof.
  split; [apply run_reach|]. split; [vm_compute; reflexivity|].
  remember (fst (fst (run (step 2) vyu_block_state_pop (repeat (Step 2%nat) 2)))) as s2 eqn:E2.
  apply (spin_blocks (pop_spin_P 2%nat) 2%nat 2 _ s2 (pop_spin_closed 2%nat)); subst s2.
  { repeat (eapply solo_S; [vm_compute; reflexivity|vm_compute; reflexivity|]). constructor. }
  exists 0. split; [left; vm_compute; reflexivity|].
  split; [vm_compute; reflexivity|]. split; vm_compute; discriminate.
Qed.
