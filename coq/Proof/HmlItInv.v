(** Iterators of the Harris-Michael list-based set (Model/HmlItDefs.v, an extension of Model/HmlDefs.v):
    the invariant of Proof/HmlInv.v still holds for the list; safety of the iterators (the nodes they refer to
    are allocated and reachable or retired, never freed: GC reclaimer instance); soundness of the yielded
    positions, order / no duplicates, completeness of a traversal, exactness of erase(iterator); solo
    termination of the iterator operations (C16).
    All theorems hold for every reachable state of [xstep] (any number of threads, any program mixing
    insert / erase(key) / contains with the iterator operations, any schedule).

    Three statements of property C09 are FALSE for the real algorithm and are refuted on concrete schedules
    (which the implementation reproduces, trace by trace): [it_yield_was_member_refuted],
    [it_no_duplicate_strict_refuted], [it_erase_greater_refuted]; the true versions are proved. *)
From Coq Require Import NArith List Bool Lia ZifyBool PeanoNat Sorted.
From XV Require Import Base.Word Conc.Lts Conc.Ev Conc.Solo Model.HmlDefs Proof.HmlInv Model.HmlItDefs.
Import ListNotations.
Local Open Scope N_scope.

(** * The invariant of the extended system *)

Definition above (lo : option N) (k : N) : Prop := match lo with None => True | Some l => l < k end.

Definition is_itf (c : ifk) : bool := match c with KItF => true | _ => false end.
(** the thread is inside the call that starts the traversal (begin() / find(key)) *)
Definition in_start (p : ipc) : bool :=
  match p with
  | B1 => true
  | IF1 c _ _ | IF2 c _ _ _ _ | IF3 c _ _ _ _ | IF4 c _ _ _ _ | IF5 c _ _ _ _ _ | IF6 c _ _ _ _ _ _ => is_itf c
  | _ => false
  end.

(** a recorded position of the iterator *)
Definition yok (b : state) (c : list N) (y : yrec) : Prop :=
  oknode b c (y_node y) /\ nkey b (y_node y) = y_key y /\ (y_lin y <= length (g_lin b))%nat /\
  (y_wit y = true \/
   exists j t', (j < y_lin y)%nat /\ nth_error (g_lin b) j = Some (LDel t' (y_key y) (y_node y))) /\
  (forall j t' n, (j < y_lin y)%nat -> nth_error (g_lin b) j = Some (LIns t' (y_key y) n) ->
     n = y_node y \/ nmark b n = true) /\
  (exists j t', (j < y_lin y)%nat /\ nth_error (g_lin b) j = Some (LIns t' (y_key y) (y_node y))) /\
  y_reach y = true.

(** two consecutive positions: the key grows, or it is the same key carried by a different node that was
    linked after the first position was taken *)
Definition ystep (b : state) (y1 y2 : yrec) : Prop :=
  (y_lin y1 <= y_lin y2)%nat /\ (y_lin y2 <= length (g_lin b))%nat /\
  (y_key y1 < y_key y2 \/
   (y_key y1 = y_key y2 /\ y_node y1 <> y_node y2 /\
    forall j t', nth_error (g_lin b) j = Some (LIns t' (y_key y2) (y_node y2)) -> (y_lin y1 <= j)%nat)).

Inductive ychain (b : state) : list yrec -> Prop :=
| yc_nil : ychain b []
| yc_one y : ychain b [y]
| yc_snoc ys y1 y2 : ychain b (ys ++ [y1]) -> ystep b y1 y2 -> ychain b ((ys ++ [y1]) ++ [y2]).

(** [cur] (found by a find on behalf of operator++ / erase(iterator)) is not the node [o] the iterator
    stood on, and if it carries the same key it was linked after the last position was recorded *)
Definition newpos (st : xstate) (t : nat) (k : ifk) (key cur : N) : Prop :=
  match k with
  | KItF => True
  | KItN o | KItE o =>
    cur <> o /\
    (nkey (base st) cur = key -> forall ys0 y j t', g_yield st t = ys0 ++ [y] ->
       nth_error (g_lin (base st)) j = Some (LIns t' key cur) -> (y_lin y <= j)%nat)
  end.

Definition ifk_ok (st : xstate) (t : nat) (k : ifk) (key : N) : Prop :=
  match k with
  | KItF => g_yield st t = [] /\ it_cur st t = 0 /\ g_lo st t = Some key
  | KItN o | KItE o => it_cur st t = o /\ o <> 0 /\ nmark (base st) o = true /\ key = nkey (base st) o
  end.

(** the program points of the internal find satisfy the per-thread invariant [Tw] of the corresponding program
    points of HmlDefs (with the continuation [KHas], which asks for nothing, and a witness that is set).
    After [cbn [ITp Tw cont_ok]] the conjuncts of IF1..IF5 are, in this order: [ifk_ok], [True] (= [cont_ok]),
    [okprev start], [okprev sv], then [oknx nx] (IF2) or [oknode cur] (IF3..IF5), [nmark cur = true] (IF4, IF5),
    [nnext cur = nx] (IF5); those of IF6: [ifk_ok], [w = true], [newpos], [True], [okprev start], [okprev sv],
    [oknode cur], the witness clause of F6 (trivial here), [oknx nx]. *)
Definition ITp (st : xstate) (c : list N) (t : nat) (p : ipc) : Prop :=
  let b := base st in
  let icur := it_cur st t in
  let fnd k key q := ifk_ok st t k key /\ Tw b c (Some true) q in
  match p with
  | IIdle | IBegin _ => True
  | B1 => g_yield st t = [] /\ icur = 0
  | IF1 k key start => fnd k key (F1 KHas key start)
  | IF2 k key start sv nx => fnd k key (F2 KHas key start sv nx)
  | IF3 k key start sv cur => fnd k key (F3 KHas key start sv cur)
  | IF4 k key start sv cur => fnd k key (F4 KHas key start sv cur)
  | IF5 k key start sv cur nx => fnd k key (F5 KHas key start sv cur nx)
  | IF6 k key start sv cur nx w =>
    ifk_ok st t k key /\ w = true /\ newpos st t k key cur /\ Tw b c (Some true) (F6 KHas key start sv cur nx)
  | N1 | X1 => icur <> 0
  | N2 nx | X2 nx => icur <> 0 /\ oknx b c nx
  | X3 nx => icur <> 0 /\ nmark b icur = true /\ nnext b icur = nx
  end.

Record IT (st : xstate) (c : list N) (t : nat) : Prop := mkIT {
  IT_sv : known (base st) c (it_sv st t);
  IT_it : it_cur st t <> 0 ->
          okprev (base st) c (nkey (base st) (it_cur st t)) (it_sv st t) /\ oknode (base st) c (it_cur st t);
  IT_last : it_cur st t <> 0 -> exists ys0 y, g_yield st t = ys0 ++ [y] /\ y_node y = it_cur st t;
  IT_yok : forall y, In y (g_yield st t) -> yok (base st) c y;
  IT_chain : ychain (base st) (g_yield st t);
  IT_compl : g_trav st t = true -> in_start (ith st t) = false ->
             forall k, In k (g_always st t) -> above (g_lo st t) k ->
             (it_cur st t = 0 \/ k <= nkey (base st) (it_cur st t)) -> In k (map y_key (g_yield st t));
  IT_pc : ITp st c t (ith st t) }.

(** every marked node was marked by a recorded erase, every linked node was linked by a recorded insert *)
Definition GX (b : state) (c : list N) : Prop :=
  (forall x, nmark b x = true -> In x (del_nodes (g_lin b))) /\
  (forall x, known b c x -> x <> 0 -> In x (ins_nodes (g_lin b))).

Definition Ainv (st : xstate) : Prop := forall t k, In k (g_always st t) -> In k (g_abs (base st)).

(** the invariant relative to the chain [c] (sentinel first) *)
Record XI (st : xstate) (c : list N) : Prop := mkXI {
  XI_G : G (base st) c;
  XI_T : forall t, T (base st) c t (th (base st) t);
  XI_U : U (th (base st));
  XI_GX : GX (base st) c;
  XI_IT : forall t, IT st c t }.

Definition XInv0 (st : xstate) : Prop := exists c, XI st c.
Definition XInv (st : xstate) : Prop := XInv0 st /\ Ainv st.

(** ** a memory step of the list leaves the iterator parts intact *)

Lemma nth_error_app_old {X} (l l' : list X) j x : (j < length l)%nat -> nth_error (l ++ l') j = Some x -> nth_error l j = Some x.
Proof. intros H E. rewrite nth_error_app1 in E by exact H. exact E. Qed.

Lemma nth_error_app_keep {X} (l l' : list X) j x : nth_error l j = Some x -> nth_error (l ++ l') j = Some x.
Proof. intros E. rewrite nth_error_app1; [exact E|]. apply nth_error_Some. congruence. Qed.

Section Stable.
  Variables (b : state) (c : list N) (b' : state) (c' : list N) (sp : N) (l : list lev).
  Hypothesis HG : G b c.
  Hypothesis HE : mstep b c b' c' sp l.

  Let HW : mono b c b' c' sp := MS_mono _ _ _ _ _ _ HE.
  Let Elin : g_lin b' = g_lin b ++ l := MS_lin _ _ _ _ _ _ HE.

  Lemma st_key x : known b c x -> nkey b' x = nkey b x.
  Proof. intros Hk. apply (M_key _ _ _ _ _ HW). apply (G_bound _ _ HG). exact Hk. Qed.

  Lemma st_okprev key sv : okprev b c key sv -> okprev b' c' key sv.
  Proof. exact (okprev_mono _ _ _ _ _ _ _ HG HW). Qed.
  Lemma st_oknode x : oknode b c x -> oknode b' c' x.
  Proof. exact (oknode_mono _ _ _ _ _ _ HW). Qed.
  Lemma st_oknx x : oknx b c x -> oknx b' c' x.
  Proof. intros [Hx | Hx]; [left; exact Hx | right; apply (M_known _ _ _ _ _ HW); exact Hx]. Qed.
  Lemma st_mark x : nmark b x = true -> nmark b' x = true.
  Proof. intros H. exact (proj1 (M_mark _ _ _ _ _ HW x H)). Qed.
  Lemma st_len : (length (g_lin b) <= length (g_lin b'))%nat.
  Proof. rewrite Elin, app_length. lia. Qed.

  Lemma st_yok y : yok b c y -> yok b' c' y.
  Proof.
    intros (H1 & H2 & H3 & H4 & H5 & H7 & H8). split; [apply st_oknode; exact H1|].
    split; [rewrite st_key by exact (proj1 H1); exact H2|]. split; [pose proof st_len; lia|]. split; [|split; [|split; [|exact H8]]].
    - destruct H4 as [H4 | (j & t' & Hj & Hn)]; [left; exact H4 | right]. exists j, t'. split; [exact Hj|].
      rewrite Elin. apply nth_error_app_keep. exact Hn.
    - intros j t' n Hj Hn. rewrite Elin in Hn. apply nth_error_app_old in Hn; [|lia].
      destruct (H5 j t' n Hj Hn) as [H | H]; [left; exact H | right; apply st_mark; exact H].
    - destruct H7 as (j & t' & Hj & Hn). exists j, t'. split; [exact Hj|]. rewrite Elin. apply nth_error_app_keep. exact Hn.
  Qed.

  Lemma st_ystep y1 y2 : ystep b y1 y2 -> ystep b' y1 y2.
  Proof.
    intros (H1 & H2 & H3). split; [exact H1|]. split; [pose proof st_len; lia|].
    destruct H3 as [H3 | (H3 & H4 & H5)]; [left; exact H3 | right]. split; [exact H3|]. split; [exact H4|].
    intros j t' Hn. rewrite Elin in Hn. destruct (Nat.lt_ge_cases j (length (g_lin b))) as [Hlt | Hge].
    - apply nth_error_app_old in Hn; [|exact Hlt]. exact (H5 j t' Hn).
    - lia.
  Qed.

  Lemma st_ychain ys : ychain b ys -> ychain b' ys.
  Proof. induction 1; constructor; [assumption | apply st_ystep; assumption]. Qed.
End Stable.

Lemma IT_base st c b' c' sp l t : G (base st) c -> mstep (base st) c b' c' sp l -> IT st c t -> IT (set_base st b') c' t.
Proof.
  intros HG HE [H0 H1 H2 H3 H4 H5 H6]. pose proof (MS_mono _ _ _ _ _ _ HE) as HW.
  assert (Hop := st_okprev _ _ _ _ _ _ HG HE). assert (Hon := st_oknode _ _ _ _ _ _ HE). assert (Hox := st_oknx _ _ _ _ _ _ HE).
  assert (Hmk := st_mark _ _ _ _ _ _ HE). assert (Hkey := st_key _ _ _ _ _ _ HG HE).
  assert (Hcur : it_cur st t <> 0 -> nkey b' (it_cur st t) = nkey (base st) (it_cur st t)).
  { intros Hnz. apply Hkey. exact (proj1 (proj2 (H1 Hnz))). }
  constructor; cbn [set_base base ith it_sv it_cur g_yield g_lo g_trav g_always].
  - apply (M_known _ _ _ _ _ HW). exact H0.
  - intros Hnz. destruct (H1 Hnz) as [Ha Hb]. rewrite (Hcur Hnz). split; [apply Hop; exact Ha | apply Hon; exact Hb].
  - exact H2.
  - intros y Hy. eapply st_yok; [exact HG | exact HE | apply H3; exact Hy].
  - eapply st_ychain; [exact HE | exact H4].
  - intros Ht Hs k Hk Hab Hle. apply (H5 Ht Hs k Hk Hab).
    destruct Hle as [Hz | Hle]; [left; exact Hz|]. destruct (N.eq_dec (it_cur st t) 0) as [Hz|Hnz]; [left; exact Hz | right].
    rewrite <- (Hcur Hnz). exact Hle.
  - (* pc *)
    assert (Hifk : forall k key, ifk_ok st t k key -> ifk_ok (set_base st b') t k key).
    { intros k key. destruct k as [|o|o]; cbn [ifk_ok set_base base it_cur g_yield g_lo]; auto;
        intros (Ha & Hb & Hc & Hd); (split; [exact Ha|]; split; [exact Hb|]; split; [apply Hmk; exact Hc|]);
        rewrite Hkey; [exact Hd | | exact Hd |]; subst o; exact (proj1 (proj2 (H1 Hb))). }
    assert (Hnp : forall k key cur, oknode (base st) c cur -> newpos st t k key cur -> newpos (set_base st b') t k key cur).
    { intros k key cur Hcn. destruct k as [|o|o]; cbn [newpos set_base base g_yield]; auto; intros [Ha Hb]; (split; [exact Ha|]);
        rewrite (Hkey _ (proj1 Hcn)); intros Hk ys0 y j t' Ey Hn;
        rewrite (MS_lin _ _ _ _ _ _ HE) in Hn;
        (destruct (Nat.lt_ge_cases j (length (g_lin (base st)))) as [Hlt | Hge];
         [apply nth_error_app_old in Hn; [exact (Hb Hk ys0 y j t' Ey Hn) | exact Hlt]|]);
        assert (Hy : yok (base st) c y) by (apply H3; rewrite Ey; apply in_or_app; right; left; reflexivity);
        destruct Hy as (_ & _ & Hy & _); lia. }
    assert (HTw : forall q, fresh_of q = None -> Tw (base st) c (Some true) q -> Tw b' c' (Some true) q).
    { intros q Hq. apply (Tw_stable _ _ _ _ sp _ _ HG HW). intros n Hn. congruence. }
    destruct (ith st t) as [|o| |k key start|k key start sv nx|k key start sv cur|k key start sv cur|k key start sv cur nx
                            |k key start sv cur nx w| |nx| |nx|nx]; cbn [ITp set_base base it_cur] in *; auto;
      try (destruct H6 as [Ha Hb]; split; [apply Hifk, Ha | apply HTw; [reflexivity | exact Hb]]; fail).
    + destruct H6 as (Ha & Hw & Hn & Hb). pose proof Hb as (_ & _ & _ & Hcn & _).
      split; [apply Hifk, Ha|]. split; [exact Hw|]. split; [apply Hnp; assumption | apply HTw; [reflexivity | exact Hb]].
    + destruct H6 as (Ha & Hb). auto.
    + destruct H6 as (Ha & Hb). auto.
    + destruct H6 as (Ha & Hb & Hc). split; [exact Ha|]. split; [apply Hmk; exact Hb|].
      rewrite (proj2 (M_mark _ _ _ _ _ HW _ Hb)). exact Hc.
Qed.

Lemma GX_ext b c b' c' sp l : GX b c -> mstep b c b' c' sp l -> GX b' c'.
Proof.
  intros [HX1 HX2] [_ _ Elin Hm Hk]. split.
  - intros x Hx. rewrite Elin. unfold del_nodes. rewrite flat_map_app. apply in_or_app.
    destruct (Hm x Hx) as [H | H]; [left; apply HX1; exact H | right; exact H].
  - intros x Hx Hnz. rewrite Elin. unfold ins_nodes. rewrite flat_map_app. apply in_or_app.
    destruct (Hk x Hx) as [H | H]; [left; apply HX2; assumption | right; exact H].
Qed.

Lemma XI_mem st c b' c' sp l : XI st c -> mstep (base st) c b' c' sp l ->
  (forall t, T b' c' t (th b' t)) -> U (th b') -> XI (set_base st b') c'.
Proof.
  intros [HG _ _ HX HI] HE HT' HU'. constructor; try assumption.
  - exact (MS_G _ _ _ _ _ _ HE).
  - eapply GX_ext; eassumption.
  - intros t. eapply IT_base; [exact HG | exact HE | apply HI].
Qed.

(** a memory step made by an iterator operation: the list operations of all threads stay where they are *)
Lemma XI_mem0 st c b' c' l : XI st c -> mstep (base st) c b' c' 0 l ->
  th b' = th (base st) -> g_lp b' = g_lp (base st) -> XI (set_base st b') c'.
Proof.
  intros HXc HE Eth Elp. apply (XI_mem st c b' c' 0 l HXc HE); rewrite Eth; [|exact (XI_U _ _ HXc)].
  intros t. unfold T. rewrite Elp.
  eapply Tw_stable; [exact (XI_G _ _ HXc) | exact (MS_mono _ _ _ _ _ _ HE) | | apply (XI_T _ _ HXc)].
  intros n Hn. eapply sp_zero; [exact (XI_T _ _ HXc) | exact Hn].
Qed.

(** a step of the list operations (insert / erase(key) / contains of some thread) *)
Lemma XInv0_lift st c a b' e : XI st c -> step (base st) a = Some (b', e) -> XInv0 (set_base st b').
Proof.
  intros HXc Hst.
  destruct (Inv_step_c _ c _ _ _ (XI_G _ _ HXc) (XI_T _ _ HXc) (XI_U _ _ HXc) Hst) as (c' & sp & l & HM & HT' & HU').
  exists c'. exact (XI_mem st c b' c' sp l HXc HM HT' HU').
Qed.

(** ** steps that leave the list alone *)

(** the iterator part of thread [u] is the same in [st'], except that [g_always] may have lost keys *)
Definition same_at (st st' : xstate) (u : nat) : Prop :=
  ith st' u = ith st u /\ it_sv st' u = it_sv st u /\ it_cur st' u = it_cur st u /\ g_yield st' u = g_yield st u /\
  g_lo st' u = g_lo st u /\ g_trav st' u = g_trav st u /\ forall k, In k (g_always st' u) -> In k (g_always st u).

Lemma IT_local st st' c u : base st' = base st -> same_at st st' u -> IT st c u -> IT st' c u.
Proof.
  intros Eb (E1 & E2 & E3 & E4 & E5 & E6 & HA) [H0 H1 H2 H3 H4 H5 H6].
  constructor; rewrite ?Eb, ?E1, ?E2, ?E3, ?E4, ?E5, ?E6; try assumption.
  - intros Ht Hs k Hk. exact (H5 Ht Hs k (HA k Hk)).
  - unfold ITp, ifk_ok, newpos in *. rewrite Eb, E3, E4, E5. exact H6.
Qed.

Ltac xprj := cbn [set_ipc set_base move_it start_trav end_trav refresh base ith it_sv it_cur g_yield g_lo g_trav g_start g_always].

(** a step of thread [t] alone *)
Lemma XI_local st st' c t : XI st c -> base st' = base st ->
  (forall u, u <> t -> same_at st st' u) -> IT st' c t -> XInv0 st'.
Proof.
  intros [HG HT HU HX HI] Eb Hsame Ht. exists c. constructor; rewrite ?Eb; try assumption.
  intros u. destruct (Nat.eq_dec u t) as [->|Hne]; [exact Ht | exact (IT_local st st' c u Eb (Hsame u Hne) (HI u))].
Qed.

Ltac same_tac := let u := fresh "u" in let Hu := fresh "Hu" in
  intros u Hu; unfold same_at; xprj; rewrite ?upd_other by exact Hu; repeat split; auto.

Lemma list_last_cases {X} (l : list X) : l = [] \/ exists l0 x, l = l0 ++ [x].
Proof. induction l using rev_ind; [left; reflexivity | right; eauto]. Qed.

Lemma X_go st c t p0 p : XI st c -> ith st t = p0 -> ITp st c t p ->
  (in_start p = false -> in_start p0 = false) -> XInv0 (set_ipc st t p).
Proof.
  intros HXc <- Hp Hs. apply (XI_local st _ c t HXc); [reflexivity | same_tac|].
  destruct (XI_IT _ _ HXc t) as [H0 H1 H2 H3 H4 H5 H6].
  constructor; cbn [set_ipc base it_cur it_sv g_yield g_trav g_always g_lo ith]; try assumption; rewrite upd_same; auto.
Qed.

Lemma X_start st c t p lo : XI st c ->
  (p = B1 /\ lo = None) \/ (exists k, p = IF1 KItF k 0 /\ lo = Some k) ->
  XInv0 (start_trav st t p lo).
Proof.
  intros HXc Hp. pose proof (XI_G _ _ HXc) as HG. apply (XI_local st _ c t HXc); [reflexivity | same_tac|].
  constructor; cbn [start_trav base it_cur it_sv g_yield g_trav g_always g_lo ith]; rewrite ?upd_same.
  - apply known_zero. exact HG.
  - intros H. contradiction.
  - intros H. contradiction.
  - intros y [].
  - constructor.
  - intros _ Hs. destruct Hp as [[-> _] | (k & -> & _)]; discriminate Hs.
  - destruct Hp as [[-> ->] | (k & -> & ->)]; cbn [ITp Tw cont_ok ifk_ok start_trav base it_cur g_yield g_lo]; rewrite ?upd_same.
    + auto.
    + split; [auto|]. split; [exact I|]. apply okprev_zero. exact HG.
Qed.

Lemma X_end st c t : XI st c -> XInv0 (end_trav st t).
Proof.
  intros HXc. pose proof (XI_G _ _ HXc) as HG. apply (XI_local st _ c t HXc); [reflexivity | same_tac|].
  destruct (XI_IT _ _ HXc t) as [H0 H1 H2 H3 H4 H5 H6].
  constructor; cbn [end_trav base it_cur it_sv g_yield g_trav g_always g_lo ith]; rewrite ?upd_same; try assumption.
  - apply known_zero. exact HG.
  - intros H. contradiction.
  - intros H. contradiction.
  - intros H. discriminate.
  - exact I.
Qed.

Lemma push_y_nz b ys cur w : cur <> 0 -> push_y b ys cur w = ys ++ [mkY (nkey b cur) cur w (reachable b cur) (length (g_lin b))].
Proof. intros H. unfold push_y. destruct (N.eqb_spec cur 0); [contradiction | reflexivity]. Qed.

Lemma xwalk_walk nx fuel : forall a, xwalk nx fuel a = walk nx fuel a.
Proof. induction fuel as [|f IH]; intros a; cbn [xwalk walk]; [reflexivity|]. destruct (nx a =? 0); [reflexivity|]. rewrite IH. reflexivity. Qed.

Lemma reachable_chain b x : reachable b x = true <-> In x (chain b).
Proof. unfold reachable, chain. rewrite xwalk_walk. apply memb_true. Qed.

Lemma in_del_nodes_nth l x : In x (del_nodes l) -> exists j t k, (j < length l)%nat /\ nth_error l j = Some (LDel t k x).
Proof.
  intros H. apply del_nodes_in in H. destruct H as (t & k & H). apply In_nth_error in H. destruct H as [j Hj].
  exists j, t, k. split; [apply nth_error_Some; congruence | exact Hj].
Qed.

(** the iterator of thread [t] moves to [cur'], the successor of the unmarked chain node [sv'] *)
Lemma X_move st c t sv' cur' w :
  let b := base st in
  XI st c -> (forall k, In k (g_always st t) -> In k (g_abs b)) ->
  In sv' c -> nmark b sv' = false -> nnext b sv' = cur' ->
  (cur' <> 0 -> w = true \/ w = memb (nkey b cur') (g_abs b)) ->
  (forall ys0 y, g_yield st t = ys0 ++ [y] -> cur' <> 0 ->
     y_key y < nkey b cur' \/
     (y_key y = nkey b cur' /\ y_node y <> cur' /\
      forall j t', nth_error (g_lin b) j = Some (LIns t' (nkey b cur') cur') -> (y_lin y <= j)%nat)) ->
  (g_trav st t = true -> forall k, In k (g_always st t) -> above (g_lo st t) k -> sv' <> 0 -> k <= nkey b sv' ->
     In k (map y_key (g_yield st t))) ->
  XInv0 (move_it st b t sv' cur' w).
Proof.
  intros b HXc HA Hsv Hsvm Hsvn Hw Hord Hlow. apply (XI_local st _ c t HXc); [reflexivity | same_tac|].
  assert (HG : G b c) by exact (XI_G _ _ HXc). assert (HX : GX b c) by exact (XI_GX _ _ HXc).
  destruct (XI_IT _ _ HXc t) as [H0 H1 H2 H3 H4 H5 H6].
  assert (Hcur : cur' <> 0 -> In cur' c /\ (sv' <> 0 -> nkey b sv' < nkey b cur')).
  { intros Hnz. destruct (chain_nonzero b c sv' cur' HG Hsv Hsvn Hnz) as [Hc [_ HR]]. split; [exact Hc|].
    intros Hs. destruct HR as [HR | HR]; [contradiction | exact HR]. }
  assert (Hynew : cur' <> 0 -> yok b c (mkY (nkey b cur') cur' w (reachable b cur') (length (g_lin b)))).
  { intros Hnz. destruct (Hcur Hnz) as [Hc _]. unfold yok. cbn [y_key y_node y_wit y_lin y_reach].
    split; [split; [apply known_chain; exact Hc | exact Hnz]|]. split; [reflexivity|]. split; [apply Nat.le_refl|]. split; [|split; [|split]].
    - destruct (nmark b cur') eqn:Hm.
      + right. destruct (in_del_nodes_nth _ _ (proj1 HX _ Hm)) as (j & t' & k & Hj & Hn). exists j, t'. split; [exact Hj|].
        assert (k = nkey b cur'). { symmetry. apply (proj2 (G_ldel _ _ HG t' k cur' (nth_error_In _ _ Hn))). }
        subst k. exact Hn.
      + left. destruct (Hw Hnz) as [-> | ->]; [reflexivity|]. apply memb_true. apply (abs_in b c); assumption.
    - intros j t' n Hj Hn. apply nth_error_In in Hn. destruct (G_lins _ _ HG _ _ _ Hn) as [[Hk Hnn] Hkey].
      destruct (nmark b n) eqn:Hm; [right; reflexivity | left].
      apply (chain_key_inj b c); try assumption. eapply unmarked_in_chain; eassumption.
    - pose proof (proj2 HX cur' (known_chain _ _ _ Hc) Hnz) as Hi. apply ins_nodes_in in Hi. destruct Hi as (t' & k & Hi).
      assert (k = nkey b cur') by (symmetry; exact (proj2 (G_lins _ _ HG _ _ _ Hi))). subst k.
      apply In_nth_error in Hi. destruct Hi as [j Hj]. exists j, t'. split; [apply nth_error_Some; congruence | exact Hj].
    - apply reachable_chain. rewrite (chain_eq _ _ HG) in Hc. destruct Hc as [Hc | Hc]; [congruence | exact Hc]. }
  constructor; cbn [move_it base it_cur it_sv g_yield g_trav g_always g_lo ith]; rewrite ?upd_same; fold b.
  - apply known_chain. exact Hsv.
  - intros Hnz. destruct (Hcur Hnz) as [Hc Hlt]. split; [split; [apply known_chain; exact Hsv | exact Hlt]|].
    split; [apply known_chain; exact Hc | exact Hnz].
  - intros Hnz. rewrite push_y_nz by exact Hnz. eexists _, _. split; [reflexivity | reflexivity].
  - intros y Hy. destruct (N.eq_dec cur' 0) as [Hz|Hnz].
    + unfold push_y in Hy. rewrite Hz in Hy. cbn in Hy. apply H3. exact Hy.
    + rewrite push_y_nz in Hy by exact Hnz. apply in_app_or in Hy. destruct Hy as [Hy | [<- | []]]; [apply H3; exact Hy | apply Hynew; exact Hnz].
  - destruct (N.eq_dec cur' 0) as [Hz|Hnz].
    + unfold push_y. rewrite Hz. cbn. exact H4.
    + rewrite push_y_nz by exact Hnz. destruct (list_last_cases (g_yield st t)) as [E | (ys0 & y & E)].
      * rewrite E. constructor.
      * rewrite E. constructor; [rewrite <- E; exact H4|]. unfold ystep. cbn [y_key y_node y_lin].
        assert (Hy : yok b c y) by (apply H3; rewrite E; apply in_or_app; right; left; reflexivity).
        split; [exact (proj1 (proj2 (proj2 Hy)))|]. split; [apply Nat.le_refl|]. apply (Hord ys0 y E Hnz).
  - intros Ht _ k Hk Hab Hle.
    assert (Hincl : forall k0, In k0 (map y_key (g_yield st t)) -> In k0 (map y_key (push_y b (g_yield st t) cur' w))).
    { intros k0 Hk0. unfold push_y. destruct (cur' =? 0); [exact Hk0|]. rewrite map_app. apply in_or_app. left. exact Hk0. }
    assert (Hgap : (sv' <> 0 -> nkey b sv' < k) -> (cur' <> 0 -> k < nkey b cur') -> False).
    { intros Hlo Hhi. pose proof (HA k Hk) as Hin. apply (G_abs _ _ HG) in Hin. destruct Hin as (x & Hx1 & Hx2 & _ & Hx4).
      exact (not_in_chain b c sv' cur' k HG Hsv Hsvn Hlo Hhi x Hx1 Hx2 Hx4). }
    assert (Hlo : (sv' <> 0 /\ k <= nkey b sv') \/ (sv' <> 0 -> nkey b sv' < k)).
    { destruct (N.eq_dec sv' 0) as [Hsz|Hsnz]; [right; intros; contradiction|].
      destruct (N.le_gt_cases k (nkey b sv')); [left | right]; auto. }
    destruct Hlo as [[Hsnz Hl] | Hlo]; [apply Hincl, Hlow; assumption|].
    destruct (N.eq_dec cur' 0) as [Hz|Hnz]; [exfalso; apply Hgap; [exact Hlo | intros; contradiction]|].
    destruct Hle as [Hz | Hle]; [contradiction|].
    destruct (N.eq_dec k (nkey b cur')) as [->|Hkne].
    + rewrite push_y_nz by exact Hnz. rewrite map_app. apply in_or_app. right. left. reflexivity.
    + exfalso. apply Hgap; [exact Hlo | intros _; apply N.le_neq; auto].
  - exact I.
Qed.

Lemma last_yield st c t : IT st c t -> it_cur st t <> 0 -> forall ys0 y, g_yield st t = ys0 ++ [y] ->
  y_node y = it_cur st t /\ y_key y = nkey (base st) (it_cur st t) /\ yok (base st) c y.
Proof.
  intros HI Hnz ys0 y E. destruct (IT_last _ _ _ HI Hnz) as (ys1 & y1 & E1 & Hn). rewrite E in E1.
  apply app_inj_tail in E1. destruct E1 as [_ <-].
  assert (Hy : yok (base st) c y) by (apply (IT_yok _ _ _ HI); rewrite E; apply in_or_app; right; left; reflexivity).
  split; [exact Hn|]. split; [|exact Hy]. rewrite <- Hn. symmetry. exact (proj1 (proj2 Hy)).
Qed.

(** return of the internal find of thread [t] with info = (sv, cur): [sv] is an unmarked chain node, [cur] its
    successor, [key sv < key <= key cur] *)
Lemma find_ret_X st c t k key sv cur found w e st' es :
  XI st c -> Ainv st ->
  ifk_ok st t k key -> in_start (ith st t) = is_itf k ->
  In sv c -> nmark (base st) sv = false -> nnext (base st) sv = cur -> okprev (base st) c key sv ->
  (cur <> 0 -> key <= nkey (base st) cur /\ w = true /\ newpos st t k key cur) ->
  ifind_ret st t k sv cur found w e = Some (st', es) -> XInv0 st'.
Proof.
  intros HXc HA Hifk Hs Hsv Hsvm Hsvn Hop Hcur Hst. unfold ifind_ret in Hst.
  assert (Hw : cur <> 0 -> w = true \/ w = memb (nkey (base st) cur) (g_abs (base st))).
  { intros Hnz. left. exact (proj1 (proj2 (Hcur Hnz))). }
  (* operator++ and erase(iterator): the iterator stood on the marked node [o] *)
  assert (Ho : forall o, ifk_ok st t (KItN o) key -> in_start (ith st t) = false ->
                 (cur <> 0 -> key <= nkey (base st) cur /\ w = true /\ newpos st t (KItN o) key cur) ->
                 XInv0 (move_it st (base st) t sv cur w)).
  { intros o (Hc0 & Hnz & Hm & Hk) Hs0 Hcur0. assert (Hcz : it_cur st t <> 0) by congruence.
    apply (X_move st c); try assumption; [apply HA | |].
    - intros ys0 y E Hcnz. destruct (last_yield st c t (XI_IT _ _ HXc t) Hcz ys0 y E) as (Hn & Hyk & _).
      destruct (Hcur0 Hcnz) as (Hle & _ & Hne & Hre). rewrite Hyk, Hc0, <- Hk.
      destruct (N.eq_dec key (nkey (base st) cur)) as [Heq | Hneq]; [right | left; apply N.le_neq; auto].
      split; [exact Heq|]. split; [congruence|]. intros j t' Hj. rewrite <- Heq in Hj. eapply Hre; eauto.
    - intros Ht k0 Hkin Hab Hsnz Hle. apply (IT_compl _ _ _ (XI_IT _ _ HXc t) Ht); [exact Hs0 | exact Hkin | exact Hab|].
      right. rewrite Hc0, <- Hk. exact (N.le_trans _ _ _ Hle (N.lt_le_incl _ _ (proj2 Hop Hsnz))). }
  destruct k as [|o|o]; [destruct found|..]; injection Hst as <- <-;
    [| apply (X_end st c); exact HXc | exact (Ho o Hifk Hs Hcur) ..].
  (* find(key) found *)
  cbn [ifk_ok] in Hifk. destruct Hifk as (Hy & Hc0 & Hlo).
  apply (X_move st c); try assumption; [apply HA | |].
  - intros ys0 y E. rewrite Hy in E. destruct ys0; discriminate.
  - intros _ k _ Hab Hnz Hle. rewrite Hlo in Hab. cbn [above] in Hab. pose proof (proj2 Hop Hnz) as Hlt. clear -Hab Hle Hlt. lia.
Qed.

Lemma XInv0_step st a st' es : XInv st -> xstep0 st a = Some (st', es) -> XInv0 st'.
Proof.
  intros [[c HXc] HA] Hst. pose proof HXc as [HG HT HU HX HI].
  (* below, [auto 12] only splits the conjunction [ITp] of the new program point; every atom is a conjunct of [Hp],
     [Hz] with [HG] (the sentinel as predecessor), or the fact posed just before the call *)
  pose proof (G_closed _ _ HG) as Hcl. pose proof (okprev_zero (base st) c) as Hz.
  unfold xstep0 in Hst. destruct a as [t o | t].
  - (* XStart *)
    destruct o as [o| |k| | | |].
    1: { destruct (ith st t); try discriminate. unfold lift in Hst.
         destruct (step (base st) (Start t o)) as [[b' e]|] eqn:Hb; [|discriminate].
         injection Hst as <- <-. eapply XInv0_lift; eassumption. }
    all: destruct (ith st t) eqn:E; try discriminate; destruct (th (base st) t); try discriminate; injection Hst as <- <-;
      apply (X_go st c t _ _ HXc E); [exact I | auto].
  - (* XStep *)
    pose proof (HI t) as Ht. pose proof (IT_pc _ _ _ Ht) as Hp.
    destruct (ith st t) as [|o| |k key start|k key start sv nx|k key start sv cur|k key start sv cur|k key start sv cur nx
                            |k key start sv cur nx w| |nx| |nx|nx] eqn:E; cbn [ITp Tw cont_ok] in Hp; cbv beta iota zeta in Hst.
    + (* IIdle: a step of a list operation *)
      unfold lift in Hst. destruct (step (base st) (Step t)) as [[b' e]|] eqn:Hb; [|discriminate].
      injection Hst as <- <-. eapply XInv0_lift; eassumption.
    + (* IBegin *)
      destruct o as [o| |k| | | |]; try discriminate.
      * injection Hst as <- <-. apply (X_start st c); auto 12.
      * injection Hst as <- <-. apply (X_start st c); eauto.
      * destruct (N.eqb_spec (it_cur st t) 0) as [Hz0|Hnz]; injection Hst as <- <-; apply (X_go st c t _ _ HXc E); cbn [ITp Tw cont_ok]; auto 12.
      * injection Hst as <- <-. apply (X_go st c t _ _ HXc E); cbn [ITp Tw cont_ok]; auto 12.
      * destruct (N.eqb_spec (it_cur st t) 0) as [Hz0|Hnz]; injection Hst as <- <-; apply (X_go st c t _ _ HXc E); cbn [ITp Tw cont_ok]; auto 12.
      * injection Hst as <- <-. apply (X_end st c). exact HXc.
    + (* B1 *)
      destruct Hp as [Hy Hc0]. injection Hst as <- <-.
      apply (X_move st c); try assumption; [apply HA | exact (G_zero_in _ _ HG) | exact (G_mark0 _ _ HG) | reflexivity | | |].
      * intros _. right. reflexivity.
      * intros ys0 y Ey. rewrite Hy in Ey. destruct ys0; discriminate.
      * intros _ k _ _ Hc. contradiction.
    + (* IF1 *)
      destruct Hp as (Hifk & _ & Hstart).
      destruct (nmark (base st) start) eqn:Hm; injection Hst as <- <-; apply (X_go st c t _ _ HXc E); cbn [ITp Tw cont_ok]; auto 12.
      pose proof (Hcl start (proj1 Hstart)). auto 12.
    + (* IF2 *)
      destruct Hp as (Hifk & _ & Hstart & Hsv & Hnxk).
      destruct ((nnext (base st) sv =? nx) && negb (nmark (base st) sv)) eqn:Hc; cbn [negb] in Hst.
      * apply cond_true in Hc. destruct Hc as [Hnx Hm].
        pose proof (unmarked_in_chain _ _ _ HG (proj1 Hsv) Hm) as Hsvc.
        destruct (N.eqb_spec nx 0) as [Hz0|Hz0].
        -- eapply (find_ret_X st c t k key sv 0 false false); try eassumption;
             [rewrite E; reflexivity | congruence | intros Hc; contradiction].
        -- injection Hst as <- <-. apply (X_go st c t _ _ HXc E); cbn [ITp Tw cont_ok]; auto 12.
           pose proof (next_oknode _ _ _ _ HG (proj1 Hsv) Hm Hnx Hz0). auto 12.
      * injection Hst as <- <-. apply (X_go st c t _ _ HXc E); cbn [ITp Tw cont_ok]; auto 12.
    + (* IF3 *)
      destruct Hp as (Hifk & _ & Hstart & Hsv & Hcur). pose proof (Hcl cur (proj1 Hcur)) as Hnxk.
      destruct (nmark (base st) cur) eqn:Hm; injection Hst as <- <-; apply (X_go st c t _ _ HXc E); cbn [ITp Tw cont_ok]; auto 12.
      pose proof (unmarked_in_chain _ _ _ HG (proj1 Hcur) Hm) as Hcc.
      assert (Hw : memb (nkey (base st) cur) (g_abs (base st)) = true).
      { apply memb_true. apply (abs_in (base st) c); [exact HG | exact Hcc | exact (proj2 Hcur) | exact Hm]. }
      (* [cur] is unmarked, so it is not the marked node the iterator stands on; if it carries the same key it was
         linked after the last position was recorded: an older link of that key is the iterator's node or marked *)
      assert (Hnp : forall o, ifk_ok st t (KItN o) key -> newpos st t (KItN o) key cur).
      { intros o (Hc0 & Honz & Hom & Hk). split; [intros ->; congruence|].
        intros Hkey ys0 y j t' Ey Hn. destruct (Nat.le_gt_cases (y_lin y) j) as [Hle | Hgt]; [exact Hle | exfalso].
        assert (Hcz : it_cur st t <> 0) by congruence.
        destruct (last_yield st c t Ht Hcz ys0 y Ey) as (Hyn & Hyk & Hyok).
        destruct Hyok as (_ & _ & _ & _ & H5 & _). rewrite Hc0, <- Hk in Hyk. rewrite <- Hyk in Hn.
        destruct (H5 j t' cur Hgt Hn) as [Hx | Hx]; [|congruence]. rewrite Hyn, Hc0 in Hx. subst cur. congruence. }
      assert (newpos st t k key cur) by (destruct k as [|o|o]; [exact I | exact (Hnp o Hifk) ..]). auto 12.
    + (* IF4 *)
      destruct Hp as (Hifk & _ & Hstart & Hsv & Hcur & Hm). injection Hst as <- <-.
      apply (X_go st c t _ _ HXc E); cbn [ITp Tw cont_ok]; auto 12.
    + (* IF5 *)
      destruct Hp as (Hifk & _ & Hstart & Hsv & Hcur & Hm & Hn).
      destruct ((nnext (base st) sv =? cur) && negb (nmark (base st) sv)) eqn:Hc; injection Hst as <- <-.
      * (* the unlink CAS succeeds, then the thread goes on in the new state *)
        apply cond_true in Hc. destruct Hc as [Hnx Hsvm].
        destruct (unlink_step (base st) c (unlink_st (base st) sv cur nx) sv cur nx HG (proj1 Hsv) Hsvm Hnx (proj2 Hcur) Hm Hn
                    eq_refl eq_refl eq_refl eq_refl eq_refl eq_refl eq_refl) as (c' & HM & _).
        pose proof (XI_mem0 st c _ c' [] HXc HM eq_refl eq_refl) as HX1.
        pose proof (IT_pc _ _ _ (XI_IT _ _ HX1 t)) as Hp1. cbn [set_base ith] in Hp1. rewrite E in Hp1.
        destruct Hp1 as (Hifk1 & _ & Hstart1 & Hsv1 & Hcur1 & _ & Hn1).
        apply (X_go _ c' t _ _ HX1 E); [|auto]. cbn [ITp Tw cont_ok]. rewrite <- Hn1.
        pose proof (G_closed _ _ (XI_G _ _ HX1) cur (proj1 Hcur1)). auto 12.
      * apply (X_go st c t _ _ HXc E); cbn [ITp Tw cont_ok]; auto 12.
    + (* IF6 *)
      destruct Hp as (Hifk & Hw & Hnp & _ & Hstart & Hsv & Hcur & _ & Hnxk).
      destruct ((nnext (base st) sv =? cur) && negb (nmark (base st) sv)) eqn:Hc; cbn [negb] in Hst.
      * apply cond_true in Hc. destruct Hc as [Hnx Hm].
        pose proof (unmarked_in_chain _ _ _ HG (proj1 Hsv) Hm) as Hsvc.
        destruct (N.ltb_spec (nkey (base st) cur) key) as [Hlt|Hge].
        -- injection Hst as <- <-. apply (X_go st c t _ _ HXc E); cbn [ITp Tw cont_ok]; auto 12.
           assert (okprev (base st) c key cur) by (split; [exact (proj1 Hcur) | intros _; exact Hlt]). auto 12.
        -- eapply (find_ret_X st c t k key sv cur (nkey (base st) cur =? key) w); try eassumption;
             [rewrite E; reflexivity | intros _; auto].
      * injection Hst as <- <-. apply (X_go st c t _ _ HXc E); cbn [ITp Tw cont_ok]; auto 12.
    + (* N1 *)
      destruct (IT_it _ _ _ Ht Hp) as [Hsv Hcur]. pose proof (Hcl _ (proj1 Hcur)).
      destruct (nmark (base st) (it_cur st t)) eqn:Hm; injection Hst as <- <-;
        apply (X_go st c t _ _ HXc E); cbn [ITp Tw cont_ok ifk_ok]; auto 12.
    + (* N2 *)
      destruct Hp as [Hnz Hnxk]. destruct (IT_it _ _ _ Ht Hnz) as [Hsv Hcur].
      destruct ((nnext (base st) (it_cur st t) =? nx) && negb (nmark (base st) (it_cur st t))) eqn:Hc; injection Hst as <- <-.
      * apply cond_true in Hc. destruct Hc as [Hnx Hm].
        pose proof (unmarked_in_chain _ _ _ HG (proj1 Hcur) Hm) as Hcc.
        apply (X_move st c); try assumption; [apply HA | | |].
        -- intros _. right. reflexivity.
        -- intros ys0 y Ey Hxz. destruct (last_yield st c t Ht Hnz ys0 y Ey) as (_ & Hyk & _). left. rewrite Hyk.
           destruct (chain_nonzero (base st) c _ nx HG Hcc Hnx Hxz) as [_ [_ [Hx | Hx]]]; [contradiction | exact Hx].
        -- intros Htr k Hk Hab _ Hle. apply (IT_compl _ _ _ Ht Htr); [rewrite E; reflexivity | exact Hk | exact Hab | right; exact Hle].
      * apply (X_go st c t _ _ HXc E); cbn [ITp Tw cont_ok]; auto 12.
    + (* X1 *)
      destruct (IT_it _ _ _ Ht Hp) as [Hsv Hcur]. pose proof (Hcl _ (proj1 Hcur)).
      destruct (nmark (base st) (it_cur st t)) eqn:Hm; injection Hst as <- <-; apply (X_go st c t _ _ HXc E); cbn [ITp Tw cont_ok]; auto 12.
    + (* X2 *)
      destruct Hp as [Hnz Hnxk]. destruct (IT_it _ _ _ Ht Hnz) as [Hsv Hcur]. pose proof (Hcl _ (proj1 Hcur)).
      destruct ((nnext (base st) (it_cur st t) =? nx) && negb (nmark (base st) (it_cur st t))) eqn:Hc.
      * (* the mark CAS succeeds *)
        injection Hst as <- <-. apply cond_true in Hc. destruct Hc as [Hnx Hm].
        assert (HM : mstep (base st) c (mark_st (base st) t (it_cur st t)) c 0 [LDel t (nkey (base st) (it_cur st t)) (it_cur st t)])
          by (apply (mark_step _ _ _ _ _ _ HG (proj1 Hcur) (proj2 Hcur) Hm eq_refl); reflexivity).
        pose proof (XI_mem0 st c _ c _ HXc HM eq_refl eq_refl) as HX1.
        apply (X_go _ c t _ _ HX1 E); [|auto].
        cbn [ITp Tw cont_ok]. xprj. cbn [mark_st nmark nnext]. split; [exact Hnz|]. split; [apply setf_same | exact Hnx].
      * destruct (nmark (base st) (it_cur st t)) eqn:Hm; injection Hst as <- <-; apply (X_go st c t _ _ HXc E); cbn [ITp Tw cont_ok]; auto 12.
    + (* X3 *)
      destruct Hp as (Hnz & Hm & Hn). destruct (IT_it _ _ _ Ht Hnz) as [Hsv Hcur].
      destruct ((nnext (base st) (it_sv st t) =? it_cur st t) && negb (nmark (base st) (it_sv st t))) eqn:Hc; injection Hst as <- <-.
      * (* the unlink CAS succeeds, then the iterator moves to [nx] in the new state *)
        apply cond_true in Hc. destruct Hc as [Hsvn Hsvm].
        set (sv := it_sv st t) in *. set (cur := it_cur st t) in *. set (b := base st) in *.
        destruct (unlink_step b c (unlink_st b sv cur nx) sv cur nx HG (proj1 Hsv) Hsvm Hsvn Hnz Hm Hn
                    eq_refl eq_refl eq_refl eq_refl eq_refl eq_refl eq_refl) as (c' & HM & Hcc & _).
        pose proof (XI_mem0 st c _ c' [] HXc HM eq_refl eq_refl) as HX1.
        set (st1 := set_base st (unlink_st b sv cur nx)) in *. pose proof (XI_IT _ _ HX1 t) as Ht1.
        change (XInv0 (move_it st1 (base st1) t sv nx (memb (nkey (base st1) nx) (g_abs (base st1))))).
        apply (X_move st1 c' t sv nx _ HX1 (HA t)).
        -- eapply unmarked_in_chain; [exact (XI_G _ _ HX1) | exact (IT_sv _ _ _ Ht1) | exact Hsvm].
        -- exact Hsvm.
        -- apply setf_same.
        -- intros _. right. reflexivity.
        -- intros ys0 y Ey Hxz. destruct (last_yield st1 c' t Ht1 Hnz ys0 y Ey) as (_ & Hyk & _). left. rewrite Hyk.
           destruct (chain_nonzero b c cur nx HG Hcc Hn Hxz) as [_ [_ [Hx | Hx]]]; [contradiction | exact Hx].
        -- intros Htr k Hk Hab Hsnz Hle. apply (IT_compl _ _ _ Ht1 Htr); [subst st1; xprj; rewrite E; reflexivity | exact Hk | exact Hab|].
           right. pose proof (proj2 Hsv Hsnz) as Hlt. change (k <= nkey b sv) in Hle. change (k <= nkey b cur). lia.
      * apply (X_go st c t _ _ HXc E); cbn [ITp Tw cont_ok ifk_ok]; auto 12.
Qed.

Lemma XInv_refresh st : XInv0 st -> XInv (refresh st).
Proof.
  intros [c HXc]. split.
  - exists c. destruct HXc as [HG HT HU HX HI]. constructor; try assumption.
    intros t. apply (IT_local st (refresh st) c t eq_refl); [|apply HI].
    unfold same_at. xprj. repeat split. intros k Hk. apply filter_In in Hk. exact (proj1 Hk).
  - intros t k Hk. xprj. cbn [refresh g_always] in Hk. apply filter_In in Hk. apply memb_true. exact (proj2 Hk).
Qed.

Lemma XInv_step st a st' es : XInv st -> xstep st a = Some (st', es) -> XInv st'.
Proof.
  intros HI Hst. unfold xstep in Hst. destruct (xstep0 st a) as [[st0 e]|] eqn:H0; [|discriminate].
  injection Hst as <- <-. apply XInv_refresh. eapply XInv0_step; eassumption.
Qed.

Lemma XInv_init : XInv xinit.
Proof.
  split; [|intros t k []]. destruct Inv_init as [c (HG & HT & HU)]. exists c. constructor; try assumption.
  - split; [intros x Hx; discriminate|]. intros x Hx Hnz. exfalso.
    pose proof (G_bound _ _ HG x Hx) as Hb. cbn [xinit base init nalloc] in Hb. lia.
  - intros t. constructor; cbn [xinit base it_cur it_sv g_yield g_trav g_always g_lo ith].
    + apply known_zero. exact HG.
    + intros H; contradiction.
    + intros H; contradiction.
    + intros y [].
    + constructor.
    + intros H; discriminate.
    + exact I.
Qed.

Theorem XInv_reach st : reach xinit xstep st -> XInv st.
Proof. apply inv_rule; [exact XInv_init | exact XInv_step]. Qed.

(** * Theorems (state level) *)

(** node variables of the iterator state of thread [t]: the iterator variable (save, cur) and the locals of
    the iterator operation in progress *)
Definition iheld (st : xstate) (t : nat) : list N :=
  it_sv st t :: it_cur st t ::
  match ith st t with
  | IF1 _ _ start => [start]
  | IF2 _ _ start sv nx => [start; sv; nx]
  | IF3 _ _ start sv cur | IF4 _ _ start sv cur => [start; sv; cur]
  | IF5 _ _ start sv cur nx | IF6 _ _ start sv cur nx _ => [start; sv; cur; nx]
  | N2 nx | X2 nx | X3 nx => [nx]
  | _ => []
  end.

Lemma ychain_pairs b ys : ychain b ys ->
  forall i j y1 y2, (i < j)%nat -> nth_error ys i = Some y1 -> nth_error ys j = Some y2 ->
    (y_lin y1 <= y_lin y2)%nat /\
    (y_key y1 < y_key y2 \/
     (y_key y1 = y_key y2 /\
      forall m t', nth_error (g_lin b) m = Some (LIns t' (y_key y2) (y_node y2)) -> (y_lin y1 <= m)%nat)).
Proof.
  induction 1 as [|y|ys ya yb Hc IH Hs]; intros i j y1 y2 Hij Hi Hj.
  - destruct j; discriminate.
  - destruct j as [|j]; [lia|]. destruct j; discriminate.
  - set (n := length (ys ++ [ya])).
    assert (Hn : n = S (length ys)) by (subst n; rewrite app_length; cbn; lia).
    assert (Hya : nth_error (ys ++ [ya]) (length ys) = Some ya).
    { rewrite nth_error_app2 by lia. rewrite Nat.sub_diag. reflexivity. }
    destruct (Nat.lt_ge_cases j n) as [Hjn | Hjn].
    + rewrite nth_error_app1 in Hi by (fold n; lia). rewrite nth_error_app1 in Hj by (fold n; lia).
      exact (IH i j y1 y2 Hij Hi Hj).
    + assert (Hjl : (j < length ((ys ++ [ya]) ++ [yb]))%nat) by (apply nth_error_Some; congruence).
      rewrite app_length in Hjl. cbn [length] in Hjl. fold n in Hjl. assert (j = n) by lia. subst j.
      rewrite nth_error_app2 in Hj by (fold n; lia). fold n in Hj. rewrite Nat.sub_diag in Hj. injection Hj as <-.
      rewrite nth_error_app1 in Hi by (fold n; lia).
      destruct Hs as (Hs1 & Hs2 & Hs3).
      destruct (Nat.eq_dec i (length ys)) as [->|Hne].
      * rewrite Hya in Hi. injection Hi as <-. split; [exact Hs1|].
        destruct Hs3 as [Hs3 | (Hs3 & _ & Hs4)]; [left; exact Hs3 | right; split; assumption].
      * destruct (IH i (length ys) y1 ya ltac:(lia) Hi Hya) as [Hl Hk]. split; [lia|].
        destruct Hs3 as [Hs3 | (Hs3 & _ & Hs4)]; [left; destruct Hk as [Hk | [Hk _]]; lia|].
        destruct Hk as [Hk | [Hk _]]; [left; lia | right]. split; [congruence|].
        intros m t' Hm. specialize (Hs4 m t' Hm). lia.
Qed.

Lemma IT_held st c t x : G (base st) c -> IT st c t -> In x (iheld st t) -> oknx (base st) c x.
Proof.
  intros HG HI Hin. set (b := base st) in *.
  assert (Hp : forall key y, okprev b c key y -> oknx b c y) by (intros key y H; right; exact (proj1 H)).
  assert (Hn : forall y, oknode b c y -> oknx b c y) by (intros y H; right; exact (proj1 H)).
  assert (Hcl : forall y, oknode b c y -> oknx b c (nnext b y)) by (intros y H; exact (G_closed _ _ HG y (proj1 H))).
  assert (Hon : it_cur st t <> 0 -> oknode b c (it_cur st t)) by (intros H; exact (proj2 (IT_it _ _ _ HI H))).
  pose proof (IT_pc _ _ _ HI) as Hpc. unfold iheld in Hin.
  destruct Hin as [<- | [<- | Hin]]; [right; exact (IT_sv _ _ _ HI) | destruct (N.eq_dec (it_cur st t) 0); [left|]; auto |].
  destruct (ith st t); cbn [ITp Tw cont_ok] in Hpc; cbn [In] in Hin; try contradiction; intuition (subst; eauto).
Qed.

Section XTheorems.
  Variable st : xstate.
  Hypothesis Hreach : reach xinit xstep st.

  Let b := base st.
  Let HXI := XInv_reach st Hreach.

  Lemma xinv_chain : XI st (0 :: chain b) /\ Ainv st.
  Proof. destruct HXI as [[c HXc] HA]. unfold b. rewrite <- (chain_eq _ _ (XI_G _ _ HXc)). auto. Qed.

  (** 0. the invariant of HmlInv holds for the list in the extended system *)
  Theorem hmlit_base_inv : Inv b.
  Proof. destruct HXI as [[c [HG HT HU _ _]] _]. exists c. auto. Qed.

  (** 1a. structure of the chain, as [hml_structure] *)
  Theorem hmlit_structure :
    head b = hd 0 (chain b) /\
    linksto (nnext b) (chain b) 0 /\
    StronglySorted (fun x y => nkey b x < nkey b y) (chain b) /\
    NoDup (chain b) /\
    (forall x, In x (chain b) -> x <> 0 /\ x < nalloc b) /\
    nmark b 0 = false.
  Proof. exact (Inv_structure b hmlit_base_inv). Qed.

  (** 1b. retired nodes, as [hml_retired]; in addition every marked node was marked by a recorded erase and
      every linked node was linked by a recorded insert *)
  Theorem hmlit_retired :
    NoDup (g_retired b) /\
    (forall x, In x (g_retired b) -> ~ In x (chain b) /\ nmark b x = true /\ x <> 0 /\ x < nalloc b) /\
    (forall x, nmark b x = true -> (In x (chain b) \/ In x (g_retired b)) /\ In x (del_nodes (g_lin b))) /\
    (forall x, In x (chain b) \/ In x (g_retired b) -> In x (ins_nodes (g_lin b))) /\
    g_abs b = apply_lin (g_lin b) /\
    (forall k, In k (g_abs b) <-> In k (abs_keys b)).
  Proof.
    destruct xinv_chain as [[_ _ _ [HX1 HX2] _] _].
    destruct (Inv_retired b hmlit_base_inv) as (H1 & H2 & H3 & _). destruct (Inv_abs b hmlit_base_inv) as (_ & _ & H5 & H6).
    destruct (Inv_structure b hmlit_base_inv) as (_ & _ & _ & _ & Hnz & _).
    split; [exact H1|]. split; [exact H2|]. split; [auto|]. split; [|auto].
    intros x Hx. apply HX2.
    - apply in_or_app. destruct Hx as [Hx | Hx]; [left; right; exact Hx | right; exact Hx].
    - destruct Hx as [Hx | Hx]; [exact (proj1 (Hnz x Hx)) | exact (proj1 (proj2 (proj2 (H2 x Hx))))].
  Qed.

  (** 1c. SAFETY OF THE ITERATOR: every node an iterator (or an iterator operation in progress) refers to was
      allocated and is null / the head sentinel, reachable from head, or retired.  Retired nodes are never
      freed or reused in this model (GC reclaimer instance): this is the guarantee C01 gives for a node on
      which a guard_ptr is held, and every variable listed in [iheld] is a guard_ptr of the C++ code
      (info.save, info.cur, start_guard, tmp_guard, next_guard) or the value [next] just read from the
      guarded node [cur], which is dereferenced only after it was validated by acquire_if_equal (find, ++)
      resp. never dereferenced before the unlink CAS succeeded (erase).  So the key and the next field of
      these nodes may be read at any time. *)
  Theorem it_node_safe t x : In x (iheld st t) ->
    x < nalloc b /\ (x = 0 \/ In x (chain b) \/ In x (g_retired b)).
  Proof.
    destruct xinv_chain as [[HG _ _ _ HI] _]. intros Hin. exact (oknx_safe b x HG (IT_held st _ t x HG (HI t) Hin)).
  Qed.

  (** the iterator variable: the node it stands on carries a greater key than its predecessor [save], and it
      is the last recorded position of the traversal *)
  Theorem it_position t : it_cur st t <> 0 ->
    (it_sv st t <> 0 -> nkey b (it_sv st t) < nkey b (it_cur st t)) /\
    exists ys0 y, g_yield st t = ys0 ++ [y] /\ y_node y = it_cur st t /\ y_key y = nkey b (it_cur st t).
  Proof.
    destruct xinv_chain as [[_ _ _ _ HI] _]. intros Hnz. split; [exact (proj2 (proj1 (IT_it _ _ _ (HI t) Hnz)))|].
    destruct (IT_last _ _ _ (HI t) Hnz) as (ys0 & y & E & Hn). exists ys0, y. split; [exact E|].
    destruct (last_yield st _ t (HI t) Hnz ys0 y E) as (H1 & H2 & _). auto.
  Qed.

  (** 2. YIELDS: every recorded position [y] of the current traversal of thread [t] is a node that was linked
      by a recorded insert before the yield and was REACHABLE from head at the instant the iterator moved
      onto it ([y_reach], computed by [reachable] in that state); its witness flag is true (the key was in
      [g_abs] at that instant resp. at the instant find saw the node unmarked, see [it_yield_was_member]), or
      the node had been erased (marked by a recorded erase) before the iterator moved onto it - it was
      then still linked, i.e. the physical removal, which every operation performs before it can observe the
      absence of the key, was still outstanding *)
  Theorem it_yield_sound t y : In y (g_yield st t) ->
    nkey b (y_node y) = y_key y /\ y_node y <> 0 /\ (In (y_node y) (chain b) \/ In (y_node y) (g_retired b)) /\
    (y_lin y <= length (g_lin b))%nat /\
    (exists j t', (j < y_lin y)%nat /\ nth_error (g_lin b) j = Some (LIns t' (y_key y) (y_node y))) /\
    y_reach y = true /\
    (y_wit y = true \/
     exists j t', (j < y_lin y)%nat /\ nth_error (g_lin b) j = Some (LDel t' (y_key y) (y_node y))).
  Proof.
    destruct xinv_chain as [[HG _ _ _ HI] _]. intros Hy.
    destruct (IT_yok _ _ _ (HI t) y Hy) as ([Hk Hnz] & H2 & H3 & H4 & _ & H6 & H7).
    split; [exact H2|]. split; [exact Hnz|]. split; [|auto 6].
    apply in_app_or in Hk. destruct Hk as [[Hk | Hk] | Hk]; [congruence | left; exact Hk | right; exact Hk].
  Qed.

  (** 3. NO DUPLICATES (true version): the keys of the recorded positions never decrease, and a key is
      yielded again only by a DIFFERENT node which was linked by an insert whose linearization point lies
      after the first yield and before the second one ("no key is yielded twice unless re-inserted").
      The strict version (keys strictly increasing) is false: [it_no_duplicate_strict_refuted]. *)
  Theorem it_no_duplicate t i j y1 y2 : (i < j)%nat ->
    nth_error (g_yield st t) i = Some y1 -> nth_error (g_yield st t) j = Some y2 ->
    y_key y1 < y_key y2 \/
    (y_key y1 = y_key y2 /\ y_node y1 <> y_node y2 /\
     exists m t', nth_error (g_lin b) m = Some (LIns t' (y_key y2) (y_node y2)) /\ (y_lin y1 <= m < y_lin y2)%nat).
  Proof.
    destruct xinv_chain as [[HG _ _ _ HI] _]. intros Hij H1 H2.
    destruct (ychain_pairs b _ (IT_chain _ _ _ (HI t)) i j y1 y2 Hij H1 H2) as [Hl [Hk | [Hk Hre]]]; [left; exact Hk | right].
    split; [exact Hk|].
    destruct (IT_yok _ _ _ (HI t) y1 (nth_error_In _ _ H1)) as (_ & _ & _ & _ & _ & (m1 & t1 & Hm1 & Hn1) & _).
    destruct (IT_yok _ _ _ (HI t) y2 (nth_error_In _ _ H2)) as (_ & _ & _ & _ & _ & (m2 & t2 & Hm2 & Hn2) & _).
    split.
    - intros Heq. rewrite Hk, Heq in Hn1. specialize (Hre m1 t1 Hn1). lia.
    - exists m2, t2. split; [exact Hn2|]. specialize (Hre m2 t2 Hn2). lia.
  Qed.

  (** 4. COMPLETENESS: when the traversal of thread [t] (started by begin(), or by a successful find(k)) has
      reached end(), every key that was in the abstract set in every state since the first step of the
      traversal ([g_always], see [it_always_exact]) - and is greater than k for a traversal started by
      find(k) - has been yielded.  More generally, at any time all such keys up to the key of the current
      position have been yielded. *)
  Theorem it_complete_upto t k : g_trav st t = true -> in_start (ith st t) = false ->
    In k (g_always st t) -> above (g_lo st t) k -> (it_cur st t = 0 \/ k <= nkey b (it_cur st t)) ->
    In k (map y_key (g_yield st t)).
  Proof. destruct xinv_chain as [[_ _ _ _ HI] _]. intros H1 H2 H3 H4 H5. exact (IT_compl _ _ _ (HI t) H1 H2 k H3 H4 H5). Qed.

  Corollary it_complete t k : g_trav st t = true -> in_start (ith st t) = false -> it_cur st t = 0 ->
    In k (g_always st t) -> above (g_lo st t) k -> In k (map y_key (g_yield st t)).
  Proof. intros H1 H2 H3 H4 H5. apply it_complete_upto; auto. Qed.

  (** [g_always] only contains keys of the current abstract set *)
  Theorem it_always_abs t k : In k (g_always st t) -> In k (g_abs b).
  Proof. destruct xinv_chain as [_ HA]. apply HA. Qed.
End XTheorems.

(** * Step-level and trace-level theorems *)

Ltac xstep_cases Hst s :=
  unfold xstep in Hst;
  match type of Hst with context [xstep0 s ?a] =>
    let H0 := fresh "H0" in
    destruct (xstep0 s a) as [[?s0 ?e0]|] eqn:H0; [|discriminate Hst];
    injection Hst as <- <-;
    unfold xstep0 in H0;
    destruct a as [?t ?o | ?t];
    [ destruct o as [?o| |?k| | | |] | ];
    match type of H0 with
    | context [ith s ?t] =>
      destruct (ith s t) as [|?o| |?k ?key ?start|?k ?key ?start ?sv ?nx|?k ?key ?start ?sv ?cur|?k ?key ?start ?sv ?cur
                             |?k ?key ?start ?sv ?cur ?nx|?k ?key ?start ?sv ?cur ?nx ?w| |?nx| |?nx|?nx] eqn:?E
    end;
    cbv beta iota zeta in H0; try discriminate H0;
    try match type of H0 with context [match ?o with OBase _ => _ | OItB => _ | OItF _ => _ | OItN => _ | OItD => _ | OItE => _ | OItR => _ end] =>
      destruct o as [?o| |?k| | | |] end;
    try discriminate H0;
    unfold ifind_ret, lift in H0;
    repeat match type of H0 with
    | context [step (base s) ?a] => destruct (step (base s) a) as [[?b' ?e]|] eqn:?Hb
    | context [th (base s) ?t] => destruct (th (base s) t) eqn:?Eb
    | context [if ?c then _ else _] => destruct c eqn:?Hc
    | context [match ?k with KItF => _ | KItN _ => _ | KItE _ => _ end] => destruct k as [|?o|?o]
    end;
    try discriminate H0;
    injection H0 as <- <-
  end.

Definition starts_trav (s : xstate) (a : xaction) (u : nat) : Prop :=
  a = XStep u /\ (ith s u = IBegin OItB \/ exists k, ith s u = IBegin (OItF k)).

(** ** the shapes of a step *)

Definition is_ite (c : ifk) : bool := match c with KItE _ => true | _ => false end.
(** thread is inside erase(iterator) *)
Definition in_erase (p : ipc) : bool :=
  match p with
  | IBegin OItE | X1 | X2 _ | X3 _ => true
  | IF1 c _ _ | IF2 c _ _ _ _ | IF3 c _ _ _ _ | IF4 c _ _ _ _ | IF5 c _ _ _ _ _ | IF6 c _ _ _ _ _ _ => is_ite c
  | _ => false
  end.

(** [xshape s t a st s0]: the action [a] of thread [t] leads, before the refresh of [g_always], to [s0], and [st]
    tells whether it is the first step of a traversal.  In this order: invocation and step of a list
    operation; invocation of an iterator operation; a step that stays inside an iterator operation or
    returns without moving the iterator ([IF6] is entered from [IF3] only, with the membership of the key as
    flag); the first step of begin() / find(k); returns that reset or move the iterator; the three steps
    that change the list (helping unlink in find, mark and unlink of erase(iterator)). *)
Inductive xshape (s : xstate) (t : nat) : xaction -> bool -> xstate -> Prop :=
| xs_base_start o b' e : step (base s) (Start t o) = Some (b', e) -> ith s t = IIdle ->
    xshape s t (XStart t (OBase o)) false (set_base s b')
| xs_base_step b' e : step (base s) (Step t) = Some (b', e) -> ith s t = IIdle ->
    xshape s t (XStep t) false (set_base s b')
| xs_begin o : ith s t = IIdle -> th (base s) t = Idle -> (forall o', o <> OBase o') ->
    xshape s t (XStart t o) false (set_ipc s t (IBegin o))
| xs_go p : ith s t <> IIdle -> (forall o, p <> IBegin o) ->
    (p = IIdle \/ in_erase p = in_erase (ith s t)) ->
    (forall k key start sv cur nx w, p = IF6 k key start sv cur nx w ->
       ith s t = IF3 k key start sv cur /\ w = memb (nkey (base s) cur) (g_abs (base s))) ->
    xshape s t (XStep t) false (set_ipc s t p)
| xs_start p lo :
    (ith s t = IBegin OItB /\ p = B1 /\ lo = None) \/ (exists k, ith s t = IBegin (OItF k) /\ p = IF1 KItF k 0 /\ lo = Some k) ->
    xshape s t (XStep t) true (start_trav s t p lo)
| xs_end : ith s t <> IIdle -> xshape s t (XStep t) false (end_trav s t)
| xs_move sv cur w : ith s t <> IIdle ->
    (cur <> 0 -> w = memb (nkey (base s) cur) (g_abs (base s)) \/ exists k key start sv' nx, ith s t = IF6 k key start sv' cur nx w) ->
    xshape s t (XStep t) false (move_it s (base s) t sv cur w)
| xs_unlink k key start sv cur nx : ith s t = IF5 k key start sv cur nx ->
    xshape s t (XStep t) false (set_ipc (set_base s (unlink_st (base s) sv cur nx)) t (IF2 k key start sv nx))
| xs_mark nx : ith s t = X2 nx -> nmark (base s) (it_cur s t) = false ->
    xshape s t (XStep t) false (set_ipc (set_base s (mark_st (base s) t (it_cur s t))) t (X3 nx))
| xs_unlink_move nx : ith s t = X3 nx ->
    xshape s t (XStep t) false
      (move_it s (unlink_st (base s) (it_sv s t) (it_cur s t) nx) t (it_sv s t) nx (memb (nkey (base s) nx) (g_abs (base s)))).

Lemma xstep_shape s a s' es : xstep s a = Some (s', es) ->
  exists t st s0, s' = refresh s0 /\ xshape s t a st s0 /\ (forall u, starts_trav s a u <-> st = true /\ u = t).
Proof.
  intros Hst. xstep_cases Hst s; eexists _, _, _; (split; [reflexivity|]).
  all: split;
    [ econstructor; rewrite ?E; cbn [in_erase is_ite];
      first [ (* the step of the list, the pc of the thread ([E]), [th (base s) t = Idle] *) eassumption | reflexivity
            | (* xs_begin, xs_go, xs_end, xs_move: [ith s t <> IIdle], [p <> IBegin o], [o <> OBase o'] *)
              discriminate | (intros; discriminate)
            | (* xs_go into IF6: it comes from IF3 with the membership flag *)
              (intros ? ? ? ? ? ? ? Hq; injection Hq as <- <- <- <- <- <- <-; split; reflexivity)
            | (* xs_move onto null: nothing to say about the witness *) (intros Hq; exfalso; apply Hq; reflexivity)
            | (* xs_mark: the CAS saw the node unmarked *) (apply cond_true in Hc; exact (proj2 Hc))
            | (* xs_go: [p = IIdle] or the same [in_erase] *) (left; reflexivity) | (right; reflexivity)
            | (* xs_start: begin() or find(k) *) (left; repeat split; reflexivity) | (right; eexists; repeat split; reflexivity)
            | (* xs_move: the witness is the membership (B1, N2), or the flag of IF6 *)
              (intros _; left; reflexivity) | (intros _; right; eauto 8) ]
    | ].
  (* [starts_trav] holds exactly for the shape xs_start: the other actions are no [XStep] of [u] or their pc is
     neither [IBegin OItB] nor [IBegin (OItF k)] *)
  all: intros u; split;
    first [ (intros [Ha Hq]; exfalso; first [discriminate Ha | injection Ha as <-; rewrite E in Hq; destruct Hq as [Hq|[? Hq]]; discriminate Hq])
          | (intros [Hq _]; discriminate Hq)
          | (intros [Ha _]; injection Ha as <-; auto)
          | (intros [_ ->]; split; [reflexivity | rewrite E; eauto]) ].
Qed.

Lemma it_always_step s a s' es u : xstep s a = Some (s', es) ->
  (~ starts_trav s a u /\ g_start s' u = g_start s u /\
   g_always s' u = filter (fun k => memb k (g_abs (base s'))) (g_always s u)) \/
  (starts_trav s a u /\ g_start s' u = g_abs (base s) /\
   g_always s' u = filter (fun k => memb k (g_abs (base s'))) (g_abs (base s))).
Proof.
  intros Hst. destruct (xstep_shape _ _ _ _ Hst) as (t & st & s0 & -> & Hsh & Hiff). specialize (Hiff u).
  destruct Hsh; xprj;
    try (left; split; [intros Hs; apply Hiff in Hs; destruct Hs; discriminate | split; reflexivity]).
  destruct (Nat.eq_dec u t) as [->|Hne].
  - right. split; [apply Hiff; auto|]. rewrite !upd_same. split; reflexivity.
  - left. split; [intros Hs; apply Hiff in Hs; destruct Hs; contradiction|]. rewrite !upd_other by exact Hne. split; reflexivity.
Qed.

(** [trav_path u s0 l s]: thread [u] took the first step of [itb] / [itf] from [s0]; [l] lists the states of the
    execution after that step up to the current state [s] (the last element of [l]); [u] has not started
    another traversal in between.  The states of the traversal are [s0 :: l]. *)
Inductive trav_path (u : nat) (s0 : xstate) : list xstate -> xstate -> Prop :=
| tp_first s1 es : starts_trav s0 (XStep u) u -> xstep s0 (XStep u) = Some (s1, es) -> trav_path u s0 [s1] s1
| tp_next l s a s' es : trav_path u s0 l s -> ~ starts_trav s a u -> xstep s a = Some (s', es) ->
                        trav_path u s0 (l ++ [s']) s'.

Lemma trav_path_last u s0 l s : trav_path u s0 l s -> In s l.
Proof. destruct 1; [left; reflexivity | apply in_or_app; right; left; reflexivity]. Qed.

Lemma trav_path_reach u s0 l s : reach xinit xstep s0 -> trav_path u s0 l s -> reach xinit xstep s.
Proof. intros Hr H. induction H; eapply reach_step; eauto. Qed.

(** meaning of the ghosts [g_start] and [g_always]: [g_start] is the abstract set of the state in which the
    traversal took its first step, [g_always] is exactly the set of keys that were in the abstract set in
    EVERY state of the traversal *)
Theorem it_always_exact u s0 l s : trav_path u s0 l s ->
  g_start s u = g_abs (base s0) /\
  forall k, In k (g_always s u) <-> (forall s1, In s1 (s0 :: l) -> In k (g_abs (base s1))).
Proof.
  induction 1 as [s1 es Hs Hst | l s a s' es Hp IH Hns Hst].
  - destruct (it_always_step _ _ _ _ u Hst) as [(Hn & _) | (_ & E1 & E2)]; [contradiction|]. split; [exact E1|].
    intros k. rewrite E2, filter_In, memb_true. split.
    + intros [H1 H2] s [<- | [<- | []]]; assumption.
    + intros H. split; apply H; [left | right; left]; reflexivity.
  - destruct IH as [IH1 IH2].
    destruct (it_always_step _ _ _ _ u Hst) as [(_ & E1 & E2) | (Hs & _)]; [|contradiction]. split; [congruence|].
    intros k. rewrite E2, filter_In, memb_true, IH2. split.
    + intros [H1 H2] s1 [<- | Hin]; [apply H1; left; reflexivity|]. apply in_app_or in Hin.
      destruct Hin as [Hin | [<- | []]]; [apply H1; right; exact Hin | exact H2].
    + intros H. split; [|apply H; right; apply in_or_app; right; left; reflexivity].
      intros s1 [<- | Hin]; apply H; [left; reflexivity | right; apply in_or_app; left; exact Hin].
Qed.

Lemma start_step s s' es u : xstep s (XStep u) = Some (s', es) -> starts_trav s (XStep u) u ->
  g_yield s' u = [] /\ forall k key start sv cur nx w, ith s' u <> IF6 k key start sv cur nx w.
Proof.
  intros Hst Hs. destruct (xstep_shape _ _ _ _ Hst) as (t & st & s0 & -> & Hsh & Hiff). apply Hiff in Hs. destruct Hs as [-> ->].
  inversion Hsh as [| | | |p lo Hp| | | | |]; subst. xprj. rewrite !upd_same. split; [reflexivity|].
  destruct Hp as [(_ & -> & _) | (k & _ & -> & _)]; intros; discriminate.
Qed.

Lemma yield_step s a s' es u : xstep s a = Some (s', es) -> ~ starts_trav s a u ->
  g_yield s' u = g_yield s u \/
  exists cur w, g_yield s' u = g_yield s u ++ [mkY (nkey (base s) cur) cur w (reachable (base s') cur) (length (g_lin (base s)))] /\
    (w = memb (nkey (base s) cur) (g_abs (base s)) \/ exists k key start sv nx, ith s u = IF6 k key start sv cur nx w).
Proof.
  intros Hst Hns. destruct (xstep_shape _ _ _ _ Hst) as (t & st & s0 & -> & Hsh & Hiff). specialize (Hiff u).
  destruct Hsh as [| | | |p lo Hp| |sv cur w Hni Hw| | |nx E]; xprj;
    (destruct (Nat.eq_dec u t) as [->|Hne]; [rewrite ?upd_same | rewrite ?upd_other by exact Hne]); try (left; reflexivity).
  - exfalso. apply Hns, Hiff. auto.
  - unfold push_y. destruct (N.eqb_spec cur 0) as [Hz|Hnz]; [left; reflexivity | right].
    eexists _, _. split; [reflexivity | exact (Hw Hnz)].
  - unfold push_y. destruct (N.eqb_spec nx 0) as [Hz|Hnz]; [left; reflexivity | right].
    eexists _, _. split; [reflexivity | left; reflexivity].
Qed.

Lemma if6_step s a s' es u k key start sv cur nx : xstep s a = Some (s', es) ->
  ith s' u = IF6 k key start sv cur nx true ->
  ith s u = IF6 k key start sv cur nx true \/
  (ith s u = IF3 k key start sv cur /\ In (nkey (base s) cur) (g_abs (base s))).
Proof.
  intros Hst. destruct (xstep_shape _ _ _ _ Hst) as (t & st & s0 & -> & Hsh & _).
  destruct Hsh as [| | |p _ _ _ Hp|p lo Hp| | | | |]; xprj;
    (destruct (Nat.eq_dec u t) as [->|Hne]; [rewrite ?upd_same | rewrite ?upd_other by exact Hne]); intros Hq;
    try (left; exact Hq); try discriminate Hq.
  - destruct (Hp _ _ _ _ _ _ _ Hq) as [E Hw]. right. split; [exact E | apply memb_true; symmetry; exact Hw].
  - destruct Hp as [(_ & -> & _) | (k0 & _ & -> & _)]; discriminate Hq.
Qed.

Lemma xstep_key s a s' es : XInv s -> xstep s a = Some (s', es) ->
  forall x, x < nalloc (base s) -> nkey (base s') x = nkey (base s) x.
Proof.
  intros [[c [HG HT HU _ _]] _] Hst. destruct (xstep_shape _ _ _ _ Hst) as (t & st & s0 & -> & Hsh & _).
  destruct Hsh as [o b' e Hb _|b' e Hb _| | | | | | | |]; xprj; cbn [unlink_st mark_st nkey]; try (intros; reflexivity);
    destruct (Inv_step_c _ c _ _ _ HG HT HU Hb) as (c' & sp & l & HM & _); exact (M_key _ _ _ _ _ (MS_mono _ _ _ _ _ _ HM)).
Qed.

(** YIELDS WERE MEMBERS (true version).  Every recorded position of the traversal whose witness flag is
    true carries a key that was in the abstract set in some state of the traversal (between its first step
    and the yield).  By [it_yield_sound] the flag is false only for a node that had been erased before the
    iterator moved onto it; the full statement (without the flag) is false:
    [it_yield_was_member_refuted]. *)
Theorem it_yield_was_member u s0 l s : reach xinit xstep s0 -> trav_path u s0 l s ->
  forall y, In y (g_yield s u) -> y_wit y = true -> exists s1, In s1 (s0 :: l) /\ In (y_key y) (g_abs (base s1)).
Proof.
  intros Hr Hp.
  assert (H : (forall y, In y (g_yield s u) -> y_wit y = true -> exists s1, In s1 (s0 :: l) /\ In (y_key y) (g_abs (base s1))) /\
              (forall k key start sv cur nx, ith s u = IF6 k key start sv cur nx true ->
                 exists s1, In s1 (s0 :: l) /\ In (nkey (base s) cur) (g_abs (base s1)))); [|exact (proj1 H)].
  induction Hp as [s1 es Hs Hst | l s a s' es Hp IH Hns Hst].
  - destruct (start_step _ _ _ _ Hst Hs) as [E1 E2]. split; [rewrite E1; intros y []|].
    intros k key start sv cur nx E. exfalso. exact (E2 _ _ _ _ _ _ _ E).
  - destruct IH as [IH1 IH2].
    assert (Hrs : reach xinit xstep s) by (eapply trav_path_reach; eassumption).
    pose proof (XInv_reach s Hrs) as HXI.
    assert (Hsl : In s (s0 :: l)) by (right; eapply trav_path_last; eassumption).
    assert (Hinc : forall s1, In s1 (s0 :: l) -> In s1 (s0 :: l ++ [s'])).
    { intros s1 [<- | Hin]; [left; reflexivity | right; apply in_or_app; left; exact Hin]. }
    split.
    + intros y Hy Hw. destruct (yield_step _ _ _ _ u Hst Hns) as [E | (cur & w & E & Hprov)].
      * rewrite E in Hy. destruct (IH1 y Hy Hw) as (s1 & H1 & H2). exists s1. auto.
      * rewrite E in Hy. apply in_app_or in Hy. destruct Hy as [Hy | [<- | []]].
        -- destruct (IH1 y Hy Hw) as (s1 & H1 & H2). exists s1. auto.
        -- cbn [y_wit y_key] in *. subst w. destruct Hprov as [Hm | (k & key & start & sv & nx & E6)].
           ++ exists s. split; [apply Hinc; exact Hsl | apply memb_true; symmetry; exact Hm].
           ++ destruct (IH2 _ _ _ _ _ _ E6) as (s1 & H1 & H2). exists s1. auto.
    + intros k key start sv cur nx E6.
      assert (Hkey : oknode (base s) (0 :: chain (base s)) cur -> nkey (base s') cur = nkey (base s) cur).
      { intros Hon. apply (xstep_key _ _ _ _ HXI Hst).
        destruct (xinv_chain s Hrs) as [[HG _ _ _ _] _]. apply (G_bound _ _ HG). exact (proj1 Hon). }
      destruct (xinv_chain s Hrs) as [[_ _ _ _ HI] _]. pose proof (IT_pc _ _ _ (HI u)) as Hpc.
      destruct (if6_step _ _ _ _ u _ _ _ _ _ _ Hst E6) as [E | [E Hin]]; rewrite E in Hpc; cbn [ITp Tw cont_ok] in Hpc.
      * destruct (IH2 _ _ _ _ _ _ E) as (s1 & H1 & H2). exists s1. split; [apply Hinc; exact H1|].
        rewrite Hkey; [exact H2 | destruct Hpc as (_ & _ & _ & _ & _ & _ & Hcn & _); exact Hcn].
      * exists s. split; [apply Hinc; exact Hsl|].
        rewrite Hkey; [exact Hin | destruct Hpc as (_ & _ & _ & _ & Hcn); exact Hcn].
Qed.

(** ** erase(iterator) *)

(** ERASE(ITERATOR) IS EXACT.  While thread [t] executes erase(iterator): the iterator variable is not
    changed before the call returns, and every step either leaves all marks, the abstract set and the
    linearization order unchanged, or it is the successful mark CAS (12) on exactly the node [cur] the
    iterator stands on: that node was unmarked and reachable, its key was in the abstract set, and the
    abstract set loses exactly that key.  In particular, if the node was already erased by another thread
    (X1 reads a marked pointer, or the mark CAS fails and sees a marked pointer) nothing changes. *)
Theorem it_erase_exact s t s' es : reach xinit xstep s -> xstep s (XStep t) = Some (s', es) ->
  in_erase (ith s t) = true ->
  let b := base s in let b' := base s' in let cur := it_cur s t in
  (ith s' t <> IIdle -> it_cur s' t = cur /\ it_sv s' t = it_sv s t /\ in_erase (ith s' t) = true) /\
  (((forall x, nmark b' x = nmark b x) /\ g_abs b' = g_abs b /\ g_lin b' = g_lin b) \/
   (exists nx, ith s t = X2 nx /\ ith s' t = X3 nx /\ cur <> 0 /\ nmark b cur = false /\ In cur (chain b) /\
      In (nkey b cur) (g_abs b) /\ g_abs b' = remk (nkey b cur) (g_abs b) /\
      g_lin b' = g_lin b ++ [LDel t (nkey b cur) cur] /\
      (forall x, nmark b' x = if x =? cur then true else nmark b x))).
Proof.
  intros Hr Hst Hie. destruct (xinv_chain s Hr) as [[HG _ _ _ HI] _]. pose proof (HI t) as Ht.
  remember (XStep t) as a eqn:Ea. destruct (xstep_shape _ _ _ _ Hst) as (t' & st & s0 & -> & Hsh & _).
  destruct Hsh as [o b' e Hb Hi | b' e Hb Hi | o Hi Hb Ho | p Hni Hnb Hop _ | p lo Hp | Hni | sv cur w Hni _
                   | k key start sv cur nx E | nx E Hm | nx E];
    try discriminate Ea; injection Ea as ->; xprj; rewrite ?upd_same; cbn [unlink_st mark_st nmark g_abs g_lin].
  - rewrite Hi in Hie. discriminate Hie.
  - split; [|left; auto]. intros Hq. destruct Hop as [Hop | Hop]; [contradiction|]. rewrite Hop. auto.
  - destruct Hp as [(E & _) | (k & E & _)]; rewrite E in Hie; discriminate Hie.
  - split; [intros Hq; exfalso; apply Hq; reflexivity | left; auto].
  - split; [intros Hq; exfalso; apply Hq; reflexivity | left; auto].
  - rewrite E in Hie. split; [intros _; auto | left; auto].
  - (* the successful mark CAS *)
    split; [intros _; auto|]. right. pose proof (IT_pc _ _ _ Ht) as Hp. rewrite E in Hp. destruct Hp as [Hnz _].
    destruct (IT_it _ _ _ Ht Hnz) as [_ Hcur].
    pose proof (unmarked_in_chain _ _ _ HG (proj1 Hcur) Hm) as Hcc.
    exists nx. split; [exact E|]. split; [reflexivity|]. split; [exact Hnz|]. split; [exact Hm|].
    split; [destruct Hcc as [Hcc | Hcc]; [congruence | exact Hcc]|].
    split; [apply (abs_in (base s) _ _ HG Hcc Hnz Hm)|]. split; [reflexivity|]. split; [reflexivity|]. intros x. reflexivity.
  - split; [intros Hq; exfalso; apply Hq; reflexivity | left; auto].
Qed.

(** the return of erase(iterator): the node [o] the iterator stood on is marked, unlinked from the chain and
    retired; the returned iterator is end() or stands on a node with a greater key, or on a DIFFERENT node with
    the same key (by [it_no_duplicate] such a node was linked by an insert linearized after the iterator had
    moved onto [o]).  "A node whose key is greater" is false: [it_erase_greater_refuted]. *)
Theorem it_erase_return s t s' es : reach xinit xstep s -> xstep s (XStep t) = Some (s', es) ->
  in_erase (ith s t) = true -> ith s' t = IIdle -> it_cur s t <> 0 ->
  let o := it_cur s t in let n := it_cur s' t in let b' := base s' in
  nmark b' o = true /\ ~ In o (chain b') /\ In o (g_retired b') /\
  In (ERet t (7 :: 1 :: nkey (base s) o :: pos_res (base s) n)) es /\
  (n = 0 \/ nkey b' o < nkey b' n \/ (nkey b' o = nkey b' n /\ n <> o)).
Proof.
  intros Hr Hst Hie Hidle Hnz. destruct (xinv_chain s Hr) as [[HG _ _ _ HI] _].
  pose proof (HI t) as Ht. pose proof (IT_pc _ _ _ Ht) as Hp. destruct (IT_it _ _ _ Ht Hnz) as [Hsv Hcur].
  set (b := base s) in *. set (io := it_cur s t) in *. set (c := 0 :: chain b) in *.
  (* find returns (sv, cur') on behalf of erase(iterator): the marked node [io], with
     [key sv < key io <= key cur'] and [io <> cur'], cannot be in the chain *)
  assert (Hret : forall sv cur', okprev b c (nkey b io) sv -> nmark b sv = false -> nnext b sv = cur' -> nmark b io = true ->
            (cur' <> 0 -> nkey b io <= nkey b cur' /\ cur' <> io) ->
            nmark b io = true /\ ~ In io (chain b) /\ In io (g_retired b) /\
            (cur' = 0 \/ nkey b io < nkey b cur' \/ (nkey b io = nkey b cur' /\ cur' <> io))).
  { intros sv cur' Hsvp Hsvm Hsvn Hom Hc'. pose proof (unmarked_in_chain _ _ _ HG (proj1 Hsvp) Hsvm) as Hsvc.
    assert (Hnc : ~ In io c).
    { intros Hoc. destruct (N.eq_dec cur' 0) as [Hz | Hcz].
      - apply (not_in_chain b c sv cur' (nkey b io) HG Hsvc Hsvn (proj2 Hsvp)) with (x := io); auto. intros; contradiction.
      - destruct (Hc' Hcz) as [Hle Hne]. destruct (chain_nonzero b c sv cur' HG Hsvc Hsvn Hcz) as [Hcc _].
        destruct (N.eq_dec (nkey b io) (nkey b cur')) as [Heq | Hneq].
        + apply Hne. apply (chain_key_inj b c); auto.
        + apply (not_in_chain b c sv cur' (nkey b io) HG Hsvc Hsvn (proj2 Hsvp)) with (x := io); auto.
          intros _. apply N.le_neq; auto. }
    split; [exact Hom|]. split; [intros Hc; apply Hnc; right; exact Hc|].
    split; [destruct (in_app_or _ _ _ (proj1 Hcur)) as [Hok | Hok]; [contradiction | exact Hok]|].
    destruct (N.eq_dec cur' 0) as [Hz | Hcz]; [left; exact Hz | right]. destruct (Hc' Hcz) as [Hle Hne].
    destruct (N.eq_dec (nkey b io) (nkey b cur')) as [Heq | Hneq]; [right; auto | left; apply N.le_neq; auto]. }
  remember (XStep t) as a eqn:Ea.
  xstep_cases Hst s; try discriminate Ea; injection Ea as ->; rewrite E in Hie, Hp;
    cbn [in_erase is_ite] in Hie; try discriminate Hie; xprj;
    cbn [set_ipc set_base move_it end_trav refresh ith] in Hidle; rewrite ?upd_same in *;
    try discriminate Hidle; try contradiction; cbn [ITp Tw cont_ok ifk_ok] in Hp.
  - apply N.eqb_eq in Hc. contradiction.
  - (* find returns at the end of the list *)
    destruct Hp as ((Ho0 & _ & Hom & Hk) & _ & _ & Hsv' & _). apply cond_false in Hc. destruct Hc as [Hnx Hm].
    apply N.eqb_eq in Hc0. rewrite Hc0 in Hnx. subst o key.
    destruct (Hret sv 0 Hsv' Hm Hnx Hom) as (H1 & H2 & H3 & H4); [intros; contradiction|].
    split; [exact H1|]. split; [exact H2|]. split; [exact H3|]. split; [right; left; reflexivity | exact H4].
  - (* find returns at [cur] *)
    destruct Hp as ((Ho0 & _ & Hom & Hk) & _ & Hnp & _ & _ & Hsv' & _). apply cond_false in Hc. destruct Hc as [Hnx Hm].
    apply N.ltb_ge in Hc0. subst o key.
    destruct (Hret sv cur Hsv' Hm Hnx Hom) as (H1 & H2 & H3 & H4); [intros _; split; [exact Hc0 | exact (proj1 Hnp)]|].
    split; [exact H1|]. split; [exact H2|]. split; [exact H3|]. split; [right; left; reflexivity | exact H4].
  - destruct Hp as ((Ho0 & _ & Hom & Hk) & _ & Hnp & _ & _ & Hsv' & _). apply cond_false in Hc. destruct Hc as [Hnx Hm].
    apply N.ltb_ge in Hc0. subst o key.
    destruct (Hret sv cur Hsv' Hm Hnx Hom) as (H1 & H2 & H3 & H4); [intros _; split; [exact Hc0 | exact (proj1 Hnp)]|].
    split; [exact H1|]. split; [exact H2|]. split; [exact H3|]. split; [right; left; reflexivity | exact H4].
  - (* X3: the unlink CAS succeeds *)
    destruct Hp as (_ & Hm & Hn). apply cond_true in Hc. destruct Hc as [Hsvn Hsvm].
    destruct (unlink_chain b (it_sv s t) io nx HG (proj1 Hsv) Hsvm Hsvn Hnz Hm Hn) as (_ & Hcc & Hnc & _).
    cbn [unlink_st nmark nkey g_retired].
    split; [exact Hm|]. split; [exact Hnc|]. split; [apply in_or_app; right; left; reflexivity|].
    split; [right; right; left; reflexivity|].
    destruct (N.eq_dec nx 0) as [Hz|Hxz]; [left; exact Hz | right; left].
    destruct (chain_nonzero b _ io nx HG (or_intror Hcc) Hn Hxz) as [_ [_ [Hx | Hx]]]; [contradiction | exact Hx].
Qed.

(** ** memory accesses of the iterator operations *)

Definition loc_block (l : loc) : option N := match l with LHeap x _ => Some x | LNamed _ _ => None end.
(** the heap block accessed by an event *)
Definition ev_block (e : ev) : option N :=
  match e with
  | ELoad _ l _ _ | EStore _ l _ _ | ERmw _ l _ _ _ | ECasF _ l _ _ _ _ => loc_block l
  | _ => None
  end.

Lemma L_next_block x : loc_block (L_next x) = Some x.
Proof. unfold L_next. destruct (N.eqb_spec x 0) as [->|H]; reflexivity. Qed.

(** every atomic access of an iterator operation goes to the next field of a node held by the iterator
    state of the thread (block 0 is the container itself) *)
Lemma it_access_held s t s' es : xstep s (XStep t) = Some (s', es) -> ith s t <> IIdle ->
  forall e x, In e es -> ev_block e = Some x -> In x (iheld s t) \/ x = 0.
Proof.
  intros Hst Hni. remember (XStep t) as a eqn:Ea.
  xstep_cases Hst s; try discriminate Ea; injection Ea as ->; try contradiction; intros e0 x Hin Hb; unfold iheld; rewrite E;
    cbn [In app] in Hin;
    repeat match type of Hin with _ \/ _ => destruct Hin as [Hin | Hin] end; try contradiction; subst e0;
    cbn [ev_block] in Hb; try discriminate Hb; rewrite L_next_block in Hb; injection Hb as <-; cbn [In]; auto 8.
Qed.

(** NEVER TOUCHES RECLAIMED MEMORY: every atomic access of an iterator operation goes to a block that was
    allocated and is the container, a node reachable from head, or a retired node (retired nodes are never
    freed in the GC reclaimer instance - the guarantee of C01 for guarded nodes, see [it_node_safe]) *)
Theorem it_access_safe s t s' es : reach xinit xstep s -> xstep s (XStep t) = Some (s', es) -> ith s t <> IIdle ->
  forall e x, In e es -> ev_block e = Some x ->
    x < nalloc (base s) /\ (x = 0 \/ In x (chain (base s)) \/ In x (g_retired (base s))).
Proof.
  intros Hr Hst Hni e x Hin Hb. destruct (it_access_held _ _ _ _ Hst Hni e x Hin Hb) as [Hh | ->].
  - exact (it_node_safe s Hr t x Hh).
  - split; [|left; reflexivity]. destruct (xinv_chain s Hr) as [[HG _ _ _ _] _]. apply (G_bound _ _ HG), known_zero, HG.
Qed.

(** ** the traversal ghosts [g_lo], [g_trav] and the trace-level form of completeness *)

Lemma lo_step s a s' es u : xstep s a = Some (s', es) ->
  (~ starts_trav s a u /\ g_lo s' u = g_lo s u /\ (g_trav s' u = true -> g_trav s u = true)) \/
  (starts_trav s a u /\ g_trav s' u = true /\
   ((ith s u = IBegin OItB /\ g_lo s' u = None) \/ (exists k, ith s u = IBegin (OItF k) /\ g_lo s' u = Some k))).
Proof.
  intros Hst. destruct (xstep_shape _ _ _ _ Hst) as (t & st & s0 & -> & Hsh & Hiff). specialize (Hiff u).
  assert (Hns : st = false -> ~ starts_trav s a u) by (intros -> Hs; apply Hiff in Hs; destruct Hs; discriminate).
  destruct Hsh as [| | | |p lo Hp| | | | |]; xprj; try (left; split; [auto | split; [reflexivity | auto]]; fail).
  - destruct (Nat.eq_dec u t) as [->|Hne].
    + right. split; [apply Hiff; auto|]. rewrite !upd_same. split; [reflexivity|].
      destruct Hp as [(E & _ & ->) | (k & E & _ & ->)]; [left | right; exists k]; auto.
    + left. split; [intros Hs; apply Hiff in Hs; destruct Hs; contradiction|]. rewrite !upd_other by exact Hne. auto.
  - left. split; [auto | split; [reflexivity|]]. destruct (Nat.eq_dec u t) as [->|Hne]; [rewrite upd_same; discriminate | rewrite upd_other by exact Hne; auto].
Qed.

(** [g_lo] records how the traversal was started: [None] by begin(), [Some k] by find(k) *)
Lemma trav_lo u s0 l s : trav_path u s0 l s ->
  (ith s0 u = IBegin OItB -> g_lo s u = None) /\ (forall k, ith s0 u = IBegin (OItF k) -> g_lo s u = Some k).
Proof.
  induction 1 as [s1 es Hs Hst | l s a s' es Hp IH Hns Hst].
  - destruct (lo_step _ _ _ _ u Hst) as [(Hn & _) | (_ & _ & [[E1 E2] | (k & E1 & E2)])]; [contradiction | |]; split; intros; congruence.
  - destruct (lo_step _ _ _ _ u Hst) as [(_ & E1 & _) | (Ha & _)]; [rewrite E1; exact IH | contradiction].
Qed.

(** COMPLETENESS, trace level: take any execution and any traversal of thread [u] (first step of begin() /
    find(k) taken from [s0], later states [l], current state [s]).  If the traversal was not abandoned
    ([g_trav]), the thread is not inside the starting call, and the iterator equals end(), then every key
    that was in the abstract set in EVERY state of the traversal - and is greater than k if the traversal
    was started by a (successful) find(k) - is among the keys of the recorded positions. *)
Theorem it_complete_trace u s0 l s : reach xinit xstep s0 -> trav_path u s0 l s ->
  g_trav s u = true -> in_start (ith s u) = false -> it_cur s u = 0 ->
  forall k, (forall s1, In s1 (s0 :: l) -> In k (g_abs (base s1))) ->
    (forall k0, ith s0 u = IBegin (OItF k0) -> k0 < k) ->
    In k (map y_key (g_yield s u)).
Proof.
  intros Hr Hp Ht Hs Hc k Hall Hlo.
  assert (Hrs : reach xinit xstep s) by (eapply trav_path_reach; eassumption).
  apply (it_complete s Hrs u k Ht Hs Hc).
  - apply (proj2 (it_always_exact u s0 l s Hp) k). exact Hall.
  - destruct (trav_lo u s0 l s Hp) as [H1 H2].
    assert (Hst : starts_trav s0 (XStep u) u) by (clear -Hp; induction Hp; assumption).
    destruct Hst as [_ [E | [k0 E]]]; [rewrite (H1 E); exact I | rewrite (H2 k0 E); apply Hlo; exact E].
Qed.

(** operator*: no atomic access; the result is the key of the node the iterator stands on, which is the key
    of the last recorded position ([it_position]) *)
Theorem it_deref s t : ith s t = IBegin OItD ->
  exists s', xstep s (XStep t) = Some (s', [EStart t 6 []; ERet t (6 :: pos_res (base s) (it_cur s t))]) /\
             ith s' t = IIdle /\ it_cur s' t = it_cur s t /\ base s' = base s.
Proof.
  intros E. unfold xstep, xstep0. rewrite E. eexists. split; [reflexivity|]. xprj. rewrite upd_same. auto.
Qed.

(** * Solo termination of the iterator operations (C16) *)

(** a thread executes either a list operation of HmlDefs or an iterator operation *)
Definition Excl (s : xstate) : Prop :=
  forall t, (ith s t = IIdle \/ th (base s) t = Idle) /\ (forall o, ith s t <> IBegin (OBase o)).

Lemma base_step_th b a b' e u : step b a = Some (b', e) -> (forall o, a <> Start u o) -> a <> Step u -> th b' u = th b u.
Proof.
  intros Hst H1 H2. step_cases Hst b; prj2; try reflexivity;
    (destruct (Nat.eq_dec u t) as [->|Hne]; [exfalso; first [apply (H1 o); reflexivity | apply H2; reflexivity] | apply upd_other; exact Hne]).
Qed.

Lemma Excl_step s a s' es : Excl s -> xstep s a = Some (s', es) -> Excl s'.
Proof.
  intros HE Hst u. destruct (HE u) as [H1 H2]. destruct (xstep_shape _ _ _ _ Hst) as (t & st & s0 & -> & Hsh & _).
  destruct Hsh as [o b' e Hb Hi | b' e Hb Hi | o Hi Hb Ho | p Hni Hnb _ _ | p lo Hp | Hni | sv cur w Hni _
                   | k key start sv cur nx E | nx E Hm | nx E]; xprj; cbn [unlink_st mark_st th].
  1, 2: split; [|exact H2]; destruct (Nat.eq_dec u t) as [->|Hne]; [left; exact Hi|];
    destruct H1 as [H1|H1]; [left; exact H1 | right];
    rewrite (base_step_th _ _ _ _ u Hb); [exact H1 | intros o' Hq; first [discriminate Hq | injection Hq; congruence]
                                          | intros Hq; first [discriminate Hq | injection Hq; congruence]].
  all: destruct (Nat.eq_dec u t) as [->|Hne]; [rewrite ?upd_same | rewrite ?upd_other by exact Hne; exact (conj H1 H2)].
  all: assert (Hth : ith s t <> IIdle -> th (base s) t = Idle) by (intros Hq; destruct H1; [contradiction | assumption]).
  - split; [right; exact Hb | intros o' Hq; injection Hq as ->; exact (Ho o' eq_refl)].
  - split; [right; exact (Hth Hni) | intros o'; apply Hnb].
  - split; [right; apply Hth; destruct Hp as [(E & _) | (k & E & _)]; rewrite E; discriminate|].
    destruct Hp as [(_ & -> & _) | (k & _ & -> & _)]; intros; discriminate.
  - split; [left; reflexivity | intros; discriminate].
  - split; [left; reflexivity | intros; discriminate].
  - split; [right; apply Hth; rewrite E; discriminate | intros; discriminate].
  - split; [right; apply Hth; rewrite E; discriminate | intros; discriminate].
  - split; [left; reflexivity | intros; discriminate].
Qed.

Lemma Excl_reach s : reach xinit xstep s -> Excl s.
Proof.
  apply inv_rule; [|exact Excl_step]. intros t. split; [left; reflexivity | intros o; discriminate].
Qed.

Definition xidle (s : xstate) (t : nat) : bool :=
  match ith s t, th (base s) t with IIdle, Idle => true | _, _ => false end.

(** [cnt b sv]: number of chain nodes behind [sv] (all of them for the head sentinel 0; the chain is sorted, so
    "behind" is "with a greater key").  It is the measure of a walk of [find]: moving [sv] to its successor
    ([cnt_next]) and unlinking the successor ([cnt_unlink]) both decrease it. *)
Definition gtk (b : state) (sv x : N) : bool := (sv =? 0) || (nkey b sv <? nkey b x).
Definition cnt (b : state) (sv : N) : nat := length (filter (gtk b sv) (chain b)).
Definition valid (b : state) (sv nx : N) : bool := (nnext b sv =? nx) && negb (nmark b sv).

(** cost of [find] from its program points.  Passing one node takes at most 4 atomic accesses: IF2 (validate
    prev), IF3 (read cur->next) and then either IF6 (re-validate and compare the key) or IF4, IF5 (read again
    and unlink the marked node, back to IF2): hence [4 * cnt + 1] for a walk from the valid position [sv], the
    1 being the final IF2 / IF6 that returns.  A stale position costs the steps to the retry plus a walk from
    [start] or, if [start] is marked, from head.  Each [c_*] is the cost at the program point of that name, defined
    so that every step of the thread decreases it ([it_solo_step]). *)
Definition walk_c (b : state) (sv : N) : nat := 4 * cnt b sv + 1.
Definition full (b : state) : nat := walk_c b 0.
Definition c_if1 (b : state) (start : N) : nat := if nmark b start then 2 + full b else 1 + walk_c b start.
Definition c_if2 (b : state) (start sv nx : N) : nat := if valid b sv nx then walk_c b sv else 1 + c_if1 b start.
Definition c_if5 (b : state) (start sv cur : N) : nat :=
  if valid b sv cur then 1 + (4 * (cnt b sv - 1) + 1) else 1 + c_if1 b start.
Definition c_if6 (b : state) (key start sv cur nx : N) : nat :=
  if valid b sv cur then (if nkey b cur <? key then 1 + c_if2 b start cur nx else 1) else 1 + c_if1 b start.
Definition c_if3 (b : state) (key start sv cur : N) : nat :=
  if nmark b cur then 2 + c_if5 b start sv cur else 1 + c_if6 b key start sv cur (nnext b cur).
Definition c_n1 (b : state) (sv cur : N) : nat := if nmark b cur then 1 + c_if1 b sv else 2.
Definition c_x3 (b : state) (sv cur : N) : nat := if valid b sv cur then 1 else 1 + c_if1 b sv.
Definition c_x2 (b : state) (sv cur nx : N) : nat :=
  if valid b cur nx then 1 + c_x3 b sv cur else if nmark b cur then 1 + c_x3 b sv cur else 2 + c_x3 b sv cur.

Definition icost (b : state) (sv cur : N) (p : ipc) : nat :=
  match p with
  | IIdle => 0
  | IBegin (OBase _) => 0
  | IBegin OItB => 2
  | IBegin (OItF _) => 1 + c_if1 b 0
  | IBegin OItN => if cur =? 0 then 1 else 1 + c_n1 b sv cur
  | IBegin OItD | IBegin OItR => 1
  | IBegin OItE => if cur =? 0 then 1 else 2 + (if nmark b cur then c_x3 b sv cur else c_x2 b sv cur (nnext b cur))
  | B1 => 1
  | IF1 _ _ start => c_if1 b start
  | IF2 _ _ start sv nx => c_if2 b start sv nx
  | IF3 _ key start sv cur => c_if3 b key start sv cur
  | IF4 _ _ start sv cur => 1 + c_if5 b start sv cur
  | IF5 _ _ start sv cur _ => c_if5 b start sv cur
  | IF6 _ key start sv cur nx _ => c_if6 b key start sv cur nx
  | N1 => c_n1 b sv cur
  | N2 nx => if valid b cur nx then 1 else 1 + c_n1 b sv cur
  | X1 => 1 + (if nmark b cur then c_x3 b sv cur else c_x2 b sv cur (nnext b cur))
  | X2 nx => c_x2 b sv cur nx
  | X3 _ => c_x3 b sv cur
  end.

Definition it_cost (s : xstate) (t : nat) : nat := icost (base s) (it_sv s t) (it_cur s t) (ith s t).

Lemma filter_len_le {X} (f : X -> bool) (l : list X) : (length (filter f l) <= length l)%nat.
Proof. induction l as [|a l IH]; cbn [filter length]; [lia|]. destruct (f a); cbn [length]; lia. Qed.

Lemma cnt_le b sv : (cnt b sv <= length (chain b))%nat.
Proof. unfold cnt. apply filter_len_le. Qed.

Lemma cnt_zero b : cnt b 0 = length (chain b).
Proof.
  unfold cnt. induction (chain b) as [|a l IH]; cbn [filter length]; [reflexivity|].
  unfold gtk at 1. rewrite N.eqb_refl. cbn [orb length]. rewrite IH. reflexivity.
Qed.

(** the successor of a chain node has fewer nodes behind it *)
Lemma cnt_next b c sv nx : G b c -> In sv c -> nnext b sv = nx -> nx <> 0 -> (cnt b nx < cnt b sv)%nat.
Proof.
  intros HG Hsv Hn Hnz. destruct (chain_nonzero b c sv nx HG Hsv Hn Hnz) as [Hin [_ HR]].
  rewrite (chain_eq _ _ HG) in Hin. destruct Hin as [Hin | Hin]; [congruence|].
  pose proof (G_nodup _ _ HG) as HN. rewrite (chain_eq _ _ HG) in HN. apply NoDup_cons_iff in HN. destruct HN as [_ HN'].
  unfold cnt.
  assert (Hlen : (length (nx :: filter (gtk b nx) (chain b)) <= length (filter (gtk b sv) (chain b)))%nat).
  { apply NoDup_incl_length.
    - constructor; [|apply NoDup_filter; exact HN']. intros Hc. apply filter_In in Hc. destruct Hc as [_ Hc].
      unfold gtk in Hc. apply orb_prop in Hc. destruct Hc as [Hc | Hc]; [apply N.eqb_eq in Hc; contradiction | apply N.ltb_lt in Hc; lia].
    - intros x [<- | Hx].
      + apply filter_In. split; [exact Hin|]. unfold gtk. destruct HR as [-> | HR]; [reflexivity|].
        apply orb_true_intro. right. apply N.ltb_lt. exact HR.
      + apply filter_In in Hx. destruct Hx as [Hx Hg]. apply filter_In. split; [exact Hx|]. unfold gtk in *.
        apply orb_prop in Hg. destruct Hg as [Hg | Hg]; [apply N.eqb_eq in Hg; contradiction|]. apply N.ltb_lt in Hg.
        destruct HR as [-> | HR]; [reflexivity|]. apply orb_true_intro. right. apply N.ltb_lt. lia. }
  cbn [length] in Hlen. lia.
Qed.

(** unlinking the successor of [sv] leaves fewer nodes behind [sv] *)
Lemma cnt_unlink b sv cur nx : G b (0 :: chain b) -> known b (0 :: chain b) sv -> nmark b sv = false ->
  nnext b sv = cur -> cur <> 0 -> nmark b cur = true -> nnext b cur = nx ->
  (cnt (unlink_st b sv cur nx) sv < cnt b sv)%nat.
Proof.
  intros HG Hsvk Hsvm Hsvn Hcnz Hcm Hcn.
  destruct (unlink_chain b sv cur nx HG Hsvk Hsvm Hsvn Hcnz Hcm Hcn) as (HG' & Hcc & Hnc & _ & Hin).
  destruct (chain_nonzero b _ sv cur HG (unmarked_in_chain _ _ _ HG Hsvk Hsvm) Hsvn Hcnz) as [_ [_ HR]].
  set (b' := unlink_st b sv cur nx) in *.
  pose proof (G_nodup _ _ HG') as HN. apply NoDup_cons_iff in HN. destruct HN as [_ HN'].
  unfold cnt. change (gtk b' sv) with (gtk b sv).
  assert (Hlen : (length (cur :: filter (gtk b sv) (chain b')) <= length (filter (gtk b sv) (chain b)))%nat).
  { apply NoDup_incl_length.
    - constructor; [|apply NoDup_filter; exact HN']. intros Hc. apply filter_In in Hc. exact (Hnc (proj1 Hc)).
    - intros x [<- | Hx].
      + apply filter_In. split; [exact Hcc|]. unfold gtk. destruct HR as [-> | HR]; [reflexivity|].
        apply orb_true_intro. right. apply N.ltb_lt. exact HR.
      + apply filter_In in Hx. destruct Hx as [Hx Hg]. apply filter_In. split; [apply Hin; right; exact Hx | exact Hg]. }
  cbn [length] in Hlen. lia.
Qed.

Ltac fin := eexists _, _; split; [reflexivity|]; unfold it_cost; xprj; rewrite ?upd_same; cbn [icost].

Lemma valid_true b sv nx : valid b sv nx = true -> nnext b sv = nx /\ nmark b sv = false.
Proof. apply cond_true. Qed.

Lemma it_solo_step s t : reach xinit xstep s -> ith s t <> IIdle ->
  exists s' es, xstep s (XStep t) = Some (s', es) /\ (it_cost s' t < it_cost s t)%nat.
Proof.
  intros Hr Hni. destruct (xinv_chain s Hr) as [[HG _ _ _ HI] _].
  pose proof (HI t) as Ht. pose proof (IT_pc _ _ _ Ht) as Hp. destruct (Excl_reach s Hr t) as [_ Hexc].
  assert (Hcost : it_cost s t = icost (base s) (it_sv s t) (it_cur s t) (ith s t)) by reflexivity.
  rewrite Hcost. clear Hcost. unfold xstep, xstep0.
  destruct (ith s t) as [|o| |k key start|k key start sv nx|k key start sv cur|k key start sv cur|k key start sv cur nx
                          |k key start sv cur nx w| |nx| |nx|nx] eqn:E; cbn [ITp Tw cont_ok] in Hp; cbv beta iota zeta; cbn [icost].
  - contradiction.
  - destruct o as [o| |k| | | |].
    + exfalso. exact (Hexc o eq_refl).
    + fin. lia.
    + fin. lia.
    + destruct (it_cur s t =? 0); fin; lia.
    + fin. lia.
    + destruct (it_cur s t =? 0); fin; lia.
    + fin. lia.
  - fin. lia.
  - (* IF1 *) unfold c_if1. destruct (nmark (base s) start) eqn:Hm; fin.
    + unfold c_if1. rewrite (G_mark0 _ _ HG). unfold full. lia.
    + unfold c_if2, valid. rewrite N.eqb_refl, Hm. cbn [andb negb]. lia.
  - (* IF2 *) destruct Hp as (_ & _ & _ & Hsv & _). unfold c_if2. fold (valid (base s) sv nx).
    destruct (valid (base s) sv nx) eqn:Hv; cbn [negb].
    + destruct (valid_true _ _ _ Hv) as [Hnx Hm].
      assert (Hsvc : In sv (0 :: chain (base s))) by (eapply unmarked_in_chain; [exact HG | exact (proj1 Hsv) | exact Hm]).
      destruct (N.eqb_spec nx 0) as [Hz|Hz].
      * unfold ifind_ret. destruct k; fin; unfold walk_c; lia.
      * fin. pose proof (cnt_next _ _ sv nx HG Hsvc Hnx Hz) as Hlt. unfold c_if3, c_if5, c_if6, c_if2, walk_c. rewrite Hv.
        destruct (nmark (base s) nx) eqn:Hmx; [lia|].
        destruct (nkey (base s) nx <? key); [|lia]. unfold valid. rewrite N.eqb_refl, Hmx. cbn [andb negb]. lia.
    + fin. lia.
  - (* IF3 *) unfold c_if3. destruct (nmark (base s) cur) eqn:Hm; fin; lia.
  - (* IF4 *) fin. lia.
  - (* IF5 *) destruct Hp as (_ & _ & _ & Hsv & Hcur & Hm & Hn). unfold c_if5. fold (valid (base s) sv cur).
    destruct (valid (base s) sv cur) eqn:Hv.
    + destruct (valid_true _ _ _ Hv) as [Hnx Hsvm].
      assert (Hsvc : In sv (0 :: chain (base s))) by (eapply unmarked_in_chain; [exact HG | exact (proj1 Hsv) | exact Hsvm]).
      fin. pose proof (cnt_unlink _ sv cur nx HG (proj1 Hsv) Hsvm Hnx (proj2 Hcur) Hm Hn) as Hlt.
      unfold c_if2, valid, walk_c. cbn [unlink_st nnext nmark]. rewrite setf_same, N.eqb_refl, Hsvm. cbn [andb negb].
      change (mkSt (nkey (base s)) (setf (nnext (base s)) sv nx) (nmark (base s)) (nalloc (base s)) (th (base s))
                   (g_abs (base s)) (g_lin (base s)) (g_lp (base s)) (g_hist (base s)) (g_retired (base s) ++ [cur]))
        with (unlink_st (base s) sv cur nx). lia.
    + fin. lia.
  - (* IF6 *) unfold c_if6. fold (valid (base s) sv cur). destruct (valid (base s) sv cur) eqn:Hv; cbn [negb].
    + destruct (nkey (base s) cur <? key); [fin; lia|]. unfold ifind_ret. destruct k; [destruct (nkey (base s) cur =? key)|..]; fin; lia.
    + fin. lia.
  - (* N1 *) unfold c_n1. destruct (nmark (base s) (it_cur s t)) eqn:Hm; fin; [lia|].
    unfold valid. rewrite N.eqb_refl, Hm. cbn [andb negb]. lia.
  - (* N2 *) fold (valid (base s) (it_cur s t) nx). destruct (valid (base s) (it_cur s t) nx); fin; lia.
  - (* X1 *) destruct (nmark (base s) (it_cur s t)) eqn:Hm; fin; lia.
  - (* X2 *) destruct Hp as [Hnz _]. destruct (IT_it _ _ _ Ht Hnz) as [Hsv _].
    unfold c_x2. fold (valid (base s) (it_cur s t) nx). destruct (valid (base s) (it_cur s t) nx) eqn:Hv.
    + fin. assert (Hne : it_sv s t <> it_cur s t).
      { intros Heq. destruct (N.eq_dec (it_sv s t) 0) as [Hz|Hz]; [congruence|]. pose proof (proj2 Hsv Hz). rewrite Heq in *. lia. }
      assert (Hx : c_x3 (mark_st (base s) t (it_cur s t)) (it_sv s t) (it_cur s t) = c_x3 (base s) (it_sv s t) (it_cur s t)).
      { unfold c_x3, c_if1, valid. cbn [mark_st nnext nmark]. rewrite (setf_other _ _ _ _ Hne). reflexivity. }
      rewrite Hx. lia.
    + destruct (nmark (base s) (it_cur s t)) eqn:Hm; fin; [lia|].
      unfold c_x2, valid. rewrite N.eqb_refl, Hm. cbn [andb negb]. lia.
  - (* X3 *) unfold c_x3. fold (valid (base s) (it_sv s t) (it_cur s t)).
    destruct (valid (base s) (it_sv s t) (it_cur s t)); fin; lia.
Qed.

Lemma it_step_th s t s' es : xstep s (XStep t) = Some (s', es) -> ith s t <> IIdle -> th (base s') t = th (base s) t.
Proof.
  intros Hst Hni. remember (XStep t) as a eqn:Ea. destruct (xstep_shape _ _ _ _ Hst) as (t' & st & s0 & -> & Hsh & _).
  destruct Hsh; try discriminate Ea; injection Ea as ->; try contradiction; reflexivity.
Qed.

(** SOLO TERMINATION (C16): from every reachable state, a thread that is inside an iterator operation
    (begin, find, ++, *, reset, erase(iterator)) and runs alone finishes the operation within [it_cost]
    steps; any number of other threads may be stopped anywhere inside their operations. *)
Theorem it_solo s t : reach xinit xstep s -> th (base s) t = Idle ->
  finishes_within xstep XStep xidle t (it_cost s t) s.
Proof.
  intros Hr Hb.
  apply (finishes_by_measure _ _ _ xstep XStep xidle (fun s => reach xinit xstep s /\ th (base s) t = Idle)
           (fun s => it_cost s t) t); [|split; assumption].
  intros s0 [Hr0 Hb0] Hi0.
  assert (Hni : ith s0 t <> IIdle).
  { intros Hc. unfold xidle in Hi0. rewrite Hc, Hb0 in Hi0. discriminate. }
  destruct (it_solo_step s0 t Hr0 Hni) as (s' & es & Hst & Hlt). exists s', es. split; [exact Hst|]. split; [|exact Hlt].
  split; [eapply reach_step; eassumption|]. rewrite (it_step_th _ _ _ _ Hst Hni). exact Hb0.
Qed.

Lemma it_cost_le s t : (it_cost s t <= 4 * length (chain (base s)) + 8)%nat.
Proof.
  unfold it_cost. set (b := base s). pose proof (cnt_le b) as Hc.
  (* every cost is a nest of conditionals over walks of [4 * cnt b x + 1 <= 4 * |chain| + 1] steps *)
  destruct (ith s t) as [|[]| | | | | | | | | | | |]; cbn [icost];
    unfold c_x2, c_x3, c_n1, c_if3, c_if6, c_if5, c_if2, c_if1, full, walk_c;
    repeat match goal with |- context [cnt b ?x] => pose proof (Hc x); generalize dependent (cnt b x); intros end;
    repeat match goal with |- context [if ?c then _ else _] => destruct c end; lia.
Qed.

(** explicit bound: 4 steps per node reachable from head, plus 8 *)
Corollary it_solo_bound s t : reach xinit xstep s -> th (base s) t = Idle ->
  finishes_within xstep XStep xidle t (4 * length (chain (base s)) + 8) s.
Proof. intros Hr Hb. eapply finishes_within_mono; [apply it_cost_le | apply it_solo; assumption]. Qed.

Corollary it_never_stuck s t : reach xinit xstep s -> th (base s) t = Idle -> never_stuck xstep XStep xidle t s.
Proof. intros Hr Hb. eapply finishes_never_stuck. apply it_solo; assumption. Qed.

(** operator++ called by an idle thread: 3 steps when the node the iterator stands on is not marked (or 1 step
    on end()), otherwise at most 4 steps per node reachable from head plus 5 *)
Theorem itn_solo_start s t s' es : reach xinit xstep s -> xstep s (XStart t OItN) = Some (s', es) ->
  finishes_within xstep XStep xidle t
    (if it_cur s t =? 0 then 1 else if nmark (base s) (it_cur s t) then 4 * length (chain (base s)) + 5 else 3) s'.
Proof.
  intros Hr Hst. assert (Hr' : reach xinit xstep s') by (eapply reach_step; eassumption).
  assert (Hs : th (base s) t = Idle /\ s' = refresh (set_ipc s t (IBegin OItN))).
  { unfold xstep, xstep0 in Hst. destruct (ith s t); try discriminate. destruct (th (base s) t); try discriminate.
    injection Hst as <- _. auto. }
  destruct Hs as [Hb ->]. eapply finishes_within_mono; [|apply it_solo; [exact Hr' | exact Hb]].
  unfold it_cost. xprj. rewrite upd_same. cbn [icost]. destruct (it_cur s t =? 0); [lia|].
  unfold c_n1, c_if1. destruct (nmark (base s) (it_cur s t)); [|lia].
  pose proof (cnt_le (base s) (it_sv s t)). pose proof (cnt_le (base s) 0). unfold full, walk_c.
  destruct (nmark (base s) (it_sv s t)); lia.
Qed.

(** * Examples: reachable states computed with the executable model, and refutations *)

Definition xsteps (t : nat) (n : nat) : list xaction := repeat (XStep t) n.
Definition xrun (acts : list xaction) := run xstep xinit acts.
Definition xst (acts : list xaction) : xstate := fst (fst (xrun acts)).
Definition xins (t : nat) (k : N) := XStart t (OBase (OIns k)).
Definition xdel (t : nat) (k : N) := XStart t (OBase (ODel k)).
Definition rets (acts : list xaction) : list ev :=
  filter (fun e => match e with ERet _ _ => true | _ => false end) (snd (fst (xrun acts))).
(** the state after an enabled action *)
Definition nxt (s : xstate) (a : xaction) : xstate := match xstep s a with Some (s', _) => s' | None => s end.

Lemma xst_reach acts : reach xinit xstep (xst acts).
Proof. apply (run_reach _ _ _ xinit xstep acts). Qed.

Lemma nxt_step s a : xstep s a <> None -> exists es, xstep s a = Some (nxt s a, es).
Proof. unfold nxt. destruct (xstep s a) as [[s' e]|]; [eauto | intros H; contradiction]. Qed.

(** T1: ins 10, 20, 30 (nodes 1, 2, 3).  T3: it = begin() (stands on 10).  T2: del 10 (complete: node 1 marked,
    unlinked, retired).  T1: ins 15 (node 4).  T3: ++it sees its node marked, finds 15 (inserted after the
    traversal began: yielded, but not required).  T3: it = erase(it) marks node 4 itself, unlinks it and moves
    to 20; ++it -> 30; ++it -> end. *)
Definition ex_trav : list xaction :=
  xins 1 10 :: xsteps 1 5 ++ xins 1 20 :: xsteps 1 8 ++ xins 1 30 :: xsteps 1 11 ++
  XStart 3 OItB :: xsteps 3 2 ++ xdel 2 10 :: xsteps 2 7 ++ xins 1 15 :: xsteps 1 7 ++
  XStart 3 OItN :: xsteps 3 6 ++ XStart 3 OItE :: xsteps 3 4 ++ XStart 3 OItN :: xsteps 3 3 ++ XStart 3 OItN :: xsteps 3 3.

(** (it_node_safe, it_yield_sound, it_no_duplicate, it_complete, it_erase_exact) *)
Example ex_trav_state :
  let st := xst ex_trav in
  snd (xrun ex_trav) = 0%nat /\
  chain (base st) = [2; 3] /\ g_abs (base st) = [30; 20] /\ g_retired (base st) = [1; 4] /\
  g_lin (base st) = [LIns 1 10 1; LIns 1 20 2; LIns 1 30 3; LDel 2 10 1; LIns 1 15 4; LDel 3 15 4] /\
  g_yield st 3%nat = [mkY 10 1 true true 3; mkY 15 4 true true 5; mkY 20 2 true true 6; mkY 30 3 true true 6] /\
  it_cur st 3%nat = 0 /\ g_trav st 3%nat = true /\ g_lo st 3%nat = None /\
  g_start st 3%nat = [30; 20; 10] /\ g_always st 3%nat = [30; 20] /\
  rets ex_trav = [ERet 1 [0; 1]; ERet 1 [0; 1]; ERet 1 [0; 1]; ERet 3 [3; 1; 10]; ERet 2 [1; 1]; ERet 1 [0; 1];
                  ERet 3 [5; 1; 15]; ERet 3 [7; 1; 15; 1; 20]; ERet 3 [5; 1; 30]; ERet 3 [5; 0]].
Proof. vm_compute. repeat split. Qed.

(** in the middle: the iterator stands on the retired node 1 (key 10), its [save] is the head sentinel *)
Example ex_trav_mid :
  let st := xst (firstn 49 ex_trav) in
  it_cur st 3%nat = 1 /\ it_sv st 3%nat = 0 /\ nmark (base st) 1 = true /\ g_retired (base st) = [1] /\
  chain (base st) = [4; 2; 3] /\ ith st 3%nat = IF1 (KItN 1) 10 0 /\ g_always st 3%nat = [30; 20].
Proof. vm_compute. repeat split. Qed.

(** ** refutation 1: a yielded key need not have been in the container during the traversal *)

(** T1: ins 10.  T2: del 10, preempted between its mark CAS and its unlink CAS (node 1 is erased - contains(10)
    answers no - but still linked).  T3: it = begin(); *it. *)
Definition ex_stale_pre : list xaction := xins 1 10 :: xsteps 1 5 ++ xdel 2 10 :: xsteps 2 6 ++ [XStart 3 OItB].
Definition ex_stale : list xaction := ex_stale_pre ++ xsteps 3 2 ++ XStart 3 OItD :: xsteps 3 1.

Example ex_stale_state :
  let st := xst ex_stale in
  snd (xrun ex_stale) = 0%nat /\ chain (base st) = [1] /\ nmark (base st) 1 = true /\ g_abs (base st) = [] /\
  th (base st) 2%nat = D2 10 0 1 0 /\
  g_lin (base st) = [LIns 1 10 1; LDel 2 10 1] /\ g_yield st 3%nat = [mkY 10 1 false true 2] /\ g_start st 3%nat = [] /\
  rets ex_stale = [ERet 1 [0; 1]; ERet 3 [3; 1; 10]; ERet 3 [6; 1; 10]].
Proof. vm_compute. repeat split. Qed.

(** "every element it yields was in the container at some instant during the traversal" (C09) is FALSE for
    harris_michael_list_based_set: begin() (and operator++ on its fast path, and erase(iterator)) move the
    iterator onto the successor without looking at its mark, so an element that was erased before the
    traversal began, but is not unlinked yet, is yielded.  The true statement is [it_yield_was_member] +
    [it_yield_sound]. *)
Lemma it_yield_was_member_refuted :
  ~ (forall u s0 l s, reach xinit xstep s0 -> trav_path u s0 l s ->
       forall y, In y (g_yield s u) -> exists s1, In s1 (s0 :: l) /\ In (y_key y) (g_abs (base s1))).
Proof.
  intros H. set (s0 := xst ex_stale_pre). set (s1 := nxt s0 (XStep 3)). set (s2 := nxt s1 (XStep 3)).
  assert (H1 : exists es, xstep s0 (XStep 3) = Some (s1, es)) by (apply nxt_step; vm_compute; discriminate).
  assert (H2 : exists es, xstep s1 (XStep 3) = Some (s2, es)) by (apply nxt_step; vm_compute; discriminate).
  destruct H1 as [es1 H1]. destruct H2 as [es2 H2].
  assert (Hp : trav_path 3 s0 ([s1] ++ [s2]) s2).
  { eapply tp_next; [eapply tp_first; [|exact H1] | | exact H2].
    - split; [reflexivity | left; vm_compute; reflexivity].
    - intros [_ [Hc | [k Hc]]]; vm_compute in Hc; discriminate Hc. }
  destruct (H 3%nat s0 _ s2 (xst_reach _) Hp (mkY 10 1 false true 2)) as (sx & Hin & Hk).
  - vm_compute. left. reflexivity.
  - destruct Hin as [<- | [<- | [<- | []]]]; vm_compute in Hk; exact Hk.
Qed.

(** ** refutation 2: a key can be yielded twice / erase(iterator) can return an iterator to an equal key *)

(** T1: ins 10 (node 1).  T3: it = begin() (on node 1).  T1: del 10; ins 10 (node 2).  T3: ++it: its node is marked,
    find(10) returns the new node 2: key 10 is yielded again (it was re-inserted after the first yield) *)
Definition ex_reins_pre : list xaction :=
  xins 1 10 :: xsteps 1 5 ++ XStart 3 OItB :: xsteps 3 2 ++ xdel 1 10 :: xsteps 1 7 ++ xins 1 10 :: xsteps 1 5.
Definition ex_reins : list xaction := ex_reins_pre ++ XStart 3 OItN :: xsteps 3 6.

Example ex_reins_state :
  let st := xst ex_reins in
  snd (xrun ex_reins) = 0%nat /\ chain (base st) = [2] /\ g_retired (base st) = [1] /\
  g_lin (base st) = [LIns 1 10 1; LDel 1 10 1; LIns 1 10 2] /\
  g_yield st 3%nat = [mkY 10 1 true true 1; mkY 10 2 true true 3] /\
  rets ex_reins = [ERet 1 [0; 1]; ERet 3 [3; 1; 10]; ERet 1 [1; 1]; ERet 1 [0; 1]; ERet 3 [5; 1; 10]].
Proof. vm_compute. repeat split. Qed.

(** the yielded keys are NOT strictly increasing (true version: [it_no_duplicate]) *)
Lemma it_no_duplicate_strict_refuted :
  ~ (forall st t i j y1 y2, reach xinit xstep st -> (i < j)%nat ->
       nth_error (g_yield st t) i = Some y1 -> nth_error (g_yield st t) j = Some y2 -> y_key y1 < y_key y2).
Proof.
  intros H. specialize (H (xst ex_reins) 3%nat 0%nat 1%nat (mkY 10 1 true true 1) (mkY 10 2 true true 3) (xst_reach _)).
  assert (Hc : 10 < 10); [|lia]. apply H; [lia | vm_compute; reflexivity | vm_compute; reflexivity].
Qed.

(** the same with it = erase(it) instead of ++it: the erase has no effect on the abstract set (node 1 was
    erased by T1), the unlink CAS fails, find(10) returns node 2: the result is "10>10" *)
Definition ex_erase_eq : list xaction := ex_reins_pre ++ XStart 3 OItE :: xsteps 3 6.
Definition ex_erase_eq_last : list xaction := ex_reins_pre ++ XStart 3 OItE :: xsteps 3 7.

Example ex_erase_eq_state :
  let st := xst ex_erase_eq_last in
  snd (xrun ex_erase_eq_last) = 0%nat /\ chain (base st) = [2] /\ g_abs (base st) = [10] /\
  g_lin (base st) = [LIns 1 10 1; LDel 1 10 1; LIns 1 10 2] /\ it_cur st 3%nat = 2 /\
  rets ex_erase_eq_last = [ERet 1 [0; 1]; ERet 3 [3; 1; 10]; ERet 1 [1; 1]; ERet 1 [0; 1]; ERet 3 [7; 1; 10; 1; 10]].
Proof. vm_compute. repeat split. Qed.

(** "erase(iterator) returns an iterator to a node whose key is greater" is FALSE (true version:
    [it_erase_return]) *)
Lemma it_erase_greater_refuted :
  ~ (forall s t s' es, reach xinit xstep s -> xstep s (XStep t) = Some (s', es) ->
       in_erase (ith s t) = true -> ith s' t = IIdle -> it_cur s t <> 0 ->
       it_cur s' t = 0 \/ nkey (base s') (it_cur s t) < nkey (base s') (it_cur s' t)).
Proof.
  intros H. set (s := xst ex_erase_eq). set (s' := nxt s (XStep 3)).
  assert (H1 : exists es, xstep s (XStep 3) = Some (s', es)) by (apply nxt_step; vm_compute; discriminate).
  destruct H1 as [es H1].
  destruct (H s 3%nat s' es (xst_reach _) H1) as [Hc | Hc].
  - vm_compute. reflexivity.
  - vm_compute. reflexivity.
  - vm_compute. discriminate.
  - vm_compute in Hc. discriminate Hc.
  - vm_compute in Hc. discriminate Hc.
Qed.

(** ** solo runs computed with the executable model (it_solo, it_solo_bound) *)

(** in the state of [ex_trav_mid] (T3 inside ++it, at the first load of find, chain of 3 nodes) T3 alone
    finishes in 4 steps; the proved bound is [it_cost] = 14 <= 4 * 3 + 8 *)
Example ex_solo :
  let st := xst (firstn 49 ex_trav) in
  it_cost st 3%nat = 14%nat /\
  match solo_run xstep XStep xidle 3 20 0 st with Done _ n => n = 4%nat | _ => False end /\
  finishes_within xstep XStep xidle 3 14 st.
Proof.
  split; [vm_compute; reflexivity|]. split.
  - vm_compute. reflexivity.
  - eapply finishes_within_mono; [|apply (it_solo _ 3%nat (xst_reach _)); vm_compute; reflexivity]. vm_compute. lia.
Qed.
