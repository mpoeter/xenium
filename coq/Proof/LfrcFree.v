(** The free list of the lock-free reference counting model (Model/LfrcDefs.v): one step preserves [I_fl] (the ghost
    list [g_fl] has no duplicates, contains exactly the nodes in state "free", starts at [fhead] and is linked by
    next_free).  The pop case is where the ABA argument is used: the popper's next value is the head's current
    next_free ([own_ok] of P5, preserved in Proof/LfrcOwn.v because the popper holds a reference on the head).
    No axioms. *)
From Coq Require Import NArith List Bool Arith Lia PeanoNat.
From XV Require Import Conc.Lts Conc.Ev Model.LfrcDefs Proof.LfrcBase Proof.LfrcStep Proof.LfrcRefs Proof.LfrcNodes.
Import ListNotations.

Lemma chain_upd nx n v l : ~ In n l -> chain (upd nx n v) l <-> chain nx l.
Proof.
  induction l as [|a l IH]; intros Hn; cbn [chain]; [tauto|].
  rewrite upd_other by (intros ->; apply Hn; left; reflexivity).
  rewrite IH by (intros X; apply Hn; right; exact X). tauto.
Qed.

Definition fl_ok (s : state) : Prop :=
  NoDup (g_fl s) /\ (forall n, In n (g_fl s) <-> g_ns s n = NFree) /\ fhead s = hd_opt (g_fl s) /\ chain (nxt s) (g_fl s).

Lemma fl_ns_change s n x : fl_ok s -> g_ns s n <> NFree -> x <> NFree ->
  forall m, In m (g_fl s) <-> upd (g_ns s) n x m = NFree.
Proof.
  intros (_ & F & _) H1 H2 m. destruct (upd_cases (g_ns s) n x m) as [[-> ->]|[Hne ->]].
  - rewrite F. split; intros; congruence.
  - apply F.
Qed.

Lemma P_fl_step ns s a s' es : Inv ns s -> step ns s a = Some (s', es) -> fl_ok s'.
Proof.
  intros HI H. pose proof (I_fl _ _ HI) as IF. cases HI H t.
  all: try match goal with E : th _ _ = D2 _ _ _ _, E1 : rc _ _ = 2 |- _ => pose proof (claim_state _ _ _ _ _ _ _ HI E E1) as Hcs end.
  all: unfold fl_ok; prj.
  all: try exact IF.
  (* a life cycle state other than "free" changes *)
  all: try solve [split; [assumption | split; [ | split; assumption]];
         intros m; upd_split; subst; try solve [match goal with HF : forall n, In n _ <-> _ |- _ => apply HF end];
         match goal with HF : forall n, In n _ <-> _ |- _ => rewrite HF end;
         split; intros; try discriminate; exfalso; first [congruence | destruct Hcs as [[? Hcs]|[Hcs|Hcs]]; congruence] ].
  (* next_free of a node that is not on the free list changes *)
  all: try solve [split; [assumption | split; [assumption | split; [assumption|]]];
         apply chain_upd; [intros X; match goal with HF : forall n, In n _ <-> _ |- _ => apply HF in X end; congruence | assumption]].
  (* push *)
  all: try solve [match goal with HF : forall n, In n _ <-> _, HN : NoDup _, HH : fhead _ = hd_opt _, HC : chain _ _ |- _ =>
         split; [constructor; [intros X; apply HF in X; congruence | exact HN]
                | split; [ | split; [reflexivity | cbn [chain hd_opt]; split; [congruence | exact HC]]]];
         intros m; cbn [In]; upd_split; subst; rewrite ?HF; intuition congruence end].
  (* pop: the head is p, its next_free is the rest of the list (no ABA: [Ho]) *)
  match goal with FN : NoDup (g_fl _), FI : forall n, In n _ <-> _, FH : fhead _ = hd_opt _, FC : chain _ _, Hfree : g_ns _ _ = NFree |- _ =>
    rewrite Eread in FH; destruct (g_fl s) as [|p' rest] eqn:Efl; cbn [hd_opt] in FH; [discriminate|]; injection FH as <-;
    cbn [List.tl]; inversion FN as [|? ? Hnin Hnd]; subst; cbn [chain] in FC; destruct FC as [Hnx Hch];
    split; [exact Hnd|]; split; [|split; [rewrite <- (Ho Hfree); exact Hnx | exact Hch]];
    intros m; upd_split; subst; [split; [intros X; contradiction | discriminate]|];
    rewrite <- FI; cbn [In]; split; [auto | intros [X|X]; [congruence | exact X]]
  end.
Qed.
