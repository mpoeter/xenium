(** Hazard eras model (Model/HeDefs.v), base layer: projections / case analysis tactics and
    Layer O: ownership of the control blocks (thread_block_list entries): a block has at most one owner, owned blocks
    are linked and not free, a block is inactive only while its owner initialises it, the walks only visit linked blocks.
    The other layers: Proof/HeGuards.v (guards, slots, reference counts), Proof/HeNodes.v (life cycle of the nodes),
    Proof/HeEras.v (era_clock, construction / retirement eras, the eras in the slots), Proof/HeInv.v (theorems he_safe,
    he_exactly_once, he_slots), Proof/HeFlush.v (he_no_leak_at_quiescence_partial). *)
From Coq Require Import NArith List Bool Arith Lia PeanoNat.
From XV Require Import Conc.Lts Conc.Ev Model.HeDefs.
Import ListNotations.

Ltac prj := cbn [cells blist est hz cnt lhe lera aband nact clock nalloc nextid nid ce re th tl g_owner g_life g_where g_nfree g_uaf
                 rcd hint fl gd rl he ptr gv s_k s_cap s_vec s_prot s_ad
                 w_cells w_blist w_est w_hz w_cnt w_lhe w_lera w_aband w_nact w_clock w_nalloc w_nextid w_nid w_ce w_re w_th w_tl
                 w_g_owner w_g_life w_g_where w_g_nfree w_g_uaf
                 wt_rcd wt_hint wt_fl wt_gd wt_rl set_pc set_tl set_gd free_all move_all deref deref_g reset_guard unshare].
Ltac prjh H := cbn [cells blist est hz cnt lhe lera aband nact clock nalloc nextid nid ce re th tl g_owner g_life g_where g_nfree g_uaf
                 rcd hint fl gd rl he ptr gv s_k s_cap s_vec s_prot s_ad
                 w_cells w_blist w_est w_hz w_cnt w_lhe w_lera w_aband w_nact w_clock w_nalloc w_nextid w_nid w_ce w_re w_th w_tl
                 w_g_owner w_g_life w_g_where w_g_nfree w_g_uaf
                 wt_rcd wt_hint wt_fl wt_gd wt_rl set_pc set_tl set_gd free_all move_all deref deref_g reset_guard unshare] in H.

Lemma upd_upd {X} (f : nat -> X) t a b x : upd (upd f t a) t b x = upd f t b x.
Proof. unfold upd. destruct (Nat.eqb x t); reflexivity. Qed.

Ltac upds :=
  repeat first [ rewrite upd_upd | rewrite upd_same | rewrite upd_other by (first [assumption | congruence | lia]) ].
Ltac upds_in H :=
  repeat first [ rewrite upd_upd in H | rewrite upd_same in H | rewrite upd_other in H by (first [assumption | congruence | lia]) ].

Lemma oeqb_eq a b : oeqb a b = true <-> a = b.
Proof.
  destruct a, b; cbn; split; intros H; try congruence; try reflexivity.
  - apply Nat.eqb_eq in H. congruence.
  - injection H as ->. apply Nat.eqb_refl.
Qed.

Lemma upd2_same_block {X} (f : nat -> nat -> X) b i v j : upd2 f b i v b j = if j =? i then v else f b j.
Proof. unfold upd2. rewrite Nat.eqb_refl. reflexivity. Qed.
Lemma upd2_same {X} (f : nat -> nat -> X) b i v : upd2 f b i v b i = v.
Proof. unfold upd2. rewrite !Nat.eqb_refl. reflexivity. Qed.
Lemma upd2_other_block {X} (f : nat -> nat -> X) b i v b' j : b' <> b -> upd2 f b i v b' j = f b' j.
Proof. intros H. unfold upd2. destruct (Nat.eqb_spec b' b); [contradiction|reflexivity]. Qed.
Lemma upd2_other_slot {X} (f : nat -> nat -> X) b i v b' j : j <> i -> upd2 f b i v b' j = f b' j.
Proof. intros H. unfold upd2. destruct (Nat.eqb_spec j i); [contradiction|]. rewrite andb_false_r. reflexivity. Qed.

(** thread t's thread_data after the operations on its guards *)
Lemma set_tl_same st t x : tl (set_tl t x st) t = x.
Proof. unfold set_tl. prj. apply upd_same. Qed.
Lemma set_gd_tl st t g v : tl (set_gd t g v st) t = wt_gd (upd (gd (tl st t)) g v) (tl st t).
Proof. unfold set_gd. prj. upds. reflexivity. Qed.
Lemma set_gd_gd st t g v : gd (tl (set_gd t g v st) t) = upd (gd (tl st t)) g v.
Proof. rewrite set_gd_tl. reflexivity. Qed.
Lemma unshare_gd st t b i g : gd (tl (unshare st t b i g) t) = upd (gd (tl st t)) g g0.
Proof. unfold unshare, set_gd. prj. upds. reflexivity. Qed.
Lemma reset_gd st t b i g : gd (tl (reset_guard st t b i g) t) = upd (gd (tl st t)) g g0.
Proof. unfold reset_guard. prj. upds. reflexivity. Qed.

Lemma release_then_inv st t g ps e k r :
  release_then st t g ps e k = Some r ->
  (he (gd (tl st t) g) = None /\ k st = Some r) \/
  exists b i, rcd (tl st t) = Some b /\ he (gd (tl st t) g) = Some i /\
    ((cnt st b i = 1 /\ (set_pc t ps st, e) = r) \/ (cnt st b i <> 1 /\ k (unshare st t b i g) = Some r)).
Proof.
  unfold release_then. destruct (he (gd (tl st t) g)) as [i|]; [|intros H; left; split; [reflexivity|exact H]].
  destruct (rcd (tl st t)) as [b|]; [|discriminate]. intros H. right. exists b, i. split; [reflexivity|]. split; [reflexivity|].
  destruct (Nat.eqb_spec (cnt st b i) 1) as [Hc|Hc]; [left; split; [exact Hc|congruence]|right; split; assumption].
Qed.

(** ** guards that share their slot with others are released without an atomic access: [ush t st st1] =
    [st1] results from [st] by such releases of guards of thread [t] *)
Inductive ush (t : nat) : state -> state -> Prop :=
| ush_refl st : ush t st st
| ush_step st b i g st2 :
    rcd (tl st t) = Some b -> he (gd (tl st t) g) = Some i -> cnt st b i <> 1 ->
    ush t (unshare st t b i g) st2 -> ush t st st2.

Lemma ush_trans t a b c : ush t a b -> ush t b c -> ush t a c.
Proof. induction 1 as [|st b0 i g st2 H1 H2 H3 _ IH]; intros H; [exact H|]. apply (ush_step t st b0 i g c H1 H2 H3 (IH H)). Qed.

Lemma ush_one t st b i g :
  rcd (tl st t) = Some b -> he (gd (tl st t) g) = Some i -> cnt st b i <> 1 -> ush t st (unshare st t b i g).
Proof. intros H1 H2 H3. eapply ush_step; [exact H1|exact H2|exact H3|apply ush_refl]. Qed.

(** what [ush] leaves alone *)
Record same_but_guards (t : nat) (st st1 : state) : Prop := mkSame {
  sb_cells : cells st1 = cells st; sb_blist : blist st1 = blist st; sb_est : est st1 = est st; sb_hz : hz st1 = hz st;
  sb_lhe : lhe st1 = lhe st; sb_lera : lera st1 = lera st; sb_aband : aband st1 = aband st; sb_nact : nact st1 = nact st;
  sb_clock : clock st1 = clock st; sb_nalloc : nalloc st1 = nalloc st; sb_nextid : nextid st1 = nextid st; sb_nid : nid st1 = nid st;
  sb_ce : ce st1 = ce st; sb_re : re st1 = re st; sb_th : th st1 = th st;
  sb_owner : g_owner st1 = g_owner st; sb_life : g_life st1 = g_life st; sb_where : g_where st1 = g_where st;
  sb_nfree : g_nfree st1 = g_nfree st; sb_uaf : g_uaf st1 = g_uaf st;
  sb_tl : forall u, u <> t -> tl st1 u = tl st u;
  sb_rcd : rcd (tl st1 t) = rcd (tl st t); sb_hint : hint (tl st1 t) = hint (tl st t); sb_fl : fl (tl st1 t) = fl (tl st t);
  sb_rl : rl (tl st1 t) = rl (tl st t);
  sb_gd : forall g, gd (tl st1 t) g = gd (tl st t) g \/ (gd (tl st1 t) g = g0 /\ he (gd (tl st t) g) <> None);
  sb_cnt : forall b i, rcd (tl st t) <> Some b -> cnt st1 b i = cnt st b i }.

Lemma ush_same t st st1 : ush t st st1 -> same_but_guards t st st1.
Proof.
  induction 1 as [st|st b i g st2 Hb Hg Hc _ IH].
  - constructor; try reflexivity. intros g. left. reflexivity.
  - destruct IH as [? ? ? ? ? ? ? ? ? ? ? ? ? ? ? ? ? ? ? ? I21 I22 I23 I24 I25 I26 I27].
    constructor; try (etransitivity; [eassumption|reflexivity]).
    + intros u Hu. rewrite (I21 u Hu). unfold unshare. prj. upds. reflexivity.
    + rewrite I22. unfold unshare. prj. upds. reflexivity.
    + rewrite I23. unfold unshare. prj. upds. reflexivity.
    + rewrite I24. unfold unshare. prj. upds. reflexivity.
    + rewrite I25. unfold unshare. prj. upds. reflexivity.
    + intros g'. destruct (I26 g') as [H1|[H1 H2]].
      * rewrite H1. unfold unshare. prj. upds. prj. destruct (Nat.eq_dec g' g) as [->|Hne]; upds; [right; split; [reflexivity|congruence]|left; reflexivity].
      * right. split; [exact H1|]. revert H2. unfold unshare. prj. upds. prj.
        destruct (Nat.eq_dec g' g) as [->|Hne]; upds; [intros _; congruence|tauto].
    + intros b' i' Hb'. rewrite I27.
      * unfold unshare. prj. apply upd2_other_block. congruence.
      * unfold unshare. prj. upds. prj. exact Hb'.
Qed.

(** exit_guards: the guards from [g] on that share their slot are released, up to the first guard that has to store a link,
    or ~thread_data *)
Lemma exit_guards_spec t f : forall st g e r,
  exit_guards st t g f e = Some r ->
  exists st1, ush t st st1 /\
  ((exists g' b i, g <= g' < g + f /\ rcd (tl st1 t) = Some b /\ he (gd (tl st1 t) g') = Some i /\ cnt st1 b i = 1 /\
                  (forall j, g <= j < g' -> he (gd (tl st1 t) j) = None) /\ (set_pc t (X0 g') st1, e) = r)
   \/ ((forall j, g <= j < g + f -> he (gd (tl st1 t) j) = None) /\ exit_td st1 t e = Some r)).
Proof.
  induction f as [|f IH]; intros st g e r H; cbn [exit_guards] in H.
  - exists st. split; [apply ush_refl|]. right. split; [intros j Hj; lia|exact H].
  - (* guard g is out of the way in [s0]; the rest by induction *)
    assert (Hnext : forall s0, ush t st s0 -> he (gd (tl s0 t) g) = None -> exit_guards s0 t (S g) f e = Some r ->
              exists st1, ush t st st1 /\
              ((exists g' b i, g <= g' < g + S f /\ rcd (tl st1 t) = Some b /\ he (gd (tl st1 t) g') = Some i /\ cnt st1 b i = 1 /\
                  (forall j, g <= j < g' -> he (gd (tl st1 t) j) = None) /\ (set_pc t (X0 g') st1, e) = r)
               \/ ((forall j, g <= j < g + S f -> he (gd (tl st1 t) j) = None) /\ exit_td st1 t e = Some r))).
    { intros s0 Hu0 Hg0 H0. destruct (IH _ _ _ _ H0) as (st1 & Hu & Hr).
      assert (Hgn : he (gd (tl st1 t) g) = None).
      { destruct (sb_gd _ _ _ (ush_same _ _ _ Hu) g) as [H1|[H1 _]]; rewrite H1; [exact Hg0|reflexivity]. }
      exists st1. split; [apply (ush_trans t st s0 st1 Hu0 Hu)|].
      destruct Hr as [(g' & b' & i' & H1 & H2 & H3 & H4 & H5 & H6)|[H1 H2]].
      - left. exists g', b', i'. split; [lia|]. repeat (split; [assumption|]). split; [|exact H6].
        intros j Hj. destruct (Nat.eq_dec j g) as [->|Hne]; [exact Hgn|apply H5; lia].
      - right. split; [|exact H2]. intros j Hj. destruct (Nat.eq_dec j g) as [->|Hne]; [exact Hgn|apply H1; lia]. }
    apply release_then_inv in H. destruct H as [[Hg H]|(b & i & Hb & Hg & [[Hc H]|[Hc H]])].
    + apply (Hnext st (ush_refl t st) Hg H).
    + exists st. split; [apply ush_refl|]. left. exists g, b, i.
      split; [lia|]. split; [exact Hb|]. split; [exact Hg|]. split; [exact Hc|]. split; [intros j Hj; lia|exact H].
    + apply (Hnext _ (ush_one t st b i g Hb Hg Hc)); [rewrite unshare_gd; upds; reflexivity|exact H].
Qed.

(** case analysis of a step down to the leaves: every leaf has the new state as an explicit term (except the
    guards released by exit_guards: [ush]) *)
Ltac des1 H :=
  match type of H with
  | context [match ?x with _ => _ end] =>
    match x with
    | context [match _ with _ => _ end] => fail 1
    | _ => let E := fresh "E" in destruct x eqn:E
    end
  end.
Ltac unf H := unfold acq_begin, acq_done, ret_reset, release_then, throw, alloc_he, walk, scan_next, exit_rel, exit_td, finish, push in H.
Ltac exg H :=
  match type of H with
  | exit_guards _ _ _ _ _ = Some _ =>
    apply exit_guards_spec in H;
    let st1 := fresh "st1" in let Hu := fresh "Hu" in
    let g' := fresh "g'" in let b' := fresh "b'" in let i' := fresh "i'" in
    let Hg1 := fresh "Hg1" in let Hg2 := fresh "Hg2" in let Hg3 := fresh "Hg3" in let Hg4 := fresh "Hg4" in let Hg5 := fresh "Hg5" in
    destruct H as (st1 & Hu & [(g' & b' & i' & Hg1 & Hg2 & Hg3 & Hg4 & Hg5 & H)|[Hg1 H]]);
    [|unfold exit_td, exit_rel in H; repeat des1 H]
  end.
Ltac leaves H := repeat first [progress unf H | des1 H]; try discriminate H; try exg H;
  try (injection H as <- <-); try (injection H as <-); cbn [guard_of cell_of] in *.
Ltac dg := unfold deref_g in *; repeat match goal with |- context [match ?x with Some _ => _ | None => _ end] => destruct x eqn:? end;
  cbn [tl deref w_g_uaf] in *.

(** a successor state, simplified *)
Ltac sim := unfold reset_guard, unshare, set_gd, g0; repeat (progress (prj; upds)).
Ltac simh H := unfold reset_guard, unshare, set_gd, g0 in H; repeat (progress (prjh H; upds_in H)).
(** case analysis on every [upd] of the goal *)
Ltac eqs := repeat (unfold upd; match goal with |- context [Nat.eqb ?a ?b] => destruct (Nat.eqb_spec a b); subst end).

(** the equations of a leaf, simplified: those left by impossible branches become contradictory *)
Ltac clean_hyps :=
  repeat match goal with
  | E : _ = _ |- _ => progress (unfold set_gd, unshare, reset_guard, g0 in E; prjh E; upds_in E; prjh E)
  end.

Lemma ush_other t st st1 : ush t st st1 ->
  clock st1 = clock st /\ (forall u, u <> t -> tl st1 u = tl st u) /\ th st1 = th st /\ rcd (tl st1 t) = rcd (tl st t) /\
  (forall b, rcd (tl st t) <> Some b -> forall i, hz st1 b i = hz st b i /\ cnt st1 b i = cnt st b i) /\ lhe st1 = lhe st /\ lera st1 = lera st.
Proof.
  intros Hu. pose proof (ush_same _ _ _ Hu) as HS. 
  split; [apply (sb_clock _ _ _ HS)|]. split; [apply (sb_tl _ _ _ HS)|]. split; [apply (sb_th _ _ _ HS)|]. split; [apply (sb_rcd _ _ _ HS)|].
  split; [|split; [apply (sb_lhe _ _ _ HS)|apply (sb_lera _ _ _ HS)]].
  intros b Hb i. rewrite (sb_hz _ _ _ HS). split; [reflexivity|apply (sb_cnt _ _ _ HS); exact Hb].
Qed.

(** * Layer O: ownership of the control blocks *)
Definition pendb (p : pc) : option nat := match p with A1 _ _ b | A2 _ _ b | A3 _ _ b _ => Some b | _ => None end.
Definition seek (p : pc) : bool :=
  match p with W0 _ _ | W1 _ _ _ _ | W2 _ _ _ _ | A1 _ _ _ | A2 _ _ _ | A3 _ _ _ _ => true | _ => false end.
(** initialize / activate *)
Definition inI (p : pc) : bool := match p with I0 _ _ | I1 _ _ _ | I2 _ _ => true | _ => false end.

(** the walks only visit linked control blocks *)
Definition walk_ok (st : state) (p : pc) : Prop :=
  match p with
  | W1 _ _ r rest | W2 _ _ r rest => forall b, In b (r :: rest) -> In b (blist st)
  | S5 _ r rest | S6 _ r rest _ => forall b, In b (r :: rest) -> In b (blist st)
  | _ => True
  end.

Record InvO (st : state) : Prop := mkO {
  O_rcd : forall t b, rcd (tl st t) = Some b -> g_owner st b = Some t /\ In b (blist st) /\ est st b <> 0;
  O_own : forall t b, g_owner st b = Some t -> rcd (tl st t) = Some b \/ pendb (th st t) = Some b;
  O_pend : forall t b, pendb (th st t) = Some b -> g_owner st b = Some t /\ ~ In b (blist st) /\ est st b <> 0;
  O_seek : forall t, seek (th st t) = true -> rcd (tl st t) = None;
  O_free : forall b, est st b = 0 -> g_owner st b = None;
  O_lt : forall b, nalloc st <= b -> g_owner st b = None /\ ~ In b (blist st);
  O_act : forall t b, rcd (tl st t) = Some b -> est st b <> 2 -> inI (th st t) = true;
  O_walk : forall t, walk_ok st (th st t) }.

Lemma InvO_frame st st' :
  blist st' = blist st -> (forall b, est st' b = 0 <-> est st b = 0) ->
  (forall t b, rcd (tl st t) = Some b -> est st' b = est st b) ->
  (forall b, g_owner st' b = g_owner st b) -> nalloc st <= nalloc st' ->
  (forall t, rcd (tl st' t) = rcd (tl st t)) ->
  (forall t, pendb (th st' t) = pendb (th st t)) ->
  (forall t, seek (th st' t) = true -> seek (th st t) = true \/ rcd (tl st t) = None) ->
  (forall t, inI (th st t) = true -> inI (th st' t) = true) ->
  (forall t, walk_ok st (th st t) -> walk_ok st' (th st' t)) ->
  InvO st -> InvO st'.
Proof.
  intros Hb Hz He Ho Hn Hr Hp Hs Hi Hw [I1 I2 I3 I4 I5 I6 I7 I8].
  constructor; rewrite ?Hb; intros; rewrite ?Ho, ?Hr, ?Hp in *.
  - destruct (I1 t b H) as (H1 & H2 & H3). split; [exact H1|]. split; [exact H2|]. rewrite Hz. exact H3.
  - apply I2. assumption.
  - destruct (I3 t b H) as (H1 & H2 & H3). split; [exact H1|]. split; [exact H2|]. rewrite Hz. exact H3.
  - destruct (Hs t H) as [H1|H1]; [apply I4|]; assumption.
  - apply I5. apply Hz. assumption.
  - apply I6. lia.
  - apply Hi. apply (I7 t b H). rewrite <- (He t b H). assumption.
  - apply Hw, I8.
Qed.

(** two threads never own the same control block *)
Lemma own_inj st t t' b : InvO st -> rcd (tl st t) = Some b -> rcd (tl st t') = Some b -> t = t'.
Proof.
  intros HI H1 H2. destruct (O_rcd st HI t b H1) as [Ha _]. destruct (O_rcd st HI t' b H2) as [Hb _]. congruence.
Qed.

Lemma walk_ok_ext st st' p : blist st' = blist st -> walk_ok st p -> walk_ok st' p.
Proof. intros E H. destruct p; cbn [walk_ok] in *; try exact I; rewrite E; exact H. Qed.

(** what a step of thread t leaves alone: the other threads; the control blocks that are not t's; t's control block
    unless it is released; and, from a program point outside acquire_inactive_entry, initialize and release_entry, the
    whole block list *)
Lemma step_frame nslots st t st' es :
  step nslots st (Step t) = Some (st', es) ->
  clock st <= clock st' /\ (forall u, u <> t -> tl st' u = tl st u /\ th st' u = th st u) /\
  (forall b, rcd (tl st t) <> Some b -> forall i, hz st' b i = hz st b i /\ cnt st' b i = cnt st b i) /\
  (forall b, rcd (tl st t) <> Some b -> lhe st' b = lhe st b /\ lera st' b = lera st b) /\
  (seek (th st t) = false -> th st t <> X5 -> forall b, rcd (tl st t) = Some b -> rcd (tl st' t) = Some b) /\
  (forall b, est st b <> 0 -> b < nalloc st -> rcd (tl st t) <> Some b -> pendb (th st t) <> Some b ->
   est st' b = est st b /\ g_owner st' b = g_owner st b) /\
  (seek (th st t) = false -> inI (th st t) = false -> th st t <> X5 ->
   blist st' = blist st /\ est st' = est st /\ g_owner st' = g_owner st /\ nalloc st <= nalloc st' /\
   rcd (tl st' t) = rcd (tl st t) /\ pendb (th st' t) = None /\ inI (th st' t) = false /\
   (seek (th st' t) = true -> rcd (tl st t) = None) /\ (walk_ok st (th st t) -> walk_ok st' (th st' t))).
Proof.
  intros Hs. cbn [step] in Hs. destruct (th st t) eqn:Hth; try discriminate Hs.
  all: leaves Hs.
  all: clean_hyps; try discriminate.
  all: try (match goal with Hu : ush _ ?s0 ?st1 |- _ =>
              destruct (ush_other _ _ _ Hu) as (U1 & U2 & U3 & U4 & U5 & U6 & U7); pose proof (ush_same _ _ _ Hu) as HSb end).
  all: dg.
  all: (split; [unfold reset_guard, unshare, set_gd; prj; rewrite ?U1; unfold reset_guard; prj; lia|]).
  all: (split; [intros u Hne; unfold reset_guard, unshare, set_gd; prj; rewrite ?U3, ?(U2 u Hne); unfold reset_guard; prj; upds; split; reflexivity|]).
  all: (split; [intros bb Hbb ii; unfold reset_guard, unshare, set_gd; prj; unfold reset_guard; prj; rewrite ?upd2_other_block by congruence; upds;
                try (destruct (U5 bb) with (i := ii) as [Z1 Z2]; [unfold reset_guard; prj; upds; prj; congruence|rewrite Z1, Z2]; unfold reset_guard; prj;
                     rewrite ?upd2_other_block by congruence); split; reflexivity|]).
  all: (split; [intros bb Hbb; unfold reset_guard, unshare, set_gd; prj; rewrite ?U6, ?U7; unfold reset_guard; prj; upds; split; reflexivity|]).
  all: (split; [intros HK HX bb Hbb; try discriminate HK; unfold reset_guard, unshare, set_gd; prj; rewrite ?U4; unfold reset_guard; prj; upds; prj;
                first [assumption | congruence | (exfalso; apply HX; reflexivity)]|]).
  all: (split; [intros bb B1 B2 B3 B4; unfold reset_guard, unshare, set_gd; prj; rewrite ?(sb_est _ _ _ HSb), ?(sb_owner _ _ _ HSb); unfold reset_guard; prj;
                cbn [pendb] in B4; repeat match goal with E : (_ =? _) = true |- _ => apply Nat.eqb_eq in E end;
                rewrite ?upd_other by first [congruence|lia]; split; reflexivity|]).
  all: intros H1 H2 H3; try discriminate; try (exfalso; apply H3; reflexivity).
  all: unfold reset_guard, unshare, set_gd; prj; upds; prj;
    rewrite ?(sb_blist _ _ _ HSb), ?(sb_est _ _ _ HSb), ?(sb_owner _ _ _ HSb), ?(sb_nalloc _ _ _ HSb), ?(sb_rcd _ _ _ HSb); unfold reset_guard; prj; upds; prj.
  all: repeat (split; [first [reflexivity|lia|assumption|(cbn [seek]; intros; first [discriminate|assumption])]|]).
  all: cbn [walk_ok]; prj; try (intros; exact I).
  all: intros Hw b Hb; first [exact (Hw b Hb) | (apply Hw; right; exact Hb) | (match goal with E : blist _ = _ |- _ => rewrite E; exact Hb end)].
Qed.

Lemma seek_pendb p : seek p = false -> pendb p = None.
Proof. destruct p; cbn; intros; first [reflexivity|discriminate]. Qed.

(** a step that does not touch the block list *)
Lemma InvO_quiet nslots st t st' es :
  InvO st -> step nslots st (Step t) = Some (st', es) -> seek (th st t) = false -> inI (th st t) = false -> th st t <> X5 -> InvO st'.
Proof.
  intros HI Hs H1 H2 H3. destruct (step_frame nslots st t st' es Hs) as (_ & Ho & _ & _ & _ & _ & Hq).
  destruct (Hq H1 H2 H3) as (Eb & Ee & Eo & En & Er & Ep & Ei & Es & Ew).
  assert (Hth : forall u, th st' u = th st u \/ u = t).
  { intros u. destruct (Nat.eq_dec u t) as [->|Hne]; [right; reflexivity|left; apply (Ho u Hne)]. }
  apply (InvO_frame st); try assumption.
  - intros b. rewrite Ee. tauto.
  - intros u b _. rewrite Ee. reflexivity.
  - intros b. rewrite Eo. reflexivity.
  - intros u. destruct (Nat.eq_dec u t) as [->|Hne]; [exact Er|destruct (Ho u Hne) as [-> _]; reflexivity].
  - intros u. destruct (Hth u) as [->| ->]; [reflexivity|]. rewrite Ep. symmetry. apply seek_pendb. exact H1.
  - intros u. destruct (Hth u) as [->| ->]; [left; assumption|right; apply Es; assumption].
  - intros u. destruct (Hth u) as [->| ->]; [tauto|congruence].
  - intros u. destruct (Hth u) as [->| ->]; [apply walk_ok_ext; exact Eb|exact Ew].
Qed.


(** a step of thread t does not touch the control block another thread owns or is about to link *)
Lemma step_foreign nslots st t st' es u b :
  InvO st -> step nslots st (Step t) = Some (st', es) -> u <> t -> rcd (tl st u) = Some b \/ pendb (th st u) = Some b ->
  est st' b = est st b /\ g_owner st' b = g_owner st b /\ forall i, hz st' b i = hz st b i /\ cnt st' b i = cnt st b i.
Proof.
  intros HO Hs Hne Hb. destruct (step_frame nslots st t st' es Hs) as (_ & _ & Hz & _ & _ & He & _).
  assert (Hu : g_owner st b = Some u /\ est st b <> 0).
  { destruct Hb as [Hb|Hb]; [destruct (O_rcd st HO u b Hb) as (H1 & _ & H2)|destruct (O_pend st HO u b Hb) as (H1 & _ & H2)]; split; assumption. }
  destruct Hu as [Hu1 Hu2].
  assert (Ht1 : rcd (tl st t) <> Some b) by (intros H; destruct (O_rcd st HO t b H) as (H1 & _); congruence).
  assert (Ht2 : pendb (th st t) <> Some b) by (intros H; destruct (O_pend st HO t b H) as (H1 & _); congruence).
  assert (Hlt : b < nalloc st).
  { destruct (Nat.lt_ge_cases b (nalloc st)) as [H|H]; [exact H|]. destruct (O_lt st HO b H) as [H1 _]. congruence. }
  destruct (He b Hu2 Hlt Ht1 Ht2) as [E1 E2]. split; [exact E1|]. split; [exact E2|apply (Hz b Ht1)].
Qed.

Section InvO.
Variable nslots : nat.

(** the side conditions of [InvO_frame] for a concrete successor state: the fields (blist, est, g_owner, nalloc) by
    computation; the conditions per thread (rcd, pendb, seek, inI, walk_ok) by [thr]: the stepping thread by its old and new
    program point ([Hth]), the others unchanged; [wk]: a walk visits linked blocks only *)
Ltac wk :=
  match goal with
  | H : forall b, In b _ -> In b (blist _) |- In _ (blist _) => apply H; cbn [In] in *; tauto
  | E : blist ?st = _ |- In _ (blist ?st) => rewrite E; cbn [In] in *; tauto
  | H : forall b, In b _ -> In b (blist _) |- In _ (_ :: blist _) => right; apply H; cbn [In] in *; tauto
  end.
Ltac thr t' t Hth :=
  destruct (Nat.eq_dec t' t) as [->|?]; upds; rewrite ?Hth; cbn [pendb seek inI walk_ok]; prj; intros;
  first [reflexivity | tauto | congruence | discriminate | wk | exact I].
Ltac fr t Hth := first [reflexivity | assumption | lia | tauto | (let t' := fresh "t'" in intros t'; thr t' t Hth)].

(** a new control block *)
Lemma InvO_new st t p :
  InvO st -> seek (th st t) = true -> pendb (th st t) = None -> pendb p = Some (nalloc st) -> seek p = true ->
  (forall s, walk_ok s p) ->
  InvO (set_pc t p (w_nalloc (S (nalloc st)) (w_est (upd (est st) (nalloc st) 2) (w_g_owner (upd (g_owner st) (nalloc st) (Some t)) st)))).
Proof.
  intros [I1 I2 I3 I4 I5 I6 I7 I8] Hs Hp Hp' Hs' Hwp. set (b := nalloc st) in *.
  assert (Hb : g_owner st b = None /\ ~ In b (blist st)) by (apply I6; unfold b; lia).
  destruct Hb as [Hb1 Hb2].
  constructor; prj; fold b.
  - intros t' b' H. destruct (I1 t' b' H) as (H1 & H2 & H3).
    assert (b' <> b) by congruence. upds. tauto.
  - intros t' b' H. destruct (Nat.eq_dec b' b) as [->|Hne]; upds_in H.
    + injection H as <-. right. upds. exact Hp'.
    + destruct (Nat.eq_dec t' t) as [->|Hnt]; upds; [|apply I2; exact H].
      destruct (I2 t b' H) as [H1|H1]; [left; exact H1|congruence].
  - intros t' b' H. destruct (Nat.eq_dec t' t) as [->|Hnt]; upds_in H.
    + rewrite Hp' in H. injection H as <-. upds. split; [reflexivity|]. split; [exact Hb2|discriminate].
    + destruct (I3 t' b' H) as (H1 & H2 & H3). assert (b' <> b) by congruence. upds. tauto.
  - intros t' H. destruct (Nat.eq_dec t' t) as [->|Hnt]; upds_in H; [apply I4; exact Hs|apply I4; exact H].
  - intros b' H. destruct (Nat.eq_dec b' b) as [->|Hne]; upds_in H; [discriminate|]. upds. apply I5. exact H.
  - intros b' H. assert (b' <> b) by (unfold b; lia). upds. apply I6. unfold b in *. lia.
  - intros t' b' H H2. destruct (I1 t' b' H) as (H1 & _ & _). assert (b' <> b) by congruence. upds_in H2.
    destruct (Nat.eq_dec t' t) as [->|Hnt]; upds; [rewrite (I4 t Hs) in H; discriminate|apply (I7 t' b' H H2)].
  - intros t'. destruct (Nat.eq_dec t' t) as [->|Hnt]; upds; [apply Hwp|]. specialize (I8 t'). destruct (th st t'); exact I8.
Qed.

(** adoption of a free control block *)
Lemma InvO_adopt st t r p :
  InvO st -> seek (th st t) = true -> pendb (th st t) = None -> est st r = 0 -> In r (blist st) -> pendb p = None -> seek p = false ->
  inI p = true -> (forall s, walk_ok s p) ->
  InvO (set_pc t p (set_tl t (wt_rcd (Some r) (tl st t)) (w_est (upd (est st) r 1) (w_g_owner (upd (g_owner st) r (Some t)) st)))).
Proof.
  intros [I1 I2 I3 I4 I5 I6 I7 I8] Hs Hp He Hin Hp' Hs' Hi' Hwp.
  assert (Hr : g_owner st r = None) by (apply I5; exact He).
  assert (Ht : rcd (tl st t) = None) by (apply I4; exact Hs).
  constructor; prj.
  - intros t' b' H. destruct (Nat.eq_dec t' t) as [->|Hnt]; upds_in H.
    + cbn in H. injection H as <-. upds. split; [reflexivity|]. split; [exact Hin|discriminate].
    + destruct (I1 t' b' H) as (H1 & H2 & H3). assert (b' <> r) by congruence. upds. tauto.
  - intros t' b' H. destruct (Nat.eq_dec b' r) as [->|Hne]; upds_in H.
    + injection H as <-. left. upds. reflexivity.
    + destruct (Nat.eq_dec t' t) as [->|Hnt]; upds; [|apply I2; exact H].
      destruct (I2 t b' H) as [H1|H1]; congruence.
  - intros t' b' H. destruct (Nat.eq_dec t' t) as [->|Hnt]; upds_in H; [congruence|].
    destruct (I3 t' b' H) as (H1 & H2 & H3). assert (b' <> r) by congruence. upds. tauto.
  - intros t' H. destruct (Nat.eq_dec t' t) as [->|Hnt]; upds_in H; [congruence|]. upds. apply I4; exact H.
  - intros b' H. destruct (Nat.eq_dec b' r) as [->|Hne]; upds_in H; [discriminate|]. upds. apply I5. exact H.
  - intros b' H. destruct (I6 b' H) as [H1 H2]. assert (b' <> r) by (intros ->; contradiction). upds. tauto.
  - intros t' b' H H2. destruct (Nat.eq_dec t' t) as [->|Hnt]; upds; [exact Hi'|]. upds_in H.
    destruct (I1 t' b' H) as (H1 & _ & _). assert (b' <> r) by congruence. upds_in H2. apply (I7 t' b' H H2).
  - intros t'. destruct (Nat.eq_dec t' t) as [->|Hnt]; upds; [apply Hwp|]. specialize (I8 t'). destruct (th st t'); exact I8.
Qed.

(** the new control block is linked into the list *)
Lemma InvO_link st t b p :
  InvO st -> pendb (th st t) = Some b -> pendb p = None -> seek p = false -> inI p = true ->
  (forall s, walk_ok s p) ->
  InvO (set_pc t p (set_tl t (wt_rcd (Some b) (tl st t)) (w_blist (b :: blist st) st))).
Proof.
  intros [I1 I2 I3 I4 I5 I6 I7 I8] Hp Hp' Hs' Hi' Hwp.
  destruct (I3 t b Hp) as (Ho & Hnin & He).
  assert (Ht : rcd (tl st t) = None) by (apply I4; destruct (th st t); cbn in Hp; try discriminate; reflexivity).
  constructor; prj.
  - intros t' b' H. destruct (Nat.eq_dec t' t) as [->|Hnt]; upds_in H.
    + cbn in H. injection H as <-. split; [exact Ho|]. split; [left; reflexivity|exact He].
    + destruct (I1 t' b' H) as (H1 & H2 & H3). split; [exact H1|]. split; [right; exact H2|exact H3].
  - intros t' b' H. destruct (Nat.eq_dec t' t) as [->|Hnt]; upds; [|apply I2; exact H].
    destruct (I2 t b' H) as [H1|H1]; [congruence|]. left. cbn. congruence.
  - intros t' b' H. destruct (Nat.eq_dec t' t) as [->|Hnt]; upds_in H; [congruence|].
    destruct (I3 t' b' H) as (H1 & H2 & H3). split; [exact H1|]. split; [|exact H3].
    intros [<-|Hc]; [congruence|contradiction].
  - intros t' H. destruct (Nat.eq_dec t' t) as [->|Hnt]; upds_in H; [congruence|]. upds. apply I4; exact H.
  - exact I5.
  - intros b' H. destruct (I6 b' H) as [H1 H2]. split; [exact H1|]. intros [<-|Hc]; [congruence|contradiction].
  - intros t' b' H H2. destruct (Nat.eq_dec t' t) as [->|Hnt]; upds; [exact Hi'|]. upds_in H. apply (I7 t' b' H H2).
  - intros t'. destruct (Nat.eq_dec t' t) as [->|Hnt]; upds; [apply Hwp|]. specialize (I8 t').
    destruct (th st t'); cbn [walk_ok] in *; prj; try exact I; intros x Hx; right; apply I8; exact Hx.
Qed.

(** activate *)
Lemma InvO_activate st t b p :
  InvO st -> rcd (tl st t) = Some b -> pendb (th st t) = None -> seek (th st t) = false -> pendb p = None -> seek p = false ->
  (forall s, walk_ok s p) ->
  InvO (set_pc t p (w_est (upd (est st) b 2) st)).
Proof.
  intros [I1 I2 I3 I4 I5 I6 I7 I8] Hr Hp Hs Hp' Hs' Hwp.
  destruct (I1 t b Hr) as (Ho & Hin & He).
  constructor; prj.
  - intros t' b' H. destruct (I1 t' b' H) as (H1 & H2 & H3). split; [exact H1|]. split; [exact H2|].
    destruct (Nat.eq_dec b' b) as [->|Hne]; upds; [discriminate|exact H3].
  - intros t' b' H. destruct (Nat.eq_dec t' t) as [->|Hnt]; upds; [|apply I2; exact H].
    destruct (I2 t b' H) as [H1|H1]; [left; exact H1|congruence].
  - intros t' b' H. destruct (Nat.eq_dec t' t) as [->|Hnt]; upds_in H; [congruence|].
    destruct (I3 t' b' H) as (H1 & H2 & H3). assert (b' <> b) by congruence. upds. tauto.
  - intros t' H. destruct (Nat.eq_dec t' t) as [->|Hnt]; upds_in H; [congruence|]. apply I4; exact H.
  - intros b' H. destruct (Nat.eq_dec b' b) as [->|Hne]; upds_in H; [discriminate|]. apply I5. exact H.
  - exact I6.
  - intros t' b' H H2. destruct (Nat.eq_dec b' b) as [->|Hne]; upds_in H2; [congruence|].
    destruct (Nat.eq_dec t' t) as [->|Hnt]; upds; [congruence|apply (I7 t' b' H H2)].
  - intros t'. destruct (Nat.eq_dec t' t) as [->|Hnt]; upds; [apply Hwp|]. specialize (I8 t'). destruct (th st t'); exact I8.
Qed.

(** release_entry *)
Lemma InvO_release st t b p :
  InvO st -> rcd (tl st t) = Some b -> pendb (th st t) = None -> pendb p = None -> seek p = false ->
  (forall s, walk_ok s p) ->
  InvO (set_pc t p (set_tl t (mkTl None None [] (gd (tl st t)) (rl (tl st t))) (w_est (upd (est st) b 0) (w_g_owner (upd (g_owner st) b None) st)))).
Proof.
  intros [I1 I2 I3 I4 I5 I6 I7 I8] Hr Hp Hp' Hs' Hwp.
  destruct (I1 t b Hr) as (Ho & Hin & He).
  constructor; prj.
  - intros t' b' H. destruct (Nat.eq_dec t' t) as [->|Hnt]; upds_in H; [discriminate|].
    destruct (I1 t' b' H) as (H1 & H2 & H3). assert (b' <> b) by congruence. upds. tauto.
  - intros t' b' H. destruct (Nat.eq_dec b' b) as [->|Hne]; upds_in H; [discriminate|].
    destruct (Nat.eq_dec t' t) as [->|Hnt]; upds; [|apply I2; exact H].
    destruct (I2 t b' H) as [H1|H1]; congruence.
  - intros t' b' H. destruct (Nat.eq_dec t' t) as [->|Hnt]; upds_in H; [congruence|].
    destruct (I3 t' b' H) as (H1 & H2 & H3). assert (b' <> b) by congruence. upds. tauto.
  - intros t' H. destruct (Nat.eq_dec t' t) as [->|Hnt]; upds_in H; [congruence|]. upds. apply I4; exact H.
  - intros b' H. destruct (Nat.eq_dec b' b) as [->|Hne]; upds; [reflexivity|]. upds_in H. apply I5. exact H.
  - intros b' H. destruct (I6 b' H) as [H1 H2]. destruct (Nat.eq_dec b' b) as [->|Hne]; upds; tauto.
  - intros t' b' H H2. destruct (Nat.eq_dec t' t) as [->|Hnt]; upds_in H; [discriminate|]. upds.
    destruct (I1 t' b' H) as (H1 & _ & _). assert (b' <> b) by congruence. upds_in H2. apply (I7 t' b' H H2).
  - intros t'. destruct (Nat.eq_dec t' t) as [->|Hnt]; upds; [apply Hwp|]. specialize (I8 t'). destruct (th st t'); exact I8.
Qed.

Lemma InvO_step st a st' es :
  InvO st -> step nslots st a = Some (st', es) -> InvO st'.
Proof.
  intros HI Hs. pose proof (O_walk st HI) as HW. destruct a as [t o|t]; cbn [step] in Hs.
  - destruct (th st t) eqn:Hth; try discriminate Hs. destruct (legal nslots o); [|discriminate Hs].
    injection Hs as <- <-. apply (InvO_frame st); prj; fr t Hth.
  - pose proof (HW t) as Hw. pose proof (InvO_quiet nslots st t st' es HI Hs) as Hq. destruct (th st t) eqn:Hth; try discriminate Hs.
    all: try (apply Hq; [reflexivity|reflexivity|discriminate]; fail).
    all: leaves Hs.
    all: try (dg; apply (InvO_frame st); prj; upds; prj; fr t Hth; fail).
    + apply InvO_new; rewrite ?Hth; auto; intros; exact I.
    + apply InvO_new; rewrite ?Hth; auto; intros; exact I.
    + apply InvO_adopt; rewrite ?Hth; auto; [apply Nat.eqb_eq; assumption|apply Hw; left; reflexivity|intros; exact I].
    + apply InvO_new; rewrite ?Hth; auto; intros; exact I.
    + destruct (O_pend st HI t b) as (H1 & H2 & H3); [rewrite Hth; reflexivity|].
      assert (Hnr : forall u, rcd (tl st u) <> Some b).
      { intros u Hu. destruct (O_rcd st HI u b Hu) as (_ & Hc & _). contradiction. }
      apply (InvO_frame st); prj; try fr t Hth.
      * intros x. unfold upd. destruct (Nat.eqb_spec x b) as [->|]; [split; [discriminate|intros; contradiction]|tauto].
      * intros u x Hu. unfold upd. destruct (Nat.eqb_spec x b) as [->|]; [exfalso; apply (Hnr u Hu)|reflexivity].
    + apply InvO_link; rewrite ?Hth; auto; intros; exact I.
    + (* I2: cache hit *) apply (InvO_frame (set_pc t (Q1 k e) (w_est (upd (est st) n 2) st))).
      all: try (unfold set_gd; prj; upds; prj; fr t Hth).
      apply (InvO_activate st t n); rewrite ?Hth; auto; intros; exact I.
    + apply (InvO_activate st t n); rewrite ?Hth; auto; intros; exact I.
    + (* I2: throw *) apply (InvO_frame (set_pc t Idle (w_est (upd (est st) n 2) st))).
      all: try (prj; upds; prj; fr t Hth).
      apply (InvO_activate st t n); rewrite ?Hth; auto; intros; exact I.
    + apply (InvO_activate st t n); rewrite ?Hth; auto; intros; exact I.
    + (* I2: throw *) apply (InvO_frame (set_pc t Idle (w_est (upd (est st) n 2) st))).
      all: try (prj; upds; prj; fr t Hth).
      apply (InvO_activate st t n); rewrite ?Hth; auto; intros; exact I.
    + apply InvO_release; rewrite ?Hth; auto; intros; exact I.
Qed.
End InvO.

Lemma InvO_init ncells : InvO (init ncells).
Proof.
  constructor; cbn; intros; try discriminate; try tauto; try exact I.
Qed.
