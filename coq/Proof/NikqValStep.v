(** nikolaev_queue model, value layer: the value invariant [VI] (Proof/NikqVal.v) holds in every good state. *)
From Coq Require Import NArith List Bool Lia PeanoNat.
From XV Require Import Base.Word Conc.Lts Conc.Ev gen.ScqGen Model.NikbDefs Model.NikqDefs.
From XV Require Import Proof.NikbArith Proof.NikbBase Proof.NikbWf Proof.NikbOwn Proof.NikbVal Proof.NikbSafe Proof.NikbCons.
From XV Require Import Proof.NikqBase Proof.NikqRing Proof.NikqChain Proof.NikqVal.
Import ListNotations.
Local Open Scope N_scope.

Lemma in_snoc3 (x y : N * N * N) l : In x (l ++ [y]) -> In x l \/ x = y.
Proof. intros H. apply in_app_or in H. destruct H as [H|[H|[]]]; [left; exact H|right; symmetry; exact H]. Qed.

Lemma nodup_snoc_key (l : list (N * N * N)) a v : NoDup (map fst l) -> (forall w, ~ In (a, w) l) -> NoDup (map fst (l ++ [(a, v)])).
Proof.
  intros Hnd Hni. rewrite map_app. cbn [map fst].
  induction l as [|[b w] l IH]; cbn [map fst app] in *; [constructor; [intros []|constructor]|].
  inversion Hnd as [|? ? Hx Hy]; subst. constructor.
  - intros Hi. apply in_app_or in Hi. destruct Hi as [Hi|[Hi|[]]]; [contradiction|]. subst b. apply (Hni w). left. reflexivity.
  - apply IH; [exact Hy|]. intros w' Hw. apply (Hni w'). right. exact Hw.
Qed.

Lemma key_unique (l : list (N * N * N)) a v w : NoDup (map fst l) -> In (a, v) l -> In (a, w) l -> v = w.
Proof.
  induction l as [|[b u] l IH]; cbn [map fst]; intros Hnd H1 H2; [destruct H1|].
  inversion Hnd as [|? ? Hx Hy]; subst.
  destruct H1 as [H1|H1], H2 as [H2|H2].
  - congruence.
  - inversion H1; subst. exfalso. apply Hx. apply (in_map fst) in H2. exact H2.
  - inversion H2; subst. exfalso. apply Hx. apply (in_map fst) in H1. exact H1.
  - apply IH; assumption.
Qed.

Set Default Proof Using "All".
Section ValStep.
  Variable k R : N.
  Hypothesis Hk : k <= 40.
  Notation cap := (2 ^ k).
  Notation step := (NikbDefs.step cap R).
  Notation qstep := (NikqDefs.qstep cap R).
  Notation RingInv := (RingInv k).
  Notation VI := (VI k).
  Notation VN := (VN k).
  Notation T3q := (T3q).
  Notation good := (good k R).

  (** two threads never hold the same cell of a node *)
  Lemma cell_excl sg t u q q' i : Inv2 k sg -> u <> t -> hidx (th sg t) = Some (q, i) -> hidx (th sg u) = Some (q', i) -> False.
  Proof.
    intros I2 Hne H1 H2. destruct (held_cell k R Hk sg t q i I2 H1) as [A _]. destruct (held_cell k R Hk sg u q' i I2 H2) as [B _].
    rewrite A in B. apply held_inj in B. destruct B as [_ B]. congruence.
  Qed.

  (** the facts about the other threads after a step of t *)
  Lemma T3q_others s s' t :
    CI cap s -> VI s -> (forall u, u <> t -> oth s' u = oth s u) ->
    (forall u n, u <> t -> n <> nalloc s -> th (nd s' n) u = th (nd s n) u) ->
    (forall x, In x (q_in s) -> In x (q_in s')) -> (forall x, In x (q_out s) -> In x (q_out s')) ->
    (forall u n T, u <> t -> q_ebusy s n T = Some u -> q_ebusy s' n T = Some u) ->
    (forall u n H, u <> t -> q_dbusy s n H = Some u -> q_dbusy s' n H = Some u) ->
    (forall u n q i, u <> t -> In n (q_nodes s) -> hidx (th (nd s n) u) = Some (q, i) -> store (nd s' n) i = store (nd s n) i) ->
    forall u, u <> t -> T3q s' u.
  Proof.
    intros Hc HV Ho Hth Hi Hq Hb1 Hb2 Hs u Hne.
    apply (T3q_other k R Hk s s' u); [apply Ho; exact Hne| |exact Hi|exact Hq|intros; eapply Hb1; eauto|intros; eapply Hb2; eauto| |apply (vt k s HV)].
    - intros n Hn. apply Hth; [exact Hne|]. pose proof (c_lt cap s Hc n (c_refs cap s Hc u n Hn)). lia.
    - intros n q i Hn Hh. apply (Hs u n q i Hne); [apply (c_refs cap s Hc u n Hn)|exact Hh].
  Qed.

  Lemma vsame_enter sg t p : vsame sg (enter sg t p).
  Proof. unfold enter. repeat split. Qed.
  Lemma vsame_thr sg t p x : vsame sg (enter (w_rg sg RA (r_thr (ra sg) x)) t p).
  Proof. unfold enter. repeat split. Qed.
  (** node m gets a new state: nothing the invariant looks at changes if m is not linked or the new state looks the same *)
  Lemma vsame_setf (f : N -> state) l m sg' : (In m l -> vsame (f m) sg') -> forall x, In x l -> vsame (f x) (setf f m sg' x).
  Proof. intros H x Hx. unfold setf. destruct (N.eqb_spec x m) as [->|]; [apply H, Hx|apply (vsame_refl k R Hk)]. Qed.

  Lemma VI_step_simple s a s' es : good s -> VI s -> qstep s a = Some (s', es) ->
    match a with
    | Start _ _ => True
    | Step t => match oth s t with PIn _ _ | PRe _ _ | QIn1 _ _ | QIn2 _ _ | PLink _ _ _ | PSw _ _ _ => False | _ => True end
    end -> VI s'.
  Proof.
    intros Hg HV Hst Hk0. destruct (good_inv k R Hk s Hg) as (Hh & Hc & HR).
    destruct (qstep_eff cap R s a s' es Hh Hst) as [Ho _].
    assert (Hou : forall u, u <> tid a -> oth s' u = oth s u /\ forall n, In n (q_nodes s) -> th (nd s' n) u = th (nd s n) u).
    { intros u Hne. split; [apply Ho; exact Hne|]. intros n Hn. apply (qstep_th_other cap R s a s' es n u Hh Hst); [|exact Hne].
      pose proof (c_lt cap s Hc n Hn). lia. }
    pose proof (c_refs cap s Hc) as Hrf. pose proof (fun s1 => VI_same k R Hk s s1 (tid a) HV) as Hsame.
    clear Ho. unfold NikqDefs.qstep in Hst. destruct a as [t o|t]; cbn [tid] in *.
    - destruct (oth s t); try discriminate. injection Hst as Es _; subst s'.
      apply Hsame; try reflexivity; try assumption; [intros; apply (vsame_refl k R Hk)|unfold T3q; qsimg; rewrite upd_same; exact I].
    - pose proof (c_priv cap s Hc t) as Hpv.
      destruct (oth s t) as [|[v|tp]| |v|v n|v n|v n nx|v n|v n|v n|v n m0 i|v n m0 i|v n m0|v n m0|v m0 lb|v m0 lb| |n lb|n|n|n lb|n|n nx] eqn:Eo;
        try discriminate; try contradiction; cbn [priv] in Hpv.
      (* the node states stay *)
      all: try (break Hst; injection Hst as Es _; subst s';
                (apply Hsame; try reflexivity; try assumption; [intros; apply (vsame_refl k R Hk)|unfold T3q; qsimg; rewrite upd_same; exact I])).
      (* the state of one node changes: a linked node by entering a ring operation, or a node that is not linked *)
      + (* P2 *) destruct (nxt s n =? 0); injection Hst as Es _; subst s'; (apply Hsame; try reflexivity; try assumption);
          [apply vsame_setf; intros _; apply vsame_enter| |intros; apply (vsame_refl k R Hk)|]; unfold T3q, enter; qsimg; rewrite upd_same, ?setf_same; sim; rewrite ?upd_same; exact I.
      + (* PFin *) apply new_node_eff in Hst. destruct Hst as [-> _].
        apply Hsame; qsimg; try reflexivity; try assumption; [|unfold T3q; qsimg; rewrite upd_same; exact I].
        apply vsame_setf. intros Hm. pose proof (c_lt cap s Hc _ Hm). lia.
      + (* PSt *) destruct (Hpv m0 eq_refl) as (V1 & _).
        destruct (steal_spec cap R _ _ _ _ _ _ _ Hst) as (sg' & es0 & lb' & Hs & _ & [[Hni ->]|[Hi [[x ->]| ->]]]);
        (apply Hsame; try reflexivity; try assumption; [apply vsame_setf; intros Hm; contradiction|unfold T3q; qsimg; rewrite upd_same; exact I]).
      + (* PDel *) destruct (Hpv m0 eq_refl) as (V1 & _).
        destruct (del_spec cap R _ _ _ _ _ _ _ Hst) as (sg' & es0 & lb' & Hs & [(Hi & -> & _)|(Hni & _ & [[_ ->]|[_ ->]])]);
        (apply Hsame; try reflexivity; try assumption; [apply vsame_setf; intros Hm; contradiction|unfold T3q; qsimg; rewrite upd_same; exact I]).
      + (* Q1 *) injection Hst as Es _; subst s'. apply Hsame; try reflexivity; try assumption;
          [apply vsame_setf; intros _; apply vsame_enter|unfold T3q, enter; qsimg; rewrite upd_same, setf_same; sim; rewrite upd_same; exact I].
      + (* Q3 *) injection Hst as Es _; subst s'. apply Hsame; try reflexivity; try assumption;
          [apply vsame_setf; intros _; apply vsame_thr|unfold T3q, enter; qsimg; rewrite upd_same, setf_same; sim; rewrite upd_same; exact I].
  Qed.

  (** * the steps that change the ghost lists *)
  Definition keyb (n T n' T' : N) : bool := (n' =? n) && (T' =? T).
  Lemma keyb_spec n T n' T' : reflect (n' = n /\ T' = T) (keyb n T n' T').
  Proof. unfold keyb. destruct (N.eqb_spec n' n), (N.eqb_spec T' T); constructor; tauto. Qed.

  (** the busy threads other than t stay *)
  Definition busy_keep (t : nat) (B B' : N -> N -> option nat) : Prop := forall u n T, u <> t -> B n T = Some u -> B' n T = Some u.

  Lemma recd_same t L Lr B : recd L Lr B -> recd L Lr B /\ busy_keep t B B.
  Proof. intros H. split; [exact H|intros u n T _ Hx; exact Hx]. Qed.

  (** a pair is recorded under a fresh key, t becomes its busy thread *)
  Lemma recd_new t L Lr B B' n T x : recd L Lr B -> (forall w, ~ In (n, T, w) L) ->
    (forall n' T', B' n' T' = if keyb n T n' T' then Some t else B n' T') ->
    recd (L ++ [(n, T, x)]) Lr B' /\ busy_keep t B B'.
  Proof.
    intros (r1 & r2 & r3) Hfr EB. unfold recd. ssplit.
    - intros m T' v Hx. destruct (r1 m T' v Hx) as [A Bn]. split; [apply in_or_app; left; exact A|]. rewrite EB.
      destruct (keyb_spec n T m T') as [[-> ->]|_]; [destruct (Hfr v A)|exact Bn].
    - exact r2.
    - intros m T' u. rewrite EB. destruct (keyb_spec n T m T') as [[-> ->]|_].
      + intros _. exists x. apply in_or_app. right. left. reflexivity.
      + intros Hx. destruct (r3 m T' u Hx) as [v Hv]. exists v. apply in_or_app. left. exact Hv.
    - intros u m T' Hne Hx. rewrite EB. destruct (keyb_spec n T m T') as [[-> ->]|_]; [|exact Hx].
      destruct (r3 n T u Hx) as [v Hv]. destruct (Hfr v Hv).
  Qed.

  (** the call of t, the busy thread of a recorded pair, returns *)
  Lemma recd_ret t L Lr B B' n T x : recd L Lr B -> In (n, T, x) L -> B n T = Some t ->
    (forall n' T', B' n' T' = if keyb n T n' T' then None else B n' T') ->
    recd L (Lr ++ [(n, T, x)]) B' /\ busy_keep t B B'.
  Proof.
    intros (r1 & r2 & r3) Hin Hb EB. unfold recd. ssplit.
    - intros m T' v Hx. rewrite EB. apply in_snoc3 in Hx. destruct Hx as [Hx|Hx].
      + destruct (r1 m T' v Hx) as [A Bn]. split; [exact A|]. destruct (keyb n T m T'); [reflexivity|exact Bn].
      + inversion Hx; subst. split; [exact Hin|]. destruct (keyb_spec n T n T) as [_|Hf]; [reflexivity|destruct Hf; auto].
    - apply nodup_snoc_key; [exact r2|]. intros w Hw. destruct (r1 n T w Hw) as [_ Bn]. congruence.
    - intros m T' u. rewrite EB. destruct (keyb n T m T'); [discriminate|apply r3].
    - intros u m T' Hne Hx. rewrite EB. destruct (keyb_spec n T m T') as [[-> ->]|_]; [congruence|exact Hx].
  Qed.

  (** node n publishes index idx under ticket T; sg' as [step_pub_eff] describes it *)
  Lemma VN_pub l f qi qo n sg' T x idx t : VN l f qi qo -> In n l ->
    (forall i T', g_own sg' i = OFull T' -> (i <> idx /\ g_own (f n) i = OFull T') \/ (i = idx /\ T' = T)) ->
    (forall i, store sg' i = store (f n) i) -> store (f n) idx = x ->
    (forall T' i, g_eq (ra sg') T' = EPub i <-> (g_eq (ra (f n)) T' = EPub i \/ (T' = T /\ i = idx))) ->
    (forall H i, g_dq (ra sg') H = DTaken i <-> g_dq (ra (f n)) H = DTaken i) ->
    g_eq (ra (f n)) T = EHeld t ->
    VN l (setf f n sg') (qi ++ [(n, T, x)]) qo /\ forall w, ~ In (n, T, w) qi.
  Proof.
    intros (a1 & a2 & a2n & a3 & a3n & a4) Hn Hown Hst Hx0 Hpub Htak Hheld.
    assert (Hfresh : forall w, ~ In (n, T, w) qi).
    { intros w Hw. destruct (a2 n T w Hw) as [_ [i Hi]]. rewrite Hheld in Hi. discriminate. }
    split; [|exact Hfresh]. unfold VN, setf. ssplit.
    - intros m i T' Hm Hi. destruct (N.eqb_spec m n) as [->|Hne]; intros Hx; apply in_or_app; [|left; apply a1; assumption].
      rewrite Hst. destruct (Hown i T' Hx) as [[_ Hy]|[-> ->]]; [left; apply a1; assumption|right; left; rewrite Hx0; reflexivity].
    - intros m T' v Hx. apply in_snoc3 in Hx. destruct Hx as [Hx|Hx].
      + destruct (a2 m T' v Hx) as [Hm [i Hy]]. split; [exact Hm|]. exists i. destruct (N.eqb_spec m n) as [->|]; [apply Hpub; left|]; exact Hy.
      + inversion Hx; subst. split; [exact Hn|]. exists idx. rewrite N.eqb_refl. apply Hpub. right. auto.
    - apply nodup_snoc_key; assumption.
    - intros m H v Hx. destruct (a3 m H v Hx) as [Hy [i Hz]]. split; [apply in_or_app; left; exact Hy|]. exists i.
      destruct (N.eqb_spec m n) as [->|]; [apply Htak|]; exact Hz.
    - exact a3n.
    - intros m H i Hm. destruct (N.eqb_spec m n) as [->|]; intros Hx; apply (a4 _ H i Hm); [apply Htak|]; exact Hx.
  Qed.

  (** node n hands index i0 with ticket H0 to a pop; sg' as [step_take_eff] describes it *)
  Lemma VN_take l f qi qo n sg' H0 i0 t : VN l f qi qo -> In n l ->
    (forall i T, g_own sg' i = OFull T -> i <> i0 /\ g_own (f n) i = OFull T) ->
    (forall i, store sg' i = store (f n) i) ->
    (forall T i, g_eq (ra sg') T = EPub i <-> g_eq (ra (f n)) T = EPub i) ->
    (forall H i, g_dq (ra sg') H = DTaken i <-> (g_dq (ra (f n)) H = DTaken i \/ (H = H0 /\ i = i0))) ->
    g_dq (ra (f n)) H0 = DHeld t -> g_own (f n) i0 = OFull H0 -> i0 < cap ->
    VN l (setf f n sg') qi (qo ++ [(n, H0, store (f n) i0)]) /\ forall w, ~ In (n, H0, w) qo.
  Proof.
    intros (a1 & a2 & a2n & a3 & a3n & a4) Hn Hown Hst Hpub Htak Hheld Hfull Hi0.
    assert (Hfresh : forall w, ~ In (n, H0, w) qo).
    { intros w Hw. destruct (a3 n H0 w Hw) as [_ [i Hi]]. rewrite Hheld in Hi. discriminate. }
    split; [|exact Hfresh]. unfold VN, setf. ssplit.
    - intros m i T Hm Hi. destruct (N.eqb_spec m n) as [->|Hne]; intros Hx; [|apply a1; assumption].
      rewrite Hst. destruct (Hown i T Hx) as [_ Hy]. apply a1; assumption.
    - intros m T v Hx. destruct (a2 m T v Hx) as [Hm [i Hy]]. split; [exact Hm|]. exists i. destruct (N.eqb_spec m n) as [->|]; [apply Hpub|]; exact Hy.
    - exact a2n.
    - intros m H v Hx. apply in_snoc3 in Hx. destruct Hx as [Hx|Hx].
      + destruct (a3 m H v Hx) as [Hy [i Hz]]. split; [exact Hy|]. exists i. destruct (N.eqb_spec m n) as [->|]; [apply Htak; left|]; exact Hz.
      + inversion Hx; subst. split; [apply a1; assumption|]. exists i0. rewrite N.eqb_refl. apply Htak. right. auto.
    - apply nodup_snoc_key; assumption.
    - intros m H i Hm. destruct (N.eqb_spec m n) as [->|]; intros Hx.
      + apply Htak in Hx. destruct Hx as [Hx|[-> ->]].
        * destruct (a4 n H i Hm Hx) as [v Hv0]. exists v. apply in_or_app. left. exact Hv0.
        * eexists. apply in_or_app. right. left. reflexivity.
      + destruct (a4 m H i Hm Hx) as [v Hv0]. exists v. apply in_or_app. left. exact Hv0.
  Qed.

  (** the node m built by push is linked: its one value is published under ticket 0 *)
  Lemma VN_link l f qi qo m v : VN l f qi qo -> ~ In m l -> f m = used_init cap v ->
    VN (l ++ [m]) f (qi ++ [(m, 0, v)]) qo /\ forall T w, ~ In (m, T, w) qi.
  Proof.
    intros (a1 & a2 & a2n & a3 & a3n & a4) Hm Hinit.
    assert (Hfresh : forall T w, ~ In (m, T, w) qi) by (intros T w Hw; destruct (a2 m T w Hw) as [Hx _]; contradiction).
    split; [|exact Hfresh]. unfold VN. ssplit.
    - intros n i T Hn Hi. apply in_app_or in Hn. destruct Hn as [Hn|[<-|[]]].
      + intros Hx. apply in_or_app. left. apply a1; assumption.
      + rewrite Hinit. cbn [used_init g_own store]. destruct (N.eqb_spec i 0) as [->|]; [|discriminate].
        intros Hx. inversion Hx; subst. apply in_or_app. right. left. reflexivity.
    - intros n T w Hx. apply in_snoc3 in Hx. destruct Hx as [Hx|Hx].
      + destruct (a2 n T w Hx) as [A B]. split; [apply in_or_app; left; exact A|exact B].
      + inversion Hx; subst. split; [apply in_or_app; right; left; reflexivity|]. rewrite Hinit. exists 0. reflexivity.
    - apply nodup_snoc_key; [exact a2n|apply Hfresh].
    - intros n H w Hx. destruct (a3 n H w Hx) as [A B]. split; [apply in_or_app; left; exact A|exact B].
    - exact a3n.
    - intros n H i Hn. apply in_app_or in Hn. destruct Hn as [Hn|[<-|[]]]; [apply a4; exact Hn|].
      rewrite Hinit. cbn [used_init rgs g_dq]. discriminate.
  Qed.

  (** the invariant after a step of t, from its parts; the local facts of the other threads survive *)
  Lemma VI_next s s' t : CI cap s -> VI s ->
    (forall u, u <> t -> oth s' u = oth s u) -> (forall u m, u <> t -> m <> nalloc s -> th (nd s' m) u = th (nd s m) u) ->
    (forall u m q i, u <> t -> In m (q_nodes s) -> hidx (th (nd s m) u) = Some (q, i) -> store (nd s' m) i = store (nd s m) i) ->
    VN (q_nodes s') (nd s') (q_in s') (q_out s') -> incl (q_in s) (q_in s') -> incl (q_out s) (q_out s') ->
    recd (q_in s') (q_ok s') (q_ebusy s') /\ busy_keep t (q_ebusy s) (q_ebusy s') ->
    recd (q_out s') (q_ret s') (q_dbusy s') /\ busy_keep t (q_dbusy s) (q_dbusy s') ->
    T3q s' t -> VI s'.
  Proof.
    intros Hc HV Ho Hthu Hsto HN Hi Hq [HE Hb1] [HD Hb2] Ht. apply (VI_iff k R Hk). ssplit; try assumption.
    intros u. destruct (Nat.eq_dec u t) as [->|Hne]; [exact Ht|]. apply (T3q_others s s' t Hc HV Ho Hthu Hi Hq Hb1 Hb2 Hsto u Hne).
  Qed.

  (** * the local facts of a thread inside an enqueue: [side] = RA for try_push, RF for the second half of do_pop;
      [A gk x] = the pair (gk, x) is recorded (published / taken) and the thread is its busy thread *)
  Definition LF (A : N -> N -> Prop) (sg : state) (p : pc) (side : rid) : Prop :=
    match side, p with
    | RA, (E2 RA x i _ _ | E3 RA x i _ _ _ | E4 RA x i _ _ _) => store sg i = x
    | RA, (E5 RA x i gk | E6 RA x i gk) => A gk x
    | RF, E1 RF x i gk => A gk (store sg i)
    | RF, (E2 RF x i gk _ | E3 RF x i gk _ _ | E4 RF x i gk _ _) => A gk x /\ store sg i = x
    | RF, (E5 RF x i gk | E6 RF x i gk) => A gk x
    | _, _ => True
    end.

  Lemma LF_en_eval A sg q x idx gk tl e side :
    (match side, q with RA, RA => store sg idx = x | RF, RF => A gk x /\ store sg idx = x | _, _ => True end) ->
    LF A sg (en_eval cap q x idx gk tl e) side.
  Proof.
    intros H. destruct (en_eval_cases cap q x idx gk tl e) as [(_ & _ & ->)|[(_ & _ & _ & ->)| ->]]; destruct side, q; cbn [LF]; try exact I; try exact H.
    destruct H as [H1 H2]. rewrite H2. exact H1.
  Qed.

  Lemma LF_dq_eval A sg q x hd att e side : LF A sg (dq_eval cap q x hd att e) side.
  Proof.
    destruct (dq_eval_cases cap q x hd att e) as [[_ ->]|[_ [[_ [[_ ->]|[_ [[_ ->]|[_ ->]]]]]|[_ ->]]]]; destruct side; exact I.
  Qed.

  Lemma LF_step A sg t sg' es side : step sg (Step t) = Some (sg', es) ->
    (forall x idx gk tl e, th sg t = E4 RA x idx gk tl e -> side = RA -> rdata (ra sg) (phys cap tl) <> e) ->
    (forall x hd e, th sg t = D3 RA x hd e -> side <> RF) ->
    LF A sg (th sg t) side -> LF A sg' (th sg' t) side.
  Proof.
    intros Hst Hn4 Hn3. step_cases Hst; rewrite upd_same.
    all: try (intros _; apply LF_dq_eval).
    all: try (intros _; destruct side; exact I).
    all: try (intros HL; apply LF_en_eval; destruct side; cbn [LF] in *; sim; try exact I; try exact HL; try tauto).
    all: try (destruct side; cbn [LF]; sim; try tauto; try (intros; exact I)).
    all: try (intros _; unfold setf; rewrite N.eqb_refl; reflexivity).
    all: try (exfalso; eapply Hn3; eauto; fail).
    all: try (exfalso; eapply Hn4; eauto; apply N.eqb_eq; assumption).
    all: try (intros _; exact I).
    all: intros [H1 H2]; rewrite H2; exact H1.
  Qed.

  Lemma istep_native sg f lb t sg' es lb' : istep cap R sg f lb t = Some (sg', es, lb') ->
    (match th sg t with D4 RA _ _ _ _ | D6 RA _ _ | C1 RA _ _ _ | C2 RA _ _ => True | _ => False end /\
     isD RA (th sg' t) = true /\ forall i, store sg' i = store sg i) \/
    step sg (Step t) = Some (sg', es).
  Proof.
    intros H.
    destruct (istep_inv cap R _ _ _ _ _ _ _ H) as [Hs|[(x & hd & att & e & b & E & ->)|[(x & hd & E & ->)|[(x & tl & hd & E & [[_ ->]| ->])|(x & tl & E & ->)]]]];
      [right; exact Hs|left; rewrite E; sim; rewrite ?th_mark_left'; rewrite upd_same; (ssplit; [exact I| |try reflexivity])..].
    - unfold d4p. destruct b; [|destruct (lt0 _)]; reflexivity.
    - unfold mark_left. destruct (leaves _); reflexivity.
    - destruct (gt0 _); reflexivity.
    - reflexivity.
    - reflexivity.
    - destruct (lt0 _); reflexivity.
  Qed.

  Lemma LF_istep A sg f lb t sg' es lb' side : istep cap R sg f lb t = Some (sg', es, lb') ->
    (forall x idx gk tl e, th sg t = E4 RA x idx gk tl e -> side = RA -> rdata (ra sg) (phys cap tl) <> e) ->
    (forall x hd e, th sg t = D3 RA x hd e -> side <> RF) ->
    LF A sg (th sg t) side -> LF A sg' (th sg' t) side.
  Proof.
    intros H Hn4 Hn3 HL. destruct (istep_native _ _ _ _ _ _ _ H) as [(_ & Hd & _)|Hs]; [|eapply LF_step; eauto].
    destruct (th sg' t); try discriminate; destruct side; exact I.
  Qed.

  Lemma store_other_native sg t sg' es u q i : Inv2 k sg -> step sg (Step t) = Some (sg', es) -> u <> t ->
    hidx (th sg u) = Some (q, i) -> store sg' i = store sg i.
  Proof.
    intros I2 Hst Hne Hh. destruct (step_store k R Hk _ _ _ _ i Hst) as [E|(x & gk & Ep & _)]; [exact E|exfalso].
    apply (cell_excl sg t u RA q i I2 Hne); [rewrite Ep; reflexivity|exact Hh].
  Qed.

  Lemma store_other_istep sg f lb t sg' es lb' u q i : Inv2 k sg -> istep cap R sg f lb t = Some (sg', es, lb') -> u <> t ->
    hidx (th sg u) = Some (q, i) -> store sg' i = store sg i.
  Proof.
    intros I2 H Hne Hh. destruct (istep_native _ _ _ _ _ _ _ H) as [(_ & _ & Hs)|Hs]; [apply Hs|eapply store_other_native; eauto].
  Qed.

  Lemma step_ret_rf sg t sg' es x i gk : step sg (Step t) = Some (sg', es) -> th sg t = E5 RF x i gk \/ th sg t = E6 RF x i gk ->
    th sg' t = Idle -> ret_of es = Some [1; x].
  Proof.
    intros Hst [Ep|Ep] Hi; unfold NikbDefs.step, step_gen in Hst; rewrite Ep in Hst.
    - destruct (_ =? _); inversion Hst; subst; clear Hst; [reflexivity|]. sim. rewrite upd_same in Hi. discriminate.
    - inversion Hst; subst; clear Hst. reflexivity.
  Qed.

  (** what a reachable good state provides for a step *)
  Lemma step_ctx s a s' es : good s -> qstep s a = Some (s', es) ->
    Coh s /\ CI cap s /\ (forall n, RingInv (nd s n)) /\ PT s /\
    (forall u, u <> tid a -> oth s' u = oth s u) /\
    (forall u n, u <> tid a -> n <> nalloc s -> th (nd s' n) u = th (nd s n) u).
  Proof.
    intros Hg Hst. destruct (good_inv k R Hk s Hg) as (Hh & Hc & HR). destruct Hg as [Hr _].
    ssplit; try assumption.
    - apply (PT_reach k R Hk s Hr).
    - apply (qstep_eff cap R s a s' es Hh Hst).
    - intros u n Hne Hn. apply (qstep_th_other cap R s a s' es n u Hh Hst Hn Hne).
  Qed.

  Lemma ebusy_set s n T x n' T' :
    q_ebusy (w_qebusy s n T x) n' T' = if keyb n T n' T' then x else q_ebusy s n' T'.
  Proof. unfold keyb. qsimg. unfold setf. destruct (n' =? n), (T' =? T); reflexivity. Qed.
  Lemma dbusy_set s n T x n' T' :
    q_dbusy (w_qdbusy s n T x) n' T' = if keyb n T n' T' then x else q_dbusy s n' T'.
  Proof. unfold keyb. qsimg. unfold setf. destruct (n' =? n), (T' =? T); reflexivity. Qed.

  (** (5) the tail CAS of the push that linked its node; the push returns.  ((1) .. (8) are the labels of the accesses to
      _tail / _head / next in the comments of [opc], Model/NikqDefs.v) *)
  Lemma VI_step_PSw s t v n m s' es : good s -> VI s -> oth s t = PSw v n m -> qstep s (Step t) = Some (s', es) -> VI s'.
  Proof.
    intros Hg HV Eo Hst. destruct (step_ctx s _ s' es Hg Hst) as (Hh & Hc & HR & HP & Ho & Hthu). cbn [tid] in *.
    pose proof (vt k s HV t) as Ht. unfold T3q in Ht. rewrite Eo in Ht. destruct Ht as [Hin Hb].
    destruct (proj1 (VI_iff k R Hk s) HV) as (HN & HE & HD & _).
    unfold NikqDefs.qstep in Hst. rewrite Eo in Hst.
    destruct (qtail s =? n); injection Hst as Es _; subst s';
      (apply (VI_next s _ t Hc HV Ho Hthu); qsimg;
       [intros; reflexivity|exact HN|apply incl_refl|apply incl_refl| |apply recd_same, HD|unfold T3q; qsimg; rewrite upd_same; exact I]);
      apply (recd_ret t _ _ _ _ m 0 v HE Hin Hb); intros; apply ebusy_set.
  Qed.

  (** (4) the link CAS *)
  Lemma VI_step_PLink s t v n m s' es : good s -> VI s -> oth s t = PLink v n m -> qstep s (Step t) = Some (s', es) -> VI s'.
  Proof.
    intros Hg HV Eo Hst. destruct (step_ctx s _ s' es Hg Hst) as (Hh & Hc & HR & HP & Ho & Hthu). cbn [tid] in *.
    destruct (c_priv cap s Hc t m ltac:(rewrite Eo; reflexivity)) as (V1 & V2 & V3 & V4).
    pose proof (c_t5 cap s Hc t) as T5. rewrite Eo in T5. cbn [NikqChain.T5] in T5. destruct T5 as (Hinit & _ & _).
    destruct (proj1 (VI_iff k R Hk s) HV) as (HN & HE & HD & _).
    unfold NikqDefs.qstep in Hst. rewrite Eo in Hst. destruct (nxt s n =? 0); injection Hst as Es _; subst s'.
    - (* linked *)
      destruct (VN_link _ _ _ _ m v HN V1 Hinit) as [HN' Hfresh].
      apply (VI_next s _ t Hc HV Ho Hthu); qsimg;
        [intros; reflexivity|exact HN'|apply incl_appl, incl_refl|apply incl_refl| |apply recd_same, HD|].
      + apply (recd_new t _ _ _ _ m 0 v HE (Hfresh 0)). intros; apply ebusy_set.
      + unfold T3q. qsimg. rewrite upd_same. split; [apply in_or_app; right; left; reflexivity|]. unfold setf. rewrite !N.eqb_refl. reflexivity.
    - (* lost: steal_init_value *)
      eapply (VI_same k R Hk s _ t HV); qsimg; try reflexivity; try (apply (c_refs cap s Hc)).
      + intros m' Hm. rewrite setf_other; [apply (vsame_refl k R Hk)|intros ->; contradiction].
      + intros u Hne. split; [apply upd_other; exact Hne|]. intros n0 Hn0. rewrite setf_other; [reflexivity|intros ->; contradiction].
      + unfold T3q; qsimg; rewrite upd_same; exact I.
  Qed.

  (** an access inside the ring code of the linked node n that neither publishes into nor takes from RA; the call may return *)
  Lemma VI_plain s s' t n sg' :
    CI cap s -> VI s -> In n (q_nodes s) -> vle (nd s n) sg' ->
    (forall u q i, u <> t -> hidx (th (nd s n) u) = Some (q, i) -> store sg' i = store (nd s n) i) ->
    q_nodes s' = q_nodes s -> q_in s' = q_in s -> q_out s' = q_out s ->
    recd (q_in s) (q_ok s') (q_ebusy s') /\ busy_keep t (q_ebusy s) (q_ebusy s') ->
    recd (q_out s) (q_ret s') (q_dbusy s') /\ busy_keep t (q_dbusy s) (q_dbusy s') ->
    (forall m, In m (q_nodes s) -> nd s' m = setf (nd s) n sg' m) ->
    (forall u, u <> t -> oth s' u = oth s u) ->
    (forall u m, u <> t -> m <> nalloc s -> th (nd s' m) u = th (nd s m) u) ->
    T3q s' t -> VI s'.
  Proof.
    intros Hc HV Hn Hvle Hst En Ei Eo HE HD Hnd Ho Hthu Ht. destruct (proj1 (VI_iff k R Hk s) HV) as (HN & _).
    apply (VI_next s s' t Hc HV Ho Hthu); rewrite ?En, ?Ei, ?Eo; try assumption; try apply incl_refl.
    - intros w m q i Hw Hm Hh. rewrite (Hnd m Hm). unfold setf. destruct (N.eqb_spec m n) as [->|]; [apply (Hst w q i Hw Hh)|reflexivity].
    - apply (VN_vle k R Hk _ (nd s)); [exact HN|]. intros m Hm. rewrite (Hnd m Hm). unfold setf.
      destruct (N.eqb_spec m n) as [->|]; [exact Hvle|apply (vle_refl k R Hk)].
  Qed.

  Lemma VI_step_PRe s t v n s' es : good s -> VI s -> oth s t = PRe v n -> qstep s (Step t) = Some (s', es) -> VI s'.
  Proof.
    intros Hg HV Eo Hst. destruct (step_ctx s _ s' es Hg Hst) as (Hh & Hc & HR & HP & Ho & Hthu). cbn [tid] in *.
    assert (Hn : In n (q_nodes s)) by (apply (c_refs cap s Hc t); rewrite Eo; left; reflexivity).
    specialize (HP t). rewrite Eo in HP. destruct (HR n) as (I1 & I2 & _).
    destruct (proj1 (VI_iff k R Hk s) HV) as (_ & HE & HD & _).
    unfold NikqDefs.qstep in Hst. rewrite Eo in Hst.
    destruct (push_re_spec cap R _ _ _ _ _ _ Hst) as (sg' & es0 & Hs & Hcase).
    assert (Hvle : vle (nd s n) sg').
    { apply (step_vle k R Hk _ t _ es0 I1 I2 Hs); [intros x idx gk tl e Ep; rewrite Ep in HP; discriminate|intros x hd e Ep; rewrite Ep in HP; discriminate]. }
    assert (Hsto : forall u q i, u <> t -> hidx (th (nd s n) u) = Some (q, i) -> store sg' i = store (nd s n) i)
      by (intros u q i Hne Hh'; eapply store_other_native; eauto).
    destruct Hcase as [(Hni & Es & _)|[Hi Hnn]]; [|apply new_node_eff in Hnn; destruct Hnn as [Es _]]; subst s';
      (eapply (VI_plain s _ t n sg' Hc HV Hn Hvle Hsto); qsimg; try reflexivity; try assumption; try (apply recd_same; assumption);
       try (unfold T3q; qsimg; rewrite upd_same; exact I)).
    intros m Hm. rewrite setf_other; [reflexivity|]. pose proof (c_lt cap s Hc m Hm). lia.
  Qed.

  Lemma T3q_PIn_LF s t v n : oth s t = PIn v n ->
    (T3q s t <-> LF (fun gk x => In (n, gk, x) (q_in s) /\ q_ebusy s n gk = Some t) (nd s n) (th (nd s n) t) RA).
  Proof.
    intros Eo. unfold T3q. rewrite Eo. destruct (th (nd s n) t); cbn [LF]; try tauto; destruct q; tauto.
  Qed.
  Lemma T3q_QIn_LF s t n : (exists lb, oth s t = QIn1 n lb \/ oth s t = QIn2 n lb) ->
    (T3q s t <-> LF (fun gk x => In (n, gk, x) (q_out s) /\ q_dbusy s n gk = Some t) (nd s n) (th (nd s n) t) RF).
  Proof.
    intros [lb [Eo|Eo]]; unfold T3q; rewrite Eo; destruct (th (nd s n) t); cbn [LF]; try tauto; destruct q; tauto.
  Qed.

  Lemma VI_step_PIn s t v n s' es : good s -> VI s -> oth s t = PIn v n -> qstep s (Step t) = Some (s', es) -> VI s'.
  Proof.
    intros Hg HV Eo Hst. destruct (step_ctx s _ s' es Hg Hst) as (Hh & Hc & HR & HP & Ho & Hthu). cbn [tid] in *.
    assert (Hn : In n (q_nodes s)) by (apply (c_refs cap s Hc t); rewrite Eo; left; reflexivity).
    specialize (HP t). rewrite Eo in HP. destruct (HR n) as (I1 & I2 & _).
    pose proof (proj1 (T3q_PIn_LF s t v n Eo) (vt k s HV t)) as HL.
    destruct (proj1 (VI_iff k R Hk s) HV) as (HN & HE & HD & _).
    unfold NikqDefs.qstep in Hst. rewrite Eo in Hst.
    destruct (push_in_spec cap R _ _ _ _ _ _ Hst) as [(x & idx & gk & sg' & es0 & Ep & Ef & Hfe & Es & _)|(sg' & es0 & Hs & _ & Hcase)].
    - (* the ring is finalized *)
      subst s'. destruct (fin_enq_vle k R Hk _ _ _ _ _ _ _ I1 I2 Ep Hfe) as [Hvle Hsto].
      eapply (VI_plain s _ t n sg' Hc HV Hn Hvle); qsimg; try reflexivity; try assumption; try (apply recd_same; assumption).
      + intros u q i Hne Hh'. apply Hsto. intros ->. apply (cell_excl (nd s n) t u RA q idx I2 Hne); [rewrite Ep; reflexivity|exact Hh'].
      + unfold T3q; qsimg; rewrite upd_same; exact I.
    - assert (Hn3 : forall x hd e, th (nd s n) t <> D3 RA x hd e) by (intros x hd e Ep; rewrite Ep in HP; discriminate).
      assert (Hsto : forall u q i, u <> t -> hidx (th (nd s n) u) = Some (q, i) -> store sg' i = store (nd s n) i)
        by (intros u q i Hne Hh'; eapply store_other_native; eauto).
      destruct (pub_ghost_cases cap s (w_nd s n sg') t n (nd s n)) as [[Epg Hnp]|(x & idx & gk & tl & Ep & Epg)]; rewrite Epg in Hcase; clear Epg.
      + (* no publication *)
        assert (Hvle : vle (nd s n) sg') by (apply (step_vle k R Hk _ t _ es0 I1 I2 Hs); assumption).
        assert (HL' := LF_step _ _ _ _ _ RA Hs (fun x idx gk tl e Ep _ => Hnp x idx gk tl e Ep) (fun x hd e Ep _ => Hn3 x hd e Ep) HL).
        destruct Hcase as [(Hni & Es & _)|[(Hi & _ & Es & _)|(Hi & _ & x & i & gk & Hp & Es & _)]]; subst s';
          (eapply (VI_plain s _ t n sg' Hc HV Hn Hvle Hsto); qsimg; try reflexivity; try assumption; try (apply recd_same; assumption)).
        * apply (T3q_PIn_LF _ t v n); [qsimg; apply upd_same|]. qsimg. rewrite setf_same. exact HL'.
        * unfold T3q; qsimg; rewrite upd_same; exact I.
        * (* the push returns *)
          assert (Hfact : In (n, gk, x) (q_in s) /\ q_ebusy s n gk = Some t) by (destruct Hp as [Ep|Ep]; rewrite Ep in HL; exact HL).
          apply (recd_ret t _ _ _ _ n gk x HE (proj1 Hfact) (proj2 Hfact)). intros; apply ebusy_set.
        * unfold T3q; qsimg; rewrite upd_same; exact I.
      + (* publish *)
        destruct (step_pub_eff k R Hk _ _ _ _ _ _ _ _ _ I1 I2 Hs Ep eq_refl) as (P1 & P2 & P3 & P4 & P5 & P6).
        destruct (step_pub_fwd k R Hk _ _ _ _ _ _ _ _ _ Hs Ep eq_refl) as (_ & _ & Et').
        assert (Hx0 : store (nd s n) idx = x) by (rewrite Ep in HL; exact HL).
        destruct (VN_pub _ _ _ _ n sg' (tl / 2) x idx t HN Hn P1 P2 Hx0 P3 P4 P5) as [HN' Hfresh].
        destruct Hcase as [(Hni & Es & _)|[(Hi & _)|(Hi & _)]]; try (rewrite Et' in Hi; discriminate). subst s'.
        apply (VI_next s _ t Hc HV Ho Hthu); qsimg; [|exact HN'|apply incl_appl, incl_refl|apply incl_refl| |apply recd_same, HD|].
        * intros w m q i Hw Hm Hh'. unfold setf. destruct (N.eqb_spec m n) as [->|]; [apply P2|reflexivity].
        * apply (recd_new t _ _ _ _ n (tl / 2) x HE Hfresh). intros; apply ebusy_set.
        * unfold T3q. qsimg. rewrite upd_same, setf_same, Et'. split; [apply in_or_app; right; left; reflexivity|].
          unfold setf. rewrite !N.eqb_refl. reflexivity.
  Qed.

  Lemma VI_step_QIn s t n lb again failed s' es :
    good s -> VI s -> (oth s t = QIn1 n lb \/ oth s t = QIn2 n lb) ->
    (forall b, again b = QIn1 n b \/ again b = QIn2 n b) -> (failed = Q2 n \/ failed = Q4 n) ->
    pop_phase cap R s t n lb again failed = Some (s', es) ->
    (forall u, u <> t -> oth s' u = oth s u) ->
    (forall u m, u <> t -> m <> nalloc s -> th (nd s' m) u = th (nd s m) u) ->
    VI s'.
  Proof.
    intros Hg HV Eo Hag Hfl Hst Ho Hthu. destruct (good_inv k R Hk s Hg) as (Hh & Hc & HR).
    pose proof (PT_reach k R Hk s (proj1 Hg) t) as HP.
    assert (Hn : In n (q_nodes s)) by (apply (c_refs cap s Hc t); destruct Eo as [Eo|Eo]; rewrite Eo; left; reflexivity).
    assert (HP' : isD RA (th (nd s n) t) || isE RF (th (nd s n) t) = true) by (destruct Eo as [Eo|Eo]; rewrite Eo in HP; exact HP).
    destruct (HR n) as (I1 & I2 & _).
    pose proof (proj1 (T3q_QIn_LF s t n ltac:(exists lb; exact Eo)) (vt k s HV t)) as HL.
    destruct (proj1 (VI_iff k R Hk s) HV) as (HN & HE & HD & _).
    destruct (pop_spec cap R _ _ _ _ _ _ _ _ Hst) as (sg' & es0 & lb' & Hs & Hcase).
    assert (Hsto : forall u q i, u <> t -> hidx (th (nd s n) u) = Some (q, i) -> store sg' i = store (nd s n) i)
      by (intros u q i Hne Hh'; eapply store_other_istep; eauto).
    destruct (take_ghost_cases cap s (w_nd s n sg') t n (nd s n)) as [[Etg Hn3]|(x & hd & e & Ep & Etg)]; rewrite Etg in Hcase; clear Etg.
    - (* no take *)
      assert (Hvle : vle (nd s n) sg') by (apply (istep_vle k R Hk _ _ _ _ _ _ _ I1 I2 Hs Hn3 HP')).
      assert (HL' := LF_istep _ _ _ _ _ _ _ _ RF Hs ltac:(intros; discriminate) (fun x hd e Ep _ => Hn3 x hd e Ep) HL).
      destruct Hcase as [(Hni & Es & _)|[(Hi & _ & Es & _)|(Hi & x & x' & i & gk & Hret & Hp & Es & _)]]; subst s';
        (eapply (VI_plain s _ t n sg' Hc HV Hn Hvle Hsto); qsimg; try reflexivity; try assumption; try (apply recd_same; assumption)).
      + apply (T3q_QIn_LF _ t n); [exists lb'; qsimg; rewrite upd_same; apply Hag|]. qsimg. rewrite setf_same. exact HL'.
      + unfold T3q; qsimg; rewrite upd_same. destruct Hfl as [-> | ->]; exact I.
      + (* the pop returns what it took *)
        assert (Hsn : step (nd s n) (Step t) = Some (sg', es0)).
        { destruct (istep_native _ _ _ _ _ _ _ Hs) as [(Hx & _)|Hx]; [destruct Hp as [Ep|Ep]; rewrite Ep in Hx; contradiction|exact Hx]. }
        assert (Hxx : x = x') by (pose proof (step_ret_rf _ _ _ _ _ _ _ Hsn Hp Hi) as Hr; rewrite Hr in Hret; inversion Hret; reflexivity).
        subst x'.
        assert (Hfact : In (n, gk, x) (q_out s) /\ q_dbusy s n gk = Some t) by (destruct Hp as [Ep|Ep]; rewrite Ep in HL; exact HL).
        apply (recd_ret t _ _ _ _ n gk x HD (proj1 Hfact) (proj2 Hfact)). intros; apply dbusy_set.
      + unfold T3q; qsimg; rewrite upd_same; exact I.
    - (* take *)
      assert (Hsn : step (nd s n) (Step t) = Some (sg', es0)).
      { destruct (istep_native _ _ _ _ _ _ _ Hs) as [(Hx & _)|Hx]; [rewrite Ep in Hx; contradiction|exact Hx]. }
      destruct (step_take_eff k R Hk _ _ _ _ _ _ _ I1 I2 Hsn Ep) as (P1 & P2 & P3 & P4 & P5 & P6 & P7 & P8).
      destruct (step_take_fwd k R Hk _ _ _ _ _ _ _ Hsn Ep) as (_ & Et').
      destruct (VN_take _ _ _ _ n sg' (hd / 2) _ t HN Hn P1 P2 P3 P4 P5 P6 P7) as [HN' Hfresh].
      destruct Hcase as [(Hni & Es & _)|[(Hi & _)|(Hi & _)]]; try (rewrite Et' in Hi; discriminate). subst s'.
      apply (VI_next s _ t Hc HV Ho Hthu); qsimg; [|exact HN'|apply incl_refl|apply incl_appl, incl_refl|apply recd_same, HE| |].
      + intros w m q i Hw Hm Hh'. unfold setf. destruct (N.eqb_spec m n) as [->|]; [apply P2|reflexivity].
      + apply (recd_new t _ _ _ _ n (hd / 2) _ HD Hfresh). intros; apply dbusy_set.
      + apply (T3q_QIn_LF _ t n); [exists lb'; qsimg; rewrite upd_same; apply Hag|]. qsimg. rewrite setf_same, Et'. cbn [LF].
        rewrite P2. split; [apply in_or_app; right; left; reflexivity|]. unfold setf. rewrite !N.eqb_refl. reflexivity.
  Qed.

  Lemma VI_step s a s' es : good s -> VI s -> qstep s a = Some (s', es) -> VI s'.
  Proof.
    intros Hg HV Hst. destruct (step_ctx s a s' es Hg Hst) as (Hh & Hc & HR & HP & Ho & Hthu).
    destruct a as [t o|t]; [apply (VI_step_simple s (Start t o) s' es Hg HV Hst); exact I|]. cbn [tid] in *.
    destruct (oth s t) as [|o| |v|v n|v n|v n nx|v n|v n|v n|v n m i|v n m i|v n m|v n m|v m lb|v m lb| |n lb|n|n|n lb|n|n nx] eqn:Eo.
    all: try (apply (VI_step_simple s (Step t) s' es Hg HV Hst); rewrite Eo; exact I).
    - apply (VI_step_PIn s t v n s' es Hg HV Eo Hst).
    - apply (VI_step_PRe s t v n s' es Hg HV Eo Hst).
    - apply (VI_step_PLink s t v n m s' es Hg HV Eo Hst).
    - apply (VI_step_PSw s t v n m s' es Hg HV Eo Hst).
    - unfold NikqDefs.qstep in Hst. rewrite Eo in Hst.
      apply (VI_step_QIn s t n lb (QIn1 n) (Q2 n) s' es Hg HV (or_introl Eo)); auto.
    - unfold NikqDefs.qstep in Hst. rewrite Eo in Hst.
      apply (VI_step_QIn s t n lb (QIn2 n) (Q4 n) s' es Hg HV (or_intror Eo)); auto.
  Qed.

  Theorem VI_good : forall s, good s -> VI s.
  Proof.
    intros s0 Hg0. apply (good_rule k R Hk VI); [apply (VI_init k R Hk)| |exact Hg0].
    intros s a s' es Hg _ HV Hst. eapply VI_step; eauto.
  Qed.
End ValStep.
