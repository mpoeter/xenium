(** kirsch_bounded_kfifo_queue (C06), invariant layer 3 (ring and scans): the conditional facts every thread holds
    about its local head / tail copies ("if head is still what I read, then ..."): slots it found empty in
    the head segment hold no committed value, the tail may / may not be advanced, the ring is full.
    Stability lemmas for the three kinds of shared changes.  No axioms, no admits. *)
From Coq Require Import NArith List Bool Lia PeanoNat.
From XV Require Import Base.Word Conc.Lts Conc.Ev Model.KfbDefs.
From XV Require Import Proof.KfbArith Proof.KfbWf Proof.KfbOwn.
Import ListNotations.
Local Open Scope N_scope.

Set Default Proof Using "All".
Section L3.
  Variables k segs : N.
  Hypothesis Hk : 1 <= k.
  Hypothesis Hs : 1 <= segs.
  Notation step := (step k segs).
  Notation sg := (sg k).
  Notation wfi := (wfi k segs).
  Notation qsize := (qsize k segs).
  Notation dist := (dist segs).
  Notation succs := (succs segs).
  Notation wfw := (wfw k segs).
  Notation hle := (hle k segs).
  Notation tle := (tle k segs).
  Notation T1 := (T1 k segs).
  Notation inseg := (inseg k segs).
  Notation Inv1 := (Inv1 k segs).
  Notation fidx := (fidx k segs).
  Notation sidx := (sidx k segs).

  Definition sgw (w : iw) : N := sg (fst w).
  Definition hs (st : state) : N := sgw (head st).
  Definition ts (st : state) : N := sgw (tail st).
  Definition nocommit (st : state) (j : N) : Prop := ~ In (fst (slot st j)) (g_in st).
  Definition segfree (st : state) (a : N) : Prop := forall j, j < qsize -> sg j = a -> nocommit st j.
  Definition hsafe (st : state) : Prop := segs = 1 \/ 1 <= dist (hs st) (ts st).
  Definition tsafe (st : state) : Prop := segs = 1 \/ dist (hs st) (ts st) + 1 < segs.
  Definition RD (st : state) (tl : iw) : Prop :=
    dist (hs st) (sgw tl) <= dist (hs st) (ts st) /\ (tail st = tl \/ segs = 1 \/ dist (hs st) (sgw tl) < dist (hs st) (ts st)).

  Definition T3 (st : state) (p : pc) : Prop :=
    match p with
    | PF b tl hd ri i => tail st = tl -> dist (hs st) (sgw tl) <= dist (sgw hd) (sgw tl)
    | P3n b tl hd => tail st = tl -> dist (hs st) (sgw tl) <= dist (sgw hd) (sgw tl)
    | PQ b tl hd => dist (sgw hd) (sgw tl) = segs - 1 /\ (tail st = tl -> dist (hs st) (sgw tl) <= dist (sgw hd) (sgw tl)) /\
                    (head st = hd -> dist (hs st) (ts st) = segs - 1)
    | PS b tl hd i => head st = hd -> dist (hs st) (ts st) = segs - 1 /\ forall m, m < i -> nocommit st (sidx (fst hd) m)
    | PHC b tl hd => head st = hd -> dist (hs st) (ts st) = segs - 1 /\ segfree st (hs st)
    | PH b tl hd => head st = hd -> dist (hs st) (ts st) = segs - 1
    | PT b tl => tail st = tl -> tsafe st
    | C4 b tl j tg hc tc => head st = hc -> dist (hs st) (sgw tc) <= dist (hs st) (ts st)
    | C5 b tl j tg hc => sgw tl = sgw hc
    | DF hd tl ri i => head st = hd -> RD st tl /\ forall m, m < i -> nocommit st (fidx (fst hd) ri m)
    | DT hd tl j p tg => tail st = tl -> dist (hs st) (ts st) = 0
    | D3n hd tl => head st = hd -> RD st tl /\ segfree st (hs st)
    | DE hd tl => sgw hd = sgw tl /\ (head st = hd -> (tail st = tl \/ hsafe st) /\ segfree st (hs st))
    | DH hd => head st = hd -> hsafe st /\ segfree st (hs st)
    | _ => True
    end.

  Definition Inv3 (st : state) : Prop := forall t, T3 st (th st t).

  Lemma wfw_lt w : wfw w -> sgw w < segs. Proof. intros [_ H]. exact H. Qed.

  (** a stale copy differs from a word with a larger tag *)
  Lemma mono_ne (w cur new : iw) : iw_mono w cur -> snd cur < snd new -> new <> w.
  Proof. intros [->|H] Hlt E; subst; lia. Qed.

  (** slots change, or values are committed outside the head segment; head and tail stay *)
  Lemma T3_stable_slots st st' p :
    head st' = head st -> tail st' = tail st ->
    (forall j, j < qsize -> sg j = hs st -> nocommit st j -> nocommit st' j) ->
    T1 st p -> T3 st p -> T3 st' p.
  Proof.
    intros Eh Et Hnc H1 H3.
    assert (Ehs : hs st' = hs st) by (unfold hs; rewrite Eh; reflexivity).
    assert (Ets : ts st' = ts st) by (unfold ts; rewrite Et; reflexivity).
    assert (Hseg : forall w j, head st = w -> inseg w j -> nocommit st j -> nocommit st' j) by (intros w j <- [X Y]; apply Hnc; assumption).
    assert (Hsf : segfree st (hs st) -> segfree st' (hs st)) by (intros H j X Y; apply Hnc; auto).
    destruct p; cbn [T3 T1] in *; unfold RD, hsafe, tsafe in *; rewrite ?Eh, ?Et, ?Ehs, ?Ets; try exact H3.
    - (* PS *) intros E. destruct (H3 E) as [A B]. split; [exact A|]. intros m Hm.
      apply (Hseg hd); [exact E|apply (sidx_inseg k segs Hk Hs); [apply H1|lia]|auto].
    - (* PHC *) intuition.
    - (* DF *) intros E. destruct (H3 E) as [A B]. split; [exact A|]. intros m Hm.
      apply (Hseg hd); [exact E|apply (fidx_inseg k segs Hk Hs); apply H1|auto].
    - (* D3n *) intuition.
    - (* DE *) intuition.
    - (* DH *) intuition.
  Qed.

  (** the head word changes (tag bump or advance): what is needed of the new state for the tail-conditional clauses *)
  Lemma T3_stable_head st st' p :
    snd (head st) < snd (head st') -> tail st' = tail st ->
    wfw (head st) -> wfw (tail st) ->
    (* the distance to every segment can only shrink, and to the tail it shrinks as head moves *)
    (hs st' = hs st \/ (hs st' = succs (hs st) /\ hsafe st)) ->
    T1 st p -> T3 st p -> T3 st' p.
  Proof.
    intros Hlt Et Hwh Hwt Hmv H1 H3.
    assert (Hne : forall w, hle st w -> head st' <> w) by (intros w [_ Hm]; eapply mono_ne; eauto).
    pose proof (wfw_lt _ Hwh : hs st < segs) as Hhs. pose proof (wfw_lt _ Hwt : ts st < segs) as Hts.
    assert (Hd : dist (hs st') (ts st) <= dist (hs st) (ts st)).
    { destruct Hmv as [->|[-> [H1s|Hge]]]; [lia| |].
      - rewrite !(dist_one k segs Hk Hs) by (try assumption; apply (succs_lt k segs Hk Hs); assumption). lia.
      - rewrite (dist_pred k segs Hk Hs _ _ Hhs Hts Hge). lia. }
    (* clauses under "head is still my copy" become void; the others speak of the distance from head to the tail *)
    destruct p; cbn [T3 T1] in *; unfold tsafe, ts in *; rewrite ?Et; try exact H3;
      try (intros E; exfalso; eapply Hne; [|exact E]; intuition; fail).
    - (* PF *) intros <-. specialize (H3 eq_refl). lia.
    - (* P3n *) intros <-. specialize (H3 eq_refl). lia.
    - (* PQ *) destruct H3 as (A & B & C). split; [exact A|]. split; [intros <-; specialize (B eq_refl); lia|].
      intros E; exfalso; eapply Hne; [|exact E]; intuition.
    - (* PT *) intuition lia.
    - (* DT *) intuition lia.
    - (* DE *) destruct H3 as [A _]. split; [exact A|]. intros E; exfalso; eapply Hne; [|exact E]; intuition.
  Qed.

  (** the tail advances (safely) *)
  Lemma T3_stable_tail st st' p :
    head st' = head st -> snd (tail st) < snd (tail st') -> slot st' = slot st -> g_in st' = g_in st ->
    wfw (head st) -> wfw (tail st) -> ts st' = succs (ts st) -> tsafe st ->
    T1 st p -> T3 st p -> T3 st' p.
  Proof.
    intros Eh Hlt Es Eg Hwh Hwt Hmv Hsafe H1 H3.
    assert (Hne : forall w, tle st w -> tail st' <> w) by (intros w [_ Hm]; eapply mono_ne; eauto).
    pose proof (wfw_lt _ Hwh : hs st < segs) as Hhs. pose proof (wfw_lt _ Hwt : ts st < segs) as Hts.
    (* the distance from head to tail grows by one, unless the ring has one segment *)
    assert (Hsum : (segs = 1 /\ dist (hs st) (ts st') = dist (hs st) (ts st)) \/
                   (dist (hs st) (ts st) + 1 < segs /\ dist (hs st) (ts st') = dist (hs st) (ts st) + 1)).
    { rewrite Hmv. destruct Hsafe as [A|A]; [left|right]; (split; [exact A|]).
      - rewrite !(dist_one k segs Hk Hs); auto using (succs_lt k segs Hk Hs).
      - apply (dist_succ_r k segs Hk Hs); assumption. }
    (* clauses under "tail is still my copy" become void; the others keep their slot facts, and their distance
       facts follow from [Hsum] *)
    destruct p; cbn [T3 T1] in *; unfold RD, hsafe, segfree, nocommit, hs in *; rewrite ?Eh, ?Es, ?Eg; try exact H3;
      try (intros E; exfalso; eapply Hne; [|exact E]; intuition; fail).
    2-9: clear H1 Hne Hlt Hwh Hwt Hmv Hsafe Hhs Hts; intuition lia.
    destruct H3 as (A & B & C). split; [exact A|]. split; [intros E; exfalso; eapply Hne; [|exact E]; intuition|intuition lia].
  Qed.

  Lemma zero_notin st : Inv2 st -> ~ In 0 (g_in st).
  Proof. intros Iv H. pose proof (i_in_lt st Iv 0 H). lia. Qed.

  Lemma hs_adv st : wfw (head st) -> sgw (adv k segs (head st)) = succs (hs st).
  Proof. intros H. unfold sgw, adv, hs. cbn [fst]. apply (adv_wf k segs Hk Hs). exact H. Qed.

  Lemma ts_adv st : wfw (tail st) -> sgw (adv k segs (tail st)) = succs (ts st).
  Proof. intros H. unfold sgw, adv, ts. cbn [fst]. apply (adv_wf k segs Hk Hs). exact H. Qed.

  (** the scans: the indices f 0 .. f (i-1) held no committed value and f i holds null; a scan that is through *)
  Lemma scan_null st (f : N -> N) i : Inv2 st -> (forall m, m < i -> nocommit st (f m)) -> fst (slot st (f i)) = 0 ->
    forall m, m < i + 1 -> nocommit st (f m).
  Proof.
    intros Iv B H m Hm. destruct (N.eq_dec m i) as [->|Hn]; [|apply B; lia]. unfold nocommit. rewrite H. apply (zero_notin st Iv).
  Qed.
  Lemma scan_segfree st (f : N -> N) a i : k <= i -> (forall m, m < i -> nocommit st (f m)) ->
    (forall j, sg j = a -> exists m, m < k /\ f m = j) -> segfree st a.
  Proof. intros Hi B C j _ Hsg. destruct (C j Hsg) as (m & Hm & <-). apply B. lia. Qed.

  Ltac sim3 := unfold hsafe, tsafe, RD, segfree, nocommit in *; unfold hs, ts in *; sim.

  (** the mover's own clause after a step that leaves the shared state alone *)
  Lemma T3_rd s p p' res : wfw (head s) -> Inv2 s -> T1 s p -> T3 s p -> rd k segs s p p' res -> T3 s p'.
  Proof.
    intros Hh Iv Hme Hme3 Hrd. destruct Hrd; subst; cbn [T1 T3] in *; trivial; sim3.
    - (* P3n -> PQ *) destruct Hme as ([Hwt _] & [Hwh _]).
      split; [apply (adv_full k segs Hk Hs); assumption|]. split; [exact Hme3|]. intros ->. apply (adv_full k segs Hk Hs); assumption.
    - (* P3n -> PT *) intros _. specialize (Hme3 eq_refl). destruct Hme as ([Hwt _] & [Hwh _]). right.
      pose proof (dist_lt k segs Hk Hs _ _ (wfw_lt _ Hwh) (wfw_lt _ Hwt)).
      assert (dist (sgw hd) (sgw (tail s)) <> segs - 1) by (intros Q; apply H0; apply (adv_full k segs Hk Hs); assumption). lia.
    - (* PQ -> PS *) destruct Hme3 as (_ & _ & C). intros Eh. split; [apply C; exact Eh|intros m Hm; lia].
    - (* PQ -> PT: head has left the segment after the tail *)
      destruct Hme3 as (A & B & _). destruct Hme as ([Hwt _] & [Hwh _]). intros Et. specialize (B Et). subst tl. right.
      pose proof (dist_lt k segs Hk Hs _ _ (wfw_lt _ Hh) (wfw_lt _ Hwt)).
      assert (dist (sgw (head s)) (sgw (tail s)) <> segs - 1).
      { intros Q. apply H. apply (adv_full k segs Hk Hs) in A, Q; try assumption. congruence. }
      lia.
    - (* PS -> PH *) intros Eh. apply (Hme3 Eh).
    - (* PS -> PS *) intros Eh. destruct (Hme3 Eh) as [A B]. split; [exact A|apply scan_null; assumption].
    - (* PS -> PHC *) intros Eh. destruct (Hme3 Eh) as [A B]. split; [exact A|]. destruct Hme as (_ & [Hwh _] & _).
      apply (scan_segfree s (sidx (fst hd)) _ (i + 1) H0); [apply scan_null; assumption|].
      intros j Hj. apply (sidx_cover k segs Hk Hs); [exact Hwh|]. rewrite Hj, <- Eh. reflexivity.
    - (* C3 -> C4 *) intros _. lia.
    - (* C4 -> C5 *) destruct Hme as ([Etl Ltl] & _ & [[Ehc Lhc] _] & [[Etc Ltc] _]).
      rewrite Etl, Etc, Ehc in H0, H1. apply (nvr_spec k segs Hk Hs _ _ _ Ltl Ltc Lhc H0 H1).
    - (* DF -> DF *) intros Eh. destruct (Hme3 Eh) as [A B]. split; [exact A|apply scan_null; assumption].
    - (* DF -> D3n *) intros Eh. destruct (Hme3 Eh) as [A B]. split; [exact A|]. destruct Hme as ([Hwh _] & _).
      apply (scan_segfree s (fidx (fst hd) ri) _ (i + 1) H0); [apply scan_null; assumption|].
      intros j Hj. apply (fidx_cover k segs Hk Hs); [exact Hwh|]. rewrite Hj, <- Eh. reflexivity.
    - (* D3 -> DT *) intros <-. unfold sgw. rewrite H0. apply (dist_refl k segs Hk Hs).
    - (* D3n -> DE *) split; [unfold sgw; rewrite H0; reflexivity|]. intros _.
      destruct (Hme3 eq_refl) as [[A B] C]. split; [|exact C].
      destruct B as [B|[B|B]]; [left; exact B|right; left; exact B|right; right].
      replace (sgw tl) with (sgw (head s)) in B by (unfold sgw; rewrite H0; reflexivity).
      rewrite (dist_refl k segs Hk Hs) in B. lia.
    - (* D3n -> DH *) intros _. destruct (Hme3 eq_refl) as [[A B] C]. split; [|exact C].
      right. destruct Hme as (_ & [Hwt _]).
      assert (dist (sgw (head s)) (sgw tl) <> 0) by (intros Q; apply H0; apply (same_seg k segs Hk Hs); assumption).
      lia.
    - (* DE -> DH *) destruct Hme3 as [_ B]. intros Eh. destruct (B Eh) as [[Q|Q] C]; [congruence|]. split; assumption.
  Qed.

  Lemma Inv3_step s a s' es : Inv1 s -> Inv2 s -> Inv3 s -> step s a = Some (s', es) -> Inv3 s'.
  Proof.
    intros (Hh & Ht & Hsl & Hall) Iv H3 Hst.
    destruct (step_inv k segs s a s' es Hst) as (r & p & s1 & p' & res & Ep & -> & Eth & Htr & _).
    pose proof (Hall (tid a)) as Hme. pose proof (H3 (tid a)) as Hme3. pose proof (i_th s Iv (tid a)) as Hme2.
    rewrite Ep in Hme, Hme3, Hme2.
    (* the mover's new clause, and every clause that held still holds *)
    enough (T3 s1 p' /\ forall q, T1 s q -> T3 s q -> T3 s1 q) as [Hself Hoth].
    { intros t'. sim. rewrite Eth. unfold upd. destruct (t' =? tid a)%nat; [exact Hself|apply Hoth; [apply Hall|apply H3]]. }
    destruct Htr as [[-> Hrd]|Hwr]; [split; [apply (T3_rd s p p' res Hh Iv Hme Hme3 Hrd)|auto]|].
    destruct Hwr; cbn [T1 T3] in Hme, Hme3; (split; [cbn [T3]; trivial|intros q]).
    - (* P2 -> PF *) sim3. intros _. lia.
    - (* draw *) auto.
    - (* D2 -> DF *) sim3. intros _. split; [split; [lia|left; reflexivity]|intros m Hm; lia].
    - (* draw *) auto.
    - (* alloc *) auto.
    - (* insertion *) apply (T3_stable_slots s); [reflexivity|reflexivity|].
      intros j0 _ _ Hn. unfold nocommit in *. sim. unfold setf. destruct (N.eqb_spec j0 j); [cbn [fst]; apply Hme2|exact Hn].
    - (* take-back *) apply (T3_stable_slots s); [reflexivity|reflexivity|].
      intros j0 _ _ Hn. unfold nocommit in *. sim. unfold setf. destruct (N.eqb_spec j0 j); [cbn [fst]; apply (zero_notin s Iv)|exact Hn].
    - (* take *) apply (T3_stable_slots s); [reflexivity|reflexivity|].
      intros j0 _ _ Hn. unfold nocommit in *. sim. unfold setf. rewrite commit_in.
      destruct Hme as (_ & _ & Hp & _).
      destruct (N.eqb_spec j0 j) as [->|Hne0]; cbn [fst].
      + intros [Q|Q]; [apply (zero_notin s Iv Q)|congruence].
      + intros [Q|Q]; [contradiction|]. apply Hne0. apply (i_uniq s Iv); [rewrite H; exact Q|rewrite Q; exact Hp].
    - (* PHC success, the mover: PT *) subst hd. sim3. intros _. destruct (Hme3 eq_refl) as [A _].
      pose proof (wfw_lt _ Hh) as X3. pose proof (wfw_lt _ Ht) as X1.
      destruct (N.eq_dec segs 1) as [S1|S1]; [left; exact S1|right].
      change (sg (fst (adv k segs (head s)))) with (sgw (adv k segs (head s))). rewrite hs_adv by exact Hh. unfold hs.
      rewrite (dist_pred k segs Hk Hs _ _ X3 X1) by lia. lia.
    - (* PHC success *) subst hd. destruct (Hme3 eq_refl) as [A _].
      apply (T3_stable_head s); [unfold adv; sim; lia|reflexivity|exact Hh|exact Ht|].
      right. split; [apply hs_adv; exact Hh|]. unfold hsafe. destruct (N.eq_dec segs 1); [left; assumption|right; lia].
    - (* DH success *) subst hd. destruct (Hme3 eq_refl) as [A _].
      apply (T3_stable_head s); [unfold adv; sim; lia|reflexivity|exact Hh|exact Ht|].
      right. split; [apply hs_adv; exact Hh|exact A].
    - (* PT success *) subst tl.
      apply (T3_stable_tail s); [reflexivity|unfold adv; sim; lia|reflexivity|reflexivity|exact Hh|exact Ht|apply ts_adv; exact Ht|apply Hme3; reflexivity].
    - (* DT success *) subst tl.
      apply (T3_stable_tail s); [reflexivity|unfold adv; sim; lia|reflexivity|reflexivity|exact Hh|exact Ht|apply ts_adv; exact Ht|].
      specialize (Hme3 eq_refl). unfold tsafe. destruct (N.eq_dec segs 1); [left; assumption|right; lia].
    - (* C1 gone *) auto.
    - (* C6 gone *) auto.
    - (* C4 commit *) apply (T3_stable_slots s); [reflexivity|reflexivity|].
      intros j0 Hj0 Hsg Hn. unfold nocommit in *. sim. rewrite commit_in. intros [Q|Q]; [contradiction|].
      unfold T2, T2' in Hme2. cbn [cinfo] in Hme2. destruct Hme2 as [[A B]|[A _]]; [|rewrite Q in Hn; contradiction].
      pose proof (i_own_lt s Iv (tid a) b ltac:(rewrite Ep; reflexivity)) as Hb2.
      assert (j0 = j) by (apply (i_uniq s Iv); [rewrite A; exact Q|rewrite Q; lia]). subst j0.
      destruct Hme as ([Etl Ltl] & [_ Sj] & [[Ehc Lhc] _] & [[Etc Ltc] _]).
      rewrite Etl, Etc, Ehc in H0.
      destruct (ivr_spec k segs Hk Hs _ _ _ Ltl Ltc Lhc H0) as [X _].
      unfold hs, sgw in Hsg. rewrite H in Hsg. rewrite Sj in Hsg. rewrite Hsg, (dist_refl k segs Hk Hs) in X. lia.
    - (* C5 success *) subst hc.
      apply (T3_stable_head s); [unfold bump; sim; lia|reflexivity|exact Hh|exact Ht|].
      left. reflexivity.
  Qed.

  Lemma Inv3_init : Inv3 init.
  Proof. intros t. exact I. Qed.
End L3.
