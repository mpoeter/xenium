(** The invariant of the lock-free reference counting model (Model/LfrcDefs.v) holds in every reachable state, and the
    theorems that follow from it: reference-count accounting, C01 (no object is destroyed and no node handed out again
    while a validated guard refers to it, no dereference of a destroyed object), C02 (exactly-once destruction per
    incarnation, at most one push / pop per incarnation, the free list is a duplicate free chain, no ABA in pop),
    nothing leaks at quiescence.  Examples by computation, including the recycled-node race.  No axioms. *)
From Coq Require Import NArith List Bool Arith Lia PeanoNat.
From XV Require Import Conc.Lts Conc.Ev Model.LfrcDefs Proof.LfrcBase Proof.LfrcStep Proof.LfrcRefs Proof.LfrcNodes Proof.LfrcOwn Proof.LfrcFree.
Import ListNotations.

Lemma Inv_step ns s a s' es : Inv ns s -> step ns s a = Some (s', es) -> Inv ns s'.
Proof.
  intros HI H. constructor.
  - intros u. destruct (Nat.eq_dec u (actor a)) as [->|Hut]; [exact (tsh_step _ _ _ _ _ H (I_sh _ _ HI _))|].
    destruct (step_frame _ _ _ _ _ H u Hut) as [-> ->]. apply (I_sh _ _ HI).
  - eapply P_refs_step; eauto.
  - eapply P_alloc_step; eauto.
  - eapply P_new_step; eauto.
  - eapply P_held_step; eauto.
  - eapply P_cell_step; eauto.
  - eapply P_guard_step; eauto.
  - eapply P_popg_step; eauto.
  - eapply P_own_step; eauto.
  - eapply P_ownr_step; eauto.
  - eapply P_alive_step; eauto.
  - eapply P_cnt_step; eauto.
  - eapply P_fl_step; eauto.
  - eapply P_uaf_step; eauto.
Qed.

Lemma Inv_init ns nc : Inv ns (init nc).
Proof.
  constructor; cbn [init cells fhead rc dst nxt nalloc nextid nid th tl g_ns g_inc g_nd g_npush g_npop g_alive g_refs g_fl g_uaf].
  - intros t. apply tsh_init.
  - intros n. destruct (Nat.ltb_spec n nc) as [Hlt|Hge].
    + split; [repeat constructor; intros []|]. split; [|reflexivity].
      intros r. destruct r as [c|u g|u]; cbn [holds init cells th tl tl0 gd gnode owned In].
      * destruct (Nat.ltb_spec c nc); split; intros X.
        -- destruct X as [X|[]]. injection X as <-. reflexivity.
        -- injection X as <-. left. reflexivity.
        -- destruct X as [X|[]]. injection X as <-. lia.
        -- discriminate.
      * split; [intros [X|[]]; discriminate | discriminate].
      * split; [intros [X|[]]; discriminate | discriminate].
    + split; [constructor|]. split; [|reflexivity].
      intros r. destruct r as [c|u g|u]; cbn [holds init cells th tl tl0 gd gnode owned In]; (split; [intros []|]); try discriminate.
      destruct (Nat.ltb_spec c nc); intros X; [injection X as ->; lia | discriminate].
  - intros n. destruct (Nat.ltb_spec n nc); split; intros; try lia; try discriminate; reflexivity.
  - intros n. destruct (Nat.ltb_spec n nc); cbn [is_new]; [intros []|reflexivity].
  - intros n. destruct (Nat.ltb_spec n nc); cbn [has_ref]; [discriminate|intros []].
  - intros c n. destruct (Nat.ltb_spec c nc); intros X; [injection X as <-|discriminate].
    destruct (Nat.ltb_spec c nc); [reflexivity|lia].
  - intros t g n X. discriminate X.
  - intros t g n X. discriminate X.
  - intros t. exact I.
  - intros n. destruct (n <? nc); exact I.
  - intros n. destruct (n <? nc); cbn [alive_ok]; auto.
  - intros n. destruct (n <? nc); cbn [b2n live4 isfree]; auto.
  - split; [constructor|]. split; [|split; [reflexivity|exact I]].
    intros n. destruct (n <? nc); (split; [intros []|discriminate]).
  - reflexivity.
Qed.

Theorem inv_reach ns nc st : reach (init nc) (step ns) st -> Inv ns st.
Proof. apply inv_rule; [apply Inv_init|apply Inv_step]. Qed.

(** * Single steps *)
(** what a step does to the ghost counters and the life cycle of a node *)
Lemma destroy_step ns s t s' es n : Inv ns s -> step ns s (Step t) = Some (s', es) -> g_nd s' n <> g_nd s n ->
  g_nd s' n = S (g_nd s n) /\ g_alive s n = true /\ g_alive s' n = false /\ g_inc s' n = g_inc s n /\
  ((exists k, th s t = D4 n k /\ g_ns s n = NClaimed t) \/ (th s t = X1 n /\ g_ns s n = NFresh t)).
Proof.
  intros HI H. leaves HI H t.
  all: prep; prj; try congruence.
  all: intros Hne; upd_split; subst; try congruence.
  - repeat split; try assumption. left. eauto.
  - match goal with Ho : g_ns _ ?m = NFresh _ |- _ => pose proof (I_alive _ _ HI m) as IA; rewrite Ho in IA end.
    cbn in IA. destruct IA as [Ha _].
    repeat split; try assumption. right. split; [reflexivity|assumption].
Qed.

Lemma construct_step ns s t s' es n : Inv ns s -> step ns s (Step t) = Some (s', es) -> g_inc s' n <> g_inc s n ->
  g_inc s' n = S (g_inc s n) /\ g_ns s n = NCons t /\ g_ns s' n = NFresh t /\ g_alive s n = false /\ g_alive s' n = true /\
  exists c i, th s t = N3 c n i.
Proof.
  intros HI H. leaves HI H t.
  all: prep; prj; try congruence.
  all: intros Hne; upd_split; subst; try congruence.
  match goal with Ho : g_ns _ ?m = NCons _ |- _ => pose proof (I_alive _ _ HI m) as IA; rewrite Ho in IA end.
  cbn in IA. repeat split; try assumption. eauto.
Qed.

(** the count moves to zero: the claimer's reference was the only one *)
Lemma claim_step ns s t s' es n u : Inv ns s -> step ns s (Step t) = Some (s', es) ->
  g_ns s' n = NClaimed u -> g_ns s n <> NClaimed u ->
  u = t /\ exists w k, th s t = D2 w n 2 k /\ rc s n = 2 /\ rc s' n = 1 /\ g_refs s n = [who_ref t w] /\ g_refs s' n = [].
Proof.
  intros HI H. cases HI H t.
  all: prj; try congruence.
  all: intros Hc Hn; upd_split; subst; try congruence; try discriminate.
  all: assert (Hut : u = t) by congruence; subst u; split; [reflexivity|].
  all: match goal with Hf : g_refs _ _ = _ /\ _ |- _ => destruct Hf as (Hr & _) end.
  all: rewrite Hr; match goal with E0 : rc _ _ = 2 |- _ => rewrite E0 end.
  all: do 2 eexists; (split; [reflexivity|]); repeat split; cbn [filter who_ref ref_eqb negb]; rewrite ?Nat.eqb_refl; reflexivity.
Qed.

Lemma push_step ns s t s' es n : Inv ns s -> step ns s (Step t) = Some (s', es) -> g_npush s' n <> g_npush s n ->
  g_npush s' n = S (g_npush s n) /\ g_ns s n = NClaimed t /\ g_ns s' n = NFree /\ g_alive s n = false /\
  ~ In n (g_fl s) /\ g_fl s' = n :: g_fl s /\ fhead s' = Some n /\ nxt s n = fhead s /\ exists h k, th s t = U3 n h k.
Proof.
  intros HI H. leaves HI H t.
  all: prep; prj; try congruence.
  all: intros Hne; upd_split; subst; try congruence.
  all: repeat split; try assumption; try reflexivity; eauto.
  all: try solve [intros X; apply (I_fl _ _ HI) in X; congruence].
  exfalso. assert (X : g_ns s (nalloc s) = NNone) by (apply (I_alloc _ _ HI); lia). congruence.
Qed.

(** pop: the new head is the popped node's successor in the list (no ABA) *)
Lemma pop_step ns s t s' es n : Inv ns s -> step ns s (Step t) = Some (s', es) -> g_npop s' n <> g_npop s n ->
  g_npop s' n = S (g_npop s n) /\ g_ns s n = NFree /\ g_ns s' n = NPop t /\
  g_fl s = n :: g_fl s' /\ fhead s = Some n /\ fhead s' = hd_opt (g_fl s') /\ exists c g nx, th s t = P5 c g n nx.
Proof.
  intros HI H. pose proof (P_fl_step _ _ _ _ _ HI H) as (_ & _ & Hh' & _). revert Hh'. leaves HI H t.
  all: prep; prj; try congruence.
  all: intros Hh' Hne; upd_split; subst; try congruence.
  pose proof (fhead_free _ _ _ HI Eread) as Hf. destruct (I_fl _ _ HI) as (_ & _ & Hh & _).
  rewrite Eread in Hh. destruct (g_fl s) as [|a l]; cbn in Hh; [discriminate|]. injection Hh as <-.
  repeat split; try assumption; try reflexivity; eauto.
Qed.

Section Theorems.
Variables (ns nc : nat).
Notation reachable := (reach (init nc) (step ns)).

(** * Reference-count accounting *)
Definition to_free_list (s : nstate) : Prop := match s with NClaimed _ | NFree | NPop _ => True | _ => False end.

Lemma odd_2k_c k c : c <= 1 -> Nat.odd (2 * k + c) = (c =? 1).
Proof.
  intros Hc. assert (c = 0 \/ c = 1) as [-> | ->] by lia.
  - rewrite Nat.add_0_r. rewrite Nat.odd_mul. reflexivity.
  - rewrite Nat.add_1_r. rewrite Nat.odd_succ. rewrite Nat.even_mul. reflexivity.
Qed.
Lemma div2_2k_c k c : c <= 1 -> Nat.div2 (2 * k + c) = k.
Proof.
  intros Hc. assert (c = 0 \/ c = 1) as [-> | ->] by lia.
  - rewrite Nat.add_0_r. apply Nat.div2_double.
  - rewrite Nat.add_1_r. apply Nat.div2_succ_double.
Qed.

(** For every node: the ghost list [g_refs] has no duplicates and lists exactly the counted references that exist - a
    cell pointing to the node, a guard of a thread that holds it (validated [GV], or between its fetch_add and its
    re-check / during its release [GU]; the guards nslots+1, nslots+2 are the temporary guards of free_list::pop), the
    owner (the thread holding the reference a new object starts with) -; ref_count = 2 * their number + claim bit, i.e.
    ref_count / RefCountInc = number of references held.  The free list itself holds NO counted reference on its nodes
    (a node on the free list with no popper looking at it has ref_count = 1 = the claim bit).  The claim bit is set iff
    the node is claimed (on its way to the free list), on the free list, or just popped (the popper clears it next). *)
Theorem lfrc_refcount st : reachable st -> forall n,
  NoDup (g_refs st n) /\ (forall r, In r (g_refs st n) <-> holds st r n) /\
  rc st n = 2 * length (g_refs st n) + cbit (g_ns st n) /\
  Nat.div2 (rc st n) = length (g_refs st n) /\
  (Nat.odd (rc st n) = true <-> to_free_list (g_ns st n)).
Proof.
  intros Hr n. pose proof (inv_reach _ _ _ Hr) as HI. destruct (I_refs _ _ HI n) as (ND & IN & RC).
  pose proof (cbit_01 (g_ns st n)) as Hc.
  split; [exact ND|]. split; [exact IN|]. split; [exact RC|]. rewrite RC. split.
  - apply div2_2k_c. lia.
  - rewrite odd_2k_c by lia. destruct (g_ns st n); cbn; split; intros; try discriminate; try contradiction; auto.
Qed.

(** the subtractions of the code never underflow: a decrement finds the count >= 2, reclaim's fetch_sub finds >= 4
    ("ref_count cannot drop to zero here"), pop's fetch_sub finds the claim bit set *)
Theorem lfrc_no_underflow st : reachable st -> forall t,
  match th st t with
  | D1 _ n _ | D2 _ n _ _ => 2 <= rc st n
  | R2 o => 4 <= rc st o
  | P6 _ _ p => Nat.odd (rc st p) = true /\ 3 <= rc st p
  | _ => True
  end.
Proof.
  intros Hr t. pose proof (inv_reach _ _ _ Hr) as HI.
  pose proof (I_sh _ _ HI t) as (Hs & _ & _). pose proof (I_own _ _ HI t) as Ho.
  destruct (th st t) eqn:E; try exact I; cbn [tshape own_ok] in Hs, Ho.
  - destruct (I_refs _ _ HI n) as (ND & IN & RC).
    assert (X : holds st (who_ref t w) n) by (destruct w; cbn [who_ref holds]; [tauto | rewrite E; reflexivity]).
    apply IN in X. destruct (g_refs st n); [destruct X|]. cbn [length] in RC. lia.
  - destruct (I_refs _ _ HI n) as (ND & IN & RC).
    assert (X : holds st (who_ref t w) n) by (destruct w; cbn [who_ref holds]; [tauto | rewrite E; reflexivity]).
    apply IN in X. destruct (g_refs st n); [destruct X|]. cbn [length] in RC. lia.
  - destruct (I_refs _ _ HI p) as (ND & IN & RC). destruct Hs as (_ & Hgv & _).
    assert (X : holds st (RG t g) p) by (cbn; rewrite Hgv; reflexivity).
    apply IN in X. rewrite Ho in RC. cbn [cbit] in RC. rewrite RC. split; [apply (odd_2k_c _ 1); lia|].
    destruct (g_refs st p); [destruct X|]. cbn [length]. lia.
  - destruct (I_refs _ _ HI o) as (ND & IN & RC).
    assert (X1 : In (RG t ns) (g_refs st o)) by (apply IN; cbn; rewrite Hs; reflexivity).
    assert (X2 : In (ROwn t) (g_refs st o)) by (apply IN; cbn; rewrite E; reflexivity).
    destruct (g_refs st o) as [|a [|b l]]; cbn [length] in RC; [destruct X1| |lia].
    destruct X1 as [Ha|[]]. destruct X2 as [Hb|[]]. congruence.
Qed.

(** * C01 *)
(** While a validated guard of the client (a persistent guard, or the temporary guard of repl / clear / read) refers to
    node n: n is published (or already unlinked) - not claimed, not on the free list, not handed out again -, its object
    is alive, the claim bit is clear, the count is at least 2.  No dereference ever hit a destroyed object. *)
Theorem lfrc_safe st : reachable st ->
  (forall t g n, gd (tl st t) g = GV n -> g <= ns ->
     g_ns st n = NPub /\ g_alive st n = true /\ dst st n = false /\ Nat.odd (rc st n) = false /\ 2 <= rc st n /\
     ~ In n (g_fl st) /\ In (RG t g) (g_refs st n)) /\
  g_uaf st = false.
Proof.
  intros Hr. pose proof (inv_reach _ _ _ Hr) as HI. split; [|exact (I_uaf _ _ HI)].
  intros t g n Hg Hle. pose proof (I_guard _ _ HI _ _ _ Hg Hle) as Hp.
  pose proof (I_alive _ _ HI n) as IA. rewrite Hp in IA. cbn in IA. destruct IA as [Ha Hd].
  destruct (I_refs _ _ HI n) as (ND & IN & RC). rewrite Hp in RC. cbn [cbit] in RC.
  assert (X : In (RG t g) (g_refs st n)) by (apply IN; cbn; rewrite Hg; reflexivity).
  repeat split; try assumption.
  - rewrite RC. rewrite odd_2k_c by lia. reflexivity.
  - destruct (g_refs st n); [destruct X|]. cbn [length] in RC. lia.
  - intros Hin. apply (I_fl _ _ HI) in Hin. congruence.
Qed.

(** the cells give the same guarantee: what a cell points to is a published node with a live object *)
Theorem lfrc_cell_safe st : reachable st -> forall c n, cells st c = Some n ->
  g_ns st n = NPub /\ g_alive st n = true /\ Nat.odd (rc st n) = false /\ ~ In n (g_fl st).
Proof.
  intros Hr c n Hc. pose proof (inv_reach _ _ _ Hr) as HI. pose proof (I_cell _ _ HI _ _ Hc) as Hp.
  pose proof (I_alive _ _ HI n) as IA. rewrite Hp in IA. cbn in IA. destruct IA as [Ha Hd].
  destruct (I_refs _ _ HI n) as (ND & IN & RC). rewrite Hp in RC. cbn [cbit] in RC.
  repeat split; try assumption.
  - rewrite RC. rewrite odd_2k_c by lia. reflexivity.
  - intros Hin. apply (I_fl _ _ HI) in Hin. congruence.
Qed.

(** * C02 *)
(** Counters, per node: [g_inc] constructor runs (the incarnation number), [g_nd] destructor runs, [g_npush] pushes to
    and [g_npop] pops from the free list.  In every reachable state: destructor runs = incarnations - (1 if the current
    object is alive): every incarnation's object is destroyed exactly once, the current one not yet / once; pushes =
    incarnations - (1 if the current incarnation is constructed and not yet pushed); pops = pushes - (1 if on the free
    list): a node is pushed at most once per incarnation and a pushed node is popped at most once.  The life cycle state
    determines alive / the destroyed flag; a state that names a thread (heap-new, popped, being constructed, claimed) has
    that thread at the matching program point - so a node is popped by at most one allocator and claimed (destroyed,
    pushed) by at most one thread at a time.  The free list is duplicate free and acyclic: [g_fl] has no duplicates,
    contains exactly the nodes in state "free", starts at the head pointer and is linked by next_free, ending in null. *)
Theorem lfrc_exactly_once st : reachable st ->
  (forall n, g_nd st n + b2n (g_alive st n) = g_inc st n /\
             g_npush st n + live4 (g_ns st n) = g_inc st n /\
             g_npop st n + live4 (g_ns st n) + isfree (g_ns st n) = g_inc st n) /\
  (forall n, g_nd st n <= g_inc st n <= S (g_nd st n) /\ g_npush st n <= g_inc st n /\ g_npop st n <= g_npush st n <= S (g_npop st n)) /\
  (forall n, alive_ok (g_ns st n) (g_alive st n) (dst st n)) /\
  (forall n, ownr_ok st n (g_ns st n)) /\
  NoDup (g_fl st) /\ (forall n, In n (g_fl st) <-> g_ns st n = NFree) /\ fhead st = hd_opt (g_fl st) /\ chain (nxt st) (g_fl st).
Proof.
  intros Hr. pose proof (inv_reach _ _ _ Hr) as HI.
  split; [exact (I_cnt _ _ HI)|]. split.
  - intros n. destruct (I_cnt _ _ HI n) as (H1 & H2 & H3).
    destruct (g_alive st n); destruct (g_ns st n); cbn [b2n live4 isfree] in *; lia.
  - split; [exact (I_alive _ _ HI)|]. split; [exact (I_ownr _ _ HI)|]. exact (I_fl _ _ HI).
Qed.

(** every destructor run of the trace: by the thread that claimed the node (moved its count to zero and set the claim
    bit) - or by the creator of a node that was never published (delete after a lost CAS) -, on an alive object,
    exactly one run, while no cell and no validated client guard refers to the node *)
Theorem lfrc_destroy_event st a st' es n : reachable st -> step ns st a = Some (st', es) -> g_nd st' n <> g_nd st n ->
  exists t, a = Step t /\ g_nd st' n = S (g_nd st n) /\ g_inc st' n = g_inc st n /\
    g_alive st n = true /\ g_alive st' n = false /\
    (forall c, cells st c <> Some n) /\ (forall u g, g <= ns -> gd (tl st u) g <> GV n) /\
    ((exists k, th st t = D4 n k /\ g_ns st n = NClaimed t) \/ (th st t = X1 n /\ g_ns st n = NFresh t)).
Proof.
  intros Hr H Hne. pose proof (inv_reach _ _ _ Hr) as HI. destruct a as [t o|t].
  - exfalso. destruct (start_eq _ _ _ _ _ _ H) as (p & -> & _). apply Hne. reflexivity.
  - exists t. destruct (destroy_step _ _ _ _ _ _ HI H Hne) as (H1 & H2 & H3 & H4 & H5).
    assert (Hnp : g_ns st n <> NPub) by (destruct H5 as [(k & _ & X)|[_ X]]; rewrite X; discriminate).
    repeat split; try assumption.
    + intros c Hc. apply Hnp. exact (I_cell _ _ HI _ _ Hc).
    + intros u g Hg Hc. apply Hnp. exact (I_guard _ _ HI _ _ _ Hc Hg).
Qed.

(** a node becomes "claimed by u" only through u's own decrement from 2 to the claim bit; at that moment u's reference
    was the only reference (never while other references exist) *)
Theorem lfrc_claim_event st a st' es n u : reachable st -> step ns st a = Some (st', es) ->
  g_ns st' n = NClaimed u -> g_ns st n <> NClaimed u ->
  a = Step u /\ exists w k, th st u = D2 w n 2 k /\ rc st n = 2 /\ rc st' n = 1 /\ g_refs st n = [who_ref u w] /\ g_refs st' n = [].
Proof.
  intros Hr H Hc Hn. pose proof (inv_reach _ _ _ Hr) as HI. destruct a as [t o|t].
  - exfalso. destruct (start_eq _ _ _ _ _ _ H) as (p & -> & _). apply Hn. exact Hc.
  - destruct (claim_step _ _ _ _ _ _ _ HI H Hc Hn) as (-> & X). split; [reflexivity|exact X].
Qed.

(** every push: by the claimer, after the destructor, of a node that is not on the list *)
Theorem lfrc_push_event st a st' es n : reachable st -> step ns st a = Some (st', es) -> g_npush st' n <> g_npush st n ->
  exists t, a = Step t /\ g_npush st' n = S (g_npush st n) /\ g_ns st n = NClaimed t /\ g_ns st' n = NFree /\
    g_alive st n = false /\ ~ In n (g_fl st) /\ g_fl st' = n :: g_fl st.
Proof.
  intros Hr H Hne. pose proof (inv_reach _ _ _ Hr) as HI. destruct a as [t o|t].
  - exfalso. destruct (start_eq _ _ _ _ _ _ H) as (p & -> & _). apply Hne. reflexivity.
  - exists t. destruct (push_step _ _ _ _ _ _ HI H Hne) as (H1 & H2 & H3 & H4 & H5 & H6 & _). repeat split; assumption.
Qed.

(** every pop: of the first node of the list, the rest of the list becomes the list (the value the popper read from
    next_free earlier IS the current successor) *)
Theorem lfrc_pop_event st a st' es n : reachable st -> step ns st a = Some (st', es) -> g_npop st' n <> g_npop st n ->
  exists t, a = Step t /\ g_npop st' n = S (g_npop st n) /\ g_ns st n = NFree /\ g_ns st' n = NPop t /\
    g_fl st = n :: g_fl st' /\ fhead st' = hd_opt (g_fl st').
Proof.
  intros Hr H Hne. pose proof (inv_reach _ _ _ Hr) as HI. destruct a as [t o|t].
  - exfalso. destruct (start_eq _ _ _ _ _ _ H) as (p & -> & _). apply Hne. reflexivity.
  - exists t. destruct (pop_step _ _ _ _ _ _ HI H Hne) as (H1 & H2 & H3 & H4 & H5 & H6 & _). repeat split; assumption.
Qed.

(** No ABA on the free list.  A popper t that has validated its guard on the head p and read p's next_free (program
    points P4 / P5) holds a counted reference on p.  Hence p cannot be claimed (a claim needs the claimer's reference
    to be the only one), hence p cannot be pushed (again), hence - next_free of a node is written only by its claimer
    before the push and by its popper after the pop - as long as p is on the free list its next_free is the value nx
    that t read: if t's CAS finds head = p, then p is the first node of the list and nx is the rest's head. *)
Theorem lfrc_pop_no_aba st t c g p nx : reachable st -> th st t = P5 c g p nx ->
  In (RG t g) (g_refs st p) /\ ~ bad_q (g_ns st p) /\ (g_ns st p = NFree -> nxt st p = nx) /\
  (fhead st = Some p -> exists rest, g_fl st = p :: rest /\ nx = hd_opt rest).
Proof.
  intros Hr E. pose proof (inv_reach _ _ _ Hr) as HI.
  pose proof (I_sh _ _ HI t) as (Hs & _ & _). pose proof (I_own _ _ HI t) as Ho. rewrite E in Hs, Ho. cbn in Hs, Ho.
  destruct Hs as (Hpg & Hgv & _). destruct (other_popg _ _ Hpg) as (_ & _ & _ & Hlt).
  split; [apply (I_refs _ _ HI); cbn; rewrite Hgv; reflexivity|].
  split; [exact (I_popg _ _ HI _ _ _ Hgv Hlt)|]. split; [exact Ho|].
  intros Hh. pose proof (fhead_free _ _ _ HI Hh) as Hf. destruct (I_fl _ _ HI) as (_ & _ & Hhd & Hch).
  rewrite Hh in Hhd. destruct (g_fl st) as [|a rest]; cbn in Hhd; [discriminate|]. injection Hhd as <-.
  exists rest. split; [reflexivity|]. cbn in Hch. destruct Hch as [Hn _]. rewrite <- (Ho Hf). exact Hn.
Qed.

(** a node a validated client guard refers to after a step was neither reconstructed nor destroyed by that step: the
    guarded incarnation is stable *)
Theorem lfrc_guard_stable st a st' es t g n : reachable st -> step ns st a = Some (st', es) ->
  gd (tl st' t) g = GV n -> g <= ns -> g_inc st' n = g_inc st n /\ g_nd st' n = g_nd st n.
Proof.
  intros Hr H Hg Hle. pose proof (inv_reach _ _ _ Hr) as HI.
  assert (Hr' : reachable st') by (eapply reach_step; eauto).
  destruct (lfrc_safe _ Hr') as (Hs & _). destruct (Hs _ _ _ Hg Hle) as (Hp & Ha & _).
  destruct a as [u o|u].
  - destruct (start_eq _ _ _ _ _ _ H) as (p & -> & _). split; reflexivity.
  - split.
    + destruct (Nat.eq_dec (g_inc st' n) (g_inc st n)) as [X|X]; [exact X|].
      destruct (construct_step _ _ _ _ _ _ HI H X) as (_ & _ & Y & _). congruence.
    + destruct (Nat.eq_dec (g_nd st' n) (g_nd st n)) as [X|X]; [exact X|].
      destruct (destroy_step _ _ _ _ _ _ HI H X) as (_ & _ & Y & _). congruence.
Qed.

(** * Nothing leaks *)
(** When all threads are between operations (or have exited): every allocated node is on the free list, or a cell
    points to it, or a guard holds it - no node is lost, whatever the history.  No flush is needed for LFRC: a node
    goes to the free list in the very operation that drops its last reference. *)
Theorem lfrc_no_lost_node st : reachable st -> (forall t, th st t = Idle \/ th st t = Done) ->
  forall n, n < nalloc st ->
    (In n (g_fl st) /\ rc st n = 1 /\ g_refs st n = [] /\ g_alive st n = false /\ g_nd st n = g_inc st n /\ g_npush st n = g_inc st n) \/
    ((g_ns st n = NPub /\ g_alive st n = true /\ exists c, cells st c = Some n) \/ (exists t g, gnode (gd (tl st t) g) = Some n)).
Proof.
  intros Hr Hq n Hn. pose proof (inv_reach _ _ _ Hr) as HI.
  assert (Hidle : forall t m, owned (th st t) <> Some m) by (intros t m; destruct (Hq t) as [-> | ->]; discriminate).
  assert (Hpc : forall t p, th st t = p -> p = Idle \/ p = Done) by (intros t p <-; apply Hq).
  pose proof (I_ownr _ _ HI n) as Ro. destruct (I_refs _ _ HI n) as (ND & IN & RC).
  destruct (I_cnt _ _ HI n) as (C1 & C2 & C3). pose proof (I_alive _ _ HI n) as IA.
  destruct (g_refs st n) as [|r l] eqn:Er.
  - (* no reference: the node is on the free list *)
    left. destruct (g_ns st n) eqn:En; cbn in Ro.
    + exfalso. assert (nalloc st <= n) by (apply (I_alloc _ _ HI); exact En). lia.
    + destruct Ro as (c & X). destruct (Hpc _ _ X); discriminate.
    + destruct Ro as [(c & g & X)|(c & i & X)]; destruct (Hpc _ _ X); discriminate.
    + exfalso. apply (I_held _ _ HI n); [rewrite En; exact I|exact Er].
    + exfalso. apply (I_held _ _ HI n); [rewrite En; exact I|exact Er].
    + exfalso. apply (I_held _ _ HI n); [rewrite En; exact I|exact Er].
    + destruct Ro as [(k & X)|[(k & X)|[(k & X)|[(h & k & X)|(h & k & X)]]]]; destruct (Hpc _ _ X); discriminate.
    + cbn in IA, RC, C1, C2, C3. rewrite IA in C1. cbn in C1.
      repeat split; try assumption; try lia. apply (I_fl _ _ HI). exact En.
    + destruct Ro as (c & g & X). destruct (Hpc _ _ X); discriminate.
  - right. assert (Hh : holds st r n) by (apply IN; left; reflexivity).
    destruct r as [c|t g|t]; cbn in Hh.
    + left. pose proof (I_cell _ _ HI _ _ Hh) as Hp. rewrite Hp in IA. cbn in IA. repeat split; try tauto. eauto.
    + right. eauto.
    + exfalso. exact (Hidle _ _ Hh).
Qed.

(** in particular: when moreover all guards are dropped and all cells cleared, every node ever allocated is on the free
    list, with ref_count = claim bit, its object destroyed exactly once per incarnation *)
Theorem lfrc_no_leak_at_quiescence st : reachable st -> (forall t, th st t = Idle \/ th st t = Done) ->
  (forall t g, gd (tl st t) g = GE) -> (forall c, cells st c = None) ->
  forall n, n < nalloc st ->
    In n (g_fl st) /\ rc st n = 1 /\ g_refs st n = [] /\ g_alive st n = false /\ g_nd st n = g_inc st n /\ g_npush st n = g_inc st n.
Proof.
  intros Hr Hq Hg Hc n Hn. destruct (lfrc_no_lost_node _ Hr Hq n Hn) as [X|[(_ & _ & c & X)|(t & g & X)]]; [exact X| |].
  - rewrite Hc in X. discriminate.
  - rewrite Hg in X. discriminate.
Qed.
End Theorems.

(** * Examples (by computation) *)
Definition steps (t k : nat) : list action := repeat (Step t) k.
Definition op1 (t : nat) (o : op) (k : nat) : list action := Start t o :: steps t k.

(** The recycled-node race (2 cells, 1 guard slot).  Thread 1 starts [read 0] and loads cell0 = node 0.  Thread 2
    replaces cell0 (node 0 is unlinked, its count drops to zero, it is claimed, destroyed, pushed to the free list) and
    then replaces cell1: operator new pops node 0, its second incarnation is published in cell1.  Now thread 1's
    fetch_add lands on the recycled node ... *)
Definition race1 : list action := [Start 1 (ORead 0)] ++ steps 1 2 ++ op1 2 (ORepl 0) 16 ++ op1 2 (ORepl 1) 21.
Definition view (acts : list action) :=
  let '(s, tr, sk) := run (step 1) (init 2) acts in
  (sk, th s 1, gd (tl s 1) 1, (g_inc s 0, g_nd s 0, g_ns s 0, rc s 0), (cells s 0, cells s 1, g_fl s), g_uaf s).
Example ex_race_before : view race1 = (0, A2 (KRead 0) 0, GE, (2, 1, NPub, 2), (Some 2, Some 0, [1]), false).
Proof. vm_compute. reflexivity. Qed.
(** ... the count of the live second incarnation goes from 2 to 4, the guard is counted but not validated ... *)
Example ex_race_inc : view (race1 ++ steps 1 1) = (0, A3 (KRead 0) 0, GU 0, (2, 1, NPub, 4), (Some 2, Some 0, [1]), false).
Proof. vm_compute. reflexivity. Qed.
(** ... the re-check fails (cell0 = node 2), the reference is released again ... *)
Example ex_race_recheck : view (race1 ++ steps 1 2) = (0, D1 (WG 1) 0 (RAcq (KRead 0)), GU 0, (2, 1, NPub, 4), (Some 2, Some 0, [1]), false).
Proof. vm_compute. reflexivity. Qed.
(** ... and the retry reads node 2 (object id 3).  Thread 1's accesses and result: *)
Example ex_race_trace :
  (let '(s, tr, sk) := run (step 1) (init 2) (race1 ++ steps 1 9) in
   (sk, th s 1, filter (fun e => match e with ELoad 1 _ _ _ | ERmw 1 _ _ _ _ | ERet 1 _ => true | _ => false end) tr)) =
  (0, Idle,
   [ELoad 1 (L_cell 0) mo_acq (vptr (Some 0)); ERmw 1 (L_rc 0) mo_acq (vnat 2) (vnat 4); ELoad 1 (L_cell 0) mo_acq (vptr (Some 2));
    ELoad 1 (L_rc 0) mo_rlx (vnat 4); ERmw 1 (L_rc 0) mo_rel (vnat 4) (vnat 2);
    ELoad 1 (L_cell 0) mo_acq (vptr (Some 2)); ERmw 1 (L_rc 2) mo_acq (vnat 2) (vnat 4); ELoad 1 (L_cell 0) mo_acq (vptr (Some 2));
    ELoad 1 (L_rc 2) mo_rlx (vnat 4); ERmw 1 (L_rc 2) mo_rel (vnat 4) (vnat 2); ERet 1 (r_id 3)]).
Proof. vm_compute. reflexivity. Qed.

(** The same race where the stale reference becomes the last one: after thread 1's increment thread 2 clears cell1 (its
    reclaim and reset leave the count at 2 = thread 1's unvalidated reference).  Thread 1's re-check fails, its release
    moves the count to zero: thread 1 - in the middle of a [read] of another cell - claims node 0, runs the destructor
    of the second incarnation (store destroyed = 1) and pushes the node (store next_free, CAS on the head). *)
Definition race2 : list action := race1 ++ steps 1 1 ++ op1 2 (OClear 1) 8.
Example ex_stale_last : view race2 = (0, A3 (KRead 0) 0, GU 0, (2, 1, NPub, 2), (Some 2, None, [1]), false).
Proof. vm_compute. reflexivity. Qed.
Example ex_stale_frees :
  (let '(s, tr, sk) := run (step 1) (init 2) (race2 ++ steps 1 8) in
   (sk, th s 1, (g_inc s 0, g_nd s 0, g_ns s 0, rc s 0), g_fl s, g_uaf s,
    filter (fun e => match e with EStore 1 _ _ _ | ERmw 1 (LNamed _ _) _ _ _ => true | _ => false end) tr)) =
  (0, A1 (KRead 0), (2, 2, NFree, 1), [0; 1], false,
   [EStore 1 (L_dst 0) mo_rlx (vnat 1); EStore 1 (L_nxt 0) mo_rlx (vptr (Some 1)); ERmw 1 L_fhead mo_rel (vptr (Some 1)) (vptr (Some 0))]).
Proof. vm_compute. reflexivity. Qed.

(** Two threads race to drop the last two references (1 cell; threads 1 and 2 hold node 0, thread 3 clears the cell).
    Both load the count 4; thread 1's CAS 4 -> 2 succeeds, thread 2's CAS fails (CASF), it reloads 2 and its CAS 2 -> 1
    (acq_rel) claims the node: exactly one destructor run, by thread 2. *)
Definition drops : list action :=
  op1 1 (OHold 0 0) 4 ++ op1 2 (OHold 0 0) 4 ++ op1 3 (OClear 0) 8 ++
  [Start 1 (ODrop 0); Step 1; Start 2 (ODrop 0); Step 2; Step 1; Step 2; Step 1; Step 2; Step 2; Step 2].
Example ex_drops :
  (let '(s, tr, sk) := run (step 1) (init 1) (drops ++ steps 2 5) in
   (sk, th s 1, th s 2, (g_inc s 0, g_nd s 0, g_ns s 0, rc s 0), g_fl s, g_uaf s,
    filter (fun e => match e with ECasF _ _ _ _ _ _ | EStore _ _ _ _ => true | ERmw t (LHeap _ _) mo _ _ => (t <? 3) && N.leb 3 mo | _ => false end) tr)) =
  (0, Idle, Idle, (1, 1, NFree, 1), [0], false,
   [ERmw 1 (L_rc 0) mo_rel (vnat 4) (vnat 2); ECasF 2 (L_rc 0) mo_rel mo_rlx (vnat 2) (vnat 4);
    ERmw 2 (L_rc 0) mo_acqrel (vnat 2) (vnat 1); EStore 2 (L_dst 0) mo_rlx (vnat 1); EStore 2 (L_nxt 0) mo_rlx (vptr None)]).
Proof. vm_compute. reflexivity. Qed.

(** Contention on the free list (free list = [2; 0]): both allocators validate their guard on the head node 2 and read
    its next_free = node 0; thread 1's CAS pops node 2, thread 2's CAS fails (head is node 0 now) - it keeps its
    reference on node 2 in one guard, acquires node 0 with the other, releases node 2 and pops node 0. *)
Definition popc : list action :=
  op1 1 (ORepl 0) 16 ++ op1 1 (OClear 0) 13 ++ [Start 1 (ORepl 0); Start 2 (ORepl 1)] ++ steps 1 3 ++ steps 2 5 ++
  [Step 1; Step 2; Step 1; Step 2; Step 1; Step 2; Step 1; Step 2].
Example ex_pop_contention :
  (let '(s, tr, sk) := run (step 1) (init 2) popc in
   (sk, th s 1, th s 2, (g_ns s 2, rc s 2), g_fl s, (gd (tl s 2) 2, gd (tl s 2) 3),
    filter (fun e => match e with ECasF _ _ _ _ _ _ => true | _ => false end) tr)) =
  (0, P6 0 2 2, A1 (KPop 1 3), (NPop 1, 5), [0], (GV 2, GE),
   [ECasF 2 L_fhead mo_rlx mo_rlx (vptr (Some 0)) (vptr (Some 2))]).
Proof. vm_compute. reflexivity. Qed.
Example ex_pop_contention_end :
  (let '(s, tr, sk) := run (step 1) (init 2) (popc ++ steps 2 26 ++ steps 1 30) in
   (th s 1, th s 2, (cells s 0, cells s 1), (g_ns s 0, rc s 0, g_ns s 2, rc s 2), g_fl s, g_uaf s)) =
  (Idle, Idle, (Some 2, Some 0), (NPub, 2, NPub, 2), [1], false).
Proof. vm_compute. reflexivity. Qed.
