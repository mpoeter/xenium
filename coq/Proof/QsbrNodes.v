(** Bookkeeping of the blocks handed to the reclaimer in the quiescent state based reclamation model
    (Model/QsbrDefs.v), the safety half of C02:  [N0]  a retired node or an orphan is in at most one place, and the
    ghost [g_where] says exactly where: in retire list i of exactly one thread, in the hand of exactly one exiting
    thread (an orphan between its creation and its publication), in the global abandoned list, inside exactly one
    orphan, or freed; all these lists are duplicate free; a block is freed at most once ([g_nfree]) and only after it
    was retired; the hand-over at thread exit moves the three lists into one orphan and drops nothing, adoption moves
    every orphan of the abandoned list into a retire list of the adopter.
    Holds in every reachable state ([QI_reach] in Proof/QsbrGuards.v).  No axioms. *)
From Coq Require Import NArith ZArith List Bool Arith Lia PeanoNat Setoid.
From XV Require Import Conc.Lts Conc.Ev Model.QsbrDefs Proof.QsbrBase Proof.QsbrEpoch.
Import ListNotations.
Local Open Scope N_scope.

(** * Pure facts about the list functions of the model *)

Lemma count_nodup n l : NoDup l -> length (filter (N.eqb n) l) = if memN n l then 1%nat else 0%nat.
Proof.
  induction 1 as [|a l Hni Hnd IH]; [reflexivity|]. cbn [filter memN existsb]. fold (memN n l).
  destruct (N.eqb_spec n a) as [->|Hne]; cbn [orb length].
  - rewrite IH. apply memN_false in Hni. rewrite Hni. reflexivity.
  - exact IH.
Qed.
Lemma NoDup_app_intro {A} (l1 l2 : list A) : NoDup l1 -> NoDup l2 -> (forall x, In x l1 -> ~ In x l2) -> NoDup (l1 ++ l2).
Proof.
  induction 1 as [|a l Hni Hnd IH]; intros H2 Hd; [exact H2|]. cbn [app]. constructor.
  - rewrite in_app_iff. intros [X|X]; [contradiction|]. apply (Hd a); [left; reflexivity|exact X].
  - apply IH; [exact H2|]. intros x Hx. apply Hd. right. exact Hx.
Qed.

Lemma expand_in oc l n : In n (expand oc l) <-> In n l \/ exists o, In o l /\ In n (oc o).
Proof.
  unfold expand. rewrite in_flat_map. split.
  - intros (x & Hx & Hn). apply in_app_or in Hn. destruct Hn as [Hn|[<-|[]]]; [right; eauto|left; exact Hx].
  - intros [H|(o & Ho & H)]; [exists n; split; [exact H|apply in_or_app; right; left; reflexivity]|exists o; split; [exact Ho|apply in_or_app; left; exact H]].
Qed.

Lemma expand_nodup oc l : NoDup l -> (forall o, NoDup (oc o)) ->
  (forall o n, In n (oc o) -> ~ In n l) -> (forall o1 o2 n, In n (oc o1) -> In n (oc o2) -> o1 = o2) ->
  NoDup (expand oc l).
Proof.
  intros Hl Ho Hd Hu. induction Hl as [|a l Hni Hnd IH]; [constructor|].
  cbn [expand flat_map]. fold (expand oc l). rewrite <- app_assoc. cbn [app].
  apply NoDup_app_intro; [apply Ho| |].
  - constructor.
    + rewrite expand_in. intros [X|(o & X1 & X2)]; [contradiction|]. apply (Hd o a X2). left; reflexivity.
    + apply IH. intros o n Hn Hc. apply (Hd o n Hn). right; exact Hc.
  - intros x Hx [Hax|Hx']; [apply (Hd a x Hx); left; exact Hax|].
    rewrite expand_in in Hx'. destruct Hx' as [X|(o & X1 & X2)].
    + apply (Hd a x Hx). right; exact X.
    + assert (a = o) by (eapply Hu; eauto). subst. contradiction.
Qed.

Lemma adopt_in tg l r i n : In n (adopt tg l r i) <-> (In n l /\ tg n = i) \/ In n (r i).
Proof.
  unfold adopt. rewrite in_app_iff, <- in_rev, filter_In. rewrite N.eqb_eq. tauto.
Qed.
Lemma adopt_nodup tg l r i : NoDup l -> NoDup (r i) -> (forall n, In n l -> ~ In n (r i)) -> NoDup (adopt tg l r i).
Proof.
  intros Hl Hr Hd. unfold adopt. apply NoDup_app_intro; [apply NoDup_rev; apply NoDup_filter; exact Hl|exact Hr|].
  intros x Hx. apply in_rev in Hx. apply filter_In in Hx. apply Hd. apply Hx.
Qed.

(** * Retired blocks: where they are *)
Definition fresh_of (p : pc) : option N := match p with R3 _ _ (Some n) => Some n | _ => None end.
Definition unl_of (p : pc) : option N := match p with R4 old => Some old | _ => None end.
Definition tmpg (p : pc) : option N := match p with R3 _ (Some g) _ => Some g | R4 old => Some old | _ => None end.
Definition hand (p : pc) : option N := match p with X2 o | X3 o _ => Some o | _ => None end.
Definition retd (l : life) : bool := match l with LRet _ _ _ | LOrph _ _ => true | _ => false end.
Definition wh_ok (w : place) (l : life) (k : nat) : Prop :=
  match w with
  | PNone => retd l = false /\ k = O
  | PFreed => retd l = true /\ k = 1%nat
  | _ => retd l = true /\ k = O
  end.
Definition xdone (p : pc) : bool := match p with X2 _ | X3 _ _ | X4 => true | _ => false end.

Record N0 (s : state) : Prop := {
  n_lt : forall n, g_life s n <> LNone -> n < nalloc s;
  n_cell : forall c n, cells s c = Some n -> g_life s n = LPub c;
  n_fresh1 : forall u n, fresh_of (th s u) = Some n -> g_life s n = LFresh u;
  n_fresh2 : forall u n, g_life s n = LFresh u -> fresh_of (th s u) = Some n;
  n_unl1 : forall u n, unl_of (th s u) = Some n -> g_life s n = LUnl u;
  n_unl2 : forall u n, g_life s n = LUnl u -> unl_of (th s u) = Some n;
  n_where : forall n, wh_ok (g_where s n) (g_life s n) (g_nfree s n);
  n_list : forall u i n, In n (rl (tl s u) i) <-> g_where s n = PList u i;
  n_aband : forall n, In n (aband s) <-> g_where s n = PAband;
  n_hand : forall u n, hand (th s u) = Some n <-> g_where s n = PHand u;
  n_in : forall o n, In n (ocont s o) <-> g_where s n = PIn o;
  n_in_lt : forall o n, g_where s n = PIn o -> o < nalloc s;
  n_nd_list : forall u i, NoDup (rl (tl s u) i);
  n_nd_aband : NoDup (aband s);
  n_nd_in : forall o, NoDup (ocont s o);
  n_rl3 : forall u i, 3 <= i -> rl (tl s u) i = [];
  n_otgt : forall o, otgt s o < 3;
  n_xdone : forall u, xdone (th s u) = true -> forall i, rl (tl s u) i = [];
  n_cempty : forall u, (in_cphase (th s u) = true \/ cb (tl s u) = None) -> forall i, rl (tl s u) i = [] }.

Lemma N0_init nc : N0 (init nc).
Proof.
  constructor; cbn; intros; try discriminate; try reflexivity; try constructor; try (split; intros; try contradiction; discriminate); try lia.
  all: try discriminate.
  - destruct (N.ltb_spec n nc); [assumption|congruence].
  - destruct (N.ltb_spec c nc); [|discriminate]. inversion H; subst. destruct (N.ltb_spec n nc); [reflexivity|lia].
  - destruct (n <? nc); discriminate.
  - destruct (n <? nc); discriminate.
  - destruct (n <? nc); reflexivity.
Qed.

Ltac nfn := cbn [fresh_of unl_of tmpg hand xdone wh_ok retd in_cphase].
Ltac nfn_in H := cbn [fresh_of unl_of tmpg hand xdone wh_ok retd in_cphase] in H.

Lemma wh_not_ret w l k : wh_ok w l k -> retd l = false -> w = PNone /\ k = O.
Proof. destruct w; cbn; intros [H1 H2] H; auto; congruence. Qed.

Lemma next_unused s : N0 s -> g_life s (nalloc s) = LNone.
Proof.
  intros I. destruct (g_life s (nalloc s)) eqn:X; try reflexivity; exfalso.
  all: assert (nalloc s < nalloc s) by (apply (n_lt s I); rewrite X; discriminate); lia.
Qed.

(* facts about the nodes a step names: what is in a cell is published, the node of a pending CAS is fresh,
   the next block is unallocated; none of them is retired *)
Ltac nfacts :=
  repeat match goal with
  | Icell : forall c n, cells ?s c = Some n -> g_life ?s n = LPub c, H : cells ?s ?c = Some ?n |- _ =>
    lazymatch goal with | _ : g_life s n = LPub c |- _ => fail | _ => pose proof (Icell c n H) end
  | If1t : forall n, Some ?n1 = Some n -> g_life ?s n = LFresh ?t |- _ =>
    lazymatch goal with | _ : g_life s n1 = LFresh t |- _ => fail | _ => pose proof (If1t n1 eq_refl) end
  | Iu1t : forall n, Some ?n1 = Some n -> g_life ?s n = LUnl ?t |- _ =>
    lazymatch goal with | _ : g_life s n1 = LUnl t |- _ => fail | _ => pose proof (Iu1t n1 eq_refl) end
  | I0 : N0 ?s |- _ =>
    lazymatch goal with | _ : g_life s (nalloc s) = LNone |- _ => fail | _ => pose proof (next_unused s I0) end
  end;
  repeat match goal with
  | Iwh : forall n, wh_ok (g_where ?s n) (g_life ?s n) (g_nfree ?s n), H : g_life ?s ?n = ?l |- _ =>
    lazymatch l with
    | LRet _ _ _ => fail
    | LOrph _ _ => fail
    | _ => lazymatch goal with | _ : g_where s n = PNone |- _ => fail
           | _ => let X := fresh in pose proof (wh_not_ret _ _ _ (Iwh n) ltac:(rewrite H; reflexivity)) as X; destruct X end
    end
  end.

Ltac mem_split :=
  repeat match goal with
  | |- context [memN ?n ?l] => let M := fresh "M" in destruct (memN n l) eqn:M; [apply memN_In in M | apply memN_false in M]
  | H : context [memN ?n ?l] |- _ => let M := fresh "M" in destruct (memN n l) eqn:M; [apply memN_In in M | apply memN_false in M]
  end.


(** ** the effect of delete_objects(retire_lists[e]) (Q9) on the bookkeeping *)
Section FreeList.
  Variables (s : state) (t : nat) (e : N).
  Hypothesis I : N0 s.
  Let l := rl (tl s t) e.
  Let fl := expand (ocont s) l.
  Let X (n : N) : place := if memN n fl then PFreed else g_where s n.

  Lemma fl_in n : In n fl <-> g_where s n = PList t e \/ exists o, g_where s o = PList t e /\ g_where s n = PIn o.
  Proof.
    unfold fl, l. rewrite expand_in, (n_list s I). split.
    - intros [H|(o & H1 & H2)]; [left; exact H|right; exists o; split; [apply (n_list s I); exact H1|apply (n_in s I); exact H2]].
    - intros [H|(o & H1 & H2)]; [left; exact H|right; exists o; split; [apply (n_list s I); exact H1|apply (n_in s I); exact H2]].
  Qed.
  Lemma fl_nodup : NoDup fl.
  Proof.
    apply expand_nodup; [apply (n_nd_list s I)|apply (n_nd_in s I)| |].
    - intros o n H1 H2. apply (n_in s I) in H1. apply (n_list s I) in H2. congruence.
    - intros o1 o2 n H1 H2. apply (n_in s I) in H1. apply (n_in s I) in H2. congruence.
  Qed.
  Lemma fl_alive n : In n fl -> retd (g_life s n) = true /\ g_nfree s n = O /\ g_where s n <> PNone.
  Proof.
    intros H. apply fl_in in H. pose proof (n_where s I n) as W.
    destruct H as [H|(o & _ & H)]; rewrite H in W; cbn in W; destruct W; repeat split; try assumption; rewrite H; discriminate.
  Qed.
  Lemma q9_where n lf : retd lf = retd (g_life s n) -> wh_ok (X n) lf (g_nfree s n + length (filter (N.eqb n) fl)).
  Proof.
    intros Hl. unfold X. rewrite (count_nodup n fl fl_nodup). destruct (memN n fl) eqn:M.
    - apply memN_In in M. destruct (fl_alive n M) as (A1 & A2 & _). cbn. rewrite Hl, A1, A2. split; reflexivity.
    - rewrite Nat.add_0_r. pose proof (n_where s I n) as W. destruct (g_where s n); cbn in W |- *; rewrite Hl; exact W.
  Qed.
  Lemma q9_place n p : p <> PFreed -> p <> PList t e -> (forall o, p = PIn o -> g_where s o <> PList t e) ->
    (X n = p <-> g_where s n = p).
  Proof.
    intros H1 H2 H3. unfold X. destruct (memN n fl) eqn:M; [|tauto].
    apply memN_In in M. apply fl_in in M. split; [congruence|]. intros H.
    destruct M as [M|(o & M1 & M2)]; [congruence|]. exfalso. apply (H3 o); congruence.
  Qed.
  Lemma q9_list_t i n : In n (updN (rl (tl s t)) e [] i) <-> X n = PList t i.
  Proof.
    destruct (N.eq_dec i e) as [->|Hne].
    - rewrite updN_same. unfold X. split; [intros []|]. destruct (memN n fl) eqn:M; [discriminate|].
      intros H. apply memN_false in M. apply M. apply fl_in. left. exact H.
    - rewrite updN_other by exact Hne. rewrite (n_list s I). symmetry. apply q9_place; try discriminate; congruence.
  Qed.
  Lemma q9_nd_list i : NoDup (updN (rl (tl s t)) e [] i).
  Proof. destruct (N.eq_dec i e) as [->|Hne]; [rewrite updN_same; constructor|rewrite updN_other by exact Hne; apply (n_nd_list s I)]. Qed.
  Lemma q9_in o n : In n (if memN o l then [] else ocont s o) <-> X n = PIn o.
  Proof.
    destruct (memN o l) eqn:Mo.
    - apply memN_In in Mo. unfold l in Mo. apply (n_list s I) in Mo. split; [intros []|]. unfold X.
      destruct (memN n fl) eqn:M; [discriminate|]. intros H. apply memN_false in M. apply M. apply fl_in. right. eauto.
    - apply memN_false in Mo. unfold l in Mo. rewrite (n_list s I) in Mo. rewrite (n_in s I). symmetry.
      apply q9_place; try discriminate. intros o' Ho. injection Ho as <-. exact Mo.
  Qed.
  Lemma q9_nd_in o : NoDup (if memN o l then [] else ocont s o).
  Proof. destruct (memN o l); [constructor|apply (n_nd_in s I)]. Qed.
End FreeList.

(** ** the effect of the creation of an orphan (XC, the successful epoch CAS of ~thread_data) on the bookkeeping *)
Lemma xstart_X4 r : xstart r = X4 -> (forall i, 3 <= i -> r i = []) -> forall i, r i = [].
Proof.
  unfold xstart. intros H H3 i. destruct (is_nil (r 0)) eqn:E0, (is_nil (r 1)) eqn:E1, (is_nil (r 2)) eqn:E2; cbn in H; try discriminate.
  apply is_nil_true in E0, E1, E2.
  assert (Hi : i = 0 \/ i = 1 \/ i = 2 \/ 3 <= i) by lia. destruct Hi as [->|[->|[->|Hi]]]; auto.
Qed.

Section Orphan.
  Variables (s : state) (t : nat).
  Hypothesis I : N0 s.
  Let o := nalloc s.
  Let top := rl (tl s t) 0 ++ rl (tl s t) 1 ++ rl (tl s t) 2.
  Let fl := expand (ocont s) top.
  Let X (n : N) : place := if n =? o then PHand t else if memN n fl then PIn o else g_where s n.
  Let OC (x : N) : list N := if x =? o then fl else if memN x top then [] else ocont s x.

  Lemma top_in n : In n top <-> exists i, g_where s n = PList t i.
  Proof.
    unfold top. rewrite !in_app_iff, !(n_list s I). split.
    - intros [H|[H|H]]; eauto.
    - intros (i & H). assert (Hi : i = 0 \/ i = 1 \/ i = 2 \/ 3 <= i) by lia.
      destruct Hi as [->|[->|[->|Hi]]]; auto. apply (n_list s I) in H. rewrite (n_rl3 s I t i Hi) in H. destruct H.
  Qed.
  Lemma top_nodup : NoDup top.
  Proof.
    unfold top. apply NoDup_app_intro; [apply (n_nd_list s I)| |].
    - apply NoDup_app_intro; [apply (n_nd_list s I)|apply (n_nd_list s I)|].
      intros x H1 H2. apply (n_list s I) in H1, H2. congruence.
    - intros x H1 H2. apply in_app_or in H2. apply (n_list s I) in H1. destruct H2 as [H2|H2]; apply (n_list s I) in H2; congruence.
  Qed.
  Lemma ofl_in n : In n fl <-> (exists i, g_where s n = PList t i) \/ exists x i, g_where s x = PList t i /\ g_where s n = PIn x.
  Proof.
    unfold fl. rewrite expand_in, top_in. split.
    - intros [H|(x & H1 & H2)]; [left; exact H|right]. apply top_in in H1. destruct H1 as (i & H1). exists x, i. split; [exact H1|apply (n_in s I); exact H2].
    - intros [H|(x & i & H1 & H2)]; [left; exact H|right]. exists x. split; [apply top_in; eauto|apply (n_in s I); exact H2].
  Qed.
  Lemma ofl_nodup : NoDup fl.
  Proof.
    apply expand_nodup; [apply top_nodup|apply (n_nd_in s I)| |].
    - intros x n H1 H2. apply (n_in s I) in H1. apply top_in in H2. destruct H2 as (i & H2). congruence.
    - intros o1 o2 n H1 H2. apply (n_in s I) in H1. apply (n_in s I) in H2. congruence.
  Qed.
  Lemma ofl_alive n : In n fl -> retd (g_life s n) = true /\ g_nfree s n = O /\ g_where s n <> PNone.
  Proof.
    intros H. apply ofl_in in H. pose proof (n_where s I n) as W.
    destruct H as [(i & H)|(x & i & _ & H)]; rewrite H in W; cbn in W; destruct W; repeat split; try assumption; rewrite H; discriminate.
  Qed.
  Hypothesis Hfresh : g_life s o = LNone.
  Lemma o_none : g_where s o = PNone /\ g_nfree s o = O.
  Proof. apply (wh_not_ret _ _ _ (n_where s I o)). rewrite Hfresh. reflexivity. Qed.
  Lemma o_notin : ~ In o fl.
  Proof. intros H. destruct (ofl_alive o H) as (_ & _ & H3). apply H3. apply o_none. Qed.
  Lemma x1_where n : wh_ok (X n) (updN (g_life s) o (LOrph t (g_gepc s)) n) (g_nfree s n).
  Proof.
    unfold X. destruct (N.eqb_spec n o) as [->|Hne].
    - rewrite updN_same. cbn. split; [reflexivity|apply o_none].
    - rewrite updN_other by exact Hne. destruct (memN n fl) eqn:M.
      + apply memN_In in M. destruct (ofl_alive n M) as (A1 & A2 & _). cbn. auto.
      + apply (n_where s I).
  Qed.
  Lemma x1_place n p : p <> PHand t -> p <> PIn o -> p <> PNone -> (forall i, p <> PList t i) ->
    (forall x i, p = PIn x -> g_where s x <> PList t i) -> (X n = p <-> g_where s n = p).
  Proof.
    intros H1 H2 H0 H3 H4. unfold X. destruct (N.eqb_spec n o) as [->|Hne].
    - destruct o_none as [W _]. rewrite W. split; congruence.
    - destruct (memN n fl) eqn:M; [|tauto]. apply memN_In in M. apply ofl_in in M. split; [congruence|]. intros H.
      destruct M as [(i & M)|(x & i & M1 & M2)]; [exfalso; apply (H3 i); congruence|]. exfalso. apply (H4 x i); congruence.
  Qed.
  Lemma x1_list_t i n : In n [] <-> X n = PList t i.
  Proof.
    split; [intros []|]. unfold X. destruct (N.eqb_spec n o); [discriminate|]. destruct (memN n fl) eqn:M; [discriminate|].
    intros H. apply memN_false in M. apply M. apply ofl_in. left. eauto.
  Qed.
  Lemma x1_hand_t n : hand (th s t) = None -> (Some o = Some n <-> X n = PHand t).
  Proof.
    intros Hpc. unfold X. destruct (N.eqb_spec n o) as [->|Hne]; [tauto|]. split; [congruence|].
    destruct (memN n fl); [discriminate|]. intros H. apply (n_hand s I) in H. rewrite Hpc in H. discriminate H.
  Qed.
  Lemma x1_in x n : In n (OC x) <-> X n = PIn x.
  Proof.
    unfold OC, X. destruct (N.eqb_spec x o) as [->|Hx].
    - destruct (N.eqb_spec n o) as [->|Hn]; [split; [intros H; exfalso; exact (o_notin H)|discriminate]|].
      destruct (memN n fl) eqn:M; [apply memN_In in M; tauto|]. apply memN_false in M. split; [tauto|].
      intros H. apply (n_in_lt s I) in H. unfold o in H. lia.
    - destruct (N.eqb_spec n o) as [->|Hn].
      + destruct o_none as [W _]. split; [|discriminate]. destruct (memN x top); [intros []|]. intros H. apply (n_in s I) in H. congruence.
      + destruct (memN x top) eqn:Mx.
        * apply memN_In in Mx. apply top_in in Mx. destruct Mx as (i & Mx). split; [intros []|].
          destruct (memN n fl) eqn:M; [congruence|]. apply memN_false in M. intros H. apply M. apply ofl_in. right. eauto.
        * apply memN_false in Mx. rewrite top_in in Mx. rewrite (n_in s I).
          destruct (memN n fl) eqn:M; [|tauto]. apply memN_In in M. apply ofl_in in M. split; [|congruence].
          intros H. exfalso. destruct M as [(i & M)|(y & i & M1 & M2)]; [congruence|]. apply Mx. exists i. congruence.
  Qed.
  Lemma x1_nd_in x : NoDup (OC x).
  Proof. unfold OC. destruct (x =? o); [apply ofl_nodup|]. destruct (memN x top); [constructor|apply (n_nd_in s I)]. Qed.
  Lemma x1_in_lt x n : X n = PIn x -> x < o + 1.
  Proof.
    unfold X. destruct (n =? o); [discriminate|]. destruct (memN n fl); [intros H; injection H as <-; lia|].
    intros H. apply (n_in_lt s I) in H. unfold o. lia.
  Qed.
End Orphan.

Lemma adopt_nil tg l r i : (forall o, tg o < 3) -> 3 <= i -> r i = [] -> adopt tg l r i = [].
Proof.
  intros Ht Hi Hr. unfold adopt. rewrite Hr, app_nil_r.
  assert (E : filter (fun o => tg o =? i) l = []); [|rewrite E; reflexivity].
  induction l as [|a l IH]; [reflexivity|]. cbn [filter]. destruct (N.eqb_spec (tg a) i) as [X|X]; [specialize (Ht a); lia|exact IH].
Qed.

(* rewrite list memberships into statements about [g_where] *)
Ltac to_where Ilist Iab Ihand Iin :=
  repeat match goal with
  | H : In _ [] |- _ => destruct H
  | H : context [In ?n (aband ?s)] |- _ => rewrite (Iab n) in H
  | H : context [In ?n (rl (tl ?s ?u) ?i)] |- _ => rewrite (Ilist u i n) in H
  | H : context [In ?n (ocont ?s ?o)] |- _ => rewrite (Iin o n) in H
  | |- context [In ?n (aband ?s)] => rewrite (Iab n)
  | |- context [In ?n (rl (tl ?s ?u) ?i)] => rewrite (Ilist u i n)
  | |- context [In ?n (ocont ?s ?o)] => rewrite (Iin o n)
  | |- context [hand (th ?s ?u) = Some ?n] => rewrite (Ihand u n)
  end.

(** * One step, seen from the bookkeeping
    Every step is [set_pc t p' g] for a state [g] that differs from the old one only outside [th]; repl allocates
    its new node on the way to its CAS, which is treated as a second, separate effect ([alloc_node]).  Most steps are
    [quiet]: they move no block, retire nothing and keep the retire lists; the eight others are listed in [view] with
    the successor state as the model writes it. *)
Definition cont_pc (k : lcont) (r : N -> list N) : pc :=
  match k with LFin _ _ => Idle | LRepl c _ => R3 c None None | LExit _ => xstart r end.

Definition cas_life (t : nat) (c : N) (g n : option N) (f : N -> life) : N -> life :=
  let f1 := match n with Some n' => updN f n' (LPub c) | None => f end in
  match g with Some old => updN f1 old (LUnl t) | None => f1 end.

Definition alloc_node (t : nat) (c : N) (g : option N) (s : state) : state :=
  set_pc t (R3 c g (Some (nalloc s)))
    (w_nalloc (nalloc s + 1) (w_nextid (nextid s + 1) (w_nid (updN (nid s) (nalloc s) (nextid s)) (w_g_life (updN (g_life s) (nalloc s) (LFresh t)) s)))).

(** [q_cb], [q_lepc]: a control block is acquired and the local epoch first published inside
    ensure_has_control_block, where the thread has no retired blocks and holds no guard *)
Record quiet (s : state) (t : nat) (p' : pc) (g : state) : Prop := {
  q_th : th g = th s;
  q_tl : forall u, u <> t -> tl g u = tl s u;
  q_cb : cb (tl g t) = cb (tl s t) \/ in_cphase (th s t) = true;
  q_rl : rl (tl g t) = rl (tl s t);
  q_gs : forall sl n, gs (tl g t) sl = Some n -> gs (tl s t) sl = Some n \/ exists c, cells s c = Some n;
  q_tmpg : forall n, tmpg p' = Some n -> tmpg (th s t) = Some n \/ exists c, cells s c = Some n;
  q_fresh : fresh_of p' = fresh_of (th s t);
  q_unl : unl_of p' = unl_of (th s t);
  q_hand : hand p' = hand (th s t);
  q_xdone : xdone p' = true -> xdone (th s t) = true \/ xstart (rl (tl s t)) = X4;
  q_cph : in_cphase p' = true -> in_cphase (th s t) = true \/ cb (tl s t) = None;
  q_nalloc : nalloc s <= nalloc g;
  q_gepc : g_gepc s <= g_gepc g;
  q_lepc : forall b, g_lepc g b = g_lepc s b \/ (in_cphase (th s t) = true /\ cb (tl s t) = Some b);
  q_life : g_life g = g_life s;
  q_cells : cells g = cells s;
  q_where : g_where g = g_where s;
  q_nfree : g_nfree g = g_nfree s;
  q_aband : aband g = aband s;
  q_ocont : ocont g = ocont s;
  q_otgt : otgt g = otgt s }.

Inductive view (s : state) (t : nat) : pc -> state -> Prop :=
| V_quiet p' g : quiet s t p' g -> view s t p' g
| V_cas c g n U : th s t = R3 c g n -> cells s c = g ->
    view s t (match g with Some old => R4 old | None => Idle end)
      (w_g_uaf U (w_g_life (cas_life t c g n (g_life s)) (w_cells (updN (cells s) c n) s)))
| V_cas_fail c g n p' g1 : th s t = R3 c g n -> cells s c <> g ->
    let G := match n with Some n' => w_g_life (updN (g_life s) n' LDropped) s | None => s end in
    g1 = G \/ (exists k, g1 = set_tl t (wt_nest k (tl G t)) G) -> p' = Q1 (LFin r_lost None) \/ p' = Idle ->
    view s t p' g1
| V_retire old b k p' : th s t = R4 old -> cb (tl s t) = Some b -> p' = Q1 (LFin r_ok None) \/ p' = Idle ->
    let x := tl s t in let i := blocal s b in
    let G := set_tl t (wt_rl (updN (rl x) i (old :: rl x i)) x)
               (w_g_life (updN (g_life s) old (LRet t (g_lepc s b) (g_gepc s))) (w_g_where (updN (g_where s) old (PList t i)) s)) in
    view s t p' (set_tl t (wt_nest k (tl G t)) G)
| V_adopt k e : th s t = G5 k e ->
    view s t (Q9 k ((e + 1) mod 3))
      (set_tl t (wt_rl (adopt (otgt s) (aband s) (rl (tl s t))) (tl s t))
         (w_g_where (fun n => if memN n (aband s) then PList t (otgt s n) else g_where s n) (w_aband [] s)))
| V_free k e b : th s t = Q9 k e -> cb (tl s t) = Some b ->
    let x := tl s t in let l := rl x e in
    let G := set_tl t (wt_rl (updN (rl x) e []) x)
               (free_all (expand (ocont s) l) (w_ocont (fun n => if memN n l then [] else ocont s n)
                  (w_g_lepc (updN (g_lepc s) b (g_gepc s)) (w_blocal (updN (blocal s) b e) s)))) in
    view s t (cont_pc k (rl (tl G t))) G
| V_orphan e : th s t = XC e -> gep s = e ->
    let x := tl s t in let top := rl x 0 ++ rl x 1 ++ rl x 2 in let fl := expand (ocont s) top in let o := nalloc s in
    view s t (X2 o)
      (set_tl t (wt_rl (fun _ => []) x)
         (w_nalloc (o + 1) (w_otgt (updN (otgt s) o ((e + 2) mod 3))
            (w_ocont (fun n => if n =? o then fl else if memN n top then [] else ocont s n)
               (w_g_life (updN (g_life s) o (LOrph t (g_gepc s)))
                  (w_g_where (fun n => if n =? o then PHand t else if memN n fl then PIn o else g_where s n) s))))))
| V_publish o h : th s t = X3 o h ->
    view s t X4 (w_g_where (updN (g_where s) o PAband) (w_aband (o :: aband s) s))
| V_release b : th s t = X4 -> cb (tl s t) = Some b ->
    view s t Idle (set_tl t tl0 (w_bstate (updN (bstate s) b 0) (w_g_owner (updN (g_owner s) b None) s))).

Lemma step_view ns s t s' es : step ns s (Step t) = Some (s', es) ->
  exists p' g1, view s t p' g1 /\ (s' = set_pc t p' g1 \/ exists c g, p' = R3 c g None /\ s' = alloc_node t c g g1).
Proof.
  intros H. unfold_step H. cbv zeta in H. step_split H; bool_eqs.
  all: (match goal with
       | |- exists p' g1, _ /\ (set_pc _ (R3 ?c ?g (Some _)) (w_nalloc _ (w_nextid _ (w_nid _ (w_g_life _ ?G)))) = _ \/ _) =>
           exists (R3 c g None), G; split; [|right; exists c, g; split; [reflexivity|unfold alloc_node; prj; reflexivity]]
       | |- exists p' g1, _ /\ (set_pc _ ?p ?G = _ \/ _) => exists p, G; split; [|left; reflexivity]
       end).
  all: try match goal with
       | E : th _ _ = R3 _ _ _, E0 : cells _ _ = _ |- _ => exact (V_cas s t _ _ _ _ E E0)
       | E : th _ _ = R3 _ _ _, E0 : cells _ _ <> _ |- _ => eapply (V_cas_fail s t _ _ _ _ _ E E0); [first [left; reflexivity | right; eexists; reflexivity] | auto]
       | E : th _ _ = R4 _, E0 : cb _ = _ |- _ => eapply (V_retire s t _ _ _ _ E E0); auto
       | E : th _ _ = G5 _ _ |- _ => exact (V_adopt s t _ _ E)
       | E : th _ _ = Q9 _ _, E0 : cb _ = _ |- _ => exact (V_free s t _ _ _ E E0)
       | E : th _ _ = XC _, E0 : gep _ = _ |- _ => exact (V_orphan s t _ E E0)
       | E : th _ _ = X3 _ _, E0 : hd_opt _ = _ |- _ => exact (V_publish s t _ _ E)
       | E : th _ _ = X4 |- _ => exact (V_release s t _ E E0)
       end.
  all: apply V_quiet; constructor; prj; rewrite ?upd_same; prj; try rewrite E.
  all: try reflexivity.
  all: try lia.
  all: try solve [auto].
  all: try solve [intros u Hu; rewrite ?upd_other by exact Hu; reflexivity].
  all: try solve [intros sl n1; destruct (upd_cases (gs (tl s t)) s0 None sl) as [[_ ->]|[_ ->]]; [discriminate|auto]].
  all: try solve [intros b; destruct (updN_cases (g_lepc s) n (g_gepc s) b) as [[-> _]|[_ ->]]; auto].
  all: try solve [xn; cbn; auto].
  all: try solve [cbn; intros ? [= <-]; eauto].
  all: try solve [intros sl n1; destruct (upd_cases (gs (tl s t)) s0 (Some n) sl) as [[_ ->]|[_ ->]]; [intros [= <-]; eauto|auto]].
  discriminate.
Qed.

Lemma upd_pc {A} (F : pc -> A) (f : nat -> pc) t p' : F p' = F (f t) -> forall u, F (upd f t p' u) = F (f u).
Proof. intros H u. destruct (upd_cases f t p' u) as [[-> ->]|[_ ->]]; [exact H|reflexivity]. Qed.

Lemma quiet_rl s t p' g : quiet s t p' g -> forall u, rl (tl g u) = rl (tl s u).
Proof. intros Q u. destruct (Nat.eq_dec u t) as [->|Hne]; [apply (q_rl _ _ _ _ Q)|rewrite (q_tl _ _ _ _ Q u Hne); reflexivity]. Qed.

Lemma N0_quiet s t p' g : quiet s t p' g -> N0 s -> N0 (set_pc t p' g).
Proof.
  intros Q I. pose proof (quiet_rl _ _ _ _ Q) as Hrl.
  destruct Q as [Qth Qtl Qcb _ _ _ Qf Qu Qh Qx Qc Qna _ _ Ql Qce Qw Qnf Qab Qoc Qot], I as [Ilt Icell If1 If2 Iu1 Iu2 Iwh Ilist Iab Ihand Iin Iinlt Indl Inda Indi Irl3 Iotgt Ixd Ice].
  constructor; prj; rewrite ?Qth, ?Ql, ?Qce, ?Qw, ?Qnf, ?Qab, ?Qoc, ?Qot; try assumption.
  - intros n Hn. apply Ilt in Hn. lia.
  - intros u. rewrite (upd_pc fresh_of _ _ _ Qf). apply If1.
  - intros u. rewrite (upd_pc fresh_of _ _ _ Qf). apply If2.
  - intros u. rewrite (upd_pc unl_of _ _ _ Qu). apply Iu1.
  - intros u. rewrite (upd_pc unl_of _ _ _ Qu). apply Iu2.
  - intros u. rewrite Hrl. apply Ilist.
  - intros u. rewrite (upd_pc hand _ _ _ Qh). apply Ihand.
  - intros o n Hn. apply Iinlt in Hn. lia.
  - intros u. rewrite Hrl. apply Indl.
  - intros u. rewrite Hrl. apply Irl3.
  - intros u Hx. rewrite Hrl. destruct (upd_cases (th s) t p' u) as [[-> E]|[_ E]]; rewrite E in Hx; [|apply Ixd; exact Hx].
    destruct (Qx Hx) as [X|X]; [apply Ixd; exact X|apply xstart_X4; [exact X|apply Irl3]].
  - intros u Hc. rewrite Hrl. apply Ice. destruct (upd_cases (th s) t p' u) as [[-> E]|[Hne E]]; rewrite E in Hc.
    + destruct Hc as [Hc|Hc]; [destruct (Qc Hc); auto|]. destruct Qcb as [X|X]; [right; congruence|left; exact X].
    + rewrite (Qtl u Hne) in Hc. exact Hc.
Qed.

Lemma N0_view ns s t p' g1 : T0 ns s -> O0 s -> EI s -> N0 s -> view s t p' g1 -> N0 (set_pc t p' g1).
Proof.
  intros T O (_ & P & _) I V.
  destruct V as [p' g Q|c g n U E E0|c g n p' g1 E E0 G Hg Hp|old b kn p' E E0 Hp|k e E|k e b E E0|e E E0|o h E|b E E0];
    [apply (N0_quiet s); assumption|..].
  2: destruct Hg as [-> | (kn & ->)].
  all: repeat match goal with x := _ |- _ => subst x end.
  all: try (destruct Hp as [-> | ->]).
  1: destruct g.
  all: try destruct n; try destruct k.
  all: unfold cas_life, cont_pc; prj; rewrite ?upd_same; prj.
  all: specialize (T t); specialize (P t); unfold P1 in P; try match goal with E : th _ _ = _ |- _ => rewrite E in T, P end.
  all: pose proof I as I0; destruct I as [Ilt Icell If1 If2 Iu1 Iu2 Iwh Ilist Iab Ihand Iin Iinlt Indl Inda Indi Irl3 Iotgt Ixd Ice].
  all: match goal with E : th ?s ?t = _ |- _ =>
         pose proof (If1 t) as If1t; pose proof (If2 t) as If2t; pose proof (Iu1 t) as Iu1t; pose proof (Iu2 t) as Iu2t;
         pose proof (Ihand t) as Ihandt; pose proof (Ixd t) as Ixdt; pose proof (Ice t) as Icet; pose proof (Ilist t) as Ilistt; pose proof (Indl t) as Indlt;
         pose proof (Irl3 t) as Irl3t;
         rewrite E in If1t, If2t, Iu1t, Iu2t, Ihandt, Ixdt, Icet; nfn_in If1t; nfn_in If2t; nfn_in Iu1t; nfn_in Iu2t; nfn_in Ihandt; nfn_in Ixdt; nfn_in Icet end.
  all: nfacts.
  all: constructor; prj; intros.
  all: try solve [assumption | eauto 2].
  all: split_upd_all; prj; repeat match goal with H : context [set_pc] |- _ => progress prj_in H | H : context [upd _ _ _ _] |- _ => progress prj_in H | H : _ \/ _ |- _ => progress prj_in H end; nfn.
  all: try solve [nfacts; inj_some; split_updN_all; nfn;
                  first [congruence | solve [eauto 3]]].
  (* allocation bounds *)
  all: try solve [match goal with |- _ < _ => idtac end; split_updN_all; first [lia | match goal with H : _ <> LNone |- _ => pose proof (Ilt _ H); lia end
                                       | nfacts; match goal with H : g_life ?s ?n = _ |- ?n < _ => assert (n < nalloc s) by (apply Ilt; rewrite H; discriminate); lia end]].
  (* life cycle *)
  all: try solve [match goal with |- _ = LPub _ => idtac | |- _ = LFresh _ => idtac | |- _ = LUnl _ => idtac | |- fresh_of _ = _ => idtac | |- unl_of _ = _ => idtac | |- None = Some _ => idtac | |- Some _ = Some _ => idtac end; split_updN_all; inj_some; nfacts;
            repeat match goal with
            | H : fresh_of (th ?s ?u) = Some ?n |- _ => lazymatch goal with | _ : g_life s n = LFresh u |- _ => fail | _ => pose proof (If1 u n H) end
            | H : g_life ?s ?n = LFresh ?u |- _ => lazymatch goal with | _ : fresh_of (th s u) = Some n |- _ => fail | _ => pose proof (If2 u n H) end
            | H : unl_of (th ?s ?u) = Some ?n |- _ => lazymatch goal with | _ : g_life s n = LUnl u |- _ => fail | _ => pose proof (Iu1 u n H) end
            | H : g_life ?s ?n = LUnl ?u |- _ => lazymatch goal with | _ : unl_of (th s u) = Some n |- _ => fail | _ => pose proof (Iu2 u n H) end
            end; use_pc; nfn; repeat match goal with H : _ |- _ => progress nfn_in H end;
            split_updN_all; inj_some; congruence].
  (* wh_ok *)
  all: try solve [match goal with |- wh_ok _ _ _ => idtac end;
            nfacts; inj_some; split_updN_all;
            first [ apply Iwh
                  | repeat match goal with H : g_where _ _ = _ |- _ => rewrite H in * end;
                    repeat match goal with H : g_nfree _ _ = _ |- _ => rewrite H in * end;
                    nfn; split; reflexivity ]].
  all: try solve [xn; nfn; nfn_in H; first [ constructor | eauto 3]].
  (* Q9: the retire list of the new epoch is deleted *)
  all: try solve [match goal with E : th _ _ = Q9 _ _ |- _ => idtac end;
         first [ apply (q9_where s t _ I0); split_updN_all; nfacts; congruence
               | apply (q9_list_t s t _ I0) | apply (q9_nd_list s t _ I0) | apply (q9_in s t _ I0) | apply (q9_nd_in s t _ I0)
               | xn; nfn; match goal with
                 | |- In ?n (rl (tl _ ?u) ?i) <-> _ => rewrite (Ilist u i n)
                 | |- In ?n (aband _) <-> _ => rewrite (Iab n)
                 | |- hand (th _ ?u) = Some ?n <-> _ => rewrite (Ihand u n)
                 | |- None = Some ?n <-> _ => rewrite (Ihandt n)
                 end; symmetry; apply (q9_place s t _ I0); first [discriminate | congruence]
               | match goal with H : xdone (xstart ?r) = true |- _ => apply (xstart_X4 r);
                   [destruct (xstart_cases r) as [Ex|Ex]; [rewrite Ex in H; discriminate H|exact Ex]
                   |intros j Hj; split_updN_all; first [reflexivity | apply Irl3t; assumption]] end ]].
  (* n_cempty after the step: the thread owns a control block and is not in ensure_has_control_block *)
  all: try solve [exfalso; match goal with H : _ \/ _ |- _ => destruct H as [H|H]; [xn; discriminate H | congruence] end].
  (* S3 / LExit: xstart *)
  (* X4 *)
  (* XC: the orphan is created *)
  all: try solve [match goal with E : th _ _ = XC _ |- _ => idtac end; nfacts;
         first [ apply (x1_where s t I0); assumption
               | apply (x1_list_t s t I0) | apply (x1_in s t I0); assumption | apply (x1_nd_in s t I0)
               | eapply (x1_in_lt s t I0); eassumption
               | apply (x1_hand_t s t I0); (rewrite E; reflexivity)
               | split_updN_all; first [apply N.mod_lt; discriminate | apply Iotgt]
               | match goal with
                 | |- In ?n (rl (tl _ ?u) ?i) <-> _ => rewrite (Ilist u i n)
                 | |- In ?n (aband _) <-> _ => rewrite (Iab n)
                 | |- hand (th _ ?u) = Some ?n <-> _ => rewrite (Ihand u n)
                 end; symmetry; apply (x1_place s t I0); congruence ]].
  (* R4 / G5 / X3: a block moves to another place *)
  all: try solve [match goal with |- _ <-> _ => idtac end;
         nfacts; inj_some; rewrite ?adopt_in; split_updN_all; mem_split; cbn [In];
         repeat match goal with Ihandt : forall n, Some ?o = Some n <-> _ |- _ => pose proof (proj1 (Ihandt o) eq_refl); clear Ihandt end;
         to_where Ilist Iab Ihand Iin;
         clear Ilt Icell If1 If2 Iu1 Iu2 Iwh Ilist Iab Ihand Iin Iinlt Indl Inda Indi Irl3 Iotgt Ixd Ice I0; intuition congruence].
  all: try solve [match goal with |- NoDup _ => idtac end; split_updN_all;
                  first [apply Indlt | constructor; [intros X; apply Ilistt in X; nfacts; congruence | apply Indlt]]].
  all: try solve [match goal with |- wh_ok _ _ _ => idtac end;
                  repeat match goal with Ihandt : forall n, Some ?o = Some n <-> _ |- _ => pose proof (proj1 (Ihandt o) eq_refl); clear Ihandt end;
                  split_updN_all; mem_split; try apply Iwh;
                  match goal with |- wh_ok _ (g_life ?s ?n) _ => pose proof (Iwh n) as W end;
                  to_where Ilist Iab Ihand Iin;
                  repeat match goal with H : g_where _ _ = _ |- _ => rewrite H in * end; nfn_in W; nfn; exact W].
  all: try solve [match goal with |- None = Some _ <-> _ => idtac end;
                  repeat match goal with Ihandt : forall n, Some ?o = Some n <-> _ |- _ => pose proof (proj1 (Ihandt o) eq_refl); pose proof (fun n => proj2 (Ihandt n)) as Ihb; clear Ihandt end;
                  split_updN_all; mem_split; to_where Ilist Iab Ihand Iin;
                  split; intros X; first [ congruence | apply Ihandt in X; discriminate X | apply Ihb in X; congruence]].
  all: try solve [mem_split; first [discriminate | eapply Iinlt; eassumption]].
  all: try solve [apply adopt_nodup; [exact Inda | apply Indlt | intros x X1 X2; apply Iab in X1; apply Ilistt in X2; congruence]].
  all: try solve [apply adopt_nil; [exact Iotgt | assumption | apply Irl3t; assumption]].
  all: try solve [repeat match goal with Ihandt : forall n, Some ?o = Some n <-> _ |- _ => pose proof (proj1 (Ihandt o) eq_refl); clear Ihandt end;
                  constructor; [intros X; apply Iab in X; congruence | exact Inda]].
  all: try solve [exfalso; match goal with H : _ \/ _ |- _ => destruct H as [H|H]; [discriminate H | first [ apply (ts_need _ _ _ T); [reflexivity | exact H]]] end].
  all: try solve [destruct (P b E0) as (P1' & _); destruct (P1' eq_refl) as (_ & _ & P3 & _); split_updN_all; [exfalso; assert (g_lepc s b mod 3 < 3) by (apply N.mod_lt; discriminate); lia | apply Irl3t; assumption]].
  rewrite <- (Ilistt i n), (Ixdt eq_refl i); reflexivity.
Qed.


Lemma upd_pc2 {T A} (F : T -> A) (f : nat -> T) t p1 p2 : F p1 = F p2 -> forall u, F (upd f t p1 u) = F (upd f t p2 u).
Proof. intros H u. destruct (upd_cases f t p1 u) as [[-> ->]|[Hne ->]]; [rewrite upd_same; exact H|rewrite upd_other by exact Hne; reflexivity]. Qed.

Lemma N0_alloc t c g g1 : N0 (set_pc t (R3 c g None) g1) -> N0 (alloc_node t c g g1).
Proof.
  intros I. pose proof (next_unused _ I) as Hn.
  destruct (wh_not_ret _ _ _ (n_where _ I (nalloc g1))) as [Hw Hf]; [prj; prj_in Hn; rewrite Hn; reflexivity|].
  destruct I as [Ilt Icell If1 If2 Iu1 Iu2 Iwh Ilist Iab Ihand Iin Iinlt Indl Inda Indi Irl3 Iotgt Ixd Ice]. prj_hyps.
  assert (Hlife : forall m l, g_life g1 m = l -> l <> LNone -> updN (g_life g1) (nalloc g1) (LFresh t) m = l).
  { intros m l <- Hl. apply updN_other. intros ->. contradiction. }
  pose (p1 := R3 c g (Some (nalloc g1))).
  unfold alloc_node; fold p1; constructor; prj; try assumption.
  - intros m Hm. destruct (updN_cases (g_life g1) (nalloc g1) (LFresh t) m) as [[-> _]|[_ E]]; [lia|rewrite E in Hm; apply Ilt in Hm; lia].
  - intros c0 m Hm. apply Hlife; [apply Icell; exact Hm|discriminate].
  - intros u m Hm. destruct (upd_cases (th g1) t p1 u) as [[-> E]|[Hne E]]; rewrite E in Hm.
    + injection Hm as <-. apply updN_same.
    + apply Hlife; [apply If1; rewrite upd_other by exact Hne; exact Hm|discriminate].
  - intros u m Hm. destruct (updN_cases (g_life g1) (nalloc g1) (LFresh t) m) as [[-> E]|[_ E]]; rewrite E in Hm.
    + injection Hm as <-. rewrite upd_same. reflexivity.
    + apply If2 in Hm. destruct (upd_cases (th g1) t (R3 c g None) u) as [[-> E1]|[Hne E1]]; rewrite E1 in Hm; [discriminate Hm|].
      rewrite upd_other by exact Hne. exact Hm.
  - intros u m Hm. rewrite (upd_pc2 unl_of _ t p1 (R3 c g None) eq_refl) in Hm. apply Hlife; [apply Iu1; exact Hm|discriminate].
  - intros u m Hm. rewrite (upd_pc2 unl_of _ t p1 (R3 c g None) eq_refl). apply Iu2.
    destruct (updN_cases (g_life g1) (nalloc g1) (LFresh t) m) as [[-> E]|[_ E]]; rewrite E in Hm; [discriminate Hm|exact Hm].
  - intros m. destruct (updN_cases (g_life g1) (nalloc g1) (LFresh t) m) as [[-> ->]|[_ ->]]; [rewrite Hw, Hf; split; reflexivity|apply Iwh].
  - intros u. rewrite (upd_pc2 hand _ t p1 (R3 c g None) eq_refl). apply Ihand.
  - intros o m Hm. apply Iinlt in Hm. lia.
  - intros u. rewrite (upd_pc2 xdone _ t p1 (R3 c g None) eq_refl). apply Ixd.
  - intros u. rewrite (upd_pc2 in_cphase _ t p1 (R3 c g None) eq_refl). apply Ice.
Qed.

Lemma N0_step ns s t s' es : T0 ns s -> O0 s -> EI s -> N0 s -> step ns s (Step t) = Some (s', es) -> N0 s'.
Proof.
  intros T O E I H. destruct (step_view _ _ _ _ _ H) as (p' & g1 & V & [->|(c & g & -> & ->)]).
  - eapply N0_view; eassumption.
  - apply N0_alloc. eapply N0_view; eassumption.
Qed.

(** the start of an operation changes the program counter only *)
Lemma start_quiet ns s t o s' es : step ns s (Start t o) = Some (s', es) -> exists p', s' = set_pc t p' s /\ quiet s t p' s.
Proof.
  intros H. destruct (start_same _ _ _ _ _ _ H) as (Hidle & Es & Hp). exists (th s' t). split; [exact Es|].
  assert (Hx : th s' t = X4 -> xstart (rl (tl s t)) = X4).
  { intros E. unfold step, step_gen in H. step_split H; prj_in E; rewrite upd_same in E; try discriminate E. exact E. }
  constructor; rewrite ?Hidle; auto; try lia.
  all: destruct Hp as [->|[->|[E|[o' ->]]]]; try rewrite E; cbn; auto; discriminate.
Qed.

Lemma N0_start ns s t o s' es : N0 s -> step ns s (Start t o) = Some (s', es) -> N0 s'.
Proof. intros I H. destruct (start_quiet _ _ _ _ _ _ H) as (p' & -> & Q). exact (N0_quiet _ _ _ _ Q I). Qed.
