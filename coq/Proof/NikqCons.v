(** nikolaev_queue model: the theorems derived from the invariant layers (Proof/NikqRing.v: every node is a bounded
    queue satisfying the ring invariants; NikqChain.v: the node chain; NikqValStep.v: the value invariant), for every
    good state (reachable, no counter of any node wrapped): entries_per_node 2^k (k <= 40), any pop_retries R, any
    number of threads, any programs, any schedule (sequentially consistent interleavings). *)
From Coq Require Import NArith List Bool Lia PeanoNat Permutation.
From XV Require Import Base.Word Conc.Lts Conc.Ev gen.ScqGen Model.NikbDefs Model.NikqDefs.
From XV Require Import Proof.NikbArith Proof.NikbBase Proof.NikbWf Proof.NikbOwn Proof.NikbVal Proof.NikbSafe Proof.NikbCons.
From XV Require Import Proof.NikqBase Proof.NikqRing Proof.NikqChain Proof.NikqVal Proof.NikqValStep.
Import ListNotations.
Local Open Scope N_scope.

Set Default Proof Using "All".
Section QCons.
  Variable k R : N.
  Hypothesis Hk : k <= 40.
  Notation cap := (2 ^ k).
  Notation qstep := (NikqDefs.qstep cap R).
  Notation good := (good k R).
  Notation slot := (slot k).
  Notation eidx := (eidx k).
  Notation ecyc := (ecyc k).

  Lemma good_all s : good s -> Coh s /\ CI cap s /\ (forall n, Inv1 k (nd s n) /\ Inv2 k (nd s n) /\ Inv4 k (nd s n) /\ A3 (nd s n)) /\ PT s /\ VI k s.
  Proof.
    intros Hg. destruct (good_inv k R Hk s Hg) as (Hh & Hc & HR). ssplit; try assumption.
    - apply (PT_reach k R Hk s (proj1 Hg)).
    - apply (VI_good k R Hk s Hg).
  Qed.

  (** * ring level, per node *)
  Theorem nikq_never_stranded s n q T : good s -> ~ stranded (rg (nd s n) q) T.
  Proof. intros Hg (i & Hp & Hl). destruct (good_all s Hg) as (_ & _ & HR & _). destruct (HR n) as (_ & _ & I4 & _). apply (i4ns k _ I4 q T i Hl Hp). Qed.

  Theorem nikq_published_fate s n q T i : good s -> g_eq (rg (nd s n) q) T = EPub i ->
    g_dq (rg (nd s n) q) T = DTaken i \/
    (exists u, g_dq (rg (nd s n) q) T = DHeld u /\ dtk (th (nd s n) u) = Some (q, 2 * T)) \/
    (g_dq (rg (nd s n) q) T = DNone /\ rhead (rg (nd s n) q) <= 2 * T /\ eidx (slot (nd s n) q T) = i /\ ecyc (slot (nd s n) q T) = T / nn cap).
  Proof.
    intros Hg Hp. destruct (good_all s Hg) as (_ & _ & HRI & _). destruct (HRI n) as ([HW _] & (HR & _) & _ & HA3).
    destruct (HR q) as [_ _ c1 _ _ _ _ s5 s6].
    destruct (g_dq (rg (nd s n) q) T) as [|u|j|] eqn:E.
    - right. right. destruct (s5 T i Hp) as [_ [Ht|(_ & X & Y)]]; [rewrite E in Ht; discriminate|].
      ssplit; [reflexivity| |exact X|exact Y]. destruct (HW q) as ([Hh2 _] & _).
      destruct (N.le_gt_cases (rhead (rg (nd s n) q)) (2 * T)) as [Hle|Hgt]; [exact Hle|exfalso].
      apply (HA3 q T); [lia|exact E].
    - right. left. exists u. split; [reflexivity|apply c1; exact E].
    - left. specialize (s6 T j E). rewrite Hp in s6. inversion s6. reflexivity.
    - exfalso. apply (nikq_never_stranded s n q T Hg). exists i. split; assumption.
  Qed.

  Theorem nikq_index_place s n i : good s -> i < cap ->
    match g_own (nd s n) i with
    | OFree T => 2 * T < 2 ^ 62 /\ eidx (slot (nd s n) RF T) = i /\ ecyc (slot (nd s n) RF T) = T / nn cap /\
                 g_eq (rf (nd s n)) T = EPub i /\ (forall j, g_dq (rf (nd s n)) T <> DTaken j)
    | OFull T => 2 * T < 2 ^ 62 /\ eidx (slot (nd s n) RA T) = i /\ ecyc (slot (nd s n) RA T) = T / nn cap /\
                 g_eq (ra (nd s n)) T = EPub i /\ (forall j, g_dq (ra (nd s n)) T <> DTaken j)
    | OWrite t => hidx (th (nd s n) t) = Some (RA, i)
    | ORead t => hidx (th (nd s n) t) = Some (RF, i)
    end.
  Proof.
    intros Hg Hi. destruct (good_all s Hg) as (_ & _ & HRI & _). destruct (HRI n) as (I1 & (HR & HT & HO) & _).
    (* an index in ring q under ticket T *)
    assert (Hring : forall q T, g_own (nd s n) i = inring q T -> 2 * T < 2 ^ 62 /\ eidx (slot (nd s n) q T) = i /\
              ecyc (slot (nd s n) q T) = T / nn cap /\ g_eq (rg (nd s n) q) T = EPub i /\ (forall j, g_dq (rg (nd s n) q) T <> DTaken j)).
    { intros q T E. destruct (HR q) as [_ _ _ _ s2 _ s4 _ _]. destruct (s4 i T Hi E) as (X & Y & Z).
      assert (Y' : eidx (slot (nd s n) q T) < cap) by (rewrite Y; exact Hi).
      destruct (s2 T X Y' Z) as (P & _ & Q). rewrite Y in P. ssplit; assumption. }
    destruct (g_own (nd s n) i) as [T|t|T|t] eqn:E; [apply (Hring RF T eq_refl)|apply (HO i t RA E)|apply (Hring RA T eq_refl)|apply (HO i t RF E)].
  Qed.

  Theorem nikq_exclusive_cell s n t1 t2 q1 q2 i : good s ->
    hidx (th (nd s n) t1) = Some (q1, i) -> hidx (th (nd s n) t2) = Some (q2, i) -> t1 = t2 /\ q1 = q2.
  Proof.
    intros Hg H1 H2. destruct (good_all s Hg) as (_ & _ & HRI & _). destruct (HRI n) as (_ & I2 & _).
    destruct (held_cell k R Hk _ _ _ _ I2 H1) as [A _]. destruct (held_cell k R Hk _ _ _ _ I2 H2) as [B _].
    rewrite A in B. apply held_inj in B. destruct B as [B1 B2]. split; congruence.
  Qed.

  (** * values *)
  Theorem nikq_values s : good s ->
    NoDup (map fst (q_in s)) /\ NoDup (map fst (q_out s)) /\ incl (q_out s) (q_in s) /\
    NoDup (map fst (q_ok s)) /\ incl (q_ok s) (q_in s) /\
    NoDup (map fst (q_ret s)) /\ incl (q_ret s) (q_out s).
  Proof.
    intros Hg. destruct (good_all s Hg) as (_ & _ & _ & _ & HV). destruct HV.
    ssplit; try assumption.
    - intros [[n H] v] Hx. apply (v3 n H v Hx).
    - intros [[n H] v] Hx. apply (vok n H v Hx).
    - intros [[n H] v] Hx. apply (vret n H v Hx).
  Qed.

  (** a published pair whose ticket has been taken is in the list of taken pairs *)
  Lemma vi_taken s n T v i : VI k s -> In (n, T, v) (q_in s) -> g_dq (ra (nd s n)) T = DTaken i -> In (n, T, v) (q_out s).
  Proof.
    intros [] Hin Ht. destruct (v2 n T v Hin) as [Hn _]. destruct (v4 n T i Hn Ht) as [w Hw]. destruct (v3 n T w Hw) as [Hw' _].
    rewrite (key_unique _ (n, T) v w v2n Hin Hw'). exact Hw.
  Qed.

  Theorem nikq_published_taken_or_stored s n T v : good s -> In (n, T, v) (q_in s) ->
    In (n, T, v) (q_out s) \/ (In n (q_nodes s) /\ exists i, i < cap /\ g_own (nd s n) i = OFull T /\ store (nd s n) i = v).
  Proof.
    intros Hg Hin. destruct (good_all s Hg) as (_ & _ & HRI & _ & HV). destruct (HRI n) as (I1 & (HR & _) & _). pose proof HV as [].
    destruct (v2 n T v Hin) as [Hn [i Hp]]. destruct (HR RA) as [_ a2 _ _ s2 _ _ s5 _].
    destruct (s5 T i Hp) as [Hi [Ht|(Hnt & Hsi & Hsc)]].
    - left. exact (vi_taken s n T v i HV Hin Ht).
    - right. split; [exact Hn|]. exists i. assert (HT : 2 * T < 2 ^ 62).
      { assert (Hne : g_eq (ra (nd s n)) T <> ENone) by (rewrite Hp; discriminate). specialize (a2 T Hne).
        destruct I1 as [HW _]. destruct (HW RA) as (_ & [_ Hlt] & _). lia. }
      destruct (s2 T HT ltac:(rewrite Hsi; exact Hi) Hsc) as (_ & Ho & _). rewrite Hsi in Ho. cbn [inring] in Ho.
      ssplit; [exact Hi|exact Ho|]. apply (key_unique _ (n, T) _ _ v2n); [apply v1; assumption|exact Hin].
  Qed.

  Theorem nikq_stored_published s n i T : good s -> In n (q_nodes s) -> i < cap -> g_own (nd s n) i = OFull T ->
    In (n, T, store (nd s n) i) (q_in s) /\ forall v, ~ In (n, T, v) (q_out s).
  Proof.
    intros Hg Hn Hi Ho. destruct (good_all s Hg) as (_ & _ & _ & _ & HV). destruct HV.
    split; [apply v1; assumption|]. intros v Hin. destruct (v3 n T v Hin) as [_ [j Hj]].
    pose proof (nikq_index_place s n i Hg Hi) as Hp. rewrite Ho in Hp. destruct Hp as (_ & _ & _ & _ & Hnt). apply (Hnt j Hj).
  Qed.

  (** the cells whose index is in the allocated ring of a node, with node and ticket; all linked nodes *)
  Definition node_pairs (s : qstate) (n : N) : list (N * N * N) :=
    flat_map (fun i => match g_own (nd s n) (N.of_nat i) with OFull T => [(n, T, store (nd s n) (N.of_nat i))] | _ => [] end)
             (seq 0 (N.to_nat cap)).
  Definition stored (s : qstate) : list (N * N * N) := flat_map (node_pairs s) (q_nodes s).

  Lemma in_node_pairs s n m T v : In (m, T, v) (node_pairs s n) <-> m = n /\ exists i, i < cap /\ g_own (nd s n) i = OFull T /\ store (nd s n) i = v.
  Proof.
    unfold node_pairs. rewrite in_flat_map. split.
    - intros (j & Hj & Hin). apply in_seq in Hj.
      destruct (g_own (nd s n) (N.of_nat j)) as [T'|t|T'|t] eqn:E; try contradiction. destruct Hin as [Hin|[]]. inversion Hin; subst.
      split; [reflexivity|]. exists (N.of_nat j). split; [lia|]. split; [exact E|reflexivity].
    - intros (Hm & i & Hi & Ho & Hv). subst m. exists (N.to_nat i). split; [apply in_seq; lia|]. rewrite N2Nat.id, Ho. left. rewrite Hv. reflexivity.
  Qed.

  Lemma in_stored s n T v : In (n, T, v) (stored s) <-> In n (q_nodes s) /\ exists i, i < cap /\ g_own (nd s n) i = OFull T /\ store (nd s n) i = v.
  Proof.
    unfold stored. rewrite in_flat_map. split.
    - intros (m & Hm & Hin). apply in_node_pairs in Hin. destruct Hin as [-> Hx]. split; assumption.
    - intros [Hn Hx]. exists n. split; [exact Hn|]. apply in_node_pairs. split; [reflexivity|exact Hx].
  Qed.

  Lemma NoDup_app3 (l1 l2 : list (N * N * N)) : NoDup l1 -> NoDup l2 -> (forall x, In x l1 -> In x l2 -> False) -> NoDup (l1 ++ l2).
  Proof.
    induction l1 as [|a l1 IH]; intros H1 H2 Hd; cbn [app]; [exact H2|]. inversion H1 as [|? ? Hni H1']; subst. constructor.
    - rewrite in_app_iff. intros [Hx|Hx]; [contradiction|]. apply (Hd a); [left; reflexivity|exact Hx].
    - apply IH; [exact H1'|exact H2|]. intros x Hx Hy. apply (Hd x); [right; exact Hx|exact Hy].
  Qed.

  Lemma nodup_flat_map3 {A} (f : A -> list (N * N * N)) (l : list A) :
    NoDup l -> (forall a, In a l -> NoDup (f a)) ->
    (forall a b x, In a l -> In b l -> In x (f a) -> In x (f b) -> a = b) -> NoDup (flat_map f l).
  Proof.
    induction l as [|a l IH]; intros Hn Hf Hd; cbn [flat_map]; [constructor|]. inversion Hn as [|? ? Hni Hn']; subst.
    apply NoDup_app3.
    - apply Hf. left. reflexivity.
    - apply IH; [exact Hn'|intros b Hb; apply Hf; right; exact Hb|intros b c x Hb Hc; apply Hd; right; assumption].
    - intros x Hx Hy. apply in_flat_map in Hy. destruct Hy as (b & Hb & Hxb).
      assert (a = b) by (apply (Hd a b x); [left; reflexivity|right; exact Hb|exact Hx|exact Hxb]). subst b. contradiction.
  Qed.

  (** CONSERVATION, in every good state: published = taken + stored in the allocated rings of the linked nodes *)
  Theorem nikq_conservation s : good s -> Permutation (q_in s) (q_out s ++ stored s).
  Proof.
    intros Hg. destruct (nikq_values s Hg) as (N1 & N2 & I1 & _). destruct (good_all s Hg) as (_ & Hc & _).
    apply NoDup_Permutation.
    - apply (NoDup_map_inv fst). exact N1.
    - apply NoDup_app3.
      + apply (NoDup_map_inv fst). exact N2.
      + unfold stored. apply nodup_flat_map3; [apply (c_nd cap s Hc)| |].
        * intros n Hn. unfold node_pairs. apply nodup_flat_map3; [apply seq_NoDup| |].
          -- intros j _. destruct (g_own (nd s n) (N.of_nat j)); try constructor; [intros []|constructor].
          -- intros a b [[m T] v] Ha Hb Hxa Hxb. apply in_seq in Ha. apply in_seq in Hb.
             destruct (g_own (nd s n) (N.of_nat a)) as [Ta|ta|Ta|ta] eqn:Ea; try contradiction.
             destruct (g_own (nd s n) (N.of_nat b)) as [Tb|tb|Tb|tb] eqn:Eb; try contradiction.
             destruct Hxa as [Hxa|[]]. destruct Hxb as [Hxb|[]]. injection Hxa as _ E2 _. injection Hxb as _ F2 _. subst Ta Tb.
             pose proof (nikq_index_place s n (N.of_nat a) Hg ltac:(lia)) as Pa. rewrite Ea in Pa.
             pose proof (nikq_index_place s n (N.of_nat b) Hg ltac:(lia)) as Pb. rewrite Eb in Pb.
             destruct Pa as (_ & Pa & _). destruct Pb as (_ & Pb & _). rewrite Pa in Pb. lia.
        * intros a b [[m T] v] _ _ Hxa Hxb. apply in_node_pairs in Hxa. apply in_node_pairs in Hxb. destruct Hxa as [-> _]. destruct Hxb as [-> _]. reflexivity.
      + intros [[n T] v] Hout Hst. apply in_stored in Hst. destruct Hst as (Hn & i & Hi & Ho & _).
        destruct (nikq_stored_published s n i T Hg Hn Hi Ho) as [_ Hx]. apply (Hx v Hout).
    - intros [[n T] v]. rewrite in_app_iff, in_stored. split.
      + intros Hin. apply (nikq_published_taken_or_stored s n T v Hg Hin).
      + intros [Hout|(Hn & i & Hi & Ho & Hv)]; [apply I1; exact Hout|]. subst v. apply (nikq_stored_published s n i T Hg Hn Hi Ho).
  Qed.

  (** * FIFO *)
  (** what a pop takes at (n, H) is what a push published at (n, H); keys are unique *)
  Theorem nikq_fifo_by_ticket s n H v : good s -> In (n, H, v) (q_out s) ->
    In (n, H, v) (q_in s) /\ (forall w, In (n, H, w) (q_in s) -> w = v) /\ (forall w, In (n, H, w) (q_out s) -> w = v).
  Proof.
    intros Hg Hin. destruct (nikq_values s Hg) as (N1 & N2 & I1 & _). pose proof (I1 _ Hin) as Hi.
    ssplit; [exact Hi| |]; intros w Hw; [apply (key_unique _ (n, H) w v N1 Hw Hi)|apply (key_unique _ (n, H) w v N2 Hw Hin)].
  Qed.

  (** inside a node, no overtaking: when ticket T2 of node n has been taken, a published smaller ticket T1 of n has been
      taken or a pop in progress holds dequeue ticket T1 inside its do-loop *)
  Theorem nikq_fifo_order s n T1 v1 T2 v2 : good s -> In (n, T1, v1) (q_in s) -> In (n, T2, v2) (q_out s) -> T1 < T2 ->
    In (n, T1, v1) (q_out s) \/ (exists u, g_dq (ra (nd s n)) T1 = DHeld u /\ dtk (th (nd s n) u) = Some (RA, 2 * T1)).
  Proof.
    intros Hg Hin Hout Hlt. destruct (good_all s Hg) as (_ & _ & HRI & _ & HV). destruct (HRI n) as (I1 & (HR & _) & _ & HA3).
    pose proof HV as [i1 i2 i2n i3 i3n i4 iok iokn iret iretn ib1 ib2 it_].
    destruct (i3 n T2 v2 Hout) as [_ [j2 Ht2]]. destruct (HR RA) as [a1 _ _ _ _ _ _ _ _].
    assert (Hh : 2 * T2 + 2 <= rhead (ra (nd s n))) by (apply a1; rewrite Ht2; discriminate).
    destruct (i2 n T1 v1 Hin) as [Hn [i Hp]].
    destruct (nikq_published_fate s n RA T1 i Hg Hp) as [E|[Hh'|(_ & Hle & _)]]; [left; exact (vi_taken s n T1 v1 i HV Hin E)|right; exact Hh'|lia].
  Qed.

  Theorem nikq_ticket_below_counter s : good s ->
    (forall n T v, In (n, T, v) (q_in s) -> 2 * T + 2 <= rtail (ra (nd s n))) /\
    (forall n H v, In (n, H, v) (q_out s) -> 2 * H + 2 <= rhead (ra (nd s n))).
  Proof.
    intros Hg. destruct (good_all s Hg) as (_ & _ & HRI & _ & HV). destruct HV. split.
    - intros n T v Hin. destruct (HRI n) as (_ & (HR & _) & _). destruct (HR RA) as [_ a2 _ _ _ _ _ _ _].
      destruct (v2 n T v Hin) as [_ [i Hi]]. apply a2. rewrite Hi. discriminate.
    - intros n H v Hin. destruct (HRI n) as (_ & (HR & _) & _). destruct (HR RA) as [a1 _ _ _ _ _ _ _ _].
      destruct (v3 n H v Hin) as [_ [i Hi]]. apply a1. rewrite Hi. discriminate.
  Qed.

  (** across nodes: a pop works on (and takes from) a node that is or was the head: nothing leaves node i+1 before the
      head has moved to it *)
  Definition popnode (p : opc) : option N :=
    match p with QIn1 n _ | Q2 n | Q3 n | QIn2 n _ | Q4 n | Q5 n _ => Some n | _ => None end.
  Definition HQ (s : qstate) : Prop :=
    (forall t n, popnode (oth s t) = Some n -> In n (q_retired s ++ [qhead s])) /\
    (forall n H v, In (n, H, v) (q_out s) -> In n (q_retired s ++ [qhead s])).

  Lemma q_out_pub st s1 t n sg : q_out (pub_ghost cap st s1 t n sg) = q_out s1.
  Proof. destruct (pub_ghost_cases cap st s1 t n sg) as [[-> _]|(? & ? & ? & ? & _ & ->)]; reflexivity. Qed.

  Lemma push_in_out st t v n s' es : push_in cap R st t v n = Some (s', es) -> q_out s' = q_out st.
  Proof.
    intros H. destruct (push_in_spec cap R _ _ _ _ _ _ H) as [(x & idx & gk & sg' & es0 & _ & _ & _ & -> & _)|(sg' & es0 & _ & _ & [(_ & -> & _)|[(_ & _ & -> & _)|(_ & _ & x & i & gk & _ & -> & _)]])];
      qsimg; rewrite ?q_out_pub; reflexivity.
  Qed.
  Lemma push_re_out st t v n s' es : push_re cap R st t v n = Some (s', es) -> q_out s' = q_out st.
  Proof. intros H. destruct (push_re_spec cap R _ _ _ _ _ _ H) as (sg' & es0 & _ & [(_ & -> & _)|[_ Hn]]); [|apply new_node_eff in Hn; destruct Hn as [-> _]]; reflexivity. Qed.
  Lemma steal_out st t v m lb s' es : steal_phase cap R st t v m lb = Some (s', es) -> q_out s' = q_out st.
  Proof. intros H. destruct (steal_spec cap R _ _ _ _ _ _ _ H) as (sg' & es0 & lb' & _ & _ & [[_ ->]|[_ [[x ->]| ->]]]); reflexivity. Qed.
  Lemma del_out st t v m lb s' es : del_phase cap R st t v m lb = Some (s', es) -> q_out s' = q_out st.
  Proof. intros H. destruct (del_spec cap R _ _ _ _ _ _ _ H) as (sg' & es0 & lb' & _ & [(_ & -> & _)|(_ & _ & [[_ ->]|[_ ->]])]); reflexivity. Qed.
  (** a pop takes from its own node only *)
  Lemma pop_out st t n lb again failed s' es x : pop_phase cap R st t n lb again failed = Some (s', es) ->
    In x (q_out s') -> In x (q_out st) \/ fst (fst x) = n.
  Proof.
    intros H. destruct (pop_spec cap R _ _ _ _ _ _ _ _ H) as (sg' & es0 & lb' & _ & Hc).
    destruct (take_ghost_cases cap st (w_nd st n sg') t n (nd st n)) as [[E _]|(? & ? & ? & _ & E)]; rewrite E in Hc; clear E;
      destruct Hc as [(_ & -> & _)|[(_ & _ & -> & _)|(_ & ? & ? & ? & ? & _ & _ & -> & _)]]; qsimg; auto;
      intros Hx; apply in_snoc3 in Hx; destruct Hx as [Hx| ->]; auto.
  Qed.

  (** thread t goes to p, a program point of its pop node or of the head, and takes from its pop node only *)
  Lemma HQ_frame s s' t p : HQ s -> (forall x, In x (q_out s') -> In x (q_out s) \/ popnode (oth s t) = Some (fst (fst x))) ->
    q_retired s' = q_retired s -> qhead s' = qhead s ->
    oth s' = upd (oth s) t p -> (popnode p = None \/ popnode p = popnode (oth s t) \/ popnode p = Some (qhead s)) -> HQ s'.
  Proof.
    intros [H1 H2] Eo Er Eh Eoth Hp. split.
    - intros u m. rewrite Eoth, Er, Eh. destruct (Nat.eq_dec u t) as [->|Hne]; [rewrite upd_same|rewrite upd_other by exact Hne; apply H1].
      destruct Hp as [Hp|[Hp|Hp]]; rewrite Hp; [discriminate|apply H1|].
      intros E; inversion E; subst. apply in_or_app. right. left. reflexivity.
    - intros m H v Hx. rewrite Er, Eh. destruct (Eo _ Hx) as [Hy|Hy]; [apply (H2 m H v Hy)|apply (H1 t m Hy)].
  Qed.

  Lemma HQ_step s a s' es : CI cap s -> HQ s -> qstep s a = Some (s', es) -> HQ s'.
  Proof.
    intros Hc HH Hst. unfold NikqDefs.qstep in Hst. destruct a as [t o|t].
    - destruct (oth s t); try discriminate. injection Hst as <- _.
      eapply (HQ_frame s _ t _ HH); qsimg; try reflexivity; auto.
    - pose proof (HQ_frame s s' t) as Hfr.
      destruct (oth s t) as [|[v|tp]| |v|v n|v n|v n nx|v n|v n|v n|v n m0 i|v n m0 i|v n m0|v n m0|v m0 lb|v m0 lb| |n lb|n|n|n lb|n|n nx] eqn:Eo;
        try discriminate; cbn [popnode] in Hfr.
      all: try solve [break Hst; injection Hst as <- _; (eapply (HQ_frame s _ t _ HH); qsimg; try reflexivity; rewrite ?Eo; cbn [popnode]; auto)].
      + (* PIn *) destruct (push_in_mv cap R true _ _ _ _ _ _ Hst) as (sg' & p & ((E1 & _ & _ & _ & _ & _ & _ & E8) & _ & Ho) & _ & Hp).
        apply (Hfr p HH); try assumption; [rewrite (push_in_out _ _ _ _ _ _ Hst); auto|]. left. destruct Hp as [->|[[-> _]|[_ [->| ->]]]]; reflexivity.
      + (* PRe *) assert (Eq := push_re_out _ _ _ _ _ _ Hst). destruct (push_re_mv cap R true _ _ _ _ _ _ Hst) as (sg' & _ & [((E1 & _ & _ & _ & _ & _ & _ & E8) & _ & Ho)|[_ ->]]).
        * apply (Hfr (PRe v n) HH); try assumption; [rewrite Eq; auto|left; reflexivity].
        * eapply (HQ_frame s _ t _ HH); qsimg; try reflexivity; auto.
      + (* PSt *) destruct (steal_mv cap R true _ _ _ _ _ _ _ Hst) as (sg' & p & ((E1 & _ & _ & _ & _ & _ & _ & E8) & _ & Ho) & _ & Hp).
        apply (Hfr p HH); try assumption; [rewrite (steal_out _ _ _ _ _ _ _ Hst); auto|]. left. destruct Hp as [[lb' ->]|[[x ->]| ->]]; reflexivity.
      + (* PDel *) destruct (del_mv cap R true _ _ _ _ _ _ _ Hst) as (sg' & p & ((E1 & _ & _ & _ & _ & _ & _ & E8) & _ & Ho) & _ & Hp).
        apply (Hfr p HH); try assumption; [rewrite (del_out _ _ _ _ _ _ _ Hst); auto|]. left. destruct Hp as [[lb' ->]|[->|[_ ->]]]; reflexivity.
      + (* QIn1 *) destruct (pop_mv cap R true _ _ _ _ _ _ _ _ Hst) as (sg' & p & ((E1 & _ & _ & _ & _ & _ & _ & E8) & _ & Ho) & _ & Hp).
        apply (Hfr p HH); try assumption; [intros x Hx; destruct (pop_out _ _ _ _ _ _ _ _ x Hst Hx) as [|<-]; auto|]. destruct Hp as [[lb' ->]|[_ [->| ->]]]; cbn [popnode]; auto.
      + (* QIn2 *) destruct (pop_mv cap R true _ _ _ _ _ _ _ _ Hst) as (sg' & p & ((E1 & _ & _ & _ & _ & _ & _ & E8) & _ & Ho) & _ & Hp).
        apply (Hfr p HH); try assumption; [intros x Hx; destruct (pop_out _ _ _ _ _ _ _ _ x Hst Hx) as [|<-]; auto|]. destruct Hp as [[lb' ->]|[_ [->| ->]]]; cbn [popnode]; auto.
      + (* Q5 *) destruct HH as [H1 H2]. destruct (N.eqb_spec (qhead s) n) as [<-|Hh]; injection Hst as <- _.
        * split; qsimg.
          -- intros u m. destruct (Nat.eq_dec u t) as [->|Hne]; [rewrite upd_same; discriminate|rewrite upd_other by exact Hne].
             intros Hx. apply in_or_app. left. apply (H1 u m Hx).
          -- intros m H v Hx. apply in_or_app. left. apply (H2 m H v Hx).
        * eapply (HQ_frame s _ t _ (conj H1 H2)); qsimg; try reflexivity; auto.
  Qed.

  Theorem HQ_reach : forall s, reach (qinit cap) qstep s -> HQ s.
  Proof.
    apply (inv_rule_aux _ _ _ (qinit cap) qstep (CI cap) HQ).
    - apply (CI_reach cap R).
    - split; [intros t n H; discriminate|intros n H v []].
    - intros s a s' es Hc _ HH Hst. eapply HQ_step; eauto.
  Qed.

  Theorem nikq_taken_from_head_nodes s n H v : good s -> In (n, H, v) (q_out s) -> In n (q_retired s) \/ n = qhead s.
  Proof.
    intros [Hr _] Hin. destruct (HQ_reach s Hr) as [_ H2]. specialize (H2 n H v Hin). apply in_app_or in H2.
    destruct H2 as [H2|[H2|[]]]; [left; exact H2|right; symmetry; exact H2].
  Qed.

  (** * the node chain, retirement *)
  Theorem nikq_chain s : reach (qinit cap) qstep s ->
    NoDup (q_nodes s) /\ (exists rest, q_nodes s = q_retired s ++ qhead s :: rest) /\ In (qtail s) (q_nodes s) /\
    linked (nxt s) (q_nodes s) /\ (forall n, nxt s n <> 0 -> In n (q_nodes s) /\ fin s n = true) /\
    NoDup (q_retired s) /\ ~ In (qhead s) (q_retired s) /\ (forall n, In n (q_nodes s) -> 0 < n < nalloc s).
  Proof.
    intros Hr. pose proof (CI_reach cap R s Hr) as Hc. destruct Hc as [a1 a2 a3 a4 a5 a6 a7 a8 af a9].
    destruct a3 as [rest E]. ssplit; try assumption; [exists rest; exact E| |].
    - rewrite E in a1. clear -a1. induction (q_retired s) as [|c l IH]; [constructor|]. cbn [app] in a1. inversion a1 as [|? ? Hx Hy]; subst.
      constructor; [intros Hi; apply Hx; apply in_or_app; left; exact Hi|apply IH; exact Hy].
    - rewrite E in a1. apply NoDup_remove_2 in a1. intros Hi. apply a1. apply in_or_app. left. exact Hi.
  Qed.

  (** a thread whose private node is under construction or being destroyed is the only one that knows it; it is not linked *)
  Theorem nikq_private_nodes s t m : reach (qinit cap) qstep s -> priv (oth s t) = Some m ->
    ~ In m (q_nodes s) /\ nxt s m = 0 /\ (forall u, priv (oth s u) = Some m -> u = t) /\ (forall u n, In n (refs (oth s u)) -> n <> m).
  Proof.
    intros Hr Hp. pose proof (CI_reach cap R s Hr) as Hc. destruct (c_priv cap s Hc t m Hp) as (V1 & V2 & V3 & V4).
    ssplit; try assumption. intros u n Hn ->. apply V1. apply (c_refs cap s Hc u). exact Hn.
  Qed.

  (** the chain only grows, next pointers and finalization are final; a node is retired exactly by the successful head CAS *)
  Theorem nikq_retire_step s a s' es : reach (qinit cap) qstep s -> qstep s a = Some (s', es) ->
    (q_retired s' = q_retired s /\ qhead s' = qhead s) \/
    (exists t n nx, a = Step t /\ oth s t = Q5 n nx /\ qhead s = n /\ nxt s n = nx /\ nx <> 0 /\
                    q_retired s' = q_retired s ++ [n] /\ qhead s' = nx /\ In (ENote t 120 [n]) es).
  Proof.
    intros Hr Hst. pose proof (CI_reach cap R s Hr) as Hc. unfold NikqDefs.qstep in Hst. destruct a as [t o|t].
    - destruct (oth s t); try discriminate. injection Hst as <- _. left. split; reflexivity.
    - pose proof (c_t5 cap s Hc t) as T5.
      assert (Hmv : forall n sg' p, moves s s' t n sg' p -> q_retired s' = q_retired s /\ qhead s' = qhead s)
        by (intros n sg' p ((E1 & _ & _ & _ & _ & _ & _ & E8) & _); split; assumption).
      destruct (oth s t) as [|[v|tp]| |v|v n|v n|v n nx|v n|v n|v n|v n m0 i|v n m0 i|v n m0|v n m0|v m0 lb|v m0 lb| |n lb|n|n|n lb|n|n nx] eqn:Eo;
        try discriminate.
      all: try solve [break Hst; injection Hst as <- _; left; split; reflexivity].
      + destruct (push_in_mv cap R true _ _ _ _ _ _ Hst) as (sg' & p & Hm & _). left. exact (Hmv _ _ _ Hm).
      + destruct (push_re_mv cap R true _ _ _ _ _ _ Hst) as (sg' & _ & [Hm|[_ ->]]); left; [exact (Hmv _ _ _ Hm)|split; reflexivity].
      + destruct (steal_mv cap R true _ _ _ _ _ _ _ Hst) as (sg' & p & Hm & _). left. exact (Hmv _ _ _ Hm).
      + destruct (del_mv cap R true _ _ _ _ _ _ _ Hst) as (sg' & p & Hm & _). left. exact (Hmv _ _ _ Hm).
      + destruct (pop_mv cap R true _ _ _ _ _ _ _ _ Hst) as (sg' & p & Hm & _). left. exact (Hmv _ _ _ Hm).
      + destruct (pop_mv cap R true _ _ _ _ _ _ _ _ Hst) as (sg' & p & Hm & _). left. exact (Hmv _ _ _ Hm).
      + cbn [NikqChain.T5] in T5. destruct T5 as [T1 T2].
        destruct (N.eqb_spec (qhead s) n) as [<-|Hh]; injection Hst as <- <-; [|left; split; reflexivity].
        right. exists t, (qhead s), nx. ssplit; try reflexivity; try assumption. right. left. reflexivity.
  Qed.

  (** * verdicts *)
  (** what the final check of a dequeue on the allocated ring of node n sees (thread u, given-up ticket hd, at the instant
      of its load of the tail WORD, finalized bit included): tail <= head; every index published in the ring has a ticket
      below head: it has been taken, or an operation in progress holds that dequeue ticket inside its do-loop *)
  Theorem nikq_final_check s n u x hd : good s -> th (nd s n) u = D6 RA x hd ->
    gt0 (diff (bitw (rtail (ra (nd s n))) (fin s n)) (wadd 64 hd 2)) = false ->
    rtail (ra (nd s n)) <= hd + 2 /\ hd + 2 <= rhead (ra (nd s n)) /\
    forall T i, g_eq (ra (nd s n)) T = EPub i ->
      2 * T + 2 <= rhead (ra (nd s n)) /\
      (g_dq (ra (nd s n)) T = DTaken i \/
       (exists u', g_dq (ra (nd s n)) T = DHeld u' /\ dtk (th (nd s n) u') = Some (RA, 2 * T))).
  Proof.
    intros Hg Hpc Hchk. destruct (good_all s Hg) as (_ & _ & HRI & _). destruct (HRI n) as ([HW HT1] & (HR & _) & _ & HA3).
    pose proof (HT1 u) as Hu. rewrite Hpc in Hu. cbn [T1] in Hu. destruct Hu as [[Hhd2 Hhdlt] Hhle].
    destruct (HW RA) as ([_ Hhlt] & Htl & _). destruct (bitw_bound k R Hk (rtail (ra (nd s n))) (fin s n) Htl) as (B1 & B2 & B3).
    rewrite (wadd2_small hd Hhdlt) in Hchk. rewrite diff_gt0 in Hchk by (try exact B3; lia). apply N.ltb_ge in Hchk.
    ssplit; [lia|exact Hhle|]. intros T i Hp. destruct (HR RA) as [_ a2 _ _ _ _ _ _ _].
    assert (Hlt : 2 * T + 2 <= rtail (ra (nd s n))) by (apply a2; rewrite Hp; discriminate).
    split; [lia|]. destruct (nikq_published_fate s n RA T i Hg Hp) as [E|[Hh'|(_ & Hle & _)]]; [left; exact E|right; exact Hh'|lia].
  Qed.

  (** the 'empty' / 'node drained' verdict on the final-check path: at that instant every value published in node n has
      been taken or is being taken by a pop in progress *)
  Theorem nikq_empty_final_check s n u x hd : good s -> th (nd s n) u = D6 RA x hd ->
    gt0 (diff (bitw (rtail (ra (nd s n))) (fin s n)) (wadd 64 hd 2)) = false ->
    forall T v, In (n, T, v) (q_in s) ->
      In (n, T, v) (q_out s) \/ (exists u', g_dq (ra (nd s n)) T = DHeld u' /\ dtk (th (nd s n) u') = Some (RA, 2 * T)).
  Proof.
    intros Hg Hpc Hchk T v Hin. destruct (nikq_final_check s n u x hd Hg Hpc Hchk) as (_ & _ & Hall).
    destruct (good_all s Hg) as (_ & _ & _ & _ & HV). destruct (v2 k s HV n T v Hin) as [Hn [i Hp]].
    destruct (Hall T i Hp) as [_ [Ht|Hh]]; [left; exact (vi_taken s n T v i HV Hin Ht)|right; exact Hh].
  Qed.

  Lemma reloc_no_ret n fd es u r : ~ In (ERet u r) (reloc n fd es).
  Proof.
    unfold reloc. intros H. apply in_flat_map in H. destruct H as (e & _ & He). destruct e; cbn [rev1] in He;
      try (destruct He as [He|[]]; discriminate); destruct He.
  Qed.

  (** 'empty' is answered after a failed dequeue on a node without successor; in a good state this node is the head and the
      last node of the chain: all nodes before it are retired *)
  Theorem nikq_empty_answer s u s' es : good s -> qstep s (Step u) = Some (s', es) -> In (ERet u [0]) es ->
    exists n, oth s u = Q2 n /\ nxt s n = 0 /\ qhead s = n /\ q_nodes s = q_retired s ++ [n].
  Proof.
    intros Hg Hst Hin. destruct (good_all s Hg) as (_ & Hc & _). pose proof (HQ_reach s (proj1 Hg)) as [H1 _].
    unfold NikqDefs.qstep in Hst.
    (* the ring code emits no return event of the queue; what a phase appends is not 'empty' *)
    assert (Hnr : forall n fd es0 r, In (ERet u [0]) (reloc n fd es0 ++ r) -> In (ERet u [0]) r).
    { intros n fd es0 r Hx. apply in_app_or in Hx. destruct Hx as [Hx|Hx]; [destruct (reloc_no_ret _ _ _ _ _ Hx)|exact Hx]. }
    assert (Hpop : forall n lb again failed, pop_phase cap R s u n lb again failed = Some (s', es) -> False).
    { intros n lb again failed Hp. destruct (pop_spec cap R _ _ _ _ _ _ _ _ Hp) as (sg' & es0 & lb' & _ & [(_ & _ & ->)|[(_ & _ & _ & ->)|(_ & x & x' & i & gk & _ & _ & _ & ->)]]);
        [apply reloc_no_ret in Hin; exact Hin..|apply Hnr in Hin; destruct Hin as [Hin|[]]; discriminate]. }
    destruct (oth s u) as [|[v|tp]| |v|v n|v n|v n nx|v n|v n|v n|v n m0 i|v n m0 i|v n m0|v n m0|v m0 lb|v m0 lb| |n lb|n|n|n lb|n|n nx] eqn:Eo;
      try discriminate; try (destruct (Hpop _ _ _ _ Hst)).
    all: try (break Hst; injection Hst as <- <-; cbn [In app] in Hin; repeat (destruct Hin as [Hin|Hin]; try discriminate); contradiction).
    - exfalso. destruct (push_in_spec cap R _ _ _ _ _ _ Hst) as [(x & idx & gk & sg' & es0 & _ & _ & _ & _ & ->)|(sg' & es0 & _ & _ & [(_ & _ & ->)|[(_ & _ & _ & ->)|(_ & _ & x & i & gk & _ & _ & ->)]])];
        [apply reloc_no_ret in Hin; exact Hin..|apply Hnr in Hin; destruct Hin as [Hin|[]]; discriminate].
    - exfalso. destruct (push_re_spec cap R _ _ _ _ _ _ Hst) as (sg' & es0 & _ & [(_ & _ & ->)|[_ Hn]]); [apply reloc_no_ret in Hin; exact Hin|].
      apply new_node_eff in Hn. destruct Hn as [_ ->]. apply Hnr in Hin. cbn [alloc_evs In] in Hin. repeat (destruct Hin as [Hin|Hin]; try discriminate). exact Hin.
    - exfalso. destruct (steal_spec cap R _ _ _ _ _ _ _ Hst) as (sg' & es0 & lb' & _ & -> & _). apply reloc_no_ret in Hin; exact Hin.
    - exfalso. destruct (del_spec cap R _ _ _ _ _ _ _ Hst) as (sg' & es0 & lb' & _ & [(_ & _ & ->)|(_ & -> & _)]); [|apply reloc_no_ret in Hin; exact Hin].
      apply Hnr in Hin. cbn [free_evs In] in Hin. repeat (destruct Hin as [Hin|Hin]; try discriminate). exact Hin.
    - (* Q2 *) exists n. destruct (N.eqb_spec (nxt s n) 0) as [Hz|Hz]; injection Hst as <- <-.
      2:{ cbn [In] in Hin. destruct Hin as [Hin|[]]. discriminate. }
      assert (Hrn : In n (q_nodes s)) by (apply (c_refs cap s Hc u); rewrite Eo; left; reflexivity).
      destruct (ci_last cap s n Hc Hrn Hz) as [l El]. destruct (c_split cap s Hc) as [rest Er].
      pose proof (H1 u n ltac:(rewrite Eo; reflexivity)) as Hq. pose proof (c_nd cap s Hc) as Hnd.
      assert (Hhd : qhead s = n).
      { apply in_app_or in Hq. destruct Hq as [Hq|[Hq|[]]]; [exfalso|exact Hq].
        apply in_split in Hq. destruct Hq as (r1 & r2 & Eq). rewrite Eq in Er. rewrite <- app_assoc in Er. cbn [app] in Er.
        destruct (nodup_split_eq (q_nodes s) Hnd _ _ _ _ n El Er) as [_ Hx]. destruct r2; discriminate. }
      ssplit; try reflexivity; try assumption. rewrite Hhd in Er.
      destruct (nodup_split_eq (q_nodes s) Hnd _ _ _ _ n El Er) as [-> Hx]. subst rest. exact Er.
  Qed.

  (** a failing dequeue of do_pop: where the failure comes from (first threshold test, threshold decrement in the loop, or the
      final check of tail against the thread's ticket followed by catchup) *)
  Lemma step_ret_in sg u sg' es r : NikbDefs.step cap R sg (Step u) = Some (sg', es) -> ret_of es = Some r -> In (ERet u r) es.
  Proof.
    intros Hst. step_cases Hst; cbn [ret_of app]; intros Hr; try discriminate; inversion Hr; subst; cbn [In]; tauto.
  Qed.

  Theorem nikq_dequeue_fail_sources s u s' es n : qstep s (Step u) = Some (s', es) ->
    ((exists lb, oth s u = QIn1 n lb) /\ oth s' u = Q2 n) \/ ((exists lb, oth s u = QIn2 n lb) /\ oth s' u = Q4 n) ->
    exists x, (th (nd s n) u = D0 RA x /\ lt0 (rthr (ra (nd s n))) = true) \/
              (th (nd s n) u = D7 RA x /\ sle 64 (rthr (ra (nd s n))) 0 = true) \/
              th (nd s n) u = D8 RA x.
  Proof.
    intros Hst Hcase. unfold NikqDefs.qstep in Hst.
    assert (G : forall lb again failed, pop_phase cap R s u n lb again failed = Some (s', es) -> oth s' u = failed ->
                (forall b, again b <> failed) -> failed <> OIdle ->
                exists x, (th (nd s n) u = D0 RA x /\ lt0 (rthr (ra (nd s n))) = true) \/
                          (th (nd s n) u = D7 RA x /\ sle 64 (rthr (ra (nd s n))) 0 = true) \/ th (nd s n) u = D8 RA x).
    { intros lb again failed Hp Ho Hag Hfi. destruct (pop_spec cap R _ _ _ _ _ _ _ _ Hp) as (sg' & es0 & lb' & Hs & Hc).
      destruct Hc as [(_ & E & _)|[(Hi & Hret & _)|(_ & x & x' & i & gk & _ & _ & E & _)]].
      - exfalso. rewrite E in Ho. qsim. rewrite oth_take_ghost in Ho. qsim. rewrite upd_same in Ho. apply (Hag lb' Ho).
      - destruct (istep_native k R Hk _ _ _ _ _ _ _ Hs) as [(_ & Hd & _)|Hn]; [rewrite Hi in Hd; discriminate|].
        pose proof (step_ret_in _ _ _ _ _ Hn Hret) as Hin.
        destruct (nikb_fail_sources k R Hk _ _ _ _ _ Hn Hin ltac:(right; reflexivity)) as (q & x & Hr & Hsrc).
        destruct q; [|discriminate]. exists x. exact Hsrc.
      - exfalso. rewrite E in Ho. qsim. rewrite upd_same in Ho. apply Hfi. symmetry. exact Ho. }
    destruct Hcase as [[[lb Eo] Ho]|[[lb Eo] Ho]]; rewrite Eo in Hst.
    - apply (G lb (QIn1 n) (Q2 n) Hst Ho); [intros b; discriminate|discriminate].
    - apply (G lb (QIn2 n) (Q4 n) Hst Ho); [intros b; discriminate|discriminate].
  Qed.

  (** * finalization: a finalized allocated ring hands out no enqueue ticket: a ticket that has not been handed out when
      the ring is finalized is never published (a fetch_add that sees the finalized bit gives its ticket up at once) *)
  Lemma step_geq_none sg t sg' es T : Inv2 k sg -> NikbDefs.step cap R sg (Step t) = Some (sg', es) -> g_eq (ra sg) T = ENone ->
    g_eq (ra sg') T = ENone \/ exists x idx gk, th sg t = E1 RA x idx gk.
  Proof.
    intros (_ & HT & _) Hst. destruct (HT t) as (_ & Tb & _).
    step_cases Hst; cbn [etk] in Tb; intros Hx; try (left; exact Hx); try (right; eauto; fail).
    all: left; unfold setf; match goal with |- context [if ?a =? ?b then _ else _] => destruct (N.eqb_spec a b) as [Heq|]; [|exact Hx] end.
    all: exfalso; subst T; rewrite (Tb RA tl eq_refl) in Hx; discriminate.
  Qed.

  Lemma istep_geq_none sg f lb t sg' es lb' T : Inv2 k sg -> istep cap R sg f lb t = Some (sg', es, lb') -> g_eq (ra sg) T = ENone ->
    g_eq (ra sg') T = ENone \/ exists x idx gk, th sg t = E1 RA x idx gk.
  Proof.
    intros I2 H Hx.
    destruct (istep_inv cap R _ _ _ _ _ _ _ H) as [Hs|[(x & hd & att & e & b & _ & ->)|[(x & hd & _ & ->)|[(x & tl & hd & _ & [[_ ->]| ->])|(x & tl & _ & ->)]]]];
      [eapply step_geq_none; eauto|left; unfold mark_left; try destruct (leaves _); exact Hx..].
  Qed.

  Lemma fin_enq_geq sg t x idx gk sg' es T : fin_enq cap R sg t x idx gk = Some (sg', es) -> th sg t = E1 RA x idx gk ->
    g_eq (ra sg) T = ENone -> g_eq (ra sg') T = ENone \/ g_eq (ra sg') T = ESkip.
  Proof.
    intros H Ep Hx. unfold fin_enq in H. destruct (NikbDefs.step cap R sg (Step t)) as [[s1 e1]|] eqn:Es; [|discriminate].
    unfold NikbDefs.step, step_gen in Es. rewrite Ep in Es. injection Es as Hs1 _. subst s1.
    injection H as Hs _. rewrite <- Hs. clear Hs. cbn [mark_skip skips]. sim. unfold setf.
    destruct (T =? rtail (rgs sg RA) / 2); [right; reflexivity|left; exact Hx].
  Qed.

  (** a ticket that is not handed out stays so along a move of thread t that does not start at the tail fetch_add of an enqueue on RA *)
  Lemma xs_geq_none t a b T : xs cap R false t a b -> Inv2 k a -> g_eq (ra a) T = ENone ->
    (forall x idx gk, th a t <> E1 RA x idx gk) -> g_eq (ra b) T = ENone.
  Proof.
    intros Hx I2 Hn HnE. induction Hx as [sg|sg f lb sg' es lb' Hi|sg sg' es Hs|a sg q x H1 IH1 Hi|sg Hi|sg x idx gk sg' es Hp Hf|sg v Hai].
    - exact Hn.
    - destruct (istep_geq_none _ _ _ _ _ _ _ T I2 Hi Hn) as [E|(x & idx & gk & Ep)]; [exact E|destruct (HnE _ _ _ Ep)].
    - destruct (step_geq_none _ _ _ _ T I2 Hs Hn) as [E|(x & idx & gk & Ep)]; [exact E|destruct (HnE _ _ _ Ep)].
    - exact (IH1 I2 Hn HnE).
    - exact Hn.
    - destruct (HnE _ _ _ Hp).
    - discriminate Hai.
  Qed.

  Theorem nikq_finalized_no_ticket s a s' es n T : good s -> fin s n = true -> n < nalloc s -> g_eq (ra (nd s n)) T = ENone ->
    qstep s a = Some (s', es) -> g_eq (ra (nd s' n)) T = ENone \/ g_eq (ra (nd s' n)) T = ESkip.
  Proof.
    intros Hg Hf Hlt Hx Hst. destruct (good_all s Hg) as (Hh & Hc & HRI & HP & _). destruct (HRI n) as (_ & I2 & _).
    assert (Hxs : xs cap R false (tid a) (nd s n) (nd s' n)) by (apply (qstep_xs cap R false s a s' es Hh Hst n); right; lia).
    (* is the stepping thread at the tail fetch_add of an enqueue on RA of node n? *)
    destruct (th (nd s n) (tid a)) as [| | | | | | | | | | | | |[|] x idx gk| | | | |] eqn:Ep;
      try (left; apply (xs_geq_none _ _ _ T Hxs I2 Hx); rewrite Ep; discriminate).
    (* then it is inside try_push on n; the ring is finalized, so the ticket it gets is given up at once *)
    assert (Hin := Hh (tid a) n ltac:(rewrite Ep; discriminate)). specialize (HP (tid a)).
    destruct a as [t o|t]; cbn [tid] in *; unfold NikqDefs.qstep in Hst;
      destruct (oth s t) eqn:Eo; try discriminate Hst; cbn [innode] in Hin; destruct Hin as [Hin|Hin]; try discriminate Hin;
      injection Hin as ->; try (rewrite Ep in HP; discriminate HP).
    destruct (push_in_spec cap R _ _ _ _ _ _ Hst) as [(x' & idx' & gk' & sg' & es0 & Ep' & _ & Hfe & -> & _)|(sg' & es0 & _ & Hnf & _)].
    - qsimg. rewrite setf_same. eapply fin_enq_geq; eauto.
    - rewrite (Hnf _ _ _ Ep) in Hf. discriminate.
  Qed.
End QCons.
