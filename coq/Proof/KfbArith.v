(** kirsch_bounded_kfifo_queue (C06): arithmetic of the ring -- segment numbers, the cyclic distance between
    segments, find_index / segment_empty indices, in_valid_region / not_in_valid_region.  No axioms, no admits. *)
From Coq Require Import NArith List Bool Lia.
From XV Require Import Base.Word Conc.Lts Conc.Ev Model.KfbDefs.
Import ListNotations.
Local Open Scope N_scope.

Set Default Proof Using "All".
Section Arith.
  Variables k segs : N.
  Hypothesis Hk : 1 <= k.
  Hypothesis Hs : 1 <= segs.

  Definition sg (x : N) : N := x / k.
  Definition wfi (x : N) : Prop := x = sg x * k /\ sg x < segs.
  Definition succs (a : N) : N := if a + 1 =? segs then 0 else a + 1.
  Definition dist (a b : N) : N := if a <=? b then b - a else b + segs - a.

  Lemma qsize_pos : 0 < qsize k segs. Proof. unfold qsize. nia. Qed.

  (** a slot index is a segment number and an offset below k *)
  Lemma sg_mul_add a o : o < k -> sg (a * k + o) = a.
  Proof. intros Ho. unfold sg. rewrite N.div_add_l, (N.div_small o k Ho) by lia. lia. Qed.
  Lemma sg_split j : j = sg j * k + j mod k /\ j mod k < k.
  Proof. unfold sg. split; [rewrite N.mul_comm; apply N.div_mod|apply N.mod_lt]; lia. Qed.

  Lemma wfi_0 : wfi 0.
  Proof. unfold wfi, sg. rewrite N.div_0_l by lia. lia. Qed.
  Lemma wfi_lt x : wfi x -> x < qsize k segs.
  Proof. intros [H1 H2]. unfold qsize. rewrite H1. nia. Qed.
  Lemma wfi_inj x y : wfi x -> wfi y -> sg x = sg y -> x = y.
  Proof. intros [A _] [B _] E. rewrite A, B, E. reflexivity. Qed.
  Lemma sg_lt j : j < qsize k segs -> sg j < segs.
  Proof. intros H. apply N.div_lt_upper_bound; [lia|exact H]. Qed.


  Lemma adv_wf x : wfi x -> wfi ((x + k) mod qsize k segs) /\ sg ((x + k) mod qsize k segs) = succs (sg x).
  Proof.
    intros [H1 H2]. set (a := sg x) in *. replace (x + k) with ((a + 1) * k + 0) by lia.
    unfold succs, qsize. destruct (N.eqb_spec (a + 1) segs) as [->|Hne].
    - rewrite N.add_0_r, (N.mul_comm segs k), N.mod_same by nia. split; [apply wfi_0|apply N.div_0_l; lia].
    - rewrite N.mod_small by nia. unfold wfi. rewrite sg_mul_add by lia. lia.
  Qed.

  (** the slots a scan looks at: offset o < k in the segment that starts at x *)
  Lemma seg_slot x o : wfi x -> o < k -> (x + o) mod qsize k segs = x + o /\ x + o < qsize k segs /\ sg (x + o) = sg x.
  Proof.
    intros [H1 H2] Ho. assert (Hlt : x + o < qsize k segs) by (unfold qsize; nia).
    rewrite N.mod_small by exact Hlt. repeat split; [exact Hlt|]. rewrite H1 at 1. apply sg_mul_add. exact Ho.
  Qed.
  Lemma fidx_in x ri i : wfi x ->
    fidx k segs x ri i = x + (ri + i) mod k /\ fidx k segs x ri i < qsize k segs /\ sg (fidx k segs x ri i) = sg x.
  Proof. intros Hw. unfold fidx. destruct (seg_slot x ((ri + i) mod k) Hw) as (-> & A); [apply N.mod_lt; lia|]. auto. Qed.
  Lemma sidx_in x i : wfi x -> i < k ->
    sidx k segs x i = x + i /\ sidx k segs x i < qsize k segs /\ sg (sidx k segs x i) = sg x.
  Proof. intros Hw Hi. unfold sidx. destruct (seg_slot x i Hw Hi) as (-> & A). auto. Qed.

  (** the k slots of a segment are consecutive indices *)
  Lemma seg_bounds x j : wfi x -> sg j = sg x -> x <= j < x + k.
  Proof. intros [E _] Hsg. destruct (sg_split j) as [D H]. rewrite Hsg in D. remember (sg x * k) as m. remember (j mod k) as o. lia. Qed.

  (** both scans visit every slot of the segment *)
  Lemma sidx_cover x j : wfi x -> sg j = sg x -> exists m, m < k /\ sidx k segs x m = j.
  Proof.
    intros Hw Hsg. pose proof (seg_bounds x j Hw Hsg). exists (j - x). split; [lia|].
    rewrite (proj1 (sidx_in x (j - x) Hw ltac:(lia))). lia.
  Qed.
  Lemma fidx_cover x ri j : wfi x -> sg j = sg x -> exists m, m < k /\ fidx k segs x ri m = j.
  Proof.
    intros Hw Hsg. destruct (sidx_cover x j Hw Hsg) as (o & Ho & <-).
    assert (Hkz : k <> 0) by lia. pose proof (N.mod_lt ri k Hkz) as Hr.
    exists ((o + k - ri mod k) mod k). split; [apply N.mod_lt; exact Hkz|].
    rewrite (proj1 (fidx_in x ri _ Hw)), (proj1 (sidx_in x o Hw Ho)). f_equal.
    rewrite N.add_mod_idemp_r, <- N.add_mod_idemp_l by exact Hkz.
    replace (ri mod k + (o + k - ri mod k)) with (o + 1 * k) by lia.
    rewrite N.mod_add by exact Hkz. apply N.mod_small. exact Ho.
  Qed.

  (** cyclic distance: facts of linear arithmetic once every comparison in [dist] and [succs] is decided *)
  Ltac cyc := unfold dist, succs;
    repeat match goal with
    | |- context [?a <=? ?b] => destruct (N.leb_spec a b)
    | |- context [?a =? ?b] => destruct (N.eqb_spec a b)
    end; lia.
  Lemma succs_lt a : a < segs -> succs a < segs. Proof. cyc. Qed.
  Lemma dist_lt a b : a < segs -> b < segs -> dist a b < segs. Proof. cyc. Qed.
  Lemma dist_refl a : dist a a = 0. Proof. cyc. Qed.
  Lemma dist_0 a b : a < segs -> b < segs -> dist a b = 0 -> a = b. Proof. cyc. Qed.
  Lemma dist_one a b : segs = 1 -> a < segs -> b < segs -> dist a b = 0. Proof. cyc. Qed.
  Lemma dist_succ_r a b : a < segs -> b < segs -> dist a b + 1 < segs -> dist a (succs b) = dist a b + 1. Proof. cyc. Qed.
  Lemma dist_succ_l a x : a < segs -> x < segs -> x <> a -> dist (succs a) x = dist a x - 1 /\ 1 <= dist a x. Proof. cyc. Qed.
  Lemma dist_pred a x : a < segs -> x < segs -> 1 <= dist a x -> dist (succs a) x = dist a x - 1. Proof. cyc. Qed.
  Lemma dist_full a b : a < segs -> b < segs -> (dist a b = segs - 1 <-> succs b = a). Proof. cyc. Qed.

  (** for segment starts: y is the segment after x iff x is the last segment before y on the ring; same segment *)
  Lemma adv_full x y : wfi x -> wfi y -> ((x + k) mod qsize k segs = y <-> dist (sg y) (sg x) = segs - 1).
  Proof.
    intros Hx Hy. destruct (adv_wf x Hx) as [A B]. rewrite (dist_full (sg y) (sg x)) by (apply Hy || apply Hx). rewrite <- B.
    split; [intros <-; reflexivity|intros E; apply wfi_inj; assumption].
  Qed.
  Lemma same_seg x y : wfi x -> wfi y -> (dist (sg x) (sg y) = 0 <-> x = y).
  Proof.
    intros Hx Hy. split; [intros E|intros <-; apply dist_refl].
    apply wfi_inj; try assumption. apply dist_0; [apply Hx|apply Hy|exact E].
  Qed.

  (** comparisons of segment start indices *)
  Lemma ltb_mul a b : (a * k <? b * k) = (a <? b).
  Proof. destruct (N.ltb_spec a b); destruct (N.ltb_spec (a * k) (b * k)); try reflexivity; nia. Qed.
  Lemma leb_mul a b : (a * k <=? b * k) = (a <=? b).
  Proof. destruct (N.leb_spec a b); destruct (N.leb_spec (a * k) (b * k)); try reflexivity; nia. Qed.

  Lemma ivr_spec to tc h : to < segs -> tc < segs -> h < segs ->
    in_valid_region (to * k) (tc * k) (h * k) = true -> 1 <= dist h to /\ dist h to <= dist h tc.
  Proof.
    intros H1 H2 H3. unfold in_valid_region. rewrite !ltb_mul, !leb_mul.
    destruct (N.ltb_spec tc h); destruct (N.ltb_spec h to); destruct (N.leb_spec to tc); cbn; try discriminate;
      intros _; unfold dist; destruct (N.leb_spec h to); destruct (N.leb_spec h tc); lia.
  Qed.
  Lemma nvr_spec to tc h : to < segs -> tc < segs -> h < segs ->
    in_valid_region (to * k) (tc * k) (h * k) = false -> not_in_valid_region (to * k) (tc * k) (h * k) = false -> to = h.
  Proof.
    intros H1 H2 H3. unfold in_valid_region, not_in_valid_region. rewrite !ltb_mul, !leb_mul.
    destruct (N.ltb_spec tc h); destruct (N.ltb_spec h to); destruct (N.leb_spec to tc); cbn; try discriminate;
      intros _; destruct (N.ltb_spec to tc); destruct (N.ltb_spec tc to); destruct (N.ltb_spec to h); cbn; try discriminate; lia.
  Qed.
End Arith.
