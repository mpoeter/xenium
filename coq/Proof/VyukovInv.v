(** Correctness invariants of Dmitry Vyukov's bounded MPMC queue (xenium::vyukov_bounded_queue) on
    the step-level model of Model/VyukovDefs.v.  No axioms, no admits.

    Counter wrap-around is excluded by the side condition [Bnd st]: fewer than 2^62 values have been
    enqueued so far ([g_in] only grows, so [Bnd st] also bounds every state on the way to [st]).
    A side condition on the counter itself ([enq st < 2^62]) would NOT be sound: after 2^64 pushes the
    counter is small again while the ghost lists are long.  The capacity is [cap = 2^k], 1 <= k <= 30. *)
From Coq Require Import NArith ZArith List Bool Lia PeanoNat.
From XV Require Import Base.Word Conc.Lts Conc.Ev Model.VyukovDefs.
Import ListNotations.
Local Open Scope N_scope.

(** * 1. Arithmetic and lists *)

(** 2^62, the bound on the number of enqueued values ([Bnd]) *)
Definition B62 : N := 4611686018427387904.
Lemma pow2_62 : 2 ^ 62 = B62.
Proof. reflexivity. Qed.
Lemma pow2_64 : 2 ^ 64 = 18446744073709551616.
Proof. reflexivity. Qed.
Lemma pow2_30 : 2 ^ 30 = 1073741824.
Proof. reflexivity. Qed.

Lemma mod_eq_cases c a b : c <> 0 -> a mod c = b mod c -> a <= b ->
  b = a \/ b = a + c \/ a + 2 * c <= b.
Proof.
  intros Hc E Hab.
  assert (Ha := N.div_mod a c Hc). assert (Hb := N.div_mod b c Hc).
  rewrite E in Ha. set (r := b mod c) in *. set (qa := a / c) in *. set (qb := b / c) in *.
  clearbody r qa qb.
  assert (H : qb = qa \/ qb = qa + 1 \/ qa + 2 <= qb) by nia.
  destruct H as [H|[H|H]]; [left|right;left|right;right]; nia.
Qed.

(** length and [p]-th element (0 beyond the end) of a ghost list, with [N] positions *)
Definition nn (l : list N) : N := N.of_nat (length l).
Definition gnth (l : list N) (p : N) : N := nth (N.to_nat p) l 0.

Lemma nn_app l v : nn (l ++ [v]) = nn l + 1.
Proof. unfold nn. rewrite app_length. cbn [length]. lia. Qed.
Lemma gnth_app1 l v p : p < nn l -> gnth (l ++ [v]) p = gnth l p.
Proof. unfold nn, gnth. intros. apply app_nth1. lia. Qed.
Lemma gnth_app2 l v : gnth (l ++ [v]) (nn l) = v.
Proof.
  unfold nn, gnth. rewrite Nat2N.id. rewrite app_nth2 by lia. rewrite Nat.sub_diag. reflexivity.
Qed.
Lemma firstn_snoc (l : list N) n d : (n < length l)%nat -> firstn (S n) l = firstn n l ++ [nth n l d].
Proof.
  revert n; induction l as [|a l IH]; intros n H; cbn [length] in H; [lia|].
  destruct n; cbn [firstn nth app]; [reflexivity|]. f_equal. apply IH. lia.
Qed.
Lemma nth_firstn (l : list N) n i d : (i < n)%nat -> nth i (firstn n l) d = nth i l d.
Proof.
  revert n i; induction l as [|a l IH]; intros n i H.
  - rewrite firstn_nil. reflexivity.
  - destruct n; [lia|]. cbn [firstn]. destruct i; cbn [nth]; [reflexivity|]. apply IH. lia.
Qed.

Lemma upd_keep (f : nat -> pc) t c t0 x : f t0 = x -> f t <> x -> upd f t c t0 = x.
Proof. intros H1 H2. rewrite upd_other; [exact H1|]. intros ->. contradiction. Qed.

(** a thread that moves to a program point other than [P6] / [Q6] leaves the owners of tickets unique *)
Lemma up_keep (f : nat -> pc) t c :
  (forall t1 t2 v1 v2 p, f t1 = P6 v1 p -> f t2 = P6 v2 p -> t1 = t2) -> (forall v p, c <> P6 v p) ->
  forall t1 t2 v1 v2 p, upd f t c t1 = P6 v1 p -> upd f t c t2 = P6 v2 p -> t1 = t2.
Proof.
  intros H Hc t1 t2 v1 v2 p.
  destruct (Nat.eq_dec t1 t) as [->|Hne1]; [rewrite upd_same; intros E; now apply Hc in E|].
  destruct (Nat.eq_dec t2 t) as [->|Hne2]; [rewrite upd_same; intros _ E; now apply Hc in E|].
  rewrite !upd_other by assumption. apply H.
Qed.

Lemma uq_keep (f : nat -> pc) t c :
  (forall t1 t2 p, f t1 = Q6 p -> f t2 = Q6 p -> t1 = t2) -> (forall p, c <> Q6 p) ->
  forall t1 t2 p, upd f t c t1 = Q6 p -> upd f t c t2 = Q6 p -> t1 = t2.
Proof.
  intros H Hc t1 t2 p.
  destruct (Nat.eq_dec t1 t) as [->|Hne1]; [rewrite upd_same; intros E; now apply Hc in E|].
  destruct (Nat.eq_dec t2 t) as [->|Hne2]; [rewrite upd_same; intros _ E; now apply Hc in E|].
  rewrite !upd_other by assumption. apply H.
Qed.

Arguments cell : simpl never.

Section VyukovProof.
  Variables cap k : N.
  Hypothesis Hk1 : 1 <= k.
  Hypothesis Hk30 : k <= 30.
  Hypothesis Hcap : cap = 2 ^ k.

  Lemma cap_ge2 : 2 <= cap.
  Proof. subst cap. exact (N.pow_le_mono_r 2 1 k ltac:(lia) Hk1). Qed.
  Lemma cap_le : cap <= 1073741824.
  Proof. subst cap. rewrite <- pow2_30. apply N.pow_le_mono_r; lia. Qed.
  Lemma cell_mod p : cell cap p = p mod cap.
  Proof.
    unfold cell, mask. subst cap. rewrite N.sub_1_r, <- N.ones_equiv. apply N.land_ones.
  Qed.
  Lemma cell_lt p : cell cap p < cap.
  Proof. rewrite cell_mod. apply N.mod_lt. pose proof cap_ge2. lia. Qed.
  Lemma cell_add_cap p : cell cap (p + cap) = cell cap p.
  Proof.
    rewrite !cell_mod. replace (p + cap) with (p + 1 * cap) by lia. apply N.mod_add.
    pose proof cap_ge2. lia.
  Qed.
  Lemma cell_cases a b : cell cap a = cell cap b -> a <= b -> b = a \/ b = a + cap \/ a + 2 * cap <= b.
  Proof. rewrite !cell_mod. apply mod_eq_cases. pose proof cap_ge2. lia. Qed.
  Lemma cell_cases2 a b : cell cap a = cell cap b ->
    a = b \/ b = a + cap \/ a = b + cap \/ a + 2 * cap <= b \/ b + 2 * cap <= a.
  Proof.
    intros H. destruct (N.le_ge_cases a b) as [L|L].
    - pose proof (cell_cases a b H L). lia.
    - pose proof (cell_cases b a (eq_sym H) L). lia.
  Qed.

  Lemma wadd1 p : p < B62 -> wadd 64 p 1 = p + 1.
  Proof. intros H. apply wadd_small. rewrite pow2_64. unfold B62 in H. lia. Qed.
  Lemma waddc p : p < B62 -> wadd 64 (wadd 64 p (mask cap)) 1 = p + cap.
  Proof.
    intros H. pose proof cap_ge2. pose proof cap_le. unfold B62 in H. unfold mask.
    rewrite (wadd_small 64 p) by (rewrite pow2_64; lia).
    rewrite wadd_small by (rewrite pow2_64; lia). lia.
  Qed.

  (** * 2. The invariant *)

  Definition Bnd (st : state) : Prop := nn (g_in st) < 2 ^ 62.

  (** [L st c]: what a thread at program point [c] knows about its position ([pos <= enq], the cell sequence
      it read is still there if its position is still current, what the owner of a ticket holds) *)
  Definition L (st : state) (c : pc) : Prop :=
    match c with
    | P2 _ _ pos | P4 _ pos | P5 _ pos => pos <= enq st
    | P3 _ _ pos => pos <= enq st /\ (pos = enq st -> cseq st (cell cap pos) = pos)
    | P6 v p => deq st <= p /\ p < enq st /\ cseq st (cell cap p) = p /\ gnth (g_in st) p = v
    | Q2 _ pos | Q4 pos | Q5 pos => pos <= deq st
    | Q3 _ pos => pos <= deq st /\ (pos = deq st -> cseq st (cell cap pos) = pos + 1)
    | Q6 p => p < deq st /\ enq st <= p + cap /\ cseq st (cell cap p) = p + 1 /\
              cval st (cell cap p) = gnth (g_in st) p
    | _ => True
    end.

  Record Inv (st : state) : Prop := {
    i_le1 : deq st <= enq st;
    i_le2 : enq st <= deq st + cap;
    i_in : nn (g_in st) = enq st;
    i_out : g_out st = firstn (N.to_nat (deq st)) (g_in st);
    i_loc : forall t, L st (th st t);
    i_up : forall t1 t2 v1 v2 p, th st t1 = P6 v1 p -> th st t2 = P6 v2 p -> t1 = t2;
    i_uq : forall t1 t2 p, th st t1 = Q6 p -> th st t2 = Q6 p -> t1 = t2;
    (* occupied window: written, or reserved by exactly the pusher with that ticket *)
    i_winA : forall p, deq st <= p -> p < enq st ->
      (cseq st (cell cap p) = p + 1 /\ cval st (cell cap p) = gnth (g_in st) p) \/
      (cseq st (cell cap p) = p /\ exists t v, th st t = P6 v p);
    (* free window: released, or still held by the popper of the previous lap *)
    i_winB : forall p, enq st <= p -> p < deq st + cap ->
      cseq st (cell cap p) = p \/
      (exists q t, p = q + cap /\ cseq st (cell cap p) = q + 1 /\ th st t = Q6 q)
  }.

  (* [samecell a b Hc]: from [Hc : cell a = cell b] record how far apart [a] and [b] are ([cell_cases2]),
     and replace [cell a] by [cell b] everywhere *)
  Ltac samecell a b Hc :=
    let Hcc := fresh "Hcc" in
    pose proof (cell_cases2 a b Hc) as Hcc;
    let ca := fresh "ca" in
    set (ca := cell cap a) in *; clearbody ca; subst ca.

  (* unfold [setf]; for every test [cell a =? cell b] in the goal split into the same cell (with what
     [samecell] records) and another cell *)
  Ltac setf_split :=
    unfold setf;
    repeat match goal with
    | |- context [N.eqb (cell cap ?a) (cell cap ?b)] =>
        let Hc := fresh "Hc" in
        destruct (N.eqb_spec (cell cap a) (cell cap b)) as [Hc|Hc]; [samecell a b Hc|]
    end.

  Lemma inv_init : Inv (init).
  Proof.
    pose proof cap_ge2.
    constructor; cbn [init enq deq cseq cval th g_in g_out]; try lia; try reflexivity;
      try (intros; exact I); try (intros; discriminate).
    intros p H1 H2. left. rewrite cell_mod. apply N.mod_small. lia.
  Qed.

  (** steps that only move thread [t] between program points other than P6/Q6 *)
  Lemma inv_go st t c :
    Inv st -> L st c ->
    (forall v p, c <> P6 v p) -> (forall p, c <> Q6 p) ->
    (forall v p, th st t <> P6 v p) -> (forall p, th st t <> Q6 p) ->
    Inv (mkSt (enq st) (deq st) (cseq st) (cval st) (upd (th st) t c) (g_in st) (g_out st)).
  Proof.
    intros HI HL Hc1 Hc2 Ht1 Ht2.
    constructor; cbn [enq deq cseq cval th g_in g_out]; try apply HI.
    - intros t'. destruct (Nat.eq_dec t' t) as [->|Hne].
      + rewrite upd_same. exact HL.
      + rewrite upd_other by exact Hne. exact (i_loc _ HI t').
    - apply up_keep; [apply (i_up _ HI)|exact Hc1].
    - apply uq_keep; [apply (i_uq _ HI)|exact Hc2].
    - intros p H1 H2. destruct (i_winA _ HI p H1 H2) as [?|[? (t0 & v0 & Ht0)]]; [left; assumption|].
      right. split; [assumption|]. exists t0, v0. apply upd_keep; [exact Ht0|apply Ht1].
    - intros p H1 H2. destruct (i_winB _ HI p H1 H2) as [?|(q & t0 & ? & ? & Ht0)]; [left; assumption|].
      right. exists q, t0. repeat split; try assumption. apply upd_keep; [exact Ht0|apply Ht2].
  Qed.

  (* the three global clauses of [HI : Inv st] and [2 <= cap], as hypotheses for [lia] *)
  Ltac facts HI :=
    pose proof (i_le1 _ HI) as Hle1; pose proof (i_le2 _ HI) as Hle2; pose proof (i_in _ HI) as Hin;
    pose proof cap_ge2 as Hc2.

  (** what a CAS that is about to succeed finds: the cell sequence it read before is still there *)
  Lemma p3_fresh st t w v : Inv st -> th st t = P3 w v (enq st) ->
    cseq st (cell cap (enq st)) = enq st /\ enq st < deq st + cap.
  Proof.
    intros HI Ht. facts HI.
    pose proof (i_loc _ HI t) as Hl. rewrite Ht in Hl. cbn [L] in Hl. destruct Hl as [_ Hcs].
    specialize (Hcs eq_refl). split; [exact Hcs|].
    destruct (N.eq_dec (enq st) (deq st + cap)) as [e|]; [|lia]. exfalso.
    rewrite e, cell_add_cap in Hcs.
    destruct (i_winA _ HI (deq st)) as [[? _]|[? _]]; lia.
  Qed.

  Lemma q3_fresh st t w : Inv st -> th st t = Q3 w (deq st) ->
    cseq st (cell cap (deq st)) = deq st + 1 /\ deq st < enq st /\
    cval st (cell cap (deq st)) = gnth (g_in st) (deq st).
  Proof.
    intros HI Ht. facts HI.
    pose proof (i_loc _ HI t) as Hl. rewrite Ht in Hl. cbn [L] in Hl. destruct Hl as [_ Hcs].
    specialize (Hcs eq_refl).
    assert (Hlt : deq st < enq st).
    { destruct (N.eq_dec (deq st) (enq st)) as [e|]; [|lia]. exfalso.
      destruct (i_winB _ HI (deq st)) as [?|(q & t0 & ? & ? & _)]; lia. }
    repeat split; try assumption.
    destruct (i_winA _ HI (deq st)) as [[_ ?]|[? _]]; lia.
  Qed.

  (** successful CAS on [enq] *)
  Lemma inv_p3 st t w v :
    Inv st -> th st t = P3 w v (enq st) ->
    Inv (mkSt (enq st + 1) (deq st) (cseq st) (cval st) (upd (th st) t (P6 v (enq st)))
              (g_in st ++ [v]) (g_out st)).
  Proof.
    intros HI Ht. facts HI. destruct (p3_fresh _ _ _ _ HI Ht) as [Hcs Hlt].
    constructor; cbn [enq deq cseq cval th g_in g_out].
    - lia.
    - lia.
    - rewrite nn_app. lia.
    - rewrite (i_out _ HI) at 1. rewrite firstn_app.
      replace (N.to_nat (deq st) - length (g_in st))%nat with 0%nat by (unfold nn in Hin; lia).
      cbn [firstn]. rewrite app_nil_r. reflexivity.
    - intros t'. destruct (Nat.eq_dec t' t) as [->|Hne].
      + rewrite upd_same. cbn [L enq deq cseq cval g_in]. repeat split; try lia.
        rewrite <- Hin. apply gnth_app2.
      + rewrite upd_other by exact Hne. pose proof (i_loc _ HI t') as Hl'.
        destruct (th st t') eqn:Ht'; cbn [L enq deq cseq cval g_in] in *; try exact I; try lia.
        * destruct Hl' as (? & ? & ? & ?). repeat split; try lia. rewrite gnth_app1 by lia. assumption.
        * destruct Hl' as (? & ? & ? & ?). repeat split; try lia.
          -- destruct (N.eq_dec (enq st) (pos + cap)) as [e|]; [|lia]. exfalso.
             rewrite e, cell_add_cap in Hcs. lia.
          -- rewrite gnth_app1 by lia. assumption.
    - intros t1 t2 v1 v2 p.
      destruct (Nat.eq_dec t1 t) as [->|Hne1]; destruct (Nat.eq_dec t2 t) as [->|Hne2];
        rewrite ?upd_same, ?upd_other by assumption; try reflexivity.
      + intros E1 E2. injection E1 as <- <-. pose proof (i_loc _ HI t2) as Hl'. rewrite E2 in Hl'.
        cbn [L] in Hl'. lia.
      + intros E2 E1. injection E1 as <- <-. pose proof (i_loc _ HI t1) as Hl'. rewrite E2 in Hl'.
        cbn [L] in Hl'. lia.
      + apply (i_up _ HI).
    - apply uq_keep; [apply (i_uq _ HI)|discriminate].
    - intros p H1 H2. destruct (N.eq_dec p (enq st)) as [->|Hp].
      + right. split; [exact Hcs|]. exists t, v. apply upd_same.
      + destruct (i_winA _ HI p H1 ltac:(lia)) as [[? ?]|[? (t0 & v0 & Ht0)]].
        * left. split; [assumption|]. rewrite gnth_app1 by lia. assumption.
        * right. split; [assumption|]. exists t0, v0. apply upd_keep; [exact Ht0|]. rewrite Ht. discriminate.
    - intros p H1 H2. destruct (i_winB _ HI p ltac:(lia) H2) as [?|(q & t0 & ? & ? & Ht0)]; [left; assumption|].
      right. exists q, t0. repeat split; try assumption. apply upd_keep; [exact Ht0|]. rewrite Ht. discriminate.
  Qed.

  (** successful CAS on [deq] *)
  Lemma inv_q3 st t w :
    Inv st -> th st t = Q3 w (deq st) ->
    Inv (mkSt (enq st) (deq st + 1) (cseq st) (cval st) (upd (th st) t (Q6 (deq st)))
              (g_in st) (g_out st ++ [cval st (cell cap (deq st))])).
  Proof.
    intros HI Ht. facts HI. destruct (q3_fresh _ _ _ HI Ht) as (Hcs & Hlt & Hv).
    constructor; cbn [enq deq cseq cval th g_in g_out].
    - lia.
    - lia.
    - exact Hin.
    - rewrite (i_out _ HI) at 1. rewrite Hv. unfold gnth.
      replace (N.to_nat (deq st + 1)) with (S (N.to_nat (deq st))) by lia.
      symmetry. apply firstn_snoc. unfold nn in Hin; lia.
    - intros t'. destruct (Nat.eq_dec t' t) as [->|Hne].
      + rewrite upd_same. cbn [L enq deq cseq cval g_in]. repeat split; lia.
      + rewrite upd_other by exact Hne. pose proof (i_loc _ HI t') as Hl'.
        destruct (th st t') eqn:Ht'; cbn [L enq deq cseq cval g_in] in *; try exact I; try lia.
        * destruct Hl' as (? & ? & ? & ?). repeat split; try lia; try assumption.
          destruct (N.eq_dec pos (deq st)) as [->|]; lia.
    - apply up_keep; [apply (i_up _ HI)|discriminate].
    - intros t1 t2 p.
      destruct (Nat.eq_dec t1 t) as [->|Hne1]; destruct (Nat.eq_dec t2 t) as [->|Hne2];
        rewrite ?upd_same, ?upd_other by assumption; try reflexivity.
      + intros E1 E2. injection E1 as <-. pose proof (i_loc _ HI t2) as Hl'. rewrite E2 in Hl'.
        cbn [L] in Hl'. lia.
      + intros E2 E1. injection E1 as <-. pose proof (i_loc _ HI t1) as Hl'. rewrite E2 in Hl'.
        cbn [L] in Hl'. lia.
      + apply (i_uq _ HI).
    - intros p H1 H2.
      destruct (i_winA _ HI p ltac:(lia) H2) as [?|[? (t0 & v0 & Ht0)]]; [left; assumption|].
      right. split; [assumption|]. exists t0, v0. apply upd_keep; [exact Ht0|]. rewrite Ht. discriminate.
    - intros p H1 H2. destruct (N.eq_dec p (deq st + cap)) as [->|Hp].
      + right. exists (deq st), t. repeat split.
        * rewrite cell_add_cap. exact Hcs.
        * apply upd_same.
      + destruct (i_winB _ HI p H1 ltac:(lia)) as [?|(q & t0 & ? & ? & Ht0)]; [left; assumption|].
        right. exists q, t0. repeat split; try assumption. apply upd_keep; [exact Ht0|]. rewrite Ht. discriminate.
  Qed.

  (** a pusher publishes its element *)
  Lemma inv_p6 st t v pos :
    Inv st -> th st t = P6 v pos ->
    Inv (mkSt (enq st) (deq st) (setf (cseq st) (cell cap pos) (pos + 1))
              (setf (cval st) (cell cap pos) v) (upd (th st) t Idle) (g_in st) (g_out st)).
  Proof.
    intros HI Ht. facts HI.
    pose proof (i_loc _ HI t) as Hl. rewrite Ht in Hl. cbn [L] in Hl.
    destruct Hl as (Hp1 & Hp2 & Hcs & Hv).
    constructor; cbn [enq deq cseq cval th g_in g_out]; try apply HI.
    - intros t'. destruct (Nat.eq_dec t' t) as [->|Hne].
      + rewrite upd_same. exact I.
      + rewrite upd_other by exact Hne. pose proof (i_loc _ HI t') as Hl'.
        destruct (th st t') eqn:Ht'; cbn [L enq deq cseq cval g_in] in *; try exact I; try lia.
        * destruct Hl' as [? Hx]. split; [lia|]. intros e. specialize (Hx e). setf_split; lia.
        * destruct Hl' as (? & ? & Hx & ?). repeat split; try lia; try assumption.
          setf_split; [|lia]. assert (E0 : pos0 = pos) by lia. rewrite E0 in Ht'. exfalso. apply Hne.
          exact (i_up _ HI _ _ _ _ _ Ht' Ht).
        * destruct Hl' as [? Hx]. split; [lia|]. intros e. specialize (Hx e). setf_split; lia.
        * destruct Hl' as (? & ? & Hx & Hy). repeat split; try lia; setf_split; lia.
    - apply up_keep; [apply (i_up _ HI)|discriminate].
    - apply uq_keep; [apply (i_uq _ HI)|discriminate].
    - intros p H1 H2. pose proof (i_winA _ HI p H1 H2) as Hw. setf_split.
      + assert (p = pos) by lia. subst p. left. split; [reflexivity|symmetry; exact Hv].
      + destruct Hw as [?|[? (t0 & v0 & Ht0)]]; [left; assumption|].
        right. split; [assumption|]. exists t0, v0. apply upd_keep; [exact Ht0|].
        rewrite Ht. intros E. injection E as _ <-. apply Hc. reflexivity.
    - intros p H1 H2. pose proof (i_winB _ HI p H1 H2) as Hw. setf_split.
      + exfalso. lia.
      + destruct Hw as [?|(q & t0 & ? & ? & Ht0)]; [left; assumption|].
        right. exists q, t0. repeat split; try assumption. apply upd_keep; [exact Ht0|].
        rewrite Ht. discriminate.
  Qed.

  (** a popper releases its cell *)
  Lemma inv_q6 st t pos :
    Inv st -> th st t = Q6 pos ->
    Inv (mkSt (enq st) (deq st) (setf (cseq st) (cell cap pos) (pos + cap)) (cval st)
              (upd (th st) t Idle) (g_in st) (g_out st)).
  Proof.
    intros HI Ht. facts HI.
    pose proof (i_loc _ HI t) as Hl. rewrite Ht in Hl. cbn [L] in Hl.
    destruct Hl as (Hp1 & Hp2 & Hcs & Hv).
    constructor; cbn [enq deq cseq cval th g_in g_out]; try apply HI.
    - intros t'. destruct (Nat.eq_dec t' t) as [->|Hne].
      + rewrite upd_same. exact I.
      + rewrite upd_other by exact Hne. pose proof (i_loc _ HI t') as Hl'.
        destruct (th st t') eqn:Ht'; cbn [L enq deq cseq cval g_in] in *; try exact I; try lia.
        * destruct Hl' as [? Hx]. split; [lia|]. intros e. specialize (Hx e). setf_split; lia.
        * destruct Hl' as (? & ? & Hx & ?). repeat split; try lia; try assumption.
          setf_split; lia.
        * destruct Hl' as [? Hx]. split; [lia|]. intros e. specialize (Hx e). setf_split; lia.
        * destruct Hl' as (? & ? & Hx & Hy). repeat split; try lia; try assumption.
          setf_split; [|lia]. assert (E0 : pos0 = pos) by lia. rewrite E0 in Ht'. exfalso. apply Hne.
          exact (i_uq _ HI _ _ _ Ht' Ht).
    - apply up_keep; [apply (i_up _ HI)|discriminate].
    - apply uq_keep; [apply (i_uq _ HI)|discriminate].
    - intros p H1 H2. pose proof (i_winA _ HI p H1 H2) as Hw. setf_split.
      + exfalso. lia.
      + destruct Hw as [?|[? (t0 & v0 & Ht0)]]; [left; assumption|].
        right. split; [assumption|]. exists t0, v0. apply upd_keep; [exact Ht0|].
        rewrite Ht. discriminate.
    - intros p H1 H2. pose proof (i_winB _ HI p H1 H2) as Hw. setf_split.
      + left. lia.
      + destruct Hw as [?|(q & t0 & ? & ? & Ht0)]; [left; assumption|].
        right. exists q, t0. repeat split; try assumption. apply upd_keep; [exact Ht0|].
        rewrite Ht. intros E. injection E as <-. subst p. apply Hc. apply cell_add_cap.
  Qed.

  (** * 3. Every step preserves the invariant *)

  (* decide the tests ([=?], [<?], the operation, the [Weak] flag) of the step function in [Hs : step .. = Some ..] *)
  Ltac brk Hs :=
    repeat (match type of Hs with
    | context [if N.eqb ?a ?b then _ else _] => destruct (N.eqb_spec a b)
    | context [if N.ltb ?a ?b then _ else _] => destruct (N.ltb_spec a b)
    | context [match ?o with OPush _ _ => _ | OPop _ => _ end] => destruct o
    | context [if ?w then _ else _] => destruct w
    end; cbv beta iota zeta in Hs).

  Lemma gin_mono st a st' es : step cap st a = Some (st', es) -> nn (g_in st) <= nn (g_in st').
  Proof.
    intros Hs. destruct a as [t o|t]; unfold step in Hs; cbv beta zeta in Hs;
      destruct (th st t); try discriminate; brk Hs;
      injection Hs as Hst Hes; subst st' es; cbn [g_in]; rewrite ?nn_app; lia.
  Qed.

  (* a step that only moves thread [t] (at [Ht : th st t = ..]) to a point other than P6 / Q6: [inv_go],
     with the new thread's [L] by [lia] *)
  Ltac go_tac HI Ht :=
    apply inv_go;
    [ exact HI
    | cbn [L]; try exact I; repeat split; intros; lia
    | intros; discriminate | intros; discriminate
    | rewrite Ht; intros; discriminate | rewrite Ht; intros; discriminate ].

  Lemma step_inv st a st' es : Inv st -> Bnd st' -> step cap st a = Some (st', es) -> Inv st'.
  Proof.
    intros HI HB Hs.
    assert (HB0 : Bnd st) by (pose proof (gin_mono _ _ _ _ Hs); unfold Bnd in *; lia).
    facts HI. unfold Bnd in HB0. rewrite pow2_62 in HB0.
    destruct a as [t o|t]; unfold step in Hs; cbv beta zeta in Hs.
    - destruct (th st t) eqn:Ht; try discriminate.
      injection Hs as Hst Hes; subst st' es. go_tac HI Ht.
    - pose proof (i_loc _ HI t) as Hl.
      destruct (th st t) eqn:Ht; cbn [L] in Hl; try discriminate;
        rewrite ?wadd1, ?waddc in Hs by lia; brk Hs;
        injection Hs as Hst Hes; subst st' es;
        first [ go_tac HI Ht
              | subst pos; eapply inv_p3; eassumption
              | subst pos; eapply inv_q3; eassumption
              | eapply inv_p6; eassumption
              | eapply inv_q6; eassumption ].
  Qed.

  Theorem vyu_inv st : reach init (step cap) st -> Bnd st -> Inv st.
  Proof.
    intros Hr. induction Hr as [|s a s' es Hr IH Hst]; intros HB.
    - apply inv_init.
    - eapply step_inv; [apply IH|exact HB|exact Hst].
      pose proof (gin_mono _ _ _ _ Hst). unfold Bnd in *. lia.
  Qed.

  (** * 4. Theorems *)

  Lemma bnd_enq st : Inv st -> Bnd st -> enq st < B62.
  Proof. intros HI HB. unfold Bnd in HB. rewrite pow2_62, (i_in _ HI) in HB. exact HB. Qed.

  (** 1. counters and ghost lists *)
  Theorem vyu_bounds st : reach init (step cap) st -> Bnd st ->
    deq st <= enq st /\ enq st <= deq st + cap /\
    N.of_nat (length (g_in st)) = enq st /\ N.of_nat (length (g_out st)) = deq st.
  Proof.
    intros Hr HB. pose proof (vyu_inv _ Hr HB) as HI. facts HI.
    repeat split; try assumption.
    rewrite (i_out _ HI), firstn_length_le; unfold nn in Hin; lia.
  Qed.

  (** local positions never run ahead of the shared counters *)
  Theorem vyu_local_push st t w v pos : reach init (step cap) st -> Bnd st ->
    th st t = P2 w v pos \/ th st t = P3 w v pos \/ th st t = P4 v pos \/ th st t = P5 v pos ->
    pos <= enq st.
  Proof.
    intros Hr HB H. pose proof (i_loc _ (vyu_inv _ Hr HB) t) as Hl.
    destruct H as [H|[H|[H|H]]]; rewrite H in Hl; cbn [L] in Hl; lia.
  Qed.

  Theorem vyu_local_pop st t w pos : reach init (step cap) st -> Bnd st ->
    th st t = Q2 w pos \/ th st t = Q3 w pos \/ th st t = Q4 pos \/ th st t = Q5 pos ->
    pos <= deq st.
  Proof.
    intros Hr HB H. pose proof (i_loc _ (vyu_inv _ Hr HB) t) as Hl.
    destruct H as [H|[H|[H|H]]]; rewrite H in Hl; cbn [L] in Hl; lia.
  Qed.

  (** a CAS that is about to succeed still sees the cell sequence it read before *)
  Theorem vyu_cas_push_fresh st t w v : reach init (step cap) st -> Bnd st ->
    th st t = P3 w v (enq st) ->
    cseq st (cell cap (enq st)) = enq st /\ enq st < deq st + cap.
  Proof. intros Hr HB. apply p3_fresh, vyu_inv; assumption. Qed.

  Theorem vyu_cas_pop_fresh st t w : reach init (step cap) st -> Bnd st ->
    th st t = Q3 w (deq st) ->
    cseq st (cell cap (deq st)) = deq st + 1 /\ deq st < enq st /\
    cval st (cell cap (deq st)) = gnth (g_in st) (deq st).
  Proof. intros Hr HB. apply q3_fresh, vyu_inv; assumption. Qed.

  (** 2. the cells.  Every cell index is [cell p] for exactly one position [p] of the window
      [deq, deq+cap) ... *)
  Lemma cell_cover d i : i < cap ->
    exists p, d <= p /\ p < d + cap /\ cell cap p = i /\
              forall p', d <= p' -> p' < d + cap -> cell cap p' = i -> p' = p.
  Proof.
    intros Hi. pose proof cap_ge2 as Hc2. assert (Hc0 : cap <> 0) by lia.
    pose proof (N.div_mod d cap Hc0) as Hd. pose proof (N.mod_lt d cap Hc0) as Hr.
    set (q := d / cap) in *. set (r := d mod cap) in *. clearbody q r.
    assert (Hcell : forall j, cell cap (i + j * cap) = i).
    { intros j. rewrite cell_mod, N.mod_add by exact Hc0. apply N.mod_small. exact Hi. }
    destruct (N.le_gt_cases r i) as [Hri|Hri].
    - exists (i + q * cap). repeat split; try nia. { apply Hcell. }
      intros p' H1 H2 H3. rewrite <- (Hcell q) in H3.
      pose proof (cell_cases2 _ _ H3). nia.
    - exists (i + (q + 1) * cap). repeat split; try nia. { apply Hcell. }
      intros p' H1 H2 H3. rewrite <- (Hcell (q + 1)) in H3.
      pose proof (cell_cases2 _ _ H3). nia.
  Qed.

  (** ... and the cell of a window position [p] is in one of four states:
      - [deq <= p < enq], written: sequence [p+1], value = the [p]-th enqueued value, no pusher on it;
      - [deq <= p < enq], reserved: sequence [p], exactly one thread is at [P6 _ p] (with its value
        the [p]-th enqueued one);
      - [enq <= p < deq+cap], free: sequence [p], no popper of the previous lap on it;
      - [enq <= p < deq+cap], previous lap's element taken but not released: sequence [p-cap+1],
        exactly one thread at [Q6 (p-cap)]. *)
  Theorem vyu_cells st : reach init (step cap) st -> Bnd st ->
    forall p, deq st <= p -> p < deq st + cap ->
    (p < enq st ->
       (cseq st (cell cap p) = p + 1 /\ cval st (cell cap p) = gnth (g_in st) p /\
        forall t v, th st t <> P6 v p) \/
       (cseq st (cell cap p) = p /\
        exists t, th st t = P6 (gnth (g_in st) p) p /\ forall t' v', th st t' = P6 v' p -> t' = t)) /\
    (enq st <= p ->
       (cseq st (cell cap p) = p /\ forall t q, p = q + cap -> th st t <> Q6 q) \/
       (exists q t, p = q + cap /\ cseq st (cell cap p) = q + 1 /\ th st t = Q6 q /\
                    forall t', th st t' = Q6 q -> t' = t)).
  Proof.
    intros Hr HB p H1 H2. pose proof (vyu_inv _ Hr HB) as HI. facts HI. split; intros H3.
    - destruct (i_winA _ HI p H1 H3) as [[Ha Hb]|[Ha (t0 & v0 & Ht0)]].
      + left. repeat split; try assumption. intros t v Ht.
        pose proof (i_loc _ HI t) as Hl. rewrite Ht in Hl. cbn [L] in Hl. lia.
      + right. split; [assumption|]. exists t0.
        pose proof (i_loc _ HI t0) as Hl. rewrite Ht0 in Hl. cbn [L] in Hl.
        destruct Hl as (_ & _ & _ & Hv). rewrite Hv. split; [exact Ht0|].
        intros t' v' Ht'. exact (i_up _ HI _ _ _ _ _ Ht' Ht0).
    - destruct (i_winB _ HI p H3 H2) as [Ha|(q & t0 & Hq & Ha & Ht0)].
      + left. split; [assumption|]. intros t q Hq Ht.
        pose proof (i_loc _ HI t) as Hl. rewrite Ht in Hl. cbn [L] in Hl.
        destruct Hl as (_ & _ & Hcs & _). subst p. rewrite cell_add_cap in Ha. lia.
      + right. exists q, t0. repeat split; try assumption.
        intros t' Ht'. exact (i_uq _ HI _ _ _ Ht' Ht0).
  Qed.

  (** the same window seen from a consumed position [p < deq] whose cell has not been reused yet
      ([enq <= p + cap]): released (sequence [p+cap]) or held by exactly its popper (sequence [p+1]) *)
  Corollary vyu_cells_consumed st : reach init (step cap) st -> Bnd st ->
    forall p, p < deq st -> enq st <= p + cap ->
      (cseq st (cell cap p) = p + cap /\ forall t, th st t <> Q6 p) \/
      (cseq st (cell cap p) = p + 1 /\
       exists t, th st t = Q6 p /\ forall t', th st t' = Q6 p -> t' = t).
  Proof.
    intros Hr HB p H1 H2. pose proof (vyu_inv _ Hr HB) as HI. facts HI.
    destruct (vyu_cells _ Hr HB (p + cap) ltac:(lia) ltac:(lia)) as [_ Hw].
    rewrite cell_add_cap in Hw.
    destruct (Hw H2) as [[Ha Hb]|(q & t & Hq & Ha & Ht & Hu)].
    - left. split; [exact Ha|]. intros t. exact (Hb t p eq_refl).
    - assert (q = p) by lia. subst q. right. split; [exact Ha|]. exists t. split; assumption.
  Qed.

  (** what the owner of a reserved / taken position knows *)
  Theorem vyu_P6_owner st t v p : reach init (step cap) st -> Bnd st -> th st t = P6 v p ->
    deq st <= p /\ p < enq st /\ cseq st (cell cap p) = p /\ nth (N.to_nat p) (g_in st) 0 = v /\
    forall t' v', th st t' = P6 v' p -> t' = t.
  Proof.
    intros Hr HB Ht. pose proof (vyu_inv _ Hr HB) as HI.
    pose proof (i_loc _ HI t) as Hl. rewrite Ht in Hl. cbn [L] in Hl.
    destruct Hl as (? & ? & ? & ?). repeat split; try assumption.
    intros t' v' Ht'. exact (i_up _ HI _ _ _ _ _ Ht' Ht).
  Qed.

  Theorem vyu_Q6_owner st t p : reach init (step cap) st -> Bnd st -> th st t = Q6 p ->
    p < deq st /\ enq st <= p + cap /\ cseq st (cell cap p) = p + 1 /\
    forall t', th st t' = Q6 p -> t' = t.
  Proof.
    intros Hr HB Ht. pose proof (vyu_inv _ Hr HB) as HI.
    pose proof (i_loc _ HI t) as Hl. rewrite Ht in Hl. cbn [L] in Hl.
    destruct Hl as (? & ? & ? & ?). repeat split; try assumption.
    intros t' Ht'. exact (i_uq _ HI _ _ _ Ht' Ht).
  Qed.

  (** 3. FIFO: the dequeued values are exactly the first [deq] enqueued values, in ticket order *)
  Theorem vyu_fifo_prefix st : reach init (step cap) st -> Bnd st ->
    g_out st = firstn (N.to_nat (deq st)) (g_in st).
  Proof. intros Hr HB. exact (i_out _ (vyu_inv _ Hr HB)). Qed.

  Theorem vyu_fifo st : reach init (step cap) st -> Bnd st ->
    exists rest, g_in st = g_out st ++ rest.
  Proof.
    intros Hr HB. exists (skipn (N.to_nat (deq st)) (g_in st)).
    rewrite (vyu_fifo_prefix _ Hr HB). symmetry. apply firstn_skipn.
  Qed.

  (** 4. a popper returns the value that was enqueued with its ticket *)
  Theorem vyu_pop_returns_ticket_value st t p : reach init (step cap) st -> Bnd st ->
    th st t = Q6 p ->
    cval st (cell cap p) = nth (N.to_nat p) (g_in st) 0 /\
    nth (N.to_nat p) (g_out st) 0 = nth (N.to_nat p) (g_in st) 0.
  Proof.
    intros Hr HB Ht. pose proof (vyu_inv _ Hr HB) as HI.
    pose proof (i_loc _ HI t) as Hl. rewrite Ht in Hl. cbn [L] in Hl.
    destruct Hl as (? & ? & ? & Hv). split; [exact Hv|].
    rewrite (i_out _ HI). apply nth_firstn. lia.
  Qed.

  (** 5. "full" / "empty" answers of the strong variants are justified at the deciding load *)
  Theorem vyu_full_justified st t v pos : reach init (step cap) st -> Bnd st ->
    th st t = P5 v pos -> wadd 64 (wadd 64 (deq st) (mask cap)) 1 = pos ->
    enq st = deq st + cap.
  Proof.
    intros Hr HB Ht Hw. pose proof (vyu_inv _ Hr HB) as HI. facts HI.
    pose proof (bnd_enq _ HI HB) as HE.
    pose proof (i_loc _ HI t) as Hl. rewrite Ht in Hl. cbn [L] in Hl.
    rewrite waddc in Hw by lia. lia.
  Qed.

  Theorem vyu_empty_justified st t pos : reach init (step cap) st -> Bnd st ->
    th st t = Q5 pos -> enq st = pos -> deq st = enq st.
  Proof.
    intros Hr HB Ht Hw. pose proof (vyu_inv _ Hr HB) as HI. facts HI.
    pose proof (i_loc _ HI t) as Hl. rewrite Ht in Hl. cbn [L] in Hl. lia.
  Qed.

  (* [Hs : step .. = Some (s', es)], [Hin : In (ERet ..) es]: keep the branches of the step whose events
     contain that return *)
  Ltac ret_cases Hs Hin s' es :=
    unfold step in Hs; cbv beta zeta in Hs;
    match type of Hs with context [th ?st ?t] => destruct (th st t) eqn:Ht end;
    try discriminate; brk Hs; injection Hs as Hst Hes; subst s' es;
    cbn [In app] in Hin;
    repeat (destruct Hin as [Hin|Hin]; try discriminate Hin); try contradiction.

  (** the same, phrased on the step that returns *)
  Theorem vyu_full_step st t st' es : reach init (step cap) st -> Bnd st ->
    step cap st (Step t) = Some (st', es) -> In (ERet t [0]) es ->
    enq st = deq st + cap.
  Proof.
    intros Hr HB Hs Hin. ret_cases Hs Hin st' es.
    eapply vyu_full_justified; eassumption.
  Qed.

  Theorem vyu_empty_step st t st' es : reach init (step cap) st -> Bnd st ->
    step cap st (Step t) = Some (st', es) -> In (ERet t [3]) es ->
    deq st = enq st.
  Proof.
    intros Hr HB Hs Hin. ret_cases Hs Hin st' es.
    eapply vyu_empty_justified; eauto.
  Qed.

  (** 6. a weak failure changes nothing but the program counter of the failing thread, and
      happens only when the cell sequence is behind the thread's ticket *)
  Theorem vyu_weak_fail_noop st t st' es :
    step cap st (Step t) = Some (st', es) -> In (ERet t [2]) es ->
    enq st' = enq st /\ deq st' = deq st /\ cseq st' = cseq st /\ cval st' = cval st /\
    g_in st' = g_in st /\ g_out st' = g_out st /\ th st' = upd (th st) t Idle /\
    ((exists v pos, th st t = P2 true v pos /\ cseq st (cell cap pos) < pos) \/
     (exists pos, th st t = Q2 true pos /\ cseq st (cell cap pos) < wadd 64 pos 1)).
  Proof.
    intros Hs Hin. ret_cases Hs Hin st' es; cbn [enq deq cseq cval th g_in g_out];
      repeat split; eauto.
  Qed.

End VyukovProof.
