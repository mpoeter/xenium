(** Correctness invariants of the Michael-Scott queue model (Model/MsqDefs.v):
    chain structure, FIFO ghost relation, value returned by pop, emptiness linearization point,
    tail lag.  All theorems hold for every reachable state (any number of threads, any program). *)
From Coq Require Import NArith List Bool Lia ZifyBool PeanoNat FinFun.
From XV Require Import Base.Word Conc.Lts Conc.Ev Model.MsqDefs.
Import ListNotations.
Local Open Scope N_scope.

(** * Null-terminated paths *)

(** [lpath nx l]: [l] is non-empty, all its elements are non-null, each element's [nx] is the
    following element and the [nx] of the last element is null. *)
Inductive lpath (nx : N -> N) : list N -> Prop :=
| lp_one a : a <> 0 -> nx a = 0 -> lpath nx [a]
| lp_cons a b r : a <> 0 -> nx a = b -> lpath nx (b :: r) -> lpath nx (a :: b :: r).

Lemma lpath_hd_nz nx a r : lpath nx (a :: r) -> a <> 0.
Proof. intros H. inversion H; assumption. Qed.

Lemma lpath_nz nx l : lpath nx l -> forall x, In x l -> x <> 0.
Proof.
  induction 1 as [a Ha Hn | a b r Ha Hn Hp IH]; intros x Hx.
  - destruct Hx as [<- | []]. exact Ha.
  - destruct Hx as [<- | Hx]; [exact Ha | apply IH; exact Hx].
Qed.

Lemma lpath_suffix nx l1 : forall l2, lpath nx (l1 ++ l2) -> l2 <> [] -> lpath nx l2.
Proof.
  induction l1 as [|a l1 IH]; intros l2 H Hne; [exact H|].
  cbn [app] in H. inversion H as [a' Ha Hn Heq | a' b r Ha Hn Hp Heq].
  - destruct l1; destruct l2; try discriminate. congruence.
  - apply IH; [rewrite <- H0; exact Hp | exact Hne].
Qed.

Lemma lpath_next_in nx l : lpath nx l -> forall a, In a l -> nx a <> 0 -> In (nx a) l.
Proof.
  induction 1 as [a0 Ha Hn | a0 b r Ha Hn Hp IH]; intros a Hin Hnz.
  - destruct Hin as [<- | []]. congruence.
  - destruct Hin as [<- | Hin].
    + right. left. symmetry. exact Hn.
    + right. apply IH; assumption.
Qed.

Lemma lpath_ext nx nx' l : lpath nx l -> (forall x, In x l -> nx' x = nx x) -> lpath nx' l.
Proof.
  induction 1 as [a Ha Hn | a b r Ha Hn Hp IH]; intros He.
  - apply lp_one; [exact Ha|]. rewrite He; [exact Hn | left; reflexivity].
  - apply lp_cons; [exact Ha | | ].
    + rewrite He; [exact Hn | left; reflexivity].
    + apply IH. intros x Hx. apply He. right. exact Hx.
Qed.

Lemma setf_same f i v : setf f i v i = v.
Proof. unfold setf. rewrite N.eqb_refl. reflexivity. Qed.
Lemma setf_other f i v j : j <> i -> setf f i v j = f j.
Proof. unfold setf. intros H. destruct (N.eqb_spec j i); [contradiction|reflexivity]. Qed.

Lemma lpath_snoc nx l : lpath nx l -> forall a n, In a l -> nx a = 0 -> ~ In n l -> n <> 0 -> nx n = 0 ->
  lpath (setf nx a n) (l ++ [n]).
Proof.
  induction 1 as [a0 Ha Hn | a0 b r Ha Hn Hp IH]; intros a n Hin Hz Hnin Hnz Hnn.
  - destruct Hin as [<- | []]. cbn [app].
    assert (n <> a0) by (intros ->; apply Hnin; left; reflexivity).
    apply lp_cons; [exact Ha | apply setf_same | ].
    apply lp_one; [exact Hnz | rewrite setf_other by assumption; exact Hnn].
  - assert (Hb : b <> 0) by (eapply lpath_hd_nz; exact Hp).
    destruct Hin as [<- | Hin]; [congruence|].
    assert (a0 <> a) by congruence.
    cbn [app]. change (b :: r ++ [n]) with ((b :: r) ++ [n]).
    destruct ((b :: r) ++ [n]) as [|b' r'] eqn:E; [discriminate|].
    assert (b' = b) by (cbn [app] in E; congruence). subst b'.
    apply lp_cons; [exact Ha | rewrite setf_other by assumption; exact Hn | ].
    rewrite <- E. apply IH; try assumption.
    intros Hc. apply Hnin. right. exact Hc.
Qed.

Lemma lpath_hd_null nx a r : lpath nx (a :: r) -> nx a = 0 -> r = [].
Proof.
  intros H Hz. inversion H as [a' Ha Hn | a' b r' Ha Hn Hp]; [reflexivity|].
  subst. apply lpath_hd_nz in Hp. congruence.
Qed.

Lemma lpath_hd_next nx a r : lpath nx (a :: r) -> nx a <> 0 -> exists r', r = nx a :: r'.
Proof.
  intros H Hz. inversion H as [a' Ha Hn | a' b r' Ha Hn Hp]; [congruence|].
  subst. eexists. reflexivity.
Qed.

Lemma lpath_tl nx a b r : lpath nx (a :: b :: r) -> lpath nx (b :: r).
Proof. intros H. inversion H; assumption. Qed.

Lemma lpath_last nx l : lpath nx l -> forall a, In a l -> nx a = 0 -> exists l0, l = l0 ++ [a].
Proof.
  induction 1 as [a0 Ha Hn | a0 b r Ha Hn Hp IH]; intros a Hin Hz.
  - destruct Hin as [<- | []]. exists []. reflexivity.
  - assert (Hb : b <> 0) by (eapply lpath_hd_nz; exact Hp).
    destruct Hin as [<- | Hin]; [congruence|].
    destruct (IH a Hin Hz) as [l0 E]. exists (a0 :: l0). rewrite E. reflexivity.
Qed.

Lemma lpath_last2 nx l : lpath nx l -> forall a b, In a l -> nx a = b -> b <> 0 -> nx b = 0 ->
  exists l0, l = l0 ++ [a; b].
Proof.
  induction 1 as [a0 Ha Hn | a0 b0 r Ha Hn Hp IH]; intros a b Hin Hab Hb Hz.
  - destruct Hin as [<- | []]. congruence.
  - destruct Hin as [<- | Hin].
    + assert (Eb : b0 = b) by congruence. clear Hn. subst b0.
      rewrite (lpath_hd_null _ _ _ Hp Hz). exists []. reflexivity.
    + destruct (IH a b Hin Hab Hb Hz) as [l0 E]. exists (a0 :: l0). rewrite E. reflexivity.
Qed.

(** elements in front of a non-empty suffix keep a non-null link *)
Lemma lpath_prefix_link nx r : forall l, lpath nx (r ++ l) -> l <> [] -> forall x, In x r -> nx x <> 0.
Proof.
  induction r as [|a r IH]; intros l H Hne x Hx; [destruct Hx|].
  cbn [app] in H. inversion H as [a' Ha Hn Heq | a' b r' Ha Hn Hp Heq].
  - destruct r; destruct l; try discriminate. congruence.
  - destruct Hx as [<- | Hx].
    + rewrite Hn. eapply lpath_hd_nz. exact Hp.
    + apply (IH l); [rewrite <- H0; exact Hp | exact Hne | exact Hx].
Qed.

Lemma lpath_nth nx l : lpath nx l -> forall i, (S i < length l)%nat -> nth (S i) l 0 = nx (nth i l 0).
Proof.
  induction 1 as [a Ha Hn | a b r Ha Hn Hp IH]; intros i Hi.
  - cbn [length] in Hi. lia.
  - destruct i as [|i].
    + cbn [nth]. symmetry. exact Hn.
    + change (nth (S (S i)) (a :: b :: r) 0) with (nth (S i) (b :: r) 0).
      change (nth (S i) (a :: b :: r) 0) with (nth i (b :: r) 0).
      apply IH. cbn [length] in *. lia.
Qed.

Lemma lpath_last_null nx l : lpath nx l -> nx (last l 0) = 0.
Proof.
  induction 1 as [a Ha Hn | a b r Ha Hn Hp IH]; [exact Hn|].
  change (last (a :: b :: r) 0) with (last (b :: r) 0). exact IH.
Qed.

(** a path is determined by its first element *)
Lemma lpath_unique nx l : lpath nx l -> forall l', lpath nx l' -> hd 0 l = hd 0 l' -> l = l'.
Proof.
  induction 1 as [a Ha Hn | a b r Ha Hn Hp IH]; intros l' H' Hh.
  - destruct l' as [|a' r']; [inversion H'|]. cbn [hd] in Hh. subst a'.
    rewrite (lpath_hd_null _ _ _ H' Hn). reflexivity.
  - destruct l' as [|a' r']; [inversion H'|]. cbn [hd] in Hh. subst a'.
    assert (Hb : b <> 0) by (eapply lpath_hd_nz; exact Hp).
    destruct (lpath_hd_next _ _ _ H') as [r'' E]; [congruence|]. subst r'. rewrite Hn in *.
    f_equal. apply IH; [eapply lpath_tl; exact H' | reflexivity].
Qed.

(** * The invariant *)

(** the node a pushing thread owns and has not linked yet *)
Definition fresh_of (p : pc) : option N :=
  match p with
  | M1 n | M2 n _ | M3 n _ _ | M4 n _ => Some n
  | _ => None
  end.

(** global part, relative to the chain [l] (the list of nodes from [head] to the null link).
    [g_retired st ++ l] is the list of all nodes ever linked, in link order. *)
Definition G (st : state) (l : list N) : Prop :=
  (exists r, l = head st :: r) /\
  lpath (nnext st) (g_retired st ++ l) /\
  NoDup (g_retired st ++ l) /\
  (forall x, In x (g_retired st ++ l) -> x < nalloc st) /\
  In (tail st) l /\
  (nnext st (tail st) = 0 \/ nnext st (nnext st (tail st)) = 0) /\
  g_in st = g_out st ++ map (nval st) (tl l).

(** per-thread part: the unlinked node a pushing thread owns ... *)
Definition Tf (st : state) (l : list N) (p : pc) : Prop :=
  forall n, fresh_of p = Some n ->
    n <> 0 /\ n < nalloc st /\ ~ In n (g_retired st ++ l) /\ nnext st n = 0.

(** ... and the nodes its other locals point to *)
Definition Tl (st : state) (l : list N) (p : pc) : Prop :=
  match p with
  | M2 _ t | M4 _ t => In t (g_retired st ++ l) /\ (nnext st t = 0 -> tail st = t)
  | M3 _ t nx => In t (g_retired st ++ l) /\ nnext st t = nx /\ nx <> 0
  | M5 n t => In t (g_retired st ++ l) /\ nnext st t = n /\ n <> 0
  | D2 h => In h (g_retired st ++ [head st])
  | D3 h nx => In h (g_retired st ++ [head st]) /\ (nx <> 0 -> nnext st h = nx)
  | D4 h nx => In h (g_retired st ++ [head st]) /\ nx <> 0 /\ nnext st h = nx
  | D5 h nx t => t = h /\ In h (g_retired st ++ [head st]) /\ nx <> 0 /\ nnext st h = nx
  | D6 h nx => In h (g_retired st ++ [head st]) /\ nx <> 0 /\ nnext st h = nx /\ tail st <> h
  | _ => True
  end.

Definition T (st : state) (l : list N) (p : pc) : Prop := Tf st l p /\ Tl st l p.

(** unlinked nodes of different threads are different *)
Definition U (f : nat -> pc) : Prop :=
  forall t t' n, t <> t' -> fresh_of (f t) = Some n -> fresh_of (f t') = Some n -> False.

Definition InvL (st : state) (l : list N) : Prop := G st l /\ (forall t, T st l (th st t)) /\ U (th st).

Definition Inv (st : state) : Prop := exists l, InvL st l.

(** a thread that keeps its unlinked node, or has none any more, owes only [Tl] at its new
    program point *)
Definition keeps_fresh (p q : pc) : Prop := fresh_of p = None \/ fresh_of p = fresh_of q.

Lemma T_move st l p q : T st l q -> keeps_fresh p q -> Tl st l p -> T st l p.
Proof.
  intros [Hf _] Hp Hl. split; [|exact Hl]. intros n Hn.
  destruct Hp as [Hp|Hp]; [congruence|]. apply Hf. congruence.
Qed.

Lemma old_incl_full st l : (exists r, l = head st :: r) ->
  incl (g_retired st ++ [head st]) (g_retired st ++ l).
Proof.
  intros [r ->] x Hx. apply in_app_or in Hx. apply in_or_app.
  destruct Hx as [Hx | [<- | []]]; [left; exact Hx | right; left; reflexivity].
Qed.

(** generic stability of the per-thread part of another thread *)
Lemma T_stable st l st' l' q :
  (exists r, l = head st :: r) ->
  incl (g_retired st ++ l) (g_retired st' ++ l') ->
  incl (g_retired st ++ [head st]) (g_retired st' ++ [head st']) ->
  (forall x, In x (g_retired st ++ l) -> nnext st x <> 0 -> nnext st' x = nnext st x) ->
  (forall x, In x (g_retired st ++ l) -> nnext st' x = 0 -> nnext st x = 0 /\ (tail st = x -> tail st' = x)) ->
  (forall h, nnext st h <> 0 -> tail st <> h -> tail st' <> h) ->
  (forall n, fresh_of q = Some n -> n < nalloc st -> ~ In n (g_retired st ++ l) -> nnext st n = 0 ->
     n < nalloc st' /\ ~ In n (g_retired st' ++ l') /\ nnext st' n = 0) ->
  T st l q -> T st' l' q.
Proof.
  intros Hhd Hfull Hold Hc1 Hc2 Hd He [Hfr Hq]. pose proof (old_incl_full _ _ Hhd) as Hof. split.
  - intros n Hn. destruct (Hfr n Hn) as (H1 & H2 & H3 & H4).
    destruct (He n Hn H2 H3 H4) as (H5 & H6 & H7). repeat split; assumption.
  - destruct q; try exact I; cbn [Tl] in Hq |- *.
    + (* M2 *) destruct Hq as [Hin Himp]. split; [apply Hfull; exact Hin|].
      intros Hz. destruct (Hc2 _ Hin Hz) as [Hz' Ht]. apply Ht. apply Himp. exact Hz'.
    + (* M3 *) destruct Hq as (Hin & Hn & Hnz). split; [apply Hfull; exact Hin|]. split; [|exact Hnz].
      rewrite Hc1; [exact Hn | exact Hin | congruence].
    + (* M4 *) destruct Hq as [Hin Himp]. split; [apply Hfull; exact Hin|].
      intros Hz. destruct (Hc2 _ Hin Hz) as [Hz' Ht]. apply Ht. apply Himp. exact Hz'.
    + (* M5 *) destruct Hq as (Hin & Hn & Hnz). split; [apply Hfull; exact Hin|]. split; [|exact Hnz].
      rewrite Hc1; [exact Hn | exact Hin | congruence].
    + (* D2 *) apply Hold. exact Hq.
    + (* D3 *) destruct Hq as [Hin Himp]. split; [apply Hold; exact Hin|].
      intros Hnz. rewrite Hc1; [apply Himp; exact Hnz | apply Hof; exact Hin | rewrite Himp; assumption].
    + (* D4 *) destruct Hq as (Hin & Hnz & Hn). split; [apply Hold; exact Hin|]. split; [exact Hnz|].
      rewrite Hc1; [exact Hn | apply Hof; exact Hin | congruence].
    + (* D5 *) destruct Hq as (Ht & Hin & Hnz & Hn). split; [exact Ht|].
      split; [apply Hold; exact Hin|]. split; [exact Hnz|].
      rewrite Hc1; [exact Hn | apply Hof; exact Hin | congruence].
    + (* D6 *) destruct Hq as (Hin & Hnz & Hn & Htl). split; [apply Hold; exact Hin|]. split; [exact Hnz|].
      split; [rewrite Hc1; [exact Hn | apply Hof; exact Hin | congruence]|].
      apply Hd; [congruence | exact Htl].
Qed.

Lemma threads_upd (P : pc -> Prop) f t p :
  (forall t', t' <> t -> P (f t')) -> P p -> forall t', P (upd f t p t').
Proof.
  intros Ho Hp t'. destruct (Nat.eq_dec t' t) as [->|Hne].
  - rewrite upd_same. exact Hp.
  - rewrite upd_other by exact Hne. apply Ho. exact Hne.
Qed.

Lemma U_upd f t p : U f ->
  (forall n, fresh_of p = Some n -> forall t', t' <> t -> fresh_of (f t') <> Some n) ->
  U (upd f t p).
Proof.
  intros HU Hp a b n Hab Ha Hb.
  destruct (Nat.eq_dec a t) as [->|Ha']; destruct (Nat.eq_dec b t) as [->|Hb'].
  - congruence.
  - rewrite upd_same in Ha. rewrite upd_other in Hb by exact Hb'. exact (Hp n Ha b Hb' Hb).
  - rewrite upd_same in Hb. rewrite upd_other in Ha by exact Ha'. exact (Hp n Hb a Ha' Ha).
  - rewrite upd_other in Ha by assumption. rewrite upd_other in Hb by assumption.
    exact (HU a b n Hab Ha Hb).
Qed.

Lemma U_upd_same f t p : U f -> (fresh_of p = None \/ fresh_of p = fresh_of (f t)) -> U (upd f t p).
Proof.
  intros HU Hp. apply U_upd; [exact HU|]. intros n Hn t' Hne Hc.
  destruct Hp as [Hp|Hp]; [congruence|]. rewrite Hp in Hn. exact (HU t' t n Hne Hc Hn).
Qed.

Ltac prj := cbn [head tail nval nnext nalloc th g_in g_out g_retired].

Lemma NoDup_snoc (l : list N) n : NoDup l -> ~ In n l -> NoDup (l ++ [n]).
Proof.
  induction 1 as [|a l Ha Hnd IH]; intros Hn; cbn [app].
  - constructor; [intros []|constructor].
  - constructor.
    + intros Hc. apply in_app_or in Hc. destruct Hc as [Hc | [<- | []]]; [contradiction|].
      apply Hn. left. reflexivity.
    + apply IH. intros Hc. apply Hn. right. exact Hc.
Qed.

(** ** steps that only move the program counter *)
Lemma step_go st l t q p :
  InvL st l -> th st t = q -> keeps_fresh p q -> Tl st l p ->
  Inv (mkSt (head st) (tail st) (nval st) (nnext st) (nalloc st) (upd (th st) t p)
            (g_in st) (g_out st) (g_retired st)).
Proof.
  intros (HG & HT & HU) <- Hf Hp. exists l. split; [exact HG|]. split; prj.
  - apply (threads_upd (T st l)); [intros t' _; apply HT | exact (T_move _ _ _ _ (HT t) Hf Hp)].
  - apply U_upd_same; assumption.
Qed.

(** ** steps that swing the tail *)
Lemma step_tail st l t q p x :
  InvL st l -> th st t = q -> keeps_fresh p q -> Tl st l p ->
  nnext st (tail st) = x -> x <> 0 ->
  Inv (mkSt (head st) x (nval st) (nnext st) (nalloc st) (upd (th st) t p)
            (g_in st) (g_out st) (g_retired st)).
Proof.
  intros (HG & HT & HU) <- Hf Hp Hx Hxnz.
  pose proof HG as (Hhd & Hpath & Hnd & Hlt & Htl & Hlag & Hfifo).
  assert (Hx0 : nnext st x = 0) by (destruct Hlag; congruence).
  assert (Hl : lpath (nnext st) l).
  { eapply lpath_suffix; [exact Hpath|]. destruct Hhd as [r ->]. discriminate. }
  assert (Hxin : In x l).
  { rewrite <- Hx. apply lpath_next_in; [exact Hl | exact Htl | congruence]. }
  set (st' := mkSt _ _ _ _ _ _ _ _ _).
  assert (HS : forall q, T st l q -> T st' l q).
  { intros q Hq. apply (T_stable st l st' l q); subst st'; prj; try apply incl_refl.
    - exact Hhd.
    - intros; reflexivity.
    - intros x0 Hin Hz. split; [exact Hz|]. intros E. exfalso. congruence.
    - intros h Hh _ E. congruence.
    - intros. repeat split; assumption.
    - exact Hq. }
  exists l. split; [|split].
  - unfold G; subst st'; prj. repeat split; try assumption. left. exact Hx0.
  - subst st'; prj. apply (threads_upd (T _ l)); intros; apply HS; [apply HT|].
    exact (T_move _ _ _ _ (HT t) Hf Hp).
  - subst st'; prj. apply U_upd_same; assumption.
Qed.

(** ** allocation of a node at the beginning of push *)
Lemma step_alloc st l t v :
  InvL st l ->
  Inv (mkSt (head st) (tail st) (setf (nval st) (nalloc st) v) (setf (nnext st) (nalloc st) 0)
            (nalloc st + 1) (upd (th st) t (M1 (nalloc st))) (g_in st) (g_out st) (g_retired st)).
Proof.
  intros (HG & HT & HU).
  pose proof HG as (Hhd & Hpath & Hnd & Hlt & Htl & Hlag & Hfifo).
  set (n := nalloc st) in *.
  assert (Hne : forall x, In x (g_retired st ++ l) -> x <> n).
  { intros x Hx. apply Hlt in Hx. lia. }
  assert (Htlf : In (tail st) (g_retired st ++ l)) by (apply in_or_app; right; exact Htl).
  set (st' := mkSt _ _ _ _ _ _ _ _ _).
  assert (HS : forall q, T st l q -> T st' l q).
  { intros q Hq. apply (T_stable st l st' l q); subst st'; prj; try apply incl_refl.
    - exact Hhd.
    - intros x Hin _. apply setf_other. apply Hne. exact Hin.
    - intros x Hin Hz. rewrite setf_other in Hz by (apply Hne; exact Hin). split; [exact Hz|auto].
    - intros; assumption.
    - intros n' _ H1 H2 H3. split; [fold n in H1; lia|]. split; [exact H2|].
      rewrite setf_other; [exact H3 | fold n in H1; lia].
    - exact Hq. }
  exists l. split; [|split].
  - unfold G; subst st'; prj. split; [exact Hhd|]. split; [|split; [exact Hnd|split; [|split; [exact Htl|split]]]].
    + eapply lpath_ext; [exact Hpath|]. intros x Hx. apply setf_other. apply Hne. exact Hx.
    + intros x Hx. apply Hlt in Hx. fold n in Hx. lia.
    + rewrite (setf_other _ _ _ (tail st)) by (apply Hne; exact Htlf).
      destruct Hlag as [Hz | Hz]; [left; exact Hz|]. right.
      unfold setf. destruct (N.eqb_spec (nnext st (tail st)) n); [reflexivity | exact Hz].
    + rewrite Hfifo. f_equal. apply map_ext_in. intros x Hx. symmetry. apply setf_other.
      apply Hne. apply in_or_app. right. destruct Hhd as [r ->]. right. exact Hx.
  - subst st'; prj. apply (threads_upd (T _ l)); [intros t' _; apply HS, HT |].
    split; [|exact I]. cbn [fresh_of]. intros n' E. injection E as <-. prj.
    assert (Hh : head st < n).
    { apply Hlt. apply in_or_app. right. destruct Hhd as [r ->]. left. reflexivity. }
    split; [lia|]. split; [lia|]. split; [|apply setf_same].
    intros Hc. apply (Hne _ Hc). reflexivity.
  - subst st'; prj. apply U_upd; [exact HU|]. cbn [fresh_of]. intros n' E t' _ Hc. injection E as <-.
    destruct (HT t') as [Hfr _]. destruct (Hfr _ Hc) as (_ & Hlt' & _). fold n in Hlt'. lia.
Qed.

(** ** the successful link CAS of push (linearization point of push) *)
Lemma step_link st l t n tl0 :
  InvL st l -> th st t = M4 n tl0 -> nnext st tl0 = 0 ->
  Inv (mkSt (head st) (tail st) (nval st) (setf (nnext st) tl0 n) (nalloc st) (upd (th st) t (M5 n tl0))
            (g_in st ++ [nval st n]) (g_out st) (g_retired st)).
Proof.
  intros (HG & HT & HU) E Hz.
  pose proof HG as (Hhd & Hpath & Hnd & Hlt & Htl & Hlag & Hfifo).
  pose proof (HT t) as Ht. rewrite E in Ht. destruct Ht as [Hfr [Hin Himp]].
  destruct (Hfr n eq_refl) as (Hn0 & Hnlt & Hnin & Hnn).
  assert (Htt : tail st = tl0) by (apply Himp; exact Hz).
  assert (Hntl : n <> tl0) by (intros ->; contradiction).
  set (st' := mkSt _ _ _ _ _ _ _ _ _).
  assert (HS : forall q, fresh_of q <> Some n -> T st l q -> T st' (l ++ [n]) q).
  { intros q Hqn Hq. apply (T_stable st l st' (l ++ [n]) q); subst st'; prj; try apply incl_refl.
    - exact Hhd.
    - rewrite app_assoc. apply incl_appl, incl_refl.
    - intros x Hx Hnz. apply setf_other. congruence.
    - intros x Hx Hxz. assert (x <> tl0) by (intros ->; rewrite setf_same in Hxz; contradiction).
      rewrite setf_other in Hxz by assumption. split; [exact Hxz|auto].
    - intros; assumption.
    - intros n' Hn' H1 H2 H3. split; [exact H1|]. split.
      + rewrite app_assoc. intros Hc. apply in_app_or in Hc. destruct Hc as [Hc | [Hc | []]]; [contradiction|].
        congruence.
      + rewrite setf_other; [exact H3|]. intros ->. contradiction.
    - exact Hq. }
  exists (l ++ [n]). split; [|split].
  - unfold G; subst st'; prj. rewrite !app_assoc.
    split; [|split; [|split; [|split; [|split; [|split]]]]].
    + destruct Hhd as [r ->]. exists (r ++ [n]). reflexivity.
    + apply lpath_snoc; assumption.
    + apply NoDup_snoc; assumption.
    + intros x Hx. apply in_app_or in Hx. destruct Hx as [Hx | [<- | []]]; [apply Hlt; exact Hx | exact Hnlt].
    + apply in_or_app. left. exact Htl.
    + right. rewrite Htt, setf_same. rewrite setf_other by exact Hntl. exact Hnn.
    + destruct Hhd as [r ->]. cbn [app tl] in *. rewrite map_app. cbn [map].
      rewrite Hfifo. rewrite app_assoc. reflexivity.
  - subst st'; prj. apply (threads_upd (T _ (l ++ [n]))).
    + intros t' Hne. apply HS; [|apply HT]. intros Hc.
      apply (HU t' t n Hne Hc). rewrite E. reflexivity.
    + split; [intros n' Hc; discriminate|]. prj. split; [|split; [apply setf_same | exact Hn0]].
      rewrite app_assoc. apply in_or_app. left. exact Hin.
  - subst st'; prj. apply U_upd_same; [exact HU|]. left. reflexivity.
Qed.

(** ** the successful head CAS of pop (linearization point of a non-empty pop) *)
Lemma step_unlink st l t h nx :
  InvL st l -> th st t = D6 h nx -> head st = h ->
  Inv (mkSt nx (tail st) (nval st) (nnext st) (nalloc st) (upd (th st) t Idle)
            (g_in st) (g_out st ++ [nval st nx]) (g_retired st ++ [h])).
Proof.
  intros (HG & HT & HU) E Hh.
  pose proof HG as (Hhd & Hpath & Hnd & Hlt & Htl & Hlag & Hfifo).
  pose proof (HT t) as Ht. rewrite E in Ht. destruct Ht as [_ (Hin & Hnz & Hn & Htlh)].
  destruct Hhd as [r Hl]. rewrite Hh in Hl.
  assert (Hpl : lpath (nnext st) l).
  { eapply lpath_suffix; [exact Hpath|]. rewrite Hl. discriminate. }
  rewrite Hl in Hpl. destruct (lpath_hd_next _ _ _ Hpl) as [r' Hr]; [congruence|].
  rewrite Hn in Hr. subst r. subst l.
  assert (Hfull : (g_retired st ++ [h]) ++ nx :: r' = g_retired st ++ h :: nx :: r').
  { rewrite <- app_assoc. reflexivity. }
  set (st' := mkSt _ _ _ _ _ _ _ _ _).
  assert (HS : forall q, T st (h :: nx :: r') q -> T st' (nx :: r') q).
  { intros q Hq. apply (T_stable st (h :: nx :: r') st' (nx :: r') q); subst st'; prj; try rewrite Hfull; try apply incl_refl.
    - exists (nx :: r'). rewrite Hh. reflexivity.
    - rewrite Hh. apply incl_appl, incl_refl.
    - intros; reflexivity.
    - intros; split; auto.
    - intros; assumption.
    - intros. repeat split; assumption.
    - exact Hq. }
  exists (nx :: r'). split; [|split].
  - unfold G; subst st'; prj. rewrite Hfull.
    split; [exists r'; reflexivity|]. split; [exact Hpath|]. split; [exact Hnd|]. split; [exact Hlt|].
    split; [|split; [exact Hlag|]].
    + destruct Htl as [Hc | Hc]; [congruence | exact Hc].
    + cbn [tl map] in *. rewrite Hfifo. rewrite <- app_assoc. reflexivity.
  - subst st'; prj. apply (threads_upd (T _ (nx :: r'))); [intros t' _; apply HS, HT|].
    split; [intros n' Hc; discriminate | exact I].
  - subst st'; prj. apply U_upd_same; [exact HU|]. left. reflexivity.
Qed.

Lemma Inv_init : Inv init.
Proof.
  exists [1]. split; [|split].
  - unfold G, init; prj. cbn [app tl map].
    split; [exists []; reflexivity|]. split; [apply lp_one; [discriminate|reflexivity]|].
    split; [constructor; [intros []|constructor]|].
    split; [intros x [<- | []]; reflexivity|].
    split; [left; reflexivity|]. split; [left; reflexivity | reflexivity].
  - intros t. unfold init; prj. split; [intros n Hc; discriminate | exact I].
  - intros t t' n _ Hc. discriminate.
Qed.

(** [step_cases Hst st t], for [Hst : step st (Start t o) = Some (st', es)] or
    [Hst : step st (Step t) = Some (st', es)]: one goal per program point of [t] (named by
    [E : th st t = ...]) and outcome of its CAS or comparison, with [st'] and [es] replaced by the
    successor state and the events *)
Ltac step_cases Hst st t :=
  unfold step in Hst; destruct (th st t) eqn:?E; cbv beta iota zeta in Hst; try discriminate Hst;
  try match type of Hst with context [match ?o with OPush _ => _ | OPop => _ end] => destruct o end;
  repeat match type of Hst with
  | context [if negb (?a =? ?b) then _ else _] => destruct (N.eqb_spec a b); cbn [negb] in Hst
  | context [if (?a =? ?b) then Some _ else _] => destruct (N.eqb_spec a b)
  end;
  injection Hst as <- <-.

Lemma Inv_step s a s' es : Inv s -> step s a = Some (s', es) -> Inv s'.
Proof.
  intros [l HL] Hst. pose proof HL as (HG & HT & _). destruct HG as (_ & _ & _ & _ & Htl & _).
  destruct a as [t o|t]; destruct (HT t) as [_ Ht]; step_cases Hst s t; cbn [Tl] in Ht;
    (* a step that only moves the program counter owes [Tl] at the new one, often [True] *)
    try (apply (step_go _ _ _ _ _ HL E);
         [first [left; reflexivity | right; reflexivity] | try exact I]).
  - (* Begin push *) apply (step_alloc _ l). exact HL.
  - (* M1 *) split; [apply in_or_app; right; exact Htl | reflexivity].
  - (* M2 *) destruct Ht as [Hin Himp].
    destruct (N.eqb_spec (nnext s t0) 0) as [Hz|Hz];
      (apply (step_go _ _ _ _ _ HL E); [right; reflexivity|]).
    + split; assumption.
    + split; [exact Hin|]. split; [reflexivity | exact Hz].
  - (* M3, help *) destruct Ht as (Hin & Hn & Hnz).
    apply (step_tail _ _ _ _ _ _ HL E); [right; reflexivity | exact I | congruence | exact Hnz].
  - (* M4, link *) apply (step_link s l); assumption.
  - (* M5, swing *) destruct Ht as (Hin & Hn & Hnz).
    apply (step_tail _ _ _ _ _ _ HL E); [left; reflexivity | exact I | congruence | exact Hnz].
  - (* D1 *) apply in_or_app. right. left. reflexivity.
  - (* D2 *) split; [exact Ht | intros _; reflexivity].
  - (* D3 *) destruct Ht as [Hin Himp]. split; [exact Hin|]. split; [assumption | apply Himp; assumption].
  - (* D4 *) destruct Ht as (Hin & Hnz & Hn).
    destruct (N.eqb_spec h (tail s)) as [Heq|Hneq];
      (apply (step_go _ _ _ _ _ HL E); [left; reflexivity|]).
    + split; [symmetry; exact Heq|]. split; [exact Hin|]. split; assumption.
    + split; [exact Hin|]. split; [exact Hnz|]. split; [exact Hn | congruence].
  - (* D5, help *) destruct Ht as (Hth & Hin & Hnz & Hn).
    apply (step_tail _ _ _ _ _ _ HL E); [left; reflexivity | exact I | congruence | exact Hnz].
  - (* D6, unlink *) apply (step_unlink s l); assumption.
Qed.

Theorem Inv_reach st : reach init step st -> Inv st.
Proof. apply inv_rule; [exact Inv_init | exact Inv_step]. Qed.

(** * The chain as a computable function of the state *)

Fixpoint walk (nx : N -> N) (fuel : nat) (a : N) : list N :=
  match fuel with
  | O => [a]
  | S f => if nx a =? 0 then [a] else a :: walk nx f (nx a)
  end.

(** nodes from [head] following [nnext] up to the null link *)
Definition chain (st : state) : list N := walk (nnext st) (N.to_nat (nalloc st)) (head st).

Lemma walk_lpath nx l : lpath nx l -> forall fuel, (length l <= S fuel)%nat -> walk nx fuel (hd 0 l) = l.
Proof.
  induction 1 as [a Ha Hn | a b r Ha Hn Hp IH]; intros fuel Hlen; cbn [hd].
  - destruct fuel; cbn [walk]; [reflexivity|]. rewrite Hn. reflexivity.
  - assert (Hb : b <> 0) by (eapply lpath_hd_nz; exact Hp).
    destruct fuel as [|f]; [cbn [length] in Hlen; lia|]. cbn [walk].
    destruct (N.eqb_spec (nx a) 0) as [Hz|Hz]; [congruence|].
    f_equal. rewrite Hn. apply (IH f). cbn [length] in *. lia.
Qed.

Lemma bounded_nodup_length (l : list N) n : NoDup l -> (forall x, In x l -> x < n) -> (length l <= N.to_nat n)%nat.
Proof.
  intros Hnd Hlt. rewrite <- (map_length N.to_nat l), <- (seq_length (N.to_nat n) 0).
  apply NoDup_incl_length.
  - apply FinFun.Injective_map_NoDup; [|exact Hnd]. intros x y Hxy. apply N2Nat.inj. exact Hxy.
  - intros y Hy. apply in_map_iff in Hy. destruct Hy as (x & <- & Hx). apply in_seq. apply Hlt in Hx. lia.
Qed.

Lemma NoDup_app_r (A : Type) (l1 l2 : list A) : NoDup (l1 ++ l2) -> NoDup l2.
Proof. induction l1 as [|a l1 IH]; intros H; [exact H|]. inversion H. auto. Qed.

Lemma NoDup_app_disj (A : Type) (l1 l2 : list A) x : NoDup (l1 ++ l2) -> In x l1 -> ~ In x l2.
Proof.
  induction l1 as [|a l1 IH]; intros H Hx; [destruct Hx|]. inversion H as [|a' l' Hn Hnd]; subst.
  destruct Hx as [<- | Hx]; [|apply IH; assumption].
  intros Hc. apply Hn. apply in_or_app. right. exact Hc.
Qed.

Lemma G_lpath st l : G st l -> lpath (nnext st) l.
Proof.
  intros (Hhd & Hpath & _). eapply lpath_suffix; [exact Hpath|]. destruct Hhd as [r ->]. discriminate.
Qed.

Lemma chain_eq st l : G st l -> chain st = l.
Proof.
  intros HG. pose proof (G_lpath _ _ HG) as Hl. destruct HG as (Hhd & Hpath & Hnd & Hlt & _).
  unfold chain. replace (head st) with (hd 0 l) by (destruct Hhd as [r ->]; reflexivity).
  apply walk_lpath; [exact Hl|].
  assert (length l <= N.to_nat (nalloc st))%nat; [|lia].
  apply bounded_nodup_length; [eapply NoDup_app_r; exact Hnd|].
  intros x Hx. apply Hlt. apply in_or_app. right. exact Hx.
Qed.

Lemma Inv_chain st : Inv st -> InvL st (chain st).
Proof. intros [l HL]. rewrite (chain_eq _ _ (proj1 HL)). exact HL. Qed.

(** * Theorems *)

Section Theorems.
  Variable st : state.
  Hypothesis Hreach : reach init step st.

  Let HI := Inv_chain st (Inv_reach st Hreach).

  (** 1a. structure of the chain (and of the retired prefix) *)
  Theorem msq_chain :
    hd 0 (chain st) = head st /\
    (forall i, (S i < length (chain st))%nat -> nth (S i) (chain st) 0 = nnext st (nth i (chain st) 0)) /\
    nnext st (last (chain st) 0) = 0 /\
    NoDup (chain st) /\
    (forall x, In x (chain st) -> x <> 0 /\ x < nalloc st) /\
    (exists l0, chain st = l0 ++ [tail st] \/ exists x, chain st = l0 ++ [tail st; x]).
  Proof.
    destruct HI as (HG & _ & _). pose proof (G_lpath _ _ HG) as Hl.
    destruct HG as (Hhd & Hpath & Hnd & Hlt & Htl & Hlag & Hfifo).
    split; [destruct Hhd as [r ->]; reflexivity|].
    split; [apply lpath_nth; exact Hl|].
    split; [apply lpath_last_null; exact Hl|].
    split; [eapply NoDup_app_r; exact Hnd|].
    split.
    - intros x Hx. split; [eapply lpath_nz; [exact Hl | exact Hx]|].
      apply Hlt. apply in_or_app. right. exact Hx.
    - destruct Hlag as [Hz | Hz].
      + destruct (lpath_last _ _ Hl _ Htl Hz) as [l0 E]. exists l0. left. exact E.
      + destruct (N.eq_dec (nnext st (tail st)) 0) as [Hz' | Hnz].
        * destruct (lpath_last _ _ Hl _ Htl Hz') as [l0 E]. exists l0. left. exact E.
        * destruct (lpath_last2 _ _ Hl _ _ Htl eq_refl Hnz Hz) as [l0 E]. exists l0. right.
          exists (nnext st (tail st)). exact E.
  Qed.

  (** 1b. retired nodes: distinct, not in the chain, keep their (non-null) link; in fact
      [g_retired st ++ chain st] is one null-terminated duplicate-free path starting at the
      initial dummy or at the current head *)
  Theorem msq_retired :
    NoDup (g_retired st ++ chain st) /\
    lpath (nnext st) (g_retired st ++ chain st) /\
    (forall x, In x (g_retired st) ->
       ~ In x (chain st) /\ nnext st x <> 0 /\ In (nnext st x) (g_retired st ++ chain st) /\
       x <> 0 /\ x < nalloc st).
  Proof.
    destruct HI as (HG & _ & _). destruct HG as (Hhd & Hpath & Hnd & Hlt & Htl & Hlag & Hfifo).
    split; [exact Hnd|]. split; [exact Hpath|]. intros x Hx.
    assert (Hnz : nnext st x <> 0).
    { eapply lpath_prefix_link; [exact Hpath | | exact Hx]. destruct Hhd as [r ->]. discriminate. }
    assert (Hin : In x (g_retired st ++ chain st)) by (apply in_or_app; left; exact Hx).
    split; [eapply NoDup_app_disj; [exact Hnd | exact Hx]|]. split; [exact Hnz|].
    split; [apply lpath_next_in; assumption|].
    split; [eapply lpath_nz; [exact Hpath | exact Hin] | apply Hlt; exact Hin].
  Qed.

  (** 1c. nodes referenced by the local variables of the threads *)
  Definition fresh_node (n : N) : Prop :=
    n <> 0 /\ n < nalloc st /\ ~ In n (g_retired st ++ chain st) /\ nnext st n = 0.
  Definition known_node (x : N) : Prop := In x (g_retired st ++ chain st).

  Theorem msq_locals t :
    match th st t with
    | M1 n => fresh_node n
    | M2 n tl | M4 n tl => fresh_node n /\ known_node tl /\ (nnext st tl = 0 -> tail st = tl)
    | M3 n tl nx => fresh_node n /\ known_node tl /\ nnext st tl = nx /\ nx <> 0
    | M5 n tl => known_node n /\ known_node tl /\ nnext st tl = n /\ n <> 0
    | D2 h => known_node h /\ In h (g_retired st ++ [head st])
    | D3 h nx => known_node h /\ In h (g_retired st ++ [head st]) /\ (nx <> 0 -> nnext st h = nx)
    | D4 h nx => known_node h /\ In h (g_retired st ++ [head st]) /\ nx <> 0 /\ nnext st h = nx
    | D5 h nx tl => known_node h /\ In h (g_retired st ++ [head st]) /\ nx <> 0 /\ nnext st h = nx /\ tl = h
    | D6 h nx => known_node h /\ In h (g_retired st ++ [head st]) /\ nx <> 0 /\ nnext st h = nx /\ tail st <> h
    | _ => True
    end.
  Proof.
    destruct HI as (HG & HT & _). specialize (HT t).
    pose proof (old_incl_full _ _ (proj1 HG)) as Hof.
    destruct HG as (Hhd & Hpath & Hnd & Hlt & Htl & Hlag & Hfifo).
    unfold fresh_node, known_node. destruct (th st t); try exact I; destruct HT as [Hfr Hq]; cbn [fresh_of] in Hfr.
    - exact (Hfr _ eq_refl).
    - split; [exact (Hfr _ eq_refl) | exact Hq].
    - split; [exact (Hfr _ eq_refl) | exact Hq].
    - split; [exact (Hfr _ eq_refl) | exact Hq].
    - destruct Hq as (Hin & Hn & Hnz). split; [|auto].
      rewrite <- Hn. apply lpath_next_in; [exact Hpath | exact Hin | congruence].
    - split; [apply Hof; exact Hq | exact Hq].
    - split; [apply Hof; exact (proj1 Hq) | exact Hq].
    - split; [apply Hof; exact (proj1 Hq) | exact Hq].
    - destruct Hq as (Ht & Hin & Hnz & Hn). split; [apply Hof; exact Hin | auto].
    - split; [apply Hof; exact (proj1 Hq) | exact Hq].
  Qed.

  (** the unlinked nodes of two different pushing threads are different *)
  Theorem msq_fresh_unique t t' n :
    t <> t' -> fresh_of (th st t) = Some n -> fresh_of (th st t') = Some n -> False.
  Proof. destruct HI as (_ & _ & HU). apply HU. Qed.

  (** 2. FIFO: enqueued values = dequeued values followed by the values in the queue *)
  Theorem msq_fifo : g_in st = g_out st ++ map (nval st) (tl (chain st)).
  Proof. destruct HI as (HG & _ & _). apply HG. Qed.

  (** 5. tail lags behind the last node by at most one link *)
  Theorem msq_tail_lag :
    (exists l0, chain st = l0 ++ [tail st] \/ exists x, chain st = l0 ++ [tail st; x]) /\
    (nnext st (tail st) = 0 \/ nnext st (nnext st (tail st)) = 0).
  Proof.
    split; [apply msq_chain|]. destruct HI as (HG & _ & _). apply HG.
  Qed.

  (** 3. value taken by a pop whose head CAS is about to succeed *)
  Lemma msq_pop_value_state t h nx :
    th st t = D6 h nx -> head st = h ->
    nval st nx = nth (length (g_out st)) (g_in st) 0 /\
    exists r, chain st = h :: nx :: r.
  Proof.
    intros E Hh. destruct HI as (HG & HT & _). pose proof (G_lpath _ _ HG) as Hl.
    specialize (HT t). rewrite E in HT. destruct HT as [_ (Hin & Hnz & Hn & Htlh)].
    destruct HG as (Hhd & Hpath & Hnd & Hlt & Htl & Hlag & Hfifo).
    destruct Hhd as [r Hc]. rewrite Hh in Hc. rewrite Hc in Hl, Hfifo.
    destruct (lpath_hd_next _ _ _ Hl) as [r' Hr]; [congruence|]. rewrite Hn in Hr. subst r.
    split; [|exists r'; exact Hc].
    rewrite Hfifo. cbn [tl map]. rewrite app_nth2 by lia. rewrite Nat.sub_diag. reflexivity.
  Qed.

  (** 4 (state part). head never returns to a previous value; null link at the head = empty queue *)
  Theorem msq_head_nodup : NoDup (g_retired st ++ [head st]).
  Proof.
    destruct HI as (HG & _ & _). destruct HG as (Hhd & _ & Hnd & _). destruct Hhd as [r Hc].
    rewrite Hc in Hnd. change (head st :: r) with ([head st] ++ r) in Hnd. rewrite app_assoc in Hnd.
    apply NoDup_rev in Hnd. rewrite rev_app_distr in Hnd. apply NoDup_app_r in Hnd.
    apply NoDup_rev in Hnd. rewrite rev_involutive in Hnd. exact Hnd.
  Qed.

  Theorem msq_empty_state : nnext st (head st) = 0 -> chain st = [head st] /\ g_in st = g_out st.
  Proof.
    intros Hz. destruct HI as (HG & _ & _). pose proof (G_lpath _ _ HG) as Hl.
    destruct HG as (Hhd & Hpath & Hnd & Hlt & Htl & Hlag & Hfifo). destruct Hhd as [r Hc].
    rewrite Hc in Hl. rewrite (lpath_hd_null _ _ _ Hl Hz) in Hc. split; [exact Hc|].
    rewrite Hfifo, Hc. cbn [tl map]. apply app_nil_r.
  Qed.
End Theorems.

(** ** step-level consequences *)

(** 3. the value returned by a successful pop is the oldest value not yet dequeued *)
Theorem msq_pop_value st a st' es t x :
  reach init step st -> step st a = Some (st', es) -> In (ERet t [1; x]) es ->
  x = nth (length (g_out st)) (g_in st) 0 /\
  g_out st' = g_out st ++ [x] /\ g_in st' = g_in st /\
  exists h nx, a = Step t /\ th st t = D6 h nx /\ head st = h /\ head st' = nx /\ x = nval st nx /\
               exists r, chain st = h :: nx :: r.
Proof.
  intros Hr Hst Hin. destruct a as [t' o|t']; step_cases Hst st t'; cbn [In app] in Hin;
    repeat match goal with
    | H : _ \/ _ |- _ => destruct H
    | H : False |- _ => destruct H
    end; try discriminate.
  match goal with H : ERet _ _ = ERet _ _ |- _ => injection H as -> <- end.
  prj. destruct (msq_pop_value_state st Hr t h nx E e) as [Hv Hc].
  split; [exact Hv|]. split; [reflexivity|]. split; [reflexivity|].
  exists h, nx. repeat split; try assumption; reflexivity.
Qed.

(** 4 (step part). every step keeps [head] or moves the old head to [g_retired] *)
Lemma msq_head_step st a st' es :
  step st a = Some (st', es) ->
  (head st' = head st /\ g_retired st' = g_retired st) \/ g_retired st' = g_retired st ++ [head st].
Proof.
  intros Hst. destruct a as [t o|t]; step_cases Hst st t; prj; try (left; split; reflexivity).
  right. congruence.
Qed.

Lemma msq_head_from s0 s1 :
  reach_from step s0 s1 ->
  (head s1 = head s0 /\ g_retired s1 = g_retired s0) \/
  exists ext, g_retired s1 = g_retired s0 ++ head s0 :: ext.
Proof.
  induction 1 as [|s a s' es Hf IH Hst]; [left; split; reflexivity|].
  destruct (msq_head_step _ _ _ _ Hst) as [[Hh Hr] | Hr]; destruct IH as [[Hh' Hr'] | [ext Hr']].
  - left. split; congruence.
  - right. exists ext. congruence.
  - right. exists []. congruence.
  - right. exists (ext ++ [head s]). rewrite Hr, Hr', <- app_assoc. reflexivity.
Qed.

(** head ABA freedom: if head has the same value at two points of an execution, it had this value
    (and nothing was retired) at every point in between *)
Theorem msq_head_no_aba s0 s1 s2 :
  reach init step s0 -> reach_from step s0 s1 -> reach_from step s1 s2 ->
  head s2 = head s0 ->
  head s1 = head s0 /\ g_retired s1 = g_retired s0 /\ g_retired s2 = g_retired s0.
Proof.
  intros Hr H01 H12 Hh.
  assert (Hr2 : reach init step s2).
  { eapply reach_from_reach; [|exact H12]. eapply reach_from_reach; [exact Hr | exact H01]. }
  pose proof (msq_head_nodup s2 Hr2) as Hnd.
  assert (Hnin : ~ In (head s0) (g_retired s2)).
  { rewrite <- Hh, <- (app_nil_r (g_retired s2)). exact (NoDup_remove_2 _ [] _ Hnd). }
  destruct (msq_head_from _ _ H01) as [[Hh1 Hr1] | [ext Hr1]];
    destruct (msq_head_from _ _ H12) as [[Hh2 Hr2'] | [ext' Hr2']].
  - repeat split; congruence.
  - exfalso. apply Hnin. rewrite Hr2', Hh1. apply in_or_app. right. left. reflexivity.
  - exfalso. apply Hnin. rewrite Hr2', Hr1. apply in_or_app. right. left. reflexivity.
  - exfalso. apply Hnin. rewrite Hr2', Hr1. apply in_or_app. left. apply in_or_app. right. left. reflexivity.
Qed.

(** 4. linearization point of a pop that answers "empty": [s0] is the state of the thread's
    D1 load (it reads [h = head s0]), [s1] the state of its D2 load (it reads
    [nnext s1 h = 0]), [s2] the state of its D3 load (it sees [head s2 = h] and returns [0]).
    Then at [s1], inside the call, [h] was the head and the abstract queue was empty. *)
Theorem msq_empty_lp s0 s1 s2 h :
  reach init step s0 -> reach_from step s0 s1 -> reach_from step s1 s2 ->
  head s0 = h -> head s2 = h -> nnext s1 h = 0 ->
  head s1 = h /\ chain s1 = [h] /\ g_in s1 = g_out s1.
Proof.
  intros Hr H01 H12 Hh0 Hh2 Hz.
  destruct (msq_head_no_aba s0 s1 s2 Hr H01 H12) as (Hh1 & _); [congruence|].
  assert (Hr1 : reach init step s1) by (eapply reach_from_reach; [exact Hr | exact H01]).
  assert (E : head s1 = h) by congruence. split; [exact E|]. rewrite <- E in *.
  apply msq_empty_state; assumption.
Qed.

(** ** thread-level form of the empty-pop linearization point *)

Definition by_other (t : nat) (a : action) : Prop :=
  match a with Start t' _ | Step t' => t' <> t end.

(** executions in which thread [t] does not move *)
Inductive run_others (t : nat) (s0 : state) : state -> Prop :=
| ro_refl : run_others t s0 s0
| ro_step s1 a s2 es : run_others t s0 s1 -> by_other t a -> step s1 a = Some (s2, es) -> run_others t s0 s2.

Lemma step_th_other t s a s' es : by_other t a -> step s a = Some (s', es) -> th s' t = th s t.
Proof.
  intros Hb Hst. destruct a as [t' o|t']; step_cases Hst s t'; prj; cbn [by_other] in Hb; apply upd_other; congruence.
Qed.

Lemma run_others_th t s0 s1 : run_others t s0 s1 -> th s1 t = th s0 t.
Proof.
  induction 1 as [|s1 a s2 es Hro IH Hb Hst]; [reflexivity|].
  rewrite (step_th_other _ _ _ _ _ Hb Hst). exact IH.
Qed.

Lemma run_others_from t s0 s1 : run_others t s0 s1 -> reach_from step s0 s1.
Proof. induction 1; [apply rf_refl | eapply rf_step; eauto]. Qed.

Lemma reach_from_trans (s0 s1 s2 : state) :
  reach_from step s0 s1 -> reach_from step s1 s2 -> reach_from step s0 s2.
Proof. intros H01 H12. induction H12; [exact H01 | eapply rf_step; eauto]. Qed.

(** The last loop iteration of a pop by thread [t] that returns "empty": its D1 step (from [s0]),
    steps of other threads, its D2 step (from [s1]), steps of other threads, its D3 step (from
    [s2]) which emits [ERet t [0]].  Then at [s1] -- the moment of the D2 load, inside the call --
    the node loaded at D1 was still the head, its link was null, and the abstract queue was empty
    (everything enqueued so far had been dequeued). *)
Theorem msq_empty_lp_thread t s0 sa s1 sb s2 s3 ea eb ec :
  reach init step s0 ->
  th s0 t = D1 -> step s0 (Step t) = Some (sa, ea) -> run_others t sa s1 ->
  step s1 (Step t) = Some (sb, eb) -> run_others t sb s2 ->
  step s2 (Step t) = Some (s3, ec) -> In (ERet t [0]) ec ->
  th s1 t = D2 (head s0) /\ th s2 t = D3 (head s0) 0 /\
  head s1 = head s0 /\ nnext s1 (head s1) = 0 /\ head s2 = head s0 /\
  chain s1 = [head s1] /\ g_in s1 = g_out s1.
Proof.
  intros Hr E0 Hsa Ho1 Hsb Ho2 Hsc Hin.
  pose proof Hsa as Hsa'. unfold step in Hsa. rewrite E0 in Hsa. cbv beta iota zeta in Hsa.
  injection Hsa as <- <-.
  assert (E1 : th s1 t = D2 (head s0)).
  { rewrite (run_others_th _ _ _ Ho1). prj. apply upd_same. }
  pose proof Hsb as Hsb'. unfold step in Hsb. rewrite E1 in Hsb. cbv beta iota zeta in Hsb.
  injection Hsb as <- <-.
  assert (E2 : th s2 t = D3 (head s0) (nnext s1 (head s0))).
  { rewrite (run_others_th _ _ _ Ho2). prj. apply upd_same. }
  unfold step in Hsc. rewrite E2 in Hsc. cbv beta iota zeta in Hsc.
  assert (Hc : head s2 = head s0 /\ nnext s1 (head s0) = 0).
  { destruct (N.eqb_spec (head s2) (head s0)) as [Hh|Hh]; cbn [negb] in Hsc;
      [destruct (N.eqb_spec (nnext s1 (head s0)) 0) as [Hz|Hz]|];
      injection Hsc as <- <-; cbn [In app] in Hin;
      repeat match goal with
      | H : _ \/ _ |- _ => destruct H
      | H : False |- _ => destruct H
      end; try discriminate.
    split; assumption. }
  destruct Hc as [Hh2 Hz]. rewrite Hz in E2.
  assert (H01 : reach_from step s0 s1).
  { eapply reach_from_trans; [|eapply run_others_from; exact Ho1].
    eapply rf_step; [apply rf_refl | exact Hsa']. }
  assert (H12 : reach_from step s1 s2).
  { eapply reach_from_trans; [|eapply run_others_from; exact Ho2].
    eapply rf_step; [apply rf_refl | exact Hsb']. }
  destruct (msq_empty_lp s0 s1 s2 (head s0) Hr H01 H12 eq_refl Hh2 Hz) as (Hh1 & Hch & Hio).
  rewrite Hh1. repeat split; assumption.
Qed.

(** ** corollaries of the FIFO relation *)

(** the dequeued values are a prefix of the enqueued values; the remaining ones are in the queue *)
Corollary msq_out_prefix st : reach init step st ->
  g_out st = firstn (length (g_out st)) (g_in st) /\
  map (nval st) (tl (chain st)) = skipn (length (g_out st)) (g_in st) /\
  (length (g_in st) = length (g_out st) + (length (chain st) - 1))%nat.
Proof.
  intros Hr. rewrite (msq_fifo st Hr) at 1 2 3.
  rewrite firstn_app, Nat.sub_diag, firstn_all, skipn_app, Nat.sub_diag, skipn_all.
  cbn [firstn skipn app]. rewrite app_nil_r, app_length, map_length.
  repeat split. destruct (chain st); cbn [tl length]; lia.
Qed.

Example chain_init : chain init = [1].
Proof. reflexivity. Qed.
