(** vyukov_hash_map bucket model: the extension chain, the free list and item ownership. *)
From Coq Require Import NArith List Bool Lia PeanoNat.
From XV Require Import Base.Word Conc.Lts Conc.Ev gen.BucketStateGen Proof.BucketState Model.VhmDefs Proof.VhmStep Proof.VhmBase.
Import ListNotations.
Local Open Scope N_scope.

Definition item_ok (x : N) : Prop := 1 <= x <= 10.

(** the extension item a thread owns exclusively: popped from the free list and not yet linked into the
    chain, or unlinked from the chain and not yet pushed onto the free list *)
Definition pc_own (p : pc) : option N :=
  match p with
  | A7 _ _ _ _ n | IXSK _ _ _ _ n | IXSV _ _ _ _ n | IXH _ _ _ _ n | IXSN _ _ _ _ n _ | IXSH _ _ _ _ n => Some n
  | XA9 _ _ _ _ x | XXU _ _ _ x _ | F1 _ _ _ x | F2 _ _ _ x | F3 _ _ _ x | F4 _ _ _ x _ | F5 _ _ _ x => Some x
  | _ => None
  end.

(** the predecessor link of do_extract *)
Definition link_ok (st : state) (p x : N) : Prop :=
  (p = 0 /\ bhead st = x) \/ (p <> 0 /\ In p (g_chain st) /\ xnext st p = x).

(** facts of the holder of the bucket lock about the chain *)
Definition pc_ch (st : state) (p : pc) : Prop :=
  match p with
  | IXK _ _ _ _ x | IXV _ _ _ _ x | IXN _ _ _ _ x | XXM _ _ _ x => In x (g_chain st)
  | IXSN _ _ _ _ _ h => h = bhead st
  | IXSH _ _ _ _ n => xnext st n = bhead st
  | XA1 _ _ _ _ _ x | XA2 _ _ _ _ _ x | XA3 _ _ _ _ _ x _ | XA4 _ _ _ _ _ x _ _ | XA5 _ _ _ _ _ x _ | XA6 _ _ _ _ _ x
  | XA7 _ _ _ _ _ x => x = bhead st /\ x <> 0
  | XA8 _ _ _ _ _ x nx => x = bhead st /\ x <> 0 /\ nx = xnext st x
  | XB1 _ _ _ _ _ | XB2 _ _ _ _ _ | XB3 _ _ _ _ _ _ | XB4 _ _ _ _ _ _ _ | XB5 _ _ _ _ _ _ | XB6 _ _ _ _ _ => bhead st = 0
  | XXK _ _ _ p x | XXV _ _ _ p x | XXN _ _ _ p x _ => In x (g_chain st) /\ link_ok st p x
  | XXP _ _ _ p x _ nx => In x (g_chain st) /\ link_ok st p x /\ nx = xnext st x
  | _ => True
  end.

(** facts of the holder of the extension bucket's lock about the free list *)
Definition pc_fr (st : state) (p : pc) : Prop :=
  match p with
  | A5 _ _ _ _ n => n = xhead st /\ n <> 0
  | A6 _ _ _ _ n nx => n = xhead st /\ n <> 0 /\ nx = xnext st n
  | F4 _ _ _ _ h => h = xhead st
  | F5 _ _ _ x => xnext st x = xhead st
  | _ => True
  end.

Definition pc_dup (p : pc) : bool := match p with XA7 _ _ _ _ _ _ | XA8 _ _ _ _ _ _ _ => true | _ => false end.
Definition pc_limbo (p : pc) : N := match p with XA9 _ _ _ _ x | XXU _ _ _ x _ => x | _ => 0 end.

Record Mem (st : state) : Prop := mkMem {
  M_chd : bhead st = hd 0 (g_chain st);
  M_clk : linksto (xnext st) (g_chain st) 0;
  M_cnd : NoDup (g_chain st);
  M_cok : forall x, In x (g_chain st) -> item_ok x;
  M_fhd : xhead st = hd 0 (g_free st);
  M_flk : linksto (xnext st) (g_free st) 0;
  M_fnd : NoDup (g_free st);
  M_fok : forall x, In x (g_free st) -> item_ok x;
  M_disj : forall x, In x (g_chain st) -> In x (g_free st) -> False;
  M_own : forall t x, pc_own (th st t) = Some x -> item_ok x /\ ~ In x (g_chain st) /\ ~ In x (g_free st);
  M_inj : forall t t' x, t <> t' -> pc_own (th st t) = Some x -> pc_own (th st t') = Some x -> False;
  M_fl0 : g_owner st = None -> g_dup st = false /\ g_limbo st = 0;
  M_fl : forall t, g_owner st = Some t -> g_dup st = pc_dup (th st t) /\ g_limbo st = pc_limbo (th st t);
  M_ch : forall t, pc_ch st (th st t);
  M_fr : forall t, pc_fr st (th st t)
}.

Lemma ch_unlocked p : pc_bst p = None -> forall st, pc_ch st p.
Proof. destruct p; cbn [pc_bst pc_ch]; try discriminate; intros; exact I. Qed.
Lemma fr_unlocked p : xlocked_pc p = false -> forall st, pc_fr st p.
Proof. destruct p; cbn [xlocked_pc pc_fr]; try discriminate; intros; exact I. Qed.

Lemma hd_in (l : list N) x : x = hd 0 l -> x <> 0 -> In x l.
Proof. destruct l; cbn [hd]; intros -> H; [contradiction | left; reflexivity]. Qed.

Lemma ch_frame st st' p : pc_ch st p -> bhead st = hd 0 (g_chain st) ->
  bhead st' = bhead st -> g_chain st' = g_chain st ->
  (forall y, In y (g_chain st) \/ pc_own p = Some y -> xnext st' y = xnext st y) -> pc_ch st' p.
Proof.
  intros H E0 E1 E2 E3.
  assert (Hc : forall y, In y (g_chain st) -> xnext st' y = xnext st y) by (intros y Hy; apply E3; left; exact Hy).
  assert (Hl : forall q x, link_ok st q x -> link_ok st' q x).
  { intros q x [H1|(H1 & H2 & H3)]; [left; rewrite E1; exact H1|right]. rewrite E2, Hc by exact H2. tauto. }
  destruct p; cbn [pc_ch pc_own] in *; rewrite ?E1, ?E2; try exact H.
  - rewrite E3; [exact H | right; reflexivity].
  - destruct H as (H1 & H2 & H3). rewrite Hc; [tauto|]. apply hd_in; congruence.
  - destruct H as (H1 & H2). auto.
  - destruct H as (H1 & H2). auto.
  - destruct H as (H1 & H2). auto.
  - destruct H as (H1 & H2 & H3). rewrite Hc by exact H1. auto.
Qed.

Lemma fr_frame st st' p : pc_fr st p -> xhead st' = xhead st ->
  (forall y, (y = xhead st /\ y <> 0) \/ pc_own p = Some y -> xnext st' y = xnext st y) -> pc_fr st' p.
Proof.
  intros H E1 E3. destruct p; cbn [pc_fr pc_own] in *; rewrite ?E1; try exact H.
  - destruct H as (H1 & H2 & ->). split; [exact H1|]. split; [exact H2|]. rewrite E3; [reflexivity|]. left. tauto.
  - rewrite E3; [exact H|]. right. reflexivity.
Qed.

Lemma Mem_init : Mem init.
Proof.
  constructor; cbn; try reflexivity; try (intros; discriminate); try tauto; try (intros; exact I).
  - constructor.
  - repeat constructor; cbn; intuition discriminate.
  - unfold item_ok. intros x H. repeat (destruct H as [<-|H]; [lia|]). destruct H.
Qed.

(** * list surgery *)
Lemma remx_hd x l : ~ In x l -> remx x (x :: l) = l.
Proof. intros H. cbn [remx filter]. rewrite N.eqb_refl. cbn [negb]. apply remx_notin. exact H. Qed.
Lemma remx_cons_ne x a l : a <> x -> remx x (a :: l) = a :: remx x l.
Proof. intros H. cbn [remx filter]. destruct (N.eqb_spec a x); [contradiction|reflexivity]. Qed.

Lemma linksto_next_in nx l p : ~ In 0 l -> linksto nx l 0 -> In p l -> nx p <> 0 -> In (nx p) l.
Proof.
  induction l as [|a l IH]; intros H0 HL Hp Hnz; [destruct Hp|]. cbn [linksto] in HL. destruct HL as [Ha HL].
  destruct Hp as [->|Hp].
  - right. rewrite Ha in *. destruct l; cbn [hd] in *; [contradiction|left; reflexivity].
  - right. apply IH; try assumption. intros Hc. apply H0. right. exact Hc.
Qed.

Lemma unlink_mid nx l p : NoDup l -> ~ In 0 l -> linksto nx l 0 -> In p l -> nx p <> 0 ->
  linksto (setf nx p (nx (nx p))) (remx (nx p) l) 0 /\ hd 0 (remx (nx p) l) = hd 0 l.
Proof.
  induction l as [|a l IH]; intros Hnd H0 HL Hp Hnz; [destruct Hp|].
  cbn [linksto] in HL. destruct HL as [Ha HL]. inversion Hnd as [|a' l' Hna Hnd']; subst.
  assert (H0' : ~ In 0 l) by (intros Hc; apply H0; right; exact Hc).
  destruct (N.eq_dec a p) as [->|Hne].
  - (* p is the head: its successor is the head of l *)
    destruct l as [|x l2]; cbn [hd] in Ha; [contradiction|]. subst x.
    inversion Hnd' as [|x' l2' Hnx Hnd2]; subst x' l2'.
    assert (Hpx : p <> nx p) by (intros E; apply Hna; left; symmetry; exact E).
    rewrite remx_cons_ne by exact Hpx. rewrite remx_hd by exact Hnx. split; [|reflexivity].
    cbn [linksto] in *. destruct HL as [Hx HL]. split; [rewrite setf_same; exact Hx|].
    eapply linksto_ext; [|exact HL]. intros y Hy. apply setf_other. intros ->. apply Hna. right. exact Hy.
  - destruct Hp as [Hp|Hp]; [contradiction|].
    assert (Hin : In (nx p) l) by (apply linksto_next_in; assumption).
    assert (Hax : a <> nx p) by (intros ->; contradiction).
    rewrite remx_cons_ne by exact Hax. destruct (IH Hnd' H0' HL Hp Hnz) as [IH1 IH2]. split; [|reflexivity].
    cbn [linksto]. split; [|exact IH1]. rewrite setf_other by exact Hne. rewrite IH2. exact Ha.
Qed.

Ltac rsplit := repeat match goal with |- _ /\ _ => split end.

Section VhmMem.
  Variable xoff : N.
  Notation step := (step xoff).

  Lemma Mem_step_lists st t p st' : Lk st -> Mem st -> th st t = p -> wstore st t p st' ->
    bhead st' = hd 0 (g_chain st') /\ linksto (xnext st') (g_chain st') 0 /\ NoDup (g_chain st') /\
    (forall x, In x (g_chain st') -> item_ok x) /\
    xhead st' = hd 0 (g_free st') /\ linksto (xnext st') (g_free st') 0 /\ NoDup (g_free st') /\
    (forall x, In x (g_free st') -> item_ok x) /\
    (forall x, In x (g_chain st') -> In x (g_free st') -> False).
  Proof.
    intros HI HM Epc Hs. destruct Hs; st_simpl_goal.
    all: try match goal with |- context [if ?c then _ else _] => destruct c end.
    all: try (split; [exact (M_chd _ HM)|split; [exact (M_clk _ HM)|split; [exact (M_cnd _ HM)|split; [exact (M_cok _ HM)|
              split; [exact (M_fhd _ HM)|split; [exact (M_flk _ HM)|split; [exact (M_fnd _ HM)|split; [exact (M_fok _ HM)|exact (M_disj _ HM)]]]]]]]]).
    all: pose proof (M_ch _ HM t) as Hch; rewrite Epc in Hch; cbn [pc_ch] in Hch.
    all: pose proof (M_fr _ HM t) as Hfr; rewrite Epc in Hfr; cbn [pc_fr] in Hfr.
    all: try (pose proof (M_own _ HM t) as Hown'; rewrite Epc in Hown'; cbn [pc_own] in Hown'; specialize (Hown' _ eq_refl)).
    all: pose proof (M_chd _ HM) as Hchd; pose proof (M_clk _ HM) as Hclk; pose proof (M_cnd _ HM) as Hcnd;
         pose proof (M_cok _ HM) as Hcok; pose proof (M_fhd _ HM) as Hfhd; pose proof (M_flk _ HM) as Hflk;
         pose proof (M_fnd _ HM) as Hfnd; pose proof (M_fok _ HM) as Hfok; pose proof (M_disj _ HM) as Hdj.
    - (* A6: pop *)
      destruct Hfr as (-> & Hnz & ->). destruct (g_free st) as [|n r] eqn:Ef; cbn [hd] in Hfhd; [congruence|].
      rewrite Hfhd in *. cbn [tl linksto] in *. destruct Hflk as [Hn Hflk]. inversion Hfnd; subst.
      rsplit; try assumption.
      + intros y Hy. apply Hfok. right. exact Hy.
      + intros y Hy Hy'. apply (Hdj y Hy). right. exact Hy'.
    - (* IXSN: store to the next field of the new item *)
      destruct Hown' as (Hok & Hnc & Hnf).
      rsplit; try assumption; (eapply linksto_ext; [|eassumption]); intros y Hy; apply setf_other; intros ->; contradiction.
    - (* IXSH: link the new item *)
      destruct Hown' as (Hok & Hnc & Hnf).
      rsplit; try assumption.
      + reflexivity.
      + cbn [linksto]. split; [rewrite Hch; exact Hchd | exact Hclk].
      + constructor; assumption.
      + intros y [<-|Hy]; [exact Hok | apply Hcok; exact Hy].
      + intros y [<-|Hy] Hy'; [contradiction | exact (Hdj y Hy Hy')].
    - (* XA8: unlink the head *)
      destruct Hch as (-> & Hnz & ->). destruct (g_chain st) as [|x rr] eqn:Ec; cbn [hd] in Hchd; [congruence|].
      rewrite Hchd in *. cbn [tl linksto] in *. destruct Hclk as [Hn Hclk]. inversion Hcnd; subst.
      rsplit; try assumption.
      + intros y Hy. apply Hcok. right. exact Hy.
      + intros y Hy Hy'. apply (Hdj y); [right; exact Hy | exact Hy'].
    - (* XXP, predecessor = head *)
      destruct Hch as (Hx & [(_ & Hl)|(Hc & _)] & ->); [|exfalso; apply Hc; reflexivity].
      destruct (g_chain st) as [|x' rr] eqn:Ec; [destruct Hx|]. cbn [hd] in Hchd. assert (x' = x) by congruence. subst x'.
      cbn [linksto] in Hclk. destruct Hclk as [Hn Hclk]. inversion Hcnd; subst.
      rewrite remx_hd by assumption.
      rsplit; try assumption.
      + intros y Hy. apply Hcok. right. exact Hy.
      + intros y Hy Hy'. apply (Hdj y); [right; exact Hy | exact Hy'].
    - (* XXP, predecessor = an item *)
      b2p. destruct Hch as (Hx & [(Hc & _)|(_ & Hp & Hl)] & ->); [contradiction|]. subst x.
      assert (H0 : ~ In 0 (g_chain st)) by (intros Hc; apply Hcok in Hc; unfold item_ok in Hc; lia).
      assert (Hnz : xnext st p <> 0) by (intros Hc; rewrite Hc in Hx; contradiction).
      destruct (unlink_mid (xnext st) (g_chain st) p Hcnd H0 Hclk Hp Hnz) as [U1 U2].
      rsplit; try assumption.
      + congruence.
      + apply NoDup_remx. exact Hcnd.
      + intros y Hy. apply in_remx in Hy. apply Hcok. tauto.
      + eapply linksto_ext; [|exact Hflk]. intros y Hy. apply setf_other. intros ->. exact (Hdj p Hp Hy).
      + intros y Hy Hy'. apply in_remx in Hy. apply (Hdj y); tauto.
    - (* F4: store to the next field of the item that is being freed *)
      destruct Hown' as (Hok & Hnc & Hnf).
      rsplit; try assumption; (eapply linksto_ext; [|eassumption]); intros y Hy; apply setf_other; intros ->; contradiction.
    - (* F5: push *)
      destruct Hown' as (Hok & Hnc & Hnf).
      rsplit; try assumption.
      + reflexivity.
      + cbn [linksto]. split; [rewrite Hfr; exact Hfhd | exact Hflk].
      + constructor; assumption.
      + intros y [<-|Hy]; [exact Hok | apply Hfok; exact Hy].
      + intros y Hy [<-|Hy']; [contradiction | exact (Hdj y Hy Hy')].
  Qed.

  (** who owns which item after a step of [t]: the lists only lose items or gain the one [t] owned, and what
      [t] owns afterwards it owned before or takes from a list *)
  Lemma own_upd st st' t p' : Mem st -> th st' = upd (th st) t p' ->
    (forall y, In y (g_chain st') -> In y (g_chain st) \/ pc_own (th st t) = Some y) ->
    (forall y, In y (g_free st') -> In y (g_free st) \/ pc_own (th st t) = Some y) ->
    (forall y, pc_own p' = Some y -> item_ok y /\ ~ In y (g_chain st') /\ ~ In y (g_free st') /\
                                     (pc_own (th st t) = Some y \/ In y (g_chain st) \/ In y (g_free st))) ->
    (forall u x, pc_own (th st' u) = Some x -> item_ok x /\ ~ In x (g_chain st') /\ ~ In x (g_free st')) /\
    (forall u u' x, u <> u' -> pc_own (th st' u) = Some x -> pc_own (th st' u') = Some x -> False).
  Proof.
    intros HM Eth Hc Hf Hp.
    assert (Hu : forall u, (u = t /\ th st' u = p') \/ (u <> t /\ th st' u = th st u)).
    { intros u. rewrite Eth. destruct (upd_cases (th st) t p' u) as [[-> E]|[Hne E]]; auto. }
    assert (Hot : forall u x, u <> t -> pc_own (th st u) = Some x -> pc_own p' = Some x -> False).
    { intros u x Hne Hx Hx'. destruct (M_own _ HM u x Hx) as (_ & H2 & H3).
      destruct (Hp x Hx') as (_ & _ & _ & [H|[H|H]]); [exact (M_inj _ HM t u x (not_eq_sym Hne) H Hx) | auto | auto]. }
    split.
    - intros u x. destruct (Hu u) as [[-> ->]|[Hne ->]]; [intros H; destruct (Hp x H); tauto|].
      intros Hx. destruct (M_own _ HM u x Hx) as (H1 & H2 & H3). rsplit; [exact H1 | |].
      + intros H. destruct (Hc x H) as [H'|H']; [auto | exact (M_inj _ HM t u x (not_eq_sym Hne) H' Hx)].
      + intros H. destruct (Hf x H) as [H'|H']; [auto | exact (M_inj _ HM t u x (not_eq_sym Hne) H' Hx)].
    - intros u u' x Hne. destruct (Hu u) as [[-> ->]|[Hn1 ->]]; destruct (Hu u') as [[-> ->]|[Hn2 ->]]; try congruence.
      + intros H1 H2. exact (Hot u' x Hn2 H2 H1).
      + intros H1 H2. exact (Hot u x Hn1 H1 H2).
      + apply (M_inj _ HM). exact Hne.
  Qed.

  Lemma Mem_step_own st t p st' : Lk st -> Mem st -> th st t = p -> wstore st t p st' ->
    (forall u x, pc_own (th st' u) = Some x -> item_ok x /\ ~ In x (g_chain st') /\ ~ In x (g_free st')) /\
    (forall u u' x, u <> u' -> pc_own (th st' u) = Some x -> pc_own (th st' u') = Some x -> False).
  Proof.
    intros HI HM Epc Hs.
    pose proof (M_ch _ HM t) as Hch; pose proof (M_fr _ HM t) as Hfr; pose proof (M_own _ HM t) as Hown; rewrite Epc in Hch, Hfr, Hown.
    pose proof (M_chd _ HM) as Hchd; pose proof (M_cnd _ HM) as Hcnd; pose proof (M_cok _ HM) as Hcok;
      pose proof (M_fhd _ HM) as Hfhd; pose proof (M_fnd _ HM) as Hfnd; pose proof (M_fok _ HM) as Hfok; pose proof (M_disj _ HM) as Hdj.
    destruct Hs; (eapply (own_upd st _ t _ HM); [reflexivity | st_simpl_goal; rewrite Epc; cbn [pc_own] ..]);
      cbn [pc_ch pc_fr pc_own] in Hch, Hfr, Hown.
    (* stores that move no item *)
    all: try solve [intros y Hy; left; exact Hy].
    all: try solve [repeat match goal with |- context [if ?c then _ else _] => destruct c end; cbn [pc_own]; intros y Hy;
                    first [discriminate Hy | destruct (Hown y Hy) as (H1 & H2 & H3); auto]].
    - (* A6 pops [n] *) intros y Hy. left. destruct (g_free st); [exact Hy | right; exact Hy].
    - intros y Hy. injection Hy as <-. destruct Hfr as (-> & Hnz & _).
      destruct (g_free st) as [|n rr] eqn:Ef; cbn [hd] in Hfhd; [congruence|]. rewrite Hfhd in *. cbn [tl].
      inversion Hfnd; subst. rsplit; [apply Hfok; left; reflexivity | intros Hc; apply (Hdj _ Hc); left; reflexivity | assumption | right; right; left; reflexivity].
    - (* IXSH links [n] *) intros y [<-|Hy]; auto.
    - (* XA8 unlinks the head *) intros y Hy. left. destruct (g_chain st); [exact Hy | right; exact Hy].
    - intros y Hy. injection Hy as <-. destruct Hch as (-> & Hnz & _).
      destruct (g_chain st) as [|x rr] eqn:Ec; cbn [hd] in Hchd; [congruence|]. rewrite Hchd in *. cbn [tl].
      inversion Hcnd; subst. rsplit; [apply Hcok; left; reflexivity | assumption | intros Hc; eapply Hdj; [left; reflexivity | exact Hc] | right; left; left; reflexivity].
    - (* XXP unlinks [x] *) intros y Hy. apply in_remx in Hy. tauto.
    - intros y Hy. injection Hy as <-. destruct Hch as (Hx & _).
      rsplit; [apply Hcok; exact Hx | rewrite in_remx; tauto | intros Hc; exact (Hdj x Hx Hc) | auto].
    - intros y Hy. apply in_remx in Hy. tauto.
    - intros y Hy. injection Hy as <-. destruct Hch as (Hx & _).
      rsplit; [apply Hcok; exact Hx | rewrite in_remx; tauto | intros Hc; exact (Hdj x Hx Hc) | auto].
    - (* F5 pushes [x] *) intros y [<-|Hy]; auto.
  Qed.

  Lemma Mem_step_fl st t p st' : Lk st -> Mem st -> th st t = p -> wstore st t p st' ->
    (g_owner st' = None -> g_dup st' = false /\ g_limbo st' = 0) /\
    (forall t', g_owner st' = Some t' -> g_dup st' = pc_dup (th st' t') /\ g_limbo st' = pc_limbo (th st' t')).
  Proof.
    intros HI HM Epc Hs. destruct Hs; st_simpl_goal.
    all: try match goal with |- context [if ?c then _ else _] => destruct c end.
    all: split; [|split_t' t'].
    (* stores that change neither the owner nor the flags, seen from nobody / from another thread *)
    all: try exact (M_fl0 _ HM); try exact (M_fl _ HM t').
    (* the stores that take or release the lock (L3 X3; IUold IUnew IUnew2 XA9 XB6 XXU XU) and those that set
       a flag (XA6 XA8 XA9 XXP XXU): the owner afterwards is [t] or nobody *)
    all: try discriminate.
    all: try (intros _; split; reflexivity).
    all: try (intros Ho; injection Ho as Ho; congruence).
    (* the other stores of the holder: flags and program-point flags are unchanged *)
    all: try (intros Ho; pose proof (M_fl _ HM t Ho) as Hf; rewrite Epc in Hf; cbn [pc_dup pc_limbo] in *; exact Hf).
    all: try (assert (Hown : g_owner st = Some t) by (apply (Lk_own _ HI); rewrite Epc; discriminate)).
    all: try (intros Ho; congruence).
    all: try (pose proof (M_fl _ HM t Hown) as Hf; rewrite Epc in Hf; cbn [pc_dup pc_limbo] in *; intros _; tauto).
    (* L3, X3 take a free lock: the flags are clear *)
    all: intros _; cbn [pc_dup pc_limbo]; apply (M_fl0 _ HM).
    all: pose proof (Lk_bit _ HI) as Hbit; pose proof (Lk_wf _ HI t) as Hwf; rewrite Epc in Hwf; cbn [pc_wf] in Hwf.
    all: b2p; subst s; destruct (g_owner st); [intuition congruence | reflexivity].
  Qed.

  Lemma Mem_step_ch st t p st' : Lk st -> Mem st -> th st t = p -> wstore st t p st' -> forall t', pc_ch st' (th st' t').
  Proof.
    intros HI HM Epc Hs. destruct Hs; st_simpl_goal.
    all: try match goal with |- context [if ?c then _ else _] => destruct c end.
    all: split_t' t'.
    all: try exact I.
    (* another thread *)
    all: try (destruct (pc_bst (th st t')) eqn:Eb; [|apply ch_unlocked; exact Eb];
              assert (Ho' : g_owner st = Some t') by (apply (Lk_own _ HI); rewrite Eb; discriminate);
              first [ assert (Hown : g_owner st = Some t) by (apply (Lk_own _ HI); rewrite Epc; discriminate); congruence
                    | apply (ch_frame st); [exact (M_ch _ HM t') | exact (M_chd _ HM) | reflexivity | reflexivity |]; st_simpl;
                      try (intros; reflexivity) ]).
    all: pose proof (M_ch _ HM t) as Hch; rewrite Epc in Hch; cbn [pc_ch] in Hch.
    all: pose proof (M_chd _ HM) as Hchd; pose proof (M_clk _ HM) as Hclk; pose proof (M_cnd _ HM) as Hcnd;
         pose proof (M_cok _ HM) as Hcok.
    all: assert (H0 : ~ In 0 (g_chain st)) by (intros Hc; apply Hcok in Hc; unfold item_ok in Hc; lia).
    all: cbn [pc_ch]; unfold link_ok in *; st_simpl; b2p.
    all: try tauto.
    all: try (apply hd_in; assumption).
    all: try (apply linksto_next_in; assumption).
    - rewrite setf_same. exact Hch.
    - (* F4 by another thread while t' holds the bucket lock *)
      intros y Hy. apply setf_other. intros ->.
      pose proof (M_own _ HM t x) as Hx. rewrite Epc in Hx. destruct (Hx eq_refl) as (_ & Hxc & _).
      destruct Hy as [Hy|Hy]; [contradiction|].
      apply (M_inj _ HM t t' x); [congruence | rewrite Epc; reflexivity | exact Hy].
  Qed.

  Lemma Mem_step_fr st t p st' : Lk st -> Mem st -> th st t = p -> wstore st t p st' -> forall t', pc_fr st' (th st' t').
  Proof.
    intros HI HM Epc Hs. destruct Hs; st_simpl_goal.
    all: try match goal with |- context [if ?c then _ else _] => destruct c end.
    all: split_t' t'.
    all: try exact I.
    (* another thread *)
    all: try (destruct (xlocked_pc (th st t')) eqn:Eb; [|apply fr_unlocked; exact Eb];
              assert (Ho' : g_xowner st = Some t') by (apply (Lk_xown _ HI); exact Eb);
              first [ assert (Hown : g_xowner st = Some t) by (apply (Lk_xown _ HI); rewrite Epc; reflexivity); congruence
                    | apply (fr_frame st); [exact (M_fr _ HM t') | reflexivity |]; st_simpl;
                      try (intros; reflexivity) ]).
    all: pose proof (M_fr _ HM t) as Hfr; rewrite Epc in Hfr; cbn [pc_fr] in Hfr.
    all: pose proof (M_fhd _ HM) as Hfhd.
    all: cbn [pc_fr]; st_simpl; b2p.
    - intros y Hy. apply setf_other. intros ->.
      pose proof (M_own _ HM t n) as Hx. rewrite Epc in Hx. destruct (Hx eq_refl) as (_ & _ & Hxf).
      destruct Hy as [[Hy Hnz]|Hy]; [apply Hxf; apply hd_in; congruence|].
      apply (M_inj _ HM t t' n); [congruence | rewrite Epc; reflexivity | exact Hy].
    - intros y Hy. apply setf_other. intros ->.
      pose proof (M_ch _ HM t) as Hch. rewrite Epc in Hch. cbn [pc_ch] in Hch. destruct Hch as (_ & [(Hc & _)|(_ & Hp & _)] & _); [contradiction|].
      destruct Hy as [[Hy Hnz]|Hy]; [apply (M_disj _ HM p Hp); apply hd_in; congruence|].
      destruct (M_own _ HM t' p Hy) as (_ & Hc & _). contradiction.
    - rewrite setf_same. exact Hfr.
  Qed.

  (** a step of [t] that touches neither list, no next field and none of the flags *)
  Lemma Mem_frame st st' t p' : Mem st -> th st' = upd (th st) t p' ->
    bhead st' = bhead st -> xnext st' = xnext st -> g_chain st' = g_chain st -> xhead st' = xhead st ->
    g_free st' = g_free st -> g_owner st' = g_owner st -> g_dup st' = g_dup st -> g_limbo st' = g_limbo st ->
    pc_own p' = pc_own (th st t) -> pc_dup p' = pc_dup (th st t) -> pc_limbo p' = pc_limbo (th st t) ->
    pc_ch st p' -> pc_fr st p' -> Mem st'.
  Proof.
    intros [? ? ? ? ? ? ? ? ? Own Inj Fl0 Fl Ch Fr] Eth E1 E2 E3 E4 E5 E6 E7 E8 Ho Hd Hl Hch Hfr.
    assert (Hu : forall u, (u = t /\ th st' u = p') \/ th st' u = th st u).
    { intros u. rewrite Eth. destruct (upd_cases (th st) t p' u) as [[-> E]|[_ E]]; auto. }
    assert (Hc : forall q, pc_ch st q -> pc_ch st' q).
    { intros q Hq. apply (ch_frame st); auto. intros. rewrite E2. reflexivity. }
    assert (Hf : forall q, pc_fr st q -> pc_fr st' q).
    { intros q Hq. apply (fr_frame st); auto. intros. rewrite E2. reflexivity. }
    constructor; rewrite ?E1, ?E2, ?E3, ?E4, ?E5, ?E6, ?E7, ?E8; try assumption.
    - intros u. destruct (Hu u) as [[-> ->]| ->]; rewrite ?Ho; apply Own.
    - intros u u' x Hne. destruct (Hu u) as [[-> ->]| ->]; destruct (Hu u') as [[-> ->]| ->]; rewrite ?Ho;
        [congruence | apply Inj; exact Hne ..].
    - intros u. destruct (Hu u) as [[-> ->]| ->]; rewrite ?Hd, ?Hl; apply Fl.
    - intros u. destruct (Hu u) as [[-> ->]| ->]; auto.
    - intros u. destruct (Hu u) as [[-> ->]| ->]; auto.
  Qed.

  (** loads keep what the program point says about the items, and learn where the links lead *)
  Lemma wload_Mem st p p' : Mem st -> wload st p p' -> pc_ch st p -> pc_fr st p ->
    pc_own p' = pc_own p /\ pc_dup p' = pc_dup p /\ pc_limbo p' = pc_limbo p /\ pc_ch st p' /\ pc_fr st p'.
  Proof.
    intros HM Hl Hch Hfr.
    pose proof (M_chd _ HM) as Hchd; pose proof (M_clk _ HM) as Hclk; pose proof (M_cok _ HM) as Hcok.
    assert (H0 : ~ In 0 (g_chain st)) by (intros Hc; apply Hcok in Hc; unfold item_ok in Hc; lia).
    destruct Hl; cbn [pc_ch pc_fr] in Hch, Hfr;
      repeat match goal with |- context [if ?c then _ else _] => destruct c eqn:? end;
      cbn [pc_own pc_dup pc_limbo pc_ch pc_fr]; unfold link_ok in *; b2p; rsplit; try reflexivity; try tauto.
    all: try (apply hd_in; assumption).
    all: try (apply linksto_next_in; assumption).
    (* XXM: the predecessor is the item [x] of the chain *)
    right. assert (x <> 0) by (intros ->; contradiction). tauto.
  Qed.

  Lemma Mem_step st a st' es : Lk st -> Mem st -> step st a = Some (st', es) -> Mem st'.
  Proof.
    intros HI HM H. destruct (step_cases _ _ _ _ _ H) as [t o Ep|t p p' Ep Hl|t p st' Ep Hs|t p st' Ep Hr]; clear H.
    - apply (Mem_frame st _ t (Begin o) HM); rewrite ?Ep; reflexivity || exact I.
    - pose proof (M_ch _ HM t) as Hch. pose proof (M_fr _ HM t) as Hfr. rewrite Ep in Hch, Hfr.
      destruct (wload_Mem _ _ _ HM Hl Hch Hfr) as (Ho & Hd & Hli & Hch' & Hfr').
      apply (Mem_frame st _ t p' HM); rewrite ?Ep; try reflexivity; assumption.
    - destruct (Mem_step_lists _ _ _ _ HI HM Ep Hs) as (H1 & H2 & H3 & H4 & H5 & H6 & H7 & H8 & H9).
      destruct (Mem_step_fl _ _ _ _ HI HM Ep Hs) as (H10 & H11).
      destruct (Mem_step_own _ _ _ _ HI HM Ep Hs) as (H12 & H13).
      constructor; try assumption.
      + exact (Mem_step_ch _ _ _ _ HI HM Ep Hs).
      + exact (Mem_step_fr _ _ _ _ HI HM Ep Hs).
    - destruct Hr; eapply (Mem_frame st _ t _ HM); rewrite ?Ep; try reflexivity; unfold g_next_slot;
        repeat match goal with |- context [if ?c then _ else _] => destruct c end; reflexivity || exact I.
  Qed.

  Theorem Mem_reach st : reach init step st -> Mem st.
  Proof.
    apply (inv_rule_aux _ _ _ init step Lk Mem).
    - apply Lk_reach.
    - exact Mem_init.
    - intros s a s' es HJ _ HM Hs. exact (Mem_step _ _ _ _ HJ HM Hs).
  Qed.
End VhmMem.
