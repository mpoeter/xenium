(** kirsch_kfifo_queue (C06, unbounded), invariant layer 1 (the segment chain): the linked segments form a
    strictly increasing chain through [next] ending in a segment whose next is null; head_ and tail_ point
    into the chain, head_ not after tail_, tail_ at the last or the last but one segment; local
    copies of head_ / tail_ are not newer than the shared words (which never take a value twice); [next]
    is written once; a segment is marked deleted only after tail_ has left it; the tail-helping CAS (9) of
    advance_head is dead code.  No axioms, no admits. *)
From Coq Require Import NArith List Bool Lia PeanoNat ZifyBool ZifyNat ZifyN.
From XV Require Import Base.Word Conc.Lts Conc.Ev Model.KfqDefs Proof.KfqStep.
Import ListNotations.
Local Open Scope N_scope.

Lemma setf_same {X} (f : N -> X) i v : setf f i v i = v.
Proof. unfold setf. rewrite N.eqb_refl. reflexivity. Qed.
Lemma setf_other {X} (f : N -> X) i v j : j <> i -> setf f i v j = f j.
Proof. unfold setf. intros H. destruct (N.eqb_spec j i); [contradiction|reflexivity]. Qed.
Lemma setf2_same {X} (f : N -> N -> X) s i v : setf2 f s i v s i = v.
Proof. unfold setf2. rewrite N.eqb_refl. apply setf_same. Qed.
Lemma setf2_other {X} (f : N -> N -> X) s i v s' j : (s', j) <> (s, i) -> setf2 f s i v s' j = f s' j.
Proof.
  unfold setf2, setf. intros H. destruct (N.eqb_spec s' s) as [->|]; [|reflexivity].
  destruct (N.eqb_spec j i) as [->|]; [congruence|reflexivity].
Qed.

(** the segment allocated by a thread and not yet linked or released *)
Definition aseg (p : pc) : option N := match p with A4 _ _ _ n => Some n | _ => None end.

(** the last segment of the chain ([g_segs] starts with the initial segment 1 and is never empty) *)
Definition glast (st : state) : N := last (g_segs st) 1.
Definition linked (st : state) (s : N) : Prop := In s (g_segs st).
(** a copy of tail_ / head_ is not newer than the shared word *)
Definition tle (st : state) (w : iw) : Prop := w = tail st \/ fst w < fst (tail st).
Definition hle (st : state) (w : iw) : Prop := fst w < fst (head st) \/ (fst w = fst (head st) /\ snd w <= snd (head st)).

Set Default Proof Using "All".
Section L1.
  Variable k : N.
  Hypothesis Hk : 1 <= k.
  Notation step := (step k).

  (** What a thread knows of the words it holds, by program counter: [TA] is the per-thread clause of [InvA].
      Its parts: [TT] a copy [tl] of tail_ (a linked segment, not newer than tail_); [TD] a pop's copy [hd] of
      head_ with the slot [j] and value [p] it found; [TK] the same for a pop that is inside advance_tail;
      [TH] a pop inside advance_head: tail_ has left the segment of [hd], and [hn] is its (non-null) successor word. *)
  Definition TD (st : state) (hd : iw) (j p : N) : Prop := linked st (fst hd) /\ hle st hd /\ j < k /\ p <> 0.
  Definition TK (st : state) (c : cont) : Prop :=
    match c with KPush _ => True | KPop hd j p _ => TD st hd j p end.
  Definition TT (st : state) (tl : iw) : Prop := linked st (fst tl) /\ tle st tl.
  Definition TH (st : state) (hd hn : iw) : Prop :=
    linked st (fst hd) /\ hle st hd /\ fst hd < fst (tail st) /\ hn = nxt st (fst hd) /\ fst hn <> 0.

  Definition TA (st : state) (p : pc) : Prop :=
    match p with
    | Idle | Begin _ | P1 _ | D1 => True
    | PF b tl ri i => TT st tl /\ ri < k /\ i < k
    | P2 b tl j _ | P3 b tl j _ => TT st tl /\ j < k
    | P2n b tl => TT st tl
    | C1 b tl j _ | C2 b tl j _ | C3 b tl j _ | C4 b tl j _ | C7 b tl j _ | C9 b tl j _ => TT st tl /\ j < k
    | C5 b tl j _ hc => TT st tl /\ j < k /\ hle st hc /\ fst hc = fst tl
    | A1 c tl => TT st tl /\ TK st c
    | A2 c tl nx => TT st tl /\ TK st c /\ (nx = (0, 0) \/ (nx = nxt st (fst tl) /\ fst nx <> 0))
    | A3 c tl nx => TT st tl /\ TK st c /\ nx = nxt st (fst tl) /\ fst nx <> 0
    | A4 c tl nx n => TT st tl /\ TK st c /\ nx = (0, 0) /\ fst tl < n /\ n < nalloc st
    | A5 c tl n => TT st tl /\ TK st c /\ nxt st (fst tl) = (n, 1) /\ n <> 0
    | D1f hd | D2n hd | D3n hd => linked st (fst hd) /\ hle st hd
    | DF hd ri i => linked st (fst hd) /\ hle st hd /\ ri < k /\ i < k
    | D2 hd j p _ | D3 hd j p _ | D4 hd j p _ => TD st hd j p
    | DE hd tl => linked st (fst hd) /\ hle st hd /\ TT st tl /\ fst tl = fst hd
    | H1 hd tl => linked st (fst hd) /\ hle st hd /\ fst hd < fst (tail st)
    | H2 hd tl hn => TH st hd hn
    | H3 hd tl hn => TH st hd hn /\ fst tl = fst hd
    | H4 hd tl hn tn => TH st hd hn /\ fst tl = fst hd
    | H5 _ _ _ _ => False
    | H6 hd hn => TH st hd hn
    | H7 hd hn => TH st hd hn /\ del st (fst hd) = true
    end.

  Record InvA (st : state) : Prop := {
    a_nalloc : 2 <= nalloc st;
    a_lt : forall s, linked st s -> 1 <= s < nalloc st;
    a_last : linked st (glast st);
    a_max : forall s, linked st s -> s <= glast st;
    a_lnull : nxt st (glast st) = (0, 0);
    a_unull : forall s, ~ linked st s -> nxt st s = (0, 0);
    a_succ : forall s, linked st s -> s <> glast st ->
             exists n, nxt st s = (n, 1) /\ linked st n /\ s < n /\ forall s', linked st s' -> s < s' -> n <= s';
    a_head : linked st (fst (head st));
    a_tail : linked st (fst (tail st));
    a_ht : fst (head st) <= fst (tail st);
    a_tlast : fst (tail st) = glast st \/ fst (nxt st (fst (tail st))) = glast st;
    a_del : forall s, del st s = true -> linked st s /\ s < fst (tail st);
    a_th : forall t, TA st (th st t);
    a_own : forall t t' n, aseg (th st t) = Some n -> aseg (th st t') = Some n -> t = t';
    a_fresh : forall t n, aseg (th st t) = Some n -> ~ linked st n }.

  (** what steps do to the shared part *)
  Definition mono (st st' : state) : Prop :=
    (forall s, linked st s -> linked st' s) /\
    (tail st' = tail st \/ fst (tail st) < fst (tail st')) /\
    hle st' (head st) /\
    (forall s, fst (nxt st s) <> 0 -> nxt st' s = nxt st s) /\
    nalloc st <= nalloc st' /\
    (forall s, del st s = true -> del st' s = true).

  Lemma mono_refl st : mono st st.
  Proof. unfold mono. split; [auto|]. split; [left; reflexivity|]. split; [unfold hle; right; lia|]. split; [auto|]. split; [lia|auto]. Qed.

  Lemma tle_mono st st' w : mono st st' -> tle st w -> tle st' w.
  Proof. intros (_ & [E|E] & _) [A|A]; unfold tle; [left; congruence|right; rewrite E; exact A|right; subst w; exact E|right; lia]. Qed.
  Lemma hle_mono st st' w : mono st st' -> hle st w -> hle st' w.
  Proof. intros (_ & _ & E & _) A. unfold hle in *. lia. Qed.
  Lemma TT_mono st st' w : mono st st' -> TT st w -> TT st' w.
  Proof. intros M [A B]. split; [apply M; exact A|eapply tle_mono; eauto]. Qed.
  Lemma TD_mono st st' hd j p : mono st st' -> TD st hd j p -> TD st' hd j p.
  Proof. intros M (A & B & C & D). repeat split; try assumption; [apply M; exact A|eapply hle_mono; eauto]. Qed.
  Lemma TK_mono st st' c : mono st st' -> TK st c -> TK st' c.
  Proof. intros M. destruct c; cbn [TK]; [auto|apply TD_mono; exact M]. Qed.
  Lemma tail_mono st st' x : mono st st' -> x < fst (tail st) -> x < fst (tail st').
  Proof. intros (_ & [E|E] & _) A; [rewrite E; exact A|lia]. Qed.
  Lemma nxt_mono st st' x w : mono st st' -> w = nxt st x -> fst w <> 0 -> w = nxt st' x.
  Proof. intros (_ & _ & _ & M & _) E H. rewrite M; [exact E|rewrite <- E; exact H]. Qed.
  Lemma TH_mono st st' hd hn : mono st st' -> TH st hd hn -> TH st' hd hn.
  Proof.
    intros M (A & B & C & D & E).
    repeat split; try assumption; [apply M; exact A|eapply hle_mono; eauto|eapply tail_mono; eauto|eapply nxt_mono; eauto].
  Qed.

  (** every conjunct of [TA] is one of the monotone notions above ([TT], [TK], [TD], [TH], [hle], [linked], "before
      tail_", a non-null copy of [next]: [nxt_mono]), a bound by [nalloc], a set [deleted] flag, or does not read the state *)
  Lemma TA_stable st st' p : mono st st' -> TA st p -> TA st' p.
  Proof.
    intros M T. pose proof M as (M1 & _ & _ & _ & M5 & M6).
    destruct p; cbn [TA] in *; try exact T;
      intuition (eauto using TT_mono, TK_mono, TD_mono, TH_mono, hle_mono, tail_mono, nxt_mono; try lia).
    (* A5: the link just written *) symmetry. eapply nxt_mono; eauto.
  Qed.

  (** consequences of the chain invariant *)
  Lemma nxt_cases st x : InvA st -> nxt st x = (0, 0) \/ (linked st x /\ x <> glast st /\ fst (nxt st x) <> 0 /\ x < fst (nxt st x)).
  Proof.
    intros I. destruct (in_dec N.eq_dec x (g_segs st)) as [Hin|Hni]; [|left; apply (a_unull st I); exact Hni].
    destruct (N.eq_dec x (glast st)) as [->|Hne]; [left; apply (a_lnull st I)|right].
    destruct (a_succ st I x Hin Hne) as (n & E & L & Hlt & _). rewrite E. cbn [fst]. repeat split; try assumption. lia.
  Qed.
  Lemma nxt_null st x : InvA st -> fst (nxt st x) = 0 -> nxt st x = (0, 0).
  Proof. intros I H. destruct (nxt_cases st x I) as [A|(_ & _ & A & _)]; [exact A|contradiction]. Qed.
  Lemma tail_le_last st : InvA st -> fst (tail st) <= glast st.
  Proof. intros I. apply (a_max st I). apply (a_tail st I). Qed.
  Lemma nxt_nonnull st x : InvA st -> linked st x -> x < fst (tail st) -> fst (nxt st x) <> 0.
  Proof.
    intros I L H. pose proof (tail_le_last st I).
    destruct (a_succ st I x L ltac:(lia)) as (n & E & _ & Hlt & _). rewrite E. cbn. lia.
  Qed.
  Lemma hle_refl st : hle st (head st). Proof. right. lia. Qed.
  Lemma tle_refl st : tle st (tail st). Proof. left. reflexivity. Qed.
  Lemma TT_tail st : InvA st -> TT st (tail st).
  Proof. intros I. split; [apply (a_tail st I)|apply tle_refl]. Qed.
  Lemma TA_kpc st c : TK st c -> TA st (kpc c).
  Proof. destruct c; cbn [kpc TA TK]; auto. Qed.
  Lemma fidx_lt ri i : fidx k ri i < k.
  Proof. unfold fidx. apply N.mod_lt. lia. Qed.
  Lemma hle_tail st hd : InvA st -> hle st hd -> fst hd <= fst (tail st).
  Proof. intros I H. pose proof (a_ht st I). unfold hle in H. lia. Qed.
  Lemma tle_le st tl : tle st tl -> fst tl <= fst (tail st).
  Proof. intros [->|H]; lia. Qed.
  Lemma tle_ne st tl : tle st tl -> tl <> tail st -> fst tl < fst (tail st).
  Proof. intros [->|H] Hne; [congruence|exact H]. Qed.


  Lemma tail_succ st : InvA st -> fst (nxt st (fst (tail st))) <> 0 ->
    fst (tail st) < fst (nxt st (fst (tail st))) /\ fst (nxt st (fst (tail st))) = glast st.
  Proof.
    intros I H. destruct (nxt_cases st (fst (tail st)) I) as [Q|(_ & Hng & _ & Hlt)]; [rewrite Q in H; contradiction H; reflexivity|].
    split; [exact Hlt|]. destruct (a_tlast st I); [contradiction|assumption].
  Qed.
  (** the successor of the head segment, when tail_ is ahead: the least linked segment behind it *)
  Lemma head_succ st : InvA st -> fst (head st) < fst (tail st) ->
    exists n, nxt st (fst (head st)) = (n, 1) /\ linked st n /\ fst (head st) < n <= fst (tail st) /\
              forall x, linked st x -> fst (head st) < x -> n <= x.
  Proof.
    intros I H. pose proof (tail_le_last st I).
    destruct (a_succ st I _ (a_head st I) ltac:(lia)) as (n & Q & Ln & Hlt & Hmin). exists n.
    split; [exact Q|]. split; [exact Ln|]. split; [|exact Hmin]. split; [exact Hlt|]. apply Hmin; [apply (a_tail st I)|exact H].
  Qed.
  (** the last segment is the only linked one whose [next] is null *)
  Lemma null_last st x : InvA st -> linked st x -> nxt st x = (0, 0) -> x = glast st.
  Proof.
    intros I L Q. destruct (N.eq_dec x (glast st)) as [E|E]; [exact E|].
    destruct (a_succ st I x L E) as (n & Q1 & _). rewrite Q in Q1. discriminate Q1.
  Qed.

  Lemma aseg_kpc c : aseg (kpc c) = None.
  Proof. destruct c; reflexivity. Qed.
  Lemma lstep_aseg s p p' : lstep k s p p' -> aseg p' = None.
  Proof. destruct 1; try reflexivity; apply aseg_kpc. Qed.

  (** the local facts of a thread after a step that changes only its program counter *)
  Lemma TA_lstep s p p' : InvA s -> TA s p -> lstep k s p p' -> TA s p'.
  Proof.
    intros I T H. pose proof (TT_tail s I) as Ht. pose proof (hle_refl s) as Hh. pose proof (a_head s I) as Lh.
    destruct H; cbn [TA TK] in *; unfold TH, TD in *; try subst tl; try subst hd; try apply TA_kpc;
      try (intuition (auto using fidx_lt); fail).
    - (* A1: the word read from next is null or the link *)
      destruct (nxt_cases s (fst tl) I) as [Q|(_ & _ & Q & _)]; tauto.
    - (* A2 -> A3: the copy of next is not null *) destruct T as (A & B & [->|C]); [contradiction H0; reflexivity|tauto].
    - (* D3n -> H1: head_ has not passed tail_ *) destruct T as (A & B). pose proof (hle_tail s hd I B). repeat split; try assumption. lia.
    - (* DE -> H1: tail_ has moved on *) destruct T as (A & B & (C1 & C2) & D). pose proof (tle_ne s tl C2 H). repeat split; try assumption. lia.
    - (* H1 -> H2: a segment before tail_ has a successor *) repeat split; try tauto. apply nxt_nonnull; tauto.
    - (* H4: tail_ has left the head segment, so the helping CAS (9) is never tried *) lia.
  Qed.

  (** a step that leaves the threads and the chain alone; head_ / tail_ / deleted / the allocation counter may grow *)
  Lemma InvA_shared s sh : InvA s -> g_segs sh = g_segs s -> nxt sh = nxt s -> th sh = th s ->
    (tail sh = tail s \/ fst (tail s) < fst (tail sh)) -> hle sh (head s) -> nalloc s <= nalloc sh ->
    (forall x, del s x = true -> del sh x = true) ->
    linked s (fst (head sh)) -> linked s (fst (tail sh)) -> fst (head sh) <= fst (tail sh) ->
    (fst (tail sh) = glast s \/ fst (nxt s (fst (tail sh))) = glast s) ->
    (forall x, del sh x = true -> linked s x /\ x < fst (tail sh)) -> InvA sh.
  Proof.
    intros I E6 E3 Et Ht Hh Hn Hd Lh Lt Hht Hlast Hdel.
    assert (M : mono s sh) by (unfold mono, linked; rewrite E6, E3; auto 7).
    pose proof (a_lt s I) as Hlt. pose proof (a_nalloc s I).
    destruct I. constructor; unfold linked, glast in *; rewrite ?E6, ?E3, ?Et; try assumption.
    - lia.
    - intros x Hx. specialize (Hlt x Hx). lia.
    - intros t0. eapply TA_stable; eauto.
  Qed.

  (** tail_ swings to the successor of its segment *)
  Lemma InvA_tail s w : InvA s -> fst w = fst (nxt s (fst (tail s))) -> fst w <> 0 -> InvA (set_tail s w).
  Proof.
    intros I E H. rewrite E in H. destruct (tail_succ s I H) as [Hlt Hl]. rewrite <- E in Hlt, Hl.
    pose proof (a_ht s I). pose proof (a_del s I) as Hd.
    apply (InvA_shared s _ I); sim; try reflexivity; try exact (hle_refl s); try lia; auto.
    - apply (a_head s I).
    - rewrite Hl. apply (a_last s I).
    - intros x Hx. destruct (Hd x Hx). split; [assumption|lia].
  Qed.

  (** thread t moves to p', holding no segment or one that nobody has seen *)
  Lemma InvA_th s t p' : InvA s -> TA s p' ->
    (forall n, aseg p' = Some n -> ~ linked s n /\ forall t0, aseg (th s t0) <> Some n) -> InvA (set_th s t p').
  Proof.
    intros I Hp Ha. destruct I. constructor; try assumption; sim; unfold upd.
    - intros t0. destruct (Nat.eqb_spec t0 t); [exact Hp|apply a_th0].
    - intros t0 t1 n. destruct (Nat.eqb_spec t0 t) as [->|], (Nat.eqb_spec t1 t) as [->|]; intros A B; try congruence.
      + destruct (Ha n A) as [_ F]. contradiction (F t1).
      + destruct (Ha n B) as [_ F]. contradiction (F t0).
      + eapply a_own0; eauto.
    - intros t0 n. destruct (Nat.eqb_spec t0 t); [apply Ha|apply a_fresh0].
  Qed.

  (** the link CAS (13) succeeds: the new segment becomes the last one *)
  Lemma InvA_link s t c tl n : InvA s -> th s t = A4 c tl (0, 0) n -> nxt s (fst tl) = (0, 0) ->
    InvA (set_th (set_next s (fst tl) (n, 1)) t (A5 c tl n)).
  Proof.
    intros I E C. pose proof (a_th s I t) as T. rewrite E in T. destruct T as ((Lx & Tl) & B & _ & D & F).
    set (x := fst tl) in *. pose proof (null_last s x I Lx C) as Hx.
    assert (Htl : tl = tail s) by (destruct Tl as [Q|Q]; [exact Q|]; pose proof (tail_le_last s I); fold x in Q; lia).
    assert (Hnl : ~ linked s n) by (apply (a_fresh s I t); rewrite E; reflexivity).
    set (s' := set_th (set_next s x (n, 1)) t (A5 c tl n)).
    assert (Hl : forall y, linked s' y <-> linked s y \/ y = n) by (intros y; unfold linked, s'; sim; rewrite in_app_iff; cbn; intuition).
    assert (Hg : glast s' = n) by (unfold glast, s'; sim; apply last_last).
    assert (Hn' : forall y, y <> x -> nxt s' y = nxt s y) by (intros y Hy; unfold s'; sim; apply setf_other; exact Hy).
    assert (Hnx : nxt s' x = (n, 1)) by (unfold s'; sim; apply setf_same).
    assert (Hnx' : n <> x) by (intros ->; contradiction).
    assert (M : mono s s').
    { split; [intros y Hy; apply Hl; left; exact Hy|]. split; [left; reflexivity|]. split; [exact (hle_refl s)|].
      split; [|split; [apply N.le_refl|auto]]. intros y Hy. apply Hn'. intros ->. rewrite C in Hy. apply Hy. reflexivity. }
    pose proof (a_max s I) as Hmax. pose proof (a_lt s I) as Hlt.
    constructor; rewrite ?Hg.
    - apply (a_nalloc s I).
    - intros y Hy. apply Hl in Hy. destruct Hy as [Hy| ->]; [apply (Hlt y Hy)|]. specialize (Hlt x Lx). unfold s'; sim. lia.
    - apply Hl. right. reflexivity.
    - intros y Hy. apply Hl in Hy. destruct Hy as [Hy| ->]; [specialize (Hmax y Hy)|]; lia.
    - rewrite Hn' by exact Hnx'. apply (a_unull s I). exact Hnl.
    - intros y Hy. assert (y <> x) by (intros ->; apply Hy; apply Hl; left; exact Lx).
      rewrite Hn' by assumption. apply (a_unull s I). intros Q. apply Hy. apply Hl. left. exact Q.
    - intros y Hy Hyn. apply Hl in Hy. destruct Hy as [Hy|Hy]; [|contradiction].
      destruct (N.eq_dec y x) as [->|Hyx].
      + exists n. split; [exact Hnx|]. split; [apply Hl; right; reflexivity|]. split; [lia|].
        intros z Hz Hxz. apply Hl in Hz. destruct Hz as [Hz| ->]; [specialize (Hmax z Hz); lia|lia].
      + destruct (a_succ s I y Hy ltac:(lia)) as (n0 & Q1 & Q2 & Q3 & Q4). exists n0. rewrite Hn' by exact Hyx.
        split; [exact Q1|]. split; [apply Hl; left; exact Q2|]. split; [exact Q3|].
        intros z Hz Hyz. apply Hl in Hz. destruct Hz as [Hz| ->]; [apply Q4; assumption|]. specialize (Hmax n0 Q2). lia.
    - apply Hl. left. apply (a_head s I).
    - apply Hl. left. apply (a_tail s I).
    - apply (a_ht s I).
    - right. change (fst (nxt s' (fst (tail s))) = n). rewrite <- Htl. fold x. rewrite Hnx. reflexivity.
    - intros y Hy. destruct (a_del s I y Hy) as [Q1 Q2]. split; [apply Hl; left; exact Q1|exact Q2].
    - intros t0. unfold s' at 2. sim. unfold upd. destruct (Nat.eqb_spec t0 t) as [->|Hne]; [|eapply TA_stable; [exact M|apply (a_th s I)]].
      cbn [TA]. split; [eapply TT_mono; [exact M|split; assumption]|]. split; [eapply TK_mono; eauto|]. split; [exact Hnx|].
      specialize (Hlt x Lx). lia.
    - intros t0 t1 n0. unfold s'. sim. unfold upd.
      destruct (Nat.eqb_spec t0 t) as [->|H0]; [cbn; discriminate|]. destruct (Nat.eqb_spec t1 t) as [->|H1]; [cbn; discriminate|].
      apply (a_own s I).
    - intros t0 n0. unfold s' at 1. sim. unfold upd. destruct (Nat.eqb_spec t0 t) as [->|H0]; [cbn; discriminate|].
      intros Q Q'. apply Hl in Q'. destruct Q' as [Q'| ->]; [eapply (a_fresh s I); eauto|].
      apply H0. apply (a_own s I t0 t n Q). rewrite E. reflexivity.
  Qed.

  Ltac noseg := let Q := fresh in intros ? Q; rewrite ?aseg_kpc in Q; discriminate Q.
  (** [InvA_shared], with the side conditions for the fields the step does not touch *)
  Ltac shared I :=
    apply (InvA_shared _ _ I); sim;
    try first [reflexivity | left; reflexivity | exact (hle_refl _) | apply N.le_refl | exact (fun x H => H)
              | exact (a_head _ I) | exact (a_tail _ I) | exact (a_ht _ I) | exact (a_tlast _ I) | exact (a_del _ I)].

  Lemma InvA_step s a s' es : InvA s -> step s a = Some (s', es) -> InvA s'.
  Proof.
    intros I Hst. destruct (step_inv k Hk s a s' es Hst) as (sh & p' & res & -> & [Hs|(Hl & -> & _)] & _).
    2:{ apply InvA_th; [exact I|eapply TA_lstep; eauto; apply (a_th s I)|rewrite (lstep_aseg _ _ _ Hl); discriminate]. }
    set (t := actor a) in *. pose proof (a_th s I t) as Hme. remember (th s t) as p eqn:E.
    (* the steps that only write a slot or the ghost lists and leave the thread without local facts go first *)
    destruct Hs; cbn [TA] in Hme; try (apply InvA_th; [shared I|exact Logic.I|noseg]; fail).
    - (* the token of a push *) apply InvA_th; [shared I; lia|exact Logic.I|noseg].
    - (* P1 *) apply InvA_th; [shared I|split; [exact (TT_tail s I)|lia]|noseg].
    - (* P3 *) apply InvA_th; [shared I|exact Hme|noseg].
    - (* C5: the tag of head_ *) subst hc. apply InvA_th; [shared I; right; cbn; lia|exact Logic.I|noseg].
    - (* A2: a new segment, known to nobody *)
      destruct Hme as (A & B & C). pose proof (a_lt s I) as Hlt. pose proof (Hlt _ (proj1 A)). apply InvA_th; [shared I; lia| |].
      + assert (nx = (0, 0)) by (destruct C as [C|[_ C]]; [exact C|contradiction]). cbn [TA]. sim. repeat split; try apply A; try assumption; lia.
      + intros n0 Q. injection Q as <-. split; [intros L; specialize (Hlt _ L); lia|].
        intros t0 Q. sim. pose proof (a_th s I t0) as T. destruct (th s t0); try discriminate Q. cbn [aseg] in Q. injection Q as ->. cbn [TA] in T. lia.
    - (* A3 *) subst tl. apply InvA_th; [apply InvA_tail; [exact I|cbn [bump fst]; f_equal|cbn [bump fst]]; tauto|apply TA_kpc; tauto|noseg].
    - (* A4 *) destruct Hme as (_ & _ & -> & _). exact (InvA_link s t c tl n I (eq_sym E) H).
    - (* A4, the link CAS failed: the segment is released *) apply InvA_th; [shared I|apply TA_kpc; tauto|noseg].
    - (* A5 *) subst tl. destruct Hme as (A & B & C & D).
      apply InvA_th; [apply InvA_tail; [exact I|rewrite C; reflexivity|exact D]|apply TA_kpc; exact B|noseg].
    - (* D1f *) apply InvA_th; [shared I|repeat split; try tauto; lia|noseg].
    - (* H5 is never reached *) contradiction.
    - (* H6: deleted := true, after tail_ has left the segment *)
      pose proof Hme as (A & B & C & D). apply InvA_th; [shared I; unfold setf| |noseg].
      + intros x Hx. destruct (x =? fst hd); auto.
      + intros x. destruct (N.eqb_spec x (fst hd)) as [->|]; [intros _; split; assumption|apply (a_del s I)].
      + split; [exact Hme|]. sim. apply setf_same.
    - (* H7: head_ moves to the successor *)
      subst hd. destruct Hme as ((A & B & C & D & D') & F). destruct (head_succ s I C) as (n & Q & Ln & Hlt & _).
      rewrite Q in D. subst hn. apply InvA_th; [shared I; [left; sim; lia|exact Ln|lia]|exact Logic.I|noseg].
  Qed.

  Lemma InvA_init : InvA init.
  Proof.
    constructor; unfold init, glast, linked; cbn [g_segs nalloc nxt head tail del th last fst snd In].
    - lia.
    - intros s [<-|[]]. lia.
    - left. reflexivity.
    - intros s [<-|[]]. lia.
    - reflexivity.
    - reflexivity.
    - intros s [<-|[]] H. congruence.
    - left. reflexivity.
    - left. reflexivity.
    - lia.
    - left. reflexivity.
    - intros s H. discriminate.
    - intros t. exact Logic.I.
    - intros t t' n H. discriminate.
    - intros t n H. discriminate.
  Qed.

  Theorem InvA_reach st : reach init step st -> InvA st.
  Proof. apply inv_rule; [exact InvA_init|]. intros s a s' es. apply InvA_step. Qed.

  (** head_ keeps its value or takes a strictly larger one (segment, then tag) *)
  Definition hlt (a b : iw) : Prop := fst a < fst b \/ (fst a = fst b /\ snd a < snd b).
  Lemma step_head s a s' es : InvA s -> step s a = Some (s', es) -> head s' = head s \/ hlt (head s) (head s').
  Proof.
    intros I Hst. destruct (step_inv k Hk s a s' es Hst) as (sh & p' & res & -> & [Hs|(_ & -> & _)] & _); [|left; reflexivity].
    pose proof (a_th s I (actor a)) as Hme. remember (th s (actor a)) as p. destruct Hs; try (left; reflexivity); right; sim.
    - subst hc. right. cbn. lia.
    - subst hd. left. destruct Hme as ((A & B & C & D & D') & F). destruct (head_succ s I C) as (n & Q & _ & (Hlt & _) & _).
      rewrite D, Q. exact Hlt.
  Qed.
  Lemma hle_hlt_ne st hd w : hle st hd -> hlt (head st) w -> hd <> w.
  Proof. unfold hle, hlt. intros A B ->. lia. Qed.
End L1.
