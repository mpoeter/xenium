(** Ramalhete queue model: second invariant layer - tickets.  Every ticket (node n, k < E) has a fate;
    it belongs to at most one pusher and at most one popper; the entry [slot (S*k)] of the node is
    null / the value / taken according to the fate. *)
From Coq Require Import NArith List Bool Lia PeanoNat.
From XV Require Import Base.Word Conc.Lts Conc.Ev gen.RamalheteNodeGen Proof.RamalheteNode Model.RamDefs Proof.RamBase.
Import ListNotations.
Local Open Scope N_scope.

Lemma own_upd (Q : pc -> Prop) f t p :
  (exists t0, Q (f t0)) -> (Q (f t) -> Q p) -> exists t0, Q (upd f t p t0).
Proof.
  intros [t0 H0] Hp. destruct (Nat.eq_dec t0 t) as [->|Hne].
  - exists t. rewrite upd_same. apply Hp. exact H0.
  - exists t0. rewrite upd_other by exact Hne. exact H0.
Qed.

Lemma pair_dec (a b c d : N) : (a = b /\ c = d) \/ (a <> b \/ c <> d).
Proof. destruct (N.eq_dec a b); destruct (N.eq_dec c d); tauto. Qed.

Section LayerB.
  Variables E R : N.
  Hypothesis HE : 1 <= E.
  Hypothesis HM : C_step_size E * E < 2 ^ 32.
  Set Default Proof Using "HE HM".
  Notation S := (SS E).
  Notation tk := (tick_of E).
  Notation pa := (pa E).
  Notation pd := (pd E).
  Notation InvA := (InvA E).
  Local Notation tick_mono := (tick_mono E HE HM).
  Local Notation aligned_step := (aligned_step E HE HM).
  Local Notation tick_0 := (tick_0 E HE HM).
  Local Notation tick_SS := (tick_SS E HE HM).
  Local Notation tick_mul := (tick_mul E HE HM).
  Local Notation maxi_le := (maxi_le E HE HM).
  Local Notation slot_inj := (slot_inj E HE HM).
  Local Notation slot_nz := (slot_nz E HE HM).
  Local Notation slot_lt := (slot_lt E HE HM).
  Local Notation slot_0 := (slot_0 E HE HM).
  Local Notation old_in_nodes := (old_in_nodes E HE HM).
  Local Notation tick_step_le := (tick_step_le E HE HM).

  (** the ticket (node, counter value) a pusher / a popper is working on *)
  Definition ptk (p : pc) : option (N * N) := match p with P8 _ n idx => Some (n, idx) | _ => None end.
  Definition dtk (p : pc) : option (N * N) := match p with D9 h idx _ | D11 h idx => Some (h, idx) | _ => None end.
  (** the ticket a popper holds, including the final re-read (D10) *)
  Definition dtk2 (p : pc) : option (N * N) := match p with D9 h idx _ | D10 h idx _ | D11 h idx => Some (h, idx) | _ => None end.
  Definition pown (n k : N) (p : pc) : Prop := ptk p = Some (n, S * k).
  Definition down (n k : N) (p : pc) : Prop := dtk p = Some (n, S * k).
  Definition powner (st : state) (n k : N) : Prop := exists t, pown n k (th st t).
  Definition downer (st : state) (n k : N) : Prop := exists t, down n k (th st t).

  Definition TK (st : state) (n k : N) : Prop :=
    let i := slot_of E (S * k) in
    match g_fate st n k with
    | FNone => ent st n i = CNull /\ (k < pa st n -> powner st n k) /\ (k < pd st n -> downer st n k)
    | FFilled b => ent st n i = CVal b /\ k < pa st n /\ (k < pd st n -> downer st n k)
    | FPoisoned => ent st n i = CTaken /\ k < pd st n
    | FConsumed b => (ent st n i = CVal b \/ ent st n i = CTaken) /\ k < pa st n /\ k < pd st n
    end.

  Definition TB (st : state) (p : pc) : Prop :=
    match p with
    | P8 _ t idx => idx = S * tk idx /\ tk idx < E /\ tk idx < pa st t
    | D9 h idx _ | D11 h idx => idx = S * tk idx /\ tk idx < E /\ tk idx < pd st h /\
                    (g_fate st h (tk idx) = FNone \/ exists b, g_fate st h (tk idx) = FFilled b)
    | D10 h idx b => idx = S * tk idx /\ tk idx < E /\ g_fate st h (tk idx) = FConsumed b
    | D3 h p => p <= popi st h
    | P5 _ _ n _ | P6 _ _ n => forall k, g_fate st n k = FNone
    | _ => True
    end.

  Record InvB (st : state) : Prop := mkInvB {
    b_tk : forall n k, In n (g_nodes st) -> k < E -> TK st n k;
    b_thr : forall t, TB st (th st t);
    b_up : forall t1 t2 x, ptk (th st t1) = Some x -> ptk (th st t2) = Some x -> t1 = t2;
    b_ud : forall t1 t2 x, dtk2 (th st t1) = Some x -> dtk2 (th st t2) = Some x -> t1 = t2
  }.

  (** a ticket that the step of thread t to the program counter p' does not write: a new claim on it is t's
      own, and t gives up a claim as a pusher only if the ticket is no longer untouched *)
  Lemma TK_keep s s' t p' n k :
    TK s n k -> th s' = upd (th s) t p' ->
    g_fate s' n k = g_fate s n k -> ent s' n (slot_of E (S * k)) = ent s n (slot_of E (S * k)) ->
    pa s n <= pa s' n -> pd s n <= pd s' n ->
    (k < pa s' n -> k < pa s n \/ pown n k p') -> (k < pd s' n -> k < pd s n \/ down n k p') ->
    (g_fate s n k = FNone -> pown n k (th s t) -> pown n k p') -> (down n k (th s t) -> down n k p') ->
    TK s' n k.
  Proof.
    intros H Hth Hf He Hpa Hpd Hpo Hdo Hp Hd.
    assert (Ho : forall Q : pc -> Prop, (Q (th s t) -> Q p') -> (exists t0, Q (th s t0)) -> exists t0, Q (th s' t0))
      by (intros Q HQ Hex; rewrite Hth; apply own_upd; assumption).
    assert (Hn : forall Q : pc -> Prop, Q p' -> exists t0, Q (th s' t0)) by (intros Q HQ; exists t; rewrite Hth, upd_same; exact HQ).
    assert (Hdown : (k < pd s n -> downer s n k) -> k < pd s' n -> downer s' n k).
    { intros H3 Hk. destruct (Hdo Hk) as [Hl|Hc]; [apply (Ho _ Hd), H3, Hl|exact (Hn _ Hc)]. }
    unfold TK in *. rewrite Hf, He. destruct (g_fate s n k) eqn:Ef.
    - destruct H as (H1 & H2 & H3). split; [exact H1|]. split; [|exact (Hdown H3)].
      intros Hk. destruct (Hpo Hk) as [Hl|Hc]; [apply (Ho _ (Hp eq_refl)), H2, Hl|exact (Hn _ Hc)].
    - destruct H as (H1 & H2 & H3). split; [exact H1|]. split; [lia|exact (Hdown H3)].
    - destruct H as (H1 & H2). split; [exact H1|lia].
    - destruct H as (H1 & H2 & H3). split; [exact H1|]. split; lia.
  Qed.

  (** the per-thread facts of a thread that does not move: its private node keeps its fates; the fate of
      the ticket it holds as a popper changes at most from none to filled *)
  Lemma TB_frame s s' q :
    ext E s s' -> (forall h, in_old s h -> In h (g_nodes s)) -> TA E s q ->
    (forall n, priv q = Some n -> forall k, g_fate s' n k = g_fate s n k) ->
    (forall n idx, dtk2 q = Some (n, idx) ->
       g_fate s' n (tk idx) = g_fate s n (tk idx) \/
       (dtk q = Some (n, idx) /\ g_fate s n (tk idx) = FNone /\ exists b, g_fate s' n (tk idx) = FFilled b)) ->
    TB s q -> TB s' q.
  Proof.
    intros Hext Hio Ha Hp Hd.
    assert (Hc : forall n, In n (g_nodes s) -> pa s n <= pa s' n /\ pd s n <= pd s' n /\ popi s n <= popi s' n).
    { intros n Hn. destruct (e_cnt E s s' Hext n Hn) as (B1 & B2 & _). apply (bump_le E HE HM) in B1, B2.
      split; [apply tick_mono; exact B1|split; [apply tick_mono; exact B2|exact B2]]. }
    destruct q; cbn [TB TA dtk dtk2 priv] in *; try exact (fun H => H).
    - intros H k. rewrite (Hp n eq_refl). apply H.
    - intros H k. rewrite (Hp n eq_refl). apply H.
    - intros (H1 & H2 & H3). specialize (Hc _ Ha). repeat split; try assumption; lia.
    - specialize (Hc _ (Hio _ Ha)). lia.
    - intros (H1 & H2 & H3 & H4). specialize (Hc _ Ha). repeat split; try assumption; try lia.
      destruct (Hd h idx eq_refl) as [->|(_ & Hn & b & ->)]; [exact H4|]. right. exists b. reflexivity.
    - intros (H1 & H2 & H3). repeat split; try assumption.
      destruct (Hd h idx eq_refl) as [->|(Hc' & _)]; [exact H3|discriminate Hc'].
    - intros (H1 & H2 & H3 & H4). specialize (Hc _ Ha). repeat split; try assumption; try lia.
      destruct (Hd h idx eq_refl) as [->|(_ & Hn & b & ->)]; [exact H4|]. right. exists b. reflexivity.
  Qed.

  Lemma ent_null_fate st n k : TK st n k -> ent st n (slot_of E (S * k)) = CNull -> g_fate st n k = FNone.
  Proof.
    unfold TK. destruct (g_fate st n k); intros H He; try reflexivity; rewrite He in H;
      try (destruct H as [H _]; discriminate H). destruct H as [[H|H] _]; discriminate H.
  Qed.

  (** what a popper finds in the entry of its ticket *)
  Lemma popper_entry st h idx : TK st h (tk idx) -> idx = S * tk idx ->
    (g_fate st h (tk idx) = FNone \/ exists b, g_fate st h (tk idx) = FFilled b) ->
    match ent st h (slot_of E idx) with
    | CNull => g_fate st h (tk idx) = FNone
    | CVal b => g_fate st h (tk idx) = FFilled b /\ tk idx < pa st h
    | CTaken => False
    end.
  Proof.
    unfold TK. intros H Hal [Hf|[b Hf]]; rewrite <- Hal, Hf in H; rewrite Hf; destruct H as (-> & H); [reflexivity|tauto].
  Qed.

  Lemma TB_th s f q : TB s q -> TB (w_th s f) q.
  Proof. destruct q; exact (fun H => H). Qed.

  (** no pc holds a ticket both as a pusher and as a popper *)
  Lemma ptk_dtk p x y : ptk p = Some x -> dtk2 p = Some y -> False.
  Proof. destruct p; discriminate. Qed.

  Lemma dtk_dtk2 p x : dtk p = Some x -> dtk2 p = Some x.
  Proof. destruct p; cbn [dtk dtk2]; congruence. Qed.

  Lemma mul_S_inj a b : S * a = S * b -> a = b.
  Proof. intros H. rewrite <- (tick_mul a), <- (tick_mul b), H. reflexivity. Qed.

  (** a fetch_add claims the next ticket of the node and no other *)
  Lemma tick_claim (f : N -> N) n m k : aligned E (f n) -> k < tk (setf f n (f n + S) m) -> k < tk (f m) \/ (m = n /\ k = tk (f n)).
  Proof.
    intros A. unfold setf. destruct (N.eqb_spec m n) as [->|_]; [|auto]. destruct (aligned_step _ A) as [_ ->].
    intros Hk. destruct (N.eq_dec k (tk (f n))); [right; auto|left; lia].
  Qed.

  (** a step of thread t that writes no ticket of a linked node: the tickets it newly claims are t's own, t
      gives up a claim as a pusher only if the ticket is no longer untouched, and never as a popper *)
  Lemma InvB_keep s t u p' :
    InvA s -> InvB s -> ext E s u -> unwritten s u ->
    (forall n k, In n (g_nodes s) -> k < E ->
       (k < pa u n -> k < pa s n \/ pown n k p') /\ (k < pd u n -> k < pd s n \/ down n k p')) ->
    (forall n k, In n (g_nodes s) -> k < E -> g_fate s n k = FNone -> pown n k (th s t) -> pown n k p') ->
    (forall n k, In n (g_nodes s) -> k < E -> down n k (th s t) -> down n k p') ->
    (ptk p' = None \/ ptk p' = ptk (th s t) \/ forall x, ptk p' = Some x -> forall t', ptk (th s t') <> Some x) ->
    (dtk2 p' = None \/ dtk2 p' = dtk2 (th s t) \/ forall x, dtk2 p' = Some x -> forall t', dtk2 (th s t') <> Some x) ->
    TB u p' -> InvB (w_th u (upd (th s) t p')).
  Proof.
    intros HA HB Hext [Hn _ Hf He _ _] Hcl Hpo Hdo Hp Hd Hself. pose proof (fun h => old_in_nodes s h (a_head _ _ HA)) as Hio.
    constructor; prj.
    - rewrite Hn. intros n k Hi Hk. destruct (Hcl n k Hi Hk) as [Ha Hb].
      destruct (e_cnt E s u Hext n Hi) as (B1 & B2 & _). apply (bump_le E HE HM), tick_mono in B1, B2.
      apply (TK_keep s _ t p' n k (b_tk s HB n k Hi Hk)); prj; auto.
      rewrite (Hf n (a_lt _ _ HA n Hi)). reflexivity.
    - intros t'. apply TB_th. revert t'. apply threads_upd; [|exact Hself]. intros t' _.
      apply (TB_frame s u _ Hext Hio (a_thr _ _ HA t')); [| |exact (b_thr s HB t')].
      + intros n Hq k. rewrite Hf; [reflexivity|]. apply (priv_fresh E HE HM s t' n (a_thr _ _ HA t') Hq).
      + intros n idx Hq. left. rewrite Hf; [reflexivity|]. apply (a_lt _ _ HA).
        pose proof (a_thr _ _ HA t') as Ha. destruct (th s t'); try discriminate Hq; injection Hq as -> _; exact Ha.
    - apply uniq_upd; [exact (b_up s HB)|exact Hp].
    - apply uniq_upd; [exact (b_ud s HB)|exact Hd].
  Qed.

  (** thread t writes the fate (and maybe the entry) of the ticket (n,k) it holds, and lets go of it *)
  Lemma InvB_write s t u p' n idx f :
    InvA s -> InvB s -> ext E s u -> In n (g_nodes s) -> idx = S * tk idx -> tk idx < E ->
    g_nodes u = g_nodes s -> pushi u = pushi s -> popi u = popi s -> g_fate u = setf2 (g_fate s) n (tk idx) f ->
    ent u = ent s \/ (exists c, ent u = setf2 (ent s) n (slot_of E idx) c) ->
    (ptk (th s t) = Some (n, idx) /\ g_fate s n (tk idx) = FNone /\ exists b, f = FFilled b) \/ dtk (th s t) = Some (n, idx) ->
    ptk p' = None -> dtk p' = None -> (dtk2 p' = None \/ dtk2 p' = dtk2 (th s t)) -> TB u p' ->
    TK (w_th u (upd (th s) t p')) n (tk idx) ->
    InvB (w_th u (upd (th s) t p')).
  Proof.
    intros HA HB Hext Hin Hal Hk Hn Hpu Hpo Hf He Hown Hp1 Hp2 Hp3 Hself Hmine.
    remember (tk idx) as k eqn:Ek. rewrite Hal in He, Hown. clear Hal Ek idx.
    pose proof (fun h => old_in_nodes s h (a_head _ _ HA)) as Hio.
    assert (He' : forall n0 k0, k0 < E -> n0 <> n \/ k0 <> k -> ent u n0 (slot_of E (S * k0)) = ent s n0 (slot_of E (S * k0))).
    { intros n0 k0 Hk0 Hd. destruct He as [->|[c ->]]; [reflexivity|]. apply setf2_other.
      destruct Hd as [Hd|Hd]; [left; exact Hd|right]. intros Hc. apply slot_inj in Hc; auto. }
    assert (Hmy : forall n0 k0, pown n0 k0 (th s t) \/ down n0 k0 (th s t) -> n0 = n /\ k0 = k).
    { unfold pown, down. intros n0 k0 [H0|H0]; destruct Hown as [(H1 & _)|H1]; try (rewrite H0 in H1; injection H1 as -> H1; apply mul_S_inj in H1; auto);
        exfalso; eauto using ptk_dtk, dtk_dtk2. }
    constructor; prj.
    - rewrite Hn. intros n0 k0 Hi0 Hk0.
      destruct (pair_dec n0 n k0 k) as [[-> ->]|Hd]; [exact Hmine|].
      apply (TK_keep s _ t p' n0 k0 (b_tk s HB n0 k0 Hi0 Hk0)); unfold RamBase.pa, RamBase.pd; prj; rewrite ?Hpu, ?Hpo; auto using N.le_refl.
      + rewrite Hf. apply setf2_other. exact Hd.
      + intros _ Ho. exfalso. destruct (Hmy n0 k0 (or_introl Ho)). tauto.
      + intros Ho. exfalso. destruct (Hmy n0 k0 (or_intror Ho)). tauto.
    - intros t'. apply TB_th. revert t'. apply threads_upd; [|exact Hself]. intros t' Hne.
      pose proof (a_thr _ _ HA t') as Ha. pose proof (b_thr s HB t') as Hb.
      apply (TB_frame s u _ Hext Hio Ha); [| |exact Hb].
      + intros n0 Hq k0. rewrite Hf. apply setf2_other_n. intros ->.
        apply (priv_fresh E HE HM s t' n Ha Hq). exact Hin.
      + intros n0 idx Hq. rewrite Hf.
        assert (Hal : idx = S * tk idx) by (destruct (th s t'); try discriminate Hq; injection Hq as -> ->; apply Hb).
        destruct (pair_dec n0 n (tk idx) k) as [[-> <-]|Hd]; [|left; apply setf2_other; exact Hd]. rewrite <- Hal in Hown.
        destruct Hown as [(_ & Hfn & b & ->)|Ho].
        * right. rewrite setf2_same. split; [|split; [exact Hfn|exists b; reflexivity]].
          destruct (th s t'); try discriminate Hq; try exact Hq. exfalso. injection Hq as -> ->. destruct Hb as (_ & _ & Hb). congruence.
        * exfalso. apply Hne. apply (b_ud s HB t' t _ Hq). apply dtk_dtk2. exact Ho.
    - apply uniq_upd; [exact (b_up s HB)|auto].
    - apply uniq_upd; [exact (b_ud s HB)|tauto].
  Qed.

  Lemma InvB_tstep s t u p' :
    InvA s -> InvB s -> tstep E R s (th s t) u p' -> g_ovf u = false -> InvB (w_th u (upd (th s) t p')).
  Proof.
    intros HA HB Hs Hov. pose proof (a_thr _ _ HA t) as Hta. pose proof (b_thr s HB t) as Ht.
    pose proof (tstep_ext E R HE HM s _ u p' HA Hta Hs Hov) as Hext.
    pose proof (fun h => old_in_nodes s h (a_head _ _ HA)) as Hio.
    remember (th s t) as p eqn:Hpc.
    destruct Hs as [p u p' Hq| | | | | | |]; prj_in Hov; try (apply faa_nowrap in Hov as [_ Hw]; rewrite Hw in * ).
    (* 1 = quiet, 2 = P2, 3 = D5, 4 = link, 5 = P8, 6 = D9, 7-8 = D11 *)
    2-8: cbn [TA TB] in Hta, Ht.
    (* the popper has found [ent s h (slot idx)] in its entry *)
    6-8: destruct Ht as (Hal & HkE & Hkp & Hfa); pose proof (popper_entry s h idx (b_tk s HB h _ Hta HkE) Hal Hfa) as Hx; rewrite H in Hx.
    - (* no ticket written or handed out: what is left depends on the program counters only *)
      pose proof (qstep_quiet E R HE HM s p u p' HA Hta Hq Hov) as [Hunw _ _ Hcnt].
      apply InvB_keep; rewrite <- ?Hpc; auto.
      1: intros n k Hn Hk; destruct (Hcnt n Hn); split; intros Hc; left; lia.
      all: destruct Hq as [p p' Hm| | | | |p tl nx p' Hsw| | | |]; [destruct Hm| | | | |destruct Hsw| | | |]; unfold pown, down; cbn [TA TB ptk dtk dtk2] in *; auto;
        try (intros ? ? ? ? ? Hc; discriminate Hc); try (intros ? ? ? ? Hc; discriminate Hc).
      (* a popper never finds its own ticket taken *)
      2-3: intros n k Hn Hk Hc; injection Hc as -> ->; exfalso; destruct Ht as (Hal & _ & _ & Hfa);
        pose proof (popper_entry s n (S * k)) as Hx; rewrite tick_mul in Hx, Hfa; rewrite H in Hx; exact (Hx (b_tk s HB n k Hn Hk) eq_refl Hfa).
      + (* a pusher gives up only a ticket that is no longer untouched *)
        intros n k Hn Hk Hf Hc. injection Hc as -> ->. exfalso. apply H. pose proof (b_tk s HB _ k Hta Hk) as Hx. unfold TK in Hx. rewrite Hf in Hx. tauto.
      + destruct (_ <? _); auto.
      + destruct (_ <? _); auto.
      + apply N.le_refl.
      + intros k. prj. rewrite N.eqb_refl. reflexivity.
      + destruct (_ <? _); exact Ht.
    - (* P2, a ticket: the stepping thread is its pusher *)
      destruct (a_al _ _ HA tl Hta) as [A1 _]. destruct (aligned_step _ A1) as [_ Hts]. apply N.lt_nge in H. rewrite (maxi_le _ A1) in H.
      apply InvB_keep; rewrite <- ?Hpc; unfold pown, down; cbn [ptk dtk dtk2 TB]; auto; try (intros ? ? ? ? ? Hc; discriminate Hc); try (intros ? ? ? ? Hc; discriminate Hc).
      + constructor; prj; auto using N.le_refl.
      + intros n k Hn Hk. unfold RamBase.pa, RamBase.pd; prj. split; [|auto]. intros Hc. destruct (tick_claim _ _ _ _ A1 Hc) as [Hl|[-> ->]]; [auto|].
        right. rewrite <- A1. reflexivity.
      + right; right. intros x Hx t' Hc. injection Hx as <-.
        pose proof (b_thr s HB t') as Ht'. destruct (th s t'); try discriminate Hc. injection Hc as -> ->.
        destruct Ht' as (_ & _ & Hlt'). unfold RamBase.pa in Hlt'. lia.
      + unfold RamBase.pa; prj. rewrite setf_same. repeat split; [exact A1|lia|lia].
    - (* D5, a ticket: the stepping thread is its popper *)
      pose proof (Hio h Hta) as Hin. destruct (a_al _ _ HA h Hin) as [_ A1]. destruct (aligned_step _ A1) as [_ Hts].
      apply N.lt_nge in H. rewrite (maxi_le _ A1) in H. apply N.nle_gt in H.
      apply InvB_keep; rewrite <- ?Hpc; unfold pown, down; cbn [ptk dtk dtk2 TB]; auto; try (intros ? ? ? ? ? Hc; discriminate Hc); try (intros ? ? ? ? Hc; discriminate Hc).
      + constructor; prj; auto using N.le_refl.
      + intros n k Hn Hk. unfold RamBase.pa, RamBase.pd; prj. split; [auto|]. intros Hc. destruct (tick_claim _ _ _ _ A1 Hc) as [Hl|[-> ->]]; [auto|].
        right. rewrite <- A1. reflexivity.
      + right; right. intros x Hx t' Hc. injection Hx as <-.
        pose proof (b_thr s HB t') as Ht'. destruct (th s t'); try discriminate Hc; injection Hc as -> ->; cbn [TB] in Ht'.
        * destruct Ht' as (_ & _ & Hlt' & _). unfold RamBase.pd in Hlt'. lia.
        * destruct Ht' as (_ & HkE' & Hf'). pose proof (b_tk s HB h _ Hin HkE') as Ho. unfold TK, RamBase.pd in Ho. rewrite Hf' in Ho. lia.
        * destruct Ht' as (_ & _ & Hlt' & _). unfold RamBase.pd in Hlt'. lia.
      + unfold RamBase.pd; prj. rewrite setf_same. repeat split; [exact A1|exact H|lia|].
        pose proof (b_tk s HB h _ Hin H) as Ho. unfold TK, RamBase.pd in Ho.
        destruct (g_fate s h (tk (popi s h))); [left; reflexivity|right; eexists; reflexivity|lia|lia].
    - (* link: the tickets of the new node; ticket 0 is filled by the constructor *)
      destruct Hta as (H1 & H2 & H3 & (H4 & H4' & H4'') & H5 & H6 & H7 & H8).
      constructor; prj.
      + intros n0 k0 Hn0 Hk0. apply in_app_or in Hn0. destruct Hn0 as [Hn0|[<-|[]]].
        * assert (Hd : n0 <> n) by (intros ->; contradiction).
          apply (TK_keep s _ t (P7 tl n) n0 k0 (b_tk s HB n0 k0 Hn0 Hk0)); rewrite <- ?Hpc; prj; auto using N.le_refl, setf2_other_n; first [intros Hc; discriminate Hc|intros _ Hc; discriminate Hc].
        * unfold TK; prj. unfold RamBase.pa, RamBase.pd; prj. rewrite H5, H6, tick_SS, tick_0.
          destruct (N.eq_dec k0 0) as [->|Hk].
          -- rewrite setf2_same. rewrite N.mul_0_r, slot_0. rewrite (H8 0) by lia. split; [reflexivity|]. split; [lia|]. intros Hc; lia.
          -- rewrite setf2_other by (right; exact Hk). rewrite Ht. rewrite H8 by apply slot_lt.
             unfold ctor_ent. destruct (N.eqb_spec (slot_of E (S * k0)) 0) as [Hz|Hz]; [exfalso; exact (slot_nz k0 Hk0 Hk Hz)|].
             split; [reflexivity|]. split; intros Hc; lia.
      + intros t'. apply TB_th. revert t'. apply threads_upd; [|exact I]. intros t' Hne.
        pose proof (a_thr _ _ HA t') as Ha. apply (TB_frame s _ _ Hext Hio Ha); prj; [| |exact (b_thr s HB t')].
        * intros n0 Hq k0. apply setf2_other_n. intros ->. apply Hne. apply (a_priv _ _ HA t' t n Hq). rewrite <- Hpc. reflexivity.
        * intros n0 idx0 Hq. left. apply setf2_other_n. intros ->. apply H4''.
          destruct (th s t'); try discriminate Hq; injection Hq as -> _; exact Ha.
      + apply uniq_upd; [exact (b_up s HB)|auto].
      + apply uniq_upd; [exact (b_ud s HB)|auto].
    - (* P8: the entry CAS fills the ticket *)
      destruct Ht as (Hal & HkE & Hkp).
      assert (Hf1 : g_fate s tl (tk idx) = FNone) by (apply ent_null_fate; [apply (b_tk s HB); assumption|rewrite <- Hal; exact H]).
      apply (InvB_write s t _ Idle tl idx (FFilled b)); rewrite <- ?Hpc; cbn [TB ptk]; prj; eauto 6.
      pose proof (b_tk s HB tl (tk idx) Hta HkE) as Ho. unfold TK in *; prj. rewrite Hf1 in Ho. destruct Ho as (_ & _ & Hd).
      rewrite setf2_same, <- Hal, setf2_same. split; [reflexivity|]. split; [exact Hkp|]. intros Hk. unfold downer; prj.
      apply own_upd; [exact (Hd Hk)|]. rewrite <- Hpc. intros Hc. discriminate Hc.
    - (* D9 sees the value: consumed *)
      apply (InvB_write s t _ _ h idx (FConsumed b)); rewrite <- ?Hpc; cbn [TB dtk]; prj; eauto.
      + rewrite setf2_same. auto.
      + unfold TK; prj. rewrite setf2_same, <- Hal, H. tauto.
    - (* D11 on an empty entry: poisoned *)
      apply (InvB_write s t _ _ h idx FPoisoned); rewrite <- ?Hpc; cbn [TB dtk]; prj; eauto.
      unfold TK; prj. rewrite setf2_same, <- Hal, setf2_same. auto.
    - (* D11 on a value: consumed *)
      apply (InvB_write s t _ _ h idx (FConsumed b)); rewrite <- ?Hpc; cbn [TB dtk]; prj; eauto.
      unfold TK; prj. rewrite setf2_same, <- Hal, setf2_same. tauto.
  Qed.


  Lemma InvB_step s a s' es : InvA s -> InvB s -> step E R s a = Some (s', es) -> g_ovf s' = false -> InvB s'.
  Proof.
    intros HA HB H Hov. destruct (step_inv E R s a s' es H) as (t & u & p' & Hs & -> & _). exact (InvB_tstep s t u p' HA HB Hs Hov).
  Qed.

  Lemma InvB_init : InvB init.
  Proof.
    constructor; cbn [init head tail popi pushi ent nnext nalloc tokv th g_pushed g_popped g_fate g_nodes g_retired g_ptk g_dtk g_ovf].
    - intros n k _ _. unfold TK, RamBase.pa, RamBase.pd; cbn [init g_fate ent pushi popi]. rewrite tick_0.
      split; [reflexivity|]. split; intros Hc; lia.
    - intros t. exact I.
    - intros t1 t2 x Hc. discriminate Hc.
    - intros t1 t2 x Hc. discriminate Hc.
  Qed.

  Theorem InvB_reach s : reach init (step E R) s -> g_ovf s = false -> InvB s.
  Proof.
    intros Hr. induction Hr as [|s a s' es Hr IH Hst]; intros Hov.
    - exact InvB_init.
    - pose proof (ovf_sticky _ _ _ _ _ _ Hst Hov) as Hov0.
      eapply InvB_step; [apply (InvA_reach E R HE HM); [exact Hr|exact Hov0] | apply IH; exact Hov0 | exact Hst | exact Hov].
  Qed.
End LayerB.
