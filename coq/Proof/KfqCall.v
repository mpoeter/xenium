(** kirsch_kfifo_queue (C06, unbounded): call-level theorems -- a pop takes its value from the segment head_
    pointed to at an instant inside the call (k-relaxation, segment form), the 'empty' verdict.
    No axioms, no admits. *)
From Coq Require Import NArith List Bool Lia PeanoNat ZifyBool ZifyNat ZifyN.
From XV Require Import Base.Word Conc.Lts Conc.Ev Model.KfqDefs.
From XV Require Import Proof.KfqStep Proof.KfqWf Proof.KfqOwn Proof.KfqRegion Proof.KfqSeg Proof.KfqCons.
Import ListNotations.
Local Open Scope N_scope.

Definition sw_mono (a b : sw) : Prop := b = a \/ snd a < snd b.

(** the slot word a pop is about to take *)
Definition cpop (c : cont) : option (iw * N * N * N) :=
  match c with KPop hd j p tg => Some (hd, j, p, tg) | KPush _ => None end.
Definition ppop (p : pc) : option (iw * N * N * N) :=
  match p with
  | D3 hd j q tg | D4 hd j q tg => Some (hd, j, q, tg)
  | A1 c _ | A2 c _ _ | A3 c _ _ | A4 c _ _ _ | A5 c _ _ => cpop c
  | _ => None
  end.
(** ... including the state before the re-check of head_ *)
Definition ppop2 (p : pc) : option (iw * N * N * N) :=
  match p with D2 hd j q tg => Some (hd, j, q, tg) | _ => ppop p end.

Set Default Proof Using "All".
Section Call.
  Variable k : N.
  Hypothesis Hk : 1 <= k.
  Notation step := (step k).
  Notation InvA := (InvA k).

  (** * Monotonicity *)

  Lemma step_mono2 s a s' es : InvA s -> step s a = Some (s', es) ->
    (tail s' = tail s \/ fst (tail s) < fst (tail s')) /\ (forall x j, sw_mono (slot s x j) (slot s' x j)) /\
    (forall b, In b (g_in s) -> In b (g_in s')) /\ (forall b, In b (g_out s) -> In b (g_out s')).
  Proof.
    intros IA Hst. destruct (step_inv k Hk s a s' es Hst) as (sh & p' & res & -> & [Hs|(_ & -> & _)] & _); [|unfold sw_mono; auto].
    pose proof (a_th k s IA (actor a)) as Hme. remember (th s (actor a)) as p.
    assert (Hw : forall x j w, snd (slot s x j) < snd w -> forall x0 j0, sw_mono (slot s x0 j0) (setf2 (slot s) x j w x0 j0)).
    { intros x j w Hw x0 j0. unfold sw_mono. destruct (setf2_cases (slot s) x j w x0 j0) as [(-> & -> & Q)|(_ & Q)]; rewrite Q; auto. }
    assert (Hc : forall b b0, In b0 (g_in s) -> In b0 (commit b (g_in s))) by (intros; apply commit_in; auto).
    destruct Hs; cbn [TA] in Hme; sim; unfold sw_mono; try (auto 7; fail).
    - (* P3 *) split; [auto|]. split; [apply Hw; rewrite H; cbn; lia|auto].
    - (* C9 *) split; [auto|]. split; [apply Hw; rewrite H; cbn; lia|auto].
    - (* A3 *) subst tl. destruct Hme as (_ & _ & -> & D). destruct (tail_succ k Hk s IA D). auto.
    - (* A5 *) subst tl. destruct Hme as (_ & _ & C & D). assert (Q : fst (nxt s (fst (tail s))) <> 0) by (rewrite C; exact D).
      destruct (tail_succ k Hk s IA Q) as [W _]. rewrite C in W. auto.
    - (* D4 *) split; [auto|]. split; [apply Hw; rewrite H; cbn; lia|]. split; [auto|intros; apply in_or_app; auto].
    - contradiction.
  Qed.

  Lemma reach_from_mono2 s1 s : reach init step s1 -> reach_from step s1 s ->
    (tail s = tail s1 \/ fst (tail s1) < fst (tail s)) /\ (forall x j, sw_mono (slot s1 x j) (slot s x j)) /\
    (forall b, In b (g_in s1) -> In b (g_in s)) /\ (forall b, In b (g_out s1) -> In b (g_out s)).
  Proof.
    intros Hr Hf. induction Hf as [|x a y es Hf IH Hst]; [unfold sw_mono; auto|].
    assert (Hrx : reach init step x) by (eapply reach_from_reach; eauto).
    destruct (step_mono2 x a y es (InvA_reach k Hk x Hrx) Hst) as (A1 & A2 & A3 & A4). destruct IH as (B1 & B2 & B3 & B4).
    split; [|split; [|split; auto]].
    - destruct A1 as [A1|A1]; destruct B1 as [B1|B1]; [left; congruence|right; rewrite A1; exact B1|right; rewrite <- B1; exact A1|right; lia].
    - intros x0 j0. specialize (A2 x0 j0). specialize (B2 x0 j0). unfold sw_mono in *.
      destruct A2 as [A2|A2]; destruct B2 as [B2|B2]; [left; congruence|right; rewrite A2; exact B2|right; rewrite <- B2; exact A2|right; lia].
  Qed.

  Lemma sw_mono_squeeze (a b c : sw) : sw_mono a b -> sw_mono b c -> c = a -> b = a.
  Proof. unfold sw_mono. intros [H1|H1] [H2|H2] H3; subst; auto; lia. Qed.

  (** a pop holds a slot word it has read: the slot's tag has not gone back *)
  Definition Inv5 (st : state) : Prop :=
    forall t hd j q tg, ppop2 (th st t) = Some (hd, j, q, tg) -> tg <= snd (slot st (fst hd) j).

  Definition holds (s : state) (x : iw * N * N * N) : Prop := let '(hd, j, q, tg) := x in slot s (fst hd) j = (q, tg).
  Definition at_head (s : state) (x : iw * N * N * N) : Prop := let '(hd, _, _, _) := x in hd = head s.

  (** a pop picks up a slot word by reading it (end of the scan), and keeps it past the re-check of head_ *)
  Lemma ppop2_lstep s p p' x : lstep k s p p' -> ppop2 p' = Some x -> ppop2 p = Some x \/ holds s x.
  Proof.
    destruct 1; cbn [ppop2 ppop cpop]; try discriminate; auto; try (destruct c; auto; discriminate).
    intros Q. injection Q as <-. right. cbn. destruct (slot s (fst hd) (fidx k ri i)); reflexivity.
  Qed.
  Lemma ppop_lstep s p p' x : lstep k s p p' -> ppop p' = Some x -> ppop p = Some x \/ at_head s x.
  Proof.
    destruct 1; cbn [ppop cpop]; try discriminate; auto; try (destruct c; auto; discriminate).
    intros Q. injection Q as <-. right. assumption.
  Qed.
  Lemma ppop_sstep s p sh p' res x : sstep k s p sh p' res -> (ppop2 p' = Some x -> ppop2 p = Some x) /\ (ppop p' = Some x -> ppop p = Some x).
  Proof. destruct 1; cbn [ppop2 ppop cpop]; split; try discriminate; auto; destruct c; auto. Qed.

  Lemma Inv5_reach st : reach init step st -> Inv5 st.
  Proof.
    apply (inv_rule_aux _ _ _ init step InvA Inv5).
    - apply InvA_reach; assumption.
    - intros t hd j q tg H. discriminate.
    - intros s a s' es IA _ H5 Hst u hd j q tg Hp. pose proof (step_mono2 s a s' es IA Hst) as (_ & Hm & _).
      assert (Hs : tg <= snd (slot s (fst hd) j)).
      { destruct (step_view k Hk (fun p x => ppop2 p = Some x) holds ppop2_lstep (fun s p sh p' res x H => proj1 (ppop_sstep s p sh p' res x H))
                   s a s' es u (hd, j, q, tg) Hst Hp) as [Q|[_ Q]]; [apply (H5 u hd j q tg Q)|cbn in Q; rewrite Q; cbn; lia]. }
      destruct (Hm (fst hd) j) as [->|Hm']; lia.
  Qed.

  (** * Calls *)

  (** [in_call u o s0 s]: thread u took the first step of a call of [o] from [s0], and [s] is a later state of
      the execution, up to and including the state right after the call's return *)
  Inductive in_call (u : nat) (o : op) (s0 : state) : state -> Prop :=
  | ic_first s1 es r : th s0 u = Begin o -> step s0 (Step u r) = Some (s1, es) -> in_call u o s0 s1
  | ic_next s a s' es : in_call u o s0 s -> th s u <> Idle -> step s a = Some (s', es) -> in_call u o s0 s'.

  Lemma in_call_from u o s0 s : in_call u o s0 s -> reach_from step s0 s.
  Proof. induction 1; eapply rf_step; eauto; apply rf_refl. Qed.
  Lemma in_call_reach u o s0 s : reach init step s0 -> in_call u o s0 s -> reach init step s.
  Proof. intros Hr H. eapply reach_from_reach; [exact Hr|eapply in_call_from; eauto]. Qed.

  (** A view [V] of u's program counter that holds inside a call began to hold at a step of u that changed only
      its program counter ([s1] to [s2]), in a state where [P] held *)
  Lemma view_witness {X} (V : pc -> X -> Prop) (P : state -> X -> Prop) u o s0 s x :
    (forall s p p' x, lstep k s p p' -> V p' x -> V p x \/ P s x) ->
    (forall s p sh p' res x, sstep k s p sh p' res -> V p' x -> V p x) -> ~ V (Begin o) x ->
    in_call u o s0 s -> V (th s u) x ->
    exists s1 s2, s2 = set_th s1 u (th s2 u) /\ P s1 x /\ in_call u o s0 s2 /\ reach_from step s2 s /\ V (th s2 u) x.
  Proof.
    intros Hl Hs H0 Hic. induction Hic as [s1 es r Hb Hst | s a s' es Hic IH Hni Hst]; intros Hv;
      destruct (step_view k Hk V P Hl Hs _ _ _ es u x Hst Hv) as [Q|[E Q]].
    - rewrite Hb in Q. contradiction.
    - exists s0, s1. repeat split; auto; [eapply ic_first; eauto|apply rf_refl].
    - destruct (IH Q) as (s1 & s2 & A & B & C & D & F). exists s1, s2. repeat split; auto. eapply rf_step; eauto.
    - exists s, s'. repeat split; auto; [eapply ic_next; eauto|apply rf_refl].
  Qed.

  (** * k-relaxation: a pop takes its value from the segment head_ pointed to *)

  (** The value a pop takes: at an instant inside the call ([s1], the re-check of head_) head_ had the value the
      pop had read, and the slot of the segment head_ pointed to held the value the pop takes -- with the same
      tag, i.e. it stayed there until the pop's CAS. *)
  Theorem kfq_pop_from_head_segment u s0 s hd j q tg :
    reach init step s0 -> in_call u OPop s0 s -> th s u = D4 hd j q tg -> slot s (fst hd) j = (q, tg) ->
    exists s1, in_call u OPop s0 s1 /\ reach_from step s1 s /\
      head s1 = hd /\ slot s1 (fst hd) j = (q, tg) /\ q <> 0 /\ j < k.
  Proof.
    intros Hr0 Hic Hpc Hsl.
    (* [s2]: the state after the re-check of head_ (D2 -> D3) *)
    destruct (view_witness (fun p x => ppop p = Some x) at_head u OPop s0 s (hd, j, q, tg) ppop_lstep
                (fun s p sh p' res x H => proj2 (ppop_sstep s p sh p' res x H)) ltac:(discriminate) Hic ltac:(rewrite Hpc; reflexivity))
      as (s1 & s2 & E & Hh & A & B & C).
    assert (Hr2 : reach init step s2) by (eapply in_call_reach; eauto).
    exists s2. split; [exact A|]. split; [exact B|]. split; [rewrite E; symmetry; exact Hh|]. split.
    - (* the tag of the slot has not gone back since, and is still the one the pop has read *)
      assert (H5 : tg <= snd (slot s2 (fst hd) j)).
      { apply (Inv5_reach s2 Hr2 u hd j q tg). destruct (th s2 u); cbn [ppop2]; try exact C. discriminate C. }
      destruct (reach_from_mono2 s2 s Hr2 B) as (_ & Hm & _).
      destruct (Hm (fst hd) j) as [Q|Q]; [rewrite <- Q; exact Hsl|]. rewrite Hsl in Q. cbn [snd] in Q. lia.
    - pose proof (a_th k s (InvA_reach k Hk s (in_call_reach u OPop s0 s Hr0 Hic)) u) as T. rewrite Hpc in T. cbn [TA] in T. unfold TD in T. tauto.
  Qed.

  (** * The 'empty' verdict *)

  (** the step that returns 'empty' is the final comparison of tail_ in [DE] *)
  Lemma empty_step u s a s' es : step s a = Some (s', es) -> In (ERet u [2]) es ->
    exists r hd tl, a = Step u r /\ th s u = DE hd tl /\ tail s = tl.
  Proof.
    intros Hst Hin. destruct (step_ret k Hk s a s' es u _ Hst Hin) as (r & sh & p' & -> & -> & Hs). inversion Hs; subst.
    eexists _, _, _. split; [reflexivity|]. split; reflexivity.
  Qed.

  Definition empty_at (st : state) : Prop := forall b, In b (g_in st) -> In b (g_out st).
  Definition nocommit (st : state) (x : N) : Prop := forall j b tg, slot st x j = (b, tg) -> b <> 0 -> ~ In b (g_in st).
  Definition pemp (p : pc) : option iw := match p with D3n hd | DE hd _ => Some hd | _ => None end.

  Lemma pemp_lstep s p p' hd : lstep k s p p' -> pemp p' = Some hd -> pemp p = Some hd \/ hd = head s.
  Proof. destruct 1; cbn [pemp]; try discriminate; auto; try (destruct c; discriminate). intros Q. injection Q as <-. auto. Qed.
  Lemma pemp_sstep s p sh p' res hd : sstep k s p sh p' res -> pemp p' = Some hd -> pemp p = Some hd.
  Proof. destruct 1; cbn [pemp]; try discriminate; destruct c; discriminate. Qed.
  Lemma pemp_seen p hd j : pemp p = Some hd -> j < k -> shd p = Some hd /\ scanned k p j.
  Proof. destruct p; try discriminate; intros Q; injection Q as ->; auto. Qed.

  Lemma empty_witness u s0 s hd : reach init step s0 -> in_call u OPop s0 s -> pemp (th s u) = Some hd ->
    exists s1, in_call u OPop s0 s1 /\ reach_from step s1 s /\ head s1 = hd /\ nocommit s1 (fst hd).
  Proof.
    intros Hr0 Hic Hp.
    (* [s2]: the state after the re-check of head_ that follows the scan (D2n -> D3n) *)
    destruct (view_witness (fun p x => pemp p = Some x) (fun s x => x = head s) u OPop s0 s hd pemp_lstep pemp_sstep
                ltac:(discriminate) Hic Hp) as (s1 & s2 & E & Hh & A & B & C).
    assert (Hh' : hd = head s2) by (rewrite E; exact Hh).
    exists s2. split; [exact A|]. split; [exact B|]. split; [symmetry; exact Hh'|].
    pose proof (InvC_reach k Hk s2 (in_call_reach u OPop s0 s2 Hr0 A)) as IC.
    intros j b tg Hs Hb. destruct (c_reg k s2 IC (fst hd) j b tg Hs Hb) as (_ & Hj & _).
    destruct (pemp_seen _ hd j C Hj) as [Q1 Q2]. apply (c_scan k s2 IC u hd Q1 Hh' j Q2 b tg Hs Hb).
  Qed.

  (** A pop answers 'empty' only if at an instant inside the call (the re-check of head_ after the scan) head_ and
      tail_ pointed to the same segment and NO committed value was in the queue (stronger than "fewer than k
      values stored"). *)
  Theorem kfq_empty_verdict u s0 s a s' es :
    reach init step s0 -> in_call u OPop s0 s -> step s a = Some (s', es) -> In (ERet u [2]) es ->
    exists s1, in_call u OPop s0 s1 /\ reach_from step s1 s' /\
      fst (head s1) = fst (tail s1) /\ empty_at s1.
  Proof.
    intros Hr0 Hic Hst Hret. destruct (empty_step u s a s' es Hst Hret) as (r & hd & tl & -> & Hpc & Ht).
    destruct (empty_witness u s0 s hd Hr0 Hic ltac:(rewrite Hpc; reflexivity)) as (s1 & A & B & C & D).
    assert (Hr1 : reach init step s1) by exact (in_call_reach u OPop s0 s1 Hr0 A).
    assert (Hrs : reach init step s) by exact (in_call_reach u OPop s0 s Hr0 Hic).
    pose proof (a_th k s (InvA_reach k Hk s Hrs) u) as T. rewrite Hpc in T. cbn [TA] in T. destruct T as (_ & _ & _ & Htl).
    destruct (reach_from_mono2 s1 s Hr1 B) as (M & _).
    pose proof (a_ht k s1 (InvA_reach k Hk s1 Hr1)) as Hht.
    assert (Heq : fst (head s1) = fst (tail s1)).
    { rewrite C in *. rewrite Ht in M. destruct M as [M|M]; [rewrite <- M in *|]; lia. }
    exists s1. split; [exact A|]. split; [eapply rf_step; eauto|]. split; [exact Heq|].
    intros b Hb. destruct (in_dec N.eq_dec b (g_out s1)) as [Ho|Ho]; [exact Ho|exfalso].
    destruct (kfq_never_stranded k Hk s1 b Hr1 Hb Ho) as (x & j & _ & Hx & _ & Hs & _).
    assert (x = fst hd) by (rewrite C in *; lia). subst x.
    destruct (slot s1 (fst hd) j) as [b' tg] eqn:E. cbn [fst] in Hs. subst b'.
    destruct (kfq_conservation k Hk s1 Hr1) as (_ & _ & _ & _ & Hlt). specialize (Hlt b Hb).
    apply (D j b tg E ltac:(lia)). exact Hb.
  Qed.
End Call.
