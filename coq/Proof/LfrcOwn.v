(** Ownership invariants of the lock-free reference counting model (Model/LfrcDefs.v): one step preserves [I_own]
    (what the program point of a thread knows about the node it works on: its life cycle state, alive flag, next_free)
    and [I_ownr] (the thread a life cycle state names is at the matching program point).  No axioms. *)
From Coq Require Import NArith List Bool Arith Lia PeanoNat.
From XV Require Import Conc.Lts Conc.Ev Model.LfrcDefs Proof.LfrcBase Proof.LfrcStep Proof.LfrcRefs Proof.LfrcNodes.
Import ListNotations.

(** the acting thread *)
Lemma P_own_self ns s a s' es : Inv ns s -> step ns s a = Some (s', es) -> own_ok s' (actor a) (th s' (actor a)).
Proof.
  intros HI H. cases HI H t.
  all: prj; rewrite upd_same; on; prj; rewrite ?upd_same.
  all: try solve [exact I | assumption | reflexivity | tauto | apply quiet_own; exact Hq].
  all: try solve [match goal with Ho : g_ns ?s ?n = _ |- _ =>
         pose proof (I_alive _ _ HI n) as IA; rewrite Ho in IA; cbn [alive_ok] in IA;
         destruct (g_alive s n); cbn [negb] in *; repeat split; intuition congruence end].
  all: try solve [destruct k; cbn [src] in Eread;
         first [ rewrite (I_cell _ _ HI _ _ Eread); cbn; tauto | rewrite (fhead_free _ _ _ HI Eread); cbn; tauto ] ].
  all: try solve [upd_split; subst; first [reflexivity | exact (I_cell _ _ HI _ _ Eread)]].
Qed.

Lemma own_frame s s' u p : (forall n, g_ns s' n = g_ns s n) -> (forall n, g_alive s' n = g_alive s n) ->
  (forall n, nxt s' n = nxt s n) -> own_ok s u p -> own_ok s' u p.
Proof.
  intros H1 H2 H3. destruct p; cbn [own_ok]; rewrite ?H1, ?H2, ?H3; try tauto.
  all: match goal with |- context [match ?x with _ => _ end] => destruct x end; rewrite ?H1; tauto.
Qed.

(** the other threads *)
Lemma P_own_other ns s a s' es u : Inv ns s -> step ns s a = Some (s', es) -> u <> actor a -> own_ok s' u (th s u).
Proof.
  intros HI H Hut. pose proof (I_own _ _ HI u) as Hu. pose proof (I_sh _ _ HI u) as (Hsu & Hgu & _).
  cases HI H t.
  all: try solve [apply own_frame with (s := s); [intros; prj; reflexivity ..| exact Hu]].
  all: try match goal with E : th _ _ = D2 _ _ _ _, E1 : rc _ _ = 2 |- _ => pose proof (claim_state _ _ _ _ _ _ _ HI E E1) as Hcs end.
  all: destruct (th s u) eqn:Eu; on_in Hu; on; try exact I.
  all: repeat match goal with |- context [match ?x with _ => _ end] => destruct x end; try exact I.
  all: prj; upd_split; subst; try solve [exact Hu | congruence | tauto].
  all: repeat match goal with Hx : _ /\ _ |- _ => destruct Hx end.
  all: try solve [exfalso; congruence].
  all: try solve [exfalso; apply Hu; rewrite Hna; exact I].
  all: try solve [exfalso; destruct Hcs as [[? Hcs]|[Hcs|Hcs]]; congruence].
  (* the other thread owns a reference on the claimed node *)
  all: try solve [exfalso; match goal with Hcf : forall r, holds ?s r ?n -> r = _ |- _ =>
         let X := fresh in assert (X : holds s (ROwn u) n) by (cbn [holds]; rewrite Eu; reflexivity);
         specialize (Hcf _ X); cbn [who_ref] in Hcf; congruence end].
  (* a node that a validated guard of pop refers to is not being pushed *)
  all: try solve [intros Hfree; exfalso; fn_in Hsu; destruct Hsu as (Hpg & Hgv & _);
         apply (I_popg _ _ HI _ _ _ Hgv); [destruct (other_popg _ _ Hpg) as (_ & _ & _ & ?); assumption | ns_rw; exact I]].
Qed.

(** the node a program point works on exclusively, with the life cycle state that names the thread: [ownr_ok] says
    that a state naming t is the one t's program point works on *)
Definition works (t : nat) (p : pc) : option (nat * nstate) :=
  match p with
  | N2 _ n => Some (n, NNew t) | P6 _ _ n => Some (n, NPop t) | P7 _ _ n | N3 _ n _ => Some (n, NCons t)
  | D3 n _ | D4 n _ | U1 n _ | U2 n _ _ | U3 n _ _ => Some (n, NClaimed t)
  | _ => None
  end.
Definition named (x : nstate) : option nat := match x with NNew t | NPop t | NCons t | NClaimed t => Some t | _ => None end.

Lemma ownr_works st n x : ownr_ok st n x <-> forall t, named x = Some t -> works t (th st t) = Some (n, x).
Proof.
  destruct x; cbn [ownr_ok named]; (split; [intros H u Hu; try discriminate Hu; injection Hu as <- | intros H; try exact I; specialize (H _ eq_refl)]).
  all: try solve [repeat match goal with H : _ \/ _ |- _ => destruct H | H : exists _, _ |- _ => destruct H end;
                  match goal with H : th _ _ = _ |- _ => rewrite H end; reflexivity].
  all: destruct (th st t); try discriminate H; injection H as ->; eauto 8.
Qed.
Lemma quiet_works t p : quiet p -> works t p = None.
Proof. destruct p; cbn; intros H; try reflexivity; destruct H. Qed.

Lemma P_ownr_step ns s a s' es : Inv ns s -> step ns s a = Some (s', es) -> forall n, ownr_ok s' n (g_ns s' n).
Proof.
  intros HI H. leaves HI H t.
  all: intros m; apply ownr_works; intros u Hu.
  all: pose proof (fun m => proj1 (ownr_works _ _ _) (I_ownr _ _ HI m) u) as IR; prj; prj_in Hu.
  all: thr_split u t; try rewrite (quiet_works _ _ Hq); upd_split; subst; cbn [works named] in *.
  (* a state that changed names t and the node t works on now, or nobody *)
  all: try solve [discriminate Hu | exact (IR _ Hu) | reflexivity | injection Hu as ->; congruence].
  (* an unchanged state that names t: t's old program point worked on that node *)
  all: specialize (IR _ Hu); rewrite E in IR; cbn [works] in IR; congruence.
Qed.

Lemma P_own_step ns s a s' es : Inv ns s -> step ns s a = Some (s', es) -> forall u, own_ok s' u (th s' u).
Proof.
  intros HI H u. destruct (Nat.eq_dec u (actor a)) as [->|Hut].
  - eapply P_own_self; eauto.
  - destruct (step_frame _ _ _ _ _ H u Hut) as [-> _]. eapply P_own_other; eauto.
Qed.


