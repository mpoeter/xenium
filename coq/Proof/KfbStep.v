(** kirsch_bounded_kfifo_queue (C06): the transitions of [KfbDefs.step], read off the step function once.
    A step of thread t changes t's program counter and is either a read ([rd]: loads, failed CASes and the
    two returns without effect; the shared state stays) or a write ([wr]: successful CASes, the allocation,
    the ghost updates at a return, the random draws).  Every invariant layer reasons from [step_inv]. *)
From Coq Require Import NArith List Bool Lia PeanoNat.
From XV Require Import Base.Word Conc.Lts Conc.Ev Model.KfbDefs.
Import ListNotations.
Local Open Scope N_scope.

Ltac sim := cbn [set_th set_head set_tail set_slot set_in set_out set_ok draw alloc
                 head tail slot bval nalloc th g_in g_out g_ok g_hist g_nch fst snd] in *.

Lemma iw_eqb_spec a b : reflect (a = b) (iw_eqb a b).
Proof.
  destruct a as [a1 a2], b as [b1 b2]. unfold iw_eqb. cbn [fst snd].
  destruct (N.eqb_spec a1 b1); destruct (N.eqb_spec a2 b2); cbn; constructor; congruence.
Qed.
Lemma sw_eqb_spec a b : reflect (a = b) (sw_eqb a b).
Proof. exact (iw_eqb_spec a b). Qed.

Lemma setf_same {X} (f : N -> X) i v : setf f i v i = v.
Proof. unfold setf. rewrite N.eqb_refl. reflexivity. Qed.
Lemma setf_other {X} (f : N -> X) i v j : j <> i -> setf f i v j = f j.
Proof. unfold setf. intros H. destruct (N.eqb_spec j i); [contradiction|reflexivity]. Qed.

Lemma mem_spec b l : mem b l = true <-> In b l.
Proof.
  unfold mem. rewrite existsb_exists. split.
  - intros (x & Hin & He). apply N.eqb_eq in He. subst. exact Hin.
  - intros H. exists b. split; [exact H|apply N.eqb_refl].
Qed.
Lemma commit_in b l x : In x (commit b l) <-> In x l \/ x = b.
Proof.
  unfold commit. destruct (mem b l) eqn:E.
  - apply mem_spec in E. split; [auto|intros [H| ->]; assumption].
  - rewrite in_app_iff. cbn. intuition.
Qed.
Lemma commit_old b l : In b l -> commit b l = l.
Proof. intros H. unfold commit. apply mem_spec in H. rewrite H. reflexivity. Qed.
Lemma commit_new b l : ~ In b l -> commit b l = l ++ [b].
Proof. intros H. unfold commit. destruct (mem b l) eqn:E; [apply mem_spec in E; contradiction|reflexivity]. Qed.
Lemma NoDup_snoc (l : list N) n : NoDup l -> ~ In n l -> NoDup (l ++ [n]).
Proof. intros Hnd Hni. apply (NoDup_Add (Add_app n l [])). rewrite app_nil_r. auto. Qed.
Lemma commit_nodup b l : NoDup l -> NoDup (commit b l).
Proof. intros H. unfold commit. destruct (mem b l) eqn:E; [exact H|]. apply NoDup_snoc; [exact H|]. rewrite <- mem_spec. congruence. Qed.

Definition tid (a : action) : nat := match a with Start t _ | Step t _ => t end.

Section Step.
  Variables k segs : N.
  Notation step := (step k segs).
  Notation qsize := (qsize k segs).
  Notation adv := (adv k segs).
  Notation fidx := (fidx k segs).
  Notation sidx := (sidx k segs).

  (** [rd s p p' res]: in state s a thread at p moves to p' and leaves the rest of the state alone;
      [res] is the result it returns, if it returns *)
  Inductive rd (s : state) : pc -> pc -> option (list N) -> Prop :=
  | r_start o : rd s Idle (Begin o) None
  | r_pop : rd s (Begin OPop) D1 None
  | r_P1 b : rd s (P1 b) (P2 b (tail s)) None
  | r_PF_hit b tl hd ri i otag : slot s (fidx (fst tl) ri i) = (0, otag) ->
      rd s (PF b tl hd ri i) (P3 b tl (fidx (fst tl) ri i) otag) None
  | r_PF_next b tl hd ri i : fst (slot s (fidx (fst tl) ri i)) <> 0 -> i + 1 < k ->
      rd s (PF b tl hd ri i) (PF b tl hd ri (i + 1)) None
  | r_PF_end b tl hd ri i : fst (slot s (fidx (fst tl) ri i)) <> 0 -> k <= i + 1 ->
      rd s (PF b tl hd ri i) (P3n b tl hd) None
  | r_P3 b tl j otag : tl = tail s -> rd s (P3 b tl j otag) (P4 b tl j otag) None
  | r_P3_retry b tl j otag : tl <> tail s -> rd s (P3 b tl j otag) (P1 b) None
  | r_P3n_ring b tl hd : tl = tail s -> (fst tl + k) mod qsize = fst hd -> rd s (P3n b tl hd) (PQ b tl hd) None
  | r_P3n_room b tl hd : tl = tail s -> (fst tl + k) mod qsize <> fst hd -> rd s (P3n b tl hd) (PT b tl) None
  | r_P3n_retry b tl hd : tl <> tail s -> rd s (P3n b tl hd) (P1 b) None
  | r_P4_fail b tl j otag : slot s j <> (0, otag) -> rd s (P4 b tl j otag) (P1 b) None
  | r_PQ b tl hd : fst hd = fst (head s) -> rd s (PQ b tl hd) (PS b tl hd 0) None
  | r_PQ_moved b tl hd : fst hd <> fst (head s) -> rd s (PQ b tl hd) (PT b tl) None
  | r_PS_hit b tl hd i : fst (slot s (sidx (fst hd) i)) <> 0 -> rd s (PS b tl hd i) (PH b tl hd) None
  | r_PS_next b tl hd i : fst (slot s (sidx (fst hd) i)) = 0 -> i + 1 < k ->
      rd s (PS b tl hd i) (PS b tl hd (i + 1)) None
  | r_PS_end b tl hd i : fst (slot s (sidx (fst hd) i)) = 0 -> k <= i + 1 -> rd s (PS b tl hd i) (PHC b tl hd) None
  | r_PHC_fail b tl hd : head s <> hd -> rd s (PHC b tl hd) (P1 b) None
  | r_PH_full b tl hd : hd = head s -> rd s (PH b tl hd) Idle (Some [0])
  | r_PH_retry b tl hd : hd <> head s -> rd s (PH b tl hd) (P1 b) None
  | r_PT_fail b tl : tail s <> tl -> rd s (PT b tl) (P1 b) None
  | r_C1 b tl j tg : slot s j = (b, tg) -> rd s (C1 b tl j tg) (C2 b tl j tg) None
  | r_C2 b tl j tg : rd s (C2 b tl j tg) (C3 b tl j tg (head s)) None
  | r_C3 b tl j tg hc : rd s (C3 b tl j tg hc) (C4 b tl j tg hc (tail s)) None
  | r_C4_out b tl j tg hc tc : head s = hc -> in_valid_region (fst tl) (fst tc) (fst hc) = false ->
      not_in_valid_region (fst tl) (fst tc) (fst hc) = true -> rd s (C4 b tl j tg hc tc) (C6 b j tg) None
  | r_C4_at_head b tl j tg hc tc : head s = hc -> in_valid_region (fst tl) (fst tc) (fst hc) = false ->
      not_in_valid_region (fst tl) (fst tc) (fst hc) = false -> rd s (C4 b tl j tg hc tc) (C5 b tl j tg hc) None
  | r_C4_retry b tl j tg hc tc : head s <> hc -> rd s (C4 b tl j tg hc tc) (C3 b tl j tg (head s)) None
  | r_C5_fail b tl j tg hc : head s <> hc -> rd s (C5 b tl j tg hc) (C6 b j tg) None
  | r_D1 : rd s D1 (D2 (head s)) None
  | r_DF_hit hd tl ri i p tg : slot s (fidx (fst hd) ri i) = (p, tg) -> p <> 0 ->
      rd s (DF hd tl ri i) (D3 hd tl (fidx (fst hd) ri i) p tg) None
  | r_DF_next hd tl ri i : fst (slot s (fidx (fst hd) ri i)) = 0 -> i + 1 < k ->
      rd s (DF hd tl ri i) (DF hd tl ri (i + 1)) None
  | r_DF_end hd tl ri i : fst (slot s (fidx (fst hd) ri i)) = 0 -> k <= i + 1 -> rd s (DF hd tl ri i) (D3n hd tl) None
  | r_D3_last hd tl j p tg : hd = head s -> fst hd = fst tl -> rd s (D3 hd tl j p tg) (DT hd tl j p tg) None
  | r_D3 hd tl j p tg : hd = head s -> fst hd <> fst tl -> rd s (D3 hd tl j p tg) (D4 hd j p tg) None
  | r_D3_retry hd tl j p tg : hd <> head s -> rd s (D3 hd tl j p tg) D1 None
  | r_D3n_last hd tl : hd = head s -> fst hd = fst tl -> rd s (D3n hd tl) (DE hd tl) None
  | r_D3n hd tl : hd = head s -> fst hd <> fst tl -> rd s (D3n hd tl) (DH hd) None
  | r_D3n_retry hd tl : hd <> head s -> rd s (D3n hd tl) D1 None
  | r_DT_fail hd tl j p tg : tail s <> tl -> rd s (DT hd tl j p tg) (D4 hd j p tg) None
  | r_D4_fail hd j p tg : slot s j <> (p, tg) -> rd s (D4 hd j p tg) D1 None
  | r_DE_empty hd tl : tl = tail s -> rd s (DE hd tl) Idle (Some [2])
  | r_DE_moved hd tl : tl <> tail s -> rd s (DE hd tl) (DH hd) None
  | r_DH_fail hd : head s <> hd -> rd s (DH hd) D1 None.

  (** [wr s r p s1 p' res]: the thread at p moves to p' and the rest of the state becomes that of s1;
      r is the recorded choice *)
  Inductive wr (s : state) (r : N) : pc -> state -> pc -> option (list N) -> Prop :=
  | w_draw_push b tl : wr s r (P2 b tl) (draw s) (PF b tl (head s) (rnd r mod k) 0) None
  | w_draw_pop hd : wr s r (D2 hd) (draw s) (DF hd (tail s) (rnd r mod k) 0) None
  | w_alloc v : wr s r (Begin (OPush v)) (alloc s v) (P1 (nalloc s)) None
  | w_ins b tl j otag : slot s j = (0, otag) ->
      wr s r (P4 b tl j otag) (set_slot s j (b, otag + 1) (HIns b)) (C1 b tl j (otag + 1)) None
  | w_back b j tg : slot s j = (b, tg) -> wr s r (C6 b j tg) (set_slot s j (0, tg + 1) (HBack b)) (P1 b) None
  | w_take hd j p tg : slot s j = (p, tg) ->
      wr s r (D4 hd j p tg)
         (set_out (set_in (set_slot s j (0, tg + 1) (HTake p)) (commit p (g_in s))) (g_out s ++ [p]))
         Idle (Some [1; bval s p])
  | w_PHC b tl hd : head s = hd -> wr s r (PHC b tl hd) (set_head s (adv hd)) (PT b tl) None
  | w_DH hd : head s = hd -> wr s r (DH hd) (set_head s (adv hd)) D1 None
  | w_PT b tl : tail s = tl -> wr s r (PT b tl) (set_tail s (adv tl)) (P1 b) None
  | w_DT hd tl j p tg : tail s = tl -> wr s r (DT hd tl j p tg) (set_tail s (adv tl)) (D4 hd j p tg) None
  | w_C1_gone b tl j tg : slot s j <> (b, tg) -> wr s r (C1 b tl j tg) (set_ok s (g_ok s ++ [b])) Idle (Some [1])
  | w_C6_gone b j tg : slot s j <> (b, tg) -> wr s r (C6 b j tg) (set_ok s (g_ok s ++ [b])) Idle (Some [1])
  | w_C4_valid b tl j tg hc tc : head s = hc -> in_valid_region (fst tl) (fst tc) (fst hc) = true ->
      wr s r (C4 b tl j tg hc tc) (set_ok (set_in s (commit b (g_in s))) (g_ok s ++ [b])) Idle (Some [1])
  | w_C5_bump b tl j tg hc : head s = hc ->
      wr s r (C5 b tl j tg hc) (set_ok (set_in (set_head s (bump hc)) (commit b (g_in s))) (g_ok s ++ [b]))
         Idle (Some [1]).

  (** destruct the conditions of a step *)
  Ltac brk H :=
    repeat match type of H with
    | context [if iw_eqb ?a ?b then _ else _] => destruct (iw_eqb_spec a b)
    | context [if sw_eqb ?a ?b then _ else _] => destruct (sw_eqb_spec a b)
    | context [if negb (?a =? ?b) then _ else _] => destruct (N.eqb_spec a b); cbn [negb] in H
    | context [if ?a =? ?b then _ else _] => destruct (N.eqb_spec a b)
    | context [if ?a <? ?b then _ else _] => destruct (N.ltb_spec a b)
    | context [if in_valid_region ?a ?b ?c then _ else _] => destruct (in_valid_region a b c) eqn:?
    | context [if not_in_valid_region ?a ?b ?c then _ else _] => destruct (not_in_valid_region a b c) eqn:?
    end.

  Lemma step_inv s a s' es : step s a = Some (s', es) ->
    exists r p s1 p' res, th s (tid a) = p /\ s' = set_th s1 (tid a) p' /\ th s1 = th s /\
      (s1 = s /\ rd s p p' res \/ wr s r p s1 p' res) /\
      forall u x, In (ERet u x) es -> u = tid a /\ res = Some x.
  Proof.
    intros Hst. unfold KfbDefs.step in Hst. destruct a as [t o|t r]; cbn [tid].
    - destruct (th s t); try discriminate. injection Hst as <- <-.
      exists 0, Idle, s, (Begin o), None. do 3 (split; [reflexivity|]). split; [left; split; [reflexivity|constructor]|intros u x []].
    - exists r. cbv zeta in Hst.
      destruct (th s t) as [|[v|]|b|b tl|b tl hd ri i|b tl j otag|b tl hd|b tl j otag|b tl hd|b tl hd i|b tl hd|b tl hd|b tl
                            |b tl j tg|b tl j tg|b tl j tg hc|b tl j tg hc tc|b tl j tg hc|b j tg
                            | |hd|hd tl ri i|hd tl j p tg|hd tl|hd tl j p tg|hd j p tg|hd tl|hd];
        try discriminate;
        try match type of Hst with context [fst (slot s (fidx ?x ri i))] =>
              destruct (slot s (fidx x ri i)) as [p0 tg0] eqn:Ew; cbn [fst snd] in Hst end;
        brk Hst; injection Hst as <- <-; subst; eexists _, _, _, _; do 3 (split; [reflexivity|]);
        (split; [first [left; split; [reflexivity|]; econstructor; solve [eauto | rewrite Ew; auto]
                       | right; econstructor; solve [eauto]]|]);
        cbn [app In]; intros u x Hin; decompose [or] Hin; try discriminate; try contradiction;
        match goal with H : ERet _ _ = ERet _ _ |- _ => injection H as <- <-; split; reflexivity end.
  Qed.

  Lemma step_enabled s t r : th s t <> Idle -> exists s' es, step s (Step t r) = Some (s', es).
  Proof.
    intros Hni. unfold KfbDefs.step. cbv zeta.
    destruct (th s t) as [|[|]| | | | | | | | | | | | | | | | | | | | | | | | | |]; [contradiction|..];
      repeat match goal with |- context [if ?c then _ else _] => destruct c end; eexists _, _; reflexivity.
  Qed.
End Step.
