(** C16 for xenium::chase_work_stealing_deque: try_push, try_pop and try_steal finish within an
    explicit number of solo steps from EVERY reachable state, for both array policies.
    All three operations are loop free except for [grow] (Growing policy), which copies the
    [grow_moves] list computed when the new bucket is allocated: at most [capacity + 1] pairs of
    (load, store).  No axioms, no admits. *)
From Coq Require Import NArith List Bool Lia PeanoNat.
From XV Require Import Base.Word Conc.Lts Conc.Ev Conc.Solo gen.GrowingArrayGen Model.ChaseDefs Proof.ChaseStep.
Import ListNotations.
Local Open Scope N_scope.

Definition idle (s : state) (t : nat) : bool := match th s t with Idle => true | _ => false end.

(** remaining solo steps (upper bound) of a thread at program point [p]; [g] = growing policy,
    [capn] = current capacity *)
Definition pc_mu (g : bool) (capn : nat) (p : pc) : nat :=
  match p with
  | Idle => 0
  | Begin (OPush _) => if g then 12 + 2 * capn else 5
  | Pu1 _ => if g then 11 + 2 * capn else 4
  | Pu2 _ _ => if g then 10 + 2 * capn else 3
  | Pu3 _ _ _ => 9 + 2 * capn
  | PuCanGrow _ _ _ => 8 + 2 * capn
  | PuGrow0 _ _ _ => 7 + 2 * capn
  | PuGrowLd _ _ _ todo => 2 * length todo + 4
  | PuGrowSt _ _ _ _ todo => 2 * length todo + 3
  | PuGrowEnd _ _ _ => 4
  | Pu4 _ _ => 3
  | Pu5 _ _ _ => 2
  | Pu6 _ _ => 1
  | Begin OPop => if g then 9 else 8
  | Po1 => if g then 8 else 7
  | Po2 _ => if g then 7 else 6
  | Po3 _ => if g then 6 else 5
  | Po4 _ => 5
  | Po5 _ _ => 4
  | Po6 _ _ => 3
  | Po7 _ _ _ => 2
  | Po8 _ _ => 1
  | Begin OSteal => if g then 6 else 5
  | St1 => if g then 5 else 4
  | St2 _ => if g then 4 else 3
  | St3 _ => 3
  | St4 _ _ => 2
  | St5 _ _ => 1
  end%nat.

Definition chase_bound (pol : policy) (s : state) (t : nat) : nat :=
  pc_mu (is_growing pol) (N.to_nat (capacity (sh s))) (th s t).

Lemma grow_moves_from_len fuel i bot m nm : (length (grow_moves_from fuel i bot m nm) <= fuel)%nat.
Proof.
  revert i. induction fuel as [|f IH]; intros i; cbn [grow_moves_from]; [cbn; lia|].
  destruct (i <? bot); [|cbn; lia].
  destruct (negb (N.land i m =? N.land i nm)); [|cbn; lia].
  cbn [length]. specialize (IH (wadd 64 i 1)). lia.
Qed.

Lemma grow_moves_len c b t : (length (grow_moves c b t) <= S (N.to_nat c))%nat.
Proof. unfold grow_moves. apply grow_moves_from_len. Qed.

Section Chase.
  Variable pol : policy.

  (** [step] refuses a thread only at [Idle] and on an empty copy list *)
  Lemma chase_enabled s t :
    idle s t = false -> grow_ok (th s t) -> exists s' es, step pol s (Step t) = Some (s', es).
  Proof.
    unfold idle. intros Hi Hg. cbn [step].
    destruct (th s t) eqn:E; try discriminate Hi; cbn [grow_ok] in Hg;
      repeat match goal with
      | |- context [let '(_, _) := opcode ?o in _] => destruct o; cbn [opcode]
      | |- context [match grow_moves ?c ?b ?tp with _ => _ end] => destruct (grow_moves c b tp)
      | |- context [match ?l with [] => _ | _ => _ end] => destruct l as [|[? ?] ?]
      | |- context [if ?c then _ else _] => destruct c
      end; try contradiction; eexists _, _; reflexivity.
  Qed.

  (** every step decreases the measure; at [PuGrow0] because the freshly computed copy list has
      at most [capacity + 1] entries *)
  Lemma chase_step_decr s t s' es :
    step pol s (Step t) = Some (s', es) -> (chase_bound pol s' t < chase_bound pol s t)%nat.
  Proof.
    intros Hst. unfold chase_bound.
    step_cases Hst s t E; cbn [th sh]; rewrite upd_same;
      cbn [pc_mu capacity set_top set_bottom set_cap set_buckets set_mem length];
      try match goal with H : grow_moves ?c ?b ?tp = _ |- _ =>
            pose proof (grow_moves_len c b tp) as Hl; rewrite H in Hl; cbn [length] in Hl end;
      destruct (is_growing pol); lia.
  Qed.

  Lemma chase_solo_step s t :
    reach (init pol) (step pol) s -> idle s t = false ->
    exists s' es, step pol s (Step t) = Some (s', es) /\ reach (init pol) (step pol) s' /\
                  (chase_bound pol s' t < chase_bound pol s t)%nat.
  Proof.
    intros Hr Hi. destruct (chase_enabled s t Hi (chase_grow_ok pol s Hr t)) as (s' & es & Hst).
    exists s', es. split; [exact Hst|]. split; [eapply reach_step; eauto|].
    eapply chase_step_decr; exact Hst.
  Qed.

  Theorem chase_solo s t :
    reach (init pol) (step pol) s ->
    finishes_within (step pol) Step idle t (chase_bound pol s t) s.
  Proof.
    intros Hr.
    apply (finishes_by_measure _ _ _ (step pol) Step idle (reach (init pol) (step pol)) (fun s => chase_bound pol s t) t);
      [|exact Hr].
    intros s0 Hr0 Hi0. exact (chase_solo_step s0 t Hr0 Hi0).
  Qed.

  Theorem chase_never_stuck s t :
    reach (init pol) (step pol) s -> never_stuck (step pol) Step idle t s.
  Proof. intros Hr. eapply finishes_never_stuck. apply chase_solo. exact Hr. Qed.

  (** a thread about to start: after [Start t o] it finishes within the bound for [Begin o] *)
  Theorem chase_solo_start s t o s' es :
    reach (init pol) (step pol) s -> step pol s (Start t o) = Some (s', es) ->
    finishes_within (step pol) Step idle t
      (pc_mu (is_growing pol) (N.to_nat (capacity (sh s))) (Begin o)) s'.
  Proof.
    intros Hr Hst. assert (Hr' : reach (init pol) (step pol) s') by (eapply reach_step; eauto).
    pose proof (chase_solo s' t Hr') as H. unfold chase_bound in H.
    apply step_start in Hst. destruct Hst as (_ & _ & ->).
    cbn [th sh] in H. rewrite upd_same in H. exact H.
  Qed.
End Chase.

(** * Fixed policy: the bound is a constant: try_push 5, try_steal 5, try_pop 8 (counted from [Begin o], the
    step that leaves [Begin o] included; the [Start] action is not a solo step) *)
Definition fixed_op_bound (p : pc) : nat :=
  match p with
  | Idle => 0
  | Begin (OPush _) | Pu1 _ | Pu2 _ _ | Pu5 _ _ _ | Pu6 _ _ => 5
  | Begin OSteal | St1 | St2 _ | St4 _ _ | St5 _ _ => 5
  | _ => 8
  end.

Theorem chase_fixed_solo c s t :
  reach (init (Fixed c)) (step (Fixed c)) s ->
  finishes_within (step (Fixed c)) Step idle t (fixed_op_bound (th s t)) s.
Proof.
  intros Hr. eapply finishes_within_mono; [|apply chase_solo; exact Hr].
  unfold chase_bound. cbn [is_growing]. pose proof (chase_fixed_no_grow_pc c s Hr t) as Hg.
  destruct (th s t); try destruct o; cbn [pc_mu fixed_op_bound grow_pc] in *; try discriminate; lia.
Qed.

Corollary chase_fixed_solo_8 c s t :
  reach (init (Fixed c)) (step (Fixed c)) s ->
  finishes_within (step (Fixed c)) Step idle t 8 s.
Proof.
  intros Hr. eapply finishes_within_mono; [|apply chase_fixed_solo; exact Hr].
  destruct (th s t); try destruct o; cbn [fixed_op_bound]; lia.
Qed.

(** * Growing policy: [12 + 2 * capacity] for try_push (grow copies at most capacity + 1 items with
    one load and one store each), 9 for try_pop, 6 for try_steal *)
Definition growing_op_bound (capn : nat) (p : pc) : nat :=
  match p with
  | Idle => 0
  | Begin OPop | Po1 | Po2 _ | Po3 _ | Po4 _ | Po5 _ _ | Po6 _ _ | Po7 _ _ _ | Po8 _ _ => 9
  | Begin OSteal | St1 | St2 _ | St3 _ | St4 _ _ | St5 _ _ => 6
  | PuGrowLd _ _ _ todo | PuGrowSt _ _ _ _ todo => 2 * length todo + 4
  | _ => 12 + 2 * capn
  end.

Theorem chase_growing_solo mn mx s t :
  reach (init (Growing mn mx)) (step (Growing mn mx)) s ->
  finishes_within (step (Growing mn mx)) Step idle t
    (growing_op_bound (N.to_nat (capacity (sh s))) (th s t)) s.
Proof.
  intros Hr. eapply finishes_within_mono; [|apply chase_solo; exact Hr].
  unfold chase_bound. cbn [is_growing].
  destruct (th s t); try destruct o; cbn [pc_mu growing_op_bound]; lia.
Qed.

(** * Growing policy, bound in terms of the configuration only

    With [mincap = 2^a <= maxcap = 2^b] (b <= 62) the capacity is always a power of two between the
    two, only the owner is ever inside try_push / try_pop, and an unfinished grow copies at most
    [capacity + 1] entries: every operation finishes within [12 + 2 * maxcap] solo steps. *)
Definition grow_c (capn mx : N) (p : pc) : Prop :=
  match p with
  | PuGrow0 _ _ _ => capn < mx
  | PuGrowLd _ _ c todo | PuGrowSt _ _ c _ todo => c = capn /\ c < mx /\ (length todo <= S (N.to_nat c))%nat
  | PuGrowEnd _ _ c => c = capn /\ c < mx
  | _ => True
  end.

Section GrowCap.
  Variables a b : N.
  Hypothesis Hab : a <= b.
  Hypothesis Hb : b <= 62.
  Let mn := 2 ^ a.
  Let mx := 2 ^ b.
  Let pol := Growing mn mx.

  Record KG (s : state) : Prop := mkKG {
    kg_cap : exists j, a <= j /\ j <= b /\ capacity (sh s) = 2 ^ j;
    kg_grow : grow_c (capacity (sh s)) mx (th s owner)
  }.

  Lemma wmul_pow2 j : j < b -> wmul 64 (2 ^ j) 2 = 2 ^ (j + 1).
  Proof.
    intros Hj. unfold wmul. rewrite N.pow_add_r, N.pow_1_r. apply N.mod_small.
    replace (2 ^ j * 2) with (2 ^ (j + 1)) by (rewrite N.pow_add_r, N.pow_1_r; reflexivity).
    apply N.pow_lt_mono_r; lia.
  Qed.

  Lemma KG_reach s : reach (init pol) (step pol) s -> KG s.
  Proof.
    apply (inv_rule_aux _ _ _ (init pol) (step pol) _ KG (chase_steal_pc pol)).
    - split; [|exact I]. exists a. repeat split; [lia|exact Hab].
    - intros st act st' es Hsteal _ [Hcap Hgrow] Hst. destruct act as [t o|t].
      + apply step_start in Hst. destruct Hst as (_ & _ & ->). split; cbn [th sh]; [exact Hcap|].
        unfold upd. destruct (owner =? t)%nat; [exact I|exact Hgrow].
      + destruct (Nat.eq_dec t owner) as [->|Hne].
        * (* the owner moves *)
          unfold pol in Hst.
          step_cases Hst st owner E; cbn [grow_c] in Hgrow;
            (split; cbn [th sh capacity set_top set_bottom set_cap set_buckets set_mem];
             [ try exact Hcap | rewrite upd_same; cbn [grow_c]; try exact I ]).
          -- (* PuCanGrow -> PuGrow0 *) apply N.ltb_lt. assumption.
          -- (* PuGrow0 -> PuGrowEnd *) split; [reflexivity|exact Hgrow].
          -- (* PuGrow0 -> PuGrowLd *) split; [reflexivity|]. split; [exact Hgrow|].
             match goal with H : grow_moves _ _ _ = _ |- _ => rewrite <- H end. apply grow_moves_len.
          -- (* PuGrowLd -> PuGrowSt *) exact Hgrow.
          -- (* PuGrowSt -> PuGrowEnd *) destruct Hgrow as (? & ? & ?). split; assumption.
          -- (* PuGrowSt -> PuGrowLd *) destruct Hgrow as (? & ? & Hl). split; [assumption|]. split; [assumption|].
             cbn [length] in Hl |- *. lia.
          -- (* PuGrowEnd: capacity doubles *)
             destruct Hgrow as [-> Hlt]. destruct Hcap as (j & Ha & Hjb & Hj). rewrite Hj in *.
             assert (j < b) by (apply (N.pow_lt_mono_r_iff 2); [lia|exact Hlt]).
             exists (j + 1). rewrite wmul_pow2 by assumption. repeat split; lia.
        * (* a thief moves: neither the capacity nor the owner's program counter changes *)
          specialize (Hsteal t Hne).
          assert (Hc : capacity (sh st') = capacity (sh st)).
          { rewrite (proj1 (proj2 (step_frame _ _ _ _ _ Hst))). destruct (th st t); try discriminate Hsteal; reflexivity. }
          split; rewrite Hc; [exact Hcap|].
          rewrite (step_th_other _ _ _ _ _ owner Hst); [exact Hgrow|]. intros X. apply Hne. symmetry. exact X.
  Qed.

  Theorem chase_growing_solo_max s t :
    reach (init pol) (step pol) s ->
    finishes_within (step pol) Step idle t (12 + 2 * N.to_nat mx) s.
  Proof.
    intros Hr. eapply finishes_within_mono; [|apply chase_solo; exact Hr].
    destruct (KG_reach s Hr) as [Hcap Hgrow].
    assert (Hle : capacity (sh s) <= mx).
    { destruct Hcap as (j & _ & Hjb & ->). apply N.pow_le_mono_r; lia. }
    unfold chase_bound. cbn [is_growing pol].
    destruct (Nat.eq_dec t owner) as [->|Hne].
    - destruct (th s owner); try destruct o;
        cbn [pc_mu grow_c] in *; try lia.
    - pose proof (chase_steal_pc pol s Hr t Hne) as Hown.
      destruct (th s t); try destruct o;
        cbn [pc_mu] in *; try discriminate; lia.
  Qed.
End GrowCap.
