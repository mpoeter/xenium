(** Node-level invariants of the lock-free reference counting model (Model/LfrcDefs.v): one step preserves
    [I_alloc] (allocated = has a life cycle state), [I_new] / [I_held] (which states have references), [I_cell] / [I_guard]
    (a cell or a validated client guard refers to a published node only), [I_popg] (a validated guard of free_list::pop
    keeps its node away from the claimed state), [I_alive] (object alive / destroyed flag per state), [I_cnt]
    (constructor / destructor / push / pop counters) and [I_uaf] (no dereference of a destroyed object).  No axioms. *)
From Coq Require Import NArith List Bool Arith Lia PeanoNat.
From XV Require Import Conc.Lts Conc.Ev Model.LfrcDefs Proof.LfrcBase Proof.LfrcStep Proof.LfrcRefs.
Import ListNotations.

Lemma one_ref (L : list ref) a b : NoDup L -> length L = 1 -> In a L -> In b L -> a = b.
Proof.
  destruct L as [|x [|y L]]; cbn; intros ND HL Ha Hb; try discriminate.
  destruct Ha as [<-|[]], Hb as [<-|[]]. reflexivity.
Qed.

(** the decrement that moves the count to zero releases the only reference *)
Lemma claim_facts ns s n r0 : Inv ns s -> rc s n = 2 -> holds s r0 n ->
  g_refs s n = [r0] /\ cbit (g_ns s n) = 0 /\ forall r, holds s r n -> r = r0.
Proof.
  intros HI Hrc Hh. destruct (I_refs _ _ HI n) as (ND & IN & RC).
  apply IN in Hh. pose proof (cbit_01 (g_ns s n)) as Hc.
  assert (HL : length (g_refs s n) = 1).
  { destruct (g_refs s n) as [|x [|y L]]; cbn [length] in *; [destruct Hh|reflexivity|lia]. }
  split; [|split; [lia|]].
  - destruct (g_refs s n) as [|x [|y L]]; cbn [length] in HL; try discriminate. destruct Hh as [->|[]]. reflexivity.
  - intros r Hr. apply IN in Hr. eapply one_ref; eauto.
Qed.
Lemma noclaim_facts ns s n r0 : Inv ns s -> rc s n <> 2 -> holds s r0 n ->
  cbit (g_ns s n) = 1 \/ 2 <= length (g_refs s n).
Proof.
  intros HI Hrc Hh. destruct (I_refs _ _ HI n) as (ND & IN & RC).
  apply IN in Hh. pose proof (cbit_01 (g_ns s n)) as Hc.
  destruct (g_refs s n) as [|x [|y L]]; cbn [length] in *; [destruct Hh| |right; lia]. left. lia.
Qed.
Lemma held_not_new ns s n r0 : Inv ns s -> holds s r0 n -> ~ is_new (g_ns s n).
Proof.
  intros HI Hh Hn. apply (I_new _ _ HI) in Hn. apply (I_refs _ _ HI n) in Hh. rewrite Hn in Hh. destruct Hh.
Qed.

Ltac prep :=
  repeat match goal with H : _ /\ _ |- _ => destruct H end; subst; cbn [guard_of src] in *; try discriminate.

Ltac node_facts HI :=
  try match goal with Hx : fhead _ = Some _ |- _ => pose proof (fhead_free _ _ _ HI Hx) end;
  try match goal with E : th ?s ?t = D2 ?w ?n _ _ |- _ =>
        let X := fresh "Hcl" in
        assert (X : holds s (who_ref t w) n) by (cbn [who_ref holds]; rewrite ?E; on; first [assumption | reflexivity | intuition congruence]);
        pose proof (held_not_new _ _ _ _ HI X);
        try match goal with E1 : rc s n = 2 |- _ => pose proof (claim_facts _ _ _ _ HI E1 X) end;
        try match goal with E1 : rc s n <> 2 |- _ => pose proof (noclaim_facts _ _ _ _ HI E1 X) end
      end.

(* The cases of a step [H], as [LfrcStep.leaves] gives them ([E] the program point of t, [Eread] the pointer found,
   [Hs] its shape, [Hg] where its unvalidated guards are, [Hp] its pop guards, [Ho : own_ok s t (th s t)], [Hq] for a
   continuation), with [Hna]: block [nalloc s] is not allocated yet, and for a release (D2) [Hcl]: the released
   reference is held, and what [claim_facts] / [noclaim_facts] say of it. *)
Ltac cases HI H t :=
  leaves HI H t;
  match type of HI with Inv _ ?s => assert (Hna : g_ns s (nalloc s) = NNone) by (apply (I_alloc _ _ HI); lia) end;
  prep; node_facts HI.

Ltac new_contra := 
  match goal with Hn : ~ is_new (g_ns ?s ?n), Hx : g_ns ?s ?n = NNone |- _ => exfalso; apply Hn; rewrite Hx; exact I end.

Lemma P_alloc_step ns s a s' es : Inv ns s -> step ns s a = Some (s', es) ->
  forall n, nalloc s' <= n <-> g_ns s' n = NNone.
Proof.
  intros HI H. cases HI H t.
  all: intros m; destruct (I_alloc _ _ HI m) as [IA1 IA2]; prj.
  all: upd_split; subst; try solve [split; assumption].
  all: (split; [intros Hle | intros Hx]); try discriminate; try lia.
  all: try solve [apply IA1; lia].
  all: try solve [pose proof (IA2 Hx); lia].
  all: try solve [exfalso; assert (Hz := IA1 ltac:(lia)); first [congruence | new_contra]].
Qed.

Ltac ns_rw := repeat match goal with Hx : g_ns _ _ = _ |- _ => rewrite Hx in * end.

Lemma P_new_step ns s a s' es : Inv ns s -> step ns s a = Some (s', es) ->
  forall n, is_new (g_ns s' n) -> g_refs s' n = [].
Proof.
  intros HI H. cases HI H t.
  all: intros m Hn; pose proof (I_new _ _ HI m) as IN0; prj; prj_in Hn.
  all: try solve [exact (IN0 Hn)].
  all: upd_split; subst; on_in Hn; try contradiction.
  all: try solve [exact (IN0 Hn)].
  all: try solve [apply IN0; rewrite Hna; exact I].
  all: try solve [exfalso; ns_rw; on_in Hn; tauto].
  all: solve [rewrite (IN0 Hn); reflexivity].
Qed.

Lemma delr_nonempty r0 r1 L : In r1 L -> r1 <> r0 -> delr r0 L <> [].
Proof. intros HI Hn E. assert (X : In r1 (delr r0 L)) by (apply delr_in; split; assumption). rewrite E in X. destruct X. Qed.
Lemma delr_nonempty2 r0 L : NoDup L -> In r0 L -> 2 <= length L -> delr r0 L <> [].
Proof. intros ND HI HL E. pose proof (delr_len r0 L ND HI) as X. rewrite E in X. cbn in X. lia. Qed.
Lemma repr_nonempty r0 r1 L : L <> [] -> repr r0 r1 L <> [].
Proof. destruct L; [congruence|]. intros _. discriminate. Qed.

Lemma held_nonempty ns s n r0 : Inv ns s -> holds s r0 n -> g_refs s n <> [].
Proof. intros HI Hh E. apply (I_refs _ _ HI n) in Hh. rewrite E in Hh. destruct Hh. Qed.
Lemma has_ref_cbit x : has_ref x -> cbit x = 0.
Proof. destruct x; cbn; intros; try contradiction; reflexivity. Qed.

Ltac holds_now E := cbn [holds who_ref]; rewrite ?E; on;
  repeat match goal with Hx : gd _ _ = _ |- _ => rewrite Hx end; cbn [gnode];
  first [assumption | reflexivity | intuition congruence].

Lemma P_held_step ns s a s' es : Inv ns s -> step ns s a = Some (s', es) ->
  forall n, has_ref (g_ns s' n) -> g_refs s' n <> [].
Proof.
  intros HI H. cases HI H t.
  all: intros m Hn; pose proof (I_held _ _ HI m) as IN0; prj; prj_in Hn.
  all: try solve [exact (IN0 Hn)].
  all: upd_split; subst; on_in Hn; try contradiction.
  all: try solve [exact (IN0 Hn)].
  all: try solve [discriminate].
  all: try solve [apply IN0; ns_rw; exact I].
  all: change (filter (fun x => negb (ref_eqb x ?r0)) ?L) with (delr r0 L);
       change (map (fun x => if ref_eqb x ?r0 then ?r1 else x) ?L) with (repr r0 r1 L).
  (* a release that does not claim leaves a reference behind *)
  all: try solve [match goal with Hcl : holds _ ?r0 ?n, Hc : cbit _ = 1 \/ _ |- delr ?r0 _ <> [] =>
         apply delr_nonempty2; [apply (I_refs _ _ HI) | apply (I_refs _ _ HI); exact Hcl
         | destruct Hc as [Hc|Hc]; [rewrite (has_ref_cbit _ Hn) in Hc; discriminate | exact Hc]] end].
  all: try solve [apply repr_nonempty; first [exact (IN0 Hn) | apply IN0; ns_rw; exact I | eapply held_nonempty; [exact HI|]; holds_now E]].
  all: try solve [match goal with Hx : gd (tl ?s ?t) ?g = GV ?p |- g_refs ?s ?p <> [] =>
         apply (held_nonempty _ _ _ (RG t g) HI); cbn [holds]; rewrite Hx; reflexivity end].
  all: try solve [match goal with E0 : cells _ _ = Some _ |- _ => pose proof (I_cell _ _ HI _ _ E0); congruence end].
  all: try solve [match goal with Hx : gd (tl ?s ?t) ?g = GV ?p |- delr _ (g_refs ?s ?p) <> [] =>
         apply (delr_nonempty _ (RG t g)); [apply (I_refs _ _ HI); cbn [holds]; rewrite Hx; reflexivity | discriminate] end].
Qed.

(* the only reference of a claimed node was the released one *)
Ltac claim_contra E :=
  match goal with Hcf : _ /\ _ /\ (forall r, holds ?s r ?n -> r = _) |- _ =>
    destruct Hcf as (_ & _ & Hcf);
    match goal with
    | Hx : cells s ?c = Some n |- _ => specialize (Hcf (RCell c) Hx); discriminate Hcf
    | Hx : gd (tl s ?u) ?g = GV n |- _ =>
      let X := fresh in assert (X : holds s (RG u g) n) by (cbn [holds]; rewrite Hx; reflexivity);
      specialize (Hcf _ X); cbn [who_ref] in Hcf; congruence
    end
  end.

Lemma P_cell_step ns s a s' es : Inv ns s -> step ns s a = Some (s', es) ->
  forall c n, cells s' c = Some n -> g_ns s' n = NPub.
Proof.
  intros HI H. cases HI H t.
  all: intros cx m Hc; pose proof (I_cell _ _ HI cx m) as J; prj; prj_in Hc.
  all: try solve [exact (J Hc)].
  all: upd_split; subst; try discriminate.
  all: try solve [exact (J Hc)].
  all: try solve [specialize (J Hc); congruence].
  all: try solve [exfalso; claim_contra E].
  all: solve [reflexivity | congruence].
Qed.

Lemma P_guard_step ns s a s' es : Inv ns s -> step ns s a = Some (s', es) ->
  forall u g n, gd (tl s' u) g = GV n -> g <= ns -> g_ns s' n = NPub.
Proof.
  intros HI H. cases HI H t.
  all: intros u g1 m Hc Hle; pose proof (I_guard _ _ HI u g1 m) as J; prj; prj_in Hc.
  all: try solve [exact (J Hc Hle)].
  all: try (destruct (Nat.eq_dec u t) as [->|Hut]; [rewrite ?upd_same in Hc | rewrite ?upd_other in Hc by exact Hut]; cbn [gd] in Hc).
  all: try solve [exact (J Hc Hle)].
  all: upd_split; subst; try discriminate; try (injection Hc as ->).
  all: try solve [exact (J Hc Hle)].
  all: try solve [specialize (J Hc Hle); congruence].
  all: try solve [exfalso; claim_contra E].
  (* validation against a cell: the cell holds a reference / against the free list head: not a client guard *)
  all: destruct k; cbn [src guard_of ctx_sh] in *.
  all: try solve [cbn [src] in Eread; exact (I_cell _ _ HI _ _ Eread)].
  all: try solve [exfalso; match goal with Hpg : popg _ _ |- _ => destruct Hpg; subst; lia end].
  all: try solve [match goal with Hx : g_ns _ _ = NNone |- _ => rewrite (I_cell _ _ HI _ _ Eread) in Hx; discriminate end].
Qed.

Lemma P_popg_step ns s a s' es : Inv ns s -> step ns s a = Some (s', es) ->
  forall u g n, gd (tl s' u) g = GV n -> ns < g -> ~ bad_q (g_ns s' n).
Proof.
  intros HI H. cases HI H t.
  all: intros u g1 m Hc Hle; pose proof (I_popg _ _ HI u g1 m) as J; prj; prj_in Hc.
  all: try solve [exact (J Hc Hle)].
  all: try (destruct (Nat.eq_dec u t) as [->|Hut]; [rewrite ?upd_same in Hc | rewrite ?upd_other in Hc by exact Hut]; cbn [gd] in Hc).
  all: try solve [exact (J Hc Hle)].
  all: upd_split; subst; try discriminate; try (injection Hc as ->).
  all: try solve [exact (J Hc Hle)].
  all: try solve [exfalso; claim_contra E].
  all: try solve [ns_rw; on; tauto].
  (* validation against the free list's head: the node is free *)
  all: destruct k; cbn [src guard_of ctx_sh] in *; try solve [exfalso; lia].
  all: rewrite ?(fhead_free _ _ _ HI Eread) in *; on; solve [tauto | discriminate].
Qed.

(** only a constructed node can be claimed *)
Lemma claim_state ns s t w n old k : Inv ns s -> th s t = D2 w n old k -> rc s n = 2 ->
  (exists u, g_ns s n = NFresh u) \/ g_ns s n = NPub \/ g_ns s n = NDel.
Proof.
  intros HI E Hrc.
  assert (Hh : holds s (who_ref t w) n).
  { pose proof (I_sh _ _ HI t) as (Hs & _). rewrite E in Hs. destruct w; cbn [who_ref holds tshape] in *; [tauto|rewrite E; reflexivity]. }
  destruct (claim_facts _ _ _ _ HI Hrc Hh) as (_ & Hc & Hall).
  pose proof (held_not_new _ _ _ _ HI Hh) as Hnn.
  pose proof (I_ownr _ _ HI n) as Hr.
  destruct (g_ns s n) eqn:En; cbn in Hc, Hnn, Hr; try discriminate; try tauto; try (left; eexists; reflexivity).
  exfalso. destruct Hr as [(c & g & Eu)|(c & i & Eu)].
  - pose proof (I_sh _ _ HI t0) as (Hs & _). rewrite Eu in Hs. cbn in Hs. destruct Hs as (_ & Hs & _).
    assert (X : holds s (RG t0 g) n) by (cbn; rewrite Hs; reflexivity).
    apply Hall in X. destruct w; cbn in X; [|discriminate]. injection X as -> ->. congruence.
  - assert (X : holds s (ROwn t0) n) by (cbn; rewrite Eu; reflexivity).
    apply Hall in X. destruct w; cbn in X; [discriminate|]. injection X as ->. congruence.
Qed.

Lemma P_alive_step ns s a s' es : Inv ns s -> step ns s a = Some (s', es) ->
  forall n, alive_ok (g_ns s' n) (g_alive s' n) (dst s' n).
Proof.
  intros HI H. cases HI H t.
  all: try match goal with E : th _ _ = D2 _ _ _ _, E1 : rc _ _ = 2 |- _ => pose proof (claim_state _ _ _ _ _ _ _ HI E E1) as Hcs end.
  all: intros m; pose proof (I_alive _ _ HI m) as IA; prj.
  all: try solve [exact IA].
  all: upd_split; subst; try solve [exact IA].
  all: try solve [ns_rw; on_in IA; on; intuition congruence].
  all: try solve [destruct Hcs as [[? Hcs]|[Hcs|Hcs]]; rewrite Hcs in IA; on_in IA; on; destruct IA as [-> ->]; reflexivity].
Qed.

Lemma P_cnt_step ns s a s' es : Inv ns s -> step ns s a = Some (s', es) ->
  forall n, g_nd s' n + b2n (g_alive s' n) = g_inc s' n /\
            g_npush s' n + live4 (g_ns s' n) = g_inc s' n /\
            g_npop s' n + live4 (g_ns s' n) + isfree (g_ns s' n) = g_inc s' n.
Proof.
  intros HI H. cases HI H t.
  all: try match goal with E : th _ _ = D2 _ _ _ _, E1 : rc _ _ = 2 |- _ => pose proof (claim_state _ _ _ _ _ _ _ HI E E1) as Hcs end.
  all: intros m; pose proof (I_cnt _ _ HI m) as IC; pose proof (I_alive _ _ HI m) as IA; prj.
  all: try solve [exact IC].
  all: upd_split; subst; try solve [exact IC].
  all: try solve [congruence].
  all: try solve [ns_rw; on_in IA; on_in IC; on; repeat match goal with Hx : g_alive _ _ = _ |- _ => rewrite Hx in * end;
                  repeat match goal with Hx : _ /\ _ |- _ => destruct Hx end;
                  repeat match goal with Hx : g_alive _ _ = _ |- _ => rewrite Hx in * end; cbn [b2n] in *; lia].
  all: try solve [destruct Hcs as [[? Hcs]|[Hcs|Hcs]]; rewrite Hcs in *; on_in IC; on; lia].
Qed.

Lemma pub_alive ns s n : Inv ns s -> g_ns s n = NPub -> g_alive s n = true.
Proof. intros HI H. pose proof (I_alive _ _ HI n) as IA. rewrite H in IA. cbn in IA. tauto. Qed.

Lemma P_uaf_step ns s a s' es : Inv ns s -> step ns s a = Some (s', es) -> g_uaf s' = false.
Proof.
  intros HI H.
  assert (A : forall n, g_ns s n = NPub -> g_uaf s || negb (g_alive s n) = false)
    by (intros n Hn; rewrite (I_uaf _ _ HI), (pub_alive _ _ _ HI Hn); reflexivity).
  destruct a as [t o|t]; pose proof (I_sh _ _ HI t) as (Hs & Hg & _).
  all: unfold step, acq_done, rk_go, pop_moved, exit_next, finish, deref_g in H; cbv beta iota zeta in H.
  all: destruct (th s t) eqn:E; try discriminate H; try set (mo := if _ =? 1 then mo_acqrel else mo_rel) in H; step_split H.
  all: prj; try exact (I_uaf _ _ HI).
  (* a dereferenced node was found in a cell (A3, R1) or is held by a validated client guard *)
  all: bool_eqs; fn_in Hs; prj_hyps; rewrite ?upd_same in *; prj_hyps; rewrite ?upd_same in *; cbn [guard_of src gnode] in *; apply A;
    try match goal with Hx : cells _ _ = _ |- _ => rename Hx into Eread end.
  all: match goal with
       | Hx : Some _ = Some _ |- _ => injection Hx as <-; exact (I_cell _ _ HI _ _ Eread)
       | Hx : gnode ?x = Some _ |- _ =>
         destruct x eqn:Eg; cbn [gnode] in *; [discriminate Hx | destruct (Hg _ _ Eg) | injection Hx as ->]
       end.
  all: first [exact (I_cell _ _ HI _ _ Eread) | apply (I_guard _ _ HI _ _ _ Eg), Nat.lt_le_incl, Nat.ltb_lt, Hs | exfalso; intuition congruence].
Qed.

(** a Start action changes the program counter of its thread only *)
Lemma start_eq ns s t o s' es : step ns s (Start t o) = Some (s', es) -> exists p, s' = set_pc t p s /\ th s t = Idle /\ owned p = None.
Proof. intros H. unfold step in H. step_split H; eexists; split; try reflexivity; split; try assumption; reflexivity. Qed.
