(** Layer V / E of the hazard eras model (Model/HeDefs.v):
    [InvV]: the ghost [gv] of a guard is false only while the guard's own hazard era is being re-used for a new era
    (the guard then still has its hazard era);
    [InvE]: era_clock dominates every construction era and is larger than every retirement era; a node whose
    address an acquire has loaded was reachable then: if it is retired, its retirement era is not smaller than the era
    the guard has published ([prev_era]). *)
From Coq Require Import NArith List Bool Arith Lia PeanoNat.
From XV Require Import Conc.Lts Conc.Ev Model.HeDefs Proof.HeBase Proof.HeGuards Proof.HeNodes.
Import ListNotations.
Set Warnings "-cannot-remove-as-expected".

(** the node is or was reachable from a cell (published, unlinked or retired): not unallocated, not still private to
    its creator, not deleted by its creator after a lost CAS *)
Definition good (l : life) : Prop := l <> LNone /\ (forall u, l <> LFresh u) /\ l <> LDropped.

Lemma good_pub c : good (LPub c). Proof. repeat split; intros; discriminate. Qed.
Lemma good_unl t : good (LUnl t). Proof. repeat split; intros; discriminate. Qed.
Lemma good_ret t : good (LRet t). Proof. repeat split; intros; discriminate. Qed.

Section V.
Variable nslots : nat.

Definition InvV (st : state) : Prop :=
  forall t g, gv (gd (tl st t) g) = false -> in_acq nslots (th st t) g /\ he (gd (tl st t) g) <> None.


Lemma InvV_ush st st1 t : ush t st st1 -> InvV st -> InvV st1.
Proof.
  intros Hu HV u g Hg. pose proof (ush_same _ _ _ Hu) as HS. rewrite (sb_th _ _ _ HS).
  destruct (Nat.eq_dec u t) as [->|Hne]; [|rewrite (sb_tl _ _ _ HS u Hne) in *; apply HV; exact Hg].
  destruct (sb_gd _ _ _ HS g) as [E|[E _]]; rewrite E in *; [apply HV; exact Hg|discriminate Hg].
Qed.

Lemma InvV_reset st t b i g : InvV st -> InvV (reset_guard st t b i g).
Proof.
  intros HV tq gq Hq. simh Hq. sim. destruct (Nat.eq_dec tq t) as [->|Hne]; upds_in Hq; upds; [|apply HV; exact Hq].
  prjh Hq. prj. destruct (Nat.eq_dec gq g) as [->|Hng]; upds_in Hq; upds; [discriminate Hq|apply HV; exact Hq].
Qed.

(** after a step of thread t only t's guards have to be looked at (the other threads keep their guards and program
    points, [step_frame]); the side condition is [InvV] for t in the new state: a guard of t whose protection is not
    valid belongs to the acquire t is running and still owns its hazard era *)
Lemma InvV_local st st' es t :
  InvV st -> step nslots st (Step t) = Some (st', es) ->
  (forall g, gv (gd (tl st' t) g) = false -> in_acq nslots (th st' t) g /\ he (gd (tl st' t) g) <> None) -> InvV st'.
Proof.
  intros HV Hs Ht u g. destruct (Nat.eq_dec u t) as [->|Hne]; [apply Ht|].
  destruct (step_frame nslots st t st' es Hs) as (_ & Ho & _). destruct (Ho u Hne) as [-> ->]. apply HV.
Qed.

Lemma InvV_step st a st' es : InvG nslots st -> InvV st -> step nslots st a = Some (st', es) -> InvV st'.
Proof.
  intros HG HV Hs. destruct a as [t o|t].
  - cbn [step] in Hs. destruct (th st t) eqn:Hth; try discriminate Hs. destruct (legal nslots o); [|discriminate Hs].
    injection Hs as <- <-. intros t' g Hg. simh Hg. destruct (HV t' g Hg) as [H1 H2]. sim.
    destruct (Nat.eq_dec t' t) as [->|Hne]; upds; [rewrite Hth in H1; destruct H1|split; assumption].
  - apply (InvV_local st st' es t HV Hs). cbn [step] in Hs. destruct (th st t) eqn:Hth; try discriminate Hs.
    all: leaves Hs.
    all: try (match goal with Hu : ush _ ?s0 ?st1 |- _ =>
           assert (HV0 : InvV s0) by (first [exact HV | (apply InvV_reset; exact HV)]);
           pose proof (InvV_ush _ _ _ Hu HV0) as HV1; pose proof (ush_same _ _ _ Hu) as HSb;
           intros gq Hq; simh Hq; sim; destruct (HV1 t gq Hq) as [Hx Hy];
           rewrite (sb_th _ _ _ HSb) in Hx; unfold reset_guard in Hx; prjh Hx; rewrite Hth in Hx; destruct Hx end; fail).
    all: intros gq Hq.
    all: dg; simh Hq; sim; unfold in_acq; cbn [acq_of guard_of].
    all: try (destruct (HV t gq Hq) as [Hx Hy]; rewrite Hth in Hx; unfold in_acq in Hx; cbn [acq_of guard_of] in Hx;
              first [ (split; assumption) | (destruct Hx; fail) ]; fail).
    all: try (match type of Hq with context [upd _ ?g _ ?x] =>
           destruct (Nat.eq_dec x g) as [->|?]; upds_in Hq; prjh Hq; upds; prj; try discriminate Hq;
           try (split; [reflexivity|discriminate]);
           destruct (HV t gq Hq) as [Hx Hy]; rewrite Hth in Hx; unfold in_acq in Hx; cbn [acq_of guard_of] in Hx;
           first [ (split; assumption) | (destruct Hx; fail) | congruence | (split; [assumption|congruence]) ] end; fail).
    all: exfalso; destruct (HV t gq Hq) as [Hx Hy]; rewrite Hth in Hx; unfold in_acq in Hx; cbn [acq_of] in Hx; subst gq.
    all: try congruence.
    all: pose proof (g_pc _ _ _ (HG t)) as Hpc; rewrite Hth in Hpc; cbn [pcG] in Hpc; destruct Hpc as (_ & _ & Hn); apply Hy; apply Hn.
Qed.

Lemma InvV_init ncells : InvV (init ncells).
Proof. intros t g H. cbn in H. discriminate. Qed.
End V.

(** * Layer E: eras *)
Definition pcE (st : state) (p : pc) : Prop :=
  match p with
  | Q2 _ prev n => good (g_life st n) /\ forall u, g_life st n = LRet u -> prev <= re st n
  | _ => True
  end.

Record InvE (st : state) : Prop := mkE {
  e_ce : forall n, ce st n <= clock st;
  e_re : forall n u, g_life st n = LRet u -> re st n < clock st;
  e_pc : forall t, pcE st (th st t) }.

Lemma InvE_gen st st' :
  InvE st -> clock st <= clock st' ->
  (forall n, ce st' n = ce st n \/ ce st' n <= clock st') ->
  (forall n, good (g_life st n) -> good (g_life st' n)) ->
  (forall n u, g_life st' n = LRet u ->
     (g_life st n = LRet u /\ re st' n = re st n) \/ (re st' n = clock st /\ clock st' = S (clock st))) ->
  (forall t k prev p, th st t = Q2 k prev p -> prev <= clock st) ->
  (forall t, th st' t = th st t \/ pcE st' (th st' t)) ->
  InvE st'.
Proof.
  intros [I1 I2 I3] Hc Hce Hl Hre Hq Hpc. constructor.
  - intros n. destruct (Hce n) as [->|H]; [specialize (I1 n); lia|exact H].
  - intros n u H. destruct (Hre n u H) as [[H1 ->]|[-> H2]]; [specialize (I2 n u H1); lia|lia].
  - intros t. destruct (Hpc t) as [E|H]; [|exact H]. rewrite E. specialize (I3 t).
    destruct (th st t) eqn:Et; cbn [pcE] in *; try exact I. destruct I3 as [G1 G2]. split; [apply Hl; exact G1|].
    intros u H. destruct (Hre p u H) as [[H1 ->]|[-> H2]]; [apply (G2 u H1)|apply (Hq t k prev p Et)].
Qed.

Section E.
Variable nslots : nat.


Lemma InvE_ush st st1 t : ush t st st1 -> InvE st -> InvE st1.
Proof.
  intros Hu [I1 I2 I3]. pose proof (ush_same _ _ _ Hu) as HS.
  constructor; rewrite ?(sb_ce _ _ _ HS), ?(sb_clock _ _ _ HS), ?(sb_life _ _ _ HS), ?(sb_re _ _ _ HS), ?(sb_th _ _ _ HS); try assumption.
  intros u. specialize (I3 u). destruct (th st u); cbn [pcE] in *; try exact I. rewrite (sb_life _ _ _ HS), (sb_re _ _ _ HS). exact I3.
Qed.

Lemma q2_prev st t k prev p : InvG nslots st -> th st t = Q2 k prev p -> prev <= clock st.
Proof. intros HG Ht. pose proof (g_pc _ _ _ (HG t)) as H. rewrite Ht in H. cbn [pcG] in H. tauto. Qed.

Lemma InvE_step st a st' es : InvG nslots st -> InvN st -> InvE st -> step nslots st a = Some (st', es) -> InvE st'.
Proof.
  intros HG HN HE Hs. destruct a as [t o|t]; cbn [step] in Hs.
  - destruct (th st t) eqn:Hth; try discriminate Hs. destruct (legal nslots o); [|discriminate Hs].
    injection Hs as <- <-. apply (InvE_gen st);
      [exact HE|prj; lia|intros; left; reflexivity|intros nn Hn; exact Hn|intros nn uu Hn; left; split; [exact Hn|reflexivity]
      |intros tt kk pp nn Hq; apply (q2_prev st tt kk pp nn HG Hq)|].
    intros u. prj. destruct (Nat.eq_dec u t) as [->|Hne]; upds; [right; exact I|left; reflexivity].
  - pose proof (n_pc st HN t) as Hpn. destruct (th st t) eqn:Hth; try discriminate Hs.
    all: leaves Hs.
    all: try (match goal with Hu : ush _ ?s0 ?st1 |- InvE (set_pc _ _ ?st1) =>
           assert (HE0 : InvE s0) by (first [exact HE | (destruct HE as [J1 J2 J3]; constructor; unfold reset_guard; prj; assumption)]);
           pose proof (InvE_ush _ _ _ Hu HE0) as HE1; pose proof (ush_same _ _ _ Hu) as HSb;
           destruct HE1 as [J1 J2 J3]; constructor; prj; try assumption;
           intros u; destruct (Nat.eq_dec u t) as [->|?]; upds; [exact I|apply J3] end; fail).
    all: dg.
    all: destruct Hpn as [Hpn _]; cbn [pcn] in Hpn.
    all: try (apply (InvE_gen st);
              [ exact HE | sim; lia
              | intros nn; sim; first [ (left; reflexivity) | (eqs; [right; lia|left; reflexivity]) ]
              | intros nn Hg; sim; revert Hg; eqs; intros Hg;
                first [ exact Hg | (repeat split; intros; discriminate)
                      | (exfalso; destruct Hg as (Hg1 & Hg2 & Hg3); first [ (apply Hg1; apply (n_lt st HN); lia) | (eapply Hg2; eassumption) ]) ]
              | intros nn uu Hn; sim; revert Hn; sim; eqs; intros Hn;
                first [ (left; split; [exact Hn|reflexivity]) | discriminate | (right; split; reflexivity) ]
              | intros tt kk pp nn Hq; apply (q2_prev st tt kk pp nn HG Hq)
              | intros uu; sim; destruct (Nat.eq_dec uu t) as [->|?]; upds; [right|left; reflexivity] ];
              cbn [pcE]; try exact I).
    prj. rewrite (n_cell st HN _ _ E). split; [apply good_pub|intros u Hu; discriminate Hu].
Qed.

Lemma InvE_init ncells : InvE (init ncells).
Proof. constructor; cbn; intros; try lia; try exact I; destruct (n <? ncells); discriminate. Qed.
End E.
