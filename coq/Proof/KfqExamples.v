(** kirsch_kfifo_queue (C06, unbounded): concrete reachable states showing that the hypotheses of the property
    theorems are satisfiable (the schedules are replayed identically by the real code under the xvrt
    scheduler: harness h_uq_gc, cfg q=kf elem=ptr).  No axioms, no admits. *)
From Coq Require Import NArith List Bool Lia PeanoNat.
From XV Require Import Base.Word Conc.Lts Conc.Ev Model.KfqDefs.
From XV Require Import Proof.KfqWf Proof.KfqOwn Proof.KfqRegion Proof.KfqSeg Proof.KfqCons Proof.KfqCall Proof.KfqSeq.
Import ListNotations.
Local Open Scope N_scope.

Definition st_of (k : N) (acts : list action) : state := fst (fst (run (step k) init acts)).
Definition tr_of (k : N) (acts : list action) : list ev := snd (fst (run (step k) init acts)).

Lemma st_of_reach k acts : reach init (step k) (st_of k acts).
Proof. apply run_reach. Qed.

Fixpoint reps (n : nat) (a : action) : list action := match n with O => [] | S m => a :: reps m a end.

(** executable form of [solo]; a solo run of at least one step from the begin of a call is inside the call *)
Fixpoint solo_exec (k : N) (u : nat) (s : state) (rs : list N) : option state :=
  match rs with
  | [] => Some s
  | r :: rest =>
    match th s u with
    | Idle => None
    | _ => match step k s (Step u r) with Some (s', _) => solo_exec k u s' rest | None => None end
    end
  end.

Lemma solo_exec_ok k u o s0 rs : forall s1 s, solo k u s0 s1 -> in_call k u o s0 s1 -> solo_exec k u s1 rs = Some s ->
  solo k u s0 s /\ in_call k u o s0 s.
Proof.
  induction rs as [|r rest IH]; intros s1 s H1 H2 He; cbn [solo_exec] in He; [inversion He; subst; split; assumption|].
  destruct (step k s1 (Step u r)) as [[s2 es]|] eqn:Hst; [|destruct (th s1 u); discriminate].
  assert (Hni : th s1 u <> Idle) by (intros Q; rewrite Q in He; discriminate).
  apply (IH s2 s); [eapply solo_step; eauto|eapply ic_next; eauto|destruct (th s1 u); [contradiction|exact He ..]].
Qed.

Lemma solo_exec_run k u o s0 r rs s : th s0 u = Begin o -> solo_exec k u s0 (r :: rs) = Some s ->
  solo k u s0 s /\ in_call k u o s0 s.
Proof.
  intros Hb He. cbn [solo_exec] in He. rewrite Hb in He. destruct (step k s0 (Step u r)) as [[s1 es]|] eqn:Hst; [|discriminate].
  apply (solo_exec_ok k u o s0 rs s1 s); [eapply solo_step; [apply solo_refl|rewrite Hb; discriminate|exact Hst]|eapply ic_first; eauto|exact He].
Qed.

Definition the {X} (d : X) (o : option X) : X := match o with Some x => x | None => d end.

(** k = 1: push 1; push 2 by thread 1 (the second push appends segment 4), then pop by thread 2, which takes value 1
    (token 2).  The run is quiescent; value 2 (token 3) is stored in segment 4; head_ still points to segment 1 *)
Definition ex_q : list action :=
  Start 1 (OPush 1) :: reps 10 (Step 1 0) ++ Start 1 (OPush 2) :: reps 17 (Step 1 0) ++ Start 2 OPop :: reps 7 (Step 2 0).

Example ex_quiescent :
  reach init (step 1) (st_of 1 ex_q) /\ quiescent (st_of 1 ex_q) /\
  g_in (st_of 1 ex_q) = [2; 3] /\ g_out (st_of 1 ex_q) = [2] /\ g_ok (st_of 1 ex_q) = [2; 3] /\
  stored 1 (st_of 1 ex_q) = [3] /\ g_segs (st_of 1 ex_q) = [1; 4] /\ head (st_of 1 ex_q) = (1, 1) /\ tail (st_of 1 ex_q) = (4, 1) /\
  In 3 (g_in (st_of 1 ex_q)) /\ ~ In 3 (g_out (st_of 1 ex_q)) /\ In 3 (g_ok (st_of 1 ex_q)).
Proof.
  split; [apply st_of_reach|]. split; [intros t; vm_compute; destruct t as [|[|[|t]]]; reflexivity|].
  repeat (split; [vm_compute; reflexivity|]). split; [vm_compute; auto|]. split; [vm_compute; intros [H|[]]; discriminate|vm_compute; auto].
Qed.

(** k = 2: both values are in the head segment; thread 2's pop is about to take value 2 (token 3), a committed value *)
Definition ex_p : list action :=
  [Start 1 (OPush 1); Step 1 1; Step 1 1] ++ reps 8 (Step 1 0) ++ [Start 1 (OPush 2); Step 1 0; Step 1 0] ++ reps 8 (Step 1 1) ++
  [Start 2 OPop; Step 2 1; Step 2 1; Step 2 1] ++ reps 7 (Step 2 0).

Example ex_pop_committed :
  reach init (step 2) (st_of 2 ex_p) /\ th (st_of 2 ex_p) 2%nat = D4 (1, 2) 1 2 1 /\
  slot (st_of 2 ex_p) 1 1 = (2, 1) /\ In 2 (g_in (st_of 2 ex_p)) /\
  In 3 (g_in (st_of 2 ex_p)) /\ ~ In 3 (g_out (st_of 2 ex_p)) /\ slot (st_of 2 ex_p) 1 0 = (3, 1).
Proof.
  split; [apply st_of_reach|]. repeat (split; [vm_compute; auto|]). vm_compute; reflexivity.
Qed.

(** k = 1, three threads (fixed case f3): thread 3's pop scans segment 1 (empty), thread 1 inserts value 1 (token 2) and
    stops before committed(), thread 2's pop finds it and appends segment 3, thread 3 removes and retires segment 1;
    thread 2 is about to take the uncommitted value from the retired segment *)
Definition ex_f3 : list action :=
  Start 3 OPop :: reps 5 (Step 3 0) ++ Start 1 (OPush 1) :: reps 5 (Step 1 0) ++ Start 2 OPop :: reps 10 (Step 2 0) ++ reps 5 (Step 3 0).

Example ex_pop_uncommitted :
  reach init (step 1) (st_of 1 ex_f3) /\ th (st_of 1 ex_f3) 2%nat = D4 (1, 0) 0 2 1 /\
  slot (st_of 1 ex_f3) 1 0 = (2, 1) /\ ~ In 2 (g_in (st_of 1 ex_f3)) /\
  th (st_of 1 ex_f3) 1%nat = C1 2 (1, 0) 0 1 /\
  g_retired (st_of 1 ex_f3) = [1] /\ head (st_of 1 ex_f3) = (3, 1) /\ del (st_of 1 ex_f3) 1 = true /\ g_segs (st_of 1 ex_f3) = [1; 3].
Proof.
  split; [apply st_of_reach|]. split; [vm_compute; reflexivity|]. split; [vm_compute; reflexivity|]. split; [vm_compute; intros []|].
  repeat (split; [vm_compute; reflexivity|]). vm_compute; reflexivity.
Qed.

(** k = 1 (fixed case f2): two pushes allocate a segment each, thread 1 links its segment 4, thread 2's link CAS
    fails and it releases its segment 6 *)
Definition ex_f2 : list action :=
  [Start 1 (OPush 1); Step 1 7; Step 1 7] ++ reps 8 (Step 1 9) ++ [Start 1 (OPush 2); Step 1 9; Step 1 9] ++ reps 4 (Step 1 11) ++
  [Start 2 (OPush 3); Step 2 11; Step 2 11] ++ reps 4 (Step 2 3) ++ [Step 1 3; Step 2 3].

Example ex_released_segment :
  reach init (step 1) (st_of 1 ex_f2) /\ g_freed (st_of 1 ex_f2) = [6] /\ g_segs (st_of 1 ex_f2) = [1; 4] /\
  In (EFree 2 6) (tr_of 1 ex_f2).
Proof. split; [apply st_of_reach|]. split; [vm_compute; reflexivity|]. split; [vm_compute; reflexivity|]. vm_compute. tauto. Qed.

(** k = 1 (fixed case f1): the only way into the tail-helping part of advance_head -- thread 1's pop is at (8) *)
Definition ex_f1 : list action :=
  Start 1 OPop :: reps 6 (Step 1 0) ++ Start 2 (OPush 1) :: reps 5 (Step 2 0) ++ Start 3 (OPush 2) :: reps 8 (Step 3 0) ++ reps 3 (Step 1 0).

Example ex_advance_head_same_segment :
  reach init (step 1) (st_of 1 ex_f1) /\ th (st_of 1 ex_f1) 1%nat = H3 (1, 0) (1, 0) (4, 1) /\ tail (st_of 1 ex_f1) = (4, 1).
Proof. split; [apply st_of_reach|]. split; vm_compute; reflexivity. Qed.

(** k = 2: a pop on the empty queue, alone: the call, the returning step, the solo run *)
Definition ex_e0 : state := st_of 2 [Start 1 OPop].

Example ex_empty_call :
  reach init (step 2) ex_e0 /\ th ex_e0 1%nat = Begin OPop /\ (forall t, t <> 1%nat -> th ex_e0 t = Idle) /\ empty_at ex_e0 /\
  exists s s' es, in_call 2 1 OPop ex_e0 s /\ solo 2 1 ex_e0 s /\ step 2 s (Step 1 0) = Some (s', es) /\ In (ERet 1%nat [2]) es.
Proof.
  split; [apply st_of_reach|]. split; [vm_compute; reflexivity|].
  split; [intros t Ht; destruct t as [|[|t]]; [reflexivity|contradiction|reflexivity]|].
  split; [intros b []|].
  edestruct (solo_exec_run 2 1 OPop ex_e0 5 [5; 5; 0; 0; 0; 0]) as [A B]; [vm_compute; reflexivity ..|].
  eexists _, _, _. split; [exact B|]. split; [exact A|]. split; [vm_compute; reflexivity|cbn; auto].
Qed.
