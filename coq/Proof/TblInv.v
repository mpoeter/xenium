(** Invariants of the thread_block_list model (Model/TblDefs.v), property C17:
    exclusive ownership of entries, well-formedness and stability of the entry list, the bound
    "number of entries <= peak number of simultaneously live threads", reuse of free entries and solo
    termination of acquire / release.  All theorems hold for every reachable state: any number of
    threads, any program, any schedule.  No axioms. *)
From Coq Require Import NArith List Bool Arith Lia PeanoNat.
From XV Require Import Conc.Lts Conc.Ev Conc.Solo Model.TblDefs.
Import ListNotations.

Ltac prj := cbn [head nxt est nent th owned g_owner g_live g_peak g_threads g_nlinked g_rank].

(** * Function update *)
Lemma upd_upd {X} (f : nat -> X) t a b x : upd (upd f t a) t b x = upd f t b x.
Proof. unfold upd. destruct (Nat.eqb x t); reflexivity. Qed.

Ltac upds :=
  repeat first [ rewrite upd_upd | rewrite upd_same | rewrite upd_other by (first [assumption | congruence | lia]) ].
Ltac upds_in H :=
  repeat first [ rewrite upd_upd in H | rewrite upd_same in H | rewrite upd_other in H by (first [assumption | congruence | lia]) ].

(** * Counting the elements of a list that satisfy a predicate *)
Definition cnt (f : nat -> bool) (l : list nat) : nat := length (filter f l).

Lemma cnt_cons f a l : cnt f (a :: l) = (if f a then 1 else 0) + cnt f l.
Proof. unfold cnt. cbn [filter]. destruct (f a); reflexivity. Qed.

Lemma cnt_ext f g l : (forall x, In x l -> f x = g x) -> cnt f l = cnt g l.
Proof.
  induction l as [|a l IH]; intros H; [reflexivity|].
  rewrite !cnt_cons. rewrite (H a (or_introl eq_refl)). rewrite IH; [reflexivity|].
  intros x Hx. apply H. right. exact Hx.
Qed.

Lemma cnt_le f g l : (forall x, In x l -> f x = true -> g x = true) -> cnt f l <= cnt g l.
Proof.
  induction l as [|a l IH]; intros H; [apply Nat.le_refl|].
  rewrite !cnt_cons.
  assert (IH' : cnt f l <= cnt g l) by (apply IH; intros x Hx; apply H; right; exact Hx).
  destruct (f a) eqn:Fa.
  - rewrite (H a (or_introl eq_refl) Fa). lia.
  - destruct (g a); lia.
Qed.

Lemma cnt_le_length f l : cnt f l <= length l.
Proof.
  induction l as [|a l IH]; [apply Nat.le_refl|]. rewrite cnt_cons. cbn [length]. destruct (f a); lia.
Qed.

Lemma cnt_flip f g l t :
  NoDup l -> In t l -> f t = false -> g t = true ->
  (forall x, In x l -> x <> t -> g x = f x) -> cnt g l = S (cnt f l).
Proof.
  induction l as [|a l IH]; intros Hnd Hin Ft Gt H; [destruct Hin|].
  inversion Hnd as [|a' l' Hna Hnd']; subst. rewrite !cnt_cons.
  destruct Hin as [->|Hin].
  - rewrite Ft, Gt. rewrite (cnt_ext g f l); [reflexivity|].
    intros x Hx. apply H; [right; exact Hx|]. intros ->. contradiction.
  - assert (Hat : a <> t) by (intros ->; contradiction).
    rewrite (H a (or_introl eq_refl) Hat).
    rewrite IH; try assumption; [lia|]. intros x Hx Hne. apply H; [right; exact Hx|exact Hne].
Qed.

Lemma cnt_two f g l a b :
  NoDup l -> In a l -> In b l -> a <> b ->
  (forall x, In x l -> f x = true -> g x = true) ->
  f a = false -> g a = true -> f b = false -> g b = true -> cnt f l + 2 <= cnt g l.
Proof.
  intros Hnd Ha Hb Hab H Fa Ga Fb Gb.
  (* [f] made true at [a], then at [b], is still below [g] *)
  set (h := fun x => if Nat.eqb x a then true else f x).
  set (h' := fun x => if Nat.eqb x b then true else h x).
  assert (H1 : cnt h l = S (cnt f l)).
  { apply (cnt_flip f h l a); try assumption; unfold h; [rewrite Nat.eqb_refl; reflexivity|].
    intros x _ Hx. destruct (Nat.eqb_spec x a); [contradiction|reflexivity]. }
  assert (H2 : cnt h' l = S (cnt h l)).
  { apply (cnt_flip h h' l b); try assumption; unfold h', h.
    - destruct (Nat.eqb_spec b a); [congruence|exact Fb].
    - rewrite Nat.eqb_refl. reflexivity.
    - intros x _ Hx. destruct (Nat.eqb_spec x b); [contradiction|reflexivity]. }
  assert (H3 : cnt h' l <= cnt g l).
  { apply cnt_le. intros x Hx. unfold h', h.
    destruct (Nat.eqb_spec x b); [subst; intros _; exact Gb|].
    destruct (Nat.eqb_spec x a); [subst; intros _; exact Ga|apply H; exact Hx]. }
  lia.
Qed.

Lemma cnt_disj f g l : (forall x, In x l -> f x = true -> g x = false) -> cnt f l + cnt g l <= length l.
Proof.
  induction l as [|a l IH]; intros H; [apply Nat.le_refl|].
  rewrite !cnt_cons. cbn [length].
  assert (IH' : cnt f l + cnt g l <= length l) by (apply IH; intros x Hx; apply H; right; exact Hx).
  destruct (f a) eqn:Fa.
  - rewrite (H a (or_introl eq_refl) Fa). lia.
  - destruct (g a); lia.
Qed.

Lemma cnt_pos f l x : In x l -> f x = true -> 0 < cnt f l.
Proof.
  induction l as [|a l IH]; intros Hin Fx; [destruct Hin|]. rewrite cnt_cons.
  destruct Hin as [->|Hin]; [rewrite Fx; lia|]. specialize (IH Hin Fx). lia.
Qed.

Lemma cnt_none f l : (forall x, In x l -> f x = false) -> cnt f l = 0.
Proof.
  induction l as [|a l IH]; intros H; [reflexivity|]. rewrite cnt_cons, (H a (or_introl eq_refl)).
  apply IH. intros x Hx. apply H. right. exact Hx.
Qed.

Definition without (t : nat) (l : list nat) : list nat := filter (fun x => negb (Nat.eqb x t)) l.

Lemma in_without t l x : In x (without t l) <-> In x l /\ x <> t.
Proof.
  unfold without. rewrite filter_In. split; intros [H1 H2]; (split; [exact H1|]).
  - intros ->. rewrite Nat.eqb_refl in H2. discriminate.
  - destruct (Nat.eqb_spec x t); [contradiction|reflexivity].
Qed.

Lemma cnt_without_le f t l : cnt f (without t l) <= cnt f l.
Proof.
  induction l as [|a l IH]; [apply Nat.le_refl|]. unfold without in *. cbn [filter].
  destruct (negb (Nat.eqb a t)); rewrite ?cnt_cons; destruct (f a); lia.
Qed.

Lemma cnt_without_false f t l : f t = false -> cnt f (without t l) = cnt f l.
Proof.
  intros Ft. induction l as [|a l IH]; [reflexivity|]. unfold without in *. cbn [filter].
  destruct (Nat.eqb_spec a t) as [->|Hne]; cbn [negb]; rewrite ?cnt_cons; [rewrite Ft|]; rewrite IH; reflexivity.
Qed.

Lemma length_without t l : NoDup l -> In t l -> S (length (without t l)) = length l.
Proof.
  induction l as [|a l IH]; intros Hnd Hin; [destruct Hin|].
  inversion Hnd as [|a' l' Hna Hnd']; subst. unfold without in *. cbn [filter length].
  destruct Hin as [->|Hin].
  - rewrite Nat.eqb_refl. cbn [negb]. f_equal.
    assert (E : filter (fun x => negb (Nat.eqb x t)) l = l).
    { clear IH Hnd Hnd'. induction l as [|b l IHl]; [reflexivity|]. cbn [filter].
      destruct (Nat.eqb_spec b t) as [->|Hne]; [exfalso; apply Hna; left; reflexivity|].
      cbn [negb]. f_equal. apply IHl. intros Hc. apply Hna. right. exact Hc. }
    rewrite E. reflexivity.
  - destruct (Nat.eqb_spec a t) as [->|Hne]; [contradiction|]. cbn [negb length]. f_equal. apply IH; assumption.
Qed.

Lemma NoDup_without t l : NoDup l -> NoDup (without t l).
Proof. intros H. unfold without. apply NoDup_filter. exact H. Qed.

(** * The steps of a thread, as guarded transitions *)

(** the state [advance] produces *)
Definition adv (st : state) (t ini c : nat) : state :=
  if c =? 0 then alloc (setpc st t (W1 ini c)) t ini else setpc st t (W1 ini c).

(** the hypotheses are named: [destruct] on a [trans] brings [Hth] (the pc) and the guards into the context *)
Inductive trans (st : state) (t : nat) : state -> Prop :=
| tr_live o ini (Hth : th st t = Begin o) (Ho : o = OAcquire /\ ini = 2 \/ o = OAcquireInactive /\ ini = 1) :
    trans st t (go_live st t (W0 ini))
| tr_begin o p (Hth : th st t = Begin o) (Ho : o = ORelease /\ p = R1 \/ o = OActivate /\ p = V1) :
    trans st t (setpc st t p)
| tr_head ini (Hth : th st t = W0 ini) : trans st t (adv st t ini (head st))
| tr_free ini c (Hth : th st t = W1 ini c) (Hf : est st c = 0) : trans st t (setpc st t (W2 ini c))
| tr_busy ini c (Hth : th st t = W1 ini c \/ th st t = W2 ini c) (Hb : est st c <> 0) :
    trans st t (adv st t ini (nxt st c))
| tr_adopt ini c (Hth : th st t = W2 ini c) (Hf : est st c = 0) : trans st t (adopt st t c ini)
| tr_init ini n (Hth : th st t = A1 ini n) : trans st t (set_est st t n ini (A2 n))
| tr_next n (Hth : th st t = A2 n \/ (exists h, th st t = A3 n h /\ head st <> h)) :
    trans st t (set_nxt st t n (head st) (A3 n (head st)))
| tr_link n h (Hth : th st t = A3 n h) (Hh : head st = h) : trans st t (link st t n)
| tr_release (Hth : th st t = R1) : trans st t (release st t (owned st t))
| tr_activate (Hth : th st t = V1) : trans st t (set_est st t (owned st t) 2 Idle).

Lemma advance_adv st t ini c e st' es : Some (advance st t ini c e) = Some (st', es) -> st' = adv st t ini c.
Proof. unfold advance, adv. destruct (c =? 0); intros H; injection H as <- _; reflexivity. Qed.

(** every case of [step] is one of the transitions; the constructor is determined by the successor state *)
Lemma step_trans st t st' es : step st (Step t) = Some (st', es) -> trans st t st'.
Proof.
  cbn [step]. destruct (th st t) as [|[]|ini|ini c|ini c|ini n|n|n h| |] eqn:Hth; try discriminate.
  all: match type of Hth with
       | _ = W1 _ ?c => destruct (Nat.eqb_spec (est st c) 0)
       | _ = W2 _ ?c => destruct (Nat.eqb_spec (est st c) 0)
       | _ = A3 _ ?h => destruct (Nat.eqb_spec (head st) h)
       | _ => idtac
       end.
  all: intros H; first [apply advance_adv in H; subst st'|injection H as <- _]; econstructor; solve [eauto].
Qed.

(** * The structural invariant *)

(** the entry a thread is about to insert (allocated, not yet linked) *)
Definition pend_entry (p : pc) : nat :=
  match p with A1 _ n | A2 n | A3 n _ => n | _ => 0 end.

Definition own_ok (st : state) (t : nat) : Prop :=
  owned st t <> 0 ->
  In t (g_threads st) /\ g_owner st (owned st t) = Some t /\ 1 <= g_rank st (owned st t).

Definition scan_ok (st : state) (t : nat) (ini : nat) : Prop :=
  owned st t = 0 /\ In t (g_threads st) /\ (ini = 1 \/ ini = 2).

Definition pend_ok (st : state) (t : nat) (n : nat) : Prop :=
  g_owner st n = Some t /\ g_rank st n = 0 /\ 1 <= n <= nent st.

Definition T (st : state) (t : nat) (p : pc) : Prop :=
  match p with
  | Idle => owned st t = 0 -> ~ In t (g_threads st)
  | Begin OAcquire | Begin OAcquireInactive => owned st t = 0 /\ ~ In t (g_threads st)
  | Begin ORelease | Begin OActivate | R1 | V1 => owned st t <> 0
  | W0 ini => scan_ok st t ini
  | W1 ini c | W2 ini c => scan_ok st t ini /\ 1 <= g_rank st c
  | A1 ini n => scan_ok st t ini /\ pend_ok st t n
  | A2 n => scan_ok st t 1 /\ pend_ok st t n
  | A3 n h => scan_ok st t 1 /\ pend_ok st t n /\ nxt st n = h
  end.

Record E (st : state) : Prop := mkE {
  (* free = nobody owns it *)
  E_free : forall e, est st e = 0 <-> g_owner st e = None;
  (* nullptr and the entries not yet created are unowned and unlinked *)
  E_range : forall e, e = 0 \/ nent st < e -> g_owner st e = None /\ g_rank st e = 0;
  (* the owner holds the entry in [owned], or is still inserting it *)
  E_back : forall e t, g_owner st e = Some t -> owned st t = e \/ pend_entry (th st t) = e;
  E_rank_le : forall e, g_rank st e <= g_nlinked st;
  (* the rank drops by one along next_entry, down to nullptr (rank 0) *)
  E_next : forall e, 1 <= g_rank st e -> g_rank st (nxt st e) + 1 = g_rank st e /\ (nxt st e = 0 \/ 1 <= g_rank st (nxt st e));
  (* linked entries have different ranks *)
  E_inj : forall e e', 1 <= g_rank st e -> g_rank st e = g_rank st e' -> e = e';
  (* [head] is the entry linked last *)
  E_head : g_rank st (head st) = g_nlinked st /\ (head st = 0 \/ 1 <= g_rank st (head st));
  E_live : g_live st = length (g_threads st) /\ NoDup (g_threads st) /\ g_live st <= g_peak st;
  E_state : forall e, est st e <= 2;
  (* a created entry that is not linked is being inserted by some thread *)
  E_pend : forall e, 1 <= e <= nent st -> g_rank st e = 0 -> exists t, pend_entry (th st t) = e
}.

Definition Inv1 (st : state) : Prop :=
  (forall t, own_ok st t /\ T st t (th st t)) /\ E st.

(** ** consequences *)
Lemma rank_zero st : E st -> g_rank st 0 = 0.
Proof. intros HE. apply (E_range st HE 0). left. reflexivity. Qed.

Lemma ranked_nz st c : E st -> 1 <= g_rank st c -> c <> 0.
Proof. intros HE H ->. rewrite (rank_zero st HE) in H. lia. Qed.

Lemma ranked_le st c : E st -> 1 <= g_rank st c -> 1 <= c <= nent st.
Proof.
  intros HE H. destruct (Nat.eq_dec c 0) as [->|Hz]; [rewrite (rank_zero st HE) in H; lia|].
  destruct (Nat.le_gt_cases c (nent st)) as [Hle|Hgt]; [lia|].
  destruct (E_range st HE c (or_intror Hgt)) as [_ Hr]. lia.
Qed.

(** the owner of a linked busy entry holds it in [owned] *)
Lemma owner_of_linked st e x :
  Inv1 st -> g_owner st e = Some x -> 1 <= g_rank st e -> owned st x = e.
Proof.
  intros [HT HE] Ho Hr. destruct (E_back st HE e x Ho) as [H|H]; [exact H|].
  exfalso. destruct (HT x) as [_ Hx]. destruct (th st x); cbn [pend_entry] in H; cbn [T] in Hx;
    try (subst e; rewrite (rank_zero st HE) in Hr; lia).
  - destruct Hx as [_ (_ & Hz & _)]. subst. lia.
  - destruct Hx as [_ (_ & Hz & _)]. subst. lia.
  - destruct Hx as [_ [(_ & Hz & _) _]]. subst. lia.
Qed.

(** program points of a thread that holds an entry *)
Definition holder_pc (p : pc) : Prop :=
  match p with Idle | Begin ORelease | Begin OActivate | R1 | V1 => True | _ => False end.

Lemma owned_pc st t : Inv1 st -> owned st t <> 0 -> holder_pc (th st t).
Proof.
  intros [HT _] Ho. destruct (HT t) as [_ Ht].
  destruct (th st t) as [|[]| | | | | | | |]; cbn [T holder_pc] in *; try exact I;
    unfold scan_ok in Ht; tauto.
Qed.

(** ** frame rule for the threads that do not move *)
Lemma T_frame st st' t p
  (Ho : owned st' t = owned st t)
  (Hin : In t (g_threads st') <-> In t (g_threads st))
  (Hrk : forall c, 1 <= g_rank st c -> 1 <= g_rank st' c)                  (* linked entries stay linked *)
  (Hown : forall n, g_owner st n = Some t -> g_owner st' n = Some t /\ nxt st' n = nxt st n)
  (Hrz : forall n, g_owner st n = Some t -> g_rank st n = 0 -> g_rank st' n = 0)  (* its pending entry stays unlinked *)
  (Hn : nent st <= nent st') :
  T st t p -> T st' t p.
Proof.
  assert (Hs : forall ini, scan_ok st t ini -> scan_ok st' t ini).
  { intros ini (H1 & H2 & H3). split; [congruence|]. split; [apply Hin; exact H2|exact H3]. }
  assert (Hp : forall n, pend_ok st t n -> pend_ok st' t n).
  { intros n (H1 & H2 & H3). split; [apply Hown; exact H1|]. split; [apply Hrz; assumption|lia]. }
  destruct p as [|[]| | | | | | | |]; cbn [T]; try (rewrite ?Ho, ?Hin; tauto).
  (* left, in constructor order: W0, W1, W2, A1, A2, A3 *)
  1: apply Hs.
  1-4: intros [H1 H2]; auto.
  intros (H1 & H2 & H3). split; [apply Hs; exact H1|]. split; [apply Hp; exact H2|].
  destruct H2 as (H2 & _). destruct (Hown _ H2) as [_ ->]. exact H3.
Qed.

Lemma own_ok_frame st st' t :
  owned st' t = owned st t ->
  (In t (g_threads st) -> In t (g_threads st')) ->
  (forall c, 1 <= g_rank st c -> 1 <= g_rank st' c) ->
  (forall n, g_owner st n = Some t -> g_owner st' n = Some t /\ nxt st' n = nxt st n) ->
  own_ok st t -> own_ok st' t.
Proof.
  intros Ho Hin Hrk Hown H. unfold own_ok in *. rewrite Ho. intros Hnz.
  destruct (H Hnz) as (H1 & H2 & H3). split; [apply Hin; exact H1|]. split; [apply Hown; exact H2|apply Hrk; exact H3].
Qed.

(** The threads other than the one that moves: their clauses read their own pc and [owned], whether
    they are live, which entries are linked, and the owner, next pointer and unlinkedness of the
    entries they own. *)
Lemma others_frame st st' t :
  (forall x, x <> t -> th st' x = th st x /\ owned st' x = owned st x /\ (In x (g_threads st') <-> In x (g_threads st))) ->
  (forall c, 1 <= g_rank st c -> 1 <= g_rank st' c) ->
  (forall n x, x <> t -> g_owner st n = Some x ->
     g_owner st' n = Some x /\ nxt st' n = nxt st n /\ (g_rank st n = 0 -> g_rank st' n = 0)) ->
  nent st <= nent st' ->
  forall x, x <> t -> own_ok st x /\ T st x (th st x) -> own_ok st' x /\ T st' x (th st' x).
Proof.
  intros Hx Hrk Hown Hn x Hne [Hok Ht]. destruct (Hx x Hne) as (-> & Eo & Ein).
  assert (Hfr : forall n, g_owner st n = Some x -> g_owner st' n = Some x /\ nxt st' n = nxt st n).
  { intros n Ho. destruct (Hown n x Hne Ho) as (A & B & _). split; assumption. }
  split.
  - apply (own_ok_frame st); try assumption. apply Ein.
  - apply (T_frame st); try assumption. intros n Ho. apply (Hown n x Hne Ho).
Qed.

(** ** steps that only move the program counter of [t] *)
Lemma Inv1_setpc st t p :
  Inv1 st -> pend_entry p = pend_entry (th st t) -> T st t p -> Inv1 (setpc st t p).
Proof.
  intros [HT HE] Hpe Hp. split.
  - (* [own_ok] and [T] read neither [th] nor [est]: they hold of the new state by conversion *)
    intros t'. destruct (HT t') as [Ho Ht']. split; [exact Ho|]. unfold setpc; prj.
    destruct (Nat.eq_dec t' t) as [->|Hne]; upds.
    + exact Hp.
    + exact Ht'.
  - destruct HE. constructor; unfold setpc; prj; try assumption.
    + intros e t' H. destruct (Nat.eq_dec t' t) as [->|Hne]; upds; [rewrite Hpe|]; apply E_back0; exact H.
    + intros e H1 H2. destruct (E_pend0 e H1 H2) as [t' Ht'].
      destruct (Nat.eq_dec t' t) as [->|Hne]; [exists t; upds; congruence|exists t'; upds; exact Ht'].
Qed.

(** helpers for the [E_back] / [E_pend] clauses when thread [t] moves to a program point with the same pending entry *)
Lemma back_upd st t p e t' :
  pend_entry p = pend_entry (th st t) ->
  (owned st t' = e \/ pend_entry (th st t') = e) ->
  owned st t' = e \/ pend_entry (upd (th st) t p t') = e.
Proof. intros Hpe H. destruct (Nat.eq_dec t' t) as [->|Hne]; upds; [rewrite Hpe|]; exact H. Qed.

Lemma pend_upd st t p e :
  pend_entry p = pend_entry (th st t) ->
  (exists t', pend_entry (th st t') = e) -> exists t', pend_entry (upd (th st) t p t') = e.
Proof.
  intros Hpe [t' H]. destruct (Nat.eq_dec t' t) as [->|Hne]; [exists t; upds; congruence|exists t'; upds; exact H].
Qed.

(** ** START of an acquire *)
Lemma Inv1_go_live st t ini :
  Inv1 st -> owned st t = 0 -> ~ In t (g_threads st) -> pend_entry (th st t) = 0 -> (ini = 1 \/ ini = 2) ->
  Inv1 (go_live st t (W0 ini)).
Proof.
  intros [HT HE] Ho Hnin Hpe Hini. split.
  - intros t'. destruct (Nat.eq_dec t' t) as [->|Hne].
    + unfold go_live. split; [unfold own_ok; prj; intros; contradiction|]. prj. upds. cbn [T]. unfold scan_ok; prj.
      split; [exact Ho|]. split; [left; reflexivity|exact Hini].
    + apply (others_frame st _ t); [| | | |exact Hne|apply HT]; unfold go_live; prj; auto.
      intros x Hx. upds. cbn [In]. repeat split; auto. intros [H|H]; [congruence|exact H].
  - destruct HE as [Hfree Hrange Hback Hrle Hnext Hinj Hhead Hlive Hstate Hpend].
    constructor; unfold go_live; prj; try assumption.
    + intros e t' H. apply back_upd; [cbn [pend_entry]; congruence|apply Hback; exact H].
    + destruct Hlive as (H1 & H2 & H3). split; [cbn [length]; congruence|]. split; [constructor; assumption|lia].
    + intros e H1 H2. apply pend_upd; [cbn [pend_entry]; congruence|apply Hpend; assumption].
Qed.

(** ** [new T()] at the end of the walk *)
Lemma Inv1_alloc st t ini :
  Inv1 st -> scan_ok st t ini -> pend_entry (th st t) = 0 ->
  Inv1 (alloc (setpc st t (W1 ini 0)) t ini).
Proof.
  intros [HT HE] (Ho & Hin & Hini) Hpe.
  pose proof HE as [Hfree Hrange Hback Hrle Hnext Hinj Hhead Hlive Hstate Hpend].
  set (n := S (nent st)).
  assert (Hn : g_owner st n = None /\ g_rank st n = 0) by (apply Hrange; right; unfold n; lia).
  destruct Hn as [Hno Hnr].
  assert (Hlk : forall c, 1 <= g_rank st c -> c <> n) by (intros c Hc ->; lia).
  split.
  - intros t'. destruct (Nat.eq_dec t' t) as [->|Hne].
    + unfold alloc, setpc; prj. fold n.
      split; [unfold own_ok; prj; intros; contradiction|]. upds. cbn [T]. unfold scan_ok, pend_ok; prj.
      upds. repeat split; try assumption; lia.
    + apply (others_frame st _ t); [| | | |exact Hne|apply HT]; unfold alloc, setpc; prj; fold n; auto.
      * intros x Hx. upds. repeat split; auto.
      * intros m x Hx Hm. assert (m <> n) by congruence. upds. repeat split; auto.
      * unfold n. lia.
  - constructor; unfold alloc, setpc; prj; fold n.
    + intros e. destruct (Nat.eq_dec e n) as [->|Hne]; upds; [split; intros; discriminate|apply Hfree].
    + intros e He. assert (e <> n) by (unfold n; lia). upds. apply Hrange. unfold n in He. lia.
    + intros e t' H. destruct (Nat.eq_dec e n) as [->|Hne]; upds_in H.
      * injection H as <-. right. upds. reflexivity.
      * destruct (Nat.eq_dec t' t) as [->|Hnt]; upds.
        -- destruct (Hback e t H) as [H1|H1]; [left; exact H1|].
           exfalso. rewrite Hpe in H1. subst e. destruct (Hrange 0 (or_introl eq_refl)). congruence.
        -- apply Hback. exact H.
    + exact Hrle.
    + intros e He. pose proof (Hlk e He). upds. apply Hnext. exact He.
    + exact Hinj.
    + exact Hhead.
    + exact Hlive.
    + intros e. destruct (Nat.eq_dec e n) as [->|Hne]; upds; [lia|apply Hstate].
    + intros e He Hr. destruct (Nat.eq_dec e n) as [->|Hne].
      * exists t. upds. reflexivity.
      * destruct (Hpend e) as [t' Ht']; [unfold n in *; lia|exact Hr|].
        assert (t' <> t) by (intros ->; rewrite Hpe in Ht'; lia).
        exists t'. upds. exact Ht'.
Qed.

Lemma Inv1_adv st t ini c :
  Inv1 st -> scan_ok st t ini -> pend_entry (th st t) = 0 -> (c = 0 \/ 1 <= g_rank st c) ->
  Inv1 (adv st t ini c).
Proof.
  intros HI Hs Hpe Hc. unfold adv. destruct (Nat.eqb_spec c 0) as [->|Hnz].
  - apply Inv1_alloc; assumption.
  - apply Inv1_setpc; [exact HI|cbn [pend_entry]; congruence|]. cbn [T]. split; [exact Hs|]. destruct Hc; [contradiction|assumption].
Qed.

(** ** stores to the state of an entry the thread owns *)
Lemma Inv1_set_est st t e v p :
  Inv1 st -> g_owner st e <> None -> (v = 1 \/ v = 2) -> pend_entry p = pend_entry (th st t) -> T st t p ->
  Inv1 (set_est st t e v p).
Proof.
  intros [HT HE] Hown Hv Hpe Hp. split.
  - intros t'. destruct (HT t') as [Hok Ht']. unfold set_est. split; [exact Hok|]. prj.
    destruct (Nat.eq_dec t' t) as [->|Hne]; upds.
    + exact Hp.
    + exact Ht'.
  - destruct HE as [Hfree Hrange Hback Hrle Hnext Hinj Hhead Hlive Hstate Hpend].
    constructor; unfold set_est; prj; try assumption.
    + intros e'. destruct (Nat.eq_dec e' e) as [->|Hne]; upds; [|apply Hfree].
      split; [intros; lia|intros; contradiction].
    + intros e' t' H. apply back_upd; [exact Hpe|apply Hback; exact H].
    + intros e'. destruct (Nat.eq_dec e' e) as [->|Hne]; upds; [lia|apply Hstate].
    + intros e' H1 H2. apply pend_upd; [exact Hpe|apply Hpend; assumption].
Qed.

(** ** add_entry: node->next_entry = h *)
Lemma Inv1_set_nxt st t n h :
  Inv1 st -> scan_ok st t 1 -> pend_ok st t n -> pend_entry (th st t) = n ->
  Inv1 (set_nxt st t n h (A3 n h)).
Proof.
  intros [HT HE] Hs Hp Hpe.
  pose proof HE as [Hfree Hrange Hback Hrle Hnext Hinj Hhead Hlive Hstate Hpend].
  destruct Hp as (Hpo & Hpr & Hpn). split.
  - intros t'. destruct (Nat.eq_dec t' t) as [->|Hne].
    + destruct (HT t) as [Hok _]. unfold set_nxt.
      split; [exact Hok|]. prj. upds. cbn [T]. unfold scan_ok, pend_ok in *; prj. upds. tauto.
    + apply (others_frame st _ t); [| | | |exact Hne|apply HT]; unfold set_nxt; prj; auto.
      * intros x Hx. upds. repeat split; auto.
      * intros m x Hx Hm. assert (m <> n) by congruence. upds. repeat split; auto.
  - constructor; unfold set_nxt; prj; try assumption.
    + intros e t' H. apply back_upd; [cbn [pend_entry]; congruence|apply Hback; exact H].
    + intros e He. assert (e <> n) by (intros ->; lia). upds. apply Hnext. exact He.
    + intros e H1 H2. apply pend_upd; [cbn [pend_entry]; congruence|apply Hpend; assumption].
Qed.

(** ** successful adoption of a free entry *)
Lemma Inv1_adopt st t e ini :
  Inv1 st -> scan_ok st t ini -> pend_entry (th st t) = 0 -> 1 <= g_rank st e -> est st e = 0 ->
  Inv1 (adopt st t e ini).
Proof.
  intros [HT HE] (Ho & Hin & Hini) Hpe Hr Hf.
  pose proof HE as [Hfree Hrange Hback Hrle Hnext Hinj Hhead Hlive Hstate Hpend].
  assert (Hno : g_owner st e = None) by (apply Hfree; exact Hf).
  assert (Hez : e <> 0) by (apply (ranked_nz st); assumption).
  assert (Hz : g_owner st 0 = None) by (apply Hrange; left; reflexivity).
  split.
  - intros t'. destruct (Nat.eq_dec t' t) as [->|Hne].
    + unfold adopt. split; [unfold own_ok; prj; upds; intros _; tauto|]. prj. upds. cbn [T]. prj. upds. intros; contradiction.
    + apply (others_frame st _ t); [| | | |exact Hne|apply HT]; unfold adopt; prj; auto.
      * intros x Hx. upds. repeat split; auto.
      * intros m x Hx Hm. assert (m <> e) by congruence. upds. repeat split; auto.
  - constructor; unfold adopt; prj; try assumption.
    + intros e'. destruct (Nat.eq_dec e' e) as [->|Hne]; upds; [|apply Hfree].
      split; [intros; lia|intros; discriminate].
    + intros e' He'. assert (e' <> e).
      { intros ->. destruct (Hrange e He') as [_ Hc]. lia. }
      upds. apply Hrange. exact He'.
    + intros e' t' H. destruct (Nat.eq_dec e' e) as [->|Hne]; upds_in H.
      * injection H as <-. left. upds. reflexivity.
      * assert (Hnt : t' <> t).
        { intros ->. destruct (Hback e' t H) as [H1|H1]; [|rewrite Hpe in H1]; subst e'; congruence. }
        upds. apply Hback. exact H.
    + intros e'. destruct (Nat.eq_dec e' e) as [->|Hne]; upds; [lia|apply Hstate].
    + intros e' H1 H2. apply pend_upd; [cbn [pend_entry]; congruence|apply Hpend; assumption].
Qed.

(** ** successful head CAS of add_entry *)
Lemma Inv1_link st t n h :
  Inv1 st -> th st t = A3 n h -> head st = h -> Inv1 (link st t n).
Proof.
  intros [HT HE] Hth Hh.
  pose proof HE as [Hfree Hrange Hback Hrle Hnext Hinj Hhead Hlive Hstate Hpend].
  destruct (HT t) as [_ Ht]. rewrite Hth in Ht. cbn [T] in Ht.
  destruct Ht as ((Ho & Hin & _) & (Hpo & Hpr & Hpn) & Hnx).
  assert (Hlk : forall c, 1 <= g_rank st c -> c <> n) by (intros c Hc ->; lia).
  assert (Hnz : n <> 0) by lia.
  split.
  - intros t'. destruct (Nat.eq_dec t' t) as [->|Hne].
    + unfold link. split; [unfold own_ok; prj; upds; intros _; repeat split; [exact Hin|exact Hpo|lia]|].
      prj. upds. cbn [T]. prj. upds. intros; contradiction.
    + apply (others_frame st _ t); [| | | |exact Hne|apply HT]; unfold link; prj; auto.
      * intros x Hx. upds. repeat split; auto.
      * intros c Hc. pose proof (Hlk c Hc). upds. exact Hc.
      * intros m x Hx Hm. assert (m <> n) by congruence. upds. repeat split; auto.
  - constructor; unfold link; prj; try assumption.
    + intros e He. assert (e <> n) by lia. upds. apply Hrange. exact He.
    + intros e t' H. destruct (Nat.eq_dec t' t) as [->|Hnt]; upds.
      * left. destruct (Hback e t H) as [H1|H1]; [|rewrite Hth in H1; cbn [pend_entry] in H1; congruence].
        exfalso. subst e. rewrite Ho in H. destruct (Hrange 0 (or_introl eq_refl)). congruence.
      * apply Hback. exact H.
    + intros e. destruct (Nat.eq_dec e n) as [->|Hne]; upds; [lia|]. specialize (Hrle e). lia.
    + intros e. destruct (Nat.eq_dec e n) as [->|Hne]; upds.
      * intros _. rewrite Hnx, <- Hh. destruct Hhead as [Hh1 Hh2].
        assert (head st <> n) by (destruct Hh2 as [->|H2]; [congruence|apply Hlk; exact H2]).
        upds. split; [lia|exact Hh2].
      * intros He. destruct (Hnext e He) as [H1 H2].
        assert (nxt st e <> n) by (destruct H2 as [->|H2]; [congruence|apply Hlk; exact H2]).
        upds. split; [exact H1|exact H2].
    + intros e e'. destruct (Nat.eq_dec e n) as [->|Hne]; destruct (Nat.eq_dec e' n) as [->|Hne']; upds.
      * reflexivity.
      * intros _ H. specialize (Hrle e'). lia.
      * intros _ H. specialize (Hrle e). lia.
      * apply Hinj.
    + upds. split; [reflexivity|right; lia].
    + intros e H1 H2. destruct (Nat.eq_dec e n) as [->|Hne]; upds_in H2; [lia|].
      destruct (Hpend e H1 H2) as [t' Ht'].
      assert (t' <> t) by (intros ->; rewrite Hth in Ht'; cbn [pend_entry] in Ht'; congruence).
      exists t'. upds. exact Ht'.
Qed.

(** ** release_entry *)
Lemma Inv1_release st t :
  Inv1 st -> owned st t <> 0 -> pend_entry (th st t) = 0 -> Inv1 (release st t (owned st t)).
Proof.
  intros [HT HE] Ho Hpe.
  pose proof HE as [Hfree Hrange Hback Hrle Hnext Hinj Hhead Hlive Hstate Hpend].
  destruct (HT t) as [Hok _]. destruct (Hok Ho) as (Hin & Hown & Hr).
  set (e := owned st t) in *.
  assert (Hz : g_owner st 0 = None) by (apply Hrange; left; reflexivity).
  split.
  - intros t'. destruct (Nat.eq_dec t' t) as [->|Hne].
    + unfold release. fold (without t (g_threads st)).
      split; [unfold own_ok; prj; upds; intros; contradiction|]. prj. upds. cbn [T]. prj. upds.
      intros _ Hc. apply in_without in Hc. destruct Hc as [_ Hc]. contradiction.
    + apply (others_frame st _ t); [| | | |exact Hne|apply HT]; unfold release; prj; fold (without t (g_threads st)); auto.
      * intros x Hx. upds. rewrite in_without. repeat split; tauto.
      * intros m x Hx Hm. assert (m <> e) by congruence. upds. repeat split; auto.
  - constructor; unfold release; prj; fold (without t (g_threads st)); try assumption.
    + intros e'. destruct (Nat.eq_dec e' e) as [->|Hne]; upds; [tauto|apply Hfree].
    + intros e' He'. destruct (Nat.eq_dec e' e) as [->|Hne]; upds; [split; [reflexivity|apply Hrange; exact He']|apply Hrange; exact He'].
    + intros e' t' H. destruct (Nat.eq_dec e' e) as [->|Hne]; upds_in H; [discriminate|].
      assert (Hnt : t' <> t).
      { intros ->. destruct (Hback e' t H) as [H1|H1]; [fold e in H1; congruence|rewrite Hpe in H1; subst e'; congruence]. }
      upds. apply Hback. exact H.
    + destruct Hlive as (H1 & H2 & H3). pose proof (length_without t _ H2 Hin). split; [lia|]. split; [apply NoDup_without; exact H2|lia].
    + intros e'. destruct (Nat.eq_dec e' e) as [->|Hne]; upds; [lia|apply Hstate].
    + intros e' H1 H2. apply pend_upd; [cbn [pend_entry]; congruence|apply Hpend; assumption].
Qed.

(** ** the structural invariant holds in every reachable state *)
Lemma Inv1_init : Inv1 init.
Proof.
  split.
  - intros t. split; [unfold own_ok; cbn; intros H; contradiction|]. cbn. intros _ H. exact H.
  - constructor; cbn.
    + intros _. tauto.
    + intros _ _. split; reflexivity.
    + intros e t H. discriminate.
    + intros _. lia.
    + intros _ H. lia.
    + intros e e' H. lia.
    + split; [reflexivity|left; reflexivity].
    + split; [reflexivity|]. split; [constructor|lia].
    + intros _. lia.
    + intros e H. lia.
Qed.

(** what [T] says about a walker *)
Lemma T_walker st t ini c :
  T st t (th st t) -> th st t = W1 ini c \/ th st t = W2 ini c ->
  scan_ok st t ini /\ 1 <= g_rank st c /\ pend_entry (th st t) = 0.
Proof. intros Ht [Hth|Hth]; rewrite Hth in *; cbn [T pend_entry] in *; tauto. Qed.

Lemma Inv1_trans st t st' : Inv1 st -> trans st t st' -> Inv1 st'.
Proof.
  intros HI Htr. pose proof HI as [HT HE]. destruct (HT t) as [Hok Ht].
  destruct Htr.
  - destruct Ho as [[-> ->]|[-> ->]]; rewrite Hth in Ht; destruct Ht; apply Inv1_go_live; auto; rewrite Hth; reflexivity.
  - destruct Ho as [[-> ->]|[-> ->]]; rewrite Hth in Ht; (apply Inv1_setpc; [exact HI|rewrite Hth; reflexivity|exact Ht]).
  - rewrite Hth in Ht. apply Inv1_adv; [exact HI|exact Ht|rewrite Hth; reflexivity|apply (E_head st HE)].
  - rewrite Hth in Ht. apply Inv1_setpc; [exact HI|rewrite Hth; reflexivity|exact Ht].
  - destruct (T_walker st t ini c Ht Hth) as (Hs & Hr & Hpe). apply Inv1_adv; [exact HI|exact Hs|exact Hpe|apply (E_next st HE c Hr)].
  - rewrite Hth in Ht. destruct Ht. apply Inv1_adopt; auto. rewrite Hth; reflexivity.
  - rewrite Hth in Ht. destruct Ht as [Hs Hp]. apply Inv1_set_est; [exact HI| |apply Hs|rewrite Hth; reflexivity|].
    + destruct Hp as [Hp _]. congruence.
    + cbn [T]. unfold scan_ok in *. tauto.
  - destruct Hth as [Hth|(h & Hth & _)]; rewrite Hth in Ht; (apply Inv1_set_nxt; [exact HI|apply Ht|apply Ht|rewrite Hth; reflexivity]).
  - apply (Inv1_link st t n h); assumption.
  - rewrite Hth in Ht. apply Inv1_release; [exact HI|exact Ht|rewrite Hth; reflexivity].
  - rewrite Hth in Ht. destruct (Hok Ht) as (_ & Ho & _).
    apply Inv1_set_est; [exact HI|congruence|right; reflexivity|rewrite Hth; reflexivity|]. cbn [T]. intros; contradiction.
Qed.

Lemma Inv1_step st a st' es : Inv1 st -> step st a = Some (st', es) -> Inv1 st'.
Proof.
  intros HI Hst. destruct a as [t o|t]; [|apply (Inv1_trans st t); [exact HI|eapply step_trans, Hst]].
  pose proof HI as [HT _]. destruct (HT t) as [_ Ht]. cbn [step] in Hst. destruct (th st t) eqn:Hth; try discriminate.
  destruct (legal st t o) eqn:Hl; [|discriminate]. injection Hst as <- <-.
  apply Inv1_setpc; [exact HI|rewrite Hth; destruct o; reflexivity|].
  cbn [T] in Ht. destruct o; cbn [T legal] in *.
  - apply Nat.eqb_eq in Hl. tauto.
  - apply negb_true_iff, Nat.eqb_neq in Hl. exact Hl.
  - apply Nat.eqb_eq in Hl. tauto.
  - apply andb_true_iff in Hl. destruct Hl as [Hl _]. apply negb_true_iff, Nat.eqb_neq in Hl. exact Hl.
Qed.

Theorem tbl_inv1 st : reach init step st -> Inv1 st.
Proof. apply inv_rule; [exact Inv1_init|intros s a s' es; apply Inv1_step]. Qed.

(** * The counting invariant: number of entries <= peak number of live threads *)

(** Every live thread that is walking the list or holds a linked entry has a CURSOR: the entry it
    is about to examine, resp. the entry it holds.  Its DEPTH is the number of linked entries in
    front of the cursor ([g_nlinked - g_rank cursor]): a walker has found all of them busy (or they
    were linked after it read [head]); the holder of an entry found all of them busy when it adopted
    the entry (or they were linked later).  [R st k] counts the live threads of depth >= k and
    [npend] the threads that hold an entry which is not linked yet.  The invariant is
        R k > 0  ->  R k + npend + k <= g_peak
    (the linear-scan renaming argument: a walker at depth k that finds its cursor busy moves to
    depth k+1, but the holder of that entry stays at depth k, so R k >= R (k+1) + 2 before the move).
    The last branch of [cur] covers Idle, Begin _, R1 and V1: the cursor of a thread outside the walk
    is the entry it holds; it is None when it holds none, in particular at the Begin of an acquire. *)
Definition cur (st : state) (t : nat) : option nat :=
  match th st t with
  | W1 _ c | W2 _ c => Some c
  | W0 _ | A1 _ _ | A2 _ | A3 _ _ => None
  | _ => if owned st t =? 0 then None else Some (owned st t)
  end.

Definition rge (st : state) (k : nat) (t : nat) : bool :=
  match cur st t with Some c => k <=? g_nlinked st - g_rank st c | None => false end.

Definition pendb (st : state) (t : nat) : bool :=
  match th st t with A1 _ _ | A2 _ | A3 _ _ => true | _ => false end.

Definition R (st : state) (k : nat) : nat := cnt (rge st k) (g_threads st).
Definition npend (st : state) : nat := cnt (pendb st) (g_threads st).

Record Inv2 (st : state) : Prop := mkInv2 {
  I2_pend : nent st = g_nlinked st + npend st;
  I2_le : nent st <= g_peak st;
  I2_Q : forall k, 0 < R st (S k) -> R st (S k) + npend st + S k <= g_peak st
}.

Lemma rge_pend_disj st k x : rge st k x = true -> pendb st x = false.
Proof. unfold rge, cur, pendb. destruct (th st x); try reflexivity; discriminate. Qed.

Lemma Qzero st : length (g_threads st) <= g_peak st -> R st 0 + npend st <= g_peak st.
Proof.
  intros H. unfold R, npend.
  pose proof (cnt_disj (rge st 0) (pendb st) (g_threads st) (fun x _ => rge_pend_disj st 0 x)). lia.
Qed.

Lemma Qall st : length (g_threads st) <= g_peak st -> Inv2 st ->
  forall k, 0 < R st k -> R st k + npend st + k <= g_peak st.
Proof.
  intros Hl H2 [|k] Hk; [pose proof (Qzero st Hl); lia|apply (I2_Q st H2); exact Hk].
Qed.

Lemma live_le_peak st : E st -> length (g_threads st) <= g_peak st.
Proof. intros HE. destruct (E_live st HE) as (H1 & _ & H3). lia. Qed.

Lemma rge_eq st st' k x :
  th st' x = th st x -> owned st' x = owned st x -> g_nlinked st' = g_nlinked st ->
  (forall c, g_rank st' c = g_rank st c) -> rge st' k x = rge st k x.
Proof. intros H1 H2 H3 H4. unfold rge, cur. rewrite H1, H2, H3. destruct (th st x); try reflexivity; try rewrite H4; try reflexivity; destruct (owned st x =? 0); try rewrite H4; reflexivity. Qed.

Lemma rge_gt st k x : g_nlinked st < k -> rge st k x = false.
Proof.
  intros H. unfold rge. destruct (cur st x) as [c|]; [|reflexivity]. apply Nat.leb_gt. lia.
Qed.

Lemma cur_ranked st x c : Inv1 st -> cur st x = Some c -> 1 <= g_rank st c.
Proof.
  intros [HT HE] H. destruct (HT x) as [Hok Hx]. unfold cur in H.
  destruct (th st x) as [|[]| | | | | | | |]; cbn [T] in Hx; try discriminate;
    try (destruct (Nat.eqb_spec (owned st x) 0) as [|Hnz]; [discriminate|]; injection H as <-; apply Hok; exact Hnz);
    injection H as <-; tauto.
Qed.

Lemma cur_holder st x : Inv1 st -> owned st x <> 0 -> cur st x = Some (owned st x).
Proof.
  intros HI Ho. pose proof (owned_pc st x HI Ho) as Hp. unfold cur.
  destruct (th st x) as [|[]| | | | | | | |]; cbn [holder_pc] in Hp; try contradiction;
    destruct (Nat.eqb_spec (owned st x) 0); try contradiction; reflexivity.
Qed.

(** ** steps that do not change the depth >= 1 classes *)
Lemma Inv2_same st st' :
  g_threads st' = g_threads st -> nent st' = nent st -> g_nlinked st' = g_nlinked st -> g_peak st' = g_peak st ->
  (forall k x, In x (g_threads st) -> rge st' (S k) x = rge st (S k) x) ->
  (forall x, In x (g_threads st) -> pendb st' x = pendb st x) ->
  Inv2 st -> Inv2 st'.
Proof.
  intros Ht Hn Hl Hp Hr Hb [H1 H2 H3].
  assert (Enp : npend st' = npend st) by (unfold npend; rewrite Ht; apply cnt_ext; exact Hb).
  assert (ER : forall k, R st' (S k) = R st (S k)) by (intros k; unfold R; rewrite Ht; apply cnt_ext; apply Hr).
  constructor.
  - rewrite Hn, Hl, Enp. exact H1.
  - rewrite Hn, Hp. exact H2.
  - intros k. rewrite ER, Enp, Hp. apply H3.
Qed.

(** thread [t] moves between program points with the same cursor; [owned t] may change accordingly *)
Lemma Inv2_keep st st' t :
  g_threads st' = g_threads st -> nent st' = nent st -> g_nlinked st' = g_nlinked st -> g_peak st' = g_peak st ->
  (forall c, g_rank st' c = g_rank st c) ->
  (forall x, x <> t -> th st' x = th st x /\ owned st' x = owned st x) ->
  cur st' t = cur st t -> pendb st' t = pendb st t ->
  Inv2 st -> Inv2 st'.
Proof.
  intros Ht Hn Hl Hp Hrk Hx Hc Hb. apply Inv2_same; try assumption.
  - intros k x _. destruct (Nat.eq_dec x t) as [->|Hne].
    + unfold rge. rewrite Hc, Hl. destruct (cur st t); [rewrite Hrk|]; reflexivity.
    + destruct (Hx x Hne). apply rge_eq; assumption.
  - intros x _. destruct (Nat.eq_dec x t) as [->|Hne]; [exact Hb|]. destruct (Hx x Hne) as [H _]. unfold pendb. rewrite H. reflexivity.
Qed.

(** ** START of an acquire *)
Lemma Inv2_go_live st t ini :
  ~ In t (g_threads st) -> Inv2 st -> Inv2 (go_live st t (W0 ini)).
Proof.
  intros Hnin [H1 H2 H3].
  assert (Hx : forall x, In x (g_threads st) -> x <> t) by (intros x Hx ->; contradiction).
  assert (Enp : npend (go_live st t (W0 ini)) = npend st).
  { unfold npend, go_live; prj. rewrite cnt_cons. unfold pendb at 1; prj. upds. cbn.
    apply cnt_ext. intros x Hin. unfold pendb; prj. pose proof (Hx x Hin). upds. reflexivity. }
  assert (ER : forall k, R (go_live st t (W0 ini)) k = R st k).
  { intros k. unfold R, go_live; prj. rewrite cnt_cons. unfold rge at 1, cur; prj. upds. cbn.
    apply cnt_ext. intros x Hin. pose proof (Hx x Hin). apply rge_eq; prj; upds; reflexivity. }
  constructor.
  - rewrite Enp. exact H1.
  - unfold go_live; prj. unfold go_live in *. lia.
  - intros k. rewrite ER, Enp. intros Hk. specialize (H3 k Hk). unfold go_live; prj. lia.
Qed.

(** ** the walker reads [head]: its depth is 0 *)
Lemma Inv2_enter st t ini ini' :
  E st -> th st t = W0 ini -> Inv2 st -> Inv2 (setpc st t (W1 ini' (head st))).
Proof.
  intros HE Hth. apply Inv2_same; try reflexivity.
  - intros k x _. destruct (Nat.eq_dec x t) as [->|Hne].
    + unfold rge, cur, setpc; prj. upds. rewrite Hth. destruct (E_head st HE) as [-> _].
      apply Nat.leb_gt. lia.
    + apply rge_eq; unfold setpc; prj; upds; reflexivity.
  - intros x _. unfold pendb, setpc; prj. destruct (Nat.eq_dec x t) as [->|Hne]; upds; [rewrite Hth|]; reflexivity.
Qed.

(** ** the walker finds its cursor busy and moves on *)
Lemma Inv2_pass st t ini ini' e :
  Inv1 st -> Inv2 st -> (th st t = W1 ini e \/ th st t = W2 ini e) -> est st e <> 0 ->
  Inv2 (setpc st t (W1 ini' (nxt st e))).
Proof.
  intros HI H2 Hth Hbusy. pose proof HI as [HT HE]. pose proof H2 as [P1 P2 P3].
  destruct (HT t) as [_ Ht]. destruct (T_walker st t ini e Ht Hth) as ((Ho & Hin & _) & Hr & _).
  assert (Hcur : cur st t = Some e) by (unfold cur; destruct Hth as [-> | ->]; reflexivity).
  (* the owner of the busy entry *)
  destruct (g_owner st e) as [x|] eqn:Hox; [|exfalso; apply Hbusy; apply (E_free st HE); exact Hox].
  pose proof (owner_of_linked st e x HI Hox Hr) as Hxo.
  assert (Hez : e <> 0) by (apply (ranked_nz st); assumption).
  assert (Hxt : x <> t) by (intros ->; congruence).
  assert (Hxnz : owned st x <> 0) by congruence.
  destruct (HT x) as [Hokx _]. destruct (Hokx Hxnz) as (Hxin & _ & _).
  pose proof (cur_holder st x HI Hxnz) as Hcx. rewrite Hxo in Hcx.
  destruct (E_live st HE) as (_ & Hnd & _).
  set (k0 := g_nlinked st - g_rank st e).
  destruct (E_next st HE e Hr) as [Hnx _]. pose proof (E_rank_le st HE e) as Hle.
  set (st' := setpc st t (W1 ini' (nxt st e))).
  assert (Hrt' : forall k, rge st' k t = (k <=? S k0)).
  { intros k. unfold rge, cur, st', setpc; prj. upds. f_equal. unfold k0. lia. }
  assert (Hrt : forall k, rge st k t = (k <=? k0)) by (intros k; unfold rge; rewrite Hcur; reflexivity).
  assert (Hrx : forall k, rge st k x = (k <=? k0)) by (intros k; unfold rge; rewrite Hcx; reflexivity).
  assert (Hro : forall k y, y <> t -> rge st' k y = rge st k y).
  { intros k y Hy. apply rge_eq; unfold st', setpc; prj; upds; reflexivity. }
  assert (Enp : npend st' = npend st).
  { unfold npend, st', setpc; prj. apply cnt_ext. intros y _. unfold pendb; prj.
    destruct (Nat.eq_dec y t) as [->|Hy]; upds; [destruct Hth as [-> | ->]|]; reflexivity. }
  constructor.
  - rewrite Enp. exact P1.
  - exact P2.
  - intros k Hk. rewrite Enp. change (g_peak st') with (g_peak st). change (g_threads st') with (g_threads st) in *.
    destruct (Nat.eq_dec k k0) as [->|Hk0].
    + (* the class the walker enters *)
      assert (E1 : R st' (S k0) = S (R st (S k0))).
      { unfold R. change (g_threads st') with (g_threads st). apply (cnt_flip _ _ _ t); try assumption.
        - rewrite Hrt. apply Nat.leb_gt. lia.
        - rewrite Hrt'. apply Nat.leb_le. lia.
        - intros y _ Hy. apply Hro. exact Hy. }
      assert (E2 : R st (S k0) + 2 <= R st k0).
      { unfold R. apply (cnt_two _ _ _ t x); try assumption; try congruence.
        - intros y _. unfold rge. destruct (cur st y); [|discriminate]. rewrite !Nat.leb_le. lia.
        - rewrite Hrt. apply Nat.leb_gt. lia.
        - rewrite Hrt. apply Nat.leb_le. lia.
        - rewrite Hrx. apply Nat.leb_gt. lia.
        - rewrite Hrx. apply Nat.leb_le. lia. }
      assert (Hpos : 0 < R st k0) by lia.
      pose proof (Qall st (live_le_peak st HE) H2 k0 Hpos). lia.
    + assert (E1 : R st' (S k) = R st (S k)).
      { unfold R. change (g_threads st') with (g_threads st). apply cnt_ext. intros y _.
        destruct (Nat.eq_dec y t) as [->|Hy]; [|apply Hro; exact Hy].
        rewrite Hrt, Hrt'. destruct (Nat.leb_spec (S k) (S k0)); destruct (Nat.leb_spec (S k) k0); try reflexivity; lia. }
      rewrite E1 in *. apply P3. exact Hk.
Qed.

(** ** the walker reaches the end of the list and creates an entry *)
Lemma Inv2_alloc st t ini ini' :
  th st t = W1 ini 0 -> In t (g_threads st) -> NoDup (g_threads st) -> length (g_threads st) <= g_peak st ->
  g_rank st 0 = 0 -> Inv2 st -> Inv2 (alloc st t ini').
Proof.
  intros Hth Hin Hnd Hlen Hr0 H2. pose proof H2 as [P1 P2 P3].
  set (st' := alloc st t ini').
  assert (Hrt : forall k, rge st k t = (k <=? g_nlinked st)).
  { intros k. unfold rge, cur. rewrite Hth, Hr0. f_equal. lia. }
  assert (Hrt' : forall k, rge st' k t = false) by (intros k; unfold rge, cur, st', alloc; prj; upds; reflexivity).
  assert (Hro : forall k y, y <> t -> rge st' k y = rge st k y).
  { intros k y Hy. apply rge_eq; unfold st', alloc; prj; upds; reflexivity. }
  assert (Enp : npend st' = S (npend st)).
  { unfold npend. change (g_threads st') with (g_threads st). apply (cnt_flip _ _ _ t); try assumption.
    - unfold pendb. rewrite Hth. reflexivity.
    - unfold pendb, st', alloc; prj. upds. reflexivity.
    - intros y _ Hy. unfold pendb, st', alloc; prj. upds. reflexivity. }
  assert (Htop : 0 < R st (g_nlinked st)).
  { unfold R. apply (cnt_pos _ _ t); [exact Hin|]. rewrite Hrt. apply Nat.leb_refl. }
  pose proof (Qall st Hlen H2 _ Htop) as Hq.
  constructor.
  - rewrite Enp. change (nent st') with (S (nent st)). change (g_nlinked st') with (g_nlinked st). lia.
  - change (nent st') with (S (nent st)). change (g_peak st') with (g_peak st). lia.
  - intros k Hk. rewrite Enp. change (g_peak st') with (g_peak st).
    destruct (Nat.le_gt_cases (S k) (g_nlinked st)) as [Hle|Hgt].
    + assert (E1 : R st (S k) = S (R st' (S k))).
      { unfold R. change (g_threads st') with (g_threads st). apply (cnt_flip _ _ _ t); try assumption.
        - apply Hrt'.
        - rewrite Hrt. apply Nat.leb_le. exact Hle.
        - intros y _ Hy. symmetry. apply Hro. exact Hy. }
      assert (Hpos : 0 < R st (S k)) by lia.
      pose proof (P3 k Hpos). lia.
    + exfalso. assert (R st' (S k) <= R st (S k)).
      { unfold R. change (g_threads st') with (g_threads st). apply cnt_le. intros y _.
        destruct (Nat.eq_dec y t) as [->|Hy]; [rewrite Hrt'; discriminate|rewrite Hro by exact Hy; tauto]. }
      assert (R st (S k) = 0) by (apply cnt_none; intros y _; apply rge_gt; exact Hgt).
      lia.
Qed.

(** ** the new entry is linked: every other cursor gets one more entry in front of it *)
Lemma Inv2_link st t n h :
  Inv1 st -> Inv2 st -> th st t = A3 n h -> Inv2 (link st t n).
Proof.
  intros HI H2 Hth. pose proof HI as [HT HE]. pose proof H2 as [P1 P2 P3].
  destruct (HT t) as [_ Ht]. rewrite Hth in Ht. cbn [T] in Ht.
  destruct Ht as ((Ho & Hin & _) & (Hpo & Hpr & Hpn) & _).
  destruct (E_live st HE) as (_ & Hnd & _).
  set (st' := link st t n).
  assert (Hnz : n <> 0) by lia.
  assert (Hrt' : forall k, rge st' (S k) t = false).
  { intros k. unfold rge, cur, st', link; prj. upds. destruct (Nat.eqb_spec n 0); [contradiction|]. upds. apply Nat.leb_gt. lia. }
  assert (Hrt : forall k, rge st k t = false) by (intros k; unfold rge, cur; rewrite Hth; reflexivity).
  assert (Hro : forall k y, y <> t -> rge st' (S k) y = rge st k y).
  { intros k y Hy. unfold rge.
    assert (Ec : cur st' y = cur st y) by (unfold cur, st', link; prj; upds; reflexivity).
    rewrite Ec. destruct (cur st y) as [c|] eqn:Ecy; [|reflexivity].
    pose proof (cur_ranked st y c HI Ecy) as Hc. pose proof (E_rank_le st HE c) as Hle.
    assert (c <> n) by (intros ->; lia).
    unfold st', link; prj. upds.
    destruct (Nat.leb_spec (S k) (S (g_nlinked st) - g_rank st c)); destruct (Nat.leb_spec k (g_nlinked st - g_rank st c)); try reflexivity; lia. }
  assert (Enp : npend st = S (npend st')).
  { unfold npend. change (g_threads st') with (g_threads st). apply (cnt_flip _ _ _ t); try assumption.
    - unfold pendb, st', link; prj. upds. reflexivity.
    - unfold pendb. rewrite Hth. reflexivity.
    - intros y _ Hy. unfold pendb, st', link; prj. upds. reflexivity. }
  assert (ER : forall k, R st' (S k) = R st k).
  { intros k. unfold R. change (g_threads st') with (g_threads st). apply cnt_ext. intros y _.
    destruct (Nat.eq_dec y t) as [->|Hy]; [rewrite Hrt, Hrt'; reflexivity|apply Hro; exact Hy]. }
  constructor.
  - change (nent st') with (nent st). change (g_nlinked st') with (S (g_nlinked st)). lia.
  - exact P2.
  - intros k. rewrite ER. intros Hk. change (g_peak st') with (g_peak st).
    pose proof (Qall st (live_le_peak st HE) H2 k Hk). lia.
Qed.

(** ** release: the thread is not live any more *)
Lemma Inv2_release st t :
  Inv1 st -> Inv2 st -> th st t = R1 -> Inv2 (release st t (owned st t)).
Proof.
  intros HI H2 Hth. pose proof HI as [HT HE]. pose proof H2 as [P1 P2 P3].
  set (st' := release st t (owned st t)).
  assert (Hro : forall k y, y <> t -> rge st' k y = rge st k y).
  { intros k y Hy. apply rge_eq; unfold st', release; prj; upds; reflexivity. }
  assert (Enp : npend st' = npend st).
  { unfold npend. change (g_threads st') with (without t (g_threads st)).
    rewrite <- (cnt_without_false (pendb st) t (g_threads st)) by (unfold pendb; rewrite Hth; reflexivity).
    apply cnt_ext. intros y Hy. apply in_without in Hy. destruct Hy as [_ Hy].
    unfold pendb, st', release; prj. upds. reflexivity. }
  assert (ER : forall k, R st' k <= R st k).
  { intros k. unfold R. change (g_threads st') with (without t (g_threads st)).
    rewrite (cnt_ext (rge st' k) (rge st k)); [apply cnt_without_le|].
    intros y Hy. apply in_without in Hy. destruct Hy as [_ Hy]. apply Hro. exact Hy. }
  constructor.
  - rewrite Enp. exact P1.
  - exact P2.
  - intros k Hk. rewrite Enp. change (g_peak st') with (g_peak st).
    pose proof (ER (S k)). assert (Hpos : 0 < R st (S k)) by lia. pose proof (P3 k Hpos). lia.
Qed.

Lemma Inv2_adv st t ini c :
  Inv1 st -> In t (g_threads st) -> Inv2 (setpc st t (W1 ini c)) -> Inv2 (adv st t ini c).
Proof.
  intros [HT HE] Hin H. unfold adv. destruct (Nat.eqb_spec c 0) as [->|Hnz]; [|exact H].
  destruct (E_live st HE) as (_ & Hnd & _).
  apply (Inv2_alloc _ t ini ini); unfold setpc; prj; upds; try assumption; try reflexivity.
  - apply (live_le_peak st HE).
  - apply (rank_zero st HE).
Qed.

(** closes [Inv2 st'] after a step of [t] (at [Hth : th st t = _]) that leaves the cursor of [t],
    the ranks and the list of live threads as they are: [Inv2_keep] with its side conditions computed *)
Ltac keep_cursor st t H2 Hth :=
  apply (Inv2_keep st _ t); unfold setpc, set_est, set_nxt; prj; try reflexivity; try exact H2;
  [ intros x Hx; upds; split; reflexivity
  | unfold cur; prj; upds; rewrite Hth; reflexivity
  | unfold pendb; prj; upds; rewrite Hth; reflexivity ].

Lemma Inv2_trans st t st' : Inv1 st -> Inv2 st -> trans st t st' -> Inv2 st'.
Proof.
  intros HI H2 Htr. pose proof HI as [HT HE]. destruct (HT t) as [Hok Ht].
  destruct Htr.
  - rewrite Hth in Ht. apply Inv2_go_live; [|exact H2]. destruct Ho as [[-> _]|[-> _]]; apply Ht.
  - destruct Ho as [[-> ->]|[-> ->]]; keep_cursor st t H2 Hth.
  - rewrite Hth in Ht. apply Inv2_adv; [exact HI|apply Ht|]. apply (Inv2_enter st t ini ini); assumption.
  - keep_cursor st t H2 Hth.
  - destruct (T_walker st t ini c Ht Hth) as (Hs & _). apply Inv2_adv; [exact HI|apply Hs|].
    apply (Inv2_pass st t ini ini c); assumption.
  - (* the adopted entry is the cursor *)
    rewrite Hth in Ht. apply (Inv2_keep st _ t); unfold adopt; prj; try reflexivity; try exact H2.
    + intros x Hx. upds. split; reflexivity.
    + unfold cur; prj. upds. rewrite Hth. pose proof (ranked_nz st c HE (proj2 Ht)). destruct (Nat.eqb_spec c 0); [contradiction|reflexivity].
    + unfold pendb; prj. upds. rewrite Hth. reflexivity.
  - keep_cursor st t H2 Hth.
  - destruct Hth as [Hth|(h & Hth & _)]; keep_cursor st t H2 Hth.
  - apply (Inv2_link st t n h); assumption.
  - apply Inv2_release; assumption.
  - keep_cursor st t H2 Hth.
Qed.

Lemma Inv2_step st a st' es : Inv1 st -> Inv2 st -> step st a = Some (st', es) -> Inv2 st'.
Proof.
  intros HI H2 Hst. destruct a as [t o|t]; [|apply (Inv2_trans st t); [exact HI|exact H2|eapply step_trans, Hst]].
  cbn [step] in Hst. destruct (th st t) eqn:Hth; try discriminate.
  destruct (legal st t o); [|discriminate]. injection Hst as <- <-. destruct o; keep_cursor st t H2 Hth.
Qed.

Lemma Inv2_init : Inv2 init.
Proof. constructor; cbn; intros; lia. Qed.

Theorem tbl_inv2 st : reach init step st -> Inv2 st.
Proof.
  apply (inv_rule_aux _ _ _ init step Inv1 Inv2); [exact tbl_inv1|exact Inv2_init|].
  intros s a s' es HJ _ HI Hst. eapply Inv2_step; eassumption.
Qed.

(** * Theorems *)

(** ** Exclusive ownership *)
(** The entry a thread holds between operations is owned by that thread (ghost owner), lies in
    1..nent and its state is inactive or active (never free); two threads never hold the same
    entry; an entry is free exactly when nobody owns it. *)
Theorem tbl_exclusive_owner st :
  reach init step st ->
  (forall t, owned st t <> 0 ->
     g_owner st (owned st t) = Some t /\ (est st (owned st t) = 1 \/ est st (owned st t) = 2) /\ 1 <= owned st t <= nent st) /\
  (forall t1 t2, owned st t1 <> 0 -> owned st t1 = owned st t2 -> t1 = t2) /\
  (forall e t, g_owner st e = Some t -> (est st e = 1 \/ est st e = 2) /\ 1 <= e <= nent st) /\
  (forall e, est st e = 0 <-> g_owner st e = None).
Proof.
  intros Hr. pose proof (tbl_inv1 st Hr) as [HT HE].
  assert (Hbusy : forall e t, g_owner st e = Some t -> (est st e = 1 \/ est st e = 2) /\ 1 <= e <= nent st).
  { intros e t Ho. split.
    - pose proof (E_state st HE e). assert (est st e <> 0) by (intros Hc; apply (E_free st HE) in Hc; congruence). lia.
    - destruct (Nat.eq_dec e 0) as [->|Hz]; [destruct (E_range st HE 0 (or_introl eq_refl)); congruence|].
      destruct (Nat.le_gt_cases e (nent st)); [lia|]. destruct (E_range st HE e (or_intror H)); congruence. }
  split; [|split; [|split]].
  - intros t Ho. destruct (HT t) as [Hok _]. destruct (Hok Ho) as (_ & H1 & _).
    split; [exact H1|]. apply (Hbusy _ t). exact H1.
  - intros t1 t2 Ho Heq. destruct (HT t1) as [Hok1 _]. destruct (HT t2) as [Hok2 _].
    destruct (Hok1 Ho) as (_ & H1 & _). assert (Ho2 : owned st t2 <> 0) by congruence.
    destruct (Hok2 Ho2) as (_ & H2 & _). congruence.
  - exact Hbusy.
  - apply (E_free st HE).
Qed.

(** ** The list *)
(** [chain nx c l]: following [nx] from [c] visits exactly the elements of [l] and ends in nullptr *)
Fixpoint chain (nx : nat -> nat) (c : nat) (l : list nat) : Prop :=
  match l with
  | [] => c = 0
  | e :: r => c = e /\ e <> 0 /\ chain nx (nx e) r
  end.

Lemma chain_det nx : forall l1 l2 c, chain nx c l1 -> chain nx c l2 -> l1 = l2.
Proof.
  induction l1 as [|a l1 IH]; intros [|b l2] c H1 H2; cbn [chain] in *; try reflexivity.
  - destruct H2 as (-> & Hb & _). congruence.
  - destruct H1 as (-> & Ha & _). congruence.
  - destruct H1 as (-> & Ha & H1). destruct H2 as (<- & _ & H2). f_equal. eapply IH; eassumption.
Qed.

Lemma chain_ext nx nx' : forall l c, chain nx c l -> (forall e, In e l -> nx' e = nx e) -> chain nx' c l.
Proof.
  induction l as [|a l IH]; intros c H He; cbn [chain] in *; [exact H|].
  destruct H as (-> & Ha & H). split; [reflexivity|]. split; [exact Ha|].
  rewrite (He a (or_introl eq_refl)). apply IH; [exact H|]. intros e Hin. apply He. right. exact Hin.
Qed.

Lemma chain_of_rank st : E st -> forall r c, g_rank st c = r -> (c = 0 \/ 1 <= g_rank st c) ->
  exists l, chain (nxt st) c l /\ length l = r /\ NoDup l /\ (forall e, In e l <-> 1 <= g_rank st e <= r).
Proof.
  intros HE. induction r as [|r IH]; intros c Hc Hz.
  - exists []. cbn [chain length In]. split; [destruct Hz; [assumption|lia]|]. split; [reflexivity|]. split; [constructor|].
    intros e. split; [tauto|lia].
  - assert (Hr : 1 <= g_rank st c) by lia.
    destruct (E_next st HE c Hr) as [H1 H2].
    destruct (IH (nxt st c)) as (l & Hl1 & Hl2 & Hl3 & Hl4); [lia|exact H2|].
    exists (c :: l). cbn [chain length]. split; [|split; [|split]].
    + split; [reflexivity|]. split; [apply (ranked_nz st); assumption|exact Hl1].
    + congruence.
    + constructor; [|exact Hl3]. intros Hin. apply Hl4 in Hin. lia.
    + intros e. cbn [In]. rewrite Hl4. split.
      * intros [<-|H]; lia.
      * intros H. destruct (Nat.eq_dec (g_rank st e) (S r)) as [He|He]; [|right; lia].
        left. apply (E_inj st HE); [exact Hr|congruence].
Qed.

Lemma pend_entry_owner st t e : Inv1 st -> pend_entry (th st t) = e -> e <> 0 -> g_owner st e = Some t /\ g_rank st e = 0.
Proof.
  intros [HT _] H Hz. destruct (HT t) as [_ Ht].
  destruct (th st t); cbn [pend_entry] in H; try congruence; cbn [T] in Ht; subst; unfold pend_ok in Ht; tauto.
Qed.

(** The list reachable from [head] is duplicate free and contains exactly the entries created so
    far that are not still being inserted by their creator. *)
Theorem tbl_list_wf st :
  reach init step st ->
  exists l, chain (nxt st) (head st) l /\ NoDup l /\ length l = g_nlinked st /\
    (forall e, In e l <-> 1 <= g_rank st e) /\
    (forall e, In e l <-> (1 <= e <= nent st /\ forall t, pend_entry (th st t) <> e)).
Proof.
  intros Hr. pose proof (tbl_inv1 st Hr) as HI. pose proof HI as [HT HE].
  destruct (E_head st HE) as [Hh1 Hh2].
  destruct (chain_of_rank st HE _ _ Hh1 Hh2) as (l & H1 & H2 & H3 & H4).
  assert (H5 : forall e, In e l <-> 1 <= g_rank st e).
  { intros e. rewrite H4. pose proof (E_rank_le st HE e). lia. }
  exists l. repeat split; try assumption; try (apply H5; assumption).
  - apply (ranked_le st e HE). apply H5. assumption.
  - apply (ranked_le st e HE). apply H5. assumption.
  - intros t Hp. apply H5 in H. assert (e <> 0) by (apply (ranked_nz st); assumption).
    destruct (pend_entry_owner st t e HI Hp H0). lia.
  - intros [He Hp]. apply H5. destruct (Nat.eq_dec (g_rank st e) 0) as [Hz|Hz]; [|lia].
    destruct (E_pend st HE e He Hz) as [t Ht]. exfalso. apply (Hp t). exact Ht.
Qed.

(** when no thread is in the middle of inserting an entry, the list contains all entries 1..nent *)
Corollary tbl_list_complete st :
  reach init step st -> (forall t, pend_entry (th st t) = 0) ->
  exists l, chain (nxt st) (head st) l /\ NoDup l /\ length l = nent st /\ (forall e, In e l <-> 1 <= e <= nent st).
Proof.
  intros Hr Hq. destruct (tbl_list_wf st Hr) as (l & H1 & H2 & H3 & _ & H5).
  pose proof (tbl_inv2 st Hr) as [P1 _ _].
  assert (npend st = 0).
  { apply cnt_none. intros y _. unfold pendb. specialize (Hq y). pose proof (tbl_inv1 st Hr) as [HT _]. destruct (HT y) as [_ Ty].
    destruct (th st y); try reflexivity; cbn [pend_entry T] in *; unfold pend_ok in Ty; lia. }
  exists l. repeat split; try assumption; try lia; try (apply H5; assumption).
  intros He. apply H5. split; [exact He|]. intros t. rewrite Hq. lia.
Qed.

(** what one step does to the linked entries *)
Definition shape (st st' : state) : Prop :=
  (forall e, 1 <= g_rank st e -> g_rank st' e = g_rank st e /\ nxt st' e = nxt st e) /\
  (head st' = head st \/ (g_rank st (head st') = 0 /\ head st' <> 0 /\ nxt st' (head st') = head st)) /\
  nent st <= nent st'.

Lemma shape_same st st' :
  nxt st' = nxt st -> g_rank st' = g_rank st -> head st' = head st -> nent st' = nent st -> shape st st'.
Proof.
  intros Hx Hr Hh Hn. split; [|split; [left; exact Hh|lia]]. intros e _. rewrite Hx, Hr. split; reflexivity.
Qed.

(** only the next pointer of the unlinked entry [n] is written *)
Lemma shape_nxt st st' n v :
  g_rank st n = 0 -> nxt st' = upd (nxt st) n v -> g_rank st' = g_rank st -> head st' = head st ->
  nent st <= nent st' -> shape st st'.
Proof.
  intros Hn Hx Hr Hh Hle. split; [|split; [left; exact Hh|exact Hle]].
  intros e He. rewrite Hx, Hr. assert (e <> n) by (intros ->; lia). upds. split; reflexivity.
Qed.

Lemma step_shape st a st' es : Inv1 st -> step st a = Some (st', es) -> shape st st'.
Proof.
  intros HI Hst. pose proof HI as [HT HE]. destruct a as [t o|t].
  { cbn [step] in Hst. destruct (th st t); try discriminate. destruct (legal st t o); [|discriminate].
    injection Hst as <- <-. apply shape_same; reflexivity. }
  assert (Hadv : forall ini c, shape st (adv st t ini c)).
  { intros ini c. unfold adv. destruct (c =? 0); [|apply shape_same; reflexivity].
    apply (shape_nxt st _ (S (nent st)) 0); [|reflexivity..|apply Nat.le_succ_diag_r].
    apply (E_range st HE). right. lia. }
  destruct (HT t) as [_ Ht]. apply step_trans in Hst.
  destruct Hst;
    try apply Hadv; try (apply shape_same; reflexivity).
  - (* next_entry of the pending entry is written *)
    apply (shape_nxt st _ n (head st)); [|reflexivity..|apply Nat.le_refl].
    destruct Hth as [Hth|(h & Hth & _)]; rewrite Hth in Ht; apply Ht.
  - (* link *) rewrite Hth in Ht. destruct Ht as (_ & (_ & Hz & Hn) & Hnx).
    unfold link, shape; prj. split; [|split; [right; repeat split; [exact Hz|lia|congruence]|lia]].
    intros x Hx. assert (x <> n) by (intros ->; lia). upds. split; reflexivity.
Qed.

(** Entries are never removed from the list and the next pointer of a linked entry never changes:
    after any step the list from [head] is the old list, possibly with ONE new entry in front. *)
Theorem tbl_entries_never_removed st a st' es l :
  reach init step st -> step st a = Some (st', es) -> chain (nxt st) (head st) l ->
  (forall e, In e l -> nxt st' e = nxt st e) /\
  (chain (nxt st') (head st') l \/ exists n, ~ In n l /\ chain (nxt st') (head st') (n :: l)) /\
  nent st <= nent st'.
Proof.
  intros Hr Hst Hl. pose proof (tbl_inv1 st Hr) as HI. pose proof HI as [HT HE].
  destruct (step_shape st a st' es HI Hst) as (H1 & H2 & H3).
  destruct (tbl_list_wf st Hr) as (l0 & Hc0 & _ & _ & Hin0 & _).
  pose proof (chain_det _ _ _ _ Hl Hc0) as ->.
  assert (Hnx : forall e, In e l0 -> nxt st' e = nxt st e) by (intros e He; apply H1; apply Hin0; exact He).
  split; [exact Hnx|]. split; [|exact H3].
  destruct H2 as [Hh|(Hz & Hnz & Hn)].
  - left. rewrite Hh. apply (chain_ext (nxt st)); assumption.
  - right. exists (head st'). split.
    + intros Hc. apply Hin0 in Hc. lia.
    + cbn [chain]. split; [reflexivity|]. split; [exact Hnz|]. rewrite Hn. apply (chain_ext (nxt st)); assumption.
Qed.

(** ** Bounded by the peak number of live threads *)
Definition acquiring (p : pc) : Prop :=
  match p with W0 _ | W1 _ _ | W2 _ _ | A1 _ _ | A2 _ | A3 _ _ => True | _ => False end.

(** [g_live] counts exactly the threads that hold an entry or are inside an acquire (after its START) *)
Theorem tbl_live_char st :
  reach init step st ->
  g_live st = length (g_threads st) /\ NoDup (g_threads st) /\ g_live st <= g_peak st /\
  (forall t, In t (g_threads st) <-> (owned st t <> 0 \/ acquiring (th st t))).
Proof.
  intros Hr. pose proof (tbl_inv1 st Hr) as [HT HE]. destruct (E_live st HE) as (H1 & H2 & H3).
  repeat split; try assumption.
  - intros Hin. destruct (HT t) as [Hok Ht]. destruct (Nat.eq_dec (owned st t) 0) as [Hz|Hz]; [|left; exact Hz].
    right. destruct (th st t) as [|[]| | | | | | | |]; cbn [T acquiring] in *; try exact I; tauto.
  - intros [Ho|Ha].
    + destruct (HT t) as [Hok _]. apply Hok. exact Ho.
    + destruct (HT t) as [_ Ht]. destruct (th st t) as [|[]| | | | | | | |]; cbn [T acquiring] in *; try contradiction;
        unfold scan_ok in Ht; tauto.
Qed.

(** THE BOUND: the number of entries ever created never exceeds the peak number of threads that
    were simultaneously live (between the START of an acquire and the end of the matching release). *)
Theorem tbl_bounded_by_peak st : reach init step st -> nent st <= g_peak st.
Proof. intros Hr. apply (I2_le st (tbl_inv2 st Hr)). Qed.

(** the refined form: entries = linked entries + entries being inserted, and a walker that has
    [k] linked entries in front of its cursor proves that the peak was at least [entries-in-front + pending + 1] *)
Theorem tbl_depth_bound st t c :
  reach init step st -> In t (g_threads st) -> cur st t = Some c ->
  (g_nlinked st - g_rank st c) + npend st + 1 <= g_peak st /\ nent st = g_nlinked st + npend st.
Proof.
  intros Hr Hin Hc. pose proof (tbl_inv1 st Hr) as [HT HE]. pose proof (tbl_inv2 st Hr) as H2.
  split; [|apply (I2_pend st H2)].
  set (k := g_nlinked st - g_rank st c).
  assert (Hpos : 0 < R st k).
  { unfold R. apply (cnt_pos _ _ t); [exact Hin|]. unfold rge. rewrite Hc. apply Nat.leb_refl. }
  pose proof (Qall st (live_le_peak st HE) H2 k Hpos). lia.
Qed.

(** *** the stronger natural statements are false *)
Definition states_of (acts : list action) : list state :=
  (fix go (s : state) (l : list action) : list state :=
     match l with
     | [] => [s]
     | a :: r => match step s a with Some (s', _) => s :: go s' r | None => s :: go s r end
     end) init acts.

Definition final (acts : list action) : state := fst (fst (run step init acts)).

Definition busy (st : state) : nat := cnt (fun e => negb (est st e =? 0)) (seq 1 (nent st)).

(** T1 holds e1, T2 holds e2 (list e2 -> e1); T3 walks past e2 (busy); T2 releases e2 BEHIND the
    walker; T3 finds e1 busy, reaches the end and creates e3 although e2 is free and only two
    threads are live. *)
Definition cex_behind : list action :=
  [Start 1 OAcquire; Step 1; Step 1; Step 1; Step 1; Step 1;
   Start 2 OAcquire; Step 2; Step 2; Step 2; Step 2; Step 2; Step 2;
   Start 3 OAcquire; Step 3; Step 3; Step 3;
   Start 2 ORelease; Step 2; Step 2;
   Step 3].

Lemma cex_behind_facts :
  let s := final cex_behind in
  snd (run step init cex_behind) = 0 /\ nent s = 3 /\ g_live s = 2 /\ g_peak s = 3 /\ est s 2 = 0 /\ th s 3 = A1 2 3.
Proof. vm_compute. repeat split. Qed.

(** "an entry is only created when every existing entry is busy" is FALSE *)
Lemma tbl_create_only_if_all_busy_refuted :
  ~ (forall st a st' es, reach init step st -> step st a = Some (st', es) -> nent st' = S (nent st) ->
       forall e, 1 <= e <= nent st -> est st e <> 0).
Proof.
  intros H.
  set (pre := firstn 20 cex_behind).
  assert (Hr : reach init step (final pre)) by apply run_reach.
  destruct (step (final pre) (Step 3)) as [[s' es]|] eqn:Hst; [|vm_compute in Hst; discriminate].
  apply (H (final pre) (Step 3) s' es Hr Hst) with (e := 2).
  - vm_compute in Hst. injection Hst as <- _. reflexivity.
  - vm_compute. lia.
  - vm_compute. reflexivity.
Qed.

(** "when an entry is created, the number of entries is at most the number of threads live at that moment" is FALSE
    (only the PEAK bounds it) *)
Lemma tbl_bounded_by_current_live_refuted :
  ~ (forall st a st' es, reach init step st -> step st a = Some (st', es) -> nent st' = S (nent st) -> nent st' <= g_live st').
Proof.
  intros H.
  set (pre := firstn 20 cex_behind).
  assert (Hr : reach init step (final pre)) by apply run_reach.
  destruct (step (final pre) (Step 3)) as [[s' es]|] eqn:Hst; [|vm_compute in Hst; discriminate].
  assert (Hc : nent s' <= g_live s').
  { apply (H (final pre) (Step 3) s' es Hr Hst). vm_compute in Hst. injection Hst as <- _. reflexivity. }
  vm_compute in Hst. injection Hst as <- _. vm_compute in Hc. lia.
Qed.

(** "the number of entries is at most the peak number of simultaneously busy (owned) entries" is FALSE:
    threads that are still looking for an entry have to be counted *)
Lemma tbl_bounded_by_peak_owned_refuted :
  ~ (forall acts, nent (final acts) <= fold_right Nat.max 0 (map busy (states_of acts))).
Proof. intros H. specialize (H cex_behind). vm_compute in H. lia. Qed.

(** the bound itself is attained: three entries, peak three *)
Example tbl_bounded_by_peak_example :
  reach init step (final cex_behind) /\ nent (final cex_behind) = 3 /\ g_peak (final cex_behind) = 3.
Proof. split; [apply run_reach|]. vm_compute. split; reflexivity. Qed.

(** * Solo runs: termination bounds (C16) and reuse of free entries *)
Definition idle (s : state) (t : nat) : bool := match th s t with Idle => true | _ => false end.

(** upper bound on the remaining solo steps of thread [t]: two per list entry still to be examined *)
Definition tbl_mu (st : state) (t : nat) : nat :=
  match th st t with
  | Idle => 0
  | Begin OAcquire | Begin OAcquireInactive => 2 * g_nlinked st + 5
  | Begin ORelease | Begin OActivate => 2
  | W0 _ => 2 * g_nlinked st + 4
  | W1 _ c => 2 * g_rank st c + 3
  | W2 _ c => 2 * g_rank st c + 2
  | A1 _ _ => 3
  | A2 _ => 2
  | A3 _ h => if head st =? h then 1 else 2
  | R1 | V1 => 1
  end.

Lemma mu_adv st t ini c : tbl_mu (adv st t ini c) t = if c =? 0 then 3 else 2 * g_rank st c + 3.
Proof. unfold adv. destruct (c =? 0); unfold tbl_mu, alloc, setpc; prj; upds; reflexivity. Qed.

Lemma tbl_solo_step st t :
  reach init step st -> idle st t = false ->
  exists st' es, step st (Step t) = Some (st', es) /\ reach init step st' /\ tbl_mu st' t < tbl_mu st t.
Proof.
  intros Hr Hi. pose proof (tbl_inv1 st Hr) as [HT HE].
  assert (Hen : exists st' es, step st (Step t) = Some (st', es)).
  { unfold idle in Hi. cbn [step]. destruct (th st t) as [|[]| | | | | | | |]; try discriminate;
      repeat match goal with |- context [if ?c then _ else _] => destruct c end;
      match goal with |- exists _ _, Some ?x = _ => exists (fst x), (snd x); destruct x; reflexivity end. }
  destruct Hen as (st' & es & Hst). exists st', es. split; [exact Hst|]. split; [eapply reach_step; eassumption|].
  destruct (HT t) as [_ Ht]. destruct (E_head st HE) as [Hh1 Hh2]. apply step_trans in Hst. unfold tbl_mu at 2.
  destruct Hst;
    (* a step to a pc with a smaller constant, but for the walk and the head CAS *)
    try (rewrite Hth; unfold tbl_mu, setpc, set_est, adopt, release; prj; upds; lia).
  - rewrite Hth. destruct Ho as [[-> _]|[-> _]]; unfold tbl_mu, go_live; prj; upds; lia.
  - rewrite Hth. destruct Ho as [[-> ->]|[-> ->]]; unfold tbl_mu, setpc; prj; upds; lia.
  - rewrite Hth, mu_adv. destruct (head st =? 0); lia.
  - destruct (T_walker st t ini c Ht Hth) as (_ & Hc & _). destruct (E_next st HE c Hc) as [Hn _].
    rewrite mu_adv. destruct Hth as [-> | ->]; destruct (nxt st c =? 0); lia.
  - unfold tbl_mu at 1, set_nxt; prj; upds. rewrite Nat.eqb_refl.
    destruct Hth as [-> |(h & -> & Hne)]; [lia|]. destruct (Nat.eqb_spec (head st) h); [contradiction|lia].
  - rewrite Hth, Hh, Nat.eqb_refl. unfold tbl_mu, link; prj; upds. lia.
Qed.

(** From EVERY reachable state a thread running alone finishes its current operation within
    [tbl_mu] steps: an acquire within 2 * (number of linked entries) + 5 steps, a release or an
    activate within 2 steps (1 step once the operation has started). *)
Theorem tbl_solo st t :
  reach init step st -> finishes_within step Step idle t (tbl_mu st t) st.
Proof.
  intros Hr.
  apply (finishes_by_measure _ _ _ step Step idle (reach init step) (fun s => tbl_mu s t) t); [|exact Hr].
  intros s Hs Hi. exact (tbl_solo_step s t Hs Hi).
Qed.

Lemma tbl_mu_le st t : reach init step st -> tbl_mu st t <= 2 * g_nlinked st + 5 /\ g_nlinked st <= nent st.
Proof.
  intros Hr. pose proof (tbl_inv1 st Hr) as [HT HE]. pose proof (tbl_inv2 st Hr) as [P1 _ _]. split; [|lia].
  unfold tbl_mu. destruct (th st t) as [|[]| |ini c|ini c| | |n h| |]; try lia.
  - pose proof (E_rank_le st HE c). lia.
  - pose proof (E_rank_le st HE c). lia.
  - destruct (head st =? h); lia.
Qed.

Theorem tbl_acquire_solo_terminates st t :
  reach init step st ->
  finishes_within step Step idle t (2 * nent st + 5) st /\
  (th st t = R1 \/ th st t = V1 -> finishes_within step Step idle t 1 st) /\
  (th st t = Begin ORelease \/ th st t = Begin OActivate -> finishes_within step Step idle t 2 st).
Proof.
  intros Hr. pose proof (tbl_solo st t Hr) as H. destruct (tbl_mu_le st t Hr) as [H1 H2].
  split; [|split].
  - eapply finishes_within_mono; [|exact H]. lia.
  - intros [E|E]; unfold tbl_mu in H; rewrite E in H; exact H.
  - intros [E|E]; unfold tbl_mu in H; rewrite E in H; exact H.
Qed.

Theorem tbl_never_stuck st t : reach init step st -> never_stuck step Step idle t st.
Proof. intros Hr. eapply finishes_never_stuck. apply tbl_solo. exact Hr. Qed.

(** ** Reuse *)
Lemma solo_steps_inv (P : state -> Prop) t :
  (forall s s1 es, P s -> idle s t = false -> step s (Step t) = Some (s1, es) -> P s1) ->
  forall n s s', solo_steps step Step idle t n s s' -> P s -> P s'.
Proof.
  intros Hc n s s' H. induction H as [s|n s s1 es s' Hi Hst H IH]; intros HP; [exact HP|].
  apply IH. eapply Hc; eassumption.
Qed.

(** the walk of [t] still has a free linked entry at or behind its cursor, and creates nothing *)
Definition reuseP (n0 : nat) (t : nat) (s : state) : Prop :=
  reach init step s /\ nent s = n0 /\
  match th s t with
  | Begin OAcquire | Begin OAcquireInactive | W0 _ => exists e0, 1 <= g_rank s e0 /\ est s e0 = 0
  | W1 _ c | W2 _ c => exists e0, 1 <= g_rank s e0 <= g_rank s c /\ est s e0 = 0
  | Idle => 1 <= owned s t <= n0
  | _ => False
  end.

Lemma reuseP_step n0 t s s1 es :
  reuseP n0 t s -> idle s t = false -> step s (Step t) = Some (s1, es) -> reuseP n0 t s1.
Proof.
  intros (Hr & Hn & Hp) _ Hst. pose proof (tbl_inv1 s Hr) as [HT HE].
  split; [eapply reach_step; eassumption|].
  destruct (HT t) as [_ Ht]. apply step_trans in Hst.
  destruct Hst;
    try (rewrite Hth in Hp; contradiction).
  - destruct Ho as [[-> _]|[-> _]]; rewrite Hth in Hp; unfold go_live; prj; upds; (split; [exact Hn|exact Hp]).
  - destruct Ho as [[-> _]|[-> _]]; rewrite Hth in Hp; contradiction.
  - (* the head is linked: the free entry is at or behind it *)
    rewrite Hth in Hp. destruct Hp as (e0 & He0 & Hf). destruct (E_head s HE) as [Hh1 Hh2].
    pose proof (E_rank_le s HE e0) as Hle.
    assert (Hhz : head s <> 0) by (intros Hz; rewrite Hz, (rank_zero s HE) in Hh1; lia).
    unfold adv. destruct (Nat.eqb_spec (head s) 0); [contradiction|]. unfold setpc; prj. upds.
    split; [exact Hn|]. exists e0. split; [lia|exact Hf].
  - rewrite Hth in Hp. unfold setpc; prj. upds. split; [exact Hn|exact Hp].
  - (* the cursor is busy, so the free entry is strictly behind it *)
    destruct (T_walker s t ini c Ht Hth) as (_ & Hc & _).
    assert (Hp' : exists e0, 1 <= g_rank s e0 <= g_rank s c /\ est s e0 = 0)
      by (destruct Hth as [Hth|Hth]; rewrite Hth in Hp; exact Hp).
    destruct Hp' as (e0 & He0 & Hf). destruct (E_next s HE c Hc) as [Hnx Hnz].
    assert (Hne : g_rank s e0 <> g_rank s c).
    { intros Heq. assert (e0 = c) by (apply (E_inj s HE); [lia|exact Heq]). subst. contradiction. }
    assert (Hcz : nxt s c <> 0) by (intros Hz; rewrite Hz, (rank_zero s HE) in Hnx; lia).
    unfold adv. destruct (Nat.eqb_spec (nxt s c) 0); [contradiction|]. unfold setpc; prj. upds.
    split; [exact Hn|]. exists e0. split; [lia|exact Hf].
  - rewrite Hth in Ht. unfold adopt; prj. upds. split; [exact Hn|]. pose proof (ranked_le s c HE (proj2 Ht)). lia.
  - destruct Hth as [Hth|(h & Hth & _)]; rewrite Hth in Hp; contradiction.
Qed.

(** If some entry is free when a thread starts an acquire and the thread then runs alone (in
    particular: in a sequential execution), the acquire returns an EXISTING entry and creates none.
    The other threads may be anywhere, even in the middle of their own operations. *)
Theorem tbl_reuse st t :
  reach init step st ->
  (th st t = Begin OAcquire \/ th st t = Begin OAcquireInactive \/ exists ini, th st t = W0 ini) ->
  (exists e, 1 <= e <= nent st /\ est st e = 0) ->
  exists n st', n <= 2 * nent st + 5 /\ solo_steps step Step idle t n st st' /\
    th st' t = Idle /\ nent st' = nent st /\ 1 <= owned st' t <= nent st /\
    g_owner st' (owned st' t) = Some t.
Proof.
  intros Hr Hpc (e & He & Hf). pose proof (tbl_inv1 st Hr) as HI. pose proof HI as [HT HE].
  assert (Hlk : 1 <= g_rank st e).
  { destruct (Nat.eq_dec (g_rank st e) 0) as [Hz|Hz]; [|lia]. exfalso.
    destruct (E_pend st HE e He Hz) as [x Hx].
    destruct (pend_entry_owner st x e HI Hx ltac:(lia)) as [Ho _].
    apply (E_free st HE) in Hf. congruence. }
  assert (HP : reuseP (nent st) t st).
  { split; [exact Hr|]. split; [reflexivity|].
    destruct Hpc as [-> | [-> | [ini ->]]]; exists e; split; assumption. }
  destruct (tbl_acquire_solo_terminates st t Hr) as [(n & st' & Hn & Hs & Hid) _].
  pose proof (solo_steps_inv (reuseP (nent st) t) t (fun s s1 es => reuseP_step (nent st) t s s1 es) n st st' Hs HP) as (Hr' & Hn' & Hp').
  unfold idle in Hid. exists n, st'. destruct (th st' t) eqn:Hth; try discriminate.
  repeat split; try assumption; try lia.
  destruct (tbl_exclusive_owner st' Hr') as (H1 & _). apply H1. lia.
Qed.

(** * Examples: the hypotheses of the theorems are satisfiable by concrete reachable states *)

(** after [cex_behind]: T1 holds e1 (active), T2 holds nothing, T3 is inserting e3; list = e2 -> e1 *)
Example tbl_exclusive_owner_example :
  let s := final cex_behind in
  reach init step s /\ owned s 1 = 1 /\ g_owner s 1 = Some 1 /\ est s 1 = 2 /\ owned s 2 = 0 /\ g_owner s 2 = None /\ est s 2 = 0.
Proof. split; [apply run_reach|]. vm_compute. repeat split. Qed.

Example tbl_list_wf_example :
  let s := final cex_behind in
  reach init step s /\ chain (nxt s) (head s) [2; 1] /\ nent s = 3 /\ pend_entry (th s 3) = 3 /\ g_nlinked s = 2.
Proof. split; [apply run_reach|]. vm_compute. repeat split; discriminate. Qed.

(** T3 finishes inserting e3: the list grows by one entry in front, nothing else changes *)
Example tbl_entries_never_removed_example :
  let s := final (cex_behind ++ [Step 3; Step 3]) in
  reach init step s /\ chain (nxt s) (head s) [2; 1] /\
  exists s' es, step s (Step 3) = Some (s', es) /\ chain (nxt s') (head s') [3; 2; 1] /\ owned s' 3 = 3.
Proof.
  split; [apply run_reach|]. split; [vm_compute; repeat split; discriminate|].
  eexists. eexists. split; [vm_compute; reflexivity|]. vm_compute. repeat split; discriminate.
Qed.

(** T2 comes back while e2 is free (T3 is still in the middle of inserting e3): running alone it gets e2 back *)
Example tbl_reuse_example :
  let s := final (cex_behind ++ [Start 2 OAcquire]) in
  reach init step s /\ th s 2 = Begin OAcquire /\ est s 2 = 0 /\ nent s = 3 /\
  match solo_run step Step idle 2 11 0 s with
  | Done s' n => n = 4 /\ owned s' 2 = 2 /\ nent s' = 3 /\ est s' 2 = 2
  | _ => False
  end.
Proof. split; [apply run_reach|]. vm_compute. repeat split. Qed.

(** a walker at the head of a two-entry list needs at most 2*2+4 solo steps; here both entries are busy
    for T3 (in the state after 15 actions of [cex_behind]) and it uses 1 (head) + 2 (walk) + 3 (create and insert) *)
Example tbl_solo_example :
  let s := final (firstn 15 cex_behind) in
  reach init step s /\ th s 3 = W0 2 /\ tbl_mu s 3 = 8 /\
  match solo_run step Step idle 3 8 0 s with Done s' n => n = 6 /\ owned s' 3 = 3 | _ => False end.
Proof. split; [apply run_reach|]. vm_compute. repeat split. Qed.

Example tbl_release_solo_example :
  let s := final (firstn 19 cex_behind) in
  reach init step s /\ th s 2 = R1 /\
  match solo_run step Step idle 2 1 0 s with Done s' n => n = 1 /\ owned s' 2 = 0 /\ est s' 2 = 0 | _ => False end.
Proof. split; [apply run_reach|]. vm_compute. repeat split. Qed.

(** T3 has walked past e2 (one linked entry in front of its cursor e1) while T1, T2, T3 are live *)
Example tbl_depth_bound_example :
  let s := final (firstn 17 cex_behind) in
  reach init step s /\ In 3 (g_threads s) /\ cur s 3 = Some 1 /\ g_nlinked s - g_rank s 1 = 1 /\ g_peak s = 3.
Proof. split; [apply run_reach|]. vm_compute. repeat split. left. reflexivity. Qed.

Example tbl_live_char_example :
  let s := final cex_behind in
  reach init step s /\ g_threads s = [3; 1] /\ owned s 1 <> 0 /\ acquiring (th s 3).
Proof. split; [apply run_reach|]. vm_compute. repeat split. discriminate. Qed.
