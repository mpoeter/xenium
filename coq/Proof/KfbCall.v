(** kirsch_bounded_kfifo_queue (C06): call-level theorems -- a pop takes its value from the head segment
    (k-relaxation, segment form), the empty verdict.  No axioms, no admits. *)
From Coq Require Import NArith List Bool Lia PeanoNat.
From XV Require Import Base.Word Conc.Lts Conc.Ev Model.KfbDefs.
From XV Require Import Proof.KfbArith Proof.KfbWf Proof.KfbOwn Proof.KfbRing Proof.KfbRegion Proof.KfbMono Proof.KfbCons.
Import ListNotations.
Local Open Scope N_scope.

Set Default Proof Using "All".
Section Call.
  Variables k segs : N.
  Hypothesis Hk : 1 <= k.
  Hypothesis Hs : 1 <= segs.
  Notation step := (step k segs).
  Notation sg := (sg k).
  Notation qsize := (qsize k segs).
  Notation dist := (dist segs).
  Notation hs := (hs k).
  Notation ts := (ts k).
  Notation inreg := (inreg k segs).
  Notation Inv := (Inv k segs).

  (** [in_call u o s0 s]: thread u took the first step of a call of [o] from [s0], and [s] is a later
      state of the execution, up to and including the state right after the call's return *)
  Inductive in_call (u : nat) (o : op) (s0 : state) : state -> Prop :=
  | ic_first s1 es r : th s0 u = Begin o -> step s0 (Step u r) = Some (s1, es) -> in_call u o s0 s1
  | ic_next s a s' es : in_call u o s0 s -> th s u <> Idle -> step s a = Some (s', es) -> in_call u o s0 s'.

  Lemma in_call_reach u o s0 s : reach init step s0 -> in_call u o s0 s -> reach init step s.
  Proof. intros Hr H. induction H; eapply reach_step; eauto. Qed.

  (** the program counter of u changes only by u's own steps *)
  Lemma step_th_other u s a s' es : step s a = Some (s', es) -> tid a <> u -> th s' u = th s u.
  Proof.
    intros Hst Hn. destruct (step_inv k segs s a s' es Hst) as (r & p & s1 & p' & res & _ & -> & Eth & _).
    sim. rewrite Eth. apply upd_other. auto.
  Qed.

  (** What a thread inside a call knows goes back to an instant of the call.  [Pc] is a set of program points,
      [R s1 s] what is known in s about the earlier state s1; if R survives every step taken while u is in Pc
      ([Hkeep]) and holds with s1 = s whenever a step of u enters Pc ([Hown]), then whenever u is in Pc there is
      an instant s1 of the call with R s1 s. *)
  Section Witness.
    Variables (u : nat) (o : op) (s0 : state) (Pc : pc -> Prop) (R : state -> state -> Prop).
    Hypothesis Hr0 : reach init step s0.
    Hypothesis Hb : ~ Pc (Begin o).
    Hypothesis Hkeep : forall s1 s a s' es, reach init step s -> step s a = Some (s', es) -> Pc (th s u) -> R s1 s -> R s1 s'.
    Hypothesis Hown : forall s a s' es, reach init step s -> step s a = Some (s', es) -> tid a = u -> Pc (th s' u) ->
      Pc (th s u) \/ R s' s'.

    Lemma call_witness s : in_call u o s0 s -> Pc (th s u) ->
      exists s1, in_call u o s0 s1 /\ reach_from step s1 s /\ R s1 s.
    Proof.
      intros Hic. induction Hic as [s1 es r Hbeg Hst | s a s' es Hic IH Hni Hst]; intros Hp.
      - destruct (Hown s0 _ s1 es Hr0 Hst eq_refl Hp) as [Q|Q]; [rewrite Hbeg in Q; contradiction|].
        exists s1. split; [eapply ic_first; eauto|]. split; [apply rf_refl|exact Q].
      - assert (Hrs : reach init step s) by (eapply in_call_reach; eauto).
        assert (Hp0 : Pc (th s u) \/ R s' s').
        { destruct (Nat.eq_dec (tid a) u) as [E|E]; [apply (Hown s a s' es); assumption|left].
          rewrite <- (step_th_other u s a s' es Hst E). exact Hp. }
        destruct Hp0 as [Hp0|Q].
        + destruct (IH Hp0) as (s1 & A & B & C). exists s1. split; [exact A|]. split; [eapply rf_step; eauto|eapply Hkeep; eauto].
        + exists s'. split; [eapply ic_next; eauto|]. split; [apply rf_refl|exact Q].
    Qed.
  End Witness.

  (** * k-relaxation: a pop takes its value from the head segment *)

  Definition popping (p : pc) (hd : iw) (j q tg : N) : Prop :=
    (exists tl, p = DT hd tl j q tg) \/ p = D4 hd j q tg.

  Lemma pop_witness u s0 s : reach init step s0 -> in_call u OPop s0 s ->
    forall hd j q tg, popping (th s u) hd j q tg ->
    exists s1, in_call u OPop s0 s1 /\ reach_from step s1 s /\ head s1 = hd /\ (slot s j = (q, tg) -> slot s1 j = (q, tg)).
  Proof.
    intros Hr0 Hic hd j q tg.
    apply (call_witness u OPop s0 (fun p => popping p hd j q tg)
             (fun s1 s => head s1 = hd /\ (slot s j = (q, tg) -> slot s1 j = (q, tg))) Hr0); [| | |exact Hic].
    - intros [[tl E]|E]; discriminate.
    - (* the slot word can only be (q, tg) now if it has been all the time *)
      intros s1 x a y es Hrx Hst Hp [C D]. split; [exact C|]. intros E'. apply D.
      destruct (Inv1_reach k segs Hk Hs x Hrx) as (_ & _ & _ & Hall). pose proof (Hall u) as H5.
      destruct (step_mono k segs x a y es Hst) as (_ & _ & Hm & _).
      assert (Ht : tg <= snd (slot x j)) by (destruct Hp as [[tl Hp]|Hp]; rewrite Hp in H5; apply H5).
      destruct (Hm j) as [Q|Q]; [rewrite <- Q; exact E'|]. rewrite E' in Q. cbn [snd] in Q. lia.
    - (* u enters DT / D4 at the re-check of head, or goes from DT to D4 *)
      intros x a y es Hrx Hst <- Hp.
      destruct (step_inv k segs x a y es Hst) as (r & p & s1 & p' & res & -> & -> & _ & Htr & _).
      sim. rewrite upd_same in Hp. unfold popping.
      destruct Hp as [[tl ->]| ->]; (destruct Htr as [[-> Htr]|Htr]; inversion Htr; subst; sim; eauto).
  Qed.

  (** The value a pop takes: at an instant inside the call ([s1], the re-check of head) head had the
      value the pop had read, the slot lay in the segment head pointed to, and it held the value the
      pop takes -- with the same tag, i.e. it stayed there until the pop's CAS. *)
  Theorem kfb_pop_from_head_segment u s0 s hd j q tg :
    reach init step s0 -> in_call u OPop s0 s -> th s u = D4 hd j q tg -> slot s j = (q, tg) ->
    exists s1, in_call u OPop s0 s1 /\ reach_from step s1 s /\
      head s1 = hd /\ slot s1 j = (q, tg) /\ q <> 0 /\ j < qsize /\ sg j = hs s1.
  Proof.
    intros Hr0 Hic Hpc Hsl.
    destruct (pop_witness u s0 s Hr0 Hic hd j q tg ltac:(right; exact Hpc)) as (s1 & A & B & C & D).
    exists s1. split; [exact A|]. split; [exact B|]. split; [exact C|]. split; [apply D; exact Hsl|].
    assert (Hrs : reach init step s) by (eapply in_call_reach; eauto).
    destruct (Inv_reach k segs Hk Hs s Hrs) as ((_ & _ & _ & Hall) & _).
    pose proof (Hall u) as H1. rewrite Hpc in H1. cbn [KfbWf.T1] in H1. destruct H1 as (_ & [X Y] & Z & _).
    split; [exact Z|]. split; [exact X|]. unfold KfbRing.hs, KfbRing.sgw. rewrite C. exact Y.
  Qed.

  (** head leaves a segment only when no committed value is stored in it *)
  Lemma hs_step s a s' es : Inv s -> step s a = Some (s', es) -> hs s' = hs s \/ segfree k segs s (hs s).
  Proof.
    intros (_ & _ & H3 & _) Hst.
    destruct (step_inv k segs s a s' es Hst) as (r & p & s1 & p' & res & Ep & -> & _ & [[-> _]|Hwr] & _); [left; reflexivity|].
    pose proof (H3 (tid a)) as Hme3. rewrite Ep in Hme3.
    destruct Hwr; subst; cbn [KfbRing.T3] in Hme3; try (left; reflexivity); right; apply (Hme3 eq_refl).
  Qed.

  (** If the value was already committed at that instant, it is still in the head segment when the
      pop takes it: head cannot leave a segment that stores a committed value.  So a pop never takes
      a committed value from a segment behind or ahead of the current head segment; every other
      committed value is stored in the head segment (at most k - 1 of them) or in a later one. *)
  Theorem kfb_pop_committed_in_current_head s1 s j q tg :
    reach init step s1 -> reach_from step s1 s -> slot s1 j = (q, tg) -> slot s j = (q, tg) ->
    In q (g_in s1) -> j < qsize -> sg j = hs s1 -> hs s = hs s1 /\ In q (g_in s).
  Proof.
    intros Hr1 Hrf H1 H2 Hin Hj Hsg. revert H2.
    induction Hrf as [|x a y es Hf IH Hst]; intros H2; [split; [reflexivity|exact Hin]|].
    assert (Hrx : reach init step x) by (eapply reach_from_reach; eauto).
    pose proof (reach_from_mono k segs s1 x Hf) as (_ & _ & M1 & _).
    pose proof (step_mono k segs x a y es Hst) as (_ & _ & M2 & G & _).
    assert (Hx : slot x j = (q, tg)).
    { rewrite <- H1. apply (iw_mono_squeeze (slot s1 j) (slot x j) (slot y j)); [apply M1|apply M2|congruence]. }
    destruct (IH Hx) as [Eh Hq]. split; [|apply G; exact Hq].
    destruct (hs_step x a y es (Inv_reach k segs Hk Hs x Hrx) Hst) as [Q|Q]; [congruence|].
    exfalso. apply (Q j Hj); [congruence|]. rewrite Hx. exact Hq.
  Qed.

  (** k-relaxation, segment form.  When a pop takes a value that was already committed at the instant
      [s1] of its head re-check (by [kfb_pop_from_head_segment]: head s1 = hd, slot j in that segment),
      then at the instant [s] of the pop's CAS: the slot is one of the k slots of the CURRENT head
      segment, and every other committed value still in the queue is stored in another slot of the
      head segment (at most k-1 of them) or in a segment strictly between head and tail (incl. tail).
      FULL STATEMENT (C06): every pop returns one of the k oldest values of a linearization of the
      history (k-FIFO linearizability).  MISSING: the construction of the linearization order
      (push linearized at its final read of tail); note that the COMMIT order [g_in] is not that
      order -- a delayed push may commit into an older segment after newer segments were filled --
      and that a pop may take a value whose push is still inside [committed] from a segment head
      has already left (both are legal because the push overlaps everything in between). *)
  Theorem kfb_pop_k_relaxed_partial s1 s j q tg :
    reach init step s1 -> reach_from step s1 s -> slot s1 j = (q, tg) -> slot s j = (q, tg) ->
    In q (g_in s1) -> j < qsize -> sg j = hs s1 ->
    (fst (head s) <= j < fst (head s) + k) /\
    forall b, In b (g_in s) -> ~ In b (g_out s) -> b <> q ->
      exists j', j' <> j /\ j' < qsize /\ fst (slot s j') = b /\
        ((fst (head s) <= j' < fst (head s) + k) \/ (1 <= dist (hs s) (sg j') /\ dist (hs s) (sg j') <= dist (hs s) (ts s))).
  Proof.
    intros Hr1 Hrf H1 H2 Hin Hj Hsg.
    destruct (kfb_pop_committed_in_current_head s1 s j q tg Hr1 Hrf H1 H2 Hin Hj Hsg) as [Ehs Hq].
    assert (Hrs : reach init step s) by (eapply reach_from_reach; eauto).
    destruct (Inv_reach k segs Hk Hs s Hrs) as ((Hh & _) & _).
    split; [apply (seg_bounds k segs Hk Hs); [exact Hh|]; unfold KfbRing.hs, KfbRing.sgw in *; congruence|].
    intros b Hb Hob Hne.
    destruct (kfb_never_stranded k segs Hk Hs s b Hrs Hb Hob) as (j' & Hj' & Hsj' & Hreg & _).
    exists j'. split; [intros ->; rewrite H2 in Hsj'; cbn in Hsj'; congruence|]. split; [exact Hj'|]. split; [exact Hsj'|].
    unfold KfbRegion.inreg in Hreg.
    destruct (N.eq_dec (dist (hs s) (sg j')) 0) as [Z|Z]; [left|right; lia].
    apply (seg_bounds k segs Hk Hs); [exact Hh|]. symmetry.
    apply (dist_0 k segs Hk Hs); [apply Hh|apply (sg_lt k segs Hk Hs); exact Hj'|exact Z].
  Qed.

  (** * The 'empty' verdict *)

  Lemma ret_events u res e t res' : In (ERet u res) (e ++ [ERet t res']) -> (forall r, ~ In (ERet u r) e) -> u = t /\ res = res'.
  Proof. rewrite in_app_iff. cbn. intros [H|[H|[]]] Hn; [exfalso; eapply Hn; eauto|inversion H; auto]. Qed.

  (** the step that returns 'empty' is the final comparison of tail in [DE] *)
  Lemma empty_step u s a s' es : step s a = Some (s', es) -> In (ERet u [2]) es ->
    exists hd tl, tid a = u /\ th s u = DE hd tl /\ tail s = tl.
  Proof.
    intros Hst Hin. destruct (step_inv k segs s a s' es Hst) as (r & p & s1 & p' & res & Ep & _ & _ & Htr & Hret).
    destruct (Hret u [2] Hin) as [-> ->].
    destruct Htr as [[_ Htr]|Htr]; inversion Htr; subst. eauto.
  Qed.

  Definition empty_at (st : state) : Prop := forall b, In b (g_in st) -> In b (g_out st).

  Lemma empty_witness u s0 s : reach init step s0 -> in_call u OPop s0 s ->
    forall hd tl, th s u = DE hd tl ->
    exists s1, in_call u OPop s0 s1 /\ reach_from step s1 s /\ head s1 = hd /\ fst hd = fst tl /\
               (tail s = tl -> tail s1 = tl /\ empty_at s1).
  Proof.
    intros Hr0 Hic hd tl.
    apply (call_witness u OPop s0 (fun p => p = DE hd tl)
             (fun s1 s => head s1 = hd /\ fst hd = fst tl /\ (tail s = tl -> tail s1 = tl /\ empty_at s1)) Hr0); [| | |exact Hic].
    - discriminate.
    - (* tail can only be tl now if it has been all the time *)
      intros s1 x a y es Hrx Hst Hp (C & D & F). split; [exact C|]. split; [exact D|]. intros E'. apply F.
      destruct (Inv_reach k segs Hk Hs x Hrx) as ((_ & _ & _ & Hall) & _).
      pose proof (Hall u) as H1. rewrite Hp in H1. destruct H1 as (_ & _ & Q).
      destruct (step_mono k segs x a y es Hst) as (_ & Mt & _).
      apply (iw_mono_squeeze tl (tail x) (tail y)); assumption.
    - (* D3n -> DE: the witness is the state right after this step *)
      intros x a y es Hrx Hst <- Hp. right.
      assert (Hry : reach init step y) by (eapply reach_step; eauto).
      destruct (Inv_reach k segs Hk Hs y Hry) as ((Hh' & _) & _ & H3' & _).
      pose proof (H3' (tid a)) as T3'. rewrite Hp in T3'. cbn [KfbRing.T3] in T3'. destruct T3' as [Esg T3'].
      destruct (step_inv k segs x a y es Hst) as (r & p & s1 & p' & res & _ & -> & _ & Htr & _).
      sim. rewrite upd_same in Hp. subst p'.
      destruct Htr as [[-> Htr]|Htr]; inversion Htr; subst. sim.
      split; [reflexivity|]. split; [assumption|]. intros Et. split; [exact Et|]. intros b Hb.
      destruct (in_dec N.eq_dec b (g_out x)) as [Ho|Ho]; [exact Ho|exfalso].
      destruct (T3' eq_refl) as [_ Hfree].
      destruct (kfb_never_stranded k segs Hk Hs _ b Hry Hb Ho) as (j & Hj & Hsj & Hreg & _).
      unfold KfbRegion.inreg, KfbRing.hs, KfbRing.ts, KfbRing.sgw in Hreg. sim. rewrite Et in Hreg.
      unfold KfbRing.sgw in Esg. rewrite <- Esg, (dist_refl k segs Hk Hs) in Hreg.
      assert (Hz : sg j = sg (fst (head x))).
      { symmetry. apply (dist_0 k segs Hk Hs); [apply Hh'|apply (sg_lt k segs Hk Hs); exact Hj|lia]. }
      apply (Hfree j Hj Hz). unfold nocommit. sim. rewrite Hsj. exact Hb.
  Qed.

  (** A pop answers 'empty' only if at an instant inside the call (the re-check of head after the
      scan) head and tail pointed to the same segment and NO committed value was in the queue. *)
  Theorem kfb_empty_verdict u s0 s a s' es :
    reach init step s0 -> in_call u OPop s0 s -> step s a = Some (s', es) -> In (ERet u [2]) es ->
    exists s1, in_call u OPop s0 s1 /\ reach_from step s1 s' /\
      fst (head s1) = fst (tail s1) /\ empty_at s1.
  Proof.
    intros Hr0 Hic Hst Hret. destruct (empty_step u s a s' es Hst Hret) as (hd & tl & _ & Hpc & Ht).
    destruct (empty_witness u s0 s Hr0 Hic hd tl Hpc) as (s1 & A & B & C & D & F).
    destruct (F Ht) as [F1 F2]. exists s1. split; [exact A|]. split; [eapply rf_step; eauto|]. split; [congruence|exact F2].
  Qed.
End Call.
