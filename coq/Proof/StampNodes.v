(** Bookkeeping of the nodes handed to guard_ptr::reclaim in the stamp_it model (Model/StampDefs.v), the safety half
    of C02:  [N0]  a node is in at most one place, and the ghost [g_where] says exactly where: a retired node is in the
    local retire list of exactly one thread, or in the global list of chunks, or in the hands of exactly one thread
    (the chunks process_global_nodes / add_to_global_retired_nodes work on), or freed; all these lists are duplicate
    free; a node is freed at most once ([g_nfree]) and only after it was retired; its stamp field holds the stamp it
    was retired with.  Holds in every reachable state ([N0_reach]).

    The invariant is stated over an arbitrary assignment [pcs] of program points to threads ([N0x]), so that the effect
    of one step can be followed through the intermediate states of the step function: first what the step does to the
    nodes ([NL_cas], [NW_retire], [NW_move] ...), then the continuation that sets the program point.  No axioms. *)
From Coq Require Import NArith List Bool Arith Lia PeanoNat Setoid Permutation.
From XV Require Import Conc.Lts Conc.Ev Model.StampDefs Proof.StampBase.
Import ListNotations.
Local Open Scope N_scope.

(** * the reclaimable prefix of a list, one round over the chunks *)
Lemma split_chunk_app ns ts l : let (f, r) := split_chunk ns ts l in l = f ++ r.
Proof.
  induction l as [|n l IH]; cbn [split_chunk]; [reflexivity|].
  destruct (ns n <=? ts); [|reflexivity].
  destruct (split_chunk ns ts l) as [f r]. cbn [app]. congruence.
Qed.
Lemma split_chunk_le ns ts l : forall n, In n (fst (split_chunk ns ts l)) -> ns n <= ts.
Proof.
  induction l as [|a l IH]; cbn [split_chunk]; [intros n []|].
  destruct (N.leb_spec (ns a) ts) as [Hle|Hgt]; [|intros n []].
  destruct (split_chunk ns ts l) as [f r]. cbn [fst] in *. intros n [<-|Hn]; [exact Hle|apply IH; exact Hn].
Qed.
Lemma concat_ifnil (l : list N) (g : list (list N)) : concat (if is_nil l then g else l :: g) = l ++ concat g.
Proof. destruct l; reflexivity. Qed.
Lemma proc_chunks_perm ns ts chs : let (fl, rest) := proc_chunks ns ts chs in Permutation (concat chs) (fl ++ concat rest).
Proof.
  induction chs as [|c chs IH]; cbn [proc_chunks concat]; [constructor|].
  pose proof (split_chunk_app ns ts c) as Hc. destruct (split_chunk ns ts c) as [f c'].
  destruct (proc_chunks ns ts chs) as [fr r']. subst c.
  rewrite concat_ifnil, <- !app_assoc. apply Permutation_app_head.
  rewrite IH. rewrite !app_assoc. apply Permutation_app_tail. apply Permutation_app_comm.
Qed.
Lemma proc_chunks_le ns ts chs : forall n, In n (fst (proc_chunks ns ts chs)) -> ns n <= ts.
Proof.
  induction chs as [|c chs IH]; cbn [proc_chunks]; [intros n []|].
  pose proof (split_chunk_le ns ts c) as Hc. destruct (split_chunk ns ts c) as [f c'].
  destruct (proc_chunks ns ts chs) as [fr r']. cbn [fst] in *.
  intros n Hn. apply in_app_or in Hn. destruct Hn; auto.
Qed.

Lemma NoDup_app_iff {A} (l1 l2 : list A) : NoDup (l1 ++ l2) <-> NoDup l1 /\ NoDup l2 /\ (forall x, In x l1 -> ~ In x l2).
Proof.
  induction l1 as [|a l IH]; cbn [app].
  - split; [intros H; repeat split; [constructor|exact H|intros x []]|intros (_ & H & _); exact H].
  - rewrite !NoDup_cons_iff, IH, in_app_iff. split.
    + intros (Hni & H1 & H2 & H3). repeat split; try tauto. intros x [<-|Hx]; [tauto|apply H3; exact Hx].
    + intros ((Hni & H1) & H2 & H3). repeat split; try tauto.
      * intros [X|X]; [tauto|]. apply (H3 a); [left; reflexivity|exact X].
      * intros x Hx. apply H3. right. exact Hx.
Qed.
Lemma count_nodup n l : NoDup l -> length (filter (N.eqb n) l) = if memN n l then 1%nat else 0%nat.
Proof.
  induction 1 as [|a l Hni Hnd IH]; [reflexivity|]. cbn [filter memN existsb]. fold (memN n l).
  destruct (N.eqb_spec n a) as [->|Hne]; cbn [orb length].
  - rewrite IH. apply memN_false in Hni. rewrite Hni. reflexivity.
  - exact IH.
Qed.

(** * Retired nodes: where they are *)
Definition flight (p : pc) : list N :=
  match p with PG4 _ ch _ | AG1 _ ch | AG2 _ ch _ => concat ch | _ => [] end.
Definition fresh_of (p : pc) : option N := match p with R3c _ _ (Some n) => Some n | _ => None end.
Definition unl_of (p : pc) : option N := match p with RT1 n => Some n | _ => None end.
(** [g_where] against the life cycle [l] and the number [k] of times the reclaimer freed the node: nowhere = not retired and
    never freed; freed = retired and freed exactly once; in a list / in flight = retired and not freed *)
Definition wh_ok (w : place) (l : life) (k : nat) : Prop :=
  match w with
  | PNone => (forall t r, l <> LRet t r) /\ k = O
  | PFreed => (exists t r, l = LRet t r) /\ k = 1%nat
  | _ => (exists t r, l = LRet t r) /\ k = O
  end.
(** the local list is empty once it was handed over at thread exit *)
Definition xempty (p : pc) : bool := match p with AG1 AGExit _ | AG2 AGExit _ _ => true | _ => false end.

(** the list that holds the nodes whose [g_where] is [p] *)
Definition plist (pcs : nat -> pc) (s : state) (p : place) : list N :=
  match p with PList u => rl (tl s u) | PGlob => concat (gret s) | PFlight u => flight (pcs u) | PNone | PFreed => [] end.
Definition lplace (p : place) : Prop := match p with PNone | PFreed => False | _ => True end.

(** the life cycle of a node up to its retirement *)
Record NL (pcs : nat -> pc) (s : state) : Prop := {
  nl_lt : forall n, g_life s n <> LNone -> n < nalloc s;
  nl_cell : forall c n, cells s c = Some n -> g_life s n = LPub c;
  nl_fresh : forall u n, fresh_of (pcs u) = Some n <-> g_life s n = LFresh u;
  nl_unl : forall u n, unl_of (pcs u) = Some n <-> g_life s n = LUnl u }.
(** the place of a retired node *)
Record NW (pcs : nat -> pc) (s : state) : Prop := {
  nw_where : forall n, wh_ok (g_where s n) (g_life s n) (g_nfree s n);
  nw_at : forall p n, lplace p -> In n (plist pcs s p) <-> g_where s n = p;
  nw_nodup : forall p, NoDup (plist pcs s p);
  nw_stamp : forall n u r, g_life s n = LRet u r -> nstamp s n = r;
  nw_xempty : forall u, xempty (pcs u) = true -> rl (tl s u) = [] }.
Record N0x (pcs : nat -> pc) (s : state) : Prop := { n_life : NL pcs s; n_place : NW pcs s }.
Definition N0 (s : state) : Prop := N0x (th s) s.
Arguments nl_lt {pcs s}. Arguments nl_cell {pcs s}. Arguments nl_fresh {pcs s}. Arguments nl_unl {pcs s}.
Arguments nw_where {pcs s}. Arguments nw_at {pcs s}. Arguments nw_nodup {pcs s}. Arguments nw_stamp {pcs s}.
Arguments nw_xempty {pcs s}. Arguments n_life {pcs s}. Arguments n_place {pcs s}.

Section Fields.
Variables (s : state) (I : N0 s).
Lemma n_cell c n : cells s c = Some n -> g_life s n = LPub c.
Proof. apply (nl_cell (n_life I)). Qed.
Lemma n_new : g_life s (nalloc s) = LNone.
Proof.
  destruct (g_life s (nalloc s)) eqn:X; try reflexivity; assert (nalloc s < nalloc s) by (apply (nl_lt (n_life I)); congruence); lia.
Qed.
Lemma n_fresh1 u n : fresh_of (th s u) = Some n -> g_life s n = LFresh u.
Proof. apply (nl_fresh (n_life I)). Qed.
Lemma n_unl1 u n : unl_of (th s u) = Some n -> g_life s n = LUnl u.
Proof. apply (nl_unl (n_life I)). Qed.
Lemma n_where n : wh_ok (g_where s n) (g_life s n) (g_nfree s n).
Proof. apply (nw_where (n_place I)). Qed.
Lemma n_list u n : In n (rl (tl s u)) <-> g_where s n = PList u.
Proof. apply (nw_at (n_place I) (PList u)). exact Logic.I. Qed.
Lemma n_glob n : In n (concat (gret s)) <-> g_where s n = PGlob.
Proof. apply (nw_at (n_place I) PGlob). exact Logic.I. Qed.
Lemma n_flight u n : In n (flight (th s u)) <-> g_where s n = PFlight u.
Proof. apply (nw_at (n_place I) (PFlight u)). exact Logic.I. Qed.
Lemma n_stamp n u r : g_life s n = LRet u r -> nstamp s n = r.
Proof. apply (nw_stamp (n_place I)). Qed.
End Fields.

Lemma N0_init nc : N0 (init nc).
Proof.
  split; constructor; cbn; intros; try discriminate; try reflexivity.
  - destruct (N.ltb_spec n nc); [assumption|congruence].
  - destruct (N.ltb_spec c nc); [|discriminate]. inversion H; subst. destruct (N.ltb_spec n nc); [reflexivity|lia].
  - split; [discriminate|]. destruct (n <? nc); discriminate.
  - split; [discriminate|]. destruct (n <? nc); discriminate.
  - split; [|reflexivity]. intros t r. destruct (n <? nc); discriminate.
  - destruct p; try contradiction; cbn; (split; [intros []|discriminate]).
  - destruct p; constructor.
  - destruct (n <? nc); discriminate.
Qed.

Lemma wh_not_ret w l k : wh_ok w l k -> (forall t r, l <> LRet t r) -> w = PNone /\ k = O.
Proof. destruct w; cbn; intros [H1 H2] H; auto; destruct H1 as (t0 & r & E); exfalso; eapply H; eauto. Qed.
Lemma wh_ret_some w l k : wh_ok w l k -> w <> PNone -> exists t r, l = LRet t r.
Proof. destruct w; cbn; intros [H1 H2] H; auto; congruence. Qed.
Lemma wh_ok_ext w l l' k : (forall u r, l' = LRet u r <-> l = LRet u r) -> wh_ok w l k -> wh_ok w l' k.
Proof.
  intros E. destruct w; cbn; intros [H1 H2]; (split; [|exact H2]).
  1: intros u r X; apply E in X; exact (H1 u r X).
  all: destruct H1 as (u & r & X); exists u, r; apply E; exact X.
Qed.
Lemma carries_none p : carries p = false -> fresh_of p = None /\ unl_of p = None /\ flight p = [] /\ xempty p = false.
Proof. destruct p; cbn; try discriminate; auto. destruct n; [discriminate|auto]. Qed.

Lemma place_eq_dec (p q : place) : {p = q} + {p <> q}.
Proof. decide equality; apply Nat.eq_dec. Qed.

(** * One thread acts: the other threads keep their program points and local lists *)
Section Act.
Variables (t : nat) (pcs pcs' : nat -> pc) (s s' : state).
Hypothesis Hpcs : forall u, u <> t -> pcs' u = pcs u.
Hypothesis Hrl : forall u, u <> t -> rl (tl s' u) = rl (tl s u).

Lemma role_off {X} (f : pc -> X) : f (pcs' t) = f (pcs t) -> forall u, f (pcs' u) = f (pcs u).
Proof. intros E u. destruct (Nat.eq_dec u t) as [->|Hne]; [exact E|rewrite Hpcs by exact Hne; reflexivity]. Qed.

Lemma NL_frame : NL pcs s -> nalloc s <= nalloc s' -> (forall c, cells s' c = cells s c) -> (forall n, g_life s' n = g_life s n) ->
  fresh_of (pcs' t) = fresh_of (pcs t) -> unl_of (pcs' t) = unl_of (pcs t) -> NL pcs' s'.
Proof.
  intros [I1 I2 I3 I4] Ha Ec El Ef Eu. constructor; intros *; rewrite ?Ec, ?El, ?(role_off _ Ef), ?(role_off _ Eu); auto.
  intros H. apply I1 in H. lia.
Qed.

(** repl allocates its new node *)
Lemma NL_alloc : NL pcs s -> fresh_of (pcs t) = None -> fresh_of (pcs' t) = Some (nalloc s) -> unl_of (pcs' t) = unl_of (pcs t) ->
  nalloc s' = nalloc s + 1 -> (forall c, cells s' c = cells s c) ->
  (forall n, g_life s' n = updN (g_life s) (nalloc s) (LFresh t) n) -> NL pcs' s'.
Proof.
  intros [I1 I2 I3 I4] Ef Ef' Eu Ea Ec El.
  assert (Hn : g_life s (nalloc s) = LNone).
  { destruct (g_life s (nalloc s)) eqn:X; try reflexivity; assert (nalloc s < nalloc s) by (apply I1; congruence); lia. }
  constructor; intros *; rewrite ?Ec, ?El, ?(role_off _ Eu).
  - destruct (updN_cases (g_life s) (nalloc s) (LFresh t) n) as [[-> ->]|[_ ->]]; [lia|]. intros H. apply I1 in H. lia.
  - intros H. apply I2 in H. rewrite updN_other; [exact H|congruence].
  - destruct (updN_cases (g_life s) (nalloc s) (LFresh t) n) as [[-> ->]|[Hne ->]].
    + destruct (Nat.eq_dec u t) as [->|Hu]; [tauto|]. rewrite Hpcs, I3, Hn by exact Hu. split; congruence.
    + destruct (Nat.eq_dec u t) as [->|Hu]; [|rewrite Hpcs by exact Hu; apply I3].
      rewrite Ef', <- I3, Ef. split; congruence.
  - rewrite I4. destruct (updN_cases (g_life s) (nalloc s) (LFresh t) n) as [[-> ->]|[_ ->]]; [rewrite Hn; split; discriminate|tauto].
Qed.

(** the compare-and-swap of repl / clear on cell [c] succeeds: the new node [n] is published, the old node [g] unlinked *)
Definition cas_life (l : N -> life) (c : N) (n g : option N) : N -> life :=
  let l1 := match n with Some n' => updN l n' (LPub c) | None => l end in
  match g with Some old => updN l1 old (LUnl t) | None => l1 end.
Lemma NL_cas c n g : NL pcs s -> fresh_of (pcs t) = n -> unl_of (pcs t) = None -> cells s c = g ->
  fresh_of (pcs' t) = None -> unl_of (pcs' t) = g -> nalloc s <= nalloc s' ->
  (forall c', cells s' c' = updN (cells s) c n c') -> (forall m, g_life s' m = cas_life (g_life s) c n g m) -> NL pcs' s'.
Proof.
  intros [I1 I2 I3 I4] Ef Eu Eg Ef' Eu' Ha Ec El.
  assert (Hn : forall n', n = Some n' -> g_life s n' = LFresh t) by (intros n' ->; apply I3; exact Ef).
  assert (Hg : forall old, g = Some old -> g_life s old = LPub c) by (intros old ->; apply I2; exact Eg).
  (* the life of a node afterwards, by cases *)
  assert (Hl : forall m, g_life s' m = LPub c /\ n = Some m /\ g <> Some m \/ g_life s' m = LUnl t /\ g = Some m \/
                         g_life s' m = g_life s m /\ n <> Some m /\ g <> Some m).
  { intros m. rewrite El. unfold cas_life. destruct n as [n'|], g as [old|];
      repeat match goal with |- context [updN ?f ?i ?v ?j] => destruct (updN_cases f i v j) as [[-> ->]|[? ->]] end;
      try (specialize (Hn _ eq_refl)); try (specialize (Hg _ eq_refl));
      first [ left; repeat split; congruence | right; left; repeat split; congruence | right; right; repeat split; congruence ]. }
  constructor.
  - intros m H. apply N.lt_le_trans with (nalloc s); [|exact Ha]. apply I1.
    destruct (Hl m) as [(_ & X & _)|[(_ & X)|(E & _)]]; [rewrite (Hn m X)|rewrite (Hg m X)|rewrite <- E; exact H]; discriminate.
  - intros c' m. rewrite Ec. pose proof (I2 c' m) as J. specialize (Hl m).
    destruct (updN_cases (cells s) c n c') as [[-> ->]|[Hc ->]]; intros H; [|specialize (J H)];
      destruct Hl as [(E & X & _)|[(E & X)|(E & X & Y)]]; rewrite E; try congruence.
    + pose proof (Hn m H). pose proof (Hg m X). congruence.
    + rewrite (Hn m X) in J. discriminate.
    + rewrite (Hg m X) in J. congruence.
  - intros u m. pose proof (I3 u m) as J. pose proof (I4 t m) as K. rewrite Eu in K.
    destruct (Nat.eq_dec u t) as [->|Hu]; [rewrite Ef'; rewrite Ef in J|rewrite (Hpcs u Hu)];
      destruct (Hl m) as [(E & X & _)|[(E & X)|(E & X & Y)]]; rewrite E; pose proof (Hn m); pose proof (Hg m); intuition congruence.
  - intros u m. pose proof (I4 u m) as J. pose proof (I3 t m) as K. rewrite Ef in K.
    destruct (Nat.eq_dec u t) as [->|Hu]; [rewrite Eu'; rewrite Eu in J|rewrite (Hpcs u Hu)];
      destruct (Hl m) as [(E & X & _)|[(E & X)|(E & X & Y)]]; rewrite E; pose proof (Hn m); pose proof (Hg m); intuition congruence.
Qed.

(** the node [m] that thread t holds (the new node of a failed repl, the unlinked node) reaches its final state [l] *)
Lemma NL_settle m l : NL pcs s -> (fresh_of (pcs t) = Some m /\ unl_of (pcs t) = None \/ fresh_of (pcs t) = None /\ unl_of (pcs t) = Some m) ->
  fresh_of (pcs' t) = None -> unl_of (pcs' t) = None -> (l = LDropped \/ exists r, l = LRet t r) -> nalloc s <= nalloc s' ->
  (forall c, cells s' c = cells s c) -> (forall n, g_life s' n = updN (g_life s) m l n) -> NL pcs' s'.
Proof.
  intros [I1 I2 I3 I4] Hm Ef' Eu' Hl Ha Ec El.
  assert (Hm' : (g_life s m = LFresh t \/ g_life s m = LUnl t) /\ forall n, g_life s n = LFresh t \/ g_life s n = LUnl t -> n = m).
  { destruct Hm as [[X Y]|[X Y]]; (split; [first [left; apply I3; exact X | right; apply I4; exact Y]|]);
      intros n [Z|Z]; [apply I3 in Z|apply I4 in Z| apply I3 in Z|apply I4 in Z]; congruence. }
  destruct Hm' as [Hm1 Hm2].
  assert (Hl' : l <> LNone /\ (forall c, l <> LPub c) /\ (forall u, l <> LFresh u) /\ (forall u, l <> LUnl u))
    by (destruct Hl as [->|(r & ->)]; repeat split; discriminate).
  destruct Hl' as (L1 & L2 & L3 & L4).
  constructor; intros *; rewrite ?Ec, ?El.
  - destruct (updN_cases (g_life s) m l n) as [[-> ->]|[_ ->]]; intros H; apply N.lt_le_trans with (nalloc s); try exact Ha; apply I1; [|exact H].
    destruct Hm1 as [X|X]; rewrite X; discriminate.
  - intros H. apply I2 in H. rewrite updN_other; [exact H|]. intros ->. destruct Hm1; congruence.
  - pose proof (I3 u n) as J. destruct (Nat.eq_dec u t) as [->|Hu]; [rewrite Ef'|rewrite (Hpcs u Hu)];
      destruct (updN_cases (g_life s) m l n) as [[-> ->]|[Hne ->]]; split; intros X; try discriminate; try (exfalso; eapply L3; eassumption); try tauto.
    + exfalso. apply Hne, Hm2. left. exact X.
    + apply J in X. destruct Hm1; congruence.
  - pose proof (I4 u n) as J. destruct (Nat.eq_dec u t) as [->|Hu]; [rewrite Eu'|rewrite (Hpcs u Hu)];
      destruct (updN_cases (g_life s) m l n) as [[-> ->]|[Hne ->]]; split; intros X; try discriminate; try (exfalso; eapply L4; eassumption); try tauto.
    + exfalso. apply Hne, Hm2. right. exact X.
    + apply J in X. destruct Hm1; congruence.
Qed.

Lemma NW_frame : NW pcs s -> (forall n, g_where s' n = g_where s n) -> (forall n u r, g_life s' n = LRet u r <-> g_life s n = LRet u r) ->
  (forall n, g_nfree s' n = g_nfree s n) -> (forall n, nstamp s' n = nstamp s n) -> gret s' = gret s -> rl (tl s' t) = rl (tl s t) ->
  flight (pcs' t) = flight (pcs t) -> (xempty (pcs' t) = true -> rl (tl s t) = []) -> NW pcs' s'.
Proof.
  intros [I1 I2 I3 I4 I5] Ew El Ek Es Eg Er Ef Ex.
  assert (Ep : forall p, plist pcs' s' p = plist pcs s p).
  { intros p. destruct p as [|u| |u|]; cbn [plist]; try reflexivity; [|rewrite Eg; reflexivity|apply (role_off _ Ef)].
    destruct (Nat.eq_dec u t) as [->|Hu]; [exact Er|apply Hrl; exact Hu]. }
  constructor; intros *; rewrite ?Ew, ?Ek, ?Es, ?Ep; auto.
  - apply (wh_ok_ext _ (g_life s n)); [apply El|apply I1].
  - rewrite El. apply I4.
  - destruct (Nat.eq_dec u t) as [->|Hu]; [rewrite Er; exact Ex|rewrite (Hpcs u Hu), (Hrl u Hu); apply I5].
Qed.

(** guard_ptr::reclaim appends the unlinked node [old] to the local list *)
Lemma NW_retire old r : NW pcs s -> (forall u v, g_life s old <> LRet u v) ->
  (forall n, g_where s' n = updN (g_where s) old (PList t) n) -> (forall n, g_life s' n = updN (g_life s) old (LRet t r) n) ->
  (forall n, g_nfree s' n = g_nfree s n) -> (forall n, nstamp s' n = updN (nstamp s) old r n) -> gret s' = gret s ->
  rl (tl s' t) = rl (tl s t) ++ [old] -> flight (pcs' t) = flight (pcs t) -> xempty (pcs' t) = false -> NW pcs' s'.
Proof.
  intros [I1 I2 I3 I4 I5] Ho Ew El Ek Es Eg Er Ef Ex.
  destruct (wh_not_ret _ _ _ (I1 old) Ho) as [Hw Hk].
  assert (Hin : forall p, ~ In old (plist pcs s p)).
  { intros p X. destruct p; try contradiction; apply I2 in X; try exact I; congruence. }
  assert (Ep : forall p, p <> PList t -> plist pcs' s' p = plist pcs s p).
  { intros p Hp. destruct p as [|u| |u|]; cbn [plist]; try reflexivity; [apply Hrl; congruence|rewrite Eg; reflexivity|apply (role_off _ Ef)]. }
  constructor; intros *; rewrite ?Ew, ?El, ?Ek, ?Es.
  - destruct (updN_cases (g_where s) old (PList t) n) as [[-> ->]|[Hne ->]]; [rewrite updN_same, Hk; split; eauto|].
    rewrite updN_other by exact Hne. apply I1.
  - intros Hp. destruct (place_eq_dec p (PList t)) as [->|Hne]; [cbn [plist]; rewrite Er, in_app_iff|rewrite Ep by exact Hne].
    + destruct (updN_cases (g_where s) old (PList t) n) as [[-> ->]|[Hn ->]]; [cbn; tauto|].
      rewrite (I2 (PList t) n I). cbn. intuition congruence.
    + destruct (updN_cases (g_where s) old (PList t) n) as [[-> ->]|[Hn ->]]; [|apply I2; exact Hp].
      split; [intros X; destruct (Hin _ X)|congruence].
  - destruct (place_eq_dec p (PList t)) as [->|Hne]; [|rewrite Ep by exact Hne; apply I3].
    cbn [plist]. rewrite Er. apply NoDup_app_iff. repeat split; [apply (I3 (PList t))|repeat constructor; intros []|].
    intros x Hx [<-|[]]. exact (Hin (PList t) Hx).
  - destruct (updN_cases (g_life s) old (LRet t r) n) as [[-> ->]|[Hn ->]]; [rewrite updN_same; congruence|].
    rewrite updN_other by exact Hn. apply I4.
  - intros Hx. destruct (Nat.eq_dec u t) as [->|Hu]; [congruence|rewrite (Hrl u Hu); apply I5; rewrite <- (Hpcs u Hu); exact Hx].
Qed.

(** the nodes [L] move from place [a] to place [b]: from a local list to the hands of its thread or to the free store, from
    the global list into the hands of a thread and back *)
Lemma NW_move L a b : NW pcs s -> lplace a -> a <> b -> b <> PNone ->
  Permutation (plist pcs s a) (L ++ plist pcs' s' a) ->
  (b = PFreed \/ Permutation (plist pcs' s' b) (L ++ plist pcs s b)) ->
  (forall p, In p [PList t; PGlob; PFlight t] -> p <> a -> p <> b -> plist pcs' s' p = plist pcs s p) ->
  (forall n, g_where s' n = if memN n L then b else g_where s n) ->
  (forall n, g_nfree s' n = g_nfree s n + (match b with PFreed => length (filter (N.eqb n) L) | _ => 0 end))%nat ->
  (forall n, g_life s' n = g_life s n) -> (forall n, nstamp s' n = nstamp s n) ->
  (xempty (pcs' t) = true -> rl (tl s' t) = []) -> NW pcs' s'.
Proof.
  intros [I1 I2 I3 I4 I5] Ha Hab Hb Pa Pb Po Ew Ek El Es Ex.
  pose proof (I3 a) as Nd. rewrite Pa in Nd. apply NoDup_app_iff in Nd. destruct Nd as (NdL & Nda & Dis).
  assert (HL : forall n, In n L -> g_where s n = a).
  { intros n Hn. apply (I2 a n Ha). rewrite Pa. apply in_or_app. left. exact Hn. }
  assert (Ep : forall p, p <> a -> p <> b -> plist pcs' s' p = plist pcs s p).
  { intros p H1 H2. destruct p as [|u| |u|]; try reflexivity.
    - destruct (Nat.eq_dec u t) as [->|Hu]; [apply Po; cbn; auto|apply Hrl; exact Hu].
    - apply Po; cbn; auto.
    - destruct (Nat.eq_dec u t) as [->|Hu]; [apply Po; cbn; auto|cbn [plist]; rewrite Hpcs by exact Hu; reflexivity]. }
  constructor; intros *; rewrite ?Ew, ?Ek, ?El, ?Es.
  - pose proof (I1 n) as W. rewrite (count_nodup n L NdL).
    destruct (memN n L) eqn:M; [apply memN_In in M; rewrite (HL n M) in W|destruct b; rewrite ?Nat.add_0_r; exact W].
    destruct a; try contradiction; cbn [wh_ok] in W; destruct W as [W1 W2]; destruct b; try congruence; cbn [wh_ok]; (split; [exact W1|lia]).
  - intros Hp. destruct (memN n L) eqn:M; [apply memN_In in M|apply memN_false in M].
    + destruct (place_eq_dec p a) as [->|Hpa]; [split; [intros X; destruct (Dis n M X)|congruence]|].
      destruct (place_eq_dec p b) as [->|Hpb]; [|rewrite (Ep p Hpa Hpb), (I2 p n Hp), (HL n M); split; congruence].
      destruct Pb as [->|Pb]; [contradiction|]. rewrite Pb, in_app_iff. tauto.
    + destruct (place_eq_dec p a) as [->|Hpa]; [rewrite <- (I2 a n Hp), Pa, in_app_iff; tauto|].
      destruct (place_eq_dec p b) as [->|Hpb]; [|rewrite (Ep p Hpa Hpb); apply I2; exact Hp].
      destruct Pb as [->|Pb]; [contradiction|]. rewrite Pb, in_app_iff, (I2 b n Hp). tauto.
  - destruct (place_eq_dec p a) as [->|Hpa]; [exact Nda|].
    destruct (place_eq_dec p b) as [->|Hpb]; [|rewrite (Ep p Hpa Hpb); apply I3].
    destruct Pb as [->|Pb]; [constructor|]. rewrite Pb. apply NoDup_app_iff. repeat split; [exact NdL|apply I3|].
    intros x Hx X. apply HL in Hx. destruct b; try contradiction; apply I2 in X; try exact I; congruence.
  - apply I4.
  - intros Hx. destruct (Nat.eq_dec u t) as [->|Hu]; [exact (Ex Hx)|rewrite (Hrl u Hu); apply I5; rewrite <- (Hpcs u Hu); exact Hx].
Qed.

Lemma N0x_frame : N0x pcs s -> nalloc s <= nalloc s' -> cells s' = cells s -> g_life s' = g_life s -> g_where s' = g_where s ->
  g_nfree s' = g_nfree s -> nstamp s' = nstamp s -> gret s' = gret s -> rl (tl s' t) = rl (tl s t) ->
  fresh_of (pcs' t) = fresh_of (pcs t) -> unl_of (pcs' t) = unl_of (pcs t) -> flight (pcs' t) = flight (pcs t) ->
  (xempty (pcs' t) = true -> rl (tl s t) = []) -> N0x pcs' s'.
Proof.
  intros [L W] Ha Ec El Ew Ek Es Eg Er Ef Eu Efl Ex. split.
  - apply NL_frame; try assumption; intros; rewrite ?Ec, ?El; reflexivity.
  - apply NW_frame; try assumption; intros; rewrite ?Ew, ?El, ?Ek, ?Es; reflexivity.
Qed.

Lemma N0x_move L a b : N0x pcs s -> lplace a -> a <> b -> b <> PNone ->
  Permutation (plist pcs s a) (L ++ plist pcs' s' a) ->
  (b = PFreed \/ Permutation (plist pcs' s' b) (L ++ plist pcs s b)) ->
  (forall p, In p [PList t; PGlob; PFlight t] -> p <> a -> p <> b -> plist pcs' s' p = plist pcs s p) ->
  (forall n, g_where s' n = if memN n L then b else g_where s n) ->
  (forall n, g_nfree s' n = g_nfree s n + (match b with PFreed => length (filter (N.eqb n) L) | _ => 0 end))%nat ->
  (xempty (pcs' t) = true -> rl (tl s' t) = []) ->
  nalloc s <= nalloc s' -> cells s' = cells s -> g_life s' = g_life s -> nstamp s' = nstamp s ->
  fresh_of (pcs' t) = fresh_of (pcs t) -> unl_of (pcs' t) = unl_of (pcs t) -> N0x pcs' s'.
Proof.
  intros [Li W] Ha Hab Hb Pa Pb Po Ew Ek Ex Hna Ec El Es Ef Eu. split.
  - apply NL_frame; try assumption; intros; rewrite ?Ec, ?El; reflexivity.
  - apply (NW_move L a b); try assumption; intros; rewrite ?El, ?Es; reflexivity.
Qed.
End Act.

Lemma N0x_ext pcs pcs' s : (forall u, pcs' u = pcs u) -> N0x pcs s -> N0x pcs' s.
Proof.
  intros E I. apply (N0x_frame O pcs pcs' s s); auto; try reflexivity; try (rewrite E; reflexivity); try lia.
  intros X. apply (nw_xempty (n_place I)). rewrite <- E. exact X.
Qed.

Lemma N0x_set_pc pcs s t q : N0x pcs s -> N0x pcs (set_pc t q s).
Proof. intros [[A B C D] [E F G H J]]. split; constructor; assumption. Qed.

(** * The steps of thread t *)
Ltac others := let u := fresh "u" in let Hu := fresh "Hu" in intros u Hu; prj; rewrite ?upd_other by exact Hu; solve [auto].
(* the side conditions of the lemmas above are equations between fields of explicit states *)
Ltac fields :=
  cbn [plist]; prj; rewrite ?upd_same; try match goal with E : th ?s ?t = _ |- context [th ?s ?t] => rewrite E end;
  cbn [rl wt_rl flight concat fresh_of unl_of xempty]; rewrite ?app_nil_r; try reflexivity; try others; try lia; try discriminate;
  try solve [intros ? [<-|[<-|[<-|[]]]] ? ?; try congruence; reflexivity].

(** the thread goes on at a program point where it carries no node *)
Lemma N0x_goto pcs st t s' : N0x pcs st -> (forall u, u <> t -> th st u = pcs u) -> carries (pcs t) = false ->
  (forall u, u <> t -> th s' u = th st u /\ tl s' u = tl st u) -> carries (th s' t) = false -> rl (tl s' t) = rl (tl st t) ->
  nalloc st <= nalloc s' -> cells s' = cells st -> g_life s' = g_life st -> g_where s' = g_where st ->
  g_nfree s' = g_nfree st -> nstamp s' = nstamp st -> gret s' = gret st -> N0 s'.
Proof.
  intros I Ho Hc Hoth Hc'. destruct (carries_none _ Hc) as (C1 & C2 & C3 & C4). destruct (carries_none _ Hc') as (D1 & D2 & D3 & D4).
  intros. apply (N0x_frame t pcs (th s') st s'); try assumption; try congruence.
  - intros u Hu. destruct (Hoth u Hu) as [-> _]. apply Ho; exact Hu.
  - intros u Hu. destruct (Hoth u Hu) as [_ ->]. reflexivity.
Qed.

Lemma N0x_set_tl pcs st t x : N0x pcs st -> rl x = rl (tl st t) -> N0x pcs (set_tl t x st).
Proof.
  intros I Hx. apply (N0x_frame t pcs pcs st); prj; rewrite ?upd_same; auto; try reflexivity; [others|].
  intros X. apply (nw_xempty (n_place I)); exact X.
Qed.

Lemma N0x_to_cas pcs st t c g fresh e s' es : to_cas st t c g fresh e = Some (s', es) ->
  N0x pcs st -> (forall u, u <> t -> th st u = pcs u) -> carries (pcs t) = false -> N0 s'.
Proof.
  intros H I Ho Hc. unfold to_cas in H. destruct fresh; inv_some H.
  - destruct (carries_none _ Hc) as (C1 & C2 & C3 & C4). destruct I as [L W].
    assert (Hn : g_life st (nalloc st) = LNone).
    { destruct (g_life st (nalloc st)) eqn:X; try reflexivity; assert (nalloc st < nalloc st) by (apply (nl_lt L); congruence); lia. }
    split; [apply (NL_alloc t pcs _ st)|apply (NW_frame t pcs _ st)]; try assumption; prj; rewrite ?upd_same; cbn [fresh_of unl_of flight xempty];
      try reflexivity; try others; try congruence.
    intros n u r. destruct (updN_cases (g_life st) (nalloc st) (LFresh t) n) as [[-> ->]|[_ ->]]; [rewrite Hn; split; discriminate|tauto].
  - eapply N0x_goto; eauto; fields.
Qed.

Lemma N0x_do_cont pcs st t k e s' es : do_cont st t k e = Some (s', es) ->
  N0x pcs st -> (forall u, u <> t -> th st u = pcs u) -> carries (pcs t) = false -> N0 s'.
Proof.
  intros H I Ho Hc. destruct k; cbn [do_cont] in H; [|eapply N0x_to_cas; eauto|]; unfold finish in H; inv_some H.
  all: eapply N0x_goto; eauto; fields.
Qed.

Lemma N0x_leave pcs st t k e s' es : leave st t k e = Some (s', es) ->
  N0x pcs st -> (forall u, u <> t -> th st u = pcs u) -> carries (pcs t) = false -> N0 s'.
Proof.
  intros H I Ho Hc. unfold leave in H. cbv zeta in H. destruct (Nat.eqb _ 0).
  - inv_some H. eapply N0x_goto; eauto; fields.
  - apply (N0x_do_cont pcs _ _ _ _ _ _ H); [|exact Ho|exact Hc]. apply N0x_set_tl; [exact I|reflexivity].
Qed.

Lemma N0x_exited pcs st t e s' es : exited st t e = Some (s', es) ->
  N0x pcs st -> (forall u, u <> t -> th st u = pcs u) -> carries (pcs t) = false ->
  rl (tl st t) = [] -> N0 s'.
Proof.
  intros H I Ho Hc Hr. unfold exited in H. inv_some H.
  eapply N0x_goto; eauto; fields; symmetry; exact Hr.
Qed.

Lemma N0x_ag_cont pcs st t k e s' es : ag_cont st t k e = Some (s', es) ->
  N0x pcs st -> (forall u, u <> t -> th st u = pcs u) -> carries (pcs t) = false ->
  (k = AGExit -> rl (tl st t) = []) -> N0 s'.
Proof. intros H I Ho Hc Hr. destruct k; cbn [ag_cont] in H; [eapply N0x_do_cont|eapply N0x_exited]; eauto. Qed.

(** enter_region up to its first atomic access *)
Lemma N0x_enter pcs st t k e s' es : enter st t k e = Some (s', es) ->
  N0x pcs st -> (forall u, u <> t -> th st u = pcs u) -> carries (pcs t) = false -> N0 s'.
Proof.
  intros H I Ho Hc. unfold enter, entered, finish in H. cbv zeta in H. step_split H.
  all: eapply N0x_goto; eauto; fields.
Qed.

Lemma upd_off {X} (f : nat -> X) t a : forall u, u <> t -> upd f t a u = f u.
Proof. intros u Hu. apply upd_other. exact Hu. Qed.

(** one round of process_global_nodes over the chunks in the hands of the thread *)
Lemma N0x_pg_round pcs st t k ts ch e s' es : pg_round st t k ts ch e = Some (s', es) ->
  N0x pcs st -> (forall u, u <> t -> th st u = pcs u) ->
  flight (pcs t) = concat ch -> fresh_of (pcs t) = None -> unl_of (pcs t) = None -> N0 s'.
Proof.
  intros H I Ho Hf Hfr Hun. unfold pg_round in H. pose proof (proc_chunks_perm (nstamp st) ts ch) as P.
  destruct (proc_chunks (nstamp st) ts ch) as [fl rest]. rewrite <- Hf in P.
  assert (J : forall q, flight q = concat rest -> fresh_of q = None -> unl_of q = None -> xempty q = false -> N0x (upd pcs t q) (free_all fl st)).
  { intros q Q1 Q2 Q3 Q4. apply (N0x_move t pcs _ st _ (upd_off pcs t q)) with (L := fl) (a := PFlight t) (b := PFreed); auto; try discriminate;
      fields; congruence. }
  destruct rest.
  - apply (N0x_do_cont (upd pcs t Idle) _ _ _ _ _ _ H (J Idle eq_refl eq_refl eq_refl eq_refl)); [|rewrite upd_same; reflexivity].
    intros u Hu. rewrite upd_other by exact Hu. apply Ho; exact Hu.
  - inv_some H. apply (N0x_ext (upd pcs t (PG4 k (l :: rest) (min_stamp (nstamp st) fl)))); [|apply N0x_set_pc, J; reflexivity].
    intros u. prj. destruct (Nat.eq_dec u t) as [->|Hu]; [rewrite !upd_same; reflexivity|rewrite !upd_other by exact Hu; apply Ho; exact Hu].
Qed.

(** process_global_nodes with the stolen chunks: the local list becomes the first chunk *)
Lemma N0x_pg_start pcs st t k ts stolen e s' es : pg_start st t k ts stolen e = Some (s', es) ->
  N0x pcs st -> (forall u, u <> t -> th st u = pcs u) ->
  flight (pcs t) = concat stolen -> fresh_of (pcs t) = None -> unl_of (pcs t) = None -> N0 s'.
Proof.
  intros H I Ho Hf Hfr Hun. unfold pg_start in H. cbv zeta in H.
  set (ch := if is_nil (rl (tl st t)) then stolen else rl (tl st t) :: stolen) in H.
  apply (N0x_pg_round (upd pcs t (AG1 (AGK k) ch)) _ _ _ _ _ _ _ _ H); rewrite ?upd_same; try reflexivity.
  - apply (N0x_move t pcs _ st _ (upd_off pcs t _)) with (L := rl (tl st t)) (a := PList t) (b := PFlight t); auto; try discriminate;
      fields.
    + right. unfold ch. rewrite concat_ifnil, Hf. reflexivity.
    + cbn. congruence.
    + cbn. congruence.
  - intros u Hu. rewrite upd_other by exact Hu. apply Ho; exact Hu.
Qed.

Lemma node_pc_carries p : node_pc p = false -> carries p = false.
Proof. destruct p; cbn; intros; try discriminate; reflexivity. Qed.

(** a state that differs in nothing the invariant reads *)
Lemma N0x_same pcs t s s' : N0x pcs s -> (forall u, u <> t -> rl (tl s' u) = rl (tl s u)) -> rl (tl s' t) = rl (tl s t) ->
  nalloc s <= nalloc s' -> cells s' = cells s -> g_life s' = g_life s -> g_where s' = g_where s -> g_nfree s' = g_nfree s ->
  nstamp s' = nstamp s -> gret s' = gret s -> N0x pcs s'.
Proof. intros I Hrl. intros. apply (N0x_frame t pcs pcs s s'); auto. intros X. apply (nw_xempty (n_place I)); exact X. Qed.

Ltac same I t := apply (N0x_same _ t _ _ I); fields.
(* [leaf]: the step ends in a continuation of the model, entered with a state that differs from [s] in nothing the invariant reads:
   to_cas (repl / clear go on to their compare-and-swap), do_cont (after leave_region), leave (leave_region itself), enter (enter_region);
   the head of the hypothesis H decides which.  [goto]: the step ends by setting the program point (finish, or an explicit state) *)
Ltac leaf pcs I Hc H t :=
  first [ apply (N0x_to_cas pcs _ _ _ _ _ _ _ _ H) | apply (N0x_do_cont pcs _ _ _ _ _ _ H) | apply (N0x_leave pcs _ _ _ _ _ _ H)
        | apply (N0x_enter pcs _ _ _ _ _ _ H) ]; [same I t | intros ? ?; reflexivity | exact Hc].
Ltac goto pcs s I Hc H t :=
  try (unfold finish in H; inv_some H); apply (N0x_goto pcs s t _ I (fun u _ => eq_refl) Hc); fields.

Lemma N0_step ns s t s' es : N0 s -> step ns s (Step t) = Some (s', es) -> N0 s'.
Proof.
  intros I H.
  destruct (node_pc (th s t)) eqn:Hn.
  2: { destruct (step_frame _ _ _ _ _ H) as [Fth _ _ Ha Fn _ _]. destruct (Fn Hn) as (F1 & F2 & F3 & F4 & F5 & F6 & F7 & F8).
       eapply (N0x_goto (th s) s t); eauto. apply node_pc_carries; exact Hn. }
  destruct (th s t) eqn:Epc; try discriminate Hn; clear Hn; unfold step, step_gen in H; rewrite Epc in H; cbv beta iota zeta in H.
  - (* A1: the first load of the cell *)
    assert (Hc : carries (th s t) = false) by (rewrite Epc; reflexivity).
    step_split H. all: first [leaf (th s) I Hc H t | goto (th s) s I Hc H t].
  - (* A2: the second load of the cell; the guard is set *)
    assert (Hc : carries (th s t) = false) by (rewrite Epc; reflexivity).
    step_split H. all: first [leaf (th s) I Hc H t | goto (th s) s I Hc H t].
  - (* R3c: the compare-and-swap of repl / clear *)
    pose proof (fun q => upd_off (th s) t q) as Hpcs. pose proof I as [L W].
    assert (Hn : forall m, n = Some m -> g_life s m = LFresh t) by (intros m ->; apply (nl_fresh L); rewrite Epc; reflexivity).
    destruct (oeqb (cells s c) g) eqn:Eo; [apply oeqb_eq in Eo|].
    + assert (Hg : forall old, g = Some old -> g_life s old = LPub c) by (intros old ->; apply (nl_cell L); exact Eo).
      destruct n as [n'|], g as [old|]; try (unfold finish in H); inv_some H; unfold N0; prj.
      all: match type of Epc with _ = R3c _ ?g ?n =>
             split; [apply (NL_cas t (th s) _ s _ (Hpcs _) c n g L)|apply (NW_frame t (th s) _ s _ (Hpcs _))] end; prj; rewrite ?upd_same, ?Epc;
        try reflexivity; try others; try discriminate; try lia; try exact W; try exact Eo.
      all: intros m u r; repeat match goal with |- context [updN ?f ?i ?v ?j] => destruct (updN_cases f i v j) as [[-> ->]|[? ->]] end;
        try tauto; try (rewrite (Hn _ eq_refl)); try (rewrite (Hg _ eq_refl)); split; discriminate.
    + destruct n as [n'|].
      2: { assert (Hc : carries (th s t) = false) by (rewrite Epc; reflexivity).
           destruct g; [leaf (th s) I Hc H t|goto (th s) s I Hc H t]. }
      assert (J : N0x (upd (th s) t Idle) (w_g_life (updN (g_life s) n' LDropped) s)).
      { split; [apply (NL_settle t (th s) _ s _ (Hpcs _) n' LDropped L)|apply (NW_frame t (th s) _ s _ (Hpcs _))]; prj; rewrite ?upd_same, ?Epc;
          try reflexivity; try others; try discriminate; try lia; try exact W; auto.
        intros m u r. destruct (updN_cases (g_life s) n' LDropped m) as [[-> ->]|[? ->]]; [rewrite (Hn _ eq_refl); split; discriminate|tauto]. }
      assert (Hc : carries (upd (th s) t Idle t) = false) by (rewrite upd_same; reflexivity).
      destruct g; [apply (N0x_leave _ _ _ _ _ _ _ H J); [others|exact Hc]|].
      unfold finish in H; inv_some H. apply (N0x_goto _ _ t _ J); fields.
  - (* RT1: guard_ptr::reclaim; more than 40 nodes in the local list -> process_local_nodes (the model's retire threshold) *)
    pose proof (fun q => upd_off (th s) t q) as Hpcs. pose proof I as [L W].
    assert (Ho : g_life s old = LUnl t) by (apply (nl_unl L); rewrite Epc; reflexivity).
    set (st1 := set_tl t _ _) in H.
    assert (J : N0x (upd (th s) t Idle) st1).
    { split; [apply (NL_settle t (th s) _ s _ (Hpcs _) old (LRet t (qstamp s THead)) L)
             |apply (NW_retire t (th s) _ s _ (Hpcs _)) with (old := old) (r := qstamp s THead)];
        unfold st1; prj; rewrite ?upd_same, ?Epc; try reflexivity; try others; try discriminate; try lia; try exact W; eauto.
      intros u v. rewrite Ho. discriminate. }
    assert (Hc : carries (upd (th s) t Idle t) = false) by (rewrite upd_same; reflexivity).
    destruct (Nat.ltb 40 _); [|apply (N0x_leave _ _ _ _ _ _ _ H J); [others|exact Hc]].
    inv_some H. apply (N0x_goto _ _ t _ J); unfold st1; fields.
  - (* PL1: process_local_nodes; more than 20 nodes remain -> add_to_global_retired_nodes (max_remaining_retired_nodes) *)
    assert (Hc : carries (th s t) = false) by (rewrite Epc; reflexivity).
    pose proof (split_chunk_app (nstamp s) (qstamp s TTail) (rl (tl s t))) as Happ.
    destruct (split_chunk (nstamp s) (qstamp s TTail) (rl (tl s t))) as [fl rest].
    set (st1 := free_all fl _) in H.
    assert (J1 : N0x (th s) st1).
    { apply (N0x_move t (th s) _ s _ (fun _ _ => eq_refl)) with (L := fl) (a := PList t) (b := PFreed); auto; try discriminate;
        unfold st1; fields. rewrite Happ. reflexivity. }
    assert (J2 : forall K, N0 (set_pc t (AG1 K [rest]) (move_all rest (PFlight t) (set_tl t (wt_rl [] (tl s t)) st1)))).
    { intros K. apply (N0x_ext (upd (th s) t (AG1 K [rest]))).
      { intros u. prj. destruct (Nat.eq_dec u t) as [->|Hu]; [rewrite !upd_same|rewrite !upd_other by exact Hu]; reflexivity. }
      apply N0x_set_pc.
      apply (N0x_move t (th s) _ st1 _ (upd_off _ t _)) with (L := rest) (a := PList t) (b := PFlight t); auto; try discriminate;
        unfold st1; fields.
      right. reflexivity. }
    destruct k as [k'| |].
    + destruct (Nat.ltb 20 _); [inv_some H; apply J2|apply (N0x_do_cont _ _ _ _ _ _ _ H J1); [others|exact Hc]].
    + apply (N0x_leave _ _ _ _ _ _ _ H J1); [others|exact Hc].
    + destruct (is_nil rest) eqn:En; [|inv_some H; apply J2].
      apply is_nil_true in En. apply (N0x_exited _ _ _ _ _ _ H J1); [others|exact Hc|]. unfold st1; prj. rewrite upd_same. exact En.
  - (* PG2: the global list is empty ? *)
    assert (Hc : carries (th s t) = false) by (rewrite Epc; reflexivity).
    destruct (is_nil (gret s)); [|goto (th s) s I Hc H t].
    apply (N0x_pg_start _ _ _ _ _ _ _ _ _ H I); try (rewrite Epc; reflexivity). auto.
  - (* PG3: the global list is stolen *)
    set (st1 := move_all _ _ _) in H.
    apply (N0x_pg_start (upd (th s) t (AG1 (AGK k) (gret s))) _ _ _ _ _ _ _ _ H); rewrite ?upd_same; try reflexivity; [|others].
    apply (N0x_move t (th s) _ s _ (upd_off _ t _)) with (L := concat (gret s)) (a := PGlob) (b := PFlight t); auto; try discriminate;
      unfold st1; fields.
    right. reflexivity.
  - (* PG4: one more round, or hand the chunks to the global list *)
    destruct (match low with Some m => m <? qstamp s TTail | None => false end).
    + apply (N0x_pg_round _ _ _ _ _ _ _ _ _ H I); try (rewrite Epc; reflexivity). auto.
    + inv_some H. apply (N0x_frame t (th s) _ s _ (upd_off _ t _)); fields. exact I.
  - (* AG1 *)
    inv_some H. apply (N0x_frame t (th s) _ s _ (upd_off _ t _)); fields. exact I.
    intros X. apply (nw_xempty (n_place I)). rewrite Epc. exact X.
  - (* AG2: the chunks go to the global list *)
    assert (Hx : xempty (th s t) = true -> rl (tl s t) = []) by apply (nw_xempty (n_place I)). rewrite Epc in Hx.
    destruct (oeqb (ghead s) h).
    2: { inv_some H. apply (N0x_frame t (th s) _ s _ (upd_off _ t _)); fields; assumption. }
    set (st1 := move_all _ _ _) in H.
    assert (J : N0x (upd (th s) t Idle) st1).
    { apply (N0x_move t (th s) _ s _ (upd_off _ t _)) with (L := concat ch) (a := PFlight t) (b := PGlob); auto; try discriminate;
        unfold st1; fields.
      right. rewrite concat_app. reflexivity. }
    apply (N0x_ag_cont _ _ _ _ _ _ _ H J); [others|rewrite upd_same; reflexivity|].
    intros ->. apply Hx. reflexivity.
Qed.

Lemma N0_start ns s t o s' es : N0 s -> step ns s (Start t o) = Some (s', es) -> N0 s'.
Proof.
  intros I H. unfold step, step_gen in H. step_split H.
  all: assert (Hc : carries (th s t) = false) by (rewrite E; reflexivity).
  all: apply (N0x_goto (th s) s t _ I (fun u _ => eq_refl) Hc); fields.
Qed.

Section ReachN.
Variables (ns : nat) (nc : N).
Lemma N0_reach s : reachable ns nc s -> N0 s.
Proof.
  apply inv_rule; [apply N0_init|].
  intros s0 a s1 es I H. destruct a as [t o|t]; [eapply N0_start; eauto|eapply N0_step; eauto].
Qed.
End ReachN.
