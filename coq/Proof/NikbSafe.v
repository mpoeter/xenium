(** nikolaev_bounded_queue model (repaired code), invariant layer 4: the is_safe flag and NO STRANDING.
    An index is never published with an enqueue ticket whose dequeue ticket has been given up, and a dequeue
    ticket is never given up while an index is published with it:
    - a slot that a dequeuer left behind with an older cycle is unsafe ([i4lb]); dequeuers keep the flag when they
      advance an empty slot (the repair), so it stays unsafe until an enqueue of a cycle >= the dequeuer's writes it;
    - an enqueuer writes into an unsafe slot only after it has seen head <= its ticket; from that load on no
      dequeuer of the same slot with a ticket >= its own can have left without changing the slot word (the E4 clause of [T4]);
    - local copies of entries are never newer than the slot (cycles only grow, within a cycle an entry only goes
      from "index" to "bottom") ([le_ent], in [T4]). *)
From Coq Require Import NArith List Bool Lia PeanoNat.
From XV Require Import Base.Word Conc.Lts Conc.Ev gen.ScqGen Model.NikbDefs Proof.NikbArith Proof.NikbBase Proof.NikbWf Proof.NikbOwn Proof.NikbVal.
Import ListNotations.
Local Open Scope N_scope.

(** an index published with a ticket whose dequeue ticket was given up *)
Definition stranded (r : ring) (T : N) : Prop := exists i, g_eq r T = EPub i /\ g_dq r T = DLeft.

Set Default Proof Using "All".
Section L4.
  Variable k R : N.
  Hypothesis Hk : k <= 40.
  Notation cap := (2 ^ k).
  Notation step := (step cap R).
  Notation ecyc := (ecyc k).
  Notation eidx := (eidx k).
  Notation esafe := (esafe k).
  Notation bot := (bot k).
  Notation clt := (clt k).
  Notation cmax := (cmax k).
  Notation Inv1 := (Inv1 k).
  Notation Inv2 := (Inv2 k).
  Notation slot := (slot k).

  (** rank of the cycle of an entry: the initial all-ones entries are before cycle 0 *)
  Definition rk (e : N) : N := if ecyc e =? cmax then 0 else ecyc e + 1.

  Lemma clt_rk e c : clt e c = (rk e <=? c).
  Proof.
    unfold NikbArith.clt, rk. destruct (N.eqb_spec (ecyc e) cmax); cbn [orb]; [symmetry; apply N.leb_le; lia|].
    destruct (N.ltb_spec (ecyc e) c), (N.leb_spec (ecyc e + 1) c); try reflexivity; lia.
  Qed.

  Lemma rk_of_cycle e c : c < cmax -> ecyc e = c -> rk e = c + 1.
  Proof. intros Hc He. unfold rk. destruct (N.eqb_spec (ecyc e) cmax); [lia|]. lia. Qed.

  (** the local copy a is not newer than the slot word m *)
  Definition le_ent (a m : N) : Prop := rk a < rk m \/ (rk a = rk m /\ (eidx a = bot -> eidx m = bot)).
  Lemma le_ent_refl a : le_ent a a. Proof. right. split; [reflexivity|auto]. Qed.
  Lemma le_ent_trans a b c : le_ent a b -> le_ent b c -> le_ent a c.
  Proof. unfold le_ent. intros [H1|[H1 H1']] [H2|[H2 H2']]; [left; lia|left; lia|left; lia|right; split; [lia|auto]]. Qed.

  (** a dequeue ticket that has not left its do-loop: not handed out, or still held *)
  Definition nh (f : dfate) : Prop := f = DNone \/ exists u, f = DHeld u.

  (** the local entry copy e of a thread is not newer than its slot (third bullet of the header); at E4, if e is an unsafe
      empty entry and still in the slot, no dequeue ticket of that slot from the thread's own ticket on has left the
      loop (second bullet: it was so at the head load of E3, and leaving changes the slot word or needs [i4lb]) *)
  Definition T4 (st : state) (p : pc) : Prop :=
    match p with
    | D4 q _ hd _ e | D5 q _ hd _ e _ => le_ent e (slot st q (hd / 2))
    | E3 q _ _ _ tl e => le_ent e (slot st q (tl / 2))
    | E4 q _ _ _ tl e =>
      le_ent e (slot st q (tl / 2)) /\
      (esafe e = false -> slot st q (tl / 2) = e ->
       forall H, phys cap (2 * H) = phys cap (2 * (tl / 2)) -> tl / 2 <= H -> nh (g_dq (rg st q) H))
    | _ => True
    end.

  (** [i4t] the per-thread clause; [i4lb] first bullet: a slot whose ticket H was given up and that is still before H's
      cycle is unsafe; [i4ns] no stranding: a ticket that was given up has no index published with it *)
  Record Inv4 (st : state) : Prop := mkI4 {
    i4t : forall t, T4 st (th st t);
    i4lb : forall q H, g_dq (rg st q) H = DLeft -> 2 * H < 2 ^ 62 -> clt (slot st q H) (H / nn cap) = true -> esafe (slot st q H) = false;
    i4ns : forall q H i, g_dq (rg st q) H = DLeft -> g_eq (rg st q) H <> EPub i }.

  Lemma Inv4_init : Inv4 (init cap).
  Proof.
    constructor.
    - intros t. exact I.
    - intros q H Hx. destruct q; cbn [init rgs g_dq] in Hx; discriminate.
    - intros q H i Hx. destruct q; cbn [init rgs g_dq] in Hx; discriminate.
  Qed.

  Lemma T4_frame s s' p :
    (forall q T, slot s' q T = slot s q T) -> (forall q H, nh (g_dq (rg s q) H) -> nh (g_dq (rg s' q) H)) -> T4 s p -> T4 s' p.
  Proof.
    intros Hs Hn. destruct p; cbn [T4]; try tauto; rewrite ?Hs; try tauto.
    intros [A B]. split; [exact A|]. intros H1 H2 H H3 H4. apply Hn. apply B; assumption.
  Qed.

  (** steps that write no slot, give no ticket up and publish nothing *)
  Lemma F4_pure s s' t p' :
    Inv4 s -> (forall q T, slot s' q T = slot s q T) ->
    (forall q H, g_dq (rg s' q) H = DLeft -> g_dq (rg s q) H = DLeft) ->
    (forall q T i, g_eq (rg s' q) T = EPub i -> g_eq (rg s q) T = EPub i) ->
    (forall q H, nh (g_dq (rg s q) H) -> nh (g_dq (rg s' q) H)) ->
    th s' = upd (th s) t p' -> T4 s' p' -> Inv4 s'.
  Proof.
    intros [a b c] Hs Hl He Hn Hth Hp. constructor.
    - intros u. rewrite Hth. destruct (Nat.eq_dec u t) as [->|Hne]; [rewrite upd_same; exact Hp|rewrite upd_other by exact Hne].
      apply (T4_frame s s'); [exact Hs|exact Hn|apply a].
    - intros q H Hx. rewrite Hs. apply b. apply Hl. exact Hx.
    - intros q H i Hx Hy. apply (c q H i); [apply Hl; exact Hx|apply He; exact Hy].
  Qed.

  Lemma div_nn_mono a b : a <= b -> a / nn cap <= b / nn cap.
  Proof. intros H. apply N.div_le_mono; [assert (Hn := nn_pos k Hk); lia|exact H]. Qed.

  Lemma tick_cycle_lt_cmax T : 2 * T < 2 ^ 62 -> T / nn cap < cmax.
  Proof.
    intros HT. assert (H := ecyc_ctr k Hk (2 * T) HT). rewrite (ecyc_tick k Hk) in H. assert (H2 := CB_lt_cmax k Hk). lia.
  Qed.

  (** facts about a thread at E4 (from layer 1) *)
  Lemma E4_facts s u q x idx gk tl e : Inv1 s -> th s u = E4 q x idx gk tl e ->
    tl = 2 * (tl / 2) /\ tl < 2 ^ 62 /\ eidx e = bot /\ rk e <= (tl / 2) / nn cap.
  Proof.
    intros [_ HT1] E. pose proof (HT1 u) as Hu. rewrite E in Hu. cbn [T1] in Hu.
    destruct Hu as (_ & [Ht2 Htlt] & _ & _ & Hb & Hc). ssplit; [exact Ht2|exact Htlt|exact Hb|].
    rewrite clt_rk in Hc. apply N.leb_le in Hc. rewrite Ht2 in Hc at 1. rewrite (ecyc_tick k Hk) in Hc. exact Hc.
  Qed.

  (** ** a dequeue ticket is given up without a write *)
  Lemma F4_leave s s' t q0 H0 p' :
    Inv1 s -> Inv4 s ->
    (forall q T, slot s' q T = slot s q T) ->
    (forall q H, g_dq (rg s' q) H = if rid_eqb q q0 && (H =? H0) then DLeft else g_dq (rg s q) H) ->
    (forall q T, g_eq (rg s' q) T = g_eq (rg s q) T) ->
    g_dq (rg s q0) H0 = DHeld t -> 2 * H0 < 2 ^ 62 ->
    th s' = upd (th s) t p' -> T4 s' p' ->
    ~ (eidx (slot s q0 H0) = bot /\ clt (slot s q0 H0) (H0 / nn cap) = true) ->
    (clt (slot s q0 H0) (H0 / nn cap) = true -> esafe (slot s q0 H0) = false) ->
    (forall i, g_eq (rg s q0) H0 <> EPub i) ->
    Inv4 s'.
  Proof.
    intros H1 [a b c] Hs Hd He Hheld HH0 Hth Hp HA HB HC. constructor.
    - intros u. rewrite Hth. destruct (Nat.eq_dec u t) as [->|Hne]; [rewrite upd_same; exact Hp|rewrite upd_other by exact Hne].
      pose proof (a u) as Hu. destruct (th s u) eqn:Eu; cbn [T4] in *; rewrite ?Hs; try exact Hu.
      destruct Hu as [A B]. split; [exact A|]. intros X1 X2 H X3 X4. rewrite Hd.
      destruct (rid_eqb_spec q q0) as [->|Hnq]; cbn [andb]; [|apply B; assumption].
      destruct (N.eqb_spec H H0) as [->|HnH]; [|apply B; assumption].
      exfalso. apply HA. destruct (E4_facts s u q0 x idx gk tl e H1 Eu) as (F1 & F2 & F3 & F4).
      assert (Hsl : slot s q0 H0 = e) by (unfold NikbOwn.slot in *; rewrite X3; exact X2).
      rewrite Hsl. split; [exact F3|]. rewrite clt_rk. apply N.leb_le. pose proof (div_nn_mono _ _ X4). lia.
    - intros q H. rewrite Hd, Hs. destruct (rid_eqb_spec q q0) as [->|Hnq]; cbn [andb]; [|apply b].
      destruct (N.eqb_spec H H0) as [->|HnH]; [intros _ _; exact HB|apply b].
    - intros q H i. rewrite Hd, He. destruct (rid_eqb_spec q q0) as [->|Hnq]; cbn [andb]; [|apply c].
      destruct (N.eqb_spec H H0) as [->|HnH]; [intros _; apply HC|apply c].
  Qed.

  (** ** a slot is written: the common part.  [w] replaces the word [old] in the slot of ticket H0 of ring q0 *)
  Lemma T4_write s s' q0 H0 w u :
    Inv1 s -> (forall q T, slot s' q T = if rid_eqb q q0 && (phys cap (2 * T) =? phys cap (2 * H0)) then w else slot s q T) ->
    (forall q H, phys cap (2 * H) <> phys cap (2 * H0) \/ q <> q0 -> nh (g_dq (rg s q) H) -> nh (g_dq (rg s' q) H)) ->
    le_ent (slot s q0 H0) w ->
    (rk (slot s q0 H0) < rk w \/ eidx w <> bot \/ eidx (slot s q0 H0) <> bot) ->
    T4 s (th s u) -> T4 s' (th s u).
  Proof.
    intros H1 Hs Hn Hle Hw Hu.
    assert (Hsame : forall q T, rid_eqb q q0 && (phys cap (2 * T) =? phys cap (2 * H0)) = true -> slot s q T = slot s q0 H0).
    { intros q T Hc. apply andb_true_iff in Hc. destruct Hc as [Hq Hp]. destruct (rid_eqb_spec q q0) as [->|]; [|discriminate].
      apply N.eqb_eq in Hp. unfold NikbOwn.slot. rewrite Hp. reflexivity. }
    destruct (th s u) eqn:Eu; cbn [T4] in *; try exact I; rewrite ?Hs.
    1,2,3: destruct (rid_eqb q q0 && _) eqn:Hc; [|exact Hu]; rewrite (Hsame _ _ Hc) in Hu; apply (le_ent_trans _ _ _ Hu Hle).
    destruct Hu as [A B]. destruct (rid_eqb q q0 && _) eqn:Hc.
    - rewrite (Hsame _ _ Hc) in A. split; [apply (le_ent_trans _ _ _ A Hle)|]. intros X1 X2. exfalso.
      destruct (E4_facts s u q x idx gk tl e H1 Eu) as (F1 & F2 & F3 & F4). subst w.
      destruct A as [A|[A A']]; destruct Hle as [L|[L L']]; destruct Hw as [W|[W|W]]; try lia; try (apply W; exact F3); try (apply W; apply A'; exact F3).
    - split; [exact A|]. intros X1 X2 H X3 X4. apply Hn; [|apply B; assumption].
      apply andb_false_iff in Hc. destruct Hc as [Hc|Hc]; [right; destruct (rid_eqb_spec q q0); [discriminate|assumption]|left].
      apply N.eqb_neq in Hc. rewrite X3. exact Hc.
  Qed.

  Lemma slot_same_pos s q T T' : phys cap (2 * T) = phys cap (2 * T') -> slot s q T = slot s q T'.
  Proof. intros H. unfold NikbOwn.slot. rewrite H. reflexivity. Qed.

  (** ** the three writes *)

  (** dequeue takes the index (fetch_or): same cycle, same flag, index -> bottom; ticket H0: DHeld t -> DTaken *)
  Lemma F4_take s s' t q0 H0 w i0 p' :
    Inv1 s -> Inv4 s ->
    (forall q T, slot s' q T = if rid_eqb q q0 && (phys cap (2 * T) =? phys cap (2 * H0)) then w else slot s q T) ->
    (forall q H, g_dq (rg s' q) H = if rid_eqb q q0 && (H =? H0) then DTaken i0 else g_dq (rg s q) H) ->
    (forall q T, g_eq (rg s' q) T = g_eq (rg s q) T) ->
    g_dq (rg s q0) H0 = DHeld t ->
    rk w = rk (slot s q0 H0) -> esafe w = esafe (slot s q0 H0) -> eidx w = bot -> eidx (slot s q0 H0) <> bot ->
    th s' = upd (th s) t p' -> T4 s' p' -> Inv4 s'.
  Proof.
    intros H1 [a b c] Hs Hd He Hheld Hrk Hsf Hwb Hob Hth Hp.
    assert (Hnh : forall q H, phys cap (2 * H) <> phys cap (2 * H0) \/ q <> q0 -> nh (g_dq (rg s q) H) -> nh (g_dq (rg s' q) H)).
    { intros q H Hx Hy. rewrite Hd. destruct (rid_eqb_spec q q0) as [->|Hnq]; cbn [andb]; [|exact Hy].
      destruct (N.eqb_spec H H0) as [->|_]; [|exact Hy]. destruct Hx as [Hx|Hx]; exfalso; apply Hx; reflexivity. }
    assert (Hleft : forall q H, g_dq (rg s' q) H = DLeft -> g_dq (rg s q) H = DLeft).
    { intros q H. rewrite Hd. destruct (rid_eqb q q0 && (H =? H0)); [discriminate|auto]. }
    constructor.
    - intros u. rewrite Hth. destruct (Nat.eq_dec u t) as [->|Hne]; [rewrite upd_same; exact Hp|rewrite upd_other by exact Hne].
      apply (T4_write s s' q0 H0 w u H1 Hs Hnh); [right; split; [lia|intros; exact Hwb]|right; right; exact Hob|apply a].
    - intros q H Hx HH. apply Hleft in Hx. rewrite Hs. destruct (rid_eqb q q0 && _) eqn:Hc; [|apply b; assumption].
      apply andb_true_iff in Hc. destruct Hc as [Hq Hpp]. destruct (rid_eqb_spec q q0) as [->|]; [|discriminate]. apply N.eqb_eq in Hpp.
      rewrite Hsf, clt_rk, Hrk, <- clt_rk, <- (slot_same_pos s q0 H H0 Hpp). apply b; assumption.
    - intros q H i Hx. rewrite He. apply c. apply Hleft. exact Hx.
  Qed.

  (** a dequeue CAS (clear the flag of an older entry, or advance an older empty slot) with ticket H0, which is given up *)
  Lemma F4_cas s s' t q0 H0 w p' :
    Inv1 s -> Inv2 s -> Inv4 s -> 2 * H0 < 2 ^ 62 ->
    (forall q T, slot s' q T = if rid_eqb q q0 && (phys cap (2 * T) =? phys cap (2 * H0)) then w else slot s q T) ->
    (forall q H, g_dq (rg s' q) H = if rid_eqb q q0 && (H =? H0) then DLeft else g_dq (rg s q) H) ->
    (forall q T, g_eq (rg s' q) T = g_eq (rg s q) T) ->
    g_dq (rg s q0) H0 = DHeld t ->
    rk (slot s q0 H0) <= H0 / nn cap ->
    ((rk w = rk (slot s q0 H0) /\ eidx w = eidx (slot s q0 H0) /\ eidx w <> bot /\ esafe w = false) \/
     (rk w = H0 / nn cap + 1 /\ eidx w = bot /\ esafe w = esafe (slot s q0 H0))) ->
    th s' = upd (th s) t p' -> T4 s' p' -> Inv4 s'.
  Proof.
    intros H1 (HR & _ & _) [a b c] HH0 Hs Hd He Hheld Hold Hw Hth Hp.
    set (old := slot s q0 H0) in *.
    assert (Hnh : forall q H, phys cap (2 * H) <> phys cap (2 * H0) \/ q <> q0 -> nh (g_dq (rg s q) H) -> nh (g_dq (rg s' q) H)).
    { intros q H Hx Hy. rewrite Hd. destruct (rid_eqb_spec q q0) as [->|Hnq]; cbn [andb]; [|exact Hy].
      destruct (N.eqb_spec H H0) as [->|_]; [|exact Hy]. destruct Hx as [Hx|Hx]; exfalso; apply Hx; reflexivity. }
    constructor.
    - intros u. rewrite Hth. destruct (Nat.eq_dec u t) as [->|Hne]; [rewrite upd_same; exact Hp|rewrite upd_other by exact Hne].
      apply (T4_write s s' q0 H0 w u H1 Hs Hnh); [| |apply a]; fold old.
      + destruct Hw as [(W1 & W2 & W3 & W4)|(W1 & W2 & W3)]; [right; split; [lia|intros Hx; rewrite W2; exact Hx]|left; lia].
      + destruct Hw as [(W1 & W2 & W3 & W4)|(W1 & W2 & W3)]; [right; left; exact W3|left; lia].
    - intros q H. rewrite Hd, Hs. destruct (rid_eqb_spec q q0) as [->|Hnq]; cbn [andb]; [|apply b].
      destruct (N.eqb_spec (phys cap (2 * H)) (phys cap (2 * H0))) as [Hpp|Hpp].
      + intros Hx HH Hc.
        destruct Hw as [(W1 & W2 & W3 & W4)|(W1 & W2 & W3)]; [exact W4|].
        rewrite clt_rk in Hc. apply N.leb_le in Hc.
        destruct (N.eqb_spec H H0) as [->|HnH]; [lia|].
        rewrite W3. unfold old. rewrite <- (slot_same_pos s q0 H H0 Hpp). apply b; [exact Hx|exact HH|].
        rewrite clt_rk. apply N.leb_le. rewrite (slot_same_pos s q0 H H0 Hpp). fold old. lia.
      + destruct (N.eqb_spec H H0) as [->|HnH]; [exfalso; apply Hpp; reflexivity|apply b].
    - intros q H i. rewrite Hd, He. destruct (rid_eqb_spec q q0) as [->|Hnq]; cbn [andb]; [|apply c].
      destruct (N.eqb_spec H H0) as [->|HnH]; [intros _ Hx|apply c].
      destruct (HR q0) as [_ _ _ _ _ _ _ s5 _]. destruct (s5 H0 i Hx) as [_ [Ht|(_ & _ & Hcy)]]; [rewrite Hheld in Ht; discriminate|].
      fold old in Hcy. rewrite (rk_of_cycle old (H0 / nn cap) (tick_cycle_lt_cmax H0 HH0) Hcy) in Hold. lia.
  Qed.

  (** an enqueue publishes index idx with ticket T0 over the empty word e *)
  Lemma F4_pub s s' t q0 x idx gk tl e w i0 p' :
    Inv1 s -> Inv4 s -> th s t = E4 q0 x idx gk tl e -> slot s q0 (tl / 2) = e ->
    (forall q T, slot s' q T = if rid_eqb q q0 && (phys cap (2 * T) =? phys cap (2 * (tl / 2))) then w else slot s q T) ->
    (forall q H, g_dq (rg s' q) H = g_dq (rg s q) H) ->
    (forall q T, g_eq (rg s' q) T = if rid_eqb q q0 && (T =? tl / 2) then EPub i0 else g_eq (rg s q) T) ->
    rk w = (tl / 2) / nn cap + 1 -> eidx w <> bot ->
    th s' = upd (th s) t p' -> T4 s' p' -> Inv4 s'.
  Proof.
    intros H1 [a b c] Et Hcur Hs Hd He Hrk Hwi Hth Hp.
    destruct (E4_facts s t q0 x idx gk tl e H1 Et) as (F1 & F2 & F3 & F4). set (T0 := tl / 2) in *.
    assert (HT0 : 2 * T0 < 2 ^ 62) by (rewrite <- F1; exact F2).
    pose proof (a t) as Ht. rewrite Et in Ht. cbn [T4] in Ht. destruct Ht as [_ HP]. fold T0 in HP.
    assert (Hnh : forall q H, phys cap (2 * H) <> phys cap (2 * T0) \/ q <> q0 -> nh (g_dq (rg s q) H) -> nh (g_dq (rg s' q) H)).
    { intros q H _ Hy. rewrite Hd. exact Hy. }
    (* no ticket of this slot from T0 on has been given up *)
    assert (Hnoleft : forall H, phys cap (2 * H) = phys cap (2 * T0) -> T0 <= H -> 2 * H < 2 ^ 62 -> g_dq (rg s q0) H <> DLeft).
    { intros H Hpp Hle HH Hx. destruct (esafe e) eqn:Hsafe.
      - assert (Hu := b q0 H Hx HH). rewrite (slot_same_pos s q0 H T0 Hpp), Hcur in Hu. rewrite Hu in Hsafe; [discriminate|].
        rewrite clt_rk. apply N.leb_le. pose proof (div_nn_mono _ _ Hle). lia.
      - destruct (HP eq_refl Hcur H Hpp Hle) as [Hn|[u Hn]]; rewrite Hn in Hx; discriminate. }
    constructor.
    - intros u. rewrite Hth. destruct (Nat.eq_dec u t) as [->|Hne]; [rewrite upd_same; exact Hp|rewrite upd_other by exact Hne].
      apply (T4_write s s' q0 T0 w u H1 Hs Hnh); [rewrite Hcur; left; lia|right; left; exact Hwi|apply a].
    - intros q H. rewrite Hd, Hs. destruct (rid_eqb_spec q q0) as [->|Hnq]; cbn [andb]; [|apply b].
      destruct (N.eqb_spec (phys cap (2 * H)) (phys cap (2 * T0))) as [Hpp|Hpp]; [|apply b].
      intros Hx HH Hc. exfalso. rewrite clt_rk, Hrk in Hc. apply N.leb_le in Hc.
      apply (Hnoleft H Hpp); [|exact HH|exact Hx].
      destruct (N.le_gt_cases T0 H) as [Hle|Hgt]; [exact Hle|]. pose proof (div_nn_mono H T0 ltac:(lia)). lia.
    - intros q H i. rewrite Hd, He. destruct (rid_eqb_spec q q0) as [->|Hnq]; cbn [andb]; [|apply c].
      destruct (N.eqb_spec H T0) as [->|HnH]; [|apply c]. intros Hx _. apply (Hnoleft T0 eq_refl (N.le_refl _) HT0 Hx).
  Qed.

  (** ** the step lemma *)
  (** [pure_step] closes Inv4 of a concrete successor by [F4_pure] and leaves [T4] of the new program point: no slot word
      changes ([slot_same_tac], by computation), and the fates change at most at one ticket, which becomes [DHeld] /
      [EHeld] / [ESkip] or goes from held to [DTaken]-free values, so no new [DLeft], no new [EPub], [nh] is kept
      ([pure_fate]: cases on the ring and on the ticket) *)
  Ltac slot_same_tac :=
    let q' := fresh "q'" in let T := fresh "T" in
    intros q' T; unfold NikbOwn.slot; sim;
    try (match goal with |- context [rid_eqb q' ?q] => destruct (rid_eqb_spec q' q) as [->|?] end); sim; reflexivity.
  Ltac pure_fate :=
    let q' := fresh "q'" in let H := fresh "H" in
    intros q' H; sim;
    try (match goal with |- context [rid_eqb q' ?q] => destruct (rid_eqb_spec q' q) as [->|?] end); sim; unfold setf;
    try (match goal with |- context [if ?a =? ?b then _ else _] => destruct (N.eqb_spec a b) end);
    intros; try discriminate; try assumption; try (right; eexists; reflexivity).
  Ltac pure_step s t HI :=
    eapply (F4_pure s _ t); [exact HI|slot_same_tac|pure_fate|pure_fate|pure_fate|sim; reflexivity|].

  Lemma ticket_of_pc s t q hd : Inv1 s -> Inv2 s -> dtk (th s t) = Some (q, hd) ->
    hd = 2 * (hd / 2) /\ hd < 2 ^ 62 /\ g_dq (rg s q) (hd / 2) = DHeld t /\ ecyc hd = (hd / 2) / nn cap.
  Proof.
    intros [_ HT1] (_ & HT & _) Hd. pose proof (HT t) as (Ta & _). specialize (Ta q hd Hd).
    assert (Hctr : ctr hd).
    { pose proof (HT1 t) as Hu. destruct (th s t); cbn [dtk] in Hd; try discriminate; apply some_pair_inj in Hd; destruct Hd as [<- <-];
      cbn [T1] in Hu; tauto. }
    destruct Hctr as [Hhd2 Hhdlt]. ssplit; [exact Hhd2|exact Hhdlt|exact Ta|]. rewrite Hhd2 at 1. apply (ecyc_tick k Hk).
  Qed.

  Lemma not_published_if_cycle_differs s t q hd : Inv1 s -> Inv2 s -> dtk (th s t) = Some (q, hd) ->
    ecyc (slot s q (hd / 2)) <> (hd / 2) / nn cap \/ eidx (slot s q (hd / 2)) = bot -> forall i, g_eq (rg s q) (hd / 2) <> EPub i.
  Proof.
    intros H1 H2 Hd Hx i Hp. destruct (ticket_of_pc s t q hd H1 H2 Hd) as (_ & _ & Hheld & _).
    destruct H2 as (HR & _). destruct (HR q) as [_ _ _ _ _ _ _ s5 _].
    destruct (s5 _ i Hp) as [Hi [Ht|(_ & Hsi & Hcy)]]; [rewrite Hheld in Ht; discriminate|].
    destruct Hx as [Hx|Hx]; [apply Hx; exact Hcy|]. rewrite Hx in Hsi. apply (lt_cap_ne_bot k R Hk i Hi). symmetry. exact Hsi.
  Qed.

  (** the dequeue ticket of t is given up without a write; the side conditions are about the slot of the ticket *)
  Lemma leave_step4 s s' t q hd p' :
    Inv1 s -> Inv2 s -> Inv4 s -> dtk (th s t) = Some (q, hd) -> leaves p' = true ->
    ~ (eidx (slot s q (hd / 2)) = bot /\ clt (slot s q (hd / 2)) (hd / 2 / nn cap) = true) ->
    (clt (slot s q (hd / 2)) (hd / 2 / nn cap) = true -> esafe (slot s q (hd / 2)) = false) ->
    (forall i, g_eq (rg s q) (hd / 2) <> EPub i) ->
    s' = w_th (mark_left s q hd p') (upd (th (mark_left s q hd p')) t p') -> Inv4 s'.
  Proof.
    intros H1 H2 HI Hd Hlv HA HB HC ->. destruct (ticket_of_pc s t q hd H1 H2 Hd) as (Hhd2 & Hhdlt & Hheld & _).
    eapply (F4_leave s _ t q (hd / 2)); [exact H1|exact HI|unfold mark_left; rewrite Hlv; slot_same_tac| | |exact Hheld|rewrite <- Hhd2; exact Hhdlt
                                        |unfold mark_left; rewrite Hlv; sim; reflexivity|destruct p'; try discriminate; exact I|exact HA|exact HB|exact HC].
    - intros q' H. unfold mark_left; rewrite Hlv; sim. destruct (rid_eqb_spec q' q) as [->|?]; sim; cbn [andb]; reflexivity.
    - intros q' T. unfold mark_left; rewrite Hlv; sim. destruct (rid_eqb_spec q' q) as [->|?]; sim; reflexivity.
  Qed.

  (** the loop body of dequeue evaluated on the current slot word (load or failed CAS) *)
  Lemma dq_eval_step4 s s' t q x hd att :
    Inv1 s -> Inv2 s -> Inv4 s -> dtk (th s t) = Some (q, hd) ->
    let m := rdata (rg s q) (phys cap hd) in
    s' = w_th (mark_left s q hd (dq_eval cap q x hd att m)) (upd (th (mark_left s q hd (dq_eval cap q x hd att m))) t (dq_eval cap q x hd att m)) ->
    Inv4 s'.
  Proof.
    intros H1 H2 HI Hd m ->. destruct (ticket_of_pc s t q hd H1 H2 Hd) as (Hhd2 & Hhdlt & Hheld & Hcyc).
    assert (Hm : slot s q (hd / 2) = m) by (unfold NikbOwn.slot, m; rewrite <- Hhd2; reflexivity).
    destruct H1 as [HW HT1]. destruct (HW q) as (_ & _ & _ & Hdw). assert (Hwm : wfe k m) by apply Hdw.
    destruct (dq_eval_cases cap q x hd att m) as [[C1 E]|[C1 [[C2 [[C3 E]|[C3 [[C4 E]|[C4 E]]]]]|[C2 E]]]]; rewrite E.
    - rewrite (mark_left_core k R Hk) by reflexivity. pure_step s t HI. exact I.
    - (* leave: index entry already unsafe *)
      apply (leave_step4 s _ t q hd (D6 q x hd) (conj HW HT1) H2 HI Hd eq_refl); [| | |reflexivity].
      + rewrite Hm. intros [Hb _]. rewrite (is_bot_eqb k Hk) in C2. apply N.eqb_neq in C2. contradiction.
      + rewrite Hm. intros _. rewrite (unsafe_eqb k Hk) in C3. apply negb_true_iff in C3. exact C3.
      + apply (not_published_if_cycle_differs s t q hd (conj HW HT1) H2 Hd). left. rewrite Hm, <- Hcyc.
        rewrite (cyc_eqb k Hk) in C1. apply N.eqb_neq in C1. exact C1.
    - rewrite (mark_left_core k R Hk) by reflexivity. pure_step s t HI. cbn [T4]. unfold NikbOwn.slot. sim. rewrite <- Hhd2. apply le_ent_refl.
    - (* leave: index entry of a cycle not before the ticket's *)
      apply (leave_step4 s _ t q hd (D6 q x hd) (conj HW HT1) H2 HI Hd eq_refl); [| | |reflexivity].
      + rewrite Hm. intros [Hb _]. rewrite (is_bot_eqb k Hk) in C2. apply N.eqb_neq in C2. contradiction.
      + rewrite Hm. intros Hc. exfalso. rewrite (cyc_lt_diff k Hk) in C4; [|apply (wfe_cycle_ok k R Hk); exact Hwm|exact Hhdlt].
        rewrite Hcyc in C4. congruence.
      + apply (not_published_if_cycle_differs s t q hd (conj HW HT1) H2 Hd). left. rewrite Hm, <- Hcyc.
        rewrite (cyc_eqb k Hk) in C1. apply N.eqb_neq in C1. exact C1.
    - rewrite (mark_left_core k R Hk) by reflexivity. pure_step s t HI. cbn [T4]. unfold NikbOwn.slot. sim. rewrite <- Hhd2. apply le_ent_refl.
  Qed.

  Lemma en_eval_step4 s s' t q x idx gk tl :
    Inv1 s -> Inv4 s -> etk (th s t) = Some (q, tl) ->
    let m := rdata (rg s q) (phys cap tl) in
    s' = w_th (mark_skip s q tl (en_eval cap q x idx gk tl m)) (upd (th (mark_skip s q tl (en_eval cap q x idx gk tl m))) t (en_eval cap q x idx gk tl m)) ->
    Inv4 s'.
  Proof.
    intros H1 HI He m ->.
    assert (Hctr : ctr tl).
    { destruct H1 as [_ HT1]. pose proof (HT1 t) as Hu. destruct (th s t); cbn [etk] in He; try discriminate; apply some_pair_inj in He; destruct He as [<- <-];
      cbn [T1] in Hu; tauto. }
    destruct Hctr as [Htl2 Htllt].
    destruct (en_eval_cases cap q x idx gk tl m) as [(C1 & C2 & E)|[(C1 & C2 & C3 & E)|E]]; rewrite E; unfold mark_skip; cbn [skips].
    - pure_step s t HI. cbn [T4]. unfold NikbOwn.slot. sim. rewrite <- Htl2. split; [apply le_ent_refl|].
      intros Hs. exfalso. rewrite (safe_bot_eqb k Hk) in C2. apply andb_true_iff in C2. destruct C2 as [C2 _]. fold m in Hs. congruence.
    - pure_step s t HI. cbn [T4]. unfold NikbOwn.slot. sim. rewrite <- Htl2. apply le_ent_refl.
    - pure_step s t HI. exact I.
  Qed.

  Lemma Inv4_step s a s' es : Inv1 s -> Inv2 s -> Inv4 s -> step s a = Some (s', es) -> Inv4 s'.
  Proof.
    intros H1 H2 HI Hst. pose proof H1 as [HW HT1]. pose proof H2 as (HR & HT & HO).
    unfold NikbDefs.step, step_gen in Hst. destruct a as [t o|t].
    - destruct (th s t) eqn:E; try discriminate. injection Hst as <- <-. pure_step s t HI. exact I.
    - pose proof (HT1 t) as Hme. pose proof (i4t s HI t) as Hme4.
      pc_cases (th s t); try discriminate;
        cbn [T1] in Hme; cbn [T4] in Hme4.
      + injection Hst as <- <-. pure_step s t HI. exact I.
      + injection Hst as <- <-. pure_step s t HI. exact I.
      + (* D0 *) destruct (lt0 _); injection Hst as <- <-; pure_step s t HI; exact I.
      + (* D1 *) injection Hst as <- <-. pure_step s t HI. exact I.
      + (* D2 *) injection Hst as <- <-.
        eapply (dq_eval_step4 s _ t q x hd att); [exact H1|exact H2|exact HI|rewrite E; reflexivity|reflexivity].
      + (* D3 *) destruct (ticket_of_pc s t q hd H1 H2 ltac:(rewrite E; reflexivity)) as (Hhd2 & Hhdlt & Hheld & Hcyc).
        pose proof (HT t) as (_ & _ & _ & Td). rewrite E in Td. destruct Td as (Hidx & Hsi & Hsc).
        assert (Hm : slot s q (hd / 2) = rdata (rg s q) (phys cap hd)) by (unfold NikbOwn.slot; rewrite <- Hhd2; reflexivity).
        destruct (f_take k Hk (rdata (rg s q) (phys cap hd))) as (A & B & C).
        destruct q; injection Hst as <- <-;
        (eapply (F4_take s _ t _ (hd / 2) (N.lor (rdata (rg s _) (phys cap hd)) (vmask cap)) (N.land e (vmask cap)));
         [exact H1|exact HI| | | |exact Hheld|unfold rk; rewrite Hm, A; reflexivity|rewrite Hm; exact B|exact C
         |rewrite Hsi; apply (lt_cap_ne_bot k R Hk); exact Hidx|sim; reflexivity|exact I]);
        try (intros q' T; unfold NikbOwn.slot; sim; destruct q'; sim; unfold setf; rewrite <- ?Hhd2; reflexivity);
        try (intros q' H; sim; destruct q'; sim; reflexivity).
      + (* D4 *) destruct (ticket_of_pc s t q hd H1 H2 ltac:(rewrite E; reflexivity)) as (Hhd2 & Hhdlt & Hheld & Hcyc).
        destruct Hme as (_ & _ & Hwe & Hb).
        injection Hst as <- <-.
        destruct (gt0 _ && _).
        * rewrite (mark_left_core k R Hk) by reflexivity. pure_step s t HI. exact I.
        * destruct (lt0 (diff (cyc cap e) (cyc cap hd))) eqn:Hlt.
          -- rewrite (mark_left_core k R Hk) by reflexivity. pure_step s t HI. cbn [T4]. unfold NikbOwn.slot in *. sim. exact Hme4.
          -- rewrite (cyc_lt_diff k Hk) in Hlt; [|apply (wfe_cycle_ok k R Hk); exact Hwe|exact Hhdlt].
             rewrite Hcyc, clt_rk in Hlt. apply N.leb_gt in Hlt.
             assert (HH0 : 2 * (hd / 2) < 2 ^ 62) by (rewrite <- Hhd2; exact Hhdlt).
             assert (Hrs : hd / 2 / nn cap < rk (slot s q (hd / 2))) by (destruct Hme4 as [X|[X _]]; lia).
             apply (leave_step4 s _ t q hd (D6 q x hd) H1 H2 HI ltac:(rewrite E; reflexivity) eq_refl); [| | |reflexivity].
             ++ intros [_ Hc]. rewrite clt_rk in Hc. apply N.leb_le in Hc. lia.
             ++ intros Hc. rewrite clt_rk in Hc. apply N.leb_le in Hc. lia.
             ++ apply (not_published_if_cycle_differs s t q hd H1 H2 ltac:(rewrite E; reflexivity)).
                destruct Hme4 as [X|[X X']]; [left|right; apply X'; exact Hb].
                intros Hc. rewrite (rk_of_cycle _ _ (tick_cycle_lt_cmax _ HH0) Hc) in X. lia.
      + (* D5 *) destruct (ticket_of_pc s t q hd H1 H2 ltac:(rewrite E; reflexivity)) as (Hhd2 & Hhdlt & Hheld & Hcyc).
        destruct Hme as (_ & _ & Hwe & Hlt & Hnew).
        assert (HH0 : 2 * (hd / 2) < 2 ^ 62) by (rewrite <- Hhd2; exact Hhdlt).
        destruct (N.eqb_spec (rdata (rg s q) (phys cap hd)) e) as [<-|Hcur]; injection Hst as <- <-.
        * assert (Hm : slot s q (hd / 2) = rdata (rg s q) (phys cap hd)) by (unfold NikbOwn.slot; rewrite <- Hhd2; reflexivity).
          rewrite Hcyc, clt_rk in Hlt. apply N.leb_le in Hlt.
          eapply (F4_cas s _ t q (hd / 2) enew); [exact H1|exact H2|exact HI|exact HH0| | | |exact Hheld|rewrite Hm; exact Hlt| |sim; reflexivity|exact I].
          -- intros q' T. unfold NikbOwn.slot. sim. destruct (rid_eqb_spec q' q) as [->|?]; sim; cbn [andb]; unfold setf; rewrite <- ?Hhd2; reflexivity.
          -- intros q' H. sim. destruct (rid_eqb_spec q' q) as [->|?]; sim; cbn [andb]; reflexivity.
          -- intros q' T. sim. destruct (rid_eqb_spec q' q) as [->|?]; sim; reflexivity.
          -- rewrite Hm. destruct Hnew as [[-> Hnb]|[-> Hb]].
             ++ left. destruct (f_unsafe k Hk (rdata (rgs s q) (phys cap hd))) as (A & B & C). unfold rk. rewrite A, C. ssplit; try reflexivity; [exact Hnb|exact B].
             ++ right. destruct (f_botw k Hk hd (rdata (rgs s q) (phys cap hd))) as (A & B & C).
                ssplit; [apply rk_of_cycle; [apply tick_cycle_lt_cmax; exact HH0|rewrite A; exact Hcyc]|exact C|exact B].
        * eapply (dq_eval_step4 s _ t q x hd att); [exact H1|exact H2|exact HI|rewrite E; reflexivity|reflexivity].
      + (* D6 *) destruct (gt0 _); injection Hst as <- <-; pure_step s t HI; exact I.
      + (* D7 *) destruct (sle 64 _ 0); injection Hst as <- <-; pure_step s t HI; exact I.
      + (* C1 *) destruct (_ =? tl); injection Hst as <- <-; pure_step s t HI; exact I.
      + (* C2 *) destruct (lt0 _); injection Hst as <- <-; pure_step s t HI; exact I.
      + (* D8 *) injection Hst as <- <-; pure_step s t HI; exact I.
      + (* E1 *) destruct q; injection Hst as <- <-; pure_step s t HI; exact I.
      + (* E2 *) injection Hst as <- <-.
        eapply (en_eval_step4 s _ t q x idx gk tl); [exact H1|exact HI|rewrite E; reflexivity|reflexivity].
      + (* E3 *) destruct Hme as (_ & [Htl2 Htllt] & _ & _). destruct (HW q) as ([_ Hhlt] & _).
        destruct (gt0 (diff (rhead (rg s q)) tl)) eqn:Hg0; injection Hst as <- <-; unfold mark_skip; cbn [skips].
        * pure_step s t HI. exact I.
        * pure_step s t HI. cbn [T4]. unfold NikbOwn.slot in *. sim. split; [exact Hme4|].
          intros _ _ H Hpp Hle. left. rewrite diff_gt0 in Hg0 by assumption. apply N.ltb_ge in Hg0.
          destruct (HR q) as [a1 _ _ _ _ _ _ _ _].
          destruct (g_dq (rgs s q) H) eqn:Eg; [reflexivity| | |];
            (assert (Hne : g_dq (rgs s q) H <> DNone) by (rewrite Eg; discriminate); specialize (a1 H Hne); lia).
      + (* E4 *) destruct Hme as (Hi & [Htl2 Htllt] & _ & _).
        pose proof (HT t) as (_ & _ & Tc & _). rewrite E in Tc. destruct (Tc q idx eq_refl) as [_ Hidx].
        destruct (N.eqb_spec (rdata (rg s q) (phys cap tl)) e) as [<-|Hcur].
        * destruct (f_enq k Hk tl idx (wfi_le k R Hk _ Hi)) as (A & B & C).
          assert (Hcyc : ecyc tl = (tl / 2) / nn cap) by (rewrite Htl2 at 1; apply (ecyc_tick k Hk)).
          assert (HT0 : 2 * (tl / 2) < 2 ^ 62) by (rewrite <- Htl2; exact Htllt).
          destruct q; injection Hst as <- <-;
          (eapply (F4_pub s _ t _ x idx gk tl _ (enq_word false cap tl idx) idx);
           [exact H1|exact HI|exact E|unfold NikbOwn.slot; rewrite <- Htl2; reflexivity| | |
           |apply rk_of_cycle; [apply tick_cycle_lt_cmax; exact HT0|rewrite A; exact Hcyc]
           |rewrite C; apply (lt_cap_ne_bot k R Hk); exact Hidx|sim; reflexivity|exact I]);
          try (intros q' T; unfold NikbOwn.slot; sim; destruct q'; sim; unfold setf; rewrite <- ?Htl2; reflexivity);
          try (intros q' H; sim; destruct q'; sim; reflexivity).
        * injection Hst as <- <-.
          eapply (en_eval_step4 s _ t q x idx gk tl); [exact H1|exact HI|rewrite E; reflexivity|reflexivity].
      + (* E5 *) destruct (_ =? thr_full cap); [destruct q|]; injection Hst as <- <-; pure_step s t HI; exact I.
      + (* E6 *) destruct q; injection Hst as <- <-; pure_step s t HI; exact I.
  Qed.

  Theorem Inv4_reach s : reach (init cap) step s -> g_ovf s = false -> Inv4 s.
  Proof.
    intros Hr. induction Hr as [|s a s' es Hr IH Hst]; intros Hov.
    - apply Inv4_init.
    - assert (Ho : g_ovf s = false) by (eapply ovf_sticky; eauto).
      destruct (Inv123_reach k R Hk s Hr Ho) as (I1 & I2 & _).
      eapply Inv4_step; [exact I1|exact I2|apply IH; exact Ho|exact Hst].
  Qed.
End L4.
