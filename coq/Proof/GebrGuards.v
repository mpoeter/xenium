(** Guards of the generalised epoch based reclamation model (Model/GebrDefs.v, every configuration), the core of C01:
    [guard_ok]  a node held by a guard_ptr of thread u (a persistent guard of the client or the guard of the running
                repl) is still published in its cell, or it was retired in a local epoch r with
                local_epoch(u) <= r + 1;
    [guard_not_freed]  hence (with [P1]: the global epoch is at most one ahead of a synchronised thread - a thread
                that holds a guard is synchronised, whatever the region extension -, and [tag_ok]: a node is freed only
                when the global epoch is >= r + 3) a guarded node is not freed;
    [uaf_reach] no dereference ever hits a destroyed node.  No axioms. *)
From Coq Require Import NArith List Bool Arith Lia PeanoNat Setoid.
From XV Require Import Conc.Lts Conc.Ev Model.GebrDefs Proof.GebrBase Proof.GebrShape Proof.GebrOwn Proof.GebrEpoch Proof.GebrNodes Proof.GebrTags.
Import ListNotations.
Local Open Scope N_scope.

(** * Guards *)
Definition holds (s : state) (u : nat) (n : N) : Prop :=
  (exists sl, gs (tl s u) sl = Some n) \/ tmpg (th s u) = Some n.

Definition guard_ok (s : state) (u : nat) (n : N) : Prop :=
  (exists c, g_life s n = LPub c) \/
  (exists t' r b, g_life s n = LRet t' r /\ cb (tl s u) = Some b /\ blocal s b <= r + 1).

(** a thread that holds a guard is synchronised: inside a critical region with a validated epoch *)
Lemma holds_shape cfg ns p x n : tshape cfg ns p x -> ((exists sl, gs x sl = Some n) \/ tmpg p = Some n) ->
  cb x <> None /\ has_loc p = true /\ (1 <= nest x)%nat /\ in_enter p = false /\ in_cphase p = false /\
  (forall le, ve p x le = Some le) /\ sync x = true.
Proof.
  intros T Hh.
  assert (H1 : (1 <= nest x)%nat /\ in_enter p = false /\ in_cphase p = false /\ in_lv p = false /\ in_xphase p = false).
  { destruct Hh as [(sl & Hs)|Hp].
    - assert (Hlt : (sl < ns)%nat). { destruct (le_lt_dec ns sl) as [Hle|]; [|assumption]. rewrite (ts_hi _ _ _ _ T sl Hle) in Hs. discriminate. }
      pose proof (cnt_pos _ _ _ _ Hs Hlt) as Hc. pose proof (ts_cnt _ _ _ _ T) as Hn.
      assert (H1 : (1 <= nest x)%nat) by lia. split; [exact H1|].
      split. { destruct (in_enter p) eqn:E; [|reflexivity]. pose proof (ts_e _ _ _ _ T E). destruct p; cbn in E; try discriminate; cbn in H, Hn; try lia; destruct (kacq k); lia. }
      split. { destruct (in_cphase p) eqn:E; [|reflexivity]. destruct (ts_c _ _ _ _ T E). lia. }
      split. { destruct (in_lv p) eqn:E; [|reflexivity]. destruct (ts_lv _ _ _ _ T E). lia. }
      destruct (in_xphase p) eqn:E; [|reflexivity]. destruct (ts_x _ _ _ _ T E) as (_ & _ & Hg). rewrite Hg in Hs. discriminate.
    - destruct p; cbn in Hp; try discriminate. destruct g; [|discriminate].
      pose proof (ts_cnt _ _ _ _ T) as Hn. cbn in Hn. repeat split; try reflexivity. lia. }
  destruct H1 as (Hn1 & He & Hc & Hlv & Hx).
  assert (Hsy : sync x = true). { apply (ts_sync _ _ _ _ T Hn1). destruct p; cbn in He |- *; try reflexivity; discriminate. }
  assert (Hcb : cb x <> None). { intros E. destruct (ts_fresh _ _ _ _ T E) as [E0 _]. lia. }
  repeat split; try assumption.
  - destruct p; cbn in Hc |- *; try reflexivity; discriminate.
  - intros le. destruct p; cbn in He, Hc |- *; try discriminate; rewrite Hsy; reflexivity.
Qed.

Lemma guard_not_freed cfg ns s u n : T0 cfg ns s -> O0 cfg s -> EI cfg s -> N0 s -> (forall m, tag_ok s m) -> guard_ok s u n -> holds s u n ->
  g_where s n <> PFreed /\ g_nfree s n = O /\ g_life s n <> LDropped.
Proof.
  intros T O [P _] I G Hg Hh.
  assert (Hw : g_where s n <> PFreed).
  { destruct Hg as [(c & L)|(t' & r & b & L & C & B)].
    - destruct (wh_not_ret _ _ _ (n_where s I n)) as [W _]; [rewrite L; intros; discriminate|]. rewrite W. discriminate.
    - intros W. pose proof (G n) as Gn. unfold tag_ok in Gn. rewrite W in Gn. destruct Gn as (t2 & r2 & L2 & Hr).
      rewrite L in L2. injection L2 as <- <-.
      destruct (holds_shape _ _ _ _ _ (T u) Hh) as (_ & _ & _ & _ & _ & Hve & _).
      destruct (P u b C) as (_ & _ & PA). specialize (PA _ (Hve _)). lia. }
  split; [exact Hw|].
  pose proof (n_where s I n) as W. split.
  - destruct (g_where s n); cbn in W; try (destruct W as [_ W]; exact W). congruence.
  - destruct Hg as [(c & L)|(t' & r & b & L & _)]; rewrite L; discriminate.
Qed.

(** a guard the stepping thread holds afterwards was held before, or was just read from a cell *)
Lemma step_holds cfg ns s t s' es : step cfg ns s (Step t) = Some (s', es) ->
  forall n, holds s' t n -> holds s t n \/ exists c a, cells s c = Some n /\ th s t = A2 a.
Proof.
  intros H. unfold_step H. cbv zeta in H. step_split H.
  all: bool_eqs; unfold holds; prj; rewrite ?upd_same; prj; intros nn [(sl & Hs)|Hp].
  all: try solve [sel; discriminate].
  all: try solve [left; left; exists sl; exact Hs].
  all: try solve [injection Hp as <-; right; eauto].
  all: try solve [left; right; rewrite E; exact Hp].
  all: try solve [match type of Hs with upd ?g ?a ?v ?x = _ => destruct (upd_cases g a v x) as [[-> Eu]|[Hsl Eu]]; rewrite Eu in Hs end;
                  first [discriminate Hs | injection Hs as <-; right; eauto | left; left; exists sl; exact Hs]].
Qed.

(** a thread that holds a guard keeps its control block, and the local epoch published there *)
Lemma holder_frame cfg ns s t s' es u n : T0 cfg ns s -> O0 cfg s -> step cfg ns s (Step t) = Some (s', es) -> holds s u n ->
  forall b, cb (tl s u) = Some b -> cb (tl s' u) = Some b /\ blocal s' b = blocal s b.
Proof.
  intros T O H Hh b Hb. destruct (holds_shape _ _ _ _ _ (T u) Hh) as (_ & _ & Hn & He & Hc & _).
  pose proof (step_others _ _ _ _ _ _ H) as Fo. pose proof (step_untouched _ _ _ _ _ _ H) as Fb.
  destruct (Nat.eq_dec u t) as [->|Hu].
  - assert (Hc16 : in_c16 (th s t) = false) by (destruct (th s t); try discriminate Hc; reflexivity).
    split.
    + rewrite (step_cb _ _ _ _ _ _ H Hc); [exact Hb|]. intros E. pose proof (ts_x _ _ _ _ (T t)) as X. rewrite E in X.
      destruct (X eq_refl) as [X0 _]. rewrite X0 in Hn. inversion Hn.
    + destruct (step_blocal _ _ _ _ _ _ H) as [->|X|? ? ? E|? ? ? ? E]; [reflexivity|congruence|rewrite E in Hc; discriminate Hc|rewrite E in He; discriminate He].
  - destruct (Fo u Hu) as [_ ->]. split; [exact Hb|]. apply (Fb b). apply (owner_untouched cfg s t u b O); [apply (o_own cfg s O u b Hb)|exact Hu].
Qed.

Lemma GI_step cfg ns s t s' es : T0 cfg ns s -> O0 cfg s -> EI cfg s -> N0 s -> (forall u n, holds s u n -> guard_ok s u n) ->
  step cfg ns s (Step t) = Some (s', es) -> forall u n, holds s' u n -> guard_ok s' u n.
Proof.
  intros T O [P _] I G H u n Hh'. pose proof (step_others _ _ _ _ _ _ H) as Fo.
  pose proof (next_unborn s I) as Hnx.
  (* a guard held afterwards was held before, or was just read from a cell *)
  assert (Hold : holds s u n \/ exists c a, cells s c = Some n /\ th s t = A2 a).
  { destruct (Nat.eq_dec u t) as [->|Hu]; [exact (step_holds _ _ _ _ _ _ H n Hh')|]. left. unfold holds in *. destruct (Fo u Hu) as [<- <-]. exact Hh'. }
  (* a published node stays published unless this step retires it *)
  assert (Hpub : forall c, g_life s n = LPub c -> g_life s' n = LPub c \/
                   exists fn r, th s t = R3 c (Some n) fn /\ g_life s' n = LRet t r /\ forall b, cb (tl s t) = Some b -> r = blocal s b).
  { intros c L. destruct (step_life _ _ _ _ _ _ H) as [El|El|c0 g fn r E Eg Ec El Hr|c0 g fn E Ec El]; rewrite El.
    - auto.
    - left. rewrite updN_other; [exact L|]. intros ->. congruence.
    - destruct (cas_nodes s t c0 g fn I E) as [Hn Hg]. rewrite Eg in Hg.
      destruct (set_opt_cases (set_opt (g_life s) fn (LPub c0)) g (LRet t r) n) as [[X ->]|[_ ->]].
      + right. pose proof (Hg n X) as L'. rewrite L in L'. injection L' as <-. exists fn, r. split; [rewrite <- X; exact E|]. split; [reflexivity|]. intros b; apply Hr; rewrite X; discriminate.
      + left. destruct (set_opt_cases (g_life s) fn (LPub c0) n) as [[X _]|[_ ->]]; [rewrite (Hn n X) in L; discriminate|exact L].
    - destruct (cas_nodes s t c0 g fn I E) as [Hn _]. left.
      destruct (set_opt_cases (g_life s) fn LDropped n) as [[X _]|[_ ->]]; [rewrite (Hn n X) in L; discriminate|exact L]. }
  destruct Hold as [Hh|(c & a & Hc & E)].
  - pose proof (holder_frame _ _ _ _ _ _ u n T O H Hh) as Fr.
    destruct (G u n Hh) as [(c & L)|(t' & r & b & L & C & B)].
    + destruct (Hpub c L) as [L'|(fn & r & E & L' & Hr)]; [left; eauto|right].
      (* the node is retired: the global epoch is at most one ahead of the retiring thread, and not behind the holder *)
      destruct (holds_shape _ _ _ _ _ (T u) Hh) as (Hcb & Hloc & _).
      destruct (cb (tl s u)) as [bu|] eqn:Ebu; [|congruence]. destruct (Fr bu eq_refl) as [C' B'].
      assert (Ht : holds s t n) by (right; rewrite E; reflexivity).
      destruct (holds_shape _ _ _ _ _ (T t) Ht) as (Hcbt & _ & _ & _ & _ & Hve & _).
      destruct (cb (tl s t)) as [bt|] eqn:Ebt; [|congruence].
      destruct (P u bu Ebu) as (PL & _ & _). destruct (PL Hloc) as [PL1 _]. destruct (P t bt Ebt) as (_ & _ & PA). specialize (PA _ (Hve _)).
      exists t, r, bu. rewrite B'. repeat split; [exact L'|exact C'|rewrite (Hr bt eq_refl); lia].
    + right. destruct (Fr b C) as [C' B']. exists t', r, b. rewrite B'. repeat split; [exact (ret_stable _ _ _ _ _ _ I H n t' r L)|exact C'|exact B].
  - left. exists c. pose proof (n_cell s I c n Hc) as L. destruct (Hpub c L) as [L'|(fn & r & E' & _)]; [exact L'|congruence].
Qed.

Lemma GI_start cfg ns s t o s' es : T0 cfg ns s -> (forall u n, holds s u n -> guard_ok s u n) ->
  step cfg ns s (Start t o) = Some (s', es) -> forall u n, holds s' u n -> guard_ok s' u n.
Proof.
  intros T G H. destruct (start_pc _ _ _ _ _ _ _ H) as (Hidle & Eth & Hsl & Etl & Eg & Ef & El & Ebl & Ew & Elf & _).
  assert (Etm : forall u, tmpg (th s' u) = tmpg (th s u)).
  { intros u. rewrite Eth. destruct (Nat.eq_dec u t) as [->|Hne]; [rewrite upd_same, Hidle|rewrite upd_other by exact Hne; reflexivity].
    destruct (th s' t); try discriminate Hsl; reflexivity. }
  assert (Egs : forall u sl n, gs (tl s' u) sl = Some n -> gs (tl s u) sl = Some n).
  { intros u sl n. unfold step in H. step_split H; prj; try (intros X; exact X).
    destruct (upd_cases (tl s) t (wt_rg None (wt_rent 0 (wt_nest 0 (wt_gs (fun _ : nat => None) (tl s t))))) u) as [[-> ->]|[_ ->]]; prj; [discriminate|intros X; exact X]. }
  intros u n Hh. unfold holds, guard_ok in *. rewrite Etm in Hh. rewrite Elf, El. destruct (Etl u) as (-> & _).
  apply G. destruct Hh as [(sl & Hs)|Hp]; [left; exists sl; apply Egs; exact Hs|right; exact Hp].
Qed.

Section ReachG.
Variables (cfg : config) (ns : nat) (nc : N).
Lemma GI_reach s : reachable cfg ns nc s -> forall u n, holds s u n -> guard_ok s u n.
Proof.
  apply (inv_rule_aux _ _ _ _ _ (fun s => T0 cfg ns s /\ O0 cfg s /\ EI cfg s /\ N0 s) (fun s => forall u n, holds s u n -> guard_ok s u n)).
  - intros s0 Hr. split; [apply (T0_reach cfg ns nc); exact Hr|]. split; [apply (O0_reach cfg ns nc); exact Hr|].
    split; [apply (EI_reach cfg ns nc); exact Hr|apply (N0_reach cfg ns nc); exact Hr].
  - intros u n [(sl & Hs)|Hp]; cbn in *; discriminate.
  - intros s0 a s1 es (J1 & J2 & J3 & J4) _ I H. destruct a as [t o|t]; [exact (GI_start cfg ns s0 t o s1 es J1 I H)|exact (GI_step cfg ns s0 t s1 es J1 J2 J3 J4 I H)].
Qed.
End ReachG.

(** * No dereference of a destroyed node *)
(** not destroyed = no deleter run by the reclaimer and not dropped by its creator *)
Lemma dead_false s n : g_nfree s n = O -> g_life s n <> LDropped -> dead s n = false.
Proof. intros H1 H2. unfold dead. rewrite H1. cbn. destruct (g_life s n); try reflexivity. congruence. Qed.

Lemma uaf_step cfg ns s a s' es : T0 cfg ns s -> O0 cfg s -> EI cfg s -> N0 s -> (forall m, tag_ok s m) -> (forall u n, holds s u n -> guard_ok s u n) ->
  g_uaf s = false -> step cfg ns s a = Some (s', es) -> g_uaf s' = false.
Proof.
  intros T O EIs I Tg G U H. destruct a as [t o|t].
  { unfold step in H. step_split H; prj; exact U. }
  assert (Hcell : forall c n, cells s c = Some n -> dead s n = false).
  { intros c n Hc. pose proof (n_cell s I c n Hc) as L. apply dead_false; [|rewrite L; discriminate].
    destruct (wh_not_ret _ _ _ (n_where s I n)) as [_ W]; [rewrite L; intros; discriminate|exact W]. }
  assert (Hslot : forall sl n, gs (tl s t) sl = Some n -> dead s n = false).
  { intros sl n Hs. assert (Hh : holds s t n) by (left; exists sl; exact Hs).
    destruct (guard_not_freed _ _ _ _ _ T O EIs I Tg (G t n Hh) Hh) as (_ & H1 & H2). apply dead_false; assumption. }
  unfold_step H. cbv zeta in H. step_split H.
  all: bool_eqs; prj; try exact U.
  all: rewrite U; cbn [orb]; unfold dead; prj.
  all: first [ eapply Hslot; eassumption | eapply Hcell; eassumption | idtac ].
  all: match goal with Ec : cells _ _ = Some _ |- _ => pose proof (Hcell _ _ Ec) as Hd end;
       unfold dead in Hd; apply orb_false_iff in Hd; destruct Hd as [Hd1 Hd2]; rewrite Hd1; cbn [orb];
       match goal with |- context [updN ?f ?i ?v ?j] => destruct (updN_cases f i v j) as [[_ ->]|[_ ->]] end; [reflexivity|exact Hd2].
Qed.

Section ReachU.
Variables (cfg : config) (ns : nat) (nc : N).
Lemma uaf_reach s : reachable cfg ns nc s -> g_uaf s = false.
Proof.
  apply (inv_rule_aux _ _ _ _ _ (fun s => T0 cfg ns s /\ O0 cfg s /\ EI cfg s /\ N0 s /\ (forall m, tag_ok s m) /\ (forall u n, holds s u n -> guard_ok s u n)) (fun s => g_uaf s = false)).
  - intros s0 Hr. split; [apply (T0_reach cfg ns nc); exact Hr|]. split; [apply (O0_reach cfg ns nc); exact Hr|]. split; [apply (EI_reach cfg ns nc); exact Hr|].
    split; [apply (N0_reach cfg ns nc); exact Hr|]. split; [apply (tag_reach cfg ns nc); exact Hr|apply (GI_reach cfg ns nc); exact Hr].
  - reflexivity.
  - intros s0 a s1 es (J1 & J2 & J3 & J4 & J5 & J6) _ I H. exact (uaf_step cfg ns s0 a s1 es J1 J2 J3 J4 J5 J6 I H).
Qed.
End ReachU.
