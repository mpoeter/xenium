(** nikolaev_bounded_queue model, invariant layer 2: tickets, slots and ownership of the storage indices.
    - every dequeue / enqueue ticket below head / tail has a fate; a ticket is held by at most one thread;
    - a slot that holds an index holds it for exactly one published, not yet taken ticket (its cycle and
      position), and [g_own] records exactly that place;
    - a storage index is in exactly one place: a slot of the free ring, a slot of the allocated ring, or
      held by exactly one thread between its dequeue and its enqueue.
    (The safe bit plays no role here.)  All under [g_ovf = false]. *)
From Coq Require Import NArith List Bool Lia PeanoNat.
From XV Require Import Base.Word Conc.Lts Conc.Ev gen.ScqGen Model.NikbDefs Proof.NikbArith Proof.NikbBase Proof.NikbWf.
Import ListNotations.
Local Open Scope N_scope.

(** the owner recorded for an index that sits in ring q with ticket T *)
Definition inring (q : rid) (T : N) : owner := match q with RA => OFull T | RF => OFree T end.
(** thread t holds the index and will enqueue it into ring q *)
Definition held (q : rid) (t : nat) : owner := match q with RA => OWrite t | RF => ORead t end.

(** what a program point carries: [dtk] the dequeue ticket (ring, head word) held inside the do-loop, [etk] the enqueue
    ticket (ring, tail word) held from the tail fetch_add to the entry CAS, [hidx] the storage index held between a
    dequeue and the enqueue that follows, with the ring it will go to *)
Definition dtk (p : pc) : option (rid * N) :=
  match p with D2 q _ hd _ | D3 q _ hd _ | D4 q _ hd _ _ | D5 q _ hd _ _ _ => Some (q, hd) | _ => None end.
Definition etk (p : pc) : option (rid * N) :=
  match p with E2 q _ _ _ tl | E3 q _ _ _ tl _ | E4 q _ _ _ tl _ => Some (q, tl) | _ => None end.
Definition hidx (p : pc) : option (rid * N) :=
  match p with E1 q _ idx _ | E2 q _ idx _ _ | E3 q _ idx _ _ _ | E4 q _ idx _ _ _ => Some (q, idx) | _ => None end.

Lemma inring_inj q T q' T' : inring q T = inring q' T' -> q = q' /\ T = T'.
Proof. destruct q, q'; cbn; intros H; inversion H; auto. Qed.
Lemma inring_held q T q' t : inring q T <> held q' t.
Proof. destruct q, q'; discriminate. Qed.
Lemma held_inj q t q' t' : held q t = held q' t' -> q = q' /\ t = t'.
Proof. destruct q, q'; cbn; intros H; inversion H; auto. Qed.

Lemma some_pair_inj (a a' : rid) (b b' : N) : Some (a, b) = Some (a', b') -> a = a' /\ b = b'.
Proof. intros H. inversion H. split; reflexivity. Qed.

Set Default Proof Using "All".
Section L2.
  Variable k R : N.
  Hypothesis Hk : k <= 40.
  Notation cap := (2 ^ k).
  Notation step := (step cap R).
  Notation ecyc := (ecyc k).
  Notation eidx := (eidx k).
  Notation bot := (bot k).
  Notation wfe := (wfe k).
  Notation wfi := (wfi k).
  Notation Inv1 := (Inv1 k).

  Definition slot (st : state) (q : rid) (T : N) : N := rdata (rg st q) (phys cap (2 * T)).

  (** ring q, by the bullets of the header.
      Tickets: [riA1] / [riA2] a dequeue / enqueue ticket with a fate is below head / tail; [riC1] / [riC2] a held ticket is
      the one its holder's program point carries (so at most one holder).
      Slots: [riS2] a slot that holds an index, in the cycle of ticket T: T was published with that index, [g_own] says
      (q, T), T is not taken; [riS3] an empty slot in the cycle of T: T was taken or given up; [riS4] the converse of the
      [g_own] part of riS2; [riS5] a published ticket has been taken or its index is still in its slot, in its cycle;
      [riS6] what was taken at a ticket is what was published there. *)
  Record RI (st : state) (q : rid) : Prop := mkRI {
    riA1 : forall H, g_dq (rg st q) H <> DNone -> 2 * H + 2 <= rhead (rg st q);
    riA2 : forall T, g_eq (rg st q) T <> ENone -> 2 * T + 2 <= rtail (rg st q);
    riC1 : forall H u, g_dq (rg st q) H = DHeld u -> dtk (th st u) = Some (q, 2 * H);
    riC2 : forall T u, g_eq (rg st q) T = EHeld u -> etk (th st u) = Some (q, 2 * T);
    riS2 : forall T, 2 * T < 2 ^ 62 -> eidx (slot st q T) < cap -> ecyc (slot st q T) = T / nn cap ->
         g_eq (rg st q) T = EPub (eidx (slot st q T)) /\ g_own st (eidx (slot st q T)) = inring q T /\
         (forall i, g_dq (rg st q) T <> DTaken i);
    riS3 : forall T, 2 * T < 2 ^ 62 -> eidx (slot st q T) = bot -> ecyc (slot st q T) = T / nn cap ->
         (exists i, g_dq (rg st q) T = DTaken i) \/ g_dq (rg st q) T = DLeft;
    riS4 : forall i T, i < cap -> g_own st i = inring q T ->
         2 * T < 2 ^ 62 /\ eidx (slot st q T) = i /\ ecyc (slot st q T) = T / nn cap;
    riS5 : forall T i, g_eq (rg st q) T = EPub i ->
         i < cap /\ (g_dq (rg st q) T = DTaken i \/
                     ((forall j, g_dq (rg st q) T <> DTaken j) /\ eidx (slot st q T) = i /\ ecyc (slot st q T) = T / nn cap));
    riS6 : forall H i, g_dq (rg st q) H = DTaken i -> g_eq (rg st q) H = EPub i }.

  (** thread t at p: the tickets and the index p carries are recorded as held by t ([g_dq], [g_eq], [g_own]); at D3 (the
      entry read has the cycle of the ticket) the slot still holds that index in that cycle.  [OI] is the converse for
      indices: one recorded as held by u is carried by u's program point (third bullet of the header) *)
  Definition T2 (st : state) (t : nat) (p : pc) : Prop :=
    (forall q hd, dtk p = Some (q, hd) -> g_dq (rg st q) (hd / 2) = DHeld t) /\
    (forall q tl, etk p = Some (q, tl) -> g_eq (rg st q) (tl / 2) = EHeld t) /\
    (forall q idx, hidx p = Some (q, idx) -> g_own st idx = held q t /\ idx < cap) /\
    match p with
    | D3 q x hd e => eidx e < cap /\ eidx (slot st q (hd / 2)) = eidx e /\ ecyc (slot st q (hd / 2)) = ecyc hd
    | _ => True
    end.

  Definition OI (st : state) : Prop :=
    forall i u q, g_own st i = held q u -> hidx (th st u) = Some (q, i).

  Definition Inv2 (st : state) : Prop := (forall q, RI st q) /\ (forall t, T2 st t (th st t)) /\ OI st.

  (** * the initial state *)
  Lemma nn_pos' : 0 < nn cap. Proof. apply (nn_pos k Hk). Qed.

  Lemma phys_pos_inj p a : p < nn cap -> a < nn cap -> phys cap (2 * p) = phys cap (2 * a) -> p = a.
  Proof.
    intros Hp Ha H. apply (phys_inj k Hk) in H. rewrite !N.mod_small in H by assumption. exact H.
  Qed.

  Lemma free_data_fold l : forall f p, p < nn cap -> (forall i, In i l -> N.of_nat i < nn cap) ->
    fold_left (fun f i => setf f (phys cap (2 * N.of_nat i)) (nn cap + N.of_nat i)) l f (phys cap (2 * p))
    = if existsb (fun i => N.of_nat i =? p) l then nn cap + p else f (phys cap (2 * p)).
  Proof.
    induction l as [|a l IH]; intros f p Hp Hl; cbn [fold_left existsb]; [reflexivity|].
    rewrite IH by (try assumption; intros i Hi; apply Hl; right; exact Hi).
    destruct (existsb (fun i => N.of_nat i =? p) l); [rewrite orb_true_r; reflexivity|]. rewrite orb_false_r.
    unfold setf. destruct (N.eqb_spec (N.of_nat a) p) as [<-|Hne].
    - rewrite N.eqb_refl. reflexivity.
    - destruct (N.eqb_spec (phys cap (2 * p)) (phys cap (2 * N.of_nat a))) as [He|_]; [|reflexivity].
      exfalso. apply Hne. symmetry. apply phys_pos_inj; [exact Hp|apply Hl; left; reflexivity|exact He].
  Qed.

  Lemma free_data_at p : p < nn cap -> free_data cap (phys cap (2 * p)) = if p <? cap then nn cap + p else ones64.
  Proof.
    intros Hp. unfold free_data. rewrite free_data_fold; [|exact Hp|].
    - destruct (N.ltb_spec p cap) as [Hlt|Hge].
      + replace (existsb _ _) with true; [reflexivity|]. symmetry. apply existsb_exists.
        exists (N.to_nat p). split; [apply in_seq; lia|apply N.eqb_eq; lia].
      + replace (existsb _ _) with false; [reflexivity|]. symmetry. apply not_true_is_false. intros H.
        apply existsb_exists in H. destruct H as (i & Hi & He). apply in_seq in Hi. apply N.eqb_eq in He. lia.
    - intros i Hi. apply in_seq in Hi. unfold nn. lia.
  Qed.

  Lemma slot_init_RF T : slot (init cap) RF T = if T mod nn cap <? cap then nn cap + T mod nn cap else ones64.
  Proof.
    unfold slot. cbn [init rgs rdata]. rewrite (phys_tick k Hk). apply free_data_at. apply N.mod_lt. assert (H := nn_pos'). lia.
  Qed.

  Lemma cap_lt_nn : cap < nn cap. Proof. unfold nn. assert (H := cap_pos k Hk). lia. Qed.

  Lemma cyc_small_ne_cmax T : 2 * T < 2 ^ 62 -> T / nn cap <> cmax k.
  Proof.
    intros HT. assert (H := ecyc_ctr k Hk (2 * T) HT). rewrite (ecyc_tick k Hk) in H.
    assert (H2 := CB_lt_cmax k Hk). lia.
  Qed.

  Lemma Inv2_init : Inv2 (init cap).
  Proof.
    assert (Hn := nn_pos'). assert (Hcn := cap_lt_nn). assert (Hb := cap_lt_bot k Hk).
    split; [|split].
    - intros [|].
      + (* RA *) constructor; cbn [init rgs g_dq g_eq rhead rtail th]; unfold slot; cbn [init rgs rdata g_dq g_eq g_own].
        * intros H Hx. congruence.
        * intros T Hx. congruence.
        * intros H u Hx. discriminate.
        * intros T u Hx. discriminate.
        * intros T HT Hi. rewrite (eidx_ones64 k Hk) in Hi. lia.
        * intros T HT _ Hc. rewrite (ecyc_ones64 k Hk) in Hc. exfalso. apply (cyc_small_ne_cmax T HT). symmetry. exact Hc.
        * intros i T Hi Ho. discriminate.
        * intros T i Hx. discriminate.
        * intros H i Hx. discriminate.
      + (* RF *) constructor; cbn [init rgs g_dq g_eq rhead rtail th].
        * intros H Hx. congruence.
        * intros T Hx. destruct (N.ltb_spec T cap); [lia|congruence].
        * intros H u Hx. discriminate.
        * intros T u Hx. destruct (T <? cap); discriminate.
        * intros T HT. rewrite slot_init_RF. destruct (N.ltb_spec (T mod nn cap) cap) as [Hlt|Hge].
          -- destruct (f_nn_i k R Hk _ Hlt) as [A C]. rewrite A, C. intros _ Hc.
             assert (HT0 : T < nn cap). { symmetry in Hc. apply N.div_small_iff in Hc; lia. }
             rewrite N.mod_small in * by exact HT0. cbn [g_own].
             destruct (N.ltb_spec T cap); [|lia]. ssplit; [reflexivity|reflexivity|intros; discriminate].
          -- rewrite (eidx_ones64 k Hk). lia.
        * intros T HT. rewrite slot_init_RF. destruct (N.ltb_spec (T mod nn cap) cap) as [Hlt|Hge].
          -- destruct (f_nn_i k R Hk _ Hlt) as [A C]. rewrite C. lia.
          -- rewrite (ecyc_ones64 k Hk). intros _ Hc. exfalso. apply (cyc_small_ne_cmax T HT). symmetry. exact Hc.
        * intros i T Hi Ho. cbn [g_own inring] in Ho. inversion Ho; subst T.
          pose proof lit62 as E62.
          assert (Hc := cap3_small k Hk). split; [lia|]. rewrite slot_init_RF.
          rewrite N.mod_small by lia. destruct (N.ltb_spec i cap); [|lia].
          destruct (f_nn_i k R Hk _ Hi) as [A C]. rewrite A, C. split; [reflexivity|]. symmetry. apply N.div_small. lia.
        * intros T i Hx. destruct (N.ltb_spec T cap) as [Hlt|]; [|discriminate]. inversion Hx; subst i.
          split; [exact Hlt|]. right. split; [intros; discriminate|]. rewrite slot_init_RF.
          rewrite N.mod_small by lia. destruct (N.ltb_spec T cap); [|lia].
          destruct (f_nn_i k R Hk _ Hlt) as [A C]. rewrite A, C. split; [reflexivity|]. symmetry. apply N.div_small. lia.
        * intros H i Hx. discriminate.
    - intros t. cbn [init th]. unfold T2. cbn [dtk etk hidx]. ssplit; try (intros; discriminate). exact I.
    - intros i u q Hx. cbn [init g_own] in Hx. destruct q; discriminate.
  Qed.

  (** * steps that change only the program point of t (and possibly counters / thresholds) *)
  Definition same_core (s s' : state) : Prop :=
    (forall q, (forall j, rdata (rg s' q) j = rdata (rg s q) j) /\ (forall T, g_eq (rg s' q) T = g_eq (rg s q) T) /\
               (forall H, g_dq (rg s' q) H = g_dq (rg s q) H) /\
               rhead (rg s q) <= rhead (rg s' q) /\ rtail (rg s q) <= rtail (rg s' q)) /\
    (forall i, g_own s' i = g_own s i).

  Lemma slot_same s s' q T : (forall j, rdata (rg s' q) j = rdata (rg s q) j) -> slot s' q T = slot s q T.
  Proof. intros H. unfold slot. apply H. Qed.

  Lemma T2_frame s s' u p : same_core s s' -> T2 s u p -> T2 s' u p.
  Proof.
    intros [Hq Ho] (A & B & C & D). unfold T2. ssplit.
    - intros q hd Hd. destruct (Hq q) as (_ & _ & Hdq & _). rewrite Hdq. apply A. exact Hd.
    - intros q tl Hd. destruct (Hq q) as (_ & Heq & _). rewrite Heq. apply B. exact Hd.
    - intros q idx Hd. rewrite Ho. apply C. exact Hd.
    - destruct p; try exact I. destruct (Hq q) as (Hda & _). rewrite (slot_same s s' q _ Hda). exact D.
  Qed.

  Lemma Inv2_pc_only s s' t p' :
    Inv2 s -> same_core s s' -> th s' = upd (th s) t p' ->
    dtk p' = dtk (th s t) -> etk p' = etk (th s t) -> hidx p' = hidx (th s t) ->
    match p' with
    | D3 q x hd e => eidx e < cap /\ eidx (slot s q (hd / 2)) = eidx e /\ ecyc (slot s q (hd / 2)) = ecyc hd
    | _ => True end -> Inv2 s'.
  Proof.
    intros (HR & HT & HO) Hc Hth Hd He Hh H3. pose proof Hc as [Hq Ho].
    assert (Hdtk : forall u, dtk (th s' u) = dtk (th s u)).
    { intros u. rewrite Hth. destruct (Nat.eq_dec u t) as [->|Hne]; [rewrite upd_same; exact Hd|rewrite upd_other by exact Hne; reflexivity]. }
    assert (Hetk : forall u, etk (th s' u) = etk (th s u)).
    { intros u. rewrite Hth. destruct (Nat.eq_dec u t) as [->|Hne]; [rewrite upd_same; exact He|rewrite upd_other by exact Hne; reflexivity]. }
    assert (Hhidx : forall u, hidx (th s' u) = hidx (th s u)).
    { intros u. rewrite Hth. destruct (Nat.eq_dec u t) as [->|Hne]; [rewrite upd_same; exact Hh|rewrite upd_other by exact Hne; reflexivity]. }
    split; [|split].
    - intros q. destruct (Hq q) as (Hda & Heq & Hdq & Hhd & Htl). destruct (HR q) as [a1 a2 c1 c2 s2 s3 s4 s5 s6].
      assert (Hsl : forall T, slot s' q T = slot s q T) by (intros T; apply slot_same; exact Hda).
      constructor.
      + intros H Hx. rewrite Hdq in Hx. specialize (a1 H Hx). lia.
      + intros T Hx. rewrite Heq in Hx. specialize (a2 T Hx). lia.
      + intros H u Hx. rewrite Hdq in Hx. rewrite Hdtk. apply c1. exact Hx.
      + intros T u Hx. rewrite Heq in Hx. rewrite Hetk. apply c2. exact Hx.
      + intros T HT2. rewrite Hsl, Heq, Ho. intros H1 H2. destruct (s2 T HT2 H1 H2) as (X & Y & Z). ssplit; [exact X|exact Y|].
        intros i. rewrite Hdq. apply Z.
      + intros T HT2. rewrite Hsl, Hdq. apply s3. exact HT2.
      + intros i T Hi. rewrite Ho, Hsl. apply s4. exact Hi.
      + intros T i. rewrite Heq, Hdq, Hsl. intros Hx. destruct (s5 T i Hx) as [X Y]. split; [exact X|].
        destruct Y as [Y|(Y1 & Y2)]; [left; exact Y|right; split; [exact Y1|exact Y2]].
      + intros H i. rewrite Hdq, Heq. apply s6.
    - intros u. rewrite Hth. destruct (Nat.eq_dec u t) as [->|Hne]; [rewrite upd_same|rewrite upd_other by exact Hne; apply (T2_frame s s'); [exact Hc|apply HT]].
      pose proof (HT t) as (A & B & C & D). unfold T2. ssplit.
      + intros q hd Hx. destruct (Hq q) as (_ & _ & Hdq & _). rewrite Hdq. apply A. rewrite <- Hd. exact Hx.
      + intros q tl Hx. destruct (Hq q) as (_ & Heq & _). rewrite Heq. apply B. rewrite <- He. exact Hx.
      + intros q idx Hx. rewrite Ho. apply C. rewrite <- Hh. exact Hx.
      + destruct p'; try exact I. destruct (Hq q) as (Hda & _). rewrite (slot_same s s' q _ Hda). exact H3.
    - intros i u q. rewrite Ho, Hhidx. apply HO.
  Qed.

  (** * a dequeue ticket changes its fate (handed out: DNone -> DHeld t; given up: DHeld t -> DLeft),
      possibly together with a CAS that leaves the index / cycle fields alone (safe bit cleared) or
      advances an empty slot to the cycle of the ticket *)
  Lemma K_dq s s' t q H0 v p' :
    Inv1 s -> Inv2 s -> 2 * H0 < 2 ^ 62 ->
    (forall q', (forall T, g_eq (rg s' q') T = g_eq (rg s q') T) /\
                (forall H, g_dq (rg s' q') H = if rid_eqb q' q && (H =? H0) then v else g_dq (rg s q') H) /\
                rhead (rg s q') <= rhead (rg s' q') /\ rtail (rg s q') <= rtail (rg s' q') /\
                (forall T, 2 * T < 2 ^ 62 ->
                   (eidx (slot s' q' T) = eidx (slot s q' T) /\ ecyc (slot s' q' T) = ecyc (slot s q' T)) \/
                   (q' = q /\ eidx (slot s q T) = bot /\ eidx (slot s' q T) = bot /\
                    (ecyc (slot s' q T) = T / nn cap -> T = H0) /\ v = DLeft))) ->
    (forall i, g_own s' i = g_own s i) -> th s' = upd (th s) t p' ->
    etk p' = None -> etk (th s t) = None -> hidx p' = None -> hidx (th s t) = None ->
    2 * H0 + 2 <= rhead (rg s' q) ->
    ((g_dq (rg s q) H0 = DNone /\ dtk (th s t) = None /\ v = DHeld t /\ dtk p' = Some (q, 2 * H0)) \/
     (g_dq (rg s q) H0 = DHeld t /\ dtk (th s t) = Some (q, 2 * H0) /\ v = DLeft /\ dtk p' = None)) ->
    match p' with D3 _ _ _ _ => False | _ => True end -> Inv2 s'.
  Proof.
    intros [HW HT1] (HR & HT & HO) HH0 Hq Ho Hth Hep Hes Hhp Hhs Hrh Hcase Hn3.
    assert (Hv : v <> DNone /\ (forall i, v <> DTaken i) /\ (forall i, g_dq (rg s q) H0 <> DTaken i))
      by (destruct Hcase as [(A & B & C & D)|(A & B & C & D)]; subst v; rewrite A; ssplit; intros; discriminate).
    destruct Hv as (Hv0 & HvT & HoT).
    (* old fates of other tickets held by t *)
    assert (Ht_other : forall q' H, g_dq (rg s q') H = DHeld t -> q' = q /\ H = H0).
    { intros q' H Hx. destruct (HR q') as [_ _ c1 _ _ _ _ _ _]. specialize (c1 H t Hx).
      destruct Hcase as [(A & B & C & D)|(A & B & C & D)]; rewrite B in c1; [discriminate|].
      apply some_pair_inj in c1. destruct c1 as [E1 E2]. split; [symmetry; exact E1|lia]. }
    assert (Het_other : forall q' T, g_eq (rg s q') T <> EHeld t).
    { intros q' T Hx. destruct (HR q') as [_ _ _ c2 _ _ _ _ _]. specialize (c2 T t Hx). rewrite Hes in c2. discriminate. }
    split; [|split].
    - intros q'. destruct (Hq q') as (Heq & Hdq & Hhd & Htl & Hsl). destruct (HR q') as [a1 a2 c1 c2 s2 s3 s4 s5 s6].
      constructor.
      + intros H. rewrite Hdq. destruct (rid_eqb_spec q' q) as [->|Hnq]; cbn [andb].
        * destruct (N.eqb_spec H H0) as [->|HnH]; [intros _; exact Hrh|intros Hx; specialize (a1 H Hx); lia].
        * intros Hx; specialize (a1 H Hx); lia.
      + intros T. rewrite Heq. intros Hx. specialize (a2 T Hx). lia.
      + intros H u. rewrite Hdq, Hth. destruct (rid_eqb_spec q' q) as [->|Hnq]; cbn [andb].
        * destruct (N.eqb_spec H H0) as [->|HnH].
          -- intros Hx. destruct Hcase as [(A & B & C & D)|(A & B & C & D)]; subst v; [|discriminate].
             inversion Hx; subst u. rewrite upd_same. exact D.
          -- intros Hx. destruct (Nat.eq_dec u t) as [->|Hne]; [destruct (Ht_other q H Hx); contradiction|].
             rewrite upd_other by exact Hne. apply c1. exact Hx.
        * intros Hx. destruct (Nat.eq_dec u t) as [->|Hne]; [destruct (Ht_other q' H Hx); contradiction|].
          rewrite upd_other by exact Hne. apply c1. exact Hx.
      + intros T u. rewrite Heq, Hth. intros Hx. destruct (Nat.eq_dec u t) as [->|Hne]; [exfalso; apply (Het_other q' T Hx)|].
        rewrite upd_other by exact Hne. apply c2. exact Hx.
      + intros T HT2. rewrite Heq, Ho. destruct (Hsl T HT2) as [[E1 E2]|(-> & B1 & B2 & _)].
        * rewrite E1, E2. intros H1 H2. destruct (s2 T HT2 H1 H2) as (X & Y & Z). ssplit; [exact X|exact Y|].
          intros i. rewrite Hdq. destruct (rid_eqb q' q && (T =? H0)); [apply HvT|apply Z].
        * rewrite B2. intros Hx. assert (Hb := cap_lt_bot k Hk). lia.
      + intros T HT2. rewrite Hdq. destruct (Hsl T HT2) as [[E1 E2]|(-> & B1 & B2 & B3 & ->)].
        * rewrite E1, E2. intros H1 H2. destruct (rid_eqb_spec q' q) as [->|Hnq]; cbn [andb]; [|apply s3; assumption].
          destruct (N.eqb_spec T H0) as [->|HnT]; [|apply s3; assumption].
          destruct Hcase as [(A & B & C & D)|(A & B & C & D)]; subst v; [|right; reflexivity].
          exfalso. destruct (s3 H0 HT2 H1 H2) as [[i Hi]|Hi]; rewrite A in Hi; discriminate.
        * intros _ Hc. rewrite rid_eqb_refl. cbn [andb]. rewrite (B3 Hc), N.eqb_refl. right. reflexivity.
      + intros i T Hi. rewrite Ho. intros Hx. destruct (s4 i T Hi Hx) as (X & Y & Z). split; [exact X|].
        destruct (Hsl T X) as [[E1 E2]|(-> & B1 & B2 & _)]; [rewrite E1, E2; split; assumption|].
        exfalso. assert (Hb := cap_lt_bot k Hk). rewrite B1 in Y. lia.
      + intros T i. rewrite Heq, Hdq. intros Hx. destruct (s5 T i Hx) as [X Y]. split; [exact X|].
        assert (HT2 : 2 * T < 2 ^ 62).
        { assert (Hne : g_eq (rg s q') T <> ENone) by (rewrite Hx; discriminate). specialize (a2 T Hne).
          destruct (HW q') as (_ & [_ Hlt] & _). lia. }
        destruct (rid_eqb_spec q' q) as [->|Hnq]; cbn [andb].
        * destruct (N.eqb_spec T H0) as [->|HnT].
          -- destruct Y as [Y|(Y1 & Y2 & Y3)]; [exfalso; apply (HoT i Y)|]. right. split; [exact HvT|].
             destruct (Hsl H0 HT2) as [[E1 E2]|(_ & B1 & _)]; [rewrite E1, E2; split; assumption|].
             exfalso. assert (Hb := cap_lt_bot k Hk). rewrite B1 in Y2. lia.
          -- destruct Y as [Y|(Y1 & Y2 & Y3)]; [left; exact Y|right; split; [exact Y1|]].
             destruct (Hsl T HT2) as [[E1 E2]|(_ & B1 & _)]; [rewrite E1, E2; split; assumption|].
             exfalso. assert (Hb := cap_lt_bot k Hk). rewrite B1 in Y2. lia.
        * destruct Y as [Y|(Y1 & Y2 & Y3)]; [left; exact Y|right; split; [exact Y1|]].
          destruct (Hsl T HT2) as [[E1 E2]|(Hqq & _)]; [rewrite E1, E2; split; assumption|contradiction].
      + intros H i. rewrite Heq, Hdq. destruct (rid_eqb_spec q' q) as [->|Hnq]; cbn [andb]; [|apply s6].
        destruct (N.eqb_spec H H0) as [->|HnH]; [intros Hx; exfalso; apply (HvT i Hx)|apply s6].
    - intros u. rewrite Hth. destruct (Nat.eq_dec u t) as [->|Hne]; [rewrite upd_same|rewrite upd_other by exact Hne].
      + unfold T2. ssplit.
        * intros q' hd Hx. destruct (Hq q') as (_ & Hdq & _). rewrite Hdq.
          destruct Hcase as [(A & B & C & D)|(A & B & C & D)]; rewrite D in Hx; [|discriminate].
          apply some_pair_inj in Hx. destruct Hx as [<- <-]. rewrite rid_eqb_refl. cbn [andb].
          rewrite (N.mul_comm 2 H0), N.div_mul by lia. rewrite N.eqb_refl. exact C.
        * intros q' tl Hx. rewrite Hep in Hx. discriminate.
        * intros q' idx Hx. rewrite Hhp in Hx. discriminate.
        * destruct p'; try exact I. contradiction.
      + pose proof (HT u) as (A & B & C & D). unfold T2. ssplit.
        * intros q' hd Hx. destruct (Hq q') as (_ & Hdq & _). rewrite Hdq. specialize (A q' hd Hx).
          destruct (rid_eqb_spec q' q) as [->|Hnq]; cbn [andb]; [|exact A].
          destruct (N.eqb_spec (hd / 2) H0) as [Heq0|HnH]; [|exact A].
          exfalso. rewrite Heq0 in A. destruct Hcase as [(A' & _)|(A' & _)]; rewrite A' in A; [discriminate|congruence].
        * intros q' tl Hx. destruct (Hq q') as (Heq & _). rewrite Heq. apply B. exact Hx.
        * intros q' idx Hx. rewrite Ho. apply C. exact Hx.
        * destruct (th s u) eqn:Eu; try exact I. destruct D as (D1 & D2 & D3).
          assert (Hhd2 : 2 * (hd / 2) < 2 ^ 62).
          { pose proof (HT1 u) as Hu. rewrite Eu in Hu. cbn [T1] in Hu. destruct Hu as ([Hu1 Hu2] & _). rewrite <- Hu1. exact Hu2. }
          destruct (Hq q0) as (_ & _ & _ & _ & Hsl). destruct (Hsl (hd / 2) Hhd2) as [[E1 E2]|(-> & B1 & _)].
          -- rewrite E1, E2. ssplit; assumption.
          -- exfalso. assert (Hb := cap_lt_bot k Hk). rewrite B1 in D2. lia.
    - intros i u q'. rewrite Ho, Hth. intros Hx. specialize (HO i u q' Hx).
      destruct (Nat.eq_dec u t) as [->|Hne]; [rewrite Hhs in HO; discriminate|rewrite upd_other by exact Hne; exact HO].
  Qed.

  (** * an enqueue ticket changes its fate (handed out: ENone -> EHeld t; given up: EHeld t -> ESkip) *)
  Lemma K_eq s s' t q T0 v p' :
    Inv1 s -> Inv2 s -> 2 * T0 < 2 ^ 62 ->
    (forall q', (forall j, rdata (rg s' q') j = rdata (rg s q') j) /\
                (forall T, g_eq (rg s' q') T = if rid_eqb q' q && (T =? T0) then v else g_eq (rg s q') T) /\
                (forall H, g_dq (rg s' q') H = g_dq (rg s q') H) /\
                rhead (rg s q') <= rhead (rg s' q') /\ rtail (rg s q') <= rtail (rg s' q')) ->
    (forall i, g_own s' i = g_own s i) -> th s' = upd (th s) t p' ->
    dtk p' = None -> dtk (th s t) = None -> hidx p' = hidx (th s t) ->
    2 * T0 + 2 <= rtail (rg s' q) ->
    ((g_eq (rg s q) T0 = ENone /\ etk (th s t) = None /\ v = EHeld t /\ etk p' = Some (q, 2 * T0)) \/
     (g_eq (rg s q) T0 = EHeld t /\ etk (th s t) = Some (q, 2 * T0) /\ v = ESkip /\ etk p' = None)) ->
    Inv2 s'.
  Proof.
    intros [HW HT1] (HR & HT & HO) HT0 Hq Ho Hth Hdp Hds Hh Hrt Hcase.
    assert (Hv : v <> ENone /\ (forall i, v <> EPub i) /\ (forall i, g_eq (rg s q) T0 <> EPub i))
      by (destruct Hcase as [(A & B & C & D)|(A & B & C & D)]; subst v; rewrite A; ssplit; intros; discriminate).
    destruct Hv as (Hv0 & HvP & HoP).
    assert (Ht_other : forall q' T, g_eq (rg s q') T = EHeld t -> q' = q /\ T = T0).
    { intros q' T Hx. destruct (HR q') as [_ _ _ c2 _ _ _ _ _]. specialize (c2 T t Hx).
      destruct Hcase as [(A & B & C & D)|(A & B & C & D)]; rewrite B in c2; [discriminate|].
      apply some_pair_inj in c2. destruct c2 as [E1 E2]. split; [symmetry; exact E1|lia]. }
    assert (Hdt_other : forall q' H, g_dq (rg s q') H <> DHeld t).
    { intros q' H Hx. destruct (HR q') as [_ _ c1 _ _ _ _ _ _]. specialize (c1 H t Hx). rewrite Hds in c1. discriminate. }
    split; [|split].
    - intros q'. destruct (Hq q') as (Hda & Heq & Hdq & Hhd & Htl). destruct (HR q') as [a1 a2 c1 c2 s2 s3 s4 s5 s6].
      assert (Hsl : forall T, slot s' q' T = slot s q' T) by (intros T; apply slot_same; exact Hda).
      constructor.
      + intros H. rewrite Hdq. intros Hx. specialize (a1 H Hx). lia.
      + intros T. rewrite Heq. destruct (rid_eqb_spec q' q) as [->|Hnq]; cbn [andb].
        * destruct (N.eqb_spec T T0) as [->|HnT]; [intros _; exact Hrt|intros Hx; specialize (a2 T Hx); lia].
        * intros Hx; specialize (a2 T Hx); lia.
      + intros H u. rewrite Hdq, Hth. intros Hx. destruct (Nat.eq_dec u t) as [->|Hne]; [exfalso; apply (Hdt_other q' H Hx)|].
        rewrite upd_other by exact Hne. apply c1. exact Hx.
      + intros T u. rewrite Heq, Hth. destruct (rid_eqb_spec q' q) as [->|Hnq]; cbn [andb].
        * destruct (N.eqb_spec T T0) as [->|HnT].
          -- intros Hx. destruct Hcase as [(A & B & C & D)|(A & B & C & D)]; subst v; [|discriminate].
             inversion Hx; subst u. rewrite upd_same. exact D.
          -- intros Hx. destruct (Nat.eq_dec u t) as [->|Hne]; [destruct (Ht_other q T Hx); contradiction|].
             rewrite upd_other by exact Hne. apply c2. exact Hx.
        * intros Hx. destruct (Nat.eq_dec u t) as [->|Hne]; [destruct (Ht_other q' T Hx); contradiction|].
          rewrite upd_other by exact Hne. apply c2. exact Hx.
      + intros T HT2. rewrite Hsl, Heq, Ho. intros H1 H2. destruct (s2 T HT2 H1 H2) as (X & Y & Z).
        destruct (rid_eqb_spec q' q) as [->|Hnq]; cbn [andb].
        * destruct (N.eqb_spec T T0) as [->|HnT]; [exfalso; apply (HoP _ X)|].
          ssplit; [exact X|exact Y|intros i; rewrite Hdq; apply Z].
        * ssplit; [exact X|exact Y|intros i; rewrite Hdq; apply Z].
      + intros T HT2. rewrite Hsl, Hdq. apply s3. exact HT2.
      + intros i T Hi. rewrite Ho, Hsl. apply s4. exact Hi.
      + intros T i. rewrite Heq, Hdq, Hsl. destruct (rid_eqb_spec q' q) as [->|Hnq]; cbn [andb]; [|apply s5].
        destruct (N.eqb_spec T T0) as [->|HnT]; [intros Hx; exfalso; apply (HvP i Hx)|apply s5].
      + intros H i. rewrite Hdq, Heq. intros Hx. specialize (s6 H i Hx).
        destruct (rid_eqb_spec q' q) as [->|Hnq]; cbn [andb]; [|exact s6].
        destruct (N.eqb_spec H T0) as [->|HnT]; [exfalso; apply (HoP i s6)|exact s6].
    - intros u. rewrite Hth. destruct (Nat.eq_dec u t) as [->|Hne]; [rewrite upd_same|rewrite upd_other by exact Hne].
      + pose proof (HT t) as (A & B & C & D). unfold T2. ssplit.
        * intros q' hd Hx. rewrite Hdp in Hx. discriminate.
        * intros q' tl Hx. destruct (Hq q') as (_ & Heq & _). rewrite Heq.
          destruct Hcase as [(A' & B' & C' & D')|(A' & B' & C' & D')]; rewrite D' in Hx; [|discriminate].
          apply some_pair_inj in Hx. destruct Hx as [<- <-]. rewrite rid_eqb_refl. cbn [andb].
          rewrite (N.mul_comm 2 T0), N.div_mul by lia. rewrite N.eqb_refl. exact C'.
        * intros q' idx Hx. rewrite Ho. apply C. rewrite <- Hh. exact Hx.
        * destruct p'; try exact I. discriminate.
      + pose proof (HT u) as (A & B & C & D). unfold T2. ssplit.
        * intros q' hd Hx. destruct (Hq q') as (_ & _ & Hdq & _). rewrite Hdq. apply A. exact Hx.
        * intros q' tl Hx. destruct (Hq q') as (_ & Heq & _). rewrite Heq. specialize (B q' tl Hx).
          destruct (rid_eqb_spec q' q) as [->|Hnq]; cbn [andb]; [|exact B].
          destruct (N.eqb_spec (tl / 2) T0) as [Heq0|HnH]; [|exact B].
          exfalso. rewrite Heq0 in B. destruct Hcase as [(A' & _)|(A' & _)]; rewrite A' in B; [discriminate|congruence].
        * intros q' idx Hx. rewrite Ho. apply C. exact Hx.
        * destruct (th s u) eqn:Eu; try exact I. destruct (Hq q0) as (Hda & _). rewrite (slot_same s s' q0 _ Hda). exact D.
    - intros i u q'. rewrite Ho, Hth. intros Hx. specialize (HO i u q' Hx).
      destruct (Nat.eq_dec u t) as [->|Hne]; [rewrite upd_same, Hh; exact HO|rewrite upd_other by exact Hne; exact HO].
  Qed.

  Lemma same_slot_ticket T T' : phys cap (2 * T) = phys cap (2 * T') -> T / nn cap = T' / nn cap -> T = T'.
  Proof. intros H1 H2. apply (slot_cycle_ticket k Hk); [exact H1|rewrite !(ecyc_tick k Hk); exact H2]. Qed.

  Lemma lt_cap_ne_bot i : i < cap -> i <> bot.
  Proof. assert (Hb := cap_lt_bot k Hk). lia. Qed.

  (** * a dequeue takes the index out of its slot (the fetch_or) *)
  Lemma K_take s s' t q x hd e gk' :
    Inv1 s -> Inv2 s -> th s t = D3 q x hd e ->
    (forall q', (forall T, g_eq (rg s' q') T = g_eq (rg s q') T) /\
                (forall H, g_dq (rg s' q') H = if rid_eqb q' q && (H =? hd / 2) then DTaken (eidx e) else g_dq (rg s q') H) /\
                rhead (rg s q') <= rhead (rg s' q') /\ rtail (rg s q') <= rtail (rg s' q') /\
                (forall j, rdata (rg s' q') j = if rid_eqb q' q && (j =? phys cap hd)
                                                then N.lor (rdata (rg s q) (phys cap hd)) (vmask cap) else rdata (rg s q') j)) ->
    (forall i, g_own s' i = if i =? eidx e then held (other q) t else g_own s i) ->
    th s' = upd (th s) t (E1 (other q) x (eidx e) gk') ->
    Inv2 s'.
  Proof.
    intros [HW HT1] (HR & HT & HO) Et Hq Ho Hth.
    pose proof (HT1 t) as Ht1. rewrite Et in Ht1. cbn [T1] in Ht1. destruct Ht1 as ([Hhd2 Hhdlt] & Hhle & Hwe & Hce).
    pose proof (HT t) as (Ta & Tb & Tc & Td). rewrite Et in Ta, Tb, Tc, Td. cbn [dtk etk hidx] in *.
    specialize (Ta q hd eq_refl). destruct Td as (Hidx & Hsi & Hsc).
    set (H0 := hd / 2) in *. set (idx := eidx e) in *.
    assert (HH0 : 2 * H0 < 2 ^ 62) by (rewrite <- Hhd2; exact Hhdlt).
    assert (Hcyc0 : ecyc hd = H0 / nn cap) by (rewrite Hhd2 at 1; apply (ecyc_tick k Hk)).
    rewrite Hcyc0 in Hsc.
    assert (Hphys : phys cap hd = phys cap (2 * H0)) by (rewrite Hhd2 at 1; reflexivity).
    destruct (HR q) as [qa1 qa2 qc1 qc2 qs2 qs3 qs4 qs5 qs6].
    assert (Hsi' : eidx (slot s q H0) < cap) by (rewrite Hsi; exact Hidx).
    destruct (qs2 H0 HH0 Hsi' Hsc) as (Hpub & Hown & Hnt). rewrite Hsi in Hpub, Hown. fold idx in Hpub, Hown.
    (* the new entry *)
    set (m' := N.lor (rdata (rg s q) (phys cap hd)) (vmask cap)) in *.
    assert (Hm' : eidx m' = bot /\ ecyc m' = H0 / nn cap).
    { destruct (f_take k Hk (rdata (rg s q) (phys cap hd))) as (A & B & C). split; [exact C|].
      unfold m'. rewrite A. rewrite <- Hsc. unfold slot. rewrite Hphys. reflexivity. }
    destruct Hm' as [Hm'i Hm'c].
    assert (Hslot : forall q' T, slot s' q' T = if rid_eqb q' q && (phys cap (2 * T) =? phys cap (2 * H0)) then m' else slot s q' T).
    { intros q' T. unfold slot. destruct (Hq q') as (_ & _ & _ & _ & Hda). rewrite Hda, Hphys. reflexivity. }
    assert (Ht_dq : forall q' H, g_dq (rg s q') H = DHeld t -> q' = q /\ H = H0).
    { intros q' H Hx. destruct (HR q') as [_ _ c1 _ _ _ _ _ _]. specialize (c1 H t Hx). rewrite Et in c1. cbn [dtk] in c1.
      apply some_pair_inj in c1. destruct c1 as [E1 E2]. split; [symmetry; exact E1|unfold H0; rewrite E2; rewrite (N.mul_comm 2 H), N.div_mul by lia; reflexivity]. }
    assert (Ht_eq : forall q' T, g_eq (rg s q') T <> EHeld t).
    { intros q' T Hx. destruct (HR q') as [_ _ _ c2 _ _ _ _ _]. specialize (c2 T t Hx). rewrite Et in c2. discriminate. }
    split; [|split].
    - intros q'. destruct (Hq q') as (Heq & Hdq & Hhd & Htl & Hda). destruct (HR q') as [a1 a2 c1 c2 s2 s3 s4 s5 s6].
      constructor.
      + intros H. rewrite Hdq. destruct (rid_eqb_spec q' q) as [->|Hnq]; cbn [andb].
        * destruct (N.eqb_spec H H0) as [->|HnH]; [intros _|intros Hx; specialize (a1 H Hx); lia].
          assert (Hne : g_dq (rg s q) H0 <> DNone) by (rewrite Ta; discriminate). specialize (a1 H0 Hne). lia.
        * intros Hx; specialize (a1 H Hx); lia.
      + intros T. rewrite Heq. intros Hx. specialize (a2 T Hx). lia.
      + intros H u. rewrite Hdq, Hth. destruct (rid_eqb_spec q' q) as [->|Hnq]; cbn [andb].
        * destruct (N.eqb_spec H H0) as [->|HnH]; [discriminate|].
          intros Hx. destruct (Nat.eq_dec u t) as [->|Hne]; [destruct (Ht_dq q H Hx); contradiction|].
          rewrite upd_other by exact Hne. apply c1. exact Hx.
        * intros Hx. destruct (Nat.eq_dec u t) as [->|Hne]; [destruct (Ht_dq q' H Hx); contradiction|].
          rewrite upd_other by exact Hne. apply c1. exact Hx.
      + intros T u. rewrite Heq, Hth. intros Hx. destruct (Nat.eq_dec u t) as [->|Hne]; [exfalso; apply (Ht_eq q' T Hx)|].
        rewrite upd_other by exact Hne. apply c2. exact Hx.
      + intros T HT2. rewrite Hslot, Heq. destruct (rid_eqb_spec q' q) as [->|Hnq]; cbn [andb].
        * destruct (N.eqb_spec (phys cap (2 * T)) (phys cap (2 * H0))) as [Hp|Hp].
          -- rewrite Hm'i. intros Hx. exfalso. apply (lt_cap_ne_bot _ Hx). reflexivity.
          -- intros H1 H2. destruct (s2 T HT2 H1 H2) as (X & Y & Z).
             assert (HTne : T <> H0) by (intros ->; apply Hp; reflexivity).
             ssplit; [exact X| |].
             ++ rewrite Ho. destruct (N.eqb_spec (eidx (slot s q T)) idx) as [Hei|_]; [|exact Y].
                exfalso. rewrite Hei, Hown in Y. apply inring_inj in Y. destruct Y as [_ Y]. congruence.
             ++ intros i. rewrite Hdq; rewrite ?rid_eqb_refl; cbn [andb]. destruct (N.eqb_spec T H0); [contradiction|apply Z].
        * intros H1 H2. destruct (s2 T HT2 H1 H2) as (X & Y & Z). ssplit; [exact X| |].
          -- rewrite Ho. destruct (N.eqb_spec (eidx (slot s q' T)) idx) as [Hei|_]; [|exact Y].
             exfalso. rewrite Hei, Hown in Y. apply inring_inj in Y. destruct Y as [Y _]. congruence.
          -- intros i. rewrite Hdq. try (destruct (rid_eqb_spec q' q); [contradiction|]). cbn [andb]. apply Z.
      + intros T HT2. rewrite Hslot, Hdq. destruct (rid_eqb_spec q' q) as [->|Hnq]; cbn [andb]; [|apply s3; exact HT2].
        destruct (N.eqb_spec (phys cap (2 * T)) (phys cap (2 * H0))) as [Hp|Hp].
        * rewrite Hm'c. intros _ Hc. assert (T = H0) by (apply same_slot_ticket; [exact Hp|symmetry; exact Hc]). subst T.
          rewrite N.eqb_refl. left. exists idx. reflexivity.
        * intros H1 H2. destruct (N.eqb_spec T H0) as [->|_]; [exfalso; apply Hp; reflexivity|]. apply s3; assumption.
      + intros i T Hi. rewrite Ho. destruct (N.eqb_spec i idx) as [->|Hni]; [intros Hx; exfalso; symmetry in Hx; apply (inring_held _ _ _ _ Hx)|].
        intros Hx. destruct (s4 i T Hi Hx) as (X & Y & Z). split; [exact X|]. rewrite Hslot.
        destruct (rid_eqb_spec q' q) as [->|Hnq]; cbn [andb]; [|split; assumption].
        destruct (N.eqb_spec (phys cap (2 * T)) (phys cap (2 * H0))) as [Hp|Hp]; [|split; assumption].
        exfalso. assert (T = H0) by (apply same_slot_ticket; [exact Hp|rewrite <- Z, <- Hsc; unfold slot; rewrite Hp; reflexivity]).
        subst T. rewrite Hsi in Y. congruence.
      + intros T i. rewrite Heq, Hdq, Hslot. intros Hx. destruct (s5 T i Hx) as [X Y]. split; [exact X|].
        destruct (rid_eqb_spec q' q) as [->|Hnq]; cbn [andb]; [|exact Y].
        destruct (N.eqb_spec T H0) as [HeT|HnT].
        * subst T. left. rewrite Hpub in Hx. inversion Hx. reflexivity.
        * destruct Y as [Y|(Y1 & Y2 & Y3)]; [left; exact Y|right; split; [exact Y1|]].
          destruct (N.eqb_spec (phys cap (2 * T)) (phys cap (2 * H0))) as [Hp|Hp]; [|split; assumption].
          exfalso. apply HnT. apply same_slot_ticket; [exact Hp|rewrite <- Y3, <- Hsc; unfold slot; rewrite Hp; reflexivity].
      + intros H i. rewrite Heq, Hdq. destruct (rid_eqb_spec q' q) as [->|Hnq]; cbn [andb]; [|apply s6].
        destruct (N.eqb_spec H H0) as [->|HnH]; [|apply s6]. intros Hx. inversion Hx. exact Hpub.
    - intros u. rewrite Hth. destruct (Nat.eq_dec u t) as [->|Hne]; [rewrite upd_same|rewrite upd_other by exact Hne].
      + unfold T2. cbn [dtk etk hidx]. ssplit; try (intros; discriminate); [|exact I].
        intros q' i' Hx. apply some_pair_inj in Hx. destruct Hx as [<- <-]. rewrite Ho. fold idx. rewrite N.eqb_refl. split; [reflexivity|exact Hidx].
      + pose proof (HT u) as (A & B & C & D). unfold T2. ssplit.
        * intros q' hd' Hx. destruct (Hq q') as (_ & Hdq & _). rewrite Hdq. specialize (A q' hd' Hx).
          destruct (rid_eqb_spec q' q) as [->|Hnq]; cbn [andb]; [|exact A].
          destruct (N.eqb_spec (hd' / 2) H0) as [Heq0|HnH]; [|exact A].
          exfalso. rewrite Heq0, Ta in A. congruence.
        * intros q' tl Hx. destruct (Hq q') as (Heq & _). rewrite Heq. apply B. exact Hx.
        * intros q' i' Hx. rewrite Ho. destruct (C q' i' Hx) as [C1' C2']. split; [|exact C2'].
          destruct (N.eqb_spec i' idx) as [->|_]; [|exact C1']. exfalso. rewrite Hown in C1'. apply (inring_held _ _ _ _ C1').
        * destruct (th s u) eqn:Eu; try exact I. destruct D as (D1 & D2 & D3). rewrite Hslot.
          destruct (rid_eqb_spec q0 q) as [->|Hnq]; cbn [andb]; [|ssplit; assumption].
          destruct (N.eqb_spec (phys cap (2 * (hd0 / 2))) (phys cap (2 * H0))) as [Hp|Hp]; [|ssplit; assumption].
          exfalso. pose proof (HT1 u) as Hu. rewrite Eu in Hu. cbn [T1] in Hu. destruct Hu as ([Hu1 Hu2] & _).
          assert (Hc0 : ecyc hd0 = (hd0 / 2) / nn cap) by (rewrite Hu1 at 1; apply (ecyc_tick k Hk)).
          assert (hd0 / 2 = H0).
          { apply same_slot_ticket; [exact Hp|]. rewrite <- Hc0, <- D3, <- Hsc. unfold slot. rewrite Hp. reflexivity. }
          pose proof (HT u) as (A' & _). rewrite Eu in A'. specialize (A' q hd0 eq_refl). rewrite H, Ta in A'. congruence.
    - intros i u q'. rewrite Ho, Hth. destruct (N.eqb_spec i idx) as [->|Hni].
      + intros Hx. apply held_inj in Hx. destruct Hx as [<- <-]. rewrite upd_same. reflexivity.
      + intros Hx. specialize (HO i u q' Hx). destruct (Nat.eq_dec u t) as [->|Hne]; [rewrite Et in HO; discriminate|].
        rewrite upd_other by exact Hne. exact HO.
  Qed.

  (** * an enqueue publishes its index (the successful entry CAS) *)
  Lemma K_pub s s' t q x idx gk tl e gk' new :
    Inv1 s -> Inv2 s -> th s t = E4 q x idx gk tl e -> rdata (rg s q) (phys cap tl) = e ->
    eidx new = idx -> ecyc new = ecyc tl ->
    (forall q', (forall H, g_dq (rg s' q') H = g_dq (rg s q') H) /\
                (forall T, g_eq (rg s' q') T = if rid_eqb q' q && (T =? tl / 2) then EPub idx else g_eq (rg s q') T) /\
                rhead (rg s q') <= rhead (rg s' q') /\ rtail (rg s q') <= rtail (rg s' q') /\
                (forall j, rdata (rg s' q') j = if rid_eqb q' q && (j =? phys cap tl) then new else rdata (rg s q') j)) ->
    (forall i, g_own s' i = if i =? idx then inring q (tl / 2) else g_own s i) ->
    th s' = upd (th s) t (E5 q x idx gk') ->
    Inv2 s'.
  Proof.
    intros [HW HT1] (HR & HT & HO) Et Hcur Hni Hnc Hq Ho Hth.
    pose proof (HT1 t) as Ht1. rewrite Et in Ht1. cbn [T1] in Ht1.
    destruct Ht1 as (Hwi & [Htl2 Htllt] & Htle & Hwe & Heb & Hclt).
    pose proof (HT t) as (Ta & Tb & Tc & Td). rewrite Et in Ta, Tb, Tc, Td. cbn [dtk etk hidx] in *.
    specialize (Tb q tl eq_refl). destruct (Tc q idx eq_refl) as [Hown Hidx].
    set (T0 := tl / 2) in *.
    assert (HT0 : 2 * T0 < 2 ^ 62) by (rewrite <- Htl2; exact Htllt).
    assert (Hcyc0 : ecyc tl = T0 / nn cap) by (rewrite Htl2 at 1; apply (ecyc_tick k Hk)).
    rewrite Hcyc0 in Hnc.
    assert (Hphys : phys cap tl = phys cap (2 * T0)) by (rewrite Htl2 at 1; reflexivity).
    assert (Hold : eidx (slot s q T0) = bot) by (unfold slot; rewrite <- Hphys, Hcur; exact Heb).
    assert (Hslot : forall q' T, slot s' q' T = if rid_eqb q' q && (phys cap (2 * T) =? phys cap (2 * T0)) then new else slot s q' T).
    { intros q' T. unfold slot. destruct (Hq q') as (_ & _ & _ & _ & Hda). rewrite Hda, Hphys. reflexivity. }
    assert (Hsame_old : forall T, phys cap (2 * T) = phys cap (2 * T0) -> eidx (slot s q T) = bot).
    { intros T Hp. unfold slot. rewrite Hp. exact Hold. }
    assert (Ht_eq : forall q' T, g_eq (rg s q') T = EHeld t -> q' = q /\ T = T0).
    { intros q' T Hx. destruct (HR q') as [_ _ _ c2 _ _ _ _ _]. specialize (c2 T t Hx). rewrite Et in c2. cbn [etk] in c2.
      apply some_pair_inj in c2. destruct c2 as [E1 E2]. split; [symmetry; exact E1|unfold T0; rewrite E2; rewrite (N.mul_comm 2 T), N.div_mul by lia; reflexivity]. }
    assert (Ht_dq : forall q' H, g_dq (rg s q') H <> DHeld t).
    { intros q' H Hx. destruct (HR q') as [_ _ c1 _ _ _ _ _ _]. specialize (c1 H t Hx). rewrite Et in c1. discriminate. }
    assert (Hnt0 : forall i, g_dq (rg s q) T0 <> DTaken i).
    { intros i Hx. destruct (HR q) as [_ _ _ _ _ _ _ _ s6]. specialize (s6 T0 i Hx). rewrite Tb in s6. discriminate. }
    split; [|split].
    - intros q'. destruct (Hq q') as (Hdq & Heq & Hhd & Htl & Hda). destruct (HR q') as [a1 a2 c1 c2 s2 s3 s4 s5 s6].
      constructor.
      + intros H. rewrite Hdq. intros Hx. specialize (a1 H Hx). lia.
      + intros T. rewrite Heq. destruct (rid_eqb_spec q' q) as [->|Hnq]; cbn [andb].
        * destruct (N.eqb_spec T T0) as [HeT|HnT]; [intros _; subst T|intros Hx; specialize (a2 T Hx); lia].
          assert (Hne : g_eq (rg s q) T0 <> ENone) by (rewrite Tb; discriminate). specialize (a2 T0 Hne). lia.
        * intros Hx; specialize (a2 T Hx); lia.
      + intros H u. rewrite Hdq, Hth. intros Hx. destruct (Nat.eq_dec u t) as [->|Hne]; [exfalso; apply (Ht_dq q' H Hx)|].
        rewrite upd_other by exact Hne. apply c1. exact Hx.
      + intros T u. rewrite Heq, Hth. destruct (rid_eqb_spec q' q) as [->|Hnq]; cbn [andb].
        * destruct (N.eqb_spec T T0) as [HeT|HnT]; [discriminate|].
          intros Hx. destruct (Nat.eq_dec u t) as [->|Hne]; [destruct (Ht_eq q T Hx); contradiction|].
          rewrite upd_other by exact Hne. apply c2. exact Hx.
        * intros Hx. destruct (Nat.eq_dec u t) as [->|Hne]; [destruct (Ht_eq q' T Hx); contradiction|].
          rewrite upd_other by exact Hne. apply c2. exact Hx.
      + intros T HT2. rewrite Hslot, Heq, Hdq. destruct (rid_eqb_spec q' q) as [->|Hnq]; cbn [andb].
        * destruct (N.eqb_spec (phys cap (2 * T)) (phys cap (2 * T0))) as [Hp|Hp].
          -- rewrite Hni, Hnc. intros _ Hc. assert (T = T0) by (apply same_slot_ticket; [exact Hp|symmetry; exact Hc]). subst T.
             rewrite N.eqb_refl, Ho, N.eqb_refl. ssplit; [reflexivity|reflexivity|exact Hnt0].
          -- intros H1 H2. destruct (s2 T HT2 H1 H2) as (X & Y & Z).
             destruct (N.eqb_spec T T0) as [HeT|_]; [exfalso; apply Hp; rewrite HeT; reflexivity|].
             ssplit; [exact X| |exact Z].
             rewrite Ho. destruct (N.eqb_spec (eidx (slot s q T)) idx) as [Hei|_]; [|exact Y].
             exfalso. rewrite Hei, Hown in Y. symmetry in Y. apply (inring_held _ _ _ _ Y).
        * intros H1 H2. destruct (s2 T HT2 H1 H2) as (X & Y & Z). ssplit; [exact X| |exact Z].
          rewrite Ho. destruct (N.eqb_spec (eidx (slot s q' T)) idx) as [Hei|_]; [|exact Y].
          exfalso. rewrite Hei, Hown in Y. symmetry in Y. apply (inring_held _ _ _ _ Y).
      + intros T HT2. rewrite Hslot, Hdq. destruct (rid_eqb_spec q' q) as [->|Hnq]; cbn [andb]; [|apply s3; exact HT2].
        destruct (N.eqb_spec (phys cap (2 * T)) (phys cap (2 * T0))) as [Hp|Hp]; [|apply s3; exact HT2].
        rewrite Hni. intros Hx. exfalso. apply (lt_cap_ne_bot _ Hidx Hx).
      + intros i T Hi. rewrite Ho, Hslot. destruct (N.eqb_spec i idx) as [Hei|Hni'].
        * subst i. intros Hx. apply inring_inj in Hx. destruct Hx as [<- <-]. rewrite rid_eqb_refl, N.eqb_refl. cbn [andb].
          ssplit; [exact HT0|exact Hni|exact Hnc].
        * intros Hx. destruct (s4 i T Hi Hx) as (X & Y & Z). split; [exact X|].
          destruct (rid_eqb_spec q' q) as [->|Hnq]; cbn [andb]; [|split; assumption].
          destruct (N.eqb_spec (phys cap (2 * T)) (phys cap (2 * T0))) as [Hp|Hp]; [|split; assumption].
          exfalso. rewrite (Hsame_old T Hp) in Y. apply (lt_cap_ne_bot _ Hi). symmetry. exact Y.
      + intros T i. rewrite Heq, Hdq, Hslot. destruct (rid_eqb_spec q' q) as [->|Hnq]; cbn [andb]; [|apply s5].
        destruct (N.eqb_spec T T0) as [HeT|HnT].
        * subst T. intros Hx. inversion Hx; subst i. split; [exact Hidx|]. right. rewrite N.eqb_refl.
          ssplit; [exact Hnt0|exact Hni|exact Hnc].
        * intros Hx. destruct (s5 T i Hx) as [X Y]. split; [exact X|].
          destruct Y as [Y|(Y1 & Y2 & Y3)]; [left; exact Y|right; split; [exact Y1|]].
          destruct (N.eqb_spec (phys cap (2 * T)) (phys cap (2 * T0))) as [Hp|Hp]; [|split; assumption].
          exfalso. rewrite (Hsame_old T Hp) in Y2. apply (lt_cap_ne_bot _ X). symmetry. exact Y2.
      + intros H i. rewrite Hdq, Heq. intros Hx. specialize (s6 H i Hx).
        destruct (rid_eqb_spec q' q) as [->|Hnq]; cbn [andb]; [|exact s6].
        destruct (N.eqb_spec H T0) as [HeT|HnT]; [|exact s6]. subst H. exfalso. apply (Hnt0 i Hx).
    - intros u. rewrite Hth. destruct (Nat.eq_dec u t) as [->|Hne]; [rewrite upd_same|rewrite upd_other by exact Hne].
      + unfold T2. cbn [dtk etk hidx]. ssplit; try (intros; discriminate). exact I.
      + pose proof (HT u) as (A & B & C & D). unfold T2. ssplit.
        * intros q' hd' Hx. destruct (Hq q') as (Hdq & _). rewrite Hdq. apply A. exact Hx.
        * intros q' tl' Hx. destruct (Hq q') as (_ & Heq & _). rewrite Heq. specialize (B q' tl' Hx).
          destruct (rid_eqb_spec q' q) as [->|Hnq]; cbn [andb]; [|exact B].
          destruct (N.eqb_spec (tl' / 2) T0) as [Heq0|HnH]; [|exact B].
          exfalso. rewrite Heq0, Tb in B. congruence.
        * intros q' i' Hx. rewrite Ho. destruct (C q' i' Hx) as [C1' C2']. split; [|exact C2'].
          destruct (N.eqb_spec i' idx) as [Hei|_]; [|exact C1']. exfalso. subst i'. rewrite Hown in C1'.
          apply held_inj in C1'. destruct C1' as [_ C1']. congruence.
        * destruct (th s u) eqn:Eu; try exact I. destruct D as (D1 & D2 & D3). rewrite Hslot.
          destruct (rid_eqb_spec q0 q) as [->|Hnq]; cbn [andb]; [|ssplit; assumption].
          destruct (N.eqb_spec (phys cap (2 * (hd / 2))) (phys cap (2 * T0))) as [Hp|Hp]; [|ssplit; assumption].
          exfalso. rewrite (Hsame_old _ Hp) in D2. apply (lt_cap_ne_bot _ D1). symmetry. exact D2.
    - intros i u q'. rewrite Ho, Hth. destruct (N.eqb_spec i idx) as [Hei|Hni'].
      + intros Hx. exfalso. apply (inring_held _ _ _ _ Hx).
      + intros Hx. specialize (HO i u q' Hx). destruct (Nat.eq_dec u t) as [->|Hne].
        * exfalso. rewrite Et in HO. cbn [hidx] in HO. apply some_pair_inj in HO. destruct HO as [_ HO]. congruence.
        * rewrite upd_other by exact Hne. exact HO.
  Qed.

  (** * the step lemma *)
  Ltac core_tac :=
    split; [let q' := fresh "q'" in intros q'; sim;
            try (match goal with |- context [rid_eqb q' ?q] => destruct (rid_eqb_spec q' q) as [->|?] end); sim;
            ssplit; intros; try reflexivity; try lia
           |intros; sim; reflexivity].

  Lemma mark_left_core s q hd p : leaves p = false -> mark_left s q hd p = s.
  Proof. unfold mark_left. intros ->. reflexivity. Qed.
  Lemma mark_skip_core s q tl p : skips p = false -> mark_skip s q tl p = s.
  Proof. unfold mark_skip. intros ->. reflexivity. Qed.

  (** D3 extras when the loop body finds its own cycle in the entry just read *)
  Lemma D3_extras s t q hd e :
    Inv1 s -> Inv2 s -> dtk (th s t) = Some (q, hd) -> rdata (rg s q) (phys cap hd) = e ->
    (cyc cap e =? cyc cap hd) = true ->
    eidx e < cap /\ eidx (slot s q (hd / 2)) = eidx e /\ ecyc (slot s q (hd / 2)) = ecyc hd.
  Proof.
    intros [HW HT1] (HR & HT & HO) Hd Hcur Hc. rewrite (cyc_eqb k Hk) in Hc. apply N.eqb_eq in Hc.
    pose proof (HT t) as (Ta & _). specialize (Ta q hd Hd).
    assert (Hctr : ctr hd).
    { pose proof (HT1 t) as Hu. destruct (th s t); cbn [dtk] in Hd; try discriminate; apply some_pair_inj in Hd; destruct Hd as [<- <-];
      cbn [T1] in Hu; tauto. }
    destruct Hctr as [Hhd2 Hhdlt].
    assert (Hsl : slot s q (hd / 2) = e) by (unfold slot; rewrite <- Hhd2; exact Hcur).
    assert (HH0 : 2 * (hd / 2) < 2 ^ 62) by (rewrite <- Hhd2; exact Hhdlt).
    assert (Hcyc0 : ecyc hd = (hd / 2) / nn cap) by (rewrite Hhd2 at 1; apply (ecyc_tick k Hk)).
    rewrite Hsl. ssplit; [|reflexivity|exact Hc].
    destruct (HW q) as (_ & _ & _ & Hd'). destruct (Hd' (phys cap hd)) as [_ [Hi|Hi]]; rewrite Hcur in Hi; [exact Hi|].
    exfalso. destruct (HR q) as [_ _ _ _ _ s3 _ _ _].
    destruct (s3 (hd / 2) HH0) as [[i Hx]|Hx]; rewrite ?Hsl; try assumption; try (rewrite Hc; exact Hcyc0);
      rewrite Ta in Hx; discriminate.
  Qed.

  (** the dequeue ticket of t is given up without a write *)
  Lemma leave_step s s' t q hd p' :
    Inv1 s -> Inv2 s -> dtk (th s t) = Some (q, hd) -> etk (th s t) = None -> hidx (th s t) = None ->
    leaves p' = true ->
    s' = w_th (mark_left s q hd p') (upd (th (mark_left s q hd p')) t p') ->
    Inv2 s'.
  Proof.
    intros H1 H2 Hd He Hh Hlv ->. pose proof H1 as [HW HT1]. pose proof H2 as (HR & HT & HO).
    assert (Hctr : ctr hd /\ hd + 2 <= rhead (rg s q)).
    { pose proof (HT1 t) as Hu. destruct (th s t); cbn [dtk] in Hd; try discriminate; apply some_pair_inj in Hd; destruct Hd as [<- <-];
      cbn [T1] in Hu; tauto. }
    destruct Hctr as [[Hhd2 Hhdlt] Hhle].
    assert (Hp' : dtk p' = None /\ etk p' = None /\ hidx p' = None) by (destruct p'; try discriminate; ssplit; reflexivity).
    destruct Hp' as (Hdp & Hep & Hhp).
    eapply (K_dq s _ t q (hd / 2) DLeft); [exact H1|exact H2|rewrite <- Hhd2; exact Hhdlt| | |unfold mark_left; rewrite Hlv; sim; reflexivity|exact Hep|exact He|exact Hhp|exact Hh| | |destruct p'; try discriminate; exact I].
    - intros q'. unfold mark_left; rewrite Hlv; sim. destruct (rid_eqb_spec q' q) as [->|Hnq]; sim; cbn [andb]; ssplit; intros; try reflexivity; try lia.
      + left. unfold slot. sim. rewrite rid_eqb_refl. sim. split; reflexivity.
      + left. unfold slot. sim. destruct (rid_eqb_spec q' q); [contradiction|]. split; reflexivity.
    - intros i. unfold mark_left; rewrite Hlv; sim. reflexivity.
    - unfold mark_left; rewrite Hlv; sim. rewrite rid_eqb_refl. sim. lia.
    - right. pose proof (HT t) as (Ta & _). ssplit; [apply Ta; exact Hd|rewrite <- Hhd2; exact Hd|reflexivity|exact Hdp].
  Qed.

  Lemma dq_eval_step s s' t q x hd att e :
    Inv1 s -> Inv2 s -> dtk (th s t) = Some (q, hd) -> etk (th s t) = None -> hidx (th s t) = None ->
    rdata (rg s q) (phys cap hd) = e ->
    s' = w_th (mark_left s q hd (dq_eval cap q x hd att e)) (upd (th (mark_left s q hd (dq_eval cap q x hd att e))) t (dq_eval cap q x hd att e)) ->
    Inv2 s'.
  Proof.
    intros H1 H2 Hd He Hh Hcur ->.
    destruct (dq_eval_cases cap q x hd att e) as [[C1 E]|[C1 [[C2 [[C3 E]|[C3 [[C4 E]|[C4 E]]]]]|[C2 E]]]]; rewrite E;
      try (apply (leave_step s _ t q hd (D6 q x hd)); try assumption; reflexivity);
      rewrite mark_left_core by reflexivity;
      (eapply (Inv2_pc_only s _ t); [exact H2|core_tac|sim; reflexivity|cbn [dtk]; symmetry; exact Hd|cbn [etk]; symmetry; exact He|cbn [hidx]; symmetry; exact Hh|try exact I]).
    apply (D3_extras s t q hd e); assumption.
  Qed.

  Lemma skip_step s s' t q tl p' :
    Inv1 s -> Inv2 s -> etk (th s t) = Some (q, tl) -> dtk (th s t) = None ->
    skips p' = true -> hidx p' = hidx (th s t) ->
    s' = w_th (mark_skip s q tl p') (upd (th (mark_skip s q tl p')) t p') ->
    Inv2 s'.
  Proof.
    intros H1 H2 He Hd Hsk Hh ->. pose proof H1 as [HW HT1]. pose proof H2 as (HR & HT & HO).
    assert (Hctr : ctr tl /\ tl + 2 <= rtail (rg s q)).
    { pose proof (HT1 t) as Hu. destruct (th s t); cbn [etk] in He; try discriminate; apply some_pair_inj in He; destruct He as [<- <-];
      cbn [T1] in Hu; tauto. }
    destruct Hctr as [[Htl2 Htllt] Htle].
    assert (Hp' : dtk p' = None /\ etk p' = None) by (destruct p'; try discriminate; split; reflexivity).
    destruct Hp' as [Hdp Hep].
    eapply (K_eq s _ t q (tl / 2) ESkip); [exact H1|exact H2|rewrite <- Htl2; exact Htllt| | |unfold mark_skip; rewrite Hsk; sim; reflexivity|exact Hdp|exact Hd|exact Hh| |].
    - intros q'. unfold mark_skip; rewrite Hsk; sim. destruct (rid_eqb_spec q' q) as [->|Hnq]; sim; cbn [andb]; ssplit; intros; try reflexivity; lia.
    - intros i. unfold mark_skip; rewrite Hsk; sim. reflexivity.
    - unfold mark_skip; rewrite Hsk; sim. rewrite rid_eqb_refl. sim. lia.
    - right. pose proof (HT t) as (_ & Tb & _). ssplit; [apply Tb; exact He|rewrite <- Htl2; exact He|reflexivity|exact Hep].
  Qed.

  Lemma en_eval_step s s' t q x idx gk tl e :
    Inv1 s -> Inv2 s -> etk (th s t) = Some (q, tl) -> dtk (th s t) = None -> hidx (th s t) = Some (q, idx) ->
    s' = w_th (mark_skip s q tl (en_eval cap q x idx gk tl e)) (upd (th (mark_skip s q tl (en_eval cap q x idx gk tl e))) t (en_eval cap q x idx gk tl e)) ->
    Inv2 s'.
  Proof.
    intros H1 H2 He Hd Hh ->.
    destruct (en_eval_cases cap q x idx gk tl e) as [(C1 & C2 & E)|[(C1 & C2 & C3 & E)|E]]; rewrite E.
    - rewrite mark_skip_core by reflexivity.
      eapply (Inv2_pc_only s _ t); [exact H2|core_tac|sim; reflexivity|cbn [dtk]; symmetry; exact Hd|cbn [etk]; symmetry; exact He|cbn [hidx]; symmetry; exact Hh|exact I].
    - rewrite mark_skip_core by reflexivity.
      eapply (Inv2_pc_only s _ t); [exact H2|core_tac|sim; reflexivity|cbn [dtk]; symmetry; exact Hd|cbn [etk]; symmetry; exact He|cbn [hidx]; symmetry; exact Hh|exact I].
    - eapply (skip_step s _ t q tl (E1 q x idx gk)); [exact H1|exact H2|exact He|exact Hd|reflexivity|cbn [hidx]; symmetry; exact Hh|reflexivity].
  Qed.

  Lemma ticket_fresh_dq s q : Inv1 s -> Inv2 s -> g_dq (rg s q) (rhead (rg s q) / 2) = DNone.
  Proof.
    intros [HW _] (HR & _). destruct (HR q) as [a1 _ _ _ _ _ _ _ _]. destruct (HW q) as ([Hh2 _] & _).
    destruct (g_dq (rg s q) (rhead (rg s q) / 2)) eqn:E; [reflexivity| | |];
      (assert (Hne : g_dq (rg s q) (rhead (rg s q) / 2) <> DNone) by (rewrite E; discriminate); specialize (a1 _ Hne); lia).
  Qed.
  Lemma ticket_fresh_eq s q : Inv1 s -> Inv2 s -> g_eq (rg s q) (rtail (rg s q) / 2) = ENone.
  Proof.
    intros [HW _] (HR & _). destruct (HR q) as [_ a2 _ _ _ _ _ _ _]. destruct (HW q) as (_ & [Ht2 _] & _).
    destruct (g_eq (rg s q) (rtail (rg s q) / 2)) eqn:E; [reflexivity| | |];
      (assert (Hne : g_eq (rg s q) (rtail (rg s q) / 2) <> ENone) by (rewrite E; discriminate); specialize (a2 _ Hne); lia).
  Qed.

  (** closes Inv2 of the successor by [Inv2_pc_only] when the step moves thread t to a program point with the same
      tickets and index and changes nothing else but counters and thresholds: [same_core] by computation ([core_tac]),
      [dtk] / [etk] / [hidx] of the new point by rewriting with [E : th s t = ..], the D3 clause trivially *)
  Ltac pc_only t H2 E :=
    eapply (Inv2_pc_only _ _ t);
    [exact H2|core_tac|sim; reflexivity|rewrite E; reflexivity|rewrite E; reflexivity|rewrite E; reflexivity|exact I].

  Lemma Inv2_step s a s' es : Inv1 s -> Inv2 s -> step s a = Some (s', es) -> g_ovf s' = false -> Inv2 s'.
  Proof.
    intros H1 H2 Hst Hov. pose proof H1 as [HW HT1]. pose proof H2 as (HR & HT & HO).
    unfold NikbDefs.step, step_gen in Hst. destruct a as [t o|t].
    - destruct (th s t) eqn:E; try discriminate. injection Hst as <- <-.
      pc_only t H2 E.
    - pose proof (HT1 t) as Hme.
      pc_cases (th s t); try discriminate;
        cbn [T1] in Hme.
      + (* Begin push *) injection Hst as <- <-.
        pc_only t H2 E.
      + injection Hst as <- <-.
        pc_only t H2 E.
      + (* D0 *) destruct (lt0 (rthr (rg s q))); injection Hst as <- <-;
        pc_only t H2 E.
      + (* D1 *) injection Hst as <- <-. sim. apply orb_false_2 in Hov. destruct Hov as [Hov Ho]. apply (ctr_ovf_false k R Hk) in Ho.
        destruct (HW q) as ([Hh2 Hhlt] & _). rewrite (wadd2_small _ Hhlt) in *.
        eapply (K_dq s _ t q (rhead (rg s q) / 2) (DHeld t)); [exact H1|exact H2|lia| | |sim; reflexivity|reflexivity|rewrite E; reflexivity|reflexivity|rewrite E; reflexivity| | |exact I].
        * intros q'. sim. destruct (rid_eqb_spec q' q) as [->|Hnq]; sim; cbn [andb]; ssplit; intros; try reflexivity; try lia.
          -- left. unfold slot. sim. rewrite rid_eqb_refl. sim. split; reflexivity.
          -- left. unfold slot. sim. destruct (rid_eqb_spec q' q); [contradiction|]. split; reflexivity.
        * intros i. sim. reflexivity.
        * sim. rewrite rid_eqb_refl. sim. lia.
        * left. ssplit; [apply ticket_fresh_dq; assumption|rewrite E; reflexivity|reflexivity|cbn [dtk]; rewrite <- Hh2; reflexivity].
      + (* D2 *) injection Hst as <- <-.
        eapply (dq_eval_step s _ t q x hd att); [exact H1|exact H2|rewrite E; reflexivity|rewrite E; reflexivity|rewrite E; reflexivity|reflexivity|reflexivity].
      + (* D3 *) destruct q; injection Hst as <- <-;
        (eapply (K_take s _ t _ x hd e); [exact H1|exact H2|exact E| | |sim; rewrite (land_vmask k Hk); reflexivity]);
        try (intros q'; sim; rewrite (land_vmask k Hk); destruct q'; sim; ssplit; intros; try reflexivity; lia);
        (intros i; sim; rewrite (land_vmask k Hk); reflexivity).
      + (* D4 *) injection Hst as <- <-.
        destruct (gt0 _ && _).
        * rewrite mark_left_core by reflexivity. pc_only t H2 E.
        * destruct (lt0 (diff (cyc cap e) (cyc cap hd))).
          -- rewrite mark_left_core by reflexivity. pc_only t H2 E.
          -- apply (leave_step s _ t q hd (D6 q x hd)); try assumption; try reflexivity; rewrite E; reflexivity.
      + (* D5 *) destruct Hme as (Hc & Hh & He & Hlt & Hnew). destruct Hc as [Hhd2 Hhdlt].
        destruct (N.eqb_spec (rdata (rg s q) (phys cap hd)) e) as [<-|Hcur]; injection Hst as <- <-.
        * assert (Hcyc0 : ecyc hd = (hd / 2) / nn cap) by (rewrite Hhd2 at 1; apply (ecyc_tick k Hk)).
          eapply (K_dq s _ t q (hd / 2) DLeft); [exact H1|exact H2|rewrite <- Hhd2; exact Hhdlt| | |sim; reflexivity|reflexivity|rewrite E; reflexivity|reflexivity|rewrite E; reflexivity| | |exact I].
          -- intros q'. sim. destruct (rid_eqb_spec q' q) as [->|Hnq]; sim; cbn [andb]; ssplit; intros; try reflexivity; try lia.
             ++ unfold slot. sim. rewrite rid_eqb_refl. sim. unfold setf.
                destruct (N.eqb_spec (phys cap (2 * T)) (phys cap hd)) as [Hp|Hp]; [|left; split; reflexivity].
                rewrite Hp. destruct Hnew as [[-> Hnb]|[-> Hb]].
                ** left. destruct (f_unsafe k Hk (rdata (rgs s q) (phys cap hd))) as (A & B & C). split; assumption.
                ** right. destruct (f_botw k Hk hd (rdata (rgs s q) (phys cap hd))) as (A & B & C). ssplit; [reflexivity|exact Hb|exact C| |reflexivity].
                   rewrite A, Hcyc0. intros Hx. apply same_slot_ticket; [rewrite Hp, Hhd2 at 1; reflexivity|symmetry; exact Hx].
             ++ left. unfold slot. sim. destruct (rid_eqb_spec q' q); [contradiction|]. split; reflexivity.
          -- intros i. sim. reflexivity.
          -- sim. rewrite rid_eqb_refl. sim. lia.
          -- right. pose proof (HT t) as (Ta & _). rewrite E in Ta. ssplit; [apply Ta; reflexivity|rewrite E; cbn [dtk]; rewrite <- Hhd2; reflexivity|reflexivity|reflexivity].
        * eapply (dq_eval_step s _ t q x hd att); [exact H1|exact H2|rewrite E; reflexivity|rewrite E; reflexivity|rewrite E; reflexivity|reflexivity|reflexivity].
      + (* D6 *) destruct (gt0 _); injection Hst as <- <-; pc_only t H2 E.
      + (* D7 *) destruct (sle 64 _ 0); injection Hst as <- <-; pc_only t H2 E.
      + (* C1 *) destruct Hme as (Hct & Hch & Hle). destruct (HW q) as (_ & Htl & _).
        destruct (N.eqb_spec (rtail (rg s q)) tl) as [<-|Hne]; injection Hst as <- <-; [|pc_only t H2 E].
        rewrite (ctr_land1 _ Htl), N.lor_0_r. pc_only t H2 E.
      + (* C2 *) destruct (lt0 _); injection Hst as <- <-; pc_only t H2 E.
      + (* D8 *) injection Hst as <- <-; pc_only t H2 E.
      + (* E1 *) destruct (HW q) as (_ & [Ht2 Htlt] & _).
        destruct q; injection Hst as <- <-; sim; apply orb_false_2 in Hov; destruct Hov as [Hov Ho]; apply (ctr_ovf_false k R Hk) in Ho;
        rewrite (wadd2_small _ Htlt) in *;
        (match type of E with th s t = E1 ?qq _ _ _ =>
           eapply (K_eq s _ t qq (rtail (rg s qq) / 2) (EHeld t)); [exact H1|exact H2|lia| | |sim; reflexivity|reflexivity|rewrite E; reflexivity|rewrite E; reflexivity| |] end);
        try (intros q'; sim; destruct q'; sim; ssplit; intros; try reflexivity; lia);
        try (intros i; sim; reflexivity);
        try (sim; lia);
        (left; ssplit; [apply ticket_fresh_eq; assumption|rewrite E; reflexivity|reflexivity|cbn [etk]; rewrite <- Ht2; reflexivity]).
      + (* E2 *) injection Hst as <- <-.
        eapply (en_eval_step s _ t q x idx gk tl); [exact H1|exact H2|rewrite E; reflexivity|rewrite E; reflexivity|rewrite E; reflexivity|reflexivity].
      + (* E3 *) destruct (gt0 _); injection Hst as <- <-.
        * eapply (skip_step s _ t q tl (E1 q x idx gk)); [exact H1|exact H2|rewrite E; reflexivity|rewrite E; reflexivity|reflexivity|rewrite E; reflexivity|reflexivity].
        * rewrite mark_skip_core by reflexivity. pc_only t H2 E.
      + (* E4 *) destruct Hme as (Hi & Hc & Ht & He & Hb & Hlt).
        destruct (N.eqb_spec (rdata (rg s q) (phys cap tl)) e) as [<-|Hcur].
        * destruct (f_enq k Hk tl idx (wfi_le k R Hk _ Hi)) as (A & B & C).
          destruct q; injection Hst as <- <-;
          (eapply (K_pub s _ t _ x idx gk tl _ _ _); [exact H1|exact H2|exact E|reflexivity|exact C|exact A| | |sim; reflexivity]);
          try (intros q'; sim; destruct q'; sim; ssplit; intros; try reflexivity; lia);
          (intros i; sim; reflexivity).
        * injection Hst as <- <-.
          eapply (en_eval_step s _ t q x idx gk tl); [exact H1|exact H2|rewrite E; reflexivity|rewrite E; reflexivity|rewrite E; reflexivity|reflexivity].
      + (* E5 *) destruct (_ =? _); [destruct q|]; injection Hst as <- <-; pc_only t H2 E.
      + (* E6 *) destruct q; injection Hst as <- <-; pc_only t H2 E.
  Qed.

  Theorem Inv12_reach s : reach (init cap) step s -> g_ovf s = false -> Inv1 s /\ Inv2 s.
  Proof.
    intros Hr. induction Hr as [|s a s' es Hr IH Hst]; intros Hov.
    - split; [apply (Inv1_init k R Hk)|apply Inv2_init].
    - destruct IH as [I1 I2]; [eapply ovf_sticky; eauto|].
      split; [eapply (Inv1_step k R Hk); eauto|eapply Inv2_step; eauto].
  Qed.
End L2.
