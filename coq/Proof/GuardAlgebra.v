(** C15 - guard_ptr algebra on the executable guard / slot models of hazard_pointer (Model/HpSlotsDefs.v) and hazard_eras
    (Model/HeSlotsDefs.v), which are tied to the real guard_ptrs by the differential run of the C18 / C15 checks:
    swap exchanges the two guards TOGETHER WITH their slots and touches nothing else. (reset / move / copy: Proof/HpSlots.v) *)
From Coq Require Import List Arith Lia Bool.
From XV Require Import Model.HpSlotsDefs Proof.HpSlots Model.HeSlotsDefs Proof.HeSlots.
Import ListNotations.

Theorem hp_swap_exchanges : forall cfg st a b ga gb,
  get_g st a = Some ga -> get_g st b = Some gb ->
  let st' := state_after cfg st (GSwap a b) in
  outcome_of cfg st (GSwap a b) = Ok /\
  get_g st' b = Some ga /\ (a <> b -> get_g st' a = Some gb) /\
  (forall g, g <> a -> g <> b -> get_g st' g = get_g st g) /\
  pl st' = pl st /\ length (guards st') = length (guards st).
Proof.
  intros cfg st a b ga gb Ha Hb. unfold state_after, outcome_of, step. rewrite Ha, Hb. cbn [fst snd].
  unfold get_g, put_g in *. cbn [guards pl].
  pose proof (nth_error_lt _ _ _ Ha) as La. pose proof (nth_error_lt _ _ _ Hb) as Lb.
  repeat split.
  - apply nth_error_set_nth_eq. rewrite set_nth_length. exact Lb.
  - intro Hn. rewrite nth_error_set_nth_neq by congruence. apply nth_error_set_nth_eq. exact La.
  - intros g Hga Hgb. rewrite nth_error_set_nth_neq by congruence. rewrite nth_error_set_nth_neq by congruence. reflexivity.
  - rewrite !set_nth_length. reflexivity.
Qed.

(** the slot travels with the guard: after the swap guard b protects through the slot guard a had, and vice versa *)
Corollary hp_swap_moves_slots : forall cfg st a b ga gb, a <> b ->
  get_g st a = Some ga -> get_g st b = Some gb ->
  let st' := state_after cfg st (GSwap a b) in
  option_map g_hp (get_g st' a) = Some (g_hp gb) /\ option_map g_hp (get_g st' b) = Some (g_hp ga) /\
  option_map g_ptr (get_g st' a) = Some (g_ptr gb) /\ option_map g_ptr (get_g st' b) = Some (g_ptr ga).
Proof.
  intros cfg st a b ga gb Hn Ha Hb st'. destruct (hp_swap_exchanges cfg st a b ga gb Ha Hb) as (_ & Hb' & Ha' & _).
  fold st' in Hb', Ha'. rewrite Hb', (Ha' Hn). cbn. auto.
Qed.

(** hazard_eras: swap of two guard_ptrs exchanges the two guards, each with its slot (era) and pointer, succeeds, and
    touches neither the other guards nor the pool (no reference count changes) nor the era clock *)
Theorem he_swap_exchanges : forall cfg st a b ga gb,
  h_get st a = Some ga -> h_get st b = Some gb ->
  let st' := snd (h_step_g cfg st (GSwap a b)) in
  fst (fst (h_step_g cfg st (GSwap a b))) = Ok /\
  h_get st' b = Some ga /\ (a <> b -> h_get st' a = Some gb) /\
  (forall g, g <> a -> g <> b -> h_get st' g = h_get st g) /\
  hpool st' = hpool st /\ h_clock st' = h_clock st.
Proof.
  intros cfg st a b ga gb Ha Hb. unfold h_step_g. rewrite Ha, Hb. cbn [fst snd].
  unfold h_get, h_put, h_with_guards in *. cbn [h_guards hpool h_clock].
  pose proof (nth_error_lt _ _ _ Ha) as La. pose proof (nth_error_lt _ _ _ Hb) as Lb.
  repeat split.
  - apply nth_error_set_nth_eq. rewrite set_nth_length. exact Lb.
  - intro Hn. rewrite nth_error_set_nth_neq by congruence. apply nth_error_set_nth_eq. exact La.
  - intros g Hga Hgb. rewrite nth_error_set_nth_neq by congruence. rewrite nth_error_set_nth_neq by congruence. reflexivity.
Qed.
