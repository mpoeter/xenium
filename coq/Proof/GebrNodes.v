(** Bookkeeping of the nodes handed to guard_ptr::reclaim in the generalised epoch based reclamation model
    (Model/GebrDefs.v), for every configuration - the safety half of C02:  [N0]  a node is in at most one place, and the
    ghost [g_where] says exactly where: a retired node is in the retire list of epoch slot i of exactly one thread, or in
    exactly one orphan list (abandoned by clear_critical_region_flag - abandon::always / when_exceeds_threshold -, handed
    over at thread exit, or put back after a lost epoch race), or adopted by exactly one thread (in flight inside
    update_global_epoch), or freed; all these lists are duplicate free; a node is freed at most once ([g_nfree]) and only
    after it was retired; the hand-overs move whole lists and drop nothing.
    Holds in every reachable state ([N0_reach]).  No axioms. *)
From Coq Require Import NArith List Bool Arith Lia PeanoNat Setoid.
From XV Require Import Conc.Lts Conc.Ev Model.GebrDefs Proof.GebrBase Proof.GebrShape Proof.GebrOwn Proof.GebrEpoch.
Import ListNotations.
Local Open Scope N_scope.

(** * Retired nodes: where they are *)
Definition flight (p : pc) : list N := match p with G5 _ _ l | G6 _ _ l | G7 _ _ l _ => l | _ => [] end.
Definition flight_ep (p : pc) : option N := match p with G5 _ e _ | G6 _ e _ | G7 _ e _ _ => Some e | _ => None end.
Definition fresh_of (p : pc) : option N := match p with R3 _ _ (Some n) => Some n | _ => None end.
Definition tmpg (p : pc) : option N := match p with R3 _ (Some g) _ => Some g | _ => None end.
(** place w, life cycle l and number k of deleter runs of one node agree: unplaced = never retired and never freed;
    freed = retired and freed exactly once; any other place = retired and not freed *)
Definition wh_ok (w : place) (l : life) (k : nat) : Prop :=
  match w with
  | PNone => (forall t r, l <> LRet t r) /\ k = O
  | PFreed => (exists t r, l = LRet t r) /\ k = 1%nat
  | _ => (exists t r, l = LRet t r) /\ k = O
  end.
Definition xdone (p : pc) (r : N -> list N) : Prop :=
  match p with
  | X1 i | X2 i _ => forall j, j < i -> r j = []
  | X3 => forall j, r j = []
  | _ => True
  end.

Record N0 (s : state) : Prop := {
  n_lt : forall n, g_life s n <> LNone -> n < nalloc s;
  n_cell : forall c n, cells s c = Some n -> g_life s n = LPub c;
  n_fresh1 : forall u n, fresh_of (th s u) = Some n -> g_life s n = LFresh u;
  n_fresh2 : forall u n, g_life s n = LFresh u -> fresh_of (th s u) = Some n;
  n_where : forall n, wh_ok (g_where s n) (g_life s n) (g_nfree s n);
  n_list : forall u i n, In n (rl (tl s u) i) <-> g_where s n = PList u i;
  n_orph : forall i n, In n (orph s i) <-> g_where s n = POrph i;
  n_flight : forall u n, In n (flight (th s u)) <-> g_where s n = PFlight u;
  n_nd_list : forall u i, NoDup (rl (tl s u) i);
  n_nd_orph : forall i, NoDup (orph s i);
  n_nd_flight : forall u, NoDup (flight (th s u));
  n_lidx : forall u, lidx (tl s u) < 3;
  n_rl3 : forall u i, 3 <= i -> rl (tl s u) i = [];
  n_xdone : forall u, xdone (th s u) (rl (tl s u));
  n_cempty : forall u, (in_cphase (th s u) = true \/ cb (tl s u) = None) -> forall i, rl (tl s u) i = [] }.

Lemma N0_init nc : N0 (init nc).
Proof.
  constructor; cbn; intros; try discriminate; try reflexivity; try constructor; try (split; intros; try contradiction; discriminate); try lia.
  all: try discriminate.
  - destruct (N.ltb_spec n nc); [assumption|congruence].
  - destruct (N.ltb_spec c nc); [|discriminate]. inversion H; subst. destruct (N.ltb_spec n nc); [reflexivity|lia].
  - destruct (n <? nc); discriminate.
  - intros t r. destruct (n <? nc); discriminate.
Qed.

Ltac nfn := cbn [flight fresh_of tmpg xdone wh_ok in_cphase].
Ltac nfn_in H := cbn [flight fresh_of tmpg xdone wh_ok in_cphase] in H.

Lemma count_nodup n l : NoDup l -> length (filter (N.eqb n) l) = if memN n l then 1%nat else 0%nat.
Proof.
  induction 1 as [|a l Hni Hnd IH]; [reflexivity|]. cbn [filter memN existsb]. fold (memN n l).
  destruct (N.eqb_spec n a) as [->|Hne]; cbn [orb length].
  - rewrite IH. apply memN_false in Hni. rewrite Hni. reflexivity.
  - exact IH.
Qed.
Lemma NoDup_app_intro {A} (l1 l2 : list A) : NoDup l1 -> NoDup l2 -> (forall x, In x l1 -> ~ In x l2) -> NoDup (l1 ++ l2).
Proof.
  induction 1 as [|a l Hni Hnd IH]; intros H2 Hd; [exact H2|]. cbn [app]. constructor.
  - rewrite in_app_iff. intros [X|X]; [contradiction|]. apply (Hd a); [left; reflexivity|exact X].
  - apply IH; [exact H2|]. intros x Hx. apply Hd. right. exact Hx.
Qed.

Lemma wh_not_ret w l k : wh_ok w l k -> (forall t r, l <> LRet t r) -> w = PNone /\ k = O.
Proof. destruct w; cbn; intros [H1 H2] H; auto; destruct H1 as (t0 & r & E); exfalso; eapply H; eauto. Qed.
Lemma wh_ret_some w l k : wh_ok w l k -> w <> PNone -> exists t r, l = LRet t r.
Proof. destruct w; cbn; intros [H1 H2] H; auto; congruence. Qed.

Lemma xnext_spec r i0 : (forall j, 3 <= j -> r j = []) ->
  match xnext r i0 with
  | X1 i => i0 <= i /\ i < 3 /\ (forall j, i0 <= j -> j < i -> r j = [])
  | X3 => forall j, i0 <= j -> r j = []
  | _ => False
  end.
Proof.
  intros H3. unfold xnext.
  assert (Hj : forall j, j = 0 \/ j = 1 \/ j = 2 \/ 3 <= j) by (intros; lia).
  destruct (N.leb_spec i0 0), (is_nil (r 0)) eqn:E0; cbn [andb negb];
  destruct (N.leb_spec i0 1), (is_nil (r 1)) eqn:E1; cbn [andb negb];
  destruct (N.leb_spec i0 2), (is_nil (r 2)) eqn:E2; cbn [andb negb];
  try apply is_nil_true in E0; try apply is_nil_true in E1; try apply is_nil_true in E2;
  try (repeat split; try lia; intros j Hj1 Hj2; destruct (Hj j) as [->|[->|[->|Hx]]]; try assumption; try lia);
  try (intros j Hj1; destruct (Hj j) as [->|[->|[->|Hx]]]; try assumption; try lia; apply H3; assumption).
Qed.

Lemma mod3_succ_ne a : (a + 1) mod 3 <> a mod 3 /\ (a + 2) mod 3 <> a mod 3 /\ (a + 2) mod 3 <> (a + 1) mod 3.
Proof.
  rewrite (N.add_mod a 1 3), (N.add_mod a 2 3) by discriminate.
  pose proof (N.mod_lt a 3 ltac:(discriminate)) as H. set (m := a mod 3) in *.
  assert (Hm : m = 0 \/ m = 1 \/ m = 2) by lia. destruct Hm as [-> | [-> | ->]]; cbn; repeat split; discriminate.
Qed.

Lemma uslots_nodup new old : NoDup (uslots new old).
Proof.
  unfold uslots. destruct (N.eqb_spec (N.min 3 (new - old)) 0); [constructor|].
  destruct (N.eqb_spec (N.min 3 (new - old)) 1); [constructor; [intros []|constructor]|].
  destruct (N.eqb_spec (N.min 3 (new - old)) 2).
  - assert (Hn : new = (new - 1) + 1) by lia. destruct (mod3_succ_ne (new - 1)) as (H1 & _). rewrite <- Hn in H1.
    constructor; [intros [X|[]]; congruence|constructor; [intros []|constructor]].
  - assert (Hn : new - 1 = (new - 2) + 1) by lia. assert (Hn2 : new = (new - 2) + 2) by lia.
    destruct (mod3_succ_ne (new - 2)) as (H1 & H2 & H3). rewrite <- Hn in H1, H3. rewrite <- Hn2 in H2, H3.
    constructor; [intros [X|[X|[]]]; congruence|]. constructor; [intros [X|[]]; congruence|]. constructor; [intros []|constructor].
Qed.

Lemma uslots_lt new old i : In i (uslots new old) -> i < 3.
Proof.
  unfold uslots. repeat match goal with |- context [if ?c then _ else _] => destruct c end; cbn [In];
  intros H; repeat (destruct H as [<-|H]); try contradiction; apply N.mod_lt; discriminate.
Qed.

Section Flat.
  Variables (s : state) (t : nat) (r : N -> list N) (sl : list N).
  Hypothesis Hl : forall i n, In n (r i) <-> g_where s n = PList t i.
  Hypothesis Hnd : forall i, NoDup (r i).
  Lemma flat_where n : In n (flat_map r sl) <-> exists i, In i sl /\ g_where s n = PList t i.
  Proof.
    rewrite in_flat_map. split; intros (i & Hi & H); exists i; (split; [exact Hi|]); apply Hl; exact H.
  Qed.
  Lemma flat_nodup : NoDup sl -> NoDup (flat_map r sl).
  Proof.
    induction 1 as [|a l Hni Hnd' IH]; cbn [flat_map]; [constructor|].
    apply NoDup_app_intro; [apply Hnd|exact IH|].
    intros x Hx Hx'. apply Hl in Hx. apply in_flat_map in Hx'. destruct Hx' as (i & Hi & Hx').
    apply Hl in Hx'. assert (a = i) by congruence. subst. contradiction.
  Qed.
End Flat.

Definition set_opt (f : N -> life) (o : option N) (v : life) : N -> life := match o with Some n => updN f n v | None => f end.

Inductive life_eff (s : state) (t : nat) (s' : state) : Prop :=
| LE_same : g_life s' = g_life s -> cells s' = cells s -> nalloc s <= nalloc s' -> fresh_of (th s' t) = fresh_of (th s t) -> life_eff s t s'
| LE_fresh : g_life s' = updN (g_life s) (nalloc s) (LFresh t) -> cells s' = cells s -> nalloc s' = nalloc s + 1 ->
    fresh_of (th s t) = None -> fresh_of (th s' t) = Some (nalloc s) -> life_eff s t s'
| LE_cas_ok c g n r : th s t = R3 c g n -> cells s c = g -> cells s' = updN (cells s) c n ->
    g_life s' = set_opt (set_opt (g_life s) n (LPub c)) g (LRet t r) -> (forall b, g <> None -> cb (tl s t) = Some b -> r = blocal s b) ->
    nalloc s' = nalloc s -> fresh_of (th s' t) = None -> life_eff s t s'
| LE_cas_fail c g n : th s t = R3 c g n -> cells s' = cells s -> g_life s' = set_opt (g_life s) n LDropped ->
    nalloc s' = nalloc s -> fresh_of (th s' t) = None -> life_eff s t s'.

Ltac newpc := prj; rewrite ?upd_same; prj; sel; cbn [fresh_of flight flight_ep set_opt].

Lemma step_life cfg ns s t s' es : step cfg ns s (Step t) = Some (s', es) -> life_eff s t s'.
Proof.
  intros H. unfold_step H. cbv zeta in H. step_split H.
  all: bool_eqs.
  all: lazymatch goal with
       | E : th _ _ = R3 _ _ _ |- _ =>
         first [ eapply LE_cas_ok with (r := 0); [exact E | newpc; solve [auto | intros; congruence] ..] | eapply LE_cas_ok; [exact E | newpc; solve [auto | intros; congruence] ..] | eapply LE_cas_fail; [exact E | newpc; reflexivity ..] ]
       | E : th _ _ = _ |- _ =>
         first [ apply LE_same; newpc; rewrite ?E; first [reflexivity | lia]
               | apply LE_fresh; newpc; rewrite ?E; reflexivity ]
       end.
Qed.

(** the list [l] goes to the place [p] *)
Definition moved (w : N -> place) (l : list N) (p : place) : N -> place := fun n => if memN n l then p else w n.
Definition freed (k : N -> nat) (l : list N) : N -> nat := fun n => (k n + length (filter (N.eqb n) l))%nat.
(** no node becomes retired *)
Definition ret_mono (s s' : state) : Prop := forall x u r, g_life s' x = LRet u r -> g_life s x = LRet u r.

Lemma updN_ret f i v x u r : (forall u r, v <> LRet u r) -> updN f i v x = LRet u r -> f x = LRet u r.
Proof. intros Hv. destruct (updN_cases f i v x) as [[_ ->]|[_ ->]]; [intros X; destruct (Hv _ _ X)|auto]. Qed.

(** What a step of thread t does to the places of the retired nodes: the ghost [g_where] / [g_nfree], the orphan lists,
    the retire lists of t and the list t has adopted. *)
Inductive where_eff (s : state) (t : nat) (s' : state) : Prop :=
| WE_same (Ew : g_where s' = g_where s) (Ek : g_nfree s' = g_nfree s) (Eo : orph s' = orph s) (Er : rl (tl s' t) = rl (tl s t))
    (Ef : flight (th s' t) = flight (th s t)) (Fe : flight_ep (th s' t) = flight_ep (th s t) \/ flight (th s t) = []) (Rm : ret_mono s s')
| WE_exit (E : th s t = X3) (Ew : g_where s' = g_where s) (Ek : g_nfree s' = g_nfree s) (Eo : orph s' = orph s)
    (Er : rl (tl s' t) = (fun _ => [])) (Ef : flight (th s' t) = []) (Rm : ret_mono s s')
| WE_adopt a e (E : th s t = G4 a e) (Ew : g_where s' = moved (g_where s) (orph s ((e + 1) mod 3)) (PFlight t)) (Ek : g_nfree s' = g_nfree s)
    (Eo : orph s' = updN (orph s) ((e + 1) mod 3) []) (Er : rl (tl s' t) = rl (tl s t)) (Ef : flight (th s' t) = orph s ((e + 1) mod 3))
    (Fe : flight_ep (th s' t) = Some e) (Rm : ret_mono s s')
| WE_free a e (E : th s t = G5 a e (flight (th s t))) (Eg : gep s = e) (Eg' : gep s' = e + 1)
    (Ew : g_where s' = moved (g_where s) (flight (th s t)) PFreed) (Ek : g_nfree s' = freed (g_nfree s) (flight (th s t)))
    (Eo : orph s' = orph s) (Er : rl (tl s' t) = rl (tl s t)) (Ef : flight (th s' t) = []) (Rm : ret_mono s s')
| WE_reclaim a new old (E : th s t = U2 a new old)
    (Ew : g_where s' = moved (g_where s) (flat_map (rl (tl s t)) (uslots new old)) PFreed)
    (Ek : g_nfree s' = freed (g_nfree s) (flat_map (rl (tl s t)) (uslots new old)))
    (Eo : orph s' = orph s) (Er : rl (tl s' t) = (fun i => if memN i (uslots new old) then [] else rl (tl s t) i))
    (Ef : flight (th s' t) = []) (Rm : ret_mono s s')
| WE_putback a e h (E : th s t = G7 a e (flight (th s t)) h)
    (Ew : g_where s' = moved (g_where s) (flight (th s t)) (POrph ((e + 1) mod 3))) (Ek : g_nfree s' = g_nfree s)
    (Eo : orph s' = updN (orph s) ((e + 1) mod 3) (flight (th s t) ++ orph s ((e + 1) mod 3))) (Er : rl (tl s' t) = rl (tl s t))
    (Ef : flight (th s' t) = []) (Rm : ret_mono s s')
| WE_hand i (E : (exists k h, th s t = B2 k i h) \/ (exists h, th s t = X2 i h))
    (Ew : g_where s' = moved (g_where s) (rl (tl s t) i) (POrph i)) (Ek : g_nfree s' = g_nfree s)
    (Eo : orph s' = updN (orph s) i (rl (tl s t) i ++ orph s i)) (Er : rl (tl s' t) = updN (rl (tl s t)) i []) (Ef : flight (th s' t) = [])
    (Rm : ret_mono s s')
| WE_retire c old fn r (E : th s t = R3 c (Some old) fn) (Ec : cells s c = Some old)
    (Ew : g_where s' = updN (g_where s) old (PList t (lidx (tl s t)))) (Ek : g_nfree s' = g_nfree s) (Eo : orph s' = orph s)
    (Er : rl (tl s' t) = updN (rl (tl s t)) (lidx (tl s t)) (old :: rl (tl s t) (lidx (tl s t)))) (Ef : flight (th s' t) = [])
    (El : g_life s' old = LRet t r) (Hr : forall b, cb (tl s t) = Some b -> r = blocal s b)
    (Rm : forall x u r, x <> old -> g_life s' x = LRet u r -> g_life s x = LRet u r).

Ltac drop_upd Hx := prj_in Hx; repeat (apply updN_ret in Hx; [|intros; discriminate]); exact Hx.
Ltac no_ret := first [ reflexivity | assumption | left; reflexivity | right; reflexivity | let Hx := fresh in intros ? ? ? Hx; drop_upd Hx ].

Lemma step_where cfg ns s t s' es : step cfg ns s (Step t) = Some (s', es) -> where_eff s t s'.
Proof.
  intros H. unfold_step H. cbv zeta in H. step_split H.
  all: bool_eqs; unfold moved, freed, ret_mono.
  all: lazymatch goal with
       | E : th _ _ = X3 |- _ => apply WE_exit; [exact E | newpc; no_ret ..]
       | E : th _ _ = G4 _ _ |- _ => eapply WE_adopt; [exact E | newpc; no_ret ..]
       | E : th _ _ = G5 _ _ _ |- _ => first [ eapply WE_free; [rewrite E; reflexivity | newpc; rewrite ?E; no_ret ..] | apply WE_same; newpc; rewrite ?E; subst; no_ret ]
       | E : th _ _ = G7 _ _ _ _ |- _ => first [ eapply WE_putback; [rewrite E; reflexivity | newpc; rewrite ?E; no_ret ..] | apply WE_same; newpc; rewrite ?E; no_ret ]
       | E : th _ _ = U2 _ _ _ |- _ => eapply WE_reclaim; [exact E | newpc; no_ret ..]
       | E : th _ _ = B2 _ _ _ |- _ => first [ eapply WE_hand; [left; eauto | newpc; no_ret ..] | apply WE_same; newpc; rewrite ?E; no_ret ]
       | E : th _ _ = X2 _ _ |- _ => first [ eapply WE_hand; [right; eauto | newpc; no_ret ..] | apply WE_same; newpc; rewrite ?E; no_ret ]
       | E : th _ _ = R3 _ (Some _) _ |- _ =>
         first [ eapply WE_retire; [exact E | newpc; first [solve [auto] | apply updN_same | intros; congruence | let Hn := fresh in let Hx := fresh in intros ? ? ? Hn Hx; rewrite updN_other in Hx by exact Hn; drop_upd Hx] ..]
               | apply WE_same; newpc; rewrite ?E; no_ret ]
       | E : th _ _ = _ |- _ => apply WE_same; newpc; rewrite ?E; no_ret
       end.
Qed.

Lemma moved_eq w l p n x : moved w l p n = x <-> (In n l /\ p = x) \/ (~ In n l /\ w n = x).
Proof. unfold moved. destruct (memN n l) eqn:M; [apply memN_In in M|apply memN_false in M]; tauto. Qed.

Lemma set_opt_cases f o v n : (o = Some n /\ set_opt f o v n = v) \/ (o <> Some n /\ set_opt f o v n = f n).
Proof.
  destruct o as [m|]; cbn [set_opt]; [|right; split; [discriminate|reflexivity]].
  destruct (updN_cases f m v n) as [[-> ->]|[Hn ->]]; [left|right]; split; congruence.
Qed.

Lemma next_unborn s : N0 s -> g_life s (nalloc s) = LNone.
Proof.
  intros I. destruct (g_life s (nalloc s)) eqn:X; try reflexivity; exfalso;
  assert (nalloc s < nalloc s) by (apply (n_lt s I); rewrite X; discriminate); lia.
Qed.

(** the nodes a CAS of the client names: its new node is fresh, the expected one is published *)
Lemma cas_nodes s t c g n : N0 s -> th s t = R3 c g n ->
  (forall m, n = Some m -> g_life s m = LFresh t) /\ (forall m, cells s c = Some m -> g_life s m = LPub c).
Proof.
  intros I E. split; [intros m ->; apply (n_fresh1 s I t); rewrite E; reflexivity|apply (n_cell s I)].
Qed.

Lemma N0_life cfg ns s t s' es : N0 s -> step cfg ns s (Step t) = Some (s', es) ->
  (forall n, g_life s' n <> LNone -> n < nalloc s') /\
  (forall c n, cells s' c = Some n -> g_life s' n = LPub c) /\
  (forall u n, fresh_of (th s' u) = Some n <-> g_life s' n = LFresh u).
Proof.
  intros I H. pose proof (step_others _ _ _ _ _ _ H) as Fo.
  assert (Hfr : forall u n, fresh_of (th s u) = Some n <-> g_life s n = LFresh u) by (split; [apply (n_fresh1 s I)|apply (n_fresh2 s I)]).
  assert (Hoth : forall u, u <> t -> fresh_of (th s' u) = fresh_of (th s u)) by (intros u Hu; destruct (Fo u Hu) as [-> _]; reflexivity).
  pose proof (n_lt s I) as Ilt. pose proof (n_cell s I) as Icell. pose proof (next_unborn s I) as Hnx.
  destruct (step_life _ _ _ _ _ _ H) as [El Ec Ea Ef|El Ec Ea Ef Ef'|c g n r E Eg Ec El Hr Ea Ef'|c g n E Ec El Ea Ef'].
  - rewrite El, Ec. split; [intros n Hn; apply Ilt in Hn; lia|]. split; [exact Icell|].
    intros u n. rewrite <- Hfr. destruct (Nat.eq_dec u t) as [->|Hu]; [rewrite Ef|rewrite Hoth by exact Hu]; reflexivity.
  - rewrite El, Ec, Ea. split; [|split].
    + intros n. destruct (updN_cases (g_life s) (nalloc s) (LFresh t) n) as [[-> _]|[_ ->]]; [lia|intros Hn; apply Ilt in Hn; lia].
    + intros c n Hc. apply Icell in Hc. rewrite updN_other; [exact Hc|]. intros ->. congruence.
    + intros u n. destruct (Nat.eq_dec u t) as [->|Hu].
      * rewrite Ef'. destruct (updN_cases (g_life s) (nalloc s) (LFresh t) n) as [[-> ->]|[Hn ->]]; [tauto|].
        rewrite <- Hfr, Ef. split; [congruence|discriminate].
      * rewrite Hoth by exact Hu. destruct (updN_cases (g_life s) (nalloc s) (LFresh t) n) as [[-> ->]|[Hn ->]]; [|apply Hfr].
        rewrite Hfr, Hnx. split; [discriminate|congruence].
  - destruct (cas_nodes s t c g n I E) as [Hn Hg]. rewrite Eg in Hg.
    assert (Hl : forall x, (g = Some x /\ g_life s' x = LRet t r) \/ (g <> Some x /\ n = Some x /\ g_life s' x = LPub c) \/
                           (g <> Some x /\ n <> Some x /\ g_life s' x = g_life s x)).
    { intros x. rewrite El. destruct (set_opt_cases (set_opt (g_life s) n (LPub c)) g (LRet t r) x) as [[? ->]|[? ->]]; [auto|].
      destruct (set_opt_cases (g_life s) n (LPub c) x) as [[? ->]|[? ->]]; auto. }
    rewrite Ea. split; [|split].
    + intros x Hx. apply Ilt. destruct (Hl x) as [[X _]|[(_ & X & _)|(_ & _ & X)]]; [rewrite (Hg x X)|rewrite (Hn x X)|rewrite <- X; exact Hx]; discriminate.
    + intros c' x. rewrite Ec. destruct (updN_cases (cells s) c n c') as [[-> ->]|[Hc ->]]; intros Hx.
      * destruct (Hl x) as [[X _]|[(_ & _ & X)|(_ & X & _)]]; [|exact X|contradiction]. pose proof (Hn x Hx). pose proof (Hg x X). congruence.
      * pose proof (Icell c' x Hx) as Lx. destruct (Hl x) as [[X _]|[(_ & X & _)|(_ & _ & X)]]; [| |congruence].
        -- rewrite (Hg x X) in Lx. congruence.
        -- rewrite (Hn x X) in Lx. discriminate.
    + intros u x. destruct (Nat.eq_dec u t) as [->|Hu].
      * rewrite Ef'. split; [discriminate|]. intros Hx. exfalso.
        destruct (Hl x) as [[_ X]|[(_ & _ & X)|(_ & Hnx' & X)]]; [congruence|congruence|]. rewrite X in Hx. apply Hfr in Hx. rewrite E in Hx. cbn in Hx. destruct n; congruence.
      * rewrite Hoth by exact Hu. rewrite Hfr. destruct (Hl x) as [[X X']|[(_ & X & X')|(_ & _ & ->)]]; [| |reflexivity];
        rewrite X'; [rewrite (Hg x X)|rewrite (Hn x X)]; split; congruence.
  - destruct (cas_nodes s t c g n I E) as [Hn _].
    assert (Hl : forall x, (n = Some x /\ g_life s' x = LDropped) \/ (n <> Some x /\ g_life s' x = g_life s x)).
    { intros x. rewrite El. destruct (set_opt_cases (g_life s) n LDropped x) as [[? ->]|[? ->]]; auto. }
    rewrite Ea, Ec. split; [|split].
    + intros x Hx. apply Ilt. destruct (Hl x) as [[X _]|[_ X]]; [rewrite (Hn x X); discriminate|rewrite <- X; exact Hx].
    + intros c' x Hx. pose proof (Icell c' x Hx) as Lx. destruct (Hl x) as [[X _]|[_ ->]]; [|exact Lx]. rewrite (Hn x X) in Lx. discriminate.
    + intros u x. destruct (Nat.eq_dec u t) as [->|Hu].
      * rewrite Ef'. split; [discriminate|]. intros Hx. exfalso.
        destruct (Hl x) as [[_ X]|[Hnx' X]]; [congruence|]. rewrite X in Hx. apply Hfr in Hx. rewrite E in Hx. cbn in Hx. destruct n; congruence.
      * rewrite Hoth by exact Hu. rewrite Hfr. destruct (Hl x) as [[X ->]|[_ ->]]; [|reflexivity]. rewrite (Hn x X). split; congruence.
Qed.

Lemma ret_stable cfg ns s t s' es : N0 s -> step cfg ns s (Step t) = Some (s', es) ->
  forall x u r, g_life s x = LRet u r -> g_life s' x = LRet u r.
Proof.
  intros I H x u r Hx. pose proof (next_unborn s I) as Hnx.
  destruct (step_life _ _ _ _ _ _ H) as [El Ec Ea Ef|El Ec Ea Ef Ef'|c g n r' E Eg Ec El Hr Ea Ef'|c g n E Ec El Ea Ef']; rewrite El.
  - exact Hx.
  - rewrite updN_other; [exact Hx|]. intros ->. congruence.
  - destruct (cas_nodes s t c g n I E) as [Hn Hg]. rewrite Eg in Hg.
    destruct (set_opt_cases (set_opt (g_life s) n (LPub c)) g (LRet t r') x) as [[X _]|[_ ->]]; [rewrite (Hg x X) in Hx; discriminate|].
    destruct (set_opt_cases (g_life s) n (LPub c) x) as [[X _]|[_ ->]]; [rewrite (Hn x X) in Hx; discriminate|exact Hx].
  - destruct (cas_nodes s t c g n I E) as [Hn _].
    destruct (set_opt_cases (g_life s) n LDropped x) as [[X _]|[_ ->]]; [rewrite (Hn x X) in Hx; discriminate|exact Hx].
Qed.

Definition is_ret (l : life) : Prop := exists u r, l = LRet u r.
Lemma wh_ok_ret w l l' k : wh_ok w l k -> (is_ret l <-> is_ret l') -> wh_ok w l' k.
Proof.
  unfold is_ret. intros W [H1 H2]. destruct w; cbn in *; destruct W as [W1 W2]; (split; [|exact W2]); try (apply H1; exact W1).
  intros u r E. destruct H2 as (u' & r' & E'); [eauto|]. exact (W1 u' r' E').
Qed.
(** a retired node that is neither freed nor unplaced can go to any such place, and be freed once *)
Lemma wh_ok_move w l p : wh_ok w l O -> w <> PNone -> p <> PNone -> wh_ok p l (if match p with PFreed => true | _ => false end then 1 else 0)%nat.
Proof. intros W Hw Hp. destruct w, p; cbn in *; try congruence; destruct W as [W1 W2]; split; auto; try discriminate; try reflexivity. Qed.

Lemma wh_moved w l k l0 p x : wh_ok (w x) l (k x) -> (In x l0 -> w x <> PNone /\ w x <> PFreed) -> p <> PNone -> p <> PFreed ->
  wh_ok (moved w l0 p x) l (k x).
Proof.
  intros W Hl Hp Hp'. unfold moved. destruct (memN x l0) eqn:M; [|exact W]. apply memN_In, Hl in M. destruct M as [M1 M2].
  destruct (w x), p; cbn in *; try congruence; destruct W as [W1 W2]; split; auto.
Qed.
Lemma wh_freed w l k l0 x : wh_ok (w x) l (k x) -> (In x l0 -> w x <> PNone /\ w x <> PFreed) -> NoDup l0 ->
  wh_ok (moved w l0 PFreed x) l (freed k l0 x).
Proof.
  intros W Hl Hnd. unfold moved, freed. rewrite (count_nodup x l0 Hnd). destruct (memN x l0) eqn:M; [|rewrite Nat.add_0_r; exact W].
  apply memN_In, Hl in M. destruct M as [M1 M2]. destruct (w x); cbn in *; try congruence; destruct W as [W1 ->]; split; auto.
Qed.

(** a step that moves no node keeps them all in place *)
Lemma where_frame s s' : N0 s -> g_where s' = g_where s -> g_nfree s' = g_nfree s -> orph s' = orph s ->
  (forall u i, rl (tl s' u) i = rl (tl s u) i) -> (forall u, flight (th s' u) = flight (th s u)) ->
  (forall n, is_ret (g_life s n) <-> is_ret (g_life s' n)) ->
  (forall n, wh_ok (g_where s' n) (g_life s' n) (g_nfree s' n)) /\
  (forall u i n, In n (rl (tl s' u) i) <-> g_where s' n = PList u i) /\
  (forall i n, In n (orph s' i) <-> g_where s' n = POrph i) /\
  (forall u n, In n (flight (th s' u)) <-> g_where s' n = PFlight u) /\
  (forall u i, NoDup (rl (tl s' u) i)) /\ (forall i, NoDup (orph s' i)) /\ (forall u, NoDup (flight (th s' u))) /\
  (forall u i, 3 <= i -> rl (tl s' u) i = []).
Proof.
  intros I -> -> -> Erl Efl Hret.
  split; [intros n; apply (wh_ok_ret _ _ _ _ (n_where s I n)), Hret|].
  split; [intros u i; rewrite Erl; apply (n_list s I)|]. split; [exact (n_orph s I)|]. split; [intros u; rewrite Efl; apply (n_flight s I)|].
  split; [intros u i; rewrite Erl; apply (n_nd_list s I)|]. split; [exact (n_nd_orph s I)|].
  split; [intros u; rewrite Efl; apply (n_nd_flight s I)|intros u i; rewrite Erl; apply (n_rl3 s I)].
Qed.

Lemma N0_where cfg ns s t s' es : N0 s -> step cfg ns s (Step t) = Some (s', es) ->
  (forall n, wh_ok (g_where s' n) (g_life s' n) (g_nfree s' n)) /\
  (forall u i n, In n (rl (tl s' u) i) <-> g_where s' n = PList u i) /\
  (forall i n, In n (orph s' i) <-> g_where s' n = POrph i) /\
  (forall u n, In n (flight (th s' u)) <-> g_where s' n = PFlight u) /\
  (forall u i, NoDup (rl (tl s' u) i)) /\ (forall i, NoDup (orph s' i)) /\ (forall u, NoDup (flight (th s' u))) /\
  (forall u i, 3 <= i -> rl (tl s' u) i = []).
Proof.
  intros I H. pose proof (step_others _ _ _ _ _ _ H) as Fo.
  pose proof (ret_stable _ _ _ _ _ _ I H) as Rs.
  assert (Hrl : rl (tl s' t) = rl (tl s t) -> forall u, rl (tl s' u) = rl (tl s u)).
  { intros X u. destruct (Nat.eq_dec u t) as [->|Hu]; [exact X|]. destruct (Fo u Hu) as [_ ->]. reflexivity. }
  assert (Hfl : forall u, u <> t -> flight (th s' u) = flight (th s u)) by (intros u Hu; destruct (Fo u Hu) as [-> _]; reflexivity).
  assert (Hndf : flight (th s' t) = [] -> forall u, NoDup (flight (th s' u))).
  { intros X u. destruct (Nat.eq_dec u t) as [->|Hu]; [rewrite X; constructor|rewrite Hfl by exact Hu; apply (n_nd_flight s I)]. }
  assert (Hndl : rl (tl s' t) = rl (tl s t) -> (forall u i, NoDup (rl (tl s' u) i)) /\ (forall u i, 3 <= i -> rl (tl s' u) i = [])).
  { intros X. split; intros u i; rewrite (Hrl X); [apply (n_nd_list s I)|apply (n_rl3 s I)]. }
  assert (Hret : ret_mono s s' -> forall n, is_ret (g_life s n) <-> is_ret (g_life s' n)).
  { intros Rm n. split; intros (u & r & E); exists u, r; [apply Rs|apply Rm]; exact E. }
  pose proof (fun Rm n => wh_ok_ret _ _ _ _ (n_where s I n) (Hret Rm n)) as Iwh.
  destruct (step_where _ _ _ _ _ _ H).
  1: { apply (where_frame s); auto; [intros u i; rewrite Hrl; auto|intros u; destruct (Nat.eq_dec u t) as [->|Hu]; auto]. }
  1: { (* X3: the retire lists were handed over *)
    pose proof (n_xdone s I t) as Xd. rewrite E in Xd. cbn in Xd. apply (where_frame s); auto.
    - intros u i. destruct (Nat.eq_dec u t) as [->|Hu]; [rewrite Er, Xd; reflexivity|]. destruct (Fo u Hu) as [_ ->]. reflexivity.
    - intros u. destruct (Nat.eq_dec u t) as [->|Hu]; [rewrite Ef, E; reflexivity|auto]. }
  all: try specialize (Iwh Rm); pose proof (n_where s I) as Iwh0; destruct I as [_ Icell _ _ _ Ilist Iorph Ifl Indl Indo Indf Ilidx Irl3 _ _]; rewrite Ew, Ek, Eo;
       pose proof (Ifl t) as Iflt; pose proof (Ilist t) as Ilt.
  - (* G4: the orphans of slot (e+1) mod 3 are adopted *)
    set (j := (e + 1) mod 3) in *. specialize (Hrl Er). rewrite E in Iflt. cbn in Iflt.
    split; [|split; [|split; [|split; [|split; [|split; [|split]]]]]].
    + intros n. apply wh_moved; [apply Iwh| |discriminate|discriminate].
      intros X. apply Iorph in X. rewrite X. split; discriminate.
    + intros u i n. rewrite Hrl, moved_eq, Ilist, (Iorph j n). intuition congruence.
    + intros i n. rewrite moved_eq, (Iorph j n). destruct (updN_cases (orph s) j [] i) as [[-> ->]|[Hi ->]]; [|rewrite Iorph]; cbn [In]; intuition congruence.
    + intros u n. rewrite moved_eq, (Iorph j n). specialize (Iflt n). destruct (Nat.eq_dec u t) as [->|Hu]; [rewrite Ef, (Iorph j n)|rewrite Hfl, Ifl by exact Hu]; intuition congruence.
    + exact (proj1 (Hndl Er)).
    + intros i. destruct (updN_cases (orph s) j [] i) as [[-> ->]|[Hi ->]]; [constructor|apply Indo].
    + intros u. destruct (Nat.eq_dec u t) as [->|Hu]; [rewrite Ef; apply Indo|rewrite Hfl by exact Hu; apply Indf].
    + exact (proj2 (Hndl Er)).
  - (* G5: the epoch is advanced, the adopted nodes are freed *)
    specialize (Hrl Er). set (l := flight (th s t)) in *.
    split; [|split; [|split; [|split; [|split; [|split; [|split]]]]]].
    + intros n. apply wh_freed; [apply Iwh| |apply Indf]. intros X. apply Iflt in X. rewrite X. split; discriminate.
    + intros u i n. rewrite Hrl, moved_eq, Ilist, (Iflt n). intuition congruence.
    + intros i n. rewrite moved_eq, Iorph, (Iflt n). intuition congruence.
    + intros u n. rewrite moved_eq, (Iflt n). destruct (Nat.eq_dec u t) as [->|Hu]; [rewrite Ef|rewrite Hfl, Ifl by exact Hu]; cbn [In]; intuition congruence.
    + exact (proj1 (Hndl Er)).
    + exact Indo.
    + exact (Hndf Ef).
    + exact (proj2 (Hndl Er)).
  - (* U2: the retire lists of the epochs passed are reclaimed *)
    set (sl := uslots new old) in *. set (l := flat_map (rl (tl s t)) sl) in *.
    pose proof (flat_where s t (rl (tl s t)) sl Ilt) as Hl. fold l in Hl.
    assert (Erl : forall u i, rl (tl s' u) i = if Nat.eqb u t && memN i sl then [] else rl (tl s u) i).
    { intros u i. destruct (Nat.eqb_spec u t) as [->|Hu]; [rewrite Er; reflexivity|]. destruct (Fo u Hu) as [_ ->]. reflexivity. }
    split; [|split; [|split; [|split; [|split; [|split; [|split]]]]]].
    + intros n. apply wh_freed; [apply Iwh| |apply (flat_nodup s t _ _ Ilt (Indl t)), uslots_nodup].
      intros X. apply Hl in X. destruct X as (i & _ & ->). split; discriminate.
    + intros u i n. rewrite Erl, moved_eq, (Hl n). destruct (Nat.eqb_spec u t) as [->|Hu]; cbn [andb].
      * destruct (memN i sl) eqn:M; [apply memN_In in M|apply memN_false in M; rewrite Ilist]; cbn [In].
        -- split; [intros []|]. intros [[_ X]|[X Y]]; [discriminate|]. apply X. eauto.
        -- split; [intros X; right; split; [intros (i' & Hi' & Y); rewrite X in Y; injection Y as <-; contradiction|exact X]|intros [[_ X]|[_ X]]; [discriminate|exact X]].
      * rewrite Ilist. split; [intros X; right; split; [intros (i' & _ & Y); congruence|exact X]|intros [[_ X]|[_ X]]; [discriminate|exact X]].
    + intros i n. rewrite moved_eq, Iorph, (Hl n). split; [intros X; right; split; [intros (i' & _ & Y); congruence|exact X]|intros [[_ X]|[_ X]]; [discriminate|exact X]].
    + intros u n. rewrite moved_eq, (Hl n). rewrite E in Iflt. destruct (Nat.eq_dec u t) as [->|Hu]; [rewrite Ef|rewrite Hfl, Ifl by exact Hu].
      * cbn [In]. split; [intros []|]. intros [[_ X]|[_ X]]; [discriminate|apply (Iflt n), X].
      * split; [intros X; right; split; [intros (i' & _ & Y); congruence|exact X]|intros [[_ X]|[_ X]]; [discriminate|exact X]].
    + intros u i. rewrite Erl. destruct (Nat.eqb u t && memN i sl); [constructor|apply Indl].
    + exact Indo.
    + exact (Hndf Ef).
    + intros u i Hi. rewrite Erl. destruct (Nat.eqb u t && memN i sl); [reflexivity|apply Irl3, Hi].
  - (* G7: the adopted nodes are put back *)
    specialize (Hrl Er). set (l := flight (th s t)) in *. set (j := (e + 1) mod 3) in *.
    split; [|split; [|split; [|split; [|split; [|split; [|split]]]]]].
    + intros n. apply wh_moved; [apply Iwh| |discriminate|discriminate]. intros X. apply Iflt in X. rewrite X. split; discriminate.
    + intros u i n. rewrite Hrl, moved_eq, Ilist, (Iflt n). intuition congruence.
    + intros i n. rewrite moved_eq, (Iflt n). destruct (updN_cases (orph s) j (l ++ orph s j) i) as [[-> ->]|[Hi ->]];
        [rewrite in_app_iff, (Iflt n)|]; rewrite Iorph; intuition congruence.
    + intros u n. rewrite moved_eq, (Iflt n). destruct (Nat.eq_dec u t) as [->|Hu]; [rewrite Ef|rewrite Hfl, Ifl by exact Hu]; cbn [In]; intuition congruence.
    + exact (proj1 (Hndl Er)).
    + intros i. destruct (updN_cases (orph s) j (l ++ orph s j) i) as [[-> ->]|[Hi ->]]; [|apply Indo].
      apply NoDup_app_intro; [apply Indf|apply Indo|]. intros x X Y. apply Iflt in X. apply Iorph in Y. congruence.
    + exact (Hndf Ef).
    + exact (proj2 (Hndl Er)).
  - (* B2 / X2: retire list i is handed over to the orphans *)
    set (l := rl (tl s t) i) in *.
    assert (Hf0 : flight (th s t) = []) by (destruct E as [(k & h & ->)|(h & ->)]; reflexivity).
    assert (Erl : forall u i', rl (tl s' u) i' = if Nat.eqb u t && (i' =? i) then [] else rl (tl s u) i').
    { intros u i'. destruct (Nat.eqb_spec u t) as [->|Hu]; [rewrite Er; reflexivity|]. destruct (Fo u Hu) as [_ ->]. reflexivity. }
    pose proof (Ilt i) as Hl. fold l in Hl.
    split; [|split; [|split; [|split; [|split; [|split; [|split]]]]]].
    + intros n. apply wh_moved; [apply Iwh| |discriminate|discriminate]. intros X. apply Hl in X. rewrite X. split; discriminate.
    + intros u i' n. rewrite Erl, moved_eq, (Hl n). destruct (Nat.eqb_spec u t) as [->|Hu]; cbn [andb]; [destruct (N.eqb_spec i' i) as [->|Hi]|]; cbn [In]; rewrite ?Ilist; intuition congruence.
    + intros i' n. rewrite moved_eq, (Hl n). destruct (updN_cases (orph s) i (l ++ orph s i) i') as [[-> ->]|[Hi ->]];
        [rewrite in_app_iff, (Hl n)|]; rewrite Iorph; intuition congruence.
    + intros u n. rewrite moved_eq, (Hl n). rewrite Hf0 in Iflt. specialize (Iflt n). destruct (Nat.eq_dec u t) as [->|Hu]; [rewrite Ef|rewrite Hfl, Ifl by exact Hu]; cbn [In] in *; intuition congruence.
    + intros u i'. rewrite Erl. destruct (Nat.eqb u t && (i' =? i)); [constructor|apply Indl].
    + intros i'. destruct (updN_cases (orph s) i (l ++ orph s i) i') as [[-> ->]|[Hi ->]]; [|apply Indo].
      apply NoDup_app_intro; [apply Indl|apply Indo|]. intros x X Y. apply Hl in X. apply Iorph in Y. congruence.
    + exact (Hndf Ef).
    + intros u i' Hi. rewrite Erl. destruct (Nat.eqb u t && (i' =? i)); [reflexivity|apply Irl3, Hi].
  - (* R3: the unlinked node is retired into the list of the current epoch *)
    set (j := lidx (tl s t)) in *.
    assert (Hf0 : flight (th s t) = []) by (rewrite E; reflexivity).
    assert (Hj : j < 3) by apply Ilidx.
    assert (Erl : forall u i, rl (tl s' u) i = if Nat.eqb u t && (i =? j) then old :: rl (tl s t) j else rl (tl s u) i).
    { intros u i. destruct (Nat.eqb_spec u t) as [->|Hu]; [rewrite Er; unfold updN; destruct (i =? j); reflexivity|]. destruct (Fo u Hu) as [_ ->]. reflexivity. }
    destruct (wh_not_ret _ _ _ (Iwh0 old)) as [Wo Ko]; [rewrite (Icell c old Ec); intros; discriminate|].
    assert (Hw : forall n p, p <> PNone -> updN (g_where s) old (PList t j) n = p <-> (n = old /\ p = PList t j) \/ g_where s n = p).
    { intros n p Hp. destruct (updN_cases (g_where s) old (PList t j) n) as [[-> ->]|[Hn ->]]; [rewrite Wo|]; intuition congruence. }
    split; [|split; [|split; [|split; [|split; [|split; [|split]]]]]].
    + intros n. destruct (updN_cases (g_where s) old (PList t j) n) as [[-> ->]|[Hn ->]].
      * rewrite El, Ko. cbn. eauto.
      * apply (wh_ok_ret _ _ _ _ (Iwh0 n)). split; intros (u & r' & X); exists u, r'; [apply Rs, X|apply (Rm n u r' Hn X)].
    + intros u i n. rewrite Erl, Hw by discriminate. destruct (Nat.eqb_spec u t) as [->|Hu]; cbn [andb]; [destruct (N.eqb_spec i j) as [->|Hi]|]; cbn [In]; rewrite Ilist; intuition congruence.
    + intros i n. rewrite Hw by discriminate. rewrite Iorph. intuition congruence.
    + intros u n. rewrite Hw by discriminate. destruct (Nat.eq_dec u t) as [->|Hu]; [rewrite Ef; rewrite Hf0 in Iflt; specialize (Iflt n)|rewrite Hfl, Ifl by exact Hu]; cbn [In] in *; intuition congruence.
    + intros u i. rewrite Erl. destruct (Nat.eqb u t && (i =? j)); [|apply Indl]. constructor; [|apply Indl]. intros X. apply Ilt in X. congruence.
    + exact Indo.
    + exact (Hndf Ef).
    + intros u i Hi. rewrite Erl. destruct (Nat.eqb_spec u t) as [->|Hu]; cbn [andb]; [destruct (N.eqb_spec i j) as [->|Hij]; [lia|]|]; apply Irl3, Hi.
Qed.

Lemma xdone_xnext r r' i0 : (forall j, 3 <= j -> r j = []) -> (forall j, j < i0 -> r' j = []) -> (forall j, i0 <= j -> r' j = r j) ->
  xdone (xnext r i0) r'.
Proof.
  intros H3 Hlo Hhi. pose proof (xnext_spec r i0 H3) as X. destruct (xnext r i0); try contradiction; cbn [xdone].
  - destruct X as (_ & _ & X). intros j Hj. destruct (N.lt_ge_cases j i0); [apply Hlo; assumption|rewrite Hhi by assumption; apply X; assumption].
  - intros j. destruct (N.lt_ge_cases j i0); [apply Hlo; assumption|rewrite Hhi by assumption; apply X; assumption].
Qed.

(** the retire lists of the stepping thread: the slot index, the hand-over at thread exit, none without a control block *)
Lemma N0_local cfg ns s t s' es : tshape cfg ns (th s t) (tl s t) -> N0 s -> step cfg ns s (Step t) = Some (s', es) ->
  lidx (tl s' t) < 3 /\ xdone (th s' t) (rl (tl s' t)) /\
  ((in_cphase (th s' t) = true \/ cb (tl s' t) = None) -> forall i, rl (tl s' t) i = []).
Proof.
  intros T I H. pose proof (n_lidx s I t) as Il. pose proof (n_rl3 s I t) as I3. pose proof (n_xdone s I t) as Ix. pose proof (n_cempty s I t) as Ic.
  clear I. unfold_step H. cbv zeta in H. step_split H.
  all: bool_eqs; prj; rewrite ?upd_same; prj.
  all: try rewrite E in Ix; try rewrite E in Ic; try rewrite E in T; cbn [xdone in_cphase] in Ix, Ic.
  all: split; [first [exact Il | apply N.mod_lt; discriminate | idtac]|split].
  all: try solve [sel; exact Logic.I].
  all: try solve [intros [Hc|Hcb]; [sel; discriminate Hc | first [apply Ic; right; exact Hcb | exfalso; congruence | exfalso; apply (ts_need _ _ _ _ T); [reflexivity | exact Hcb]]]].
  all: try solve [intros _; apply Ic; first [left; reflexivity | right; assumption | right; reflexivity | right; apply (ts_init _ _ _ _ T); rewrite <- needs_init_eq; assumption]].
  all: try exact Ix.
  all: try solve [apply xdone_xnext; [exact I3 | intros j Hj; lia | reflexivity]].
  - apply xdone_xnext; [|intros j Hj; lia|reflexivity].
    intros j Hj. destruct (updN_cases (rl (tl s t)) i [] j) as [[_ ->]|[_ ->]]; [reflexivity|apply I3, Hj].
  - apply xdone_xnext; [exact I3| |intros j Hj; apply updN_other; lia].
    intros j Hj. destruct (updN_cases (rl (tl s t)) i [] j) as [[_ ->]|[Hne ->]]; [reflexivity|apply Ix; lia].
  - reflexivity.
  - reflexivity.
Qed.

Lemma N0_step cfg ns s t s' es : T0 cfg ns s -> N0 s -> step cfg ns s (Step t) = Some (s', es) -> N0 s'.
Proof.
  intros T I H. pose proof (step_others _ _ _ _ _ _ H) as Fo.
  destruct (N0_life _ _ _ _ _ _ I H) as (L1 & L2 & L3).
  destruct (N0_where _ _ _ _ _ _ I H) as (W1 & W2 & W3 & W4 & W5 & W6 & W7 & W8).
  destruct (N0_local _ _ _ _ _ _ (T t) I H) as (X1 & X2 & X3).
  constructor; try assumption; try (intros u n; apply L3).
  all: intros u; destruct (Nat.eq_dec u t) as [->|Hu]; [assumption|]; destruct (Fo u Hu) as [Eth Etl]; rewrite ?Eth, ?Etl; apply I.
Qed.

Lemma N0_start cfg ns s t o s' es : N0 s -> step cfg ns s (Start t o) = Some (s', es) -> N0 s'.
Proof.
  intros I H. unfold step in H. step_split H.
  all: bool_eqs; prj.
  all: destruct I as [Ilt Icell If1 If2 Iwh Ilist Iorph Ifl Indl Indo Indf Ilidx Irl3 Ixd Ice].
  all: match goal with E : th ?s ?t = _ |- _ =>
         pose proof (If1 t) as If1t; pose proof (If2 t) as If2t; pose proof (Ifl t) as Iflt; pose proof (Indf t) as Indft;
         pose proof (Ixd t) as Ixdt; pose proof (Ice t) as Icet; pose proof (Irl3 t) as Irl3t;
         rewrite E in If1t, If2t, Iflt, Indft, Ixdt, Icet; nfn_in If1t; nfn_in If2t; nfn_in Iflt; nfn_in Indft; nfn_in Ixdt; nfn_in Icet end.
  all: constructor; prj; intros.
  all: try solve [first [assumption | eauto 2]].
  all: split_upd_all; prj; prj_hyps; nfn.
  all: try solve [first [assumption | eauto 2 | constructor | discriminate | lia]].
  all: try solve [eauto 3].
  all: try solve [xn; nfn; nfn_in H; first [discriminate | constructor | assumption | eauto 3]].
  all: try solve [exfalso; apply If2t in H; discriminate H].
  all: try solve [destruct H as [H|H]; [xn; discriminate H | eauto 3]].
  - xn; nfn; exact (Iflt n0).
  - xn; nfn; constructor.
  - pose proof (xnext_spec (rl (tl s t)) 0 Irl3t) as X. destruct (xnext (rl (tl s t)) 0); try contradiction; nfn.
    + intros j Hj. apply X; [lia|exact Hj].
    + intros j. apply X. lia.
Qed.

Section ReachN.
Variables (cfg : config) (ns : nat) (nc : N).
Lemma N0_reach s : reachable cfg ns nc s -> N0 s.
Proof.
  apply (inv_rule_aux _ _ _ _ _ (fun s => T0 cfg ns s /\ O0 cfg s) N0).
  - intros s0 Hr. split; [apply (T0_reach cfg ns nc); exact Hr|apply (O0_reach cfg ns nc); exact Hr].
  - apply N0_init.
  - intros s0 a s1 es [J1 J2] _ I H. destruct a as [t o|t]; [eapply N0_start; eauto|eapply N0_step; eauto].
Qed.
End ReachN.
