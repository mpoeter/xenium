(** The epoch argument of the quiescent state based reclamation model (Model/QsbrDefs.v).
    global_epoch and local_epoch hold epochs modulo 3; [g_gepc] counts the advances of global_epoch, [g_lepc b] is the
    value of [g_gepc] when the owner of control block b last published its local epoch.
    [E0]  global_epoch = g_gepc mod 3;
    [P1]  for every thread that owns a control block and has published its epoch ([synced]: the CAS of
          ensure_has_control_block succeeded): local_epoch = g_lepc mod 3 and  g_lepc <= g_gepc <= g_lepc + 1
          - THE GLOBAL EPOCH IS AT MOST ONE AHEAD OF EVERY REGISTERED THREAD (inside a region or not) -, and the epoch
          it carries through quiescent_state / try_update_epoch / adopt_orphans is consistent with both ([epc]);
    [PB]  the scan invariant that makes [P1] inductive: while the global epoch still is the scanner's epoch, every
          control block the scanner has already passed belongs to no registered thread with an older epoch.
    All hold in every reachable state ([QI_reach] in Proof/QsbrGuards.v).  No axioms. *)
From Coq Require Import NArith ZArith List Bool Arith Lia PeanoNat.
From XV Require Import Conc.Lts Conc.Ev Model.QsbrDefs Proof.QsbrBase.
Import ListNotations.
Local Open Scope N_scope.

(** linear arithmetic with mod 3 *)
Ltac mlia := zify; Z.to_euclidean_division_equations; lia.

(** * Epochs *)
Definition synced (p : pc) : bool := match p with C7 _ | C8 _ _ | C9 _ _ => false | _ => true end.
Definition epc (p : pc) (L G : N) : Prop :=
  match p with
  | Q2 _ e => e = L mod 3 \/ (e = (L + 1) mod 3 /\ G = L + 1)
  | S1 _ e | S2 _ e _ _ | S3 _ e _ _ | G1 _ e | G2 _ e | G3 _ e => e = L mod 3
  | G4 _ e | G5 _ e => e = L mod 3 /\ G = L + 1
  | Q9 _ e => e = (L + 1) mod 3 /\ G = L + 1
  | _ => True
  end.
Definition scan_of (p : pc) : option (list N) :=
  match p with
  | S2 _ _ p0 rest | S3 _ _ p0 rest => Some (p0 :: rest)
  | G1 _ _ | G2 _ _ | G3 _ _ => Some []
  | _ => None
  end.
Definition c9_of (p : pc) : option N := match p with C9 _ e => Some e | _ => None end.

Definition E0 (s : state) : Prop := gep s = g_gepc s mod 3.
Definition P1 (s : state) (u : nat) : Prop :=
  forall b, cb (tl s u) = Some b ->
    (synced (th s u) = true ->
       g_lepc s b <= g_gepc s /\ g_gepc s <= g_lepc s b + 1 /\ blocal s b = g_lepc s b mod 3 /\ epc (th s u) (g_lepc s b) (g_gepc s)) /\
    (forall e, c9_of (th s u) = Some e -> blocal s b = e).
Definition PB (s : state) : Prop :=
  forall w bw u b rem, scan_of (th s w) = Some rem -> cb (tl s w) = Some bw -> g_gepc s = g_lepc s bw ->
    cb (tl s u) = Some b -> synced (th s u) = true -> ~ In b rem -> g_lepc s bw <= g_lepc s b.

Ltac efn := cbn [synced epc scan_of c9_of].
Ltac efn_in H := cbn [synced epc scan_of c9_of] in H.

Lemma step_gepc ns s t s' es : step ns s (Step t) = Some (s', es) ->
  (g_gepc s' = g_gepc s /\ gep s' = gep s) \/
  (exists k e, th s t = G3 k e /\ gep s = e /\ g_gepc s' = g_gepc s + 1 /\ gep s' = (e + 1) mod 3).
Proof.
  intros H. unfold_step H. cbv zeta in H. step_split H. all: bool_eqs; prj; try (left; split; reflexivity).
  right. eauto 8.
Qed.

Lemma start_same ns s t o s' es : step ns s (Start t o) = Some (s', es) ->
  th s t = Idle /\ s' = set_pc t (th s' t) s /\
  (th s' t = X0 \/ th s' t = X1 \/ th s' t = X4 \/ exists o, th s' t = Begin o).
Proof.
  intros H. unfold step, step_gen in H. step_split H. all: prj; rewrite ?upd_same.
  all: repeat split; try reflexivity; try assumption; eauto.
  all: destruct (xstart_cases (rl (tl s t))) as [Ex|Ex]; rewrite Ex; auto.
Qed.

Lemma E0_step ns s a s' es : E0 s -> step ns s a = Some (s', es) -> E0 s'.
Proof.
  unfold E0. intros I H. destruct a as [t o|t].
  - destruct (start_same _ _ _ _ _ _ H) as (_ & -> & _). prj. exact I.
  - destruct (step_gepc _ _ _ _ _ H) as [[-> ->]|(k & e & _ & He & -> & ->)]; [exact I|]. subst e. rewrite I. mlia.
Qed.

Ltac same_cb :=
  repeat match goal with
  | E : cb ?x = Some ?n, H : cb ?x = Some ?b |- _ =>
    lazymatch b with n => fail | _ => rewrite E in H; injection H as <- end
  | E : cb ?x = None, H : cb ?x = Some _ |- _ => rewrite E in H; discriminate H
  end.

Lemma scan_synced p rem : scan_of p = Some rem -> synced p = true.
Proof. destruct p; cbn; intros; try discriminate; reflexivity. Qed.
Lemma P1_other ns s t s' es u : T0 ns s -> O0 s -> E0 s -> (forall x, P1 s x) -> PB s -> step ns s (Step t) = Some (s', es) -> u <> t -> P1 s' u.
Proof.
  intros T O E I B H Hne b Hb. destruct (step_frame _ _ _ _ _ H) as (Fth & Fb & _).
  destruct (Fth u Hne) as [Eth Etl]. rewrite Eth, Etl in *.
  destruct (o_own s O u b Hb) as [Ho _].
  destruct (Fb b (owner_untouched _ _ _ _ O Ho Hne)) as (_ & El & Ec & _). rewrite El, Ec.
  destruct (I u b Hb) as (I1 & I2). split; [|exact I2].
  intros Hs. destruct (I1 Hs) as (A1 & A2 & A3 & A4).
  destruct (step_gepc _ _ _ _ _ H) as [[-> _]|(k & e & Hpc & He & -> & _)]; [auto|].
  (* t advances the global epoch: u was passed by its scan *)
  destruct (cb (tl s t)) as [bt|] eqn:Ebt.
  2:{ exfalso. apply (ts_need _ _ _ (T t)); [rewrite Hpc; reflexivity|exact Ebt]. }
  destruct (I t bt Ebt) as (J1 & _). rewrite Hpc in J1. destruct (J1 eq_refl) as (K1 & K2 & K3 & K4). efn_in K4.
  assert (Hg : g_gepc s = g_lepc s bt).
  { unfold E0 in E. mlia. }
  assert (Hle : g_lepc s bt <= g_lepc s b).
  { eapply (B t bt u b []); eauto. rewrite Hpc. reflexivity. }
  repeat split; try lia; try assumption.
  destruct (th s u); cbn in A4 |- *; try exact Logic.I; try assumption; try lia.
Qed.

Lemma P1_self ns s t s' es : O0 s -> E0 s -> tshape ns (th s t) (tl s t) -> P1 s t -> step ns s (Step t) = Some (s', es) -> P1 s' t.
Proof.
  intros O E0s T I H. unfold E0 in E0s. unfold_step H. cbv zeta in H. step_split H.
  all: bool_eqs; unfold P1; prj; rewrite ?upd_same; prj; prj_hyps; rewrite ?upd_same in *; prj_hyps.
  all: unfold P1 in I; try match goal with E : th _ _ = _ |- _ => try rewrite E in I; try rewrite E in T end.
  all: intros b0 Hb0; same_cb.
  all: try (match goal with E : cb (tl _ _) = Some ?n |- _ => pose proof (I n E) as (I1 & I2); efn_in I1; efn_in I2 end).
  all: try solve [xn; efn; split; intros; try discriminate; cleanup; inj_some; split_updN_all; repeat split; first [assumption | discriminate | lia | congruence | mlia | auto]].
  all: solve [exfalso; pose proof (ts_no _ _ _ T eq_refl); congruence].
Qed.

Lemma scan_has_cb ns p x rem : tshape ns p x -> scan_of p = Some rem -> cb x <> None.
Proof. intros T H. apply (ts_need _ _ _ T). destruct p; cbn in H; try discriminate; reflexivity. Qed.

Lemma PB_frame ns s t s' es w u : O0 s -> T0 ns s -> (forall x, P1 s x) -> PB s -> step ns s (Step t) = Some (s', es) ->
  w <> t -> u <> t ->
  forall bw b rem, scan_of (th s' w) = Some rem -> cb (tl s' w) = Some bw -> g_gepc s' = g_lepc s' bw ->
    cb (tl s' u) = Some b -> synced (th s' u) = true -> ~ In b rem -> g_lepc s' bw <= g_lepc s' b.
Proof.
  intros O T I B H Hw Hu bw b rem Hs Hbw Hg Hb Hsy Hn.
  destruct (step_frame _ _ _ _ _ H) as (Fth & Fb & _).
  destruct (Fth w Hw) as [Ew Etlw]. destruct (Fth u Hu) as [Eu Etl]. rewrite Ew in Hs. rewrite Eu in Hsy. rewrite Etl in Hb. rewrite Etlw in Hbw.
  destruct (o_own s O u b Hb) as [Ho _]. destruct (o_own s O w bw Hbw) as [How _].
  destruct (Fb b (owner_untouched _ _ _ _ O Ho Hu)) as (_ & _ & El & _). rewrite El.
  destruct (Fb bw (owner_untouched _ _ _ _ O How Hw)) as (_ & _ & Elw & _). rewrite Elw in *.
  destruct (step_gepc _ _ _ _ _ H) as [[Eg _]|(k & e & Hpc & _ & Eg & _)]; rewrite Eg in Hg.
  - eapply B; eauto.
  - exfalso. destruct (I w bw Hbw) as (I1 & _). destruct (I1 (scan_synced _ _ Hs)) as (A1 & _). lia.
Qed.

Lemma PB_w ns s t s' es : O0 s -> T0 ns s -> (forall x, P1 s x) -> PB s -> step ns s (Step t) = Some (s', es) ->
  forall bw u b rem, scan_of (th s' t) = Some rem -> cb (tl s' t) = Some bw -> g_gepc s' = g_lepc s' bw ->
    cb (tl s' u) = Some b -> synced (th s' u) = true -> ~ In b rem -> g_lepc s' bw <= g_lepc s' b.
Proof.
  intros O T I B H. pose proof (I t) as It. unfold P1 in It. unfold_step H. cbv zeta in H. step_split H.
  all: bool_eqs; prj; rewrite ?upd_same; prj; prj_hyps; rewrite ?upd_same in *; prj_hyps.
  all: intros bw u b0 rem0 Hs; efn_in Hs; try discriminate Hs.
  all: try solve [xn; efn_in Hs; discriminate Hs].
  all: intros Hbw Hg Hb Hsy Hn; inj_some.
  all: try subst rem0.
  all: pose proof (proj2 (o_own s O u b0 Hb)) as Hin.
  all: (destruct (Nat.eq_dec u t) as [->|Hut]; [rewrite ?upd_same in *; same_cb; apply N.le_refl | rewrite ?upd_other in * by assumption]).
  (* S1: every control block of a registered thread is in the list *)
  all: try solve [exfalso; match goal with X : blist _ = _ |- _ => rewrite X in Hin end; first [contradiction | destruct Hin]].
  (* same remaining list *)
  all: try solve [eapply (B t bw u b0 _); [rewrite E; reflexivity|exact Hbw|exact Hg|exact Hb|exact Hsy|exact Hn]].
  (* the block p is passed *)
  all: match goal with E : th _ _ = S2 _ _ ?p _ |- _ => destruct (N.eq_dec b0 p) as [->|Hbp] | E : th _ _ = S3 _ _ ?p _ |- _ => destruct (N.eq_dec b0 p) as [->|Hbp] end.
  all: try solve [eapply (B t bw u b0 _); [rewrite E; reflexivity|exact Hbw|exact Hg|exact Hb|exact Hsy|]; intros [X|X]; [congruence|first [contradiction|destruct X|apply Hn; exact X|apply Hn; right; exact X]]].
  (* S3: a block that is not active has no owner *)
  all: try solve [exfalso; destruct (o_own s O u _ Hb) as [Ho _]; destruct (o_rev s O _ _ Ho) as (_ & Hst & _); congruence].
  (* S2: the block's local epoch is not the old epoch *)
  all: destruct (It bw Hbw) as (J1 & _); destruct (J1 eq_refl) as (_ & _ & _ & J4); efn_in J4;
       destruct (I u _ Hb) as (K1 & _); destruct (K1 Hsy) as (K2 & K3 & K4 & _); mlia.
Qed.

Lemma PB_u ns s t s' es : O0 s -> T0 ns s -> (forall x, P1 s x) -> PB s -> step ns s (Step t) = Some (s', es) ->
  forall w bw b rem, w <> t -> scan_of (th s w) = Some rem -> cb (tl s w) = Some bw -> g_gepc s' = g_lepc s bw ->
    cb (tl s' t) = Some b -> synced (th s' t) = true -> ~ In b rem -> g_lepc s bw <= g_lepc s' b.
Proof.
  intros O T I B H w bw b0 rem0 Hw Hs Hbw.
  assert (Hle : g_lepc s bw <= g_gepc s).
  { destruct (I w bw Hbw) as (I1 & _). destruct (I1 (scan_synced _ _ Hs)) as (A1 & _). exact A1. }
  pose proof (B w bw t b0 rem0 Hs Hbw) as X. specialize (T t).
  unfold_step H. cbv zeta in H. step_split H.
  all: bool_eqs; prj; rewrite ?upd_same; prj; prj_hyps; rewrite ?upd_same in *; prj_hyps.
  all: try match goal with E : th _ _ = _ |- _ => try rewrite E in X; try rewrite E in T end.
  all: intros Hg Hb Hsy Hn; efn_in Hsy; efn_in X; same_cb.
  all: try discriminate Hsy.
  all: try solve [split_updN_all; first [discriminate | lia | eapply X; solve [eauto | congruence]]].
  all: try solve [xn; efn_in Hsy; first [discriminate | eapply X; solve [eauto | congruence]]].
Qed.

Definition EI (s : state) : Prop := E0 s /\ (forall x, P1 s x) /\ PB s.

Lemma start_pc_facts p : (p = X0 \/ p = X1 \/ p = X4 \/ exists o, p = Begin o) ->
  synced p = true /\ (forall L G, epc p L G) /\ scan_of p = None /\ c9_of p = None.
Proof. intros [->|[->|[->|[o ->]]]]; cbn; auto. Qed.

Section ReachE.
Variables (ns : nat) (nc : N).

Lemma EI_init : EI (init nc).
Proof.
  split; [reflexivity|]. split; [intros x b Hb; cbn in Hb; discriminate|intros w bw u b rem Hs; cbn in Hs; discriminate].
Qed.

Lemma EI_start s t o s' es : EI s -> step ns s (Start t o) = Some (s', es) -> EI s'.
Proof.
  intros (E & I & B) H. destruct (start_same _ _ _ _ _ _ H) as (Hidle & Es & Hp).
  destruct (start_pc_facts _ Hp) as (F1 & F2 & F3 & F4).
  rewrite Es. split; [exact E|]. split.
  - intros u b Hb. prj. prj_in Hb. destruct (I u b Hb) as (I1 & I2).
    destruct (Nat.eq_dec u t) as [->|Hne]; [rewrite upd_same|rewrite upd_other by exact Hne; auto].
    rewrite Hidle in I1, I2. split; [intros _; destruct (I1 eq_refl) as (A1 & A2 & A3 & _); auto|].
    intros e He. rewrite F4 in He. discriminate.
  - intros w bw u b rem Hs Hbw Hg Hb Hsy Hn. prj. prj_in Hs. prj_in Hbw. prj_in Hg. prj_in Hb. prj_in Hsy.
    assert (Hw : w <> t). { intros ->. rewrite upd_same in Hs. congruence. }
    rewrite upd_other in Hs by exact Hw.
    eapply (B w bw u b rem); eauto.
    destruct (Nat.eq_dec u t) as [->|Hne]; [rewrite Hidle; reflexivity|rewrite upd_other in Hsy by exact Hne; exact Hsy].
Qed.

Lemma EI_step s a s' es : T0 ns s -> O0 s -> EI s -> step ns s a = Some (s', es) -> EI s'.
Proof.
  intros T O (E & I & B) H. destruct a as [t o|t]; [eapply EI_start; [|exact H]; unfold EI; auto|].
  split; [eapply E0_step; eauto|]. split.
  - intros u. destruct (Nat.eq_dec u t) as [->|Hne]; [eapply P1_self; eauto|eapply P1_other; eauto].
  - intros w bw u b rem Hs Hbw Hg Hb Hsy Hn.
    destruct (Nat.eq_dec w t) as [->|Hw]; [eapply (PB_w _ _ _ _ _ O T I B H); eauto|].
    destruct (Nat.eq_dec u t) as [->|Hu].
    + destruct (step_frame _ _ _ _ _ H) as (Fth & Fb & _). destruct (Fth w Hw) as [Ew Etw]. rewrite Ew in Hs. rewrite Etw in Hbw.
      destruct (o_own s O w bw Hbw) as [How _].
      destruct (Fb bw (owner_untouched _ _ _ _ O How Hw)) as (_ & _ & Elw & _). rewrite Elw in *.
      eapply (PB_u _ _ _ _ _ O T I B H); eauto.
    + eapply (PB_frame _ _ _ _ _ w u O T I B H); eauto.
Qed.

End ReachE.
