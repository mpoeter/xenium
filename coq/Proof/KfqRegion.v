(** kirsch_kfifo_queue (C06, unbounded), invariant layer 3 (no value is stranded): a committed value that was
    not popped is stored in a linked segment that head_ has not left; segments that head_ has left are marked
    deleted; and the fact that makes this inductive -- while head_ still equals the word a pop has read, every
    value that appears in a slot the pop has already seen empty is an uncommitted insertion whose pusher has
    not yet passed the head_ check of committed() (it will either bump head_, which makes the pop's
    advance_head fail, or see the segment deleted and take the value back).  Sequentially consistent
    interleavings, as everywhere in the step models.  No axioms, no admits. *)
From Coq Require Import NArith List Bool Lia PeanoNat ZifyBool ZifyNat ZifyN.
From XV Require Import Base.Word Conc.Lts Conc.Ev Model.KfqDefs.
From XV Require Import Proof.KfqStep Proof.KfqWf Proof.KfqOwn.
Import ListNotations.
Local Open Scope N_scope.

(** the head_ word a pop works with while it scans / tries to remove the head segment *)
Definition shd (p : pc) : option iw :=
  match p with
  | D1f hd | DF hd _ _ | D2n hd | D3n hd | DE hd _ | H1 hd _ | H2 hd _ _ | H3 hd _ _ | H4 hd _ _ _ | H5 hd _ _ _
  | H6 hd _ | H7 hd _ => Some hd
  | _ => None
  end.
(** not at the second load of [deleted] in committed(), after which the pusher no longer looks at head_ *)
Definition notC7 (p : pc) : Prop := match p with C7 _ _ _ _ => False | _ => True end.

Set Default Proof Using "All".
Section L3.
  Variable k : N.
  Hypothesis Hk : 1 <= k.
  Notation step := (step k).
  Notation InvA := (InvA k).

  (** slots the pop has seen empty in this round *)
  Definition scanned (p : pc) (j : N) : Prop :=
    match p with
    | DF _ ri i => exists i', i' < i /\ j = fidx k ri i'
    | D2n _ | D3n _ | DE _ _ | H1 _ _ | H2 _ _ _ | H3 _ _ _ | H4 _ _ _ _ | H5 _ _ _ _ | H6 _ _ | H7 _ _ => j < k
    | _ => False
    end.

  (** whatever slot (x, j) holds is an uncommitted insertion whose pusher will still check head_ (or deleted) *)
  Definition pend_ok (st : state) (x j : N) : Prop :=
    forall b tg, slot st x j = (b, tg) -> b <> 0 ->
      ~ In b (g_in st) /\ forall u, cinfo (th st u) = Some (b, x, j, tg) -> notC7 (th st u).

  (** the segments head_ has left are marked deleted; a stored value sits in a linked segment not after tail_, and a
      committed one not before head_ *)
  Definition DR (st : state) : Prop :=
    (forall x, linked st x -> x < fst (head st) -> del st x = true) /\
    (forall x j b tg, slot st x j = (b, tg) -> b <> 0 ->
       linked st x /\ j < k /\ x <= fst (tail st) /\ (In b (g_in st) -> fst (head st) <= x)).

  (** [c_scan]: while head_ equals the word a pop holds, the slots the pop has seen empty are [pend_ok] *)
  Record InvC (st : state) : Prop := {
    c_dr : DR st;
    c_scan : forall t hd, shd (th st t) = Some hd -> hd = head st -> forall j, scanned (th st t) j -> pend_ok st (fst hd) j }.
  Definition c_del st (I : InvC st) := proj1 (c_dr st I).
  Definition c_reg st (I : InvC st) := proj2 (c_dr st I).

  Lemma fidx_onto ri j : j < k -> exists i, i < k /\ j = fidx k ri i.
  Proof.
    intros Hj. pose proof (N.mod_lt ri k ltac:(lia)). exists ((j + k - ri mod k) mod k). split; [apply N.mod_lt; lia|]. unfold fidx.
    rewrite N.add_mod_idemp_r, <- N.add_mod_idemp_l by lia. replace (ri mod k + (j + k - ri mod k)) with (j + 1 * k) by lia.
    rewrite N.mod_add by lia. symmetry. apply N.mod_small. exact Hj.
  Qed.

  Lemma pend_ok_empty st x j : fst (slot st x j) = 0 -> pend_ok st x j.
  Proof. intros H b tg E Hb. rewrite E in H. cbn in H. contradiction. Qed.

  (** steps that change only the program counter of t *)
  Lemma pend_ok_local s s' t p' x j :
    pend_ok s x j -> slot s' = slot s -> g_in s' = g_in s -> th s' = upd (th s) t p' ->
    (forall b tg, cinfo p' = Some (b, x, j, tg) -> cinfo (th s t) = Some (b, x, j, tg) /\ notC7 p') -> pend_ok s' x j.
  Proof.
    intros H E1 E2 Et Hp b tg Hs Hb. rewrite E1 in Hs. rewrite E2. destruct (H b tg Hs Hb) as [A B]. split; [exact A|].
    intros u. rewrite Et. unfold upd. destruct (Nat.eqb_spec u t) as [->|Hne]; [|apply B].
    intros Q. apply (Hp b tg Q).
  Qed.

  (** committed() answers true *)
  Lemma pend_ok_commit s t b x0 j0 tg x j :
    Inv2 s -> pend_ok s x j -> cinfo (th s t) = Some (b, x0, j0, tg) -> (notC7 (th s t) -> slot s x0 j0 <> (b, tg)) ->
    pend_ok (set_th (retok s b) t Idle) x j.
  Proof.
    intros Iv H Hc Hn b1 tg1 Hs Hb. sim. destruct (H b1 tg1 Hs Hb) as [A B]. split.
    - rewrite commit_in. intros [C| ->]; [contradiction|]. destruct (pending_at s t b x0 j0 tg Iv Hc A) as [Q U].
      destruct (U x j) as [-> ->]; [rewrite Hs; reflexivity|]. rewrite Q in Hs. inversion Hs; subst tg1. apply Hn; [apply B; exact Hc|exact Q].
    - intros u. unfold upd. destruct (Nat.eqb_spec u t) as [->|Hne]; [discriminate|apply B].
  Qed.

  (** the insertion CAS *)
  Lemma pend_ok_ins s t b x0 j0 otag p' x j :
    Inv2 s -> pend_ok s x j -> pblock (th s t) = Some b -> cinfo (th s t) = None ->
    cinfo p' = Some (b, x0, j0, otag) -> notC7 p' -> pend_ok (set_th (set_slot s x0 j0 (b, otag)) t p') x j.
  Proof.
    intros Iv H Hp Hc Hc' Hn7 b1 tg1 Hs Hb. sim.
    pose proof (i_th s Iv t) as Ht. unfold T2, T2' in Ht. rewrite Hc, Hp in Ht. destruct Ht as [Hnin Hnsl].
    destruct (setf2_cases (slot s) x0 j0 (b, otag) x j) as [(-> & -> & Q)|(Hne & Q)]; rewrite Q in Hs.
    - inversion Hs; subst b1 tg1. split; [exact Hnin|]. intros u. unfold upd.
      destruct (Nat.eqb_spec u t) as [->|Hu]; [intros _; exact Hn7|]. intros C. exfalso. apply Hu.
      apply (i_own_u s Iv u t b); [eapply cinfo_pblock; eauto|exact Hp].
    - destruct (H b1 tg1 Hs Hb) as [A B]. split; [exact A|]. intros u. unfold upd.
      destruct (Nat.eqb_spec u t) as [->|Hu]; [|apply B]. rewrite Hc'. intros C. inversion C; subst. destruct Hne; congruence.
  Qed.

  (** a slot is emptied (take-back by the pusher, take by a pop) *)
  Lemma pend_ok_clear s t x0 j0 p tg tg' l p' x j :
    Inv2 s -> pend_ok s x j -> slot s x0 j0 = (p, tg) -> p <> 0 -> (forall y, In y l -> In y (g_in s) \/ y = p) ->
    cinfo p' = None -> pend_ok (set_th (set_in (set_slot s x0 j0 (0, tg')) l) t p') x j.
  Proof.
    intros Iv H Hsl Hp Hl Hc' b1 tg1 Hs Hb. sim.
    destruct (setf2_cases (slot s) x0 j0 (0, tg') x j) as [(-> & -> & Q)|(Hne & Q)]; rewrite Q in Hs.
    - inversion Hs. congruence.
    - destruct (H b1 tg1 Hs Hb) as [A B]. split.
      + intros C. destruct (Hl _ C) as [C'| ->]; [contradiction|].
        destruct (i_uniq s Iv x j x0 j0) as [-> ->]; [rewrite Hs, Hsl; reflexivity|rewrite Hs; exact Hb|]. destruct Hne; congruence.
      + intros u. unfold upd. destruct (Nat.eqb_spec u t) as [->|Hu]; [rewrite Hc'; discriminate|apply B].
  Qed.

  (** a thread enters the second load of deleted (C7) only for a segment that is not the head segment *)
  Lemma lstep_notC7 s p p' b j tg : lstep k s p p' -> cinfo p' = Some (b, fst (head s), j, tg) -> notC7 p'.
  Proof.
    destruct 1; try exact (fun _ => Logic.I); try (destruct c; exact (fun _ => Logic.I)).
    intros Q. injection Q as _ Q _ _. contradiction.
  Qed.

  (** [pend_ok_local] for a step after which the thread has the pending insertion it had before, or none *)
  Ltac loc H E :=
    eapply (pend_ok_local _ _ _ _ _ _ H); sim; [reflexivity|reflexivity|reflexivity|];
    let b0 := fresh "b0" in let tg0 := fresh "tg0" in let Q := fresh "Q" in
    intros b0 tg0 Q; cbn [cinfo] in Q; rewrite ?cinfo_kpc in Q;
    first [discriminate Q | split; [rewrite E; exact Q|exact Logic.I]].

  (** as long as head_ keeps its value, [pend_ok] of a slot of the head segment is preserved by every step *)
  Lemma pend_ok_step s a s' es j :
    InvA s -> Inv2 s -> step s a = Some (s', es) -> head s' = head s ->
    pend_ok s (fst (head s)) j -> pend_ok s' (fst (head s)) j.
  Proof.
    intros IA Iv Hst Hh H. destruct (step_inv k Hk s a s' es Hst) as (sh & p' & res & -> & [Hs|(Hl & -> & _)] & _).
    2:{ destruct (lstep_own k Hk _ _ _ Hl) as [Ec _]. eapply (pend_ok_local _ _ _ _ _ _ H); sim; try reflexivity.
        intros b tg Q. split; [rewrite <- Ec; exact Q|eapply lstep_notC7; eauto]. }
    set (t := actor a) in *. pose proof (a_th k s IA t) as Hme. remember (th s t) as p eqn:E. symmetry in E.
    destruct Hs; cbn [TA] in Hme; try (loc H E).
    - (* P3 *) apply (pend_ok_ins s t b (fst tl) j0 (otag + 1) _ _ _ Iv H); first [rewrite E; reflexivity|reflexivity|exact Logic.I].
    - (* C1 *) apply (pend_ok_commit s t b (fst tl) j0 tg _ _ Iv H); [rewrite E; reflexivity|intros _; assumption].
    - (* C5 changes head_ *) exfalso. subst hc. sim. apply (f_equal snd) in Hh. cbn in Hh. lia.
    - (* C7 *) apply (pend_ok_commit s t b (fst tl) j0 tg _ _ Iv H); rewrite E; [reflexivity|intros []].
    - (* C9 *) refine (pend_ok_clear s t (fst tl) j0 b tg (tg + 1) (g_in s) (P1 b) _ _ Iv H H0 _ (fun y Hy => or_introl Hy) eq_refl).
      apply (own_nz s t b Iv). rewrite E. reflexivity.
    - (* C9 fails *) apply (pend_ok_commit s t b (fst tl) j0 tg _ _ Iv H); [rewrite E; reflexivity|intros _; assumption].
    - (* D4 *) refine (pend_ok_clear s t (fst hd) j0 p tg (tg + 1) _ Idle _ _ Iv H H0 _ (fun y Hy => proj1 (commit_in p _ y) Hy) eq_refl). apply Hme.
  Qed.

  Lemma shd_hle st p hd : TA k st p -> shd p = Some hd -> hle st hd.
  Proof.
    destruct p; cbn [shd TA]; unfold TH; intros H Q; inversion Q; subst; tauto.
  Qed.

  (** the pop holding the head_ word [fst hj] has seen slot [snd hj] empty *)
  Definition seen (p : pc) (hj : iw * N) : Prop := shd p = Some (fst hj) /\ scanned p (snd hj).

  (** what a step of a thread adds to the slots it has seen empty *)
  Lemma scan_lstep s p p' hj : lstep k s p p' -> seen p' hj -> seen p hj \/ fst (slot s (fst (fst hj)) (snd hj)) = 0.
  Proof.
    destruct hj as [hd j]. unfold seen. cbn [fst snd].
    intros H. destruct H; cbn [shd scanned]; try (intros [Q _]; discriminate Q); try (destruct c; intros [Q _]; discriminate Q);
      intros [Q Hj]; injection Q as <-; try contradiction; try (left; split; [reflexivity|exact Hj]).
    - (* the scan goes on *) destruct Hj as (i' & Hi & ->). destruct (N.eq_dec i' i) as [->|Hne]; [right; assumption|left].
      split; [reflexivity|]. exists i'. split; [lia|reflexivity].
    - (* the scan ends: it has seen every slot *) destruct (fidx_onto ri j Hj) as (i' & Hi' & ->).
      destruct (N.eq_dec i' i) as [->|Hne]; [right; assumption|left].
      split; [reflexivity|]. exists i'. split; [lia|reflexivity].
  Qed.
  Lemma scan_sstep s p sh p' res hj : sstep k s p sh p' res -> seen p' hj -> seen p hj.
  Proof.
    unfold seen. destruct 1; cbn [shd scanned]; try (intros [Q _]; discriminate Q); try (destruct c; intros [Q _]; discriminate Q); auto.
    intros [_ (i' & Hi & _)]. lia.
  Qed.

  Lemma scan_inv_step s a s' es : InvA s -> Inv2 s -> InvC s -> step s a = Some (s', es) ->
    forall t hd, shd (th s' t) = Some hd -> hd = head s' -> forall j, scanned (th s' t) j -> pend_ok s' (fst hd) j.
  Proof.
    intros IA Iv IC Hst t hd Hs Hh j Hj.
    destruct (step_view k Hk seen _ scan_lstep scan_sstep s a s' es t (hd, j) Hst (conj Hs Hj)) as [[Hs0 Hj0]|[-> He]];
      [cbn [fst snd] in Hs0, Hj0|apply pend_ok_empty; exact He].
    pose proof (shd_hle s _ hd (a_th k s IA t) Hs0) as Hle.
    destruct (step_head k Hk s a s' es IA Hst) as [Heq|Hlt].
    - subst hd. rewrite Heq. apply (pend_ok_step s a s' es j IA Iv Hst Heq). rewrite Heq in Hs0.
      apply (c_scan s IC t (head s) Hs0 eq_refl j Hj0).
    - exfalso. eapply hle_hlt_ne; eauto.
  Qed.

  (** tail_, the chain, the deleted flags grow; head_, the slots, the committed values do not change *)
  Lemma DR_weak s s' : DR s -> head s' = head s -> slot s' = slot s -> g_in s' = g_in s ->
    (forall x, linked s x -> linked s' x) -> (forall x, linked s' x -> x < fst (head s) -> linked s x) ->
    fst (tail s) <= fst (tail s') -> (forall x, del s x = true -> del s' x = true) -> DR s'.
  Proof.
    intros [D R] E1 E2 E3 L1 L2 Ht Hd. split.
    - rewrite E1. intros x Hx Hlt. apply Hd. apply D; [apply L2; assumption|exact Hlt].
    - rewrite E1, E2, E3. intros x j b tg Hs Hb. destruct (R x j b tg Hs Hb) as (A & B & C & F).
      split; [apply L1; exact A|]. split; [exact B|]. split; [lia|exact F].
  Qed.

  (** committed() answers true for b (after the CAS on head_ that changes only its tag, if any) *)
  Lemma DR_commit s t b x0 j0 tg0 h : DR s -> Inv2 s -> cinfo (th s t) = Some (b, x0, j0, tg0) -> fst h = fst (head s) ->
    (slot s x0 j0 = (b, tg0) -> fst (head s) <= x0) -> DR (retok (set_head s h) b).
  Proof.
    intros [D R] Iv Hc E Hb. split; unfold linked; sim; rewrite E; [exact D|].
    intros x j b0 tg Hs Hb0. destruct (R x j b0 tg Hs Hb0) as (A & B & C & F).
    split; [exact A|]. split; [exact B|]. split; [exact C|]. rewrite commit_in. intros [G| ->]; [apply F; exact G|].
    destruct (in_dec N.eq_dec b (g_in s)) as [G|G]; [apply F; exact G|]. destruct (pending_at s t b x0 j0 tg0 Iv Hc G) as [Q U].
    destruct (U x j) as [-> _]; [rewrite Hs; reflexivity|]. exact (Hb Q).
  Qed.

  (** a slot is emptied; its value may become committed *)
  Lemma DR_clear s x0 j0 p tg tg' l : DR s -> Inv2 s -> slot s x0 j0 = (p, tg) -> p <> 0 ->
    (forall y, In y l -> In y (g_in s) \/ y = p) -> DR (set_in (set_slot s x0 j0 (0, tg')) l).
  Proof.
    intros [D R] Iv Hsl Hp E6. split; unfold linked; sim; [exact D|]. intros x j b0 tg0 Hs Hb0.
    destruct (setf2_cases (slot s) x0 j0 (0, tg') x j) as [(-> & -> & Q)|(Hne & Q)]; rewrite Q in Hs; [inversion Hs; congruence|].
    destruct (R x j b0 tg0 Hs Hb0) as (A & B & C & F).
    split; [exact A|]. split; [exact B|]. split; [exact C|]. intros G. destruct (E6 _ G) as [G'| ->]; [apply F; exact G'|].
    exfalso. destruct (i_uniq s Iv x j x0 j0) as [-> ->]; [rewrite Hs, Hsl; reflexivity|rewrite Hs; exact Hp|]. destruct Hne; congruence.
  Qed.

  (** the insertion CAS *)
  Lemma DR_ins s x0 j0 b tg' : DR s -> linked s x0 -> j0 < k -> x0 <= fst (tail s) -> ~ In b (g_in s) ->
    DR (set_slot s x0 j0 (b, tg')).
  Proof.
    intros [D R] L Hj Hx Hb. split; unfold linked; sim; [exact D|]. intros x j b0 tg0 Hs Hb0.
    destruct (setf2_cases (slot s) x0 j0 (b, tg') x j) as [(-> & -> & Q)|(Hne & Q)]; rewrite Q in Hs; [|apply (R x j b0 tg0 Hs Hb0)].
    inversion Hs; subst. split; [exact L|]. split; [exact Hj|]. split; [exact Hx|]. intros G. contradiction.
  Qed.

  Lemma DR_step s a s' es : InvA s -> Inv2 s -> InvC s -> step s a = Some (s', es) -> DR s'.
  Proof.
    intros IA Iv IC Hst. pose proof (c_dr s IC) as HD.
    destruct (step_inv k Hk s a s' es Hst) as (sh & p' & res & -> & [Hs|(_ & -> & _)] & _); [|apply (DR_weak s _ HD); sim; auto; lia].
    set (t := actor a) in *. pose proof (a_th k s IA t) as Hme. remember (th s t) as p eqn:E. symmetry in E.
    destruct Hs; cbn [TA] in Hme; try (apply (DR_weak s _ HD); sim; auto; lia).
    - (* P3 *) destruct Hme as ((L & T) & Hj). pose proof (i_th s Iv t) as Hown. rewrite E in Hown.
      exact (DR_ins s (fst tl) j b (otag + 1) HD L Hj (tle_le k Hk s tl T) (proj1 Hown)).
    - (* C1 *) refine (DR_commit s t b (fst tl) j tg (head s) HD Iv _ eq_refl _); [rewrite E; reflexivity|contradiction].
    - (* C5: the slot is in the head segment *) subst hc. refine (DR_commit s t b (fst tl) j tg _ HD Iv _ eq_refl _); [rewrite E; reflexivity|].
      destruct Hme as (_ & _ & _ & W). lia.
    - (* C7: the segment is not deleted, so head_ has not left it *)
      refine (DR_commit s t b (fst tl) j tg (head s) HD Iv _ eq_refl _); [rewrite E; reflexivity|intros _].
      destruct (N.lt_ge_cases (fst tl) (fst (head s))) as [W|W]; [|exact W].
      destruct Hme as ((L & _) & _). pose proof (c_del s IC (fst tl) L W). congruence.
    - (* C9 *) refine (DR_clear s (fst tl) j b tg (tg + 1) (g_in s) HD Iv H _ (fun y Hy => or_introl Hy)).
      apply (own_nz s t b Iv). rewrite E. reflexivity.
    - (* C9 fails *) refine (DR_commit s t b (fst tl) j tg (head s) HD Iv _ eq_refl _); [rewrite E; reflexivity|contradiction].
    - (* A3 *) subst tl. destruct Hme as (A & B & -> & D). destruct (tail_succ k Hk s IA D). apply (DR_weak s _ HD); sim; auto; lia.
    - (* A4: the new segment is behind tail_ *) destruct Hme as ((Lx & Tl) & B & -> & D & F).
      pose proof (null_last k Hk s _ IA Lx H) as Hx. pose proof (a_max k s IA _ (a_head k s IA)) as Hhl.
      apply (DR_weak s _ HD); sim; auto; try lia; unfold linked; sim.
      + intros x Hx0. apply in_app_iff. left. exact Hx0.
      + intros x Hx0 Hlt. apply in_app_iff in Hx0. destruct Hx0 as [Hx0|[<-|[]]]; [exact Hx0|lia].
    - (* A5 *) subst tl. destruct Hme as (A & B & C & D). assert (Q : fst (nxt s (fst (tail s))) <> 0) by (rewrite C; exact D).
      destruct (tail_succ k Hk s IA Q) as [W _]. rewrite C in W. apply (DR_weak s _ HD); sim; auto; lia.
    - (* D4 *) refine (DR_clear s (fst hd) j p tg (tg + 1) _ HD Iv H _ (fun y Hy => proj1 (commit_in p _ y) Hy)). apply Hme.
    - (* H6 *) apply (DR_weak s _ HD); sim; auto; try lia.
      intros x Hx. unfold setf. destruct (x =? fst hd); auto.
    - (* H7: the pop has seen every slot of the segment empty, and what has appeared since is not committed *)
      subst hd. destruct Hme as ((A & B & C & D & D') & F). destruct (head_succ k Hk s IA C) as (n & Q & Ln & Hlt & Hmin).
      rewrite Q in D. subst hn. destruct HD as [HD1 HD2]. split; sim; unfold linked; sim.
      + intros x Hx Hxn. destruct (N.eq_dec x (fst (head s))) as [->|Hne]; [exact F|]. apply HD1; [exact Hx|].
        destruct (N.lt_ge_cases (fst (head s)) x) as [W|W]; [specialize (Hmin x Hx W)|]; lia.
      + intros x j b tg Hs Hb. destruct (HD2 x j b tg Hs Hb) as (A1 & A2 & A3 & A4).
        split; [exact A1|]. split; [exact A2|]. split; [exact A3|]. intros G. specialize (A4 G).
        destruct (N.eq_dec x (fst (head s))) as [->|Hne]; [|apply Hmin; [exact A1|lia]].
        exfalso. assert (Hsc : pend_ok s (fst (head s)) j).
        { apply (c_scan s IC t (head s)); [rewrite E; reflexivity|reflexivity|rewrite E; exact A2]. }
        destruct (Hsc b tg Hs Hb) as [Hn _]. contradiction.
  Qed.

  Lemma InvC_init : InvC init.
  Proof.
    constructor; [split|]; cbn [init head tail slot g_in th del].
    - intros x [<-|[]]. cbn. lia.
    - intros x j b tg H. inversion H. congruence.
    - intros t hd H. discriminate.
  Qed.

  Lemma InvC_step s a s' es : InvA s -> Inv2 s -> InvC s -> step s a = Some (s', es) -> InvC s'.
  Proof.
    intros IA Iv IC Hst. constructor; [exact (DR_step s a s' es IA Iv IC Hst)|exact (scan_inv_step s a s' es IA Iv IC Hst)].
  Qed.

  Theorem InvC_reach st : reach init step st -> InvC st.
  Proof.
    apply (inv_rule_aux _ _ _ init step (fun s => InvA s /\ Inv2 s) InvC).
    - intros s Hr. split; [apply InvA_reach|apply (Inv2_reach k Hk)]; assumption.
    - exact InvC_init.
    - intros s a s' es [J1 J2] _ IC Hst. eapply InvC_step; eauto.
  Qed.
End L3.
