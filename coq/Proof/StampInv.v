(** xenium::reclamation::stamp_it (Model/StampDefs.v): the theorems behind C01 / C02 / C17 as far as they are proved.

    The proofs are layered (each layer holds for every reachable state: any number of threads, any client program over
    the operations of the model, any schedule, any number of cells and guard slots):
      Proof/StampBase.v    frame of a step, thread-local shape ([tshape]: region counter = number of non-empty guards +
                           region_guard), exclusive ownership of thread control blocks ([O0])
      Proof/StampNodes.v   where a retired node is ([N0]): exactly one place (local list / global list of chunks / in the
                           hands of a thread / freed), no duplicates, freed at most once, its stamp field
      Proof/StampStamps.v  stamps, flags and marks by the program point of the owner of a block ([S0]); the tail stamp
                           never decreases
      Proof/StampOrder.v   version tags of head->prev, blocks are linked in strictly increasing stamp order ([Q0])
      Proof/StampGuards.v  guards ([G0]) relative to the lower-bound property of the tail stamp ([Tinv])
      Proof/StampFlush.v   (not used below) retire lists are sorted by stamp ([F0]); what the start of
                           process_global_nodes reclaims ([pg_frees])
    This file states the results.  NOT proved: [Tinv] itself (the tail stamp is a lower bound of the stamps of the threads
    inside a critical region) - it needs the full correctness argument of remove / update_tail_stamp with helping;
    C01 is therefore stated for the runs that keep [Tinv] ([stamp_safe_partial]); [Tinv] and the list invariants of
    the thread order queue were checked on the extracted model (ocaml/stamp_explore.ml): 1.4e8 steps of random programs
    and schedules with 2-5 threads, and all schedules of small programs (2 threads, one operation each: complete, 3.6e6 and
    6.0e6 states; 2 threads x 2 operations and 3 threads x enter/leave: the first 1.2e8 / 2.0e8 states) - no violation.
    No axioms. *)
From Coq Require Import NArith List Bool Arith Lia PeanoNat Setoid.
From XV Require Import Conc.Lts Conc.Ev Model.StampDefs Proof.StampBase Proof.StampNodes Proof.StampStamps Proof.StampOrder Proof.StampGuards.
Import ListNotations.
Local Open Scope N_scope.

Section Theorems.
Variables (ns : nat) (nc : N).
Notation reachable := (reach (init nc) (step ns)).

(** * C01 (partial) *)

(** [stamp_safe_partial]: along every run all of whose states satisfy [Tinv] (the stamp of tail is at most the stamp of
    every control block inside a critical region), a node held by a persistent guard_ptr of the client is not reclaimed
    (its deleter has not run, it was not dropped) and no dereference ever hit a destroyed node. *)
Theorem stamp_safe_partial st : reach_in ns nc Tinv st ->
  (forall u i n, gs (tl st u) i = Some n -> dead st n = false /\ g_nfree st n = O) /\ g_uaf st = false.
Proof. apply guards_safe. Qed.

(** ... hence for all runs, should [Tinv] hold in every reachable state *)
Theorem stamp_safe_if_tail_bound : (forall x, reachable x -> Tinv x) -> forall st, reachable st ->
  (forall u i n, gs (tl st u) i = Some n -> dead st n = false /\ g_nfree st n = O) /\ g_uaf st = false.
Proof. intros HT st Hr. apply stamp_safe_partial. apply reach_reach_in; assumption. Qed.

(** the argument behind it: the thread of a guard is inside its critical region, a retired node carries the value of
    head->stamp at the time of its retirement, which is above the stamp of every thread that was then in a region *)
Theorem stamp_guard_region st : reachable st -> forall u i n, gs (tl st u) i = Some n ->
  exists b, cb (tl st u) = Some b /\ g_reg st b = true /\ marked (qprev st (TB b)) = false.
Proof.
  intros Hr u i n Hg. pose proof (S0_reach ns nc st Hr) as S.
  destruct (guard_in_region ns st u i n (T0_reach ns nc st Hr) S Hg) as (b & Hcb & Hreg).
  exists b. split; [exact Hcb|]. split; [exact Hreg|].
  destruct (s_own st S u b Hcb) as (_ & F2 & F3). apply F2. rewrite Hreg in F3.
  unfold inregx. destruct (th st u); try (symmetry; exact F3). reflexivity.
Qed.

(** the stamp field of a retired node holds the stamp it was retired with (head->stamp read at RT1); nothing writes it later *)
Theorem stamp_retire_stamp st : reachable st -> forall n u r, g_life st n = LRet u r ->
  nstamp st n = r.
Proof. intros Hr n u r H. eapply (n_stamp st (N0_reach ns nc st Hr)); eauto. Qed.

(** * the thread order queue: what is proved *)

(** the stamp of a control block and the mark of its prev pointer, by the program point of its owner: inside the critical
    region ([g_reg]: from the compare-and-swap that links the block behind head to the one that marks its prev pointer) the
    prev pointer is unmarked and the stamp has no flag once push has cleared PendingPush; head->stamp is a multiple of 4
    above every stamp handed out *)
Theorem stamp_queue_owner st : reachable st ->
  (qstamp st THead mod 4 = 0 /\ 4 <= qstamp st THead) /\
  (forall b, cst (qstamp st (TB b)) + 4 <= qstamp st THead) /\
  (forall u b, cb (tl st u) = Some b ->
     sform (th st u) (tl st u) (qstamp st (TB b)) /\
     (inregx (th st u) (tl st u) = true -> marked (qprev st (TB b)) = false) /\
     g_reg st b = inreg (th st u) (tl st u)) /\
  (forall b, g_reg st b = true -> exists u, cb (tl st u) = Some b).
Proof.
  intros Hr. pose proof (S0_reach ns nc st Hr) as S. split; [apply S|]. split; [apply S|]. split; [apply S|apply S].
Qed.

(** stamps strictly increase in the order in which blocks are linked behind head (the queue order); linked blocks have
    different stamps; head->prev is never marked *)
Theorem stamp_queue_order st : reachable st ->
  marked (qprev st THead) = false /\
  (g_max st mod 4 = 0 /\ g_max st + 4 <= qstamp st THead) /\
  (forall b, g_lk st b = true -> cst (qstamp st (TB b)) <= g_max st) /\
  (forall b b', b <> b' -> g_lk st b = true -> g_lk st b' = true -> cst (qstamp st (TB b)) <> cst (qstamp st (TB b'))) /\
  (forall u hp v, pend_of (th st u) = Some (hp, v) -> hp = qprev st THead -> g_max st < v).
Proof.
  intros Hr. pose proof (Q0_reach ns nc st Hr) as Q.
  split; [apply Q|]. split; [apply Q|]. split; [intros b Hb; apply (q_lk st Q b Hb)|]. split; [apply Q|apply Q].
Qed.

(** the stamp of tail never decreases *)
Theorem stamp_tail_monotone st a st' es : reachable st -> step ns st a = Some (st', es) -> qstamp st TTail <= qstamp st' TTail.
Proof.
  intros Hr H. destruct a as [t o|t].
  - destruct (start_effect _ _ _ _ _ _ H) as (_ & -> & _). lia.
  - exact (tail_stamp_mono _ _ _ _ _ (T0_reach ns nc st Hr t) (S0_reach ns nc st Hr) H).
Qed.

(** * C02, safety half *)

(** [stamp_exactly_once]: a node is freed at most once and only after it was retired; a retired node is in exactly one
    place, which the ghost [g_where] names: the local retire list of one thread, the global list, in the hands of one thread
    (process_global_nodes / add_to_global_retired_nodes), or freed - and it is an element of that list (nothing is dropped, in
    particular not by the hand-over at thread exit) and of no other (nothing is duplicated); the lists are duplicate free *)
Theorem stamp_exactly_once st : reachable st ->
  (forall n, (g_nfree st n <= 1)%nat) /\
  (forall n, g_nfree st n = 1%nat <-> g_where st n = PFreed) /\
  (forall n, g_where st n <> PNone <-> exists t r, g_life st n = LRet t r) /\
  (forall u n, In n (rl (tl st u)) <-> g_where st n = PList u) /\
  (forall n, In n (concat (gret st)) <-> g_where st n = PGlob) /\
  (forall u n, In n (flight (th st u)) <-> g_where st n = PFlight u) /\
  (forall u, NoDup (rl (tl st u))) /\ NoDup (concat (gret st)) /\ (forall u, NoDup (flight (th st u))).
Proof.
  intros Hr. pose proof (N0_reach ns nc st Hr) as I.
  assert (W := n_where st I).
  split; [|split; [|split; [|split; [|split; [|split; [|split; [|split]]]]]]];
    [| | |exact (n_list st I)|exact (n_glob st I)|exact (n_flight st I)
     |exact (fun u => nw_nodup (n_place I) (PList u))|exact (nw_nodup (n_place I) PGlob)|exact (fun u => nw_nodup (n_place I) (PFlight u))].
  - intros n. specialize (W n). destruct (g_where st n); cbn in W; destruct W as [_ ->]; lia.
  - intros n. specialize (W n). split; intros H.
    + destruct (g_where st n); cbn in W; destruct W as [_ W]; try reflexivity; rewrite W in H; discriminate.
    + rewrite H in W. cbn in W. apply W.
  - intros n. specialize (W n). split.
    + intros H. destruct (g_where st n); cbn in W; destruct W as [W _]; try exact W. congruence.
    + intros (t & r & L) H. rewrite H in W. cbn in W. destruct W as [W _]. eapply W. exact L.
Qed.

(** a node is reclaimed only when its stamp is at most the stamp of tail (read before, and the tail stamp never decreases) *)
Theorem stamp_free_stamp st t st' es : reachable st -> step ns st (Step t) = Some (st', es) ->
  forall n, g_where st' n = PFreed -> g_where st n = PFreed \/ (exists v r, g_life st n = LRet v r /\ r <= qstamp st TTail).
Proof.
  intros Hr H. destruct (step_neffects _ _ _ _ _ (N0_reach ns nc st Hr) (S0_reach ns nc st Hr) H) as (_ & _ & X). exact X.
Qed.

(** * C02, liveness half: what is false *)

(** [stamp_idle_thread_keeps_its_nodes]: a node in the local retire list of thread u (up to max_remaining_retired_nodes = 20
    nodes stay there when u leaves a critical region and was not the last one) is not reclaimed by anything the OTHER threads
    do, however long they run: it is reclaimed only when u itself leaves a critical region again (or exits and hands the list
    to the global list).  So "every retired node is destroyed after all threads left their regions and a bounded number of
    further region entries/exits" holds only if every thread that still has a local list takes part. *)
Definition actor (a : action) : nat := match a with Start t _ => t | Step t => t end.
Theorem stamp_idle_thread_keeps_its_nodes : forall acts st u n, reachable st -> In n (rl (tl st u)) ->
  Forall (fun a => actor a <> u) acts ->
  let st' := fst (fst (run (step ns) st acts)) in
  In n (rl (tl st' u)) /\ g_where st' n = PList u /\ g_nfree st' n = O.
Proof.
  induction acts as [|a rest IH]; intros st u n Hr Hin Hf; cbn [run].
  - cbn [fst]. pose proof (N0_reach ns nc st Hr) as I. split; [exact Hin|].
    pose proof (proj1 (n_list st I u n) Hin) as W. split; [exact W|].
    pose proof (n_where st I n) as K. rewrite W in K. cbn in K. apply K.
  - inversion Hf as [|? ? Ha Hf']; subst.
    destruct (step ns st a) as [[s1 es]|] eqn:Hst.
    + assert (Hr1 : reachable s1) by (eapply reach_step; eauto).
      assert (Hin1 : In n (rl (tl s1 u))).
      { destruct (step_other_thread ns st a s1 es u Hst Ha) as [_ ->]. exact Hin. }
      specialize (IH s1 u n Hr1 Hin1 Hf'). destruct (run (step ns) s1 rest) as [[sf tr] sk]. exact IH.
    + specialize (IH st u n Hr Hin Hf'). destruct (run (step ns) st rest) as [[sf tr] sk]. exact IH.
Qed.

End Theorems.

(** * Examples (executable runs of the model, 2 cells, 3 guard slots; each [Start] is followed by more [Step]s than the
    operation needs, [run] skips the surplus; the corresponding schedules were replayed on the real code, build/h_stamp) *)
Definition steps (t n : nat) : list action := repeat (Step t) n.
Definition run2 (acts : list action) : state := fst (fst (run (step 3) (init 2) acts)).

(** thread 1 (control block h2) holds a guard on node 0 of cell 0 and stays inside its critical region with stamp 4;
    thread 2 (control block h3, stamp 8) replaces the node and retires it with stamp 12 = head->stamp; thread 2 is not
    the last one, the node stays in its local list; the tail stamp is 4 = the stamp of thread 1: [Tinv] holds, the
    hypotheses of [stamp_safe_partial] and [stamp_guard_region] are satisfiable ... *)
Definition ex1_a : list action := ([Start 1 (OHold 0 0)] ++ steps 1 60 ++ [Start 2 (ORepl 0)] ++ steps 2 120)%nat.
Example ex1_guarded_node_survives :
  let st := run2 ex1_a in
  gs (tl st 1%nat) 0%nat = Some 0 /\ g_life st 0 = LRet 2 12 /\ nstamp st 0 = 12 /\ g_where st 0 = PList 2 /\ rl (tl st 2%nat) = [0] /\
  cb (tl st 1%nat) = Some 2 /\ g_reg st 2 = true /\ g_reg st 3 = false /\ qstamp st (TB 2) = 4 /\ qstamp st (TB 3) = 9 /\ qstamp st TTail = 4 /\
  qprev st THead = (Some (TB 2), 6) /\ g_nfree st 0 = O /\ g_uaf st = false.
Proof. vm_compute. repeat split; reflexivity. Qed.

(** ... thread 1 drops its guard and leaves (it was the last one: tail stamp 8), threads 3 and 1 run further critical regions
    (tail stamp 24): node 0 with stamp 12 is still in the local list of the idle thread 2
    ([stamp_idle_thread_keeps_its_nodes]) ... *)
Definition ex1_b : list action :=
  (ex1_a ++ [Start 1 (ODrop 0)] ++ steps 1 120 ++ [Start 3 (ORead 1)] ++ steps 3 200 ++ [Start 3 (ORead 1)] ++ steps 3 200 ++
   [Start 1 (ORead 1)] ++ steps 1 200)%nat.
Example ex1_idle_thread_keeps_the_node :
  let st := run2 ex1_b in
  gs (tl st 1%nat) 0%nat = None /\ g_where st 0 = PList 2 /\ qstamp st TTail = 24 /\ g_nfree st 0 = O /\
  qprev st THead = (Some TTail, 20) /\ qnext st TTail = (Some THead, 16).
Proof. vm_compute. repeat split; reflexivity. Qed.

(** ... and reclaimed when thread 2 passes through one more critical region *)
Definition ex1_c : list action := (ex1_b ++ [Start 2 (ORead 1)] ++ steps 2 200)%nat.
Example ex1_freed_by_its_own_thread :
  let st := run2 ex1_c in g_where st 0 = PFreed /\ g_nfree st 0 = 1%nat /\ rl (tl st 2%nat) = [] /\ qstamp st TTail = 28 /\ g_uaf st = false.
Proof. vm_compute. repeat split; reflexivity. Qed.

(** the hand-over at thread exit: thread 2 exits with node 0 in its local list, the list goes to the global list; thread 1
    leaves as the last one, steals the global list, cannot reclaim the node yet (tail stamp 8 < 12) and puts it back;
    its next critical region reclaims it *)
Definition ex2_a : list action :=
  ([Start 1 (OHold 0 0)] ++ steps 1 60 ++ [Start 2 (ORepl 0)] ++ steps 2 120 ++ [Start 2 OExit] ++ steps 2 20)%nat.
Example ex2_handed_over_at_exit :
  let st := run2 ex2_a in
  gret st = [[0]] /\ g_where st 0 = PGlob /\ cb (tl st 2%nat) = None /\ bstate st 3 = 0 /\ gs (tl st 1%nat) 0%nat = Some 0 /\ g_nfree st 0 = O.
Proof. vm_compute. repeat split; reflexivity. Qed.
Example ex2_put_back_then_freed :
  let st1 := run2 (ex2_a ++ [Start 1 (ODrop 0)] ++ steps 1 120)%nat in
  let st2 := run2 (ex2_a ++ [Start 1 (ODrop 0)] ++ steps 1 120 ++ [Start 1 (ORead 1)] ++ steps 1 200)%nat in
  g_where st1 0 = PGlob /\ qstamp st1 TTail = 8 /\ g_where st2 0 = PFreed /\ g_nfree st2 0 = 1%nat /\ gret st2 = [] /\ qstamp st2 TTail = 16.
Proof. vm_compute. repeat split; reflexivity. Qed.

(** inside push: after the compare-and-swap on head->prev the block is linked ([g_reg], [g_lk], [g_max] = its stamp 4) while
    its stamp still carries PendingPush (2 = 4 - 2); the next step clears the flag ([stamp_queue_owner], [link_order]) *)
Example ex3_pending_push :
  let st1 := run2 ([Start 1 (ORead 0)] ++ steps 1 16)%nat in
  let st2 := run2 ([Start 1 (ORead 0)] ++ steps 1 17)%nat in
  th st1 1%nat = P11 (KRead 0) 4 (Some TTail, 2) /\ qstamp st1 (TB 2) = 2 /\ g_reg st1 2 = true /\ g_lk st1 2 = true /\ g_max st1 = 4 /\
  qstamp st1 THead = 8 /\ qprev st1 THead = (Some (TB 2), 2) /\ qstamp st2 (TB 2) = 4.
Proof. vm_compute. repeat split; reflexivity. Qed.

(** [Tinv] on the state of [ex1_guarded_node_survives]: the only block inside a critical region is h2 with stamp 4 = the
    tail stamp; and the hypotheses of [link_order]: thread 1 at the compare-and-swap of push with an unchanged head->prev *)
Example ex1_tinv : Tinv (run2 ex1_a).
Proof.
  intros b Hb. vm_compute in Hb.
  repeat match type of Hb with context [match ?x with _ => _ end] => destruct x eqn:?E; try discriminate Hb end.
  assert (Hb2 : b = 2).
  { destruct b as [|p]; [discriminate|]. repeat (destruct p as [p|p|]; try discriminate). reflexivity. }
  subst b. vm_compute. discriminate.
Qed.
Example ex3_link_step :
  let st := run2 ([Start 1 (ORead 0)] ++ steps 1 15)%nat in
  th st 1%nat = P10 (KRead 0) (Some TTail, 0) 4 (Some TTail, 2) /\ qprev st THead = (Some TTail, 0) /\ cb (tl st 1%nat) = Some 2 /\ g_max st = 0.
Proof. vm_compute. repeat split; reflexivity. Qed.
