(** Node destructor of xenium::ramalhete_queue (gen/RamalheteNodeGen.v): with S = step_size =
    [C_step_size entries_per_node] (1 if 11 divides entries_per_node, else 11), exactly the tickets in
    [pop_idx/S, min(push_idx/S, entries_per_node)) are deleted, each exactly once; and within one node
    distinct tickets use distinct entries (S is coprime to entries_per_node). *)
From Coq Require Import NArith ZArith Lia Bool List.
From XV Require Import Base.Word gen.RamalheteNodeGen.
Import ListNotations.
Local Open Scope N_scope.

(** [tickets lo hi] = [lo; lo+1; ...; hi-1]  (empty if hi <= lo). *)
Fixpoint tickets_from (lo : N) (n : nat) : list N :=
  match n with O => [] | S n' => lo :: tickets_from (N.succ lo) n' end.
Definition tickets (lo hi : N) : list N := tickets_from lo (N.to_nat (hi - lo)).

(** one [delete_value] of ticket [j]: the counter of slot [(S*j) mod E] is incremented *)
Definition del_step (E : N) (m : mem_t) (j : N) : mem_t :=
  mset m 0 ((C_step_size E * j) mod E) (wadd 64 (mget m 0 ((C_step_size E * j) mod E)) 1).

Lemma tickets_from_In : forall n lo j, In j (tickets_from lo n) <-> lo <= j < lo + N.of_nat n.
Proof.
  induction n as [|n IH]; intros lo j; cbn [tickets_from In].
  - lia.
  - rewrite IH. lia.
Qed.

Lemma tickets_In lo hi j : In j (tickets lo hi) <-> lo <= j < hi.
Proof. unfold tickets. rewrite tickets_from_In. lia. Qed.

Lemma tickets_nil lo hi : hi <= lo -> tickets lo hi = [].
Proof. intros H. unfold tickets. replace (hi - lo) with 0 by lia. reflexivity. Qed.

Lemma tickets_cons lo hi : lo < hi -> tickets lo hi = lo :: tickets (N.succ lo) hi.
Proof.
  intros H. unfold tickets.
  replace (N.to_nat (hi - lo)) with (S (N.to_nat (hi - N.succ lo))) by lia.
  reflexivity.
Qed.

Lemma tickets_from_app : forall a b lo, tickets_from lo (a + b) = tickets_from lo a ++ tickets_from (lo + N.of_nat a) b.
Proof.
  induction a as [|a IH]; intros b lo.
  - cbn [Nat.add tickets_from app]. rewrite N.add_0_r. reflexivity.
  - cbn [Nat.add tickets_from app]. rewrite IH. f_equal. f_equal. f_equal. lia.
Qed.

Lemma tickets_split lo m hi : lo <= m -> m <= hi -> tickets lo hi = tickets lo m ++ tickets m hi.
Proof.
  intros H1 H2. unfold tickets. replace (N.to_nat (hi - lo)) with (N.to_nat (m - lo) + N.to_nat (hi - m))%nat by lia.
  rewrite tickets_from_app. f_equal. f_equal. lia.
Qed.

Lemma tickets_from_NoDup : forall n lo, NoDup (tickets_from lo n).
Proof.
  induction n as [|n IH]; intros lo; cbn [tickets_from]; constructor.
  - rewrite tickets_from_In. lia.
  - apply IH.
Qed.

Lemma tickets_NoDup lo hi : NoDup (tickets lo hi).
Proof. apply tickets_from_NoDup. Qed.

Lemma pow2_32 : 2 ^ 32 = 4294967296. Proof. reflexivity. Qed.
Lemma pow2_31 : 2 ^ 31 = 2147483648. Proof. reflexivity. Qed.

(** * The step size *)
Lemma step_cases E : C_step_size E = 1 \/ C_step_size E = 11.
Proof. unfold C_step_size. destruct (wmod E 11 =? 0); [left|right]; reflexivity. Qed.

Lemma step_pos E : 0 < C_step_size E.
Proof. destruct (step_cases E) as [->| ->]; lia. Qed.

Lemma step_1 E : E mod 11 = 0 -> C_step_size E = 1.
Proof. intros H. unfold C_step_size, wmod. rewrite H. reflexivity. Qed.

Lemma step_11 E : E mod 11 <> 0 -> C_step_size E = 11.
Proof.
  intros H. unfold C_step_size, wmod. destruct (N.eqb_spec (E mod 11) 0); [contradiction|reflexivity].
Qed.

(** 11 is prime: a divisor of 11 is 1 or 11 *)
Lemma divide_11 g : N.divide g 11 -> g = 1 \/ g = 11.
Proof.
  intros Hd. assert (Hle : g <= 11) by (apply N.divide_pos_le; [lia|exact Hd]).
  destruct Hd as [k Hk].
  assert (Hc : g = 0 \/ g = 1 \/ g = 2 \/ g = 3 \/ g = 4 \/ g = 5 \/ g = 6 \/ g = 7 \/ g = 8 \/
               g = 9 \/ g = 10 \/ g = 11) by lia.
  repeat (destruct Hc as [->|Hc]; [lia|]). subst g. lia.
Qed.

(** the step is coprime to the node size *)
Lemma step_coprime E : 0 < E -> N.gcd (C_step_size E) E = 1.
Proof.
  intros HE. destruct (N.eq_dec (E mod 11) 0) as [Hm|Hm].
  - rewrite (step_1 E Hm). apply N.gcd_1_l.
  - rewrite (step_11 E Hm).
    destruct (divide_11 (N.gcd 11 E) (N.gcd_divide_l 11 E)) as [Hg|Hg]; [exact Hg|].
    exfalso. apply Hm. apply N.mod_divide; [lia|]. rewrite <- Hg. apply N.gcd_divide_r.
Qed.

(** * The loop *)
Lemma node_loop_spec E pop push hi :
  C_step_size E * E < 2 ^ 32 -> hi <= E ->
  forall fuel j mem, (N.to_nat (hi - j) < fuel)%nat ->
  exists i', x_node_loop E fuel pop push (C_step_size E * hi) mem (C_step_size E * j)
             = Some (fold_left (del_step E) (tickets j hi) mem, i').
Proof.
  intros HE Hhi. rewrite pow2_32 in HE.
  assert (HS := step_pos E).
  induction fuel as [|f IH]; intros j mem Hf; [lia|].
  cbn [x_node_loop].
  destruct (N.ltb_spec (C_step_size E * j) (C_step_size E * hi)) as [Hlt|Hge].
  - assert (Hj : j < hi) by nia.
    rewrite (wadd_small 32) by (rewrite pow2_32; nia).
    replace (C_step_size E * j + C_step_size E) with (C_step_size E * N.succ j) by lia.
    rewrite (tickets_cons j hi Hj). cbn [fold_left].
    unfold wmod.
    apply IH. lia.
  - rewrite tickets_nil by nia. cbn [fold_left]. eexists. reflexivity.
Qed.

Lemma C_max_idx_eq E : C_step_size E * E < 2 ^ 32 -> C_max_idx E = C_step_size E * E.
Proof. intros H. unfold C_max_idx, wmul. apply N.mod_small. exact H. Qed.

(** General form (minimal side conditions: only [max_idx] must not wrap). *)
Theorem node_dtor_spec_gen E fuel p q mem :
  C_step_size E * E < 2 ^ 32 -> (N.to_nat E < fuel)%nat ->
  node_dtor E fuel (C_step_size E * p) (C_step_size E * q) mem
  = Some (fold_left (del_step E) (tickets p (N.min q E)) mem).
Proof.
  intros HE Hf. unfold node_dtor. rewrite C_max_idx_eq by exact HE.
  assert (HS := step_pos E).
  replace (N.min (C_step_size E * q) (C_step_size E * E)) with (C_step_size E * N.min q E)
    by (destruct (N.le_ge_cases q E); [rewrite !N.min_l|rewrite !N.min_r]; nia).
  destruct (node_loop_spec E (C_step_size E * p) (C_step_size E * q) (N.min q E) HE ltac:(lia)
              fuel p mem ltac:(lia))
    as [i' ->].
  reflexivity.
Qed.

(** (a) *)
Theorem node_dtor_spec E fuel p q mem :
  1 <= E -> C_step_size E * E < 2 ^ 32 -> (N.to_nat E < fuel)%nat ->
  node_dtor E fuel (C_step_size E * p) (C_step_size E * q) mem
  = Some (fold_left (fun m j => mset m 0 ((C_step_size E * j) mod E)
                                 (wadd 64 (mget m 0 ((C_step_size E * j) mod E)) 1))
                    (tickets p (N.min q E)) mem).
Proof. intros _ HE Hf. apply node_dtor_spec_gen; assumption. Qed.

(** (c) *)
Theorem node_dtor_total E fuel p q mem :
  1 <= E -> C_step_size E * E < 2 ^ 32 -> (N.to_nat E < fuel)%nat ->
  node_dtor E fuel (C_step_size E * p) (C_step_size E * q) mem <> None.
Proof.
  intros H1 H2 H3. rewrite (node_dtor_spec E fuel p q mem H1 H2 H3). discriminate.
Qed.

(** * Distinct tickets of one node use distinct entries (what the repaired [step_size] is about) *)
Definition slot (E j : N) : N := (C_step_size E * j) mod E.

Lemma slot_inj_le E j1 j2 :
  0 < E -> j1 <= j2 -> j2 < E -> slot E j1 = slot E j2 -> j1 = j2.
Proof.
  unfold slot. intros HE0 Hle Hlt He.
  assert (Hg := step_coprime E HE0).
  assert (HE : E <> 0) by lia.
  set (s := C_step_size E) in *. clearbody s.
  assert (Hd1 := N.div_mod (s * j1) E HE). assert (Hd2 := N.div_mod (s * j2) E HE).
  rewrite He in Hd1.
  set (d1 := s * j1 / E) in *. set (d2 := s * j2 / E) in *.
  set (r := (s * j2) mod E) in *. clearbody d1 d2 r.
  assert (Hdiv : N.divide E (s * (j2 - j1))).
  { exists (d2 - d1). rewrite N.mul_sub_distr_r. nia. }
  apply N.gauss in Hdiv; [|rewrite N.gcd_comm; exact Hg].
  destruct (N.eq_0_gt_0_cases (j2 - j1)) as [Hz|Hp]; [lia|].
  apply N.divide_pos_le in Hdiv; [lia|exact Hp].
Qed.

Lemma slot_inj E j1 j2 :
  0 < E -> j1 < E -> j2 < E -> slot E j1 = slot E j2 -> j1 = j2.
Proof.
  intros Hg H1 H2 He. destruct (N.le_ge_cases j1 j2) as [Hle|Hle].
  - apply (slot_inj_le E); assumption.
  - symmetry. apply (slot_inj_le E); [assumption|assumption|assumption|symmetry; assumption].
Qed.

(** the repaired code: within one node, distinct tickets use distinct entries, for EVERY node size *)
Theorem slots_distinct : forall E j1 j2,
  0 < E -> C_step_size E * E < 2 ^ 32 -> j1 < E -> j2 < E ->
  (C_step_size E * j1) mod E = (C_step_size E * j2) mod E -> j1 = j2.
Proof. intros E j1 j2 HE _ H1 H2 He. apply (slot_inj E); assumption. Qed.

(** the code before the repair (step_size = 11 unconditionally): two tickets of one node share an
    entry as soon as 11 divides the node size *)
Theorem old_step_collides : exists E j1 j2,
  0 < E /\ j1 < E /\ j2 < E /\ j1 <> j2 /\ (11 * j1) mod E = (11 * j2) mod E.
Proof. exists 11, 0, 1. repeat split; try reflexivity. discriminate. Qed.

(** * (b) consumed / out-of-range tickets are untouched, live tickets are deleted exactly once *)
Lemma NoDup_map_inj_on {A B} (f : A -> B) (l : list A) :
  (forall x y, In x l -> In y l -> f x = f y -> x = y) -> NoDup l -> NoDup (map f l).
Proof.
  induction l as [|a l IH]; intros Hinj Hnd; cbn [map]; [constructor|].
  inversion Hnd as [|a' l' Hna Hnd']; subst. constructor.
  - intros Hin. apply in_map_iff in Hin. destruct Hin as [x [Hfx Hx]].
    assert (x = a) by (apply Hinj; [right; exact Hx|left; reflexivity|exact Hfx]).
    subst. contradiction.
  - apply IH; [|exact Hnd']. intros x y Hx Hy. apply Hinj; right; assumption.
Qed.

Lemma del_step_get E m j b k :
  mget (del_step E m j) b k
  = if andb (b =? 0) (k =? slot E j) then wadd 64 (mget m 0 (slot E j)) 1 else mget m b k.
Proof. reflexivity. Qed.

Lemma fold_del_other E l : forall m b k,
  b <> 0 \/ ~ In k (map (slot E) l) ->
  mget (fold_left (del_step E) l m) b k = mget m b k.
Proof.
  induction l as [|j l IH]; intros m b k H; cbn [fold_left]; [reflexivity|].
  rewrite IH.
  - rewrite del_step_get.
    destruct (N.eqb_spec b 0) as [Hb|Hb]; [|reflexivity].
    destruct (N.eqb_spec k (slot E j)) as [Hk|Hk]; [|reflexivity].
    exfalso. destruct H as [H|H]; [contradiction|]. apply H. left. symmetry. exact Hk.
  - destruct H as [H|H]; [left; exact H|right]. intros Hin. apply H. right. exact Hin.
Qed.

Lemma fold_del_hit E l : NoDup (map (slot E) l) -> forall m k,
  In k (map (slot E) l) ->
  mget (fold_left (del_step E) l m) 0 k = wadd 64 (mget m 0 k) 1.
Proof.
  induction l as [|j l IH]; intros Hnd m k Hin; [destruct Hin|].
  cbn [map] in Hnd. inversion Hnd as [|a' l' Hna Hnd']; subst.
  cbn [fold_left]. destruct (N.eq_dec k (slot E j)) as [->|Hne].
  - rewrite fold_del_other by (right; exact Hna).
    rewrite del_step_get. rewrite !N.eqb_refl. reflexivity.
  - destruct Hin as [Hin|Hin]; [congruence|].
    rewrite IH by assumption. rewrite del_step_get.
    destruct (N.eqb_spec k (slot E j)); [contradiction|].
    rewrite andb_false_r. reflexivity.
Qed.

Theorem node_dtor_consumed_untouched E fuel p q mem :
  1 <= E -> C_step_size E * E < 2 ^ 32 -> (N.to_nat E < fuel)%nat ->
  exists mem', node_dtor E fuel (C_step_size E * p) (C_step_size E * q) mem = Some mem' /\
    (* consumed tickets (< p) and tickets never pushed / beyond the node are untouched *)
    (forall j, j < E -> j < p \/ N.min q E <= j ->
       mget mem' 0 ((C_step_size E * j) mod E) = mget mem 0 ((C_step_size E * j) mod E)) /\
    (* every live ticket is deleted exactly once *)
    (forall j, p <= j < N.min q E ->
       mget mem' 0 ((C_step_size E * j) mod E) = wadd 64 (mget mem 0 ((C_step_size E * j) mod E)) 1) /\
    (forall j, p <= j < N.min q E -> mget mem 0 ((C_step_size E * j) mod E) < 2 ^ 64 - 1 ->
       mget mem' 0 ((C_step_size E * j) mod E) = mget mem 0 ((C_step_size E * j) mod E) + 1) /\
    (* nothing else is written *)
    (forall b k, b <> 0 -> mget mem' b k = mget mem b k).
Proof.
  intros H1 H2 Hf. assert (Hg : 0 < E) by lia.
  eexists. split; [apply node_dtor_spec; assumption|].
  fold (del_step E). fold (slot E).
  assert (Hnd : NoDup (map (slot E) (tickets p (N.min q E)))).
  { apply NoDup_map_inj_on; [|apply tickets_NoDup].
    intros x y Hx Hy. rewrite tickets_In in Hx, Hy. apply slot_inj; [exact Hg|lia|lia]. }
  assert (Hhit : forall j, p <= j < N.min q E ->
     mget (fold_left (del_step E) (tickets p (N.min q E)) mem) 0 (slot E j)
     = wadd 64 (mget mem 0 (slot E j)) 1).
  { intros j Hj. apply fold_del_hit; [exact Hnd|].
    apply in_map_iff. exists j. split; [reflexivity|]. apply tickets_In. exact Hj. }
  split; [|split; [|split]].
  - intros j HjE Hj. change ((C_step_size E * j) mod E) with (slot E j).
    apply fold_del_other. right. intros Hin.
    apply in_map_iff in Hin. destruct Hin as [j' [Hs Hj']]. rewrite tickets_In in Hj'.
    assert (j' = j) by (apply (slot_inj E); [exact Hg|lia|exact HjE|exact Hs]). lia.
  - intros j Hj. change ((C_step_size E * j) mod E) with (slot E j). apply Hhit. exact Hj.
  - intros j Hj Hc. change ((C_step_size E * j) mod E) with (slot E j) in *.
    rewrite Hhit by exact Hj. apply wadd_small. lia.
  - intros b k Hb. apply fold_del_other. left. exact Hb.
Qed.
