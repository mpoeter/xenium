(** Layer G: the hazard era slots of a thread: guards, reference counts, free list, the last_hazard_era cache.
    [GS] = what holds of the thread's control block and guards at every program point (the slot accounting of the
    sequential model Model/HeSlotsDefs.v, restated on the step-level model: guard_cnt = number of guards on the slot, a
    slot on the free list is not referenced, a referenced slot publishes an era, the cache points to a referenced slot
    whose era is not older than last_era); [GT] adds what depends on the program point. *)
From Coq Require Import NArith List Bool Arith Lia PeanoNat.
From XV Require Import Conc.Lts Conc.Ev Model.HeDefs Proof.HeBase.
Import ListNotations.

Fixpoint chain (f : nat -> slotv) (l : list nat) : Prop :=
  match l with [] => True | i :: l' => f i = VLink (hd_opt l') /\ chain f l' end.

Lemma chain_ext f f' l : (forall i, In i l -> f' i = f i) -> chain f l -> chain f' l.
Proof.
  induction l as [|i l IH]; intros He H; [exact I|]. destruct H as [H1 H2]. split.
  - rewrite He; [exact H1|left; reflexivity].
  - apply IH; [|exact H2]. intros j Hj. apply He. right. exact Hj.
Qed.

(** the acquire [k] works on the temporary guard of repl / clear / read (the guard at index [nslots], see [tls] and
    [guard_of] in Model/HeDefs.v), not on a persistent guard; [uses_tmp]: the program points at which the temporary guard
    may own a hazard era *)
Definition is_tmp (k : ctx) : bool := match k with KHold _ _ => false | _ => true end.
Definition uses_tmp (p : pc) : bool :=
  match p with
  | G0 k | Q1 k _ | Q2 k _ _ | W0 k _ | W1 k _ _ _ | W2 k _ _ _ | A1 k _ _ | A2 k _ _ | A3 k _ _ _ | I0 k _ | I1 k _ _ | I2 k _
  | H1 k _ | E1 k _ _ | E2 k _ _ | U1 k _ | U2 k _ | QR k => is_tmp k
  | C1 _ _ | R1 _ _ | R2 _ | RR _ => true
  | _ => false
  end.

(** number of elements of [l] satisfying [f] *)
Definition cntf (f : nat -> bool) (l : list nat) : nat := length (filter f l).

Lemma cntf_ext f f' l : (forall j, In j l -> f' j = f j) -> cntf f' l = cntf f l.
Proof.
  unfold cntf. induction l as [|a l IH]; intros H; [reflexivity|]. cbn [filter].
  rewrite (H a (or_introl eq_refl)). assert (IH' := IH (fun j Hj => H j (or_intror Hj))).
  destruct (f a); cbn [length]; lia.
Qed.

Lemma cntf_upd f f' l g :
  NoDup l -> In g l -> (forall j, j <> g -> f' j = f j) ->
  cntf f' l + (if f g then 1 else 0) = cntf f l + (if f' g then 1 else 0).
Proof.
  unfold cntf. induction l as [|a l IH]; intros Hnd Hin Ho; [destruct Hin|].
  apply NoDup_cons_iff in Hnd. destruct Hnd as [Hna Hnd]. cbn [filter].
  destruct (Nat.eq_dec a g) as [->|Hne].
  - assert (He : filter f' l = filter f l).
    { apply filter_ext_in. intros j Hj. apply Ho. intros ->. contradiction. }
    rewrite He. destruct (f g), (f' g); cbn [length]; lia.
  - destruct Hin as [Hc|Hin]; [contradiction|]. rewrite (Ho a Hne). specialize (IH Hnd Hin Ho).
    destruct (f a); cbn [length]; lia.
Qed.

Lemma cntf_zero f l : (forall j, In j l -> f j = false) -> cntf f l = 0.
Proof.
  unfold cntf. induction l as [|a l IH]; intros H; [reflexivity|]. cbn [filter].
  rewrite (H a (or_introl eq_refl)). apply IH. intros j Hj. apply H. right. exact Hj.
Qed.

Lemma cntf_pos f l g : In g l -> f g = true -> 1 <= cntf f l.
Proof.
  unfold cntf. induction l as [|a l IH]; intros Hin Hf; [destruct Hin|]. cbn [filter].
  destruct Hin as [->|Hin]; [rewrite Hf; cbn [length]; lia|]. specialize (IH Hin Hf). destruct (f a); cbn [length]; lia.
Qed.

Lemma cntf_two f l g g' : NoDup l -> In g l -> In g' l -> g <> g' -> f g = true -> f g' = true -> 2 <= cntf f l.
Proof.
  unfold cntf. induction l as [|a l IH]; intros Hnd Hin Hin' Hne Hf Hf'; [destruct Hin|].
  apply NoDup_cons_iff in Hnd. destruct Hnd as [Hna Hnd]. cbn [filter].
  destruct Hin as [->|Hin].
  - destruct Hin' as [Hc|Hin']; [congruence|]. rewrite Hf. cbn [length]. pose proof (cntf_pos f l g' Hin' Hf'). unfold cntf in *. lia.
  - destruct Hin' as [->|Hin'].
    + rewrite Hf'. cbn [length]. pose proof (cntf_pos f l g Hin Hf). unfold cntf in *. lia.
    + specialize (IH Hnd Hin Hin' Hne Hf Hf'). destruct (f a); cbn [length]; lia.
Qed.

Lemma cntf_one_inv f l g : NoDup l -> In g l -> f g = true -> cntf f l = 1 -> forall g', In g' l -> f g' = true -> g' = g.
Proof.
  intros Hnd Hin Hf H1 g' Hin' Hf'. destruct (Nat.eq_dec g' g) as [->|Hne]; [reflexivity|].
  pose proof (cntf_two f l g g' Hnd Hin Hin' (fun H => Hne (eq_sym H)) Hf Hf'). lia.
Qed.

Lemma cntf_pos_inv f l : 1 <= cntf f l -> exists g, In g l /\ f g = true.
Proof.
  unfold cntf. induction l as [|a l IH]; cbn [filter length]; intros H; [lia|].
  destruct (f a) eqn:E; [exists a; split; [left; reflexivity|exact E]|].
  destruct (IH H) as (g & H1 & H2). exists g. split; [right; exact H1|exact H2].
Qed.

Section G.
Variable nslots : nat.

Definition ctx_ok (k : ctx) : Prop := match k with KHold _ g => g < nslots | _ => True end.
Definition sk_exit (k : sctx) : Prop := match k with SExit => True | SRepl => False end.

Definition init_link (j : nat) : slotv := VLink (if j <? 2 then Some (S j) else None).

(** guard [g] refers to slot [i] *)
Definition on (x : tls) (i g : nat) : bool := oeqb (he (gd x g)) (Some i).
(** the number of guards of the thread that refer to slot [i] *)
Definition ng (x : tls) (i : nat) : nat := cntf (on x i) (seq 0 (S nslots)).

Lemma on_true x i g : on x i g = true <-> he (gd x g) = Some i.
Proof. unfold on. apply oeqb_eq. Qed.
Lemma on_false x i g : on x i g = false <-> he (gd x g) <> Some i.
Proof. rewrite <- on_true. destruct (on x i g); split; intros; congruence. Qed.

Lemma in_guards g : In g (seq 0 (S nslots)) <-> g <= nslots.
Proof. rewrite in_seq. lia. Qed.

(** ** the part of the invariant that does not depend on the program point.
    [nslots] is the number of the client's persistent guards, not of hazard era slots: a thread has the guards
    0 .. nslots-1 and the temporary guard at index [nslots]; a control block has K = 3 slots, which is the literal 3 below
    and in [init_link] *)
Record GS (st : state) (t : nat) : Prop := mkGS {
  g_clk : 1 <= clock st;
  g_lt : forall g i, he (gd (tl st t) g) = Some i -> i < 3 /\ rcd (tl st t) <> None;
  g_hi : forall g, nslots < g -> he (gd (tl st t) g) = None;
  g_hint : hint (tl st t) = hd_opt (fl (tl st t));
  g_fl : NoDup (fl (tl st t)) /\ forall i, In i (fl (tl st t)) -> i < 3;
  g_chain : forall b, rcd (tl st t) = Some b -> chain (hz st b) (fl (tl st t));
  g_nofl : rcd (tl st t) = None -> fl (tl st t) = [];
  g_cnt : forall b i, rcd (tl st t) = Some b -> i < 3 -> cnt st b i = ng (tl st t) i;
  g_flc : forall b i, rcd (tl st t) = Some b -> In i (fl (tl st t)) -> cnt st b i = 0;
  g_era : forall b i, rcd (tl st t) = Some b -> i < 3 -> 1 <= cnt st b i -> exists e, hz st b i = VEra e;
  g_le : forall b i e, rcd (tl st t) = Some b -> hz st b i = VEra e -> e <= clock st;
  g_last : forall b l, rcd (tl st t) = Some b -> lhe st b = Some l ->
           l < 3 /\ 1 <= cnt st b l /\ lera st b <= era_of (hz st b l);
  g_ptr : forall g n, ptr (gd (tl st t) g) = Some n -> he (gd (tl st t) g) <> None }.

(** the guard an acquire is working on *)
Definition acq_of (p : pc) : option ctx :=
  match p with
  | G0 k | Q1 k _ | Q2 k _ _ | W0 k _ | W1 k _ _ _ | W2 k _ _ _ | A1 k _ _ | A2 k _ _ | A3 k _ _ _ | I0 k _ | I1 k _ _ | I2 k _
  | H1 k _ | E1 k _ _ | E2 k _ _ | U1 k _ | U2 k _ | QR k => Some k
  | _ => None
  end.
Definition in_acq (p : pc) (g : nat) : Prop := match acq_of p with Some k => g = guard_of nslots k | None => False end.

(** the guard's slot is referenced by this guard only *)
Definition sole (st : state) (x : tls) (g : nat) : Prop :=
  forall b i, rcd x = Some b -> he (gd x g) = Some i -> cnt st b i = 1.

(** what the program point of thread t says about its guards and slots *)
Definition pcG (st : state) (x : tls) (p : pc) : Prop :=
  let none := forall g, he (gd x g) = None in
  match p with
  | Begin (OHold _ g) | Begin (ODeref g) | Begin (ODrop g) => g < nslots
  | D1 g => g < nslots /\ he (gd x g) <> None /\ sole st x g
  | G0 k => ctx_ok k /\ he (gd x (guard_of nslots k)) <> None
  | Q1 k prev | Q2 k prev _ =>
    ctx_ok k /\ prev <= clock st /\
    (forall b i, rcd x = Some b -> he (gd x (guard_of nslots k)) = Some i -> hz st b i = VEra prev) /\
    (he (gd x (guard_of nslots k)) = None -> prev = 0)
  | W0 k e | W1 k e _ _ | W2 k e _ _ | A1 k e _ | A2 k e _ | A3 k e _ _ => ctx_ok k /\ e <= clock st /\ none
  | I0 k e => ctx_ok k /\ e <= clock st /\ none /\ fl x = []
  | I1 k e i => ctx_ok k /\ e <= clock st /\ none /\ fl x = [] /\ i < 3 /\ forall b j, rcd x = Some b -> j < i -> hz st b j = init_link j
  | I2 k e => ctx_ok k /\ e <= clock st /\ none
  | H1 k e => ctx_ok k /\ e <= clock st /\ he (gd x (guard_of nslots k)) = None /\ ptr (gd x (guard_of nslots k)) = None
  | E1 k e i => ctx_ok k /\ e <= clock st /\ he (gd x (guard_of nslots k)) = None /\ ptr (gd x (guard_of nslots k)) = None /\
                i < 3 /\ ~ In i (fl x) /\ (forall b, rcd x = Some b -> cnt st b i = 0) /\ rcd x <> None
  | E2 k e i => ctx_ok k /\ e <= clock st /\ he (gd x (guard_of nslots k)) = None /\ ptr (gd x (guard_of nslots k)) = None /\
                i < 3 /\ ~ In i (fl x) /\ (forall b, rcd x = Some b -> cnt st b i = 0 /\ hz st b i = VEra e) /\ rcd x <> None
  | U1 k e => ctx_ok k /\ e <= clock st /\ he (gd x (guard_of nslots k)) <> None /\ sole st x (guard_of nslots k) /\
              (forall b i, rcd x = Some b -> he (gd x (guard_of nslots k)) = Some i -> era_of (hz st b i) <= e)
  | U2 k e => ctx_ok k /\ e <= clock st /\ he (gd x (guard_of nslots k)) <> None /\
              (forall b i, rcd x = Some b -> he (gd x (guard_of nslots k)) = Some i -> hz st b i = VEra e)
  | QR k => ctx_ok k /\ he (gd x (guard_of nslots k)) <> None /\ sole st x (guard_of nslots k)
  | R2 _ | RR _ => he (gd x nslots) <> None /\ sole st x nslots
  | X0 g => g < nslots /\ he (gd x g) <> None /\ sole st x g /\ forall j, j < g -> he (gd x j) = None
  | S0 k => sk_exit k -> none
  | S1 s | S2 s | S3 s | S4 s | S5 s _ _ | S6 s _ _ _ | S7 s => sk_exit (s_k s) -> none
  | X2 | X3 _ | X4 | X5 | Done => none
  | _ => True
  end.

Record GT (st : state) (t : nat) : Prop := mkGT {
  g_s : GS st t;
  g_tmp : uses_tmp (th st t) = false -> he (gd (tl st t) nslots) = None;
  g_rest : forall g, ~ in_acq (th st t) g -> he (gd (tl st t) g) <> None -> ptr (gd (tl st t) g) <> None;
  g_pc : pcG st (tl st t) (th st t) }.

Definition InvG (st : state) : Prop := forall t, GT st t.

(** a thread without a control block has no hazard era *)
Lemma no_rcd_no_he st t : GS st t -> rcd (tl st t) = None -> forall g, he (gd (tl st t) g) = None.
Proof.
  intros HG Hr g. destruct (he (gd (tl st t) g)) eqn:E; [|reflexivity].
  destruct (g_lt st t HG g n E) as [_ H]. contradiction.
Qed.

Lemma he_le st t g i : GS st t -> he (gd (tl st t) g) = Some i -> g <= nslots.
Proof.
  intros HG H. destruct (Nat.le_gt_cases g nslots) as [Hl|Hl]; [exact Hl|]. rewrite (g_hi st t HG g Hl) in H. discriminate.
Qed.

(** a guard on slot i: the reference count is positive; two guards: at least 2 *)
Lemma on_cnt st t b g i : GS st t -> rcd (tl st t) = Some b -> he (gd (tl st t) g) = Some i -> 1 <= cnt st b i.
Proof.
  intros HG Hb Hg. destruct (g_lt st t HG g i Hg) as [Hi _]. rewrite (g_cnt st t HG b i Hb Hi).
  apply (cntf_pos _ _ g); [apply in_guards; apply (he_le st t g i HG Hg)|apply on_true; exact Hg].
Qed.

Lemma sole_inj st t b g g' i :
  GS st t -> rcd (tl st t) = Some b -> he (gd (tl st t) g) = Some i -> cnt st b i = 1 -> he (gd (tl st t) g') = Some i -> g' = g.
Proof.
  intros HG Hb Hg Hc Hg'. destruct (g_lt st t HG g i Hg) as [Hi _]. rewrite (g_cnt st t HG b i Hb Hi) in Hc.
  apply (cntf_one_inv (on (tl st t) i) (seq 0 (S nslots)) g); try assumption.
  - apply seq_NoDup.
  - apply in_guards. apply (he_le st t g i HG Hg).
  - apply on_true. exact Hg.
  - apply in_guards. apply (he_le st t g' i HG Hg').
  - apply on_true. exact Hg'.
Qed.

Lemma ng_zero x i : (forall g, he (gd x g) = None) -> ng x i = 0.
Proof. intros H. apply cntf_zero. intros j _. apply on_false. rewrite H. discriminate. Qed.

(** no guard refers to a slot: no reference counts, the cache is empty *)
Lemma none_cnt st t b : GS st t -> rcd (tl st t) = Some b -> (forall g, he (gd (tl st t) g) = None) ->
  (forall i, i < 3 -> cnt st b i = 0) /\ lhe st b = None.
Proof.
  intros HG Hb Hn. assert (Hc : forall i, i < 3 -> cnt st b i = 0).
  { intros i Hi. rewrite (g_cnt st t HG b i Hb Hi). apply ng_zero. exact Hn. }
  split; [exact Hc|]. destruct (lhe st b) as [l|] eqn:E; [|reflexivity].
  destruct (g_last st t HG b l Hb E) as (H1 & H2 & _). rewrite (Hc l H1) in H2. lia.
Qed.

(** how [ng] changes when guard [g] is replaced *)
Lemma ng_upd x x' g v i :
  g <= nslots -> (forall g', gd x' g' = upd (gd x) g v g') ->
  ng x' i + (if on x i g then 1 else 0) = ng x i + (if oeqb (he v) (Some i) then 1 else 0).
Proof.
  intros Hg Hx. unfold ng.
  pose proof (cntf_upd (on x i) (on x' i) (seq 0 (S nslots)) g (seq_NoDup _ _) (proj2 (in_guards g) Hg)) as H.
  assert (Ho : forall j, j <> g -> on x' i j = on x i j).
  { intros j Hne. unfold on. rewrite Hx. upds. reflexivity. }
  specialize (H Ho). assert (Hv : on x' i g = oeqb (he v) (Some i)) by (unfold on; rewrite Hx; upds; reflexivity).
  rewrite Hv in H. exact H.
Qed.

Lemma ng_same x x' i : (forall g, he (gd x' g) = he (gd x g)) -> ng x' i = ng x i.
Proof. intros H. apply cntf_ext. intros j _. unfold on. rewrite H. reflexivity. Qed.

(** ** frame: what [GS] of thread t looks at is unchanged (the clock may advance) *)
Lemma GS_ext st st' t :
  clock st <= clock st' ->
  rcd (tl st' t) = rcd (tl st t) -> hint (tl st' t) = hint (tl st t) -> fl (tl st' t) = fl (tl st t) ->
  (forall g, gd (tl st' t) g = gd (tl st t) g) ->
  (forall b i, rcd (tl st t) = Some b -> hz st' b i = hz st b i /\ cnt st' b i = cnt st b i) ->
  (forall b, rcd (tl st t) = Some b -> lhe st' b = lhe st b /\ lera st' b = lera st b) ->
  GS st t -> GS st' t.
Proof.
  intros Hc Hr Hh Hf Hg Hz Hl [I0 I1 I2 I3 I4 I5 I6 I7 I8 I9 I10 I11 I12].
  assert (Hng : forall i, ng (tl st' t) i = ng (tl st t) i) by (intros i; apply ng_same; intros g; rewrite Hg; reflexivity).
  constructor; rewrite ?Hr, ?Hh, ?Hf; try assumption.
  - lia.
  - intros g i. rewrite Hg. apply I1.
  - intros g. rewrite Hg. apply I2.
  - intros b Hb. apply (chain_ext (hz st b)); [intros i _; apply (Hz b i Hb)|apply I5; exact Hb].
  - intros b i Hb Hi. rewrite Hng. destruct (Hz b i Hb) as [_ ->]. apply I7; assumption.
  - intros b i Hb Hi. destruct (Hz b i Hb) as [_ ->]. apply I8; assumption.
  - intros b i Hb Hi. destruct (Hz b i Hb) as [-> ->]. apply I9; assumption.
  - intros b i e Hb. destruct (Hz b i Hb) as [-> _]. intros H. pose proof (I10 b i e Hb H). lia.
  - intros b l Hb. destruct (Hl b Hb) as [-> ->]. intros H. destruct (Hz b l Hb) as [-> ->]. apply I11; assumption.
  - intros g n. rewrite Hg. apply I12.
Qed.

(** ** release_guard of a guard whose slot is shared: the reference count drops, the guard is emptied *)
Lemma GS_unshare st t b i g :
  GS st t -> rcd (tl st t) = Some b -> he (gd (tl st t) g) = Some i -> cnt st b i <> 1 -> GS (unshare st t b i g) t.
Proof.
  intros HG Hb Hg Hc. pose proof HG as [I0 I1 I2 I3 I4 I5 I6 I7 I8 I9 I10 I11 I12].
  pose proof (he_le st t g i HG Hg) as Hle. destruct (I1 g i Hg) as [Hi _].
  pose proof (on_cnt st t b g i HG Hb Hg) as Hpos.
  assert (Hgd : forall g', g' <> g -> gd (tl (unshare st t b i g) t) g' = gd (tl st t) g') by (intros g' Hne; unfold unshare; prj; upds; prj; upds; reflexivity).
  assert (Hgg : gd (tl (unshare st t b i g) t) g = g0) by (unfold unshare; prj; upds; prj; upds; reflexivity).
  assert (Hni : ~ In i (fl (tl st t))) by (intros Hin; rewrite (I8 b i Hb Hin) in Hpos; lia).
  constructor; unfold unshare in *; prj; upds; prj.
  - exact I0.
  - intros g' j H. destruct (Nat.eq_dec g' g) as [->|Hne]; upds_in H; [discriminate|apply (I1 g' j H)].
  - intros g' H. destruct (Nat.eq_dec g' g) as [->|Hne]; upds; [reflexivity|apply I2; exact H].
  - exact I3.
  - exact I4.
  - exact I5.
  - exact I6.
  - intros b' j Hb' Hj. rewrite Hb in Hb'. injection Hb' as <-. rewrite upd2_same_block.
    match goal with |- context [ng ?x' j] => pose proof (ng_upd (tl st t) x' g g0 j Hle (fun _ => eq_refl)) as Hn end. cbn [g0 he oeqb] in Hn.
    destruct (Nat.eqb_spec j i) as [->|Hne].
    + assert (Ho : on (tl st t) i g = true) by (apply on_true; exact Hg). rewrite Ho in Hn. rewrite (I7 b i Hb Hi). unfold g0 in *. lia.
    + assert (Ho : on (tl st t) j g = false) by (apply on_false; rewrite Hg; congruence). rewrite Ho in Hn. rewrite (I7 b j Hb Hj). unfold g0 in *. lia.
  - intros b' j Hb' Hj. rewrite Hb in Hb'. injection Hb' as <-. rewrite upd2_same_block.
    destruct (Nat.eqb_spec j i) as [->|Hne]; [contradiction|apply (I8 b j Hb Hj)].
  - intros b' j Hb' Hj. rewrite Hb in Hb'. injection Hb' as <-. rewrite upd2_same_block.
    destruct (Nat.eqb_spec j i) as [->|Hne]; intros H; apply (I9 b _ Hb Hj); lia.
  - exact I10.
  - intros b' l Hb' Hl. rewrite Hb in Hb'. injection Hb' as <-. destruct (I11 b l Hb Hl) as (H1 & H2 & H3).
    split; [exact H1|]. split; [|exact H3]. rewrite upd2_same_block. destruct (Nat.eqb_spec l i) as [->|Hne]; lia.
  - intros g' n H. destruct (Nat.eq_dec g' g) as [->|Hne]; upds_in H; [discriminate|]. upds. apply (I12 g' n H).
Qed.

(** ** release_hazard_era of the last guard on the slot: the slot goes back to the free list *)
Lemma GS_reset st t b i g :
  GS st t -> rcd (tl st t) = Some b -> he (gd (tl st t) g) = Some i -> cnt st b i = 1 -> GS (reset_guard st t b i g) t.
Proof.
  intros HG Hb Hg Hc. pose proof HG as [I0 I1 I2 I3 I4 I5 I6 I7 I8 I9 I10 I11 I12].
  pose proof (he_le st t g i HG Hg) as Hle. destruct (I1 g i Hg) as [Hi _].
  destruct I4 as [Hnd Hfl].
  assert (Hni : ~ In i (fl (tl st t))) by (intros Hin; rewrite (I8 b i Hb Hin) in Hc; lia).
  constructor; unfold reset_guard in *; prj; upds; prj.
  - exact I0.
  - intros g' j H. destruct (Nat.eq_dec g' g) as [->|Hne]; upds_in H; [discriminate|]. apply (I1 g' j H).
  - intros g' H. destruct (Nat.eq_dec g' g) as [->|Hne]; upds; [reflexivity|apply I2; exact H].
  - reflexivity.
  - split; [constructor; assumption|]. intros j [<-|Hj]; [exact Hi|apply Hfl; exact Hj].
  - intros b' Hb'. rewrite Hb in Hb'. injection Hb' as <-. cbn [chain]. split.
    + rewrite upd2_same, I3. reflexivity.
    + apply (chain_ext (hz st b)); [|apply I5; exact Hb]. intros j Hj. rewrite upd2_same_block.
      destruct (Nat.eqb_spec j i) as [->|_]; [contradiction|reflexivity].
  - intros H. congruence.
  - intros b' j Hb' Hj. rewrite Hb in Hb'. injection Hb' as <-. rewrite upd2_same_block.
    match goal with |- context [ng ?x' j] => pose proof (ng_upd (tl st t) x' g g0 j Hle (fun _ => eq_refl)) as Hn end. cbn [g0 he oeqb] in Hn.
    destruct (Nat.eqb_spec j i) as [->|Hne].
    + assert (Ho : on (tl st t) i g = true) by (apply on_true; exact Hg). rewrite Ho in Hn. rewrite (I7 b i Hb Hi) in Hc. unfold g0 in *. lia.
    + assert (Ho : on (tl st t) j g = false) by (apply on_false; rewrite Hg; congruence). rewrite Ho in Hn. rewrite (I7 b j Hb Hj). unfold g0 in *. lia.
  - intros b' j Hb' Hj. rewrite Hb in Hb'. injection Hb' as <-. rewrite upd2_same_block.
    destruct (Nat.eqb_spec j i) as [->|Hne]; [reflexivity|]. destruct Hj as [Hj|Hj]; [congruence|apply (I8 b j Hb Hj)].
  - intros b' j Hb' Hj. rewrite Hb in Hb'. injection Hb' as <-. rewrite !upd2_same_block.
    destruct (Nat.eqb_spec j i) as [->|Hne]; [lia|apply (I9 b j Hb Hj)].
  - intros b' j e Hb'. rewrite Hb in Hb'. injection Hb' as <-. rewrite upd2_same_block. destruct (Nat.eqb_spec j i) as [->|Hne]; [discriminate|apply (I10 b j e Hb)].
  - intros b' l Hb'. rewrite Hb in Hb'. injection Hb' as <-. upds. destruct (oeqb (lhe st b) (Some i)) eqn:E; [discriminate|]. intros Hl.
    assert (Hli : l <> i) by (intros ->; rewrite Hl in E; cbn in E; rewrite Nat.eqb_refl in E; discriminate).
    destruct (I11 b l Hb Hl) as (H1 & H2 & H3). rewrite !upd2_same_block.
    destruct (Nat.eqb_spec l i) as [->|_]; [contradiction|]. tauto.
  - intros g' n H. destruct (Nat.eq_dec g' g) as [->|Hne]; upds_in H; [discriminate|]. upds. apply (I12 g' n H).
Qed.

(** ** alloc_hazard_era, cache hit: the guard shares the cached slot *)
Lemma GS_share st t b l g v :
  GS st t -> rcd (tl st t) = Some b -> lhe st b = Some l -> he (gd (tl st t) g) = None -> g <= nslots ->
  he v = Some l -> ptr v = ptr (gd (tl st t) g) ->
  GS (set_gd t g v (w_cnt (upd2 (cnt st) b l (S (cnt st b l))) st)) t.
Proof.
  intros HG Hb Hl Hg Hle Hv1 Hv2. pose proof HG as [I0 I1 I2 I3 I4 I5 I6 I7 I8 I9 I10 I11 I12].
  destruct (I11 b l Hb Hl) as (Hl3 & Hpos & Hera).
  assert (Hpg : ptr (gd (tl st t) g) = None).
  { destruct (ptr (gd (tl st t) g)) eqn:E; [|reflexivity]. exfalso. apply (I12 g n E). exact Hg. }
  constructor; unfold set_gd; prj; upds; prj.
  - exact I0.
  - intros g' j H. destruct (Nat.eq_dec g' g) as [->|Hne]; upds_in H; [|apply (I1 g' j H)].
    rewrite Hv1 in H. injection H as <-. split; [exact Hl3|congruence].
  - intros g' H. assert (g' <> g) by lia. upds. apply I2. exact H.
  - exact I3.
  - exact I4.
  - exact I5.
  - exact I6.
  - intros b' j Hb' Hj. rewrite Hb in Hb'. injection Hb' as <-. rewrite upd2_same_block.
    match goal with |- context [ng ?x' j] => pose proof (ng_upd (tl st t) x' g v j Hle (fun _ => eq_refl)) as Hn end. rewrite Hv1 in Hn. cbn [oeqb] in Hn.
    assert (Ho : on (tl st t) j g = false) by (apply on_false; rewrite Hg; discriminate). rewrite Ho in Hn.
    rewrite (Nat.eqb_sym l j) in Hn. destruct (Nat.eqb_spec j l) as [->|Hne]; [rewrite (I7 b l Hb Hl3)|rewrite (I7 b j Hb Hj)]; lia.
  - intros b' j Hb' Hj. rewrite Hb in Hb'. injection Hb' as <-. rewrite upd2_same_block.
    destruct (Nat.eqb_spec j l) as [->|Hne]; [rewrite (I8 b l Hb Hj) in Hpos; lia|apply (I8 b j Hb Hj)].
  - intros b' j Hb' Hj. rewrite Hb in Hb'. injection Hb' as <-. rewrite upd2_same_block.
    destruct (Nat.eqb_spec j l) as [->|Hne]; intros H; apply (I9 b _ Hb Hj); lia.
  - exact I10.
  - intros b' l' Hb' Hl'. rewrite Hb in Hb'. injection Hb' as <-. destruct (I11 b l' Hb Hl') as (H1 & H2 & H3).
    split; [exact H1|]. split; [|exact H3]. rewrite upd2_same_block. destruct (Nat.eqb_spec l' l) as [->|Hne]; lia.
  - intros g' n H. destruct (Nat.eq_dec g' g) as [->|Hne]; upds_in H; upds; [congruence|apply (I12 g' n H)].
Qed.

(** ** alloc_hazard_era: the first slot of the free list is taken (it is in flight until add_guard) *)
Lemma GS_take st t b i :
  GS st t -> rcd (tl st t) = Some b -> hint (tl st t) = Some i ->
  GS (set_tl t (wt_hint (link_of (hz st b i)) (wt_fl (List.tl (fl (tl st t))) (tl st t))) st) t /\
  i < 3 /\ ~ In i (List.tl (fl (tl st t))) /\ cnt st b i = 0.
Proof.
  intros HG Hb Hh. pose proof HG as [I0 I1 I2 I3 I4 I5 I6 I7 I8 I9 I10 I11 I12].
  destruct (fl (tl st t)) as [|i' fl'] eqn:Efl; [rewrite Hh in I3; discriminate|].
  rewrite Hh in I3. cbn in I3. injection I3 as <-.
  destruct I4 as [Hnd Hfl]. apply NoDup_cons_iff in Hnd. destruct Hnd as [Hni Hnd'].
  specialize (I5 b Hb). cbn [chain] in I5. destruct I5 as [Hc1 Hc2].
  cbn [List.tl]. split; [|split; [apply Hfl; left; reflexivity|split; [exact Hni|apply (I8 b i Hb); left; reflexivity]]].
  constructor; prj; upds; prj; try assumption.
  - rewrite Hc1. reflexivity.
  - split; [exact Hnd'|]. intros j Hj. apply Hfl. right. exact Hj.
  - intros b' Hb'. rewrite Hb in Hb'. injection Hb' as <-. exact Hc2.
  - intros H. congruence.
  - intros b' j Hb' Hj. apply (I8 b' j Hb'). right. exact Hj.
Qed.

(** ** set_era on a slot in flight (no guard, not on the free list) *)
Lemma GS_storeE st t b i e :
  GS st t -> rcd (tl st t) = Some b -> i < 3 -> ~ In i (fl (tl st t)) -> cnt st b i = 0 -> e <= clock st ->
  GS (w_hz (upd2 (hz st) b i (VEra e)) st) t.
Proof.
  intros HG Hb Hi Hni Hc He. pose proof HG as [I0 I1 I2 I3 I4 I5 I6 I7 I8 I9 I10 I11 I12].
  constructor; prj; try assumption.
  - intros b' Hb'. rewrite Hb in Hb'. injection Hb' as <-. apply (chain_ext (hz st b)); [|apply I5; exact Hb].
    intros j Hj. rewrite upd2_same_block. destruct (Nat.eqb_spec j i) as [->|_]; [contradiction|reflexivity].
  - intros b' j Hb' Hj. rewrite Hb in Hb'. injection Hb' as <-. rewrite upd2_same_block.
    destruct (Nat.eqb_spec j i) as [->|_]; [intros _; eexists; reflexivity|apply (I9 b j Hb Hj)].
  - intros b' j e' Hb'. rewrite Hb in Hb'. injection Hb' as <-. rewrite upd2_same_block.
    destruct (Nat.eqb_spec j i) as [->|_]; [intros H; injection H as <-; exact He|apply (I10 b j e' Hb)].
  - intros b' l Hb' Hl. rewrite Hb in Hb'. injection Hb' as <-. destruct (I11 b l Hb Hl) as (H1 & H2 & H3).
    rewrite upd2_same_block. destruct (Nat.eqb_spec l i) as [->|_]; [lia|tauto].
Qed.

(** ** add_guard; last_hazard_era = result; last_era = era; he = result *)
Lemma GS_commit st t b i e g v :
  GS st t -> rcd (tl st t) = Some b -> i < 3 -> ~ In i (fl (tl st t)) -> cnt st b i = 0 -> hz st b i = VEra e ->
  he (gd (tl st t) g) = None -> g <= nslots -> he v = Some i -> ptr v = ptr (gd (tl st t) g) ->
  GS (set_gd t g v (w_cnt (upd2 (cnt st) b i (S (cnt st b i))) (w_lhe (upd (lhe st) b (Some i)) (w_lera (upd (lera st) b e) st)))) t.
Proof.
  intros HG Hb Hi Hni Hc Hz Hg Hle Hv1 Hv2. pose proof HG as [I0 I1 I2 I3 I4 I5 I6 I7 I8 I9 I10 I11 I12].
  assert (Hpg : ptr (gd (tl st t) g) = None).
  { destruct (ptr (gd (tl st t) g)) eqn:E; [|reflexivity]. exfalso. apply (I12 g n E). exact Hg. }
  constructor; unfold set_gd; prj; upds; prj.
  - exact I0.
  - intros g' j H. destruct (Nat.eq_dec g' g) as [->|Hne]; upds_in H; [|apply (I1 g' j H)].
    rewrite Hv1 in H. injection H as <-. split; [exact Hi|congruence].
  - intros g' H. assert (g' <> g) by lia. upds. apply I2. exact H.
  - exact I3.
  - exact I4.
  - exact I5.
  - exact I6.
  - intros b' j Hb' Hj. rewrite Hb in Hb'. injection Hb' as <-. rewrite upd2_same_block.
    match goal with |- context [ng ?x' j] => pose proof (ng_upd (tl st t) x' g v j Hle (fun _ => eq_refl)) as Hn end. rewrite Hv1 in Hn. cbn [oeqb] in Hn.
    assert (Ho : on (tl st t) j g = false) by (apply on_false; rewrite Hg; discriminate). rewrite Ho in Hn.
    rewrite (Nat.eqb_sym i j) in Hn. destruct (Nat.eqb_spec j i) as [->|Hne]; [rewrite (I7 b i Hb Hi)|rewrite (I7 b j Hb Hj)]; lia.
  - intros b' j Hb' Hj. rewrite Hb in Hb'. injection Hb' as <-. rewrite upd2_same_block.
    destruct (Nat.eqb_spec j i) as [->|Hne]; [contradiction|apply (I8 b j Hb Hj)].
  - intros b' j Hb' Hj. rewrite Hb in Hb'. injection Hb' as <-. rewrite upd2_same_block.
    destruct (Nat.eqb_spec j i) as [->|Hne]; [intros _; eexists; exact Hz|apply (I9 b j Hb Hj)].
  - exact I10.
  - intros b' l Hb' Hl. rewrite Hb in Hb'. injection Hb' as <-. upds_in Hl. injection Hl as <-. upds.
    split; [exact Hi|]. rewrite upd2_same. split; [lia|]. rewrite Hz. cbn. lia.
  - intros g' n H. destruct (Nat.eq_dec g' g) as [->|Hne]; upds_in H; upds; [congruence|apply (I12 g' n H)].
Qed.

(** ** set_era on the guard's own slot (referenced by this guard only); this->ptr is not protected any more *)
Lemma GS_storeU st t b i e g v :
  GS st t -> rcd (tl st t) = Some b -> he (gd (tl st t) g) = Some i -> e <= clock st -> era_of (hz st b i) <= e ->
  he v = Some i -> ptr v = ptr (gd (tl st t) g) ->
  GS (set_gd t g v (w_hz (upd2 (hz st) b i (VEra e)) st)) t.
Proof.
  intros HG Hb Hg He Hold Hv1 Hv2. pose proof HG as [I0 I1 I2 I3 I4 I5 I6 I7 I8 I9 I10 I11 I12].
  pose proof (he_le st t g i HG Hg) as Hle. destruct (I1 g i Hg) as [Hi _].
  pose proof (on_cnt st t b g i HG Hb Hg) as Hpos.
  assert (Hni : ~ In i (fl (tl st t))) by (intros Hin; rewrite (I8 b i Hb Hin) in Hpos; lia).
  assert (Hhe : forall g', he (upd (gd (tl st t)) g v g') = he (gd (tl st t) g')).
  { intros g'. destruct (Nat.eq_dec g' g) as [->|Hne]; upds; congruence. }
  constructor; unfold set_gd; prj; upds; prj; try assumption.
  - intros g' j. rewrite Hhe. apply I1.
  - intros g'. rewrite Hhe. apply I2.
  - intros b' Hb'. rewrite Hb in Hb'. injection Hb' as <-. apply (chain_ext (hz st b)); [|apply I5; exact Hb].
    intros j Hj. rewrite upd2_same_block. destruct (Nat.eqb_spec j i) as [->|_]; [contradiction|reflexivity].
  - intros b' j Hb' Hj. rewrite (I7 b' j Hb' Hj). symmetry. apply ng_same. intros g'. prj. apply Hhe.
  - intros b' j Hb' Hj. rewrite Hb in Hb'. injection Hb' as <-. rewrite upd2_same_block.
    destruct (Nat.eqb_spec j i) as [->|_]; [intros _; eexists; reflexivity|apply (I9 b j Hb Hj)].
  - intros b' j e' Hb'. rewrite Hb in Hb'. injection Hb' as <-. rewrite upd2_same_block.
    destruct (Nat.eqb_spec j i) as [->|_]; [intros H; injection H as <-; exact He|apply (I10 b j e' Hb)].
  - intros b' l Hb' Hl. rewrite Hb in Hb'. injection Hb' as <-. destruct (I11 b l Hb Hl) as (H1 & H2 & H3).
    rewrite upd2_same_block. destruct (Nat.eqb_spec l i) as [->|_]; [cbn [era_of]; split; [exact H1|split; [exact H2|lia]]|tauto].
  - intros g' n. rewrite Hhe. destruct (Nat.eq_dec g' g) as [->|Hne]; upds; [intros _; congruence|apply I12].
Qed.

(** ** the guard's pointer changes, its hazard era stays *)
Lemma GS_setptr st t g v :
  GS st t -> he v = he (gd (tl st t) g) -> (ptr v <> None -> he v <> None) -> GS (set_gd t g v st) t.
Proof.
  intros HG Hv1 Hv2. pose proof HG as [I0 I1 I2 I3 I4 I5 I6 I7 I8 I9 I10 I11 I12].
  assert (Hhe : forall g', he (upd (gd (tl st t)) g v g') = he (gd (tl st t) g')).
  { intros g'. destruct (Nat.eq_dec g' g) as [->|Hne]; upds; congruence. }
  constructor; unfold set_gd; prj; upds; prj; try assumption.
  - intros g' j. rewrite Hhe. apply I1.
  - intros g'. rewrite Hhe. apply I2.
  - intros b' j Hb' Hj. rewrite (I7 b' j Hb' Hj). symmetry. apply ng_same. intros g'. prj. apply Hhe.
  - intros g' n. rewrite Hhe. destruct (Nat.eq_dec g' g) as [->|Hne]; upds; [|apply I12].
    intros H. rewrite <- Hv1. apply Hv2. congruence.
Qed.

(** ** no guard owns a hazard era and the free list is empty: the slots may change (adoption, initialize) *)
Lemma GS_fresh st st' t :
  GS st t -> (forall g, he (gd (tl st t) g) = None) -> clock st <= clock st' ->
  fl (tl st' t) = [] -> hint (tl st' t) = None ->
  (forall g, gd (tl st' t) g = gd (tl st t) g) ->
  (forall b, rcd (tl st' t) = Some b -> (forall i, i < 3 -> cnt st' b i = 0) /\ lhe st' b = None /\ forall i e, hz st' b i = VEra e -> e <= clock st') ->
  GS st' t.
Proof.
  intros [I0 I1 I2 I3 I4 I5 I6 I7 I8 I9 I10 I11 I12] Hn Hck Hf Hh Hgd Hb.
  assert (Hn' : forall g, he (gd (tl st' t) g) = None) by (intros g; rewrite Hgd; apply Hn).
  constructor; rewrite ?Hf, ?Hh; try reflexivity.
  - lia.
  - intros g i H. rewrite Hn' in H. discriminate.
  - intros; apply Hn'.
  - split; [constructor|]. intros i [].
  - intros b i Hb' Hi. destruct (Hb b Hb') as (H1 & _ & _). rewrite (H1 i Hi). symmetry. apply ng_zero. exact Hn'.
  - intros b i _ [].
  - intros b i Hb' Hi H. destruct (Hb b Hb') as (H1 & _ & _). rewrite (H1 i Hi) in H. lia.
  - intros b i e Hb'. destruct (Hb b Hb') as (_ & _ & H3). apply H3.
  - intros b l Hb' Hl. destruct (Hb b Hb') as (_ & H2 & _). congruence.
  - intros g n H. rewrite Hgd in H. exfalso. apply (I12 g n H). apply Hn.
Qed.

(** ** the last store of initialize: the free list is 0 -> 1 -> 2 *)
Lemma GS_initialized st st' t b :
  GS st t -> (forall g, he (gd (tl st t) g) = None) -> clock st <= clock st' ->
  rcd (tl st' t) = Some b -> fl (tl st' t) = [0; 1; 2] -> hint (tl st' t) = Some 0 ->
  (forall g, gd (tl st' t) g = gd (tl st t) g) ->
  (forall j, j < 3 -> hz st' b j = init_link j) ->
  (forall i, i < 3 -> cnt st' b i = 0) -> lhe st' b = None ->
  (forall i e, hz st' b i = VEra e -> e <= clock st') ->
  GS st' t.
Proof.
  intros [I0 I1 I2 I3 I4 I5 I6 I7 I8 I9 I10 I11 I12] Hn Hck Hr Hf Hh Hgd Hhz Hc Hl Hle.
  assert (Hn' : forall g, he (gd (tl st' t) g) = None) by (intros g; rewrite Hgd; apply Hn).
  constructor; rewrite ?Hf, ?Hh, ?Hr; try reflexivity.
  - lia.
  - intros g i H. rewrite Hn' in H. discriminate.
  - intros; apply Hn'.
  - split; [repeat constructor; cbn [In]; lia|]. intros i Hi. cbn [In] in Hi. lia.
  - intros b' Hb'. injection Hb' as <-. cbn [chain hd_opt]. rewrite !Hhz by lia. cbn. tauto.
  - intros; discriminate.
  - intros b' i Hb' Hi. injection Hb' as <-. rewrite (Hc i Hi). symmetry. apply ng_zero. exact Hn'.
  - intros b' i Hb' Hi. injection Hb' as <-. apply Hc. cbn [In] in Hi. lia.
  - intros b' i Hb' Hi H. injection Hb' as <-. rewrite (Hc i Hi) in H. lia.
  - intros b' i e Hb'. injection Hb' as <-. apply Hle.
  - intros b' l Hb'. injection Hb' as <-. congruence.
  - intros g n H. rewrite Hgd in H. exfalso. apply (I12 g n H). apply Hn.
Qed.

(** ** guards released by exit_guards *)
Lemma GS_ush st st1 t : ush t st st1 -> GS st t -> GS st1 t.
Proof.
  induction 1 as [st|st b i g st2 Hb Hg Hc _ IH]; intros HG; [exact HG|].
  apply IH. apply GS_unshare; assumption.
Qed.

(** ** frames for the program point part *)
Lemma sole_ext st st' x x' g :
  rcd x' = rcd x -> he (gd x' g) = he (gd x g) -> (forall b i, rcd x = Some b -> cnt st' b i = cnt st b i) ->
  sole st x g -> sole st' x' g.
Proof. intros Hr Hg Hc H b i Hb Hi. rewrite Hr in Hb. rewrite Hg in Hi. rewrite (Hc b i Hb). apply (H b i Hb Hi). Qed.

Lemma pcG_ext st st' x x' p :
  clock st <= clock st' ->
  rcd x' = rcd x -> fl x' = fl x -> (forall g, gd x' g = gd x g) ->
  (forall b i, rcd x = Some b -> hz st' b i = hz st b i /\ cnt st' b i = cnt st b i) ->
  pcG st x p -> pcG st' x' p.
Proof.
  intros Hc Hr Hf Hg Hz H.
  assert (Hs : forall g, sole st x g -> sole st' x' g).
  { intros g. apply sole_ext; [exact Hr|rewrite Hg; reflexivity|intros b i Hb; apply (Hz b i Hb)]. }
  destruct p; try (match goal with o : op |- _ => destruct o end);
    cbn [pcG] in *; rewrite ?Hr, ?Hf; repeat setoid_rewrite Hg; try assumption.
  all: try (intuition (auto; try lia); fail).
  - destruct H as (H1 & H2 & H3 & H4). repeat split; try assumption; try lia. intros bb ii Hb Hi. destruct (Hz bb ii Hb) as [-> _]. apply H3; assumption.
  - destruct H as (H1 & H2 & H3 & H4). repeat split; try assumption; try lia. intros bb ii Hb Hi. destruct (Hz bb ii Hb) as [-> _]. apply H3; assumption.
  - destruct H as (H1 & H2 & H3 & H4 & H5 & H6). repeat split; try assumption; try lia. intros bb jj Hb Hj. destruct (Hz bb jj Hb) as [-> _]. apply H6; assumption.
  - destruct H as (H1 & H2 & H3 & H4 & H5 & H6 & H7 & H8). repeat split; try assumption; try lia. intros bb Hb. destruct (Hz bb i Hb) as [_ ->]. apply H7; assumption.
  - destruct H as (H1 & H2 & H3 & H4 & H5 & H6 & H7 & H8). repeat split; try assumption; try lia.
    all: match goal with Hb : rcd _ = Some ?b |- _ => destruct (Hz b i Hb) as [E1' E2']; rewrite ?E1', ?E2'; apply H7; exact Hb end.
  - destruct H as (H1 & H2 & H3 & H4 & H5). repeat split; try assumption; try lia; [apply Hs; exact H4|]. intros bb ii Hb Hi. destruct (Hz bb ii Hb) as [-> _]. apply H5; assumption.
  - destruct H as (H1 & H2 & H3 & H4). repeat split; try assumption; try lia. intros bb ii Hb Hi. destruct (Hz bb ii Hb) as [-> _]. apply H4; assumption.
Qed.

(** a control block that is not the control block of a thread (free, or new and not yet linked) has no references
    and an empty cache *)
Definition InvF (st : state) : Prop :=
  forall b, (forall t, rcd (tl st t) <> Some b) ->
    (forall i, i < 3 -> cnt st b i = 0) /\ lhe st b = None /\ forall i e, hz st b i = VEra e -> e <= clock st.

(** ** a step of another thread *)
Lemma GT_frame st st' t :
  clock st <= clock st' -> tl st' t = tl st t -> th st' t = th st t ->
  (forall b i, rcd (tl st t) = Some b -> hz st' b i = hz st b i /\ cnt st' b i = cnt st b i) ->
  (forall b, rcd (tl st t) = Some b -> lhe st' b = lhe st b /\ lera st' b = lera st b) ->
  GT st t -> GT st' t.
Proof.
  intros Hc Htl Hth Hz Hl [I1 I2 I3 I4].
  constructor; rewrite ?Htl, ?Hth; try assumption.
  - apply (GS_ext st); try (rewrite Htl; reflexivity); try assumption.
  - apply (pcG_ext st st' (tl st t)); try reflexivity; assumption.
Qed.

Lemma upd2_other st t t' b {X} (f : nat -> nat -> X) i v :
  InvO st -> t' <> t -> rcd (tl st t) = Some b ->
  forall b' j, rcd (tl st t') = Some b' -> upd2 f b i v b' j = f b' j.
Proof.
  intros HO Hne Hb b' j Hb'. apply upd2_other_block. intros ->. apply Hne. apply (own_inj st t' t b HO Hb' Hb).
Qed.

Lemma upd_other_blk st t t' b {X} (f : nat -> X) v :
  InvO st -> t' <> t -> rcd (tl st t) = Some b ->
  forall b', rcd (tl st t') = Some b' -> upd f b v b' = f b'.
Proof.
  intros HO Hne Hb b' Hb'. apply upd_other. intros ->. apply Hne. apply (own_inj st t' t b HO Hb' Hb).
Qed.

Lemma all_none st t :
  GT st t -> uses_tmp (th st t) = false -> (forall j, j < nslots -> he (gd (tl st t) j) = None) ->
  forall g, he (gd (tl st t) g) = None.
Proof.
  intros HG Ht H g. destruct (Nat.lt_trichotomy g nslots) as [Hl|[->|Hl]];
    [apply H; exact Hl|apply (g_tmp st t HG Ht)|apply (g_hi st t (g_s st t HG) g Hl)].
Qed.



Lemma GS_strip st st' t :
  clock st <= clock st' -> tl st' = tl st -> hz st' = hz st -> cnt st' = cnt st -> lhe st' = lhe st -> lera st' = lera st ->
  GS st t -> GS st' t.
Proof.
  intros Hc Ht Hz Hn Hl He. apply GS_ext; rewrite ?Ht, ?Hz, ?Hn, ?Hl, ?He; try reflexivity; try assumption; intros; split; reflexivity.
Qed.

Lemma guard_le k : ctx_ok k -> guard_of nslots k <= nslots.
Proof. destruct k; cbn [guard_of ctx_ok]; lia. Qed.

(** every guard with a hazard era holds a node: what [g_rest] says while thread t is not inside an acquire *)
Definition rest_ok (st : state) (t : nat) : Prop :=
  forall g, he (gd (tl st t) g) <> None -> ptr (gd (tl st t) g) <> None.

Lemma rest_ok_drop st st' t g :
  (forall g', gd (tl st' t) g' = upd (gd (tl st t)) g g0 g') ->
  (forall g', g' <> g -> he (gd (tl st t) g') <> None -> ptr (gd (tl st t) g') <> None) -> rest_ok st' t.
Proof.
  intros E H g'. rewrite E. destruct (Nat.eq_dec g' g) as [->|Hne]; upds; [intros Hc; exfalso; apply Hc; reflexivity|apply H; exact Hne].
Qed.

(** thread t moves to program point [p] *)
Lemma GT_pc st t p :
  GS st t -> (uses_tmp p = false -> he (gd (tl st t) nslots) = None) ->
  (forall g, ~ in_acq p g -> he (gd (tl st t) g) <> None -> ptr (gd (tl st t) g) <> None) ->
  pcG st (tl st t) p -> GT (set_pc t p st) t.
Proof.
  intros HS Ht Hr Hp. constructor; prj; upds; [apply (GS_strip st); [reflexivity..|exact HS]|exact Ht|exact Hr|exact Hp].
Qed.

Lemma GT_finish st t r e st' es :
  GS st t -> he (gd (tl st t) nslots) = None -> rest_ok st t -> finish st t r e = Some (st', es) -> GT st' t.
Proof.
  intros HS Ht Hr H. injection H as <- _. apply GT_pc; [exact HS|intros _; exact Ht|intros g _; apply Hr|exact I].
Qed.

(** the destructor of the temporary guard *)
Lemma GT_ret_reset st t r e st' es :
  GS st t -> rest_ok st t -> ret_reset nslots st t r e = Some (st', es) -> GT st' t.
Proof.
  intros HS Hr H. apply release_then_inv in H. destruct H as [[Hn H]|(b & i & Hb & Hg & [[Hc H]|[Hc H]])].
  - apply (GT_finish st t r e st' es HS Hn Hr H).
  - injection H as <- _. apply GT_pc; [exact HS|discriminate|intros g _; apply Hr|].
    split; [congruence|]. intros b' i' Hb' Hg'. congruence.
  - apply (GT_finish _ t r e) in H; [exact H|apply GS_unshare; assumption| |].
    + rewrite unshare_gd. upds. reflexivity.
    + apply (rest_ok_drop st _ t nslots); [intros g'; rewrite unshare_gd; reflexivity|intros g' _; apply Hr].
Qed.

Lemma GS_deref_g st t g : GS st t -> GS (deref_g g st) t.
Proof. intros H. unfold deref_g. destruct (ptr g); [apply (GS_strip st); [reflexivity..|exact H]|exact H]. Qed.
Lemma tl_deref_g g st : tl (deref_g g st) = tl st.
Proof. unfold deref_g. destruct (ptr g); reflexivity. Qed.

(** acquire has returned: every guard holds a node or has no hazard era *)
Lemma GT_acq_done st t k e st' es :
  GS st t -> ctx_ok k -> rest_ok st t -> (is_tmp k = false -> he (gd (tl st t) nslots) = None) ->
  acq_done nslots st t k e = Some (st', es) -> GT st' t.
Proof.
  intros HS Hk Hr Ht H. unfold acq_done in H. destruct k as [c fresh|c|c g].
  - destruct fresh; injection H as <- _; (apply GT_pc; [|discriminate|intros g _; exact (Hr g)|exact I]); [|exact HS].
    apply (GS_strip st); [reflexivity..|exact HS].
  - apply GT_ret_reset in H; [exact H|apply GS_deref_g; exact HS|unfold rest_ok; rewrite tl_deref_g; exact Hr].
  - apply GT_finish in H; [exact H|apply GS_deref_g; exact HS|rewrite tl_deref_g; apply Ht; reflexivity|unfold rest_ok; rewrite tl_deref_g; exact Hr].
Qed.

(** thread t has no hazard era at all *)
Lemma GT_none st t p :
  GS st t -> (forall g, he (gd (tl st t) g) = None) -> pcG st (tl st t) p -> GT (set_pc t p st) t.
Proof.
  intros HS Hn Hp. apply GT_pc; [exact HS|intros _; apply Hn|intros g _ Hg; exfalso; apply Hg; apply Hn|exact Hp].
Qed.

(** alloc_hazard_era for the guard of the acquire [k]; [Hca]: a cache hit finds a slot that publishes [era] *)
Lemma GT_alloc_he st t k era e st' es :
  GS st t -> ctx_ok k -> era <= clock st -> he (gd (tl st t) (guard_of nslots k)) = None ->
  (forall g, g <> guard_of nslots k -> he (gd (tl st t) g) <> None -> ptr (gd (tl st t) g) <> None) ->
  (is_tmp k = false -> he (gd (tl st t) nslots) = None) ->
  (forall b l, rcd (tl st t) = Some b -> lhe st b = Some l -> lera st b = era -> hz st b l = VEra era) ->
  alloc_he nslots st t k era e = Some (st', es) -> GT st' t.
Proof.
  intros HS Hk He Hg Hr Ht Hca H.
  assert (Hti : he (gd (tl st t) nslots) = None) by (destruct k; first [exact Hg | apply Ht; reflexivity]).
  set (gi := guard_of nslots k) in *.
  assert (Hp : ptr (gd (tl st t) gi) = None).
  { destruct (ptr (gd (tl st t) gi)) eqn:E; [|reflexivity]. exfalso. apply (g_ptr st t HS gi n E Hg). }
  assert (Hro : rest_ok st t).
  { intros g. destruct (Nat.eq_dec g gi) as [->|Hne]; [intros Hc; exfalso; apply Hc; exact Hg|apply Hr; exact Hne]. }
  assert (Hfresh : match hint (tl st t) with Some _ => Some (set_pc t (H1 k era) st, e) | None => throw st t e end = Some (st', es) -> GT st' t).
  { destruct (hint (tl st t)); intros H'; [|apply GT_finish in H'; [exact H'|apply (GS_strip st); [reflexivity..|exact HS]|exact Hti|exact Hro]].
    injection H' as <- _. apply GT_pc; [exact HS|intros _; exact Hti|intros g Hng; apply Hr; exact Hng|]. repeat split; assumption. }
  unfold alloc_he in H. fold gi in H. destruct (rcd (tl st t)) as [b|] eqn:Hb; [|discriminate H].
  destruct (lhe st b) as [l|] eqn:Hl; [|exact (Hfresh H)].
  destruct (Nat.eqb_spec (lera st b) era) as [Hle|Hle]; [|exact (Hfresh H)].
  injection H as <- _. apply GT_pc.
  - apply (GS_share st t b l gi); try assumption; [apply guard_le; exact Hk|reflexivity|reflexivity].
  - intros Hk'. rewrite set_gd_gd. destruct k; try discriminate Hk'. cbn [ctx_ok guard_of] in *. subst gi. upds. exact Hti.
  - intros g Hng. rewrite set_gd_gd. unfold in_acq in Hng. cbn [acq_of] in Hng. fold gi in Hng. upds. apply Hr. exact Hng.
  - split; [exact Hk|]. split; [exact He|]. fold gi. rewrite set_gd_gd. upds. split; [|discriminate].
    intros b' i' Hb' Hi'. injection Hi' as <-. rewrite set_gd_tl in Hb'. prjh Hb'. rewrite Hb in Hb'. injection Hb' as <-. apply (Hca b l eq_refl Hl Hle).
Qed.

Lemma ush_he st st1 t g : ush t st st1 -> he (gd (tl st t) g) = None -> he (gd (tl st1 t) g) = None.
Proof. intros Hu H. destruct (sb_gd _ _ _ (ush_same _ _ _ Hu) g) as [->|[-> _]]; [exact H|reflexivity]. Qed.

Lemma ush_keep st st1 t g : ush t st st1 -> he (gd (tl st1 t) g) <> None -> gd (tl st1 t) g = gd (tl st t) g.
Proof. intros Hu H. destruct (sb_gd _ _ _ (ush_same _ _ _ Hu) g) as [E|[E _]]; [exact E|rewrite E in H; cbn in H; congruence]. Qed.

Lemma ush_none s0 st1 t lo :
  ush t s0 st1 -> (forall j, lo <= j < nslots -> he (gd (tl st1 t) j) = None) ->
  (forall j, j < lo \/ nslots <= j -> he (gd (tl s0 t) j) = None) -> forall g, he (gd (tl st1 t) g) = None.
Proof.
  intros Hu H1 H2 g. destruct (Nat.lt_ge_cases g lo); [apply (ush_he _ _ _ _ Hu); apply H2; lia|].
  destruct (Nat.lt_ge_cases g nslots); [apply H1; lia|apply (ush_he _ _ _ _ Hu); apply H2; lia].
Qed.

Lemma none_high st t : GS st t -> he (gd (tl st t) nslots) = None -> forall j, nslots <= j -> he (gd (tl st t) j) = None.
Proof.
  intros HS H j Hj. destruct (Nat.eq_dec j nslots) as [->|Hne]; [exact H|apply (g_hi st t HS); lia].
Qed.

Lemma cache_era st t b l :
  GS st t -> rcd (tl st t) = Some b -> lhe st b = Some l -> lera st b = clock st -> hz st b l = VEra (clock st).
Proof.
  intros HS Hb Hl He. destruct (g_last st t HS b l Hb Hl) as (H1 & H2 & H3).
  destruct (g_era st t HS b l Hb H1 H2) as [e Hz]. pose proof (g_le st t HS b l e Hb Hz). rewrite Hz in *. cbn [era_of] in H3.
  f_equal. lia.
Qed.

Lemma slot_era st t b g i :
  GS st t -> rcd (tl st t) = Some b -> he (gd (tl st t) g) = Some i -> exists e, hz st b i = VEra e /\ e <= clock st.
Proof.
  intros HS Hb Hg. destruct (g_lt st t HS g i Hg) as [Hi _].
  destruct (g_era st t HS b i Hb Hi (on_cnt st t b g i HS Hb Hg)) as [e Hz]. exists e. split; [exact Hz|apply (g_le st t HS b i e Hb Hz)].
Qed.

Lemma GT_acq_begin st t k e st' es :
  GS st t -> ctx_ok k -> he (gd (tl st t) nslots) = None -> rest_ok st t ->
  acq_begin nslots st t k e = Some (st', es) -> GT st' t.
Proof.
  intros HS Hk Ht Hr H. unfold acq_begin in H. destruct (he (gd (tl st t) (guard_of nslots k))) eqn:Hg; injection H as <- _;
    (apply GT_pc; [exact HS|intros _; exact Ht|intros g _; apply Hr|]).
  - split; [exact Hk|congruence].
  - split; [exact Hk|]. split; [lia|]. split; [intros b i _ Hc; congruence|reflexivity].
Qed.

(** the acquire [k] found a null pointer: its guard has been emptied in [st1] *)
Lemma GT_acq_null st st1 t k e st' es :
  GS st1 t -> ctx_ok k -> (forall g, gd (tl st1 t) g = upd (gd (tl st t)) (guard_of nslots k) g0 g) ->
  (forall g, g <> guard_of nslots k -> he (gd (tl st t) g) <> None -> ptr (gd (tl st t) g) <> None) ->
  (is_tmp k = false -> he (gd (tl st t) nslots) = None) ->
  acq_done nslots st1 t k e = Some (st', es) -> GT st' t.
Proof.
  intros HS Hk Hg Hr Ht H. apply GT_acq_done in H; [exact H|exact HS|exact Hk|apply (rest_ok_drop st _ t _ Hg Hr)|].
  intros Hk'. rewrite Hg. destruct k; try discriminate Hk'. cbn [ctx_ok guard_of] in *. upds. apply Ht. reflexivity.
Qed.

Lemma GT_walk st t k p l e st' es :
  GS st t -> ctx_ok k -> p <= clock st -> (forall g, he (gd (tl st t) g) = None) ->
  walk st t k p l e = Some (st', es) -> GT st' t.
Proof.
  intros HS Hk Hp Hn H. unfold walk in H. destruct l as [|r rest]; injection H as <- _; apply GT_none.
  - apply (GS_strip st); [reflexivity..|exact HS].
  - exact Hn.
  - repeat split; assumption.
  - exact HS.
  - exact Hn.
  - repeat split; assumption.
Qed.

(** a program point outside acquire that does not use the temporary guard *)
Lemma GT_quiet st t p :
  GS st t -> he (gd (tl st t) nslots) = None -> rest_ok st t -> acq_of p = None -> pcG st (tl st t) p -> GT (set_pc t p st) t.
Proof.
  intros HS Ht Hr Ha Hp. apply GT_pc; [exact HS|intros _; exact Ht| |exact Hp]. intros g _. apply Hr.
Qed.

Lemma GT_scan_next st t s l e st' es :
  GS st t -> he (gd (tl st t) nslots) = None -> rest_ok st t -> (sk_exit (s_k s) -> forall g, he (gd (tl st t) g) = None) ->
  scan_next st t s l e = Some (st', es) -> GT st' t.
Proof.
  intros HS Ht Hr Hn H. unfold scan_next in H. destruct l; injection H as <- _; apply GT_quiet; try assumption; reflexivity.
Qed.

Lemma GT_exit_rel st t e st' es :
  GS st t -> (forall g, he (gd (tl st t) g) = None) -> exit_rel st t e = Some (st', es) -> GT st' t.
Proof.
  intros HS Hn H. unfold exit_rel in H. destruct (rcd (tl st t)); injection H as <- _; apply GT_none; assumption.
Qed.

(** thread_end from guard [g] on: the guards below [g] have been reset already *)
Lemma GT_exit_guards st t g f e st' es :
  GS st t -> g + f = nslots -> rest_ok st t -> (forall j, j < g \/ nslots <= j -> he (gd (tl st t) j) = None) ->
  exit_guards st t g f e = Some (st', es) -> GT st' t.
Proof.
  intros HS Hgf Hr Hn H. apply exit_guards_spec in H.
  destruct H as (st1 & Hu & [(g' & b & i & Hg1 & Hg2 & Hg3 & Hg4 & Hg5 & H)|[Hg1 H]]); pose proof (GS_ush st st1 t Hu HS) as HS1.
  - injection H as <- _. apply GT_quiet; [exact HS1| | |reflexivity|].
    + apply (ush_he _ _ _ _ Hu). apply Hn. lia.
    + intros gq Hh. pose proof (ush_keep _ _ _ gq Hu Hh) as Hk. rewrite Hk in *. apply Hr. exact Hh.
    + split; [lia|]. split; [congruence|]. split; [intros b' i' Hb' Hi'; congruence|].
      intros j Hj. destruct (Nat.lt_ge_cases j g); [apply (ush_he _ _ _ _ Hu); apply Hn; lia|apply Hg5; lia].
  - assert (Hn1 : forall j, he (gd (tl st1 t) j) = None) by (apply (ush_none st st1 t g Hu); [intros j Hj; apply Hg1; lia|exact Hn]).
    unfold exit_td in H. destruct (is_nil (rl (tl st1 t))); [apply (GT_exit_rel st1 t e st' es HS1 Hn1 H)|].
    injection H as <- _. apply GT_none; [exact HS1|exact Hn1|intros _; exact Hn1].
Qed.

Lemma GS_set_rl st st' t l :
  GS st t -> clock st <= clock st' -> tl st' t = wt_rl l (tl st t) ->
  hz st' = hz st -> cnt st' = cnt st -> lhe st' = lhe st -> lera st' = lera st -> GS st' t.
Proof.
  intros HS Hc Ht Hz Hn Hl He. apply (GS_ext st); rewrite ?Ht, ?Hz, ?Hn, ?Hl, ?He; try reflexivity; try assumption; intros; split; reflexivity.
Qed.

(** thread t (which has no control block) becomes the owner of block [b], which was nobody's *)
Lemma GT_new_block st st1 t b k e :
  GS st t -> InvF st -> (forall u, rcd (tl st u) <> Some b) -> rcd (tl st t) = None -> ctx_ok k -> e <= clock st ->
  tl st1 = tl st -> clock st1 = clock st -> hz st1 = hz st -> cnt st1 = cnt st -> lhe st1 = lhe st ->
  GT (set_pc t (I0 k e) (set_tl t (wt_rcd (Some b) (tl st t)) st1)) t.
Proof.
  intros HS HF Hb Hr Hk He Et Ec Ez En El. pose proof (no_rcd_no_he st t HS Hr) as Hn.
  pose proof (g_nofl _ _ HS Hr) as Hf. pose proof (g_hint _ _ HS) as Hh. rewrite Hf in Hh.
  apply GT_none.
  - apply (GS_fresh st); prj; upds; prj; rewrite ?Ec, ?Ez, ?En, ?El; try assumption; try reflexivity.
    intros b' Hb'. injection Hb' as <-. apply (HF b Hb).
  - intros g. prj. upds. apply Hn.
  - prj. upds. cbn [pcG]. prj. rewrite Ec. repeat split; assumption.
Qed.

(** guard_ptr::reclaim: the temporary guard is reset, then the node is retired *)
Lemma GT_reclaim st t o e st' es :
  GS st t -> rest_ok st t ->
  release_then st t nslots (R2 o) e (fun st1 => Some (set_pc t (R3 o) st1, e)) = Some (st', es) -> GT st' t.
Proof.
  intros HS Hr H. apply release_then_inv in H.
  destruct H as [[Hn H]|(b & i & Hb & Hg & [[Hc H]|[Hc H]])]; injection H as <- _.
  - apply GT_pc; [exact HS|intros _; exact Hn|intros g _; apply Hr|exact I].
  - apply GT_pc; [exact HS|discriminate|intros g _; apply Hr|]. split; [congruence|]. intros b' i' Hb' Hi'. congruence.
  - apply GT_pc; [apply (GS_unshare _ t b i nslots HS Hb Hg Hc)|intros _; rewrite unshare_gd; upds; reflexivity| |exact I].
    intros g _. apply (rest_ok_drop st _ t nslots); [intros g'; rewrite unshare_gd; reflexivity|intros g' _; apply Hr].
Qed.

(** the end of a scan, in the state [st1] in which the nodes are freed *)
Lemma GT_scan_end st1 t s kept e st' es :
  GS st1 t -> he (gd (tl st1 t) nslots) = None -> rest_ok st1 t -> (sk_exit (s_k s) -> forall g, he (gd (tl st1 t) g) = None) ->
  match s_k s with
  | SRepl => finish st1 t r_ok e
  | SExit => if is_nil kept then exit_rel st1 t e else Some (set_pc t X2 st1, e)
  end = Some (st', es) -> GT st' t.
Proof.
  intros HS Ht Hr Hn H. destruct (s_k s); [apply (GT_finish st1 t r_ok e st' es HS Ht Hr H)|]. specialize (Hn I).
  destruct (is_nil kept); [apply (GT_exit_rel st1 t e st' es HS Hn H)|]. injection H as <- _. apply GT_none; assumption.
Qed.

(** ** a step of thread t: its own guards and slots *)
Lemma GT_step_own st t st' es :
  InvO st -> InvF st -> GT st t -> step nslots st (Step t) = Some (st', es) -> GT st' t.
Proof.
  intros HO HF [HS Htmp Hrest Hpc] Hs. cbn [step] in Hs. unfold in_acq in Hrest. pose proof (g_clk st t HS) as Hclk.
  assert (Hro : acq_of (th st t) = None -> rest_ok st t) by (intros E g; apply Hrest; rewrite E; tauto).
  destruct (th st t) eqn:Hth; try discriminate Hs; cbn [pcG uses_tmp acq_of is_tmp] in Hpc, Htmp, Hrest; try specialize (Hro eq_refl).
  - (* Begin *)
    pose proof (Htmp eq_refl) as Ht.
    destruct o; try (apply (GT_acq_begin st t _ _ st' es HS) in Hs; [exact Hs|first [exact I|exact Hpc]|exact Ht|exact Hro]).
    + apply GT_finish in Hs; [exact Hs|apply GS_deref_g; exact HS|rewrite tl_deref_g; exact Ht|unfold rest_ok; rewrite tl_deref_g; exact Hro].
    + cbn [opcode fst snd] in Hs.
      assert (Hd : forall st1 e, finish (set_gd t g g0 st1) t r_ok e = Some (st', es) ->
                     GS st1 t -> he (gd (tl st1 t) g) = None -> he (gd (tl st1 t) nslots) = None -> rest_ok st1 t -> GT st' t).
      { intros st1 e H HS1 Hg Ht1 Hr1. apply GT_finish in H; [exact H| | |].
        - apply GS_setptr; [exact HS1|symmetry; exact Hg|intros Hc; exfalso; apply Hc; reflexivity].
        - rewrite set_gd_gd. upds. exact Ht1.
        - apply (rest_ok_drop st1 _ t g); [intros g'; rewrite set_gd_gd; reflexivity|intros g' _; apply Hr1]. }
      apply release_then_inv in Hs. destruct Hs as [[Hn H]|(b & i & Hb & Hg & [[Hc H]|[Hc H]])].
      * apply (Hd st _ H HS Hn Ht Hro).
      * injection H as <- _. apply GT_quiet; [exact HS|exact Ht|exact Hro|reflexivity|].
        split; [exact Hpc|]. split; [congruence|]. intros b' i' Hb' Hi'. congruence.
      * apply (Hd _ _ H (GS_unshare st t b i g HS Hb Hg Hc)); [rewrite unshare_gd; upds; reflexivity|rewrite unshare_gd; upds; exact Ht|].
        apply (rest_ok_drop st _ t g); [intros g'; rewrite unshare_gd; reflexivity|intros g' _; apply Hro].
    + apply GT_exit_guards in Hs; [exact Hs|exact HS|reflexivity|exact Hro|].
      intros j [Hj|Hj]; [lia|apply (none_high st t HS Ht j Hj)].
  - (* G0 *) destruct Hpc as [Hk Hg]. destruct (rcd (tl st t)) as [b|] eqn:Hb; [|discriminate Hs].
    destruct (he (gd (tl st t) (guard_of nslots k))) as [i|] eqn:Hi; [|discriminate Hs]. injection Hs as <- _.
    destruct (slot_era st t b _ i HS Hb Hi) as (e0 & Hz & Hle). rewrite Hz. cbn [era_of].
    apply GT_pc; [exact HS|exact Htmp|exact Hrest|]. split; [exact Hk|]. split; [exact Hle|]. split; [|congruence].
    intros b' i' Hb' Hi'. congruence.
  - (* Q1 *) destruct Hpc as (Hk & Hp & Hz & H0).
    destruct (cells st (cell_of k)) as [p|]; [injection Hs as <- _; apply GT_pc; [exact HS|exact Htmp|exact Hrest|repeat split; assumption]|].
    apply release_then_inv in Hs. destruct Hs as [[Hn H]|(b & i & Hb & Hg & [[Hc H]|[Hc H]])].
    + apply (GT_acq_null st _ t k _ st' es) in H; [exact H| |exact Hk| |exact Hrest|exact Htmp].
      * apply GS_setptr; [exact HS|symmetry; exact Hn|intros Hc; exfalso; apply Hc; reflexivity].
      * intros g. rewrite set_gd_gd. reflexivity.
    + injection H as <- _. apply GT_pc; [exact HS|exact Htmp|exact Hrest|]. split; [exact Hk|]. split; [congruence|]. intros b' i' Hb' Hi'. congruence.
    + apply (GT_acq_null st _ t k _ st' es) in H; [exact H| |exact Hk| |exact Hrest|exact Htmp].
      * apply GS_setptr; [apply GS_unshare; assumption|rewrite unshare_gd; upds; reflexivity|intros Hc'; exfalso; apply Hc'; reflexivity].
      * intros g. rewrite set_gd_gd, unshare_gd. apply upd_upd.
  - (* Q2 *) destruct Hpc as (Hk & Hp & Hz & H0).
    destruct (Nat.eqb_spec (clock st) prev) as [Hce|Hce].
    + apply GT_acq_done in Hs; [exact Hs| |exact Hk| |].
      * apply GS_setptr; [exact HS|reflexivity|]. intros _ Hn. cbn [he] in Hn. specialize (H0 Hn). lia.
      * intros g. rewrite set_gd_gd. destruct (Nat.eq_dec g (guard_of nslots k)) as [->|Hne]; upds; [intros _; discriminate|apply Hrest; exact Hne].
      * intros Hk'. rewrite set_gd_gd. destruct k; try discriminate Hk'. cbn [ctx_ok guard_of] in *. upds. apply Htmp. reflexivity.
    + destruct (he (gd (tl st t) (guard_of nslots k))) as [i|] eqn:Hi.
      * destruct (rcd (tl st t)) as [b|] eqn:Hb; [|discriminate Hs]. destruct (Nat.eqb_spec (cnt st b i) 1) as [Hc|Hc].
        -- injection Hs as <- _. apply GT_pc; [exact HS|exact Htmp|exact Hrest|]. 
           split; [exact Hk|]. split; [lia|]. split; [congruence|]. split; [intros b' i' Hb' Hi'; congruence|].
           intros b' i' Hb' Hi'. rewrite Hb in Hb'. rewrite Hi in Hi'. rewrite (Hz b' i' Hb' Hi'). exact Hp.
        -- pose proof (GS_unshare st t b i (guard_of nslots k) HS Hb Hi Hc) as HSu.
           apply GT_alloc_he in Hs; [exact Hs|exact HSu|exact Hk|exact (le_n _)|rewrite unshare_gd; upds; reflexivity| | |].
           ++ intros g Hne. rewrite unshare_gd. upds. apply Hrest. exact Hne.
           ++ intros Hk'. rewrite unshare_gd. destruct k; try discriminate Hk'. cbn [ctx_ok guard_of] in *. upds. apply Htmp; reflexivity.
           ++ intros b' l Hb' Hl Hle. apply (cache_era _ t b' l HSu Hb' Hl Hle).
      * destruct (rcd (tl st t)) as [b|] eqn:Hb.
        -- apply GT_alloc_he in Hs; [exact Hs|exact HS|exact Hk|exact (le_n _)|exact Hi|exact Hrest|exact Htmp|].
           intros b' l Hb' Hl Hle. apply (cache_era st t b' l HS Hb' Hl Hle).
        -- injection Hs as <- _. apply GT_none; [exact HS|apply (no_rcd_no_he st t HS Hb)|]. split; [exact Hk|]. split; [lia|apply (no_rcd_no_he st t HS Hb)].
  - (* W0 *) destruct Hpc as (Hk & He & Hn). apply (GT_walk st t k e _ _ st' es HS Hk He Hn Hs).
  - (* W1 *) destruct Hpc as (Hk & He & Hn).
    destruct (est st r =? 0); [injection Hs as <- _; apply GT_none; [exact HS|exact Hn|repeat split; assumption]|apply (GT_walk st t k e rest _ st' es HS Hk He Hn Hs)].
  - (* W2 *) destruct Hpc as (Hk & He & Hn). destruct (Nat.eqb_spec (est st r) 0) as [Hz|Hz]; [|apply (GT_walk st t k e rest _ st' es HS Hk He Hn Hs)].
    injection Hs as <- _. apply GT_new_block; try assumption; try reflexivity.
    + intros u Hu. destruct (O_rcd st HO u r Hu) as (_ & _ & Hc). contradiction.
    + apply (O_seek st HO). rewrite Hth. reflexivity.
  - (* A1 *) destruct Hpc as (Hk & He & Hn). injection Hs as <- _. apply GT_none; [apply (GS_strip st); [reflexivity..|exact HS]|exact Hn|repeat split; assumption].
  - (* A2 *) destruct Hpc as (Hk & He & Hn). injection Hs as <- _. apply GT_none; [exact HS|exact Hn|repeat split; assumption].
  - (* A3 *) destruct Hpc as (Hk & He & Hn).
    destruct (oeqb (hd_opt (blist st)) h); injection Hs as <- _; [|apply GT_none; [exact HS|exact Hn|repeat split; assumption]].
    apply GT_new_block; try assumption; try reflexivity.
    + intros u Hu. destruct (O_rcd st HO u b Hu) as (_ & Hc & _). destruct (O_pend st HO t b) as (_ & Hc' & _); [rewrite Hth; reflexivity|contradiction].
    + apply (O_seek st HO). rewrite Hth. reflexivity.
  - (* I0 *) destruct Hpc as (Hk & He & Hn & Hf). injection Hs as <- _.
    apply GT_none; [apply (GS_strip st); [reflexivity..|exact HS]|exact Hn|]. repeat split; try assumption; [lia|intros b j _ Hj; lia].
  - (* I1 *) destruct Hpc as (Hk & He & Hn & Hf & Hi & Hz). destruct (rcd (tl st t)) as [b|] eqn:Hb; [|discriminate Hs].
    destruct (none_cnt st t b HS Hb Hn) as [Hc Hl]. pose proof (g_hint _ _ HS) as Hh. rewrite Hf in Hh.
    assert (Hle : forall ii ee, upd2 (hz st) b i (VLink (if i <? 2 then Some (S i) else None)) b ii = VEra ee -> ee <= clock st).
    { intros ii ee. rewrite upd2_same_block. destruct (Nat.eqb_spec ii i); [discriminate|apply (g_le st t HS b ii ee Hb)]. }
    destruct (Nat.ltb_spec i 2) as [Hi2|Hi2]; injection Hs as <- _; apply GT_none.
    + apply (GS_fresh st); prj; upds; prj; try assumption; try reflexivity. intros b' Hb'. rewrite Hb in Hb'. injection Hb' as <-. repeat split; assumption.
    + exact Hn.
    + cbn [pcG]; prj. repeat split; try assumption; try lia. intros b' j Hb' Hj. rewrite Hb in Hb'. injection Hb' as <-. rewrite upd2_same_block.
      destruct (Nat.eqb_spec j i) as [->|Hne]; [unfold init_link; destruct (Nat.ltb_spec i 2); [reflexivity|lia]|apply Hz; [reflexivity|lia]].
    + assert (i = 2) by lia. subst i. apply (GS_initialized st _ t b); prj; upds; prj; try assumption; try reflexivity.
      intros j Hj. rewrite upd2_same_block. destruct (Nat.eqb_spec j 2) as [->|Hne]; [reflexivity|apply Hz; [reflexivity|lia]].
    + intros g. rewrite set_tl_same. apply Hn.
    + rewrite set_tl_same. repeat split; assumption.
  - (* I2 *) destruct Hpc as (Hk & He & Hn). destruct (rcd (tl st t)) as [b|] eqn:Hb; [|discriminate Hs].
    apply GT_alloc_he in Hs; [exact Hs|apply (GS_strip st); [reflexivity..|exact HS]|exact Hk|exact He|apply Hn| | |].
    + intros g _ Hc. exfalso. apply Hc. apply Hn.
    + intros _. apply Hn.
    + intros b' l Hb' Hl. exfalso. destruct (none_cnt st t b' HS Hb' Hn) as [_ Hl']. prjh Hl. congruence.
  - (* H1 *) destruct Hpc as (Hk & He & Hg & Hp). destruct (rcd (tl st t)) as [b|] eqn:Hb; [|discriminate Hs].
    destruct (hint (tl st t)) as [i|] eqn:Hh; [|discriminate Hs]. injection Hs as <- _.
    destruct (GS_take st t b i HS Hb Hh) as (HS' & Hi & Hni & Hc).
    apply GT_pc; [exact HS'|rewrite set_tl_same; exact Htmp|intros g; rewrite set_tl_same; apply Hrest|].
    rewrite set_tl_same. repeat split; try assumption; try discriminate. intros b' Hb'. prjh Hb'. prj. congruence. prj. congruence.
  - (* E1 *) destruct Hpc as (Hk & He & Hg & Hp & Hi & Hni & Hc & Hr). destruct (rcd (tl st t)) as [b|] eqn:Hb; [|discriminate Hs]. injection Hs as <- _.
    apply GT_pc; [apply (GS_storeE st t b i e HS Hb Hi Hni (Hc b eq_refl) He)|exact Htmp|exact Hrest|].
    cbn [pcG]. prj. split; [exact Hk|]. split; [exact He|]. split; [exact Hg|]. split; [exact Hp|]. split; [exact Hi|]. split; [exact Hni|]. split; [|rewrite Hb; discriminate].
    intros b' Hb'. rewrite Hb in Hb'. injection Hb' as <-. split; [apply (Hc b eq_refl)|apply upd2_same].
  - (* E2 *) destruct Hpc as (Hk & He & Hg & Hp & Hi & Hni & Hc & Hr). destruct (rcd (tl st t)) as [b|] eqn:Hb; [|discriminate Hs]. injection Hs as <- _.
    destruct (Hc b eq_refl) as [Hc0 Hz]. apply GT_pc.
    + apply GS_commit; try assumption; [apply (guard_le k Hk)|reflexivity..].
    + intros Hk'. rewrite set_gd_gd. destruct k; try discriminate Hk'. cbn [ctx_ok guard_of] in *. upds. apply Htmp; reflexivity.
    + intros g Hne. rewrite set_gd_gd. unfold in_acq in Hne. cbn [acq_of] in Hne. upds. apply Hrest. exact Hne.
    + rewrite set_gd_tl. cbn [pcG]. prj. upds. split; [exact Hk|]. split; [exact He|]. split; [|discriminate].
      intros b' i' Hb' Hi'. injection Hi' as <-. rewrite Hb in Hb'. injection Hb' as <-. exact Hz.
  - (* U1 *) destruct Hpc as (Hk & He & Hg & Hso & Hold). destruct (rcd (tl st t)) as [b|] eqn:Hb; [|discriminate Hs].
    destruct (he (gd (tl st t) (guard_of nslots k))) as [i|] eqn:Hi; [|discriminate Hs]. injection Hs as <- _. apply GT_pc.
    + apply GS_storeU; try assumption; [apply (Hold b i eq_refl eq_refl)|reflexivity..].
    + intros Hk'. rewrite set_gd_gd. destruct k; try discriminate Hk'. cbn [ctx_ok guard_of] in *. upds. apply Htmp; reflexivity.
    + intros g Hne. rewrite set_gd_gd. unfold in_acq in Hne. cbn [acq_of] in Hne. upds. apply Hrest. exact Hne.
    + rewrite set_gd_tl. cbn [pcG]. prj. upds. split; [exact Hk|]. split; [exact He|]. split; [discriminate|].
      intros b' i' Hb' Hi'. injection Hi' as <-. rewrite Hb in Hb'. injection Hb' as <-. apply upd2_same.
  - (* U2 *) destruct Hpc as (Hk & He & Hg & Hz). injection Hs as <- _.
    apply GT_pc; [exact HS|exact Htmp|exact Hrest|]. split; [exact Hk|]. split; [exact He|]. split; [exact Hz|intros Hn; contradiction].
  - (* QR *) destruct Hpc as (Hk & Hg & Hso). destruct (rcd (tl st t)) as [b|] eqn:Hb; [|discriminate Hs].
    destruct (he (gd (tl st t) (guard_of nslots k))) as [i|] eqn:Hi; [|discriminate Hs].
    apply (GT_acq_null st _ t k _ st' es) in Hs; [exact Hs|apply (GS_reset st t b i _ HS Hb Hi (Hso b i Hb Hi))|exact Hk| |exact Hrest|exact Htmp].
    intros g. rewrite reset_gd. reflexivity.
  - (* C1 *) injection Hs as <- _. apply GT_pc; [apply (GS_strip st); [reflexivity..|exact HS]|discriminate|intros g _; exact (Hro g)|exact I].
  - (* R1 *)
    assert (Hst : forall s, tl s = tl st -> clock s = clock st -> hz s = hz st -> cnt s = cnt st -> lhe s = lhe st -> lera s = lera st ->
                  GS s t /\ rest_ok s t).
    { intros s E1 E2 E3 E4 E5 E6. split; [apply (GS_strip st); [rewrite E2; reflexivity|assumption..|exact HS]|unfold rest_ok; rewrite E1; exact Hro]. }
    destruct (oeqb (cells st c) (ptr (gd (tl st t) nslots))).
    + destruct (ptr (gd (tl st t) nslots)) as [o|].
      * apply GT_reclaim in Hs; [exact Hs|apply Hst; destruct n; reflexivity..].
      * apply GT_ret_reset in Hs; [exact Hs|apply Hst; destruct n; reflexivity..].
    + apply GT_ret_reset in Hs; [exact Hs|apply Hst; destruct n; reflexivity..].
  - (* R2 *) destruct Hpc as (Hg & Hso). destruct (rcd (tl st t)) as [b|] eqn:Hb; [|discriminate Hs].
    destruct (he (gd (tl st t) nslots)) as [i|] eqn:Hi; [|discriminate Hs]. injection Hs as <- _.
    apply GT_pc; [apply (GS_reset st t b i _ HS Hb Hi (Hso b i Hb Hi))|intros _; rewrite reset_gd; upds; reflexivity| |exact I].
    intros g _. apply (rest_ok_drop st _ t nslots (fun g' => f_equal (fun f => f g') (reset_gd st t b i nslots)) (fun g' _ => Hro g')).
  - (* R3 *) injection Hs as <- _. apply GT_quiet; [|rewrite set_tl_same; exact (Htmp eq_refl)|unfold rest_ok; rewrite set_tl_same; exact Hro|reflexivity|exact I].
    apply (GS_set_rl st _ t (o :: rl (tl st t)) HS); [prj; lia|apply set_tl_same|reflexivity..].
  - (* RR *) destruct Hpc as (Hg & Hso). destruct (rcd (tl st t)) as [b|] eqn:Hb; [|discriminate Hs].
    destruct (he (gd (tl st t) nslots)) as [i|] eqn:Hi; [|discriminate Hs].
    apply GT_finish in Hs; [exact Hs|apply (GS_reset st t b i _ HS Hb Hi (Hso b i Hb Hi))|rewrite reset_gd; upds; reflexivity|].
    apply (rest_ok_drop st _ t nslots (fun g' => f_equal (fun f => f g') (reset_gd st t b i nslots)) (fun g' _ => Hro g')).
  - (* T1 *) injection Hs as <- _. apply GT_quiet; [exact HS|exact (Htmp eq_refl)|exact Hro|reflexivity|intros []].
  - (* S0 *) destruct (nact st =? 0); injection Hs as <- _; (apply GT_quiet; [|exact (Htmp eq_refl)|exact Hro|reflexivity|exact Hpc]);
      [exact HS|apply (GS_strip st); [reflexivity..|exact HS]].
  - (* S1 *) injection Hs as <- _. apply GT_quiet; [exact HS|exact (Htmp eq_refl)|exact Hro|reflexivity|exact Hpc].
  - (* S2 *) destruct (is_nil (aband st)); injection Hs as <- _; (apply GT_quiet; [exact HS|exact (Htmp eq_refl)|exact Hro|reflexivity|exact Hpc]).
  - (* S3 *) injection Hs as <- _. apply GT_quiet; [apply (GS_strip st); [reflexivity..|exact HS]|exact (Htmp eq_refl)|exact Hro|reflexivity|exact Hpc].
  - (* S4 *) apply (GT_scan_next st t s _ _ st' es HS (Htmp eq_refl) Hro Hpc Hs).
  - (* S5 *) destruct (est st r =? 2); [|apply (GT_scan_next st t s _ _ st' es HS (Htmp eq_refl) Hro Hpc Hs)].
    injection Hs as <- _. apply GT_quiet; [exact HS|exact (Htmp eq_refl)|exact Hro|reflexivity|exact Hpc].
  - (* S6 *)
    assert (Hq : forall st1 s1 e1, GS st1 t -> tl st1 = tl st -> s_k s1 = s_k s ->
       (if i <? 2 then Some (set_pc t (S6 s1 r rest (S i)) st1, e1) else scan_next st1 t s1 rest e1) = Some (st', es) -> GT st' t).
    { intros st1 s1 e1 HS1 Et Ek H. destruct (i <? 2).
      - injection H as <- _. apply GT_quiet; [exact HS1|rewrite Et; exact (Htmp eq_refl)|unfold rest_ok; rewrite Et; exact Hro|reflexivity|].
        cbn [pcG]. rewrite Et, Ek. exact Hpc.
      - apply GT_scan_next in H; [exact H|exact HS1|rewrite Et; exact (Htmp eq_refl)|unfold rest_ok; rewrite Et; exact Hro|rewrite Et, Ek; exact Hpc]. }
    destruct (hz st r i); [|unfold push in Hs; destruct (length (s_prot s) <? s_cap s)]; cbv beta iota in Hs;
      (apply Hq in Hs; [exact Hs| |reflexivity|reflexivity]); [exact HS|exact HS|apply (GS_strip st); [reflexivity..|exact HS]].
  - (* S7 *) apply GT_scan_end in Hs; [exact Hs| |rewrite set_tl_same; exact (Htmp eq_refl)|unfold rest_ok; rewrite set_tl_same; exact Hro|rewrite set_tl_same; exact Hpc].
    eapply (GS_set_rl st _ t _ HS); [reflexivity|apply set_tl_same|reflexivity..].
  - (* D1 *) destruct Hpc as (Hl & Hg & Hso). destruct (rcd (tl st t)) as [b|] eqn:Hb; [|discriminate Hs].
    destruct (he (gd (tl st t) g)) as [i|] eqn:Hi; [|discriminate Hs].
    apply GT_finish in Hs; [exact Hs|apply (GS_reset st t b i _ HS Hb Hi (Hso b i Hb Hi))|rewrite reset_gd; upds; exact (Htmp eq_refl)|].
    apply (rest_ok_drop st _ t g); [intros g'; rewrite reset_gd; reflexivity|intros g' _; apply Hro].
  - (* X0 *) destruct Hpc as (Hl & Hg & Hso & Hlow). destruct (rcd (tl st t)) as [b|] eqn:Hb; [|discriminate Hs].
    destruct (he (gd (tl st t) g)) as [i|] eqn:Hi; [|discriminate Hs].
    apply GT_exit_guards in Hs; [exact Hs|apply (GS_reset st t b i _ HS Hb Hi (Hso b i Hb Hi))|lia| |].
    + apply (rest_ok_drop st _ t g); [intros g'; rewrite reset_gd; reflexivity|intros g' _; apply Hro].
    + intros j Hj. rewrite reset_gd. destruct (Nat.eq_dec j g) as [->|Hne]; upds; [reflexivity|].
      destruct Hj as [Hj|Hj]; [apply Hlow; lia|apply (none_high st t HS (Htmp eq_refl) j Hj)].
  - (* X2 *) injection Hs as <- _. apply GT_none; assumption.
  - (* X3 *) destruct (oeqb (hd_opt (aband st)) h); [|injection Hs as <- _; apply GT_none; assumption].
    apply GT_exit_rel in Hs; [exact Hs| |intros g; rewrite set_tl_same; apply Hpc].
    eapply (GS_set_rl st _ t _ HS); [reflexivity|apply set_tl_same|reflexivity..].
  - (* X4 *) injection Hs as <- _. apply GT_none; [apply (GS_strip st); [reflexivity..|exact HS]|exact Hpc|exact Hpc].
  - (* X5 *) destruct (rcd (tl st t)) as [b|] eqn:Hb; [|discriminate Hs]. injection Hs as <- _.
    apply GT_none; [|intros g; rewrite set_tl_same; apply Hpc|intros g; rewrite set_tl_same; apply Hpc].
    apply (GS_fresh st); try rewrite set_tl_same; try assumption; try reflexivity. intros b' Hb'. discriminate Hb'.
Qed.

Lemma InvG_step st a st' es : InvO st -> InvG st -> InvF st -> step nslots st a = Some (st', es) -> InvG st'.
Proof.
  intros HO HG HF Hs t'. destruct a as [t o|t].
  - cbn [step] in Hs. destruct (th st t) eqn:Hth; try discriminate Hs. destruct (legal nslots o) eqn:Hl; [|discriminate Hs].
    injection Hs as <- <-. destruct (Nat.eq_dec t' t) as [->|Hne].
    + pose proof (HG t) as [I1 I2 I3 I4]. apply GT_pc; [exact I1|intros _; apply I2; rewrite Hth; reflexivity| |].
      * intros g _. apply I3. rewrite Hth. unfold in_acq. cbn. tauto.
      * destruct o; cbn [pcG legal] in *; try exact I; apply Nat.ltb_lt; exact Hl.
    + apply (GT_frame st); prj; upds; try reflexivity; try lia; try (intros; split; reflexivity). apply HG.
  - destruct (Nat.eq_dec t' t) as [->|Hne]; [apply (GT_step_own st t st' es HO HF (HG t) Hs)|].
    destruct (step_frame nslots st t st' es Hs) as (Hc & Ho & Hz & Hl & _). destruct (Ho t' Hne) as [Htl Hth].
    assert (Hb : forall b, rcd (tl st t') = Some b -> rcd (tl st t) <> Some b) by (intros b H1 H2; apply Hne; apply (own_inj st t' t b HO H1 H2)).
    apply (GT_frame st); [exact Hc|exact Htl|exact Hth|intros b i H; apply (Hz b (Hb b H))|intros b H; apply (Hl b (Hb b H))|apply HG].
Qed.

(** ** control blocks that belong to no thread's thread_data *)
Lemma InvF_step st a st' es : InvO st -> InvG st -> InvF st -> step nslots st a = Some (st', es) -> InvF st'.
Proof.
  intros HO HG HF Hs. destruct a as [t o|t].
  - cbn [step] in Hs. destruct (th st t) eqn:Hth; try discriminate Hs. destruct (legal nslots o) eqn:Hl; [|discriminate Hs].
    injection Hs as <- <-. exact HF.
  - destruct (step_frame nslots st t st' es Hs) as (Hc & Ho & Hz & Hl & Hk & _). intros b Hb.
    assert (Hd : rcd (tl st t) = Some b \/ rcd (tl st t) <> Some b).
    { destruct (rcd (tl st t)) as [b0|]; [destruct (Nat.eq_dec b0 b) as [->|]; [left; reflexivity|right; congruence]|right; discriminate]. }
    destruct Hd as [Hbt|Hbt].
    + (* t has released b: release_entry *)
      assert (Hsk : seek (th st t) = false).
      { destruct (seek (th st t)) eqn:E; [rewrite (O_seek st HO t E) in Hbt; discriminate|reflexivity]. }
      pose proof (HG t) as [HS _ _ Hpc]. cbn [step] in Hs.
      destruct (th st t) eqn:Hth; try (exfalso; apply (Hb t); apply Hk; [exact Hsk|discriminate|exact Hbt]).
      rewrite Hbt in Hs. injection Hs as <- _. destruct (none_cnt st t b HS Hbt Hpc) as [Hc0 Hl0].
      split; [exact Hc0|]. split; [exact Hl0|]. intros i e. apply (g_le st t HS b i e Hbt).
    + assert (Hn : forall u, rcd (tl st u) <> Some b).
      { intros u. destruct (Nat.eq_dec u t) as [->|Hne]; [exact Hbt|]. destruct (Ho u Hne) as [<- _]. apply Hb. }
      destruct (HF b Hn) as (F1 & F2 & F3). destruct (Hl b Hbt) as [-> _].
      split; [intros i Hi; destruct (Hz b Hbt i) as [_ ->]; apply F1; exact Hi|]. split; [exact F2|].
      intros i e. destruct (Hz b Hbt i) as [-> _]. intros H. pose proof (F3 i e H). lia.
Qed.

Lemma InvG_init ncells : InvG (init ncells).
Proof.
  intros t. constructor; [constructor|..]; cbn; intros; try discriminate; try reflexivity; try exact I; try lia.
  - split; [constructor|]. intros i [].
  - congruence.
Qed.

Lemma InvF_init ncells : InvF (init ncells).
Proof. intros b _. cbn. split; [reflexivity|]. split; [reflexivity|]. intros i e H. injection H as <-. lia. Qed.

(** the three layers so far, together *)
Lemma InvOGF_step st a st' es :
  InvO st /\ InvG st /\ InvF st -> step nslots st a = Some (st', es) -> InvO st' /\ InvG st' /\ InvF st'.
Proof.
  intros (HO & HG & HF) Hs. split; [apply (InvO_step nslots st a st' es HO Hs)|].
  split; [apply (InvG_step st a st' es HO HG HF Hs)|apply (InvF_step st a st' es HO HG HF Hs)].
Qed.

(** a guard that refers to a slot: the control block is active *)
Lemma guard_active st t b g i :
  InvO st -> GT st t -> rcd (tl st t) = Some b -> he (gd (tl st t) g) = Some i -> est st b = 2.
Proof.
  intros HO HG Hb Hg. destruct (Nat.eq_dec (est st b) 2) as [He|He]; [exact He|]. exfalso.
  pose proof (O_act st HO t b Hb He) as Hi. pose proof (g_pc st t HG) as Hpc.
  destruct (th st t); cbn [inI] in Hi; try discriminate Hi; cbn [pcG] in Hpc.
  - destruct Hpc as (_ & _ & Hn & _). rewrite Hn in Hg. discriminate.
  - destruct Hpc as (_ & _ & Hn & _). rewrite Hn in Hg. discriminate.
  - destruct Hpc as (_ & _ & Hn). rewrite Hn in Hg. discriminate.
Qed.
End G.
