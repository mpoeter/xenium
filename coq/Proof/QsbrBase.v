(** Structural invariants of the quiescent state based reclamation model (Model/QsbrDefs.v): the frame of a step,
    the thread-local shape of every program point ([tshape]: which program points own a control block, the
    region counter = number of non-empty guards of the thread + its region_guard), exclusive ownership of thread
    control blocks ([O0]).  Used by the other Proof/Qsbr*.v files.  No axioms. *)
From Coq Require Import NArith List Bool Arith Lia PeanoNat.
From XV Require Import Conc.Lts Conc.Ev Model.QsbrDefs.
Import ListNotations.
Local Open Scope N_scope.

(** * Function updates *)
Lemma updN_same {X} (f : N -> X) i v : updN f i v i = v.
Proof. unfold updN. rewrite N.eqb_refl. reflexivity. Qed.
Lemma updN_other {X} (f : N -> X) i v j : j <> i -> updN f i v j = f j.
Proof. unfold updN. intros H. destruct (N.eqb_spec j i); [contradiction|reflexivity]. Qed.
Lemma updN_cases {X} (f : N -> X) i v j : (j = i /\ updN f i v j = v) \/ (j <> i /\ updN f i v j = f j).
Proof. destruct (N.eq_dec j i) as [->|H]; [left; split; [reflexivity|apply updN_same] | right; split; [exact H|apply updN_other; exact H]]. Qed.
Lemma upd_cases {X} (f : nat -> X) i v j : (j = i /\ upd f i v j = v) \/ (j <> i /\ upd f i v j = f j).
Proof. destruct (Nat.eq_dec j i) as [->|H]; [left; split; [reflexivity|apply upd_same] | right; split; [exact H|apply upd_other; exact H]]. Qed.

Ltac prj := cbn [gep blist bstate blocal aband otgt ocont cells nalloc nextid nid th tl g_gepc g_lepc g_owner g_life g_where g_nfree g_uaf
                 w_gep w_blist w_bstate w_blocal w_aband w_otgt w_ocont w_cells w_nalloc w_nextid w_nid w_th w_tl w_g_gepc w_g_lepc w_g_owner w_g_life w_g_where w_g_nfree w_g_uaf
                 set_pc set_tl free_all deref
                 cb nest rg rl gs wt_cb wt_nest wt_rg wt_rl wt_gs tl0].
Ltac prj_in H := cbn [gep blist bstate blocal aband otgt ocont cells nalloc nextid nid th tl g_gepc g_lepc g_owner g_life g_where g_nfree g_uaf
                 w_gep w_blist w_bstate w_blocal w_aband w_otgt w_ocont w_cells w_nalloc w_nextid w_nid w_th w_tl w_g_gepc w_g_lepc w_g_owner w_g_life w_g_where w_g_nfree w_g_uaf
                 set_pc set_tl free_all deref
                 cb nest rg rl gs wt_cb wt_nest wt_rg wt_rl wt_gs tl0] in H.

Lemma oeqb_eq a b : oeqb a b = true <-> a = b.
Proof.
  destruct a as [x|], b as [y|]; cbn; split; intros H; try congruence; try discriminate.
  - apply N.eqb_eq in H. congruence.
  - inversion H. apply N.eqb_refl.
Qed.

Lemma memN_In n l : memN n l = true <-> In n l.
Proof.
  unfold memN. rewrite existsb_exists. split.
  - intros (x & Hx & E). apply N.eqb_eq in E. subst. exact Hx.
  - intros H. exists n. split; [exact H|apply N.eqb_refl].
Qed.
Lemma memN_false n l : memN n l = false <-> ~ In n l.
Proof. rewrite <- memN_In. destruct (memN n l); split; intros; congruence. Qed.

(** * Case analysis of one step *)
Ltac inv_some H := injection H as <- <-.

Ltac step_split H :=
  repeat match type of H with
  | None = Some _ => discriminate H
  | context [match ?x with _ => _ end] =>
      let E := fresh "E" in destruct x eqn:E
  | Some _ = Some _ => inv_some H
  end.

Ltac unfold_step H :=
  unfold step, step_gen, enter, entered, leave, do_cont, to_cas, finish, walk, scan_next in H.


Definition touched (s : state) (t : nat) (b : N) : Prop :=
  cb (tl s t) = Some b \/ b = nalloc s \/ (exists k rest, th s t = C3 k b rest /\ bstate s b = 0) \/ (exists k, th s t = C4 k b).

Ltac split_updN_goal :=
  repeat match goal with
  | |- context [updN ?f ?i ?v ?i] => rewrite (updN_same f i v)
  | H : ?j <> ?i |- context [updN ?f ?i ?v ?j] => rewrite (updN_other f i v j H)
  | |- context [updN ?f ?i ?v ?j] => destruct (N.eq_dec j i); [subst j|]
  end.

Lemma is_nil_true l : is_nil l = true -> l = [].
Proof. destruct l; [reflexivity|discriminate]. Qed.
Lemma is_nil_false l : is_nil l = false -> l <> [].
Proof. destruct l; [discriminate|intros _ ?; discriminate]. Qed.
Lemma oeqb_false a b : oeqb a b = false -> a <> b.
Proof. intros H E. apply oeqb_eq in E. congruence. Qed.

(* turn the boolean equations produced by the case analysis into propositions *)
Ltac bool_eqs :=
  repeat match goal with
  | H : (_ =? _) = true |- _ => apply N.eqb_eq in H
  | H : (_ =? _) = false |- _ => apply N.eqb_neq in H
  | H : (_ =? _)%nat = true |- _ => apply Nat.eqb_eq in H
  | H : (_ =? _)%nat = false |- _ => apply Nat.eqb_neq in H
  | H : (_ <? _)%nat = true |- _ => apply Nat.ltb_lt in H
  | H : (_ <? _)%nat = false |- _ => apply Nat.ltb_ge in H
  | H : oeqb _ _ = true |- _ => apply oeqb_eq in H
  | H : oeqb _ _ = false |- _ => apply oeqb_false in H
  | H : is_nil _ = true |- _ => apply is_nil_true in H
  | H : is_nil _ = false |- _ => apply is_nil_false in H
  end.

Lemma step_frame ns s t s' es : step ns s (Step t) = Some (s', es) ->
  (forall u, u <> t -> th s' u = th s u /\ tl s' u = tl s u) /\
  (forall b, ~ touched s t b -> bstate s' b = bstate s b /\ blocal s' b = blocal s b /\ g_lepc s' b = g_lepc s b /\ g_owner s' b = g_owner s b) /\
  (blist s' = blist s \/ exists k b h, th s t = C6 k b h /\ blist s' = b :: blist s) /\
  nalloc s <= nalloc s' /\ g_gepc s <= g_gepc s'.
Proof.
  intros H. unfold_step H. cbv zeta in H. step_split H.
  all: bool_eqs; prj.
  all: (split; [intros u Hu; rewrite ?upd_other by exact Hu; split; reflexivity|]).
  all: (split; [intros bb Hb; unfold touched in Hb|]).
  all: try solve [repeat split; reflexivity].
  all: try solve [repeat split; split_updN_goal; try reflexivity; exfalso; apply Hb; eauto 6].
  all: try solve [split; [left; congruence|split; lia]].
  all: try solve [split; [right; eauto|split; lia]].
  all: try solve [repeat split; split_updN_goal; try reflexivity; exfalso; apply Hb; right; right; left; eauto].
Qed.

Definition in_cphase (p : pc) : bool :=
  match p with C1 _ | C2 _ _ _ | C3 _ _ _ | C4 _ _ | C5 _ _ | C6 _ _ _ | C7 _ | C8 _ _ | C9 _ _ => true | _ => false end.
Definition in_qphase (p : pc) : bool :=
  match p with
  | Q1 _ | Q2 _ _ | S1 _ _ | S2 _ _ _ _ | S3 _ _ _ _ | G1 _ _ | G2 _ _ | G3 _ _ | G4 _ _ | G5 _ _ | Q9 _ _ => true
  | _ => false
  end.
Definition in_xphase (p : pc) : bool := match p with X1 | XC _ | X2 _ | X3 _ _ | X4 => true | _ => false end.
Definition cblk (p : pc) : option N := match p with C4 _ b | C5 _ b | C6 _ b _ => Some b | _ => None end.
Definition tmp (p : pc) (x : tls) : nat :=
  match p with
  | A2 (KHold _ s) => if is_some (gs x s) then 0 else 1
  | A2 _ => 1
  | R3 _ (Some _) _ => 1
  | R4 _ => 1
  | _ => 0
  end%nat.
Definition needs_cb (p : pc) : bool :=
  in_qphase p || in_xphase p ||
  match p with C7 _ | C8 _ _ | C9 _ _ | A2 _ | R3 _ (Some _) _ | R4 _ | X0 => true | _ => false end.
Definition no_cb (p : pc) : bool := match p with C1 _ | C2 _ _ _ | C3 _ _ _ | C4 _ _ | C5 _ _ | C6 _ _ _ => true | _ => false end.
Definition ctx_of (p : pc) : option ctx :=
  match p with
  | A1 k | C1 k | C2 k _ _ | C3 k _ _ | C4 k _ | C5 k _ | C6 k _ _ | C7 k | C8 k _ | C9 k _ | A2 k => Some k
  | _ => None
  end.
Definition slot_of (p : pc) : option nat :=
  match p with
  | Begin (OHold _ s) | Begin (ODrop s) | Begin (ODeref s) => Some s
  | _ => match ctx_of p with Some (KHold _ s) => Some s | _ => None end
  end.
Definition is_kenter (p : pc) : bool := match ctx_of p with Some (KEnter _) => true | _ => false end.
Definition walk_of (p : pc) : list N := match p with C2 _ r rest | C3 _ r rest => r :: rest | _ => [] end.
Definition rgc (x : tls) : nat := if is_some (rg x) then 1%nat else 0%nat.

Lemma cnt_held_none n : cnt_held (fun _ => None) n = O.
Proof. induction n; cbn; [reflexivity|exact IHn]. Qed.
(** counting held guards *)
Lemma cnt_upd_hi g s v n : (n <= s)%nat -> cnt_held (upd g s v) n = cnt_held g n.
Proof.
  induction n as [|n IH]; intros H; cbn [cnt_held]; [reflexivity|].
  rewrite IH by lia. rewrite upd_other by lia. reflexivity.
Qed.
Lemma cnt_upd_some_none g s x n : g s = Some x -> (s < n)%nat -> cnt_held g n = S (cnt_held (upd g s None) n).
Proof.
  intros Hg. induction n as [|n IH]; intros H; [lia|]. cbn [cnt_held].
  destruct (Nat.eq_dec s n) as [->|Hne].
  - rewrite upd_same, Hg. cbn [is_some]. rewrite cnt_upd_hi by lia. reflexivity.
  - rewrite (upd_other _ _ _ n) by congruence. rewrite IH by lia. lia.
Qed.
Lemma cnt_upd_none_some g s x n : g s = None -> (s < n)%nat -> cnt_held (upd g s (Some x)) n = S (cnt_held g n).
Proof.
  intros Hg. induction n as [|n IH]; intros H; [lia|]. cbn [cnt_held].
  destruct (Nat.eq_dec s n) as [->|Hne].
  - rewrite upd_same, Hg. cbn [is_some]. rewrite cnt_upd_hi by lia. reflexivity.
  - rewrite (upd_other _ _ _ n) by congruence. rewrite IH by lia. lia.
Qed.
Lemma cnt_upd_same_kind g s v n : is_some (g s) = is_some v -> cnt_held (upd g s v) n = cnt_held g n.
Proof.
  intros Hg. induction n as [|n IH]; [reflexivity|]. cbn [cnt_held]. rewrite IH.
  destruct (Nat.eq_dec n s) as [->|Hne]; [rewrite upd_same, Hg; reflexivity|rewrite upd_other by exact Hne; reflexivity].
Qed.
Lemma cnt_zero_all g n : cnt_held g n = O -> forall s, (s < n)%nat -> g s = None.
Proof.
  induction n as [|n IH]; intros H s Hs; [lia|]. cbn [cnt_held] in H.
  destruct (g n) eqn:En; cbn [is_some] in H; [lia|].
  destruct (Nat.eq_dec s n) as [->|Hne]; [exact En|apply IH; lia].
Qed.
Lemma cnt_pos g n s x : g s = Some x -> (s < n)%nat -> (1 <= cnt_held g n)%nat.
Proof. intros Hg Hs. rewrite (cnt_upd_some_none g s x n Hg Hs). lia. Qed.

Lemma xstart_cases r : xstart r = X1 \/ xstart r = X4.
Proof. unfold xstart. destruct (is_nil (r 0) && is_nil (r 1) && is_nil (r 2)); auto. Qed.

Ltac fn := cbn [walk_of ctx_of slot_of is_kenter in_cphase in_qphase in_xphase cblk tmp needs_cb no_cb orb andb negb is_some cell_of rgc rg].
Ltac fn_in H := cbn [walk_of ctx_of slot_of is_kenter in_cphase in_qphase in_xphase cblk tmp needs_cb no_cb orb andb negb is_some cell_of rgc rg] in H.

Record tshape (ns : nat) (p : pc) (x : tls) : Prop := {
  ts_need : needs_cb p = true -> cb x <> None;
  ts_no : no_cb p = true -> cb x = None;
  ts_fresh : cb x = None -> nest x = O /\ (forall s, gs x s = None) /\ rg x = None;
  ts_cnt : nest x = (cnt_held (gs x) ns + tmp p x + rgc x)%nat;
  ts_slot : forall s, slot_of p = Some s -> (s < ns)%nat;
  ts_hi : forall s, (ns <= s)%nat -> gs x s = None;
  ts_c : in_cphase p = true -> nest x = O;
  ts_q : in_qphase p = true -> nest x = O;
  ts_x : in_xphase p = true -> nest x = O;
  ts_ke : is_kenter p = true -> in_cphase p = true }.

Ltac xn :=
  repeat match goal with
  | |- context [xstart ?r] => let Ex := fresh "Ex" in destruct (xstart_cases r) as [Ex|Ex]; rewrite Ex in *; clear Ex
  | H : context [xstart ?r] |- _ => let Ex := fresh "Ex" in destruct (xstart_cases r) as [Ex|Ex]; rewrite Ex in *; clear Ex
  end.

Ltac cleanup :=
  repeat match goal with
  | H : false = true -> _ |- _ => clear H
  | H : true = true -> _ |- _ => specialize (H eq_refl)
  | H : forall s, None = Some s -> _ |- _ => clear H
  | H : forall s, Some ?a = Some s -> _ |- _ => specialize (H a eq_refl)
  | H : ?a = None -> _, H2 : ?a = None |- _ => specialize (H H2)
  | H : _ /\ _ |- _ => destruct H
  end.

Ltac cnt_tac :=
  repeat match goal with
  | |- context [cnt_held (fun _ => None) ?n] => rewrite (cnt_held_none n)
  | E : ?g ?s0 = Some ?x, L : (?s0 < ?n)%nat |- context [cnt_held (upd ?g ?s0 None) ?n] =>
      rewrite (cnt_upd_some_none g s0 x n E L) in *
  | E : ?g ?s0 = None, L : (?s0 < ?n)%nat |- context [cnt_held (upd ?g ?s0 (Some ?x)) ?n] =>
      rewrite (cnt_upd_none_some g s0 x n E L)
  | E : ?g ?s0 = Some ?y |- context [cnt_held (upd ?g ?s0 (Some ?x)) ?n] =>
      rewrite (cnt_upd_same_kind g s0 (Some x) n) by (rewrite E; reflexivity)
  | E : ?g ?s0 = None |- context [cnt_held (upd ?g ?s0 None) ?n] =>
      rewrite (cnt_upd_same_kind g s0 None n) by (rewrite E; reflexivity)
  end.

Ltac prj_hyps := repeat match goal with H : _ |- _ => progress prj_in H end.
Ltac tfin :=
  try (let X := fresh "X" in intros X);
  cleanup; bool_eqs;
  repeat match goal with
  | |- context [match ?k with KRepl _ _ => _ | _ => _ end] => destruct k
  | H : context [match ?k with KRepl _ _ => _ | _ => _ end] |- _ => destruct k
  end; fn; repeat match goal with H : _ |- _ => progress fn_in H end; prj; prj_hyps; cleanup;
  repeat match goal with
  | E : rg ?x = _ |- _ => rewrite E in *
  end; fn; repeat match goal with H : _ |- _ => progress fn_in H end;
  repeat match goal with
  | |- context [is_some (?g ?s0)] => let E := fresh "Eg" in destruct (g s0) eqn:E; cbn [is_some] in *
  | H : context [is_some (?g ?s0)] |- _ => let E := fresh "Eg" in destruct (g s0) eqn:E; cbn [is_some] in *
  | |- context [is_some (rg ?x)] => let E := fresh "Er" in destruct (rg x) eqn:E; cbn [is_some] in *
  | H : context [is_some (rg ?x)] |- _ => let E := fresh "Er" in destruct (rg x) eqn:E; cbn [is_some] in *
  end; prj;
  repeat match goal with
  | |- context [upd ?f ?a ?v ?b] => destruct (upd_cases f a v b) as [[? ->]|[? ->]]; try subst
  end;
  repeat match goal with
  | H : forall s, ?g s = None, E : ?g ?s0 = Some _ |- _ => rewrite H in E; discriminate E
  end;
  cnt_tac;
  repeat match goal with
  | E : ?g ?s0 = Some ?x, L : (?s0 < ?ns)%nat |- _ =>
    lazymatch goal with | _ : (1 <= cnt_held g ns)%nat |- _ => fail | _ => pose proof (cnt_pos _ _ _ _ E L) end
  end;
  first [ assumption | reflexivity | discriminate | congruence | lia | exfalso; congruence | exfalso; lia | solve [auto]
        | split; first [assumption | lia | congruence | solve [auto]] ].

Lemma tshape_pres ns s a s' es : step ns s a = Some (s', es) ->
  let t := match a with Start t _ => t | Step t => t end in
  tshape ns (th s t) (tl s t) -> tshape ns (th s' t) (tl s' t).
Proof.
  intros H t I. subst t. destruct a as [t o|t]; unfold_step H; cbv zeta in H; step_split H.
  all: bool_eqs; prj; rewrite ?upd_same; prj; prj_hyps; rewrite ?upd_same in *; prj_hyps.
  all: try match goal with E : th _ _ = _ |- _ => rewrite E in I end.
  all: destruct I as [Ineed Ino Ifresh Icnt Islot Ihi Ic Iq Ix Ike].
  all: unfold rgc in *; fn_in Ineed; fn_in Ino; fn_in Icnt; fn_in Islot; fn_in Ic; fn_in Iq; fn_in Ix; fn_in Ike.
  all: constructor; unfold rgc; prj; fn; intros.
  all: try solve [assumption | reflexivity | discriminate | congruence | lia | auto].
  all: solve [xn; tfin].
Qed.

(** ** the thread-local shape holds for every thread of every reachable state *)
Section Reach.
Variables (ns : nat) (nc : N).
Definition reachable (st : state) : Prop := reach (init nc) (step ns) st.

Lemma step_other_thread s a s' es u : step ns s a = Some (s', es) ->
  (match a with Start t _ => t | Step t => t end) <> u -> th s' u = th s u /\ tl s' u = tl s u.
Proof.
  intros H Hne. destruct a as [t o|t].
  - unfold step, step_gen in H. step_split H. all: prj; rewrite upd_other by congruence; split; reflexivity.
  - destruct (step_frame _ _ _ _ _ H) as (F & _). apply F. congruence.
Qed.

Definition T0 (st : state) : Prop := forall u, tshape ns (th st u) (tl st u).

Lemma T0_init : T0 (init nc).
Proof.
  intros u. constructor; cbn; intros; try congruence; try discriminate; try (repeat split; intros; reflexivity); try reflexivity.
  rewrite cnt_held_none. reflexivity.
Qed.

Lemma T0_step s a s' es : T0 s -> step ns s a = Some (s', es) -> T0 s'.
Proof.
  intros I H u. destruct (Nat.eq_dec (match a with Start t _ => t | Step t => t end) u) as [<-|Hne].
  - exact (tshape_pres _ _ _ _ _ H (I _)).
  - destruct (step_other_thread _ _ _ _ u H Hne) as [-> ->]. apply I.
Qed.

End Reach.

(** * Ownership of control blocks *)
Record O0 (s : state) : Prop := {
  o_own : forall u b, cb (tl s u) = Some b -> g_owner s b = Some u /\ In b (blist s);
  o_ownC : forall u b, cblk (th s u) = Some b -> g_owner s b = Some u /\ ~ In b (blist s);
  o_rev : forall b u, g_owner s b = Some u -> (cb (tl s u) = Some b \/ cblk (th s u) = Some b) /\ bstate s b = 2 /\ b < nalloc s;
  o_inlt : forall b, In b (blist s) -> b < nalloc s;
  o_walk : forall u b, In b (walk_of (th s u)) -> In b (blist s) }.

Lemma owner_untouched s t u b : O0 s -> g_owner s b = Some u -> u <> t -> ~ touched s t b.
Proof.
  intros I Ho Hne [H|[H|[(k & rest & H & H0)|(k & H)]]].
  - apply (o_own s I) in H. destruct H as [H _]. congruence.
  - apply (o_rev s I) in Ho. destruct Ho as (_ & _ & Hlt). subst b. lia.
  - apply (o_rev s I) in Ho. destruct Ho as (_ & Hst & _). rewrite Hst in H0. discriminate.
  - assert (Hc : cblk (th s t) = Some b) by (rewrite H; reflexivity).
    apply (o_ownC s I) in Hc. destruct Hc as [Hc _]. congruence.
Qed.

(** the other threads: nothing they rely on is touched *)
Lemma O0_other ns s t s' es u : O0 s -> step ns s (Step t) = Some (s', es) -> u <> t ->
  (forall b, cb (tl s' u) = Some b -> g_owner s' b = Some u /\ In b (blist s')) /\
  (forall b, cblk (th s' u) = Some b -> g_owner s' b = Some u /\ ~ In b (blist s')) /\
  (forall b, In b (walk_of (th s' u)) -> In b (blist s')).
Proof.
  intros I H Hne. destruct (step_frame _ _ _ _ _ H) as (Fth & Fb & Fl & _).
  destruct (Fth u Hne) as [-> ->].
  assert (Hin : forall b, In b (blist s) -> In b (blist s')).
  { destruct Fl as [->|(k & b0 & h & _ & ->)]; intros b Hb; [exact Hb|right; exact Hb]. }
  repeat split.
  - apply (o_own s I) in H0. destruct H0 as [Ho _].
    destruct (Fb b (owner_untouched _ _ _ _ I Ho Hne)) as (_ & _ & _ & ->). exact Ho.
  - apply Hin. apply (o_own s I) in H0. apply H0.
  - apply (o_ownC s I) in H0. destruct H0 as [Ho _].
    destruct (Fb b (owner_untouched _ _ _ _ I Ho Hne)) as (_ & _ & _ & ->). exact Ho.
  - apply (o_ownC s I) in H0. destruct H0 as (Ho & Hni).
    destruct Fl as [->|(k & b0 & h & Hpc & ->)]; [exact Hni|].
    intros [->|Hi]; [|contradiction].
    assert (Hc : cblk (th s t) = Some b) by (rewrite Hpc; reflexivity).
    apply (o_ownC s I) in Hc. destruct Hc as [Hc _]. congruence.
  - intros b Hb. apply Hin. eapply (o_walk s I); eauto.
Qed.

Ltac split_upd_all :=
  repeat match goal with
  | |- context [upd ?f ?t ?v ?t] => rewrite (upd_same f t v)
  | H : context [upd ?f ?t ?v ?t] |- _ => rewrite (upd_same f t v) in H
  | H : ?u <> ?t |- context [upd ?f ?t ?v ?u] => rewrite (upd_other f t v u H)
  | H : ?u <> ?t, H2 : context [upd ?f ?t ?v ?u] |- _ => rewrite (upd_other f t v u H) in H2
  | |- context [upd ?f ?t ?v ?u] => destruct (Nat.eq_dec u t); [subst u|]
  | H2 : context [upd ?f ?t ?v ?u] |- _ => destruct (Nat.eq_dec u t); [subst u|]
  end.
Ltac split_updN_all :=
  repeat match goal with
  | |- context [updN ?f ?i ?v ?i] => rewrite (updN_same f i v)
  | H : context [updN ?f ?i ?v ?i] |- _ => rewrite (updN_same f i v) in H
  | H : ?j <> ?i |- context [updN ?f ?i ?v ?j] => rewrite (updN_other f i v j H)
  | H : ?j <> ?i, H2 : context [updN ?f ?i ?v ?j] |- _ => rewrite (updN_other f i v j H) in H2
  | |- context [updN ?f ?i ?v ?j] => destruct (N.eq_dec j i); [subst j|]
  | H2 : context [updN ?f ?i ?v ?j] |- _ => destruct (N.eq_dec j i); [subst j|]
  end.

Ltac use_pc :=
  repeat match goal with
  | E : th ?s ?t = _, H : context [th ?s ?t] |- _ => rewrite E in H
  end.
Ltac inj_some :=
  repeat match goal with
  | H : Some ?a = Some ?b |- _ => first [ is_var b; injection H as <- | is_var a; injection H as -> | injection H as H ]
  end.
Ltac ofacts :=
  repeat match goal with
  | Iown : forall u b, cb (tl ?s u) = Some b -> g_owner ?s b = Some u /\ In b (blist ?s), H : cb (tl ?s ?u) = Some ?b |- _ =>
    lazymatch goal with | _ : g_owner s b = Some u |- _ => fail | _ => let X := fresh in pose proof (Iown u b H) as X; destruct X as [? ?] end
  | IownC : forall u b, cblk (th ?s u) = Some b -> g_owner ?s b = Some u /\ ~ In b (blist ?s), H : cblk (th ?s ?u) = Some ?b |- _ =>
    lazymatch goal with | _ : g_owner s b = Some u |- _ => fail | _ => let X := fresh in pose proof (IownC u b H) as X; destruct X as (? & ?) end
  | IownCt : forall b, Some ?b0 = Some b -> _ |- _ =>
    let X := fresh in pose proof (IownCt b0 eq_refl) as X; destruct X as (? & ?); clear IownCt
  | Irev : forall b u, g_owner ?s b = Some u -> (cb (tl ?s u) = Some b \/ cblk (th ?s u) = Some b) /\ bstate ?s b = 2 /\ b < nalloc ?s, H : g_owner ?s ?b = Some ?u |- _ =>
    lazymatch goal with | _ : bstate s b = 2 |- _ => fail | _ => let X := fresh in pose proof (Irev b u H) as X; destruct X as (? & ? & ?) end
  | Iinlt : forall b, In b (blist ?s) -> b < nalloc ?s, H : In ?b (blist ?s) |- _ =>
    lazymatch goal with | _ : b < nalloc s |- _ => fail | _ => pose proof (Iinlt b H) end
  end.

Ltac ofin2 :=
  split_upd_all; prj; prj_hyps; split_updN_all; inj_some; cleanup; ofacts; use_pc;
  repeat match goal with H : _ |- _ => progress fn_in H end; fn; xn; fn;
  repeat match goal with H : _ |- _ => progress fn_in H end; bool_eqs; cleanup;
  repeat match goal with
  | H : _ \/ _ |- _ => destruct H
  | H : In _ (_ :: _) |- _ => destruct H; [subst|]
  | H : In _ [] |- _ => destruct H
  end; inj_some; try subst; ofacts;
  repeat match goal with
  | |- context [Nat.eqb ?a ?b] => destruct (Nat.eqb_spec a b)
  | H : context [Nat.eqb ?a ?b] |- _ => destruct (Nat.eqb_spec a b)
  end;
  first [ assumption | reflexivity | discriminate | congruence | lia | exfalso; congruence | exfalso; lia
        | solve [auto] | solve [eauto 2] | left; assumption | right; assumption | left; congruence | right; congruence
        | match goal with Iwalkt : forall b, In b _ -> In b (blist _) |- In _ (blist _) => apply Iwalkt; simpl; tauto end
        | match goal with Iinlt : forall b, In b (blist ?s) -> b < nalloc ?s |- ~ In _ (blist ?s) => let X := fresh in intros X; apply Iinlt in X; lia end
        | simpl; tauto ].

(** a step that leaves the ownership fields alone *)
Lemma O0_quiet s t s' : O0 s ->
  (forall u, u <> t -> th s' u = th s u /\ tl s' u = tl s u) ->
  g_owner s' = g_owner s -> blist s' = blist s -> bstate s' = bstate s -> nalloc s <= nalloc s' ->
  cb (tl s' t) = cb (tl s t) -> cblk (th s' t) = cblk (th s t) ->
  (forall b, In b (walk_of (th s' t)) -> In b (walk_of (th s t)) \/ In b (blist s)) ->
  (forall b, cb (tl s' t) = Some b -> g_owner s' b = Some t /\ In b (blist s')) /\
  (forall b, cblk (th s' t) = Some b -> g_owner s' b = Some t /\ ~ In b (blist s')) /\
  (forall b, In b (walk_of (th s' t)) -> In b (blist s')) /\
  (forall b u, g_owner s' b = Some u -> (cb (tl s' u) = Some b \/ cblk (th s' u) = Some b) /\ bstate s' b = 2 /\ b < nalloc s') /\
  (forall b, In b (blist s') -> b < nalloc s').
Proof.
  intros [Iown IownC Irev Iinlt Iwalk] F -> -> -> Hn Hcb Hck Hw. rewrite Hcb, Hck. repeat split.
  - apply (Iown t b H). - apply (Iown t b H). - apply (IownC t b H). - apply (IownC t b H).
  - intros b Hb. destruct (Hw b Hb) as [X|X]; [exact (Iwalk t b X)|exact X].
  - destruct (Irev b u H) as (X & _). destruct (Nat.eq_dec u t) as [->|Hne]; [rewrite Hcb, Hck; exact X|]. destruct (F u Hne) as [-> ->]. exact X.
  - apply (Irev b u H).
  - destruct (Irev b u H) as (_ & _ & X). lia.
  - intros b Hb. apply Iinlt in Hb. lia.
Qed.
Lemma O0_self ns s t s' es : O0 s -> tshape ns (th s t) (tl s t) -> step ns s (Step t) = Some (s', es) ->
  (forall b, cb (tl s' t) = Some b -> g_owner s' b = Some t /\ In b (blist s')) /\
  (forall b, cblk (th s' t) = Some b -> g_owner s' b = Some t /\ ~ In b (blist s')) /\
  (forall b, In b (walk_of (th s' t)) -> In b (blist s')) /\
  (forall b u, g_owner s' b = Some u -> (cb (tl s' u) = Some b \/ cblk (th s' u) = Some b) /\ bstate s' b = 2 /\ b < nalloc s') /\
  (forall b, In b (blist s') -> b < nalloc s').
Proof.
  intros I T H. unfold_step H. cbv zeta in H. step_split H.
  all: try solve [apply (O0_quiet s t _ I); prj; rewrite ?upd_same; prj; try rewrite E; try reflexivity; try lia;
    first [intros u Hu; rewrite ?upd_other by exact Hu; split; reflexivity | cbn [walk_of In]; intros ? [] | cbn [walk_of]; rewrite ?E0; cbn [In]; tauto]].
  all: bool_eqs; prj; rewrite ?upd_same; prj; prj_hyps; rewrite ?upd_same in *; prj_hyps.
  all: try match goal with E : th _ _ = _ |- _ => rewrite E in T end.
  all: destruct T as [Tneed Tno Tfresh Tcnt Tslot Thi Tc Tq Tx Tke].
  all: fn_in Tneed; fn_in Tno; fn_in Tslot; fn_in Tc; fn_in Tq; fn_in Tx; clear Tcnt Tke.
  all: destruct I as [Iown IownC Irev Iinlt Iwalk].
  all: match goal with E : th ?s ?t = _ |- _ =>
         pose proof (Iown t) as Iownt; pose proof (IownC t) as IownCt; pose proof (Iwalk t) as Iwalkt;
         rewrite E in IownCt, Iwalkt; fn_in IownCt; fn_in Iwalkt end.
  all: repeat split; intros.
  all: try solve [assumption | reflexivity | discriminate | congruence | lia | auto | eauto 2].
  all: try solve [timeout 5 ofin2].
  all: try solve [inj_some; cleanup; apply Iinlt; apply Iwalkt; left; reflexivity].
  all: try solve [match goal with E0 : blist ?s = _ |- In _ (blist ?s) => rewrite E0; assumption end].
  split_updN_all; [apply Iinlt; apply Iwalkt; left; reflexivity | apply Irev in H; apply H].
Qed.

Section ReachO.
Variables (ns : nat) (nc : N).

Lemma O0_init : O0 (init nc).
Proof. constructor; cbn; intros; try congruence; try discriminate; try contradiction; try reflexivity. Qed.

Lemma O0_start s t o s' es : O0 s -> tshape ns (th s t) (tl s t) -> step ns s (Start t o) = Some (s', es) -> O0 s'.
Proof.
  intros I T H. unfold step, step_gen in H. step_split H.
  all: bool_eqs.
  all: try match goal with E : th _ _ = _ |- _ => rewrite E in T end.
  all: destruct T as [Tneed Tno Tfresh Tcnt Tslot Thi Tc Tq Tx Tke].
  all: fn_in Tneed; fn_in Tno; fn_in Tslot; fn_in Tc; fn_in Tq; fn_in Tx; clear Tcnt Tke.
  all: destruct I as [Iown IownC Irev Iinlt Iwalk].
  all: match goal with E : th ?s ?t = _ |- _ =>
         pose proof (Iown t) as Iownt; pose proof (IownC t) as IownCt; pose proof (Iwalk t) as Iwalkt;
         rewrite E in IownCt, Iwalkt; fn_in IownCt; fn_in Iwalkt end.
  all: constructor; prj; intros.
  all: try solve [assumption | eauto 2].
  all: try solve [ofin2].
Qed.

Lemma O0_step s a s' es : T0 ns s -> O0 s -> step ns s a = Some (s', es) -> O0 s'.
Proof.
  intros T I H. destruct a as [t o|t]; [eapply O0_start; eauto|].
  destruct (O0_self _ _ _ _ _ I (T t) H) as (S1 & S2 & S3 & S4 & S5).
  constructor; try assumption.
  - intros u b Hb. destruct (Nat.eq_dec u t) as [->|Hne]; [apply S1; exact Hb|].
    destruct (O0_other _ _ _ _ _ u I H Hne) as (X1 & _). apply X1; exact Hb.
  - intros u b Hb. destruct (Nat.eq_dec u t) as [->|Hne]; [apply S2; exact Hb|].
    destruct (O0_other _ _ _ _ _ u I H Hne) as (_ & X2 & _). apply X2; exact Hb.
  - intros u b Hb. destruct (Nat.eq_dec u t) as [->|Hne]; [apply S3; exact Hb|].
    destruct (O0_other _ _ _ _ _ u I H Hne) as (_ & _ & X3). apply X3; exact Hb.
Qed.

End ReachO.
