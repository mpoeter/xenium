(** kirsch_kfifo_queue (C06, unbounded): the transitions of [KfqDefs.step] in elimination form.  A step of a
    thread either changes nothing but its program counter ([lstep], guards as propositions) or is one of the few
    transitions with an effect on the shared state or a return value ([sstep]).  [step_inv] takes [step] apart
    once; the invariant layers are proved by cases on the two relations, and what they need of a step that
    changes only a program counter is a few facts about views of the program counter ([step_view]). *)
From Coq Require Import NArith List Bool Lia PeanoNat.
From XV Require Import Base.Word Conc.Lts Conc.Ev Model.KfqDefs.
Import ListNotations.
Local Open Scope N_scope.

(** what a push that returns does to the ghosts *)
Definition retok (s : state) (b : N) : state := set_ok (set_in s (commit b (g_in s))) (g_ok s ++ [b]).
(** what the CAS (5) of a pop does *)
Definition take (s : state) (x j p tg : N) : state :=
  set_out (set_in (set_slot s x j (0, tg + 1)) (commit p (g_in s))) (g_out s ++ [p]).

(** reduce the projections of a successor state written with the model's update functions (and [fst], [snd],
    [bump], [kpc]) everywhere, without touching arithmetic *)
Ltac sim := cbn [retok take set_th set_head set_tail set_next set_del set_slot set_in set_out set_ok retire release draw
                 alloc alloc_seg bump kpc
                 head tail nxt del slot bval nalloc th g_in g_out g_ok g_segs g_retired g_freed g_nch fst snd] in *.

Lemma iw_eqb_spec a b : reflect (a = b) (iw_eqb a b).
Proof.
  destruct a as [a1 a2], b as [b1 b2]. unfold iw_eqb. cbn [fst snd].
  destruct (N.eqb_spec a1 b1); destruct (N.eqb_spec a2 b2); cbn; constructor; congruence.
Qed.
Lemma sw_eqb_spec a b : reflect (a = b) (sw_eqb a b).
Proof. exact (iw_eqb_spec a b). Qed.

(** destruct the conditions of a step *)
Ltac brk H :=
  repeat match type of H with
  | context [if iw_eqb ?a ?b then _ else _] => destruct (iw_eqb_spec a b)
  | context [if sw_eqb ?a ?b then _ else _] => destruct (sw_eqb_spec a b)
  | context [if negb (?a =? ?b) then _ else _] => destruct (N.eqb_spec a b); cbn [negb] in H
  | context [if ?a =? ?b then _ else _] => destruct (N.eqb_spec a b)
  | context [if ?a <? ?b then _ else _] => destruct (N.ltb_spec a b)
  | context [if del ?s ?x then _ else _] => destruct (del s x) eqn:?
  end.

Definition actor (a : action) : nat := match a with Start t _ | Step t _ => t end.

Section Step.
  Variable k : N.

  (** [lstep s p p']: a thread at [p] moves to [p']; the rest of the state stays as it is, nothing is returned *)
  Inductive lstep (s : state) : pc -> pc -> Prop :=
  | l_start o : lstep s Idle (Begin o)
  | l_pop : lstep s (Begin OPop) D1
  | l_PF_hit b tl ri i : fst (slot s (fst tl) (fidx k ri i)) = 0 ->
      lstep s (PF b tl ri i) (P2 b tl (fidx k ri i) (snd (slot s (fst tl) (fidx k ri i))))
  | l_PF_next b tl ri i : fst (slot s (fst tl) (fidx k ri i)) <> 0 -> i + 1 < k -> lstep s (PF b tl ri i) (PF b tl ri (i + 1))
  | l_PF_end b tl ri i : fst (slot s (fst tl) (fidx k ri i)) <> 0 -> k <= i + 1 -> lstep s (PF b tl ri i) (P2n b tl)
  | l_P2 b tl j otag : tl = tail s -> lstep s (P2 b tl j otag) (P3 b tl j otag)
  | l_P2_f b tl j otag : tl <> tail s -> lstep s (P2 b tl j otag) (P1 b)
  | l_P2n b tl : tl = tail s -> lstep s (P2n b tl) (A1 (KPush b) tl)
  | l_P2n_f b tl : tl <> tail s -> lstep s (P2n b tl) (P1 b)
  | l_P3_f b tl j otag : slot s (fst tl) j <> (0, otag) -> lstep s (P3 b tl j otag) (P1 b)
  | l_C1 b tl j tg : slot s (fst tl) j = (b, tg) -> lstep s (C1 b tl j tg) (C2 b tl j tg)
  | l_C2 b tl j tg : lstep s (C2 b tl j tg) (C3 b tl j tg)
  | l_C3_d b tl j tg : del s (fst tl) = true -> lstep s (C3 b tl j tg) (C9 b tl j tg)
  | l_C3 b tl j tg : del s (fst tl) = false -> lstep s (C3 b tl j tg) (C4 b tl j tg)
  | l_C4_h b tl j tg : fst tl = fst (head s) -> lstep s (C4 b tl j tg) (C5 b tl j tg (head s))
  | l_C4 b tl j tg : fst tl <> fst (head s) -> lstep s (C4 b tl j tg) (C7 b tl j tg)
  | l_C5_f b tl j tg hc : head s <> hc -> lstep s (C5 b tl j tg hc) (C9 b tl j tg)
  | l_C7_d b tl j tg : del s (fst tl) = true -> lstep s (C7 b tl j tg) (C9 b tl j tg)
  | l_A1 c tl : lstep s (A1 c tl) (A2 c tl (nxt s (fst tl)))
  | l_A2 c tl nx : tl = tail s -> fst nx <> 0 -> lstep s (A2 c tl nx) (A3 c tl nx)
  | l_A2_f c tl nx : tl <> tail s -> lstep s (A2 c tl nx) (kpc c)
  | l_A3_f c tl nx : tail s <> tl -> lstep s (A3 c tl nx) (kpc c)
  | l_A5_f c tl n : tail s <> tl -> lstep s (A5 c tl n) (kpc c)
  | l_D1 : lstep s D1 (D1f (head s))
  | l_DF_hit hd ri i : fst (slot s (fst hd) (fidx k ri i)) <> 0 ->
      lstep s (DF hd ri i) (D2 hd (fidx k ri i) (fst (slot s (fst hd) (fidx k ri i))) (snd (slot s (fst hd) (fidx k ri i))))
  | l_DF_next hd ri i : fst (slot s (fst hd) (fidx k ri i)) = 0 -> i + 1 < k -> lstep s (DF hd ri i) (DF hd ri (i + 1))
  | l_DF_end hd ri i : fst (slot s (fst hd) (fidx k ri i)) = 0 -> k <= i + 1 -> lstep s (DF hd ri i) (D2n hd)
  | l_D2 hd j p tg : hd = head s -> lstep s (D2 hd j p tg) (D3 hd j p tg)
  | l_D2_f hd j p tg : hd <> head s -> lstep s (D2 hd j p tg) D1
  | l_D2n hd : hd = head s -> lstep s (D2n hd) (D3n hd)
  | l_D2n_f hd : hd <> head s -> lstep s (D2n hd) D1
  | l_D3_t hd j p tg : fst hd = fst (tail s) -> lstep s (D3 hd j p tg) (A1 (KPop hd j p tg) (tail s))
  | l_D3 hd j p tg : fst hd <> fst (tail s) -> lstep s (D3 hd j p tg) (D4 hd j p tg)
  | l_D3n_e hd : fst hd = fst (tail s) -> lstep s (D3n hd) (DE hd (tail s))
  | l_D3n hd : fst hd <> fst (tail s) -> lstep s (D3n hd) (H1 hd (tail s))
  | l_D4_f hd j p tg : slot s (fst hd) j <> (p, tg) -> lstep s (D4 hd j p tg) D1
  | l_DE_f hd tl : tl <> tail s -> lstep s (DE hd tl) (H1 hd tl)
  | l_H1 hd tl : lstep s (H1 hd tl) (H2 hd tl (nxt s (fst hd)))
  | l_H2_s hd tl hn : hd = head s -> fst hd = fst tl -> lstep s (H2 hd tl hn) (H3 hd tl hn)
  | l_H2 hd tl hn : hd = head s -> fst hd <> fst tl -> lstep s (H2 hd tl hn) (H6 hd hn)
  | l_H2_f hd tl hn : hd <> head s -> lstep s (H2 hd tl hn) D1
  | l_H3_n hd tl hn : fst (nxt s (fst tl)) = 0 -> lstep s (H3 hd tl hn) D1
  | l_H3 hd tl hn : fst (nxt s (fst tl)) <> 0 -> lstep s (H3 hd tl hn) (H4 hd tl hn (nxt s (fst tl)))
  | l_H4 hd tl hn tn : tl = tail s -> lstep s (H4 hd tl hn tn) (H5 hd tl hn tn)
  | l_H4_f hd tl hn tn : tl <> tail s -> lstep s (H4 hd tl hn tn) (H6 hd hn)
  | l_H5_f hd tl hn tn : tail s <> tl -> lstep s (H5 hd tl hn tn) (H6 hd hn)
  | l_H7_f hd hn : head s <> hd -> lstep s (H7 hd hn) D1.

  (** [sstep s p sh p' res]: a thread at [p] turns the shared state [s] into [sh], moves to [p'] and returns [res] *)
  Inductive sstep (s : state) : pc -> state -> pc -> option (list N) -> Prop :=
  | s_push v : sstep s (Begin (OPush v)) (alloc s v) (P1 (nalloc s)) None
  | s_P1 b ri : ri < k -> sstep s (P1 b) (draw s) (PF b (tail s) ri 0) None
  | s_P3 b tl j otag : slot s (fst tl) j = (0, otag) ->
      sstep s (P3 b tl j otag) (set_slot s (fst tl) j (b, otag + 1)) (C1 b tl j (otag + 1)) None
  | s_C1 b tl j tg : slot s (fst tl) j <> (b, tg) -> sstep s (C1 b tl j tg) (retok s b) Idle (Some [1])
  | s_C5 b tl j tg hc : head s = hc -> sstep s (C5 b tl j tg hc) (retok (set_head s (bump hc)) b) Idle (Some [1])
  | s_C7 b tl j tg : del s (fst tl) = false -> sstep s (C7 b tl j tg) (retok s b) Idle (Some [1])
  | s_C9 b tl j tg : slot s (fst tl) j = (b, tg) -> sstep s (C9 b tl j tg) (set_slot s (fst tl) j (0, tg + 1)) (P1 b) None
  | s_C9_f b tl j tg : slot s (fst tl) j <> (b, tg) -> sstep s (C9 b tl j tg) (retok s b) Idle (Some [1])
  | s_A2 c tl nx : tl = tail s -> fst nx = 0 -> sstep s (A2 c tl nx) (alloc_seg s) (A4 c tl nx (nalloc s)) None
  | s_A3 c tl nx : tail s = tl -> sstep s (A3 c tl nx) (set_tail s (bump nx)) (kpc c) None
  | s_A4 c tl nx n : nxt s (fst tl) = nx -> sstep s (A4 c tl nx n) (set_next s (fst tl) (n, snd nx + 1)) (A5 c tl n) None
  | s_A4_f c tl nx n : nxt s (fst tl) <> nx -> sstep s (A4 c tl nx n) (release s n) (kpc c) None
  | s_A5 c tl n : tail s = tl -> sstep s (A5 c tl n) (set_tail s (n, snd tl + 1)) (kpc c) None
  | s_D1f hd ri : ri < k -> sstep s (D1f hd) (draw s) (DF hd ri 0) None
  | s_D4 hd j p tg : slot s (fst hd) j = (p, tg) -> sstep s (D4 hd j p tg) (take s (fst hd) j p tg) Idle (Some [1; bval s p])
  | s_DE hd tl : tl = tail s -> sstep s (DE hd tl) s Idle (Some [2])
  | s_H5 hd tl hn tn : tail s = tl -> sstep s (H5 hd tl hn tn) (set_tail s (fst tn, snd tl + 1)) (H6 hd hn) None
  | s_H6 hd hn : sstep s (H6 hd hn) (set_del s (fst hd)) (H7 hd hn) None
  | s_H7 hd hn : head s = hd -> sstep s (H7 hd hn) (retire (set_head s (fst hn, snd hd + 1)) (fst hd)) D1 None.

  Hypothesis Hk : 1 <= k.

  Lemma step_inv s a s' es : step k s a = Some (s', es) ->
    exists sh p' res, s' = set_th sh (actor a) p' /\
      (sstep s (th s (actor a)) sh p' res \/ (lstep s (th s (actor a)) p' /\ sh = s /\ res = None)) /\
      (forall u r, In (ERet u r) es <-> u = actor a /\ res = Some r).
  Proof.
    intros H. unfold step in H. destruct a as [t o|t r]; cbn [actor];
      destruct (th s t); try discriminate; try (match goal with o : op |- _ => destruct o end);
      brk H; injection H as <- <-; eexists _, _, _; (split; [reflexivity|]).
    (* which transition it is; the random start offset is below k *)
    all: split; [first [right; split; [constructor; auto|split; reflexivity]|left; constructor; auto; apply N.mod_lt; lia]|].
    (* the only ERet among the events is the one appended by a returning step *)
    all: intros u0 r0; cbn [In app]; split;
      [intros Q; repeat (destruct Q as [Q|Q]; [try discriminate Q|]); [inversion Q; split; reflexivity ..|destruct Q]
      |intros [-> Q]; first [discriminate Q|inversion Q; auto 6]].
  Qed.

  Lemma step_start s t o s' es : step k s (Start t o) = Some (s', es) -> th s t = Idle.
  Proof. cbn [step]. destruct (th s t); [reflexivity|discriminate ..]. Qed.

  Lemma sstep_th s p sh p' res : sstep s p sh p' res -> th sh = th s.
  Proof. destruct 1; reflexivity. Qed.

  (** the program counter of a thread changes only by its own actions *)
  Lemma step_th_other u s a s' es : step k s a = Some (s', es) -> u <> actor a -> th s' u = th s u.
  Proof.
    intros H Hu. destruct (step_inv s a s' es H) as (sh & p' & res & -> & [Hs|(_ & -> & _)] & _); sim;
      rewrite upd_other by exact Hu; [rewrite (sstep_th _ _ _ _ _ Hs)|]; reflexivity.
  Qed.

  (** a step that returns [r] to thread u is a [Step] of u, with a shared effect *)
  Lemma step_ret s a s' es u r : step k s a = Some (s', es) -> In (ERet u r) es ->
    exists r0 sh p', a = Step u r0 /\ s' = set_th sh u p' /\ sstep s (th s u) sh p' (Some r).
  Proof.
    intros Hst Hin. destruct (step_inv s a s' es Hst) as (sh & p' & res & -> & Hc & Hret). apply Hret in Hin. destruct Hin as [-> ->].
    destruct a as [t o|t r0]; cbn [actor] in *; [rewrite (step_start _ _ _ _ _ Hst) in Hc|];
      (destruct Hc as [Hs|(_ & _ & Q)]; [|discriminate Q]); [inversion Hs|eauto 6].
  Qed.

  (** how a view [V] of the program counters evolves: whatever a step lets a thread see anew ([P]) comes from a
      step of this thread that changes only its program counter *)
  Lemma step_view {X} (V : pc -> X -> Prop) (P : state -> X -> Prop) :
    (forall s p p' x, lstep s p p' -> V p' x -> V p x \/ P s x) ->
    (forall s p sh p' res x, sstep s p sh p' res -> V p' x -> V p x) ->
    forall s a s' es u x, step k s a = Some (s', es) -> V (th s' u) x ->
      V (th s u) x \/ (s' = set_th s u (th s' u) /\ P s x).
  Proof.
    intros Hl Hs s a s' es u x Hst Hv.
    destruct (Nat.eq_dec u (actor a)) as [->|Hne]; [|left; rewrite <- (step_th_other u s a s' es Hst Hne); exact Hv].
    destruct (step_inv s a s' es Hst) as (sh & p' & res & -> & [H|(H & -> & _)] & _); sim; rewrite upd_same in *.
    - left. eapply Hs; eauto.
    - destruct (Hl _ _ _ _ H Hv); auto.
  Qed.
End Step.
