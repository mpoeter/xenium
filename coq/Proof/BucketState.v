(** Bit-field algebra of [vyukov_hash_map<...>::bucket_state] (xenium/impl/vyukov_hash_map.hpp),
    proved over the generated definitions of gen/BucketStateGen.v for ALL 32-bit words (no sweep).

    layout:  bit 0 = lock, bits 1..2 = item_count, bits 3..4 = delete_marker, bits 5..31 = version. *)
From Coq Require Import NArith ZArith Bool Lia ZifyBool.
From XV Require Import Base.Word gen.BucketStateGen.
Local Open Scope N_scope.

(* [N.modulo]/[N.div] by numerals: zify maps them to [Z.rem]/[Z.quot] resp. [Z.modulo]/[Z.div];
   this hook covers both. *)
Ltac Zify.zify_post_hook ::= Z.to_euclidean_division_equations.

(** * Constants *)

Lemma C_item_counter_bits_val : C_item_counter_bits = 2.
Proof. vm_compute. reflexivity. Qed.
Lemma C_item_count_shift_val : C_item_count_shift = 1.
Proof. reflexivity. Qed.
Lemma C_delete_marker_shift_val : C_delete_marker_shift = 3.
Proof. vm_compute. reflexivity. Qed.
Lemma C_version_shift_val : C_version_shift = 5.
Proof. vm_compute. reflexivity. Qed.
Lemma C_lock_val : C_lock = 1.
Proof. reflexivity. Qed.
Lemma C_version_inc_val : C_version_inc = 32.
Proof. vm_compute. reflexivity. Qed.
Lemma C_item_count_inc_val : C_item_count_inc = 2.
Proof. vm_compute. reflexivity. Qed.
Lemma C_item_count_mask_val : C_item_count_mask = 3.
Proof. vm_compute. reflexivity. Qed.

Lemma pow2_32 : 2 ^ 32 = 4294967296.
Proof. vm_compute. reflexivity. Qed.
Lemma pow2_27 : 2 ^ 27 = 134217728.
Proof. vm_compute. reflexivity. Qed.

(** * Bit operations with the specific constants, as arithmetic *)

Lemma land_1 v : N.land v 1 = v mod 2.
Proof. change 1 with (N.ones 1) at 1. rewrite N.land_ones. reflexivity. Qed.

Lemma land_3 v : N.land v 3 = v mod 4.
Proof. change 3 with (N.ones 2). rewrite N.land_ones. reflexivity. Qed.

Lemma lor_1 v : N.lor v 1 = v + 1 - v mod 2.
Proof.
  destruct v as [|[p|p|]]; try reflexivity.
  - change (N.lor (N.pos p~1) 1) with (N.pos p~1). lia.
  - change (N.lor (N.pos p~0) 1) with (N.pos p~1). lia.
Qed.

Lemma lxor_1 v : N.lxor v 1 = v + 1 - 2 * (v mod 2).
Proof.
  destruct v as [|[p|p|]]; try reflexivity.
  - change (N.lxor (N.pos p~1) 1) with (N.pos p~0). lia.
  - change (N.lxor (N.pos p~0) 1) with (N.pos p~1). lia.
Qed.

(** [land] against a shifted operand *)
Lemma land_shiftl_r a b n : N.land a (N.shiftl b n) = N.shiftl (N.land (N.shiftr a n) b) n.
Proof.
  apply N.bits_inj. intro k.
  rewrite N.land_spec.
  destruct (N.lt_ge_cases k n) as [Hk|Hk].
  - rewrite !N.shiftl_spec_low by exact Hk. apply andb_false_r.
  - rewrite !N.shiftl_spec_high' by exact Hk.
    rewrite N.land_spec, N.shiftr_spec'.
    replace (k - n + n) with k by lia. reflexivity.
Qed.

Lemma lor_disjoint a b : N.land a b = 0 -> N.lor a b = a + b.
Proof.
  intro H. rewrite <- (N.lxor_lor a b H). symmetry. apply N.add_nocarry_lxor. exact H.
Qed.

Lemma lor_marker v m : (v / 8) mod 4 = 0 -> m < 4 -> N.lor v (N.shiftl m 3) = v + 8 * m.
Proof.
  intros Hv Hm.
  rewrite lor_disjoint.
  - rewrite N.shiftl_mul_pow2. change (2 ^ 3) with 8. lia.
  - rewrite land_shiftl_r.
    replace m with (N.land 3 m) at 1.
    + rewrite N.land_assoc, land_3, N.shiftr_div_pow2. change (2 ^ 3) with 8.
      rewrite Hv. reflexivity.
    + rewrite N.land_comm, land_3. apply N.mod_small. exact Hm.
Qed.

(** * Observers and operations as arithmetic *)

Lemma bs_is_locked_arith v : bs_is_locked v = negb (v mod 2 =? 0).
Proof. unfold bs_is_locked. rewrite C_lock_val, land_1. reflexivity. Qed.

Lemma bs_is_locked_b2n v : b2n (bs_is_locked v) = v mod 2.
Proof.
  rewrite bs_is_locked_arith. unfold b2n.
  destruct (N.eqb_spec (v mod 2) 0) as [E|E]; simpl negb; cbv iota; lia.
Qed.

Lemma bs_item_count_arith v : bs_item_count v = (v / 2) mod 4.
Proof.
  unfold bs_item_count, wshr. rewrite C_item_count_mask_val, land_3, N.shiftr_div_pow2.
  reflexivity.
Qed.

Lemma bs_delete_marker_arith v : bs_delete_marker v = (v / 8) mod 4.
Proof.
  unfold bs_delete_marker, wshr.
  rewrite C_item_count_mask_val, C_delete_marker_shift_val, land_3, N.shiftr_div_pow2.
  reflexivity.
Qed.

Lemma bs_version_arith v : bs_version v = v / 32.
Proof.
  unfold bs_version, wshr. rewrite C_version_shift_val, N.shiftr_div_pow2. reflexivity.
Qed.

Lemma bs_locked_arith v : bs_locked v = v + 1 - v mod 2.
Proof. unfold bs_locked. rewrite C_lock_val. apply lor_1. Qed.

Lemma bs_clear_lock_arith v : bs_clear_lock v = v + 1 - 2 * (v mod 2).
Proof. unfold bs_clear_lock. rewrite C_lock_val. apply lxor_1. Qed.

Lemma bs_new_version_arith v : bs_new_version v = (v + 32) mod 4294967296.
Proof. unfold bs_new_version, wadd. rewrite C_version_inc_val, pow2_32. reflexivity. Qed.

Lemma bs_inc_item_count_arith v : bs_inc_item_count v = (v + 2) mod 4294967296.
Proof. unfold bs_inc_item_count, wadd. rewrite C_item_count_inc_val, pow2_32. reflexivity. Qed.

Lemma bs_dec_item_count_arith v :
  bs_dec_item_count v = (v + 4294967296 - 2) mod 4294967296.
Proof.
  unfold bs_dec_item_count, wsub. rewrite C_item_count_inc_val, pow2_32. reflexivity.
Qed.

Lemma bs_set_delete_marker_arith v m :
  bs_delete_marker v = 0 -> m < 4 -> bs_set_delete_marker v m = v + 8 * m.
Proof.
  intros Hd Hm. rewrite bs_delete_marker_arith in Hd.
  unfold bs_set_delete_marker, wshl. rewrite C_delete_marker_shift_val, pow2_32.
  rewrite N.mod_small.
  - apply lor_marker; assumption.
  - rewrite N.shiftl_mul_pow2. change (2 ^ 3) with 8. lia.
Qed.

Ltac bs_arith :=
  rewrite ?bs_is_locked_arith, ?bs_item_count_arith, ?bs_delete_marker_arith, ?bs_version_arith,
          ?bs_locked_arith, ?bs_clear_lock_arith, ?bs_new_version_arith,
          ?bs_inc_item_count_arith, ?bs_dec_item_count_arith, ?pow2_32, ?pow2_27 in *.

(** * Decomposition / composition *)

Lemma bs_decompose v : v < 2 ^ 32 ->
  v = b2n (bs_is_locked v) + 2 * bs_item_count v + 8 * bs_delete_marker v + 32 * bs_version v
  /\ bs_item_count v < 4 /\ bs_delete_marker v < 4 /\ bs_version v < 2 ^ 27.
Proof.
  intro Hv. rewrite bs_is_locked_b2n. bs_arith. lia.
Qed.

Lemma bs_compose (l : bool) c d ver : c < 4 -> d < 4 -> ver < 2 ^ 27 ->
  let w := b2n l + 2 * c + 8 * d + 32 * ver in
  w < 2 ^ 32 /\ bs_is_locked w = l /\ bs_item_count w = c /\ bs_delete_marker w = d
  /\ bs_version w = ver.
Proof.
  intros Hc Hd Hver w. subst w. bs_arith.
  assert (Hl : b2n l < 2) by (destruct l; simpl; lia).
  repeat split; try lia.
  destruct l; unfold b2n in *.
  - destruct (N.eqb_spec ((1 + 2 * c + 8 * d + 32 * ver) mod 2) 0); simpl; [lia|reflexivity].
  - destruct (N.eqb_spec ((0 + 2 * c + 8 * d + 32 * ver) mod 2) 0); simpl; [reflexivity|lia].
Qed.

(** * Extensionality on the four fields *)

Lemma bs_eq_fields v w : v < 2 ^ 32 -> w < 2 ^ 32 ->
  (v = w <->
   bs_is_locked v = bs_is_locked w /\ bs_item_count v = bs_item_count w
   /\ bs_delete_marker v = bs_delete_marker w /\ bs_version v = bs_version w).
Proof.
  intros Hv Hw. split.
  - intros ->. repeat split.
  - intros (Hl & Hc & Hd & Hr).
    destruct (bs_decompose v Hv) as (Ev & _). destruct (bs_decompose w Hw) as (Ew & _).
    rewrite Ev, Ew, Hl, Hc, Hd, Hr. reflexivity.
Qed.

(** lock bit as a boolean <-> parity *)
Lemma bs_is_locked_true v : bs_is_locked v = true <-> v mod 2 = 1.
Proof.
  rewrite bs_is_locked_arith.
  destruct (N.eqb_spec (v mod 2) 0); simpl; split; intros; try discriminate; try reflexivity; lia.
Qed.

Lemma bs_is_locked_false v : bs_is_locked v = false <-> v mod 2 = 0.
Proof.
  rewrite bs_is_locked_arith.
  destruct (N.eqb_spec (v mod 2) 0); simpl; split; intros; try discriminate; try reflexivity; lia.
Qed.

Lemma bs_is_locked_parity_eq v w : v mod 2 = w mod 2 -> bs_is_locked v = bs_is_locked w.
Proof. intro H. rewrite !bs_is_locked_arith, H. reflexivity. Qed.

(** * lock / clear_lock *)

Lemma bs_locked_lt v : v < 2 ^ 32 -> bs_locked v < 2 ^ 32.
Proof. intro Hv. bs_arith. lia. Qed.

Lemma bs_locked_is_locked v : bs_is_locked (bs_locked v) = true.
Proof. apply bs_is_locked_true. bs_arith. lia. Qed.

Lemma bs_locked_item_count v : bs_item_count (bs_locked v) = bs_item_count v.
Proof. bs_arith. lia. Qed.

Lemma bs_locked_delete_marker v : bs_delete_marker (bs_locked v) = bs_delete_marker v.
Proof. bs_arith. lia. Qed.

Lemma bs_locked_version v : bs_version (bs_locked v) = bs_version v.
Proof. bs_arith. lia. Qed.

Lemma bs_locked_idem v : bs_is_locked v = true -> bs_locked v = v.
Proof. intro H. apply bs_is_locked_true in H. bs_arith. lia. Qed.

Lemma bs_clear_lock_lt v : bs_is_locked v = true -> v < 2 ^ 32 -> bs_clear_lock v < 2 ^ 32.
Proof. intros H Hv. apply bs_is_locked_true in H. bs_arith. lia. Qed.

Lemma bs_clear_lock_is_locked v : bs_is_locked v = true -> bs_is_locked (bs_clear_lock v) = false.
Proof. intro H. apply bs_is_locked_true in H. apply bs_is_locked_false. bs_arith. lia. Qed.

Lemma bs_clear_lock_item_count v :
  bs_is_locked v = true -> bs_item_count (bs_clear_lock v) = bs_item_count v.
Proof. intro H. apply bs_is_locked_true in H. bs_arith. lia. Qed.

Lemma bs_clear_lock_delete_marker v :
  bs_is_locked v = true -> bs_delete_marker (bs_clear_lock v) = bs_delete_marker v.
Proof. intro H. apply bs_is_locked_true in H. bs_arith. lia. Qed.

Lemma bs_clear_lock_version v :
  bs_is_locked v = true -> bs_version (bs_clear_lock v) = bs_version v.
Proof. intro H. apply bs_is_locked_true in H. bs_arith. lia. Qed.

Lemma bs_clear_lock_locked v : bs_is_locked v = false -> bs_clear_lock (bs_locked v) = v.
Proof. intro H. apply bs_is_locked_false in H. bs_arith. lia. Qed.

Lemma bs_locked_clear_lock v : bs_is_locked v = true -> bs_locked (bs_clear_lock v) = v.
Proof. intro H. apply bs_is_locked_true in H. bs_arith. lia. Qed.

(** * new_version *)

Lemma bs_new_version_lt v : bs_new_version v < 2 ^ 32.
Proof. apply wadd_lt. Qed.

Lemma bs_new_version_version v : v < 2 ^ 32 ->
  bs_version (bs_new_version v) = (bs_version v + 1) mod 2 ^ 27.
Proof. intro Hv. bs_arith. lia. Qed.

Lemma bs_new_version_is_locked v : v < 2 ^ 32 ->
  bs_is_locked (bs_new_version v) = bs_is_locked v.
Proof. intro Hv. apply bs_is_locked_parity_eq. bs_arith. lia. Qed.

Lemma bs_new_version_item_count v : v < 2 ^ 32 ->
  bs_item_count (bs_new_version v) = bs_item_count v.
Proof. intro Hv. bs_arith. lia. Qed.

Lemma bs_new_version_delete_marker v : v < 2 ^ 32 ->
  bs_delete_marker (bs_new_version v) = bs_delete_marker v.
Proof. intro Hv. bs_arith. lia. Qed.

Lemma bs_new_version_neq v : v < 2 ^ 32 -> bs_new_version v <> v.
Proof. intro Hv. bs_arith. lia. Qed.

(** [n] applications of [new_version] ([N.iter]) *)
Lemma bs_new_version_iter_lt n v : v < 2 ^ 32 -> N.iter n bs_new_version v < 2 ^ 32.
Proof.
  intro Hv. induction n using N.peano_ind.
  - exact Hv.
  - rewrite N.iter_succ. apply bs_new_version_lt.
Qed.

Lemma bs_new_version_iter_version n v : v < 2 ^ 32 ->
  bs_version (N.iter n bs_new_version v) = (bs_version v + n) mod 2 ^ 27.
Proof.
  intro Hv. induction n using N.peano_ind.
  - simpl N.iter. destruct (bs_decompose v Hv) as (_ & _ & _ & Hr).
    rewrite N.add_0_r, N.mod_small by exact Hr. reflexivity.
  - rewrite N.iter_succ.
    rewrite bs_new_version_version by (apply bs_new_version_iter_lt; exact Hv).
    rewrite IHn, pow2_27. lia.
Qed.

Lemma bs_new_version_iter_is_locked n v : v < 2 ^ 32 ->
  bs_is_locked (N.iter n bs_new_version v) = bs_is_locked v.
Proof.
  intro Hv. induction n using N.peano_ind; [reflexivity|].
  rewrite N.iter_succ, bs_new_version_is_locked by (apply bs_new_version_iter_lt; exact Hv).
  exact IHn.
Qed.

Lemma bs_new_version_iter_item_count n v : v < 2 ^ 32 ->
  bs_item_count (N.iter n bs_new_version v) = bs_item_count v.
Proof.
  intro Hv. induction n using N.peano_ind; [reflexivity|].
  rewrite N.iter_succ, bs_new_version_item_count by (apply bs_new_version_iter_lt; exact Hv).
  exact IHn.
Qed.

Lemma bs_new_version_iter_delete_marker n v : v < 2 ^ 32 ->
  bs_delete_marker (N.iter n bs_new_version v) = bs_delete_marker v.
Proof.
  intro Hv. induction n using N.peano_ind; [reflexivity|].
  rewrite N.iter_succ, bs_new_version_delete_marker by (apply bs_new_version_iter_lt; exact Hv).
  exact IHn.
Qed.

(** no ABA on the version within fewer than 2^27 bumps *)
Lemma bs_new_version_iter_version_neq n v : v < 2 ^ 32 -> 0 < n -> n < 2 ^ 27 ->
  bs_version (N.iter n bs_new_version v) <> bs_version v.
Proof.
  intros Hv Hn0 Hn. rewrite bs_new_version_iter_version by exact Hv.
  destruct (bs_decompose v Hv) as (_ & _ & _ & Hr).
  rewrite pow2_27 in *. lia.
Qed.

Lemma bs_new_version_iter_neq n v : v < 2 ^ 32 -> 0 < n -> n < 2 ^ 27 ->
  N.iter n bs_new_version v <> v.
Proof.
  intros Hv Hn0 Hn E. apply (bs_new_version_iter_version_neq n v Hv Hn0 Hn). rewrite E. reflexivity.
Qed.

(** two different numbers of bumps, fewer than 2^27 apart, give different versions *)
Lemma bs_new_version_iter_version_distinct i j v : v < 2 ^ 32 -> i < j -> j - i < 2 ^ 27 ->
  bs_version (N.iter j bs_new_version v) <> bs_version (N.iter i bs_new_version v).
Proof.
  intros Hv Hij Hd.
  replace j with ((j - i) + i) by lia.
  rewrite N.iter_add.
  apply bs_new_version_iter_version_neq.
  - apply bs_new_version_iter_lt. exact Hv.
  - lia.
  - exact Hd.
Qed.

(** the same with [Nat.iter] *)
Lemma Nat_iter_N_iter {A} (f : A -> A) (n : nat) x : Nat.iter n f x = N.iter (N.of_nat n) f x.
Proof.
  induction n.
  - reflexivity.
  - rewrite Nat2N.inj_succ, N.iter_succ. simpl. rewrite IHn. reflexivity.
Qed.

Lemma bs_new_version_nat_iter_version (n : nat) v : v < 2 ^ 32 ->
  bs_version (Nat.iter n bs_new_version v) = (bs_version v + N.of_nat n) mod 2 ^ 27.
Proof. intro Hv. rewrite Nat_iter_N_iter. apply bs_new_version_iter_version. exact Hv. Qed.

Lemma bs_new_version_nat_iter_version_neq (n : nat) v :
  v < 2 ^ 32 -> (0 < n)%nat -> N.of_nat n < 2 ^ 27 ->
  bs_version (Nat.iter n bs_new_version v) <> bs_version v.
Proof.
  intros Hv Hn0 Hn. rewrite Nat_iter_N_iter.
  apply bs_new_version_iter_version_neq; [exact Hv|lia|exact Hn].
Qed.

(** * inc_item_count / dec_item_count *)

Lemma bs_inc_item_count_lt v : bs_inc_item_count v < 2 ^ 32.
Proof. apply wadd_lt. Qed.

Lemma bs_dec_item_count_lt v : bs_dec_item_count v < 2 ^ 32.
Proof. apply wsub_lt. Qed.

Lemma bs_inc_item_count_arith_small v : v < 2 ^ 32 -> bs_item_count v < 3 ->
  bs_inc_item_count v = v + 2.
Proof. intros Hv Hc. bs_arith. lia. Qed.

Lemma bs_dec_item_count_arith_small v : v < 2 ^ 32 -> 0 < bs_item_count v ->
  bs_dec_item_count v = v - 2 /\ 2 <= v.
Proof. intros Hv Hc. bs_arith. lia. Qed.

Lemma bs_inc_item_count_item_count v : v < 2 ^ 32 -> bs_item_count v < 3 ->
  bs_item_count (bs_inc_item_count v) = bs_item_count v + 1.
Proof. intros Hv Hc. rewrite bs_inc_item_count_arith_small by assumption. bs_arith. lia. Qed.

Lemma bs_inc_item_count_is_locked v : v < 2 ^ 32 -> bs_item_count v < 3 ->
  bs_is_locked (bs_inc_item_count v) = bs_is_locked v.
Proof.
  intros Hv Hc. rewrite bs_inc_item_count_arith_small by assumption.
  apply bs_is_locked_parity_eq. lia.
Qed.

Lemma bs_inc_item_count_delete_marker v : v < 2 ^ 32 -> bs_item_count v < 3 ->
  bs_delete_marker (bs_inc_item_count v) = bs_delete_marker v.
Proof. intros Hv Hc. rewrite bs_inc_item_count_arith_small by assumption. bs_arith. lia. Qed.

Lemma bs_inc_item_count_version v : v < 2 ^ 32 -> bs_item_count v < 3 ->
  bs_version (bs_inc_item_count v) = bs_version v.
Proof. intros Hv Hc. rewrite bs_inc_item_count_arith_small by assumption. bs_arith. lia. Qed.

Lemma bs_dec_item_count_item_count v : v < 2 ^ 32 -> 0 < bs_item_count v ->
  bs_item_count (bs_dec_item_count v) = bs_item_count v - 1.
Proof.
  intros Hv Hc. destruct (bs_dec_item_count_arith_small v Hv Hc) as (-> & H2). bs_arith. lia.
Qed.

Lemma bs_dec_item_count_is_locked v : v < 2 ^ 32 -> 0 < bs_item_count v ->
  bs_is_locked (bs_dec_item_count v) = bs_is_locked v.
Proof.
  intros Hv Hc. destruct (bs_dec_item_count_arith_small v Hv Hc) as (-> & H2).
  apply bs_is_locked_parity_eq. lia.
Qed.

Lemma bs_dec_item_count_delete_marker v : v < 2 ^ 32 -> 0 < bs_item_count v ->
  bs_delete_marker (bs_dec_item_count v) = bs_delete_marker v.
Proof.
  intros Hv Hc. destruct (bs_dec_item_count_arith_small v Hv Hc) as (-> & H2). bs_arith. lia.
Qed.

Lemma bs_dec_item_count_version v : v < 2 ^ 32 -> 0 < bs_item_count v ->
  bs_version (bs_dec_item_count v) = bs_version v.
Proof.
  intros Hv Hc. destruct (bs_dec_item_count_arith_small v Hv Hc) as (-> & H2). bs_arith. lia.
Qed.

Lemma bs_dec_inc_item_count v : v < 2 ^ 32 -> bs_item_count v < 3 ->
  bs_dec_item_count (bs_inc_item_count v) = v.
Proof. intros Hv Hc. bs_arith. lia. Qed.

Lemma bs_inc_dec_item_count v : v < 2 ^ 32 -> 0 < bs_item_count v ->
  bs_inc_item_count (bs_dec_item_count v) = v.
Proof. intros Hv Hc. bs_arith. lia. Qed.

(** * set_delete_marker *)

Lemma bs_set_delete_marker_lt v m : v < 2 ^ 32 -> bs_delete_marker v = 0 -> m < 4 ->
  bs_set_delete_marker v m < 2 ^ 32.
Proof.
  intros Hv Hd Hm. rewrite bs_set_delete_marker_arith by assumption. bs_arith. lia.
Qed.

Lemma bs_set_delete_marker_delete_marker v m : bs_delete_marker v = 0 -> m < 4 ->
  bs_delete_marker (bs_set_delete_marker v m) = m.
Proof.
  intros Hd Hm. rewrite bs_set_delete_marker_arith by assumption. bs_arith. lia.
Qed.

Lemma bs_set_delete_marker_is_locked v m : bs_delete_marker v = 0 -> m < 4 ->
  bs_is_locked (bs_set_delete_marker v m) = bs_is_locked v.
Proof.
  intros Hd Hm. rewrite bs_set_delete_marker_arith by assumption.
  apply bs_is_locked_parity_eq. lia.
Qed.

Lemma bs_set_delete_marker_item_count v m : bs_delete_marker v = 0 -> m < 4 ->
  bs_item_count (bs_set_delete_marker v m) = bs_item_count v.
Proof.
  intros Hd Hm. rewrite bs_set_delete_marker_arith by assumption. bs_arith. lia.
Qed.

Lemma bs_set_delete_marker_version v m : bs_delete_marker v = 0 -> m < 4 ->
  bs_version (bs_set_delete_marker v m) = bs_version v.
Proof.
  intros Hd Hm. rewrite bs_set_delete_marker_arith by assumption. bs_arith. lia.
Qed.

(** * Bundled specifications (one per operation) *)

Theorem bs_locked_spec v : v < 2 ^ 32 ->
  bs_locked v < 2 ^ 32 /\ bs_is_locked (bs_locked v) = true
  /\ bs_item_count (bs_locked v) = bs_item_count v
  /\ bs_delete_marker (bs_locked v) = bs_delete_marker v
  /\ bs_version (bs_locked v) = bs_version v.
Proof.
  intro Hv. repeat split.
  - apply bs_locked_lt; exact Hv.
  - apply bs_locked_is_locked.
  - apply bs_locked_item_count.
  - apply bs_locked_delete_marker.
  - apply bs_locked_version.
Qed.

Theorem bs_clear_lock_spec v : bs_is_locked v = true ->
  bs_is_locked (bs_clear_lock v) = false
  /\ bs_item_count (bs_clear_lock v) = bs_item_count v
  /\ bs_delete_marker (bs_clear_lock v) = bs_delete_marker v
  /\ bs_version (bs_clear_lock v) = bs_version v.
Proof.
  intro H. repeat split.
  - apply bs_clear_lock_is_locked; exact H.
  - apply bs_clear_lock_item_count; exact H.
  - apply bs_clear_lock_delete_marker; exact H.
  - apply bs_clear_lock_version; exact H.
Qed.

Theorem bs_new_version_spec v : v < 2 ^ 32 ->
  bs_new_version v < 2 ^ 32
  /\ bs_version (bs_new_version v) = (bs_version v + 1) mod 2 ^ 27
  /\ bs_is_locked (bs_new_version v) = bs_is_locked v
  /\ bs_item_count (bs_new_version v) = bs_item_count v
  /\ bs_delete_marker (bs_new_version v) = bs_delete_marker v
  /\ bs_new_version v <> v.
Proof.
  intro Hv. repeat apply conj.
  - apply bs_new_version_lt.
  - apply bs_new_version_version; exact Hv.
  - apply bs_new_version_is_locked; exact Hv.
  - apply bs_new_version_item_count; exact Hv.
  - apply bs_new_version_delete_marker; exact Hv.
  - apply bs_new_version_neq; exact Hv.
Qed.

Theorem bs_inc_item_count_spec v : v < 2 ^ 32 -> bs_item_count v < 3 ->
  bs_inc_item_count v < 2 ^ 32
  /\ bs_item_count (bs_inc_item_count v) = bs_item_count v + 1
  /\ bs_is_locked (bs_inc_item_count v) = bs_is_locked v
  /\ bs_delete_marker (bs_inc_item_count v) = bs_delete_marker v
  /\ bs_version (bs_inc_item_count v) = bs_version v.
Proof.
  intros Hv Hc. repeat split.
  - apply bs_inc_item_count_lt.
  - apply bs_inc_item_count_item_count; assumption.
  - apply bs_inc_item_count_is_locked; assumption.
  - apply bs_inc_item_count_delete_marker; assumption.
  - apply bs_inc_item_count_version; assumption.
Qed.

Theorem bs_dec_item_count_spec v : v < 2 ^ 32 -> 0 < bs_item_count v ->
  bs_dec_item_count v < 2 ^ 32
  /\ bs_item_count (bs_dec_item_count v) = bs_item_count v - 1
  /\ bs_is_locked (bs_dec_item_count v) = bs_is_locked v
  /\ bs_delete_marker (bs_dec_item_count v) = bs_delete_marker v
  /\ bs_version (bs_dec_item_count v) = bs_version v.
Proof.
  intros Hv Hc. repeat split.
  - apply bs_dec_item_count_lt.
  - apply bs_dec_item_count_item_count; assumption.
  - apply bs_dec_item_count_is_locked; assumption.
  - apply bs_dec_item_count_delete_marker; assumption.
  - apply bs_dec_item_count_version; assumption.
Qed.

Theorem bs_set_delete_marker_spec v m : v < 2 ^ 32 -> bs_delete_marker v = 0 -> m < 4 ->
  bs_set_delete_marker v m < 2 ^ 32
  /\ bs_delete_marker (bs_set_delete_marker v m) = m
  /\ bs_is_locked (bs_set_delete_marker v m) = bs_is_locked v
  /\ bs_item_count (bs_set_delete_marker v m) = bs_item_count v
  /\ bs_version (bs_set_delete_marker v m) = bs_version v.
Proof.
  intros Hv Hd Hm. repeat split.
  - apply bs_set_delete_marker_lt; assumption.
  - apply bs_set_delete_marker_delete_marker; assumption.
  - apply bs_set_delete_marker_is_locked; assumption.
  - apply bs_set_delete_marker_item_count; assumption.
  - apply bs_set_delete_marker_version; assumption.
Qed.
