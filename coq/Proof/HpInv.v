(** Invariants of the hazard pointer model (Model/HpDefs.v): properties C01 and C02 for
    xenium::reclamation::hazard_pointer<> with the static allocation strategy.
    Layers: Proof/HpBase.v (ownership of the control blocks), Proof/HpGuards.v (guards, hazard pointer slots, free
    list), Proof/HpNodes.v (life cycle of the nodes, where the retired nodes are), this file: the safety argument
    (a validated guard keeps its node alive) and the theorems.  All theorems hold for every reachable state: any
    number of threads, any program, any schedule.  No axioms. *)
From Coq Require Import NArith List Bool Arith Lia PeanoNat.
From XV Require Import Conc.Lts Conc.Ev Model.HpDefs Proof.HpBase Proof.HpGuards Proof.HpNodes.
Import ListNotations.

(** guard [g] of thread [t] protects node [n]: this->ptr = n and the validating re-load has succeeded *)
Definition validated (st : state) (t g n : nat) : Prop :=
  ptr (gd (tl st t) g) = Some n /\ gv (gd (tl st t) g) = true.

(** the scan at program point [p] has seen, or will still read, slot [i] of control block [b] (holding [n]) *)
Definition covered (p : pc) (b i n : nat) : Prop :=
  match p with
  | S5 s r rest => In (Some n) (s_prot s) \/ In b (r :: rest)
  | S6 s r rest i' => In (Some n) (s_prot s) \/ (b = r /\ i' <= i) \/ In b rest
  | S7 s => In (Some n) (s_prot s)
  | _ => True
  end.

Record InvP (st : state) : Prop := mkP {
  p_life : forall t g n, validated st t g n ->
           g_life st n <> LNone /\ (forall u, g_life st n <> LFresh u) /\ g_life st n <> LDropped;
  p_cover : forall t g n b i s, validated st t g n -> rcd (tl st t) = Some b -> hp (gd (tl st t) g) = Some i ->
            In n (rl (tl st s) ++ ad_of (th st s)) -> covered (th st s) b i n;
  p_nf : forall t g n, validated st t g n -> g_where st n <> PFreed;
  p_uaf : g_uaf st = false }.

Definition good (l : life) : Prop := l <> LNone /\ (forall u, l <> LFresh u) /\ l <> LDropped.

(** a retired node is not published *)
Lemma listed_not_pub st s n c : InvN st -> In n (rl (tl st s) ++ ad_of (th st s)) -> g_life st n <> LPub c.
Proof.
  intros HN Hin Hc. assert (Hw : g_where st n = PNone) by (apply (n_none st HN); intros u; congruence).
  apply in_app_iff in Hin. destruct Hin as [H|H]; [apply (n_list st HN) in H|apply (n_flight st HN) in H]; congruence.
Qed.

(** the general preservation lemma: every step except the end of a scan *)
Lemma InvP_gen st st' :
  InvN st -> InvP st ->
  (forall t g n, validated st' t g n ->
     (validated st t g n /\ rcd (tl st' t) = rcd (tl st t) /\ hp (gd (tl st' t) g) = hp (gd (tl st t) g)) \/
     (exists c, g_life st n = LPub c)) ->
  (forall n, good (g_life st n) -> good (g_life st' n)) ->
  (forall n, g_where st n <> PFreed -> g_where st' n <> PFreed) ->
  (g_uaf st = false -> g_uaf st' = false) ->
  (forall s n, In n (rl (tl st' s) ++ ad_of (th st' s)) ->
     (forall b i, covered (th st' s) b i n) \/
     (In n (rl (tl st s) ++ ad_of (th st s)) /\
      forall t g b i, validated st t g n -> rcd (tl st t) = Some b -> hp (gd (tl st t) g) = Some i ->
                      covered (th st s) b i n -> covered (th st' s) b i n)) ->
  InvP st'.
Proof.
  intros HN [I1 I2 I3 I4] Hv Hl Hw Hu Hc.
  assert (Hpub : forall n c, g_life st n = LPub c -> good (g_life st n) /\ g_where st n <> PFreed).
  { intros n c H. split; [rewrite H; repeat split; intros; discriminate|].
    assert (Hn : g_where st n = PNone) by (apply (n_none st HN); intros u; congruence). congruence. }
  constructor.
  - intros t g n H. apply Hl. destruct (Hv t g n H) as [(H1 & _)|[c Hc']]; [apply (I1 t g n H1)|apply (Hpub n c Hc')].
  - intros t g n b i s H Hb Hi Hin. destruct (Hc s n Hin) as [Hcv|[Hin' Htr]]; [apply Hcv|].
    destruct (Hv t g n H) as [(H1 & H2 & H3)|[c Hc']].
    + rewrite H2 in Hb. rewrite H3 in Hi. apply (Htr t g b i H1 Hb Hi). apply (I2 t g n b i s H1 Hb Hi Hin').
    + exfalso. apply (listed_not_pub st s n c HN Hin' Hc').
  - intros t g n H. apply Hw. destruct (Hv t g n H) as [(H1 & _)|[c Hc']]; [apply (I3 t g n H1)|apply (Hpub n c Hc')].
  - apply Hu. exact I4.
Qed.

(** a protected node is alive *)
Lemma valid_alive st t g n : InvN st -> InvP st -> validated st t g n -> dead st n = false.
Proof.
  intros HN HP Hv. unfold dead. rewrite (n_free st HN). unfold gone.
  pose proof (p_nf st HP t g n Hv) as H1. destruct (p_life st HP t g n Hv) as (_ & _ & H2).
  destruct (g_where st n); try contradiction; destruct (g_life st n); try contradiction; reflexivity.
Qed.

Section V.
Variable nslots : nat.


(** [gv] is false only while its guard is being re-acquired *)
Definition in_acq (p : pc) (g : nat) : Prop :=
  match p with Q2 k _ | Q3 k _ | Q4 k _ | QR k => g = guard_of nslots k | _ => False end.
Definition InvV (st : state) : Prop := forall t g, gv (gd (tl st t) g) = false -> in_acq (th st t) g.

(** a guard that is being re-acquired stays so while its thread only moves on *)
Lemma move_V st t p p' g : move nslots t st p p' -> in_acq p g -> in_acq p' g.
Proof. intros Hm. destruct Hm; cbn [in_acq]; tauto. Qed.

(** thread [t] steps: its guards that are not validated afterwards were so before, or are being acquired now *)
Lemma InvV_eff st st1 t p' :
  InvV st -> th st1 = th st -> (forall u, u <> t -> tl st1 u = tl st u) ->
  (forall g, gv (gd (tl st1 t) g) = false -> (gv (gd (tl st t) g) = false -> in_acq (th st t) g) -> in_acq p' g) ->
  InvV (set_pc t p' st1).
Proof.
  intros HV Ht Hu Hg u g H. prjh H. prj. rewrite Ht. destruct (Nat.eq_dec u t) as [->|Hne]; upds.
  - apply Hg; [exact H|apply HV].
  - rewrite Hu in H by exact Hne. apply HV. exact H.
Qed.

Lemma InvV_step st a st' es : InvV st -> step nslots st a = Some (st', es) -> InvV st'.
Proof.
  intros HV Hs. destruct a as [t o|t].
  - cbn [step] in Hs. destruct (th st t) eqn:Hth; try discriminate Hs. destruct (legal nslots o); [|discriminate Hs].
    injection Hs as <- <-. apply (InvV_eff st); auto. intros g Hg H. rewrite Hth in H. destruct (H Hg).
  - step_cases Hs Hth.
    1: { apply (InvV_eff st); auto. intros g Hg H. rewrite Hth in H. exact (move_V st t p p' g H0 (H Hg)). }
    all: try match goal with H : acq_pre _ _ _ _ _ _ |- _ => destruct H | H : walk_end _ _ _ _ |- _ => destruct H
                          | H : reset_at _ _ _ _ _ _ |- _ => destruct H end.
    all: try subst st3.
    all: try match goal with |- context [publish _ ?n _] => destruct n | |- context [drop_new ?n _] => destruct n end.
    all: (see_through (InvV_eff st);
          unfold reset_guard, set_gd; prj;
          first [exact HV | reflexivity | (intros u Hu; upds; reflexivity)
                | (intros gq Hg HV'; rewrite Hth in HV'; cbn [in_acq] in HV'; upds_in Hg; prjh Hg)]).
    all: try (destruct (HV' Hg); fail).
    (* left: the guard the step writes (Begin drop, H1, Q2, R1, R2, RR, D1, X0, acquire returning): validated afterwards,
       or set_object at Q2 *)
    all: match type of Hg with context [upd _ ?g _ ?x] => destruct (Nat.eq_dec x g) as [->|?]; upds_in Hg; prjh Hg end.
    all: first [discriminate Hg | reflexivity | match goal with n : _ <> _ |- _ => destruct (n (HV' Hg)) end | destruct (HV' Hg)].
Qed.

Lemma InvV_init ncells : InvV (init ncells).
Proof. intros t g H. cbn in H. discriminate. Qed.
End V.

Section P.
Variable nslots : nat.


(** a dereferenced node is alive: it is held by a guard at rest, or it was just read from a cell *)
Lemma uaf_guard st t g n :
  InvN st -> InvV nslots st -> InvP st -> ptr (gd (tl st t) g) = Some n -> ~ in_acq nslots (th st t) g -> dead st n = false.
Proof.
  intros HN HV HP Hp Hna. apply (valid_alive st t g n HN HP). split; [exact Hp|].
  destruct (gv (gd (tl st t) g)) eqn:E; [reflexivity|]. exfalso. apply Hna. apply HV. exact E.
Qed.

Lemma uaf_pub st c n : InvN st -> cells st c = Some n -> dead st n = false.
Proof.
  intros HN Hc. unfold dead. rewrite (n_free st HN). unfold gone. pose proof (n_cell st HN c n Hc) as Hl.
  assert (Hw : g_where st n = PNone) by (apply (n_none st HN); intros u; congruence). rewrite Hw, Hl. reflexivity.
Qed.

Lemma deref_uaf g st : g_uaf st = false -> (forall n, ptr g = Some n -> dead st n = false) -> g_uaf (deref_g g st) = false.
Proof. intros Hu Hd. unfold deref_g. destruct (ptr g) as [n|]; [|exact Hu]. cbn [deref g_uaf w_g_uaf]. rewrite Hu, (Hd n eq_refl). reflexivity. Qed.

Lemma is_prot_In prot n : In (Some n) prot -> is_prot prot n = true.
Proof.
  intros H. unfold is_prot. apply existsb_exists. exists (Some n). split; [exact H|apply Nat.eqb_refl].
Qed.

(** the end of a scan: the unprotected nodes of the retire list and of the adopted list are freed *)
Lemma InvP_reclaim st st' t s :
  InvG nslots st -> InvN st -> InvP st -> th st t = S7 s ->
  (forall u g, gd (tl st' u) g = gd (tl st u) g) -> (forall u, rcd (tl st' u) = rcd (tl st u)) ->
  (forall n, g_life st' n = g_life st n) ->
  (forall n, g_where st' n = PFreed -> g_where st n = PFreed \/ (In n (rl (tl st t) ++ s_ad s) /\ is_prot (s_prot s) n = false)) ->
  g_uaf st' = g_uaf st -> (forall b i n, covered (th st' t) b i n) ->
  (forall u, u <> t -> rl (tl st' u) = rl (tl st u) /\ th st' u = th st u) ->
  InvP st'.
Proof.
  intros HG HN [I1 I2 I3 I4] Hth Hgd Hr Hl Hw Hu Hcv Ho.
  assert (Hval : forall u g n, validated st' u g n -> validated st u g n).
  { intros u g n [H1 H2]. rewrite Hgd in H1, H2. split; assumption. }
  constructor.
  - intros u g n H. rewrite Hl. apply (I1 u g n (Hval u g n H)).
  - intros u g n b i s0 H Hb Hi Hin. destruct (Nat.eq_dec s0 t) as [->|Hne]; [apply Hcv|].
    destruct (Ho s0 Hne) as [H1 H2]. rewrite H1, H2 in Hin. rewrite H2. rewrite Hr in Hb. rewrite Hgd in Hi.
    apply (I2 u g n b i s0 (Hval u g n H) Hb Hi Hin).
  - intros u g n H Hc. pose proof (Hval u g n H) as Hv. destruct (Hw n Hc) as [Hc'|[Hin Hnp]]; [apply (I3 u g n Hv Hc')|].
    destruct Hv as [Hp Hgv].
    destruct (hp (gd (tl st u) g)) as [i|] eqn:Ei; [|exfalso; apply (g_ptr nslots st u (HG u) g n Hp); exact Ei].
    destruct (rcd (tl st u)) as [b|] eqn:Eb; [|exfalso; apply (g_lt nslots st u (HG u) g i Ei); exact Eb].
    assert (Hcov : covered (th st t) b i n).
    { apply (I2 u g n b i t (conj Hp Hgv) Eb Ei). rewrite Hth. cbn [ad_of]. exact Hin. }
    rewrite Hth in Hcov. cbn [covered] in Hcov. rewrite (is_prot_In _ _ Hcov) in Hnp. discriminate.
  - rewrite Hu. exact I4.
Qed.

(** the scan reads slot [i'] of block [r] *)
Lemma cov_S6 st t g n b i s r rest i' :
  GT nslots st t -> validated st t g n -> rcd (tl st t) = Some b -> hp (gd (tl st t) g) = Some i ->
  covered (S6 s r rest i') b i n ->
  In (Some n) (match hz st r i' with VObj x => s_prot s ++ [x] | VLink _ => s_prot s end) \/ (b = r /\ S i' <= i) \/ In b rest.
Proof.
  intros HG [Hp Hv] Hb Hi Hc. cbn [covered] in Hc. destruct Hc as [Hc|[[-> Hle]|Hc]].
  - left. destruct (hz st r i'); [exact Hc|apply in_app_iff; left; exact Hc].
  - destruct (Nat.eq_dec i' i) as [->|Hne]; [|right; left; split; [reflexivity|lia]].
    left. rewrite (g_val nslots st t HG r g i n Hb Hi Hp Hv). apply in_app_iff. right. left. reflexivity.
  - right. right. exact Hc.
Qed.

(** thread [t] steps to [p']; the other threads keep their thread_data *)
Lemma InvP_eff st st1 t p' :
  InvN st -> InvP st -> th st1 = th st -> (forall u, u <> t -> tl st1 u = tl st u) ->
  (forall g n, ptr (gd (tl st1 t) g) = Some n -> gv (gd (tl st1 t) g) = true ->
     (validated st t g n /\ rcd (tl st1 t) = rcd (tl st t) /\ hp (gd (tl st1 t) g) = hp (gd (tl st t) g)) \/
     (exists c, g_life st n = LPub c)) ->
  (forall n, good (g_life st n) -> good (g_life st1 n)) ->
  (forall n, g_where st n <> PFreed -> g_where st1 n <> PFreed) ->
  (g_uaf st = false -> g_uaf st1 = false) ->
  (forall n, In n (rl (tl st1 t) ++ ad_of p') ->
     (forall b i, covered p' b i n) \/
     (In n (rl (tl st t) ++ ad_of (th st t)) /\
      forall u g b i, validated st u g n -> rcd (tl st u) = Some b -> hp (gd (tl st u) g) = Some i ->
                      covered (th st t) b i n -> covered p' b i n)) ->
  InvP (set_pc t p' st1).
Proof.
  intros HN HP Ht Hu Hv Hl Hw Hf Hc. apply (InvP_gen st); prj; auto.
  - intros u g n [H1 H2]. prjh H1. prjh H2. destruct (Nat.eq_dec u t) as [->|Hne]; [apply Hv; assumption|].
    rewrite Hu in * by exact Hne. left. repeat split; assumption.
  - intros s n. rewrite Ht. destruct (Nat.eq_dec s t) as [->|Hne]; upds; [apply Hc|].
    rewrite Hu by exact Hne. intros Hin. right. split; [exact Hin|]. intros; assumption.
Qed.

Lemma covered_next s l b i n : In (Some n) (s_prot s) \/ In b l -> covered (next_pc s l) b i n.
Proof. destruct l; cbn [next_pc covered]; [intros [H|[]]; exact H|exact (fun H => H)]. Qed.

(** a thread that only moves on: what its scan has seen or will still read does not shrink *)
Lemma move_P st t p p' :
  InvO st -> InvG nslots st -> move nslots t st p p' ->
  forall u g n b i, validated st u g n -> rcd (tl st u) = Some b -> hp (gd (tl st u) g) = Some i ->
  covered p b i n -> covered p' b i n.
Proof.
  intros HO HG Hm u g n b i Hv Hb Hi Hc.
  destruct (O_rcd st HO u b Hb) as (_ & Hin & He). destruct (g_lt nslots st u (HG u) g i Hi) as [Hlt _].
  destruct Hm; cbn [covered] in *; try exact I.
  - pattern p'. eapply exits_pc; [..|exact H]; intros; exact I.
  - apply covered_next. right. exact Hin.
  - destruct Hc as [Hc|Hc]; [left; exact Hc|right]. destruct Hc as [<-|Hc]; [left; split; [reflexivity|lia]|right; exact Hc].
  - apply covered_next. destruct Hc as [Hc|[<-|Hc]]; [left; exact Hc|congruence|right; exact Hc].
  - pose proof (cov_S6 st u g n b i s r rest i0 (HG u) Hv Hb Hi Hc) as H6. rewrite H in H6. exact H6.
  - pose proof (cov_S6 st u g n b i s r rest i0 (HG u) Hv Hb Hi Hc) as H6. rewrite H in H6.
    apply covered_next. destruct H6 as [H6|[[_ H6]|H6]]; [left; exact H6|lia|right; exact H6].
Qed.

(** case split on every [upd] of the goal *)
Ltac eqs := repeat (unfold upd; match goal with |- context [Nat.eqb ?a ?b] => destruct (Nat.eqb_spec a b); subst end).

Lemma InvP_step st a st' es :
  InvO st -> InvG nslots st -> InvN st -> InvV nslots st -> InvP st -> step nslots st a = Some (st', es) -> InvP st'.
Proof.
  intros HO HG HN HV HP Hs. destruct a as [t o|t].
  - cbn [step] in Hs. destruct (th st t) eqn:Hth; try discriminate Hs. destruct (legal nslots o); [|discriminate Hs].
    injection Hs as <- <-. apply (InvP_eff st); auto.
    + intros g n H1 H2. left. repeat split; assumption.
    + intros n Hin. left. intros; exact I.
  - pose proof (HG t) as HGt. pose proof (g_pc nslots st t HGt) as Hpc. pose proof (n_pc st HN t) as Hpn.
    step_cases Hs Hth.
    1: { apply (InvP_eff st); auto.
         - intros g n H1 H2. left. repeat split; assumption.
         - intros n Hin. right. rewrite (proj1 (move_N nslots st t p p' H0)), <- Hth in Hin. split; [exact Hin|].
           rewrite Hth. intros u g b i. apply (move_P st t p p' HO HG H0 u g n b i). }
    all: try match goal with H : acq_pre _ _ _ _ _ _ |- _ => destruct H | H : walk_end _ _ _ _ |- _ => destruct H
                          | H : reset_at _ _ _ _ _ _ |- _ => destruct H as [| |? ? []] | H : scan_ret _ _ _ _ |- _ => destruct H end.
    all: rewrite Hth in Hpc, Hpn; cbn [pcG pcN ctx_ok guard_of] in Hpc, Hpn.
    all: try subst st3.
    all: try match goal with |- context [acq_eff _ _ ?k _] => destruct k as [? [|]| |]; cbn [acq_eff acq_pc guard_of cell_of] in * end.
    all: try match goal with |- context [publish _ ?n _] => destruct n | |- context [drop_new ?n _] => destruct n end.
    all: unfold td_pc; unfold ret_pc, exit_pc; repeat match goal with |- context [match ?x with _ => _ end] => destruct x eqn:? end.
    all: try (match goal with |- context [reclaimed] => fail 1 | _ => see_through (InvP_eff st) end;
          [ exact HN | exact HP | reflexivity | intros u Hu; sim; reflexivity
          | intros gq nq Hq1 Hq2; simh Hq1; simh Hq2;
            try (match type of Hq1 with context [upd _ ?g _ ?x] =>
                   destruct (Nat.eq_dec x g) as [->|?]; upds_in Hq1; upds_in Hq2; prjh Hq1; prjh Hq2 end);
            sim; upds; try first [ (left; repeat split; first [assumption|reflexivity]) | discriminate ]
          | intros nq Hq; sim; try first [ exact Hq | (revert Hq; eqs; intros Hq; first [exact Hq | (repeat split; intros; discriminate)]) ]
          | intros nq Hq; sim; try first [ exact Hq | (revert Hq; eqs; intros Hq; first [exact Hq | discriminate])
                                         | (match goal with |- context [mem ?x ?l] => destruct (mem x l); [discriminate|exact Hq] end) ]
          | intros Hq; sim; try exact Hq
          | intros nq Hin; simh Hin; cbn [ad_of s_ad] in *; try (left; intros; exact I) ]).
    (* left after the block above: S7 as a whole, and single premises of InvP_eff at W2, A3, H1, X5 (guards), Q4 (validation),
       every dereference, R1 / acquire returning to repl (lives), S6 with push_back (cover).  The end of a scan: *)
    all: try (match goal with |- context [reclaimed _ ?s _] =>
      apply (InvP_reclaim st _ t s HG HN HP Hth);
        [ intros u g; sim; destruct (Nat.eq_dec u t) as [->|?]; upds; reflexivity
        | intros u; sim; destruct (Nat.eq_dec u t) as [->|?]; upds; reflexivity
        | intros; sim; reflexivity
        | let nq := fresh "nq" in intros nq; unfold kept; sim;
          match goal with |- context [mem nq ?k] => destruct (mem nq k); [discriminate|] end;
          match goal with |- context [mem nq ?f] => destruct (mem nq f) eqn:Ef; [|intros Hw; left; exact Hw] end;
          intros _; right; apply mem_In, filter_In in Ef; destruct Ef as [Ef1 Ef2]; apply negb_true_iff in Ef2; split; assumption
        | sim; reflexivity
        | intros; sim; cbn [covered]; exact I
        | intros u Hu; sim; upds; split; reflexivity ] end; fail).
    (* a guard without hazard pointer holds no node *)
    all: try (exfalso; apply (g_ptr nslots st t HGt _ _ Hq1); first [apply Hpc | (destruct Hpc as [_ Hn]; apply Hn) | assumption]; fail).
    (* the validating load has just read the node from its cell *)
    all: try (right; injection Hq1 as <-; eexists; apply (n_cell st HN); eassumption).
    (* a dereferenced node is in a guard at rest, or was just read from its cell *)
    all: try (first [ apply deref_uaf; [exact Hq|intros nd Hd; upds_in Hd; prjh Hd; unfold dead; prj; match goal with |- context [g_nfree ?s ?o] => fold (dead s o) end]
                    | (rewrite Hq; cbn [orb]; unfold dead; prj; match goal with |- context [g_nfree ?s ?o] => fold (dead s o) end) ];
              first [ discriminate Hd
                    | (eapply uaf_guard; [exact HN|exact HV|exact HP|eassumption|rewrite Hth; exact (fun H => H)])
                    | (injection Hd as <-; eapply uaf_pub; [exact HN|eassumption]) ]).
    (* a node with a new life was fresh or not allocated before: no guard holds it *)
    all: try (unfold upd; match goal with |- context [Nat.eqb ?a ?b] => destruct (Nat.eqb_spec a b) as [->|?] end;
              [exfalso; destruct Hq as (Hq1 & Hq2 & _)|exact Hq];
              first [apply Hq1; apply (n_lt st HN); lia | eapply Hq2; eassumption]).
    (* the scan gathers the slot it reads *)
    all: match goal with |- context [push _ _ ?s ?x] => destruct (push_scan t st s x) as (_ & Hsa & Hsp) end;
      right; rewrite Hth; cbn [ad_of]; rewrite ?ad_of_next, Hsa in Hin; (split; [exact Hin|]); intros u g b i0 Hv Hb Hi Hc;
      match type of Hc with covered (S6 ?s ?r ?rest ?i) _ _ _ =>
        pose proof (cov_S6 st u g nq b i0 s r rest i (HG u) Hv Hb Hi Hc) as H6 end;
      match goal with H : hz _ _ _ = VObj _ |- _ => rewrite H in H6 end; rewrite <- Hsp in H6.
    + exact H6.
    + apply covered_next. destruct (g_lt nslots st u (HG u) g i0 Hi) as [Hlt _].
      destruct H6 as [H6|[[_ H6]|H6]]; [left; exact H6|lia|right; exact H6].
Qed.

Lemma InvP_init ncells : InvP (init ncells).
Proof.
  constructor; unfold validated; cbn; intros; try reflexivity; destruct H; discriminate.
Qed.
End P.

(** * The invariant holds in every reachable state *)
Section Main.
Variables (ncells nslots : nat).

Record Inv (st : state) : Prop := mkInv {
  inv_O : InvO st; inv_G : InvG nslots st; inv_N : InvN st; inv_V : InvV nslots st; inv_P : InvP st }.

Theorem hp_inv st : reach (init ncells) (step nslots) st -> Inv st.
Proof.
  apply inv_rule.
  - constructor; [apply InvO_init|apply InvG_init|apply InvN_init|apply InvV_init|apply InvP_init].
  - intros s a s' es [HO HG HN HV HP] Hs. constructor.
    + apply (InvO_step nslots s a s' es HO Hs).
    + apply (InvG_step nslots s a s' es HO HG Hs).
    + apply (InvN_step nslots s a s' es HG HN Hs).
    + apply (InvV_step nslots s a s' es HV Hs).
    + apply (InvP_step nslots s a s' es HO HG HN HV HP Hs).
Qed.

(** * C01: no object is destroyed while a guard_ptr protects it.
    For every reachable state (any number of threads, any programs of the client operations, any schedule):
    a node held by a validated guard (the guard's this->ptr after the validating re-load of acquire succeeded,
    until the guard is reset or re-acquired) has not been freed, it sits in the hazard pointer slot of the guard,
    and no dereference ever hit a destroyed node ([g_uaf] records every dereference the client makes: read, hold,
    deref and the [g->id] of repl/clear). *)
Theorem hp_safe st :
  reach (init ncells) (step nslots) st ->
  (forall t g n, validated st t g n ->
     g_nfree st n = 0 /\ g_where st n <> PFreed /\
     exists b i, rcd (tl st t) = Some b /\ hp (gd (tl st t) g) = Some i /\ hz st b i = VObj (Some n))
  /\ g_uaf st = false.
Proof.
  intros Hr. destruct (hp_inv st Hr) as [HO HG HN HV HP]. split; [|apply (p_uaf st HP)].
  intros t g n Hv. split.
  - pose proof (valid_alive st t g n HN HP Hv) as Hd. unfold dead in Hd. apply negb_false_iff, Nat.eqb_eq in Hd. exact Hd.
  - split; [apply (p_nf st HP t g n Hv)|]. destruct Hv as [Hp Hgv].
    destruct (hp (gd (tl st t) g)) as [i|] eqn:Ei; [|exfalso; apply (g_ptr nslots st t (HG t) g n Hp); exact Ei].
    destruct (rcd (tl st t)) as [b|] eqn:Eb; [|exfalso; apply (g_lt nslots st t (HG t) g i Ei); exact Eb].
    exists b, i. split; [reflexivity|]. split; [reflexivity|]. apply (g_val nslots st t (HG t) b g i n Eb Ei Hp Hgv).
Qed.

(** * C02: a retired node is in exactly one place, and it is freed at most once and only after it was retired *)
Definition retired (st : state) (n : nat) : Prop := exists u, g_life st n = LRet u.

(** node [n] is at place [p] *)
Definition at_place (st : state) (n : nat) (p : place) : Prop :=
  match p with
  | PList t => In n (rl (tl st t))               (* the retire list of thread t *)
  | PAband => In n (aband st)                    (* abandoned_retired_nodes *)
  | PFlight t => In n (ad_of (th st t))          (* adopted by the scan thread t is running *)
  | PFreed => g_nfree st n = 1                   (* destroyed *)
  | PNone => False
  end.

Theorem hp_exactly_once st :
  reach (init ncells) (step nslots) st ->
  forall n,
    g_nfree st n <= 1 /\
    (g_nfree st n = 1 -> retired st n \/ g_life st n = LDropped) /\
    (g_life st n = LDropped -> ~ retired st n /\ forall p, ~ at_place st n p \/ p = PFreed) /\
    (retired st n -> at_place st n (g_where st n) /\ forall p, at_place st n p -> p = g_where st n) /\
    (forall t, NoDup (rl (tl st t))) /\ NoDup (aband st) /\ (forall t, NoDup (ad_of (th st t))).
Proof.
  intros Hr n. destruct (hp_inv st Hr) as [HO HG HN HV HP].
  pose proof (n_free st HN n) as Hf. unfold gone in Hf.
  assert (Hnone : ~ retired st n -> g_where st n = PNone).
  { intros H. apply (n_none st HN). intros u Hu. apply H. exists u. exact Hu. }
  assert (Hat : forall p, p <> PFreed -> at_place st n p -> g_where st n = p).
  { intros [|t| |t|] Hp H; cbn [at_place] in H; try contradiction.
    - apply (n_list st HN). exact H.
    - apply (n_aband st HN). exact H.
    - apply (n_flight st HN). exact H. }
  split; [destruct (g_where st n), (g_life st n); lia|].
  split.
  { intros H1. destruct (g_life st n) eqn:El; try (right; reflexivity); try (left; exists t; exact El);
      exfalso; (assert (Hw : g_where st n = PNone) by (apply Hnone; intros [u Hu]; rewrite El in Hu; discriminate Hu)); rewrite Hw in Hf; lia. }
  split.
  { intros Hd. split; [intros [u Hu]; congruence|]. intros p. destruct p; try (right; reflexivity); left; intros H;
      (assert (Hw : g_where st n = PNone) by (apply Hnone; intros [u Hu]; congruence));
      try (apply Hat in H; [congruence|discriminate]). exact H. }
  split.
  { intros [u Hu]. assert (Hw : g_where st n <> PNone) by (intros Hc; apply (proj1 (n_none st HN n) Hc u); exact Hu).
    split.
    - destruct (g_where st n) eqn:Ew; cbn [at_place]; try congruence.
      + apply (n_list st HN). exact Ew.
      + apply (n_aband st HN). exact Ew.
      + apply (n_flight st HN). exact Ew.
    - intros p H. destruct p; cbn [at_place] in H; try contradiction;
        try (symmetry; apply Hat; [discriminate|exact H]).
      rewrite Hu in Hf. destruct (g_where st n); try reflexivity; lia. }
  split; [apply (n_list_nd st HN)|]. split; [apply (n_aband_nd st HN)|apply (n_flight_nd st HN)].
Qed.
End Main.

(** * Examples (cells = 2, nslots = 3: the guards 0..2 of a thread, plus the temporary one; heap blocks: 0, 1 the
      initial nodes, 2 the control block of thread 1, 3 the control block of thread 2, 4 the node thread 2
      installs, ...) *)
Definition ops (t : nat) (o : op) (k : nat) : list action := Start t o :: repeat (Step t) k.
Definition final (acts : list action) : state := fst (fst (run (step 3) (init 2) acts)).

Lemma final_reach acts : reach (init 2) (step 3) (final acts).
Proof. apply run_reach. Qed.

(** thread 1 holds node 0 in its guard 0; thread 2 replaces the node in cell 0, retires node 0 and is inside its scan
    (about to read the state of control block 2, the one of thread 1) *)
Definition ex_a1 := ops 1 (OHold 0 0) 40 ++ Start 2 (ORepl 0) :: repeat (Step 2) 26.
Example ex_scan_running :
  let st := final ex_a1 in
  validated st 1 0 0 /\ th st 1 = Idle /\ rl (tl st 2) = [0] /\ cells st 0 = Some 4 /\
  th st 2 = S5 (mkScan SRepl 6 (Some 5) [] []) 2 [].
Proof. vm_compute. repeat split; reflexivity. Qed.

(** the scan ends while the guard still protects node 0: the node survives in the retire list of thread 2,
    thread 1 dereferences it *)
Definition ex_a2 := ex_a1 ++ ops 1 (ODeref 0) 1 ++ repeat (Step 2) 40.
Example ex_node_survives :
  let st := final ex_a2 in
  validated st 1 0 0 /\ th st 1 = Idle /\ th st 2 = Idle /\
  g_nfree st 0 = 0 /\ g_where st 0 = PList 2 /\ rl (tl st 2) = [0] /\ g_uaf st = false.
Proof. vm_compute. repeat split; reflexivity. Qed.

(** hp_safe applies to this state: the node in the guard is alive and sits in slot 0 of control block 2 *)
Example ex_safe_instance :
  g_nfree (final ex_a2) 0 = 0 /\ hz (final ex_a2) 2 0 = VObj (Some 0).
Proof.
  destruct (hp_safe 2 3 (final ex_a2) (final_reach ex_a2)) as [H _].
  assert (Hv : validated (final ex_a2) 1 0 0) by (vm_compute; split; reflexivity).
  destruct (H 1 0 0 Hv) as (H1 & _ & b & i & Hb & Hi & Hz). split; [exact H1|].
  vm_compute in Hb, Hi. injection Hb as <-. injection Hi as <-. exact Hz.
Qed.

(** after the drop the next scan of thread 2 frees node 0 (and node 4, which it retires now): each exactly once *)
Definition ex_a3 := ex_a2 ++ ops 1 (ODrop 0) 40 ++ ops 2 (ORepl 0) 40.
Example ex_freed_after_drop :
  let st := final ex_a3 in
  th st 1 = Idle /\ th st 2 = Idle /\ ptr (gd (tl st 1) 0) = None /\
  g_nfree st 0 = 1 /\ g_where st 0 = PFreed /\ g_nfree st 4 = 1 /\ rl (tl st 2) = [] /\ g_uaf st = false.
Proof. vm_compute. repeat split; reflexivity. Qed.

(** thread exit: thread 2 exits while node 0 (in its retire list) is still protected by thread 1: the node is handed
    over to abandoned_retired_nodes and the control block 3 is released *)
Definition ex_b1 := ops 1 (OHold 0 0) 40 ++ ops 2 (ORepl 0) 40 ++ ops 2 OExit 40.
Example ex_abandoned :
  let st := final ex_b1 in
  th st 2 = Done /\ g_where st 0 = PAband /\ aband st = [0] /\ rl (tl st 2) = [] /\ est st 3 = 0 /\ g_nfree st 0 = 0.
Proof. vm_compute. repeat split; reflexivity. Qed.

(** thread 3 adopts control block 3, retires node 1 and adopts the abandoned node 0 in its scan (in flight) ... *)
Definition ex_b2 := ex_b1 ++ Start 3 (ORepl 1) :: repeat (Step 3) 20.
Example ex_adopted :
  let st := final ex_b2 in
  rcd (tl st 3) = Some 3 /\ g_where st 0 = PFlight 3 /\ aband st = [] /\ ad_of (th st 3) = [0] /\ rl (tl st 3) = [1].
Proof. vm_compute. repeat split; reflexivity. Qed.

(** ... node 0 is still protected by thread 1: it moves to the retire list of thread 3; node 1 is freed *)
Definition ex_b3 := ex_b2 ++ repeat (Step 3) 40.
Example ex_adopted_kept :
  let st := final ex_b3 in
  th st 3 = Idle /\ g_where st 0 = PList 3 /\ rl (tl st 3) = [0] /\ g_nfree st 0 = 0 /\ g_where st 1 = PFreed /\ g_nfree st 1 = 1.
Proof. vm_compute. repeat split; reflexivity. Qed.

(** after the drop the next scan of thread 3 destroys node 0: exactly once, by another thread than the retiring one *)
Definition ex_b4 := ex_b3 ++ ops 1 (ODrop 0) 40 ++ ops 3 (ORepl 1) 40.
Example ex_handed_over_freed :
  let st := final ex_b4 in
  th st 3 = Idle /\ g_where st 0 = PFreed /\ g_nfree st 0 = 1 /\ g_life st 0 = LRet 2 /\ rl (tl st 3) = [] /\ g_uaf st = false.
Proof. vm_compute. repeat split; reflexivity. Qed.
