(** One step of the Chase-Lev deque model (Model/ChaseDefs.v): the case analysis of [step], what a
    step leaves unchanged, and the control-flow facts that hold for both array policies. *)
From Coq Require Import NArith List Bool PeanoNat.
From XV Require Import Base.Word Conc.Lts Conc.Ev gen.GrowingArrayGen Model.ChaseDefs.
Import ListNotations.
Local Open Scope N_scope.

(** [step_cases H st t E], for [H : step pol st (Step t) = Some (st', es)]: one goal per program
    point of [t] (named by [E : th st t = ...]) and outcome of the tests of that branch of [step]
    (each kept as a boolean equation [Htest], [Htest0]), with [st'] and [es] replaced by the successor state and
    the events.  [step] is unfolded before the case distinction, hence once. *)
Ltac step_cases H st t E :=
  cbn [step is_growing init_cap max_cap slot] in H; destruct (th st t) eqn:E;
  repeat match type of H with
  | context [let '(_, _) := opcode ?o in _] => destruct o; cbn [opcode] in H
  | context [match grow_moves ?c ?b ?tp with _ => _ end] => destruct (grow_moves c b tp) eqn:?
  | context [match ?l with [] => _ | _ => _ end] => destruct l as [|[? ?] ?]
  | context [if ?c then _ else _] => let Ht := fresh "Htest" in destruct c eqn:Ht
  end; try discriminate H; injection H as <- <-.

Section Policy.
  Variable pol : policy.

  (** only the owner starts try_push / try_pop *)
  Lemma step_start st t o st' es :
    step pol st (Start t o) = Some (st', es) ->
    th st t = Idle /\ (o = OSteal \/ t = owner) /\
    st' = mkSt (sh st) (upd (th st) t (Begin o)) (nalloc st) (g_pushed st) (g_taken st).
  Proof.
    cbn [step]. destruct (th st t); try discriminate.
    destruct (match o with OSteal => true | _ => (t =? owner)%nat end) eqn:Ho; [|discriminate].
    intros H. injection H as <- _. split; [reflexivity|]. split; [|reflexivity].
    destruct o; [right; apply Nat.eqb_eq, Ho ..|left; reflexivity].
  Qed.

  (** what a step of [t] changes outside [t]'s program counter: no other thread, the capacity at
      the last step of [grow] only, the history of pushes by appending, [top] by a successful CAS
      from the value the thread expected to the next *)
  Lemma step_frame st t st' es :
    step pol st (Step t) = Some (st', es) ->
    (forall t', t' <> t -> th st' t' = th st t') /\
    capacity (sh st') =
      match th st t with PuGrowEnd _ _ c => wmul 64 c 2 | _ => capacity (sh st) end /\
    (exists l, g_pushed st' = g_pushed st ++ l) /\
    (top (sh st') = top (sh st) \/ top (sh st') = wadd 64 (top (sh st)) 1).
  Proof.
    intros H. step_cases H st t E;
      (split; [intros t' Hne; apply upd_other; exact Hne|]); (split; [reflexivity|]);
      (split; [cbn [g_pushed]; first [exists []; symmetry; apply app_nil_r | eexists; reflexivity]|]);
      cbn [sh top set_top set_bottom set_mem set_cap set_buckets]; try (left; reflexivity).
    all: apply N.eqb_eq in Htest; right; rewrite Htest; reflexivity.
  Qed.

  Lemma step_th_other st t st' es t' :
    step pol st (Step t) = Some (st', es) -> t' <> t -> th st' t' = th st t'.
  Proof. intros H. apply (step_frame _ _ _ _ H). Qed.

  Lemma step_pushed st a st' es :
    step pol st a = Some (st', es) -> exists l, g_pushed st' = g_pushed st ++ l.
  Proof.
    intros H. destruct a as [t o|t].
    - apply step_start in H. destruct H as (_ & _ & ->). exists []. symmetry. apply app_nil_r.
    - apply (step_frame _ _ _ _ H).
  Qed.

  Lemma step_top st a st' es :
    step pol st a = Some (st', es) ->
    top (sh st') = top (sh st) \/ top (sh st') = wadd 64 (top (sh st)) 1.
  Proof.
    intros H. destruct a as [t o|t].
    - apply step_start in H. destruct H as (_ & _ & ->). left. reflexivity.
    - apply (step_frame _ _ _ _ H).
  Qed.

  (** A property [Q t] of the program counter of thread [t] holds in every reachable state if it
      holds of the entry points thread [t] may start at and every step of [t] preserves it: no
      step of another thread touches it. *)
  Lemma chase_pc_inv (Q : nat -> pc -> Prop) :
    (forall t, Q t Idle) -> (forall t o, o = OSteal \/ t = owner -> Q t (Begin o)) ->
    (forall st t st' es, Q t (th st t) -> step pol st (Step t) = Some (st', es) -> Q t (th st' t)) ->
    forall s, reach (init pol) (step pol) s -> forall t, Q t (th s t).
  Proof.
    intros QI QB QS. apply (inv_rule _ _ _ (init pol) (step pol) (fun s => forall t, Q t (th s t))).
    - intros t. apply QI.
    - intros st a st' es IH Hst t'. destruct a as [t o|t].
      + apply step_start in Hst. destruct Hst as (_ & Ho & ->). cbn [th]. unfold upd.
        destruct (Nat.eqb_spec t' t) as [->|_]; [apply QB; exact Ho|apply IH].
      + destruct (Nat.eq_dec t' t) as [->|Hne].
        * eapply QS; [apply IH|exact Hst].
        * rewrite (step_th_other _ _ _ _ _ Hst Hne). apply IH.
  Qed.
End Policy.

(** program points of try_steal: where a thread other than the owner can be *)
Definition steal_pc (p : pc) : bool :=
  match p with
  | Idle | Begin OSteal | St1 | St2 _ | St3 _ | St4 _ _ | St5 _ _ => true
  | _ => false
  end.

(** program points that exist only with the Growing policy *)
Definition grow_pc (p : pc) : bool :=
  match p with
  | Pu3 _ _ _ | PuCanGrow _ _ _ | PuGrow0 _ _ _ | PuGrowLd _ _ _ _ | PuGrowSt _ _ _ _ _
  | PuGrowEnd _ _ _ | Pu4 _ _ | Po4 _ | St3 _ => true
  | _ => false
  end.

(** the copy list of an unfinished grow is never empty (the model's [PuGrowLd]/[PuGrowSt] steps are
    disabled on an empty list) *)
Definition grow_ok (p : pc) : Prop :=
  match p with
  | PuGrowLd _ _ _ todo | PuGrowSt _ _ _ _ todo => todo <> []
  | _ => True
  end.

(** where a step of [t] takes [t]: read off the successor program point of each case *)
Lemma step_pc pol st t st' es :
  step pol st (Step t) = Some (st', es) ->
  grow_ok (th st' t) /\
  (steal_pc (th st t) = true -> steal_pc (th st' t) = true) /\
  (is_growing pol = false -> grow_pc (th st t) = false -> grow_pc (th st' t) = false).
Proof.
  intros H. step_cases H st t E; cbn [th]; rewrite upd_same; (split; [|split]).
  all: first [ exact I | discriminate
             | intros Hs; first [reflexivity | discriminate Hs]
             | intros Hg Hq; first [reflexivity | discriminate Hq | congruence] ].
Qed.

Lemma chase_grow_ok pol s : reach (init pol) (step pol) s -> forall t, grow_ok (th s t).
Proof.
  apply (chase_pc_inv pol (fun _ => grow_ok)); [intros; exact I ..|].
  intros st t st' es _ Hst. apply (step_pc _ _ _ _ _ Hst).
Qed.

Lemma chase_steal_pc pol s :
  reach (init pol) (step pol) s -> forall t, t <> owner -> steal_pc (th s t) = true.
Proof.
  apply (chase_pc_inv pol (fun t p => t <> owner -> steal_pc p = true)).
  - reflexivity.
  - intros t o [-> | ->] Hne; [reflexivity|contradiction].
  - intros st t st' es HQ Hst Hne. exact (proj1 (proj2 (step_pc _ _ _ _ _ Hst)) (HQ Hne)).
Qed.

Lemma chase_fixed_no_grow_pc c s :
  reach (init (Fixed c)) (step (Fixed c)) s -> forall t, grow_pc (th s t) = false.
Proof.
  apply (chase_pc_inv (Fixed c) (fun _ p => grow_pc p = false)); [reflexivity|reflexivity|].
  intros st t st' es HQ Hst. exact (proj2 (proj2 (step_pc _ _ _ _ _ Hst)) eq_refl HQ).
Qed.
