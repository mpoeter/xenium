(** nikolaev_queue model (Model/NikqDefs.v): simplification tactics; the case analysis of the phases that run ring
    code ([push_in], [push_re], [steal_phase], [del_phase], [pop_phase]) and of the accesses to the finalized tail word
    ([istep]), done once and used by every invariant layer; the relation [xs]: how one step of the queue changes the
    state of a node; coherence between the program points outside the rings ([oth]) and those inside the node states. *)
From Coq Require Import NArith List Bool Lia PeanoNat.
From XV Require Import Base.Word Conc.Lts Conc.Ev gen.ScqGen Model.NikbDefs Model.NikqDefs Proof.NikbArith Proof.NikbBase.
Import ListNotations.
Local Open Scope N_scope.

Ltac qsim := cbn [qhead qtail nd fin nxt fdb nalloc oth q_nodes q_retired q_in q_out q_ok q_ret q_ebusy q_dbusy
                  w_qhead w_qtail w_nd w_fin w_nxt w_fdb w_nalloc w_oth w_nodes w_retired w_qin w_qout w_qok w_qret w_qebusy w_qdbusy
                  at_opc] in *.
Ltac qsimg := cbn [qhead qtail nd fin nxt fdb nalloc oth q_nodes q_retired q_in q_out q_ok q_ret q_ebusy q_dbusy
                  w_qhead w_qtail w_nd w_fin w_nxt w_fdb w_nalloc w_oth w_nodes w_retired w_qin w_qout w_qok w_qret w_qebusy w_qdbusy
                  at_opc].

(** the node the thread is working in (inside ring code) *)
Definition innode (p : opc) : option N :=
  match p with
  | PIn _ n | PRe _ n | QIn1 n _ | QIn2 n _ => Some n
  | PSt _ m _ | PDel _ m _ => Some m
  | _ => None
  end.

(** a thread is inside the ring code of at most the node of its program point *)
Definition Coh (s : qstate) : Prop :=
  forall t n, th (nd s n) t <> Idle -> innode (oth s t) = Some n \/ oth s t = OStuck.

Definition tid (a : action) : nat := match a with Start t _ => t | Step t => t end.

(** as NikbWf.th_mark_left, for any [cap] *)
Lemma th_mark_left' st q hd p : th (mark_left st q hd p) = th st.
Proof. unfold mark_left. destruct (leaves p); reflexivity. Qed.

Lemma pc_idle_dec (p : pc) : {p = Idle} + {p <> Idle}.
Proof. destruct p; (left; reflexivity) || (right; discriminate). Qed.
Lemma match_not_idle {A} (p : pc) (a b : A) : p <> Idle -> match p with Idle => a | _ => b end = b.
Proof. destruct p; intros H; [contradiction|reflexivity..]. Qed.

Ltac break H := repeat (match type of H with
  | context [match ?x with _ => _ end] => destruct x eqn:?
  | context [if ?c then _ else _] => destruct c eqn:?
  end; try discriminate H).

(** [step_cases Hst], for [Hst : NikbDefs.step cap R sg (Step t) = Some (sg', es)]: unfolds the step function, destructs the program
    point of t (equation [Ep]) and every test on the way (also [leaves] / [skips] of [mark_left] / [mark_skip]), and replaces sg' and es by
    the successor state and the events of the transition: one goal per transition of the ring code *)
Ltac step_cases Hst :=
  unfold NikbDefs.step, step_gen in Hst;
  match type of Hst with context [th ?sg ?t] =>
    destruct (th sg t) as [|[v|tp]|q x|q x|q x hd att|q x hd e|q x hd att e|q x hd att e enew|q x hd|q x|q x tl hd|q x tl|q x
                           |q x idx gk|q x idx gk tl|q x idx gk tl e|q x idx gk tl e|q x idx gk|q x idx gk] eqn:Ep; try discriminate end;
  unfold mark_left, mark_skip in Hst;
  repeat match type of Hst with context [if ?c then _ else _] => destruct c eqn:? end;
  try (match goal with qq : rid |- _ => destruct qq end);
  injection Hst as <- <-; sim.

Section Base.
  Variable cap R : N.
  Notation step := (NikbDefs.step cap R).

  (** a step of the ring code changes the program point of the stepping thread only *)
  Lemma step_th sg t sg' es : step sg (Step t) = Some (sg', es) -> exists p, th sg' = upd (th sg) t p.
  Proof. intros Hst. step_cases Hst; eexists; reflexivity. Qed.

  Lemma step_start_th sg t o sg' es : step sg (Start t o) = Some (sg', es) -> th sg' = upd (th sg) t (Begin o).
  Proof.
    unfold NikbDefs.step, step_gen. destruct (th sg t); try discriminate. intros H; inversion H; subst. reflexivity.
  Qed.

  Lemma step_th_other sg t sg' es u : step sg (Step t) = Some (sg', es) -> u <> t -> th sg' u = th sg u.
  Proof. intros H Hne. destruct (step_th _ _ _ _ H) as [p ->]. apply upd_other. exact Hne. Qed.

  Lemma fin_enq_th sg t x idx gk sg' es : fin_enq cap R sg t x idx gk = Some (sg', es) ->
    th sg' t = E1 RF x idx gk /\ forall u, u <> t -> th sg' u = th sg u.
  Proof.
    unfold fin_enq. destruct (step sg (Step t)) as [[s1 e1]|] eqn:E; [|discriminate].
    intros [= <- _]. sim. split; [apply upd_same|].
    intros u Hne. rewrite !upd_other by exact Hne. eapply step_th_other; eauto.
  Qed.

  Lemma enter_th sg t p : th (enter sg t p) t = p /\ forall u, u <> t -> th (enter sg t p) u = th sg u.
  Proof. unfold enter. sim. split; [apply upd_same|intros u Hne; apply upd_other; exact Hne]. Qed.

  (** * the accesses of dequeue / catchup to the tail word of the allocated ring *)
  (** where D4 goes; the retry condition [b] (tail word against the ticket) does not matter for the invariants *)
  Definition d4p (x hd att e : N) (b : bool) : pc :=
    if b then D2 RA x hd (att + 1)
    else if lt0 (diff (cyc cap e) (cyc cap hd)) then D5 RA x hd att e (bot_word false cap hd e) else D6 RA x hd.

  Lemma istep_inv sg f lb t sg' es lb' : istep cap R sg f lb t = Some (sg', es, lb') ->
    step sg (Step t) = Some (sg', es) \/
    (exists x hd att e b, th sg t = D4 RA x hd att e /\
       sg' = w_th (mark_left sg RA hd (d4p x hd att e b)) (upd (th (mark_left sg RA hd (d4p x hd att e b))) t (d4p x hd att e b))) \/
    (exists x hd, th sg t = D6 RA x hd /\
       sg' = w_th sg (upd (th sg) t (if gt0 (diff (bitw (rtail (ra sg)) f) (wadd 64 hd 2)) then D7 RA x
                                      else C1 RA x (rtail (ra sg)) (wadd 64 hd 2)))) \/
    (exists x tl hd, th sg t = C1 RA x tl hd /\
       ((rtail (ra sg) = tl /\ sg' = w_th (w_ovf (w_rg sg RA (r_tail (ra sg) hd)) (g_ovf sg || ctr_ovf hd)) (upd (th sg) t (D8 RA x))) \/
        sg' = w_th sg (upd (th sg) t (C2 RA x (rtail (ra sg)))))) \/
    (exists x tl, th sg t = C2 RA x tl /\
       sg' = w_th sg (upd (th sg) t (if lt0 (diff (bitw tl lb) (rhead (ra sg))) then C1 RA x tl (rhead (ra sg)) else D8 RA x))).
  Proof.
    unfold istep. intros H.
    assert (Hn : match step sg (Step t) with Some (sg'0, es0) => Some (sg'0, es0, false) | None => None end = Some (sg', es, lb') ->
                 step sg (Step t) = Some (sg', es))
      by (destruct (step sg (Step t)) as [[s1 e1]|]; [intros [= -> -> _]; reflexivity|discriminate]).
    destruct (th sg t) as [|o|q x|q x|q x hd att|q x hd e|[|] x hd att e|q x hd att e enew|[|] x hd|q x|[|] x tl hd|[|] x tl|q x
                          |q x idx gk|q x idx gk tl|q x idx gk tl e|q x idx gk tl e|q x idx gk|q x idx gk] eqn:E;
      try (left; exact (Hn H)); right.
    - left. injection H as <- _ _. do 5 eexists. split; [reflexivity|]. unfold d4p. reflexivity.
    - right; left. injection H as <- _ _. eauto.
    - right; right; left. exists x, tl, hd. split; [reflexivity|]. destruct (N.eqb_spec (rtail (ra sg)) tl) as [Ht|]; cbn [andb] in H;
        [destruct (eqb f lb)|]; injection H as <- _ _; auto.
    - right; right; right. injection H as <- _ _. eauto.
  Qed.

  Lemma istep_th sg f lb t sg' es lb' : istep cap R sg f lb t = Some (sg', es, lb') -> exists p, th sg' = upd (th sg) t p.
  Proof.
    intros H. destruct (istep_inv _ _ _ _ _ _ _ H) as [Hs|[(x & hd & att & e & b & _ & ->)|[(x & hd & _ & ->)|[(x & tl & hd & _ & [[_ ->]| ->])|(x & tl & _ & ->)]]]];
      [eapply step_th; eauto|sim; rewrite ?th_mark_left'; eexists; reflexivity..].
  Qed.

  Lemma istep_th_other sg f lb t sg' es lb' u : istep cap R sg f lb t = Some (sg', es, lb') -> u <> t -> th sg' u = th sg u.
  Proof. intros H Hne. destruct (istep_th _ _ _ _ _ _ _ H) as [p ->]. apply upd_other. exact Hne. Qed.

  (** * the ghost updates of the phases *)
  Lemma pub_ghost_cases st s1 t n sg :
    (pub_ghost cap st s1 t n sg = s1 /\
     forall x idx gk tl e, th sg t = E4 RA x idx gk tl e -> rdata (ra sg) (phys cap tl) <> e) \/
    exists x idx gk tl, th sg t = E4 RA x idx gk tl (rdata (ra sg) (phys cap tl)) /\
      pub_ghost cap st s1 t n sg = w_qebusy (w_qin s1 (q_in st ++ [(n, tl / 2, x)])) n (tl / 2) (Some t).
  Proof.
    unfold pub_ghost. destruct (th sg t) as [| | | | | | | | | | | | | | | |[|] x idx gk tl e| |]; try (left; split; [reflexivity|discriminate]).
    destruct (N.eqb_spec (rdata (ra sg) (phys cap tl)) e) as [<-|Hne]; [right; do 4 eexists; split; reflexivity|left].
    split; [reflexivity|]. intros ? ? ? ? ? [= _ _ _ <- <-]. exact Hne.
  Qed.

  Lemma take_ghost_cases st s1 t n sg :
    (take_ghost cap st s1 t n sg = s1 /\ forall x hd e, th sg t <> D3 RA x hd e) \/
    exists x hd e, th sg t = D3 RA x hd e /\
      take_ghost cap st s1 t n sg = w_qdbusy (w_qout s1 (q_out st ++ [(n, hd / 2, store sg (N.land e (vmask cap)))])) n (hd / 2) (Some t).
  Proof.
    unfold take_ghost. destruct (th sg t) as [| | | | |[|] x hd e| | | | | | | | | | | | |]; try (left; split; [reflexivity|discriminate]).
    right. do 3 eexists. split; reflexivity.
  Qed.

  Lemma nd_pub_ghost st s1 t n sg : nd (pub_ghost cap st s1 t n sg) = nd s1.
  Proof. destruct (pub_ghost_cases st s1 t n sg) as [[-> _]|(? & ? & ? & ? & _ & ->)]; reflexivity. Qed.
  Lemma oth_pub_ghost st s1 t n sg : oth (pub_ghost cap st s1 t n sg) = oth s1.
  Proof. destruct (pub_ghost_cases st s1 t n sg) as [[-> _]|(? & ? & ? & ? & _ & ->)]; reflexivity. Qed.
  Lemma nd_take_ghost st s1 t n sg : nd (take_ghost cap st s1 t n sg) = nd s1.
  Proof. destruct (take_ghost_cases st s1 t n sg) as [[-> _]|(? & ? & ? & _ & ->)]; reflexivity. Qed.
  Lemma oth_take_ghost st s1 t n sg : oth (take_ghost cap st s1 t n sg) = oth s1.
  Proof. destruct (take_ghost_cases st s1 t n sg) as [[-> _]|(? & ? & ? & _ & ->)]; reflexivity. Qed.

  (** * the phases, relationally: the ring access, where the thread goes, the new state, the events *)
  Lemma push_in_spec st t v n s' es : push_in cap R st t v n = Some (s', es) ->
    (exists x idx gk sg' es0, th (nd st n) t = E1 RA x idx gk /\ fin st n = true /\ fin_enq cap R (nd st n) t x idx gk = Some (sg', es0) /\
                              s' = at_opc (w_nd st n sg') t (PRe v n) /\ es = reloc n (fdb st n) es0) \/
    (exists sg' es0, step (nd st n) (Step t) = Some (sg', es0) /\
       (forall x idx gk, th (nd st n) t = E1 RA x idx gk -> fin st n = false) /\
       ((th sg' t <> Idle /\ s' = at_opc (pub_ghost cap st (w_nd st n sg') t n (nd st n)) t (PIn v n) /\ es = reloc n (fdb st n) es0) \/
        (th sg' t = Idle /\ ret_of es0 = Some [0] /\ s' = at_opc (pub_ghost cap st (w_nd st n sg') t n (nd st n)) t (PFin v n) /\
         es = reloc n (fdb st n) es0) \/
        (th sg' t = Idle /\ ret_of es0 = Some [1] /\ exists x i gk, (th (nd st n) t = E5 RA x i gk \/ th (nd st n) t = E6 RA x i gk) /\
           s' = at_opc (w_qebusy (w_qok (pub_ghost cap st (w_nd st n sg') t n (nd st n)) (q_ok st ++ [(n, gk, x)])) n gk None) t OIdle /\
           es = reloc n (fdb st n) es0 ++ [ERet t [1]]))).
  Proof.
    unfold push_in. intros H.
    destruct (th (nd st n) t) as [|o|q x|q x|q x hd att|q x hd e|q x hd att e|q x hd att e enew|q x hd|q x|q x tl hd|q x tl|q x
                          |[|] x idx gk|q x idx gk tl|q x idx gk tl e|q x idx gk tl e|q x idx gk|q x idx gk] eqn:Ep.
    14: destruct (fin st n) eqn:Ef;
          [destruct (fin_enq cap R (nd st n) t x idx gk) as [[sg' es0]|] eqn:Efe; [|discriminate];
           injection H as <- <-; left; do 5 eexists; ssplit; try reflexivity; eassumption|].
    all: destruct (step (nd st n) (Step t)) as [[sg' es0]|] eqn:Es; [|discriminate].
    all: right; exists sg', es0; (split; [reflexivity|]); (split; [intros ? ? ? [=]; try reflexivity|]).
    14: { (* the fetch_add on a ring that is not finalized *)
          injection H as <- <-. left. ssplit; try reflexivity.
          - unfold NikbDefs.step, step_gen in Es. rewrite Ep in Es. injection Es as <- _. sim. rewrite upd_same. discriminate.
          - unfold pub_ghost. rewrite Ep. reflexivity. }
    all: cbv zeta in H; destruct (pc_idle_dec (th sg' t)) as [Hi|Hni];
      [rewrite Hi in H|rewrite (match_not_idle _ _ _ Hni) in H; injection H as <- <-; left; ssplit; [exact Hni|reflexivity..]].
    all: right; destruct (ret_of es0) as [[|[|[r|r|]] [|]]|]; try discriminate H; try (destruct q; try discriminate H); injection H as <- <-;
      first [left; ssplit; [exact Hi|reflexivity..] | right; ssplit; [exact Hi|reflexivity|do 3 eexists; ssplit; [|reflexivity..]; eauto]].
  Qed.

  Lemma push_re_spec st t v n s' es : push_re cap R st t v n = Some (s', es) ->
    exists sg' es0, step (nd st n) (Step t) = Some (sg', es0) /\
      ((th sg' t <> Idle /\ s' = at_opc (w_nd st n sg') t (PRe v n) /\ es = reloc n (fdb st n) es0) \/
       (th sg' t = Idle /\ new_node cap (w_nd st n sg') t v n (reloc n (fdb st n) es0) = Some (s', es))).
  Proof.
    unfold push_re. intros H.
    destruct (step (nd st n) (Step t)) as [[sg' es0]|] eqn:Es; [|discriminate]. exists sg', es0. split; [reflexivity|]. cbv zeta in H.
    destruct (pc_idle_dec (th sg' t)) as [Hi|Hni]; [rewrite Hi in H; auto|].
    rewrite (match_not_idle _ _ _ Hni) in H. injection H as <- <-. auto.
  Qed.

  Lemma steal_spec st t v m lb s' es : steal_phase cap R st t v m lb = Some (s', es) ->
    exists sg' es0 lb', istep cap R (nd st m) (fin st m) lb t = Some (sg', es0, lb') /\ es = reloc m (fdb st m) es0 /\
      ((th sg' t <> Idle /\ s' = at_opc (w_nd st m sg') t (PSt v m lb')) \/
       (th sg' t = Idle /\ ((exists x, s' = at_opc (w_nd st m (enter sg' t (D0 RA 0))) t (PDel x m false)) \/ s' = at_opc (w_nd st m sg') t OStuck))).
  Proof.
    unfold steal_phase. intros H.
    destruct (istep cap R (nd st m) (fin st m) lb t) as [[[sg' es0] lb']|] eqn:Es; [|discriminate]. exists sg', es0, lb'. split; [reflexivity|].
    destruct (pc_idle_dec (th sg' t)) as [Hi|Hni]; [rewrite Hi in H|rewrite (match_not_idle _ _ _ Hni) in H; injection H as <- <-; auto].
    break H; injection H as <- <-; eauto 7.
  Qed.

  Lemma del_spec st t v m lb s' es : del_phase cap R st t v m lb = Some (s', es) ->
    exists sg' es0 lb', istep cap R (nd st m) (fin st m) lb t = Some (sg', es0, lb') /\
      ((th sg' t = Idle /\ s' = at_opc (w_nd st m sg') t (P1 v) /\ es = reloc m (fdb st m) es0 ++ free_evs t m (fdb st m)) \/
       (th sg' t <> Idle /\ es = reloc m (fdb st m) es0 /\
        (((exists x i gk, th sg' t = E1 RF x i gk) /\ s' = at_opc (w_nd st m sg') t OStuck) \/
         ((forall x i gk, th sg' t <> E1 RF x i gk) /\ s' = at_opc (w_nd st m sg') t (PDel v m lb'))))).
  Proof.
    unfold del_phase. intros H.
    destruct (istep cap R (nd st m) (fin st m) lb t) as [[[sg' es0] lb']|] eqn:Es; [|discriminate]. exists sg', es0, lb'. split; [reflexivity|].
    destruct (th sg' t) as [| | | | | | | | | | | | |[|] x i gk| | | | |] eqn:Et; injection H as <- <-;
      [left; auto|right; (ssplit; [discriminate|reflexivity|])..].
    all: first [left; split; [solve [eauto]|reflexivity] | right; split; [intros ? ? ?; discriminate|reflexivity]].
  Qed.

  Lemma pop_spec st t n lb again failed s' es : pop_phase cap R st t n lb again failed = Some (s', es) ->
    exists sg' es0 lb', istep cap R (nd st n) (fin st n) lb t = Some (sg', es0, lb') /\
      ((th sg' t <> Idle /\ s' = at_opc (take_ghost cap st (w_nd st n sg') t n (nd st n)) t (again lb') /\ es = reloc n (fdb st n) es0) \/
       (th sg' t = Idle /\ ret_of es0 = Some [3] /\ s' = at_opc (take_ghost cap st (w_nd st n sg') t n (nd st n)) t failed /\
        es = reloc n (fdb st n) es0) \/
       (th sg' t = Idle /\ exists x x' i gk, ret_of es0 = Some [1; x] /\ (th (nd st n) t = E5 RF x' i gk \/ th (nd st n) t = E6 RF x' i gk) /\
          s' = at_opc (w_qdbusy (w_qret (take_ghost cap st (w_nd st n sg') t n (nd st n)) (q_ret st ++ [(n, gk, x)])) n gk None) t OIdle /\
          es = reloc n (fdb st n) es0 ++ [ERet t [1; x]])).
  Proof.
    unfold pop_phase. intros H.
    destruct (istep cap R (nd st n) (fin st n) lb t) as [[[sg' es0] lb']|] eqn:Es; [|discriminate]. exists sg', es0, lb'. split; [reflexivity|].
    cbv zeta in H.
    destruct (pc_idle_dec (th sg' t)) as [Hi|Hni]; [rewrite Hi in H|rewrite (match_not_idle _ _ _ Hni) in H; injection H as <- <-; auto].
    right. break H; injection H as <- <-; first [left; ssplit; [exact Hi|reflexivity..] | right; split; [exact Hi|]; do 4 eexists; ssplit; try reflexivity; eauto].
  Qed.
End Base.

Section XS.
  Variable cap R : N.
  Notation step := (NikbDefs.step cap R).
  Notation qstep := (qstep cap R).

  (** [xs ai t a b]: one step of thread t of the queue takes the state of a node from a to b: nothing, one access of the ring code
      (native, on the finalized tail word, or the finalized enqueue), possibly followed by entering the next ring operation;
      set_threshold; or, only with [ai = true], the node is the one the step allocates and b is the state the constructor builds.
      Invariants of a single node state are proved by induction along [xs] ([qstep_xs] gives it for every node): with
      [ai = true] for invariants the built node satisfies (the ring invariants, NikqRing.RingInv_xs), with [ai = false] and
      [m <> nalloc s] for facts about allocated nodes only (a wrapped counter stays wrapped, a ticket stays not handed out) *)
  Inductive xs (ai : bool) (t : nat) : state -> state -> Prop :=
  | xs_refl sg : xs ai t sg sg
  | xs_istep sg f lb sg' es lb' : istep cap R sg f lb t = Some (sg', es, lb') -> xs ai t sg sg'
  | xs_native sg sg' es : step sg (Step t) = Some (sg', es) -> xs ai t sg sg'
  | xs_enter a sg q x : xs ai t a sg -> th sg t = Idle -> xs ai t a (enter sg t (D0 q x))
  | xs_thr sg : th sg t = Idle -> xs ai t sg (enter (w_rg sg RA (r_thr (ra sg) (thr_full cap))) t (D0 RA 0))
  | xs_fin sg x idx gk sg' es : th sg t = E1 RA x idx gk -> fin_enq cap R sg t x idx gk = Some (sg', es) -> xs ai t sg sg'
  | xs_init sg v : ai = true -> xs ai t sg (used_init cap v).

  Lemma nd_w_nd st n sg m : nd (w_nd st n sg) m = if m =? n then sg else nd st m.
  Proof. reflexivity. Qed.

  Lemma xs_setf ai t (f : N -> state) n sg' m : xs ai t (f n) sg' -> xs ai t (f m) (setf f n sg' m).
  Proof. intros H. unfold setf. destruct (N.eqb_spec m n) as [->|]; [exact H|apply xs_refl]. Qed.

  Lemma xs_new ai t (f : N -> state) a v m : ai = true \/ m <> a -> xs ai t (f m) (setf f a (used_init cap v) m).
  Proof. intros [Ha|Hm]; [apply xs_setf, xs_init, Ha|rewrite setf_other by exact Hm; apply xs_refl]. Qed.

  (** threads other than the stepping one keep their program points (a node being allocated starts with idle threads) *)
  Lemma xs_th ai t a b u : xs ai t a b -> u <> t -> th b u = th a u \/ (ai = true /\ th b u = Idle).
  Proof.
    intros Hx Hne. induction Hx as [sg|sg f lb sg' es lb' Hi|sg sg' es Hs|a sg q x H1 IH1 Hi|sg Hi|sg x idx gk sg' es Hp Hf|sg v Hai].
    - left; reflexivity.
    - left. eapply istep_th_other; eauto.
    - left. eapply step_th_other; eauto.
    - rewrite (proj2 (enter_th sg t (D0 q x)) u Hne). exact IH1.
    - left. apply (enter_th (w_rg sg RA (r_thr (ra sg) (thr_full cap))) t (D0 RA 0)). exact Hne.
    - left. apply (fin_enq_th _ _ _ _ _ _ _ _ _ Hf). exact Hne.
    - right. split; [exact Hai|reflexivity].
  Qed.

  (** * what a phase does to the queue state.
      [skel s s']: every field that is neither a node state, a program point nor a value ghost is unchanged (the chain, the
      finalized bits, the allocation counter);
      [moves s s' t n sg' p]: besides, exactly node n changes, to sg', and exactly thread t moves, to p *)
  Definition skel (s s' : qstate) : Prop :=
    qhead s' = qhead s /\ qtail s' = qtail s /\ fin s' = fin s /\ nxt s' = nxt s /\ fdb s' = fdb s /\ nalloc s' = nalloc s /\
    q_nodes s' = q_nodes s /\ q_retired s' = q_retired s.
  Definition moves (s s' : qstate) (t : nat) (n : N) (sg' : state) (p : opc) : Prop :=
    skel s s' /\ nd s' = setf (nd s) n sg' /\ oth s' = upd (oth s) t p.

  Lemma push_in_mv ai st t v n s' es : push_in cap R st t v n = Some (s', es) ->
    exists sg' p, moves st s' t n sg' p /\ xs ai t (nd st n) sg' /\
      (p = PIn v n \/ (p = PRe v n /\ fin st n = true) \/ (th sg' t = Idle /\ (p = OIdle \/ p = PFin v n))).
  Proof.
    intros H. destruct (push_in_spec _ _ _ _ _ _ _ _ H) as [(x & idx & gk & sg' & es0 & Ep & Ef & Hfe & -> & _)|(sg' & es0 & Hs & _ & Hc)].
    - exists sg', (PRe v n). ssplit; [repeat split|eapply xs_fin; eauto|auto].
    - exists sg'. destruct (pub_ghost_cases cap st (w_nd st n sg') t n (nd st n)) as [[E _]|(? & ? & ? & ? & _ & E)]; rewrite E in Hc; clear E;
        destruct Hc as [(_ & -> & _)|[(Hi & _ & -> & _)|(Hi & _ & ? & ? & ? & _ & -> & _)]]; eexists; (ssplit; [repeat split|eapply xs_native; eauto|auto]).
  Qed.

  Lemma new_node_eff s t v n e s' es : new_node cap s t v n e = Some (s', es) ->
    s' = at_opc (w_nalloc (w_nd s (nalloc s) (used_init cap v)) (nalloc s + 3)) t (PCa v n (nalloc s) 0) /\ es = e ++ alloc_evs cap t (nalloc s).
  Proof. intros [= <- <-]. split; reflexivity. Qed.

  Lemma push_re_mv ai st t v n s' es : push_re cap R st t v n = Some (s', es) ->
    exists sg', xs ai t (nd st n) sg' /\
      (moves st s' t n sg' (PRe v n) \/
       (th sg' t = Idle /\ s' = at_opc (w_nalloc (w_nd (w_nd st n sg') (nalloc st) (used_init cap v)) (nalloc st + 3)) t (PCa v n (nalloc st) 0))).
  Proof.
    intros H. destruct (push_re_spec _ _ _ _ _ _ _ _ H) as (sg' & es0 & Hs & [(_ & -> & _)|[Hi Hn]]); exists sg'; (split; [eapply xs_native; eauto|]).
    - left. repeat split.
    - right. split; [exact Hi|apply (new_node_eff _ _ _ _ _ _ _ Hn)].
  Qed.

  Lemma steal_mv ai st t v m lb s' es : steal_phase cap R st t v m lb = Some (s', es) ->
    exists sg' p, moves st s' t m sg' p /\ xs ai t (nd st m) sg' /\ ((exists lb', p = PSt v m lb') \/ (exists x, p = PDel x m false) \/ p = OStuck).
  Proof.
    intros H. destruct (steal_spec _ _ _ _ _ _ _ _ _ H) as (sg' & es0 & lb' & Hs & _ & Hc). pose proof (xs_istep ai t _ _ _ _ _ _ Hs) as Hx.
    destruct Hc as [[_ ->]|[Hi [[x ->]| ->]]]; eexists; eexists; (ssplit; [repeat split| |eauto]); try exact Hx.
    apply xs_enter; [exact Hx|exact Hi].
  Qed.

  Lemma del_mv ai st t v m lb s' es : del_phase cap R st t v m lb = Some (s', es) ->
    exists sg' p, moves st s' t m sg' p /\ xs ai t (nd st m) sg' /\ ((exists lb', p = PDel v m lb') \/ p = OStuck \/ (th sg' t = Idle /\ p = P1 v)).
  Proof.
    intros H. destruct (del_spec _ _ _ _ _ _ _ _ _ H) as (sg' & es0 & lb' & Hs & Hc). pose proof (xs_istep ai t _ _ _ _ _ _ Hs) as Hx.
    destruct Hc as [(Hi & -> & _)|(_ & _ & [[_ ->]|[_ ->]])]; exists sg'; eexists; (ssplit; [repeat split|exact Hx|eauto]).
  Qed.

  Lemma pop_mv ai st t n lb again failed s' es : pop_phase cap R st t n lb again failed = Some (s', es) ->
    exists sg' p, moves st s' t n sg' p /\ xs ai t (nd st n) sg' /\ ((exists lb', p = again lb') \/ (th sg' t = Idle /\ (p = OIdle \/ p = failed))).
  Proof.
    intros H. destruct (pop_spec _ _ _ _ _ _ _ _ _ _ H) as (sg' & es0 & lb' & Hs & Hc). pose proof (xs_istep ai t _ _ _ _ _ _ Hs) as Hx.
    exists sg'. destruct (take_ghost_cases cap st (w_nd st n sg') t n (nd st n)) as [[E _]|(? & ? & ? & _ & E)]; rewrite E in Hc; clear E;
      destruct Hc as [(_ & -> & _)|[(Hi & _ & -> & _)|(Hi & ? & ? & ? & ? & _ & _ & -> & _)]]; eexists; (ssplit; [repeat split|exact Hx|eauto]).
  Qed.

  (** * coherence *)
  Lemma coh_idle s t n : Coh s -> innode (oth s t) <> Some n -> oth s t <> OStuck -> th (nd s n) t = Idle.
  Proof.
    intros Hc Hi Hs. destruct (pc_idle_dec (th (nd s n) t)) as [E|E]; [exact E|]. destruct (Hc t n E); contradiction.
  Qed.

  (** [stepped ai s s' t], what every step of thread t guarantees ([qstep_stepped]): each node state moves by [xs] (with
      [ai = false]: each allocated one); no other thread moves in [oth]; t is afterwards inside the ring code of at most the
      node of its new program point (its part of [Coh]) *)
  Definition stepped ai (s s' : qstate) (t : nat) : Prop :=
    (forall m, ai = true \/ m <> nalloc s -> xs ai t (nd s m) (nd s' m)) /\
    (forall u, u <> t -> oth s' u = oth s u) /\
    (forall n, th (nd s' n) t <> Idle -> innode (oth s' t) = Some n \/ oth s' t = OStuck).

  (** the usual way to establish it: node n (the one t is in, or any if it is in none) gets sg' by an [xs] move and t goes
      to p, a program point of n unless t has left the ring code *)
  Lemma stepped_mv ai s s' t n sg' p : Coh s -> innode (oth s t) = Some n \/ innode (oth s t) = None -> oth s t <> OStuck ->
    nd s' = setf (nd s) n sg' -> oth s' = upd (oth s) t p -> xs ai t (nd s n) sg' ->
    (innode p = Some n \/ p = OStuck \/ th sg' t = Idle) -> stepped ai s s' t.
  Proof.
    intros Hc Hin Hns En Eo Hx Hp. unfold stepped. rewrite En, Eo. ssplit; [intros m _; apply xs_setf, Hx|intros u Hne; apply upd_other, Hne|].
    intros n'. rewrite upd_same. unfold setf.
    destruct (N.eqb_spec n' n) as [->|Hne]; [intros Hn; destruct Hp as [Hp|[Hp|Hp]]; [auto|auto|contradiction]|].
    intros Hn. exfalso. apply Hn, coh_idle; [exact Hc| |exact Hns]. destruct Hin as [->| ->]; congruence.
  Qed.

  Lemma qstep_stepped ai s a s' es : Coh s -> qstep s a = Some (s', es) -> stepped ai s s' (tid a).
  Proof.
    intros Hc H. unfold NikqDefs.qstep in H.
    (* steps that leave the node states alone *)
    assert (Hsk : forall t p, innode (oth s t) = None -> oth s t <> OStuck -> nd s' = nd s -> oth s' = upd (oth s) t p -> stepped ai s s' t).
    { intros t p E1 E2 En Eo. unfold stepped. rewrite En, Eo. ssplit; [intros; apply xs_refl|intros u Hne; apply upd_other, Hne|].
      intros n Hn. exfalso. apply Hn, coh_idle; [exact Hc|rewrite E1; discriminate|exact E2]. }
    destruct a as [t o|t]; cbn [tid].
    - destruct (oth s t) eqn:Eo; try discriminate. injection H as <- _. apply (Hsk t (OBegin o)); rewrite ?Eo; reflexivity || discriminate.
    - pose proof (fun n sg' p => stepped_mv ai s s' t n sg' p Hc) as Hmv. pose proof (Hsk t) as Hsk'.
      assert (Hent : forall n, innode (oth s t) = None -> oth s t <> OStuck -> th (nd s n) t = Idle)
        by (intros n E1 E2; apply coh_idle; [exact Hc|rewrite E1; discriminate|exact E2]).
      destruct (oth s t) as [|[v|tp]| |v|v n|v n|v n nx|v n|v n|v n|v n m0 i|v n m0 i|v n m0|v n m0|v m0 lb|v m0 lb| |n lb|n|n|n lb|n|n nx] eqn:Eo;
        try discriminate; cbn [innode] in Hmv, Hsk', Hent.
      all: try (break H; injection H as <- _; eapply Hsk'; reflexivity || discriminate).
      + (* P2: enter *) destruct (nxt s n =? 0); injection H as <- _; [|eapply Hsk'; reflexivity || discriminate].
        eapply (Hmv n); try reflexivity; [auto|discriminate|apply xs_enter; [apply xs_refl|apply Hent; [reflexivity|discriminate]]|left; reflexivity].
      + destruct (push_in_mv ai _ _ _ _ _ _ H) as (sg' & p & (_ & Hn & Ho) & Hx & Hp).
        apply (Hmv n sg' p); [auto|discriminate|exact Hn|exact Ho|exact Hx|]. destruct Hp as [->|[[-> _]|[Hi _]]]; auto.
      + destruct (push_re_mv ai _ _ _ _ _ _ H) as (sg' & Hx & [(_ & Hn & Ho)|[Hi ->]]).
        * apply (Hmv n sg' (PRe v n)); [auto|discriminate|exact Hn|exact Ho|exact Hx|left; reflexivity].
        * (* the node is left, a new one is built *)
          unfold stepped. qsimg. ssplit; [|intros u Hne; apply upd_other, Hne|].
          -- intros m Hm. unfold setf at 1. destruct (N.eqb_spec m (nalloc s)) as [->|]; [destruct Hm as [Ha|[]]; [apply xs_init, Ha|reflexivity]|apply xs_setf, Hx].
          -- intros n' Hn'. exfalso. apply Hn'. unfold setf. destruct (n' =? nalloc s); [reflexivity|].
             destruct (N.eqb_spec n' n) as [->|Hne]; [exact Hi|]. apply coh_idle; [exact Hc|rewrite Eo; cbn [innode]; congruence|rewrite Eo; discriminate].
      + (* PFin *) apply new_node_eff in H. destruct H as [-> _]. unfold stepped. qsimg. rewrite upd_same.
        ssplit; [intros m Hm; apply xs_new, Hm|intros u Hne; apply upd_other, Hne|].
        intros n' Hn'. exfalso. apply Hn'. unfold setf. destruct (n' =? nalloc s); [reflexivity|apply Hent; [reflexivity|discriminate]].
      + (* PLink: enter on failure *) destruct (nxt s n =? 0); injection H as <- _; [eapply Hsk'; reflexivity || discriminate|].
        eapply (Hmv m0); try reflexivity; [auto|discriminate|apply xs_enter; [apply xs_refl|apply Hent; [reflexivity|discriminate]]|left; reflexivity].
      + destruct (steal_mv ai _ _ _ _ _ _ _ H) as (sg' & p & (_ & Hn & Ho) & Hx & Hp).
        apply (Hmv m0 sg' p); [auto|discriminate|exact Hn|exact Ho|exact Hx|]. destruct Hp as [[lb' ->]|[[x ->]| ->]]; auto.
      + destruct (del_mv ai _ _ _ _ _ _ _ H) as (sg' & p & (_ & Hn & Ho) & Hx & Hp).
        apply (Hmv m0 sg' p); [auto|discriminate|exact Hn|exact Ho|exact Hx|]. destruct Hp as [[lb' ->]|[->|[Hi _]]]; auto.
      + (* Q1: enter *) injection H as <- _.
        eapply (Hmv (qhead s)); try reflexivity; [auto|discriminate|apply xs_enter; [apply xs_refl|apply Hent; [reflexivity|discriminate]]|left; reflexivity].
      + destruct (pop_mv ai _ _ _ _ _ _ _ _ H) as (sg' & p & (_ & Hn & Ho) & Hx & Hp).
        apply (Hmv n sg' p); [auto|discriminate|exact Hn|exact Ho|exact Hx|]. destruct Hp as [[lb' ->]|[Hi _]]; auto.
      + (* Q3: set_threshold, enter *) injection H as <- _.
        eapply (Hmv n); try reflexivity; [auto|discriminate|apply xs_thr, Hent; [reflexivity|discriminate]|left; reflexivity].
      + destruct (pop_mv ai _ _ _ _ _ _ _ _ H) as (sg' & p & (_ & Hn & Ho) & Hx & Hp).
        apply (Hmv n sg' p); [auto|discriminate|exact Hn|exact Ho|exact Hx|]. destruct Hp as [[lb' ->]|[Hi _]]; auto.
  Qed.

  Lemma qstep_xs ai s a s' es : Coh s -> qstep s a = Some (s', es) ->
    forall m, ai = true \/ m <> nalloc s -> xs ai (tid a) (nd s m) (nd s' m).
  Proof. intros Hc H. apply (qstep_stepped ai s a s' es Hc H). Qed.

  (** threads other than the stepping one keep their program points in every allocated node *)
  Lemma qstep_th_other s a s' es n u : Coh s -> qstep s a = Some (s', es) -> n <> nalloc s -> u <> tid a -> th (nd s' n) u = th (nd s n) u.
  Proof.
    intros Hc Hst Hn Hne. destruct (xs_th false (tid a) _ _ u (qstep_xs false s a s' es Hc Hst n (or_intror Hn)) Hne) as [E|[E _]]; [exact E|discriminate].
  Qed.

  Lemma qstep_eff s a s' es : Coh s -> qstep s a = Some (s', es) ->
    (forall u, u <> tid a -> oth s' u = oth s u) /\
    (forall n, th (nd s' n) (tid a) <> Idle -> innode (oth s' (tid a)) = Some n \/ oth s' (tid a) = OStuck).
  Proof. intros Hc H. apply (qstep_stepped true s a s' es Hc H). Qed.

  Lemma Coh_init : Coh (qinit cap).
  Proof. intros t n H. exfalso. apply H. reflexivity. Qed.

  Lemma Coh_step s a s' es : Coh s -> qstep s a = Some (s', es) -> Coh s'.
  Proof.
    intros Hc H. destruct (qstep_eff _ _ _ _ Hc H) as [Ho Hme]. intros u n Hn.
    destruct (Nat.eq_dec u (tid a)) as [->|Hne]; [apply Hme; exact Hn|].
    rewrite (Ho u Hne). apply Hc.
    destruct (xs_th true (tid a) _ _ u (qstep_xs true _ _ _ _ Hc H n (or_introl eq_refl)) Hne) as [<-|[_ E]]; [exact Hn|contradiction].
  Qed.

  Theorem Coh_reach s : reach (qinit cap) qstep s -> Coh s.
  Proof. apply inv_rule; [apply Coh_init|intros; eapply Coh_step; eauto]. Qed.
End XS.
