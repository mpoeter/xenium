(** kirsch_kfifo_queue (C06, unbounded): conservation, "never stranded", quiescent census, ownership of the
    segments, k-relaxation (segment form), dead code of advance_head, what the returning steps of push and pop
    do.  No axioms, no admits. *)
From Coq Require Import NArith List Bool Lia PeanoNat Permutation ZifyBool ZifyNat ZifyN.
From XV Require Import Base.Word Conc.Lts Conc.Ev Model.KfqDefs.
From XV Require Import Proof.KfqStep Proof.KfqWf Proof.KfqOwn Proof.KfqRegion Proof.KfqSeg.
From XV Require Proof.KfbCons.
Import ListNotations.
Local Open Scope N_scope.

Lemma nodup_list_prod {A B} (l1 : list A) (l2 : list B) : NoDup l1 -> NoDup l2 -> NoDup (list_prod l1 l2).
Proof.
  intros H1 H2. induction l1 as [|a l IH]; cbn; [constructor|]. inversion H1; subst.
  apply KfbCons.nodup_app.
  - apply FinFun.Injective_map_NoDup; [|exact H2]. intros x y Q. inversion Q. reflexivity.
  - apply IH. assumption.
  - intros [x y] Hx Hy. apply in_map_iff in Hx. destruct Hx as (y' & Q & _). inversion Q; subst.
    apply in_prod_iff in Hy. destruct Hy as [Hy _]. contradiction.
Qed.

Set Default Proof Using "All".
Section Thm.
  Variable k : N.
  Hypothesis Hk : 1 <= k.
  Notation step := (step k).

  Definition quiescent (st : state) : Prop := forall t, th st t = Idle.
  (** the segments head_ has not left *)
  Definition live (st : state) : list N := filter (fun x => fst (head st) <=? x) (g_segs st).
  (** the pointers stored in the slots of the live segments *)
  Definition stored (st : state) : list N :=
    filter (fun b => negb (b =? 0))
           (map (fun xj => fst (slot st (fst xj) (snd xj))) (list_prod (live st) (KfbCons.nrange k))).

  Lemma live_in st x : In x (live st) <-> linked st x /\ fst (head st) <= x.
  Proof. unfold live, linked. rewrite filter_In, N.leb_le. tauto. Qed.

  Lemma stored_in st b : In b (stored st) <->
    b <> 0 /\ exists x j, linked st x /\ fst (head st) <= x /\ j < k /\ fst (slot st x j) = b.
  Proof.
    unfold stored. rewrite filter_In, in_map_iff. split.
    - intros [([x j] & Hb & Hin) Hnz]. apply in_prod_iff in Hin. destruct Hin as [Hx Hj]. apply live_in in Hx. apply KfbCons.nrange_in in Hj.
      cbn [fst snd] in Hb. split; [destruct (N.eqb_spec b 0); [discriminate|assumption]|]. exists x, j. tauto.
    - intros [Hnz (x & j & A & B & C & D)]. split; [|destruct (N.eqb_spec b 0); [contradiction|reflexivity]].
      exists (x, j). split; [exact D|]. apply in_prod_iff. rewrite live_in, KfbCons.nrange_in. tauto.
  Qed.

  (** * Conservation *)

  (** no value is popped twice, every popped value was committed, every committed value is a token allocated by
      a push, a push that returned committed its value *)
  Theorem kfq_conservation st : reach init step st ->
    NoDup (g_out st) /\ NoDup (g_in st) /\ incl (g_out st) (g_in st) /\ incl (g_ok st) (g_in st) /\
    (forall b, In b (g_in st) -> 2 <= b < nalloc st).
  Proof.
    intros Hr. pose proof (Inv2_reach k Hk st Hr) as I2.
    split; [apply I2|]. split; [apply I2|]. split; [apply I2|]. split; [intros b; apply (i_ok_in st I2)|apply (i_in_lt st I2)].
  Qed.

  (** a committed value that has not been popped is stored in exactly one slot, and this slot belongs to a linked
      segment between the head segment and the tail segment: it is never stranded in a segment the pops no
      longer look at (in particular not in a retired segment) *)
  Theorem kfq_never_stranded st b : reach init step st -> In b (g_in st) -> ~ In b (g_out st) ->
    exists x j, linked st x /\ fst (head st) <= x <= fst (tail st) /\ j < k /\ fst (slot st x j) = b /\
      forall x' j', fst (slot st x' j') = b -> x' = x /\ j' = j.
  Proof.
    intros Hr Hin Hout. pose proof (Inv2_reach k Hk st Hr) as I2. pose proof (InvC_reach k Hk st Hr) as IC.
    destruct (i_pres st I2 b Hin Hout) as (x & j & Hj). pose proof (i_in_lt st I2 b Hin) as Hb.
    destruct (slot st x j) as [b' tg] eqn:E. cbn [fst] in Hj. subst b'.
    destruct (c_reg k st IC x j b tg E ltac:(lia)) as (A & B & C & D).
    exists x, j. split; [exact A|]. split; [split; [apply D; exact Hin|exact C]|]. split; [exact B|]. split; [rewrite E; reflexivity|].
    intros x' j' Hj'. apply (i_uniq st I2); [rewrite E; exact Hj'|rewrite Hj'; lia].
  Qed.

  Corollary kfq_pushed_never_stranded st b : reach init step st -> In b (g_ok st) -> ~ In b (g_out st) ->
    exists x j, linked st x /\ fst (head st) <= x <= fst (tail st) /\ j < k /\ fst (slot st x j) = b.
  Proof.
    intros Hr Hok Hout. destruct (kfq_conservation st Hr) as (_ & _ & _ & Hi & _).
    destruct (kfq_never_stranded st b Hr (Hi b Hok) Hout) as (x & j & A & B & C & D & _). exists x, j. auto.
  Qed.

  (** at quiescence: the values in the slots of the live segments together with the popped values are exactly the
      committed values, these are exactly the values whose push returned, and no other slot (of a retired, a
      released or an unlinked segment) holds a value *)
  Theorem kfq_quiescent st : reach init step st -> quiescent st ->
    Permutation (g_out st ++ stored st) (g_in st) /\
    (forall b, In b (g_ok st) <-> In b (g_in st)) /\
    (forall x j, fst (slot st x j) <> 0 ->
       linked st x /\ fst (head st) <= x <= fst (tail st) /\ j < k /\
       In (fst (slot st x j)) (g_in st) /\ ~ In (fst (slot st x j)) (g_out st)).
  Proof.
    intros Hr Hq. pose proof (Inv2_reach k Hk st Hr) as I2. pose proof (InvC_reach k Hk st Hr) as IC.
    pose proof (InvR_reach k Hk st Hr) as IR.
    assert (Hslot : forall x j, fst (slot st x j) <> 0 -> In (fst (slot st x j)) (g_in st) /\ ~ In (fst (slot st x j)) (g_out st)).
    { intros x j Hnz. destruct (slot st x j) as [b tg] eqn:E. cbn [fst] in *.
      destruct (i_slot st I2 x j b tg E Hnz) as [A|[_ [t A]]]; [exact A|]. rewrite Hq in A. discriminate. }
    split; [|split].
    - apply NoDup_Permutation.
      + apply KfbCons.nodup_app; [apply I2| |].
        * unfold stored.
          assert (Hnd : NoDup (list_prod (live st) (KfbCons.nrange k))).
          { apply nodup_list_prod; [apply NoDup_filter; apply (r_nd st IR)|apply KfbCons.nrange_nodup]. }
          revert Hnd. generalize (list_prod (live st) (KfbCons.nrange k)). intros l Hnd.
          induction l as [|[x j] l IH]; cbn; [constructor|]. inversion Hnd; subst. specialize (IH H2).
          destruct (N.eqb_spec (fst (slot st x j)) 0) as [Q|Q]; cbn [negb]; [exact IH|]. constructor; [|exact IH].
          rewrite filter_In, in_map_iff. intros [([x' j'] & Q1 & Q2) _]. cbn [fst snd] in Q1.
          destruct (i_uniq st I2 x' j' x j Q1 ltac:(congruence)) as [-> ->]. contradiction.
        * intros b Hb Hst. apply stored_in in Hst. destruct Hst as [Hnz (x & j & _ & _ & _ & Hj)].
          subst b. apply (Hslot x j Hnz). exact Hb.
      + apply I2.
      + intros b. rewrite in_app_iff, stored_in. split.
        * intros [Hb|[Hnz (x & j & _ & _ & _ & Hj)]]; [apply (i_incl st I2); exact Hb|]. subst b. apply (Hslot x j Hnz).
        * intros Hb. destruct (in_dec N.eq_dec b (g_out st)) as [Ho|Ho]; [left; exact Ho|right].
          pose proof (i_in_lt st I2 b Hb). split; [lia|].
          destruct (kfq_never_stranded st b Hr Hb Ho) as (x & j & A & B & C & D & _). exists x, j. intuition.
    - intros b. split; [apply (i_ok_in st I2)|]. intros Hb.
      destruct (i_in_ok st I2 b Hb) as [A|(t & x & j & tg & A)]; [exact A|]. rewrite Hq in A. discriminate.
    - intros x j Hnz. destruct (Hslot x j Hnz) as [A B].
      destruct (slot st x j) as [b tg] eqn:E. cbn [fst] in *.
      destruct (c_reg k st IC x j b tg E Hnz) as (A1 & A2 & A3 & A4). intuition.
  Qed.

  (** * Ownership of the segments (C07 / C02 for the container's own nodes) *)

  (** the chain has no duplicates and contains head_ and tail_ (never null); a segment is retired exactly when
      head_ has left it, and at most once; a retired segment is marked deleted and every value still found in
      one of its slots is an insertion that is not committed (its pusher is inside committed() and takes it
      back); a segment released by its allocator was never linked, is not retired and never held a value *)
  Theorem kfq_segments st : reach init step st ->
    NoDup (g_segs st) /\ NoDup (g_retired st) /\ NoDup (g_freed st) /\
    linked st (fst (head st)) /\ linked st (fst (tail st)) /\ 1 <= fst (head st) <= fst (tail st) /\
    (forall x, In x (g_retired st) <-> linked st x /\ x < fst (head st)) /\
    (forall x, In x (g_retired st) -> del st x = true /\
       forall j b tg, slot st x j = (b, tg) -> b <> 0 ->
         ~ In b (g_in st) /\ exists t, cinfo (th st t) = Some (b, x, j, tg)) /\
    (forall x, In x (g_freed st) -> ~ linked st x /\ ~ In x (g_retired st) /\ forall j, fst (slot st x j) = 0).
  Proof.
    intros Hr. pose proof (InvA_reach k Hk st Hr) as IA. pose proof (Inv2_reach k Hk st Hr) as I2.
    pose proof (InvC_reach k Hk st Hr) as IC. pose proof (InvR_reach k Hk st Hr) as IR.
    split; [apply IR|]. split; [apply IR|]. split; [apply IR|]. split; [apply IA|]. split; [apply IA|].
    split; [pose proof (a_lt k st IA _ (a_head k st IA)); pose proof (a_ht k st IA); lia|].
    split; [apply (r_ret st IR)|]. split.
    - intros x Hx. apply (r_ret st IR) in Hx. destruct Hx as [L Hlt]. split; [apply (c_del k st IC); assumption|].
      intros j b tg Hs Hb. destruct (c_reg k st IC x j b tg Hs Hb) as (_ & _ & _ & Q).
      destruct (i_slot st I2 x j b tg Hs Hb) as [[A _]|[A B]]; [specialize (Q A); lia|]. split; assumption.
    - intros x Hx. destruct (r_fr st IR x Hx) as (A & _ & _). split; [exact A|]. split.
      + intros Q. apply (r_ret st IR) in Q. tauto.
      + intros j. destruct (slot st x j) as [b tg] eqn:E. cbn [fst].
        destruct (N.eq_dec b 0) as [Q|Q]; [exact Q|]. destruct (c_reg k st IC x j b tg E Q) as (L & _). contradiction.
  Qed.

  (** the chain: [next] of the last linked segment is null, every other linked segment points to the next larger one *)
  Theorem kfq_chain st : reach init step st ->
    linked st (glast st) /\ nxt st (glast st) = (0, 0) /\ (forall x, linked st x -> x <= glast st) /\
    (fst (tail st) = glast st \/ fst (nxt st (fst (tail st))) = glast st) /\
    (forall x, linked st x -> x <> glast st ->
       exists n, nxt st x = (n, 1) /\ linked st n /\ x < n /\ forall x', linked st x' -> x < x' -> n <= x').
  Proof.
    intros Hr. pose proof (InvA_reach k Hk st Hr) as I.
    exact (conj (a_last k st I) (conj (a_lnull k st I) (conj (a_max k st I) (conj (a_tlast k st I) (a_succ k st I))))).
  Qed.

  (** the tail-helping CAS (9) of advance_head is never reached, and the load (8) before it never returns null *)
  Theorem kfq_advance_head_dead_code st : reach init step st ->
    (forall t hd tl hn tn, th st t <> H5 hd tl hn tn) /\
    (forall t hd tl hn, th st t = H3 hd tl hn -> fst (nxt st (fst tl)) <> 0).
  Proof.
    intros Hr. pose proof (InvA_reach k Hk st Hr) as IA. split.
    - intros t hd tl hn tn Q. pose proof (a_th k st IA t) as T. rewrite Q in T. exact T.
    - intros t hd tl hn Q. pose proof (a_th k st IA t) as T. rewrite Q in T. cbn [TA] in T.
      destruct T as ((A & B & C & D) & F). rewrite F. apply (nxt_nonnull k Hk); assumption.
  Qed.

  (** * k-relaxation, segment form *)

  (** When a pop's CAS (5) takes a value p that was already committed, the slot is one of the k slots of the
      CURRENT head segment, and every other committed value still in the queue is stored in another slot of the
      head segment (at most k-1 of them) or in a later segment up to the tail segment.
      FULL STATEMENT (C06): every pop returns one of the k oldest values of a linearization of the history
      (k-FIFO linearizability).  MISSING: the construction of the linearization order. *)
  Theorem kfq_pop_k_relaxed_partial st t hd j p tg : reach init step st ->
    th st t = D4 hd j p tg -> slot st (fst hd) j = (p, tg) -> In p (g_in st) ->
    fst hd = fst (head st) /\ j < k /\ p <> 0 /\
    forall b, In b (g_in st) -> ~ In b (g_out st) -> b <> p ->
      exists x' j', (x' <> fst hd \/ j' <> j) /\ linked st x' /\ fst (head st) <= x' <= fst (tail st) /\ j' < k /\
                    fst (slot st x' j') = b.
  Proof.
    intros Hr Hpc Hsl Hin. pose proof (InvA_reach k Hk st Hr) as IA. pose proof (InvC_reach k Hk st Hr) as IC.
    pose proof (a_th k st IA t) as T. rewrite Hpc in T. cbn [TA] in T. destruct T as (L & Hle & Hj & Hp).
    destruct (c_reg k st IC (fst hd) j p tg Hsl Hp) as (_ & _ & _ & Q). specialize (Q Hin).
    split; [unfold hle in Hle; lia|]. split; [exact Hj|]. split; [exact Hp|].
    intros b Hb Hob Hne. destruct (kfq_never_stranded st b Hr Hb Hob) as (x' & j' & A & B & C & D & _).
    exists x', j'. split; [|tauto].
    destruct (N.eq_dec x' (fst hd)) as [->|]; [|left; assumption]. destruct (N.eq_dec j' j) as [->|]; [|right; assumption].
    rewrite Hsl in D. cbn in D. congruence.
  Qed.

  (** a value taken before it was committed: its push is still inside committed() -- the two calls overlap *)
  Theorem kfq_pop_uncommitted_overlaps st t hd j p tg : reach init step st ->
    th st t = D4 hd j p tg -> slot st (fst hd) j = (p, tg) -> ~ In p (g_in st) ->
    exists u, cinfo (th st u) = Some (p, fst hd, j, tg) /\ ~ In p (g_ok st).
  Proof.
    intros Hr Hpc Hsl Hin. pose proof (InvA_reach k Hk st Hr) as IA. pose proof (Inv2_reach k Hk st Hr) as I2.
    pose proof (a_th k st IA t) as T. rewrite Hpc in T. cbn [TA] in T. destruct T as (L & Hle & Hj & Hp).
    destruct (i_slot st I2 (fst hd) j p tg Hsl Hp) as [[A _]|[_ [u B]]]; [contradiction|].
    exists u. split; [exact B|]. intros Q. apply Hin. apply (i_ok_in st I2). exact Q.
  Qed.

  (** * What the returning steps do *)

  (** a pop that returns a value v took, by its CAS (5), a pointer p out of a slot: v is the payload written when
      the token p was allocated by a push, p had not been popped before, and it is now the last popped value *)
  Theorem kfq_pop_result st a st' es u v : reach init step st -> step st a = Some (st', es) -> In (ERet u [1; v]) es ->
    exists r hd j p tg, a = Step u r /\ th st u = D4 hd j p tg /\ slot st (fst hd) j = (p, tg) /\ v = bval st p /\
      2 <= p < nalloc st /\ ~ In p (g_out st) /\ g_out st' = g_out st ++ [p] /\ In p (g_in st') /\ fst (slot st' (fst hd) j) = 0.
  Proof.
    intros Hr Hst Hin. pose proof (Inv2_reach k Hk st Hr) as I2. pose proof (a_th k st (InvA_reach k Hk st Hr) u) as Hme.
    destruct (step_ret k Hk st a st' es u _ Hst Hin) as (r & sh & p' & -> & -> & Hs).
    inversion Hs as [| | | | | | | | | | | | | |hd j p tg Hsl E| | | |]; subst. rewrite <- E in Hme. destruct Hme as (_ & _ & _ & Hp).
    exists r, hd, j, p, tg. split; [reflexivity|]. split; [congruence|]. split; [assumption|]. split; [reflexivity|].
    split; [pose proof (in_slot_known st I2 (fst hd) j) as Q; rewrite Hsl in Q; apply Q; exact Hp|].
    split.
    { destruct (i_slot st I2 (fst hd) j p tg Hsl Hp) as [[_ Q]|[Q _]]; [exact Q|]. intros Q'. apply Q. apply (i_incl st I2). exact Q'. }
    sim. split; [reflexivity|]. split; [apply commit_in; right; reflexivity|]. rewrite setf2_same. reflexivity.
  Qed.

  (** a push that returns has committed its value (or a pop has already taken it) *)
  Theorem kfq_push_result st a st' es u : reach init step st -> step st a = Some (st', es) -> In (ERet u [1]) es ->
    exists r b, a = Step u r /\ pblock (th st u) = Some b /\ g_ok st' = g_ok st ++ [b] /\ In b (g_in st') /\ 2 <= b < nalloc st.
  Proof.
    intros Hr Hst Hin. pose proof (i_own_lt st (Inv2_reach k Hk st Hr) u) as Hlt.
    destruct (step_ret k Hk st a st' es u _ Hst Hin) as (r & sh & p' & -> & -> & Hs). inversion Hs; subst.
    all: match goal with E : _ = th _ _ |- _ => rewrite <- E in * end.
    all: exists r, b; split; [reflexivity|]; split; [reflexivity|]; sim; split; [reflexivity|]; split; [apply commit_in; right; reflexivity|apply Hlt; reflexivity].
  Qed.

  (** the payload of a token is written once, when the push allocates it *)
  Theorem kfq_payload_stable st a st' es b : step st a = Some (st', es) -> b < nalloc st -> bval st' b = bval st b.
  Proof.
    intros Hst Hb. destruct (step_inv k Hk st a st' es Hst) as (sh & p' & res & -> & [Hs|(_ & -> & _)] & _); [|reflexivity].
    destruct Hs; try reflexivity. apply setf_other. lia.
  Qed.
End Thm.
