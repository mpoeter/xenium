(** Word arithmetic of the nikolaev_scq entries and counters used by Model/NikbDefs.v:
    an entry word is (cycle field, safe bit, index field); the tests of the code on entry words are
    characterised field by field, the signed comparisons ([diff]) by the order of the cycles / counters
    as long as no counter wraps. *)
From Coq Require Import NArith ZArith Lia Bool.
From XV Require Import Base.Word gen.ScqGen Proof.ScqIndex Model.NikbDefs.
Local Open Scope N_scope.

(** the three powers of two the word comparisons turn on, as literals for [lia] *)
Lemma lit62 : 2 ^ 62 = 4611686018427387904. Proof. reflexivity. Qed.
Lemma lit63 : 2 ^ 63 = 9223372036854775808. Proof. reflexivity. Qed.
Lemma lit64 : 2 ^ 64 = 18446744073709551616. Proof. reflexivity. Qed.

(** * generic bit facts *)
Lemma testbit_ones_lt j i : N.testbit (N.ones j) i = (i <? j).
Proof.
  destruct (N.ltb_spec i j).
  - apply N.ones_spec_low. assumption.
  - apply N.ones_spec_high. assumption.
Qed.

Lemma pow2_pred_ones j : 2 ^ j - 1 = N.ones j.
Proof. rewrite N.ones_equiv, N.pred_sub. reflexivity. Qed.

Lemma shiftr_ones_0 j : N.shiftr (N.ones j) j = 0.
Proof.
  apply N.bits_inj. intros i. rewrite N.shiftr_spec', testbit_ones_lt, N.bits_0.
  apply N.ltb_ge. lia.
Qed.

Lemma shiftr_pow2_small a j : a < 2 ^ j -> N.shiftr a j = 0.
Proof. intros H. apply lt_pow2_shiftr. exact H. Qed.

Lemma land_ones_idem a j : N.land (N.land a (N.ones j)) (N.ones j) = N.land a (N.ones j).
Proof. rewrite <- N.land_assoc, N.land_diag. reflexivity. Qed.

Lemma lor_land_absorb a m : N.lor (N.land a m) m = m.
Proof.
  apply N.bits_inj. intros i. rewrite N.lor_spec, N.land_spec.
  destruct (N.testbit a i), (N.testbit m i); reflexivity.
Qed.

(** lor with a low mask, arithmetically *)
Lemma lor_ones_arith x j : N.lor x (N.ones j) = (x / 2 ^ j) * 2 ^ j + N.ones j.
Proof.
  assert (Hd : N.land (N.shiftl (x / 2 ^ j) j) (N.ones j) = 0).
  { apply N.bits_inj. intros i. rewrite N.land_spec, testbit_ones_lt, N.bits_0.
    destruct (N.ltb_spec i j) as [Hi|Hi]; [|apply andb_false_r].
    rewrite N.shiftl_spec_low by exact Hi. reflexivity. }
  rewrite <- N.shiftl_mul_pow2.
  rewrite N.add_nocarry_lxor by exact Hd. rewrite N.lxor_lor by exact Hd.
  apply N.bits_inj. intros i. rewrite !N.lor_spec, testbit_ones_lt.
  destruct (N.ltb_spec i j) as [Hi|Hi]; [rewrite !orb_true_r; reflexivity|].
  rewrite !orb_false_r. rewrite N.shiftl_spec_high' by exact Hi.
  rewrite <- N.shiftr_div_pow2, N.shiftr_spec'. f_equal. lia.
Qed.

(** * signed views *)
Lemma slt_neg_iff d : d < 2 ^ 64 -> slt 64 d 0 = (2 ^ 63 <=? d).
Proof.
  intros Hd. unfold slt, sval. change (64 - 1) with 63. change (0 <? 2 ^ 63) with true. cbv iota.
  pose proof lit64 as E64.
  pose proof lit63 as E63.
  destruct (N.ltb_spec d (2 ^ 63)), (N.leb_spec (2 ^ 63) d); try lia.
  - apply Z.ltb_ge. lia.
  - apply Z.ltb_lt. rewrite E64, E63 in *. lia.
Qed.

Lemma slt_pos_iff d : d < 2 ^ 64 -> slt 64 0 d = (0 <? d) && (d <? 2 ^ 63).
Proof.
  intros Hd. unfold slt, sval. change (64 - 1) with 63. change (0 <? 2 ^ 63) with true. cbv iota.
  pose proof lit64 as E64.
  pose proof lit63 as E63.
  destruct (N.ltb_spec d (2 ^ 63)), (N.ltb_spec 0 d); cbn [andb]; try (apply Z.ltb_lt; lia); try (apply Z.ltb_ge; rewrite ?E64, ?E63 in *; lia).
Qed.

(** counters below 2^62: the signed difference decides the order *)
Lemma diff_lt0 a b : a < 2 ^ 62 -> b < 2 ^ 62 -> lt0 (diff a b) = (a <? b).
Proof.
  intros Ha Hb. unfold lt0. rewrite slt_neg_iff by apply wsub_lt. unfold diff.
  pose proof lit64 as E64.
  pose proof lit63 as E63.
  pose proof lit62 as E62.
  destruct (N.ltb_spec a b).
  - rewrite wsub_wrap by lia. apply N.leb_le. lia.
  - rewrite wsub_small by lia. apply N.leb_gt. lia.
Qed.

Lemma diff_gt0 a b : a < 2 ^ 62 -> b < 2 ^ 62 -> gt0 (diff a b) = (b <? a).
Proof.
  intros Ha Hb. unfold gt0. rewrite slt_pos_iff by apply wsub_lt. unfold diff.
  pose proof lit64 as E64.
  pose proof lit63 as E63.
  pose proof lit62 as E62.
  destruct (N.ltb_spec b a).
  - rewrite wsub_small by lia. apply andb_true_iff. split; [apply N.ltb_lt|apply N.ltb_lt]; lia.
  - destruct (N.eq_dec a b) as [->|Hne].
    + rewrite wsub_small by lia. rewrite N.sub_diag. reflexivity.
    + rewrite wsub_wrap by lia. apply andb_false_iff. right. apply N.ltb_ge. lia.
Qed.

Lemma wadd2_small a : a < 2 ^ 62 -> wadd 64 a 2 = a + 2.
Proof.
  intros Ha. apply wadd_small.
  pose proof lit64 as E64.
  pose proof lit62 as E62. lia.
Qed.

Set Default Proof Using "All".
Section Fields.
  Variable k : N.
  Hypothesis Hk : k <= 40.
  Notation cap := (2 ^ k).

  Definition ecyc (e : N) : N := N.shiftr e (k + 2).
  Definition esafe (e : N) : bool := N.testbit e (k + 1).
  Definition eidx (e : N) : N := N.land e (N.ones (k + 1)).
  Definition bot : N := N.ones (k + 1).                    (* the bottom index n - 1 *)
  Definition enc (c : N) (s : bool) (i : N) : N := N.lor (N.shiftl c (k + 2)) (N.lor (if s then 2 ^ (k + 1) else 0) i).
  Definition cmax : N := 2 ^ (62 - k) - 1.                 (* cycle field of static_cast<index_t>(-1) *)
  Definition CB : N := 2 ^ (60 - k).                      (* cycles of counters below 2^62 are below CB *)

  Lemma nn_eq : nn cap = 2 ^ (k + 1).
  Proof. unfold nn. rewrite N.add_1_r, N.pow_succ_r'. reflexivity. Qed.
  Lemma smask_eq : smask cap = N.ones (k + 2).
  Proof.
    unfold smask. rewrite nn_eq, <- pow2_pred_ones. replace (k + 2) with (N.succ (k + 1)) by lia.
    rewrite N.pow_succ_r'. reflexivity.
  Qed.
  Lemma vmask_eq : vmask cap = N.ones (k + 1).
  Proof. unfold vmask. rewrite nn_eq. apply pow2_pred_ones. Qed.
  Lemma cap_pos : 0 < cap. Proof. apply pow2_pos. Qed.
  Lemma cap_lt_bot : cap <= bot.
  Proof.
    unfold bot. rewrite <- pow2_pred_ones, N.add_1_r, N.pow_succ_r'. assert (H := cap_pos). lia.
  Qed.
  Lemma shift_eq : shift cap = scq_shift (k + 1).
  Proof.
    unfold shift, scq_shift.
    destruct (remap_index_bijective (k + 1) ltac:(lia)) as (Hs & _). cbv zeta in Hs.
    replace (2 ^ (k + 1) / 2) with cap in Hs.
    - symmetry. exact Hs.
    - rewrite N.add_1_r, N.pow_succ_r', N.mul_comm, N.div_mul by lia. reflexivity.
  Qed.

  (** an entry is determined by its three fields *)
  Lemma dec_inj a b : ecyc a = ecyc b -> esafe a = esafe b -> eidx a = eidx b -> a = b.
  Proof.
    unfold ecyc, esafe, eidx. intros Hc Hs Hi. apply N.bits_inj. intros i.
    destruct (N.lt_trichotomy i (k + 1)) as [Hlt|[->|Hgt]].
    - assert (H := f_equal (fun x => N.testbit x i) Hi). cbv beta in H.
      rewrite !N.land_spec, testbit_ones_lt in H. destruct (N.ltb_spec i (k + 1)); [|lia].
      rewrite !andb_true_r in H. exact H.
    - exact Hs.
    - assert (H := f_equal (fun x => N.testbit x (i - (k + 2))) Hc). cbv beta in H.
      rewrite !N.shiftr_spec' in H. replace (i - (k + 2) + (k + 2)) with i in H by lia. exact H.
  Qed.

  (** fields of the bit operations *)
  Lemma ecyc_lor a b : ecyc (N.lor a b) = N.lor (ecyc a) (ecyc b). Proof. apply N.shiftr_lor. Qed.
  Lemma ecyc_lxor a b : ecyc (N.lxor a b) = N.lxor (ecyc a) (ecyc b). Proof. apply N.shiftr_lxor. Qed.
  Lemma ecyc_ldiff a b : ecyc (N.ldiff a b) = N.ldiff (ecyc a) (ecyc b). Proof. apply N.shiftr_ldiff. Qed.
  Lemma esafe_lor a b : esafe (N.lor a b) = esafe a || esafe b. Proof. apply N.lor_spec. Qed.
  Lemma esafe_lxor a b : esafe (N.lxor a b) = xorb (esafe a) (esafe b). Proof. apply N.lxor_spec. Qed.
  Lemma esafe_ldiff a b : esafe (N.ldiff a b) = esafe a && negb (esafe b). Proof. apply N.ldiff_spec. Qed.
  Lemma eidx_lor a b : eidx (N.lor a b) = N.lor (eidx a) (eidx b). Proof. apply N.land_lor_distr_l. Qed.
  Lemma eidx_lxor a b : eidx (N.lxor a b) = N.lxor (eidx a) (eidx b).
  Proof.
    unfold eidx. apply N.bits_inj. intros i. rewrite N.lxor_spec, !N.land_spec, N.lxor_spec.
    destruct (N.testbit a i), (N.testbit b i), (N.testbit (N.ones (k + 1)) i); reflexivity.
  Qed.
  Lemma eidx_ldiff a b : eidx (N.ldiff a b) = N.ldiff (eidx a) (eidx b).
  Proof.
    unfold eidx. apply N.bits_inj. intros i. rewrite N.ldiff_spec, !N.land_spec, N.ldiff_spec.
    destruct (N.testbit a i), (N.testbit b i), (N.testbit (N.ones (k + 1)) i); reflexivity.
  Qed.

  (** fields of the constants *)
  Lemma f_smask : ecyc (N.ones (k + 2)) = 0 /\ esafe (N.ones (k + 2)) = true /\ eidx (N.ones (k + 2)) = bot.
  Proof.
    unfold ecyc, esafe, eidx, bot. repeat split.
    - apply shiftr_ones_0.
    - rewrite testbit_ones_lt. apply N.ltb_lt. lia.
    - apply N.bits_inj. intros i. rewrite N.land_spec, !testbit_ones_lt.
      destruct (N.ltb_spec i (k + 2)), (N.ltb_spec i (k + 1)); try reflexivity; lia.
  Qed.
  Lemma f_nn : ecyc (2 ^ (k + 1)) = 0 /\ esafe (2 ^ (k + 1)) = true /\ eidx (2 ^ (k + 1)) = 0.
  Proof.
    unfold ecyc, esafe, eidx. repeat split.
    - apply shiftr_pow2_small. apply N.pow_lt_mono_r; lia.
    - apply N.pow2_bits_true.
    - apply N.bits_inj. intros i. rewrite N.land_spec, testbit_ones_lt, N.bits_0.
      destruct (N.ltb_spec i (k + 1)); [|apply andb_false_r].
      rewrite N.pow2_bits_false by lia. reflexivity.
  Qed.
  Lemma f_low i : i <= bot -> ecyc i = 0 /\ esafe i = false /\ eidx i = i.
  Proof.
    unfold bot. rewrite <- pow2_pred_ones. intros Hi. assert (Hp := pow2_pos (k + 1)).
    assert (Hlt : i < 2 ^ (k + 1)) by lia.
    unfold ecyc, esafe, eidx. repeat split.
    - apply shiftr_pow2_small. apply N.lt_trans with (2 ^ (k + 1)); [exact Hlt|]. apply N.pow_lt_mono_r; lia.
    - destruct (N.eq_dec i 0) as [->|Hnz]; [apply N.bits_0|].
      apply N.bits_above_log2. apply N.log2_lt_pow2; lia.
    - rewrite N.land_ones. apply N.mod_small. exact Hlt.
  Qed.
  Lemma f_shl c : ecyc (N.shiftl c (k + 2)) = c /\ esafe (N.shiftl c (k + 2)) = false /\ eidx (N.shiftl c (k + 2)) = 0.
  Proof.
    unfold ecyc, esafe, eidx. repeat split.
    - rewrite N.shiftr_shiftl_l by lia. rewrite N.sub_diag. apply N.shiftl_0_r.
    - apply N.shiftl_spec_low. lia.
    - apply N.bits_inj. intros i. rewrite N.land_spec, testbit_ones_lt, N.bits_0.
      destruct (N.ltb_spec i (k + 1)); [|apply andb_false_r].
      rewrite N.shiftl_spec_low by lia. reflexivity.
  Qed.

  Lemma f_enc c s i : i <= bot -> ecyc (enc c s i) = c /\ esafe (enc c s i) = s /\ eidx (enc c s i) = i.
  Proof.
    intros Hi. unfold enc. destruct (f_shl c) as (A1 & A2 & A3). destruct (f_low i Hi) as (B1 & B2 & B3).
    rewrite !ecyc_lor, !esafe_lor, !eidx_lor, A1, A2, A3, B1, B2, B3.
    destruct s.
    - destruct f_nn as (C1 & C2 & C3). rewrite C1, C2, C3. rewrite !N.lor_0_r, !N.lor_0_l. repeat split.
    - destruct (f_low 0 ltac:(lia)) as (C1 & C2 & C3). rewrite C1, C2, C3. rewrite !N.lor_0_r, !N.lor_0_l. repeat split.
  Qed.

  Lemma eidx_le e : eidx e <= bot.
  Proof.
    unfold eidx, bot. rewrite N.land_ones, <- pow2_pred_ones.
    assert (H := N.mod_lt e (2 ^ (k + 1)) (pow2_nz _)). lia.
  Qed.

  Lemma enc_dec e : e = enc (ecyc e) (esafe e) (eidx e).
  Proof.
    destruct (f_enc (ecyc e) (esafe e) (eidx e) (eidx_le e)) as (A & B & C).
    apply dec_inj; symmetry; assumption.
  Qed.

  (** * the tests of the code, field by field ([cap] = 2^k) *)
  Lemma f_cyc e : ecyc (cyc cap e) = ecyc e /\ esafe (cyc cap e) = true /\ eidx (cyc cap e) = bot.
  Proof.
    unfold cyc. rewrite smask_eq. destruct f_smask as (A & B & C).
    rewrite ecyc_lor, esafe_lor, eidx_lor, A, B, C. rewrite N.lor_0_r, orb_true_r. repeat split.
    unfold eidx, bot. apply lor_land_absorb.
  Qed.

  Lemma cyc_eqb e w : (cyc cap e =? cyc cap w) = (ecyc e =? ecyc w).
  Proof.
    destruct (f_cyc e) as (A & B & C). destruct (f_cyc w) as (A' & B' & C').
    destruct (N.eqb_spec (ecyc e) (ecyc w)) as [He|Hne].
    - apply N.eqb_eq. apply dec_inj; congruence.
    - apply N.eqb_neq. intros H. apply Hne. rewrite <- A, <- A', H. reflexivity.
  Qed.

  (** (entry | n) != entry_cycle: the entry holds an index *)
  Lemma is_bot_eqb e : (N.lor e (nn cap) =? cyc cap e) = (eidx e =? bot).
  Proof.
    rewrite nn_eq. destruct (f_cyc e) as (A & B & C). destruct f_nn as (A' & B' & C').
    destruct (N.eqb_spec (eidx e) bot) as [He|Hne].
    - apply N.eqb_eq. apply dec_inj.
      + rewrite ecyc_lor, A, A', N.lor_0_r. reflexivity.
      + rewrite esafe_lor, B, B', orb_true_r. reflexivity.
      + rewrite eidx_lor, C, C', N.lor_0_r. exact He.
    - apply N.eqb_neq. intros H. apply Hne.
      assert (H' := f_equal eidx H). rewrite eidx_lor, C, C', N.lor_0_r in H'. exact H'.
  Qed.

  (** entry & ~n *)
  Lemma f_unsafe e : ecyc (N.ldiff e (nn cap)) = ecyc e /\ esafe (N.ldiff e (nn cap)) = false /\ eidx (N.ldiff e (nn cap)) = eidx e.
  Proof.
    rewrite nn_eq. destruct f_nn as (A' & B' & C').
    rewrite ecyc_ldiff, esafe_ldiff, eidx_ldiff, A', B', C'. rewrite !N.ldiff_0_r, andb_false_r. repeat split.
  Qed.
  Lemma unsafe_eqb e : (e =? N.ldiff e (nn cap)) = negb (esafe e).
  Proof.
    destruct (f_unsafe e) as (A & B & C). destruct (esafe e) eqn:Hs; cbn [negb].
    - apply N.eqb_neq. intros H. rewrite H in Hs. congruence.
    - apply N.eqb_eq. apply dec_inj; congruence.
  Qed.

  (** entry == entry_cycle: safe bottom;  entry == entry_cycle ^ n: unsafe bottom *)
  Lemma safe_bot_eqb e : (e =? cyc cap e) = esafe e && (eidx e =? bot).
  Proof.
    destruct (f_cyc e) as (A & B & C).
    destruct (esafe e) eqn:Hs; cbn [andb].
    - destruct (N.eqb_spec (eidx e) bot) as [He|Hne].
      + apply N.eqb_eq. apply dec_inj; congruence.
      + apply N.eqb_neq. intros H. apply Hne. rewrite H at 1. exact C.
    - apply N.eqb_neq. intros H. rewrite H in Hs. congruence.
  Qed.
  Lemma f_cyc_x e : ecyc (N.lxor (cyc cap e) (nn cap)) = ecyc e /\ esafe (N.lxor (cyc cap e) (nn cap)) = false /\
                    eidx (N.lxor (cyc cap e) (nn cap)) = bot.
  Proof.
    destruct (f_cyc e) as (A & B & C). rewrite nn_eq. destruct f_nn as (A' & B' & C').
    rewrite ecyc_lxor, esafe_lxor, eidx_lxor, A, B, C, A', B', C'. rewrite !N.lxor_0_r. repeat split.
  Qed.
  Lemma unsafe_bot_eqb e : (e =? N.lxor (cyc cap e) (nn cap)) = negb (esafe e) && (eidx e =? bot).
  Proof.
    destruct (f_cyc_x e) as (A & B & C).
    destruct (esafe e) eqn:Hs; cbn [andb negb].
    - apply N.eqb_neq. intros H. rewrite H in Hs. congruence.
    - destruct (N.eqb_spec (eidx e) bot) as [He|Hne].
      + apply N.eqb_eq. apply dec_inj; congruence.
      + apply N.eqb_neq. intros H. apply Hne. rewrite H at 1. exact C.
  Qed.

  (** the word the enqueue of the code BEFORE the repair wrote ([enq_word true]): tail_cycle ^ (idx ^ is_safe_and_value_mask),
      flag cleared; no proof uses it, [f_enq] below is the repaired code's *)
  Lemma f_pub w i : i <= bot ->
    let e := N.lxor (cyc cap w) (N.lxor i (smask cap)) in ecyc e = ecyc w /\ esafe e = false /\ eidx e = i.
  Proof.
    intros Hi. cbv zeta. destruct (f_cyc w) as (A & B & C). rewrite smask_eq. destruct f_smask as (A' & B' & C').
    destruct (f_low i Hi) as (A2 & B2 & C2).
    rewrite !ecyc_lxor, !esafe_lxor, !eidx_lxor, A, B, C, A', B', C', A2, B2, C2.
    split; [cbn; apply N.lxor_0_r|]. split; [reflexivity|].
    rewrite (N.lxor_comm i bot), <- N.lxor_assoc, N.lxor_nilpotent, N.lxor_0_l. reflexivity.
  Qed.

  (** the words of the repaired code: enqueue writes (cycle of the ticket, SAFE, index); dequeue advances an empty
      slot to (cycle of the ticket, the slot's safe bit, bottom) *)
  Lemma f_enq w i : i <= bot ->
    let e := enq_word false cap w i in ecyc e = ecyc w /\ esafe e = true /\ eidx e = i.
  Proof.
    intros Hi. cbv zeta. unfold enq_word. destruct (f_cyc w) as (A & B & C). rewrite vmask_eq.
    destruct (f_low bot ltac:(lia)) as (A' & B' & C'). fold bot. destruct (f_low i Hi) as (A2 & B2 & C2).
    rewrite !ecyc_lxor, !esafe_lxor, !eidx_lxor, A, B, C, A', B', C', A2, B2, C2.
    split; [cbn; apply N.lxor_0_r|]. split; [reflexivity|].
    rewrite (N.lxor_comm i bot), <- N.lxor_assoc, N.lxor_nilpotent, N.lxor_0_l. reflexivity.
  Qed.

  Lemma f_botw hd e :
    let e' := bot_word false cap hd e in ecyc e' = ecyc hd /\ esafe e' = esafe e /\ eidx e' = bot.
  Proof.
    cbv zeta. unfold bot_word. destruct (f_cyc hd) as (A & B & C). rewrite nn_eq. destruct f_nn as (A' & B' & C').
    rewrite ecyc_lxor, esafe_lxor, eidx_lxor, ecyc_ldiff, esafe_ldiff, eidx_ldiff, A, B, C, A', B', C'.
    rewrite !N.ldiff_0_l, !N.lxor_0_r. split; [reflexivity|split; [destruct (esafe e); reflexivity|reflexivity]].
  Qed.

  (** fetch_or(value_mask) and the value taken *)
  Lemma f_take e : ecyc (N.lor e (vmask cap)) = ecyc e /\ esafe (N.lor e (vmask cap)) = esafe e /\ eidx (N.lor e (vmask cap)) = bot.
  Proof.
    rewrite vmask_eq. destruct (f_low bot ltac:(lia)) as (A & B & C). fold bot.
    rewrite ecyc_lor, esafe_lor, eidx_lor, A, B, C. rewrite N.lor_0_r, orb_false_r. repeat split.
    unfold eidx, bot. apply lor_land_absorb.
  Qed.
  Lemma land_vmask e : N.land e (vmask cap) = eidx e.
  Proof. rewrite vmask_eq. reflexivity. Qed.

  (** * cycles and order *)
  Lemma ecyc_div e : ecyc e = e / (2 * nn cap).
  Proof.
    unfold ecyc. rewrite N.shiftr_div_pow2, nn_eq. f_equal.
    replace (k + 2) with (N.succ (k + 1)) by lia. apply N.pow_succ_r'.
  Qed.
  Lemma cyc_arith e : cyc cap e = ecyc e * (2 * nn cap) + (2 * nn cap - 1).
  Proof.
    unfold cyc. rewrite smask_eq, lor_ones_arith, ecyc_div, nn_eq.
    replace (2 * 2 ^ (k + 1)) with (2 ^ (k + 2)) by (replace (k + 2) with (N.succ (k + 1)) by lia; apply N.pow_succ_r').
    rewrite pow2_pred_ones. reflexivity.
  Qed.

  Lemma M_CB : 2 * nn cap * CB = 2 ^ 62.
  Proof.
    rewrite nn_eq. unfold CB. replace (2 * 2 ^ (k + 1)) with (2 ^ (k + 2)) by (replace (k + 2) with (N.succ (k + 1)) by lia; apply N.pow_succ_r').
    rewrite <- N.pow_add_r. f_equal. lia.
  Qed.
  Lemma M_cmax : 2 * nn cap * cmax + 2 * nn cap = 2 ^ 64.
  Proof.
    rewrite nn_eq. unfold cmax. replace (2 * 2 ^ (k + 1)) with (2 ^ (k + 2)) by (replace (k + 2) with (N.succ (k + 1)) by lia; apply N.pow_succ_r').
    assert (Hp := pow2_pos (62 - k)).
    replace (2 ^ (k + 2) * (2 ^ (62 - k) - 1) + 2 ^ (k + 2)) with (2 ^ (k + 2) * 2 ^ (62 - k)) by nia.
    rewrite <- N.pow_add_r. f_equal. lia.
  Qed.
  Lemma CB_lt_cmax : CB <= cmax.
  Proof.
    unfold CB, cmax. replace (62 - k) with (N.succ (N.succ (60 - k))) by lia. rewrite !N.pow_succ_r'.
    assert (Hp := pow2_pos (60 - k)). lia.
  Qed.
  Lemma nn_pos : 0 < nn cap. Proof. rewrite nn_eq. apply pow2_pos. Qed.

  (** the cycle field of a counter below 2^62 is below CB *)
  Lemma ecyc_ctr w : w < 2 ^ 62 -> ecyc w < CB.
  Proof.
    intros Hw. rewrite ecyc_div. apply N.div_lt_upper_bound; [assert (H := nn_pos); lia|]. rewrite M_CB. exact Hw.
  Qed.

  (** "the cycle of entry e is before cycle c" as the code decides it: the initial entries (all ones) are
      before every cycle *)
  Definition clt (e c : N) : bool := (ecyc e =? cmax) || (ecyc e <? c).

  Lemma ecyc_ones64 : ecyc ones64 = cmax.
  Proof.
    rewrite ecyc_div. assert (H := M_cmax). assert (Hn := nn_pos).
    change ones64 with (2 ^ 64 - 1). rewrite <- H.
    replace (2 * nn cap * cmax + 2 * nn cap - 1) with (cmax * (2 * nn cap) + (2 * nn cap - 1)) by lia.
    rewrite N.div_add_l by lia. rewrite N.div_small by lia. lia.
  Qed.
  Lemma eidx_ones64 : eidx ones64 = bot.
  Proof.
    unfold eidx, bot. change ones64 with (N.ones 64). apply N.bits_inj. intros i.
    rewrite N.land_spec, !testbit_ones_lt. destruct (N.ltb_spec i 64), (N.ltb_spec i (k + 1)); try reflexivity; lia.
  Qed.

  Lemma cyc_lt_diff e w : ecyc e < CB \/ ecyc e = cmax -> w < 2 ^ 62 ->
    lt0 (diff (cyc cap e) (cyc cap w)) = clt e (ecyc w).
  Proof.
    intros He Hw. assert (Hcw := ecyc_ctr w Hw). rewrite !cyc_arith. unfold clt.
    assert (HM := M_CB). assert (HX := M_cmax). assert (Hn := nn_pos). assert (Hcc := CB_lt_cmax).
    set (M := 2 * nn cap) in *. set (ce := ecyc e) in *. set (cw := ecyc w) in *.
    pose proof lit64 as E64.
    pose proof lit63 as E63.
    pose proof lit62 as E62.
    assert (Hb : cw * M + (M - 1) < 2 ^ 62) by nia.
    destruct He as [He|He].
    - destruct (N.eqb_spec ce cmax) as [Hx|_]; [lia|]. cbn [orb].
      assert (Ha : ce * M + (M - 1) < 2 ^ 62) by nia.
      rewrite diff_lt0 by assumption.
      destruct (N.ltb_spec ce cw), (N.ltb_spec (ce * M + (M - 1)) (cw * M + (M - 1))); try reflexivity; nia.
    - rewrite He, N.eqb_refl. cbn [orb].
      unfold lt0. rewrite slt_neg_iff by apply wsub_lt. unfold diff.
      replace (cmax * M + (M - 1)) with (2 ^ 64 - 1) by lia.
      rewrite wsub_small by lia. apply N.leb_le. lia.
  Qed.

  (** * tickets: counter word w = 2T; position T mod n, cycle T / n *)
  Lemma ecyc_tick T : ecyc (2 * T) = T / nn cap.
  Proof.
    rewrite ecyc_div. assert (H := nn_pos). rewrite <- N.div_div by lia.
    rewrite (N.mul_comm 2 T), N.div_mul by lia. reflexivity.
  Qed.

  Lemma phys_tick T : phys cap (2 * T) = phys cap (2 * (T mod nn cap)).
  Proof.
    unfold phys. rewrite nn_eq.
    rewrite (remap_index_pos_only (2 * T)) by lia. rewrite (N.mul_comm 2 T), N.div_mul by lia. reflexivity.
  Qed.

  Lemma phys_inj T T' : phys cap (2 * T) = phys cap (2 * T') -> T mod nn cap = T' mod nn cap.
  Proof.
    rewrite (phys_tick T), (phys_tick T'). unfold phys. rewrite shift_eq, nn_eq. intros H.
    apply (remap_index_inj (k + 1)) in H; [exact H|lia| |]; apply N.mod_lt, pow2_nz.
  Qed.

  Lemma phys_same T T' : T mod nn cap = T' mod nn cap -> phys cap (2 * T) = phys cap (2 * T').
  Proof. intros H. rewrite (phys_tick T), (phys_tick T'), H. reflexivity. Qed.

  (** same slot and same cycle: same ticket *)
  Lemma tick_eq T T' : T mod nn cap = T' mod nn cap -> T / nn cap = T' / nn cap -> T = T'.
  Proof.
    intros Hm Hd. assert (Hn := nn_pos).
    rewrite (N.div_mod T (nn cap)), (N.div_mod T' (nn cap)) by lia. rewrite Hm, Hd. reflexivity.
  Qed.

  Lemma slot_cycle_ticket T T' : phys cap (2 * T) = phys cap (2 * T') -> ecyc (2 * T) = ecyc (2 * T') -> T = T'.
  Proof. rewrite !ecyc_tick. intros H1 H2. apply tick_eq; [apply phys_inj; exact H1|exact H2]. Qed.

  (** * threshold words *)
  Definition thr_ok (t : N) : Prop := t < 3 * cap \/ (2 ^ 64 - 2 ^ 62 <= t < 2 ^ 64).
  Lemma cap3_small : 3 * cap < 2 ^ 62.
  Proof.
    assert (H : cap <= 2 ^ 40) by (apply N.pow_le_mono_r; lia).
    assert (E40 : 2 ^ 40 = 1099511627776) by reflexivity.
    pose proof lit62 as E62. lia.
  Qed.
  Lemma thr_lt0 t : thr_ok t -> lt0 t = (2 ^ 63 <=? t).
  Proof.
    intros H. unfold lt0. apply slt_neg_iff. assert (Hc := cap3_small).
    pose proof lit64 as E64.
    pose proof lit62 as E62. destruct H; lia.
  Qed.
  Lemma thr_sle0 t : thr_ok t -> sle 64 t 0 = (t =? 0) || (2 ^ 63 <=? t).
  Proof.
    intros H. assert (Hc := cap3_small).
    pose proof lit64 as E64.
    pose proof lit63 as E63.
    pose proof lit62 as E62.
    assert (Ht : t < 2 ^ 64) by (destruct H; lia).
    unfold sle, sval. change (64 - 1) with 63. change (0 <? 2 ^ 63) with true. cbv iota.
    destruct (N.ltb_spec t (2 ^ 63)), (N.eqb_spec t 0), (N.leb_spec (2 ^ 63) t); cbn [orb]; try lia;
      try (apply Z.leb_le; rewrite ?E64 in *; lia); try (apply Z.leb_gt; lia).
  Qed.
  Lemma thr_dec t : thr_ok t -> wsub 64 t 1 = if t =? 0 then ones64 else t - 1.
  Proof.
    intros H. assert (Hc := cap3_small).
    pose proof lit64 as E64.
    pose proof lit62 as E62.
    destruct (N.eqb_spec t 0) as [->|Hnz]; [reflexivity|].
    apply wsub_small; destruct H; lia.
  Qed.
End Fields.
