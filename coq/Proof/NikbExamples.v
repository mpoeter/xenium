(** nikolaev_bounded_queue model: executable examples (run + vm_compute).

    The [_refuted] lemmas are about [step_old] = the code BEFORE the repair of nikolaev_scq (repository commit
    ccd976e): they document the repaired defect.  The schedules [lost_acts] / [full_acts] were replayed line by
    line by the unrepaired code (harness h_vyu, cfg q=nikb cap=2 elem=int retries=0), which reported "value 7 was
    accepted but never returned (lost)".  [repaired_acts] is the same interleaving on the repaired code ([step]). *)
From Coq Require Import NArith List Bool Lia PeanoNat.
From XV Require Import Base.Word Conc.Lts Conc.Ev Conc.Solo gen.ScqGen Model.NikbDefs Proof.NikbSafe.
Import ListNotations.
Local Open Scope N_scope.

Definition steps (t : nat) (n : nat) : list action := repeat (Step t) n.
(** thread t starts operation o and takes n steps (the first one emits the invocation) *)
Definition opn (t : nat) (o : op) (n : nat) : list action := Start t o :: steps t n.
Definition st_of (cap R : N) (acts : list action) : state := fst (fst (run (step cap R) (init cap) acts)).
Definition tr_of (cap R : N) (acts : list action) : list ev := snd (fst (run (step cap R) (init cap) acts)).
Definition sk_of (cap R : N) (acts : list action) : nat := snd (run (step cap R) (init cap) acts).
(** the same for the code before the repair *)
Definition st_old (cap R : N) (acts : list action) : state := fst (fst (run (step_old cap R) (init cap) acts)).
Definition tr_old (cap R : N) (acts : list action) : list ev := snd (fst (run (step_old cap R) (init cap) acts)).
Definition sk_old (cap R : N) (acts : list action) : nat := snd (run (step_old cap R) (init cap) acts).
(** the results in the order of the returns: (thread, result) *)
Definition rets (tr : list ev) : list (N * list N) :=
  flat_map (fun e => match e with ERet t r => [(N.of_nat t, r)] | _ => [] end) tr.
Definition pop := OPop false.

(** [coqchk] replays every [vm_compute] with the kernel's lazy machine, one conversion at a time, and shares work only
    inside one conversion: so the run of a schedule is named, to stand in the goal as one term, and the whole goal is
    normalised at once.  What is left are equations between normal forms, and "every thread is idle", by cases on the
    thread number (the schedules use threads 1 to 8). *)
Ltac run_once stp acts :=
  set (r := run stp (init 2) acts); vm_compute; repeat split; try reflexivity;
  intros t; do 9 (destruct t as [|t]; [reflexivity|]); reflexivity.

(** the trace of a run in two parts *)
Lemma run_app_tr {S A E} (stp : S -> A -> option (S * list E)) l1 : forall l2 s,
  snd (fst (run stp s (l1 ++ l2))) = snd (fst (run stp s l1)) ++ snd (fst (run stp (fst (fst (run stp s l1))) l2)).
Proof.
  induction l1 as [|a l1 IH]; intros l2 s; cbn [run app]; [reflexivity|].
  destruct (stp s a) as [[s1 es]|]; [specialize (IH l2 s1)|specialize (IH l2 s)];
    destruct (run stp _ (l1 ++ l2)) as [[sf tr] sk], (run stp _ l1) as [[sf' tr'] sk']; cbn [fst snd] in *;
    rewrite IH, ?app_assoc; reflexivity.
Qed.
Lemma rets_app a b : rets (a ++ b) = rets a ++ rets b.
Proof. apply flat_map_app. Qed.

(** * BEFORE THE REPAIR: a pushed value is lost (capacity 2, 4 threads, pop_retries 0).
    Allocated ring, n = 4 slots, slot 0:
    - T1 pushes 100 (ticket 0, slot 0), then starts a pop, takes dequeue ticket 0 and stops;
    - T2 pushes / pops 1, 2, 3 (tickets 1, 2, 3); its push of 4 finds slot 0 occupied (ticket 4 skipped), uses ticket 5;
    - T3 starts a pop, takes dequeue ticket 4 (slot 0) and stops;
    - T2 pops 4, pushes / pops 5, 6 (tickets 6, 7), starts push 7 and takes ENQUEUE ticket 8 (slot 0), stops;
    - T4 pops: dequeue ticket 8 (slot 0) sees the old entry of ticket 0, gives ticket 8 up: 'empty';
    - T1 finishes: takes index 0 (value 100) out of slot 0, which becomes (cycle 0, UNSAFE, bottom);
    - T3 finishes: dequeue ticket 4 advances slot 0 to (cycle 1, SAFE, bottom)  [entry_new = head_cycle
      sets the safe bit again; the SCQ algorithm keeps IsSafe here], then 'empty';
    - T2 finishes: enqueue ticket 8 finds a SAFE bottom entry of an older cycle and publishes its index
      there without looking at head -- although dequeue ticket 8 was given up long ago: push 7 returns true.
    Nothing is in progress any more; every later pop answers 'empty'; value 7 and storage index 1 are
    never seen again. *)
Definition lost_acts : list action :=
  opn 1 (OPush 100) 10 ++ opn 1 pop 3 ++
  opn 2 (OPush 1) 9 ++ opn 2 pop 9 ++ opn 2 (OPush 2) 9 ++ opn 2 pop 9 ++ opn 2 (OPush 3) 9 ++ opn 2 pop 9 ++
  opn 2 (OPush 4) 12 ++
  opn 3 pop 3 ++
  opn 2 pop 9 ++ opn 2 (OPush 5) 10 ++ opn 2 pop 10 ++ opn 2 (OPush 6) 10 ++ opn 2 pop 10 ++ opn 2 (OPush 7) 6 ++
  opn 4 pop 7 ++
  steps 1 7 ++ steps 3 12 ++ steps 2 4.

Definition lost_after : list action := opn 4 pop 9 ++ opn 3 pop 9 ++ opn 1 pop 7.

(** everything the lemmas below need of the run of [lost_acts] and of the three pops after it, in one evaluation: the
    facts of [lost_state], and the pops from that state (with a check of every state they pass through) *)
Fixpoint states_along (stp : state -> action -> option (state * list ev)) (s : state) (acts : list action) : list state :=
  s :: match acts with
       | [] => []
       | a :: r => match stp s a with Some (s', _) => states_along stp s' r | None => states_along stp s r end
       end.

Fixpoint leqb (a b : list (N * N)) : bool :=
  match a, b with
  | [], [] => true
  | (x, y) :: a', (x', y') :: b' => (x =? x') && (y =? y') && leqb a' b'
  | _, _ => false
  end.
Lemma leqb_eq a : forall b, leqb a b = true -> a = b.
Proof.
  induction a as [|[x y] a IH]; intros [|[x' y'] b]; cbn [leqb]; try discriminate; [reflexivity|].
  intros H. apply andb_true_iff in H. destruct H as [H H3]. apply andb_true_iff in H. destruct H as [H1 H2].
  apply N.eqb_eq in H1. apply N.eqb_eq in H2. subst. f_equal. apply IH. exact H3.
Qed.

Lemma lost_eval :
  let r0 := run (step_old 2 0) (init 2) lost_acts in
  let st := fst (fst r0) in
  let r := run (step_old 2 0) st lost_after in
  (snd r0 = 0%nat /\
   rets (snd (fst r0)) = [(1, [1]); (2, [1]); (2, [1; 1]); (2, [1]); (2, [1; 2]); (2, [1]); (2, [1; 3]); (2, [1]); (2, [1; 4]);
                          (2, [1]); (2, [1; 5]); (2, [1]); (2, [1; 6]); (4, [3]); (1, [1; 100]); (3, [3]); (2, [1])] /\
   g_ovf st = false /\ (forall t, th st t = Idle) /\
   g_ok st = [(0, 100); (1, 1); (2, 2); (3, 3); (5, 4); (6, 5); (7, 6); (8, 7)] /\
   g_in st = g_ok st /\
   g_ret st = [(1, 1); (2, 2); (3, 3); (5, 4); (6, 5); (7, 6); (0, 100)] /\
   g_out st = [(1, 1); (2, 2); (3, 3); (5, 4); (6, 5); (7, 6); (0, 100)] /\
   g_eq (ra st) 8 = EPub 1 /\ g_dq (ra st) 8 = DLeft /\ g_own st 1 = OFull 8 /\ store st 1 = 7 /\
   rhead (ra st) = 20 /\ rtail (ra st) = 20 /\ rdata (ra st) (phys 2 16) = 17 /\ rthr (ra st) = 5) /\
  (snd r = 0%nat /\ rets (snd (fst r)) = [(4, [3]); (3, [3]); (1, [3])] /\ g_ovf (fst (fst r)) = false) /\
  forallb (fun s => match g_own s 1, g_eq (ra s) 8 with
                    | OFull T, EPub i => (T =? 8) && (i =? 1) && (store s 1 =? 7) && leqb (g_out s) (g_out st)
                    | _, _ => false end)
          (states_along (step_old 2 0) st lost_after) = true.
Proof. vm_compute. repeat split; try reflexivity. intros t; do 5 (destruct t as [|t]; [reflexivity|]); reflexivity. Qed.

Example lost_rets :
  rets (tr_old 2 0 (lost_acts ++ lost_after)) =
  [(1, [1]); (2, [1]); (2, [1; 1]); (2, [1]); (2, [1; 2]); (2, [1]); (2, [1; 3]); (2, [1]);
   (2, [1; 4]); (2, [1]); (2, [1; 5]); (2, [1]); (2, [1; 6]);
   (4, [3]); (1, [1; 100]); (3, [3]); (2, [1]);
   (4, [3]); (3, [3]); (1, [3])].
Proof.
  unfold tr_old. rewrite run_app_tr, rets_app.
  destruct lost_eval as ((_ & Er & _) & (_ & Er' & _) & _). rewrite Er, Er'. reflexivity.
Qed.


(** the state after [lost_acts]: no operation in progress, no counter wrapped, push 7 returned true
    (ticket 8 of the allocated ring), its index (1) is in the allocated ring, its value is in the cell,
    the dequeue ticket 8 was given up (by T4, before the index was published there), head is beyond it *)
Example lost_state :
  let st := st_old 2 0 lost_acts in
  sk_old 2 0 lost_acts = 0%nat /\ g_ovf st = false /\ (forall t, th st t = Idle) /\
  g_ok st = [(0, 100); (1, 1); (2, 2); (3, 3); (5, 4); (6, 5); (7, 6); (8, 7)] /\
  g_in st = g_ok st /\
  g_ret st = [(1, 1); (2, 2); (3, 3); (5, 4); (6, 5); (7, 6); (0, 100)] /\
  g_out st = [(1, 1); (2, 2); (3, 3); (5, 4); (6, 5); (7, 6); (0, 100)] /\
  g_eq (ra st) 8 = EPub 1 /\ g_dq (ra st) 8 = DLeft /\ g_own st 1 = OFull 8 /\ store st 1 = 7 /\
  rhead (ra st) = 20 /\ rtail (ra st) = 20 /\ rdata (ra st) (phys 2 16) = 17 /\ rthr (ra st) = 5.
Proof. destruct lost_eval as ((E0 & _ & E) & _). exact (conj E0 E). Qed.

(** "no index published in a ring is stranded" -- FALSE for the code before the repair
    (TRUE for the repaired code: Proof/NikbSafe.v) *)
Lemma nikb_never_stranded_refuted :
  ~ (forall st, reach (init 2) (step_old 2 0) st -> g_ovf st = false -> forall T, ~ stranded (ra st) T).
Proof.
  intros H. destruct lost_state as (_ & Hovf & _ & _ & _ & _ & _ & Heq & Hdq & _).
  apply (H (st_old 2 0 lost_acts) (run_reach _ _ _ _ _ _) Hovf 8). exists 1. split; assumption.
Qed.

(** FULL statement of the C05 'empty' verdict on the model -- FALSE: from the quiescent state after
    [lost_acts] (value 7 accepted, never taken out) every one of the following pops, running alone, answers
    'empty' ([3]); the allocated ring holds index 1 with value 7 in every state of these calls. *)
Lemma nikb_empty_verdict_refuted :
  let s1 := st_old 2 0 lost_acts in
  let r := run (step_old 2 0) s1 lost_after in
  reach (init 2) (step_old 2 0) s1 /\ (forall t, th s1 t = Idle) /\ In (8, 7) (g_ok s1) /\ ~ In (8, 7) (g_out s1) /\
  snd r = 0%nat /\ rets (snd (fst r)) = [(4, [3]); (3, [3]); (1, [3])] /\ g_ovf (fst (fst r)) = false /\
  (forall s, In s (states_along (step_old 2 0) s1 lost_after) ->
     g_own s 1 = OFull 8 /\ store s 1 = 7 /\ g_eq (ra s) 8 = EPub 1 /\ g_out s = g_out s1).
Proof.
  unfold st_old. destruct lost_eval as ((_ & _ & _ & Hidle & Hok & _ & _ & Hout & _) & E & Hall).
  split; [apply run_reach|]. split; [exact Hidle|].
  rewrite Hok, Hout. split; [cbn; tauto|]. split; [cbn; intuition discriminate|]. rewrite <- Hout.
  destruct E as (E1 & E2 & E3). repeat (split; [assumption|]).
  intros s Hs. apply (proj1 (forallb_forall _ _) Hall) in Hs.
  destruct (g_own s 1) as [|?|T|?], (g_eq (ra s) 8) as [|?|i|]; try discriminate Hs.
  apply andb_true_iff in Hs. destruct Hs as [Hs H4]. apply andb_true_iff in Hs. destruct Hs as [Hs H3].
  apply andb_true_iff in Hs. destruct Hs as [H1 H2]. apply N.eqb_eq in H1, H2, H3. apply leqb_eq in H4.
  rewrite H1, H2, H3, H4. repeat split.
Qed.

(** * BEFORE THE REPAIR: 'full' although only one of two cells is in use and nothing is in progress (capacity 2, 4 threads).
    The same interleaving on the FREE ring (dequeuers = try_push, enqueuers = try_pop): T1 (push 100) holds free
    ticket 0 and stops, T2 cycles the other index, T3 (push 200) takes free ticket 4 and stops, T2's last pop
    takes free ENQUEUE ticket 8 and stops, T4's push gives dequeue ticket 8 up ('full', legitimately); then T1
    finishes (100 is in the queue), T3 finishes ('full', legitimately: index 1 is still held by T2's pop), T2
    finishes: index 1 is published at free ticket 8 whose dequeue ticket was given up.  From now on the queue
    behaves like a queue of capacity 1: replayed line by line by the real code. *)
Definition full_acts : list action :=
  opn 1 (OPush 100) 3 ++
  opn 2 (OPush 1) 10 ++ opn 2 pop 9 ++ opn 2 (OPush 2) 9 ++ opn 2 pop 9 ++ opn 2 (OPush 3) 9 ++ opn 2 pop 11 ++
  opn 3 (OPush 200) 3 ++
  opn 2 (OPush 4) 9 ++ opn 2 pop 10 ++ opn 2 (OPush 5) 10 ++ opn 2 pop 10 ++ opn 2 (OPush 6) 10 ++ opn 2 pop 6 ++
  opn 4 (OPush 300) 8 ++
  steps 1 7 ++ steps 3 12 ++ steps 2 4.
Definition full_after : list action :=
  opn 4 (OPush 400) 9 ++ opn 4 pop 11 ++ opn 4 (OPush 500) 10 ++ opn 4 (OPush 600) 7.

Lemma full_eval :
  let r0 := run (step_old 2 0) (init 2) full_acts in
  let st := fst (fst r0) in
  let r := run (step_old 2 0) st full_after in
  (snd r0 = 0%nat /\ g_ovf st = false /\ (forall t, th st t = Idle) /\
   map snd (g_in st) = [1; 2; 3; 4; 5; 6; 100] /\ map snd (g_out st) = [1; 2; 3; 4; 5; 6] /\
   g_own st 0 = OFull 6 /\ store st 0 = 100 /\
   g_own st 1 = OFree 8 /\ g_eq (rf st) 8 = EPub 1 /\ g_dq (rf st) 8 = DLeft /\ rhead (rf st) = 20 /\ rtail (rf st) = 20) /\
  snd r = 0%nat /\ rets (snd (fst r)) = [(4, [0]); (4, [1; 100]); (4, [1]); (4, [0])] /\ g_ovf (fst (fst r)) = false.
Proof. vm_compute. repeat split; try reflexivity. intros t; do 5 (destruct t as [|t]; [reflexivity|]); reflexivity. Qed.

Example full_state :
  let st := st_old 2 0 full_acts in
  sk_old 2 0 full_acts = 0%nat /\ g_ovf st = false /\ (forall t, th st t = Idle) /\
  map snd (g_in st) = [1; 2; 3; 4; 5; 6; 100] /\ map snd (g_out st) = [1; 2; 3; 4; 5; 6] /\
  g_own st 0 = OFull 6 /\ store st 0 = 100 /\
  g_own st 1 = OFree 8 /\ g_eq (rf st) 8 = EPub 1 /\ g_dq (rf st) 8 = DLeft /\ rhead (rf st) = 20 /\ rtail (rf st) = 20.
Proof. exact (proj1 full_eval). Qed.

(** FULL statement of the C05 'full' verdict on the model -- FALSE: in the quiescent state after [full_acts]
    one value (100) is in the queue of capacity 2, no operation is in progress, and try_push answers 'full';
    after that value is popped the queue accepts ONE value and is 'full' again *)
Lemma nikb_full_verdict_refuted :
  let s1 := st_old 2 0 full_acts in
  let r := run (step_old 2 0) s1 full_after in
  reach (init 2) (step_old 2 0) s1 /\ (forall t, th s1 t = Idle) /\ g_ovf s1 = false /\
  length (g_in s1) = 7%nat /\ length (g_out s1) = 6%nat /\
  snd r = 0%nat /\ rets (snd (fst r)) = [(4, [0]); (4, [1; 100]); (4, [1]); (4, [0])] /\ g_ovf (fst (fst r)) = false /\
  stranded (rf s1) 8.
Proof.
  unfold st_old. destruct full_eval as ((_ & Hovf & Hidle & Hin & Hout & _ & _ & _ & Heq & Hdq & _) & E).
  split; [apply run_reach|]. split; [exact Hidle|]. split; [exact Hovf|].
  apply (f_equal (@length N)) in Hin, Hout. rewrite map_length in Hin, Hout.
  split; [exact Hin|]. split; [exact Hout|]. destruct E as (E1 & E2 & E3). repeat (split; [assumption|]).
  exists 1. split; assumption.
Qed.

(** * AFTER THE REPAIR: the interleaving of [lost_acts] on the repaired code.  T2's push 7 holds enqueue ticket 8 and
    finds slot 0 = (cycle 1, UNSAFE, bottom) -- T3's delayed dequeue ticket 4 kept the flag --, loads head (beyond its
    ticket), gives ticket 8 up and publishes with ticket 10; the next pop returns 7.  Replayed line by line by the
    repaired code. *)
Definition repaired_acts : list action :=
  opn 1 (OPush 100) 10 ++ opn 1 pop 3 ++
  opn 2 (OPush 1) 9 ++ opn 2 pop 9 ++ opn 2 (OPush 2) 9 ++ opn 2 pop 9 ++ opn 2 (OPush 3) 9 ++ opn 2 pop 9 ++
  opn 2 (OPush 4) 11 ++
  opn 3 pop 3 ++
  opn 2 pop 9 ++ opn 2 (OPush 5) 9 ++ opn 2 pop 9 ++ opn 2 (OPush 6) 9 ++ opn 2 pop 9 ++ opn 2 (OPush 7) 6 ++
  opn 4 pop 8 ++
  steps 1 6 ++ steps 3 12 ++ steps 2 7 ++ opn 4 pop 9 ++ opn 4 pop 9.

Example repaired_run :
  let st := st_of 2 0 repaired_acts in
  sk_of 2 0 repaired_acts = 0%nat /\ g_ovf st = false /\
  rets (tr_of 2 0 repaired_acts) =
    [(1, [1]); (2, [1]); (2, [1; 1]); (2, [1]); (2, [1; 2]); (2, [1]); (2, [1; 3]); (2, [1]); (2, [1; 4]);
     (2, [1]); (2, [1; 5]); (2, [1]); (2, [1; 6]); (4, [3]); (1, [1; 100]); (3, [3]); (2, [1]); (4, [1; 7]); (4, [3])] /\
  g_eq (ra st) 8 = ESkip /\ g_dq (ra st) 8 = DLeft /\ g_eq (ra st) 10 = EPub 1 /\ g_dq (ra st) 10 = DTaken 1 /\
  g_in st = g_ok st /\ g_ret st = g_out st /\ length (g_in st) = 8%nat /\ length (g_out st) = 8%nat.
Proof. unfold st_of, sk_of, tr_of. run_once (step 2 0) repaired_acts. Qed.

(** * ordinary runs *)

(** one thread, capacity 2: the threshold of the allocated ring counts the failing pops down from 3*2-1 = 5 to -1,
    then try_pop answers 'empty' after a single load; the third push finds the free ring empty: 'full' *)
Definition thr_acts : list action :=
  opn 1 (OPush 7) 10 ++ opn 1 pop 9 ++
  opn 1 pop 9 ++ opn 1 pop 9 ++ opn 1 pop 9 ++ opn 1 pop 9 ++ opn 1 pop 9 ++ opn 1 pop 9 ++ opn 1 pop 2 ++
  opn 1 (OPush 8) 10 ++ opn 1 (OPush 9) 9 ++ opn 1 (OPush 10) 9 ++ opn 1 pop 10.

Example thr_run :
  sk_of 2 0 thr_acts = 0%nat /\
  rets (tr_of 2 0 thr_acts) =
    [(1, [1]); (1, [1; 7]); (1, [3]); (1, [3]); (1, [3]); (1, [3]); (1, [3]); (1, [3]); (1, [3]);
     (1, [1]); (1, [1]); (1, [0]); (1, [1; 8])] /\
  rthr (ra (st_of 2 0 (firstn 81 thr_acts))) = ones64 /\            (* after the sixth failing pop: -1 *)
  g_ovf (st_of 2 0 thr_acts) = false.
Proof. unfold st_of, sk_of, tr_of. run_once (step 2 0) thr_acts. Qed.

(** a dequeuer overtakes an enqueuer: T1's push holds enqueue ticket 1 of the allocated ring and stops; T2's pop
    takes dequeue ticket 1, finds the slot empty, advances it to its own cycle (entry marked), sees tail <= head,
    runs catchup and answers 'empty'; T1 finds the slot in its own cycle, gives ticket 1 up, takes ticket 2 *)
Definition overtake_acts : list action :=
  opn 1 (OPush 7) 10 ++ opn 1 pop 9 ++ opn 1 (OPush 8) 6 ++ opn 2 pop 9 ++ steps 1 6.

Example overtake_run :
  let st := st_of 2 0 overtake_acts in
  sk_of 2 0 overtake_acts = 0%nat /\ rets (tr_of 2 0 overtake_acts) = [(1, [1]); (1, [1; 7]); (2, [3]); (1, [1])] /\
  g_eq (ra st) 1 = ESkip /\ g_dq (ra st) 1 = DLeft /\ g_eq (ra st) 2 = EPub 1 /\ g_dq (ra st) 2 = DNone /\
  g_in st = [(0, 7); (2, 8)] /\ g_out st = [(0, 7)] /\ g_own st 1 = OFull 2 /\ store st 1 = 8 /\
  rhead (ra st) = 4 /\ rtail (ra st) = 6 /\ g_ovf st = false.
Proof. unfold st_of, sk_of, tr_of. run_once (step 2 0) overtake_acts. Qed.

(** * REPAIRED CODE: the threshold answers are not exact when 3*capacity or more dequeuers are delayed.
    Capacity 2 (threshold 3*2-1 = 5), 8 threads: T1 pushes and pops 1 (threshold 5); T2..T7 each start a pop on the
    empty queue, fail, run catchup and stop right before their threshold decrement; T1 pushes 7 (published with ticket
    7, head = tail = 14 words before, threshold still 5, nothing to reset); then the six delayed decrements bring the
    threshold to -1 and every later try_pop answers 'empty' after a single load -- although 7 is in the queue, nothing
    is in progress and its dequeue ticket has not even been handed out.  (The next push would reset the threshold and
    the value would be found.)  This is the behaviour of the SCQ algorithm itself, which assumes a bound on the number of
    threads; replayed line by line by the repaired code. *)
Definition thr8_acts : list action :=
  opn 1 (OPush 1) 10 ++ opn 1 pop 9 ++
  opn 2 pop 8 ++ opn 3 pop 8 ++ opn 4 pop 8 ++ opn 5 pop 8 ++ opn 6 pop 8 ++ opn 7 pop 8 ++
  opn 1 (OPush 7) 9 ++
  steps 2 1 ++ steps 3 1 ++ steps 4 1 ++ steps 5 1 ++ steps 6 1 ++ steps 7 1.

Lemma nikb_threshold_empty_refuted :
  let s1 := st_of 2 0 thr8_acts in
  let r := run (step 2 0) s1 (opn 8 pop 2 ++ opn 8 pop 2) in
  reach (init 2) (step 2 0) s1 /\ sk_of 2 0 thr8_acts = 0%nat /\ g_ovf s1 = false /\ (forall t, th s1 t = Idle) /\
  g_ok s1 = [(0, 1); (7, 7)] /\ g_out s1 = [(0, 1)] /\
  g_eq (ra s1) 7 = EPub 1 /\ g_dq (ra s1) 7 = DNone /\ rhead (ra s1) = 14 /\ rtail (ra s1) = 16 /\ rthr (ra s1) = ones64 /\
  snd r = 0%nat /\ rets (snd (fst r)) = [(8, [3]); (8, [3])].
Proof.
  unfold st_of, sk_of. split; [apply run_reach|]. run_once (step 2 0) thr8_acts.
Qed.
